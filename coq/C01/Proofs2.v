(* C01 proofs, part 2: framing (questions, records, sections, iterators) and
   the message-level accessors are total. *)
From Coq Require Import NArith List Bool Lia.
From DV Require Import Base.Outcome Base.Bytes Base.Names Base.PName C01.Gen C01.Model C01.Proofs.
Import ListNotations.
Local Open Scope N_scope.

Definition item_ok {A} (P : A -> Prop) (it : item A) : Prop :=
  match it with IOk a => P a | IErr _ => True end.

(* sat x P: x is neither a panic nor a fuel exhaustion, and if it is a value
   the value satisfies P *)
Definition sat {A} (x : outcome A) (P : A -> Prop) : Prop :=
  match x with Ok a => P a | Err _ => True | Panic _ => False | OutOfFuel => False end.

Lemma sat_bind {A B} (x : outcome A) (f : A -> outcome B) (P : A -> Prop) (Q : B -> Prop) :
  sat x P -> (forall a, P a -> sat (f a) Q) -> sat (bind x f) Q.
Proof. destruct x; cbn [sat bind]; auto; contradiction. Qed.

Lemma sat_weaken {A} (x : outcome A) (P Q : A -> Prop) :
  sat x P -> (forall a, P a -> Q a) -> sat x Q.
Proof. destruct x; cbn [sat]; auto. Qed.

Lemma sat_no_panic {A} (x : outcome A) P : sat x P -> no_panic x.
Proof. destruct x; cbn [sat no_panic]; auto. Qed.

Lemma no_panic_sat {A} (x : outcome A) : no_panic x -> sat x (fun _ => True).
Proof. destruct x; cbn [sat no_panic]; auto. Qed.

Lemma sat_ok {A} (x : outcome A) P a : sat x P -> x = Ok a -> P a.
Proof. intros H E. rewrite E in H. exact H. Qed.

Lemma sat_and {A} (x : outcome A) P Q : sat x P -> sat x Q -> sat x (fun a => P a /\ Q a).
Proof. destruct x; cbn [sat]; auto. Qed.

(* a parsed name that the unchecked iterator can walk *)
Definition good_name (m : bytes) (p : pname) : Prop :=
  exists ls, pname_labels m p = Ok (ls, true).

Lemma parse_ref_sat m pos lim : lim <= mlen m ->
  sat (parse_ref m pos lim) (good_name m).
Proof.
  intros Hl. pose proof (parse_ref_total m pos lim Hl) as Ht.
  destruct (parse_ref m pos lim) as [p| | |] eqn:E; cbn [sat no_panic] in *; auto.
  destruct (parse_ref_walk m pos lim p E Hl) as (ls & Hw & Hlen & H255).
  exists ls. apply pname_labels_walk; assumption.
Qed.

Lemma u16_at_sat m pos lim : lim <= mlen m ->
  sat (u16_at m pos lim) (fun _ => pos + 2 <= lim).
Proof.
  intros Hl. unfold u16_at.
  destruct (N.ltb_spec (lim - pos) 2) as [H|H]; [exact I|].
  destruct (get_some m pos) as [a Ha]; [lia|].
  destruct (get_some m (pos + 1)) as [b Hb]; [lia|].
  rewrite Ha, Hb. cbn [sat]. lia.
Qed.

Lemma u16_at_ok m pos lim v : u16_at m pos lim = Ok v -> pos + 2 <= lim.
Proof.
  unfold u16_at. destruct (N.ltb_spec (lim - pos) 2) as [H|H]; [discriminate|]. intros _. lia.
Qed.

Lemma u32_at_sat m pos lim : lim <= mlen m ->
  sat (u32_at m pos lim) (fun _ => pos + 4 <= lim).
Proof.
  intros Hl. unfold u32_at.
  destruct (N.ltb_spec (lim - pos) 4) as [H|H]; [exact I|].
  destruct (get_some m pos) as [a Ha]; [lia|].
  destruct (get_some m (pos + 1)) as [b Hb]; [lia|].
  destruct (get_some m (pos + 2)) as [c Hc]; [lia|].
  destruct (get_some m (pos + 3)) as [d Hd]; [lia|].
  rewrite Ha, Hb, Hc, Hd. cbn [sat]. lia.
Qed.

Lemma count_at_ok m off : off + 2 <= mlen m -> exists c, count_at m off = Ok c.
Proof.
  intros H. unfold count_at.
  destruct (get_some m off) as [a Ha]; [lia|].
  destruct (get_some m (off + 1)) as [b Hb]; [lia|].
  rewrite Ha, Hb. eauto.
Qed.

Lemma count_at_sat m off : off + 2 <= mlen m -> sat (count_at m off) (fun _ => True).
Proof. intros H. destruct (count_at_ok m off H) as [c E]. rewrite E. exact I. Qed.

Definition has_header (m : bytes) : Prop := header_len <= mlen m.

Lemma from_octets_header m : from_octets_ok m = true -> has_header m.
Proof. unfold from_octets_ok, has_header. lia. Qed.

Lemma count_offsets m : has_header m ->
  qd_off + 2 <= mlen m /\ an_off + 2 <= mlen m /\ ns_off + 2 <= mlen m /\ ar_off + 2 <= mlen m.
Proof. unfold has_header, header_len, qd_off, an_off, ns_off, ar_off. lia. Qed.

Lemma question_parse_sat m pos lim : lim <= mlen m ->
  sat (question_parse m pos lim) (fun q => good_name m (q_name q)).
Proof.
  intros Hl. unfold question_parse.
  eapply sat_bind; [apply parse_ref_sat; assumption|]. intros p Hp.
  eapply sat_bind; [apply u16_at_sat; assumption|]. intros ty _.
  eapply sat_bind; [apply u16_at_sat; assumption|]. intros cl _.
  exact Hp.
Qed.

Definition good_rr (m : bytes) (lim : N) (r : rr) : Prop :=
  good_name m (rr_owner r) /\ rr_data r + rr_rdlen r <= lim /\ rr_end r = rr_data r + rr_rdlen r.

Lemma record_parse_sat m pos lim : lim <= mlen m ->
  sat (record_parse m pos lim) (good_rr m lim).
Proof.
  intros Hl. unfold record_parse.
  eapply sat_bind; [apply parse_ref_sat; assumption|]. intros p Hp. cbv zeta.
  eapply sat_bind; [apply u16_at_sat; assumption|]. intros ty _.
  eapply sat_bind; [apply u16_at_sat; assumption|]. intros cl _.
  eapply sat_bind; [apply u32_at_sat; assumption|]. intros ttl _.
  eapply sat_bind; [apply u16_at_sat; assumption|]. intros rdlen H8. cbv beta in H8.
  destruct (N.ltb_spec (lim - (pn_end p + 10)) rdlen) as [H|H]; [exact I|].
  split; [exact Hp|]. cbn [rr_data rr_rdlen rr_end]. split; [lia|reflexivity].
Qed.

Lemma record_skip_sat m pos lim : lim <= mlen m ->
  sat (record_skip m pos lim) (fun _ => True).
Proof.
  intros Hl. unfold record_skip.
  eapply sat_bind; [apply no_panic_sat; apply skip_name_total; assumption|]. intros e _.
  destruct (lim - e <? rr_fixed_skip); [exact I|].
  eapply sat_bind; [apply u16_at_sat; assumption|]. intros rdlen _.
  cbv zeta. destruct (lim - (e + rr_fixed_skip + 2) <? rdlen); exact I.
Qed.

(* enough fuel to run s to its end: one call per remaining item and the final
   None, or the single None of a fused iterator *)
Definition fuel_ok (fuel : nat) (s : sect) : Prop :=
  match s_err s with
  | None => (N.to_nat (s_cnt s) + 2 <= fuel)%nat
  | Some _ => (1 <= fuel)%nat
  end.

Lemma sec_fuel_ok s : fuel_ok (sec_fuel s) s.
Proof. unfold fuel_ok, sec_fuel. destruct (s_err s); lia. Qed.

Lemma fuel_ok_0 s : ~ fuel_ok 0 s.
Proof. unfold fuel_ok. destruct (s_err s); lia. Qed.

Lemma sec_next_cases {A} (parse : N -> outcome A) (endof : A -> N) s o s1 :
  sec_next parse endof s = Ok (o, s1) ->
  (o = None /\ s1 = s /\ (s_err s = None -> s_cnt s = 0)) \/
  (s_err s = None /\ 0 < s_cnt s /\
   ((exists a, o = Some (IOk a) /\ parse (s_pos s) = Ok a /\
               s1 = mkSect (endof a) (s_cnt s - 1) None (s_kind s)) \/
    (exists e, o = Some (IErr e) /\ s1 = mkSect (s_pos s) (s_cnt s) (Some e) (s_kind s)))).
Proof.
  unfold sec_next. intros H. destruct (s_err s) as [e0|].
  - inversion H; subst. left. repeat split. discriminate.
  - destruct (N.ltb_spec 0 (s_cnt s)) as [Hc|Hc].
    + destruct (parse (s_pos s)) as [a|e| |] eqn:Ep; inversion H; subst; right; repeat split; eauto.
    + inversion H; subst. left. repeat split. lia.
Qed.

(* after a call of next that yielded an item, one unit of fuel less is enough *)
Definition next_post {A} (P : A -> Prop) (s : sect) (r : option (item A) * sect) : Prop :=
  s_kind (snd r) = s_kind s /\
  (forall fuel, fuel_ok (S fuel) s -> fst r <> None -> fuel_ok fuel (snd r)) /\
  match fst r with Some (IOk a) => P a | _ => True end.

Section Iter.
  Context {A : Type} (parse : N -> outcome A) (endof : A -> N) (P : A -> Prop).
  Hypothesis parse_sat : forall pos, sat (parse pos) P.

  Lemma sec_next_sat s : sat (sec_next parse endof s) (next_post P s).
  Proof.
    unfold sec_next, next_post, fuel_ok. destruct (s_err s) as [e|]; cbn [sat fst snd]; [tauto|].
    destruct (N.ltb_spec 0 (s_cnt s)) as [Hc|Hc]; cbn [sat fst snd]; [|tauto].
    pose proof (parse_sat (s_pos s)) as Hp.
    destruct (parse (s_pos s)) as [a|e| |]; cbn [sat fst snd s_err s_cnt s_kind] in *; try contradiction;
      repeat split; auto; lia.
  Qed.

  Lemma drain_sat : forall fuel s acc,
    fuel_ok fuel s -> Forall (fun x => item_ok P (fst x)) acc ->
    sat (drain (sec_next parse endof) fuel s acc)
        (fun r => Forall (fun x => item_ok P (fst x)) (fst r) /\ s_kind (snd r) = s_kind s).
  Proof.
    induction fuel as [|fuel IH]; intros s acc Hf Hacc; [destruct (fuel_ok_0 s Hf)|].
    cbn [drain]. eapply sat_bind; [apply sec_next_sat|].
    intros [[it|] s'] (Hk & Hstep & Ho); cbn [fst snd] in *.
    - eapply sat_weaken.
      + apply IH; [apply Hstep; [exact Hf|discriminate]|].
        constructor; [destruct it; [exact Ho|exact I]|exact Hacc].
      + intros r [H1 H2]. split; [exact H1|congruence].
    - split; [apply Forall_rev; exact Hacc|exact Hk].
  Qed.

  Lemma drain_sec_sat s :
    sat (drain (sec_next parse endof) (sec_fuel s) s [])
        (fun r => Forall (fun x => item_ok P (fst x)) (fst r) /\ s_kind (snd r) = s_kind s).
  Proof. apply drain_sat; [apply sec_fuel_ok|constructor]. Qed.

  Lemma fused_sat s : sat (fused (sec_next parse endof) s) (fun _ => True).
  Proof.
    unfold fused. eapply sat_bind; [apply sec_next_sat|]. intros r1 _.
    eapply sat_bind; [apply sec_next_sat|]. intros r2 _. exact I.
  Qed.
End Iter.

Definition good_q (m : bytes) (q : question) : Prop := good_name m (q_name q).

Lemma question_parse_sat' m pos : sat (question_parse m pos (mlen m)) (good_q m).
Proof. apply question_parse_sat. lia. Qed.

Lemma record_parse_sat' m pos : sat (record_parse m pos (mlen m)) (good_rr m (mlen m)).
Proof. apply record_parse_sat. lia. Qed.

Lemma q_next_sat m s : sat (q_next m s) (next_post (good_q m) s).
Proof. apply sec_next_sat, question_parse_sat'. Qed.

Lemma r_next_sat m s : sat (r_next m s) (next_post (good_rr m (mlen m)) s).
Proof. apply sec_next_sat, record_parse_sat'. Qed.

Lemma drain_q_next_sat m s :
  sat (drain (q_next m) (sec_fuel s) s [])
      (fun r => Forall (fun x => item_ok (good_q m) (fst x)) (fst r) /\ s_kind (snd r) = s_kind s).
Proof. apply drain_sec_sat, question_parse_sat'. Qed.

Lemma drain_r_next_sat m s :
  sat (drain (r_next m) (sec_fuel s) s [])
      (fun r => Forall (fun x => item_ok (good_rr m (mlen m)) (fst x)) (fst r) /\ s_kind (snd r) = s_kind s).
Proof. apply drain_sec_sat, record_parse_sat'. Qed.

Lemma question_section_sat m : has_header m ->
  sat (question_section m) (fun s => s_kind s = 0 /\ s_err s = None).
Proof.
  intros Hh. unfold question_section. destruct (count_offsets m Hh) as [H _].
  eapply sat_bind; [apply count_at_sat; exact H|]. intros c _. split; reflexivity.
Qed.

Lemma kind_off_ok m k : has_header m -> kind_off k + 2 <= mlen m.
Proof.
  intros Hh. destruct (count_offsets m Hh) as [_ [H1 [H2 H3]]]. unfold kind_off.
  destruct (k =? 1); [exact H1|]. destruct (k =? 2); assumption.
Qed.

Lemma record_section_sat m pos k : has_header m ->
  sat (record_section m pos k) (fun s => s_kind s = k /\ s_err s = None).
Proof.
  intros Hh. unfold record_section.
  eapply sat_bind; [apply count_at_sat; apply kind_off_ok; exact Hh|]. intros c _. split; reflexivity.
Qed.

Lemma q_to_answer_sat m s : has_header m -> sat (q_to_answer m s) (fun a => s_kind a = 1).
Proof.
  intros Hh. unfold q_to_answer.
  eapply sat_bind; [apply drain_q_next_sat|]. intros r _.
  cbv zeta. destruct (s_err (snd r)); [exact I|].
  eapply sat_weaken; [apply record_section_sat; exact Hh|]. intros a [H _]. exact H.
Qed.

Lemma r_next_section_sat m s : has_header m ->
  sat (r_next_section m s)
      (fun o => s_kind s < 3 -> exists n, o = Some n /\ s_kind n = s_kind s + 1).
Proof.
  intros Hh. unfold r_next_section.
  destruct (N.leb_spec 3 (s_kind s)) as [Hk|Hk]; cbn [sat]; [intros; lia|].
  eapply sat_bind.
  - apply (drain_sec_sat _ (fun e : N => e) (fun _ => True)).
    intros pos. apply record_skip_sat. lia.
  - intros r _. cbv zeta. destruct (s_err (snd r)); [exact I|].
    eapply sat_bind; [apply record_section_sat; exact Hh|]. intros n [Hn _] _. exists n. auto.
Qed.

Lemma unwrap_opt_sat {A} (o : option A) (P : A -> Prop) :
  (exists n, o = Some n /\ P n) -> sat (unwrap_opt o) P.
Proof. intros [n [E H]]. subst o. exact H. Qed.

Lemma msg_answer_sat m : has_header m -> sat (msg_answer m) (fun a => s_kind a = 1).
Proof.
  intros Hh. unfold msg_answer.
  eapply sat_bind; [apply question_section_sat; exact Hh|]. intros q _.
  apply q_to_answer_sat. exact Hh.
Qed.

Lemma next_unwrap_sat m a k : has_header m -> s_kind a = k -> k < 3 ->
  sat (do o <- r_next_section m a; unwrap_opt o) (fun n => s_kind n = k + 1).
Proof.
  intros Hh Hk Hlt. eapply sat_bind; [apply r_next_section_sat; exact Hh|].
  intros o Ho. apply unwrap_opt_sat. destruct Ho as [n [E Hn]]; [lia|].
  exists n. split; [exact E|]. lia.
Qed.

Lemma msg_authority_sat m : has_header m -> sat (msg_authority m) (fun a => s_kind a = 2).
Proof.
  intros Hh. unfold msg_authority.
  eapply sat_bind; [apply msg_answer_sat; exact Hh|]. intros a Ha.
  apply (next_unwrap_sat m a 1 Hh Ha). lia.
Qed.

Lemma msg_additional_sat m : has_header m -> sat (msg_additional m) (fun a => s_kind a = 3).
Proof.
  intros Hh. unfold msg_additional.
  eapply sat_bind; [apply msg_authority_sat; exact Hh|]. intros a Ha.
  apply (next_unwrap_sat m a 2 Hh Ha). lia.
Qed.

Lemma msg_sections_sat m : has_header m -> sat (msg_sections m) (fun _ => True).
Proof.
  intros Hh. unfold msg_sections.
  eapply sat_bind; [apply question_section_sat; exact Hh|]. intros q _.
  eapply sat_bind; [apply q_to_answer_sat; exact Hh|]. intros a Ha.
  eapply sat_bind; [apply r_next_section_sat; exact Hh|]. intros o1 Ho1. cbv beta in Ha, Ho1.
  eapply sat_bind.
  { apply (unwrap_opt_sat o1 (fun n => s_kind n = 2)). destruct Ho1 as [n [E Hn]]; [lia|].
    exists n. split; [exact E|lia]. }
  intros ns Hns.
  eapply sat_bind; [apply r_next_section_sat; exact Hh|]. intros o2 Ho2. cbv beta in Hns, Ho2.
  eapply sat_bind.
  { apply (unwrap_opt_sat o2 (fun n => True)). destruct Ho2 as [n [E Hn]]; [lia|]. eauto. }
  intros ar _. exact I.
Qed.

Lemma first_question_sat m : has_header m ->
  sat (first_question m) (fun o => match o with Some q => good_q m q | None => True end).
Proof.
  intros Hh. unfold first_question.
  eapply sat_bind; [apply question_section_sat; exact Hh|]. intros s _.
  eapply sat_bind; [apply q_next_sat|]. intros [[[q|e]|] s'] (_ & _ & Ho); try exact I. exact Ho.
Qed.

(* the unwrap: with a count of 1 the first call of next is not None *)
Lemma sole_question_sat m : has_header m -> sat (sole_question m) (good_q m).
Proof.
  intros Hh. unfold sole_question, question_section.
  destruct (count_at_ok m qd_off) as [c Ec]; [apply count_offsets, Hh|]. rewrite Ec. cbn [bind].
  destruct (c =? sole_none); [exact I|].
  destruct (N.eqb_spec c sole_one) as [H1|H1]; [|exact I].
  pose proof (q_next_sat m (mkSect header_len c None 0)) as Hn.
  destruct (q_next m (mkSect header_len c None 0)) as [[o s']|e| |] eqn:En; try exact Hn.
  destruct (sec_next_cases _ _ _ _ _ En) as [(_ & _ & Hc)|(_ & _ & [(a & -> & _)|(e & -> & _)])].
  - specialize (Hc eq_refl). cbn [s_cnt] in Hc. subst c. discriminate.
  - apply Hn.
  - exact I.
Qed.

Definition good_items (m : bytes) : list (item (N * rr)) -> Prop :=
  Forall (item_ok (fun x : N * rr => good_rr m (mlen m) (snd x))).

Lemma msg_iter_sat : forall secs m s acc, has_header m -> good_items m acc ->
  sat (msg_iter secs m s acc) (good_items m).
Proof.
  assert (Hmap : forall m (s : sect) (l : list (item rr * sect)),
    Forall (fun x => item_ok (good_rr m (mlen m)) (fst x)) l ->
    good_items m (map (fun x : item rr * sect =>
                         match fst x with IOk a => IOk (s_kind s, a) | IErr e => IErr e end) l)).
  { intros m s l H. induction H as [|[[a|e] s'] l Hx Hl IH]; cbn [map]; constructor; auto. }
  induction secs as [|secs IH]; intros m s acc Hh Hacc; cbn [msg_iter];
    (eapply sat_bind; [apply drain_r_next_sat|]); intros r [Hr _];
    pose proof (proj2 (Forall_app _ _ _) (conj Hacc (Hmap m s _ Hr))) as Hacc'.
  - exact Hacc'.
  - cbv zeta. pose proof (r_next_section_sat m (snd r) Hh) as Hn.
    destruct (r_next_section m (snd r)) as [[s'|]|e| |]; try exact Hn.
    + apply IH; assumption.
    + exact Hacc'.
    + apply Forall_app. split; [exact Hacc'|]. repeat constructor.
Qed.

Lemma message_iter_sat m : has_header m -> sat (message_iter m) (good_items m).
Proof.
  intros Hh. unfold message_iter. pose proof (msg_answer_sat m Hh) as Ha.
  destruct (msg_answer m) as [a|e| |]; try exact Ha; [|constructor].
  apply msg_iter_sat; [exact Hh|constructor].
Qed.

Lemma observe_name_sat m p : good_name m p -> sat (observe_name m p) (fun _ => True).
Proof. intros [ls H]. unfold observe_name. rewrite H. exact I. Qed.

Lemma pname_eq_sat m1 p1 m2 p2 : good_name m1 p1 -> good_name m2 p2 ->
  sat (pname_eq m1 p1 m2 p2) (fun _ => True).
Proof. intros [l1 H1] [l2 H2]. unfold pname_eq. rewrite H1, H2. exact I. Qed.

Lemma question_eq_sat m1 q1 m2 q2 : good_q m1 q1 -> good_q m2 q2 ->
  sat (question_eq m1 q1 m2 q2) (fun _ => True).
Proof.
  intros H1 H2. unfold question_eq. eapply sat_bind; [apply pname_eq_sat; assumption|].
  intros e _. exact I.
Qed.

Lemma qsec_eq_sat : forall fuel m1 s1 m2 s2,
  fuel_ok fuel s1 -> sat (qsec_eq fuel m1 s1 m2 s2) (fun _ => True).
Proof.
  induction fuel as [|fuel IH]; intros m1 s1 m2 s2 Hf; [destruct (fuel_ok_0 s1 Hf)|].
  cbn [qsec_eq].
  eapply sat_bind; [apply q_next_sat|]. intros [o1 s1'] (_ & Hstep & H1).
  eapply sat_bind; [apply q_next_sat|]. intros [o2 s2'] (_ & _ & H2). cbn [fst snd] in *.
  destruct o1 as [[a|ea]|]; destruct o2 as [[b|eb]|]; try exact I.
  eapply sat_bind; [apply question_eq_sat; assumption|]. intros [|] _; [|exact I].
  apply IH, Hstep; [exact Hf|discriminate].
Qed.

Lemma is_answer_sat m q : has_header m -> has_header q -> sat (is_answer m q) (fun _ => True).
Proof.
  intros Hm Hq. unfold is_answer.
  assert (Hlm : 12 <= mlen m) by exact Hm. assert (Hlq : 12 <= mlen q) by exact Hq.
  destruct (get_some m 2) as [f Hf]; [lia|]. destruct (get_some m 0) as [i0 Hi0]; [lia|].
  destruct (get_some m 1) as [i1 Hi1]; [lia|]. destruct (get_some q 0) as [j0 Hj0]; [lia|].
  destruct (get_some q 1) as [j1 Hj1]; [lia|]. rewrite Hf, Hi0, Hi1, Hj0, Hj1.
  eapply sat_bind; [apply count_at_sat, count_offsets, Hm|]. intros c1 _.
  eapply sat_bind; [apply count_at_sat, count_offsets, Hq|]. intros c2 _.
  destruct (negb (128 <=? f) || negb ((i0 =? j0) && (i1 =? j1)) || negb (c1 =? c2)); [exact I|].
  eapply sat_bind; [apply question_section_sat; exact Hm|]. intros s1 _.
  eapply sat_bind; [apply question_section_sat; exact Hq|]. intros s2 _.
  apply qsec_eq_sat. apply sec_fuel_ok.
Qed.

Definition opt_good (m : bytes) (o : option pname) : Prop :=
  match o with Some p => good_name m p | None => True end.

Lemma into_cname_sat m r : good_rr m (mlen m) r -> sat (into_cname m r) (opt_good m).
Proof.
  intros [_ [Hd _]]. unfold into_cname.
  destruct (mlen m - rr_data r <? rr_rdlen r); [exact I|]. cbv zeta.
  destruct (rr_type r =? RT_CNAME); [|exact I].
  eapply sat_bind; [apply parse_ref_sat; exact Hd|]. intros p Hp.
  destruct (0 <? rr_data r + rr_rdlen r - pn_end p); [exact I|exact Hp].
Qed.

Lemma cname_scan_sat : forall fuel m s name, good_name m name -> fuel_ok fuel s ->
  sat (cname_scan fuel m s name) (opt_good m).
Proof.
  induction fuel as [|fuel IH]; intros m s name Hn Hf; [destruct (fuel_ok_0 s Hf)|].
  cbn [cname_scan].
  eapply sat_bind; [apply r_next_sat|]. intros [[it|] s'] (_ & Hstep & Hg); [|exact I]. cbn [fst snd] in *.
  assert (Hrec : sat (cname_scan fuel m s' name) (opt_good m))
    by (apply IH; [exact Hn|apply Hstep; [exact Hf|discriminate]]).
  destruct it as [rec|e]; [|exact Hrec].
  pose proof (into_cname_sat m rec Hg) as Hi.
  destruct (into_cname m rec) as [[t|]|e| |]; try exact Hrec; try contradiction.
  eapply sat_bind; [apply pname_eq_sat; [apply Hg|exact Hn]|].
  intros [|] _; [exact Hi|exact Hrec].
Qed.

Lemma cname_chase_sat : forall rounds scan m ans name, good_name m name -> fuel_ok scan ans ->
  sat (cname_chase rounds scan m ans name) (opt_good m).
Proof.
  induction rounds as [|rounds IH]; intros scan m ans name Hn Hf; cbn [cname_chase]; [exact I|].
  eapply sat_bind; [apply cname_scan_sat; [exact Hn|exact Hf]|].
  intros [t|] Ho; [apply IH; [exact Ho|exact Hf]|exact Hn].
Qed.

(* the loop bound is computed without overflow (the u32 widening) *)
Lemma canonical_rounds_eq an : canonical_rounds an = Ok (an + 1).
Proof. reflexivity. Qed.

Example canonical_rounds_65535 : canonical_rounds 65535 = Ok 65536.
Proof. reflexivity. Qed.

Lemma canonical_name_sat m : has_header m -> sat (canonical_name m) (opt_good m).
Proof.
  intros Hh. unfold canonical_name.
  eapply sat_bind; [apply first_question_sat; exact Hh|]. intros [q|] Hfq; [|exact I].
  pose proof (msg_answer_sat m Hh) as Ha.
  destruct (msg_answer m) as [ans|e| |]; try exact Ha.
  eapply sat_bind; [apply count_at_sat, count_offsets, Hh|]. intros an _.
  rewrite canonical_rounds_eq. cbn [bind].
  apply cname_chase_sat; [exact Hfq|apply sec_fuel_ok].
Qed.

Lemma opt_check_sat : forall fuel m pos lim acc, lim <= mlen m ->
  (N.to_nat (lim - pos) < fuel)%nat -> sat (opt_check fuel m pos lim acc) (fun _ => True).
Proof.
  induction fuel as [|fuel IH]; intros m pos lim acc Hl Hf; [lia|].
  cbn [opt_check].
  destruct (N.ltb_spec 0 (lim - pos)) as [H0|H0]; [|exact I].
  destruct (N.ltb_spec (lim - pos) 2) as [H2|H2]; [exact I|].
  eapply sat_bind; [apply u16_at_sat; exact Hl|]. intros code _.
  eapply sat_bind; [apply u16_at_sat; exact Hl|]. intros len H4.
  destruct (N.ltb_spec (lim - (pos + 4)) len) as [H5|H5]; [exact I|].
  apply IH; [exact Hl|lia].
Qed.

Lemma into_opt_sat m r : good_rr m (mlen m) r -> sat (into_opt m r) (fun _ => True).
Proof.
  intros [_ [Hd _]]. unfold into_opt.
  destruct (mlen m - rr_data r <? rr_rdlen r); [exact I|]. cbv zeta.
  destruct (rr_type r =? RT_OPT); [|exact I].
  eapply sat_bind; [apply opt_check_sat; [exact Hd|lia]|]. intros os _. exact I.
Qed.

Lemma opt_scan_sat : forall fuel m s, fuel_ok fuel s -> sat (opt_scan fuel m s) (fun _ => True).
Proof.
  induction fuel as [|fuel IH]; intros m s Hf; [destruct (fuel_ok_0 s Hf)|].
  cbn [opt_scan].
  eapply sat_bind; [apply r_next_sat|]. intros [[[rec|e]|] s'] (_ & Hstep & Hg); try exact I.
  pose proof (into_opt_sat m rec Hg) as Hi.
  destruct (into_opt m rec) as [[os|]|e| |]; try exact Hi; try exact I.
  apply IH, Hstep; [exact Hf|discriminate].
Qed.

Lemma msg_opt_sat m : has_header m -> sat (msg_opt m) (fun _ => True).
Proof.
  intros Hh. unfold msg_opt. pose proof (msg_additional_sat m Hh) as Ha.
  destruct (msg_additional m) as [s|e| |]; try exact Ha.
  apply opt_scan_sat. apply sec_fuel_ok.
Qed.

(* C01 proofs, part W: bounds the section iterators keep: at most `count` items,
   an error item only as the last one; every position held, and the start of
   every section handed out by sections(), lies within the message. *)
From Coq Require Import NArith List Bool Lia.
From DV Require Import Base.Outcome Base.Bytes Base.Names Base.PName C01.Gen C01.Model C01.Model3.
From DV Require Import C01.Proofs C01.Proofs2 C01.Proofs3.
Import ListNotations.
Local Open Scope N_scope.
(* Qed must not unfold the fuelled name walk when converting question_parse / record_skip *)
#[local] Strategy opaque [parse_ref skip_name parse_labels].

Example parse_ref_skip_example :
  let m := [0;0; 1;97;0; 192;2] in
  (exists p, parse_ref m 5 7 = Ok p /\ pn_end p = 7) /\ skip_name m 5 7 = Ok 7.
Proof. split; [eexists; split; vm_compute; reflexivity|vm_compute; reflexivity]. Qed.

Theorem question_extent_within m pos lim q :
  lim <= mlen m -> question_parse m pos lim = Ok q ->
  q_end q = pn_end (q_name q) + 4 /\ q_end q <= lim /\ q_end q <= mlen m.
Proof.
  intros Hl H. unfold question_parse in H.
  apply bind_ok in H. destruct H as [p [_ H]].
  apply bind_ok in H. destruct H as [ty [_ H]].
  apply bind_ok in H. destruct H as [cl [Hc H]].
  apply u16_at_ok in Hc. inversion H; subst q. cbn [q_end q_name]. lia.
Qed.

Example question_extent_example :
  match question_parse [1;97;0; 0;1; 0;1] 0 7 with
  | Ok q => q_end q = 7
  | _ => False
  end.
Proof. vm_compute. reflexivity. Qed.

Lemma record_skip_end m pos lim e : record_skip m pos lim = Ok e -> e <= lim.
Proof.
  unfold record_skip. intros H.
  apply bind_ok in H. destruct H as [e0 [_ H]].
  destruct (lim - e0 <? rr_fixed_skip); [discriminate|].
  apply bind_ok in H. destruct H as [rdlen [Hr H]]. apply u16_at_ok in Hr.
  cbv zeta in H.
  destruct (N.ltb_spec (lim - (e0 + rr_fixed_skip + 2)) rdlen) as [Hd|Hd]; [discriminate|].
  inversion H; subst e. lia.
Qed.

Section Bound.
  Context {A : Type} (parse : N -> outcome A) (endof : A -> N).

  (* at most `count` items; only the last one can be an error *)
  Lemma run_bounded s l s' : run (sec_next parse endof) s l s' -> s_err s = None ->
    (length l <= N.to_nat (s_cnt s))%nat /\ has_err (removelast l) = false.
  Proof.
    induction 1 as [s s' En|s it s1 l s' En Hr IH]; intros He; [split; [cbn [length]; lia|reflexivity]|].
    destruct (sec_next_cases _ _ _ _ _ En) as [(Ho & _)|(_ & Hc & [(a & Ho & _ & ->)|(e & Ho & ->)])];
      inversion Ho; subst.
    - destruct (IH eq_refl) as [Hn Hh]. cbn [s_cnt length] in *. split; [lia|].
      destruct l; [reflexivity|exact Hh].
    - (* the iterator is fused now: the run ends here *)
      inversion Hr as [? ? En1|? ? ? ? ? En1]; subst;
        rewrite fuse_sticky with (e := e) in En1 by reflexivity; [|discriminate].
      split; [cbn [length]; lia|reflexivity].
  Qed.

  Theorem section_yields_at_most_count fuel s l s' :
    drain (sec_next parse endof) fuel s [] = Ok (l, s') -> s_err s = None ->
    (length l <= N.to_nat (s_cnt s))%nat /\ has_err (removelast l) = false.
  Proof.
    intros H He. apply drain_run in H. destruct H as (more & -> & Hr & _).
    exact (run_bounded _ _ _ Hr He).
  Qed.

  Theorem section_fused_yields_nothing fuel s e l s' :
    drain (sec_next parse endof) fuel s [] = Ok (l, s') -> s_err s = Some e -> l = [] /\ s' = s.
  Proof.
    intros H He. destruct fuel as [|fuel]; [discriminate|]. cbn [drain] in H.
    rewrite (fuse_sticky parse endof s e He) in H. cbn [bind rev] in H. inversion H. auto.
  Qed.

  (* positions: if every accepted element ends at or before B, an iterator
     that starts at or before B never holds a position beyond B *)
  Variable B : N.
  Hypothesis Hend : forall pos a, parse pos = Ok a -> endof a <= B.

  Lemma run_pos_bound s l s' : run (sec_next parse endof) s l s' -> s_pos s <= B ->
    s_pos s' <= B /\ Forall (fun x : item A * sect => s_pos (snd x) <= B) l.
  Proof.
    induction 1 as [s s' En|s it s1 l s' En Hr IH]; intros Hs;
      destruct (sec_next_cases _ _ _ _ _ En) as [(Ho & -> & _)|(_ & _ & [(a & Ho & Hp & ->)|(e & Ho & ->)])];
      inversion Ho; subst.
    - split; [exact Hs|constructor].
    - apply Hend in Hp. destruct (IH Hp). split; [assumption|constructor; assumption].
    - destruct (IH Hs). split; [assumption|constructor; assumption].
  Qed.

  Lemma drain_pos_bound fuel s l s' :
    drain (sec_next parse endof) fuel s [] = Ok (l, s') -> s_pos s <= B ->
    s_pos s' <= B /\ Forall (fun x : item A * sect => s_pos (snd x) <= B) l.
  Proof. intros H. apply drain_run in H. destruct H as (more & -> & Hr & _). exact (run_pos_bound _ _ _ Hr). Qed.
End Bound.

Theorem question_iter_within m fuel s l s' :
  drain (q_next m) fuel s [] = Ok (l, s') -> s_pos s <= mlen m ->
  s_pos s' <= mlen m /\ Forall (fun x : item question * sect => s_pos (snd x) <= mlen m) l.
Proof.
  intros H Hs. unfold q_next in H.
  eapply (drain_pos_bound _ q_end (mlen m)); [|exact H|exact Hs].
  intros pos a Hp. apply question_extent_within in Hp; [lia|lia].
Qed.

Theorem record_iter_within m fuel s l s' :
  drain (r_next m) fuel s [] = Ok (l, s') -> s_pos s <= mlen m ->
  s_pos s' <= mlen m /\ Forall (fun x : item rr * sect => s_pos (snd x) <= mlen m) l.
Proof.
  intros H Hs. unfold r_next in H.
  eapply (drain_pos_bound _ rr_end (mlen m)); [|exact H|exact Hs].
  intros pos a Hp. apply record_extent_within in Hp; [lia|lia].
Qed.

Lemma skip_iter_within m fuel s l s' :
  drain (r_skip_next m) fuel s [] = Ok (l, s') -> s_pos s <= mlen m -> s_pos s' <= mlen m.
Proof.
  intros H Hs. unfold r_skip_next in H.
  eapply (drain_pos_bound _ (fun e : N => e) (mlen m)); [|exact H|exact Hs].
  intros pos a Hp. apply record_skip_end in Hp. exact Hp.
Qed.

Example record_iter_example :
  let m := [0;7;128;0; 0;0; 0;2; 0;0; 0;0;  0; 0;1; 0;1; 0;0;0;9; 0;2; 7;7;  64] in
  let s := mkSect 12 2 None 1 in
  match drain (r_next m) (sec_fuel s) s [] with
  | Ok (l, s') => length l = 2%nat /\ has_err l = true /\ has_err (removelast l) = false /\
                  s_pos s' = 25 /\ mlen m = 26
  | _ => False
  end.
Proof. vm_compute. repeat split. Qed.

Example fused_yields_nothing_example :
  let s := mkSect 12 5 (Some E_SHORT) 1 in
  drain (r_next [1;2;3]) (sec_fuel s) s [] = Ok ([], s).
Proof. vm_compute. reflexivity. Qed.

Lemma record_section_pos m pos k s : record_section m pos k = Ok s -> s_pos s = pos.
Proof.
  unfold record_section. intros H. apply bind_ok in H. destruct H as [c [_ H]].
  inversion H; reflexivity.
Qed.

Lemma q_to_answer_pos m q a : q_to_answer m q = Ok a -> s_pos q <= mlen m -> s_pos a <= mlen m.
Proof.
  unfold q_to_answer. intros H Hq. apply bind_ok in H. destruct H as [[l s'] [Hd H]].
  cbn [snd] in H. destruct (s_err s'); [discriminate|].
  apply record_section_pos in H. rewrite H.
  apply question_iter_within in Hd; [tauto|exact Hq].
Qed.

Lemma r_next_section_pos m s n :
  r_next_section m s = Ok (Some n) -> s_pos s <= mlen m -> s_pos n <= mlen m.
Proof.
  unfold r_next_section. intros H Hs. destruct (3 <=? s_kind s); [discriminate|].
  apply bind_ok in H. destruct H as [[l s'] [Hd H]].
  cbn [snd] in H. destruct (s_err s'); [discriminate|].
  apply bind_ok in H. destruct H as [n0 [Hr H]]. inversion H; subst n0.
  apply record_section_pos in Hr. rewrite Hr.
  eapply skip_iter_within; [exact Hd|exact Hs].
Qed.

Theorem sections_within m q a ns ar :
  has_header m -> msg_sections m = Ok (q, a, ns, ar) ->
  s_pos q = header_len /\ s_pos q <= mlen m /\ s_pos a <= mlen m /\
  s_pos ns <= mlen m /\ s_pos ar <= mlen m.
Proof.
  intros Hh H. unfold msg_sections in H. unfold has_header in Hh.
  apply bind_ok in H. destruct H as [q0 [Hq H]].
  apply bind_ok in H. destruct H as [a0 [Ha H]].
  apply bind_ok in H. destruct H as [o1 [H1 H]].
  apply bind_ok in H. destruct H as [ns0 [Hn H]].
  apply bind_ok in H. destruct H as [o2 [H2 H]].
  apply bind_ok in H. destruct H as [ar0 [Hr H]].
  inversion H; subst q0 a0 ns0 ar0.
  unfold question_section in Hq. apply bind_ok in Hq. destruct Hq as [c [_ Hq]].
  inversion Hq; subst q. cbn [s_pos].
  assert (Hqa : s_pos a <= mlen m) by (eapply q_to_answer_pos; [exact Ha|cbn [s_pos]; exact Hh]).
  destruct o1 as [x|]; [|discriminate]. inversion Hn; subst x.
  assert (Hns : s_pos ns <= mlen m) by (eapply r_next_section_pos; [exact H1|exact Hqa]).
  destruct o2 as [x|]; [|discriminate]. inversion Hr; subst x.
  assert (Har : s_pos ar <= mlen m) by (eapply r_next_section_pos; [exact H2|exact Hns]).
  repeat split; assumption.
Qed.

Example sections_within_example :
  let m := [0;7;128;0; 0;1; 0;1; 0;0; 0;0;  1;97;0; 0;1; 0;1;  192;12; 0;1; 0;1; 0;0;0;9; 0;2; 7;7] in
  match msg_sections m with
  | Ok (q, a, ns, ar) => s_pos q = 12 /\ s_pos a = 19 /\ s_pos ns = 33 /\ s_pos ar = 33 /\ mlen m = 33
  | _ => False
  end.
Proof. vm_compute. repeat split. Qed.

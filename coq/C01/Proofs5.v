(* C01 proofs, part 5: typed record data through the C05 schema
   never panics for ANY schema (hence for every record type of the table), the
   XFR first-message dispatch is total, and read-side calls in any order --
   with arbitrarily interleaved iterator steps -- never panic. *)
From Coq Require Import NArith List Bool Lia.
From DV Require Import Base.Outcome Base.Bytes Base.Names Base.PName C01.Gen C01.Model C01.Model2.
From DV Require Import C05.Schema C05.Model.
From DV Require Import C01.Proofs C01.Proofs2 C01.Proofs3.
Import ListNotations.
Local Open Scope N_scope.

Lemma rd_sat m pos lim k :
  sat (rd m pos lim k) (fun r => snd r = pos + k /\ k <= lim - pos).
Proof. unfold rd. destruct (N.ltb_spec (lim - pos) k); cbn [sat snd]; [exact I|lia]. Qed.

Lemma rd8_sat m pos lim : lim <= mlen m ->
  sat (rd8 m pos lim) (fun r => snd r = pos + 1 /\ pos < lim).
Proof.
  intros Hl. unfold rd8. destruct (N.ltb_spec (lim - pos) 1); cbn [sat]; [exact I|].
  destruct (get_some m pos) as [b Hb]; [lia|]. rewrite Hb. cbn [sat snd]. lia.
Qed.

Lemma parse_strs_sat : forall fuel m pos lim acc, lim <= mlen m ->
  (N.to_nat (lim - pos) < fuel)%nat -> sat (parse_strs fuel m pos lim acc) (fun _ => True).
Proof.
  induction fuel as [|fuel IH]; intros m pos lim acc Hl Hf; [lia|].
  cbn [parse_strs]. destruct (N.eqb_spec (lim - pos) 0); [cbn [sat]; exact I|].
  eapply sat_bind; [apply rd8_sat; exact Hl|]. intros h [Hh1 Hh2].
  eapply sat_bind; [apply rd_sat|]. intros r [Hr1 Hr2].
  apply IH; [exact Hl|]. rewrite Hr1, Hh1. rewrite Hh1 in Hr2. lia.
Qed.

(* a decoder of embedded names that never panics when its limit lies within
   the octets *)
Definition dec_total (dec : decoder) : Prop :=
  forall m pos lim, lim <= mlen m -> sat (dec m pos lim) (fun _ => True).

Lemma pname_dec_total : dec_total pname_dec.
Proof.
  intros m pos lim Hl. unfold pname_dec, decode_name.
  eapply sat_bind; [apply parse_ref_sat; exact Hl|]. intros p [ls Hp]. rewrite Hp. exact I.
Qed.

Lemma pname_nc_dec_total strict : dec_total (pname_nc_dec strict).
Proof.
  intros m pos lim Hl. unfold pname_nc_dec.
  eapply sat_bind; [apply parse_ref_sat; exact Hl|]. intros p [ls Hp].
  destruct (pn_compressed p); [exact I|].
  destruct (strict && negb (pn_end p - pos =? pn_len p)); [exact I|]. rewrite Hp. exact I.
Qed.

Lemma flat_dec_total : dec_total flat_dec.
Proof.
  intros m pos lim _. unfold flat_dec.
  destruct (Names.decode_abs (slice m pos lim)) as [[[n rest]|]|[| |]]; exact I.
Qed.

(* one step per shape of parse_field arm, tried in turn, so that the proof
   survives new field kinds of a known shape in C05's schema language *)
Ltac field_step Hl Hdec dec :=
  lazymatch goal with
  | |- sat (Ok _) _ => exact I
  | |- sat (Err _) _ => exact I
  | |- sat (bind (rd _ _ _ _) _) _ => eapply sat_bind; [apply rd_sat|]; intros ? _
  | |- sat (bind (rd8 _ _ _) _) _ => eapply sat_bind; [apply rd8_sat; exact Hl|]; intros ? _
  | |- sat (bind (dec _ _ _) _) _ => eapply sat_bind; [apply Hdec; exact Hl|]; intros ? _
  | |- sat (bind (parse_strs _ _ _ _ _) _) _ => eapply sat_bind; [apply parse_strs_sat; [exact Hl|lia]|]; intros ? _
  | |- sat (if ?c then _ else _) _ => destruct c
  | |- sat (match ?x with _ => _ end) _ => destruct x
  end.

Lemma parse_field_sat dec f m pos lim : dec_total dec -> lim <= mlen m ->
  sat (parse_field dec f m pos lim) (fun _ => True).
Proof. intros Hdec Hl. destruct f; cbn [parse_field]; repeat (field_step Hl Hdec dec). Qed.

Lemma parse_fields_sat dec : dec_total dec -> forall s m pos lim, lim <= mlen m ->
  sat (parse_fields dec s m pos lim) (fun _ => True).
Proof.
  intros Hdec. induction s as [|f s IH]; intros m pos lim Hl; cbn [parse_fields]; [exact I|].
  eapply sat_bind; [apply parse_field_sat; assumption|]. intros r _.
  eapply sat_bind; [apply IH; exact Hl|]. intros r' _. exact I.
Qed.

(* RecordHeader::parse_into_any_record + <type>::parse, for every schema and every total name decoder *)
Theorem parse_rdata_total_gen dec s m pos lim : dec_total dec -> lim <= mlen m ->
  no_panic (parse_rdata dec s m pos lim).
Proof.
  intros Hdec Hl. apply (sat_no_panic _ (fun _ => True)). unfold parse_rdata, parse_type.
  eapply sat_bind.
  - instantiate (1 := fun _ => True). destruct (s_long s) as [k|].
    + destruct (lim - pos <? k); [exact I|]. destruct (65535 <? lim - pos - k); [exact I|].
      apply parse_fields_sat; assumption.
    + apply parse_fields_sat; assumption.
  - intros r _. destruct (snd r =? lim); [|exact I].
    destruct (post_check (s_post s) (fst r)); exact I.
Qed.

Theorem parse_rdata_total s m pos lim : lim <= mlen m ->
  no_panic (parse_rdata pname_dec s m pos lim).
Proof. apply parse_rdata_total_gen. exact pname_dec_total. Qed.

Lemma classify_sat {A} (x : outcome A) : no_panic x -> sat (classify x) (fun _ => True).
Proof. destruct x; cbn; auto. Qed.

(* IPSECKEY: the row is picked by the gateway type octet *)
Theorem ipseckey_parse_total m pos lim : lim <= mlen m -> no_panic (ipseckey_parse m pos lim).
Proof.
  intros Hl. unfold ipseckey_parse.
  destruct (N.ltb_spec (lim - pos) 3); [exact I|].
  destruct (get_some m (pos + 1)) as [g Hg]; [lia|]. rewrite Hg.
  destruct (3 <? g); [exact I|].
  apply parse_rdata_total_gen; [apply pname_nc_dec_total|exact Hl].
Qed.

(* every EDNS option of C05's option table (and unknown codes): parsing its
   contents never panics *)
Theorem option_data_total code d : no_panic (parse_rdata flat_dec (option_schema code) d 0 (len d)).
Proof. apply parse_rdata_total_gen; [exact flat_dec_total|unfold len, mlen; lia]. Qed.

Lemma options_typed_sat : forall l, sat (options_typed l) (fun _ => True).
Proof.
  induction l as [|[code d] t IH]; cbn [options_typed]; [exact I|].
  eapply sat_bind; [apply classify_sat; apply option_data_total|]. intros c _.
  destruct c; [|exact I]. eapply sat_bind; [exact IH|]. intros rest _. exact I.
Qed.

Lemma msg_opt_typed_sat m : has_header m -> sat (msg_opt_typed m) (fun _ => True).
Proof.
  intros Hh. unfold msg_opt_typed. eapply sat_bind; [apply msg_opt_sat; exact Hh|]. intros o _.
  destruct o as [[r os]|]; [|exact I].
  eapply sat_bind; [apply options_typed_sat|]. intros l _. exact I.
Qed.

Example parse_rdata_example :
  match schema_of 15 with
  | Some s => parse_rdata pname_dec s [0;10; 1;97;0] 0 5 = Ok [VNum 10; VName [[97]]]
  | None => False
  end.
Proof. vm_compute. reflexivity. Qed.

Lemma typed_rdata_sat m r : good_rr m (mlen m) r -> sat (typed_rdata m r) (fun _ => True).
Proof.
  intros [_ [Hd _]]. unfold typed_rdata.
  destruct (mlen m - rr_data r <? rr_rdlen r); [exact I|]. cbv zeta.
  destruct (rr_type r =? RT_IPSECKEY).
  { eapply sat_bind; [apply classify_sat; apply ipseckey_parse_total; exact Hd|]. intros c _. exact I. }
  destruct (rr_type r =? RT_OPT).
  { eapply sat_bind; [apply classify_sat; eapply sat_no_panic; apply opt_check_sat; [exact Hd|lia]|].
    intros c _. exact I. }
  destruct (schema_of (rr_type r)) as [s|]; [|exact I].
  eapply sat_bind; [apply classify_sat; apply parse_rdata_total; exact Hd|]. intros c _. exact I.
Qed.

Lemma typed_all_sat m : forall l, good_items m l -> sat (typed_all m l) (fun _ => True).
Proof.
  induction l as [|it t IH]; intros H; cbn [typed_all]; [exact I|].
  inversion H as [|x l' Hx Ht]; subst. destruct it as [[k r]|e]; [|apply IH; exact Ht].
  cbn [item_ok snd] in Hx.
  eapply sat_bind; [apply typed_rdata_sat; exact Hx|]. intros x _.
  eapply sat_bind; [apply IH; exact Ht|]. intros rest _. exact I.
Qed.

Lemma message_typed_sat m : has_header m -> sat (message_typed m) (fun _ => True).
Proof.
  intros Hh. unfold message_typed.
  eapply sat_bind; [apply message_iter_sat; exact Hh|]. apply typed_all_sat.
Qed.

Theorem xfr_first_total m : has_header m -> no_panic (xfr_first m).
Proof.
  intros Hh. apply (sat_no_panic _ (fun _ => True)). unfold xfr_first.
  assert (Hl : 12 <= mlen m) by exact Hh.
  destruct (get_some m 2) as [f2 E2]; [lia|]. destruct (get_some m 3) as [f3 E3]; [lia|]. rewrite E2, E3.
  destruct (count_offsets m Hh) as [Hqd [Han [Hns _]]].
  eapply sat_bind; [apply count_at_sat; exact Hqd|]. intros qd _.
  eapply sat_bind; [apply count_at_sat; exact Han|]. intros an _.
  eapply sat_bind; [apply count_at_sat; exact Hns|]. intros ns _. cbv zeta.
  match goal with |- sat (if ?c then _ else _) _ => destruct c end; [exact I|].
  destruct (negb (qd =? 1)); [exact I|].
  pose proof (msg_answer_sat m Hh) as Ha.
  destruct (msg_answer m) as [ans|e| |]; cbn [sat] in Ha; try contradiction; [|exact I].
  eapply sat_bind; [apply first_question_sat; exact Hh|]. intros fq _.
  destruct fq as [q|]; [|exact I].
  destruct ((q_type q =? RT_AXFR) || (q_type q =? RT_IXFR)); [|exact I].
  eapply sat_bind; [apply r_next_sat|]. intros [[[rec|e]|] s'] (_ & _ & Ho); try exact I.
  destruct (mlen m - rr_data rec <? rr_rdlen rec); [exact I|].
  destruct Ho as [_ [Hd _]].
  eapply sat_bind.
  { instantiate (1 := fun _ => True). destruct (rr_type rec =? RT_IPSECKEY).
    - apply classify_sat. apply ipseckey_parse_total. exact Hd.
    - destruct (zone_schema_of (rr_type rec)) as [s|]; [|exact I].
      apply classify_sat. apply parse_rdata_total. exact Hd. }
  intros c _. destruct c as [u|e]; [destruct (rr_type rec =? RT_SOA); exact I|].
  destruct (e =? 99); exact I.
Qed.

(* a reply to an A question that carries a SOA is refused, not unreachable!() *)
Example xfr_first_non_xfr_question :
  xfr_first [0;7;128;0; 0;1; 0;1; 0;0; 0;0;  1;97;0; 0;1; 0;1;
             192;12; 0;6; 0;1; 0;0;0;60; 0;24; 192;12; 192;12; 0;0;0;1; 0;0;0;2; 0;0;0;3; 0;0;0;4; 0;0;0;5] = Ok 10.
Proof. vm_compute. reflexivity. Qed.
Example xfr_first_axfr :
  xfr_first [0;7;128;0; 0;1; 0;1; 0;0; 0;0;  1;97;0; 0;252; 0;1;
             192;12; 0;6; 0;1; 0;0;0;60; 0;24; 192;12; 192;12; 0;0;0;1; 0;0;0;2; 0;0;0;3; 0;0;0;4; 0;0;0;5] = Ok 0.
Proof. vm_compute. reflexivity. Qed.

Lemma push_section_sat st (x : outcome sect) P : sat x P -> sat (push_section st x) (fun _ => True).
Proof. destruct x; cbn; auto. Qed.

Lemma run_op_sat m st o : has_header m -> sat (run_op m st o) (fun _ => True).
Proof.
  intros Hh. destruct o; cbn [run_op].
  - eapply push_section_sat. apply question_section_sat. exact Hh.
  - eapply push_section_sat. apply msg_answer_sat. exact Hh.
  - eapply push_section_sat. apply msg_authority_sat. exact Hh.
  - eapply push_section_sat. apply msg_additional_sat. exact Hh.
  - destruct (nth_error st i) as [s|]; [|exact I]. destruct (s_kind s =? 0); [|exact I].
    eapply sat_bind; [apply q_next_sat|]. intros [[[q|e]|] s'] (_ & _ & Ho); try exact I.
    eapply sat_bind; [apply q_view_sat; exact Ho|]. intros v _. exact I.
  - destruct (nth_error st i) as [s|]; [|exact I]. destruct (s_kind s =? 0); [|exact I].
    eapply push_section_sat. apply q_to_answer_sat. exact Hh.
  - destruct (nth_error st i) as [s|]; [|exact I]. destruct (s_kind s =? 0); [exact I|].
    eapply sat_bind; [apply r_next_sat|]. intros [[[x|e]|] s'] (_ & _ & Hg); try exact I.
    eapply sat_bind; [apply observe_name_sat, Hg|]. intros n _. exact I.
  - destruct (nth_error st i) as [s|]; [|exact I]. destruct (s_kind s =? 0); [exact I|].
    pose proof (r_next_section_sat m s Hh) as Hn.
    destruct (r_next_section m s) as [[n|]|e| |]; cbn [sat] in *; auto.
  - eapply sat_bind; [apply first_question_sat; exact Hh|]. intros fq Hfq.
    destruct fq as [q|]; [|exact I].
    eapply sat_bind; [apply q_view_sat; exact Hfq|]. intros v _. exact I.
  - pose proof (sole_question_sat m Hh) as Hs.
    destruct (sole_question m) as [q|e| |]; cbn [sat] in Hs; try contradiction; [|exact I].
    eapply sat_bind; [apply q_view_sat; exact Hs|]. intros v _. exact I.
  - eapply sat_bind; [apply is_answer_sat; exact Hh|]. intros b _. exact I.
  - eapply sat_bind; [apply canonical_name_sat; exact Hh|]. intros cn Hcn.
    destruct cn as [p|]; [|exact I].
    eapply sat_bind; [apply observe_name_sat; exact Hcn|]. intros v _. exact I.
  - pose proof (msg_sections_sat m Hh) as Hs.
    destruct (msg_sections m) as [[[[q a] n] r]|e| |]; cbn [sat] in *; auto.
  - destruct (count_offsets m Hh) as [Hqd [Han [Hns Har]]].
    eapply sat_bind; [apply count_at_sat; exact Hqd|]. intros qd _.
    eapply sat_bind; [apply count_at_sat; exact Han|]. intros an _.
    eapply sat_bind; [apply count_at_sat; exact Hns|]. intros ns _.
    eapply sat_bind; [apply count_at_sat; exact Har|]. intros ar _. exact I.
  - destruct (iter_slice_finite m start) as [ls E]. rewrite E. exact I.
  - eapply sat_bind; [apply message_typed_sat; exact Hh|]. intros l _. exact I.
  - eapply sat_bind; [apply msg_opt_typed_sat; exact Hh|]. intros l _. exact I.
Qed.

Lemma run_ops_sat m : forall ops st, has_header m -> sat (run_ops m st ops) (fun _ => True).
Proof.
  induction ops as [|o t IH]; intros st Hh; cbn [run_ops]; [exact I|].
  eapply sat_bind; [apply run_op_sat; exact Hh|]. intros r _.
  eapply sat_bind; [apply IH; exact Hh|]. intros rest _. exact I.
Qed.

Theorem read_ops_total m ops : no_panic (read_ops m ops).
Proof.
  apply (sat_no_panic _ (fun _ => True)). unfold read_ops.
  destruct (from_octets_ok m) eqn:Eh; cbn [negb]; [|exact I]. apply from_octets_header in Eh.
  eapply sat_bind; [apply run_ops_sat; exact Eh|]. intros r _. exact I.
Qed.

(* a call does not disturb the others: iterators are values, the message is
   immutable -- a message-level call gives the same result whatever was done
   before it (whatever iterators are alive and wherever they stand) *)
Definition ofst {A B} (x : outcome (A * B)) : outcome A :=
  match x with Ok (a, _) => Ok a | Err e => Err e | Panic p => Panic p | OutOfFuel => OutOfFuel end.

Lemma ofst_bind {A B C} (x : outcome A) (f g : A -> outcome (B * C)) :
  (forall a, ofst (f a) = ofst (g a)) -> ofst (bind x f) = ofst (bind x g).
Proof. intros H. destruct x; cbn [bind]; auto. Qed.

Theorem run_op_state_independent m st st' o :
  match o with OQNext _ | OQAnswer _ | ORNext _ | ORNextSection _ => False | _ => True end ->
  ofst (run_op m st o) = ofst (run_op m st' o).
Proof.
  intros Ho. destruct o; try contradiction; cbn [run_op]; unfold push_section.
  - destruct (question_section m); reflexivity.
  - destruct (msg_answer m); reflexivity.
  - destruct (msg_authority m); reflexivity.
  - destruct (msg_additional m); reflexivity.
  - apply ofst_bind. intros [q|]; [apply ofst_bind; intros v; reflexivity|reflexivity].
  - destruct (sole_question m); try reflexivity. apply ofst_bind. intros v. reflexivity.
  - apply ofst_bind. intros b. reflexivity.
  - apply ofst_bind. intros [p|]; [apply ofst_bind; intros v; reflexivity|reflexivity].
  - destruct (msg_sections m) as [[[[q a] n] r]| | |]; reflexivity.
  - repeat (apply ofst_bind; intros ?). reflexivity.
  - apply ofst_bind. intros l. reflexivity.
  - apply ofst_bind. intros l. reflexivity.
  - apply ofst_bind. intros l. reflexivity.
Qed.

Example read_ops_example :
  read_ops [0;7;128;0; 0;1; 0;0; 0;0; 0;0; 1;97;0; 0;1; 0;1]
           [OQuestion; OQNext 0; OQNext 0; OQAnswer 0; ORNext 1; ORNextSection 1; OSelf] =
  Ok (Some [RPos 12; RQ (mkNO 12 3 false [[97]] true, 1, 1) 19; REnd; RPos 19; REnd; RPos 19; RBool true]).
Proof. vm_compute. reflexivity. Qed.

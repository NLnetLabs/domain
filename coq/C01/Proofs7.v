(* C01 proofs, part 7: what the typed parser accepted, the
   display-time iterators walk without reaching an unwrap / expect / index
   panic: TXT character strings, SVCB parameters and their values. *)
From Coq Require Import Arith NArith List Bool Lia.
From DV Require Import Base.Outcome Base.Bytes C01.Model C05.Schema C01.Model4.
Import ListNotations.
Local Open Scope N_scope.

Lemma len_length (d : bytes) : len d = N.of_nat (length d).
Proof. reflexivity. Qed.

(* the loop shared by Txt::iter and AlpnIter succeeds on what alpn_check accepts ... *)
Lemma iter_loop_of_check : forall fuel d acc, alpn_check fuel d = true ->
  exists l, txt_iter_loop fuel d acc = Ok l.
Proof.
  induction fuel as [|fuel IH]; intros d acc H; [discriminate|].
  cbn [alpn_check] in H. cbn [txt_iter_loop]. destruct d as [|l rest]; [eauto|].
  destruct (len rest <? l); [discriminate|]. apply IH. exact H.
Qed.

(* ... and Txt::check_slice makes the same test, counting the length octet in *)
Lemma txt_check_loop_alpn : forall fuel d, txt_check_loop fuel d = alpn_check fuel d.
Proof.
  induction fuel as [|fuel IH]; intros [|l rest]; cbn [txt_check_loop alpn_check]; try reflexivity.
  rewrite IH. replace (len (l :: rest) <=? l) with (len rest <? l); [reflexivity|].
  unfold len. cbn [length].
  destruct (N.ltb_spec (N.of_nat (length rest)) l), (N.leb_spec (N.of_nat (S (length rest))) l); try reflexivity; lia.
Qed.

(* Txt::iter / iter_charstrs on data Txt::check_slice accepted *)
Theorem txt_iter_total d : txt_check d = true -> exists l, txt_iter d = Ok l.
Proof.
  unfold txt_check, txt_iter. intros H. apply andb_true_iff in H. destruct H as [_ H].
  apply iter_loop_of_check. rewrite <- txt_check_loop_alpn. exact H.
Qed.

Example txt_iter_example : txt_iter [1;97;0;2;98;99] = Ok [[97]; []; [98;99]].
Proof. vm_compute. reflexivity. Qed.
Example txt_iter_unchecked_panics : txt_iter [5;97] = Panic P_UNWRAP.
Proof. vm_compute. reflexivity. Qed.

Lemma chunks_total (k : nat) : (0 < k)%nat -> forall q fuel d acc,
  length d = (q * k)%nat -> (q < fuel)%nat -> exists l, chunks fuel k d acc = Ok l.
Proof.
  intros Hk. induction q as [|q IH]; intros fuel d acc Hl Hf; (destruct fuel as [|fuel]; [lia|]); cbn [chunks].
  - destruct d; [eauto|cbn in Hl; lia].
  - destruct d as [|x d']; [cbn in Hl; lia|].
    destruct (Nat.ltb_spec (length (x :: d')) k) as [Hc|Hc]; [lia|].
    apply IH; [rewrite skipn_length; lia|lia].
Qed.

Lemma even_mult n : Nat.even n = true -> exists q, n = (q * 2)%nat.
Proof. intros H. apply Nat.even_spec in H. destruct H as [q Hq]. exists q. lia. Qed.

Lemma mod_mult n k : (0 < k)%nat -> (n mod k =? 0)%nat = true -> exists q, n = (q * k)%nat.
Proof.
  intros Hk H. apply Nat.eqb_eq in H. exists (n / k)%nat.
  pose proof (Nat.div_mod n k ltac:(lia)). lia.
Qed.

(* a value cut into k-octet pieces behind a guard that makes its length a multiple of k *)
Lemma guarded_chunks {A} (g : bool) k v (f : list bytes -> A) (u : A) : (0 < k)%nat ->
  (g = true -> exists q, length v = (q * k)%nat) ->
  exists x, (if g then do l <- chunks (S (length v)) k v []; Ok (f l) else Ok u) = Ok x.
Proof.
  intros Hk H. destruct g; [|eauto]. destruct (H eq_refl) as [q Hq].
  destruct (chunks_total k Hk q (S (length v)) v [] Hq) as [l El]; [destruct k; [lia|nia]|].
  rewrite El. cbn [bind]. eauto.
Qed.

(* AllValues::parse_any + the value's Display iteration: never a panic, for
   any key and any value octets *)
Theorem svc_value_total key v : exists x, svc_value key v = Ok x.
Proof.
  unfold svc_value. cbv zeta.
  repeat match goal with
  | |- context [if ?k =? ?n then _ else _] =>
      lazymatch k with key => destruct (k =? n) end
  end;
  try (eexists; reflexivity).
  - apply guarded_chunks; [lia|]. intros E. apply andb_true_iff in E. apply even_mult, E.
  - destruct (negb (65535 <? len v) && alpn_check (S (length v)) v) eqn:E; [|eauto].
    apply andb_true_iff in E. destruct E as [_ E].
    destruct (iter_loop_of_check _ _ [] E) as [l El]. unfold alpn_iter. rewrite El. cbn [bind]. eauto.
  - destruct v as [|a [|b v']]; eauto.
  - destruct (65535 <? len v); eauto.
  - apply guarded_chunks; [lia|]. intros E. apply andb_true_iff in E. apply mod_mult; [lia|apply E].
  - apply guarded_chunks; [lia|]. intros E. apply andb_true_iff in E. apply mod_mult; [lia|apply E].
  - destruct (65535 <? len v); eauto.
  - apply guarded_chunks; [lia|]. intros E. apply andb_true_iff in E. apply even_mult, E.
Qed.

(* Display / ZonefileFmt / iter_raw over parameters SvcParams::check_slice
   accepted: the three expects are unreachable *)
Lemma svc_walk_of_check : forall fuel d last acc, svcparams_check fuel d last = None ->
  exists l, svc_walk fuel d acc = Ok l.
Proof.
  induction fuel as [|fuel IH]; intros d last acc H; [discriminate|].
  cbn [svcparams_check] in H. cbn [svc_walk].
  destruct d as [|k1 [|k2 rest]]; [eauto|discriminate|].
  destruct (k1 * 256 + k2 + 1 <=? last); [discriminate|].
  destruct rest as [|l1 [|l2 rest']]; try discriminate.
  destruct (Nat.ltb_spec (length rest') (N.to_nat (l1 * 256 + l2))) as [Hc|Hc]; [discriminate|].
  destruct (N.ltb_spec (len rest') (l1 * 256 + l2)) as [Hx|Hx]; [rewrite len_length in Hx; lia|].
  destruct (svc_value_total (k1 * 256 + k2) (firstn (N.to_nat (l1 * 256 + l2)) rest')) as [x Ex].
  rewrite Ex. cbn [bind]. eapply IH. exact H.
Qed.

Theorem svc_display_total d : rest_check KSvcParams d = None -> exists l, svc_display d = Ok l.
Proof. unfold rest_check, svc_display. apply svc_walk_of_check. Qed.

Example svc_display_example :
  svc_display [0;1;0;3;2;104;50; 0;3;0;2;1;187; 0;4;0;4;1;2;3;4] =
  Ok [VAlpn [[104;50]]; VPort 443; VIpv4 [[1;2;3;4]]].
Proof. vm_compute. reflexivity. Qed.
Example svc_display_unchecked_panics : svc_display [0;1;0;9;2] = Panic P_UNWRAP.
Proof. vm_compute. reflexivity. Qed.

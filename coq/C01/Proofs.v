(* C01 proofs, part 1: name parsing (ParsedName::parse_ref / skip) is total,
   skip stops where parse_ref stops, and what parse_ref accepts is safe for the
   unchecked label iterator. *)
From Coq Require Import PeanoNat NArith List Bool Lia.
From DV Require Import Base.Outcome Base.Bytes Base.Names Base.PName C01.Gen C01.Model.
Import ListNotations.
Local Open Scope N_scope.

(* The literals of parsed.rs that Base/PName.v has hard-wired are
   the ones T1 reads from the source now.  A changed literal or operator makes
   this lemma fail to compile. *)
Definition gen_matches_pname : bool :=
  (lt_normal_max =? 63) && (lt_ptr_min =? 192) && (lt_ptr_max =? 255) &&
  (lt_ptr_mask =? 63) && (lt_ptr_shift =? 8) &&
  parse_long_ge && negb parse_long_gt && (parse_long_limit =? 255) &&
  ptr_check_ge && (ptr_back =? 2) &&
  skip_long_gt && negb skip_long_ge && (skip_long_limit =? 255) &&
  (gl_normal_max =? 63) && (gl_ptr_min =? 192) && (gl_ptr_max =? 255) &&
  (gl_ptr_mask =? 63) && (gl_ptr_shift =? 8).

Lemma gen_matches_pname_ok : gen_matches_pname = true.
Proof. reflexivity. Qed.

(* PARSE_FUEL is kept folded in all proofs (the kernel must never unroll the
   300-deep fixpoints while checking conversions). *)
Lemma PARSE_FUEL_val : PARSE_FUEL = 300%nat.
Proof. reflexivity. Qed.
Lemma parse_ref_eq m pos lim :
  parse_ref m pos lim = parse_labels PARSE_FUEL m lim pos 0 pos false None.
Proof. unfold parse_ref. reflexivity. Qed.
Lemma skip_name_eq m pos lim : skip_name m pos lim = skip_labels PARSE_FUEL m lim pos 0.
Proof. unfold skip_name. reflexivity. Qed.
Lemma pname_labels_eq m p :
  pname_labels m p = iter_labels PARSE_FUEL m (pn_pos p) (pn_len p) [].
Proof. unfold pname_labels. reflexivity. Qed.
Opaque PARSE_FUEL.

Lemma lor_shiftl_add c x n : c < 2 ^ n -> N.lor c (N.shiftl x n) = c + x * 2 ^ n.
Proof.
  intros Hc. rewrite N.lor_comm, N.shiftl_mul_pow2, lor_mul_pow2_add by exact Hc. apply N.add_comm.
Qed.

Lemma ptr_bits_ones k n b c : c < 2 ^ n ->
  ptr_bits (N.ones k) n b c = c + 2 ^ n * (b mod 2 ^ k).
Proof.
  intros Hc. unfold ptr_bits. rewrite N.land_ones, (lor_shiftl_add _ _ _ Hc). f_equal. apply N.mul_comm.
Qed.

Lemma ptr_bits_arith b c : c < 256 -> ptr_bits 63 8 b c = c + 256 * (b mod 64).
Proof. exact (ptr_bits_ones 6 8 b c). Qed.

Lemma ptr_bits_gen b c : b < 256 -> c < 256 ->
  ptr_bits lt_ptr_mask lt_ptr_shift b c = c + 256 * (b mod 64) /\
  ptr_bits gl_ptr_mask gl_ptr_shift b c = c + 256 * (b mod 64) /\
  ptr_bits sf_ptr_mask sf_ptr_shift b c = c + 256 * (b mod 64).
Proof. intros _ Hc. repeat split; exact (ptr_bits_arith b c Hc). Qed.

Example ptr_bits_example : ptr_bits 63 8 0xC1 0x0C = 268.
Proof. reflexivity. Qed.

Lemma get_lt m i b : get m i = Some b -> i < mlen m.
Proof.
  unfold get, mlen. intros H.
  assert (Hs : nth_error m (N.to_nat i) <> None) by congruence.
  apply nth_error_Some in Hs. lia.
Qed.

Lemma get_some m i : i < mlen m -> exists b, get m i = Some b.
Proof.
  unfold get, mlen. intros H.
  destruct (nth_error m (N.to_nat i)) eqn:E; eauto.
  apply nth_error_None in E. lia.
Qed.

Lemma get_wf m i b : wf_bytes m -> get m i = Some b -> b < 256.
Proof.
  unfold wf_bytes, get. intros Hw H. apply nth_error_In in H.
  rewrite Forall_forall in Hw. apply Hw. exact H.
Qed.

Lemma slice_length m a b : a <= b -> b <= mlen m -> length (slice m a b) = N.to_nat (b - a).
Proof.
  unfold slice, mlen. intros. rewrite firstn_length, skipn_length. lia.
Qed.

Lemma slice_nil m a : slice m a a = [].
Proof. unfold slice. rewrite N.sub_diag. reflexivity. Qed.

Lemma slice_wf m a b : wf_bytes m -> wf_bytes (slice m a b).
Proof.
  unfold slice. intros H.
  rewrite <- (firstn_skipn (N.to_nat a) m) in H. apply wf_bytes_app, proj2 in H.
  rewrite <- (firstn_skipn (N.to_nat (b - a)) (skipn _ m)) in H. apply wf_bytes_app in H. apply H.
Qed.

Lemma ltp_spec m pos lim :
  match label_type_parse m pos lim with
  | Ok (LNormal b, pos') => pos < lim /\ get m pos = Some b /\ b <= 63 /\ pos' = pos + 1
  | Ok (LCompressed p, pos') => pos + 1 < lim /\ exists b c, get m pos = Some b /\ 63 < b /\ 192 <= b /\
      get m (pos + 1) = Some c /\ p = c + 256 * (b mod 64) /\ pos' = pos + 2
  | Err _ => True
  | Panic _ => mlen m < lim
  | OutOfFuel => False
  end.
Proof.
  assert (Hnone : forall i, get m i = None -> i < lim -> mlen m < lim).
  { intros i E Hi. destruct (N.lt_ge_cases i (mlen m)) as [H|H]; [|lia].
    destruct (get_some m i H) as [x Hx]. congruence. }
  unfold label_type_parse.
  destruct (N.leb_spec lim pos) as [H1|H1]; [exact I|].
  destruct (get m pos) as [b|] eqn:Eb; [|exact (Hnone _ Eb H1)].
  destruct (N.leb_spec b 63) as [H2|H2]; [repeat split; assumption|].
  destruct (N.leb_spec 192 b) as [H3|H3]; [|exact I].
  destruct (N.leb_spec lim (pos + 1)) as [H4|H4]; [exact I|].
  destruct (get m (pos + 1)) as [c|] eqn:Ec; [|exact (Hnone _ Ec H4)].
  split; [assumption|]. exists b, c. repeat split; assumption.
Qed.

Lemma ltp_inv m pos lim r pos' :
  label_type_parse m pos lim = Ok (r, pos') ->
  pos < lim /\ exists b, get m pos = Some b /\
   ((b <= 63 /\ r = LNormal b /\ pos' = pos + 1) \/
    (63 < b /\ 192 <= b /\ pos + 1 < lim /\ exists c, get m (pos + 1) = Some c /\
       r = LCompressed (c + 256 * (b mod 64)) /\ pos' = pos + 2)).
Proof.
  intros H. pose proof (ltp_spec m pos lim) as Hs. rewrite H in Hs. destruct r as [b|p].
  - destruct Hs as (Hlt & Hb & Hle & Hp). split; [assumption|]. exists b. auto.
  - destruct Hs as (Hlt & b & c & Hb & H63 & H192 & Hc & -> & Hp). split; [lia|].
    exists b. split; [assumption|]. right. repeat split; try assumption. exists c. auto.
Qed.

Definition is_normal (m : bytes) (cur lim : N) : Prop :=
  exists l c', label_type_parse m cur lim = Ok (LNormal l, c').

(* resolve m pos t: starting at pos and following compression pointers, each
   pointing strictly backwards, one arrives at the ordinary label head at t. *)
Inductive resolve (m : bytes) : N -> N -> Prop :=
| res_here pos b : get m pos = Some b -> b <= 63 -> resolve m pos pos
| res_ptr pos b c t : get m pos = Some b -> 63 < b -> 192 <= b -> get m (pos + 1) = Some c ->
    c + 256 * (b mod 64) < pos -> resolve m (c + 256 * (b mod 64)) t -> resolve m pos t.

Lemma resolve_trans m a t t' : resolve m a t -> resolve m t t' -> resolve m a t'.
Proof.
  induction 1 as [pos b Hb Hle | pos b c t Hb H63 H192 Hc Hlt Hr IH]; intros H2.
  - exact H2.
  - eapply res_ptr; eauto.
Qed.

Lemma resolve_start m a t : resolve m a t -> a < mlen m.
Proof. destruct 1; eapply get_lt; eauto. Qed.

Lemma resolve_target m a t : resolve m a t -> t <= a /\ exists b, get m t = Some b /\ b <= 63.
Proof.
  induction 1 as [pos b Hb Hle | pos b c t Hb H63 H192 Hc Hlt Hr IH].
  - split; [lia|]. eauto.
  - destruct IH as [IH1 IH2]. split; [lia|exact IH2].
Qed.

(* every hop goes strictly backwards, so fuel ptr + 2 is never used up *)
Lemma hops_spec : forall fuel m lim ptr after,
  match hops fuel m lim ptr after with
  | Ok tgt => ptr < after - 2 /\ resolve m ptr tgt /\ tgt < lim /\ is_normal m tgt lim
  | Err _ => True
  | Panic _ => mlen m < lim
  | OutOfFuel => fuel = 0%nat \/ (ptr < after - 2 /\ (fuel < N.to_nat ptr + 2)%nat)
  end.
Proof.
  induction fuel as [|fuel IH]; intros m lim ptr after; [left; reflexivity|].
  cbn [hops].
  destruct (N.leb_spec (after - 2) ptr) as [H1|H1]; [exact I|].
  destruct (N.ltb_spec lim ptr) as [H2|H2]; [exact I|].
  pose proof (ltp_spec m ptr lim) as Hs.
  destruct (label_type_parse m ptr lim) as [[[b|p] pos']| | |] eqn:E; try exact Hs; try contradiction.
  - destruct Hs as (Hlt & Hb & Hle & _).
    split; [assumption|]. split; [eapply res_here; eauto|]. split; [assumption|]. exists b, pos'. exact E.
  - destruct Hs as (_ & b & c & Hb & H63 & H192 & Hc & -> & ->).
    specialize (IH m lim (c + 256 * (b mod 64)) (ptr + 2)).
    destruct (hops fuel m lim (c + 256 * (b mod 64)) (ptr + 2)) as [tgt| | |]; [|exact I|exact IH|].
    + destruct IH as (Hback & Hres & Hn). split; [assumption|]. split; [|exact Hn].
      eapply res_ptr; eauto. lia.
    + right. split; [assumption|]. destruct IH as [->|[Hback Hf]]; lia.
Qed.

(* A label step raises the name length by at least 2 and a pointer step is
   followed by a label step (hops ends at an ordinary label head): at most
   256 - nl steps, one less from an ordinary label. *)
Lemma parse_labels_spec : forall fuel m lim cur nl start c e,
  nl <= 254 ->
  ((256 - N.to_nat nl <= fuel)%nat \/ ((255 - N.to_nat nl <= fuel)%nat /\ is_normal m cur lim)) ->
  match parse_labels fuel m lim cur nl start c e with
  | Panic _ => mlen m < lim
  | OutOfFuel => False
  | _ => True
  end.
Proof.
  induction fuel as [|fuel IH]; intros m lim cur nl start c e Hnl Hf.
  - exfalso. destruct Hf as [Hf|[Hf _]]; lia.
  - cbn [parse_labels]. pose proof (ltp_spec m cur lim) as Hs.
    destruct (label_type_parse m cur lim) as [[[l|ptr] cur']| | |] eqn:E; try exact Hs.
    + destruct (N.eqb_spec l 0) as [Hl0|Hl0]; [exact I|].
      destruct (lim - cur' <? l); [exact I|].
      destruct (N.leb_spec 255 (nl + l + 1)) as [Hc|Hc]; [exact I|].
      apply IH; [lia|]. left. destruct Hf as [Hf|[Hf _]]; lia.
    + assert (Hf' : (255 - N.to_nat nl <= fuel)%nat).
      { destruct Hf as [Hf|[_ [l [c' Hn]]]]; [lia|]. rewrite E in Hn. discriminate. }
      pose proof (hops_spec (S (S (N.to_nat ptr))) m lim ptr cur') as Hh.
      destruct (hops (S (S (N.to_nat ptr))) m lim ptr cur') as [tgt| | |]; cbn [bind]; [|exact I|exact Hh|].
      * destruct Hh as (_ & _ & _ & Hn). destruct (nl =? 0); apply IH; auto.
      * destruct Hh as [Hh|[_ Hh]]; [discriminate|lia].
Qed.

Lemma parse_ref_spec m pos lim :
  match parse_ref m pos lim with Panic _ => mlen m < lim | OutOfFuel => False | _ => True end.
Proof. rewrite parse_ref_eq. apply parse_labels_spec; [lia|]. left. rewrite PARSE_FUEL_val. lia. Qed.

Theorem parse_ref_no_fuel m pos lim : parse_ref m pos lim <> OutOfFuel.
Proof. intros E. pose proof (parse_ref_spec m pos lim) as H. rewrite E in H. exact H. Qed.

Theorem parse_ref_total m pos lim : lim <= mlen m -> no_panic (parse_ref m pos lim).
Proof.
  intros Hl. pose proof (parse_ref_spec m pos lim) as H.
  destruct (parse_ref m pos lim); cbn [no_panic]; [exact I|exact I|lia|exact H].
Qed.

Example parse_ref_example :
  parse_ref [3;119;119;119;0;192;0] 5 7 = Ok (mkPName 0 5 false 7).
Proof. vm_compute. reflexivity. Qed.

Lemma skip_labels_spec : forall fuel m lim cur len,
  match skip_labels fuel m lim cur len with
  | Ok e => cur < e <= lim
  | Err _ => True
  | Panic _ => mlen m < lim
  | OutOfFuel => 255 < len \/ (fuel + N.to_nat len < 257)%nat
  end.
Proof.
  induction fuel as [|fuel IH]; intros m lim cur len; cbn [skip_labels]; [lia|].
  pose proof (ltp_spec m cur lim) as Hs.
  destruct (label_type_parse m cur lim) as [[[l|ptr] cur']| | |]; try exact Hs; try contradiction.
  - destruct Hs as (Hlt & _ & _ & ->). destruct (N.eqb_spec l 0) as [Hl0|Hl0].
    + destruct (255 <? len + 1); [exact I|lia].
    + destruct (N.ltb_spec (lim - (cur + 1)) l); [exact I|].
      destruct (N.ltb_spec 255 (len + l + 1)); [exact I|].
      specialize (IH m lim (cur + 1 + l) (len + l + 1)).
      destruct (skip_labels fuel m lim (cur + 1 + l) (len + l + 1)); [lia|exact I|exact IH|lia].
  - destruct Hs as (Hlt & b & c & _ & _ & _ & _ & _ & ->). lia.
Qed.

Lemma skip_labels_end fuel m lim cur len e :
  cur <= lim -> skip_labels fuel m lim cur len = Ok e -> cur < e <= lim.
Proof. intros _ H. pose proof (skip_labels_spec fuel m lim cur len) as Hs. rewrite H in Hs. exact Hs. Qed.

Lemma skip_name_no_fuel m pos lim : skip_name m pos lim <> OutOfFuel.
Proof.
  rewrite skip_name_eq. intros E. pose proof (skip_labels_spec PARSE_FUEL m lim pos 0) as Hs.
  rewrite E, PARSE_FUEL_val in Hs. lia.
Qed.

Theorem skip_name_total m pos lim : lim <= mlen m -> no_panic (skip_name m pos lim).
Proof.
  intros Hl. pose proof (skip_name_no_fuel m pos lim) as Hf. rewrite skip_name_eq in *.
  pose proof (skip_labels_spec PARSE_FUEL m lim pos 0) as Hs.
  destruct (skip_labels PARSE_FUEL m lim pos 0); cbn [no_panic]; [exact I|exact I|lia|congruence].
Qed.

Example skip_name_example : skip_name [1;97;192;0;9] 0 5 = Ok 4.
Proof. vm_compute. reflexivity. Qed.

Lemma parse_labels_end_some : forall fuel m lim cur nl start c e p,
  parse_labels fuel m lim cur nl start c (Some e) = Ok p -> pn_end p = e.
Proof.
  induction fuel as [|fuel IH]; intros m lim cur nl start c e p H; [discriminate|].
  cbn [parse_labels] in H.
  destruct (label_type_parse m cur lim) as [[[l|ptr] cur']| | |]; try discriminate.
  - destruct (l =? 0); [inversion H; reflexivity|].
    destruct (lim - cur' <? l); [discriminate|].
    destruct (255 <=? nl + l + 1); [discriminate|]. eapply IH; exact H.
  - destruct (hops (S (S (N.to_nat ptr))) m lim ptr cur') as [tgt| | |]; cbn [bind] in H; try discriminate.
    destruct (nl =? 0); eapply IH; exact H.
Qed.

(* `255 <=` in parse and `255 <` in skip are the same test: parse adds the
   root octet later *)
Lemma parse_then_skip : forall fuel m lim cur nl start c p,
  nl <= 254 -> parse_labels fuel m lim cur nl start c None = Ok p ->
  skip_labels fuel m lim cur nl = Ok (pn_end p).
Proof.
  induction fuel as [|fuel IH]; intros m lim cur nl start c p Hnl H; [discriminate|].
  cbn [parse_labels] in H. cbn [skip_labels].
  destruct (label_type_parse m cur lim) as [[[l|ptr] cur']| | |]; try discriminate.
  - destruct (N.eqb_spec l 0).
    + inversion H; subst p. cbn [pn_end]. destruct (N.ltb_spec 255 (nl + 1)); [lia|reflexivity].
    + destruct (lim - cur' <? l); [discriminate|].
      destruct (N.leb_spec 255 (nl + l + 1)); [discriminate|].
      destruct (N.ltb_spec 255 (nl + l + 1)); [lia|].
      eapply IH; [lia|exact H].
  - destruct (hops (S (S (N.to_nat ptr))) m lim ptr cur') as [tgt| | |]; cbn [bind] in H; try discriminate.
    destruct (nl =? 0); apply parse_labels_end_some in H; rewrite H; reflexivity.
Qed.

Theorem parse_ref_skip_agree m pos lim p :
  parse_ref m pos lim = Ok p -> skip_name m pos lim = Ok (pn_end p).
Proof.
  intros H. rewrite parse_ref_eq in H. rewrite skip_name_eq.
  eapply parse_then_skip; [|exact H]. lia.
Qed.

Lemma parse_ref_end m pos lim p : pos <= lim -> parse_ref m pos lim = Ok p -> pn_end p <= lim.
Proof.
  intros _ H. apply parse_ref_skip_agree in H. rewrite skip_name_eq in H.
  pose proof (skip_labels_spec PARSE_FUEL m lim pos 0) as Hs. rewrite H in Hs. lia.
Qed.

(* walk m pos ls: the unchecked traversal from pos (labels and backward
   pointers) meets exactly the labels ls and then the root label. *)
Inductive walk (m : bytes) : N -> name -> Prop :=
| walk_root pos t : resolve m pos t -> get m t = Some 0 -> walk m pos []
| walk_label pos t l ls : resolve m pos t -> get m t = Some l -> 1 <= l -> l <= 63 ->
    t + 1 + l <= mlen m -> walk m (t + 1 + l) ls ->
    walk m pos (slice m (t + 1) (t + 1 + l) :: ls).

Lemma walk_prepend m a t ls : resolve m a t -> walk m t ls -> walk m a ls.
Proof.
  intros Hr Hw. inversion Hw; subst.
  - eapply walk_root; [eapply resolve_trans; eauto|assumption].
  - eapply walk_label; eauto. eapply resolve_trans; eauto.
Qed.

Lemma walk_valid m pos ls : wf_bytes m -> walk m pos ls -> Forall valid_label ls.
Proof.
  intros Hw. induction 1 as [|pos t l ls Hr Hg H1 H63 Hlen Hwalk IH]; constructor; [|exact IH].
  unfold valid_label. rewrite slice_length by lia. split; [lia|]. apply slice_wf. assumption.
Qed.

Lemma walk_count m pos ls : walk m pos ls -> (2 * length ls <= wire_len ls)%nat.
Proof.
  induction 1 as [|pos t l ls Hr Hg H1 H63 Hlen Hwalk IH]; cbn [length wire_len]; [lia|].
  rewrite slice_length by lia. lia.
Qed.

(* The recorded start is the position of the name unless a pointer is met
   before any label (nl = 0): then the name starts at the pointer's target. *)
Lemma parse_labels_sound : forall fuel m lim cur nl start c e p,
  lim <= mlen m -> nl <= 254 ->
  parse_labels fuel m lim cur nl start c e = Ok p ->
  exists ls, walk m cur ls /\ pn_len p = nl + N.of_nat (wire_len ls) + 1 /\ pn_len p <= 255 /\
             (pn_pos p = start \/ (nl = 0 /\ walk m (pn_pos p) ls)).
Proof.
  induction fuel as [|fuel IH]; intros m lim cur nl start c e p Hl Hnl H; [discriminate|].
  cbn [parse_labels] in H. pose proof (ltp_spec m cur lim) as Hs.
  destruct (label_type_parse m cur lim) as [[[b|ptr] cur']| | |]; try discriminate.
  - destruct Hs as (Hlt & Hb & Hle & ->).
    assert (Hr : resolve m cur cur) by (eapply res_here; eauto).
    destruct (N.eqb_spec b 0) as [Hb0|Hb0].
    + inversion H; subst p b. exists []. cbn [pn_len pn_pos wire_len].
      split; [eapply walk_root; eauto|]. split; [lia|]. split; [lia|]. left. reflexivity.
    + destruct (N.ltb_spec (lim - (cur + 1)) b) as [Hs|Hs]; [discriminate|].
      destruct (N.leb_spec 255 (nl + b + 1)) as [Hc|Hc]; [discriminate|].
      apply IH in H; [|assumption|lia].
      destruct H as (ls & Hw & Hlen & H255 & Hpos).
      exists (slice m (cur + 1) (cur + 1 + b) :: ls).
      split; [apply (walk_label m cur cur b ls); auto; lia|].
      cbn [wire_len]. rewrite slice_length by lia.
      split; [lia|]. split; [assumption|]. left. destruct Hpos as [Hpos|[Hz _]]; [assumption|lia].
  - destruct Hs as (_ & b & c0 & Hb & H63 & H192 & Hc & -> & ->).
    pose proof (hops_spec (S (S (N.to_nat (c0 + 256 * (b mod 64))))) m lim (c0 + 256 * (b mod 64)) (cur + 2)) as Hh.
    destruct (hops _ m lim _ (cur + 2)) as [tgt| | |]; cbn [bind] in H; try discriminate.
    destruct Hh as (Hback & Hres & _).
    assert (Hrc : resolve m cur tgt) by (eapply res_ptr; eauto; lia).
    destruct (N.eqb_spec nl 0) as [Hz|Hz]; apply IH in H; try assumption;
      destruct H as (ls & Hw & Hlen & H255 & Hpos); exists ls;
      (split; [eapply walk_prepend; eauto|]); (split; [assumption|]); (split; [assumption|]).
    + right. split; [assumption|]. destruct Hpos as [Hpos|[_ Hpos]]; [rewrite Hpos|]; assumption.
    + left. destruct Hpos as [Hpos|[Hz' _]]; [assumption|contradiction].
Qed.

Lemma get_label_resolve m pos t b : resolve m pos t ->
  get m t = Some b -> b <= 63 -> t + 1 + b <= mlen m ->
  get_label (S (length m)) m pos = Ok (slice m (t + 1) (t + 1 + b), t + 1 + b).
Proof.
  intros Hr Hb Hle Hlen.
  assert (Hs : (N.to_nat pos < S (length m))%nat) by (apply resolve_start in Hr; unfold mlen in Hr; lia).
  revert Hs. generalize (S (length m)) as fuel.
  induction Hr as [pos b0 Hb0 Hle0 | pos b0 c t Hb0 H63 H192 Hc Hlt Hr IH]; intros [|fuel] Hf; try lia;
    cbn [get_label]; rewrite Hb0.
  - replace b0 with b by congruence.
    destruct (N.leb_spec b 63); [|lia]. cbv zeta. destruct (N.ltb_spec (mlen m) (pos + 1 + b)); [lia|reflexivity].
  - destruct (N.leb_spec b0 63); [lia|]. destruct (N.leb_spec 192 b0); [|lia].
    rewrite Hc. apply IH; auto. lia.
Qed.

Lemma iter_labels_walk : forall m pos ls, walk m pos ls ->
  forall fuel len acc, len = N.of_nat (wire_len ls) + 1 -> (length ls < fuel)%nat ->
  iter_labels fuel m pos len acc = Ok (rev acc ++ ls, true).
Proof.
  induction 1 as [pos t Hr Hg | pos t l ls Hr Hg H1 H63 Hlen Hwalk IH]; intros [|fuel] len acc Hl Hf;
    try (cbn in Hf; lia); cbn [iter_labels]; cbn [wire_len] in Hl.
  - subst len. cbn [N.of_nat N.add N.eqb Pos.eqb].
    assert (Ht : t + 1 + 0 <= mlen m) by (apply get_lt in Hg; lia).
    rewrite (get_label_resolve m pos t 0 Hr Hg) by lia.
    cbn [bind]. replace (t + 1 + 0) with (t + 1) by lia. rewrite slice_nil.
    cbn. rewrite app_nil_r. reflexivity.
  - rewrite slice_length in Hl by lia.
    destruct (N.eqb_spec len 0) as [Hz|Hz]; [lia|].
    rewrite (get_label_resolve m pos t l Hr Hg H63 Hlen).
    cbn [bind]. rewrite slice_length by lia.
    replace (N.of_nat (N.to_nat (t + 1 + l - (t + 1))) + 1) with (l + 1) by lia.
    destruct (N.ltb_spec len (l + 1)); [lia|].
    replace (Nat.eqb (N.to_nat (t + 1 + l - (t + 1))) 0) with false
      by (symmetry; apply Nat.eqb_neq; lia).
    etransitivity; [apply IH; [lia|cbn [length] in Hf; lia]|].
    cbn [rev]. rewrite <- app_assoc. reflexivity.
Qed.

(* a name of wire length <= 255 has at most 127 labels: PARSE_FUEL is enough *)
Lemma pname_labels_walk m p ls :
  walk m (pn_pos p) ls -> pn_len p = N.of_nat (wire_len ls) + 1 -> pn_len p <= 255 ->
  pname_labels m p = Ok (ls, true).
Proof.
  intros Hw Hl H255. rewrite pname_labels_eq.
  apply (iter_labels_walk m (pn_pos p) ls Hw PARSE_FUEL (pn_len p) [] Hl).
  pose proof (walk_count _ _ _ Hw) as Hc. rewrite PARSE_FUEL_val. lia.
Qed.

Lemma parse_ref_walk m pos lim p :
  parse_ref m pos lim = Ok p -> lim <= mlen m ->
  exists ls, walk m (pn_pos p) ls /\ pn_len p = N.of_nat (wire_len ls) + 1 /\ pn_len p <= 255.
Proof.
  intros H Hl. rewrite parse_ref_eq in H.
  apply parse_labels_sound in H; [|assumption|lia].
  destruct H as (ls & Hwalk & Hlen & H255 & Hpos).
  exists ls. split; [|split; [lia|assumption]].
  destruct Hpos as [Hpos|[_ Hpos]]; [rewrite Hpos|]; assumption.
Qed.

Theorem parse_ref_sound m pos lim p :
  parse_ref m pos lim = Ok p -> lim <= mlen m -> wf_bytes m ->
  exists labels, pname_labels m p = Ok (labels, true) /\
    Forall valid_label labels /\
    N.of_nat (wire_len labels) + 1 = pn_len p /\ pn_len p <= 255.
Proof.
  intros H Hl Hw. destruct (parse_ref_walk m pos lim p H Hl) as (ls & Hwalk & Hlen & H255).
  exists ls. split; [apply pname_labels_walk; assumption|].
  split; [eapply walk_valid; eauto|]. split; [lia|assumption].
Qed.

Example parse_ref_sound_example :
  let m := [3;99;111;109;0;3;119;119;119;192;0] in
  parse_ref m 5 11 = Ok (mkPName 5 9 true 11) /\
  pname_labels m (mkPName 5 9 true 11) = Ok ([[119;119;119];[99;111;109]], true).
Proof. split; vm_compute; reflexivity. Qed.

(* the unchecked iterator is NOT safe on names that were not validated: the
   panics the validation excludes are real *)
Example unvalidated_iter_panics :
  pname_labels [64] (mkPName 0 3 false 1) = Panic P_BADLABEL /\
  pname_labels [5;1] (mkPName 0 7 false 2) = Panic P_INDEX /\
  pname_labels [1;97;0] (mkPName 0 1 false 3) = Panic P_UNDERFLOW.
Proof. repeat split; vm_compute; reflexivity. Qed.

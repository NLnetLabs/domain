(* C01 proofs, part 4: the derived operations on validated names
   (split_first, parent, iter_suffixes, next_back, as_flat_slice) never reach
   their unwrap / expect / unreachable! / underflow / index sites and compute
   what the label list says. *)
From Coq Require Import NArith List Bool Lia.
From DV Require Import Base.Outcome Base.Bytes Base.Names Base.PName C01.Gen C01.Model C01.Model2.
From DV Require Import C01.Proofs.
Import ListNotations.
Local Open Scope N_scope.

(* T1 tie for LabelType::peek's literals *)
Definition gen_matches_peek : bool :=
  (pk_normal_max =? 63) && (pk_ptr_min =? 192) && (pk_ptr_max =? 255) &&
  (pk_ptr_mask =? 63) && (pk_ptr_shift =? 8) && (name_root_len =? 1) && (first_label_plus =? 1).
Lemma gen_matches_peek_ok : gen_matches_peek = true.
Proof. reflexivity. Qed.

(* a validated name: its position walks exactly the labels ls, and the cached
   length is their wire length plus the root octet *)
Definition valid_pn (m : bytes) (p : pname) (ls : name) : Prop :=
  walk m (pn_pos p) ls /\ pn_len p = N.of_nat (wire_len ls) + 1.

Lemma parse_ref_valid m pos lim p :
  parse_ref m pos lim = Ok p -> lim <= mlen m -> exists ls, valid_pn m p ls /\ pn_len p <= 255.
Proof.
  intros H Hl. destruct (parse_ref_walk m pos lim p H Hl) as [ls [Hw [Hlen H255]]].
  exists ls. split; [split; assumption|assumption].
Qed.

Lemma skipn_nth {A} (l : list A) : forall n x, nth_error l n = Some x -> skipn n l = x :: skipn (S n) l.
Proof.
  induction l as [|h t IH]; intros [|n] x H; cbn in *; try discriminate.
  - inversion H. reflexivity.
  - apply IH. exact H.
Qed.

Lemma slice_cons m t e b : get m t = Some b -> t < e -> slice m t e = b :: slice m (t + 1) e.
Proof.
  unfold get, slice. intros Hg Hlt. rewrite (skipn_nth m _ _ Hg).
  replace (N.to_nat (e - t)) with (S (N.to_nat (e - (t + 1)))) by lia.
  cbn [firstn]. replace (N.to_nat (t + 1)) with (S (N.to_nat t)) by lia. reflexivity.
Qed.

Lemma first_label_resolve m pos t b : resolve m pos t ->
  get m t = Some b -> 1 <= b -> b <= 63 ->
  first_label (S (length m)) m pos = Ok (t, b + 1).
Proof.
  intros Hr Hb H1 Hle.
  assert (Hs : (N.to_nat pos < S (length m))%nat) by (apply resolve_start in Hr; unfold mlen in Hr; lia).
  revert Hs. generalize (S (length m)) as fuel.
  induction Hr as [pos b0 Hb0 Hle0 | pos b0 c t Hb0 H63 H192 Hc Hlt Hr IH]; intros [|fuel] Hf; try lia;
    cbn [first_label]; unfold label_type_peek, pk_normal_max, pk_ptr_min;
    pose proof (get_lt _ _ _ Hb0) as Hp; (destruct (N.ltb_spec (mlen m - pos) 1); [lia|]); rewrite Hb0.
  - replace b0 with b by congruence.
    destruct (N.leb_spec b 63); [|lia]. destruct (N.eqb_spec b 0); [lia|]. reflexivity.
  - pose proof (get_lt _ _ _ Hc) as Hp1.
    destruct (N.leb_spec b0 63); [lia|]. destruct (N.leb_spec 192 b0); [|lia].
    destruct (N.ltb_spec (mlen m - pos) 2); [lia|]. rewrite Hc.
    destruct (N.ltb_spec (mlen m) (c + 256 * (b0 mod 64))); [lia|].
    apply IH; auto. lia.
Qed.

Lemma split_parent_valid m p l ls : valid_pn m p (l :: ls) ->
  exists p', split_first m p = Ok (Some (wire_label l, p')) /\ parent m p = Ok (Some p') /\
             valid_pn m p' ls.
Proof.
  intros [Hw Hlen]. inversion Hw as [|pos t b ls' Hr Hg H1 H63 Hb Hw']; subst.
  cbn [wire_len] in Hlen. rewrite slice_length in Hlen by lia.
  pose proof (resolve_start _ _ _ Hr) as Hs.
  unfold split_first, parent, name_root_len.
  destruct (N.eqb_spec (pn_len p) 1); [lia|].
  destruct (N.ltb_spec (mlen m) (pn_pos p)); [lia|].
  rewrite (first_label_resolve m (pn_pos p) t b Hr Hg H1 H63). cbn [bind].
  destruct (N.ltb_spec (pn_len p) (b + 1)); [lia|].
  destruct (N.ltb_spec (mlen m) (t + (b + 1))); [lia|].
  replace (t + (b + 1)) with (t + 1 + b) by lia.
  eexists. split; [|split; [reflexivity|split; [exact Hw'|cbn [pn_len]; lia]]].
  f_equal. f_equal. f_equal. unfold wire_label. rewrite slice_length by lia.
  rewrite (slice_cons m t (t + 1 + b) b Hg) by lia. f_equal. lia.
Qed.

Lemma root_valid m p : valid_pn m p [] -> pn_len p =? name_root_len = true.
Proof. intros [_ Hlen]. rewrite Hlen. reflexivity. Qed.

Theorem split_first_valid m p ls : valid_pn m p ls ->
  match ls with
  | [] => split_first m p = Ok None
  | l :: ls' => exists p', split_first m p = Ok (Some (wire_label l, p')) /\ valid_pn m p' ls'
  end.
Proof.
  intros Hv. destruct ls as [|l ls'].
  - unfold split_first. rewrite (root_valid m p Hv). reflexivity.
  - destruct (split_parent_valid m p l ls' Hv) as (p' & Hs & _ & Hv'). eauto.
Qed.

Theorem parent_valid m p ls : valid_pn m p ls ->
  match ls with
  | [] => parent m p = Ok None
  | l :: ls' => exists p', parent m p = Ok (Some p') /\ valid_pn m p' ls'
  end.
Proof.
  intros Hv. destruct ls as [|l ls'].
  - unfold parent. rewrite (root_valid m p Hv). reflexivity.
  - destruct (split_parent_valid m p l ls' Hv) as (p' & _ & Hs & Hv'). eauto.
Qed.

Lemma split_all_valid : forall ls fuel m p acc, valid_pn m p ls -> (length ls < fuel)%nat ->
  split_all fuel m p acc = Ok (rev acc ++ map wire_label ls).
Proof.
  induction ls as [|l ls IH]; intros [|fuel] m p acc Hv Hf; try (cbn in Hf; lia);
    cbn [split_all]; pose proof (split_first_valid m p _ Hv) as Hs; cbn beta iota in Hs.
  - rewrite Hs. cbn [bind map]. rewrite app_nil_r. reflexivity.
  - destruct Hs as [p' [Hs Hv']]. rewrite Hs. cbn [bind].
    rewrite (IH fuel m p' (wire_label l :: acc) Hv'); [|cbn in Hf; lia].
    cbn [rev map]. rewrite <- app_assoc. reflexivity.
Qed.

Lemma suffixes_valid : forall ls fuel m p acc, valid_pn m p ls -> (length ls < fuel)%nat ->
  Forall (fun q => exists ks, valid_pn m q ks) acc ->
  exists l, suffixes fuel m p acc = Ok l /\ length l = (length acc + length ls + 1)%nat /\
            Forall (fun q => exists ks, valid_pn m q ks) l.
Proof.
  induction ls as [|l0 ls IH]; intros [|fuel] m p acc Hv Hf Hacc; try (cbn in Hf; lia);
    cbn [suffixes]; pose proof (parent_valid m p _ Hv) as Hs; cbn beta iota in Hs.
  - rewrite Hs. cbn [bind]. eexists. split; [reflexivity|]. split.
    + rewrite rev_length. cbn [length]. lia.
    + apply Forall_rev. constructor; [exists []; exact Hv|exact Hacc].
  - destruct Hs as [p' [Hs Hv']]. rewrite Hs. cbn [bind].
    destruct (IH fuel m p' (p :: acc) Hv') as [l [El [Hlen Hall]]]; [cbn in Hf; lia| |].
    + constructor; [exists (l0 :: ls); exact Hv|exact Hacc].
    + exists l. split; [exact El|]. split; [cbn [length] in *; lia|exact Hall].
Qed.

(* seg m pos ks: successive get_label calls from pos yield exactly ks *)
Inductive seg (m : bytes) : N -> list label -> Prop :=
| seg_nil pos : seg m pos []
| seg_cons pos t b k ks : resolve m pos t -> get m t = Some b -> b <= 63 -> t + 1 + b <= mlen m ->
    k = slice m (t + 1) (t + 1 + b) -> seg m (t + 1 + b) ks -> seg m pos (k :: ks).

Fixpoint total (ks : list label) : N :=
  match ks with [] => 0 | k :: t => N.of_nat (length k) + 1 + total t end.

Lemma total_app a b : total (a ++ b) = total a + total b.
Proof. induction a; cbn [app total]; lia. Qed.

Lemma total_wire ls : total (ls ++ [[]]) = N.of_nat (wire_len ls) + 1.
Proof. induction ls as [|l ls IH]; cbn [app total wire_len length]; [reflexivity|]. lia. Qed.

Lemma walk_seg m pos ls : walk m pos ls -> seg m pos (ls ++ [[]]).
Proof.
  induction 1 as [pos t Hr Hg | pos t b ls Hr Hg H1 H63 Hb Hw IH]; cbn [app].
  - pose proof (get_lt _ _ _ Hg). apply (seg_cons m pos t 0 [] []); try assumption; try lia.
    + replace (t + 1 + 0) with (t + 1) by lia. symmetry. apply slice_nil.
    + constructor.
  - eapply seg_cons; eauto.
Qed.

Lemma seg_prefix m : forall ks k pos, seg m pos (ks ++ [k]) -> seg m pos ks.
Proof.
  induction ks as [|k0 ks IH]; intros k pos H; [constructor|].
  cbn [app] in H. inversion H; subst. eapply seg_cons; eauto.
Qed.

Lemma get_label_seg m pos k ks : seg m pos (k :: ks) ->
  exists pos', get_label (S (length m)) m pos = Ok (k, pos') /\ seg m pos' ks.
Proof.
  intros H. inversion H as [|p t b k' ks' Hr Hg Hle Hb Hk Hs]; subst.
  exists (t + 1 + b). split; [apply get_label_resolve|]; assumption.
Qed.

(* ParsedName::first() (iter().next().unwrap()) on a validated name *)
Lemma first_label_of_valid m q ks : valid_pn m q ks ->
  exists r, get_label (S (length m)) m (pn_pos q) = Ok r.
Proof.
  intros [Hw _]. apply walk_seg in Hw.
  destruct ks; cbn [app] in Hw; destruct (get_label_seg _ _ _ _ Hw) as (pos' & E & _); eauto.
Qed.

Lemma first_labels_valid m : forall l, Forall (fun q => exists ks, valid_pn m q ks) l ->
  exists r, first_labels m l = Ok r /\ length r = length l.
Proof.
  induction l as [|q t IH]; intros H; cbn [first_labels]; [exists []; auto|].
  inversion H as [|x l' [ks Hq] Ht]; subst.
  destruct (first_label_of_valid m q ks Hq) as [r Er]. rewrite Er. cbn [bind].
  destruct (IH Ht) as [rest [Erest Hlen]]. rewrite Erest. cbn [bind].
  eexists. split; [reflexivity|]. cbn [length]. lia.
Qed.

Lemma last_label_seg m : forall ks k pos fuel len,
  seg m pos (ks ++ [k]) -> len = total (ks ++ [k]) -> (length ks < fuel)%nat ->
  last_label fuel m pos len = Ok k.
Proof.
  induction ks as [|k0 ks IH]; intros k pos [|fuel] len Hs Hl Hf; try (cbn in Hf; lia);
    cbn [last_label]; cbn [app] in Hs; destruct (get_label_seg m pos _ _ Hs) as [pos' [Eg Hs']];
    rewrite Eg; cbn [bind]; cbv zeta; cbn [app total] in Hl.
  - destruct (N.ltb_spec len (N.of_nat (length k) + 1)); [lia|].
    destruct (N.eqb_spec (len - (N.of_nat (length k) + 1)) 0); [reflexivity|lia].
  - rewrite total_app in Hl. cbn [total] in Hl.
    destruct (N.ltb_spec len (N.of_nat (length k0) + 1)); [lia|].
    destruct (N.eqb_spec (len - (N.of_nat (length k0) + 1)) 0); [lia|].
    apply IH; [exact Hs'|rewrite total_app; cbn [total]; lia|cbn in Hf; lia].
Qed.

Lemma rev_labels_seg m pos : forall ks fuel acc,
  seg m pos ks -> (length ks < fuel)%nat -> (length ks <= 299)%nat ->
  rev_labels fuel m pos (total ks) acc = Ok (rev acc ++ rev ks).
Proof.
  induction ks as [|k ks IH] using rev_ind; intros [|fuel] acc Hs Hf H299; try (cbn in Hf; lia);
    cbn [rev_labels].
  - cbn [total]. unfold next_back. cbn [N.eqb bind rev]. rewrite app_nil_r. reflexivity.
  - rewrite app_length in Hf, H299. cbn [length] in Hf, H299.
    unfold next_back. rewrite total_app. cbn [total].
    destruct (N.eqb_spec (total ks + (N.of_nat (length k) + 1 + 0)) 0); [lia|].
    rewrite (last_label_seg m ks k pos PARSE_FUEL (total ks + (N.of_nat (length k) + 1 + 0))); [|exact Hs|rewrite total_app; reflexivity|rewrite PARSE_FUEL_val; lia].
    cbn [bind]. cbv zeta.
    destruct (N.ltb_spec (total ks + (N.of_nat (length k) + 1 + 0)) (N.of_nat (length k) + 1)); [lia|].
    cbn [bind].
    replace (total ks + (N.of_nat (length k) + 1 + 0) - (N.of_nat (length k) + 1)) with (total ks) by lia.
    rewrite (IH fuel (k :: acc)); [|eapply seg_prefix; exact Hs|lia|lia].
    cbn [rev]. rewrite rev_app_distr. cbn [rev app]. rewrite <- app_assoc. reflexivity.
Qed.

Theorem rev_labels_valid m p ls : valid_pn m p ls -> pn_len p <= 255 ->
  pname_rev_labels m p = Ok (rev (ls ++ [[]])).
Proof.
  intros [Hw Hlen] H255. unfold pname_rev_labels.
  pose proof (walk_seg _ _ _ Hw) as Hs. pose proof (walk_count _ _ _ Hw) as Hc.
  replace (pn_len p) with (total (ls ++ [[]])) by (rewrite total_wire; lia).
  assert (Hlen2 : (length (ls ++ [[]]) < 300)%nat) by (rewrite app_length; cbn [length]; lia).
  exact (rev_labels_seg m (pn_pos p) (ls ++ [[]]) PARSE_FUEL [] Hs
           ltac:(rewrite PARSE_FUEL_val; exact Hlen2) ltac:(lia)).
Qed.

Lemma parse_labels_compressed_stays : forall fuel m lim cur nl start e p,
  nl <> 0 -> parse_labels fuel m lim cur nl start true e = Ok p -> pn_compressed p = true.
Proof.
  induction fuel as [|fuel IH]; intros m lim cur nl start e p Hnl H; [discriminate|].
  cbn [parse_labels] in H.
  destruct (label_type_parse m cur lim) as [[r cur']| | |]; try discriminate.
  destruct r as [l|ptr].
  - destruct (l =? 0); [inversion H; reflexivity|].
    destruct (lim - cur' <? l); [discriminate|].
    destruct (255 <=? nl + l + 1); [discriminate|]. eapply IH; [|exact H]. lia.
  - destruct (hops (S (S (N.to_nat ptr))) m lim ptr cur') as [tgt| | |]; cbn [bind] in H; try discriminate.
    destruct (N.eqb_spec nl 0); [contradiction|]. eapply IH; [|exact H]. assumption.
Qed.

(* start + nl = cur holds as long as no pointer was met; after a pointer
   the name is either restarted (nl = 0) or marked compressed *)
Lemma parse_labels_flat : forall fuel m lim cur nl start c e p,
  parse_labels fuel m lim cur nl start c e = Ok p -> pn_compressed p = false ->
  start + nl = cur -> pn_pos p + pn_len p <= lim.
Proof.
  induction fuel as [|fuel IH]; intros m lim cur nl start c e p H Hc Hinv; [discriminate|].
  cbn [parse_labels] in H. pose proof (ltp_spec m cur lim) as Hs.
  destruct (label_type_parse m cur lim) as [[[b|ptr] cur']| | |]; try discriminate.
  - destruct Hs as (Hlt & _ & _ & ->). destruct (N.eqb_spec b 0).
    + inversion H; subst p. cbn [pn_pos pn_len]. lia.
    + destruct (N.ltb_spec (lim - (cur + 1)) b); [discriminate|].
      destruct (255 <=? nl + b + 1); [discriminate|].
      eapply IH; [exact H|exact Hc|lia].
  - destruct (hops (S (S (N.to_nat ptr))) m lim ptr cur') as [tgt| | |]; cbn [bind] in H; try discriminate.
    destruct (N.eqb_spec nl 0).
    + eapply IH; [exact H|exact Hc|lia].
    + apply parse_labels_compressed_stays in H; [congruence|assumption].
Qed.

Theorem as_flat_slice_in_bounds m pos lim p :
  parse_ref m pos lim = Ok p -> lim <= mlen m ->
  as_flat_slice m p = Ok (if pn_compressed p then None
                          else Some (slice m (pn_pos p) (pn_pos p + pn_len p))) /\
  (pn_compressed p = false -> pn_pos p + pn_len p <= lim).
Proof.
  intros H Hl. rewrite parse_ref_eq in H. unfold as_flat_slice.
  destruct (pn_compressed p) eqn:Ec; [split; [reflexivity|discriminate]|].
  pose proof (parse_labels_flat _ _ _ _ _ _ _ _ _ H Ec) as Hb.
  assert (Hle : pn_pos p + pn_len p <= lim) by (apply Hb; lia).
  destruct (N.ltb_spec (mlen m) (pn_pos p + pn_len p)); [lia|]. split; [reflexivity|auto].
Qed.

Theorem name_ops_total m pos lim p :
  parse_ref m pos lim = Ok p -> lim <= mlen m ->
  exists ls o, name_ops_of m p = Ok o /\ pname_labels m p = Ok (ls, true) /\
    no_rev o = rev (ls ++ [[]]) /\ no_split o = map wire_label ls /\
    length (no_suffixes o) = S (length ls) /\
    no_flat o = (if pn_compressed p then None else Some (slice m (pn_pos p) (pn_pos p + pn_len p))).
Proof.
  intros H Hl. destruct (parse_ref_valid m pos lim p H Hl) as [ls [Hv H255]].
  exists ls. unfold name_ops_of.
  rewrite (rev_labels_valid m p ls Hv H255). cbn [bind].
  pose proof Hv as [Hw Hlen]. pose proof (walk_count _ _ _ Hw) as Hc.
  rewrite (split_all_valid ls PARSE_FUEL m p [] Hv) by (rewrite PARSE_FUEL_val; lia). cbn [bind rev app].
  unfold iter_suffixes.
  destruct (suffixes_valid ls PARSE_FUEL m p [] Hv) as [sl [Es [Hsl Hall]]]; [rewrite PARSE_FUEL_val; lia|constructor|].
  rewrite Es. cbn [bind].
  destruct (as_flat_slice_in_bounds m pos lim p H Hl) as [Ef _]. rewrite Ef. cbn [bind].
  destruct (first_labels_valid m sl Hall) as [fl [Efl Hfl]]. rewrite Efl. cbn [bind].
  eexists. split; [reflexivity|]. cbn [no_rev no_split no_suffixes no_flat].
  split; [apply pname_labels_walk; assumption|].
  split; [reflexivity|]. split; [reflexivity|]. split; [cbn [length] in Hsl; lia|reflexivity].
Qed.

Example name_ops_example :
  let m := [3;99;111;109;0;3;119;119;119;192;0] in
  c01_pops m 5 11 =
    Ok (mkOps [[]; [99;111;109]; [119;119;119]] [[3;119;119;119]; [3;99;111;109]]
              [(9, [119;119;119]); (5, [99;111;109]); (1, [])] None).
Proof. vm_compute. reflexivity. Qed.

(* the panics are real on names that were not validated *)
Example unvalidated_ops_panic :
  split_first [0] (mkPName 0 3 false 1) = Panic P_UNREACHABLE /\
  parent [64] (mkPName 0 3 false 1) = Panic P_UNWRAP /\
  split_first [5;1] (mkPName 0 9 false 2) = Panic P_INDEX /\
  as_flat_slice [1;97;0] (mkPName 0 9 false 3) = Panic P_INDEX.
Proof. repeat split; vm_compute; reflexivity. Qed.

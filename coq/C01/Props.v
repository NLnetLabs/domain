(* C01 -- property theorems only.  Proofs live in C01/Proofs*.v. *)
From Coq Require Import NArith List.
From DV Require Import Base.Outcome Base.Bytes Base.Names Base.PName C01.Gen C01.Model C01.Model2 C01.Model3 C01.Model4 C01.Proofs C01.Proofs2 C01.Proofs3 C01.Proofs4 C01.Proofs5 C01.Proofs6 C01.Proofs7 C01.Proofs8 C01.Proofs9 C01.ProofsW.
From DV Require Import C05.Schema C05.Model.
Import ListNotations.
Local Open Scope N_scope.

(* ParsedName::parse_ref terminates within PARSE_FUEL for every message,
   position and limit. *)
Theorem C01_parse_ref_terminates : forall m pos lim, parse_ref m pos lim <> OutOfFuel.
Proof. exact parse_ref_no_fuel. Qed.
Print Assumptions C01_parse_ref_terminates.

(* ... and never panics nor hangs as long as the parser's limit lies within the
   octets it reads (which Parser guarantees). *)
Theorem C01_parse_ref_total : forall m pos lim, lim <= mlen m -> no_panic (parse_ref m pos lim).
Proof. exact parse_ref_total. Qed.
Print Assumptions C01_parse_ref_total.

(* validate-then-trust: a name accepted by parse_ref is iterated by the
   unchecked ParsedNameIter without index panic, without panic!("bad label"),
   without u16 underflow, ends in the root label, consists of valid labels and
   its length is the cached name_len <= 255. *)
Theorem C01_parse_ref_sound : forall m pos lim p,
  parse_ref m pos lim = Ok p -> lim <= mlen m -> wf_bytes m ->
  exists labels, pname_labels m p = Ok (labels, true) /\
    Forall valid_label labels /\
    N.of_nat (wire_len labels) + 1 = pn_len p /\ pn_len p <= 255.
Proof. exact parse_ref_sound. Qed.
Print Assumptions C01_parse_ref_sound.

Theorem C01_skip_name_total : forall m pos lim, lim <= mlen m -> no_panic (skip_name m pos lim).
Proof. exact skip_name_total. Qed.
Print Assumptions C01_skip_name_total.

(* the machine expression `low | ((head & 0x3F) << 8)` is what the model uses *)
Theorem C01_pointer_bits : forall b c, b < 256 -> c < 256 ->
  ptr_bits lt_ptr_mask lt_ptr_shift b c = c + 256 * (b mod 64) /\
  ptr_bits gl_ptr_mask gl_ptr_shift b c = c + 256 * (b mod 64) /\
  ptr_bits sf_ptr_mask sf_ptr_shift b c = c + 256 * (b mod 64).
Proof. exact ptr_bits_gen. Qed.
Print Assumptions C01_pointer_bits.

(* the literals and operators of parsed.rs read by T1 are those of the model *)
Theorem C01_source_constants : gen_matches_pname = true.
Proof. exact gen_matches_pname_ok. Qed.
Print Assumptions C01_source_constants.

(* Label::iter_slice / SliceLabelsIter: for every slice and every start the
   iterator yields a finite list of labels (no panic, no endless stream). *)
Theorem C01_iter_slice_finite : forall m start, exists ls, iter_slice m start = Ok ls.
Proof. exact iter_slice_finite. Qed.
Print Assumptions C01_iter_slice_finite.

(* the error fuse of QuestionSection / RecordSection: after the first Err the
   iterator holds that error and every later next is None *)
Theorem C01_fuse_after_error : forall (A : Type) (parse : N -> outcome A) (endof : A -> N) s e s',
  sec_next parse endof s = Ok (Some (IErr e), s') ->
  s_err s' = Some e /\ sec_next parse endof s' = Ok (None, s').
Proof. exact @fuse_after_error. Qed.
Print Assumptions C01_fuse_after_error.

Theorem C01_fuse_sticky : forall (A : Type) (parse : N -> outcome A) (endof : A -> N) st e,
  s_err st = Some e -> sec_next parse endof st = Ok (None, st).
Proof. exact @fuse_sticky. Qed.
Print Assumptions C01_fuse_sticky.

(* a parsed record's data lies within the parser's limit, hence in the message *)
Theorem C01_record_extent_within : forall m pos lim r,
  lim <= mlen m -> record_parse m pos lim = Ok r ->
  rr_data r + rr_rdlen r = rr_end r /\ rr_end r <= lim /\ rr_end r <= mlen m.
Proof. exact record_extent_within. Qed.
Print Assumptions C01_record_extent_within.

(* what ParsedRecord::parse accepts, ParsedRecord::skip accepts, with the same
   end position (the unwraps behind next_section after a clean iteration) *)
Theorem C01_parse_accepts_skip_accepts : forall m pos lim r,
  record_parse m pos lim = Ok r -> record_skip m pos lim = Ok (rr_end r).
Proof. exact parse_accepts_skip_accepts. Qed.
Print Assumptions C01_parse_accepts_skip_accepts.

(* canonical_name's loop bound ANCOUNT + 1 is computed without overflow *)
Theorem C01_canonical_rounds : forall an, canonical_rounds an = Ok (an + 1).
Proof. exact canonical_rounds_eq. Qed.
Print Assumptions C01_canonical_rounds.

(* every modelled read-side operation on every octet string: no panic, no
   fuel exhaustion (header, counts, questions, the three record sections with
   their iterators and fuses, sections(), first/sole question, is_answer,
   MessageIter, canonical_name, opt and its options, the slice label iterator,
   unchecked iteration of every returned name) *)
Theorem C01_read_all_total : forall m, no_panic (read_all m).
Proof. exact read_all_total. Qed.
Print Assumptions C01_read_all_total.

(* ParsedName::split_first on a validated name: None exactly for the root name,
   otherwise the first label in wire form and a validated rest.  The peek
   unwrap, seek unwrap, unreachable!(), u16 underflow and range index are
   unreachable. *)
Theorem C01_split_first_valid : forall m p ls, valid_pn m p ls ->
  match ls with
  | [] => split_first m p = Ok None
  | l :: ls' => exists p', split_first m p = Ok (Some (wire_label l, p')) /\ valid_pn m p' ls'
  end.
Proof. exact split_first_valid. Qed.
Print Assumptions C01_split_first_valid.

Theorem C01_parent_valid : forall m p ls, valid_pn m p ls ->
  match ls with
  | [] => parent m p = Ok None
  | l :: ls' => exists p', parent m p = Ok (Some p') /\ valid_pn m p' ls'
  end.
Proof. exact parent_valid. Qed.
Print Assumptions C01_parent_valid.

(* reverse iteration (next_back) yields the labels backwards, root first *)
Theorem C01_rev_labels_valid : forall m p ls, valid_pn m p ls -> pn_len p <= 255 ->
  pname_rev_labels m p = Ok (rev (ls ++ [[]])).
Proof. exact rev_labels_valid. Qed.
Print Assumptions C01_rev_labels_valid.

(* as_flat_slice of a parsed name indexes within the parser's limit *)
Theorem C01_as_flat_slice_in_bounds : forall m pos lim p,
  parse_ref m pos lim = Ok p -> lim <= mlen m ->
  as_flat_slice m p = Ok (if pn_compressed p then None
                          else Some (slice m (pn_pos p) (pn_pos p + pn_len p))) /\
  (pn_compressed p = false -> pn_pos p + pn_len p <= lim).
Proof. exact as_flat_slice_in_bounds. Qed.
Print Assumptions C01_as_flat_slice_in_bounds.

(* all derived operations on every name parse_ref accepts: no panic, and they
   compute what the label list says (iter_suffixes has one suffix per label
   plus the root) *)
Theorem C01_name_ops_total : forall m pos lim p,
  parse_ref m pos lim = Ok p -> lim <= mlen m ->
  exists ls o, name_ops_of m p = Ok o /\ pname_labels m p = Ok (ls, true) /\
    no_rev o = rev (ls ++ [[]]) /\ no_split o = map wire_label ls /\
    length (no_suffixes o) = S (length ls) /\
    no_flat o = (if pn_compressed p then None else Some (slice m (pn_pos p) (pn_pos p + pn_len p))).
Proof. exact name_ops_total. Qed.
Print Assumptions C01_name_ops_total.

(* typed record data: for EVERY schema of the C05 language (hence every record
   type of its table and the opaque fallback), parsing out of the RDLENGTH
   sub-parser never panics *)
Theorem C01_typed_rdata_total : forall s m pos lim, lim <= mlen m ->
  no_panic (parse_rdata pname_dec s m pos lim).
Proof. exact parse_rdata_total. Qed.
Print Assumptions C01_typed_rdata_total.

(* XfrResponseInterpreter, first message: the dispatch is total (no unreachable!) *)
Theorem C01_xfr_first_total : forall m, has_header m -> no_panic (xfr_first m).
Proof. exact xfr_first_total. Qed.
Print Assumptions C01_xfr_first_total.

(* read-side calls in ANY order, iterator steps interleaved arbitrarily, on
   every octet string *)
Theorem C01_read_ops_total : forall m ops, no_panic (read_ops m ops).
Proof. exact read_ops_total. Qed.
Print Assumptions C01_read_ops_total.

(* ... and a message-level call returns the same whatever happened before *)
Theorem C01_calls_do_not_interfere : forall m st st' o,
  match o with OQNext _ | OQAnswer _ | ORNext _ | ORNextSection _ => False | _ => True end ->
  ofst (run_op m st o) = ofst (run_op m st' o).
Proof. exact run_op_state_independent. Qed.
Print Assumptions C01_calls_do_not_interfere.

Theorem C01_source_constants_peek : gen_matches_peek = true.
Proof. exact gen_matches_peek_ok. Qed.
Print Assumptions C01_source_constants_peek.

(* typed data for any schema and any total name decoder; instances: IPSECKEY
   (rows by gateway type) and the contents of every EDNS option of the table *)
Theorem C01_typed_data_total_gen : forall dec s m pos lim, dec_total dec -> lim <= mlen m ->
  no_panic (parse_rdata dec s m pos lim).
Proof. exact parse_rdata_total_gen. Qed.
Print Assumptions C01_typed_data_total_gen.

Theorem C01_ipseckey_total : forall m pos lim, lim <= mlen m -> no_panic (ipseckey_parse m pos lim).
Proof. exact ipseckey_parse_total. Qed.
Print Assumptions C01_ipseckey_total.

Theorem C01_option_data_total : forall code d,
  no_panic (parse_rdata flat_dec (option_schema code) d 0 (len d)).
Proof. exact option_data_total. Qed.
Print Assumptions C01_option_data_total.

(* the dig printer: after a loop over a section that met no error,
   next_section() is Ok(Some(..)) -- the two .unwrap().unwrap() -- and after a
   clean question loop answer() is Ok -- the .unwrap() *)
Theorem C01_next_section_after_clean : forall m s l s',
  has_header m -> s_kind s < 3 -> s_err s = None ->
  drain (r_next m) (sec_fuel s) s [] = Ok (l, s') -> has_err l = false ->
  exists n, r_next_section m s = Ok (Some n) /\ s_kind n = s_kind s + 1 /\ s_err n = None.
Proof. exact next_section_after_clean. Qed.
Print Assumptions C01_next_section_after_clean.

Theorem C01_answer_after_clean : forall m qs l s',
  has_header m -> s_err qs = None ->
  drain (q_next m) (sec_fuel qs) qs [] = Ok (l, s') -> has_err l = false ->
  exists a, q_to_answer m qs = Ok a /\ s_kind a = 1 /\ s_err a = None.
Proof. exact answer_after_clean. Qed.
Print Assumptions C01_answer_after_clean.

(* the whole control flow of display_dig_style on every message *)
Theorem C01_dig_walk_total : forall m, has_header m -> no_panic (dig_walk m).
Proof. exact dig_walk_total. Qed.
Print Assumptions C01_dig_walk_total.

(* RecordIter for AllRecordData, ZoneRecordData and any single type, with or
   without the IN filter, from any iterator state *)
Theorem C01_limit_to_total : forall m s sl io, no_panic (limit_to m s sl io).
Proof. exact limit_to_total. Qed.
Print Assumptions C01_limit_to_total.

Theorem C01_copy_records_total : forall m, has_header m -> no_panic (copy_records_read m).
Proof. exact copy_records_read_total. Qed.
Print Assumptions C01_copy_records_total.

Theorem C01_get_last_additional_total : forall m, has_header m -> no_panic (get_last_additional m).
Proof. exact get_last_additional_total. Qed.
Print Assumptions C01_get_last_additional_total.

(* calls in any order, now including typed options, limit_to, copy_records,
   get_last_additional and the dig printer *)
Theorem C01_read_ops3_total : forall m ops, no_panic (read_ops3 m ops).
Proof. exact read_ops3_total. Qed.
Print Assumptions C01_read_ops3_total.

(* display-time iteration over what the typed parser accepted *)
Theorem C01_bitmap_iter_total : forall d, rest_check KBitmap d = None -> exists l, bitmap_iter d = Ok l.
Proof. exact bitmap_iter_total. Qed.
Print Assumptions C01_bitmap_iter_total.

Theorem C01_bitmap_contains_total : forall d rtype, rest_check KBitmap d = None ->
  exists b, bitmap_contains d rtype = Ok b.
Proof. exact bitmap_contains_total. Qed.
Print Assumptions C01_bitmap_contains_total.

Theorem C01_txt_iter_total : forall d, txt_check d = true -> exists l, txt_iter d = Ok l.
Proof. exact txt_iter_total. Qed.
Print Assumptions C01_txt_iter_total.

Theorem C01_svc_value_total : forall key v, exists x, svc_value key v = Ok x.
Proof. exact svc_value_total. Qed.
Print Assumptions C01_svc_value_total.

Theorem C01_svc_display_total : forall d, rest_check KSvcParams d = None -> exists l, svc_display d = Ok l.
Proof. exact svc_display_total. Qed.
Print Assumptions C01_svc_display_total.

(* the premise of the three theorems above is discharged for every record a
   section iterator yields: whatever the typed parser (C05) accepted is walked
   without panic (NSEC / NSEC3 bitmaps, SVCB / HTTPS parameters, TXT strings) *)
Theorem C01_display_walk_total : forall m r, good_rr m (mlen m) r -> no_panic (display_walk m r).
Proof. exact display_walk_total. Qed.
Print Assumptions C01_display_walk_total.

Theorem C01_read_ops4_total : forall m ops, no_panic (read_ops4 m ops).
Proof. exact read_ops4_total. Qed.
Print Assumptions C01_read_ops4_total.

(* a traversal made after arbitrary earlier activity gives what it gives on a
   fresh view; hence a message traversed twice yields the same results *)
Theorem C01_traversal_independent_of_history : forall m st ops,
  ofst (run_ops4 m st (map (shift_op4 (length st)) ops)) = ofst (run_ops4 m [] ops).
Proof. exact traversal_independent_of_history. Qed.
Print Assumptions C01_traversal_independent_of_history.

Theorem C01_traversed_twice_same : forall m ops r st1,
  run_ops4 m [] ops = Ok (r, st1) ->
  ofst (run_ops4 m st1 (map (shift_op4 (length st1)) ops)) = Ok r.
Proof. exact traversed_twice_same. Qed.
Print Assumptions C01_traversed_twice_same.

Theorem C01_source_sites_display : gen_matches_display = true.
Proof. exact gen_matches_display_ok. Qed.
Print Assumptions C01_source_sites_display.

Theorem C01_constructors_agree : forall m,
  Forall (fun b => b = (12 <=? mlen m)) (c01_ctor m) /\ length (c01_ctor m) = 7%nat.
Proof. exact constructors_agree. Qed.
Print Assumptions C01_constructors_agree.

(* bounds the section iterators keep *)
Theorem C01_parse_ref_skip_agree : forall m pos lim p,
  parse_ref m pos lim = Ok p -> skip_name m pos lim = Ok (pn_end p).
Proof. exact parse_ref_skip_agree. Qed.
Print Assumptions C01_parse_ref_skip_agree.

Theorem C01_question_extent_within : forall m pos lim q,
  N.le lim (mlen m) -> question_parse m pos lim = Ok q ->
  q_end q = N.add (pn_end (q_name q)) 4%N /\ N.le (q_end q) lim /\ N.le (q_end q) (mlen m).
Proof. exact question_extent_within. Qed.
Print Assumptions C01_question_extent_within.

Theorem C01_section_yields_at_most_count : forall (A : Type) (parse : N -> outcome A) (endof : A -> N) fuel s l s',
  drain (sec_next parse endof) fuel s nil = Ok (l, s') -> s_err s = None ->
  le (length l) (N.to_nat (s_cnt s)) /\ has_err (List.removelast l) = false.
Proof. exact (@section_yields_at_most_count). Qed.
Print Assumptions C01_section_yields_at_most_count.

Theorem C01_section_fused_yields_nothing : forall (A : Type) (parse : N -> outcome A) (endof : A -> N) fuel s e l s',
  drain (sec_next parse endof) fuel s nil = Ok (l, s') -> s_err s = Some e -> l = nil /\ s' = s.
Proof. exact (@section_fused_yields_nothing). Qed.
Print Assumptions C01_section_fused_yields_nothing.

Theorem C01_question_iter_within : forall m fuel s l s',
  drain (q_next m) fuel s nil = Ok (l, s') -> N.le (s_pos s) (mlen m) ->
  N.le (s_pos s') (mlen m) /\ List.Forall (fun x => N.le (s_pos (snd x)) (mlen m)) l.
Proof. exact question_iter_within. Qed.
Print Assumptions C01_question_iter_within.

Theorem C01_record_iter_within : forall m fuel s l s',
  drain (r_next m) fuel s nil = Ok (l, s') -> N.le (s_pos s) (mlen m) ->
  N.le (s_pos s') (mlen m) /\ List.Forall (fun x => N.le (s_pos (snd x)) (mlen m)) l.
Proof. exact record_iter_within. Qed.
Print Assumptions C01_record_iter_within.

Theorem C01_sections_within : forall m q a ns ar,
  Proofs2.has_header m -> msg_sections m = Ok (q, a, ns, ar) ->
  s_pos q = header_len /\ N.le (s_pos q) (mlen m) /\ N.le (s_pos a) (mlen m) /\
  N.le (s_pos ns) (mlen m) /\ N.le (s_pos ar) (mlen m).
Proof. exact sections_within. Qed.
Print Assumptions C01_sections_within.

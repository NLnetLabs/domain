(* C01 proofs, part 9: the display walk of every parsed
   record is total; the call machine with it is total; a second traversal --
   made after arbitrary earlier activity -- yields the same results. *)
From Coq Require Import Arith NArith List Bool Lia.
From DV Require Import Base.Outcome Base.Bytes Base.Names Base.PName C01.Gen C01.Model C01.Model2 C01.Model3 C01.Model4.
From DV Require Import C05.Schema C05.Model.
From DV Require Import C01.Proofs C01.Proofs2 C01.Proofs4 C01.Proofs5 C01.Proofs6 C01.Proofs7 C01.Proofs8.
Import ListNotations.
Local Open Scope N_scope.

(* a schema whose last field is a checked remainder: the value the parser
   returns ends with octets that passed the check *)
Lemma parse_fields_last_checked dec k : forall fs m pos lim v e,
  parse_fields dec (fs ++ [FChecked k]) m pos lim = Ok (v, e) ->
  exists v0 b, v = v0 ++ [VBytes b] /\ rest_check k b = None.
Proof.
  induction fs as [|f fs IH]; intros m pos lim v e H; cbn [app parse_fields] in H.
  - apply bind_ok in H. destruct H as [[x p1] [H1 H2]]. cbn [bind fst snd] in H2. inversion H2; subst.
    cbn [parse_field] in H1. apply bind_ok in H1. destruct H1 as [[b p2] [_ H1]]. cbn [fst snd] in H1.
    destruct (rest_check k b) eqn:E; [discriminate|]. inversion H1; subst.
    exists [], b. auto.
  - apply bind_ok in H. destruct H as [[x p1] [_ H2]]. cbn [fst snd] in H2.
    apply bind_ok in H2. destruct H2 as [[v' p2] [H2 H3]]. cbn [fst snd] in H3. inversion H3; subst.
    destruct (IH _ _ _ _ _ H2) as [v0 [b [Ev Hb]]]. subst v'.
    exists (x :: v0), b. auto.
Qed.

Lemma last_bytes_app v0 b : last_bytes (v0 ++ [VBytes b]) = b.
Proof. unfold last_bytes. rewrite last_last. reflexivity. Qed.

Lemma parse_rdata_fields dec s m pos lim v :
  parse_rdata dec s m pos lim = Ok v -> exists e, parse_fields dec (s_fields s) m pos lim = Ok (v, e).
Proof.
  unfold parse_rdata, parse_type. intros H. apply bind_ok in H. destruct H as [[v' e] [H1 H2]].
  cbn [fst snd] in H2. destruct (e =? lim); [|discriminate].
  destruct (post_check (s_post s) v'); [discriminate|]. inversion H2; subst v'. exists e.
  destruct (s_long s); [|exact H1].
  destruct (lim - pos <? n); [discriminate|]. destruct (65535 <? lim - pos - n); [discriminate|]. exact H1.
Qed.

Lemma parse_rdata_last_checked dec s fs k m pos lim v :
  s_fields s = fs ++ [FChecked k] -> parse_rdata dec s m pos lim = Ok v ->
  rest_check k (last_bytes v) = None.
Proof.
  intros Hs H. apply parse_rdata_fields in H. destruct H as [e H]. rewrite Hs in H.
  destruct (parse_fields_last_checked _ _ _ _ _ _ _ _ H) as [v0 [b [-> Hb]]].
  rewrite last_bytes_app. exact Hb.
Qed.

(* TXT: the character strings the parser walked are the ones the iterator
   walks over the same octets *)
Lemma slice_skipn m a e k : a + k <= e -> e <= mlen m ->
  skipn (N.to_nat k) (slice m a e) = slice m (a + k) e.
Proof.
  intros H1 H2. unfold slice. rewrite skipn_firstn_comm, skipn_add.
  f_equal; [lia|]. f_equal. lia.
Qed.

Lemma txt_iter_of_parse_strs m lim : lim <= mlen m -> forall fuel pos acc r fuel2 acc2,
  pos <= lim -> parse_strs fuel m pos lim acc = Ok r ->
  (N.to_nat (lim - pos) < fuel2)%nat ->
  exists l, txt_iter_loop fuel2 (slice m pos lim) acc2 = Ok l.
Proof.
  intros Hl. induction fuel as [|fuel IH]; intros pos acc r fuel2 acc2 Hp H Hf; [discriminate|].
  cbn [parse_strs] in H. destruct fuel2 as [|fuel2]; [lia|]. cbn [txt_iter_loop].
  destruct (N.eqb_spec (lim - pos) 0) as [Hz|Hz].
  - assert (pos = lim) by lia. subst pos. rewrite slice_nil. eauto.
  - apply bind_ok in H. destruct H as [[b p1] [H1 H2]].
    unfold rd8 in H1. destruct (N.ltb_spec (lim - pos) 1); [discriminate|].
    destruct (get m pos) as [b0|] eqn:Eg; [|discriminate]. inversion H1; subst b0 p1. cbn [fst snd] in H2.
    apply bind_ok in H2. destruct H2 as [[s p2] [H2 H3]].
    unfold rd in H2. destruct (N.ltb_spec (lim - (pos + 1)) b); [discriminate|]. inversion H2; subst s p2.
    cbn [fst snd] in H3.
    rewrite (slice_cons m pos lim b Eg) by lia.
    assert (Hlen : len (slice m (pos + 1) lim) = lim - (pos + 1)).
    { rewrite len_length, slice_length by lia. lia. }
    rewrite Hlen. destruct (N.ltb_spec (lim - (pos + 1)) b); [lia|].
    rewrite slice_skipn by lia.
    eapply IH; [|exact H3|]; lia.
Qed.

Lemma walk_rows t s :
  (t =? 47) || (t =? 50) || (t =? 64) || (t =? 65) || (t =? 16) = true -> schema_of t = Some s ->
  (t = 16 /\ s_fields s = [FCharStrs]) \/
  (exists k fs, (t =? 16) = false /\ s_fields s = fs ++ [FChecked k] /\
     (t =? 47) || (t =? 50) = match k with KBitmap => true | _ => false end /\
     (k = KBitmap \/ k = KSvcParams)).
Proof.
  intros Et Es.
  destruct (N.eqb_spec t 16) as [->|_]; [left; inversion Es; auto|right].
  destruct (N.eqb_spec t 47) as [->|_];
    [inversion Es; exists KBitmap, [NameU false]; auto|].
  destruct (N.eqb_spec t 50) as [->|_];
    [inversion Es; exists KBitmap, [U8; U8; U16; Len8Bytes; Len8Bytes]; auto|].
  destruct (N.eqb_spec t 64) as [->|_];
    [inversion Es; exists KSvcParams, [U16; NameU false]; auto|].
  destruct (N.eqb_spec t 65) as [->|_];
    [inversion Es; exists KSvcParams, [U16; NameU false]; auto|discriminate].
Qed.

Theorem display_walk_total m r : good_rr m (mlen m) r -> no_panic (display_walk m r).
Proof.
  intros [_ [Hd _]]. apply (sat_no_panic _ (fun _ => True)). unfold display_walk.
  destruct (mlen m - rr_data r <? rr_rdlen r); [exact I|]. cbv zeta.
  destruct (_ || (rr_type r =? 16)) eqn:Et; [|exact I].
  destruct (schema_of (rr_type r)) as [s|] eqn:Es; [|exact I].
  pose proof (parse_rdata_total s m (rr_data r) (rr_data r + rr_rdlen r) Hd) as Ht.
  destruct (parse_rdata pname_dec s m (rr_data r) (rr_data r + rr_rdlen r)) as [v|e| |] eqn:Ep;
    try exact Ht.
  destruct (walk_rows _ _ Et Es) as [[E16 F]|(k & fs & E16 & F & Eb & Hk)]; rewrite E16.
  - (* TXT *)
    apply parse_rdata_fields in Ep. destruct Ep as [e Hp]. rewrite F in Hp.
    cbn [parse_fields parse_field] in Hp. apply bind_ok in Hp. destruct Hp as [[x p1] [Hp _]].
    apply bind_ok in Hp. destruct Hp as [rs [Hp _]].
    destruct (txt_iter_of_parse_strs m _ Hd _ (rr_data r) _ _
                (S (length (slice m (rr_data r) (rr_data r + rr_rdlen r)))) [] ltac:(lia) Hp) as [l El].
    { rewrite slice_length by lia. lia. }
    unfold txt_iter. rewrite El. exact I.
  - pose proof (parse_rdata_last_checked _ _ _ _ _ _ _ _ F Ep) as Hb. cbn [N.eqb Pos.eqb]. rewrite Eb.
    destruct Hk as [-> | ->].
    + (* NSEC / NSEC3: the bitmap *)
      destruct (bitmap_iter_total _ Hb) as [l El]. rewrite El. cbn [bind].
      assert (Hc : forall ts, exists c, contains_all (last_bytes v) ts = Ok c).
      { induction ts as [|t ts [c0 Ec0]]; cbn [contains_all]; [eauto|].
        destruct (bitmap_contains_total _ t Hb) as [b Eb']. rewrite Eb', Ec0. cbn [bind]. eauto. }
      destruct (Hc probe_types) as [c1 Ec1]. rewrite Ec1. exact I.
    + (* SVCB / HTTPS: the parameters *)
      destruct (svc_display_total _ Hb) as [l El]. rewrite El. exact I.
Qed.

Lemma display_all_sat m : forall l, good_items m l -> sat (display_all m l) (fun _ => True).
Proof.
  induction l as [|it t IH]; intros H; cbn [display_all]; [exact I|].
  inversion H as [|x l' Hx Ht]; subst. destruct it as [[k r]|e]; [|apply IH; exact Ht].
  cbn [item_ok snd] in Hx.
  eapply sat_bind; [apply no_panic_sat; apply display_walk_total; exact Hx|]. intros x _.
  eapply sat_bind; [apply IH; exact Ht|]. intros rest _. exact I.
Qed.

Theorem message_display_total m : has_header m -> no_panic (message_display m).
Proof.
  intros Hh. apply (sat_no_panic _ (fun _ => True)). unfold message_display.
  eapply sat_bind; [apply message_iter_sat; exact Hh|]. apply display_all_sat.
Qed.

Lemma run_op4_sat m st o : has_header m -> sat (run_op4 m st o) (fun _ => True).
Proof.
  intros Hh. destruct o; cbn [run_op4].
  - eapply sat_bind; [apply run_op3_sat; exact Hh|]. intros r _. exact I.
  - eapply sat_bind; [apply no_panic_sat; apply message_display_total; exact Hh|]. intros l _. exact I.
Qed.

Lemma run_ops4_sat m : forall ops st, has_header m -> sat (run_ops4 m st ops) (fun _ => True).
Proof.
  induction ops as [|o t IH]; intros st Hh; cbn [run_ops4]; [exact I|].
  eapply sat_bind; [apply run_op4_sat; exact Hh|]. intros r _.
  eapply sat_bind; [apply IH; exact Hh|]. intros rest _. exact I.
Qed.

Theorem read_ops4_total m ops : no_panic (read_ops4 m ops).
Proof.
  apply (sat_no_panic _ (fun _ => True)). unfold read_ops4.
  destruct (from_octets_ok m) eqn:Eh; cbn [negb]; [|exact I]. apply from_octets_header in Eh.
  eapply sat_bind; [apply run_ops4_sat; exact Eh|]. intros r _. exact I.
Qed.

(* running calls in a machine that already holds the iterators st, with the
   iterator numbers shifted past them, is running them in a fresh machine:
   earlier activity cannot be observed *)
Definition lift {R} (st : list sect) (x : outcome (R * list sect)) : outcome (R * list sect) :=
  match x with Ok (r, l) => Ok (r, st ++ l) | Err e => Err e | Panic p => Panic p | OutOfFuel => OutOfFuel end.

Lemma nth_error_shift {A} (st loc : list A) i : nth_error (st ++ loc) (length st + i) = nth_error loc i.
Proof. rewrite nth_error_app2 by lia. f_equal. lia. Qed.

Lemma set_nth_shift {A} (st loc : list A) i x : set_nth (length st + i) x (st ++ loc) = st ++ set_nth i x loc.
Proof. induction st as [|h st IH]; cbn [length Nat.add app set_nth]; [reflexivity|]. rewrite IH. reflexivity. Qed.

Lemma push_section_shift st loc x : push_section (st ++ loc) x = lift st (push_section loc x).
Proof. destruct x; cbn; try reflexivity. rewrite app_assoc. reflexivity. Qed.

Lemma lift_const {R} st loc (x : outcome R) (f : R -> res) :
  (do r <- x; Ok (f r, st ++ loc)) = lift st (do r <- x; Ok (f r, loc)).
Proof. destruct x; reflexivity. Qed.

Lemma run_op_shift m st loc o :
  run_op m (st ++ loc) (shift_op (length st) o) = lift st (run_op m loc o).
Proof.
  destruct o; cbn [run_op shift_op]; try apply push_section_shift;
    try rewrite nth_error_shift.
  - (* OQNext *)
    destruct (nth_error loc i) as [s|]; [|reflexivity]. destruct (s_kind s =? 0); [|reflexivity].
    destruct (q_next m s) as [[[[q|e]|] s']|e| |]; cbn [bind]; rewrite ?set_nth_shift; try reflexivity.
    destruct (q_view m q); reflexivity.
  - (* OQAnswer *)
    destruct (nth_error loc i) as [s|]; [|reflexivity]. destruct (s_kind s =? 0); [|reflexivity].
    apply push_section_shift.
  - (* ORNext *)
    destruct (nth_error loc i) as [s|]; [|reflexivity]. destruct (s_kind s =? 0); [reflexivity|].
    destruct (r_next m s) as [[[[x|e]|] s']|e| |]; cbn [bind]; rewrite ?set_nth_shift; try reflexivity.
    destruct (observe_name m (rr_owner x)); reflexivity.
  - (* ORNextSection *)
    destruct (nth_error loc i) as [s|]; [|reflexivity]. destruct (s_kind s =? 0); [reflexivity|].
    destruct (r_next_section m s) as [[n|]|e| |]; cbn; try reflexivity. rewrite app_assoc. reflexivity.
  - (* OFirst *)
    destruct (first_question m) as [[q|]|e| |]; cbn [bind]; try reflexivity. destruct (q_view m q); reflexivity.
  - destruct (sole_question m) as [q|e| |]; try reflexivity. destruct (q_view m q); reflexivity.
  - destruct (is_answer m m); reflexivity.
  - destruct (canonical_name m) as [[p|]|e| |]; cbn [bind]; try reflexivity. destruct (observe_name m p); reflexivity.
  - destruct (msg_sections m) as [[[[q a] n] r]|e| |]; reflexivity.
  - destruct (count_at m qd_off); cbn [bind]; try reflexivity.
    destruct (count_at m an_off); cbn [bind]; try reflexivity.
    destruct (count_at m ns_off); cbn [bind]; try reflexivity.
    destruct (count_at m ar_off); reflexivity.
  - destruct (iter_slice m start); reflexivity.
  - destruct (message_typed m); reflexivity.
  - destruct (msg_opt_typed m); reflexivity.
Qed.

Lemma run_op3_shift m st loc o :
  run_op3 m (st ++ loc) (shift_op3 (length st) o) = lift st (run_op3 m loc o).
Proof.
  destruct o; cbn [run_op3 shift_op3].
  - rewrite run_op_shift. destruct (run_op m loc o) as [[r l]|e| |]; reflexivity.
  - rewrite nth_error_shift. destruct (nth_error loc i) as [s|]; [|reflexivity].
    destruct (s_kind s =? 0); [reflexivity|]. destruct (limit_to m s _ _); reflexivity.
  - destruct (copy_records_read m); reflexivity.
  - destruct (get_last_additional m); reflexivity.
  - destruct (dig_walk m); reflexivity.
Qed.

Lemma run_op4_shift m st loc o :
  run_op4 m (st ++ loc) (shift_op4 (length st) o) = lift st (run_op4 m loc o).
Proof.
  destruct o; cbn [run_op4 shift_op4].
  - rewrite run_op3_shift. destruct (run_op3 m loc o) as [[r l]|e| |]; reflexivity.
  - destruct (message_display m); reflexivity.
Qed.

Lemma run_ops4_shift m st : forall ops loc,
  run_ops4 m (st ++ loc) (map (shift_op4 (length st)) ops) = lift st (run_ops4 m loc ops).
Proof.
  induction ops as [|o t IH]; intros loc; cbn [map run_ops4]; [reflexivity|].
  rewrite run_op4_shift. destruct (run_op4 m loc o) as [[r l]|e| |]; cbn [lift bind fst snd]; try reflexivity.
  rewrite IH. destruct (run_ops4 m l t) as [[rs l']|e| |]; reflexivity.
Qed.

(* whatever was done before (the iterators in st, wherever they stand), a
   traversal gives exactly what it gives on a fresh view of the message *)
Theorem traversal_independent_of_history m st ops :
  ofst (run_ops4 m st (map (shift_op4 (length st)) ops)) = ofst (run_ops4 m [] ops).
Proof.
  rewrite <- (app_nil_r st) at 1. rewrite run_ops4_shift.
  destruct (run_ops4 m [] ops) as [[r l]|e| |]; reflexivity.
Qed.

Theorem traversed_twice_same m ops r st1 :
  run_ops4 m [] ops = Ok (r, st1) ->
  ofst (run_ops4 m st1 (map (shift_op4 (length st1)) ops)) = Ok r.
Proof. intros H. rewrite traversal_independent_of_history, H. reflexivity. Qed.

Example traversed_twice_example :
  let m := [0;7;128;0; 0;1; 0;1; 0;0; 0;0;  1;97;0; 0;1; 0;1;  192;12; 0;1; 0;1; 0;0;0;60; 0;4; 1;2;3;4] in
  let ops := [O3 (O2 OAnswer); O3 (O2 (ORNext 0)); O3 (O2 (ORNext 0)); ODisplay] in
  match run_ops4 m [] (ops ++ map (shift_op4 1) ops) with
  | Ok (r, _) => firstn 4 r = skipn 4 r
  | _ => False
  end.
Proof. vm_compute. reflexivity. Qed.

(* every constructor over raw octets hands out a view exactly for octet strings
   that hold the 12 octet header section; on those, everything above is total *)
Theorem constructors_agree m :
  Forall (fun b => b = (12 <=? mlen m)) (c01_ctor m) /\ length (c01_ctor m) = 7%nat.
Proof.
  unfold c01_ctor, checking_constructors. split; [|apply repeat_length].
  apply Forall_forall. intros b Hb. apply repeat_spec in Hb. subst b. reflexivity.
Qed.

Example constructors_short : c01_ctor [0;0;0;0;0] = [false;false;false;false;false;false;false].
Proof. reflexivity. Qed.

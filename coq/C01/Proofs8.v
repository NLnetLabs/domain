(* C01 proofs, part 8: the type bitmap iterator
   (RtypeBitmapIter::new / advance / next) and RtypeBitmap::contains on a
   bitmap RtypeBitmap::from_octets accepted: every slice index and the
   read_window(..).unwrap() are in range, and the iteration ends. *)
From Coq Require Import Arith NArith List Bool Lia.
From DV Require Import Base.Outcome Base.Bytes Base.PName C01.Gen C01.Model C05.Schema C01.Model4 C01.Proofs7.
Import ListNotations.
Local Open Scope N_scope.

(* the shape from_octets accepts: windows of 1..32 octets *)
Inductive windows : bytes -> Prop :=
| w_nil : windows []
| w_cons n l w rest : 1 <= l -> l <= 32 -> length w = N.to_nat l -> windows rest ->
    windows (n :: l :: w ++ rest).

Lemma check_windows : forall fuel d, bitmap_check fuel d = None -> windows d.
Proof.
  induction fuel as [|fuel IH]; intros d H; [discriminate|].
  cbn [bitmap_check] in H. destruct d as [|n [|l rest]]; [constructor|discriminate|].
  destruct (N.eqb_spec l 0); [discriminate|].
  destruct (N.ltb_spec 32 l); [discriminate|].
  destruct (Nat.ltb_spec (length rest) (N.to_nat l)); [discriminate|].
  rewrite <- (firstn_skipn (N.to_nat l) rest). constructor; [lia|lia| |apply IH; exact H].
  rewrite firstn_length. lia.
Qed.

Lemma idx_lt d i : (N.to_nat i < length d)%nat -> exists x, idx d i = Ok x.
Proof.
  intros H. unfold idx. destruct (nth_error d (N.to_nat i)) eqn:E; [eauto|].
  apply nth_error_None in E. lia.
Qed.

Lemma from_app w rest n : length w = N.to_nat n -> from (w ++ rest) n = Ok rest.
Proof.
  intros H. unfold from. rewrite len_length, app_length.
  destruct (N.ltb_spec (N.of_nat (length w + length rest)) n); [lia|].
  rewrite <- H. rewrite skipn_app, skipn_all, Nat.sub_diag. reflexivity.
Qed.

(* the iterator state between two calls: inside a window of 1..32 octets *)
Definition in_window (s : bst) : Prop :=
  exists w rest, b_data s = w ++ rest /\ length w = N.to_nat (b_len s) /\
                 b_octet s < b_len s /\ b_bit s < 8 /\ windows rest.

(* termination measure of advance: the bits still ahead *)
Definition bits_left (s : bst) : nat :=
  (8 * (length (b_data s) - N.to_nat (b_octet s)) - N.to_nat (b_bit s))%nat.

(* s' lies further on than s: at the end of the data, or in a window with fewer bits ahead *)
Definition further (s s' : bst) : Prop :=
  (b_data s' = [] \/ (in_window s' /\ (bits_left s' < bits_left s)%nat)) /\
  (length (b_data s') <= length (b_data s))%nat.

Lemma bits_left_bound s : (bits_left s <= 8 * length (b_data s))%nat.
Proof. unfold bits_left. lia. Qed.

Lemma bits_left_pos s : in_window s -> (1 <= bits_left s)%nat.
Proof.
  intros [w [rest [Hd [Hw [Ho [Hb _]]]]]]. unfold bits_left. rewrite Hd, app_length. lia.
Qed.

(* the second half of one loop iteration, entered in state s1 (no early return) *)
Lemma bm_advance_tail fuel (s s1 : bst)
  (IH : forall s, in_window s -> (bits_left s < fuel)%nat -> exists s', bm_advance fuel s = Ok s' /\ further s s') :
  in_window s1 -> (bits_left s1 < bits_left s)%nat -> (bits_left s < S fuel)%nat ->
  (length (b_data s1) <= length (b_data s))%nat ->
  exists s', (do x <- idx (b_data s1) (b_octet s1);
              if bit_set x (b_bit s1) then Ok s1 else bm_advance fuel s1) = Ok s' /\ further s s'.
Proof.
  intros HI1 Hmu1 Hf Hle1.
  assert (Hlt : (N.to_nat (b_octet s1) < length (b_data s1))%nat).
  { destruct HI1 as [w [rest [Hd [Hw [Ho _]]]]]. rewrite Hd, app_length. lia. }
  destruct (idx_lt _ _ Hlt) as [x Ex]. rewrite Ex. cbn [bind].
  destruct (bit_set x (b_bit s1)).
  - exists s1. split; [reflexivity|]. split; [right; auto|exact Hle1].
  - destruct (IH s1 HI1 ltac:(lia)) as [s' [Es [Hc Hle]]].
    exists s'. split; [exact Es|]. split; [|lia].
    destruct Hc as [Hc|[Hc Hm]]; [left; exact Hc|right; split; [exact Hc|lia]].
Qed.

Lemma bm_advance_ok : forall fuel s, in_window s -> (bits_left s < fuel)%nat ->
  exists s', bm_advance fuel s = Ok s' /\ further s s'.
Proof.
  induction fuel as [|fuel IH]; intros s HI Hf; [lia|].
  pose proof HI as [w [rest [Hd [Hw [Ho [Hb Hwin]]]]]].
  assert (Hlen : (N.to_nat (b_octet s) < length (b_data s))%nat) by (rewrite Hd, app_length; lia).
  cbn [bm_advance]. cbv zeta. unfold bitmap_bits.
  destruct (N.eqb_spec (b_bit s + 1) 8) as [H8|H8].
  - destruct (N.eqb_spec (b_octet s + 1) (b_len s)) as [Hl|Hl].
    + (* next window *)
      assert (Hfr : from (b_data s) (b_len s) = Ok rest) by (rewrite Hd; apply from_app; exact Hw).
      rewrite Hfr. cbn [bind].
      inversion Hwin as [|n l w' rest' Hl1 Hl32 Hw' Hwin' Heq]; subst rest.
      * eexists. split; [reflexivity|]. split; [left; reflexivity|]. cbn [b_data length]. lia.
      * pose proof (from_app [n; l] (w' ++ rest') 2 eq_refl) as Hf2. cbn [app] in Hf2.
        change (idx (n :: l :: w' ++ rest') 0) with (Ok n). change (idx (n :: l :: w' ++ rest') 1) with (Ok l).
        cbn [bind]. rewrite Hf2. cbn [bind].
        apply (bm_advance_tail fuel s (mkB (w' ++ rest') (n * 256) l 0 0) IH); [|unfold bits_left| |];
          cbn [b_data b_len b_octet b_bit]; try exact Hf.
        -- exists w', rest'. cbn [b_data b_len b_octet b_bit]. repeat split; auto; lia.
        -- rewrite Hd, !app_length. cbn [length]. rewrite app_length. lia.
        -- rewrite Hd, !app_length. cbn [length]. rewrite app_length. lia.
    + cbn [bind].
      apply (bm_advance_tail fuel s (mkB (b_data s) (b_block s) (b_len s) (b_octet s + 1) 0) IH); [|unfold bits_left| |];
        cbn [b_data b_len b_octet b_bit]; try lia.
      exists w, rest. cbn [b_data b_len b_octet b_bit]. repeat split; auto; lia.
  - cbn [bind].
    apply (bm_advance_tail fuel s (mkB (b_data s) (b_block s) (b_len s) (b_octet s) (b_bit s + 1)) IH); [|unfold bits_left| |];
      cbn [b_data b_len b_octet b_bit]; try lia.
    exists w, rest. cbn [b_data b_len b_octet b_bit]. repeat split; auto; lia.
Qed.

Lemma bm_collect_ok : forall fuel total s acc,
  (b_data s = [] \/ in_window s) -> (bits_left s < fuel)%nat -> (8 * length (b_data s) < total)%nat ->
  exists l, bm_collect fuel total s acc = Ok l.
Proof.
  induction fuel as [|fuel IH]; intros total s acc HI Hf Ht; [lia|].
  cbn [bm_collect]. destruct (b_data s) eqn:Ed; [eauto|].
  destruct HI as [HI|HI]; [congruence|].
  destruct (bm_advance_ok total s HI) as [s' [Es [Hc Hle]]]; [pose proof (bits_left_bound s); rewrite Ed in *; lia|].
  rewrite Es. cbn [bind].
  apply IH.
  - destruct Hc as [Hc|[Hc _]]; auto.
  - pose proof (bits_left_pos s HI). destruct Hc as [Hc|[_ Hm]]; [unfold bits_left; rewrite Hc; cbn [length]; lia|lia].
  - rewrite Ed in Hle. lia.
Qed.

(* types().iter() / Display of the bitmap: total on every accepted bitmap *)
Theorem bitmap_iter_total d : rest_check KBitmap d = None -> exists l, bitmap_iter d = Ok l.
Proof.
  unfold rest_check. intros H. apply check_windows in H.
  unfold bitmap_iter, bm_new.
  inversion H as [|n l w rest Hl1 Hl32 Hw Hwin Heq]; subst d.
  - cbn [bind]. unfold bm_fuel. cbn [bm_collect b_data]. eauto.
  - pose proof (from_app [n; l] (w ++ rest) 2 eq_refl) as Hf2. cbn [app] in Hf2.
    rewrite Hf2. cbn [bind]. unfold idx at 1 2.
    replace (N.to_nat 0) with 0%nat by reflexivity. replace (N.to_nat 1) with 1%nat by reflexivity.
    cbn [nth_error bind].
    set (s := mkB (w ++ rest) (n * 256) l 0 0).
    assert (HI : in_window s) by (exists w, rest; cbn; repeat split; auto; lia).
    destruct (idx_lt (w ++ rest) 0) as [x Ex]; [rewrite app_length; lia|]. rewrite Ex. cbn [bind].
    assert (Hfuel : (8 * length (b_data s) < bm_fuel (n :: l :: w ++ rest))%nat).
    { unfold bm_fuel, s. cbn [b_data length]. lia. }
    destruct (N.land x 128 =? 0).
    + destruct (bm_advance_ok (bm_fuel (n :: l :: w ++ rest)) s HI) as [s' [Es [Hc Hle]]];
        [pose proof (bits_left_bound s); lia|].
      rewrite Es. cbn [bind]. apply bm_collect_ok.
      * destruct Hc as [Hc|[Hc _]]; auto.
      * pose proof (bits_left_bound s'). lia.
      * lia.
    + cbn [bind]. apply bm_collect_ok; [right; exact HI|pose proof (bits_left_bound s); lia|lia].
Qed.

Lemma bm_contains_ok : forall fuel d rtype, windows d -> (length d < fuel)%nat ->
  exists b, bm_contains fuel d rtype = Ok b.
Proof.
  induction fuel as [|fuel IH]; intros d rtype H Hf; [lia|].
  cbn [bm_contains]. inversion H as [|n l w rest Hl1 Hl32 Hw Hwin Heq]; subst d; [eauto|].
  cbn [read_window]. rewrite len_length, app_length.
  destruct (N.ltb_spec (N.of_nat (length w + length rest)) l); [lia|]. cbn [bind].
  destruct (n =? rtype / 256).
  - destruct (nth_error _ _); eauto.
  - apply IH.
    + rewrite <- Hw. rewrite skipn_app, skipn_all, Nat.sub_diag. cbn [skipn app]. exact Hwin.
    + rewrite skipn_length, app_length. cbn [length] in Hf. rewrite app_length in Hf. lia.
Qed.

(* RtypeBitmap::contains: read_window(..).unwrap() is unreachable *)
Theorem bitmap_contains_total d rtype : rest_check KBitmap d = None ->
  exists b, bitmap_contains d rtype = Ok b.
Proof.
  unfold rest_check, bitmap_contains. intros H. apply bm_contains_ok; [eapply check_windows; exact H|lia].
Qed.

Example bitmap_iter_example : bitmap_iter [0; 6; 0x62; 0x01; 0x80; 0x08; 0x00; 0x03] = Ok [1; 2; 6; 15; 16; 28; 46; 47].
Proof. vm_compute. reflexivity. Qed.
Example bitmap_iter_empty_window_panics : bitmap_iter [0; 0] = Panic P_INDEX.
Proof. vm_compute. reflexivity. Qed.
Example bitmap_contains_example :
  bitmap_contains [0; 6; 0x62; 0x01; 0x80; 0x08; 0x00; 0x03] 46 = Ok true /\
  bitmap_contains [0; 6; 0x62; 0x01; 0x80; 0x08; 0x00; 0x03] 5 = Ok false.
Proof. split; vm_compute; reflexivity. Qed.

(* T1 tie: the display-time code has exactly the panic sites the model has,
   the bitmap window bounds are those of C05's acceptance check *)
Definition gen_matches_display : bool :=
  (sites_bitmap_contains =? 1) && (index_sites_bitmap_iter =? 9) && (bitmap_bits =? 8) &&
  (bitmap_len_empty =? 2) && (bitmap_len_max =? 34) && (sites_txt_iter =? 1) &&
  (sites_svc_display =? 3) && (sites_svc_parse_any =? 2) && (sites_svc_value_iters =? 6) &&
  (svc_keys_checked =? 10).
Lemma gen_matches_display_ok : gen_matches_display = true.
Proof. reflexivity. Qed.

(* C01 proofs, part 3: the slice label iterator ends for every slice and start;
   read_all is total; the error fuse and the run of an iterator; record
   extents; what record_parse accepts record_skip accepts, to the same end. *)
From Coq Require Import PeanoNat NArith List Bool Lia.
From DV Require Import Base.Outcome Base.Bytes Base.Names Base.PName C01.Gen C01.Model C01.Proofs C01.Proofs2.
Import ListNotations.
Local Open Scope N_scope.

Lemma split_from_spec m start : start <= mlen m ->
  match split_from m start with
  | Ok (SLabel l) => start + 1 + N.of_nat (length l) <= mlen m
  | Ok _ => True
  | _ => False
  end.
Proof.
  intros Hs. unfold split_from.
  destruct (N.ltb_spec (mlen m) start) as [H|H]; [lia|].
  destruct (get m start) as [h|] eqn:Eh; [|exact I].
  destruct (N.leb_spec h sf_normal_max) as [H1|H1].
  - destruct (N.ltb_spec (mlen m - start) (h + 1)) as [H2|H2]; [exact I|].
    rewrite slice_length by lia. lia.
  - destruct ((sf_ext_min <=? h) && (h <=? sf_ext_max)); [exact I|].
    destruct ((sf_ptr_min <=? h) && (h <=? sf_ptr_max)); [|exact I].
    destruct (N.ltb_spec (mlen m - start) sf_ptr_need) as [H2|H2]; [exact I|].
    unfold sf_ptr_need in H2.
    destruct (get_some m (start + 1)) as [c Hc]; [lia|]. rewrite Hc. exact I.
Qed.

Lemma sl_walk_ok : forall fuel m start entry acc,
  start <= mlen m -> (N.to_nat (mlen m - start) < fuel)%nat ->
  exists acc' e, sl_walk fuel m start entry acc = Ok (acc', e).
Proof.
  induction fuel as [|fuel IH]; intros m start entry acc Hs Hf; [lia|].
  cbn [sl_walk].
  destruct (entry && (mlen m <=? start)); [eauto|].
  pose proof (split_from_spec m start Hs) as Hsp.
  destruct (split_from m start) as [[l|p|]| | |]; try contradiction; cbn [bind]; [|eauto|eauto].
  destruct (Nat.eqb (length l) 0) eqn:El; [eauto|].
  apply Nat.eqb_neq in El. apply IH; lia.
Qed.

Lemma sl_segments_ok : forall fuel m start segment entry acc,
  start <= mlen m -> segment <= mlen m -> (N.to_nat segment < fuel)%nat ->
  exists ls, sl_segments fuel m start segment entry acc = Ok ls.
Proof.
  induction fuel as [|fuel IH]; intros m start segment entry acc Hs Hg Hf; [lia|].
  cbn [sl_segments].
  destruct (sl_walk_ok (S (length m)) m start entry acc Hs) as [acc' [e Ew]]; [unfold mlen; lia|].
  rewrite Ew. cbn [bind].
  destruct e as [|pos cur]; [eauto|].
  unfold sl_reject, sl_check_segment, sl_reject_ge, sl_updates_segment.
  destruct (N.leb_spec segment pos) as [Hr|Hr]; [eauto|].
  apply IH; lia.
Qed.

Theorem iter_slice_finite m start : exists ls, iter_slice m start = Ok ls.
Proof.
  unfold iter_slice. destruct (N.leb_spec (mlen m) start) as [H|H]; [eauto|].
  apply sl_segments_ok; lia.
Qed.

Example iter_slice_self_pointer : iter_slice [192; 0] 0 = Ok [].
Proof. vm_compute. reflexivity. Qed.
Example iter_slice_cycle : iter_slice [0; 0; 1; 120; 192; 2] 2 = Ok [[120]].
Proof. vm_compute. reflexivity. Qed.
Example iter_slice_backwards :
  iter_slice [3;99;111;109;0;3;119;119;119;192;0] 5 = Ok [[119;119;119]; [99;111;109]; []].
Proof. vm_compute. reflexivity. Qed.

Lemma q_events_sat m : forall l,
  Forall (fun x : item question * sect => item_ok (good_q m) (fst x)) l ->
  sat (q_events m l) (fun _ => True).
Proof.
  induction l as [|[it s'] t IH]; intros H; cbn [q_events]; [exact I|].
  inversion H as [|x l' Hx Ht]; subst. cbn [fst] in Hx.
  destruct it as [q|e].
  - eapply sat_bind; [apply observe_name_sat; exact Hx|]. intros o _.
    eapply sat_bind; [apply IH; exact Ht|]. intros rest _. exact I.
  - eapply sat_bind; [apply (fused_sat _ _ _ (question_parse_sat' m))|]. intros f _.
    eapply sat_bind; [apply IH; exact Ht|]. intros rest _. exact I.
Qed.

Lemma r_events_sat m : forall l before,
  Forall (fun x : item rr * sect => item_ok (good_rr m (mlen m)) (fst x)) l ->
  sat (r_events m before l) (fun _ => True).
Proof.
  induction l as [|[it s'] t IH]; intros before H; cbn [r_events]; [exact I|].
  inversion H as [|x l' Hx Ht]; subst. cbn [fst] in Hx.
  destruct it as [r|e].
  - destruct Hx as [Hx _].
    eapply sat_bind; [apply observe_name_sat; exact Hx|]. intros o _.
    eapply sat_bind; [apply IH; exact Ht|]. intros rest _. exact I.
  - eapply sat_bind; [apply (fused_sat _ _ _ (record_parse_sat' m))|]. intros f _.
    eapply sat_bind; [apply IH; exact Ht|]. intros rest _. exact I.
Qed.

Lemma section_view_sat m (sec : outcome sect) P : sat sec P -> sat (section_view m sec) (fun _ => True).
Proof.
  intros Hs. unfold section_view. destruct sec as [s|e| |]; try exact Hs.
  eapply sat_bind; [apply drain_r_next_sat|]. intros r [Hr _].
  eapply sat_bind; [apply r_events_sat; exact Hr|]. intros evs _. exact I.
Qed.

Lemma lift_err_sat {A} (x : outcome A) P : sat x P -> sat (lift_err x) (item_ok P).
Proof. destruct x; cbn; auto. Qed.

Lemma q_view_sat m q : good_q m q -> sat (q_view m q) (fun _ => True).
Proof.
  intros H. unfold q_view. eapply sat_bind; [apply observe_name_sat; exact H|]. intros o _. exact I.
Qed.

Theorem read_all_total m : no_panic (read_all m).
Proof.
  apply (sat_no_panic _ (fun _ => True)). unfold read_all.
  destruct (from_octets_ok m) eqn:Eh; cbn [negb]; [|exact I].
  apply from_octets_header in Eh as Hh.
  destruct (count_offsets m Hh) as [Hqd [Han [Hns Har]]].
  eapply sat_bind; [apply count_at_sat; exact Hqd|]. intros qd _.
  eapply sat_bind; [apply count_at_sat; exact Han|]. intros an _.
  eapply sat_bind; [apply count_at_sat; exact Hns|]. intros ns _.
  eapply sat_bind; [apply count_at_sat; exact Har|]. intros ar _.
  eapply sat_bind; [apply question_section_sat; exact Hh|]. intros qs _.
  eapply sat_bind; [apply drain_q_next_sat|]. intros qr [Hqr _].
  eapply sat_bind; [apply q_events_sat; exact Hqr|]. intros qev _.
  eapply sat_bind; [eapply section_view_sat; apply msg_answer_sat; exact Hh|]. intros v_an _.
  eapply sat_bind; [eapply section_view_sat; apply msg_authority_sat; exact Hh|]. intros v_ns _.
  eapply sat_bind; [eapply section_view_sat; apply msg_additional_sat; exact Hh|]. intros v_ar _.
  eapply sat_bind; [apply lift_err_sat; apply msg_sections_sat; exact Hh|]. intros secs _.
  cbv zeta.
  eapply sat_bind; [apply first_question_sat; exact Hh|]. intros fq Hfq. cbv beta in Hfq.
  eapply sat_bind.
  { instantiate (1 := fun _ => True). destruct fq as [q|]; [|exact I].
    eapply sat_bind; [apply q_view_sat; exact Hfq|]. intros v _. exact I. }
  intros fqv _.
  eapply sat_bind; [apply lift_err_sat; apply sole_question_sat; exact Hh|]. intros sq Hsq. cbv beta in Hsq.
  eapply sat_bind.
  { instantiate (1 := fun _ => True). destruct sq as [q|e]; [|exact I].
    eapply sat_bind; [apply q_view_sat; exact Hsq|]. intros v _. exact I. }
  intros sqv _.
  eapply sat_bind; [apply is_answer_sat; exact Hh|]. intros self _.
  eapply sat_bind; [apply message_iter_sat; exact Hh|]. intros it _.
  eapply sat_bind; [apply canonical_name_sat; exact Hh|]. intros cn Hcn. cbv beta in Hcn.
  eapply sat_bind.
  { instantiate (1 := fun _ => True). destruct cn as [p|]; [|exact I].
    eapply sat_bind; [apply observe_name_sat; exact Hcn|]. intros v _. exact I. }
  intros cnv _.
  eapply sat_bind; [apply msg_opt_sat; exact Hh|]. intros op _.
  eapply sat_bind.
  { instantiate (1 := fun _ => True). destruct (iter_slice_finite m header_len) as [ls E]. rewrite E. exact I. }
  intros sl _. exact I.
Qed.

Example read_all_short : read_all [1;2;3] = Ok None.
Proof. vm_compute. reflexivity. Qed.

(* a 12 octet header with QDCOUNT=1 and nothing else: the question fails with
   ShortInput, everything else is an error value, nothing panics *)
Example read_all_example :
  match read_all [0;7;128;0; 0;1; 0;0; 0;0; 0;0] with
  | Ok (Some o) => o_questions o = [EvErr E_SHORT true] /\ o_answer o = IErr E_SHORT /\
                   o_first o = None /\ o_sole o = IErr E_SHORT /\ o_canonical o = None
  | _ => False
  end.
Proof. vm_compute. repeat split. Qed.

(* after next has returned an error every later next returns None and leaves
   the state unchanged; this is what makes `while next().is_some()` and
   next_section terminate on malformed input *)
Theorem fuse_after_error {A} (parse : N -> outcome A) (endof : A -> N) s e s' :
  sec_next parse endof s = Ok (Some (IErr e), s') ->
  s_err s' = Some e /\ sec_next parse endof s' = Ok (None, s').
Proof.
  unfold sec_next. destruct (s_err s) as [e0|] eqn:E0; [discriminate|].
  destruct (0 <? s_cnt s); [|discriminate].
  destruct (parse (s_pos s)) as [a|e1| |]; try discriminate.
  intros H. inversion H; subst. cbn [s_err]. split; reflexivity.
Qed.

Theorem fuse_sticky {A} (parse : N -> outcome A) (endof : A -> N) st e :
  s_err st = Some e -> sec_next parse endof st = Ok (None, st).
Proof. intros H. unfold sec_next. rewrite H. reflexivity. Qed.

Example fuse_example :
  let m := [0;7;128;0; 0;2; 0;0; 0;0; 0;0; 64] in
  let s' := mkSect 12 2 (Some E_BADLABEL) 0 in
  q_next m (mkSect 12 2 None 0) = Ok (Some (IErr E_BADLABEL), s') /\
  q_next m s' = Ok (None, s').
Proof. split; vm_compute; reflexivity. Qed.

(* run next s l s': calling next from s yields the items l, each with the state
   after it, and then None in state s'; this is what drain computes *)
Inductive run {A} (next : sect -> outcome (option (item A) * sect))
  : sect -> list (item A * sect) -> sect -> Prop :=
| run_end s s' : next s = Ok (None, s') -> run next s [] s'
| run_item s it s1 l s' : next s = Ok (Some it, s1) -> run next s1 l s' ->
    run next s ((it, s1) :: l) s'.

Lemma drain_run {A} (next : sect -> outcome (option (item A) * sect)) : forall fuel s acc l s',
  drain next fuel s acc = Ok (l, s') ->
  exists more, l = rev acc ++ more /\ run next s more s' /\ (length more < fuel)%nat.
Proof.
  induction fuel as [|fuel IH]; intros s acc l s' H; [discriminate|].
  cbn [drain] in H. destruct (next s) as [[[it|] s1]|e| |] eqn:En; cbn [bind] in H; try discriminate.
  - apply IH in H. destruct H as (more & -> & Hr & Hlen). exists ((it, s1) :: more).
    cbn [rev length]. rewrite <- app_assoc. split; [reflexivity|]. split; [eapply run_item; eauto|lia].
  - inversion H; subst. exists []. rewrite app_nil_r.
    split; [reflexivity|]. split; [apply run_end; exact En|cbn [length]; lia].
Qed.

Lemma run_drain {A} (next : sect -> outcome (option (item A) * sect)) s l s' : run next s l s' ->
  forall fuel acc, (length l < fuel)%nat -> drain next fuel s acc = Ok (rev acc ++ l, s').
Proof.
  induction 1 as [s s' En|s it s1 l s' En Hr IH]; intros [|fuel] acc Hf; try (cbn [length] in Hf; lia);
    cbn [drain]; rewrite En; cbn [bind].
  - rewrite app_nil_r. reflexivity.
  - rewrite IH by (cbn [length] in Hf; lia). cbn [rev]. rewrite <- app_assoc. reflexivity.
Qed.

Theorem record_extent_within m pos lim r :
  lim <= mlen m -> record_parse m pos lim = Ok r ->
  rr_data r + rr_rdlen r = rr_end r /\ rr_end r <= lim /\ rr_end r <= mlen m.
Proof.
  intros Hl H. pose proof (record_parse_sat m pos lim Hl) as Hs. rewrite H in Hs.
  cbn [sat] in Hs. destruct Hs as [_ [H1 H2]]. lia.
Qed.

Example record_extent_example :
  match record_parse [0; 0;1; 0;1; 0;0;0;9; 0;2; 7;7] 0 13 with
  | Ok r => rr_data r = 11 /\ rr_end r = 13
  | _ => False
  end.
Proof. vm_compute. split; reflexivity. Qed.

(* The dig printer and sections() first iterate with parse and then call
   next_section (skip) and unwrap the result. *)
Theorem parse_accepts_skip_accepts m pos lim r :
  record_parse m pos lim = Ok r -> record_skip m pos lim = Ok (rr_end r).
Proof.
  unfold record_parse, record_skip, rr_fixed_skip. intros H.
  apply bind_ok in H. destruct H as (p & Ep & H). cbv zeta in H.
  apply bind_ok in H. destruct H as (ty & _ & H).
  apply bind_ok in H. destruct H as (cl & _ & H).
  apply bind_ok in H. destruct H as (ttl & _ & H).
  apply bind_ok in H. destruct H as (rdlen & Er & H).
  rewrite (parse_ref_skip_agree _ _ _ _ Ep). cbn [bind].
  apply u16_at_ok in Er as Hr. destruct (N.ltb_spec (lim - pn_end p) 8); [lia|].
  rewrite Er. cbn [bind]. replace (pn_end p + 8 + 2) with (pn_end p + 10) by lia.
  destruct (lim - (pn_end p + 10) <? rdlen); [discriminate|]. inversion H. reflexivity.
Qed.

Example parse_skip_example :
  record_skip [1;97;0; 0;1; 0;1; 0;0;0;9; 0;2; 7;7] 0 15 = Ok 15.
Proof. vm_compute. reflexivity. Qed.

(* C01 proofs, part 6: the dig printer's unwraps are
   unreachable and its whole walk is total; RecordIter for every data type,
   copy_records (read side) and get_last_additional are total; the any-order
   machine with these calls added is total. *)
From Coq Require Import NArith List Bool Lia.
From DV Require Import Base.Outcome Base.Bytes Base.Names Base.PName C01.Gen C01.Model C01.Model2 C01.Model3.
From DV Require Import C05.Schema C05.Model.
From DV Require Import C01.Proofs C01.Proofs2 C01.Proofs3 C01.Proofs5.
Import ListNotations.
Local Open Scope N_scope.

Lemma run_noerr {A} (parse : N -> outcome A) (endof : A -> N) s l s' :
  run (sec_next parse endof) s l s' -> s_err s = None -> has_err l = false -> s_err s' = None.
Proof.
  induction 1 as [s s' En|s it s1 l s' En Hr IH]; intros He Hl;
    destruct (sec_next_cases _ _ _ _ _ En) as [(Ho & -> & _)|(_ & _ & [(a & Ho & _ & ->)|(e & Ho & _)])];
    inversion Ho; subst.
  - exact He.
  - apply IH; [reflexivity|exact Hl].
  - discriminate Hl.
Qed.

(* what a clean parse-run over a record section did, a skip-run does too, and
   it ends in the very same state *)
Lemma run_parse_skip m s l s' :
  run (r_next m) s l s' -> s_err s = None -> has_err l = false ->
  exists l2, run (r_skip_next m) s l2 s' /\ length l2 = length l.
Proof.
  induction 1 as [s s' En|s it s1 l s' En Hr IH]; intros He Hl;
    destruct (sec_next_cases _ _ _ _ _ En) as [(Ho & -> & Hc)|(_ & Hc & [(a & Ho & Hp & ->)|(e & Ho & _)])];
    inversion Ho; subst.
  - exists []. split; [|reflexivity]. apply run_end. unfold r_skip_next, sec_next. rewrite He, (Hc He). reflexivity.
  - destruct IH as (l2 & Hr2 & Hlen); [reflexivity|exact Hl|].
    eexists (_ :: l2). split; [|cbn [length]; rewrite Hlen; reflexivity].
    eapply run_item; [|exact Hr2]. unfold r_skip_next, sec_next. rewrite He.
    destruct (N.ltb_spec 0 (s_cnt s)); [|lia].
    rewrite (parse_accepts_skip_accepts _ _ _ _ Hp). reflexivity.
  - discriminate Hl.
Qed.

(* section.next_section().unwrap().unwrap() after a loop that met no error *)
Theorem next_section_after_clean m s l s' :
  has_header m -> s_kind s < 3 -> s_err s = None ->
  drain (r_next m) (sec_fuel s) s [] = Ok (l, s') -> has_err l = false ->
  exists n, r_next_section m s = Ok (Some n) /\ s_kind n = s_kind s + 1 /\ s_err n = None.
Proof.
  intros Hh Hk He H Hl. unfold r_next_section.
  destruct (N.leb_spec 3 (s_kind s)); [lia|].
  apply drain_run in H. destruct H as (l' & -> & Hr & Hlen). cbn [rev app] in Hl.
  destruct (run_parse_skip m s l' s' Hr He Hl) as (l2 & Hr2 & Hlen2).
  rewrite (run_drain _ _ _ _ Hr2) by lia. cbn [bind snd].
  rewrite (run_noerr _ _ _ _ _ Hr He Hl).
  unfold record_section. destruct (count_at_ok m (kind_off (s_kind s + 1)) (kind_off_ok m _ Hh)) as [c Ec].
  rewrite Ec. cbn [bind]. eexists. split; [reflexivity|]. auto.
Qed.

(* questions.answer().unwrap() after a loop that met no error *)
Theorem answer_after_clean m qs l s' :
  has_header m -> s_err qs = None ->
  drain (q_next m) (sec_fuel qs) qs [] = Ok (l, s') -> has_err l = false ->
  exists a, q_to_answer m qs = Ok a /\ s_kind a = 1 /\ s_err a = None.
Proof.
  intros Hh He H Hl. unfold q_to_answer. rewrite H. cbn [bind snd].
  apply drain_run in H. destruct H as (l' & -> & Hr & _). rewrite (run_noerr _ _ _ _ _ Hr He Hl).
  unfold record_section. destruct (count_at_ok m (kind_off 1) (kind_off_ok m _ Hh)) as [c Ec].
  rewrite Ec. cbn [bind]. eexists. split; [reflexivity|]. auto.
Qed.

Lemma r_toks_sat m skip : forall l,
  Forall (fun x : item rr * sect => item_ok (good_rr m (mlen m)) (fst x)) l ->
  sat (r_toks m skip l) (fun _ => True).
Proof.
  induction l as [|[it s'] t IH]; intros H; cbn [r_toks]; [exact I|].
  inversion H as [|x l' Hx Ht]; subst. cbn [fst] in Hx. destruct it as [r|e]; [|exact I].
  destruct (skip && (rr_type r =? RT_OPT)); [apply IH; exact Ht|].
  eapply sat_bind; [apply typed_rdata_sat; exact Hx|]. intros ty _.
  eapply sat_bind; [apply IH; exact Ht|]. intros rest _. exact I.
Qed.

Lemma drain_zero m s : s_err s = None -> s_cnt s = 0 ->
  drain (r_next m) (sec_fuel s) s [] = Ok ([], s).
Proof.
  intros He Hc. unfold sec_fuel. cbn [drain]. unfold r_next, sec_next. rewrite He, Hc. reflexivity.
Qed.

Lemma dig_section_sat m s print skip : sat (dig_section m s print skip) (fun _ => True).
Proof.
  unfold dig_section. eapply sat_bind; [apply drain_r_next_sat|]. intros r [Hall _].
  destruct print; [|exact I].
  eapply sat_bind; [apply r_toks_sat; exact Hall|]. intros toks _. exact I.
Qed.

(* a loop guarded by `count > 0` that did not return early was either not
   entered, and then the count is 0, or met no error item *)
Lemma dig_section_next m s skip : has_header m -> s_kind s < 3 -> s_err s = None ->
  sat (dig_section m s (dig_section_gt <? s_cnt s) skip)
      (fun r => snd r = false ->
                exists n, r_next_section m s = Ok (Some n) /\ s_kind n = s_kind s + 1 /\ s_err n = None).
Proof.
  intros Hh Hk He. unfold dig_section.
  pose proof (drain_r_next_sat m s) as Hd.
  destruct (drain (r_next m) (sec_fuel s) s []) as [[l s']|e| |] eqn:Ed; try exact Hd. cbn [bind fst snd].
  destruct Hd as [Hall _].
  destruct (N.ltb_spec dig_section_gt (s_cnt s)) as [Hc|Hc].
  - eapply sat_bind; [apply r_toks_sat; exact Hall|]. intros toks _ Hl.
    exact (next_section_after_clean m s l s' Hh Hk He Ed Hl).
  - intros _. unfold dig_section_gt in Hc. rewrite drain_zero in Ed by (assumption || lia).
    inversion Ed; subst l s'. apply (next_section_after_clean m s [] s Hh Hk He); [|reflexivity].
    apply drain_zero; [assumption|lia].
Qed.

Theorem dig_walk_total m : has_header m -> no_panic (dig_walk m).
Proof.
  intros Hh. apply (sat_no_panic _ (fun _ => True)). unfold dig_walk.
  eapply sat_bind; [apply msg_opt_typed_sat; exact Hh|]. intros optv _. cbv zeta.
  pose proof (question_section_sat m Hh) as Hq.
  destruct (question_section m) as [qs|e| |]; try exact Hq. cbn [bind]. destruct Hq as [_ Hqe].
  pose proof (drain_q_next_sat m qs) as Hd.
  destruct (drain (q_next m) (sec_fuel qs) qs []) as [[ql qs']|e| |] eqn:Edq; try exact Hd. cbn [bind fst snd].
  destruct (has_err ql) eqn:Eql; [exact I|].
  destruct (answer_after_clean m qs ql qs' Hh Hqe Edq Eql) as (an & -> & Hank & Hane).
  cbn [unwrap_res bind].
  eapply sat_bind; [apply dig_section_next; [exact Hh|rewrite Hank; reflexivity|exact Hane]|]. intros a Ha.
  destruct (snd a) eqn:Ea; [exact I|]. destruct (Ha Ea) as (ns & -> & Hnsk & Hnse).
  cbn [unwrap_res bind unwrap_opt].
  eapply sat_bind; [apply dig_section_next; [exact Hh|rewrite Hnsk, Hank; reflexivity|exact Hnse]|]. intros b Hb.
  destruct (snd b) eqn:Eb; [exact I|]. destruct (Hb Eb) as (ar & -> & _).
  cbn [unwrap_res bind unwrap_opt].
  eapply sat_bind; [apply dig_section_sat|]. intros c _. exact I.
Qed.

Example dig_walk_example :
  dig_walk [0;7;128;0; 0;1; 0;1; 0;0; 0;0;  1;97;0; 0;1; 0;1;  192;12; 0;1; 0;1; 0;0;0;60; 0;3; 1;2;3] =
  Ok [TQHdr; TQ; TSecHdr 1; TRec false].
Proof. vm_compute. reflexivity. Qed.

Lemma typed_sel_sat m r sl : good_rr m (mlen m) r -> sat (typed_sel m r sl) (fun _ => True).
Proof.
  intros Hg. destruct sl; cbn [typed_sel].
  - apply typed_rdata_sat. exact Hg.
  - destruct ((rr_type r =? 10) || (rr_type r =? 41) || (rr_type r =? 250)); [exact I|].
    apply typed_rdata_sat. exact Hg.
  - destruct (rr_type r =? t); [apply typed_rdata_sat; exact Hg|exact I].
Qed.

Lemma limit_count_sat : forall fuel m s sl io ok err, fuel_ok fuel s ->
  sat (limit_count fuel m s sl io ok err) (fun _ => True).
Proof.
  induction fuel as [|fuel IH]; intros m s sl io ok err Hf; [destruct (fuel_ok_0 s Hf)|].
  cbn [limit_count].
  eapply sat_bind; [apply r_next_sat|]. intros [[it|] s'] (_ & Hstep & Hg); [|exact I]. cbn [fst snd] in *.
  assert (Hf' : fuel_ok fuel s') by (apply Hstep; [exact Hf|discriminate]).
  destruct it as [rec|e]; [|apply IH; exact Hf'].
  destruct (io && negb (rr_class rec =? 1)); [apply IH; exact Hf'|].
  eapply sat_bind; [apply typed_sel_sat; exact Hg|]. intros [[u|e]|] _; apply IH; exact Hf'.
Qed.

Theorem limit_to_total m s sl io : no_panic (limit_to m s sl io).
Proof. eapply sat_no_panic. apply limit_count_sat. apply sec_fuel_ok. Qed.

(* the iterator copy_section hands back is the one the loop has advanced; its
   kind is unchanged, so next_section yields Some for answer and authority *)
Lemma copy_section_kind m s :
  sat (copy_section m s) (item_ok (fun c : N * sect => s_kind (snd c) = s_kind s)).
Proof.
  unfold copy_section. eapply sat_bind; [apply drain_r_next_sat|]. intros r [_ Hk].
  destruct (first_err (fst r)); [exact I|exact Hk].
Qed.

Lemma copy_section_sat m s : sat (copy_section m s) (fun _ => True).
Proof. eapply sat_weaken; [apply copy_section_kind|]. auto. Qed.

Theorem copy_records_read_total m : has_header m -> no_panic (copy_records_read m).
Proof.
  intros Hh. apply (sat_no_panic _ (fun _ => True)). unfold copy_records_read.
  pose proof (msg_answer_sat m Hh) as Ha.
  destruct (msg_answer m) as [an|e| |]; try exact Ha. cbn [sat] in Ha.
  eapply sat_bind; [apply copy_section_kind|]. intros [[n1 s1]|e] H1; [|exact I]. cbn [item_ok snd] in H1.
  pose proof (r_next_section_sat m s1 Hh) as Hn1.
  destruct (r_next_section m s1) as [o1|e| |]; try exact Hn1.
  eapply sat_bind; [apply unwrap_opt_sat, Hn1; lia|]. intros ns Hns. cbv beta in Hns.
  eapply sat_bind; [apply copy_section_kind|]. intros [[n2 s2]|e] H2; [|exact I]. cbn [item_ok snd] in H2.
  pose proof (r_next_section_sat m s2 Hh) as Hn2.
  destruct (r_next_section m s2) as [o2|e| |]; try exact Hn2.
  eapply sat_bind; [apply unwrap_opt_sat, Hn2; lia|]. intros ar _.
  eapply sat_bind; [apply copy_section_sat|]. intros [[n3 s3]|e] _; exact I.
Qed.

Lemma to_last_sat : forall fuel m s, fuel_ok fuel s -> sat (to_last fuel m s) (fun _ => True).
Proof.
  induction fuel as [|fuel IH]; intros m s Hf; [destruct (fuel_ok_0 s Hf)|].
  cbn [to_last]. destruct (s_err s) eqn:He; [exact I|].
  unfold last_none, last_one.
  destruct (N.eqb_spec (s_cnt s) 0); [exact I|]. destruct (N.eqb_spec (s_cnt s) 1); [exact I|].
  pose proof (r_next_sat m s) as Hx.
  destruct (r_next m s) as [[o s']|e| |] eqn:En; try exact Hx; cbn [bind snd].
  destruct Hx as (_ & Hstep & _). apply IH, Hstep; [exact Hf|]. cbn [fst]. intros ->.
  (* None with a count of at least 2: impossible *)
  destruct (sec_next_cases _ _ _ _ _ En) as [(_ & _ & Hc)|(_ & _ & [(a & Ho & _)|(e & Ho & _)])];
    [specialize (Hc He); lia|discriminate Ho|discriminate Ho].
Qed.

Theorem get_last_additional_total m : has_header m -> no_panic (get_last_additional m).
Proof.
  intros Hh. apply (sat_no_panic _ (fun _ => True)). unfold get_last_additional.
  pose proof (msg_additional_sat m Hh) as Ha.
  destruct (msg_additional m) as [s|e| |]; cbn [sat] in Ha; try contradiction; [|exact I].
  eapply sat_bind; [apply to_last_sat; apply sec_fuel_ok|]. intros l _.
  destruct l as [s'|]; [|exact I].
  pose proof (record_parse_sat m (s_pos s') (mlen m) (N.le_refl _)) as Hr.
  destruct (record_parse m (s_pos s') (mlen m)) as [r|e| |]; cbn [sat] in Hr; try contradiction; [|exact I].
  eapply sat_bind; [apply typed_rdata_sat; exact Hr|]. intros ty _. exact I.
Qed.

Lemma run_op3_sat m st o : has_header m -> sat (run_op3 m st o) (fun _ => True).
Proof.
  intros Hh. destruct o; cbn [run_op3].
  - eapply sat_bind; [apply run_op_sat; exact Hh|]. intros r _. exact I.
  - destruct (nth_error st i) as [s|]; [|exact I]. destruct (s_kind s =? 0); [exact I|].
    eapply sat_bind; [apply no_panic_sat; apply limit_to_total|]. intros c _. exact I.
  - eapply sat_bind; [apply no_panic_sat; apply copy_records_read_total; exact Hh|]. intros v _. exact I.
  - eapply sat_bind; [apply no_panic_sat; apply get_last_additional_total; exact Hh|]. intros v _. exact I.
  - eapply sat_bind; [apply no_panic_sat; apply dig_walk_total; exact Hh|]. intros v _. exact I.
Qed.

Lemma run_ops3_sat m : forall ops st, has_header m -> sat (run_ops3 m st ops) (fun _ => True).
Proof.
  induction ops as [|o t IH]; intros st Hh; cbn [run_ops3]; [exact I|].
  eapply sat_bind; [apply run_op3_sat; exact Hh|]. intros r _.
  eapply sat_bind; [apply IH; exact Hh|]. intros rest _. exact I.
Qed.

Theorem read_ops3_total m ops : no_panic (read_ops3 m ops).
Proof.
  apply (sat_no_panic _ (fun _ => True)). unfold read_ops3.
  destruct (from_octets_ok m) eqn:Eh; cbn [negb]; [|exact I]. apply from_octets_header in Eh.
  eapply sat_bind; [apply run_ops3_sat; exact Eh|]. intros r _. exact I.
Qed.

Example read_ops3_example :
  read_ops3 [0;7;128;0; 0;1; 0;1; 0;0; 0;0;  1;97;0; 0;1; 0;1;  192;12; 0;1; 0;1; 0;0;0;60; 0;4; 1;2;3;4]
            [O2 OAnswer; OLimit 0 1; OLimit 0 5; OCopy; OLast; ODig] =
  Ok (Some [R2 (RPos 19); RCount 1 0; RCount 0 0; RCopy (IOk (1, 0, 0)); RLast None;
            RDig [TQHdr; TQ; TSecHdr 1; TRec true]]).
Proof. vm_compute. reflexivity. Qed.

(* C03 -- on a growable buffer append_label, append_dec_u8_label and
   append_hex_digit_label each add one label while the name stays within 254
   octets; hence Name::reverse_from_addr, which is the builder sequence
   reverse_v4_ops / reverse_v6_ops (T2 kind reverse_from_addr), for EVERY address. *)
From Coq Require Import NArith List Bool Arith Lia.
From Coq Require Import ZifyN ZifyNat.
From DV Require Import Base.Outcome Base.Bytes Base.Names C03.Gen C03.Model C03.Spec
  C03.ProofsBuilder C03.ProofsBuilder2.
Import ListNotations.

Fixpoint a_oks (cap : option nat) (a : astate) (ops : list op) (a' : astate) : Prop :=
  match ops with
  | [] => a' = a
  | o :: r => exists a1, a_step cap a o = (a1, Ok tt) /\ a_oks cap a1 r a'
  end.

Lemma a_oks_app cap : forall o1 a a1 o2 a2,
  a_oks cap a o1 a1 -> a_oks cap a1 o2 a2 -> a_oks cap a (o1 ++ o2) a2.
Proof.
  induction o1 as [|o o1 IH]; intros a a1 o2 a2 H1 H2; cbn [app a_oks] in *; [subst a1; exact H2|].
  destruct H1 as (b & Hb & H1). exists b. split; [exact Hb|]. apply (IH b a1); assumption.
Qed.

Lemma run_follows cap : forall ops a st a', awf a -> repr a st -> Forall wf_op ops ->
  a_oks cap a ops a' ->
  fst (run_log cap st ops) = repeat (Ok tt) (length ops) /\ repr a' (run cap st ops) /\ awf a'.
Proof.
  induction ops as [|o ops IH]; intros a st a' Hw Hr Ho Hok; cbn [a_oks] in Hok.
  - subst a'. cbn. auto.
  - inversion Ho as [|? ? Ho1 Ho2]; subst. destruct Hok as (a1 & Hs & Hrest).
    destruct (step_refines cap a st o Hw Hr Ho1) as (R1 & R2 & R3 & _). rewrite Hs in R1, R2, R3.
    cbn [run_log run fold_left length repeat]. destruct (step cap st o) as [st' r]. cbn [fst snd] in *. subst r.
    destruct (IH a1 st' a' R3 R1 Ho2 Hrest) as (I1 & I2). destruct (run_log cap st' ops) as [rs fin].
    cbn [fst] in *. subst rs. auto.
Qed.

Lemma built_exact ops n : Forall wf_op ops -> a_oks None a_init ops (mk_a n None) -> (wire_len n <= 254)%nat ->
  fst (run_log None b_init ops) = repeat (Ok tt) (length ops) /\ valid_rel n /\
  b_finish (run None b_init ops) = Ok (wire_rel n) /\
  b_into_name None (run None b_init ops) = Ok (wire_abs n).
Proof.
  intros Ho Hok Hl. destruct (run_follows None ops a_init b_init _ awf_init repr_init Ho Hok) as (R1 & R3 & R4).
  assert (Hav : avalid (mk_a n None)) by (split; [exact R4|rewrite alen_closed by reflexivity; exact Hl]).
  split; [exact R1|]. split; [split; [apply R4|exact Hl]|]. split.
  - apply (finish_spec _ _ Hav R3).
  - apply (into_name_spec None _ _ Hav R3).
Qed.

(* the abstract builder with [c] as the content of the open label ([] = none) *)
Definition mkopen (cl : name) (c : bytes) : astate :=
  mk_a cl (match c with [] => None | _ => Some c end).

Lemma push_mkopen cl c b : (length c < 63)%nat -> (wire_len cl + length c + 2 <= 254)%nat ->
  a_push None (mkopen cl c) b = (mkopen cl (c ++ [b]), Ok tt).
Proof.
  intros H1 H2. unfold a_push, mkopen, alen, fits. cbn [closed opn].
  destruct c as [|x c'].
  - cbn [app]. destruct (Nat.leb_spec 254 (wire_len cl + 0)); [lia|].
    destruct (Nat.leb_spec 253 (wire_len cl + 0)); [cbn [length] in *; lia|]. reflexivity.
  - destruct (Nat.leb_spec 254 (wire_len cl + S (length (x :: c')))); [lia|].
    destruct (Nat.leb_spec 63 (length (x :: c'))); [lia|]. reflexivity.
Qed.

Lemma pushes_mkopen cl : forall l c, (length (c ++ l) <= 63)%nat -> (wire_len cl + length (c ++ l) + 1 <= 254)%nat ->
  a_pushes None (mkopen cl c) l = (mkopen cl (c ++ l), Ok tt).
Proof.
  induction l as [|b l IH]; intros c H1 H2; [rewrite app_nil_r; reflexivity|].
  rewrite app_length in H1, H2. cbn [length] in H1, H2.
  cbn [a_pushes]. rewrite push_mkopen by lia. cbn [a_then].
  rewrite IH, <- app_assoc; [reflexivity| |]; rewrite !app_length; cbn [length]; lia.
Qed.

Lemma aend_mkopen cl c : c <> [] -> aend (mkopen cl c) = mk_a (cl ++ [c]) None.
Proof. destruct c; [contradiction|reflexivity]. Qed.

Lemma awf_mkopen cl c : Forall valid_label cl -> (length c <= 63)%nat -> wf_bytes c -> awf (mkopen cl c).
Proof.
  intros H1 H2 H3. split; [exact H1|]. unfold mkopen. cbn [opn].
  destruct c; [exact I|]. split; [cbn [length] in *; lia|exact H3].
Qed.

(* the suffix labels rev_v4_label1/2 ("in-addr", "arpa") and rev_v6_label1/2
   ("ip6", "arpa") are T1 items read from the source together with the shape of
   both arms (C03/Gen.v) *)

Definition reverse_v4_ops (a b c d : N) : list op :=
  [ODec d; ODec c; ODec b; ODec a; OLabel rev_v4_label1; OLabel rev_v4_label2].
Definition reverse_v6_ops (o : list N) : list op :=
  flat_map (fun x => [OHex x; OHex (x / 16)%N]) (rev o) ++ [OLabel rev_v6_label1; OLabel rev_v6_label2].

Definition label_of (o : op) : bytes :=
  match o with ODec v => dec_digits v | OHex v => [hex_char v] | OLabel l => l | _ => [] end.
Definition lab_op (o : op) : Prop :=
  match o with ODec v => (v < 256)%N | OHex v => (v < 256)%N | OLabel l => valid_label l | _ => False end.

Lemma dec_digits_length v : (1 <= length (dec_digits v) <= 3)%nat.
Proof.
  unfold dec_digits. destruct (0 <? v / 100)%N; destruct (_ || _); cbn [app length]; lia.
Qed.

Lemma a_label_closed p l : (1 <= length l <= 63)%nat -> (wire_len p + S (length l) <= 254)%nat ->
  a_step None (mk_a p None) (OLabel l) = (mk_a (p ++ [l]) None, Ok tt).
Proof.
  intros L Hl. cbn [a_step]. unfold a_label, aend. cbn [opn closed].
  unfold a_slice. destruct l as [|x l']; [cbn in L; lia|]. cbn [opn closed].
  destruct (Nat.ltb_spec 63 (length (x :: l'))); [lia|].
  unfold alen. cbn [opn closed].
  destruct (Nat.ltb_spec 254 (wire_len p + 0 + length (x :: l'))); [lia|]. reflexivity.
Qed.

Lemma a_digits_closed p l : (1 <= length l <= 63)%nat -> (wire_len p + S (length l) <= 254)%nat ->
  a_then (a_pushes None (aend (mk_a p None)) l) (fun a => (aend a, Ok tt)) = (mk_a (p ++ [l]) None, Ok tt).
Proof.
  intros L Hl. change (aend (mk_a p None)) with (mkopen p []).
  rewrite pushes_mkopen by (cbn [app]; lia). cbn [a_then app]. rewrite aend_mkopen; [reflexivity|].
  intros ->. cbn in L. lia.
Qed.

Lemma a_lab_step p o : lab_op o -> (wire_len p + S (length (label_of o)) <= 254)%nat ->
  a_step None (mk_a p None) o = (mk_a (p ++ [label_of o]) None, Ok tt).
Proof.
  destruct o; cbn [lab_op label_of]; intros Ho Hl; try contradiction.
  - apply a_label_closed; [apply Ho|exact Hl].
  - apply a_digits_closed; [pose proof (dec_digits_length v); lia|exact Hl].
  - apply a_digits_closed; [cbn [length]; lia|exact Hl].
Qed.

Lemma a_lab_ops_run : forall ops p, Forall lab_op ops ->
  (wire_len p + wire_len (map label_of ops) <= 254)%nat ->
  a_oks None (mk_a p None) ops (mk_a (p ++ map label_of ops) None).
Proof.
  induction ops as [|o ops IH]; intros p Hv Hl; cbn [map a_oks]; [rewrite app_nil_r; reflexivity|].
  inversion Hv as [|? ? Hv1 Hv2]; subst. cbn [map wire_len] in Hl.
  exists (mk_a (p ++ [label_of o]) None). split; [apply a_lab_step; [exact Hv1|lia]|].
  change (p ++ label_of o :: map label_of ops) with (p ++ [label_of o] ++ map label_of ops). rewrite app_assoc.
  apply IH; [exact Hv2|rewrite wire_len_snoc; lia].
Qed.

Lemma lab_op_wf ops : Forall lab_op ops -> Forall wf_op ops.
Proof.
  apply Forall_impl. intros o. destruct o; cbn [lab_op wf_op]; try tauto. intros [_ H]; exact H.
Qed.

Lemma lab_ops_built ops : Forall lab_op ops -> (wire_len (map label_of ops) <= 254)%nat ->
  fst (run_log None b_init ops) = repeat (Ok tt) (length ops) /\ valid_rel (map label_of ops) /\
  b_finish (run None b_init ops) = Ok (wire_rel (map label_of ops)) /\
  b_into_name None (run None b_init ops) = Ok (wire_abs (map label_of ops)).
Proof.
  intros Ho Hl. apply built_exact; [apply lab_op_wf, Ho| |exact Hl]. apply (a_lab_ops_run ops [] Ho Hl).
Qed.

Lemma rev_labels_valid : Forall valid_label [rev_v4_label1; rev_v4_label2; rev_v6_label1; rev_v6_label2].
Proof. repeat constructor; cbn [length rev_v4_label1 rev_v4_label2 rev_v6_label1 rev_v6_label2]; lia. Qed.

Theorem reverse_v4_valid a b c d : (a < 256)%N -> (b < 256)%N -> (c < 256)%N -> (d < 256)%N ->
  let n := [dec_digits d; dec_digits c; dec_digits b; dec_digits a; rev_v4_label1; rev_v4_label2] in
  fst (run_log None b_init (reverse_v4_ops a b c d)) = repeat (Ok tt) 6 /\
  valid_abs n /\
  b_into_name None (run None b_init (reverse_v4_ops a b c d)) = Ok (wire_abs n).
Proof.
  intros Ha Hb Hc Hd. pose proof rev_labels_valid as Hlab. rewrite !Forall_cons_iff in Hlab.
  destruct (lab_ops_built (reverse_v4_ops a b c d)) as (H1 & H2 & _ & H3); [| |auto].
  - unfold reverse_v4_ops. repeat constructor; cbn [lab_op]; tauto.
  - unfold reverse_v4_ops. cbn [map label_of wire_len].
    pose proof (dec_digits_length a). pose proof (dec_digits_length b).
    pose proof (dec_digits_length c). pose proof (dec_digits_length d).
    unfold rev_v4_label1, rev_v4_label2. cbn [length]. lia.
Qed.

Lemma hex_ops (l : list N) : let ops := flat_map (fun x => [OHex x; OHex (x / 16)%N]) l in
  length ops = (2 * length l)%nat /\ wire_len (map label_of ops) = (4 * length l)%nat /\
  map label_of ops = flat_map (fun x => [[hex_char x]; [hex_char (x / 16)]]) l.
Proof.
  induction l as [|x l (I1 & I2 & I3)]; [auto|].
  cbn [flat_map app map label_of wire_len length] in *. rewrite I1, I2, I3. repeat split; lia.
Qed.

Theorem reverse_v6_valid o : wf_bytes o -> (length o <= 16)%nat ->
  let ops := reverse_v6_ops o in
  let n := map label_of ops in
  fst (run_log None b_init ops) = repeat (Ok tt) (2 * length o + 2) /\
  valid_abs n /\ b_into_name None (run None b_init ops) = Ok (wire_abs n) /\
  n = flat_map (fun x => [[hex_char x]; [hex_char (x / 16)]]) (rev o) ++ [rev_v6_label1; rev_v6_label2].
Proof.
  intros Hw Hlen ops n. pose proof rev_labels_valid as Hlab. rewrite !Forall_cons_iff in Hlab.
  destruct (hex_ops (rev o)) as (X1 & X2 & X3). rewrite rev_length in X1, X2.
  assert (Hops : Forall lab_op ops).
  { unfold ops, reverse_v6_ops. apply Forall_app. split; [|repeat constructor; cbn [lab_op]; tauto].
    apply Forall_forall. intros x Hx. apply in_flat_map in Hx as (y & Hy & Hx).
    apply in_rev in Hy. unfold wf_bytes in Hw. rewrite Forall_forall in Hw. specialize (Hw y Hy).
    destruct Hx as [<-|[<-|[]]]; cbn [lab_op]; [exact Hw|].
    apply N.div_lt_upper_bound; lia. }
  assert (Hn : n = flat_map (fun x => [[hex_char x]; [hex_char (x / 16)]]) (rev o) ++ [rev_v6_label1; rev_v6_label2])
    by (unfold n, ops, reverse_v6_ops; rewrite map_app, X3; reflexivity).
  assert (Hl : (wire_len n <= 254)%nat).
  { unfold n, ops, reverse_v6_ops. rewrite map_app, wire_len_app, X2.
    cbn [map label_of wire_len]. unfold rev_v6_label1, rev_v6_label2. cbn [length]. lia. }
  destruct (lab_ops_built ops Hops Hl) as (H1 & H2 & _ & H3).
  split; [|auto]. rewrite H1. f_equal. unfold ops, reverse_v6_ops. rewrite app_length, X1. cbn [length]. lia.
Qed.

Example reverse_ex :
  b_into_name None (run None b_init (reverse_v4_ops 192 0 2 12)) =
    Ok [2;49;50; 1;50; 1;48; 3;49;57;50; 7;105;110;45;97;100;100;114; 4;97;114;112;97; 0]%N /\
  length (reverse_v6_ops (repeat 255%N 16)) = 34%nat.
Proof. vm_compute. split; reflexivity. Qed.

(* C03 -- the presentation form determines the name, and text -> name -> text
   -> name is stable: whatever string was accepted, displaying the name and
   reading it again gives the same octets; test vectors for the text constructors. *)
From Coq Require Import NArith List Bool Arith.
From DV Require Import Base.Outcome Base.Bytes Base.Names C03.Gen C03.Model C03.Spec C03.ModelText C03.ProofsText.
Import ListNotations.

Example from_chars_total_ex :
  name_from_chars None [97; 46; 46; 98]%N = Err T_EmptyLabel /\
  name_from_chars None [92; 50; 53; 54]%N = Err T_ShortInput /\
  no_panic (name_from_chars None [92; 91]%N).
Proof. vm_compute. repeat split. Qed.

Example from_chars_cap_ex :
  name_from_chars (Some 4%nat) [97; 46; 98]%N = Err E_ShortBuf /\
  name_from_chars (Some 5%nat) [97; 46; 98]%N = Ok [1; 97; 1; 98; 0]%N.
Proof. vm_compute. split; reflexivity. Qed.

Theorem display_injective n1 n2 : valid_abs n1 -> valid_abs n2 ->
  (display_name n1 = display_name n2 -> n1 = n2) /\ (display_rel n1 = display_rel n2 -> n1 = n2).
Proof.
  intros H1 H2. split; intros E.
  - pose proof (display_parse_roundtrip n1 H1) as R1. pose proof (display_parse_roundtrip n2 H2) as R2.
    rewrite E in R1. rewrite R1 in R2. injection R2 as R2. apply wire_abs_inj, R2.
  - pose proof (display_parse_roundtrip_rel n1 H1) as R1. pose proof (display_parse_roundtrip_rel n2 H2) as R2.
    rewrite E in R1. rewrite R1 in R2. injection R2 as R2. apply wire_abs_inj.
    unfold wire_abs. rewrite R2. reflexivity.
Qed.

Theorem text_reparse_stable cs :
  (forall w, name_from_chars None cs = Ok w ->
     exists n, valid_abs n /\ w = wire_abs n /\ name_from_chars None (display_name n) = Ok w) /\
  (forall w, rel_from_chars None cs = Ok w ->
     exists n, valid_rel n /\ w = wire_rel n /\ rel_from_chars None (display_rel n) = Ok w).
Proof.
  destruct (from_chars_valid cs) as (Ha & Hr & _). split; intros w E.
  - destruct (Ha w E) as (n & Hn & ->). exists n. split; [exact Hn|]. split; [reflexivity|].
    apply display_parse_roundtrip. exact Hn.
  - destruct (Hr w E) as (n & Hn & ->). exists n. split; [exact Hn|]. split; [reflexivity|].
    apply display_parse_roundtrip_rel. exact Hn.
Qed.

Example text_reparse_ex :
  name_from_chars None [97; 92; 48; 52; 54; 98; 46]%N = Ok [3; 97; 46; 98; 0]%N /\
  display_name [[97; 46; 98]]%N = [97; 92; 46; 98]%N /\
  name_from_chars None [97; 92; 46; 98]%N = Ok [3; 97; 46; 98; 0]%N.
Proof. vm_compute. repeat split. Qed.

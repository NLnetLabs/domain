(* C03 -- names scanned from zone-file text: every name that C07's model of
   EntryScanner::scan_name / convert_label returns is the wire form of a valid
   absolute name, whatever the buffer, token kind, escapes and origin.  Only
   C07's model is imported; the octet-level invariant is proved here. *)
From Coq Require Import NArith List Bool Arith Lia.
From Coq Require Import ZifyN ZifyNat.
From DV Require Import Base.Outcome Base.Bytes Base.Names C07.Gen C07.Model.
Import ListNotations.

Lemma wire_rel_snoc' cl c : wire_rel (cl ++ [c]) = wire_rel cl ++ N.of_nat (length c) :: c.
Proof. rewrite wire_rel_app. f_equal. unfold wire_rel. cbn [map concat]. rewrite app_nil_r. reflexivity. Qed.

Lemma wire_len_snoc' cl c : wire_len (cl ++ [c]) = (wire_len cl + S (length c))%nat.
Proof. rewrite wire_len_app. cbn [wire_len]. lia. Qed.

Lemma set_byte_skipn : forall a l k v l', set_byte l (a + k) v = Some l' ->
  exists m', set_byte (skipn a l) k v = Some m' /\ skipn a l' = m' /\ firstn a l' = firstn a l.
Proof.
  induction a as [|a IH]; intros l k v l' H; [exists l'; auto|].
  destruct l as [|x t]; [discriminate|]. cbn [Nat.add set_byte] in H.
  destruct (set_byte t (a + k) v) as [t'|] eqn:E; [|discriminate]. injection H as <-.
  destruct (IH t k v t' E) as (m' & H1 & H2 & H3). exists m'. cbn [skipn firstn]. rewrite H3. auto.
Qed.

Lemma set_byte_app : forall (c tl : list N) v m', set_byte (c ++ tl) (length c) v = Some m' ->
  exists y tl', tl = y :: tl' /\ m' = c ++ v :: tl'.
Proof.
  induction c as [|x c IH]; intros tl v m' H; cbn [app length set_byte] in H.
  - destruct tl as [|y tl']; [discriminate|]. injection H as <-. eauto.
  - destruct (set_byte (c ++ tl) (length c) v) as [t'|] eqn:E; [|discriminate]. injection H as <-.
    destruct (IH tl v t' E) as (y & tl' & -> & ->). eauto.
Qed.

Lemma set_byte_wf : forall l i v l', wf_bytes l -> (v < 256)%N -> set_byte l i v = Some l' -> wf_bytes l'.
Proof.
  induction l as [|x t IH]; intros i v l' Hw Hv H; [discriminate|]. inversion Hw; subst.
  destruct i as [|j]; cbn [set_byte] in H.
  - injection H as <-. constructor; assumption.
  - destruct (set_byte t j v) as [t'|] eqn:E; [|discriminate]. injection H as <-. constructor; [assumption|exact (IH j v t' H3 Hv E)].
Qed.

Lemma wf_skipn k (l : bytes) : wf_bytes l -> wf_bytes (skipn k l).
Proof. intros H. rewrite <- (firstn_skipn k l) in H. apply wf_bytes_app in H. apply H. Qed.

Lemma wf_firstn k (l : bytes) : wf_bytes l -> wf_bytes (firstn k l).
Proof. intros H. rewrite <- (firstn_skipn k l) in H. apply wf_bytes_app in H. apply H. Qed.

Lemma next_symbol_buf s r s' : next_symbol s = Ok (r, s') ->
  buf s' = buf s /\ (forall sym, r = Some sym -> exists n, sym_at (rest s) = SymOk sym n).
Proof.
  unfold next_symbol, next_symbol_gen. destruct (scat s).
  - intros E; injection E as <- <-. split; [reflexivity|discriminate].
  - destruct (sym_at (rest s)) as [| |sym n] eqn:Es; try discriminate.
    destruct (negb (is_word_char sym)); intros E; injection E as <- <-; (split; [reflexivity|]).
    + discriminate.
    + intros sym' E; injection E as <-. eauto.
  - destruct (sym_at (rest s)) as [| |sym n] eqn:Es; try discriminate.
    destruct (sym_eqb sym (SChar 34)); intros E; injection E as <- <-; (split; [reflexivity|]).
    + discriminate.
    + intros sym' E; injection E as <-. eauto.
  - intros E; injection E as <- <-. split; [reflexivity|discriminate].
Qed.

Lemma next_ascii_buf s r s' : next_ascii_symbol s = (r, s') ->
  buf s' = buf s /\
  (forall ch, r = Some ch -> start s' = S (start s) /\ (ch < 256)%N /\ exists t, rest s = ch :: t).
Proof.
  unfold next_ascii_symbol, asc_lo, asc_hi.
  destruct (scat s); try (intros E; injection E as <- <-; split; [reflexivity|discriminate]);
    (destruct (rest s) as [|ch t] eqn:Er; [intros E; injection E as <- <-; split; [reflexivity|discriminate]|]).
  - destruct ((ch <? 33)%N || (127 <? ch)%N || memN ch asc_unq_excluded) eqn:C;
      intros E; injection E as <- <-; (split; [reflexivity|]); [discriminate|].
    intros ch' E; injection E as <-. cbn [advance start]. rewrite !orb_false_iff in C.
    destruct C as [[C1 C2] _]. apply N.ltb_ge in C2. split; [lia|]. split; [lia|eauto].
  - destruct (ch =? asc_q_end)%N; [intros E; injection E as <- <-; split; [reflexivity|discriminate]|].
    destruct ((ch <? 33)%N || (127 <? ch)%N || memN ch asc_q_excluded) eqn:C;
      intros E; injection E as <- <-; (split; [reflexivity|]); [discriminate|].
    intros ch' E; injection E as <-. cbn [advance start]. rewrite !orb_false_iff in C.
    destruct C as [[C1 C2] _]. apply N.ltb_ge in C2. split; [lia|]. split; [lia|eauto].
Qed.

Lemma next_item_buf s s' : next_item s = Ok s' -> buf s' = buf s.
Proof.
  unfold next_item. destruct (is_token (scat s)); [discriminate|].
  destruct (ni_loop _ _ _ _ _); [discriminate|]. intros E; injection E as <-. reflexivity.
Qed.

Lemma store_spec' s i v s' : store s i v = Ok s' -> set_byte (buf s) i v = Some (buf s').
Proof. unfold store. destruct (set_byte (buf s) i v); [|discriminate]. intros E; injection E as <-. reflexivity. Qed.

Lemma sym_at_octet l sym n : wf_bytes l -> sym_at l = SymOk sym n ->
  match sym with SChar _ => True | SSimple b | SDec b => (b < 256)%N end.
Proof.
  unfold sym_at. destruct l as [|c1 t]; [discriminate|]. intros Hw. inversion Hw as [|? ? _ Ht]; subst.
  destruct (c1 =? esc_char)%N.
  - (* an escape: the escaped character, or three digits *)
    destruct t as [|c2 t2]; [discriminate|]. destruct (is_ascii_control c2); [discriminate|].
    destruct (negb (is_digit c2)); [intros [= <- _]; inversion Ht; assumption|].
    destruct t2 as [|c3 t3]; [discriminate|]. destruct (is_digit c3); [|discriminate].
    destruct t3 as [|c4 t4]; [discriminate|]. destruct (is_digit c4); [|discriminate].
    destruct (N.leb_spec ((c2 - 48) * 100 + (c3 - 48) * 10 + (c4 - 48)) 255); [|discriminate].
    intros [= <- _]. lia.
  - (* plain or UTF-8: always a character *)
    assert (K : forall v m k, mkchar v m k = SymOk sym n ->
              match sym with SChar _ => True | SSimple b | SDec b => (b < 256)%N end).
    { unfold mkchar. intros v m k. destruct (v <? m)%N; [discriminate|]. destruct (char_ok v); [|discriminate].
      intros [= <- _]. exact I. }
    destruct (c1 <? ascii_bound)%N; [intros [= <- _]; exact I|]. destruct (N.land c1 64 =? 0)%N; [discriminate|].
    destruct t as [|c2 t2]; [discriminate|]. destruct (negb (cont c2)); [discriminate|].
    destruct (N.land c1 32 =? 0)%N; [apply K|].
    destruct t2 as [|c3 t3]; [discriminate|]. destruct (negb (cont c3)); [discriminate|].
    destruct (N.land c1 16 =? 0)%N; [apply K|].
    destruct t3 as [|c4 t4]; [discriminate|]. destruct (negb (cont c4)); [discriminate|]. apply K.
Qed.

Lemma into_octet_byte l sym n b : wf_bytes l -> sym_at l = SymOk sym n -> into_octet sym = Some b -> (b < 256)%N.
Proof.
  intros Hw Hs Ho. pose proof (sym_at_octet l sym n Hw Hs) as K. destruct sym as [c|c|c]; cbn [into_octet] in Ho.
  - destruct ((c <? 128)%N && _ && _) eqn:C; [|discriminate]. injection Ho as <-.
    rewrite !andb_true_iff in C. destruct C as [[C _] _]. apply N.ltb_lt in C. lia.
  - injection Ho as <-. exact K.
  - injection Ho as <-. exact K.
Qed.

(* the content octets written so far follow the (still unwritten) length octet *)
Definition inlabel (s : sbuf) (st w : nat) (c : bytes) : Prop :=
  (exists tl, skipn (S st) (buf s) = c ++ tl) /\ w = (S st + length c)%nat /\
  (length c <= 63)%nat /\ wf_bytes c /\ wf_bytes (buf s).

(* result of convert_label relative to the octets before the label *)
Definition label_done (P : bytes) (st : nat) (x : lblres * sbuf * nat) : Prop :=
  let '(res, s', w') := x in
  wf_bytes (buf s') /\
  match res with
  | LNone => w' = st /\ firstn st (buf s') = P
  | _ => exists c, firstn w' (buf s') = P ++ N.of_nat (length c) :: c /\ w' = (S st + length c)%nat /\
                   length P = st /\ (length c <= 63)%nat /\ wf_bytes c /\ (res = LEnd -> (1 <= length c)%nat)
  end.

Lemma close_done s st w c res s' : inlabel s st w c -> store s st (len_octet w st) = Ok s' ->
  res <> LNone -> (res = LEnd -> (1 <= length c)%nat) -> label_done (firstn st (buf s)) st (res, s', w).
Proof.
  intros ([tl Hs] & Hw & Hl & Hc & Hb) H Hres Hend. apply store_spec' in H.
  assert (Hv : len_octet w st = N.of_nat (length c)).
  { subst w. unfold len_octet. replace (S st + length c - st - 1)%nat with (length c) by lia.
    apply N.mod_small. lia. }
  rewrite Hv in H. replace st with (st + 0)%nat in H by lia.
  destruct (set_byte_skipn st (buf s) 0 _ (buf s') H) as (m' & H1 & H2 & H3).
  destruct (skipn st (buf s)) as [|y R] eqn:Ek; [discriminate|]. cbn [set_byte] in H1. injection H1 as <-.
  assert (HR : R = c ++ tl).
  { replace (S st) with (st + 1)%nat in Hs by lia. rewrite <- skipn_add, Ek in Hs. exact Hs. }
  assert (Hlen : length (firstn st (buf s)) = st).
  { apply firstn_length_le. assert (length (skipn st (buf s)) = S (length R)) by (rewrite Ek; reflexivity).
    rewrite skipn_length in H0. lia. }
  assert (F : firstn w (buf s') = firstn st (buf s) ++ N.of_nat (length c) :: c).
  { rewrite <- (firstn_skipn st (buf s')), H2, H3, HR.
    rewrite firstn_app, Hlen. rewrite (firstn_all2 (firstn st (buf s))) by lia. f_equal.
    subst w. replace (S st + length c - st)%nat with (S (length c)) by lia. cbn [firstn]. f_equal.
    apply take_app_length. }
  split; [eapply set_byte_wf; [exact Hb| |rewrite Nat.add_0_r in H; exact H]; lia|].
  destruct res; [contradiction| |]; exists c; repeat split; auto.
Qed.

Lemma prefix_of_inlabel s st w c : inlabel s st w c -> True.
Proof. trivial. Qed.

Lemma sym_loop_spec : forall fuel s st w c res s' w', inlabel s st w c ->
  label_sym_loop fuel s st w (S st + label_latest) = Ok (res, s', w') ->
  label_done (firstn st (buf s)) st (res, s', w').
Proof.
  induction fuel as [|f IH]; intros s st w c res s' w' HI H; [discriminate|]. cbn [label_sym_loop] in H.
  destruct (next_symbol s) as [[r s1]|e|p|] eqn:En; try discriminate. cbn [bind] in H.
  destruct (next_symbol_buf _ _ _ En) as [Hb1 Hsym].
  assert (HI1 : inlabel s1 st w c) by (unfold inlabel in *; rewrite Hb1; exact HI).
  pose proof HI as ([tl Hs] & Hw & Hl & Hc & Hb).
  destruct r as [sym|].
  - destruct (sym_eqb sym (SChar 46)).
    + destruct (store s1 st (len_octet w st)) as [s2|e|p|] eqn:Est; try discriminate. cbn [bind] in H.
      injection H as <- <- <-. rewrite <- Hb1. apply (close_done _ _ _ c); [exact HI1|exact Est|discriminate..].
    + destruct (into_octet sym) as [b|] eqn:Eo; [|discriminate].
      destruct (store s1 w b) as [s2|e|p|] eqn:Est; try discriminate. cbn [bind] in H.
      unfold label_latest, label_latest_ge, too_long in H.
      destruct (Nat.leb_spec (S st + 64) (S w)) as [Hlong|Hok]; [discriminate|].
      destruct (Hsym sym eq_refl) as [n Hat].
      assert (Hbyte : (b < 256)%N) by (eapply into_octet_byte; [apply wf_skipn; exact Hb|exact Hat|exact Eo]).
      apply store_spec' in Est. rewrite Hb1 in Est.
      assert (Hidx : w = (S st + length c)%nat) by exact Hw. rewrite Hidx in Est.
      destruct (set_byte_skipn (S st) (buf s) (length c) b (buf s2) Est) as (m' & M1 & M2 & M3).
      rewrite Hs in M1. destruct (set_byte_app c tl b m' M1) as (y & tl' & -> & ->).
      assert (HI2 : inlabel s2 st (S w) (c ++ [b])).
      { split; [exists tl'; rewrite M2, <- app_assoc; reflexivity|]. rewrite app_length. cbn [length].
        split; [lia|]. split; [lia|]. split; [apply wf_bytes_app; split; [exact Hc|repeat constructor; exact Hbyte]|].
        eapply set_byte_wf; [exact Hb|exact Hbyte|exact Est]. }
      specialize (IH s2 st (S w) (c ++ [b]) res s' w' HI2 H).
      assert (Hp : firstn st (buf s2) = firstn st (buf s)).
      { pose proof M3 as M3'. apply (f_equal (firstn st)) in M3'. rewrite !firstn_firstn in M3'.
        replace (Nat.min st (S st)) with st in M3' by lia. exact M3'. }
      rewrite Hp in IH. exact IH.
  - destruct (Nat.ltb_spec (st + 1) w) as [Hnz|Hz].
    + destruct (store s1 st (len_octet w st)) as [s2|e|p|] eqn:Est; try discriminate. cbn [bind] in H.
      injection H as <- <- <-. rewrite <- Hb1. apply (close_done _ _ _ c); [exact HI1|exact Est|discriminate|lia].
    + injection H as <- <- <-. split; [rewrite Hb1; exact Hb|]. rewrite Hb1. auto.
Qed.

Lemma ascii_loop_spec : forall fuel s st w c r s' w', inlabel s st w c -> w = start s ->
  label_ascii_loop fuel s st w (S st + label_latest) = Ok (r, s', w') ->
  match r with
  | Some res => label_done (firstn st (buf s)) st (res, s', w') /\ res = LDot
  | None => exists c', inlabel s' st w' c' /\ buf s' = buf s
  end.
Proof.
  induction fuel as [|f IH]; intros s st w c r s' w' HI Hws H; [discriminate|]. cbn [label_ascii_loop] in H.
  destruct (next_ascii_symbol s) as [a s1] eqn:Ea.
  destruct (next_ascii_buf _ _ _ Ea) as [Hb1 Hch].
  assert (HI1 : inlabel s1 st w c) by (unfold inlabel in *; rewrite Hb1; exact HI).
  pose proof HI as ([tl Hs] & Hw & Hl & Hc & Hb).
  destruct a as [ch|].
  - destruct (Hch ch eq_refl) as (Hst & Hbyte & t & Hrest).
    destruct (ch =? 46)%N.
    + destruct (store s1 st (len_octet w st)) as [s2|e|p|] eqn:Est; try discriminate. cbn [bind] in H.
      injection H as <- <- <-. split; [|reflexivity].
      rewrite <- Hb1. apply (close_done _ _ _ c); [exact HI1|exact Est|discriminate..].
    + unfold label_latest, label_latest_ge, too_long in H.
      destruct (Nat.leb_spec (S st + 64) (S w)) as [Hlong|Hok]; [discriminate|].
      assert (HI2 : inlabel s1 st (S w) (c ++ [ch])).
      { unfold rest in Hrest. rewrite <- Hws, Hw in Hrest.
        rewrite <- skipn_add, Hs in Hrest. pose proof (drop_app_length c tl) as D. unfold drop in D. rewrite D in Hrest. subst tl.
        split; [exists t; rewrite Hb1, Hs, <- app_assoc; reflexivity|]. rewrite app_length. cbn [length].
        split; [lia|]. split; [lia|]. split; [apply wf_bytes_app; split; [exact Hc|repeat constructor; exact Hbyte]|].
        rewrite Hb1. exact Hb. }
      specialize (IH s1 st (S w) (c ++ [ch]) r s' w' HI2 ltac:(lia) H). rewrite Hb1 in IH.
      destruct r; [exact IH|]. destruct IH as (c' & I' & B'). exists c'. split; [exact I'|]. rewrite B'. reflexivity.
  - injection H as <- <- <-. exists c. split; [exact HI1|exact Hb1].
Qed.

Theorem convert_label_spec s st res s' w' : wf_bytes (buf s) ->
  convert_label s st = Ok (res, s', w') -> label_done (firstn st (buf s)) st (res, s', w').
Proof.
  intros Hb H. unfold convert_label in H.
  assert (HI : inlabel s st (S st) []).
  { split; [exists (skipn (S st) (buf s)); reflexivity|]. cbn [length]. repeat split; auto; try lia. constructor. }
  destruct (Nat.eqb_spec (S st) (start s)) as [He|Hne].
  - destruct (label_ascii_loop (fuel_of s) s st (S st) (S st + label_latest)) as [[[r s1] w1]|e|p|] eqn:Ea; try discriminate.
    cbn [bind] in H. pose proof (ascii_loop_spec _ _ _ _ _ _ _ _ HI He Ea) as A.
    destruct r as [res0|].
    + injection H as <- <- <-. apply A.
    + destruct A as (c' & I' & B'). pose proof (sym_loop_spec _ _ _ _ _ _ _ _ I' H) as S'. rewrite B' in S'. exact S'.
  - eapply sym_loop_spec; eauto.
Qed.

Definition origin_ok (origin : option (list N)) : Prop :=
  forall o, origin = Some o -> exists m, valid_abs m /\ o = wire_abs m.

Lemma chain_valid rel o n done m : chain rel o = Ok n -> rel = wire_rel done -> Forall valid_label done ->
  o = wire_abs m -> valid_abs m -> exists k, valid_abs k /\ n = wire_abs k.
Proof.
  unfold chain, chain_max. intros H -> Hd -> [Hm _].
  destruct (Nat.ltb_spec 255 (length (wire_rel done) + length (wire_abs m))); [discriminate|]. injection H as <-.
  rewrite wire_rel_length, wire_abs_length in *. exists (done ++ m). split.
  - split; [apply Forall_app; split; assumption|]. rewrite wire_len_app. lia.
  - unfold wire_abs. rewrite wire_rel_app, app_assoc. reflexivity.
Qed.

Lemma name_loop_spec : forall fuel origin s w done n s', origin_ok origin ->
  wf_bytes (buf s) -> firstn w (buf s) = wire_rel done -> length (wire_rel done) = w -> Forall valid_label done ->
  name_loop fuel origin s w = Ok (n, s') -> exists k, valid_abs k /\ n = wire_abs k.
Proof.
  induction fuel as [|f IH]; intros origin s w done n s' Ho Hb Hp Hlen Hd H; [discriminate|]. cbn [name_loop] in H.
  destruct (convert_label s w) as [[[res s1] w1]|e|p|] eqn:Ec; try discriminate. cbn [bind] in H.
  pose proof (convert_label_spec _ _ _ _ _ Hb Ec) as [Hb1 L]. rewrite Hp in L.
  destruct res.
  - destruct L as [-> Hp1].
    destruct (next_item s1) as [s2|e|p|] eqn:En; try discriminate. cbn [bind] in H.
    pose proof (next_item_buf _ _ En) as Hb2.
    destruct (Nat.eqb_spec w 0) as [Hz|Hnz].
    + unfold get_origin in H. destruct origin as [o|]; [|discriminate]. cbn [bind] in H.
      destruct (chain [] o) as [n0|e|p|] eqn:Ech; try discriminate. cbn [bind] in H. injection H as <- _.
      destruct (Ho o eq_refl) as (m & Hm & ->).
      eapply (chain_valid [] _ _ [] m); eauto.
    + unfold split_to in H. destruct (Nat.leb w (start s2)); [|discriminate]. cbn [bind fst snd] in H.
      destruct (chain (firstn w (buf s2)) [0%N]) as [n0|e|p|] eqn:Ech; try discriminate. cbn [bind] in H. injection H as <- _.
      rewrite Hb2, Hp1 in Ech.
      eapply (chain_valid _ _ _ done []); eauto. split; [constructor|cbn; lia].
  - destruct L as (c & F & Hw1 & HP & Hc63 & Hcw & _).
    destruct (Nat.eqb_spec w1 1) as [H1|Hn1].
    + destruct (next_symbol s1) as [[r s2]|e|p|]; try discriminate. cbn [bind] in H.
      destruct r; [discriminate|]. destruct (next_item s2); try discriminate. cbn [bind] in H. injection H as <- _.
      exists []. split; [split; [constructor|cbn; lia]|reflexivity].
    + unfold name_rejects_empty_label in H. cbn [andb] in H.
      destruct (Nat.eqb_spec w1 (S w)) as [He|Hne]; [discriminate|].
      unfold name_max_ge, name_max in H. destruct (Nat.ltb_spec 254 w1); [discriminate|].
      assert (Hc1 : (1 <= length c)%nat) by lia.
      apply (IH origin s1 w1 (done ++ [c]) n s' Ho Hb1).
      * rewrite wire_rel_snoc'. exact F.
      * rewrite wire_rel_snoc', app_length. cbn [length]. lia.
      * apply Forall_app. split; [exact Hd|]. constructor; [|constructor]. split; [lia|exact Hcw].
      * exact H.
  - destruct L as (c & F & Hw1 & HP & Hc63 & Hcw & Hc1). specialize (Hc1 eq_refl).
    destruct (next_item s1) as [s2|e|p|] eqn:En; try discriminate. cbn [bind] in H.
    pose proof (next_item_buf _ _ En) as Hb2.
    unfold split_to in H. destruct (Nat.leb w1 (start s2)); [|discriminate]. cbn [bind fst snd] in H.
    unfold get_origin in H. destruct origin as [o|]; [|discriminate]. cbn [bind] in H.
    destruct (chain (firstn w1 (buf s2)) o) as [n0|e|p|] eqn:Ech; try discriminate. cbn [bind] in H. injection H as <- _.
    destruct (Ho o eq_refl) as (m & Hm & ->). rewrite Hb2, F, <- wire_rel_snoc' in Ech.
    eapply (chain_valid _ _ _ (done ++ [c]) m); eauto.
    apply Forall_app. split; [exact Hd|]. constructor; [|constructor]. split; [lia|exact Hcw].
Qed.

Lemma skip_at_false s s1 : skip_at_token s = Ok (false, s1) -> s1 = s.
Proof.
  unfold skip_at_token. destruct (peek_symbol s) as [[c| |]|]; try (intros E; injection E as <-; reflexivity).
  repeat match goal with
  | |- match ?x with _ => _ end = _ -> _ => destruct x
  | |- (if ?x then _ else _) = _ -> _ => destruct x
  | |- bind ?x _ = _ -> _ => destruct x; cbn [bind]
  end; try discriminate; try (intros E; injection E as <-; reflexivity).
Qed.

Theorem scan_name_valid origin s n s' : origin_ok origin -> wf_bytes (buf s) ->
  scan_name origin s = Ok (n, s') -> exists k, valid_abs k /\ n = wire_abs k.
Proof.
  intros Ho Hb H. unfold scan_name in H.
  destruct (require_token s); try discriminate. cbn [bind] in H.
  destruct (if scan_name_handles_at then skip_at_token s else Ok (false, s)) as [[b s1]|e|p|] eqn:Es; try discriminate.
  cbn [bind fst snd] in H. destruct b.
  - unfold get_origin in H. destruct origin as [o|]; [|discriminate]. cbn [bind] in H.
    destruct (chain [] o) as [n0|e|p|] eqn:Ech; try discriminate. cbn [bind] in H. injection H as <- _.
    destruct (Ho o eq_refl) as (m & Hm & ->). eapply (chain_valid [] _ _ [] m); eauto.
  - assert (s1 = s).
    { destruct scan_name_handles_at; [apply skip_at_false; exact Es|injection Es as <-; reflexivity]. }
    subst s1. destruct (start s) as [|k]; [discriminate|].
    unfold trim_to in H. destruct (Nat.leb k (start s)); [|discriminate]. cbn [bind] in H.
    apply (name_loop_spec _ origin _ 0 [] n s' Ho) in H;
      [exact H|cbn [buf]; apply wf_skipn; exact Hb|reflexivity|reflexivity|constructor].
Qed.

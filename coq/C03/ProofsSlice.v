(* C03 -- slicing at label boundaries: is_label_start accepts exactly the
   offsets of label starts; every accepted split / truncate / range / parent /
   strip_suffix yields valid names; every other index panics. *)
From Coq Require Import NArith List Bool Arith Lia.
From Coq Require Import ZifyN ZifyNat.
From DV Require Import Base.Outcome Base.Bytes Base.Names C03.Gen C03.Model C03.Spec C03.ModelWire
  C03.ModelSlice C03.ProofsBuilder C03.ProofsBuilder2 C03.ProofsWire.
Import ListNotations.

Definition wire_of (absolute : bool) (n : name) : bytes :=
  wire_rel n ++ (if absolute then [0%N] else []).

Lemma wire_of_abs n : wire_of true n = wire_abs n.
Proof. reflexivity. Qed.
Lemma wire_of_rel n : wire_of false n = wire_rel n.
Proof. unfold wire_of. apply app_nil_r. Qed.

Lemma wire_of_cons absolute l n : wire_of absolute (l :: n) = wire_label l ++ wire_of absolute n.
Proof. unfold wire_of, wire_rel. cbn [map concat]. rewrite <- app_assoc. reflexivity. Qed.

Lemma wire_of_length absolute n : length (wire_of absolute n) = (wire_len n + if absolute then 1 else 0)%nat.
Proof. unfold wire_of. rewrite app_length, wire_rel_length. destruct absolute; reflexivity. Qed.

(* label-list reading of is_label_start for index > 0 *)
Fixpoint is_start (n : name) (i : nat) : bool :=
  match n with
  | [] => false
  | l :: n' =>
      let len := S (length l) in
      if (i <? len)%nat then false else if (i =? len)%nat then true else is_start n' (i - len)
  end.

Lemma ils_loop_spec absolute n : Forall valid_label n -> forall fuel i, (length n < fuel)%nat ->
  ils_loop absolute fuel (wire_of absolute n) i = Ok (is_start n i).
Proof.
  induction n as [|l n IH]; intros Hv fuel i Hf; (destruct fuel as [|f]; [cbn in Hf; lia|]).
  - destruct absolute; [|reflexivity]. cbn [ils_loop wire_of wire_rel map concat app is_empty].
    change (split_from [0%N]) with (Ok (@nil N, @nil N)). unfold ils_len_add, ils_root_len. cbn [length is_start].
    rewrite orb_true_r. reflexivity.
  - inversion Hv as [|? ? [[L1 L2] L3] Hv']; subst.
    rewrite wire_of_cons. cbn [ils_loop]. assert (He : is_empty (wire_label l ++ wire_of absolute n) = false) by reflexivity.
    rewrite He. rewrite split_from_wire by lia. unfold ils_len_add, ils_root_len. cbn [is_start].
    replace (length l + 1)%nat with (S (length l)) by lia.
    assert (H1 : (S (length l) =? 1)%nat = false) by (apply Nat.eqb_neq; lia). rewrite H1, andb_false_r, orb_false_r.
    destruct (i <? S (length l))%nat; [reflexivity|]. destruct (i =? S (length l))%nat; [reflexivity|].
    apply IH; [assumption|cbn [length] in Hf; lia].
Qed.

Theorem is_label_start_spec absolute n i : Forall valid_label n ->
  is_label_start absolute (wire_of absolute n) i = Ok ((i =? 0)%nat || is_start n i).
Proof.
  intros Hv. unfold is_label_start. destruct (i =? 0)%nat; [reflexivity|]. cbn [orb].
  apply ils_loop_spec; [exact Hv|].
  rewrite wire_of_length. pose proof (labels_le_wire n). lia.
Qed.

Definition at_label (n : name) (i : nat) : Prop := exists k, (k <= length n)%nat /\ i = wire_len (firstn k n).

Lemma is_start_prefix n : forall i, is_start n i = true <->
  exists k, (1 <= k <= length n)%nat /\ i = wire_len (firstn k n).
Proof.
  induction n as [|l n IH]; intros i; cbn [is_start].
  - split; [discriminate|]. intros (k & Hk & _). cbn in Hk. lia.
  - destruct (Nat.ltb_spec i (S (length l))) as [Hlt|Hge].
    { split; [discriminate|]. intros (k & Hk & ->). destruct k as [|k]; [lia|]. cbn [firstn wire_len] in Hlt. lia. }
    destruct (Nat.eqb_spec i (S (length l))) as [He|Hne].
    { split; [|reflexivity]. intros _. exists 1%nat. cbn [length firstn wire_len]. split; lia. }
    rewrite IH. split.
    + intros (k & Hk & He). exists (S k). cbn [length firstn wire_len]. split; lia.
    + intros (k & Hk & He). destruct k as [|k]; [lia|]. cbn [length firstn wire_len] in *.
      destruct k as [|k]; [cbn [firstn wire_len] in He; lia|]. exists (S k). split; lia.
Qed.

Lemma accepted_iff n i : ((i =? 0)%nat || is_start n i = true) <-> at_label n i.
Proof.
  unfold at_label. rewrite orb_true_iff, Nat.eqb_eq, is_start_prefix. split.
  - intros [->|(k & Hk & ->)]; [exists 0%nat; cbn; split; [lia|reflexivity]|exists k; split; [lia|reflexivity]].
  - intros (k & Hk & ->). destruct k as [|k]; [left; reflexivity|right; exists (S k); split; [lia|reflexivity]].
Qed.

Theorem is_label_start_full absolute n i : Forall valid_label n ->
  is_label_start absolute (wire_of absolute n) i = Ok ((i =? 0)%nat || is_start n i) /\
  (((i =? 0)%nat || is_start n i = true) <-> at_label n i).
Proof. intros; split; [apply is_label_start_spec; assumption|apply accepted_iff]. Qed.

Theorem check_index_spec absolute n i : Forall valid_label n ->
  (at_label n i /\ check_index absolute (wire_of absolute n) i = Ok tt) \/
  (~ at_label n i /\ check_index absolute (wire_of absolute n) i = Panic 8).
Proof.
  intros Hv. unfold check_index. rewrite is_label_start_spec by exact Hv. cbn [bind].
  destruct ((i =? 0)%nat || is_start n i) eqn:E.
  - left. split; [apply accepted_iff; exact E|reflexivity].
  - right. split; [|reflexivity]. intros H. apply accepted_iff in H. congruence.
Qed.

Lemma cut_at_prefix n k t : (k <= length n)%nat ->
  firstn (wire_len (firstn k n)) (wire_rel n ++ t) = wire_rel (firstn k n) /\
  skipn (wire_len (firstn k n)) (wire_rel n ++ t) = wire_rel (skipn k n) ++ t.
Proof.
  intros Hk.
  assert (E : wire_rel n = wire_rel (firstn k n) ++ wire_rel (skipn k n))
    by (rewrite <- wire_rel_app, firstn_skipn; reflexivity).
  rewrite E, <- app_assoc, <- (wire_rel_length (firstn k n)). split.
  - apply (take_app_length (wire_rel (firstn k n))).
  - apply (drop_app_length (wire_rel (firstn k n))).
Qed.

Lemma sub_names_valid n k : Forall valid_label n -> (wire_len n <= 254)%nat ->
  valid_rel (firstn k n) /\ valid_rel (skipn k n).
Proof.
  intros Hv Hl. rewrite <- (firstn_skipn k n) in Hv, Hl. apply Forall_app in Hv as [H1 H2].
  rewrite wire_len_app in Hl. split; split; auto; lia.
Qed.

Lemma prefix_le n k : (wire_len (firstn k n) <= wire_len n)%nat.
Proof. rewrite <- (firstn_skipn k n) at 2. rewrite wire_len_app. lia. Qed.

Lemma sub_prefix w m : (m <= length w)%nat -> sub w 0 m = Ok (firstn m w).
Proof.
  intros H. unfold sub. destruct (Nat.ltb_spec m 0); [lia|]. destruct (Nat.ltb_spec (length w) m); [lia|].
  cbn [orb skipn]. rewrite Nat.sub_0_r. reflexivity.
Qed.

Lemma sub_suffix w m : (m <= length w)%nat -> sub w m (length w) = Ok (skipn m w).
Proof.
  intros H. unfold sub. destruct (Nat.ltb_spec (length w) m); [lia|]. rewrite Nat.ltb_irrefl. cbn [orb].
  rewrite firstn_all2; [reflexivity|]. rewrite skipn_length. lia.
Qed.

Theorem split_spec absolute n i : valid_rel n ->
  match n_split absolute (wire_of absolute n) i with
  | Ok (l, r) => exists k, (k <= length n)%nat /\ i = wire_len (firstn k n) /\
                   l = wire_rel (firstn k n) /\ r = wire_of absolute (skipn k n) /\
                   valid_rel (firstn k n) /\ valid_rel (skipn k n)
  | Panic p => p = 8%N /\ ~ at_label n i
  | _ => False
  end.
Proof.
  intros [Hv Hl]. unfold n_split.
  destruct (check_index_spec absolute n i Hv) as [[(k & Hk & ->) E]|[Hn E]]; rewrite E; cbn [bind]; [|auto].
  pose proof (prefix_le n k) as Hp.
  rewrite sub_prefix by (rewrite wire_of_length; lia). cbn [bind].
  rewrite sub_suffix by (rewrite wire_of_length; lia). cbn [bind].
  destruct (cut_at_prefix n k (if absolute then [0%N] else []) Hk) as [C1 C2].
  destruct (sub_names_valid n k Hv Hl) as [V1 V2].
  exists k. unfold wire_of in *. rewrite C1, C2. repeat split; auto; try apply V1; try apply V2.
Qed.

Theorem truncate_spec absolute n i : valid_rel n ->
  match n_truncate absolute (wire_of absolute n) i with
  | Ok l => exists k, (k <= length n)%nat /\ i = wire_len (firstn k n) /\
              l = wire_rel (firstn k n) /\ valid_rel (firstn k n)
  | Panic p => p = 8%N /\ ~ at_label n i
  | _ => False
  end.
Proof.
  intros [Hv Hl]. unfold n_truncate.
  destruct (check_index_spec absolute n i Hv) as [[(k & Hk & ->) E]|[Hn E]]; rewrite E; cbn [bind]; [|auto].
  destruct (cut_at_prefix n k (if absolute then [0%N] else []) Hk) as [C1 _].
  destruct (sub_names_valid n k Hv Hl) as [V1 _].
  exists k. unfold wire_of. rewrite C1. auto.
Qed.

Theorem range_from_spec n i : valid_abs n ->
  match n_range_from (wire_abs n) i with
  | Ok r => exists k, (k <= length n)%nat /\ i = wire_len (firstn k n) /\
              r = wire_abs (skipn k n) /\ valid_abs (skipn k n)
  | Panic p => p = 8%N /\ ~ at_label n i
  | _ => False
  end.
Proof.
  intros [Hv Hl]. unfold n_range_from. rewrite <- wire_of_abs.
  destruct (check_index_spec true n i Hv) as [[(k & Hk & ->) E]|[Hn E]]; rewrite E; cbn [bind]; [|auto].
  pose proof (prefix_le n k) as Hp.
  rewrite sub_suffix by (rewrite wire_of_length; lia).
  destruct (cut_at_prefix n k [0%N] Hk) as [_ C2].
  destruct (sub_names_valid n k Hv Hl) as [_ V2].
  exists k. unfold wire_of. rewrite C2. auto.
Qed.

Lemma prefix_mono n : forall k1 k2, (k1 <= k2 <= length n)%nat ->
  wire_len (firstn k2 n) = (wire_len (firstn k1 n) + wire_len (firstn (k2 - k1) (skipn k1 n)))%nat.
Proof.
  induction n as [|l n IH]; intros k1 k2 H.
  - cbn [length] in H. replace k1 with 0%nat by lia. replace k2 with 0%nat by lia. reflexivity.
  - destruct k1 as [|k1]; [cbn [firstn wire_len skipn]; rewrite Nat.sub_0_r; reflexivity|].
    destruct k2 as [|k2]; [lia|]. cbn [firstn wire_len skipn length] in *.
    rewrite (IH k1 k2) by lia. replace (S k2 - S k1)%nat with (k2 - k1)%nat by lia. lia.
Qed.

Lemma prefix_strict n : Forall valid_label n -> forall k1 k2, (k1 < k2 <= length n)%nat ->
  (wire_len (firstn k1 n) < wire_len (firstn k2 n))%nat.
Proof.
  intros Hv k1 k2 H. rewrite (prefix_mono n k1 k2) by lia.
  assert (Hs : (k2 - k1 <= length (skipn k1 n))%nat) by (rewrite skipn_length; lia).
  destruct (skipn k1 n) as [|x s] eqn:Es; [cbn [length] in Hs; lia|].
  destruct (k2 - k1)%nat as [|d] eqn:Ed; [lia|]. cbn [firstn wire_len]. lia.
Qed.

Theorem range_spec absolute n lo hi : valid_rel n ->
  match n_range absolute (wire_of absolute n) lo hi with
  | Ok r => exists k1 k2, (k1 <= k2 <= length n)%nat /\
              lo_of lo = wire_len (firstn k1 n) /\ hi_of (wire_of absolute n) hi = wire_len (firstn k2 n) /\
              r = wire_rel (firstn (k2 - k1) (skipn k1 n)) /\ valid_rel (firstn (k2 - k1) (skipn k1 n))
  | Panic p =>
      (p = 8%N /\ (~ at_label n (lo_of lo) \/ ~ at_label n (hi_of (wire_of absolute n) hi))) \/
      (p = 9%N /\ (hi_of (wire_of absolute n) hi < lo_of lo)%nat) \/
      (p = 10%N /\ absolute = true /\ hi = EUnb)
  | _ => False
  end.
Proof.
  intros [Hv Hl]. unfold n_range, check_bounds.
  assert (Hlo : (at_label n (lo_of lo) /\ match lo with Some i => check_index absolute (wire_of absolute n) i | None => Ok tt end = Ok tt) \/
                (~ at_label n (lo_of lo) /\ match lo with Some i => check_index absolute (wire_of absolute n) i | None => Ok tt end = Panic 8)).
  { destruct lo as [i|]; [apply check_index_spec; exact Hv|]. left. split; [|reflexivity].
    exists 0%nat. cbn. split; [lia|reflexivity]. }
  destruct Hlo as [[(k1 & Hk1 & E1) C1]|[Hn C1]]; rewrite C1; cbn [bind]; [|left; auto].
  assert (Hhi : (absolute = true /\ hi = EUnb) \/
     (at_label n (hi_of (wire_of absolute n) hi) /\
        match hi with EIncl i => check_index absolute (wire_of absolute n) (i + 1) | EExcl i => check_index absolute (wire_of absolute n) i
                 | EUnb => if absolute then Panic 10 else Ok tt end = Ok tt) \/
     (~ at_label n (hi_of (wire_of absolute n) hi) /\
        match hi with EIncl i => check_index absolute (wire_of absolute n) (i + 1) | EExcl i => check_index absolute (wire_of absolute n) i
                 | EUnb => if absolute then Panic 10 else Ok tt end = Panic 8)).
  { destruct hi as [i|i|]; cbn [hi_of].
    - right. apply check_index_spec; exact Hv.
    - right. apply check_index_spec; exact Hv.
    - destruct absolute; [left; auto|]. right. left. split; [|reflexivity].
      exists (length n). rewrite firstn_all, wire_of_rel, wire_rel_length. split; [lia|reflexivity]. }
  destruct Hhi as [[-> ->]|[[(k2 & Hk2 & E2) C2]|[Hn C2]]].
  - cbn. right. right. auto.
  - rewrite C2. cbn [bind]. unfold sub. rewrite E1, E2.
    pose proof (prefix_le n k2) as Hp2.
    destruct (Nat.ltb_spec (wire_len (firstn k2 n)) (wire_len (firstn k1 n))) as [Hlt|Hge]; cbn [orb].
    { right. left. split; [reflexivity|lia]. }
    destruct (Nat.ltb_spec (length (wire_of absolute n)) (wire_len (firstn k2 n))) as [Hb|Hb];
      [rewrite wire_of_length in Hb; lia|].
    assert (Hk : (k1 <= k2)%nat).
    { destruct (Nat.le_gt_cases k1 k2); [assumption|]. pose proof (prefix_strict n Hv k2 k1 ltac:(lia)). lia. }
    exists k1, k2. split; [lia|]. split; [reflexivity|]. split; [reflexivity|].
    destruct (cut_at_prefix n k1 (if absolute then [0%N] else []) Hk1) as [_ S1].
    unfold wire_of. rewrite S1. rewrite (prefix_mono n k1 k2) by lia.
    replace (wire_len (firstn k1 n) + wire_len (firstn (k2 - k1) (skipn k1 n)) - wire_len (firstn k1 n))%nat
      with (wire_len (firstn (k2 - k1) (skipn k1 n))) by lia.
    assert (Hd : (k2 - k1 <= length (skipn k1 n))%nat) by (rewrite skipn_length; lia).
    destruct (cut_at_prefix (skipn k1 n) (k2 - k1) (if absolute then [0%N] else []) Hd) as [F1 _].
    rewrite F1. split; [reflexivity|].
    destruct (sub_names_valid n k1 Hv Hl) as [_ [V2 V2l]].
    destruct (sub_names_valid (skipn k1 n) (k2 - k1) V2 V2l) as [V3 _]. exact V3.
  - rewrite C2. cbn [bind]. left. auto.
Qed.

Theorem parent_spec absolute n : valid_rel n ->
  n_parent absolute (wire_of absolute n) =
    Ok (match n with [] => None | _ :: n' => Some (wire_of absolute n') end) /\
  match n with [] => True | _ :: n' => valid_rel n' end.
Proof.
  intros [Hv Hl]. unfold n_parent. destruct n as [|l n'].
  - split; [|exact I]. destruct absolute; reflexivity.
  - inversion Hv as [|? ? [[L1 L2] L3] Hv']; subst. split; [|split; [exact Hv'|cbn [wire_len] in Hl; lia]].
    assert (Hne : (if absolute then (length (wire_of absolute (l :: n')) =? 1)%nat else is_empty (wire_of absolute (l :: n'))) = false).
    { destruct absolute; [|rewrite wire_of_cons; reflexivity]. rewrite wire_of_length. cbn [wire_len]. apply Nat.eqb_neq. lia. }
    rewrite Hne. rewrite wire_of_cons at 1. rewrite split_from_wire by lia.
    pose proof (split_spec absolute (l :: n') (length l + 1) (conj Hv Hl)) as S.
    destruct (n_split absolute (wire_of absolute (l :: n')) (length l + 1)) as [[a b]|e|p|]; try contradiction.
    + destruct S as (k & Hk & Ei & -> & -> & _). cbn [bind snd].
      assert (k = 1%nat).
      { destruct k as [|k]; [cbn in Ei; lia|]. destruct k as [|k]; [reflexivity|].
        pose proof (prefix_strict (l :: n') Hv 1 (S (S k)) ltac:(lia)) as Hs. cbn [firstn wire_len] in Hs, Ei. lia. }
      subst k. reflexivity.
    + exfalso. destruct S as [_ Hn]. apply Hn. exists 1%nat. cbn [length firstn wire_len]. split; lia.
Qed.

Theorem into_relative_spec n : valid_abs n -> n_into_relative (wire_abs n) = Ok (wire_rel n) /\ valid_rel n.
Proof.
  intros Hv. split; [|exact Hv]. unfold n_into_relative, into_relative_sub. rewrite wire_abs_length.
  destruct (Nat.ltb_spec (S (wire_len n)) 1); [lia|].
  replace (S (wire_len n) - 1)%nat with (length (wire_rel n)) by (rewrite wire_rel_length; lia).
  unfold wire_abs. rewrite firstn_app, firstn_all, Nat.sub_diag. cbn [firstn]. rewrite app_nil_r. reflexivity.
Qed.

Theorem into_absolute_spec n : valid_rel n -> n_into_absolute None (wire_rel n) = Ok (wire_abs n) /\ valid_abs n.
Proof. intros Hv. split; [apply into_name_closed, Hv|exact Hv]. Qed.

Lemma starts_with_decomp : forall a b, starts_with a b = true ->
  exists s r, a = s ++ r /\ canon s = canon b.
Proof.
  induction a as [|x a IH]; intros [|y b] H; cbn [starts_with] in H.
  - exists [], []. auto.
  - discriminate.
  - exists [], (x :: a). auto.
  - destruct (eq_ci x y) eqn:E; cbn [negb] in H; [|discriminate].
    destruct (IH b H) as (s & r & -> & Hc). exists (x :: s), r. split; [reflexivity|].
    unfold canon in *. cbn [map]. apply eq_ci_spec in E. congruence.
Qed.

Lemma canon_eq_wire_len (s b : name) : canon s = canon b -> wire_len s = wire_len b.
Proof. intros H. rewrite <- (canon_wire_len s), H. apply canon_wire_len. Qed.

Lemma ends_with_decomp n base : ends_with n base = true ->
  exists p s, n = p ++ s /\ canon s = canon base.
Proof.
  unfold ends_with. intros H. destruct (starts_with_decomp _ _ H) as (s & r & E & Hc).
  exists (rev r), (rev s). split.
  - rewrite <- rev_app_distr, <- E. symmetry. apply rev_involutive.
  - unfold canon in *.
    assert (M : forall l : list (list N), map lowers (rev l) = rev (map lowers l)) by (intros; apply map_rev).
    etransitivity; [apply M|]. rewrite Hc. etransitivity; [apply f_equal; apply M|]. apply rev_involutive.
Qed.

Lemma ends_with_root n base : ends_with (n ++ [[]]) (base ++ [[]]) = ends_with n base.
Proof. unfold ends_with. rewrite !rev_app_distr. reflexivity. Qed.

Lemma prefix_inj n : Forall valid_label n -> forall k1 k2, (k1 <= length n)%nat -> (k2 <= length n)%nat ->
  wire_len (firstn k1 n) = wire_len (firstn k2 n) -> k1 = k2.
Proof.
  intros Hv k1 k2 H1 H2 E. destruct (Nat.lt_trichotomy k1 k2) as [L|[L|L]]; [|exact L|].
  - pose proof (prefix_strict n Hv k1 k2 ltac:(lia)). lia.
  - pose proof (prefix_strict n Hv k2 k1 ltac:(lia)). lia.
Qed.

Theorem abs_strip_suffix_spec n base : valid_abs n ->
  match abs_strip_suffix n base with
  | Ok (Some t) => exists p s, n = p ++ s /\ canon s = canon base /\ t = wire_rel p /\ valid_rel p
  | Ok None => ends_with (n ++ [[]]) (base ++ [[]]) = false
  | _ => False
  end.
Proof.
  intros Hv. unfold abs_strip_suffix. destruct (ends_with (n ++ [[]]) (base ++ [[]])) eqn:E; [|reflexivity].
  rewrite ends_with_root in E. destruct (ends_with_decomp n base E) as (p & s & -> & Hc).
  pose proof (canon_eq_wire_len s base Hc) as Hw. rewrite wire_abs_length, wire_len_app.
  destruct (Nat.ltb_spec (S (wire_len p + wire_len s)) (wire_len base + 1)); [lia|].
  replace (S (wire_len p + wire_len s) - (wire_len base + 1))%nat with (wire_len p) by lia.
  pose proof (truncate_spec true (p ++ s) (wire_len p) Hv) as T. rewrite wire_of_abs in T.
  assert (Hp : firstn (length p) (p ++ s) = p) by apply take_app_length.
  destruct (n_truncate true (wire_abs (p ++ s)) (wire_len p)) as [l|e|q|]; try contradiction; cbn [bind].
  - destruct T as (k & Hk & Ei & -> & Vk).
    assert (k = length p).
    { apply (prefix_inj (p ++ s) (proj1 Hv)); [exact Hk|rewrite app_length; lia|]. rewrite Hp. symmetry. exact Ei. }
    subst k. rewrite Hp in *. exists p, s. auto.
  - destruct T as [_ Hn]. apply Hn. exists (length p). rewrite Hp, app_length. split; [lia|reflexivity].
Qed.

Theorem rel_strip_suffix_spec n base : valid_rel n ->
  match rel_strip_suffix n base with
  | Ok (Some t) => exists p s, n = p ++ s /\ canon s = canon base /\ t = wire_rel p /\ valid_rel p
  | Ok None => ends_with n base = false
  | _ => False
  end.
Proof.
  intros Hv. unfold rel_strip_suffix. destruct (ends_with n base) eqn:E; [|reflexivity].
  destruct (ends_with_decomp n base E) as (p & s & -> & Hc).
  pose proof (canon_eq_wire_len s base Hc) as Hw. rewrite wire_rel_length, wire_len_app.
  destruct (Nat.ltb_spec (wire_len p + wire_len s) (wire_len base)); [lia|].
  replace (wire_len p + wire_len s - wire_len base)%nat with (length (wire_rel p)) by (rewrite wire_rel_length; lia).
  rewrite wire_rel_app. exists p, s. split; [reflexivity|]. split; [exact Hc|]. split; [apply take_app_length|].
  destruct Hv as [H1 H2]. apply Forall_app in H1 as [H1 _]. rewrite wire_len_app in H2. split; [exact H1|lia].
Qed.

Example slice_examples :
  let w := wire_abs [[119;119;119]; [97;98]]%N in
  is_label_start true w 4 = Ok true /\ is_label_start true w 7 = Ok true /\ is_label_start true w 8 = Ok false /\
  is_label_start true w 1 = Ok false /\ n_split true w 4 = Ok ([3;119;119;119], [2;97;98;0])%N /\
  n_split true w 5 = Panic 8 /\ n_range true w (Some 4%nat) (EExcl 7) = Ok [2;97;98]%N /\
  n_range true w (Some 4%nat) EUnb = Panic 10 /\ n_range true w (Some 7%nat) (EExcl 4) = Panic 9 /\
  n_parent true w = Ok (Some [2;97;98;0]%N) /\ n_parent true [0%N] = Ok None /\
  n_truncate false [1;97;1;98]%N 4 = Ok [1;97;1;98]%N /\ n_truncate false [1;97;1;98]%N 3 = Panic 8.
Proof. vm_compute. repeat split; reflexivity. Qed.

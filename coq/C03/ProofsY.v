(* C03 -- the limits are not over-enforced: every valid relative name can be
   built label by label and octet by octet, every step returning Ok; finish
   gives exactly its wire form.  With C03_builder_inv / C03_finish_valid the
   builder is exact on the valid names. *)
From Coq Require Import NArith List Bool Arith Lia.
From Coq Require Import ZifyN ZifyNat.
From DV Require Import Base.Outcome Base.Bytes Base.Names C03.Gen C03.Model C03.Spec
  C03.ProofsBuilder C03.ProofsBuilder2 C03.ProofsV.
Import ListNotations.

Theorem builder_complete_labels n : valid_rel n ->
  fst (run_log None b_init (map OLabel n)) = repeat (Ok tt) (length n) /\
  b_finish (run None b_init (map OLabel n)) = Ok (wire_rel n) /\
  b_into_name None (run None b_init (map OLabel n)) = Ok (wire_abs n).
Proof.
  intros [Hv Hl]. pose proof (lab_ops_built (map OLabel n)) as H.
  rewrite map_map, map_id, map_length in H.
  destruct H as (H1 & _ & H2 & H3); [apply Forall_map; exact Hv|exact Hl|auto].
Qed.

Definition octet_ops (n : name) : list op := flat_map (fun l => map OPush l ++ [OEnd]) n.

Lemma a_oks_pushes cap l : forall a a', a_pushes cap a l = (a', Ok tt) -> a_oks cap a (map OPush l) a'.
Proof.
  induction l as [|ch l IH]; intros a a'; cbn [a_pushes map a_oks]; [intros [= <-]; reflexivity|].
  destruct (a_push cap a ch) as [a1 [[]|e|p|]] eqn:E; cbn [a_then]; try discriminate.
  intros H. exists a1. split; [exact E|apply IH, H].
Qed.

Lemma a_label_octets p l : valid_label l -> (wire_len p + S (length l) <= 254)%nat ->
  a_oks None (mk_a p None) (map OPush l ++ [OEnd]) (mk_a (p ++ [l]) None).
Proof.
  intros [[L1 L2] _] Hl. apply (a_oks_app None _ _ (mkopen p l)).
  - apply a_oks_pushes. apply (pushes_mkopen p l []); cbn [app]; lia.
  - exists (mk_a (p ++ [l]) None). split; [|reflexivity]. cbn [a_step]. rewrite aend_mkopen; [reflexivity|].
    intros ->. cbn in L1. lia.
Qed.

Lemma a_octets_run : forall n p, Forall valid_label n -> (wire_len p + wire_len n <= 254)%nat ->
  a_oks None (mk_a p None) (octet_ops n) (mk_a (p ++ n) None).
Proof.
  induction n as [|l n IH]; intros p Hv Hl; [cbn; rewrite app_nil_r; reflexivity|].
  inversion Hv as [|? ? Hv1 Hv2]; subst. cbn [wire_len] in Hl.
  unfold octet_ops. cbn [flat_map]. fold (octet_ops n).
  apply (a_oks_app None _ _ (mk_a (p ++ [l]) None)); [apply a_label_octets; [exact Hv1|lia]|].
  change (p ++ l :: n) with (p ++ [l] ++ n). rewrite app_assoc.
  apply IH; [exact Hv2|rewrite wire_len_snoc; lia].
Qed.

Lemma wf_octet_ops n : Forall valid_label n -> Forall wf_op (octet_ops n).
Proof.
  induction 1 as [|l n [_ Hb] _ IH]; [constructor|].
  unfold octet_ops. cbn [flat_map]. fold (octet_ops n).
  apply Forall_app. split; [|exact IH]. apply Forall_app. split; [|repeat constructor].
  apply Forall_map. exact Hb.
Qed.

Theorem builder_complete_octets n : valid_rel n ->
  fst (run_log None b_init (octet_ops n)) = repeat (Ok tt) (length (octet_ops n)) /\
  b_finish (run None b_init (octet_ops n)) = Ok (wire_rel n) /\
  b_into_name None (run None b_init (octet_ops n)) = Ok (wire_abs n).
Proof.
  intros [Hv Hl].
  destruct (built_exact (octet_ops n) n (wf_octet_ops n Hv) (a_octets_run n [] Hv Hl) Hl) as (H1 & _ & H2 & H3).
  auto.
Qed.

Example builder_complete_ex :
  b_finish (run None b_init (octet_ops [[119;119;119]; [97]]%N)) = Ok [3;119;119;119;1;97]%N /\
  b_into_name None (run None b_init (map OLabel [[119;119;119]; [97]]%N)) = Ok [3;119;119;119;1;97;0]%N.
Proof. vm_compute. split; reflexivity. Qed.

(* append_origin is exact: after any operation list outside the known
   class, it fails exactly when the absolute name would exceed 255 octets (or,
   on a fixed buffer, would not fit) and otherwise returns the built name
   followed by the origin *)
Theorem append_origin_exact cap ops og : Forall wf_op ops -> hits_relname_255 cap ops = false ->
  Forall valid_label og ->
  let n := final_name (a_run cap a_init ops) in
  b_append_origin cap (run cap b_init ops) og =
    (if (254 <? wire_len n + wire_len og)%nat then Err E_LongName
     else if fits cap (a_run cap a_init ops) (wire_len og + 1) then Ok (wire_abs (n ++ og))
     else Err E_ShortBuf) /\
  ((wire_len n + wire_len og <= 254)%nat -> valid_abs (n ++ og)).
Proof.
  intros Ho Hh Hog n.
  destruct (inv_run cap ops a_init b_init avalid_init repr_init Ho Hh) as [Hr Hv].
  destruct (append_origin_spec cap _ _ og Hv Hr Hog) as (H1 & H2).
  pose proof (final_len (a_run cap a_init ops)) as Hfl. fold n in Hfl.
  split.
  - rewrite H1. fold n. rewrite <- Hfl.
    destruct (Nat.ltb_spec 255 (wire_len n + (wire_len og + 1)));
      destruct (Nat.ltb_spec 254 (wire_len n + wire_len og)); try lia; reflexivity.
  - intros Hle. apply H2. lia.
Qed.

Example append_origin_exact_ex :
  b_append_origin None (run None b_init [OLabel [119;119;119]%N]) [[99;111;109]%N] = Ok [3;119;119;119;3;99;111;109;0]%N /\
  b_append_origin None (run None b_init (repeat (OLabel lab9) 25)) [[49;50;51;52]%N] = Err E_LongName.
Proof. vm_compute. split; reflexivity. Qed.

(* C03 -- presentation format: parsing the displayed form of a valid name gives
   back the same octets; whatever the text, a valid name or an error. *)
From Coq Require Import NArith List Bool Arith Lia.
From Coq Require Import ZifyN ZifyNat.
From DV Require Import Base.Outcome Base.Bytes Base.Names C03.Gen C03.Model C03.Spec C03.ModelText
  C03.ProofsBuilder C03.ProofsBuilder2 C03.ProofsV.
Import ListNotations.
Local Open Scope N_scope.

(* Symbol::from_chars only looks at the characters it consumes: a successful
   read is unchanged by appending more text *)
Lemma sym_next_app p s r rest : sym_next p = Ok (Some (s, r)) ->
  sym_next (p ++ rest) = Ok (Some (s, r ++ rest)).
Proof.
  unfold sym_next. destruct p as [|ch r0]; [discriminate|]. cbn [app].
  destruct (negb (ch =? backslash)); [intros E; injection E as <- <-; reflexivity|].
  destruct r0 as [|c1 r1]; [discriminate|]. cbn [app].
  destruct (is_digit c1).
  - destruct r1 as [|c2 r2]; [discriminate|]. cbn [app]. destruct (negb (is_digit c2)); [discriminate|].
    destruct r2 as [|c3 r3]; [discriminate|]. cbn [app]. destruct (negb (is_digit c3)); [discriminate|].
    destruct (sym_dec_max <? _); [discriminate|]. intros E; injection E as <- <-. reflexivity.
  - destruct (255 <? c1); [discriminate|]. destruct (_ || _); [discriminate|].
    intros E; injection E as <- <-. reflexivity.
Qed.

(* the finite table obligation: for each of the 256 octets, the displayed form
   (whatever escape set and ranges T1 extracted) is read back as exactly one
   symbol that stands for the octet and is neither the label separator nor the
   binary-label marker.  Checked by computation, so a change of the escape set
   in the Rust source re-checks itself. *)
Definition outcome_is (o : outcome N) (b : N) : bool :=
  match o with Ok x => x =? b | _ => false end.

Definition display_octet_ok (b : N) : bool :=
  match sym_next (display_octet b) with
  | Ok (Some (s, [])) =>
      outcome_is (into_octet s) b && negb (is_char s sym_dot) && negb (is_simple s sym_bracket)
  | _ => false
  end.

Definition all_octets : list N := map N.of_nat (seq 0 256).

Lemma display_table : forallb display_octet_ok all_octets = true.
Proof. vm_compute. reflexivity. Qed.

Lemma in_all_octets b : b < 256 -> In b all_octets.
Proof.
  intros H. unfold all_octets. apply in_map_iff. exists (N.to_nat b). split; [apply N2Nat.id|].
  apply in_seq. lia.
Qed.

Lemma sym_display_octet b rest : b < 256 ->
  exists s, sym_next (display_octet b ++ rest) = Ok (Some (s, rest)) /\ into_octet s = Ok b /\
            is_char s sym_dot = false /\ is_simple s sym_bracket = false.
Proof.
  intros Hb. pose proof display_table as T. rewrite forallb_forall in T.
  specialize (T b (in_all_octets b Hb)). unfold display_octet_ok in T.
  destruct (sym_next (display_octet b)) as [[[s [|x r]]|]|e|p|] eqn:E; try discriminate.
  apply andb_true_iff in T as [T T3]. apply andb_true_iff in T as [T1 T2].
  exists s. split; [apply (sym_next_app _ _ _ rest) in E; exact E|].
  split; [|split; [apply negb_true_iff; exact T2|apply negb_true_iff; exact T3]].
  unfold outcome_is in T1. destruct (into_octet s) as [o|e|p|]; try discriminate.
  apply N.eqb_eq in T1. subst o. reflexivity.
Qed.

Lemma display_octet_nonempty b : (1 <= length (display_octet b))%nat.
Proof.
  unfold display_octet. destruct (existsb _ _); [cbn; lia|].
  destruct (negb _); cbn; lia.
Qed.

(* reading the displayed form of the octets l into the open label *)
Lemma text_label cl l : forall c st fuel rest,
  Forall valid_label cl -> wf_bytes c -> wf_bytes l -> repr (mkopen cl c) st ->
  (length c + length l <= 63)%nat -> (wire_len cl + length c + length l + 1 <= 254)%nat ->
  (length (display_label l ++ rest) < fuel)%nat ->
  exists fuel' st', append_syms fuel None st (display_label l ++ rest) = append_syms fuel' None st' rest /\
    (length rest < fuel')%nat /\ repr (mkopen cl (c ++ l)) st'.
Proof.
  induction l as [|b l IH]; intros c st fuel rest Hcl Hc Hl Hr B1 B2 Hf.
  - exists fuel, st. rewrite app_nil_r. cbn [display_label flat_map app] in *. auto.
  - inversion Hl as [|? ? Hb Hl']; subst. cbn [length] in *.
    destruct fuel as [|f]; [lia|].
    unfold display_label in *. cbn [flat_map] in *. rewrite <- app_assoc in *.
    destruct (sym_display_octet b (flat_map display_octet l ++ rest) Hb) as (s & S1 & S2 & S3 & S4).
    cbn [append_syms]. rewrite S1. unfold push_symbol. rewrite S3, S4. cbn [andb]. rewrite S2.
    assert (Hw : awf (mkopen cl c)) by (apply awf_mkopen; auto; lia).
    destruct (push_refines None _ st b Hw Hr Hb) as (R1 & R2 & _ & _).
    rewrite push_mkopen in R1, R2 by lia. cbn [fst snd] in R1, R2.
    destruct (b_push None st b) as [st1 r1]. cbn [fst snd] in R1, R2. subst r1.
    pose proof (display_octet_nonempty b) as Hne. rewrite app_length in Hf.
    destruct (IH (c ++ [b]) st1 f rest Hcl) as (fuel' & st' & E & F & R); auto.
    + apply wf_bytes_app. split; auto. repeat constructor. exact Hb.
    + rewrite app_length. cbn [length]. lia.
    + rewrite app_length. cbn [length]. lia.
    + lia.
    + exists fuel', st'. rewrite <- app_assoc in R. cbn [app] in R. auto.
Qed.

Definition tail_text (more : name) : list N :=
  match more with [] => [] | _ => sym_dot :: display_labels more end.

Lemma display_labels_cons m ms : display_labels (m :: ms) = display_label m ++ tail_text ms.
Proof. destruct ms; cbn [display_labels tail_text]; [rewrite app_nil_r|]; reflexivity. Qed.

Lemma in_label_mkopen cl c st : repr (mkopen cl c) st -> c <> [] -> in_label st = true.
Proof. intros R Hne. unfold in_label. rewrite (repr_head _ _ R). destruct c; [contradiction|reflexivity]. Qed.

Lemma text_dot cl c st f rest : Forall valid_label cl -> valid_label c -> repr (mkopen cl c) st ->
  exists st2, append_syms (S f) None st (sym_dot :: rest) = append_syms f None st2 rest /\
              repr (mkopen (cl ++ [c]) []) st2.
Proof.
  intros Hcl [[C1 C2] C3] R. assert (Hne : c <> []) by (intros ->; cbn in C1; lia).
  cbn [append_syms]. unfold sym_next at 1, backslash, sym_dot.
  change (46 =? 92) with false. cbn [negb]. unfold push_symbol, is_char, sym_dot.
  change (46 =? 46) with true. rewrite (in_label_mkopen cl c st R Hne). cbn [negb].
  destruct (end_ok _ st (awf_mkopen cl c Hcl C2 C3) R) as (st2 & E2 & R2). rewrite E2.
  exists st2. split; [reflexivity|]. rewrite aend_mkopen in R2 by exact Hne. exact R2.
Qed.

(* the rest of the label under construction, then [more] labels; the last stays open *)
Lemma text_names more : forall cl c l st fuel rest,
  Forall valid_label cl -> valid_label (c ++ l) -> wf_bytes c -> wf_bytes l -> Forall valid_label more ->
  (wire_len (cl ++ (c ++ l) :: more) <= 254)%nat -> repr (mkopen cl c) st ->
  (length (display_label l ++ (tail_text more ++ rest)) < fuel)%nat ->
  exists fuel' st' cl' lastl, append_syms fuel None st (display_label l ++ (tail_text more ++ rest)) = append_syms fuel' None st' rest /\
    (length rest < fuel')%nat /\ cl' ++ [lastl] = cl ++ (c ++ l) :: more /\ repr (mkopen cl' lastl) st'.
Proof.
  induction more as [|m ms IH]; intros cl c l st fuel rest Hcl V Hc Hl Hm Hlen Hr Hf; pose proof V as [[V1 V2] V3];
    rewrite wire_len_app in Hlen; cbn [wire_len] in Hlen; rewrite app_length in V1, V2, Hlen.
  - cbn [tail_text app] in *.
    destruct (text_label cl l c st fuel rest Hcl Hc Hl Hr) as (fuel' & st' & E & F & R); try lia; auto.
    exists fuel', st', cl, (c ++ l). auto.
  - inversion Hm as [|? ? Hm1 Hm2]; subst. cbn [wire_len] in Hlen.
    set (rest' := tail_text (m :: ms) ++ rest) in *.
    destruct (text_label cl l c st fuel rest' Hcl Hc Hl Hr) as (fuel' & st' & E & F & R); try lia; auto.
    rewrite E. subst rest'. cbn [tail_text app] in *. destruct fuel' as [|f']; [lia|].
    destruct (text_dot cl (c ++ l) st' f' (display_labels (m :: ms) ++ rest) Hcl V R) as (st2 & E2 & R2). rewrite E2.
    rewrite display_labels_cons, <- app_assoc. pose proof Hm1 as [[M1 M2] M3].
    destruct (IH (cl ++ [c ++ l]) [] m st2 f' rest) as (f3 & st3 & cl3 & l3 & E3 & F3 & C3 & R3); auto.
    + apply Forall_app. split; [exact Hcl|]. constructor; [exact V|constructor].
    + constructor.
    + rewrite wire_len_app. cbn [wire_len app]. rewrite wire_len_app. cbn [wire_len]. rewrite app_length. lia.
    + rewrite display_labels_cons, <- app_assoc in F. cbn [length] in F. lia.
    + exists f3, st3, cl3, l3. split; [exact E3|]. split; [exact F3|]. split; [|exact R3].
      rewrite C3. rewrite <- app_assoc. reflexivity.
Qed.

Lemma open_final cl c st : Forall valid_label (cl ++ [c]) -> (wire_len (cl ++ [c]) <= 254)%nat -> repr (mkopen cl c) st ->
  b_into_name None st = Ok (wire_abs (cl ++ [c])) /\ b_finish st = Ok (wire_rel (cl ++ [c])) /\ in_label st = true.
Proof.
  intros Hv Hl R. apply Forall_app in Hv as [Hcl Hc]. inversion Hc as [|? ? [[C1 C2] C3] _]; subst.
  assert (Hne : c <> []) by (intros ->; cbn in C1; lia).
  assert (Hav : avalid (mkopen cl c)).
  { split; [apply awf_mkopen; assumption|]. rewrite <- alen_aend, aend_mkopen, alen_closed by auto. exact Hl. }
  destruct (into_name_spec None _ st Hav R) as (H1 & _). destruct (finish_spec _ st Hav R) as (H2 & _).
  unfold final_name in H1, H2. rewrite aend_mkopen in H1, H2 by exact Hne.
  split; [exact H1|]. split; [exact H2|apply (in_label_mkopen cl c); assumption].
Qed.

Lemma text_names_end more cl c l st fuel :
  Forall valid_label cl -> valid_label (c ++ l) -> wf_bytes c -> wf_bytes l -> Forall valid_label more ->
  (wire_len (cl ++ (c ++ l) :: more) <= 254)%nat -> repr (mkopen cl c) st ->
  (length (display_label l ++ tail_text more) < fuel)%nat ->
  exists st', append_syms fuel None st (display_label l ++ tail_text more) = Ok (st', None) /\
              b_into_name None st' = Ok (wire_abs (cl ++ (c ++ l) :: more)) /\
              b_finish st' = Ok (wire_rel (cl ++ (c ++ l) :: more)) /\ in_label st' = true.
Proof.
  intros Hcl V Hc Hl Hm Hlen Hr Hf. rewrite <- (app_nil_r (tail_text more)) in *.
  destruct (text_names more cl c l st fuel [] Hcl V Hc Hl Hm Hlen Hr Hf) as (f' & st' & cl' & lastl & E & F & C & R).
  exists st'. rewrite E, <- C. destruct f' as [|f']; [cbn in F; lia|]. split; [reflexivity|].
  apply open_final; [| |exact R]; rewrite C; [|exact Hlen].
  apply Forall_app. split; [exact Hcl|]. constructor; assumption.
Qed.

Theorem display_parse_roundtrip n : valid_abs n ->
  name_from_chars None (display_name n) = Ok (wire_abs n).
Proof.
  intros [Hv Hl]. destruct n as [|l n']; [reflexivity|].
  inversion Hv as [|? ? [[L1 L2] L3] Hv']; subst.
  destruct l as [|b0 l']; [cbn in L1; lia|]. inversion L3 as [|? ? Hb0 Hl']; subst.
  unfold display_name. rewrite display_labels_cons. unfold display_label at 1. cbn [flat_map].
  rewrite <- app_assoc. fold (display_label l').
  destruct (sym_display_octet b0 (display_label l' ++ tail_text n') Hb0) as (s & S1 & S2 & S3 & S4).
  unfold name_from_chars. rewrite S1, S3. unfold push_symbol. rewrite S3, S4. cbn [andb]. rewrite S2.
  destruct (push_refines None a_init b_init b0 awf_init repr_init Hb0) as (R1 & R2 & _ & _).
  change a_init with (mkopen [] []) in R1, R2. rewrite push_mkopen in R1, R2 by (cbn; lia).
  cbn [fst snd app] in R1, R2. destruct (b_push None b_init b0) as [st1 r1]. cbn [fst snd] in R1, R2. subst r1.
  destruct (text_names_end n' [] [b0] l' st1 (S (length (display_label l' ++ tail_text n')))) as (st' & E & I & _ & _);
    auto; [repeat split; assumption|repeat constructor; exact Hb0|].
  rewrite E. unfold kept. cbn [app] in I. rewrite I. reflexivity.
Qed.

Definition display_rel (n : name) : list N := display_labels n.

Lemma text_fresh l n' : valid_rel (l :: n') ->
  exists st', append_syms (S (length (display_labels (l :: n')))) None b_init (display_labels (l :: n')) = Ok (st', None) /\
              b_into_name None st' = Ok (wire_abs (l :: n')) /\
              b_finish st' = Ok (wire_rel (l :: n')) /\ in_label st' = true.
Proof.
  intros [Hv Hl]. inversion Hv as [|? ? L Hv']; subst. rewrite display_labels_cons.
  apply (text_names_end n' [] [] l b_init); auto; [constructor|apply L|reflexivity].
Qed.

Theorem display_parse_roundtrip_rel n : valid_rel n ->
  rel_from_chars None (display_rel n) = Ok (wire_rel n).
Proof.
  intros Hn. unfold rel_from_chars, display_rel. destruct n as [|l n']; [reflexivity|].
  destruct (text_fresh l n' Hn) as (st' & E & _ & F & I). rewrite E, I. exact F.
Qed.

Example display_parse_example :
  display_name [[119; 46; 32]; [0; 255; 65]]%N = [119; 92; 46; 92; 32; 46; 92; 48; 48; 48; 92; 50; 53; 53; 65]%N /\
  name_from_chars None (display_name [[119; 46; 32]; [0; 255; 65]]%N) = Ok [3; 119; 46; 32; 3; 0; 255; 65; 0]%N /\
  name_from_chars None [92; 91; 97]%N = Err T_BinaryLabel /\ name_from_chars None [97; 46; 46]%N = Err T_EmptyLabel.
Proof. vm_compute. repeat split; reflexivity. Qed.

Lemma sym_next_spec cs :
  match sym_next cs with
  | Ok (Some (s, r)) => (length r < length cs)%nat /\ forall o, into_octet s = Ok o -> o < 256
  | Ok None | Err _ => True
  | _ => False
  end.
Proof.
  unfold sym_next. destruct cs as [|ch r0]; [exact I|].
  destruct (negb (ch =? backslash)).
  { split; [cbn [length]; lia|]. unfold into_octet. intros o.
    destruct ((ch <? 128) && (octet_char_lo <=? ch) && (ch <=? octet_char_hi)) eqn:C; [|discriminate].
    intros E; injection E as <-. apply andb_true_iff in C as [C _]. apply andb_true_iff in C as [C _].
    apply N.ltb_lt in C. lia. }
  destruct r0 as [|c1 r1]; [exact I|].
  destruct (is_digit c1).
  { destruct r1 as [|c2 r2]; [exact I|]. destruct (negb (is_digit c2)); [exact I|].
    destruct r2 as [|c3 r3]; [exact I|]. destruct (negb (is_digit c3)); [exact I|].
    unfold sym_dec_max.
    destruct (N.ltb_spec 255 ((c1 - 48) * 100 + (c2 - 48) * 10 + (c3 - 48))); [exact I|].
    split; [cbn [length]; lia|]. cbn [into_octet]. intros o E; injection E as <-. lia. }
  destruct (255 <? c1) eqn:C1; [exact I|]. destruct (_ || _); [exact I|].
  split; [cbn [length]; lia|]. cbn [into_octet]. intros o E; injection E as <-.
  apply N.ltb_ge in C1. lia.
Qed.

Definition okres {A} (P : A -> Prop) (r : outcome A) : Prop :=
  match r with Ok a => P a | Err _ => True | _ => False end.

Lemma okres_no_panic {A} (P : A -> Prop) r : okres P r -> no_panic r.
Proof. destruct r; cbn; auto. Qed.

Lemma okres_ok {A} (P : A -> Prop) r a : okres P r -> r = Ok a -> P a.
Proof. intros H ->. exact H. Qed.

Definition is_abs (w : bytes) : Prop := exists n, valid_abs n /\ w = wire_abs n.
Definition is_rel (w : bytes) : Prop := exists n, valid_rel n /\ w = wire_rel n.

Lemma into_name_okres cap st : Inv st -> okres is_abs (b_into_name cap st).
Proof.
  intros (a & Hr & Hv). destruct (into_name_spec cap a st Hv Hr) as (H1 & H2 & _). rewrite H1.
  destruct (fits cap a 1); [exists (final_name a); auto|exact I].
Qed.

Lemma finish_okres st : Inv st -> okres is_rel (b_finish st).
Proof. intros (a & Hr & Hv). destruct (finish_spec a st Hv Hr) as (H1 & H2). rewrite H1. exists (final_name a). auto. Qed.

Lemma root_append cap b : raw_append cap [] const_from_symbols_root = Some b -> is_abs b.
Proof.
  intros H. exists []. split; [split; [constructor|cbn; lia]|]. revert H. unfold raw_append, const_from_symbols_root.
  destruct cap as [c|]; [destruct (_ <=? c)%nat; [|discriminate]|]; intros [= <-]; reflexivity.
Qed.

Lemma push_symbol_okres cap st s : Inv st -> (forall o, into_octet s = Ok o -> o < 256) ->
  match push_symbol cap st s with (st', Ok _) => Inv st' | (_, Err _) => True | _ => False end.
Proof.
  intros Hi Hs.
  assert (Hstep : forall o, wf_op o -> gap_step cap st o = false ->
            match step cap st o with (st', Ok _) => Inv st' | (_, Err _) => True | _ => False end).
  { intros o Ho Hg. pose proof (step_inv cap st o Hi Ho Hg) as H1. destruct Hi as (a & Hr & Hw & _).
    pose proof (step_no_panic cap a st o Hw Hr Ho) as H2.
    destruct (step cap st o) as [st' [[]|e|p|]]; cbn [fst snd] in *; auto. }
  unfold push_symbol. destruct (is_char s sym_dot).
  - destruct (negb (in_label st)); [exact I|]. apply (Hstep OEnd I eq_refl).
  - destruct (is_simple s sym_bracket && negb (in_label st)); [exact I|].
    destruct (into_octet s) as [o|e|p|] eqn:Eo; [|exact I| |].
    + apply (Hstep (OPush o)); [apply Hs; reflexivity|reflexivity].
    + destruct s; cbn [into_octet] in Eo; try discriminate. destruct (_ && _); discriminate.
    + destruct s; cbn [into_octet] in Eo; try discriminate. destruct (_ && _); discriminate.
Qed.

Lemma append_syms_okres cap fuel : forall st cs, Inv st -> (length cs < fuel)%nat ->
  okres (fun p => Inv (fst p)) (append_syms fuel cap st cs).
Proof.
  induction fuel as [|f IH]; intros st cs Hi Hf; [lia|]. cbn [append_syms].
  pose proof (sym_next_spec cs) as Ht.
  destruct (sym_next cs) as [[[s r]|]|e0|p|]; try exact Hi; try contradiction.
  pose proof (push_symbol_okres cap st s Hi (proj2 Ht)) as Hp.
  destruct (push_symbol cap st s) as [st1 [[]|e1|p1|]]; try exact I; try contradiction.
  apply IH; [exact Hp|]. destruct Ht as [Hs _]. lia.
Qed.

(* Name::from_str / from_chars, RelativeName::from_chars, UncertainName::from_chars
   and the serde visitor of RelativeName, for every capacity of the octets
   builder: whatever the string, a valid name or an error -- never a panic, the
   fuel of the model's symbol loop is enough, and a buffer that is too small
   gives ShortBuf, never a truncated name *)
Theorem from_chars_okres cap cs :
  okres is_abs (name_from_chars cap cs) /\ okres is_rel (rel_from_chars cap cs) /\
  okres (fun fw : bool * bytes => exists n, valid_rel n /\ snd fw = if fst fw then wire_abs n else wire_rel n)
    (uncertain_from_chars cap cs) /\
  okres is_rel (serde_de_rel cap cs).
Proof.
  assert (Hsyms : forall st cs', Inv st -> okres (fun p => Inv (fst p)) (append_syms (S (length cs')) cap st cs'))
    by (intros; apply append_syms_okres; [assumption|lia]).
  assert (Hrel : okres is_rel (rel_from_chars cap cs)).
  { unfold rel_from_chars. pose proof (Hsyms b_init cs inv_init) as H.
    destruct (append_syms _ cap b_init cs) as [[st2 [e|]]|e2|p2|]; try exact I; try contradiction.
    destruct (in_label st2 || is_nil (buf st2)); [apply finish_okres, H|exact I]. }
  split; [|split; [exact Hrel|split]].
  - unfold name_from_chars. pose proof (sym_next_spec cs) as Ht.
    destruct (sym_next cs) as [[[s r]|]|e0|p|]; try exact I; try contradiction.
    destruct (is_char s sym_dot).
    + pose proof (sym_next_spec r) as Ht2.
      destruct (sym_next r) as [[[s2 r2]|]|e1|p1|]; try exact I; try contradiction;
        destruct (raw_append cap [] const_from_symbols_root) eqn:Er; try exact I. apply (root_append cap), Er.
    + pose proof (push_symbol_okres cap b_init s inv_init (proj2 Ht)) as Hp.
      destruct (push_symbol cap b_init s) as [st1 [[]|e1|p1|]]; try exact I; try contradiction.
      pose proof (Hsyms st1 r Hp) as H.
      destruct (append_syms _ cap st1 r) as [[st2 e]|e2|p2|]; try exact I; try contradiction.
      pose proof (into_name_okres cap st2 H) as Hn.
      unfold kept. destruct (b_into_name cap st2); destruct e; try exact I; try contradiction. exact Hn.
  - unfold uncertain_from_chars. destruct (uncertain_from_chars_root_special && first_is_dot cs).
    { pose proof (sym_next_spec cs) as Ht.
      destruct (sym_next cs) as [[[s0 r0]|]|e0|p0|]; try exact I; try contradiction.
      pose proof (sym_next_spec r0) as Ht2.
      destruct (sym_next r0) as [[[s1 r1]|]|e1|p1|]; try exact I; try contradiction.
      destruct (raw_append cap [] const_from_symbols_root) eqn:Er; [|exact I].
      destruct (root_append cap _ Er) as (n & Hn & E). exists n. auto. }
    unfold uncertain_from_chars_plain. pose proof (Hsyms b_init cs inv_init) as H.
    destruct (append_syms _ cap b_init cs) as [[st2 [e|]]|e2|p2|]; try exact I; try contradiction.
    destruct (in_label st2 || is_nil (buf st2)).
    + pose proof (finish_okres st2 H) as Hn. destruct (b_finish st2); cbn [bind]; try exact I; try contradiction. exact Hn.
    + pose proof (into_name_okres cap st2 H) as Hn. destruct (b_into_name cap st2); cbn [bind]; try exact I; try contradiction.
      destruct Hn as (n & Hn & E). exists n. auto.
  - unfold serde_de_rel. destruct serde_rel_checks_absolute; [exact Hrel|].
    pose proof (Hsyms b_init cs inv_init) as H.
    destruct (append_syms _ cap b_init cs) as [[st2 [e|]]|e2|p2|]; try exact I; try contradiction.
    apply finish_okres, H.
Qed.

Theorem from_chars_total cap cs :
  no_panic (name_from_chars cap cs) /\ no_panic (rel_from_chars cap cs) /\
  no_panic (uncertain_from_chars cap cs) /\ no_panic (serde_de_rel cap cs).
Proof. destruct (from_chars_okres cap cs) as (H1 & H2 & H3 & H4). repeat split; eapply okres_no_panic; eassumption. Qed.

Theorem from_chars_valid_cap cap cs :
  (forall w, name_from_chars cap cs = Ok w -> exists n, valid_abs n /\ w = wire_abs n) /\
  (forall w, rel_from_chars cap cs = Ok w -> exists n, valid_rel n /\ w = wire_rel n) /\
  (forall f w, uncertain_from_chars cap cs = Ok (f, w) ->
      exists n, valid_rel n /\ w = if f then wire_abs n else wire_rel n) /\
  (forall w, serde_de_rel cap cs = Ok w -> exists n, valid_rel n /\ w = wire_rel n).
Proof.
  destruct (from_chars_okres cap cs) as (H1 & H2 & H3 & H4).
  split; [|split; [|split]]; intros; [apply (okres_ok _ _ _ H1)|apply (okres_ok _ _ _ H2)|
    apply (okres_ok _ _ (f, w) H3)|apply (okres_ok _ _ _ H4)]; assumption.
Qed.

Theorem from_chars_valid cs :
  (forall w, name_from_chars None cs = Ok w -> exists n, valid_abs n /\ w = wire_abs n) /\
  (forall w, rel_from_chars None cs = Ok w -> exists n, valid_rel n /\ w = wire_rel n) /\
  (forall f w, uncertain_from_chars None cs = Ok (f, w) ->
      exists n, valid_rel n /\ w = if f then wire_abs n else wire_rel n).
Proof. destruct (from_chars_valid_cap None cs) as (H1 & H2 & H3 & _). auto. Qed.

Theorem serde_de_rel_valid cs w : serde_de_rel None cs = Ok w -> exists n, valid_rel n /\ w = wire_rel n.
Proof. apply (from_chars_valid_cap None cs). Qed.

Lemma parse_escape_octet cs il b r : parse_escape cs il = Ok (b, r) -> b < 256 /\ (length r < length cs)%nat.
Proof.
  unfold parse_escape. destruct cs as [|c1 r1]; [discriminate|].
  destruct (is_digit c1).
  - destruct r1 as [|c2 r2]; [discriminate|]. destruct (negb (is_digit c2)); [discriminate|].
    destruct r2 as [|c3 r3]; [discriminate|]. destruct (negb (is_digit c3)); [discriminate|].
    unfold escape_dec_max.
    destruct (N.ltb_spec 255 ((c1 - 48) * 100 + (c2 - 48) * 10 + (c3 - 48))); [discriminate|].
    intros E; injection E as <- <-. cbn [length]. split; lia.
  - destruct (c1 =? sym_bracket).
    + destruct il; [|discriminate]. intros E; injection E as <- <-. unfold sym_bracket. cbn [length]. split; lia.
    + intros E; injection E as <- <-. cbn [length]. split; [apply N.mod_upper_bound; discriminate|lia].
Qed.

Lemma owned_loop_valid fuel : forall cs acc l, wf_bytes acc -> (length acc <= 63)%nat ->
  owned_loop fuel cs acc = Ok l -> wf_bytes l /\ (length l <= 63)%nat.
Proof.
  induction fuel as [|f IH]; intros cs acc l Hw Hl; [discriminate|]. cbn [owned_loop].
  destruct cs as [|ch r]; [intros E; injection E as <-; auto|].
  unfold olabel_full_ge, olabel_full_lim. cbn [exceeds].
  destruct (Nat.leb_spec 63 (length acc)); [discriminate|].
  destruct (in_ranges ch olabel_plain_ranges) eqn:R.
  - apply IH; [|rewrite app_length; cbn [length]; lia].
    apply wf_bytes_app. split; [exact Hw|]. repeat constructor.
    unfold in_ranges, olabel_plain_ranges in R. cbn [existsb fst snd] in R.
    rewrite !orb_true_iff, !andb_true_iff, !N.leb_le in R. lia.
  - destruct (ch =? backslash); [|discriminate].
    destruct (parse_escape r (0 <? length acc)%nat) as [[b r']|e|p|] eqn:E; try discriminate.
    destruct (parse_escape_octet _ _ _ _ E) as [Hb _].
    apply IH; [|rewrite app_length; cbn [length]; lia].
    apply wf_bytes_app. split; [exact Hw|]. repeat constructor. exact Hb.
Qed.

Theorem owned_label_valid cs l : owned_label_from_chars cs = Ok l -> wf_bytes l /\ (length l <= 63)%nat.
Proof. apply owned_loop_valid; [constructor|cbn; lia]. Qed.

Example owned_label_examples :
  owned_label_from_chars [119; 92; 46; 92; 48; 48; 55]%N = Ok [119; 46; 7]%N /\
  owned_label_from_chars [119; 46]%N = Err T_NonAscii /\ owned_label_from_chars [92; 91]%N = Err T_BinaryLabel /\
  owned_label_from_chars [97; 92; 91]%N = Ok [97; 91]%N /\ owned_label_from_chars (repeat 97%N 64) = Err E_LongLabel /\
  owned_label_from_chars [92; 233]%N = Ok [233]%N /\ owned_label_from_chars [92; 128512]%N = Ok [0]%N.
Proof. vm_compute. repeat split; reflexivity. Qed.

(* Display for UncertainName and back through UncertainName::from_chars (FromStr,
   serde): a relative name always; an absolute name unless it is the root and
   the source does not special-case it *)
Lemma first_not_dot l rest : valid_label l -> first_is_dot (display_label l ++ rest) = false.
Proof.
  intros [[L1 L2] L3]. destruct l as [|b0 l']; [cbn in L1; lia|]. inversion L3; subst.
  unfold display_label. cbn [flat_map]. rewrite <- app_assoc.
  destruct (sym_display_octet b0 (flat_map display_octet l' ++ rest)) as (s & S1 & _ & S3 & _); [assumption|].
  unfold first_is_dot. rewrite S1. exact S3.
Qed.

Theorem uncertain_display_parse_roundtrip n :
  (valid_rel n -> uncertain_from_chars None (display_uncertain false n) = Ok (false, wire_rel n)) /\
  (valid_abs n -> n <> [] \/ uncertain_display_root_special && uncertain_from_chars_root_special = true ->
     uncertain_from_chars None (display_uncertain true n) = Ok (true, wire_abs n)).
Proof.
  split.
  - intros Hn. unfold uncertain_from_chars, display_uncertain, display_relative.
    destruct n as [|l n']; [rewrite andb_false_r; reflexivity|].
    destruct (text_fresh l n' Hn) as (st' & E & _ & F & I). rewrite display_labels_cons in *.
    rewrite first_not_dot by (destruct Hn as [Hv _]; inversion Hv; assumption). rewrite andb_false_r.
    unfold uncertain_from_chars_plain. rewrite E, I. cbn [orb]. rewrite F. reflexivity.
  - intros [Hv Hl] Hk. unfold uncertain_from_chars, display_uncertain.
    destruct n as [|l n'].
    + destruct Hk as [Hk|Hk]; [congruence|]. apply andb_true_iff in Hk as [K1 K2]. rewrite K1, K2. reflexivity.
    + rewrite (andb_false_r uncertain_display_root_special). unfold display_name. rewrite display_labels_cons, <- app_assoc.
      inversion Hv as [|? ? L Hv']; subst.
      rewrite first_not_dot by exact L. rewrite andb_false_r. unfold uncertain_from_chars_plain.
      destruct (text_names n' [] [] l b_init (S (length (display_label l ++ (tail_text n' ++ [sym_dot])))) [sym_dot])
        as (f' & st' & cl' & lastl & E & F & C & R); auto; [constructor|apply L|reflexivity|].
      rewrite E. cbn [app] in C.
      destruct f' as [|[|f3]]; [cbn in F; lia|cbn in F; lia|].
      assert (Hall : Forall valid_label (cl' ++ [lastl])) by (rewrite C; exact Hv).
      apply Forall_app in Hall as [Hcl' Hlast]. inversion Hlast as [|? ? Hlast' _]; subst.
      destruct (text_dot cl' lastl st' (S f3) [] Hcl' Hlast' R) as (st2 & E2 & R2). rewrite E2. rewrite C in R2.
      unfold repr in R2. cbn [mkopen opn closed] in R2. subst st2. cbn [append_syms sym_next in_label head buf orb].
      change (is_nil (wire_rel (l :: n'))) with false. cbn iota.
      rewrite into_name_closed by (split; [constructor; assumption|exact Hl]). reflexivity.
Qed.

Theorem uncertain_root_display_refuted : uncertain_display_root_special && uncertain_from_chars_root_special = false ->
  uncertain_from_chars None (display_uncertain true []) = Err T_EmptyLabel.
Proof.
  intros H. unfold display_uncertain, uncertain_from_chars. apply andb_false_iff in H as [H|H]; rewrite H.
  - destruct uncertain_from_chars_root_special; reflexivity.
  - destruct uncertain_display_root_special; reflexivity.
Qed.

Theorem serde_rel_absolute_refuted : serde_rel_checks_absolute = false ->
  serde_de_rel None [97; 46]%N = Ok [1; 97]%N /\ rel_from_chars None [97; 46]%N = Err T_AbsoluteName.
Proof. intros H. unfold serde_de_rel. rewrite H. split; reflexivity. Qed.

(* both special cases are in the source (T1): the round trip holds for every name, the root included *)
Theorem uncertain_display_parse_roundtrip_full n : valid_abs n ->
  uncertain_from_chars None (display_uncertain true n) = Ok (true, wire_abs n) /\
  uncertain_from_chars None (display_uncertain false n) = Ok (false, wire_rel n).
Proof.
  intros Hv. destruct (uncertain_display_parse_roundtrip n) as [H1 H2]. split; [|apply H1; exact Hv].
  apply H2; [exact Hv|]. right. reflexivity.
Qed.

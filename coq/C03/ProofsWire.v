(* C03 -- the validators accept exactly the wire forms of valid names. *)
From Coq Require Import NArith List Bool Arith Lia.
From Coq Require Import ZifyN ZifyNat.
From DV Require Import Base.Outcome Base.Bytes Base.Names C03.Gen C03.Model C03.ModelWire C03.Spec C03.ProofsBuilder.
Import ListNotations.

Lemma split_from_ok b l tail : wf_bytes b -> split_from b = Ok (l, tail) ->
  b = wire_label l ++ tail /\ wf_bytes tail /\ if is_root l then l = [] else valid_label l.
Proof.
  unfold split_from. destruct b as [|h t]; [discriminate|]. intros Hw.
  unfold split_normal_hi, split_end_add, split_ext_lo, split_ext_hi, split_ptr_lo, split_ptr_hi, split_ptr_min_len.
  destruct (N.leb_spec h 63).
  - destruct (Nat.ltb_spec (length (h :: t)) (N.to_nat h + 1)); [discriminate|].
    intros E. injection E as <- <-. cbn [length] in *.
    replace (N.to_nat h + 1 - 1)%nat with (N.to_nat h) by lia.
    inversion Hw as [|? ? Hh Ht]; subst.
    assert (Hl : length (firstn (N.to_nat h) t) = N.to_nat h) by (apply firstn_length_le; lia).
    assert (Ht' : Forall (fun b => (b < 256)%N) (firstn (N.to_nat h) t ++ skipn (N.to_nat h) t))
      by (rewrite firstn_skipn; exact Ht).
    apply Forall_app in Ht' as [A B]. split; [|split; [exact B|]].
    + unfold wire_label. rewrite Hl, N2Nat.id. cbn [app]. rewrite firstn_skipn. reflexivity.
    + destruct (firstn (N.to_nat h) t); [reflexivity|]. split; [cbn [length] in *; lia|exact A].
  - destruct ((64 <=? h)%N && (h <=? 127)%N); [discriminate|].
    destruct ((192 <=? h)%N && (h <=? 255)%N); [|discriminate].
    destruct (length (h :: t) <? 2)%nat; discriminate.
Qed.

Lemma split_from_wire l rest : (length l <= 63)%nat ->
  split_from (wire_label l ++ rest) = Ok (l, rest).
Proof.
  intros Hl. unfold wire_label, split_from. cbn [app].
  unfold split_normal_hi, split_end_add.
  destruct (N.leb_spec (N.of_nat (length l)) 63); [|lia].
  rewrite Nat2N.id. cbn [length]. rewrite app_length.
  destruct (Nat.ltb_spec (S (length l + length rest)) (length l + 1)); [lia|].
  replace (length l + 1 - 1)%nat with (length l) by lia.
  rewrite firstn_app, firstn_all, Nat.sub_diag, skipn_app, skipn_all, Nat.sub_diag.
  cbn [firstn skipn app]. rewrite app_nil_r. reflexivity.
Qed.

Lemma wire_abs_cons_label l n : wire_abs (l :: n) = wire_label l ++ wire_abs n.
Proof. unfold wire_abs, wire_rel. cbn [map concat]. rewrite <- app_assoc. reflexivity. Qed.

Lemma valid_not_root l : valid_label l -> is_root l = false.
Proof. intros [[H _] _]. destruct l; [cbn in H; lia|reflexivity]. Qed.

Lemma abs_loop_sound f : forall b, wf_bytes b -> abs_loop f b = Ok tt ->
  exists n, Forall valid_label n /\ b = wire_abs n.
Proof.
  induction f as [|f IH]; intros b Hw H; [discriminate|]. cbn [abs_loop] in H.
  destruct (split_from b) as [[l tail]|e|p|] eqn:E; try discriminate.
  destruct (split_from_ok b l tail Hw E) as (-> & Hwt & Hl). destruct (is_root l).
  - subst l. destruct tail; [|discriminate]. exists []. split; [constructor|reflexivity].
  - destruct (is_empty tail); [discriminate|].
    destruct (IH tail Hwt H) as (n & Hn & ->). exists (l :: n).
    split; [constructor; assumption|symmetry; apply wire_abs_cons_label].
Qed.

Lemma abs_loop_complete n : forall f, Forall valid_label n -> (length n < f)%nat ->
  abs_loop f (wire_abs n) = Ok tt.
Proof.
  induction n as [|l n IH]; intros f Hv Hf; (destruct f as [|f]; [lia|]).
  - reflexivity.
  - inversion Hv as [|? ? Hl Hv']; subst. cbn [abs_loop].
    rewrite wire_abs_cons_label, split_from_wire, (valid_not_root l Hl) by apply Hl.
    assert (He : is_empty (wire_abs n) = false) by (unfold wire_abs; destruct (wire_rel n); reflexivity).
    rewrite He. apply IH; [assumption|cbn [length] in Hf; lia].
Qed.

Lemma labels_le_wire (n : name) : (length n <= wire_len n)%nat.
Proof. induction n; cbn [length wire_len]; lia. Qed.

Theorem check_abs_iff b : wf_bytes b ->
  (check_abs b = Ok tt <-> exists n, valid_abs n /\ b = wire_abs n).
Proof.
  intros Hw. unfold check_abs, check_abs_ge, check_abs_lim, name_max. rewrite exceeds_gt. split.
  - destruct (Nat.ltb_spec 255 (length b)) as [Hgt|Hle]; [discriminate|]. intros H.
    destruct (abs_loop_sound _ b Hw H) as (n & Hn & ->). exists n. split; [|reflexivity].
    split; [exact Hn|]. rewrite wire_abs_length in *. lia.
  - intros (n & [Hn Hl] & ->). rewrite wire_abs_length.
    destruct (Nat.ltb_spec 255 (S (wire_len n))); [lia|].
    apply abs_loop_complete; [exact Hn|]. pose proof (labels_le_wire n). lia.
Qed.

Lemma rel_loop_sound f : forall b, wf_bytes b -> rel_loop f b = Ok tt ->
  exists n, Forall valid_label n /\ b = wire_rel n.
Proof.
  induction f as [|f IH]; intros b Hw H; [discriminate|]. cbn [rel_loop] in H.
  destruct b as [|h t]; [exists []; split; [constructor|reflexivity]|]. cbn [is_empty] in H.
  destruct (split_from (h :: t)) as [[l tail]|e|p|] eqn:E; try discriminate.
  destruct (split_from_ok _ l tail Hw E) as (Hb & Hwt & Hl). destruct (is_root l); [discriminate|].
  destruct (IH tail Hwt H) as (n & Hn & ->). exists (l :: n). split; [constructor; assumption|exact Hb].
Qed.

Lemma rel_loop_complete n : forall f, Forall valid_label n -> (length n < f)%nat ->
  rel_loop f (wire_rel n) = Ok tt.
Proof.
  induction n as [|l n IH]; intros f Hv Hf; (destruct f as [|f]; [lia|]).
  - reflexivity.
  - inversion Hv as [|? ? Hl Hv']; subst. cbn [rel_loop].
    change (wire_rel (l :: n)) with (wire_label l ++ wire_rel n).
    change (is_empty (wire_label l ++ wire_rel n)) with false. cbn iota.
    rewrite split_from_wire, (valid_not_root l Hl) by apply Hl.
    apply IH; [assumption|cbn [length] in Hf; lia].
Qed.

Theorem check_rel_iff b : wf_bytes b ->
  (check_rel b = Ok tt <-> exists n, valid_rel n /\ b = wire_rel n).
Proof.
  intros Hw. unfold check_rel, check_rel_ge, check_rel_lim. rewrite exceeds_gt. split.
  - destruct (Nat.ltb_spec 254 (length b)) as [Hgt|Hle]; [discriminate|]. intros H.
    destruct (rel_loop_sound _ b Hw H) as (n & Hn & ->). exists n. split; [|reflexivity].
    split; [exact Hn|]. rewrite wire_rel_length in *. lia.
  - intros (n & [Hn Hl] & ->). rewrite wire_rel_length.
    destruct (Nat.ltb_spec 254 (wire_len n)); [lia|].
    apply rel_loop_complete; [exact Hn|]. pose proof (labels_le_wire n). lia.
Qed.

Lemma split_from_shorter b :
  match split_from b with Ok (_, tail) => (length tail < length b)%nat | Err _ => True | _ => False end.
Proof.
  unfold split_from. destruct b as [|h t]; [exact I|]. destruct (h <=? split_normal_hi)%N.
  - destruct (Nat.ltb_spec (length (h :: t)) (N.to_nat h + split_end_add)); [exact I|].
    rewrite skipn_length. cbn [length]. lia.
  - destruct (_ && _); [exact I|]. destruct (_ && _); [|exact I]. destruct (_ <? _)%nat; exact I.
Qed.

Lemma abs_loop_total f : forall b, (length b < f)%nat -> no_panic (abs_loop f b).
Proof.
  induction f as [|f IH]; intros b Hf; [lia|]. cbn [abs_loop]. pose proof (split_from_shorter b) as Hs.
  destruct (split_from b) as [[l tail]|e|p|]; try exact I; try contradiction.
  destruct (is_root l); [destruct (is_empty tail); exact I|]. destruct (is_empty tail); [exact I|]. apply IH. lia.
Qed.

Lemma rel_loop_total f : forall b, (length b < f)%nat -> no_panic (rel_loop f b).
Proof.
  induction f as [|f IH]; intros b Hf; [lia|]. cbn [rel_loop]. pose proof (split_from_shorter b) as Hs.
  destruct (is_empty b); [exact I|].
  destruct (split_from b) as [[l tail]|e|p|]; try exact I; try contradiction.
  destruct (is_root l); [exact I|]. apply IH. lia.
Qed.

Theorem check_total b : no_panic (check_abs b) /\ no_panic (check_rel b).
Proof.
  split; [unfold check_abs|unfold check_rel]; destruct (exceeds _ _ _); try exact I;
    [apply abs_loop_total|apply rel_loop_total]; lia.
Qed.

(* compose -> from_octets: the wire form of a valid name is accepted and decodes
   to the same labels *)
Theorem wire_roundtrip n : valid_abs n ->
  check_abs (wire_abs n) = Ok tt /\ decode_abs (wire_abs n) = inl (Some (n, [])) /\
  check_rel (wire_rel n) = Ok tt.
Proof.
  intros Hv. assert (Hw : wf_bytes (wire_abs n)).
  { destruct Hv as [Hl _]. unfold wire_abs. apply wf_bytes_app. split; [|repeat constructor; lia].
    unfold wire_rel. induction Hl as [|l n' [[H1 H2] Hb] Hl IH]; [constructor|].
    cbn [map concat]. apply wf_bytes_app. split; [|exact IH]. constructor; [lia|exact Hb]. }
  split; [apply check_abs_iff; [exact Hw|eauto]|]. split.
  - rewrite <- (app_nil_r (wire_abs n)). apply decode_wire_abs. exact Hv.
  - apply check_rel_iff; [|exists n; split; [exact Hv|reflexivity]].
    unfold wire_abs in Hw. apply wf_bytes_app in Hw. apply Hw.
Qed.

Theorem label_from_slice_iff s : label_from_slice s = Ok s <-> (length s <= 63)%nat.
Proof.
  unfold label_from_slice, label_from_slice_ge, label_from_slice_lim, label_max. rewrite exceeds_gt.
  destruct (Nat.ltb_spec 63 (length s)); split; intros; try lia; try discriminate; reflexivity.
Qed.

Lemma chain_new_ok a b : chain_new a b = Ok tt <-> (a + b <= 255)%nat.
Proof.
  unfold chain_new, chain_ge, chain_lim. rewrite exceeds_gt.
  destruct (Nat.ltb_spec 255 (a + b)); split; intros; try lia; try discriminate; reflexivity.
Qed.

Lemma valid_app l r : valid_rel l -> valid_rel r -> (wire_len l + wire_len r <= 254)%nat -> valid_rel (l ++ r).
Proof. intros [Hl _] [Hr _] H. split; [apply Forall_app; split; assumption|rewrite wire_len_app; exact H]. Qed.

Theorem chain_abs_valid l r : valid_rel l -> valid_abs r ->
  chain_new (wire_len l) (wire_len r + 1) = Ok tt -> valid_abs (l ++ r).
Proof. intros Hl Hr H. apply chain_new_ok in H. apply valid_app; [assumption..|lia]. Qed.

Theorem chain_rel_valid l r : valid_rel l -> valid_rel r ->
  chain_new (wire_len l) (wire_len r) = Ok tt -> chain_relative_255 l r = false -> valid_rel (l ++ r).
Proof.
  intros Hl Hr H Hk. apply chain_new_ok in H. apply Nat.eqb_neq in Hk. apply valid_app; [assumption..|lia].
Qed.

Definition lab9w : bytes := [49;50;51;52;53;54;55;56;57]%N.
Theorem chain_limit_refuted :
  let l := repeat lab9w 25 in let r := [[49;50;51;52]%N] in
  valid_rel l /\ valid_rel r /\ chain_new (wire_len l) (wire_len r) = Ok tt /\
  chain_relative_255 l r = true /\ ~ valid_rel (l ++ r).
Proof.
  cbv zeta. repeat split.
  - apply Forall_forall. intros x Hx. apply repeat_spec in Hx. subst x. split; [cbn; lia|repeat constructor].
  - vm_compute. lia.
  - repeat constructor.
  - vm_compute. lia.
  - intros [_ H]. vm_compute in H. lia.
Qed.

Example wire_examples :
  check_abs [3;119;119;119;0]%N = Ok tt /\ check_abs [3;119;119;119]%N = Err W_RelativeName /\
  check_abs [0;0]%N = Err W_TrailingData /\ check_abs [64;1]%N = Err W_BadLabel /\
  check_abs [192;1]%N = Err W_CompressedName /\ check_abs [5;1]%N = Err W_ShortInput /\
  check_rel [1;97;0]%N = Err W_AbsoluteName /\ check_rel [1;97]%N = Ok tt /\ check_rel [] = Ok tt /\
  check_abs [] = Err W_ShortInput /\ chain_new 250 5 = Ok tt /\ chain_new 250 6 = Err W_LongChain.
Proof. vm_compute. repeat split; reflexivity. Qed.

(* the length tests at the other sites that produce names (T1 items):
   ParsedName::parse_ref (both phases; s = octets of the non-root labels read
   so far), Name::parse_name_len (whole length), zone-file convert_label (c =
   content octets written, on the fast and on the slow path) and scan_name
   (write = relative length after a dot) enforce the same limits as the
   validators *)
Theorem message_zonefile_limits : forall s c : nat,
  (exceeds parse_ref_phase1_ge s parse_ref_phase1_lim = false <-> (s + 1 <= name_max)%nat) /\
  (exceeds parse_ref_phase2_ge s parse_ref_phase2_lim = false <-> (s + 1 <= name_max)%nat) /\
  (exceeds name_parse_ge s name_parse_lim = false <-> (s <= name_max)%nat) /\
  (exceeds zf_label_fast_ge (1 + c) (1 + zf_label_latest_add) = false <-> (c <= label_max)%nat) /\
  (exceeds zf_label_slow_ge (1 + c) (1 + zf_label_latest_add) = false <-> (c <= label_max)%nat) /\
  (exceeds zf_name_ge s zf_name_lim = false <-> (s <= check_rel_lim)%nat) /\
  ((s =? c + zf_empty_label_add)%nat = true <-> s = S c).
Proof.
  intros s c.
  unfold parse_ref_phase1_ge, parse_ref_phase1_lim, parse_ref_phase2_ge, parse_ref_phase2_lim,
    name_parse_ge, name_parse_lim, zf_label_fast_ge, zf_label_slow_ge, zf_label_latest_add,
    zf_name_ge, zf_name_lim, name_max, label_max, check_rel_lim, zf_empty_label_add.
  do 6 (split; [rewrite exceeds_false; cbv iota; lia|]). rewrite Nat.eqb_eq. lia.
Qed.

Lemma unc_loop_true f len : forall b, unc_loop f len b = Ok true <-> abs_loop f b = Ok tt.
Proof.
  induction f as [|f IH]; intros b; cbn [unc_loop abs_loop]; [split; discriminate|].
  destruct (split_from b) as [[l tail]|e|p|]; try (split; discriminate).
  destruct (is_root l).
  - destruct (is_empty tail); split; intros; try discriminate; reflexivity.
  - destruct (is_empty tail); [|apply IH].
    destruct (uncertain_rel_checked && _); split; discriminate.
Qed.

Lemma unc_loop_false f len : forall b, wf_bytes b -> unc_loop f len b = Ok false ->
  (exists n, Forall valid_label n /\ n <> [] /\ b = wire_rel n) /\
  (uncertain_rel_checked = true -> exceeds uncertain_rel_ge len uncertain_rel_lim = false).
Proof.
  induction f as [|f IH]; intros b Hw H; [discriminate|]. cbn [unc_loop] in H.
  destruct (split_from b) as [[l tail]|e|p|] eqn:E; try discriminate.
  destruct (split_from_ok b l tail Hw E) as (-> & Hwt & Vl).
  destruct (is_root l); [destruct (is_empty tail); discriminate|].
  destruct (is_empty tail) eqn:Et.
  - destruct tail; [|discriminate]. split.
    + exists [l]. split; [constructor; [exact Vl|constructor]|]. split; [discriminate|].
      unfold wire_rel. cbn [map concat]. reflexivity.
    + intros Hc. rewrite Hc in H. cbn [andb] in H. destruct (exceeds _ _ _); [discriminate|reflexivity].
  - destruct (IH tail Hwt H) as [(n & Hn & _ & ->) Hc]. split; [|exact Hc].
    exists (l :: n). split; [constructor; assumption|]. split; [discriminate|reflexivity].
Qed.

Theorem uncertain_absolute_iff b : wf_bytes b ->
  (uncertain_check b = Ok true <-> exists n, valid_abs n /\ b = wire_abs n).
Proof.
  intros Hw. rewrite <- (check_abs_iff b Hw). unfold uncertain_check, check_abs.
  unfold uncertain_ge, uncertain_lim, check_abs_ge, check_abs_lim, name_max.
  destruct (exceeds false (length b) 255); [split; discriminate|]. apply unc_loop_true.
Qed.

(* a relative result is a valid, non-empty relative name -- unless it is the
   class uncertain_relative_255 and the source does not test the relative length *)
Theorem uncertain_relative_valid b : wf_bytes b -> uncertain_check b = Ok false ->
  uncertain_rel_checked = true \/ uncertain_relative_255 b = false ->
  exists n, valid_rel n /\ n <> [] /\ b = wire_rel n.
Proof.
  intros Hw H Hk. unfold uncertain_check, uncertain_ge, uncertain_lim, name_max in H. rewrite exceeds_gt in H.
  destruct (Nat.ltb_spec 255 (length b)) as [Hgt|Hle]; [discriminate|].
  destruct (unc_loop_false _ _ b Hw H) as [(n & Hn & Hne & ->) Hc].
  exists n. split; [|auto]. split; [exact Hn|]. rewrite wire_rel_length in *.
  destruct Hk as [Hk|Hk].
  - apply Hc, exceeds_false in Hk. unfold uncertain_rel_ge, uncertain_rel_lim in Hk. cbv iota in Hk. lia.
  - unfold uncertain_relative_255 in Hk. rewrite wire_rel_length in Hk. apply Nat.eqb_neq in Hk. lia.
Qed.

Definition lab63 (c : N) : bytes := repeat c 63.
Definition unc_witness : name := [lab63 97; lab63 97; lab63 97; repeat 98%N 62].

(* the source tests the relative length (T1: uncertain_rel_checked), so every
   relative result is valid; 63a.63a.63a.62b (255 octets, no root) is refused *)
Theorem uncertain_relative_valid_full b : wf_bytes b -> uncertain_check b = Ok false ->
  exists n, valid_rel n /\ n <> [] /\ b = wire_rel n.
Proof. intros Hw H. apply uncertain_relative_valid; [exact Hw|exact H|left; reflexivity]. Qed.

Example uncertain_witness_refused :
  length (wire_rel unc_witness) = 255%nat /\ uncertain_check (wire_rel unc_witness) = Err W_LongName /\
  uncertain_check [1; 97]%N = Ok false /\ uncertain_check [1; 97; 0]%N = Ok true /\ uncertain_check [] = Err W_ShortInput.
Proof. vm_compute. repeat split; reflexivity. Qed.

Theorem chain_uncertain_valid l r : valid_rel l -> valid_abs r ->
  chain_new_uncertain true (wire_len l) (wire_len r + 1) = Ok tt -> valid_abs (l ++ r).
Proof. exact (chain_abs_valid l r). Qed.

Theorem chain_root_spec n : valid_rel n -> n_chain_root (wire_rel n) = Ok (wire_abs n) /\ valid_abs n.
Proof.
  intros Hv. split; [|exact Hv]. unfold n_chain_root.
  rewrite (proj2 (chain_new_ok _ 1)); [reflexivity|]. rewrite wire_rel_length. destruct Hv. lia.
Qed.

(* a consequence of the known 255-octet relative names: chain_root panics on them *)
Theorem chain_root_255_panics w : length w = 255%nat -> n_chain_root w = Panic 14.
Proof. intros H. unfold n_chain_root, chain_new, chain_ge, chain_lim, name_max. rewrite H. reflexivity. Qed.

Theorem unc_chain_valid l r w : valid_abs r ->
  (valid_abs l /\ unc_chain true (wire_abs l) (wire_abs r) = Ok w -> w = wire_abs l) /\
  (valid_rel l /\ unc_chain false (wire_rel l) (wire_abs r) = Ok w -> w = wire_abs (l ++ r) /\ valid_abs (l ++ r)).
Proof.
  intros Hr. split.
  - intros [_ H]. unfold unc_chain, chain_new_uncertain in H. cbn in H. injection H as <-. reflexivity.
  - intros [Hl H]. unfold unc_chain in H. cbn [negb] in H.
    destruct (chain_new_uncertain true (length (wire_rel l)) (length (wire_abs r))) as [[]|e|p|] eqn:E; try discriminate.
    cbn [bind] in H. injection H as <-. rewrite wire_rel_length, wire_abs_length in E.
    split.
    + unfold wire_abs. rewrite wire_rel_app, app_assoc. reflexivity.
    + apply chain_uncertain_valid; auto. replace (wire_len r + 1)%nat with (S (wire_len r)) by lia. exact E.
Qed.

(* a chain of three parts ending in an absolute name is valid -- also when
   the inner relative chain is the known 255-octet class: the outer test then
   refuses it *)
Theorem chain3_abs_valid a b c : valid_rel a -> valid_rel b -> valid_abs c ->
  chain3 (wire_len a) (wire_len b) (wire_len c + 1) = Ok tt -> valid_abs (a ++ b ++ c).
Proof.
  intros Ha Hb Hc H. apply bind_ok in H as ([] & _ & H). apply chain_new_ok in H.
  apply valid_app; [assumption|apply valid_app; [assumption..|lia]|rewrite wire_len_app; lia].
Qed.

Theorem constants_valid :
  check_abs const_root = Ok tt /\ const_root = wire_abs [] /\ const_root_slice = const_root /\
  const_from_symbols_root = const_root /\
  check_rel const_empty = Ok tt /\ const_empty = wire_rel [] /\ const_empty_slice = const_empty /\
  check_rel const_wildcard = Ok tt /\ const_wildcard = wire_rel [[42%N]] /\ const_wildcard_slice = const_wildcard.
Proof. vm_compute. repeat split; reflexivity. Qed.

Theorem from_builder_inv w st : wf_bytes w -> b_from_builder w = Ok st -> C03.Spec.Inv st.
Proof.
  intros Hw H. unfold b_from_builder in H. destruct (check_rel w) as [[]|e|p|] eqn:E; try discriminate.
  cbn [bind] in H. injection H as <-.
  apply (check_rel_iff w Hw) in E. destruct E as (n & [Hn Hl] & ->).
  exists (C03.Spec.mk_a n None). split; [reflexivity|]. split; [split; [exact Hn|exact I]|].
  unfold C03.Spec.alen. cbn. lia.
Qed.

Lemma nparse_loop_sound f : forall tmp c len, wf_bytes tmp -> nparse_loop f tmp c = Ok len ->
  exists n rest, Forall valid_label n /\ tmp = wire_abs n ++ rest /\ len = (c + length (wire_abs n))%nat.
Proof.
  induction f as [|f IH]; intros tmp c len Hw H; [discriminate|]. cbn [nparse_loop] in H.
  destruct (is_empty tmp); [discriminate|].
  destruct (split_from tmp) as [[l tail]|e|p|] eqn:E; try discriminate.
  destruct (split_from_ok tmp l tail Hw E) as (-> & Hwt & Hl). destruct (is_root l).
  - subst l. injection H as <-. exists [], tail. split; [constructor|]. split; [reflexivity|]. cbn. lia.
  - destruct (IH tail _ len Hwt H) as (n & rest & Hn & -> & ->).
    exists (l :: n), rest. split; [constructor; assumption|]. split.
    + rewrite wire_abs_cons_label, <- app_assoc. reflexivity.
    + rewrite !wire_abs_length. cbn [wire_len]. lia.
Qed.

Theorem name_parse_valid b w : wf_bytes b -> name_parse b = Ok w ->
  exists n rest, valid_abs n /\ w = wire_abs n /\ b = w ++ rest.
Proof.
  intros Hw H. unfold name_parse in H.
  destruct (nparse_loop (S (length b)) b 0) as [len|e|p|] eqn:E; try discriminate. cbn [bind] in H.
  unfold name_parse_ge, name_parse_lim, name_max in H. rewrite exceeds_gt in H.
  destruct (Nat.ltb_spec 255 len); [discriminate|]. injection H as <-.
  destruct (nparse_loop_sound _ _ _ _ Hw E) as (n & rest & Hn & -> & ->). cbn [Nat.add] in *.
  exists n, rest. rewrite take_app_length. split; [|auto]. split; [exact Hn|]. rewrite wire_abs_length in *. lia.
Qed.

(* C03 -- builder, part 2: the invariant over operation lists, the known class
   is exact, errors, finish / into_name / append_origin, witnesses. *)
From Coq Require Import NArith List Bool Arith Lia.
From Coq Require Import ZifyN ZifyNat.
From DV Require Import Base.Outcome Base.Bytes Base.Names C03.Gen C03.Model C03.Spec C03.ProofsBuilder.
Import ListNotations.

Lemma gap_repr cap a st n : length (buf st) = alen a ->
  (new_label_at_254 cap st n = true <-> a_gap cap a n).
Proof.
  intros H. unfold new_label_at_254, a_gap, fits. rewrite H, <- (Nat.add_assoc (alen a)), Nat.add_1_r. split.
  - intros T. apply andb_prop in T as [T T4]. apply andb_prop in T as [T T3]. apply andb_prop in T as [T1 T2].
    apply Nat.leb_le in T1, T2. apply Nat.eqb_eq in T3. auto.
  - intros ((T1 & T2) & T3 & T4). apply Nat.leb_le in T1, T2. apply Nat.eqb_eq in T3. rewrite T1, T2, T3. exact T4.
Qed.

Lemma gap_step_repr cap a st o : repr a st -> (gap_step cap st o = true <-> a_gap_step cap a o).
Proof.
  intros Hr. pose proof (repr_len a st Hr) as Hlen.
  destruct o; cbn [gap_step a_gap_step]; try (split; [discriminate|contradiction]).
  - rewrite (repr_head a st Hr). destruct (opn a); [split; [discriminate|contradiction]|apply gap_repr, Hlen].
  - apply gap_repr. rewrite alen_aend. exact Hlen.
Qed.

Lemma step_len cap a st o : repr a st -> (alen a <= 254)%nat ->
  (gap_step cap st o = true <-> (254 < alen (fst (a_step cap a o)))%nat).
Proof. intros Hr Hl. rewrite (gap_step_repr cap a st o Hr). apply a_step_ok, Hl. Qed.

Lemma step_bound cap a st o : repr a st -> (alen a <= 254)%nat ->
  gap_step cap st o = false -> (alen (fst (a_step cap a o)) <= 254)%nat.
Proof. intros Hr Hl Hg. apply Nat.nlt_ge. intros L. apply (step_len cap a st o Hr Hl) in L. congruence. Qed.

Lemma avalid_init : avalid a_init.
Proof. split; [apply awf_init|cbn; lia]. Qed.

Lemma inv_init : Inv b_init.
Proof. exists a_init. split; [exact repr_init|exact avalid_init]. Qed.

Lemma step_inv cap st o : Inv st -> wf_op o -> gap_step cap st o = false -> Inv (fst (step cap st o)).
Proof.
  intros (a & Hr & Hw & Hl) Ho Hg. destruct (step_refines cap a st o Hw Hr Ho) as (R1 & _ & R3 & _).
  exists (fst (a_step cap a o)). split; [exact R1|]. split; [exact R3|]. apply (step_bound cap a st o); assumption.
Qed.

Lemma inv_run cap ops : forall a st, avalid a -> repr a st -> Forall wf_op ops ->
  hits_from cap st ops = false ->
  repr (a_run cap a ops) (run cap st ops) /\ avalid (a_run cap a ops).
Proof.
  induction ops as [|o ops IH]; intros a st [Hw Hl] Hr Ho Hh; [cbn; split; [assumption|split; assumption]|].
  inversion Ho as [|? ? Ho1 Ho2]; subst. cbn [hits_from] in Hh. apply orb_false_iff in Hh as [Hg Hh].
  destruct (step_refines cap a st o Hw Hr Ho1) as (R1 & R2 & R3 & R4).
  cbn [a_run run fold_left]. apply IH; auto.
  split; [exact R3|]. apply (step_bound cap a st o); assumption.
Qed.

Theorem builder_inv cap ops : Forall wf_op ops -> hits_relname_255 cap ops = false ->
  Inv (run cap b_init ops).
Proof.
  intros Ho Hh. exists (a_run cap a_init ops).
  apply (inv_run cap ops a_init b_init avalid_init repr_init Ho Hh).
Qed.

Theorem gap_exact cap st o : Inv st -> wf_op o ->
  (gap_step cap st o = true <-> (254 < length (buf (fst (step cap st o))))%nat).
Proof.
  intros (a & Hr & Hw & Hl) Ho. destruct (step_refines cap a st o Hw Hr Ho) as (R1 & _).
  rewrite (repr_len _ _ R1). apply step_len; assumption.
Qed.

Definition same_but_placeholder (st st' : bstate) : Prop :=
  st' = st \/ exists h v, head st = Some h /\ st' = mk_b (set_nth h (buf st) v) (Some h).

Lemma repr_same_but_placeholder a st st' : repr a st -> repr a st' -> same_but_placeholder st st'.
Proof.
  unfold repr, same_but_placeholder. destruct (opn a) as [c|].
  - intros [ph ->] [ph' ->]. right. exists (wire_len (closed a)), ph'. cbn [head buf]. split; [reflexivity|].
    rewrite <- (wire_rel_length (closed a)), set_nth_app. reflexivity.
  - intros -> ->. left. reflexivity.
Qed.

(* "returns an error and leaves the builder usable": after any error (limit
   or ShortBuf, any capacity) the builder still satisfies the invariant; for
   push / append_slice / append_label / append_name it denotes the same
   abstract state as before (the only octet that may differ is the
   placeholder of the open label, which no operation reads) *)
Theorem error_leaves_usable cap st o st' e : Inv st -> wf_op o ->
  step cap st o = (st', Err e) ->
  Inv st' /\
  (atomic_op o = true ->
     (forall a, awf a -> repr a st -> repr a st') /\ same_but_placeholder st st').
Proof.
  intros (a & Hr & Hw & Hl) Ho Hs.
  assert (Hsame : forall a0, awf a0 -> repr a0 st ->
            snd (a_step cap a0 o) = Err e /\ repr (fst (a_step cap a0 o)) st' /\ awf (fst (a_step cap a0 o))).
  { intros a0 Hw0 Hr0. destruct (step_refines cap a0 st o Hw0 Hr0 Ho) as (R1 & R2 & R3 & _).
    rewrite Hs in R1, R2. auto. }
  split.
  - destruct (Hsame a Hw Hr) as (E & R1 & R3). destruct (a_step_ok cap a o) as (K1 & _ & K3).
    exists (fst (a_step cap a o)). split; [exact R1|]. split; [exact R3|].
    apply Nat.nlt_ge. rewrite <- (K1 Hl). apply (K3 e E).
  - intros At.
    assert (Hrep : forall a0, awf a0 -> repr a0 st -> repr a0 st').
    { intros a0 Hw0 Hr0. destruct (Hsame a0 Hw0 Hr0) as (E & R1 & _).
      destruct (a_step_ok cap a0 o) as (_ & _ & K3). destruct (K3 e E) as (_ & Ks & _).
      rewrite (Ks At) in R1. exact R1. }
    split; [exact Hrep|]. apply (repr_same_but_placeholder a); auto.
Qed.

Theorem same_abstract_same_behaviour cap a st1 st2 o : awf a -> repr a st1 -> repr a st2 -> wf_op o ->
  snd (step cap st1 o) = snd (step cap st2 o) /\
  exists a', awf a' /\ repr a' (fst (step cap st1 o)) /\ repr a' (fst (step cap st2 o)).
Proof.
  intros Hw H1 H2 Ho.
  destruct (step_refines cap a st1 o Hw H1 Ho) as (R1 & R2 & R3 & _).
  destruct (step_refines cap a st2 o Hw H2 Ho) as (Q1 & Q2 & _ & _).
  split; [congruence|]. exists (fst (a_step cap a o)). auto.
Qed.

Theorem unbounded_never_shortbuf st o : Inv st -> wf_op o -> snd (step None st o) <> Err E_ShortBuf.
Proof.
  intros (a & Hr & Hw & Hl) Ho E.
  destruct (step_refines None a st o Hw Hr Ho) as (_ & R2 & _ & _). rewrite R2 in E.
  destruct (a_step_ok None a o) as (_ & _ & K3). destruct (K3 _ E) as (_ & _ & K). exact (K eq_refl eq_refl).
Qed.

Definition final_name (a : astate) : name := closed (aend a).

Lemma final_len a : wire_len (final_name a) = alen a.
Proof. unfold final_name. rewrite <- (alen_closed _ (opn_aend a)). apply alen_aend. Qed.

Lemma final_valid a : avalid a -> valid_rel (final_name a).
Proof. intros [Hw Hl]. split; [apply (awf_aend a Hw)|rewrite final_len; exact Hl]. Qed.

Theorem finish_spec a st : avalid a -> repr a st ->
  b_finish st = Ok (wire_rel (final_name a)) /\ valid_rel (final_name a).
Proof.
  intros Hv Hr. split; [|apply final_valid; exact Hv]. destruct Hv as [Hw _].
  destruct (end_ok a st Hw Hr) as (st1 & E1 & Hr1). unfold b_finish. rewrite E1.
  unfold repr in Hr1. rewrite opn_aend in Hr1. subst st1. reflexivity.
Qed.

Theorem into_name_spec cap a st : avalid a -> repr a st ->
  b_into_name cap st = (if fits cap a 1 then Ok (wire_abs (final_name a)) else Err E_ShortBuf) /\
  valid_abs (final_name a) /\
  decode_abs (wire_abs (final_name a)) = inl (Some (final_name a, [])).
Proof.
  intros Hv Hr. pose proof (final_valid a Hv) as Hf. destruct Hv as [Hw _].
  split; [|split; [exact Hf|]].
  - destruct (end_ok a st Hw Hr) as (st1 & E1 & Hr1). unfold b_into_name. rewrite E1.
    rewrite (raw_append_fits cap (aend a)), fits_aend by (apply repr_len; exact Hr1).
    unfold repr in Hr1. rewrite opn_aend in Hr1. subst st1. cbn [length buf].
    destruct (fits cap a 1); reflexivity.
  - rewrite <- (app_nil_r (wire_abs _)). apply decode_wire_abs. exact Hf.
Qed.

Lemma into_name_closed n : valid_rel n -> b_into_name None (mk_b (wire_rel n) None) = Ok (wire_abs n).
Proof.
  intros [Hv Hl]. assert (Ha : avalid (mk_a n None)).
  { split; [split; [exact Hv|exact I]|]. rewrite alen_closed by reflexivity. exact Hl. }
  apply (into_name_spec None (mk_a n None) _ Ha eq_refl).
Qed.

Lemma origin_labels og : Forall valid_label og ->
  Forall (fun l => (length l < 256)%nat) (og ++ [[]]) /\
  wire_rel (og ++ [[]]) = wire_abs og /\ wire_len (og ++ [[]]) = (wire_len og + 1)%nat.
Proof.
  intros Hv. split; [|split].
  - apply Forall_app. split; [apply valid_labels_short, Hv|]. constructor; [cbn [length]; lia|constructor].
  - rewrite wire_rel_app. reflexivity.
  - rewrite wire_len_app. reflexivity.
Qed.

Theorem append_origin_spec cap a st og : avalid a -> repr a st -> Forall valid_label og ->
  b_append_origin cap st og =
    (if (255 <? alen a + (wire_len og + 1))%nat then Err E_LongName
     else if fits cap a (wire_len og + 1) then Ok (wire_abs (final_name a ++ og))
     else Err E_ShortBuf) /\
  ((alen a + (wire_len og + 1) <= 255)%nat ->
     valid_abs (final_name a ++ og) /\
     decode_abs (wire_abs (final_name a ++ og)) = inl (Some (final_name a ++ og, []))).
Proof.
  intros Hv Hr Ho. pose proof (final_valid a Hv) as [Hf1 Hf2]. pose proof Hv as [Hw Hl].
  destruct (origin_labels og Ho) as (O1 & O2 & O3). pose proof (final_len a) as Hfl.
  split.
  - destruct (end_ok a st Hw Hr) as (st1 & E1 & Hr1). unfold b_append_origin. rewrite E1.
    rewrite (repr_len _ _ Hr1), alen_aend.
    unfold append_origin_ge, append_origin_lim. rewrite exceeds_gt.
    destruct (255 <? alen a + (wire_len og + 1))%nat; [reflexivity|].
    unfold repr in Hr1. rewrite opn_aend in Hr1. subst st1. cbn [buf]. fold (final_name a).
    unfold wire_abs at 1. rewrite wire_rel_app, <- app_assoc. fold (wire_abs og). rewrite <- O2.
    unfold fits. destruct cap as [c|]; [destruct (Nat.leb_spec (alen a + (wire_len og + 1)) c)|].
    + rewrite compose_labels_fits; [reflexivity|exact O1|]. cbn [within]. rewrite wire_rel_length. lia.
    + pose proof (compose_labels_short c (og ++ [[]]) (wire_rel (final_name a))) as Hs.
      destruct (compose_labels _ _ _) as [b f]. cbn [snd] in Hs. rewrite Hs; [reflexivity| |].
      * destruct og; discriminate.
      * rewrite wire_rel_length. lia.
    + rewrite compose_labels_fits; [reflexivity|exact O1|exact I].
  - intros Hle.
    assert (Hva : valid_abs (final_name a ++ og)).
    { split; [apply Forall_app; split; assumption|]. rewrite wire_len_app. lia. }
    split; [exact Hva|]. rewrite <- (app_nil_r (wire_abs _)). apply decode_wire_abs. exact Hva.
Qed.

Theorem finish_valid cap ops : Forall wf_op ops -> hits_relname_255 cap ops = false ->
  exists n, b_finish (run cap b_init ops) = Ok (wire_rel n) /\ valid_rel n /\
            n = final_name (a_run cap a_init ops).
Proof.
  intros Ho Hh. destruct (inv_run cap ops a_init b_init avalid_init repr_init Ho Hh) as [Hr Hv].
  destruct (finish_spec _ _ Hv Hr) as [H1 H2]. eauto.
Qed.

Theorem into_name_valid cap ops : Forall wf_op ops -> hits_relname_255 cap ops = false ->
  exists n, valid_abs n /\ decode_abs (wire_abs n) = inl (Some (n, [])) /\
    (b_into_name cap (run cap b_init ops) = Ok (wire_abs n) \/
     (cap <> None /\ b_into_name cap (run cap b_init ops) = Err E_ShortBuf)).
Proof.
  intros Ho Hh. destruct (inv_run cap ops a_init b_init avalid_init repr_init Ho Hh) as [Hr Hv].
  destruct (into_name_spec cap _ _ Hv Hr) as (H1 & H2 & H3).
  exists (final_name (a_run cap a_init ops)). split; [exact H2|]. split; [exact H3|].
  rewrite H1. unfold fits. destruct cap as [c|]; [|left; reflexivity].
  destruct (_ <=? c)%nat; [left; reflexivity|right; split; [discriminate|reflexivity]].
Qed.

Theorem append_origin_valid cap ops og w : Forall wf_op ops -> hits_relname_255 cap ops = false ->
  Forall valid_label og -> b_append_origin cap (run cap b_init ops) og = Ok w ->
  exists n, w = wire_abs n /\ valid_abs n /\ decode_abs w = inl (Some (n, [])) /\
            n = final_name (a_run cap a_init ops) ++ og.
Proof.
  intros Ho Hh Hog Hw. destruct (inv_run cap ops a_init b_init avalid_init repr_init Ho Hh) as [Hr Hv].
  destruct (append_origin_spec cap _ _ og Hv Hr Hog) as (H1 & H2).
  rewrite H1 in Hw. destruct (Nat.ltb_spec 255 (alen (a_run cap a_init ops) + (wire_len og + 1))); [discriminate|].
  destruct (fits cap _ _); [|discriminate]. injection Hw as <-.
  destruct (H2 ltac:(lia)) as [V D]. eauto.
Qed.

Definition st250 : bstate := run None b_init (repeat (OLabel lab9) 25).

Theorem builder_limit_refuted :
  hits_relname_255 None limit_witness = true /\
  Forall wf_op limit_witness /\
  exists w, b_finish (run None b_init limit_witness) = Ok w /\ length w = 255%nat /\
            (forall n, valid_rel n -> w <> wire_rel n) /\
            exists w', b_into_name None (run None b_init limit_witness) = Ok w' /\ length w' = 256%nat.
Proof.
  split; [vm_compute; reflexivity|]. split.
  { apply Forall_app. split; [apply Forall_forall; intros o Hin; apply repeat_spec in Hin; subst o|]; repeat constructor. }
  set (w := wire_rel (repeat lab9 25 ++ [[49; 50; 51; 52]%N])).
  assert (E : run None b_init limit_witness = mk_b w None) by (vm_compute; reflexivity).
  assert (L : length w = 255%nat) by (unfold w; rewrite wire_rel_length; reflexivity).
  rewrite E. exists w. split; [reflexivity|]. split; [exact L|]. split.
  - intros n [_ Hl] He. rewrite He, wire_rel_length in L. lia.
  - exists (w ++ [0%N]). split; [reflexivity|]. rewrite app_length, L. reflexivity.
Qed.

(* append_dec_u8_label / append_hex_digit_label are not atomic on error: the
   builder stays valid (error_leaves_usable) but is not the builder it was.
   Witnesses: 252 octets closed, "123" stops after "1"; 250 octets closed and
   "ab" open, which the hex digit's first end_label closes *)
Theorem dec_hex_error_not_atomic_refuted :
  (exists st st' e, Inv st /\ step None st (ODec 123) = (st', Err e) /\ b_finish st' <> b_finish st) /\
  (exists st st' e, Inv st /\ step None st (OHex 5) = (st', Err e) /\
      snd (step None st' (OPush 99)) <> snd (step None st (OPush 99))).
Proof.
  assert (V : Forall valid_label (repeat lab9 25)).
  { apply Forall_forall. intros l Hin. apply repeat_spec in Hin. subst l. split; [cbn; lia|repeat constructor]. }
  split.
  - set (a := mk_a (repeat lab9 25 ++ [[49%N]]) None).
    exists (mk_b (wire_rel (closed a)) None). eexists. eexists.
    split; [|split; [vm_compute; reflexivity|vm_compute; discriminate]].
    exists a. split; [reflexivity|]. split; [|vm_compute; lia].
    split; [|exact I]. apply Forall_app. split; [exact V|]. repeat constructor.
  - set (a := mk_a (repeat lab9 25) (Some [97; 98]%N)).
    exists (mk_b (wire_rel (closed a) ++ 0%N :: [97; 98]%N) (Some (wire_len (closed a)))). eexists. eexists.
    split; [|split; [vm_compute; reflexivity|vm_compute; discriminate]].
    exists a. split; [exists 0%N; reflexivity|]. split; [|vm_compute; lia].
    split; [exact V|]. split; [cbn; lia|repeat constructor].
Qed.

Example builder_example :
  let ops := [OPush 119; OSlice [119; 119]; OLabel [101; 120]; OSlice [99]; ODec 205; OHex 10; OName [[97]; [98]]]%N in
  hits_relname_255 None ops = false /\
  b_finish (run None b_init ops) = Ok [3; 119; 119; 119; 2; 101; 120; 1; 99; 3; 50; 48; 53; 1; 65; 1; 97; 1; 98]%N /\
  step (Some 3) (run (Some 3) b_init [OPush 1; OPush 2]%N) (OPush 3)%N =
    (run (Some 3) b_init [OPush 1; OPush 2]%N, Err E_ShortBuf) /\
  snd (step None st250 (OLabel [49; 50; 51; 52; 53]%N)) = Err E_LongName /\
  snd (step None (run None b_init [OSlice (repeat 7%N 63)]) (OSlice [1%N])) = Err E_LongLabel.
Proof. vm_compute. repeat split; reflexivity. Qed.

(* C03 -- names taken from a message: every ParsedName that parse_ref accepts
   flattens (to_name / flatten_into / compose over its label iterator) to a valid
   absolute name of exactly the cached length.  Uses C04's invariant of
   parse_ref (parsed_inv) for the shared model in Base/PName.v. *)
From Coq Require Import NArith List Bool Arith Lia.
From Coq Require Import ZifyN ZifyNat.
From DV Require Import Base.Outcome Base.Bytes Base.Names Base.PName C01.Model C04.ProofsIter C04.ProofsParsed
  C04.ProofsCompressed C04.ProofsSuffix.
Import ListNotations.
Local Open Scope N_scope.

(* ParsedName::to_name / flatten_into / compose by iterating the labels: the
   labels are composed one after the other, the iterator ends with the root *)
Definition parsed_to_name (m : bytes) (p : pname) : outcome bytes :=
  do r <- pname_labels m p; Ok (wire_abs (fst r)).

(* the as_flat_slice fast path.  ParsedName::to_name / flatten_into /
   to_cow / compose copy octets[pos .. pos + name_len] when the name is flagged
   uncompressed and iterate the labels otherwise.  C04 proved that an
   uncompressed ParsedName is one contiguous run of labels (flat_ok). *)
Definition parsed_flatten (m : bytes) (p : pname) : outcome bytes :=
  if pn_compressed p then parsed_to_name m p
  else if mlen m <? pn_pos p + pn_len p then Panic 13     (* slice out of range *)
  else Ok (slice m (pn_pos p) (pn_pos p + pn_len p)).

Lemma iter_labels_of_plabels m n : forall fuel pos len acc,
  plabels m pos len (n ++ [[]]) -> Forall (fun l => l <> []) n -> (length n < fuel)%nat ->
  iter_labels fuel m pos len acc = Ok (rev acc ++ n, true).
Proof.
  induction n as [|l n IH]; intros fuel pos len acc H Hne Hf; (destruct fuel as [|f]; [cbn in Hf; lia|]).
  - cbn [app] in H. inversion H as [|? ? ? pos' ? Hz Hg Hc Hp]; subst. inversion Hp; subst.
    cbn [iter_labels]. destruct (N.eqb_spec len 0) as [E|E]; [congruence|].
    rewrite Hg. cbn [bind length]. unfold clen in *. cbn [length] in *.
    destruct (N.ltb_spec len (N.of_nat 0 + 1)); [lia|]. cbn [Nat.eqb].
    assert (E0 : (len - (N.of_nat 0 + 1) =? 0) = true) by (apply N.eqb_eq; lia). rewrite E0.
    rewrite app_nil_r. reflexivity.
  - cbn [app] in H. inversion H as [|? ? ? pos' ? Hz Hg Hc Hp]; subst.
    inversion Hne as [|? ? Hl Hne']; subst.
    cbn [iter_labels]. destruct (N.eqb_spec len 0) as [E|E]; [congruence|].
    rewrite Hg. cbn [bind]. unfold clen in *.
    destruct (N.ltb_spec len (N.of_nat (length l) + 1)); [lia|].
    assert (E0 : Nat.eqb (length l) 0 = false) by (apply Nat.eqb_neq; destruct l; [congruence|cbn; lia]). rewrite E0.
    etransitivity; [apply (IH f pos' _ (l :: acc) Hp Hne'); cbn [length] in Hf; lia|].
    cbn [rev]. rewrite <- app_assoc. reflexivity.
Qed.

(* what parse_ref establishes and every parent / split_first step keeps *)
Definition pgood (m : bytes) (p : pname) (n : name) : Prop :=
  valid_abs n /\ plabels m (pn_pos p) (pn_len p) (n ++ [[]]) /\ flat_ok m p (n ++ [[]]).

Lemma valid_nonempty n : Forall valid_label n -> Forall (fun l : label => l <> []) n.
Proof. intros H. eapply Forall_impl; [|exact H]. intros l [[H1 _] _] ->. cbn in H1. lia. Qed.

Lemma plabels_len m p n : plabels m (pn_pos p) (pn_len p) (n ++ [[]]) -> Forall valid_label n ->
  pn_len p = N.of_nat (wire_len n) + 1.
Proof.
  generalize (pn_pos p) (pn_len p). induction n as [|l n IH]; intros pos len H Hv.
  - cbn [app] in H. apply plabels_root_len in H. cbn. lia.
  - cbn [app] in H. inversion H as [|? ? ? pos' ? Hz Hg Hc Hp]; subst. inversion Hv; subst.
    specialize (IH _ _ Hp ltac:(assumption)). unfold clen in *. cbn [wire_len]. lia.
Qed.

Theorem pgood_flatten m p n : pgood m p n ->
  parsed_to_name m p = Ok (wire_abs n) /\ parsed_flatten m p = Ok (wire_abs n) /\
  pn_len p = N.of_nat (length (wire_abs n)).
Proof.
  intros ([Hv Hl] & Hp & Hf).
  assert (Hlen : (length n <= wire_len n)%nat) by (clear; induction n; cbn [length wire_len]; lia).
  assert (Ht : parsed_to_name m p = Ok (wire_abs n)).
  { unfold parsed_to_name, pname_labels.
    assert (Hfu : (length n < PARSE_FUEL)%nat).
    { apply Nat.le_lt_trans with (wire_len n); [exact Hlen|]. apply Nat.le_lt_trans with 254%nat; [exact Hl|].
      apply Nat.ltb_lt. vm_compute. reflexivity. }
    rewrite (iter_labels_of_plabels m n PARSE_FUEL _ _ [] Hp (valid_nonempty n Hv) Hfu).
    reflexivity. }
  split; [exact Ht|]. split.
  - unfold parsed_flatten. destruct (pn_compressed p) eqn:C; [exact Ht|].
    destruct (Hf C) as [Hr Hs]. rewrite wire_labels_abs in Hs.
    destruct (N.ltb_spec (mlen m) (pn_pos p + pn_len p)); [lia|]. rewrite Hs. reflexivity.
  - rewrite wire_abs_length. rewrite (plabels_len m p n Hp Hv). lia.
Qed.

Theorem parsed_flatten_valid m pos lim p : parse_ref m pos lim = Ok p -> lim <= mlen m -> wf_bytes m ->
  exists n, valid_abs n /\ parsed_flatten m p = Ok (wire_abs n) /\ parsed_to_name m p = Ok (wire_abs n) /\
            N.of_nat (length (wire_abs n)) = pn_len p.
Proof.
  intros H Hl Hw. destruct (parsed_inv m pos lim p H Hl Hw) as (n & Hv & _ & Hp & Hf).
  destruct (pgood_flatten m p n (conj Hv (conj Hp Hf))) as (T & F & L). exists n. auto.
Qed.

Theorem parsed_name_valid m pos lim p : parse_ref m pos lim = Ok p -> lim <= mlen m -> wf_bytes m ->
  exists n, parsed_to_name m p = Ok (wire_abs n) /\ valid_abs n /\
            N.of_nat (length (wire_abs n)) = pn_len p.
Proof. intros H Hl Hw. destruct (parsed_flatten_valid m pos lim p H Hl Hw) as (n & Hv & _ & Ht & L). eauto. Qed.

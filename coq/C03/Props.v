(* C03 -- property theorems only.  Proofs live in C03/Proofs*.v. *)
From Coq Require Import NArith List Bool Arith.
From DV Require Import Base.Outcome Base.Bytes Base.Names C03.Gen C03.Model C03.Spec
  C03.ProofsBuilder C03.ProofsBuilder2 C03.ModelWire C03.ProofsWire C03.ModelText C03.ProofsText C03.ModelSlice C03.ProofsSlice Base.PName C03.ProofsParsed.
Import ListNotations.

(* the transcribed NameBuilder code refines the abstract builder, for every
   operation, every capacity, with equal results; it never panics *)
Theorem C03_builder_refines_spec : forall cap a st o, awf a -> repr a st -> wf_op o ->
  repr (fst (a_step cap a o)) (fst (step cap st o)) /\
  snd (step cap st o) = snd (a_step cap a o) /\
  awf (fst (a_step cap a o)) /\ okerr (snd (a_step cap a o)).
Proof. exact step_refines. Qed.
Print Assumptions C03_builder_refines_spec.

Theorem C03_builder_no_panic : forall cap a st o, awf a -> repr a st -> wf_op o ->
  okerr (snd (step cap st o)).
Proof. exact step_no_panic. Qed.
Print Assumptions C03_builder_no_panic.

(* invariant over arbitrary operation lists, excluding exactly the known class *)
Theorem C03_builder_inv : forall cap ops, Forall wf_op ops -> hits_relname_255 cap ops = false ->
  Inv (run cap b_init ops).
Proof. exact builder_inv. Qed.
Print Assumptions C03_builder_inv.

Theorem C03_known_class_exact : forall cap st o, Inv st -> wf_op o ->
  (gap_step cap st o = true <-> (254 < length (buf (fst (step cap st o))))%nat).
Proof. exact gap_exact. Qed.
Print Assumptions C03_known_class_exact.

Theorem C03_error_leaves_usable : forall cap st o st' e, Inv st -> wf_op o ->
  step cap st o = (st', Err e) ->
  Inv st' /\
  (atomic_op o = true ->
     (forall a, awf a -> repr a st -> repr a st') /\ same_but_placeholder st st').
Proof. exact error_leaves_usable. Qed.
Print Assumptions C03_error_leaves_usable.

Theorem C03_same_abstract_same_behaviour : forall cap a st1 st2 o,
  awf a -> repr a st1 -> repr a st2 -> wf_op o ->
  snd (step cap st1 o) = snd (step cap st2 o) /\
  exists a', awf a' /\ repr a' (fst (step cap st1 o)) /\ repr a' (fst (step cap st2 o)).
Proof. exact same_abstract_same_behaviour. Qed.
Print Assumptions C03_same_abstract_same_behaviour.

Theorem C03_unbounded_never_shortbuf : forall st o, Inv st -> wf_op o ->
  snd (step None st o) <> Err E_ShortBuf.
Proof. exact unbounded_never_shortbuf. Qed.
Print Assumptions C03_unbounded_never_shortbuf.

Theorem C03_finish_valid : forall cap ops, Forall wf_op ops -> hits_relname_255 cap ops = false ->
  exists n, b_finish (run cap b_init ops) = Ok (wire_rel n) /\ valid_rel n /\
            n = final_name (a_run cap a_init ops).
Proof. exact finish_valid. Qed.
Print Assumptions C03_finish_valid.

Theorem C03_into_name_valid : forall cap ops, Forall wf_op ops -> hits_relname_255 cap ops = false ->
  exists n, valid_abs n /\ decode_abs (wire_abs n) = inl (Some (n, [])) /\
    (b_into_name cap (run cap b_init ops) = Ok (wire_abs n) \/
     (cap <> None /\ b_into_name cap (run cap b_init ops) = Err E_ShortBuf)).
Proof. exact into_name_valid. Qed.
Print Assumptions C03_into_name_valid.

Theorem C03_append_origin_valid : forall cap ops og w, Forall wf_op ops ->
  hits_relname_255 cap ops = false -> Forall valid_label og ->
  b_append_origin cap (run cap b_init ops) og = Ok w ->
  exists n, w = wire_abs n /\ valid_abs n /\ decode_abs w = inl (Some (n, [])) /\
            n = final_name (a_run cap a_init ops) ++ og.
Proof. exact append_origin_valid. Qed.
Print Assumptions C03_append_origin_valid.

(* the known finding relname_255_new_label: 25 x append_label "123456789",
   append_label "1234" -> finish gives 255 octets, into_name 256 *)
Theorem C03_builder_limit_refuted :
  hits_relname_255 None limit_witness = true /\
  Forall wf_op limit_witness /\
  exists w, b_finish (run None b_init limit_witness) = Ok w /\ length w = 255%nat /\
            (forall n, valid_rel n -> w <> wire_rel n) /\
            exists w', b_into_name None (run None b_init limit_witness) = Ok w' /\ length w' = 256%nat.
Proof. exact builder_limit_refuted. Qed.
Print Assumptions C03_builder_limit_refuted.

Theorem C03_dec_hex_error_not_atomic_refuted :
  (exists st st' e, Inv st /\ step None st (ODec 123) = (st', Err e) /\ b_finish st' <> b_finish st) /\
  (exists st st' e, Inv st /\ step None st (OHex 5) = (st', Err e) /\
      snd (step None st' (OPush 99)) <> snd (step None st (OPush 99))).
Proof. exact dec_hex_error_not_atomic_refuted. Qed.
Print Assumptions C03_dec_hex_error_not_atomic_refuted.

(* ---- validating constructors: Name::from_octets / from_slice and
   RelativeName::from_octets / from_slice accept exactly the wire forms of
   valid names; total *)
Theorem C03_check_abs_iff : forall b, wf_bytes b ->
  (check_abs b = Ok tt <-> exists n, valid_abs n /\ b = wire_abs n).
Proof. exact check_abs_iff. Qed.
Print Assumptions C03_check_abs_iff.

Theorem C03_check_rel_iff : forall b, wf_bytes b ->
  (check_rel b = Ok tt <-> exists n, valid_rel n /\ b = wire_rel n).
Proof. exact check_rel_iff. Qed.
Print Assumptions C03_check_rel_iff.

Theorem C03_check_total : forall b, no_panic (check_abs b) /\ no_panic (check_rel b).
Proof. exact check_total. Qed.
Print Assumptions C03_check_total.

Theorem C03_label_from_slice_iff : forall s, label_from_slice s = Ok s <-> (length s <= 63)%nat.
Proof. exact label_from_slice_iff. Qed.
Print Assumptions C03_label_from_slice_iff.

Theorem C03_chain_abs_valid : forall l r, valid_rel l -> valid_abs r ->
  chain_new (wire_len l) (wire_len r + 1) = Ok tt -> valid_abs (l ++ r).
Proof. exact chain_abs_valid. Qed.
Print Assumptions C03_chain_abs_valid.

Theorem C03_chain_rel_valid : forall l r, valid_rel l -> valid_rel r ->
  chain_new (wire_len l) (wire_len r) = Ok tt -> chain_relative_255 l r = false -> valid_rel (l ++ r).
Proof. exact chain_rel_valid. Qed.
Print Assumptions C03_chain_rel_valid.

(* the known finding chain_relative_255 *)
Theorem C03_chain_limit_refuted :
  let l := repeat lab9w 25 in let r := [[49;50;51;52]%N] in
  valid_rel l /\ valid_rel r /\ chain_new (wire_len l) (wire_len r) = Ok tt /\
  chain_relative_255 l r = true /\ ~ valid_rel (l ++ r).
Proof. exact chain_limit_refuted. Qed.
Print Assumptions C03_chain_limit_refuted.

(* ---- round trips *)
Theorem C03_display_parse_roundtrip : forall n, valid_abs n ->
  name_from_chars None (display_name n) = Ok (wire_abs n).
Proof. exact display_parse_roundtrip. Qed.
Print Assumptions C03_display_parse_roundtrip.

Theorem C03_wire_roundtrip : forall n, valid_abs n ->
  check_abs (wire_abs n) = Ok tt /\ decode_abs (wire_abs n) = inl (Some (n, [])) /\
  check_rel (wire_rel n) = Ok tt.
Proof. exact wire_roundtrip. Qed.
Print Assumptions C03_wire_roundtrip.

(* whatever the string, a name returned by Name::from_chars (FromStr),
   RelativeName::from_chars or UncertainName::from_chars is valid *)
Theorem C03_from_chars_valid : forall cs,
  (forall w, name_from_chars None cs = Ok w -> exists n, valid_abs n /\ w = wire_abs n) /\
  (forall w, rel_from_chars None cs = Ok w -> exists n, valid_rel n /\ w = wire_rel n) /\
  (forall f w, uncertain_from_chars None cs = Ok (f, w) ->
      exists n, valid_rel n /\ w = if f then wire_abs n else wire_rel n).
Proof. exact from_chars_valid. Qed.
Print Assumptions C03_from_chars_valid.

(* the literals at the message / zone-file name sites agree with the limits *)
Theorem C03_message_zonefile_limits : forall s c : nat,
  (exceeds parse_ref_phase1_ge s parse_ref_phase1_lim = false <-> (s + 1 <= name_max)%nat) /\
  (exceeds parse_ref_phase2_ge s parse_ref_phase2_lim = false <-> (s + 1 <= name_max)%nat) /\
  (exceeds name_parse_ge s name_parse_lim = false <-> (s <= name_max)%nat) /\
  (exceeds zf_label_fast_ge (1 + c) (1 + zf_label_latest_add) = false <-> (c <= label_max)%nat) /\
  (exceeds zf_label_slow_ge (1 + c) (1 + zf_label_latest_add) = false <-> (c <= label_max)%nat) /\
  (exceeds zf_name_ge s zf_name_lim = false <-> (s <= check_rel_lim)%nat) /\
  ((s =? c + zf_empty_label_add)%nat = true <-> s = S c).
Proof. exact message_zonefile_limits. Qed.
Print Assumptions C03_message_zonefile_limits.

(* ---- slicing at label boundaries (absolute = true: Name, false: RelativeName;
   wire_of true n = wire_abs n, wire_of false n = wire_rel n) *)
Theorem C03_is_label_start_spec : forall absolute n i, Forall valid_label n ->
  is_label_start absolute (wire_of absolute n) i = Ok ((i =? 0)%nat || is_start n i) /\
  (((i =? 0)%nat || is_start n i = true) <-> at_label n i).
Proof. exact is_label_start_full. Qed.
Print Assumptions C03_is_label_start_spec.

Theorem C03_split_spec : forall absolute n i, valid_rel n ->
  match n_split absolute (wire_of absolute n) i with
  | Ok (l, r) => exists k, (k <= length n)%nat /\ i = wire_len (firstn k n) /\
                   l = wire_rel (firstn k n) /\ r = wire_of absolute (skipn k n) /\
                   valid_rel (firstn k n) /\ valid_rel (skipn k n)
  | Panic p => p = 8%N /\ ~ at_label n i
  | _ => False
  end.
Proof. exact split_spec. Qed.
Print Assumptions C03_split_spec.

Theorem C03_truncate_spec : forall absolute n i, valid_rel n ->
  match n_truncate absolute (wire_of absolute n) i with
  | Ok l => exists k, (k <= length n)%nat /\ i = wire_len (firstn k n) /\
              l = wire_rel (firstn k n) /\ valid_rel (firstn k n)
  | Panic p => p = 8%N /\ ~ at_label n i
  | _ => False
  end.
Proof. exact truncate_spec. Qed.
Print Assumptions C03_truncate_spec.

Theorem C03_range_from_spec : forall n i, valid_abs n ->
  match n_range_from (wire_abs n) i with
  | Ok r => exists k, (k <= length n)%nat /\ i = wire_len (firstn k n) /\
              r = wire_abs (skipn k n) /\ valid_abs (skipn k n)
  | Panic p => p = 8%N /\ ~ at_label n i
  | _ => False
  end.
Proof. exact range_from_spec. Qed.
Print Assumptions C03_range_from_spec.

Theorem C03_range_spec : forall absolute n lo hi, valid_rel n ->
  match n_range absolute (wire_of absolute n) lo hi with
  | Ok r => exists k1 k2, (k1 <= k2 <= length n)%nat /\
              lo_of lo = wire_len (firstn k1 n) /\ hi_of (wire_of absolute n) hi = wire_len (firstn k2 n) /\
              r = wire_rel (firstn (k2 - k1) (skipn k1 n)) /\ valid_rel (firstn (k2 - k1) (skipn k1 n))
  | Panic p =>
      (p = 8%N /\ (~ at_label n (lo_of lo) \/ ~ at_label n (hi_of (wire_of absolute n) hi))) \/
      (p = 9%N /\ (hi_of (wire_of absolute n) hi < lo_of lo)%nat) \/
      (p = 10%N /\ absolute = true /\ hi = EUnb)
  | _ => False
  end.
Proof. exact range_spec. Qed.
Print Assumptions C03_range_spec.

Theorem C03_parent_spec : forall absolute n, valid_rel n ->
  n_parent absolute (wire_of absolute n) =
    Ok (match n with [] => None | _ :: n' => Some (wire_of absolute n') end) /\
  match n with [] => True | _ :: n' => valid_rel n' end.
Proof. exact parent_spec. Qed.
Print Assumptions C03_parent_spec.

Theorem C03_into_relative_spec : forall n, valid_abs n ->
  n_into_relative (wire_abs n) = Ok (wire_rel n) /\ valid_rel n.
Proof. exact into_relative_spec. Qed.
Print Assumptions C03_into_relative_spec.

Theorem C03_into_absolute_spec : forall n, valid_rel n ->
  n_into_absolute None (wire_rel n) = Ok (wire_abs n) /\ valid_abs n.
Proof. exact into_absolute_spec. Qed.
Print Assumptions C03_into_absolute_spec.

Theorem C03_abs_strip_suffix_spec : forall n base, valid_abs n ->
  match abs_strip_suffix n base with
  | Ok (Some t) => exists p s, n = p ++ s /\ canon s = canon base /\ t = wire_rel p /\ valid_rel p
  | Ok None => ends_with (n ++ [[]]) (base ++ [[]]) = false
  | _ => False
  end.
Proof. exact abs_strip_suffix_spec. Qed.
Print Assumptions C03_abs_strip_suffix_spec.

Theorem C03_rel_strip_suffix_spec : forall n base, valid_rel n ->
  match rel_strip_suffix n base with
  | Ok (Some t) => exists p s, n = p ++ s /\ canon s = canon base /\ t = wire_rel p /\ valid_rel p
  | Ok None => ends_with n base = false
  | _ => False
  end.
Proof. exact rel_strip_suffix_spec. Qed.
Print Assumptions C03_rel_strip_suffix_spec.

(* ---- names taken from a message (model of parse_ref shared with C01) *)
Theorem C03_parsed_name_valid : forall m pos lim p,
  parse_ref m pos lim = Ok p -> (lim <= mlen m)%N -> wf_bytes m ->
  exists n, parsed_to_name m p = Ok (wire_abs n) /\ valid_abs n /\
            N.of_nat (length (wire_abs n)) = pn_len p.
Proof. exact parsed_name_valid. Qed.
Print Assumptions C03_parsed_name_valid.

(* ---- UncertainName::from_octets / from_slice, Chain::new_uncertain *)
Theorem C03_uncertain_absolute_iff : forall b, wf_bytes b ->
  (uncertain_check b = Ok true <-> exists n, valid_abs n /\ b = wire_abs n).
Proof. exact uncertain_absolute_iff. Qed.
Print Assumptions C03_uncertain_absolute_iff.

Theorem C03_uncertain_relative_valid : forall b, wf_bytes b -> uncertain_check b = Ok false ->
  exists n, valid_rel n /\ n <> [] /\ b = wire_rel n.
Proof. exact uncertain_relative_valid_full. Qed.
Print Assumptions C03_uncertain_relative_valid.

Theorem C03_chain_uncertain_valid : forall l r, valid_rel l -> valid_abs r ->
  chain_new_uncertain true (wire_len l) (wire_len r + 1) = Ok tt -> valid_abs (l ++ r).
Proof. exact chain_uncertain_valid. Qed.
Print Assumptions C03_chain_uncertain_valid.

(* ---- OwnedLabel::from_chars *)
Theorem C03_owned_label_valid : forall cs l,
  owned_label_from_chars cs = Ok l -> wf_bytes l /\ (length l <= 63)%nat.
Proof. exact owned_label_valid. Qed.
Print Assumptions C03_owned_label_valid.

Theorem C03_display_parse_roundtrip_rel : forall n, valid_rel n ->
  rel_from_chars None (display_rel n) = Ok (wire_rel n).
Proof. exact display_parse_roundtrip_rel. Qed.
Print Assumptions C03_display_parse_roundtrip_rel.

(* to_name / flatten_into / to_cow / compose of a ParsedName, fast path included *)
Theorem C03_parsed_flatten_valid : forall m pos lim p,
  parse_ref m pos lim = Ok p -> (lim <= mlen m)%N -> wf_bytes m ->
  exists n, valid_abs n /\ parsed_flatten m p = Ok (wire_abs n) /\ parsed_to_name m p = Ok (wire_abs n) /\
            N.of_nat (length (wire_abs n)) = pn_len p.
Proof. exact parsed_flatten_valid. Qed.
Print Assumptions C03_parsed_flatten_valid.

(* ---- chain_root / UncertainName::chain *)
Theorem C03_chain_root_spec : forall n, valid_rel n ->
  n_chain_root (wire_rel n) = Ok (wire_abs n) /\ valid_abs n.
Proof. exact chain_root_spec. Qed.
Print Assumptions C03_chain_root_spec.

Theorem C03_chain_root_255_panics : forall w, length w = 255%nat -> n_chain_root w = Panic 14.
Proof. exact chain_root_255_panics. Qed.
Print Assumptions C03_chain_root_255_panics.

Theorem C03_unc_chain_valid : forall l r w, valid_abs r ->
  (valid_abs l /\ unc_chain true (wire_abs l) (wire_abs r) = Ok w -> w = wire_abs l) /\
  (valid_rel l /\ unc_chain false (wire_rel l) (wire_abs r) = Ok w -> w = wire_abs (l ++ r) /\ valid_abs (l ++ r)).
Proof. exact unc_chain_valid. Qed.
Print Assumptions C03_unc_chain_valid.

(* ---- names scanned from zone-file text (model of scan_name / convert_label:
   C07/Model.v): every returned name is the wire form of a valid absolute name *)
From DV Require C07.Model C03.ProofsZonefile.
Theorem C03_scan_name_valid : forall origin s n s',
  (forall o, origin = Some o -> exists m, valid_abs m /\ o = wire_abs m) -> wf_bytes (C07.Model.buf s) ->
  C07.Model.scan_name origin s = Ok (n, s') -> exists k, valid_abs k /\ n = wire_abs k.
Proof. exact C03.ProofsZonefile.scan_name_valid. Qed.
Print Assumptions C03_scan_name_valid.

(* serde, UncertainName display, three-part chains, constants *)
Theorem C03_serde_de_rel_valid : forall cs w,
  serde_de_rel None cs = Ok w -> exists n, valid_rel n /\ w = wire_rel n.
Proof. exact serde_de_rel_valid. Qed.
Print Assumptions C03_serde_de_rel_valid.

Theorem C03_uncertain_display_parse_roundtrip : forall n,
  (valid_rel n -> uncertain_from_chars None (display_uncertain false n) = Ok (false, wire_rel n)) /\
  (valid_abs n -> n <> [] \/ uncertain_display_root_special && uncertain_from_chars_root_special = true ->
     uncertain_from_chars None (display_uncertain true n) = Ok (true, wire_abs n)).
Proof. exact uncertain_display_parse_roundtrip. Qed.
Print Assumptions C03_uncertain_display_parse_roundtrip.

Theorem C03_chain3_abs_valid : forall a b c, valid_rel a -> valid_rel b -> valid_abs c ->
  chain3 (wire_len a) (wire_len b) (wire_len c + 1) = Ok tt -> valid_abs (a ++ b ++ c).
Proof. exact chain3_abs_valid. Qed.
Print Assumptions C03_chain3_abs_valid.

Theorem C03_constants_valid :
  check_abs const_root = Ok tt /\ const_root = wire_abs [] /\ const_root_slice = const_root /\
  const_from_symbols_root = const_root /\
  check_rel const_empty = Ok tt /\ const_empty = wire_rel [] /\ const_empty_slice = const_empty /\
  check_rel const_wildcard = Ok tt /\ const_wildcard = wire_rel [[42%N]] /\ const_wildcard_slice = const_wildcard.
Proof. exact constants_valid. Qed.
Print Assumptions C03_constants_valid.

Theorem C03_from_builder_inv : forall w st, wf_bytes w -> b_from_builder w = Ok st -> Inv st.
Proof. exact from_builder_inv. Qed.
Print Assumptions C03_from_builder_inv.

Theorem C03_name_parse_valid : forall b w, wf_bytes b -> name_parse b = Ok w ->
  exists n rest, valid_abs n /\ w = wire_abs n /\ b = w ++ rest.
Proof. exact name_parse_valid. Qed.
Print Assumptions C03_name_parse_valid.

Theorem C03_uncertain_display_parse_roundtrip_full : forall n, valid_abs n ->
  uncertain_from_chars None (display_uncertain true n) = Ok (true, wire_abs n) /\
  uncertain_from_chars None (display_uncertain false n) = Ok (false, wire_rel n).
Proof. exact uncertain_display_parse_roundtrip_full. Qed.
Print Assumptions C03_uncertain_display_parse_roundtrip_full.

(* ---- ParsedName::parent / split_first / iter_suffixes (model: C04.Model.parent_gen
   with the T1 flags; steps: true = parent, false = split_first): after any
   sequence of steps the name flattens, on the as_flat_slice path and through
   the label iterator alike, to the wire form of a valid absolute name - the
   corresponding suffix of the labels; split_first hands out a valid label *)
From DV Require C04.Model C03.ProofsSuffix.
Theorem C03_parsed_suffix_flatten : forall m pos lim p,
  parse_ref m pos lim = Ok p -> (lim <= mlen m)%N -> wf_bytes m ->
  exists n0, valid_abs n0 /\ parsed_flatten m p = Ok (wire_abs n0) /\
  forall ss, exists q, C03.ProofsSuffix.steps ss m p = Ok q /\
    let n := skipn (length ss) n0 in
    valid_abs n /\ parsed_flatten m q = Ok (wire_abs n) /\ parsed_to_name m q = Ok (wire_abs n) /\
    pn_len q = N.of_nat (length (wire_abs n)).
Proof. exact C03.ProofsSuffix.parsed_suffix_flatten. Qed.
Print Assumptions C03_parsed_suffix_flatten.

Theorem C03_parsed_split_first_label : forall m pos lim p,
  parse_ref m pos lim = Ok p -> (lim <= mlen m)%N -> wf_bytes m ->
  exists n0, valid_abs n0 /\ parsed_flatten m p = Ok (wire_abs n0) /\
  forall ss, exists q, C03.ProofsSuffix.steps ss m p = Ok q /\
    match skipn (length ss) n0 with
    | [] => C03.ProofsSuffix.split_first_label m q = Ok None
    | l :: _ => C03.ProofsSuffix.split_first_label m q = Ok (Some (wire_rel [l])) /\ valid_rel [l]
    end.
Proof. exact C03.ProofsSuffix.parsed_split_first_label. Qed.
Print Assumptions C03_parsed_split_first_label.
(* exactness and
   totality of the wire and text constructors, split-then-chain round trip,
   and completeness of the builder on the valid names *)
From DV Require C03.ProofsW C03.ProofsX C03.ProofsY.
Theorem C03_name_parse_roundtrip : forall n rest, valid_abs n ->
  name_parse (wire_abs n ++ rest) = Ok (wire_abs n).
Proof. exact C03.ProofsW.name_parse_roundtrip. Qed.
Print Assumptions C03_name_parse_roundtrip.
Theorem C03_name_parse_iff : forall b w, wf_bytes b ->
  (name_parse b = Ok w <-> exists n rest, valid_abs n /\ w = wire_abs n /\ b = w ++ rest).
Proof. exact C03.ProofsW.name_parse_iff. Qed.
Print Assumptions C03_name_parse_iff.
Theorem C03_name_parse_total : forall b, no_panic (name_parse b).
Proof. exact C03.ProofsW.name_parse_total. Qed.
Print Assumptions C03_name_parse_total.
Theorem C03_uncertain_check_total : forall b, no_panic (uncertain_check b).
Proof. exact C03.ProofsW.uncertain_check_total. Qed.
Print Assumptions C03_uncertain_check_total.
Theorem C03_uncertain_relative_iff : forall b, wf_bytes b ->
  (uncertain_check b = Ok false <-> exists n, valid_rel n /\ n <> [] /\ b = wire_rel n).
Proof. exact C03.ProofsW.uncertain_relative_iff. Qed.
Print Assumptions C03_uncertain_relative_iff.
Theorem C03_split_chain_roundtrip : forall absolute n i l r, valid_rel n ->
  n_split absolute (wire_of absolute n) i = Ok (l, r) ->
  l ++ r = wire_of absolute n /\ chain_new (length l) (length r) = Ok tt /\
  (exists a, valid_rel a /\ l = wire_rel a) /\ (exists c, valid_rel c /\ r = wire_of absolute c).
Proof. exact C03.ProofsW.split_chain_roundtrip. Qed.
Print Assumptions C03_split_chain_roundtrip.
Theorem C03_from_chars_total : forall cap cs,
  no_panic (name_from_chars cap cs) /\ no_panic (rel_from_chars cap cs) /\
  no_panic (uncertain_from_chars cap cs) /\ no_panic (serde_de_rel cap cs).
Proof. exact from_chars_total. Qed.
Print Assumptions C03_from_chars_total.
Theorem C03_from_chars_valid_cap : forall cap cs,
  (forall w, name_from_chars cap cs = Ok w -> exists n, valid_abs n /\ w = wire_abs n) /\
  (forall w, rel_from_chars cap cs = Ok w -> exists n, valid_rel n /\ w = wire_rel n) /\
  (forall f w, uncertain_from_chars cap cs = Ok (f, w) ->
      exists n, valid_rel n /\ w = if f then wire_abs n else wire_rel n) /\
  (forall w, serde_de_rel cap cs = Ok w -> exists n, valid_rel n /\ w = wire_rel n).
Proof. exact from_chars_valid_cap. Qed.
Print Assumptions C03_from_chars_valid_cap.
Theorem C03_display_injective : forall n1 n2, valid_abs n1 -> valid_abs n2 ->
  (display_name n1 = display_name n2 -> n1 = n2) /\ (display_rel n1 = display_rel n2 -> n1 = n2).
Proof. exact C03.ProofsX.display_injective. Qed.
Print Assumptions C03_display_injective.
Theorem C03_text_reparse_stable : forall cs,
  (forall w, name_from_chars None cs = Ok w ->
     exists n, valid_abs n /\ w = wire_abs n /\ name_from_chars None (display_name n) = Ok w) /\
  (forall w, rel_from_chars None cs = Ok w ->
     exists n, valid_rel n /\ w = wire_rel n /\ rel_from_chars None (display_rel n) = Ok w).
Proof. exact C03.ProofsX.text_reparse_stable. Qed.
Print Assumptions C03_text_reparse_stable.
Theorem C03_builder_complete_labels : forall n, valid_rel n ->
  fst (run_log None b_init (map OLabel n)) = repeat (Ok tt) (length n) /\
  b_finish (run None b_init (map OLabel n)) = Ok (wire_rel n) /\
  b_into_name None (run None b_init (map OLabel n)) = Ok (wire_abs n).
Proof. exact C03.ProofsY.builder_complete_labels. Qed.
Print Assumptions C03_builder_complete_labels.
Theorem C03_builder_complete_octets : forall n, valid_rel n ->
  fst (run_log None b_init (C03.ProofsY.octet_ops n)) = repeat (Ok tt) (length (C03.ProofsY.octet_ops n)) /\
  b_finish (run None b_init (C03.ProofsY.octet_ops n)) = Ok (wire_rel n) /\
  b_into_name None (run None b_init (C03.ProofsY.octet_ops n)) = Ok (wire_abs n).
Proof. exact C03.ProofsY.builder_complete_octets. Qed.
Print Assumptions C03_builder_complete_octets.
Theorem C03_chain_abs_iff : forall l r, valid_rel l -> valid_abs r ->
  (chain_new (wire_len l) (wire_len r + 1) = Ok tt <-> valid_abs (l ++ r)).
Proof. exact C03.ProofsW.chain_abs_iff. Qed.
Print Assumptions C03_chain_abs_iff.
Theorem C03_chain_rel_complete : forall l r, valid_rel (l ++ r) ->
  chain_new (wire_len l) (wire_len r) = Ok tt.
Proof. exact C03.ProofsW.chain_rel_complete. Qed.
Print Assumptions C03_chain_rel_complete.
(* ---- Name::reverse_from_addr for every address (builder sequence of both
   arms; suffix labels and arm shape are T1 items) *)
From DV Require C03.ProofsV.
Theorem C03_reverse_v4_valid : forall a b c d, (a < 256)%N -> (b < 256)%N -> (c < 256)%N -> (d < 256)%N ->
  let n := [dec_digits d; dec_digits c; dec_digits b; dec_digits a; rev_v4_label1; rev_v4_label2] in
  fst (run_log None b_init (C03.ProofsV.reverse_v4_ops a b c d)) = repeat (Ok tt) 6 /\
  valid_abs n /\
  b_into_name None (run None b_init (C03.ProofsV.reverse_v4_ops a b c d)) = Ok (wire_abs n).
Proof. exact C03.ProofsV.reverse_v4_valid. Qed.
Print Assumptions C03_reverse_v4_valid.
Theorem C03_reverse_v6_valid : forall o, wf_bytes o -> (length o <= 16)%nat ->
  let ops := C03.ProofsV.reverse_v6_ops o in
  let n := map C03.ProofsV.label_of ops in
  fst (run_log None b_init ops) = repeat (Ok tt) (2 * length o + 2) /\
  valid_abs n /\ b_into_name None (run None b_init ops) = Ok (wire_abs n) /\
  n = flat_map (fun x => [[hex_char x]; [hex_char (x / 16)]]) (rev o) ++ [rev_v6_label1; rev_v6_label2].
Proof. exact C03.ProofsV.reverse_v6_valid. Qed.
Print Assumptions C03_reverse_v6_valid.
Theorem C03_append_origin_exact : forall cap ops og, Forall wf_op ops -> hits_relname_255 cap ops = false ->
  Forall valid_label og ->
  let n := final_name (a_run cap a_init ops) in
  b_append_origin cap (run cap b_init ops) og =
    (if (254 <? wire_len n + wire_len og)%nat then Err E_LongName
     else if fits cap (a_run cap a_init ops) (wire_len og + 1) then Ok (wire_abs (n ++ og))
     else Err E_ShortBuf) /\
  ((wire_len n + wire_len og <= 254)%nat -> valid_abs (n ++ og)).
Proof. exact C03.ProofsY.append_origin_exact. Qed.
Print Assumptions C03_append_origin_exact.
Theorem C03_relative_absolute_roundtrip : forall n, valid_abs n ->
  (do r <- n_into_relative (wire_abs n); n_into_absolute None r) = Ok (wire_abs n) /\
  (do a <- n_into_absolute None (wire_rel n); n_into_relative a) = Ok (wire_rel n) /\
  (do r <- n_into_relative (wire_abs n); n_chain_root r) = Ok (wire_abs n).
Proof. exact C03.ProofsW.relative_absolute_roundtrip. Qed.
Print Assumptions C03_relative_absolute_roundtrip.

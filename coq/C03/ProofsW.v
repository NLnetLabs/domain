(* C03 -- totality and exactness of the wire-side constructors (Name::parse on a
   parser, UncertainName::from_octets), Chain::new, and split-then-chain and
   relative/absolute round trips. *)
From Coq Require Import NArith List Bool Arith Lia.
From Coq Require Import ZifyN ZifyNat.
From DV Require Import Base.Outcome Base.Bytes Base.Names C03.Gen C03.Model C03.ModelWire C03.Spec
  C03.ProofsBuilder C03.ProofsWire C03.ModelSlice C03.ProofsSlice.
Import ListNotations.

Lemma nparse_loop_complete n : forall f rest c, Forall valid_label n -> (length n < f)%nat ->
  nparse_loop f (wire_abs n ++ rest) c = Ok (c + length (wire_abs n))%nat.
Proof.
  induction n as [|l n IH]; intros f rest c Hv Hf; (destruct f as [|f]; [lia|]).
  - cbn. f_equal. lia.
  - inversion Hv as [|? ? Hl Hv']; subst. cbn [nparse_loop].
    rewrite wire_abs_cons_label, <- app_assoc.
    change (is_empty (wire_label l ++ wire_abs n ++ rest)) with false. cbn iota.
    rewrite split_from_wire, (valid_not_root l Hl) by apply Hl.
    rewrite IH by (try assumption; cbn [length] in Hf; lia).
    f_equal. rewrite app_length, !wire_abs_length. unfold wire_label. cbn [length wire_len]. lia.
Qed.

Theorem name_parse_roundtrip n rest : valid_abs n ->
  name_parse (wire_abs n ++ rest) = Ok (wire_abs n).
Proof.
  intros [Hv Hl]. unfold name_parse.
  rewrite nparse_loop_complete.
  - cbn [bind Nat.add]. unfold name_parse_ge, name_parse_lim, name_max. rewrite exceeds_gt.
    rewrite wire_abs_length. destruct (Nat.ltb_spec 255 (S (wire_len n))); [lia|].
    rewrite <- (wire_abs_length n). f_equal. apply take_app_length.
  - exact Hv.
  - rewrite app_length, wire_abs_length. pose proof (labels_le_wire n). lia.
Qed.

Theorem name_parse_iff b w : wf_bytes b ->
  (name_parse b = Ok w <-> exists n rest, valid_abs n /\ w = wire_abs n /\ b = w ++ rest).
Proof.
  intros Hw. split; [apply name_parse_valid; exact Hw|].
  intros (n & rest & Hn & -> & ->). apply name_parse_roundtrip. exact Hn.
Qed.

Example name_parse_roundtrip_ex :
  name_parse (wire_abs [[119;119;119]; [97]] ++ [1;2])%N = Ok (wire_abs [[119;119;119]; [97]])%N.
Proof. reflexivity. Qed.

Lemma nparse_loop_fuel f : forall b c, (length b < f)%nat -> no_panic (nparse_loop f b c).
Proof.
  induction f as [|f IH]; intros b c Hf; [lia|]. cbn [nparse_loop]. pose proof (split_from_shorter b) as Hs.
  destruct (is_empty b); [exact I|].
  destruct (split_from b) as [[l tail]|e|p|]; try exact I; try contradiction.
  destruct (is_root l); [exact I|]. apply IH. lia.
Qed.

Theorem name_parse_total b : no_panic (name_parse b).
Proof.
  unfold name_parse.
  pose proof (nparse_loop_fuel (S (length b)) b 0 ltac:(lia)) as H.
  destruct (nparse_loop (S (length b)) b 0); cbn [bind]; try exact H.
  destruct (exceeds _ _ _); exact I.
Qed.

Lemma unc_loop_fuel f len : forall b, (length b < f)%nat -> no_panic (unc_loop f len b).
Proof.
  induction f as [|f IH]; intros b Hf; [lia|]. cbn [unc_loop]. pose proof (split_from_shorter b) as Hs.
  destruct (split_from b) as [[l tail]|e|p|]; try exact I; try contradiction.
  destruct (is_root l); [destruct (is_empty tail); exact I|].
  destruct (is_empty tail); [destruct (_ && _); exact I|]. apply IH. lia.
Qed.

Theorem uncertain_check_total b : no_panic (uncertain_check b).
Proof.
  unfold uncertain_check. destruct (exceeds _ _ _); [exact I|].
  apply unc_loop_fuel. lia.
Qed.

Example total_ex : no_panic (name_parse [192; 12]%N) /\ no_panic (uncertain_check [64]%N) /\
  name_parse [192; 12]%N = Err W_CompressedName /\ uncertain_check [64]%N = Err W_BadLabel.
Proof. repeat split. Qed.

Lemma unc_loop_complete_rel n : forall f len, Forall valid_label n -> n <> [] -> (length n < f)%nat ->
  exceeds uncertain_rel_ge len uncertain_rel_lim = false ->
  unc_loop f len (wire_rel n) = Ok false.
Proof.
  induction n as [|l n IH]; intros f len Hv Hne Hf Hlen; [congruence|].
  destruct f as [|f]; [lia|].
  inversion Hv as [|? ? Hl Hv']; subst. cbn [unc_loop].
  change (wire_rel (l :: n)) with (wire_label l ++ wire_rel n).
  rewrite split_from_wire, (valid_not_root l Hl) by apply Hl.
  destruct n as [|l2 n'].
  - cbn [wire_rel map concat is_empty]. rewrite Hlen, andb_false_r. reflexivity.
  - assert (He : is_empty (wire_rel (l2 :: n')) = false) by reflexivity.
    rewrite He. apply IH; [assumption|discriminate|cbn [length] in *; lia|exact Hlen].
Qed.

Theorem uncertain_relative_iff b : wf_bytes b ->
  (uncertain_check b = Ok false <-> exists n, valid_rel n /\ n <> [] /\ b = wire_rel n).
Proof.
  intros Hw. split; [apply uncertain_relative_valid_full; exact Hw|].
  intros (n & [Hv Hl] & Hne & ->). unfold uncertain_check. rewrite wire_rel_length.
  rewrite (proj2 (exceeds_false _ _ _)) by (unfold uncertain_ge, uncertain_lim; cbv iota; lia).
  apply unc_loop_complete_rel; [exact Hv|exact Hne|pose proof (labels_le_wire n); lia|].
  apply exceeds_false. unfold uncertain_rel_ge, uncertain_rel_lim. cbv iota. lia.
Qed.

Example uncertain_relative_ex : uncertain_check (wire_rel [[119;119;119]; [97]])%N = Ok false.
Proof. reflexivity. Qed.

(* split at any accepted index, then chain the halves: accepted, and the
   composed octets are the original name *)
Theorem split_chain_roundtrip absolute n i l r : valid_rel n ->
  n_split absolute (wire_of absolute n) i = Ok (l, r) ->
  l ++ r = wire_of absolute n /\ chain_new (length l) (length r) = Ok tt /\
  (exists a, valid_rel a /\ l = wire_rel a) /\ (exists c, valid_rel c /\ r = wire_of absolute c).
Proof.
  intros Hn E. pose proof (split_spec absolute n i Hn) as H. rewrite E in H.
  destruct H as (k & Hk & -> & -> & -> & Hf & Hs).
  assert (Hcat : wire_rel (firstn k n) ++ wire_of absolute (skipn k n) = wire_of absolute n).
  { unfold wire_of. rewrite app_assoc, <- wire_rel_app, firstn_skipn. reflexivity. }
  split; [exact Hcat|]. split.
  - apply chain_new_ok. rewrite <- app_length, Hcat, wire_of_length. destruct Hn as [_ Hl]. destruct absolute; lia.
  - split; [exists (firstn k n)|exists (skipn k n)]; auto.
Qed.

Example split_chain_ex :
  n_split true (wire_of true [[119;119;119]; [97]])%N 4 = Ok ([3;119;119;119], [1;97;0])%N.
Proof. reflexivity. Qed.

(* Chain::new is exact for an absolute right side, and complete for a
   relative one: a chain whose composed name is valid is never refused *)
Theorem chain_abs_iff l r : valid_rel l -> valid_abs r ->
  (chain_new (wire_len l) (wire_len r + 1) = Ok tt <-> valid_abs (l ++ r)).
Proof.
  intros Hl Hr. split; [apply chain_abs_valid; assumption|].
  intros [_ Hlen]. rewrite wire_len_app in Hlen. apply chain_new_ok. lia.
Qed.

Theorem chain_rel_complete l r : valid_rel (l ++ r) -> chain_new (wire_len l) (wire_len r) = Ok tt.
Proof. intros [_ Hlen]. rewrite wire_len_app in Hlen. apply chain_new_ok. lia. Qed.

Example chain_iff_ex : chain_new 250 6 = Err W_LongChain /\ chain_new 250 5 = Ok tt.
Proof. split; reflexivity. Qed.

(* conversions between the representations are inverse to each other, and
   truncate at the split point followed by the rest is the name again *)
Theorem relative_absolute_roundtrip n : valid_abs n ->
  (do r <- n_into_relative (wire_abs n); n_into_absolute None r) = Ok (wire_abs n) /\
  (do a <- n_into_absolute None (wire_rel n); n_into_relative a) = Ok (wire_rel n) /\
  (do r <- n_into_relative (wire_abs n); n_chain_root r) = Ok (wire_abs n).
Proof.
  intros Hn. destruct (into_relative_spec n Hn) as [H1 _]. destruct (into_absolute_spec n Hn) as [H2 _].
  destruct (chain_root_spec n Hn) as [H3 _].
  rewrite H1, H2. cbn [bind]. rewrite H1, H2, H3. auto.
Qed.

Example relative_absolute_ex :
  (do r <- n_into_relative [1;97;0]%N; n_into_absolute None r) = Ok [1;97;0]%N.
Proof. reflexivity. Qed.

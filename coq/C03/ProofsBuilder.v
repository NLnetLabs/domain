(* C03 -- the transcribed name builder (Model.v) refines the abstract one
   (Spec.v): one simulation lemma per operation, for every capacity. *)
From Coq Require Import NArith List Bool Arith Lia.
From Coq Require Import ZifyN ZifyNat.
From DV Require Import Base.Outcome Base.Bytes Base.Names C03.Gen C03.Model C03.Spec.
Import ListNotations.

Lemma exceeds_ge a lim : exceeds true a lim = (lim <=? a)%nat.
Proof. reflexivity. Qed.
Lemma exceeds_gt a lim : exceeds false a lim = (lim <? a)%nat.
Proof. reflexivity. Qed.

Lemma exceeds_false ge a lim : exceeds ge a lim = false <-> if ge then (a < lim)%nat else (a <= lim)%nat.
Proof. destruct ge; [apply Nat.leb_gt|apply Nat.ltb_ge]. Qed.

Lemma set_nth_app p x c v : set_nth (length p) (p ++ x :: c) v = p ++ v :: c.
Proof. induction p as [|y p IH]; [reflexivity|]. cbn [length app set_nth]. rewrite IH. reflexivity. Qed.

Lemma wire_rel_snoc cl c : wire_rel (cl ++ [c]) = wire_rel cl ++ N.of_nat (length c) :: c.
Proof.
  rewrite wire_rel_app. f_equal. unfold wire_rel. cbn [map concat]. rewrite app_nil_r. reflexivity.
Qed.

Lemma wire_len_snoc cl c : wire_len (cl ++ [c]) = (wire_len cl + S (length c))%nat.
Proof. rewrite wire_len_app. cbn [wire_len]. lia. Qed.

Lemma alen_open a c : opn a = Some c -> alen a = (wire_len (closed a) + S (length c))%nat.
Proof. unfold alen. intros ->. reflexivity. Qed.

Lemma alen_closed a : opn a = None -> alen a = wire_len (closed a).
Proof. unfold alen. intros ->. apply Nat.add_0_r. Qed.

Lemma opn_aend a : opn (aend a) = None.
Proof. unfold aend. destruct (opn a) eqn:E; [reflexivity|exact E]. Qed.

Lemma alen_aend a : alen (aend a) = alen a.
Proof.
  rewrite (alen_closed _ (opn_aend a)). unfold aend. destruct (opn a) as [c|] eqn:E.
  - rewrite (alen_open a c E). apply wire_len_snoc.
  - symmetry. apply alen_closed, E.
Qed.

Lemma fits_aend cap a k : fits cap (aend a) k = fits cap a k.
Proof. unfold fits. rewrite alen_aend. reflexivity. Qed.

Lemma awf_aend a : awf a -> awf (aend a).
Proof.
  unfold awf, aend. destruct (opn a) as [c|] eqn:E; cbn [closed opn]; [|rewrite E; trivial].
  intros [H1 H2]. split; [|exact I]. apply Forall_app. split; [exact H1|]. constructor; [exact H2|constructor].
Qed.

Definition okerr (r : outcome unit) : Prop :=
  match r with Ok _ | Err _ => True | _ => False end.

(* What an abstract operation started in [a] guarantees beside its result [ar]:
   from at most 254 octets it ends above 254 exactly when [G] holds; it does not
   panic; an error excludes [G], leaves the state as it was if the operation is
   [atomic], and is ShortBuf only on a bounded buffer. *)
Definition a_ok (cap : option nat) (a : astate) (G : Prop) (atomic : bool) (ar : ares) : Prop :=
  ((alen a <= 254)%nat -> (G <-> (254 < alen (fst ar))%nat)) /\ okerr (snd ar) /\
  forall e, snd ar = Err e -> ~ G /\ (atomic = true -> fst ar = a) /\ (cap = None -> e <> E_ShortBuf).

Lemma a_ok_err cap a (G : Prop) atomic e : ~ G -> (cap = None -> e <> E_ShortBuf) -> a_ok cap a G atomic (a, Err e).
Proof.
  intros HG He. split; cbn [fst snd]; [intros H; split; [contradiction|lia]|].
  split; [exact I|]. intros e' [= <-]. auto.
Qed.

Lemma a_ok_ok cap a (G : Prop) atomic a' : ((alen a <= 254)%nat -> (G <-> (254 < alen a')%nat)) ->
  a_ok cap a G atomic (a', Ok tt).
Proof. intros H. split; [exact H|]. split; [exact I|discriminate]. Qed.

Lemma a_ok_fits cap a (G : Prop) atomic k a' : (fits cap a k = false -> ~ G) ->
  (fits cap a k = true -> (alen a <= 254)%nat -> (G <-> (254 < alen a')%nat)) ->
  a_ok cap a G atomic (if fits cap a k then (a', Ok tt) else (a, Err E_ShortBuf)).
Proof.
  intros H0 H1. destruct (fits cap a k) eqn:F.
  - apply a_ok_ok, H1. reflexivity.
  - apply a_ok_err; [apply H0; reflexivity|intros ->; discriminate F].
Qed.

Lemma a_push_ok cap a ch : a_ok cap a False true (a_push cap a ch).
Proof.
  unfold a_push.
  destruct (Nat.leb_spec 254 (alen a)); [apply a_ok_err; [tauto|discriminate]|].
  destruct (opn a) as [c|] eqn:E.
  - destruct (63 <=? length c)%nat; [apply a_ok_err; [tauto|discriminate]|].
    apply a_ok_fits; [tauto|]. intros _. rewrite (alen_open a c E) in *. unfold alen. cbn [closed opn].
    rewrite app_length. cbn [length]. lia.
  - destruct (Nat.leb_spec 253 (alen a)); [apply a_ok_err; [tauto|discriminate]|].
    apply a_ok_fits; [tauto|]. intros _. rewrite (alen_closed a E) in *. unfold alen. cbn [closed opn length]. lia.
Qed.

(* [a0] is as long as [a]: in the uses it is [aend a] *)
Lemma a_ok_then cap a a0 atomic r k : alen a0 = alen a -> a_ok cap a0 False atomic r ->
  (forall a1, a_ok cap a1 False false (k a1)) -> a_ok cap a False false (a_then r k).
Proof.
  intros E (H1 & H2 & H3) Hk. rewrite E in H1.
  destruct r as [a1 [[]|e|p|]]; cbn [a_then fst snd] in *; try contradiction.
  - destruct (Hk a1) as (K1 & K2 & K3). split; [|split; [exact K2|]].
    + intros H. apply K1, Nat.nlt_ge. exact (proj2 (H1 H)).
    + intros e He. split; [tauto|]. split; [discriminate|apply (K3 e He)].
  - split; [exact H1|]. split; [exact I|]. intros e' [= <-]. split; [tauto|]. split; [discriminate|apply (H3 e eq_refl)].
Qed.

Lemma a_pushes_ok cap l : forall a, a_ok cap a False false (a_pushes cap a l).
Proof.
  induction l as [|ch l IH]; intros a; cbn [a_pushes].
  - apply a_ok_ok. lia.
  - apply (a_ok_then cap a a true); [reflexivity|apply a_push_ok|exact IH].
Qed.

Lemma a_ok_then_end cap a atomic r : a_ok cap (aend a) False atomic r ->
  a_ok cap a False false (a_then r (fun a => (aend a, Ok tt))).
Proof.
  intros H. apply (a_ok_then cap a (aend a) atomic); [apply alen_aend|exact H|].
  intros a1. apply a_ok_ok. rewrite alen_aend. lia.
Qed.

(* the abstract reading of Spec.new_label_at_254 *)
Definition a_gap (cap : option nat) (a : astate) (n : nat) : Prop :=
  (1 <= n <= 63)%nat /\ (alen a + n = 254)%nat /\ fits cap a (S n) = true.

Lemma a_slice_ok cap a s :
  a_ok cap a (match opn a with None => a_gap cap a (length s) | Some _ => False end) true (a_slice cap a s).
Proof.
  unfold a_slice, a_gap. destruct s as [|x s'].
  { apply a_ok_ok. destruct (opn a); cbn [length]; lia. }
  assert (Hn : (1 <= length (x :: s'))%nat) by (cbn [length]; lia). set (s := x :: s') in *. clearbody s.
  destruct (opn a) as [c|] eqn:E.
  - destruct (Nat.ltb_spec 63 (length c + length s)); [apply a_ok_err; [tauto|discriminate]|].
    destruct (Nat.ltb_spec 254 (alen a + length s)); [apply a_ok_err; [tauto|discriminate]|].
    apply a_ok_fits; [tauto|]. intros _. rewrite (alen_open a c E) in *. unfold alen. cbn [closed opn].
    rewrite app_length. lia.
  - destruct (Nat.ltb_spec 63 (length s)); [apply a_ok_err; [lia|discriminate]|].
    destruct (Nat.ltb_spec 254 (alen a + length s)); [apply a_ok_err; [lia|discriminate]|].
    apply a_ok_fits; intros ->; [intros (_ & _ & [=])|intros _].
    rewrite (alen_closed a E) in *. unfold alen. cbn [closed opn]. lia.
Qed.

Definition a_gap_step (cap : option nat) (a : astate) (o : op) : Prop :=
  match o with
  | OSlice s => match opn a with None => a_gap cap a (length s) | Some _ => False end
  | OLabel l => a_gap cap (aend a) (length l)
  | _ => False
  end.

Theorem a_step_ok cap a o : a_ok cap a (a_gap_step cap a o) (atomic_op o) (a_step cap a o).
Proof.
  destruct o; cbn [a_step a_gap_step atomic_op].
  - apply a_push_ok.
  - apply a_slice_ok.
  - apply a_ok_ok. rewrite alen_aend. lia.
  - unfold a_label. destruct (a_slice_ok cap (aend a) l) as (S1 & S2 & S3). rewrite opn_aend, alen_aend in S1.
    destruct (a_slice cap (aend a) l) as [a2 [[]|e|p|]]; cbn [fst snd] in *; try contradiction.
    + apply a_ok_ok. rewrite alen_aend. exact S1.
    + destruct (S3 e eq_refl) as (Hg & _ & Hc). rewrite opn_aend in Hg. apply a_ok_err; assumption.
  - apply (a_ok_then_end cap a false), a_pushes_ok.
  - apply (a_ok_then_end cap a false), a_pushes_ok.
  - unfold a_name. rewrite fits_aend, alen_aend.
    destruct (Nat.ltb_spec 254 (alen a + wire_len nm)); [apply a_ok_err; [tauto|discriminate]|].
    apply a_ok_fits; [tauto|]. intros _. unfold alen at 2. cbn [closed opn].
    rewrite wire_len_app, <- (alen_closed _ (opn_aend a)), alen_aend. lia.
Qed.

Lemma repr_len a st : repr a st -> length (buf st) = alen a.
Proof.
  unfold repr, alen. destruct (opn a) as [c|].
  - intros [ph ->]. cbn [buf]. rewrite app_length, wire_rel_length. cbn [length]. lia.
  - intros ->. cbn [buf]. rewrite wire_rel_length. lia.
Qed.

Lemma repr_head a st : repr a st ->
  head st = match opn a with Some _ => Some (wire_len (closed a)) | None => None end.
Proof. unfold repr. destruct (opn a); [intros [ph ->]|intros ->]; reflexivity. Qed.

Lemma raw_append_fits cap a b s : length b = alen a ->
  raw_append cap b s = if fits cap a (length s) then Some (b ++ s) else None.
Proof. intros H. unfold raw_append, fits. destruct cap; [rewrite H|]; reflexivity. Qed.

Definition refines (ar : ares) (r : res) : Prop :=
  repr (fst ar) (fst r) /\ snd r = snd ar /\ awf (fst ar) /\ okerr (snd ar).

Lemma mk_refines a' st' r : repr a' st' -> awf a' -> okerr r -> refines (a', r) (st', r).
Proof. unfold refines. cbn [fst snd]. auto. Qed.

Lemma refines_err a st e : awf a -> repr a st -> refines (a, Err e) (st, Err e).
Proof. intros Hw Hr. apply mk_refines; [exact Hr|exact Hw|exact I]. Qed.

Lemma then_refines ar r (ka : astate -> ares) (kb : bstate -> res) : refines ar r ->
  (forall a st, awf a -> repr a st -> refines (ka a) (kb st)) -> refines (a_then ar ka) (and_then r kb).
Proof.
  destruct ar as [a1 ar1], r as [st1 r1]. intros (R1 & R2 & R3 & R4) H. cbn [fst snd] in *. subst r1.
  destruct ar1 as [[]|e|p|]; try contradiction; [apply H; assumption|apply refines_err; assumption].
Qed.

Lemma end_refines a st : awf a -> repr a st -> refines (aend a, Ok tt) (b_end_label st).
Proof.
  intros Hw Hr. assert (Hw' := awf_aend a Hw). destruct Hw as [Hc Ho].
  unfold repr in Hr. unfold b_end_label. destruct (opn a) as [c|] eqn:E.
  - destruct Hr as [ph ->]. cbn [head buf]. destruct Ho as [[Hl1 Hl2] Hb].
    rewrite app_length, wire_rel_length. cbn [length]. unfold end_label_sub.
    destruct (Nat.ltb_spec (wire_len (closed a) + S (length c)) (wire_len (closed a) + 1)); [lia|].
    destruct (Nat.leb_spec (wire_len (closed a) + S (length c)) (wire_len (closed a))); [lia|].
    apply mk_refines; [|exact Hw'|exact I].
    unfold repr, aend. rewrite E. cbn [opn closed]. rewrite wire_rel_snoc.
    rewrite <- (wire_rel_length (closed a)), set_nth_app. rewrite wire_rel_length.
    replace (wire_len (closed a) + S (length c) - wire_len (closed a) - 1)%nat with (length c) by lia.
    rewrite N.mod_small by lia. reflexivity.
  - subst st. cbn [head]. apply mk_refines; [|exact Hw'|exact I].
    unfold repr, aend. rewrite E, E. reflexivity.
Qed.

Lemma end_ok a st : awf a -> repr a st -> exists st', b_end_label st = (st', Ok tt) /\ repr (aend a) st'.
Proof.
  intros Hw Hr. destruct (end_refines a st Hw Hr) as (H1 & H2 & _). cbn [fst snd] in *.
  destruct (b_end_label st) as [st' r]. cbn [fst snd] in *. subst r. eauto.
Qed.

Lemma extend_open a st c s : awf a -> repr a st -> opn a = Some c -> (length c + length s <= 63)%nat ->
  wf_bytes s -> refines (mk_a (closed a) (Some (c ++ s)), Ok tt) (mk_b (buf st ++ s) (Some (wire_len (closed a))), Ok tt).
Proof.
  intros [Hc Ho] Hr E Hl Hs. unfold repr in Hr. rewrite E in *. destruct Hr as [ph ->]. destruct Ho as [[Hl1 _] Hb].
  apply mk_refines; [| |exact I].
  - unfold repr. cbn [opn closed buf]. exists ph. rewrite <- app_assoc. reflexivity.
  - split; [exact Hc|]. cbn [opn]. split; [rewrite app_length; lia|apply wf_bytes_app; split; assumption].
Qed.

Lemma start_open a st s : awf a -> repr a st -> opn a = None -> (1 <= length s <= 63)%nat -> wf_bytes s ->
  refines (mk_a (closed a) (Some s), Ok tt) (mk_b (buf st ++ 0%N :: s) (Some (alen a)), Ok tt).
Proof.
  intros [Hc _] Hr E Hl Hs. unfold repr in Hr. rewrite E in Hr. subst st. apply mk_refines; [| |exact I].
  - unfold repr. cbn [opn closed buf]. exists 0%N. rewrite (alen_closed a E). reflexivity.
  - split; [exact Hc|]. split; assumption.
Qed.

Lemma push_refines cap a st ch : awf a -> repr a st -> (ch < 256)%N ->
  refines (a_push cap a ch) (b_push cap st ch).
Proof.
  intros Hw Hr Hch. pose proof (repr_len a st Hr) as Hlen. assert (Hs : wf_bytes [ch]) by (repeat constructor; exact Hch).
  unfold b_push, a_push. rewrite Hlen, (repr_head a st Hr), !(raw_append_fits cap a _ _ Hlen). cbn [length].
  unfold push_total_ge, push_total_lim. rewrite exceeds_ge.
  destruct (254 <=? alen a)%nat; [apply refines_err; assumption|].
  destruct (opn a) as [c|] eqn:E.
  - rewrite (alen_open a c E).
    destruct (Nat.ltb_spec (wire_len (closed a) + S (length c)) (wire_len (closed a))); [lia|].
    unfold push_label_ge, push_label_lim. rewrite exceeds_gt.
    destruct (Nat.ltb_spec 63 (wire_len (closed a) + S (length c) - wire_len (closed a)));
      destruct (Nat.leb_spec 63 (length c)); try lia; [apply refines_err; assumption|].
    destruct (fits cap a 1); [|apply refines_err; assumption].
    apply extend_open; [assumption..|cbn [length]; lia|exact Hs].
  - unfold push_new_ge, push_new_lim, push_head_first. rewrite exceeds_ge.
    destruct (253 <=? alen a)%nat; [apply refines_err; assumption|].
    destruct (fits cap a 2); [|apply refines_err; assumption].
    apply start_open; [assumption..|cbn [length]; lia|exact Hs].
Qed.

Lemma slice_refines cap a st s : awf a -> repr a st -> wf_bytes s ->
  refines (a_slice cap a s) (b_append_slice cap st s).
Proof.
  intros Hw Hr Hs. pose proof (repr_len a st Hr) as Hlen.
  unfold b_append_slice, a_slice.
  destruct s as [|x s']; [apply mk_refines; [assumption|assumption|exact I]|].
  assert (Hn : (1 <= length (x :: s'))%nat) by (cbn [length]; lia). set (s := x :: s') in *. clearbody s.
  rewrite Hlen, (repr_head a st Hr), !(raw_append_fits cap a _ _ Hlen).
  destruct (opn a) as [c|] eqn:E.
  - rewrite (alen_open a c E).
    unfold asl_in_label_sub, asl_in_label_ge, asl_in_label_lim, asl_in_total_ge, asl_in_total_lim.
    rewrite !exceeds_gt.
    destruct (Nat.ltb_spec (wire_len (closed a) + S (length c)) (wire_len (closed a) + 1)); [lia|].
    replace (wire_len (closed a) + S (length c) - wire_len (closed a) - 1)%nat with (length c) by lia.
    destruct (Nat.ltb_spec 63 (length c + length s)); [apply refines_err; assumption|].
    destruct (254 <? _)%nat; [apply refines_err; assumption|].
    destruct (fits cap a (length s)); [|apply refines_err; assumption].
    apply extend_open; assumption.
  - unfold asl_new_label_ge, asl_new_label_lim, label_max, asl_new_total_ge, asl_new_total_lim, asl_placeholder.
    rewrite !exceeds_gt.
    destruct (Nat.ltb_spec 63 (length s)); [apply refines_err; assumption|].
    destruct (254 <? _)%nat; [apply refines_err; assumption|].
    destruct (Nat.ltb_spec (63 + 1) (length s + 1)); [lia|].
    change (length (0%N :: s)) with (S (length s)).
    destruct (fits cap a (S (length s))); [|apply refines_err; assumption].
    apply start_open; [assumption..|lia|exact Hs].
Qed.

(* restoring the saved head after the label has been ended: the same abstract
   state, the placeholder octet now holds the length *)
Lemma restore_head a st st1 : repr a st -> repr (aend a) st1 -> repr a (mk_b (buf st1) (head st)).
Proof.
  unfold repr, aend. destruct (opn a) as [c|] eqn:E; cbn [opn closed].
  - intros [ph ->] ->. cbn [buf head]. rewrite wire_rel_snoc. eauto.
  - rewrite E. intros -> ->. reflexivity.
Qed.

Lemma label_refines cap a st l : awf a -> repr a st -> wf_bytes l ->
  refines (a_label cap a l) (b_append_label cap st l).
Proof.
  intros Hw Hr Hl. unfold b_append_label, a_label.
  destruct (end_ok a st Hw Hr) as (st1 & E1 & Hr1). rewrite E1.
  pose proof (slice_refines cap (aend a) st1 l (awf_aend a Hw) Hr1 Hl) as (R1 & R2 & R3 & R4).
  destruct (a_slice_ok cap (aend a) l) as (_ & _ & Hsame).
  destruct (b_append_slice cap st1 l) as [st2 r2]. destruct (a_slice cap (aend a) l) as [a2 ar2].
  cbn [fst snd] in *. subst r2. destruct ar2 as [[]|e|p|]; try contradiction.
  - apply end_refines; assumption.
  - unfold append_label_restores_head. destruct (Hsame e eq_refl) as (_ & Hs & _). rewrite (Hs eq_refl) in R1.
    apply mk_refines; [apply restore_head; assumption|assumption|exact I].
Qed.

(* append_dec_u8_label, append_hex_digit_label: a run of pushes between two end_label *)
Fixpoint b_pushes (cap : option nat) (st : bstate) (l : bytes) : res :=
  match l with
  | [] => (st, Ok tt)
  | ch :: l' => and_then (b_push cap st ch) (fun st => b_pushes cap st l')
  end.

Lemma pushes_refines cap l : forall a st, awf a -> repr a st -> wf_bytes l ->
  refines (a_pushes cap a l) (b_pushes cap st l).
Proof.
  induction l as [|ch l IH]; intros a st Hw Hr Hl.
  - apply mk_refines; [assumption|assumption|exact I].
  - inversion Hl as [|? ? Hch Hl']; subst. cbn [a_pushes b_pushes].
    apply then_refines; [apply push_refines; assumption|]. intros a1 st1 Hw1 Hr1. apply IH; assumption.
Qed.

(* [kb] is the code after the first end_label, shown to be the pushes and an end_label *)
Lemma ended_pushes_refines cap a st l (kb : bstate -> res) : awf a -> repr a st -> wf_bytes l ->
  (forall st1, kb st1 = and_then (b_pushes cap st1 l) (fun st => b_end_label st)) ->
  refines (a_then (a_pushes cap (aend a) l) (fun a => (aend a, Ok tt))) (and_then (b_end_label st) kb).
Proof.
  intros Hw Hr Hl Hk.
  apply (then_refines (aend a, Ok tt) _ (fun a1 => a_then (a_pushes cap a1 l) (fun a => (aend a, Ok tt))));
    [apply end_refines; assumption|].
  intros a1 st1 Hw1 Hr1. rewrite Hk. apply then_refines; [apply pushes_refines; assumption|]. apply end_refines.
Qed.

Lemma dec_digits_wf v : (v < 256)%N -> wf_bytes (dec_digits v).
Proof.
  intros H. unfold dec_digits, wf_bytes.
  apply Forall_app. split; [destruct (0 <? v / 100)%N; repeat constructor; lia|].
  apply Forall_app. split; [destruct ((0 <? v / 100)%N || (0 <? (v / 10) mod 10)%N); repeat constructor; lia|].
  repeat constructor. lia.
Qed.

Lemma dec_refines cap a st v : awf a -> repr a st -> (v < 256)%N ->
  refines (a_dec cap a v) (b_append_dec cap st v).
Proof.
  intros Hw Hr Hv. apply ended_pushes_refines; auto using dec_digits_wf.
  intros st1. unfold dec_digits, dec_hundred, dec_ten_a, dec_ten_b, dec_ten_c.
  destruct (0 <? v / 100)%N; cbn [orb app b_pushes].
  - destruct (b_push cap st1 (v / 100 + 48)) as [st2 [[]|e|p|]]; cbn [and_then]; try reflexivity.
    destruct (b_push cap st2 ((v / 10) mod 10 + 48)) as [st3 [[]|e|p|]]; cbn [and_then]; try reflexivity.
    destruct (b_push cap st3 (v mod 10 + 48)) as [st4 [[]|e|p|]]; cbn [and_then]; reflexivity.
  - destruct (0 <? (v / 10) mod 10)%N; cbn [app b_pushes and_then].
    + destruct (b_push cap st1 ((v / 10) mod 10 + 48)) as [st3 [[]|e|p|]]; cbn [and_then]; try reflexivity.
      destruct (b_push cap st3 (v mod 10 + 48)) as [st4 [[]|e|p|]]; cbn [and_then]; reflexivity.
    + destruct (b_push cap st1 (v mod 10 + 48)) as [st4 [[]|e|p|]]; cbn [and_then]; reflexivity.
Qed.

Lemma land15_lt v : (N.land v 15 < 16)%N.
Proof. change 15%N with (N.ones 4). rewrite N.land_ones. apply N.mod_upper_bound. discriminate. Qed.

Lemma hex_digit_char v : hex_digit v = Ok (hex_char v).
Proof.
  unfold hex_digit, hex_char, hex_mask. pose proof (land15_lt v) as H.
  remember (N.land v 15) as d. clear Heqd.
  assert (Hd : (d = 0 \/ d = 1 \/ d = 2 \/ d = 3 \/ d = 4 \/ d = 5 \/ d = 6 \/ d = 7 \/ d = 8 \/ d = 9 \/
          d = 10 \/ d = 11 \/ d = 12 \/ d = 13 \/ d = 14 \/ d = 15)%N) by lia.
  repeat (destruct Hd as [->|Hd]; [reflexivity|]). subst d. reflexivity.
Qed.

Lemma hex_char_byte v : (hex_char v < 256)%N.
Proof. unfold hex_char. pose proof (land15_lt v). destruct (N.land v 15 <? 10)%N; lia. Qed.

Lemma hex_refines cap a st v : awf a -> repr a st -> refines (a_hex cap a v) (b_append_hex cap st v).
Proof.
  intros Hw Hr. unfold b_append_hex. rewrite hex_digit_char.
  apply ended_pushes_refines; auto; [repeat constructor; apply hex_char_byte|].
  intros st1. cbn [b_pushes]. destruct (b_push cap st1 (hex_char v)) as [st2 [[]|e|p|]]; reflexivity.
Qed.

(* Label::compose over a label list appends all of it, or refuses when it does
   not fit; [within cap n]: n octets fit the buffer *)
Definition within (cap : option nat) (n : nat) : Prop :=
  match cap with Some c => (n <= c)%nat | None => True end.

Lemma raw_append_within cap b s : within cap (length b + length s) -> raw_append cap b s = Some (b ++ s).
Proof. destruct cap as [c|]; cbn; [intros H; apply Nat.leb_le in H; rewrite H|]; reflexivity. Qed.

Lemma compose_labels_fits cap : forall nm b, Forall (fun l => (length l < 256)%nat) nm ->
  within cap (length b + wire_len nm) -> compose_labels cap b nm = (b ++ wire_rel nm, true).
Proof.
  induction nm as [|l nm IH]; intros b Hv Hc; [cbn; rewrite app_nil_r; reflexivity|].
  inversion Hv as [|? ? Hl Hv']; subst. cbn [compose_labels wire_len] in *. unfold compose_label.
  rewrite !raw_append_within, IH, N.mod_small, <- !app_assoc; try reflexivity; try assumption; try lia;
    destruct cap; cbn [within] in *; rewrite ?app_length; cbn [length]; try exact I; lia.
Qed.

Lemma compose_labels_short c : forall nm b, nm <> [] -> (c < length b + wire_len nm)%nat ->
  snd (compose_labels (Some c) b nm) = false.
Proof.
  induction nm as [|l nm IH]; intros b Hne H; [contradiction|]. cbn [compose_labels wire_len] in *.
  unfold compose_label, raw_append. cbn [length].
  destruct (Nat.leb_spec (length b + 1) c); [|reflexivity]. rewrite app_length. cbn [length].
  destruct (Nat.leb_spec (length b + 1 + length l) c); [|reflexivity].
  destruct nm as [|l2 nm]; [cbn [wire_len] in H; lia|].
  apply IH; [discriminate|rewrite !app_length; cbn [length]; lia].
Qed.

Lemma valid_labels_short nm : Forall valid_label nm -> Forall (fun l => (length l < 256)%nat) nm.
Proof. apply Forall_impl. intros l [[_ H] _]. lia. Qed.

Lemma compose_labels_unbounded : forall nm b, Forall valid_label nm ->
  compose_labels None b nm = (b ++ wire_rel nm, true).
Proof. intros nm b Hv. apply compose_labels_fits; [apply valid_labels_short, Hv|exact I]. Qed.

Lemma name_refines cap a st nm : awf a -> repr a st -> Forall valid_label nm ->
  refines (a_name cap a nm) (b_append_name cap st nm).
Proof.
  intros Hw Hr Hn. unfold b_append_name, a_name.
  destruct (end_ok a st Hw Hr) as (st1 & E1 & Hr1). rewrite E1.
  pose proof (repr_len _ _ Hr1) as Hlen. rewrite Hlen.
  unfold append_name_ge, append_name_lim, append_name_tmp_cap. rewrite exceeds_gt.
  destruct (Nat.ltb_spec 254 (alen (aend a) + wire_len nm)).
  { apply mk_refines; [apply restore_head; assumption|assumption|exact I]. }
  rewrite compose_labels_fits by (try apply valid_labels_short, Hn; cbn [within length]; lia). cbn [app].
  rewrite (raw_append_fits cap (aend a)) by exact Hlen. rewrite wire_rel_length.
  destruct (fits cap (aend a) (wire_len nm)).
  - unfold repr in Hr1. rewrite opn_aend in Hr1. subst st1. cbn [buf head].
    apply mk_refines; [| |exact I].
    + unfold repr. cbn [opn closed]. rewrite wire_rel_app. reflexivity.
    + split; cbn [opn closed]; [|exact I]. apply Forall_app. split; [apply (awf_aend a Hw)|assumption].
  - apply mk_refines; [apply restore_head; assumption|assumption|exact I].
Qed.

Theorem step_refines cap a st o : awf a -> repr a st -> wf_op o ->
  refines (a_step cap a o) (step cap st o).
Proof.
  intros Hw Hr Ho. destruct o; cbn [step a_step wf_op] in *.
  - apply push_refines; assumption.
  - apply slice_refines; assumption.
  - apply end_refines; assumption.
  - apply label_refines; assumption.
  - apply dec_refines; assumption.
  - apply hex_refines; assumption.
  - apply name_refines; assumption.
Qed.

Lemma repr_init : repr a_init b_init.
Proof. reflexivity. Qed.
Lemma awf_init : awf a_init.
Proof. split; [constructor|exact I]. Qed.

Theorem run_refines cap ops : forall a st, awf a -> repr a st -> Forall wf_op ops ->
  repr (a_run cap a ops) (run cap st ops) /\ awf (a_run cap a ops).
Proof.
  induction ops as [|o ops IH]; intros a st Hw Hr Ho; [cbn; auto|].
  inversion Ho as [|? ? Ho1 Ho2]; subst.
  destruct (step_refines cap a st o Hw Hr Ho1) as (R1 & R2 & R3 & R4).
  cbn [a_run run fold_left]. apply IH; assumption.
Qed.

Theorem step_no_panic cap a st o : awf a -> repr a st -> wf_op o -> okerr (snd (step cap st o)).
Proof.
  intros Hw Hr Ho. destruct (step_refines cap a st o Hw Hr Ho) as (_ & R2 & _ & R4). rewrite R2. exact R4.
Qed.

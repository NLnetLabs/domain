(* C03 -- names derived from a parsed name by ParsedName::parent / split_first
   (iter_suffixes is parent): after any steps the shortened name flattens, on
   the fast path and through the label iterator, to the wire form of the
   corresponding suffix.  The single step is C04's (parent_step, parsed_inv). *)
From Coq Require Import NArith List Bool Arith Lia.
From Coq Require Import ZifyN ZifyNat.
From DV Require Import Base.Outcome Base.Bytes Base.Names Base.PName C01.Model C01.Proofs
  C04.Gen C04.Model C04.ProofsIter C04.ProofsParsed C04.ProofsCompressed C04.ProofsSuffix C03.ProofsParsed.
Import ListNotations.
Local Open Scope N_scope.

(* a sequence of steps: true = parent(), false = split_first(); a step on the
   root name does nothing *)
Fixpoint steps (ss : list bool) (m : bytes) (p : pname) : outcome pname :=
  match ss with
  | [] => Ok p
  | b :: r =>
      do o <- (if b then m_parent m p else m_split_first_rest m p);
      match o with Some p' => steps r m p' | None => steps r m p end
  end.

(* the octets split_first returns: octets[header .. header + 1 + len] *)
Definition split_first_label (m : bytes) (p : pname) : outcome (option bytes) :=
  if pn_len p =? 1 then Ok None else
  do r <- first_label (S (length m)) m (pn_pos p) false;
  let '(t, len, _) := r in Ok (Some (slice m t (t + len))).

Lemma step_good m p n (b : bool) : pgood m p n ->
  match n with
  | [] => (if b then m_parent m p else m_split_first_rest m p) = Ok None
  | _ :: n' => exists q, (if b then m_parent m p else m_split_first_rest m p) = Ok (Some q) /\ pgood m q n' /\
                         pn_compressed q = pn_compressed p
  end.
Proof.
  intros ([Hv Hl] & Hp & Hf).
  assert (Hk : (if b then m_parent m p else m_split_first_rest m p) = parent_gen true m p).
  { destruct parent_flag_kept as (K1 & K2 & _). unfold m_parent, m_split_first_rest. rewrite K1, K2. destruct b; reflexivity. }
  rewrite Hk. destruct n as [|l n'].
  - cbn [app] in Hp. apply plabels_root_len in Hp. unfold parent_gen. rewrite Hp. reflexivity.
  - inversion Hv as [|? ? [[L1 L2] L3] Hv']; subst.
    assert (Hne : n' ++ [[]] <> []) by (destruct n'; discriminate).
    destruct (parent_step m p l (n' ++ [[]]) Hp Hf ltac:(lia) Hne) as (q & Hq & Hpq & Hfq & Hc).
    exists q. split; [exact Hq|]. split; [|exact Hc].
    split; [split; [exact Hv'|cbn [wire_len] in Hl; lia]|]. split; assumption.
Qed.

Lemma steps_good ss : forall m p n, pgood m p n ->
  exists q, steps ss m p = Ok q /\ pgood m q (skipn (length ss) n).
Proof.
  induction ss as [|b r IH]; intros m p n Hg; [exists p; split; [reflexivity|exact Hg]|].
  cbn [steps length]. pose proof (step_good m p n b Hg) as S. destruct n as [|l n'].
  - rewrite S. cbn [bind]. destruct (IH m p [] Hg) as (q & Hq & Gq). exists q. split; [exact Hq|].
    rewrite skipn_nil in *. exact Gq.
  - destruct S as (q1 & E1 & G1 & _). rewrite E1. cbn [bind skipn]. apply IH. exact G1.
Qed.

Theorem parsed_suffix_flatten m pos lim p : parse_ref m pos lim = Ok p -> lim <= mlen m -> wf_bytes m ->
  exists n0, valid_abs n0 /\ parsed_flatten m p = Ok (wire_abs n0) /\
  forall ss, exists q, steps ss m p = Ok q /\
    let n := skipn (length ss) n0 in
    valid_abs n /\ parsed_flatten m q = Ok (wire_abs n) /\ parsed_to_name m q = Ok (wire_abs n) /\
    pn_len q = N.of_nat (length (wire_abs n)).
Proof.
  intros H Hl Hw. destruct (parsed_inv m pos lim p H Hl Hw) as (n0 & Vn & _ & Hp & Hf).
  assert (G : pgood m p n0) by (split; [exact Vn|split; assumption]).
  exists n0. split; [exact Vn|]. split; [apply (pgood_flatten m p n0 G)|].
  intros ss. destruct (steps_good ss m p n0 G) as (q & Hq & Gq). exists q. split; [exact Hq|].
  cbv zeta. destruct (pgood_flatten m q _ Gq) as (T & F & L). split; [apply Gq|]. auto.
Qed.

Lemma first_label_slice : forall fuel m pos l e crossed t len cr,
  get_label fuel m pos = Ok (l, e) -> first_label fuel m pos crossed = Ok (t, len, cr) ->
  slice m t (t + len) = wire_label l /\ len = clen l.
Proof.
  induction fuel as [|fuel IH]; intros m pos l e crossed t len cr H F; [discriminate|].
  cbn [get_label] in H. cbn [first_label] in F.
  destruct (mlen m - pos <? 1); [discriminate|].
  destruct (get m pos) as [b|] eqn:Eb; [|discriminate].
  destruct (N.leb_spec b 63) as [H63|H63].
  - cbv zeta in H. destruct (N.ltb_spec (mlen m) (pos + 1 + b)) as [Hs|Hs]; [discriminate|].
    destruct (b =? 0); [discriminate|]. injection F as <- <- <-. injection H as <- <-.
    unfold clen. rewrite slice_length by lia. split; [|lia].
    replace (pos + (b + 1)) with (pos + 1 + b) by lia.
    rewrite (slice_split m pos (pos + 1)) by lia. rewrite (slice_one m pos b Eb).
    unfold wire_label. rewrite slice_length by lia.
    replace (N.of_nat (N.to_nat (pos + 1 + b - (pos + 1)))) with b by lia. reflexivity.
  - destruct (192 <=? b); [|discriminate].
    destruct (mlen m - pos <? 2); [discriminate|].
    destruct (get m (pos + 1)) as [c|]; [|discriminate].
    destruct (mlen m <? c + 256 * (b mod 64)); [discriminate|].
    eapply IH; eauto.
Qed.

Theorem split_first_label_valid m p l n' : pgood m p (l :: n') ->
  split_first_label m p = Ok (Some (wire_rel [l])) /\ valid_rel [l].
Proof.
  intros ([Hv Hl] & Hp & Hf). inversion Hv as [|? ? [[L1 L2] L3] Hv']; subst.
  split; [|split; [constructor; [repeat split; auto|constructor]|cbn [wire_len]; lia]].
  cbn [app] in Hp. inversion Hp as [|? ? ? pos' ? Hz Hg Hc Hrest]; subst.
  assert (Hne : l <> []) by (intros ->; cbn in L1; lia).
  destruct (get_label_first_label _ _ _ _ _ false Hg Hne) as (t & cr & F & _ & _).
  unfold split_first_label.
  assert (E1 : (pn_len p =? 1) = false).
  { apply N.eqb_neq. destruct n' as [|x y]; cbn [app] in Hrest.
    - apply plabels_cons_len in Hrest. unfold clen in *. lia.
    - apply plabels_cons_len in Hrest. unfold clen in *. lia. }
  rewrite E1, F. cbn [bind].
  destruct (first_label_slice _ _ _ _ _ _ _ _ _ Hg F) as [S _]. rewrite S.
  unfold wire_rel. cbn [map concat]. rewrite app_nil_r. reflexivity.
Qed.

Theorem parsed_split_first_label m pos lim p : parse_ref m pos lim = Ok p -> lim <= mlen m -> wf_bytes m ->
  exists n0, valid_abs n0 /\ parsed_flatten m p = Ok (wire_abs n0) /\
  forall ss, exists q, steps ss m p = Ok q /\
    match skipn (length ss) n0 with
    | [] => split_first_label m q = Ok None
    | l :: _ => split_first_label m q = Ok (Some (wire_rel [l])) /\ valid_rel [l]
    end.
Proof.
  intros H Hl Hw. destruct (parsed_inv m pos lim p H Hl Hw) as (n0 & Vn & _ & Hp & Hf).
  assert (G : pgood m p n0) by (split; [exact Vn|split; assumption]).
  exists n0. split; [exact Vn|]. split; [apply (pgood_flatten m p n0 G)|].
  intros ss. destruct (steps_good ss m p n0 G) as (q & Hq & Gq). exists q. split; [exact Hq|].
  destruct (skipn (length ss) n0) as [|l n'].
  - destruct Gq as (_ & Hpq & _). cbn [app] in Hpq. apply plabels_root_len in Hpq.
    unfold split_first_label. rewrite Hpq. reflexivity.
  - eapply split_first_label_valid. exact Gq.
Qed.

(* non-vacuity: "a.b.com." stored as a + ptr -> (b + ptr -> com.), the shape
   of the seeded change C03-r4-3: two steps cross a pointer while another one
   is still ahead; the suffix "com." flattens to 03 63 6f 6d 00 on both paths *)
Example suffix_example :
  let m := [0;0;0;0;0;0;0;0;0;0;0;0; 3;99;111;109;0; 1;98;192;12; 1;97;192;17; 0;0;0;0;0] in
  exists p q, parse_ref m 21 (mlen m) = Ok p /\ steps [true; false] m p = Ok q /\
    pn_compressed q = true /\
    parsed_flatten m q = Ok [3;99;111;109;0] /\ parsed_to_name m q = Ok [3;99;111;109;0] /\
    split_first_label m p = Ok (Some [1;97]) /\
    steps [true; true; true; true; false] m p = steps [false; true; true] m p.
Proof.
  exists (mkPName 21 9 true 25), (mkPName 19 5 true 25). vm_compute. repeat split; reflexivity.
Qed.

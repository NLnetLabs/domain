(* Names.v -- domain names as lists of non-root labels (leftmost first).
   Wire encoding, validity (RFC 1035 limits), uncompressed decoding, the
   case-insensitive equality and the RFC 4034 section 6.1 canonical order. *)
From Coq Require Import NArith List Lia Bool ZArith.
From Coq Require Import ZifyN ZifyBool ZifyNat.
From DV Require Import Base.Bytes Base.Lex.
Import ListNotations.
Local Open Scope N_scope.

Definition label := bytes.
Definition name := list label.      (* without the root label *)

Definition valid_labelb (l : label) : bool :=
  negb (length l =? 0)%nat && (length l <=? 63)%nat && bytesb l.
Definition valid_label (l : label) : Prop :=
  (1 <= length l <= 63)%nat /\ wf_bytes l.

Lemma valid_labelb_spec l : valid_labelb l = true <-> valid_label l.
Proof.
  unfold valid_labelb, valid_label. rewrite !andb_true_iff, bytesb_spec, negb_true_iff.
  rewrite Nat.eqb_neq, Nat.leb_le. intuition lia.
Qed.

Definition wire_label (l : label) : bytes := N.of_nat (length l) :: l.
Definition wire_rel (n : name) : bytes := concat (map wire_label n).
Definition wire_abs (n : name) : bytes := wire_rel n ++ [0].

Fixpoint wire_len (n : name) : nat :=
  match n with [] => 0 | l :: n' => S (length l) + wire_len n' end.

Lemma wire_rel_length n : length (wire_rel n) = wire_len n.
Proof.
  unfold wire_rel. induction n as [|l n IH]; [reflexivity|].
  cbn [map concat wire_len]. rewrite app_length, IH. unfold wire_label. simpl. reflexivity.
Qed.

Lemma wire_abs_length n : length (wire_abs n) = S (wire_len n).
Proof. unfold wire_abs. rewrite app_length, wire_rel_length. simpl. lia. Qed.

Lemma wire_len_app a b : wire_len (a ++ b) = (wire_len a + wire_len b)%nat.
Proof. induction a; simpl; lia. Qed.

Lemma wire_rel_app a b : wire_rel (a ++ b) = wire_rel a ++ wire_rel b.
Proof. unfold wire_rel. rewrite map_app, concat_app. reflexivity. Qed.

(* each label carries its length in front, so the wire form determines the labels *)
Lemma wire_rel_inj a : forall b, wire_rel a = wire_rel b -> a = b.
Proof.
  induction a as [|l a IH]; intros [|l' b] H; try reflexivity; try discriminate H.
  cbn [wire_rel map concat wire_label app] in H. injection H as Hl H. apply Nat2N.inj in Hl.
  assert (E : l = l' /\ concat (map wire_label a) = concat (map wire_label b)).
  { clear IH. revert l' Hl H. induction l as [|x l IHl]; intros [|y l'] Hl H; try discriminate Hl; [auto|].
    injection H as -> H. injection Hl as Hl. destruct (IHl _ Hl H) as [-> ->]. auto. }
  destruct E as [-> E]. f_equal. apply IH, E.
Qed.

Lemma wire_abs_inj a b : wire_abs a = wire_abs b -> a = b.
Proof. unfold wire_abs. intros H. apply wire_rel_inj, (app_inv_tail _ _ _ H). Qed.

Definition valid_rel (n : name) : Prop := Forall valid_label n /\ (wire_len n <= 254)%nat.
Definition valid_abs (n : name) : Prop := Forall valid_label n /\ (wire_len n <= 254)%nat.
(* an absolute name is its labels plus the root octet: total <= 255 *)
Definition valid_relb (n : name) : bool := forallb valid_labelb n && (wire_len n <=? 254)%nat.
Definition valid_absb := valid_relb.

Lemma valid_relb_spec n : valid_relb n = true <-> valid_rel n.
Proof.
  unfold valid_relb, valid_rel. rewrite andb_true_iff, Nat.leb_le, forallb_forall, Forall_forall.
  split; intros [H1 H2]; split; auto; intros x Hx; apply valid_labelb_spec; auto.
Qed.

(* ---- uncompressed decoding (no pointers): Name::from_octets / check_slice *)
Inductive flat_err := FShort | FBadLabel | FLong.

Fixpoint parse_flat (fuel : nat) (b : bytes) (acc : name) (used : nat)
  : option (name * bytes) + flat_err :=
  match fuel with
  | O => inr FShort
  | S fuel' =>
      match b with
      | [] => inr FShort
      | h :: t =>
          if h =? 0 then inl (Some (rev acc, t))
          else if 63 <? h then inr FBadLabel
          else
            let k := N.to_nat h in
            if (length t <? k)%nat then inr FShort
            else if (254 <? used + 1 + k)%nat then inr FLong
            else parse_flat fuel' (skipn k t) (firstn k t :: acc) (used + 1 + k)
      end
  end.

Definition decode_abs (b : bytes) : option (name * bytes) + flat_err :=
  parse_flat (S (length b)) b [] 0.

Lemma wire_abs_cons l n rest :
  wire_abs (l :: n) ++ rest = N.of_nat (length l) :: (l ++ (wire_abs n ++ rest)).
Proof.
  unfold wire_abs, wire_rel. cbn [map concat]. unfold wire_label at 1.
  rewrite <- !app_assoc. reflexivity.
Qed.

Lemma parse_flat_wire fuel n rest acc used :
  Forall valid_label n -> (used + wire_len n <= 254)%nat -> (length n < fuel)%nat ->
  parse_flat fuel (wire_abs n ++ rest) acc used = inl (Some (rev acc ++ n, rest)).
Proof.
  revert n acc used; induction fuel as [|fuel IH]; intros n acc used Hv Hl Hf; [lia|].
  destruct n as [|l n].
  - simpl. rewrite app_nil_r. reflexivity.
  - inversion Hv as [|? ? [Hlen Hb] Hv']; subst.
    rewrite wire_abs_cons. cbn [parse_flat].
    assert (E0 : (N.of_nat (length l) =? 0) = false) by (apply N.eqb_neq; lia).
    assert (E1 : (63 <? N.of_nat (length l)) = false) by (apply N.ltb_ge; lia).
    rewrite E0, E1, Nat2N.id.
    set (tl := wire_abs n ++ rest).
    assert (E2 : (length (l ++ tl) <? length l)%nat = false)
      by (apply Nat.ltb_ge; rewrite app_length; lia).
    rewrite E2. cbn [wire_len] in Hl.
    assert (E3 : (254 <? used + 1 + length l)%nat = false) by (apply Nat.ltb_ge; lia).
    rewrite E3.
    rewrite firstn_app, firstn_all, Nat.sub_diag, skipn_app, skipn_all, Nat.sub_diag.
    cbn [firstn skipn app]. rewrite app_nil_r. subst tl.
    rewrite IH; [|assumption|lia|simpl in Hf; lia].
    cbn [rev]. rewrite <- app_assoc. reflexivity.
Qed.

Theorem decode_wire_abs n rest : valid_abs n ->
  decode_abs (wire_abs n ++ rest) = inl (Some (n, rest)).
Proof.
  intros [Hv Hl]. unfold decode_abs.
  rewrite parse_flat_wire with (n := n); auto.
  rewrite app_length, wire_abs_length.
  assert (length n <= wire_len n)%nat by (clear; induction n; simpl; lia). lia.
Qed.

(* what parse_flat accepts is a wire name: conversely to parse_flat_wire *)
Lemma parse_flat_sound : forall fuel b acc used n rest, (used <= 254)%nat ->
  parse_flat fuel b acc used = inl (Some (n, rest)) ->
  exists m, n = rev acc ++ m /\ b = wire_abs m ++ rest /\
    Forall (fun l : label => (1 <= length l <= 63)%nat) m /\ (used + wire_len m <= 254)%nat.
Proof.
  induction fuel as [|fuel IH]; intros b acc used n rest Hu0 H; [discriminate|].
  cbn [parse_flat] in H. destruct b as [|h t]; [discriminate|].
  destruct (N.eqb_spec h 0) as [Hz|Hz].
  - inversion H; subst. exists []. rewrite app_nil_r. repeat split; [constructor|cbn [wire_len]; lia].
  - destruct (N.ltb_spec 63 h) as [H63|H63]; [discriminate|].
    destruct (Nat.ltb_spec (length t) (N.to_nat h)) as [Hs|Hs]; [discriminate|].
    destruct (Nat.ltb_spec 254 (used + 1 + N.to_nat h)) as [Hl|Hl]; [discriminate|].
    apply IH in H; [|lia]. destruct H as [m [Hn [Hb [Hv Hu]]]].
    exists (firstn (N.to_nat h) t :: m).
    assert (Hlen : length (firstn (N.to_nat h) t) = N.to_nat h) by (apply firstn_length_le; lia).
    split; [rewrite Hn; cbn [rev]; rewrite <- app_assoc; reflexivity|]. split.
    + rewrite wire_abs_cons, Hlen, N2Nat.id. f_equal.
      rewrite <- Hb. symmetry. apply firstn_skipn.
    + split; [constructor; [lia|exact Hv]|]. cbn [wire_len]. lia.
Qed.

(* ---- equality, order, hash (Label: eq_ignore_ascii_case, cmp on lower-cased
   octets, hash feed = length octet then lower-cased octets) *)
Definition label_eqb (a b : label) : bool := eq_ci a b.
Definition label_cmp (a b : label) : comparison := lex_cmp (lowers a) (lowers b).
Definition label_hash_feed (l : label) : bytes := N.of_nat (length l) :: lowers l.

Definition canon (n : name) : name := map lowers n.

Lemma label_eqb_spec a b : label_eqb a b = true <-> lowers a = lowers b.
Proof. apply eq_ci_spec. Qed.

Lemma label_cmp_eq a b : label_cmp a b = Eq <-> label_eqb a b = true.
Proof. unfold label_cmp. rewrite lex_cmp_eq, label_eqb_spec. reflexivity. Qed.

Lemma label_cmp_antisym a b : label_cmp b a = CompOpp (label_cmp a b).
Proof. apply lex_cmp_antisym. Qed.

Lemma label_cmp_trans a b c o : label_cmp a b = o -> label_cmp b c = o -> label_cmp a c = o.
Proof. apply lex_cmp_trans. Qed.

Lemma label_eq_hash a b : label_eqb a b = true -> label_hash_feed a = label_hash_feed b.
Proof.
  intros H. apply label_eqb_spec in H. unfold label_hash_feed.
  rewrite H. f_equal. rewrite <- (lowers_length a), <- (lowers_length b), H. reflexivity.
Qed.

(* label-list comparison, first label most significant *)
Fixpoint labels_cmp (a b : list label) : comparison :=
  match a, b with
  | [], [] => Eq
  | [], _ :: _ => Lt
  | _ :: _, [] => Gt
  | x :: a', y :: b' =>
      match label_cmp x y with Eq => labels_cmp a' b' | c => c end
  end.

(* RFC 4034 6.1: sort by the rightmost label first; absence sorts first *)
Definition name_cmp (a b : name) : comparison := labels_cmp (rev a) (rev b).
Definition name_eqb (a b : name) : bool :=
  (length a =? length b)%nat && forallb (fun p => label_eqb (fst p) (snd p)) (combine a b).

Lemma name_eqb_spec a b : name_eqb a b = true <-> canon a = canon b.
Proof.
  unfold name_eqb, canon. revert b; induction a as [|x a IH]; intros [|y b]; simpl; split; intros H;
    try reflexivity; try discriminate.
  - apply andb_true_iff in H as [H1 H2]. apply andb_true_iff in H2 as [H2 H3].
    apply label_eqb_spec in H2. f_equal; [assumption|]. apply IH. apply andb_true_iff. split; assumption.
  - injection H as H1 H2. apply IH in H2. apply andb_true_iff in H2 as [H2 H3].
    apply andb_true_iff. split; [exact H2|]. apply andb_true_iff. split; [apply label_eqb_spec; assumption|assumption].
Qed.

Lemma name_eqb_refl a : name_eqb a a = true.
Proof. apply name_eqb_spec. reflexivity. Qed.

Lemma name_eqb_sym a b : name_eqb a b = name_eqb b a.
Proof.
  destruct (name_eqb a b) eqn:E1, (name_eqb b a) eqn:E2; try reflexivity.
  - apply name_eqb_spec in E1. symmetry in E1. apply name_eqb_spec in E1. congruence.
  - apply name_eqb_spec in E2. symmetry in E2. apply name_eqb_spec in E2. congruence.
Qed.

Lemma canon_idem n : canon (canon n) = canon n.
Proof. unfold canon. rewrite map_map. apply map_ext, lowers_idem. Qed.

Lemma canon_wire_len n : wire_len (canon n) = wire_len n.
Proof.
  induction n as [|l n IH]; [reflexivity|]. cbn [canon map wire_len]. rewrite lowers_length.
  f_equal. exact IH.
Qed.

Lemma labels_cmp_eq a b : labels_cmp a b = Eq <-> map lowers a = map lowers b.
Proof.
  revert b; induction a as [|x a IH]; intros [|y b]; simpl; split; intros H;
    try reflexivity; try discriminate.
  - destruct (label_cmp x y) eqn:E; try discriminate.
    apply label_cmp_eq, label_eqb_spec in E. f_equal; [assumption|apply IH; assumption].
  - injection H as H1 H2.
    assert (E : label_cmp x y = Eq) by (apply label_cmp_eq, label_eqb_spec; assumption).
    rewrite E. apply IH. assumption.
Qed.

Lemma labels_cmp_antisym a b : labels_cmp b a = CompOpp (labels_cmp a b).
Proof.
  revert b; induction a as [|x a IH]; intros [|y b]; simpl; try reflexivity.
  rewrite (label_cmp_antisym x y). destruct (label_cmp x y); simpl; auto.
Qed.

Lemma label_cmp_eq_subst_l x y z : label_cmp x y = Eq -> label_cmp x z = label_cmp y z.
Proof.
  intros H. apply label_cmp_eq, label_eqb_spec in H. unfold label_cmp. rewrite H. reflexivity.
Qed.

Lemma label_cmp_eq_subst_r x y z : label_cmp y z = Eq -> label_cmp x y = label_cmp x z.
Proof.
  intros H. apply label_cmp_eq, label_eqb_spec in H. unfold label_cmp. rewrite H. reflexivity.
Qed.

Lemma labels_cmp_trans a b c o :
  labels_cmp a b = o -> labels_cmp b c = o -> labels_cmp a c = o.
Proof.
  revert b c; induction a as [|x a IH]; intros [|y b] [|z c]; simpl; intros H1 H2; try congruence.
  destruct (label_cmp x y) eqn:E1; destruct (label_cmp y z) eqn:E2.
  - rewrite (label_cmp_eq_subst_l _ _ _ E1), E2. eapply IH; eauto.
  - rewrite (label_cmp_eq_subst_l _ _ _ E1), E2. congruence.
  - rewrite (label_cmp_eq_subst_l _ _ _ E1), E2. congruence.
  - rewrite <- (label_cmp_eq_subst_r x _ _ E2), E1. congruence.
  - rewrite (label_cmp_trans _ _ _ _ E1 E2). congruence.
  - congruence.
  - rewrite <- (label_cmp_eq_subst_r x _ _ E2), E1. congruence.
  - congruence.
  - rewrite (label_cmp_trans _ _ _ _ E1 E2). congruence.
Qed.

Theorem name_cmp_refl a : name_cmp a a = Eq.
Proof. unfold name_cmp. apply labels_cmp_eq. reflexivity. Qed.

Theorem name_cmp_antisym a b : name_cmp b a = CompOpp (name_cmp a b).
Proof. apply labels_cmp_antisym. Qed.

Theorem name_cmp_trans a b c o : name_cmp a b = o -> name_cmp b c = o -> name_cmp a c = o.
Proof. apply labels_cmp_trans. Qed.

Theorem name_cmp_eq_iff a b : name_cmp a b = Eq <-> name_eqb a b = true.
Proof.
  unfold name_cmp. rewrite labels_cmp_eq, name_eqb_spec. unfold canon.
  rewrite !map_rev. split; intros H.
  - apply (f_equal (@rev _)) in H. rewrite !rev_involutive in H. exact H.
  - f_equal. exact H.
Qed.

(* hash feed of a name: labels in order, then the root label's feed [0] *)
Definition name_hash_feed (n : name) : bytes := concat (map label_hash_feed n) ++ [0].

Theorem name_eq_hash a b : name_eqb a b = true -> name_hash_feed a = name_hash_feed b.
Proof.
  rewrite name_eqb_spec. unfold name_hash_feed, canon. revert b.
  induction a as [|x a IH]; intros [|y b] H; cbn [map concat] in *; try discriminate; [reflexivity|].
  injection H as H1 H2.
  rewrite (label_eq_hash x y) by (apply label_eqb_spec; assumption).
  rewrite <- !app_assoc. f_equal. apply IH. assumption.
Qed.

Example names_example :
  name_cmp [[97]; [98]] [[65]; [98]] = Eq /\ name_cmp [[122]; [97]] [[97]; [98]] = Lt /\
  decode_abs (wire_abs [[119;119;119]; [97]] ++ [1;2]) = inl (Some ([[119;119;119]; [97]], [1;2])).
Proof. vm_compute. auto. Qed.

(* Bytes.v -- octets as N, octet strings as list N; big-endian helpers,
   ASCII lower-casing; option-returning list access (no defaulted nth). *)
From Coq Require Import NArith List Lia Bool ZArith.
From Coq Require Import ZifyN ZifyBool ZifyNat.
Import ListNotations.
Local Open Scope N_scope.

(* How [lia] is set up, for every file that imports this one.  ZifyN and ZifyNat switch
   division and modulo on; ZifyBool installs a post hook that splits on every boolean atom of
   the goal, which is paid for at each call whether or not a boolean matters.  The hook is
   switched off here (both settings are global once loaded, so no later import undoes them):
   a goal that needs a case split on a boolean says so with [destruct]. *)
Ltac Zify.zify_post_hook ::= idtac.

Definition bytes := list N.

Definition byteb (b : N) : bool := b <? 256.
Definition bytesb (l : bytes) : bool := forallb byteb l.
Definition wf_bytes (l : bytes) : Prop := Forall (fun b => b < 256) l.

Lemma bytesb_spec l : bytesb l = true <-> wf_bytes l.
Proof.
  unfold bytesb, wf_bytes, byteb. rewrite forallb_forall, Forall_forall.
  split; intros H x Hx; specialize (H x Hx); lia.
Qed.

Lemma wf_bytes_app a b : wf_bytes (a ++ b) <-> wf_bytes a /\ wf_bytes b.
Proof. unfold wf_bytes. apply Forall_app. Qed.

(* u8::to_ascii_lowercase *)
Definition lower (b : N) : N := if (65 <=? b) && (b <=? 90) then b + 32 else b.
Definition lowers (l : bytes) : bytes := map lower l.

Lemma lower_idem b : lower (lower b) = lower b.
Proof. unfold lower. destruct ((65 <=? b) && (b <=? 90)) eqn:E.
  - destruct ((65 <=? b + 32) && (b + 32 <=? 90)) eqn:E2; lia.
  - rewrite E. reflexivity.
Qed.

Lemma lower_byte b : b < 256 -> lower b < 256.
Proof. unfold lower. destruct ((65 <=? b) && (b <=? 90)) eqn:E; lia. Qed.

Lemma lowers_idem l : lowers (lowers l) = lowers l.
Proof. unfold lowers. rewrite map_map. apply map_ext. apply lower_idem. Qed.

Lemma lowers_length l : length (lowers l) = length l.
Proof. apply map_length. Qed.

Lemma lowers_app a b : lowers (a ++ b) = lowers a ++ lowers b.
Proof. apply map_app. Qed.

(* [u8]::eq_ignore_ascii_case *)
Fixpoint eq_ci (a b : bytes) : bool :=
  match a, b with
  | [], [] => true
  | x :: a', y :: b' => (lower x =? lower y) && eq_ci a' b'
  | _, _ => false
  end.

Lemma eq_ci_spec a b : eq_ci a b = true <-> lowers a = lowers b.
Proof.
  revert b; induction a as [|x a IH]; intros [|y b]; simpl; split; intros H;
    try reflexivity; try discriminate.
  - apply andb_true_iff in H as [H1 H2]. apply N.eqb_eq in H1. apply IH in H2. congruence.
  - injection H as H1 H2. apply andb_true_iff. split; [apply N.eqb_eq; assumption | apply IH; assumption].
Qed.

(* big endian *)
Definition be16 (n : N) : bytes := [n / 256; n mod 256].
Definition be32 (n : N) : bytes :=
  [n / 16777216; (n / 65536) mod 256; (n / 256) mod 256; n mod 256].
Definition of_be16 (a b : N) : N := a * 256 + b.
Definition of_be32 (a b c d : N) : N := ((a * 256 + b) * 256 + c) * 256 + d.

Lemma be16_roundtrip n : n < 65536 -> of_be16 (n / 256) (n mod 256) = n.
Proof. unfold of_be16. intros. lia. Qed.

Lemma of_be16_be16 a b : a < 256 -> b < 256 -> be16 (of_be16 a b) = [a; b].
Proof. unfold be16, of_be16. intros. f_equal; [|f_equal]; lia. Qed.

Lemma be16_wf n : n < 65536 -> wf_bytes (be16 n).
Proof. unfold be16, wf_bytes. intros. repeat constructor; lia. Qed.

Lemma be32_roundtrip n : n < 4294967296 ->
  of_be32 (n / 16777216) ((n / 65536) mod 256) ((n / 256) mod 256) (n mod 256) = n.
Proof. unfold of_be32. intros. lia. Qed.

Lemma be32_wf n : n < 4294967296 -> wf_bytes (be32 n).
Proof. unfold be32, wf_bytes. intros. repeat constructor; lia. Qed.

(* bit fields packed with `|`: the two operands have no bit in common, so it is `+` *)
Lemma lor_mul_pow2_add a b k : b < 2 ^ k -> N.lor (a * 2 ^ k) b = a * 2 ^ k + b.
Proof.
  intros Hb.
  assert (D : N.land (a * 2 ^ k) b = 0).
  { apply N.bits_inj. intros i. rewrite N.land_spec, N.bits_0.
    destruct (N.lt_ge_cases i k) as [L|L].
    - rewrite N.mul_pow2_bits_low by exact L. reflexivity.
    - rewrite <- (N.mod_small b (2 ^ k)), N.mod_pow2_bits_high by assumption. apply andb_false_r. }
  rewrite <- N.lxor_lor, <- N.add_nocarry_lxor by exact D. reflexivity.
Qed.

(* list access *)
Definition nth_opt {A} (l : list A) (i : nat) : option A := nth_error l i.
Definition drop {A} (n : nat) (l : list A) : list A := skipn n l.
Definition take {A} (n : nat) (l : list A) : list A := firstn n l.
Definition len (l : bytes) : N := N.of_nat (length l).

Lemma len_app (a b : bytes) : len (a ++ b) = len a + len b.
Proof. unfold len. rewrite app_length. lia. Qed.

Lemma skipn_add {A} (l : list A) a b : skipn b (skipn a l) = skipn (a + b) l.
Proof.
  revert l. induction a as [|a IH]; intros l; [reflexivity|].
  destruct l as [|x l]; [cbn [Nat.add skipn]; apply skipn_nil | apply IH].
Qed.

Lemma take_drop {A} n (l : list A) : take n l ++ drop n l = l.
Proof. apply firstn_skipn. Qed.

Lemma drop_app_length {A} (a b : list A) : drop (length a) (a ++ b) = b.
Proof. unfold drop. rewrite skipn_app, skipn_all, Nat.sub_diag. reflexivity. Qed.

Lemma take_app_length {A} (a b : list A) : take (length a) (a ++ b) = a.
Proof. unfold take. rewrite firstn_app, firstn_all, Nat.sub_diag. simpl. apply app_nil_r. Qed.

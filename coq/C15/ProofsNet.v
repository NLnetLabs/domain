(* C15 proofs: is_answer, the datagram receive loop, the TC rule and
   the stream response-timeout configuration. *)
From Coq Require Import NArith List Bool Lia.
From DV Require Import Base.Outcome C15.Gen C15.Model.
Import ListNotations.
Local Open Scope N_scope.

Lemma list_eqb_spec (a b : list N) : list_eqb a b = true <-> a = b.
Proof.
  revert b. induction a as [|x a IH]; intros [|y b]; cbn; split; intros H; try reflexivity; try discriminate.
  - apply andb_true_iff in H. destruct H as (Hx & Hr). apply N.eqb_eq in Hx. apply IH in Hr. congruence.
  - inversion H; subst. rewrite N.eqb_refl. cbn. apply IH. reflexivity.
Qed.

Lemma hdr_only_spec (a : msg) :
  isans_hdr_only (m_rcode a) (m_qd a) (m_an a) (m_ns a) (m_ar a) = true <-> hdr_only_error a.
Proof.
  unfold hdr_only_error. cbv [isans_hdr_only].
  rewrite !andb_true_iff, negb_true_iff, N.eqb_neq, !N.eqb_eq. reflexivity.
Qed.

Definition same_question (r : req) (a : msg) : bool :=
  (m_qd a =? lenN (r_qs r)) && match m_qs a with Some qs => list_eqb qs (r_qs r) | None => false end.

Lemma same_question_sound r a : same_question r a = true -> m_qs a = Some (r_qs r).
Proof.
  unfold same_question. intros H. apply andb_true_iff in H. destruct H as (_ & H).
  destruct (m_qs a) as [qs|]; [|discriminate]. apply list_eqb_spec in H. congruence.
Qed.

(* the cascade of early returns as one boolean formula *)
Lemma is_answer_eq (r : req) (a : msg) :
  is_answer r a =
  m_qr a && (m_id a =? r_id r) &&
  (isans_hdr_only (m_rcode a) (m_qd a) (m_an a) (m_ns a) (m_ar a) || same_question r a).
Proof.
  unfold is_answer, same_question. cbv [isans_reject isans_qd_reject isans_q_equal].
  destruct (m_qr a), (m_id a =? r_id r), (isans_hdr_only _ _ _ _ _), (m_qd a =? lenN (r_qs r)); reflexivity.
Qed.

(* is_answer accepts only answers in the sense of the property ... *)
Lemma is_answer_sound (r : req) (a : msg) : is_answer r a = true -> answers r a.
Proof.
  rewrite is_answer_eq, !andb_true_iff, orb_true_iff, N.eqb_eq, hdr_only_spec.
  intros ((Hqr & Hid) & Hq). split; [exact Hqr|]. split; [exact Hid|].
  destruct Hq as [Hq|Hq]; [left; exact Hq|right; apply same_question_sound, Hq].
Qed.

(* ... and every answer (whose QDCOUNT matches its question section) *)
Lemma is_answer_complete (r : req) (a : msg) : msg_wf a -> answers r a -> is_answer r a = true.
Proof.
  intros Hwf (Hqr & Hid & Hq). rewrite is_answer_eq, Hqr, (proj2 (N.eqb_eq _ _) Hid). cbn [andb].
  apply orb_true_iff. destruct Hq as [Hq|Hqs]; [left; apply hdr_only_spec, Hq|right].
  unfold same_question. rewrite (Hwf _ Hqs), N.eqb_refl, Hqs. apply list_eqb_spec. reflexivity.
Qed.

Example ex_is_answer_hdr_only :
  is_answer (mkReq 7 [1]) (mkMsg 7 true false 2 0 0 0 0 (Some []) (Some []) None) = true /\
  is_answer (mkReq 7 [1]) (mkMsg 7 true false 0 0 0 0 0 (Some []) (Some []) None) = false /\
  is_answer (mkReq 7 [1]) (mkMsg 7 true false 0 1 0 0 0 (Some [1]) (Some []) None) = true /\
  is_answer (mkReq 7 [1]) (mkMsg 8 true false 0 1 0 0 0 (Some [1]) (Some []) None) = false /\
  is_answer (mkReq 7 [1]) (mkMsg 7 false false 0 1 0 0 0 (Some [1]) (Some []) None) = false /\
  is_answer (mkReq 7 [1]) (mkMsg 7 true false 0 1 0 0 0 (Some [2]) (Some []) None) = false.
Proof. vm_compute. repeat split. Qed.

Lemma recv_loop_spec (T : N) (r : req) (pkts : list (N * pkt)) : forall now,
  now <= T ->
  match recv_loop T r now pkts with
  | RAnswer t m => now <= t <= T /\ is_answer r m = true /\ exists off, In (off, PMsg m) pkts /\ off <= T
  | RError t => now <= t <= T /\ exists off, In (off, PRecvErr) pkts
  | RTimeout => True
  end.
Proof.
  induction pkts as [|[off p] rest IH]; intros now Hnow; cbn [recv_loop].
  - destruct (dgram_loop_cond T now); exact I.
  - destruct (dgram_loop_cond T now); [|exact I].
    destruct (N.leb_spec off T) as [Hoff|]; [|exact I].
    assert (Hskip : match recv_loop T r (N.max now off) rest with
                    | RAnswer t m => now <= t <= T /\ is_answer r m = true /\ exists off', In (off', PMsg m) ((off, p) :: rest) /\ off' <= T
                    | RError t => now <= t <= T /\ exists off', In (off', PRecvErr) ((off, p) :: rest)
                    | RTimeout => True
                    end).
    { specialize (IH (N.max now off) ltac:(lia)). destruct (recv_loop T r (N.max now off) rest) as [t m|t|]; [| |exact I].
      - destruct IH as (Ht & Ha & off' & Hin & Ho). split; [lia|]. split; [exact Ha|]. exists off'. split; [right; exact Hin|exact Ho].
      - destruct IH as (Ht & off' & Hin). split; [lia|]. exists off'. right; exact Hin. }
    destruct p as [| |m]; [exact Hskip| |].
    + split; [lia|]. exists off. left; reflexivity.
    + cbv [dgram_skip_if_not_answer]. destruct (is_answer r m) eqn:Ea; cbn [negb]; [|exact Hskip].
      split; [lia|]. split; [exact Ea|]. exists off. split; [left; reflexivity|exact Hoff].
Qed.

(* at the deadline nothing more is received *)
Lemma recv_loop_at_deadline T r pkts : recv_loop T r T pkts = RTimeout.
Proof.
  destruct pkts as [|[off p] rest]; cbn [recv_loop]; cbv [dgram_loop_cond];
    destruct (N.ltb_spec T T); try lia; reflexivity.
Qed.

Lemma dgram_loop_spec (T : N) (qs : list N) (n : nat) : forall k base sends atts res s,
  dgram_loop T qs n k base sends atts = (res, s) ->
  sends <= s <= sends + N.of_nat n /\
  match res with
  | DOk k' t m =>
      k <= k' /\ base <= t <= base + N.of_nat n * T /\
      exists a, nth_error atts (N.to_nat (k' - k)) = Some a /\
        is_answer (mkReq (a_id a) qs) m = true /\
        (exists off, In (off, PMsg m) (a_pkts a) /\ off <= T)
  | DErr e t => base <= t <= base + N.of_nat n * T /\
                (e = 4 -> t = base + N.of_nat n * T /\ s = sends + N.of_nat n)
  end.
Proof.
  induction n as [|n IH]; intros k base sends atts res s H; cbn [dgram_loop] in H.
  - inversion H; subst. split; [lia|]. split; [lia|]. intros _. lia.
  - (* an exhausted script counts as silent attempts: they only time out *)
    set (a := hd silent_attempt atts) in H. destruct (a_fault a) eqn:Ef.
    2-4: inversion H; subst; (split; [lia|]); (split; [lia|]); intros E; discriminate.
    pose proof (recv_loop_spec T (mkReq (a_id a) qs) (a_pkts a) 0 ltac:(lia)) as Hrl.
    destruct (recv_loop T (mkReq (a_id a) qs) 0 (a_pkts a)) as [t m|t|] eqn:Er.
    + inversion H; subst. destruct Hrl as (Ht & Ha & off & Hin & Hoff). split; [lia|]. split; [lia|]. split; [lia|].
      destruct atts as [|a0 rest]; [destruct Hin|]. exists a0. replace (N.to_nat (k - k)) with O by lia. cbn. eauto.
    + inversion H; subst. split; [lia|]. split; [lia|]. intros E; discriminate.
    + apply IH in H. destruct H as (Hs & Hres). split; [lia|].
      destruct res as [k' t m|e t].
      * destruct Hres as (Hk & Ht & a' & Hn & Hrest). split; [lia|]. split; [lia|].
        exists a'. split; [|exact Hrest]. destruct atts as [|a0 rest]; [destruct (N.to_nat (k' - (k + 1))); discriminate|].
        replace (N.to_nat (k' - k)) with (S (N.to_nat (k' - (k + 1)))) by lia. exact Hn.
      * destruct Hres as (Ht & He). split; [lia|]. intros E. specialize (He E). lia.
Qed.

Lemma dgram_attempts_eq r : N.of_nat (N.to_nat (dgram_attempts r)) = 1 + r.
Proof. cbv [dgram_attempts]. lia. Qed.

(* Theorem: soundness -- a datagram handed to the caller is an answer to the
   request as sent in that attempt (its ID, the caller's questions) and did
   arrive on that attempt's socket inside the read timeout. *)
Theorem dgram_sound (retries T : N) (qs : list N) (atts : list attempt) k t m s :
  dgram_run retries T qs atts = (DOk k t m, s) ->
  exists a, nth_error atts (N.to_nat k) = Some a /\
    answers (mkReq (a_id a) qs) m /\
    (exists off, In (off, PMsg m) (a_pkts a) /\ off <= T).
Proof.
  unfold dgram_run. intros H. apply dgram_loop_spec in H. destruct H as (_ & _ & _ & a & Hn & Ha & Hin).
  exists a. rewrite N.sub_0_r in Hn. split; [exact Hn|]. split; [apply is_answer_sound; exact Ha|exact Hin].
Qed.

(* Theorem: every request completes within (1 + max_retries) * read_timeout and
   sends at most 1 + max_retries datagrams; it ends in a timeout only after the
   whole budget was used. *)
Theorem dgram_terminates_within (retries T : N) (qs : list N) (atts : list attempt) res s :
  dgram_run retries T qs atts = (res, s) ->
  s <= 1 + retries /\
  match res with
  | DOk _ t _ => t <= (1 + retries) * T
  | DErr e t => t <= (1 + retries) * T /\ (e = 4 -> t = (1 + retries) * T /\ s = 1 + retries)
  end.
Proof.
  unfold dgram_run. intros H. apply dgram_loop_spec in H. rewrite dgram_attempts_eq in H.
  destruct H as (Hs & Hres). split; [lia|].
  destruct res as [k t m|e t]; [lia|].
  destruct Hres as (Ht & He). split; [lia|]. intros E. specialize (He E). lia.
Qed.

(* retry on timeout: when the first attempt brings nothing acceptable inside
   the window and a retry is allowed, the outcome is that of the remaining
   attempts, one read timeout later *)
Theorem dgram_retries_on_timeout (retries T : N) (qs : list N) a rest :
  a_fault a = FNone ->
  recv_loop T (mkReq (a_id a) qs) 0 (a_pkts a) = RTimeout ->
  dgram_run retries T qs (a :: rest) =
  dgram_loop T qs (N.to_nat retries) 1 T 1 rest.
Proof.
  intros Hf Hr. unfold dgram_run. cbv [dgram_attempts].
  replace (N.to_nat (1 + retries)) with (S (N.to_nat retries)) by lia.
  cbn [dgram_loop hd tl]. rewrite Hf, Hr. reflexivity.
Qed.

Example ex_dgram :
  dgram_run 2 50 [0]
    [mkAtt FNone 1000 [(10, PMsg (mkMsg 1001 true false 0 1 0 0 0 (Some [0]) (Some []) None)); (60, PMsg (mkMsg 1000 true false 0 1 0 0 0 (Some [0]) (Some []) None))];
     mkAtt FNone 1001 [(5, PGarbage); (7, PMsg (mkMsg 1000 true false 0 1 0 0 0 (Some [0]) (Some []) None)); (9, PMsg (mkMsg 1001 true true 0 1 0 0 0 (Some [0]) (Some []) None))]]
  = (DOk 1 59 (mkMsg 1001 true true 0 1 0 0 0 (Some [0]) (Some []) None), 2) /\
  dgram_run 2 50 [0] [] = (DErr 4 150, 3).
Proof. vm_compute. auto. Qed.

Theorem tc_falls_back (m : msg) (tcp : tres) :
  m_tc m = true -> ds_result (TOk m) tcp = (tcp, true).
Proof. intros H. unfold ds_result. cbv [tc_falls_back_when_set]. rewrite H. reflexivity. Qed.

Theorem tc_never_from_datagram (udp tcp : tres) (m : msg) :
  ds_result udp tcp = (TOk m, false) -> udp = TOk m /\ m_tc m = false.
Proof.
  unfold ds_result. cbv [tc_falls_back_when_set]. destruct udp as [m'|e]; [|discriminate].
  destruct (m_tc m') eqn:E; intros H; inversion H; subst; auto.
Qed.

Example ex_tc : ds_result (TOk (mkMsg 1 true true 0 1 0 0 0 (Some [0]) (Some []) None)) (TErr 9) = (TErr 9, true).
Proof. reflexivity. Qed.

(* what the documentation of set_response_timeout promises for a
   single-response request: the value set (clamped) is the one in force *)
Definition response_timeout_respected : Prop :=
  forall c t, effective_timeout (set_response_timeout c t) false = stream_limit t.

Lemma response_timeout_respected_if_assigned :
  set_rt_assigns_single = true -> response_timeout_respected.
Proof.
  intros H c t. unfold effective_timeout, set_response_timeout. cbv [run_selects_timeout_by_kind].
  rewrite H. reflexivity.
Qed.

(* the code as it is: set_response_timeout leaves single_response_timeout alone,
   and that is the field Transport::run uses for single-response requests *)
Lemma response_timeout_refuted :
  set_rt_assigns_single = false ->
  effective_timeout (set_response_timeout scfg_default 60) false = 19000 /\ ~ response_timeout_respected.
Proof.
  intros H. assert (E : effective_timeout (set_response_timeout scfg_default 60) false = 19000).
  { unfold effective_timeout, set_response_timeout. cbv [run_selects_timeout_by_kind]. rewrite H. reflexivity. }
  split; [exact E|]. intros Hr. specialize (Hr scfg_default 60). rewrite E in Hr. vm_compute in Hr. discriminate.
Qed.

Lemma streaming_timeout_respected c t :
  effective_timeout (set_streaming_response_timeout c t) true = stream_limit t.
Proof. reflexivity. Qed.

(* unsolicited replies must not postpone the read timeout of the requests
   that are waiting *)
Definition junk_keeps_deadline : Prop :=
  forall timeout start arrivals, junk_deadline timeout start arrivals = start + timeout.

Lemma junk_keeps_deadline_if_known_only :
  timer_reset_requires_known_id = true -> junk_keeps_deadline.
Proof.
  intros H timeout start arrivals. induction arrivals as [|t rest IH]; cbn [junk_deadline]; [reflexivity|].
  destruct (run_timeout_fires (t - start) timeout); [reflexivity|].
  unfold timer_after_reply. rewrite H. exact IH.
Qed.

(* the code as it is: the timer is reset before the ID is looked up; a peer
   sending an unsolicited reply every 20 ms keeps a 60 ms timeout from firing *)
Lemma junk_extends_deadline_refuted :
  timer_reset_requires_known_id = false ->
  junk_deadline 60 0 [20; 40; 60; 80; 100; 120; 140; 160; 180; 200] = 260 /\ ~ junk_keeps_deadline.
Proof.
  intros H.
  assert (E : junk_deadline 60 0 [20; 40; 60; 80; 100; 120; 140; 160; 180; 200] = 260).
  { cbn [junk_deadline]. unfold timer_after_reply. rewrite H. vm_compute. reflexivity. }
  split; [exact E|]. intros Hk. rewrite (Hk 60 0 _) in E. discriminate.
Qed.

(* new requests on the connection do not move a deadline that is already armed *)
Lemma new_requests_keep_deadline timeout start arrivals :
  req_deadline timeout start arrivals = start + timeout.
Proof.
  induction arrivals as [|t rest IH]; cbn [req_deadline]; [reflexivity|].
  destruct (run_timeout_fires (t - start) timeout); [reflexivity|].
  unfold timer_after_request. cbv [insreq_arms_timer_only_if_none]. exact IH.
Qed.

Lemma first_request_arms_timer t : timer_after_request None t = Some t.
Proof. unfold timer_after_request. destruct insreq_arms_timer_only_if_none; reflexivity. Qed.

Example ex_req_deadline : req_deadline 200 0 [60; 120; 180; 240; 300] = 200.
Proof. vm_compute. reflexivity. Qed.

(* now that the two fixes are in /repo the conditional statements hold outright:
   reverting either fix flips the T1 boolean and breaks these proofs *)
Lemma response_timeout_respected_now : response_timeout_respected.
Proof. apply response_timeout_respected_if_assigned. reflexivity. Qed.

Lemma junk_keeps_deadline_now : junk_keeps_deadline.
Proof. apply junk_keeps_deadline_if_known_only. reflexivity. Qed.

(* an idle connection is closed exactly when the idle timeout has elapsed ... *)
Lemma idle_closes_iff resp idle since now :
  run_tick resp idle (TIdle since) now = TIdleTimeout <-> idle <= now - since.
Proof.
  cbn [run_tick]. cbv [run_idle_fires]. destruct (N.leb_spec idle (now - since)) as [Hl|Hl]; split; intros H0; try reflexivity; try lia; discriminate.
Qed.

(* ... which is what it finds when it wakes from the sleep it computed *)
Lemma idle_closes_after_sleep resp idle since now :
  since <= now ->
  run_tick resp idle (TIdle since) (now + run_sleep resp idle (TIdle since) now) = TIdleTimeout.
Proof. intros H. apply idle_closes_iff. cbn [run_sleep]. lia. Qed.

(* the response timeout needs the elapsed time to EXCEED it *)
Lemma response_timeout_fires_iff resp idle start now :
  run_tick resp idle (TActive (Some start)) now = TReadTimeout <-> resp < now - start.
Proof.
  cbn [run_tick]. cbv [run_timeout_fires]. destruct (N.ltb_spec resp (now - start)) as [Hl|Hl]; split; intros H0; try reflexivity; try lia; discriminate.
Qed.

Lemma no_timer_without_request resp idle now : run_tick resp idle (TActive None) now = TActive None.
Proof. reflexivity. Qed.

(* the boolean the demultiplexer model keeps is the numeric idle timeout being
   zero, before and after a keepalive option *)
Lemma keepalive_idle_zero_consistent iz idle ka :
  iz = (idle =? 0) -> keepalive_idle_zero iz ka = (keepalive_idle idle ka =? 0).
Proof. intros ->. destruct ka as [[v|]|]; reflexivity. Qed.

(* a keepalive option without a timeout changes nothing; with timeout v the
   idle timeout becomes v * 100 ms, and only v = 0 closes the idle connection at once *)
Lemma keepalive_spec idle v now :
  keepalive_idle idle None = idle /\ keepalive_idle idle (Some None) = idle /\
  keepalive_idle idle (Some (Some v)) = 100 * v /\
  (go_idle (keepalive_idle idle (Some (Some v))) now = TIdleTimeout <-> v = 0).
Proof.
  cbv [keepalive_idle keepalive_units_ms go_idle]. repeat split; try reflexivity.
  - destruct (N.eqb_spec (100 * v) 0); [lia|discriminate].
  - intros ->. reflexivity.
Qed.

(* every numeric T1 item that the models use only as a parameter is pinned to a
   consequence, so that a changed value breaks this lemma *)
Lemma constants_pinned :
  (* dgram: 1 + max_retries is u8 arithmetic and must not overflow at the limit *)
  dgram_attempts dgram_retries_max <= 255 /\ dgram_retries_default <= dgram_retries_max /\
  (* worst-case time budgets of the datagram transport, default and maximum (ms) *)
  dgram_attempts dgram_retries_default * dgram_timeout_default_ms = 30000 /\
  dgram_attempts dgram_retries_max * dgram_timeout_max_ms = 6060000 /\
  0 < dgram_timeout_min_ms /\
  (* the receive loop runs exactly while the deadline lies in the future *)
  (forall T, dgram_loop_cond T T = false /\ dgram_loop_cond (T + 1) T = true) /\
  (* stream response timeout: default 19 s, clamped to [1 ms, 600 s] *)
  stream_timeout_default_ms = 19000 /\ stream_limit 0 = 1 /\ stream_limit 1000000000 = 600000 /\
  (forall t, stream_timeout_min_ms <= stream_limit t <= stream_timeout_max_ms) /\
  (* idle timeout: default 10 s, zero allowed, at most one hour *)
  idle_timeout_default_ms = 10000 /\ idle_timeout_max_ms = 3600000 /\
  (* the table index must fit the 16 bit message ID *)
  idle_timeout_default_ms <= idle_timeout_max_ms /\ idx_limit = 65536.
Proof.
  cbv [dgram_attempts dgram_retries_max dgram_retries_default dgram_timeout_default_ms dgram_timeout_max_ms
       dgram_timeout_min_ms dgram_loop_cond stream_timeout_default_ms stream_limit defminmax_limit
       stream_timeout_min_ms stream_timeout_max_ms idle_timeout_default_ms idle_timeout_max_ms idx_limit].
  repeat split; try lia; try reflexivity; [apply N.ltb_irrefl|apply N.ltb_lt; lia].
Qed.

(* set_response_timeout writes every per-kind timeout field Transport::run reads *)
Lemma config_setter_covers_run : set_rt_covers_run_reads = true /\ cfg_response_timeout_fields = 3.
Proof. split; reflexivity. Qed.

(* the largest request the stream framing accepts fits its 16 bit length prefix:
   a longer one would be written with a wrapped length and desynchronise the
   connection for every request multiplexed on it *)
Lemma stream_frame_length_fits : stream_max_message_len < 65536 /\ stream_max_message_len = 65535.
Proof. split; reflexivity. Qed.

(* C15 -- property theorems only.  Proofs live in C15/Proofs*.v. *)
From Coq Require Import NArith List.
From DV Require Import Base.Outcome C15.Gen C15.Model C15.Proofs C15.ProofsSeq C15.ProofsNet C15.ProofsDemux C15.ProofsXfr C15.ProofsConn C15.ProofsWide.
Import ListNotations.
Local Open Scope N_scope.

Theorem C15_queries_refine_map : forall (T : Type) (ops : list (qop T)),
  q_legal ops ->
  exists q tr, q_run ops = Ok (q, tr) /\ q_inv q /\
    a_trace_ok a_empty ops tr /\ (forall i, q_get q i = a_final a_empty ops tr i).
Proof. exact @queries_refine_map. Qed.
Print Assumptions C15_queries_refine_map.

Theorem C15_no_id_reuse_while_live : forall (T : Type) (ops1 ops2 ops3 : list (qop T)) tr1 tr2 tr3 r1 r2 idx q,
  q_legal (ops1 ++ OIns r1 :: ops2 ++ OIns r2 :: ops3) ->
  q_run (ops1 ++ OIns r1 :: ops2 ++ OIns r2 :: ops3) =
    Ok (q, tr1 ++ RIns (Some idx) :: tr2 ++ RIns (Some idx) :: tr3) ->
  length tr1 = length ops1 -> length tr2 = length ops2 ->
  (forall i r', In (OInsAt i r') ops2 -> i <> idx) ->
  exists o, In o ops2 /\ clears idx o.
Proof. exact @no_id_reuse_while_live. Qed.
Print Assumptions C15_no_id_reuse_while_live.

Theorem C15_remove_returns_inserted : forall (T : Type) (ops1 ops2 ops3 : list (qop T)) tr1 tr2 tr3 r idx res q,
  q_legal (ops1 ++ OIns r :: ops2 ++ ORem idx :: ops3) ->
  q_run (ops1 ++ OIns r :: ops2 ++ ORem idx :: ops3) =
    Ok (q, tr1 ++ RIns (Some idx) :: tr2 ++ RRem res :: tr3) ->
  length tr1 = length ops1 -> length tr2 = length ops2 ->
  (forall o, In o ops2 -> ~ clears idx o) ->
  (forall i r', In (OInsAt i r') ops2 -> i <> idx) ->
  res = Some r.
Proof. exact @remove_returns_inserted. Qed.
Print Assumptions C15_remove_returns_inserted.

Theorem C15_insert_full_iff : forall (T : Type) (q : queries T) r,
  q_inv q -> (exists q', q_insert q r = Ok (q', None)) <-> 32768 <= q_count q.
Proof. exact @insert_full_iff. Qed.
Print Assumptions C15_insert_full_iff.

Theorem C15_is_answer_sound : forall (r : req) (a : msg), is_answer r a = true -> answers r a.
Proof. exact is_answer_sound. Qed.
Print Assumptions C15_is_answer_sound.

Theorem C15_is_answer_complete : forall (r : req) (a : msg), msg_wf a -> answers r a -> is_answer r a = true.
Proof. exact is_answer_complete. Qed.
Print Assumptions C15_is_answer_complete.

Theorem C15_demux_sound : forall cs idle (evs : list sevent) s c m,
  distinct_callers evs -> s_run cs idle evs = Ok s ->
  In (c, false, DAnswer m) (st_log s) ->
  exists qs, In (c, m_id m, qs) (st_sent s) /\ answers (mkReq (m_id m) qs) m /\
    (forall i' qs', In (c, i', qs') (st_sent s) -> i' = m_id m /\ qs' = qs).
Proof. exact demux_sound. Qed.
Print Assumptions C15_demux_sound.

Theorem C15_exactly_once : forall cs idle (evs : list sevent),
  distinct_callers evs ->
  exists s, s_run cs idle evs = Ok s /\
    forall c, pending c (st_q s) + tcount c (st_log s) = inb c (submitted evs).
Proof. exact exactly_once. Qed.
Print Assumptions C15_exactly_once.

Theorem C15_down_completes_all : forall cs idle (evs : list sevent) s,
  distinct_callers evs -> s_run cs idle evs = Ok s -> st_conn s <> COpen ->
  forall c, tcount c (st_log s) = inb c (submitted evs).
Proof. exact down_completes_all. Qed.
Print Assumptions C15_down_completes_all.

Theorem C15_dgram_sound : forall (retries T : N) (qs : list N) (atts : list attempt) k t m s,
  dgram_run retries T qs atts = (DOk k t m, s) ->
  exists a, nth_error atts (N.to_nat k) = Some a /\
    answers (mkReq (a_id a) qs) m /\
    (exists off, In (off, PMsg m) (a_pkts a) /\ off <= T).
Proof. exact dgram_sound. Qed.
Print Assumptions C15_dgram_sound.

Theorem C15_dgram_terminates_within : forall (retries T : N) (qs : list N) (atts : list attempt) res s,
  dgram_run retries T qs atts = (res, s) ->
  s <= 1 + retries /\
  match res with
  | DOk _ t _ => t <= (1 + retries) * T
  | DErr e t => t <= (1 + retries) * T /\ (e = 4 -> t = (1 + retries) * T /\ s = 1 + retries)
  end.
Proof. exact dgram_terminates_within. Qed.
Print Assumptions C15_dgram_terminates_within.

Theorem C15_dgram_retries_on_timeout : forall (retries T : N) (qs : list N) a rest,
  a_fault a = FNone ->
  recv_loop T (mkReq (a_id a) qs) 0 (a_pkts a) = RTimeout ->
  dgram_run retries T qs (a :: rest) = dgram_loop T qs (N.to_nat retries) 1 T 1 rest.
Proof. exact dgram_retries_on_timeout. Qed.
Print Assumptions C15_dgram_retries_on_timeout.

Theorem C15_tc_falls_back : forall (m : msg) (tcp : tres),
  m_tc m = true -> ds_result (TOk m) tcp = (tcp, true).
Proof. exact tc_falls_back. Qed.
Print Assumptions C15_tc_falls_back.

Theorem C15_tc_never_from_datagram : forall (udp tcp : tres) (m : msg),
  ds_result udp tcp = (TOk m, false) -> udp = TOk m /\ m_tc m = false.
Proof. exact tc_never_from_datagram. Qed.
Print Assumptions C15_tc_never_from_datagram.

(* stream::Config::set_response_timeout: respected exactly when the setter
   assigns the field Transport::run reads for single-response requests (T1
   item set_rt_assigns_single); refuted for the code where it does not *)
Theorem C15_response_timeout_respected_if_assigned :
  set_rt_assigns_single = true -> response_timeout_respected.
Proof. exact response_timeout_respected_if_assigned. Qed.
Print Assumptions C15_response_timeout_respected_if_assigned.

Theorem C15_response_timeout_refuted :
  set_rt_assigns_single = false ->
  effective_timeout (set_response_timeout scfg_default 60) false = 19000 /\ ~ response_timeout_respected.
Proof. exact response_timeout_refuted. Qed.
Print Assumptions C15_response_timeout_refuted.

(* the table the driver starts capacity cases from is the one the inserts produce *)
Theorem C15_fill_state : forall (vals : list N),
  lenN vals <= 32768 -> exists tr, q_run (map OIns vals) = Ok (c15_prefill vals, tr).
Proof. exact fill_state_run. Qed.
Print Assumptions C15_fill_state.

(* unsolicited replies and the read timeout: respected exactly when demux_reply
   resets the timer only after the ID lookup succeeded (T1 item
   timer_reset_requires_known_id); refuted for the code where it does not *)
Theorem C15_junk_keeps_deadline_if_known_only :
  timer_reset_requires_known_id = true -> junk_keeps_deadline.
Proof. exact junk_keeps_deadline_if_known_only. Qed.
Print Assumptions C15_junk_keeps_deadline_if_known_only.

Theorem C15_junk_extends_deadline_refuted :
  timer_reset_requires_known_id = false ->
  junk_deadline 60 0 [20; 40; 60; 80; 100; 120; 140; 160; 180; 200] = 260 /\ ~ junk_keeps_deadline.
Proof. exact junk_extends_deadline_refuted. Qed.
Print Assumptions C15_junk_extends_deadline_refuted.

(* Transport::insert_req arms the response timer only when none is running: a
   stream of new requests cannot keep an older one waiting past its deadline *)
Theorem C15_new_requests_keep_deadline : forall timeout start arrivals,
  req_deadline timeout start arrivals = start + timeout.
Proof. exact new_requests_keep_deadline. Qed.
Print Assumptions C15_new_requests_keep_deadline.

Theorem C15_response_timeout_respected : response_timeout_respected.
Proof. exact response_timeout_respected_now. Qed.
Print Assumptions C15_response_timeout_respected.

Theorem C15_junk_keeps_deadline : junk_keeps_deadline.
Proof. exact junk_keeps_deadline_now. Qed.
Print Assumptions C15_junk_keeps_deadline.

(* ---- multi-response (XFR) streams *)
Theorem C15_is_answer_multi_sound : forall axfr r a,
  is_answer_multi axfr r a = true -> answers_multi axfr r a.
Proof. exact is_answer_multi_sound. Qed.
Print Assumptions C15_is_answer_multi_sound.

Theorem C15_xfr_first_response_sound : forall e a eof x,
  e_xfr e = XAxfrInit \/ e_xfr e = XIxfrInit ->
  check_stream_m e a = (eof, x, true) ->
  answers_multi (e_axfr e) (mkReq (m_id a) (e_qs e)) a.
Proof. exact cs_first_response_sound. Qed.
Print Assumptions C15_xfr_first_response_sound.

Theorem C15_xfr_error_sticky : forall e a,
  e_xfr e = XError \/ e_xfr e = XDone -> check_stream_m e a = (false, XError, false).
Proof. exact cs_error_sticky. Qed.
Print Assumptions C15_xfr_error_sticky.

Theorem C15_axfr_single_message_complete : forall e a s others,
  e_xfr e = XAxfrInit -> m_rcode a = 0 ->
  is_answer_multi (e_axfr e) (mkReq (m_id a) (e_qs e)) a = true ->
  Forall (fun o => o = Some ROther) others ->
  m_ans a = Some (Some (RSoa s) :: others ++ [Some (RSoa s)]) ->
  check_stream_m e a = (true, XDone, true).
Proof. exact axfr_single_message_complete. Qed.
Print Assumptions C15_axfr_single_message_complete.

Theorem C15_multi_element_once : forall cs s m s' e,
  q_inv (st_q s) -> st_conn s = COpen ->
  q_get (st_q s) (m_id m) = Some e -> e_multi e = true ->
  s_step cs s (EReply m) = Ok s' ->
  (forall c, elems c (st_log s') = elems c (st_log s) + (if e_caller e =? c then 1 else 0)) /\
  (fst (fst (cs e m)) = false ->
     exists e', q_get (st_q s') (m_id m) = Some e' /\ e_caller e' = e_caller e /\ e_qs e' = e_qs e /\
                e_xfr e' = snd (fst (cs e m))) /\
  (fst (fst (cs e m)) = true -> q_get (st_q s') (m_id m) = None).
Proof. exact multi_element_once. Qed.
Print Assumptions C15_multi_element_once.

(* ---- idle timeout, edns-tcp-keepalive, pinned constants *)
Theorem C15_idle_closes_iff : forall resp idle since now,
  run_tick resp idle (TIdle since) now = TIdleTimeout <-> idle <= now - since.
Proof. exact idle_closes_iff. Qed.
Print Assumptions C15_idle_closes_iff.

Theorem C15_idle_closes_after_sleep : forall resp idle since now,
  since <= now ->
  run_tick resp idle (TIdle since) (now + run_sleep resp idle (TIdle since) now) = TIdleTimeout.
Proof. exact idle_closes_after_sleep. Qed.
Print Assumptions C15_idle_closes_after_sleep.

Theorem C15_response_timeout_fires_iff : forall resp idle start now,
  run_tick resp idle (TActive (Some start)) now = TReadTimeout <-> resp < now - start.
Proof. exact response_timeout_fires_iff. Qed.
Print Assumptions C15_response_timeout_fires_iff.

Theorem C15_keepalive_spec : forall idle v now,
  keepalive_idle idle None = idle /\ keepalive_idle idle (Some None) = idle /\
  keepalive_idle idle (Some (Some v)) = 100 * v /\
  (go_idle (keepalive_idle idle (Some (Some v))) now = TIdleTimeout <-> v = 0).
Proof. exact keepalive_spec. Qed.
Print Assumptions C15_keepalive_spec.

Theorem C15_keepalive_idle_zero_consistent : forall iz idle ka,
  iz = (idle =? 0) -> keepalive_idle_zero iz ka = (keepalive_idle idle ka =? 0).
Proof. exact keepalive_idle_zero_consistent. Qed.
Print Assumptions C15_keepalive_idle_zero_consistent.

Theorem C15_recv_loop_at_deadline : forall T r pkts, recv_loop T r T pkts = RTimeout.
Proof. exact recv_loop_at_deadline. Qed.
Print Assumptions C15_recv_loop_at_deadline.

Theorem C15_constants_pinned :
  dgram_attempts dgram_retries_max <= 255 /\ dgram_retries_default <= dgram_retries_max /\
  dgram_attempts dgram_retries_default * dgram_timeout_default_ms = 30000 /\
  dgram_attempts dgram_retries_max * dgram_timeout_max_ms = 6060000 /\
  0 < dgram_timeout_min_ms /\
  (forall T, dgram_loop_cond T T = false /\ dgram_loop_cond (T + 1) T = true) /\
  stream_timeout_default_ms = 19000 /\ stream_limit 0 = 1 /\ stream_limit 1000000000 = 600000 /\
  (forall t, stream_timeout_min_ms <= stream_limit t <= stream_timeout_max_ms) /\
  idle_timeout_default_ms = 10000 /\ idle_timeout_max_ms = 3600000 /\
  idle_timeout_default_ms <= idle_timeout_max_ms /\ idx_limit = 65536.
Proof. exact constants_pinned. Qed.
Print Assumptions C15_constants_pinned.

Theorem C15_idle_keepalive_zero_closes : forall cs s m,
  q_inv (st_q s) -> st_conn s = COpen -> st_idle s = true ->
  q_get (st_q s) (m_id m) = None -> m_ka m = Some (Some 0) ->
  exists s', s_step cs s (EReply m) = Ok s' /\ st_conn s' = CDown 10 /\ st_log s' = st_log s.
Proof. exact idle_keepalive_zero_closes. Qed.
Print Assumptions C15_idle_keepalive_zero_closes.

(* ---- multi_stream connection management *)
Theorem C15_ms_backoff_respected : forall s opt_id now retries timer timeout,
  ms_conn s = MErr retries timer timeout -> now - timer < timeout ->
  ms_newconn s opt_id now = (s, MReplyErr).
Proof. exact ms_backoff_respected. Qed.
Print Assumptions C15_ms_backoff_respected.

Theorem C15_ms_reuse : forall s c opt_id now,
  ms_conn s = MSome c -> (forall id, opt_id = Some id -> id < ms_id s) ->
  ms_newconn s opt_id now = (s, MReplyOk (ms_id s) c).
Proof. exact ms_reuse. Qed.
Print Assumptions C15_ms_reuse.

Theorem C15_ms_stale_reconnects : forall s c id now,
  ms_conn s = MSome c -> ms_id s <= id ->
  ms_newconn s (Some id) now = (mkMs MNone (ms_id s + 1), MConnect).
Proof. exact ms_stale_reconnects. Qed.
Print Assumptions C15_ms_stale_reconnects.

Theorem C15_ms_connect_no_panic : forall s opt_id now s1 res t backoff,
  ms_newconn s opt_id now = (s1, MConnect) ->
  exists s2 rep, ms_connected s1 res t backoff = Ok (s2, rep) /\
    match res with
    | Some c => rep = MReplyOk (ms_id s1) c /\ ms_conn s2 = MSome c
    | None => rep = MReplyErr /\ exists r, ms_conn s2 = MErr r t backoff
    end.
Proof. exact ms_connect_no_panic. Qed.
Print Assumptions C15_ms_connect_no_panic.

Theorem C15_ms_retry_cap_values :
  ms_retry_cap_ms 0 = 1000 /\ ms_retry_cap_ms 1 = 2000 /\ ms_retry_cap_ms 6 = 64000 /\
  ms_retry_cap_ms 7 = 60000 /\ (forall r, 6 < r -> ms_retry_cap_ms r = 60000).
Proof. exact ms_retry_cap_values. Qed.
Print Assumptions C15_ms_retry_cap_values.

(* ---- redundant: the result handed to the caller *)
Theorem C15_red_step_ok : forall defer_err n s ev, r_ok n s ->
  match r_step defer_err n s ev with
  | Ok (inl s') => r_ok n s'
  | Ok (inr fin) => r_final_ok defer_err s ev fin
  | _ => False
  end.
Proof. exact r_step_ok. Qed.
Print Assumptions C15_red_step_ok.

Theorem C15_red_run_no_panic : forall defer_err n (evs : list revent), 0 < n ->
  match r_run defer_err n r_init evs with Ok _ => True | _ => False end.
Proof. exact red_run_no_panic. Qed.
Print Assumptions C15_red_run_no_panic.

(* ---- multi_stream: one response-timeout budget per request *)
Theorem C15_ms_request_budget : forall T atts delays, mres_time (c15_ms_request T atts delays) <= T.
Proof. exact ms_request_budget. Qed.
Print Assumptions C15_ms_request_budget.

Theorem C15_ms_request_within_budget : forall T (atts : list catt) start now count delays,
  start <= now <= start + T ->
  mres_time (ms_request T start now count atts delays) <= start + T.
Proof. exact ms_request_within_budget. Qed.
Print Assumptions C15_ms_request_within_budget.

Theorem C15_ms_timeout_exact : forall T (atts : list catt) start now count delays t,
  start <= now <= start + T ->
  ms_request T start now count atts delays = MErrTimeout t -> t = start + T.
Proof. exact ms_timeout_exact. Qed.
Print Assumptions C15_ms_timeout_exact.

Theorem C15_ms_awaits_pinned : ms_all_awaits_bounded = true /\ ms_immediate_retry_at = 1.
Proof. exact ms_awaits_pinned. Qed.
Print Assumptions C15_ms_awaits_pinned.

(* ---- load_balancer: locally generated answers *)
Theorem C15_lb_local_answers : forall rid rqr qs has_opt,
  m_id (lb_local rid rqr qs has_opt) = rid /\
  m_qs (lb_local rid rqr qs has_opt) = Some qs /\
  m_qd (lb_local rid rqr qs has_opt) = lenN qs /\
  m_rcode (lb_local rid rqr qs has_opt) = 2.
Proof. exact lb_local_answers. Qed.
Print Assumptions C15_lb_local_answers.

Theorem C15_lb_usable_spec : forall mb b, lb_usable (Some mb, b) = true <-> b <= mb.
Proof. exact lb_usable_spec. Qed.
Print Assumptions C15_lb_usable_spec.

(* ---- idle timeout by time inside the event machine; config setter coverage *)
Theorem C15_idle_tick_closes : forall cs s,
  st_conn s = COpen -> st_idle s = true ->
  exists s', s_step cs s ETick = Ok s' /\ st_conn s' = CDown 10 /\ st_log s' = st_log s /\ st_q s' = st_q s.
Proof. exact idle_tick_closes. Qed.
Print Assumptions C15_idle_tick_closes.

Theorem C15_idle_tick_ignored_when_busy : forall cs s, st_idle s = false -> s_step cs s ETick = Ok s.
Proof. exact idle_tick_ignored_when_busy. Qed.
Print Assumptions C15_idle_tick_ignored_when_busy.

Theorem C15_config_setter_covers_run : set_rt_covers_run_reads = true /\ cfg_response_timeout_fields = 3.
Proof. exact config_setter_covers_run. Qed.
Print Assumptions C15_config_setter_covers_run.

Theorem C15_stream_frame_length_fits : stream_max_message_len < 65536 /\ stream_max_message_len = 65535.
Proof. exact stream_frame_length_fits. Qed.
Print Assumptions C15_stream_frame_length_fits.

(* run-level redundant / load-balancer statements *)
Theorem C15_red_result_from_upstream : forall defer_err n (evs : list revent) fin,
  r_run defer_err n r_init evs = Ok (inr fin) -> r_from_upstream evs fin.
Proof. exact red_result_from_upstream. Qed.
Print Assumptions C15_red_result_from_upstream.

Theorem C15_red_waiting_has_outstanding : forall defer_err n (evs : list revent) s',
  r_run defer_err n r_init evs = Ok (inl s') -> r_out s' <> [].
Proof. exact red_waiting_outstanding_init. Qed.
Print Assumptions C15_red_waiting_has_outstanding.

Theorem C15_lb_step_spec : forall ups pick ups' o, lb_step ups pick = (ups', o) ->
  match o with
  | Some i => (i < length ups)%nat /\ lb_usable (lb_at ups i) = true /\ ups' = lb_bump ups i
  | None => ups' = ups /\ forall i, (i < length ups)%nat -> lb_usable (lb_at ups i) = false
  end.
Proof. exact lb_step_spec. Qed.
Print Assumptions C15_lb_step_spec.

Theorem C15_lb_burst_bounded : forall (picks : list nat) ups i mb b,
  nth_error ups i = Some (Some mb, b) -> b <= mb + 1 ->
  lb_given i (lb_run ups picks) + b <= mb + 1.
Proof. exact lb_burst_bounded. Qed.
Print Assumptions C15_lb_burst_bounded.

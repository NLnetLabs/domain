(* C15 proofs: all operation sequences on the outstanding-query table.
   The table refines a finite map ID -> request; IDs handed out by insert are
   fresh with respect to that map. *)
From Coq Require Import NArith List Lia Sorted.
From DV Require Import Base.Outcome C15.Gen C15.Model C15.Proofs.
Import ListNotations.
Local Open Scope N_scope.

(* l lists, in increasing ID order and each exactly once, the requests the
   map m holds *)
Definition drained {T} (m : N -> option T) (l : list T) : Prop :=
  exists ids, StronglySorted N.lt ids /\
    (forall i, In i ids <-> m i <> None) /\
    map m ids = map (@Some T) l.

Lemma drained_ext {T} (m m' : N -> option T) l : (forall i, m i = m' i) -> drained m l -> drained m' l.
Proof.
  intros E (ids & Hs & Hin & Hmap). exists ids. split; [exact Hs|]. split.
  - intros i. rewrite <- E. apply Hin.
  - rewrite <- Hmap. apply map_ext. intros i. symmetry. apply E.
Qed.

(* the map a vector holds when its first slot has ID base *)
Definition vmap {T} (v : list (option T)) (base : N) : N -> option T :=
  fun i => if i <? base then None
           else match nth_error v (N.to_nat (i - base)) with Some (Some r) => Some r | _ => None end.

Lemma vmap_cons {T} (a : option T) v base i :
  vmap (a :: v) base i = if i =? base then a else vmap v (N.succ base) i.
Proof.
  unfold vmap. destruct (N.eqb_spec i base) as [->|Hne].
  - rewrite N.ltb_irrefl, N.sub_diag. destruct a; reflexivity.
  - destruct (N.ltb_spec i base), (N.ltb_spec i (N.succ base)); try lia; [reflexivity|].
    replace (N.to_nat (i - base)) with (S (N.to_nat (i - N.succ base))) by lia. reflexivity.
Qed.

Lemma drained_vmap {T} (v : list (option T)) : forall base, drained (vmap v base) (flatten_opt v).
Proof.
  assert (Hge : forall (v : list (option T)) base i, vmap v base i <> None -> base <= i).
  { intros v0 base i. unfold vmap. destruct (N.ltb_spec i base); [congruence|auto]. }
  induction v as [|a v IH]; intros base.
  - exists []. split; [constructor|]. split; [|reflexivity].
    intros i. unfold vmap. destruct (i <? base), (N.to_nat (i - base)); cbn; tauto.
  - destruct (IH (N.succ base)) as (ids & Hs & Hin & Hmap).
    assert (Hmap' : map (vmap (a :: v) base) ids = map (@Some T) (flatten_opt v)).
    { rewrite <- Hmap. apply map_ext_in. intros i Hi. apply Hin, Hge in Hi. rewrite vmap_cons.
      destruct (N.eqb_spec i base); [lia|reflexivity]. }
    destruct a as [x|].
    + exists (base :: ids). split; [|split].
      * constructor; [exact Hs|]. apply Forall_forall. intros i Hi. apply Hin, Hge in Hi. lia.
      * intros i. rewrite vmap_cons. cbn [In]. rewrite Hin.
        destruct (N.eqb_spec i base); split; intros H; try discriminate; auto. destruct H; congruence.
      * cbn [map flatten_opt]. rewrite vmap_cons, N.eqb_refl, Hmap'. reflexivity.
    + exists ids. split; [exact Hs|]. split; [|exact Hmap'].
      intros i. rewrite vmap_cons, Hin. destruct (N.eqb_spec i base) as [->|]; [|tauto].
      split; [|congruence]. intros H. apply Hge in H. lia.
Qed.

Lemma drain_spec {T} (q : queries T) :
  exists q', q_drain q = (q', flatten_opt (q_vec q)) /\ q_inv q' /\
    (forall j, q_get q' j = None) /\ drained (q_get q) (flatten_opt (q_vec q)).
Proof.
  unfold q_drain. cbv [drain_count drain_curr]. eexists. split; [reflexivity|].
  split; [apply q_inv_new|]. split; [apply q_get_nil|].
  apply (drained_ext (vmap (q_vec q) 0)); [|apply drained_vmap].
  intros i. unfold vmap, q_get, slot_at. rewrite N.sub_0_r. destruct (N.ltb_spec i 0); [lia|reflexivity].
Qed.

Lemma drained_length {T} (m : N -> option T) l ids :
  map m ids = map (@Some T) l -> length ids = length l.
Proof. intros H. apply (f_equal (@length _)) in H. rewrite !map_length in H. exact H. Qed.

Definition a_step {T} (m : N -> option T) (o : qop T) (ob : qobs T) : N -> option T :=
  match o, ob with
  | OIns r, RIns (Some idx) => upd m idx r
  | OInsAt i r, _ => upd m i r
  | ORem i, _ => clr m i
  | ODrain, _ => a_empty
  | _, _ => m
  end.

(* what an observation must satisfy with respect to the map before the step *)
Definition a_ok {T} (m : N -> option T) (o : qop T) (ob : qobs T) : Prop :=
  match o, ob with
  | OIns r, RIns (Some idx) => m idx = None /\ idx < 65536
  | OIns r, RIns None => True
  | OInsAt i r, RInsAt => True
  | ORem i, RRem res => res = m i
  | ODrain, RDrain l => drained m l
  | _, _ => False
  end.

Fixpoint a_trace_ok {T} (m : N -> option T) (ops : list (qop T)) (tr : list (qobs T)) : Prop :=
  match ops, tr with
  | [], [] => True
  | o :: os, ob :: obs => a_ok m o ob /\ a_trace_ok (a_step m o ob) os obs
  | _, _ => False
  end.

Fixpoint a_final {T} (m : N -> option T) (ops : list (qop T)) (tr : list (qobs T)) : N -> option T :=
  match ops, tr with
  | o :: os, ob :: obs => a_final (a_step m o ob) os obs
  | _, _ => m
  end.

Lemma step_refines {T} (q : queries T) (m : N -> option T) (o : qop T) :
  q_inv q -> (forall i, q_get q i = m i) -> q_pre q o ->
  exists q' ob, q_step q o = Ok (q', ob) /\ q_inv q' /\ a_ok m o ob /\
    (forall i, q_get q' i = a_step m o ob i).
Proof.
  intros Hinv Hm Hpre. destruct o as [r|i r|i|]; cbn [q_step].
  - destruct (insert_spec q r Hinv) as [(Hfull & E)|(Hroom & q' & idx & E & Hidx & Hfree & Hinv' & Hget & _)].
    + rewrite E. cbn [bind]. exists q, (RIns None). split; [reflexivity|]. split; [exact Hinv|]. split; [exact I|]. intros i; cbn; apply Hm.
    + rewrite E. cbn [bind]. exists q', (RIns (Some idx)). split; [reflexivity|]. split; [exact Hinv'|].
      split; [cbn; rewrite <- Hm; auto|].
      intros i. cbn [a_step]. rewrite Hget. unfold upd. rewrite Hm. reflexivity.
  - cbn in Hpre. destruct (insert_at_spec q i r Hinv Hpre) as (q' & E & Hinv' & Hget & _).
    rewrite E. cbn [bind]. exists q', RInsAt. split; [reflexivity|]. split; [exact Hinv'|]. split; [exact I|].
    intros j. cbn [a_step]. rewrite Hget. unfold upd. rewrite Hm. reflexivity.
  - destruct (remove_spec q i Hinv) as (q' & E & Hinv' & Hget & _). rewrite E.
    exists q', (RRem (q_get q i)). split; [reflexivity|]. split; [exact Hinv'|]. split; [cbn; apply Hm|].
    intros j. cbn [a_step]. rewrite Hget. unfold clr. rewrite Hm. reflexivity.
  - destruct (drain_spec q) as (q' & E & Hinv' & Hget & Hdr). rewrite E.
    exists q', (RDrain (flatten_opt (q_vec q))). split; [reflexivity|]. split; [exact Hinv'|].
    split; [cbn; eapply drained_ext; eauto|]. intros j. cbn [a_step]. rewrite Hget. reflexivity.
Qed.

Lemma fold_q_acc_step {T} (q q1 : queries T) tr0 o ob ops :
  q_step q o = Ok (q1, ob) ->
  fold_left q_acc (o :: ops) (Ok (q, tr0)) = fold_left q_acc ops (Ok (q1, tr0 ++ [ob])).
Proof. intros E. cbn [fold_left q_acc bind]. rewrite E. reflexivity. Qed.

Lemma run_refines {T} (ops : list (qop T)) : forall (q : queries T) (m : N -> option T) tr0,
  q_inv q -> (forall i, q_get q i = m i) -> q_legal_from q ops ->
  exists q' tr, fold_left q_acc ops (Ok (q, tr0)) = Ok (q', tr0 ++ tr) /\ q_inv q' /\ a_trace_ok m ops tr /\
    (forall i, q_get q' i = a_final m ops tr i).
Proof.
  induction ops as [|o ops IH]; intros q m tr0 Hinv Hm Hleg.
  - exists q, []. rewrite app_nil_r. cbn. auto.
  - cbn [q_legal_from] in Hleg. destruct Hleg as (Hpre & Hrest).
    destruct (step_refines q m o Hinv Hm Hpre) as (q1 & ob & E & Hinv1 & Hok & Hm1).
    rewrite E in Hrest. rewrite (fold_q_acc_step _ _ _ _ _ _ E).
    destruct (IH q1 (a_step m o ob) (tr0 ++ [ob]) Hinv1 Hm1 Hrest) as (q2 & tr & E2 & Hinv2 & Htr & Hfin).
    exists q2, (ob :: tr). rewrite E2, <- app_assoc. cbn. auto.
Qed.

(* Theorem (all operation sequences from the empty table): no panic site is
   reached, the representation invariant holds at the end, every observation is
   the one the finite map ID -> request prescribes and every handed-out index is
   below 65536 and free in that map. *)
Theorem queries_refine_map {T} (ops : list (qop T)) :
  q_legal ops ->
  exists q tr, q_run ops = Ok (q, tr) /\ q_inv q /\
    a_trace_ok a_empty ops tr /\ (forall i, q_get q i = a_final a_empty ops tr i).
Proof. intros Hleg. apply (run_refines ops q_new a_empty []); [apply q_inv_new|apply q_get_nil|exact Hleg]. Qed.

Fixpoint no_insert_at {T} (ops : list (qop T)) : Prop :=
  match ops with
  | [] => True
  | OInsAt _ _ :: _ => False
  | _ :: r => no_insert_at r
  end.

Lemma no_insert_at_legal {T} (ops : list (qop T)) : forall q, no_insert_at ops -> q_legal_from q ops.
Proof.
  induction ops as [|o ops IH]; intros q H; cbn; [exact I|].
  destruct o; cbn in H; try contradiction; (split; [exact I|]);
    destruct (q_step q _) as [[q' ob]| | |]; auto.
Qed.

Lemma a_trace_ok_length {T} (ops : list (qop T)) : forall m tr, a_trace_ok m ops tr -> length tr = length ops.
Proof.
  induction ops as [|o ops IH]; intros m [|ob tr] H; cbn in H; try contradiction; [reflexivity|].
  cbn. f_equal. eapply IH. apply H.
Qed.

Lemma a_trace_ok_app {T} (ops1 : list (qop T)) : forall m tr1 ops2 tr2,
  length tr1 = length ops1 ->
  a_trace_ok m (ops1 ++ ops2) (tr1 ++ tr2) ->
  a_trace_ok m ops1 tr1 /\ a_trace_ok (a_final m ops1 tr1) ops2 tr2.
Proof.
  induction ops1 as [|o ops1 IH]; intros m [|ob tr1] ops2 tr2 Hl H; cbn in Hl; try discriminate.
  - cbn. auto.
  - cbn in H. destruct H as (Hok & H). apply IH in H; [|lia]. cbn. tauto.
Qed.

(* an ID that the map holds stays held by the same request until a try_remove
   of that ID or a drain *)
Definition clearsb {T} (idx : N) (o : qop T) : bool :=
  match o with ORem i => i =? idx | ODrain => true | _ => false end.
Definition clears {T} (idx : N) (o : qop T) : Prop := clearsb idx o = true.

Lemma held_until_cleared {T} (ops : list (qop T)) : forall (m : N -> option T) tr idx r,
  m idx = Some r -> a_trace_ok m ops tr ->
  (forall o, In o ops -> ~ clears idx o) ->
  (forall i r', In (OInsAt i r') ops -> i <> idx) ->
  a_final m ops tr idx = Some r.
Proof.
  induction ops as [|o ops IH]; intros m [|ob tr] idx r Hm H Hnc Hnia; cbn in H; try contradiction; [exact Hm|].
  destruct H as (Hok & H). cbn [a_final].
  apply IH; [|exact H|intros o' Ho'; apply Hnc; right; exact Ho'|intros i r' Hi; eapply Hnia; right; exact Hi].
  destruct o as [r0|i r0|i|]; destruct ob as [[j|]| | |]; cbn in Hok |- *; try contradiction; try exact Hm.
  - unfold upd. destruct (N.eqb_spec idx j) as [->|]; [destruct Hok; congruence|exact Hm].
  - unfold upd. destruct (N.eqb_spec idx i) as [->|]; [|exact Hm].
    exfalso. eapply Hnia; [left; reflexivity|reflexivity].
  - unfold clr. destruct (N.eqb_spec idx i) as [->|]; [|exact Hm].
    exfalso. apply (Hnc (ORem i)); [left; reflexivity|unfold clears; cbn; apply N.eqb_refl].
  - exfalso. apply (Hnc (ODrain)); [left; reflexivity|reflexivity].
Qed.

(* insert hands out idx, ops2 neither clear idx nor insert_at it: when the next
   operation is observed the map still holds the inserted request under idx *)
Lemma held_after_insert {T} (ops1 ops2 ops3 : list (qop T)) tr1 tr2 tr3 r idx o ob q :
  q_legal (ops1 ++ OIns r :: ops2 ++ o :: ops3) ->
  q_run (ops1 ++ OIns r :: ops2 ++ o :: ops3) = Ok (q, tr1 ++ RIns (Some idx) :: tr2 ++ ob :: tr3) ->
  length tr1 = length ops1 -> length tr2 = length ops2 ->
  (forall o', In o' ops2 -> ~ clears idx o') ->
  (forall i r', In (OInsAt i r') ops2 -> i <> idx) ->
  exists m, m idx = Some r /\ a_ok m o ob.
Proof.
  intros Hleg Hrun Hl1 Hl2 Hnc Hnia.
  destruct (queries_refine_map _ Hleg) as (q' & tr & E & _ & Htr & _).
  rewrite Hrun in E. inversion E; subst q' tr. clear E.
  apply a_trace_ok_app in Htr; [|exact Hl1]. destruct Htr as (_ & _ & Htr). cbn [a_step] in Htr.
  apply a_trace_ok_app in Htr; [|exact Hl2]. destruct Htr as (Htr2 & Hob & _).
  exists (a_final (upd (a_final a_empty ops1 tr1) idx r) ops2 tr2). split; [|exact Hob].
  apply held_until_cleared; [unfold upd; rewrite N.eqb_refl; reflexivity|exact Htr2|exact Hnc|exact Hnia].
Qed.

(* no two live requests share an ID: between two inserts that return the same
   index there is a try_remove of that index or a drain *)
Theorem no_id_reuse_while_live {T} (ops1 ops2 ops3 : list (qop T)) tr1 tr2 tr3 r1 r2 idx q :
  q_legal (ops1 ++ OIns r1 :: ops2 ++ OIns r2 :: ops3) ->
  q_run (ops1 ++ OIns r1 :: ops2 ++ OIns r2 :: ops3) =
    Ok (q, tr1 ++ RIns (Some idx) :: tr2 ++ RIns (Some idx) :: tr3) ->
  length tr1 = length ops1 -> length tr2 = length ops2 ->
  (forall i r', In (OInsAt i r') ops2 -> i <> idx) ->
  exists o, In o ops2 /\ clears idx o.
Proof.
  intros Hleg Hrun Hl1 Hl2 Hnia.
  destruct (existsb (clearsb idx) ops2) eqn:Eex.
  - apply existsb_exists in Eex. exact Eex.
  - exfalso. destruct (held_after_insert _ _ _ _ _ _ _ _ _ _ _ Hleg Hrun Hl1 Hl2) as (m & Hm & Hfree & _); [|exact Hnia|congruence].
    intros o Ho Hc. assert (existsb (clearsb idx) ops2 = true) as E by (apply existsb_exists; eauto). congruence.
Qed.

(* try_remove returns exactly the request that insert stored under that ID *)
Theorem remove_returns_inserted {T} (ops1 ops2 ops3 : list (qop T)) tr1 tr2 tr3 r idx res q :
  q_legal (ops1 ++ OIns r :: ops2 ++ ORem idx :: ops3) ->
  q_run (ops1 ++ OIns r :: ops2 ++ ORem idx :: ops3) =
    Ok (q, tr1 ++ RIns (Some idx) :: tr2 ++ RRem res :: tr3) ->
  length tr1 = length ops1 -> length tr2 = length ops2 ->
  (forall o, In o ops2 -> ~ clears idx o) ->
  (forall i r', In (OInsAt i r') ops2 -> i <> idx) ->
  res = Some r.
Proof.
  intros Hleg Hrun Hl1 Hl2 Hnc Hnia.
  destruct (held_after_insert _ _ _ _ _ _ _ _ _ _ _ Hleg Hrun Hl1 Hl2 Hnc Hnia) as (m & Hm & Hres).
  cbn in Hres. congruence.
Qed.

(* the index cannot be returned by another insert while the request is live *)
Theorem live_id_not_handed_out {T} (ops1 ops2 : list (qop T)) tr1 tr2 r idx q k r' :
  q_legal (ops1 ++ OIns r :: ops2) ->
  q_run (ops1 ++ OIns r :: ops2) = Ok (q, tr1 ++ RIns (Some idx) :: tr2) ->
  length tr1 = length ops1 ->
  (forall o, In o ops2 -> ~ clears idx o) ->
  (forall i r', In (OInsAt i r') ops2 -> i <> idx) ->
  nth_error ops2 k = Some (OIns r') -> nth_error tr2 k <> Some (RIns (Some idx)).
Proof.
  intros Hleg Hrun Hl1 Hnc Hnia Hk Hk'.
  apply nth_error_split in Hk as (o1 & o2 & -> & Ho). apply nth_error_split in Hk' as (t1 & t2 & -> & Ht).
  destruct (held_after_insert _ _ _ _ _ _ _ _ _ _ _ Hleg Hrun Hl1) as (m & Hm & Hfree & _); [lia| | |congruence].
  - intros o Hin. apply Hnc, in_or_app. left; exact Hin.
  - intros i r0 Hin. eapply Hnia, in_or_app. left; exact Hin.
Qed.

Example ex_run :
  @q_run N [OIns 10; OIns 11; OIns 12; ORem 1; OIns 13; ORem 0; ORem 0; OInsAt 0 14; OIns 15; ODrain; OIns 16] =
  Ok (mkQ 1 1 [Some 16],
      [RIns (Some 0); RIns (Some 1); RIns (Some 2); RRem (Some 11); RIns (Some 3); RRem (Some 10); RRem None;
       RInsAt; RIns (Some 4); RDrain [14; 12; 13; 15]; RIns (Some 0)]).
Proof. vm_compute. reflexivity. Qed.

Example ex_legal : @q_legal N [OIns 10; OIns 11; ORem 0; OInsAt 0 14].
Proof. vm_compute. repeat split. Qed.

(* insert_at on an occupied slot (precondition violated) breaks count: this is
   why q_legal is a premise *)
Example ex_insert_at_occupied :
  exists q tr, @q_run N [OIns 1; OInsAt 0 2] = Ok (q, tr) /\ q_count q = 2 /\ count_some (q_vec q) = 1.
Proof. eexists _, _. vm_compute. auto. Qed.

Example ex_insert_at_out_of_range : @q_run N [OInsAt 0 2] = Panic 3.
Proof. vm_compute. reflexivity. Qed.

Example ex_reuse_after_remove :
  exists q, @q_run N ([] ++ OIns 1 :: [ORem 0] ++ OIns 2 :: []) =
    Ok (q, [] ++ RIns (Some 0) :: [RRem (Some 1)] ++ RIns (Some 0) :: []).
Proof. eexists. vm_compute. reflexivity. Qed.

(* nothing is free in a prefilled table, so insert appends *)
Lemma prefill_insert (pre : list N) (v : N) :
  lenN pre <= 32767 ->
  q_insert (c15_prefill pre) v = Ok (c15_prefill (pre ++ [v]), Some (lenN pre)).
Proof.
  intros Hl. assert (Hlm : lenN (map (@Some N) pre) = lenN pre) by (unfold lenN; rewrite map_length; reflexivity).
  rewrite insert_append; unfold c15_prefill; cbn [q_count q_curr q_vec]; rewrite ?Hlm; try lia.
  - rewrite N.eqb_refl, map_app, lenN_app1. reflexivity.
  - intros _. rewrite <- Hlm. apply scan_from_end.
Qed.

(* c15_prefill vals is the table that inserting vals into the empty table gives *)
Theorem fill_state (suf : list N) : forall pre tr0,
  lenN (pre ++ suf) <= 32768 ->
  exists tr, fold_left q_acc (map OIns suf) (Ok (c15_prefill pre, tr0)) = Ok (c15_prefill (pre ++ suf), tr).
Proof.
  induction suf as [|v suf IH]; intros pre tr0 Hl.
  - exists tr0. rewrite app_nil_r. reflexivity.
  - assert (Hpre : lenN pre <= 32767) by (unfold lenN in *; rewrite app_length in Hl; cbn [length] in Hl; lia).
    cbn [map]. rewrite (fold_q_acc_step _ (c15_prefill (pre ++ [v])) _ _ (RIns (Some (lenN pre))));
      [|cbn [q_step]; rewrite (prefill_insert pre v Hpre); reflexivity].
    replace (pre ++ v :: suf) with ((pre ++ [v]) ++ suf) in * by (rewrite <- app_assoc; reflexivity).
    apply IH. exact Hl.
Qed.

Example ex_prefill : c15_prefill [] = q_new. Proof. reflexivity. Qed.

Corollary fill_state_run (vals : list N) :
  lenN vals <= 32768 -> exists tr, q_run (map OIns vals) = Ok (c15_prefill vals, tr).
Proof. apply (fill_state vals [] []). Qed.

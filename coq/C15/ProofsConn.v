(* C15 proofs: multi_stream connection reuse / back-off, and the result
   choice of the redundant transport. *)
From Coq Require Import NArith List Bool Lia.
From DV Require Import Base.Outcome C15.Gen C15.Model.
Import ListNotations.
Local Open Scope N_scope.

(* inside the back-off window after a failed connect nothing is attempted: the
   requester gets the error at once and the state does not change *)
Lemma ms_backoff_respected s opt_id now retries timer timeout :
  ms_conn s = MErr retries timer timeout -> now - timer < timeout ->
  ms_newconn s opt_id now = (s, MReplyErr).
Proof.
  intros H Hlt. unfold ms_newconn. rewrite H. cbv [ms_backoff_active].
  destruct (N.ltb_spec (now - timer) timeout); [reflexivity|lia].
Qed.

Lemma ms_backoff_over s now retries timer timeout :
  ms_conn s = MErr retries timer timeout -> timeout <= now - timer ->
  ms_newconn s None now = (s, MConnect).
Proof.
  intros H Hge. unfold ms_newconn. rewrite H. cbv [ms_backoff_active].
  destruct (N.ltb_spec (now - timer) timeout); [lia|]. reflexivity.
Qed.

(* an existing connection is handed out again, unless the requester reports it
   (or a later one) as unusable: then it is dropped, the id moves on and a new
   connection is made *)
Lemma ms_reuse s c opt_id now :
  ms_conn s = MSome c -> (forall id, opt_id = Some id -> id < ms_id s) ->
  ms_newconn s opt_id now = (s, MReplyOk (ms_id s) c).
Proof.
  intros H Hid. unfold ms_newconn. destruct opt_id as [id|]; [|rewrite H; reflexivity].
  cbv [ms_stale]. destruct (N.leb_spec (ms_id s) id) as [Hle|_]; [specialize (Hid id eq_refl); lia|].
  rewrite H. reflexivity.
Qed.

Lemma ms_stale_reconnects s c id now :
  ms_conn s = MSome c -> ms_id s <= id ->
  ms_newconn s (Some id) now = (mkMs MNone (ms_id s + 1), MConnect).
Proof.
  intros H Hid. unfold ms_newconn. rewrite H. cbv [ms_stale ms_id_inc].
  destruct (N.leb_spec (ms_id s) id); [reflexivity|lia].
Qed.

(* whenever ms_newconn starts a connect, completing it cannot hit the
   "Illegal Some state" panic, and a successful connect is announced under the
   current id *)
Lemma ms_connect_no_panic s opt_id now s1 res t backoff :
  ms_newconn s opt_id now = (s1, MConnect) ->
  exists s2 rep, ms_connected s1 res t backoff = Ok (s2, rep) /\
    match res with
    | Some c => rep = MReplyOk (ms_id s1) c /\ ms_conn s2 = MSome c
    | None => rep = MReplyErr /\ exists r, ms_conn s2 = MErr r t backoff
    end.
Proof.
  unfold ms_newconn. intros H.
  destruct (match ms_conn s with MErr _ timer timeout => ms_backoff_active (now - timer) timeout | _ => false end); [discriminate|].
  set (sx := match opt_id with Some id => if ms_stale id (ms_id s) then mkMs MNone (ms_id s + ms_id_inc) else s | None => s end) in *.
  destruct (ms_conn sx) as [|c|r tm to] eqn:Ec; inversion H; subst s1; unfold ms_connected; rewrite Ec;
    destruct res as [c'|]; eexists _, _; (split; [reflexivity|]); cbn; eauto.
Qed.

(* the back-off ceiling doubles per failed connect up to 64 s, then stays at 60 s *)
Lemma ms_retry_cap_values :
  ms_retry_cap_ms 0 = 1000 /\ ms_retry_cap_ms 1 = 2000 /\ ms_retry_cap_ms 6 = 64000 /\
  ms_retry_cap_ms 7 = 60000 /\ (forall r, 6 < r -> ms_retry_cap_ms r = 60000).
Proof.
  repeat split; try reflexivity. intros r Hr. cbv [ms_retry_cap_ms].
  destruct (N.ltb_spec 6 r); [reflexivity|lia].
Qed.

Example ex_ms :
  ms_newconn (mkMs MNone 0) None 5 = (mkMs MNone 0, MConnect) /\
  ms_connected (mkMs MNone 0) None 5 800 = Ok (mkMs (MErr 0 5 800) 0, MReplyErr) /\
  ms_newconn (mkMs (MErr 0 5 800) 0) None 700 = (mkMs (MErr 0 5 800) 0, MReplyErr) /\
  ms_newconn (mkMs (MErr 0 5 800) 0) None 805 = (mkMs (MErr 0 5 800) 0, MConnect) /\
  ms_connected (mkMs (MErr 0 5 800) 0) (Some 9) 806 0 = Ok (mkMs (MSome 9) 0, MReplyOk 0 9) /\
  ms_newconn (mkMs (MSome 9) 0) (Some 0) 900 = (mkMs MNone 1, MConnect).
Proof. vm_compute. repeat split. Qed.

(* well-formed states: the upstream being probed exists and is outstanding; in
   the Wait phase with nothing outstanding some deferred result exists *)
Definition r_ok (n : N) (s : rstate) : Prop :=
  match r_phase s with
  | RProbe ind => ind < n /\ In ind (r_out s)
  | RWait => r_out s <> [] \/ r_dreply s <> None \/ r_derr s <> None
  end.

Lemma first_some_not_none a b : first_some a b <> None.
Proof. destruct a; discriminate. Qed.

Lemma first_some_cases a b x : first_some a b = Some x -> a = Some x \/ b = x.
Proof. destruct a; cbn; intros E; [left; exact E|right; congruence]. Qed.

Lemma in_remove_other i j l : In j l -> j <> i -> In j (remove_n i l).
Proof.
  induction l as [|x r IH]; intros Hin Hne; [destruct Hin|]. cbn [remove_n].
  destruct (N.eqb_spec x i) as [->|Hx].
  - destruct Hin as [<-|Hin]; [congruence|exact Hin].
  - destruct Hin as [<-|Hin]; [left; reflexivity|right; auto].
Qed.

Definition r_post (I : rstate -> Prop) (F : rfinal -> Prop) (bad : Prop) (r : outcome (rstate + rfinal)) : Prop :=
  match r with Ok (inl s') => I s' | Ok (inr fin) => F fin | _ => bad end.

Lemma r_run_inv defer_err n (I : rstate -> Prop) (F : rfinal -> Prop) (bad : Prop) (evs : list revent) :
  (forall s ev, In ev evs -> I s -> r_post I F bad (r_step defer_err n s ev)) ->
  forall s, I s -> r_post I F bad (r_run defer_err n s evs).
Proof.
  induction evs as [|ev rest IH]; intros Hstep s Hs; cbn [r_run]; [exact Hs|].
  pose proof (Hstep s ev (or_introl eq_refl) Hs) as H.
  destruct (r_step defer_err n s ev) as [[s'|fin]| | |]; try exact H.
  apply IH; [|exact H]. intros s0 ev0 Hin. apply Hstep. right. exact Hin.
Qed.

(* the head of the Wait loop: with something outstanding the query goes on
   waiting; otherwise a deferred reply wins over a deferred error, and the panic
   needs both to be absent *)
Lemma r_settle_wait out d1 d2 :
  match r_settle (mkR RWait out d1 d2) with
  | Ok (inl s') => s' = mkR RWait out d1 d2 /\ out <> []
  | Ok (inr (RReturnOk m)) => d1 = Some m
  | Ok (inr (RReturnErr e)) => d1 = None /\ d2 = Some e
  | Panic _ => d1 = None /\ d2 = None
  | _ => False
  end.
Proof.
  unfold r_settle. cbn [r_phase r_out r_dreply r_derr]. cbv [red_prefers_reply].
  destruct out as [|x l]; [|split; [reflexivity|discriminate]]. destruct d1 as [m|], d2 as [e|]; auto.
Qed.

(* the arm of r_step shared by a deferrable reply and a deferred transport error *)
Definition r_defer (n : N) (s : rstate) (i : N) (d1 d2 : option N) : outcome (rstate + rfinal) :=
  match r_phase s with
  | RProbe ind =>
      if i =? ind then let '(ph, out') := r_next n ind (remove_n i (r_out s)) in r_settle (mkR ph out' d1 d2)
      else Ok (inl (mkR (RProbe ind) (remove_n i (r_out s)) d1 d2))
  | RWait => r_settle (mkR RWait (remove_n i (r_out s)) d1 d2)
  end.

Lemma r_step_skip defer_err n s i m :
  r_step defer_err n s (RFin i (USkip m)) = r_defer n s i (first_some (r_dreply s) m) (r_derr s).
Proof. reflexivity. Qed.

Lemma r_step_err n s i e :
  r_step true n s (RFin i (UErr e)) = r_defer n s i (r_dreply s) (first_some (r_derr s) e).
Proof. reflexivity. Qed.

Lemma r_defer_ok n s i d1 d2 : r_ok n s -> d1 <> None \/ d2 <> None ->
  r_post (r_ok n) (fun fin => match fin with RReturnOk m => d1 = Some m | RReturnErr e => d1 = None /\ d2 = Some e end) False
         (r_defer n s i d1 d2).
Proof.
  intros Hok Hd. unfold r_defer.
  assert (Hwait : forall out, r_post (r_ok n) (fun fin => match fin with RReturnOk m => d1 = Some m | RReturnErr e => d1 = None /\ d2 = Some e end) False
                                     (r_settle (mkR RWait out d1 d2))).
  { intros out. pose proof (r_settle_wait out d1 d2) as Hs. destruct (r_settle _) as [[s'|[m|e]]| | |]; auto.
    - destruct Hs as (-> & _). right. exact Hd.
    - destruct Hs as (-> & ->). destruct Hd; congruence. }
  unfold r_ok in Hok. destruct (r_phase s) as [ind|]; [|apply Hwait].
  destruct Hok as (Hlt & Hin). destruct (N.eqb_spec i ind) as [->|Hne].
  - unfold r_next. destruct (N.ltb_spec (ind + 1) n) as [Hnext|]; [|apply Hwait].
    split; [exact Hnext|]. apply in_or_app. right. left. reflexivity.
  - split; [exact Hlt|]. apply in_remove_other; auto.
Qed.

(* what a step may hand to the caller *)
Definition r_final_ok (defer_err : bool) (s : rstate) (ev : revent) (fin : rfinal) : Prop :=
  match ev with
  | RFin _ (UGood m) => fin = RReturnOk m
  | RFin _ (UErr e) =>
      if defer_err then
        match fin with
        | RReturnOk m => r_dreply s = Some m
        | RReturnErr e' => r_dreply s = None /\ first_some (r_derr s) e = Some e'
        end
      else fin = RReturnErr e
  | RFin _ (USkip m) =>
      match fin with
      | RReturnOk m' => first_some (r_dreply s) m = Some m'
      | RReturnErr _ => False
      end
  | RProbeTimeout => False
  end.

Lemma r_step_ok defer_err n s ev : r_ok n s ->
  match r_step defer_err n s ev with
  | Ok (inl s') => r_ok n s'
  | Ok (inr fin) => r_final_ok defer_err s ev fin
  | _ => False
  end.
Proof.
  intros Hok. destruct ev as [i [m|m|e]|]; cbn [r_final_ok].
  - reflexivity.
  - rewrite r_step_skip.
    pose proof (r_defer_ok n s i _ (r_derr s) Hok (or_introl (first_some_not_none (r_dreply s) m))) as H.
    destruct (r_defer _ _ _ _ _) as [[s'|[m'|e']]| | |]; auto. destruct H as (H & _). exact (first_some_not_none _ _ H).
  - destruct defer_err; [rewrite r_step_err|reflexivity].
    pose proof (r_defer_ok n s i (r_dreply s) _ Hok (or_intror (first_some_not_none (r_derr s) e))) as H.
    destruct (r_defer _ _ _ _ _) as [[s'|[m'|e']]| | |]; auto.
  - (* the estimated response time of the probed upstream passes *)
    cbn [r_step]. destruct (r_phase s) as [ind|] eqn:Eph; [|exact Hok].
    unfold r_next. unfold r_ok in Hok. rewrite Eph in Hok. destruct Hok as (Hlt & Hin).
    destruct (N.ltb_spec (ind + 1) n) as [H1|H1]; unfold r_ok; cbn [r_phase r_out].
    + split; [exact H1|]. apply in_or_app. right. left. reflexivity.
    + left. intros E. rewrite E in Hin. destruct Hin.
Qed.

(* over all event sequences (results of started upstreams and probe timeouts in
   any order) the query never reaches its panic; what a step may return is
   r_final_ok *)
Theorem red_run_ok defer_err n (evs : list revent) s :
  r_ok n s -> r_post (r_ok n) (fun _ => True) False (r_run defer_err n s evs).
Proof.
  apply r_run_inv. intros s0 ev _ Hs0. generalize (r_step_ok defer_err n s0 ev Hs0).
  destruct (r_step defer_err n s0 ev) as [[s1|f]| | |]; cbn; auto.
Qed.

Lemma r_init_ok n : 0 < n -> r_ok n r_init.
Proof. intros H. unfold r_ok, r_init. cbn. split; [exact H|left; reflexivity]. Qed.

Example ex_red :
  r_run true 2 r_init [RProbeTimeout; RFin 1 (USkip 7); RFin 0 (UErr 3)] = Ok (inr (RReturnOk 7)) /\
  r_run true 2 r_init [RFin 0 (UErr 3); RFin 1 (UErr 4)] = Ok (inr (RReturnErr 3)) /\
  r_run false 2 r_init [RFin 0 (UErr 3)] = Ok (inr (RReturnErr 3)) /\
  r_run true 2 r_init [RFin 0 (UErr 3); RFin 1 (UGood 9)] = Ok (inr (RReturnOk 9)).
Proof. vm_compute. repeat split. Qed.

Corollary red_run_no_panic defer_err n (evs : list revent) : 0 < n ->
  match r_run defer_err n r_init evs with Ok _ => True | _ => False end.
Proof.
  intros H. generalize (red_run_ok defer_err n evs r_init (r_init_ok n H)).
  destruct (r_run defer_err n r_init evs) as [[s|fin]| | |]; cbn; auto.
Qed.

Definition in_budget (T start : N) (r : mres) : Prop :=
  mres_time r <= start + T /\ forall t, r = MErrTimeout t -> t = start + T.

Lemma in_budget_timeout T start : in_budget T start (MErrTimeout (start + T)).
Proof. split; [cbn; lia|]. intros t E. inversion E. reflexivity. Qed.

Lemma ms_delay_in_budget T start now delays k :
  start <= now <= start + T ->
  (forall now' dl', start <= now' <= start + T -> in_budget T start (k now' dl')) ->
  in_budget T start (ms_delay T start now delays k).
Proof.
  intros Hn Hk. unfold ms_delay. cbv [ms_budget_spent].
  destruct (N.leb_spec T (now - start)); [replace now with (start + T) by lia; apply in_budget_timeout|].
  destruct (N.leb_spec (now + hd 0 delays) (start + T)); [apply Hk; lia|apply in_budget_timeout].
Qed.

(* Theorem: whatever the connections do (fail to come up, come up slowly, die
   with or without reading the request, stay silent) and whatever back-off
   delays are drawn, the request ends no later than response_timeout after it
   was created: the budget is per request, not per connection. *)
Theorem ms_request_in_budget T (atts : list catt) : forall start now count delays,
  start <= now <= start + T -> in_budget T start (ms_request T start now count atts delays).
Proof.
  induction atts as [|a rest IH]; intros start now count delays Hn; cbn [ms_request]; cbv [ms_budget_spent ms_start_fixed];
    (destruct (N.leb_spec T (now - start)); [replace now with (start + T) by lia; apply in_budget_timeout|]).
  - apply in_budget_timeout.
  - destruct a as [d|d r]; (destruct (N.ltb_spec (now + d) (start + T)) as [Hd|]; [|apply in_budget_timeout]).
    + apply ms_delay_in_budget; [lia|]. intros now' dl' H'. apply IH. exact H'.
    + destruct (N.leb_spec T (now + d - start)); [lia|].
      destruct r as [d'|d'|d'|d'|];
        try (destruct (N.ltb_spec (now + d + d') (start + T)); [|apply in_budget_timeout]).
      * split; [cbn; lia|discriminate].
      * split; [cbn; lia|discriminate].
      * destruct (count + 1 =? ms_immediate_retry_at); [apply IH; lia|].
        apply ms_delay_in_budget; [lia|]. intros now' dl' H'. apply IH. exact H'.
      * apply ms_delay_in_budget; [lia|]. intros now' dl' H'. apply IH. exact H'.
      * apply in_budget_timeout.
Qed.

Corollary ms_request_within_budget T (atts : list catt) start now count delays :
  start <= now <= start + T ->
  mres_time (ms_request T start now count atts delays) <= start + T.
Proof. intros Hn. apply ms_request_in_budget, Hn. Qed.

Corollary ms_request_budget T atts delays : mres_time (c15_ms_request T atts delays) <= T.
Proof. apply (ms_request_within_budget T atts 0 0 0 delays). lia. Qed.

Corollary ms_timeout_exact T (atts : list catt) start now count delays t :
  start <= now <= start + T ->
  ms_request T start now count atts delays = MErrTimeout t -> t = start + T.
Proof. intros Hn. apply ms_request_in_budget, Hn. Qed.

Lemma ms_awaits_pinned : ms_all_awaits_bounded = true /\ ms_immediate_retry_at = 1.
Proof. split; reflexivity. Qed.

Example ex_ms_request :
  (* slow accept (20 s) then silence, 30 s budget: fails at 30 s, not at 50 s *)
  c15_ms_request 30000 [COk 20000 SSilent] [] = MErrTimeout 30000 /\
  (* every connection is accepted and dies after the request was read *)
  c15_ms_request 30000 [COk 0 (SFail 0); COk 0 (SFail 0); COk 0 (SFail 0)] [1500; 3000; 40000] = MErrTimeout 30000 /\
  c15_ms_request 30000 [COk 10 (SClosed 5); COk 20 (SReply 7)] [] = MOk 42 /\
  c15_ms_request 3000 [COk 100 (SReply 2900)] [] = MErrTimeout 3000 /\ c15_ms_request 3000 [COk 100 (SReply 2899)] [] = MOk 2999.
Proof. vm_compute. repeat split. Qed.

(* the answer the load balancer makes up itself carries the request's ID and
   question (property text); RCODE SERVFAIL *)
Theorem lb_local_answers rid rqr qs has_opt :
  m_id (lb_local rid rqr qs has_opt) = rid /\
  m_qs (lb_local rid rqr qs has_opt) = Some qs /\
  m_qd (lb_local rid rqr qs has_opt) = lenN qs /\
  m_rcode (lb_local rid rqr qs has_opt) = 2.
Proof. cbv [lb_local lb_local_id lb_local_copies_question lb_local_rcode m_id m_qs m_qd m_rcode]. auto. Qed.

(* what it does with the QR bit: copied from the request, so a local answer to
   a query has QR clear and the library's own is_answer rejects it *)
Lemma lb_local_qr_as_in_code rid rqr qs has_opt :
  m_qr (lb_local rid rqr qs has_opt) = lb_local_qr rqr.
Proof. reflexivity. Qed.

Lemma lb_usable_spec mb b : lb_usable (Some mb, b) = true <-> b <= mb.
Proof.
  unfold lb_usable. cbn [fst snd]. cbv [lb_over_burst]. destruct (N.ltb_spec mb b); cbn; split; intros; try lia; try reflexivity; discriminate.
Qed.

Example ex_lb :
  lb_run [(Some 1, 0)] [0; 0; 0; 0]%nat = [Some O; Some O; None; None] /\
  lb_run [] [0]%nat = [None] /\
  lb_run [(Some 0, 0); (None, 0)] [0; 0; 0]%nat = [Some O; Some 1%nat; Some 1%nat].
Proof. vm_compute. repeat split. Qed.

Example ex_msc :
  c15_msc false [MQ; MQ; MK; MQ; MK; MK; MQ; MQ] = [(true, 1); (true, 1); (true, 2); (true, 3); (true, 3)] /\
  c15_msc true [MQ; MQ; MQ] = [(true, 1); (true, 2); (true, 3)].
Proof. vm_compute. split; reflexivity. Qed.

Example ex_red_same :
  c15_red true 2 (USkip 5) = Ok (inr (RReturnOk 5)) /\ c15_red false 2 (UErr 1) = Ok (inr (RReturnErr 1)) /\
  c15_red true 2 (UErr 1) = Ok (inr (RReturnErr 1)) /\ c15_red true 1 (UGood 0) = Ok (inr (RReturnOk 0)).
Proof. vm_compute. repeat split. Qed.

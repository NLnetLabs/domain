(* C15 proofs: the stream demultiplexer over all event sequences. *)
From Coq Require Import NArith List Bool Lia.
From DV Require Import Base.Outcome C15.Gen C15.Model C15.Proofs C15.ProofsNet.
Import ListNotations.
Local Open Scope N_scope.

Fixpoint wsum {T} (f : T -> N) (l : list (option T)) : N :=
  match l with
  | [] => 0
  | Some x :: r => f x + wsum f r
  | None :: r => wsum f r
  end.

Lemma wsum_total {T} (f : T -> N) (l : list (option T)) : wsum f l = total f l.
Proof. induction l as [|[x|] r IH]; cbn [wsum total wopt]; lia. Qed.

Lemma wsum_zero_count {T} (f : T -> N) (l : list (option T)) : count_some l = 0 -> wsum f l = 0.
Proof. induction l as [|[x|] r IH]; cbn [wsum count_some]; intros H; try lia; auto. Qed.

Lemma insert_full_same {T} (q q' : queries T) r : q_insert q r = Ok (q', None) -> q' = q.
Proof.
  unfold q_insert. destruct (ins_full (q_count q)); [intros H; inversion H; reflexivity|].
  destruct (if ins_scan (lenN (q_vec q)) (q_count q) then _ else None) as [i|].
  - destruct (set_nth _ _ _); [|discriminate]. destruct (slot_at _ _) as [[x|]|]; try discriminate.
    destruct (_ <? _); discriminate.
  - destruct (slot_at _ _) as [[x|]|]; try discriminate. destruct (_ <? _); discriminate.
Qed.

Definition callw (c : N) (e : entry) : N := if e_caller e =? c then 1 else 0.
Definition pending (c : N) (q : queries entry) : N := wsum (callw c) (q_vec q).

Fixpoint tcount (c : N) (log : list (N * bool * dlv)) : N :=
  match log with
  | [] => 0
  | (c', mu, d) :: r => (if (c' =? c) && terminal mu d then 1 else 0) + tcount c r
  end.

Lemma tcount_app c l1 l2 : tcount c (l1 ++ l2) = tcount c l1 + tcount c l2.
Proof. induction l1 as [|[[c' mu] d] r IH]; cbn [tcount app]; lia. Qed.

Lemma tcount_drained c err (v : list (option entry)) :
  tcount c (map (fun e => (e_caller e, e_multi e, DError err)) (flatten_opt v)) = wsum (callw c) v.
Proof.
  induction v as [|[e|] r IH]; cbn [flatten_opt map tcount wsum]; [reflexivity| |exact IH].
  rewrite IH. unfold callw. cbn [terminal]. rewrite andb_true_r. reflexivity.
Qed.

Definition inb (c : N) (S : list N) : N := if existsb (N.eqb c) S then 1 else 0.

Lemma inb_fresh c S c0 : ~ In c S -> inb c0 (c :: S) = inb c0 S + (if c =? c0 then 1 else 0).
Proof.
  intros H. unfold inb. cbn [existsb]. rewrite (N.eqb_sym c0 c). destruct (N.eqb_spec c c0) as [->|]; cbn [orb]; [|lia].
  destruct (existsb (N.eqb c0) S) eqn:E; [|reflexivity].
  apply existsb_exists in E. destruct E as (x & Hx & Ex). apply N.eqb_eq in Ex. subst. contradiction.
Qed.

Lemma pending_total c q : pending c q = total (callw c) (q_vec q).
Proof. apply wsum_total. Qed.

Lemma pending_empty (q : queries entry) c : q_inv q -> q_is_empty q = true -> pending c q = 0.
Proof.
  intros (Hc & _) He. unfold q_is_empty in He. apply N.eqb_eq in He. unfold pending.
  apply wsum_zero_count. lia.
Qed.

Definition sinv (s : sstate) (S : list N) : Prop :=
  q_inv (st_q s) /\
  (* every pending entry went onto the wire under the ID of its slot *)
  (forall i e, q_get (st_q s) i = Some e -> In (e_caller e, i, e_qs e) (st_sent s)) /\
  (* wire records belong to submitted callers, one per caller *)
  (forall c i qs, In (c, i, qs) (st_sent s) -> In c S) /\
  (forall c i qs i' qs', In (c, i, qs) (st_sent s) -> In (c, i', qs') (st_sent s) -> i = i' /\ qs = qs') /\
  (* an answer handed to a single-response caller answers that caller's request *)
  (forall c m, In (c, false, DAnswer m) (st_log s) ->
     exists qs, In (c, m_id m, qs) (st_sent s) /\ answers (mkReq (m_id m) qs) m) /\
  (* exactly once: pending + completed = submitted *)
  (forall c, pending c (st_q s) + tcount c (st_log s) = inb c S) /\
  (* a connection that is down or idle has no pending request *)
  (st_conn s <> COpen \/ st_idle s = true -> forall c, pending c (st_q s) = 0).

Lemma sinv_init iz : sinv (s_init iz) [].
Proof.
  unfold sinv, s_init. cbn [st_q st_conn st_sent st_log st_idle]. split; [apply q_inv_new|].
  split; [intros i e H; unfold q_new in H; rewrite q_get_nil in H; discriminate|].
  split; [intros c i qs []|]. split; [intros c i qs i' qs' []|]. split; [intros c m []|].
  split; [intros c; reflexivity|]. intros _ c. reflexivity.
Qed.

Definition ev_fresh (ev : sevent) (S : list N) : Prop :=
  match ev with ESubmit c _ _ _ _ => ~ In c S | _ => True end.
Definition ev_subs (ev : sevent) (S : list N) : list N :=
  match ev with ESubmit c _ _ _ _ => c :: S | _ => S end.

Lemma q_get_slot {T} (q : queries T) i e : q_get q i = Some e <-> slot_at (q_vec q) i = Some (Some e).
Proof.
  unfold q_get. destruct (slot_at (q_vec q) i) as [[x|]|]; split; intros H; try discriminate; congruence.
Qed.

(* Every step but the submit that goes onto the wire leaves st_sent alone and hands
   d to callers.  The invariant survives when the new table holds no other (caller,
   questions) under an ID than the old one, an answer in d passed is_answer for the
   entry under its ID, and what left the table is what d completes. *)
Lemma sinv_next s S s' d S' :
  sinv s S ->
  st_sent s' = st_sent s -> st_log s' = st_log s ++ d -> q_inv (st_q s') ->
  (forall i e', q_get (st_q s') i = Some e' ->
     exists e, q_get (st_q s) i = Some e /\ e_caller e' = e_caller e /\ e_qs e' = e_qs e) ->
  (forall c, In c S -> In c S') ->
  (forall c m, In (c, false, DAnswer m) d ->
     exists e, q_get (st_q s) (m_id m) = Some e /\ e_caller e = c /\ is_answer (mkReq (m_id m) (e_qs e)) m = true) ->
  (forall c, pending c (st_q s') + tcount c d + inb c S = pending c (st_q s) + inb c S') ->
  (st_conn s' <> COpen \/ st_idle s' = true -> forall c, pending c (st_q s') = 0) ->
  sinv s' S'.
Proof.
  intros (Hq & Hwire & Hsub & Huniq & Hsound & Hcount & _) Es El Hq' Hkeep HS Hd Hcnt Hquiet.
  unfold sinv. rewrite Es, El. split; [exact Hq'|]. split; [|split; [eauto|split; [exact Huniq|split; [|split; [|exact Hquiet]]]]].
  - intros i e' He'. destruct (Hkeep i e' He') as (e & He & -> & ->). apply Hwire, He.
  - intros c m H. apply in_app_or in H. destruct H as [H|H]; [apply Hsound, H|].
    destruct (Hd c m H) as (e & He & <- & Ha). exists (e_qs e). split; [apply Hwire, He|apply is_answer_sound, Ha].
  - intros c. rewrite tcount_app. specialize (Hcount c). specialize (Hcnt c). lia.
Qed.

Lemma sinv_frame s S s' :
  sinv s S -> st_q s' = st_q s -> st_sent s' = st_sent s -> st_log s' = st_log s ->
  (st_conn s' <> COpen \/ st_idle s' = true -> st_conn s <> COpen \/ st_idle s = true) ->
  sinv s' S.
Proof.
  intros (Hq & Hwire & Hsub & Huniq & Hsound & Hcount & Hdown) Eq Es El Hd. unfold sinv. rewrite Eq, Es, El. auto 10.
Qed.

Section Step.
Variable cs : entry -> msg -> bool * xfr * bool.

Lemma after_reply_inv iz (q : queries entry) : q_inv q ->
  after_reply iz q COpen <> COpen \/ q_is_empty q = true -> forall c, pending c q = 0.
Proof.
  intros Hq. unfold after_reply. destruct (q_is_empty q) eqn:E; cbn [andb].
  - intros _ c. apply pending_empty; assumption.
  - intros [H|H]; congruence.
Qed.

(* a reply found its entry: the table is now q', the callers were handed d *)
Lemma sinv_replied s S q' d iz :
  sinv s S -> q_inv q' ->
  (forall i e', q_get q' i = Some e' ->
     exists e, q_get (st_q s) i = Some e /\ e_caller e' = e_caller e /\ e_qs e' = e_qs e) ->
  (forall c m, In (c, false, DAnswer m) d ->
     exists e, q_get (st_q s) (m_id m) = Some e /\ e_caller e = c /\ is_answer (mkReq (m_id m) (e_qs e)) m = true) ->
  (forall c, pending c q' + tcount c d = pending c (st_q s)) ->
  sinv (mkSt q' (after_reply iz q' COpen) (st_sent s) (st_log s ++ d) iz (q_is_empty q')) S.
Proof.
  intros Hinv Hq' Hkeep Hd Hcnt.
  apply (sinv_next s S _ d S Hinv); cbn [st_q st_conn st_sent st_log st_idle]; auto.
  - intros c. specialize (Hcnt c). lia.
  - apply after_reply_inv, Hq'.
Qed.

(* a request refused at once: connection down, table full, message too long *)
Lemma reject_inv s S c mu e q' conn' iz' idle' :
  sinv s S -> ~ In c S -> q_inv q' ->
  (forall i, q_get q' i = q_get (st_q s) i) -> (forall c0, pending c0 q' = pending c0 (st_q s)) ->
  (conn' <> COpen \/ idle' = true -> st_conn s <> COpen) ->
  sinv (mkSt q' conn' (st_sent s) (st_log s ++ [(c, mu, DError e)]) iz' idle') (c :: S).
Proof.
  intros Hinv Hfresh Hq' Hget Hpend Hconn.
  apply (sinv_next s S _ [(c, mu, DError e)] (c :: S) Hinv); cbn [st_q st_conn st_sent st_log st_idle]; auto.
  - intros i e' He'. rewrite Hget in He'. eauto.
  - intros c0; right; assumption.
  - intros c0 m [H|[]]. discriminate.
  - intros c0. cbn [tcount terminal]. rewrite Hpend, (inb_fresh _ _ _ Hfresh), andb_true_r. lia.
  - intros H c0. rewrite Hpend. apply Hinv. left. auto.
Qed.

Lemma submit_inv s S c qs multi bad x0 :
  sinv s S -> ~ In c S ->
  exists s', s_step cs s (ESubmit c qs multi bad x0) = Ok s' /\ sinv s' (c :: S).
Proof.
  intros Hinv Hfresh. pose proof Hinv as (Hq & Hwire & Hsub & Huniq & Hsound & Hcount & _).
  cbn [s_step]. destruct (st_conn s) eqn:Econn.
  2:{ eexists. split; [reflexivity|]. rewrite <- Econn. apply reject_inv; auto. intros _. congruence. }
  destruct (insert_spec (st_q s) (mkEntry c qs multi x0 (is_axfr_init x0)) Hq)
    as [(_ & E)|(_ & q' & idx & E & _ & Hfree & Hq' & Hget & Htot)]; rewrite E; cbn [bind].
  { eexists. split; [reflexivity|]. apply reject_inv; auto. intros [H|H]; congruence. }
  assert (Hpend : forall c0, pending c0 q' = pending c0 (st_q s) + (if c =? c0 then 1 else 0)).
  { intros c0. rewrite !pending_total. apply (Htot (callw c0)). }
  destruct bad.
  - (* cannot be converted: taken out again *)
    destruct (remove_spec q' idx Hq') as (q'' & Er & Hq'' & Hget'' & Htot'' & _). rewrite Er.
    assert (Hg : q_get q' idx = Some (mkEntry c qs multi x0 (is_axfr_init x0))) by (rewrite Hget; unfold upd; rewrite N.eqb_refl; reflexivity).
    eexists. split; [reflexivity|]. apply reject_inv; auto.
    + intros i. rewrite Hget''. unfold clr. destruct (N.eqb_spec i idx) as [->|Hne]; [auto|].
      rewrite Hget. unfold upd. destruct (N.eqb_spec i idx); [contradiction|reflexivity].
    + intros c0. specialize (Htot'' (callw c0)). rewrite Hg, <- !pending_total, Hpend in Htot''.
      unfold callw in Htot''. cbn [wopt e_caller] in Htot''. lia.
    + intros [H|H]; congruence.
  - eexists. split; [reflexivity|]. unfold sinv. cbn [st_q st_conn st_sent st_log st_idle].
    split; [exact Hq'|]. split.
    { intros i e He. rewrite Hget in He. unfold upd in He. apply in_or_app. destruct (N.eqb_spec i idx) as [->|].
      - inversion He; subst. right. left. reflexivity.
      - left. eauto. }
    split.
    { intros c0 i qs0 H. apply in_app_or in H. destruct H as [H|[H|[]]]; [right; eauto|inversion H; left; reflexivity]. }
    split.
    { (* the new wire record is the only one of its caller *)
      intros c0 i qs0 i' qs' H H'. apply in_app_or in H. apply in_app_or in H'.
      destruct H as [H|[H|[]]], H' as [H'|[H'|[]]].
      - eauto.
      - inversion H'; subst. exfalso. apply Hfresh. eauto.
      - inversion H; subst. exfalso. apply Hfresh. eauto.
      - inversion H; inversion H'; subst. auto. }
    split.
    { intros c0 m0 H. destruct (Hsound _ _ H) as (qs0 & Hin & Ha). exists qs0. split; [apply in_or_app; left; exact Hin|exact Ha]. }
    split; [|intros [H|H]; [congruence|discriminate]].
    intros c0. rewrite Hpend, (inb_fresh _ _ _ Hfresh). specialize (Hcount c0). lia.
Qed.

Lemma reply_inv s S m :
  sinv s S -> st_conn s = COpen -> exists s', s_step cs s (EReply m) = Ok s' /\ sinv s' S.
Proof.
  intros Hinv Econn. pose proof Hinv as (Hq & Hwire & _ & _ & _ & _ & Hdown). cbn [s_step]. rewrite Econn.
  destruct (remove_spec (st_q s) (m_id m) Hq) as (q' & Er & Hq' & Hget' & Htot' & Hnone). rewrite Er.
  destruct (q_get (st_q s) (m_id m)) as [e|] eqn:Eg.
  2:{ (* nobody waits for this ID *)
      eexists. split; [reflexivity|]. apply (sinv_frame s S _ Hinv); cbn [st_q st_conn st_sent st_log st_idle]; auto.
      intros H. right. destruct (st_idle s); [reflexivity|]. cbn [andb] in H. destruct H; congruence. }
  assert (Hpend' : forall c0, pending c0 q' + callw c0 e = pending c0 (st_q s)).
  { intros c0. rewrite !pending_total. apply (Htot' (callw c0)). }
  assert (Hkeep : forall i e', q_get q' i = Some e' ->
            exists e0, q_get (st_q s) i = Some e0 /\ e_caller e' = e_caller e0 /\ e_qs e' = e_qs e0).
  { intros i e' He'. rewrite Hget' in He'. unfold clr in He'. destruct (i =? m_id m); [discriminate|eauto]. }
  destruct (e_multi e) eqn:Emu.
  - destruct (cs e m) as [[eof x] isans]. destruct eof.
    + (* the stream ends: its last element, then end of stream *)
      eexists. split; [reflexivity|]. rewrite <- app_assoc. apply sinv_replied; [exact Hinv|exact Hq'|exact Hkeep| |].
      * intros c0 m0 [H|[H|[]]]; discriminate.
      * intros c0. specialize (Hpend' c0). unfold callw in Hpend'. cbn [tcount terminal app].
        rewrite andb_true_r. destruct isans; cbn [negb]; rewrite andb_false_r; lia.
    + (* the stream goes on: the entry is put back under the same ID *)
      destruct (insert_at_spec q' (m_id m) (mkEntry (e_caller e) (e_qs e) true x (e_axfr e)) Hq' (Hnone ltac:(discriminate)))
        as (q'' & Ei & Hq'' & Hget'' & Htot''). rewrite Ei. cbn [bind].
      eexists. split; [reflexivity|]. apply sinv_replied; [exact Hinv|exact Hq''| | |].
      * intros i e' He'. rewrite Hget'' in He'. unfold upd in He'. destruct (N.eqb_spec i (m_id m)) as [->|]; [|eauto].
        inversion He'; subst. eauto.
      * intros c0 m0 [H|[]]; discriminate.
      * intros c0. specialize (Hpend' c0). specialize (Htot'' (callw c0)). rewrite <- !pending_total in Htot''.
        unfold callw in *. cbn [tcount terminal wopt e_caller] in *. destruct isans; cbn [negb]; rewrite andb_false_r; lia.
  - eexists. split; [reflexivity|]. apply sinv_replied; [exact Hinv|exact Hq'|exact Hkeep| |].
    + intros c0 m0 [H|[]]. destruct (is_answer (mkReq (m_id m) (e_qs e)) m) eqn:Ea; [|discriminate].
      inversion H; subst. eauto.
    + intros c0. specialize (Hpend' c0). unfold callw in Hpend'. cbn [tcount].
      destruct (is_answer _ _); cbn [terminal negb]; rewrite andb_true_r; lia.
Qed.

Lemma fail_inv s S err :
  sinv s S -> st_conn s = COpen -> exists s', s_step cs s (EFail err) = Ok s' /\ sinv s' S.
Proof.
  intros Hinv Econn. cbn [s_step]. rewrite Econn. unfold q_drain. eexists. split; [reflexivity|].
  eapply (sinv_next s S _ _ S Hinv); cbn [st_q]; [reflexivity|reflexivity|apply q_inv_new| |auto| | |reflexivity].
  - intros i e' He'. rewrite q_get_nil in He'. discriminate.
  - intros c0 m0 H. apply in_map_iff in H. destruct H as (e & He & _). discriminate.
  - intros c0. rewrite tcount_drained. unfold pending. cbn [q_vec wsum]. lia.
Qed.

Lemma s_step_inv (s : sstate) (S : list N) (ev : sevent) :
  sinv s S -> ev_fresh ev S ->
  exists s', s_step cs s ev = Ok s' /\ sinv s' (ev_subs ev S).
Proof.
  intros Hinv Hfresh. destruct ev as [c qs multi bad x0|m|err|]; cbn [ev_subs ev_fresh] in *.
  1: apply submit_inv; assumption.
  all: destruct (st_conn s) eqn:Econn; [|exists s; cbn [s_step]; rewrite Econn; auto].
  - apply reply_inv; assumption.
  - apply fail_inv; assumption.
  - (* the idle timeout expires: an idle connection has no pending request *)
    cbn [s_step]. rewrite Econn. destruct (st_idle s) eqn:Ei; [|eauto]. eexists. split; [reflexivity|].
    apply (sinv_frame s S _ Hinv); auto.
Qed.
End Step.

Fixpoint subs_of (evs : list sevent) (S : list N) : list N :=
  match evs with [] => S | ev :: r => subs_of r (ev_subs ev S) end.
Fixpoint fresh_all (evs : list sevent) (S : list N) : Prop :=
  match evs with [] => True | ev :: r => ev_fresh ev S /\ fresh_all r (ev_subs ev S) end.

Lemma s_run_inv cs (evs : list sevent) : forall s S,
  sinv s S -> fresh_all evs S ->
  exists s', fold_left (fun acc ev => do s0 <- acc; s_step cs s0 ev) evs (Ok s) = Ok s' /\
             sinv s' (subs_of evs S).
Proof.
  induction evs as [|ev evs IH]; intros s S Hinv Hf; cbn [fold_left subs_of].
  - eauto.
  - destruct Hf as (Hf1 & Hf2). destruct (s_step_inv cs s S ev Hinv Hf1) as (s1 & E & Hinv1).
    cbn [bind]. rewrite E. apply IH; assumption.
Qed.

(* callers are distinct: each ESubmit names a caller not used before *)
Definition distinct_callers (evs : list sevent) : Prop := fresh_all evs [].
Definition submitted (evs : list sevent) : list N := subs_of evs [].

Theorem demux_all cs idle (evs : list sevent) :
  distinct_callers evs ->
  exists s, s_run cs idle evs = Ok s /\ sinv s (submitted evs).
Proof. intros H. unfold s_run. apply s_run_inv; [apply sinv_init|exact H]. Qed.

Lemma demux_inv cs idle (evs : list sevent) s :
  distinct_callers evs -> s_run cs idle evs = Ok s -> sinv s (submitted evs).
Proof.
  intros Hd Hrun. destruct (demux_all cs idle evs Hd) as (s' & E & Hinv). rewrite Hrun in E. injection E as <-. exact Hinv.
Qed.

(* demux_sound + no_cross_delivery: an answer handed to a single-response
   caller has the ID under which THAT caller's request went onto the wire, QR
   set, and that request's questions (or is a header-only error); the caller
   has exactly one wire record, so it cannot be somebody else's *)
Theorem demux_sound cs idle (evs : list sevent) s c m :
  distinct_callers evs -> s_run cs idle evs = Ok s ->
  In (c, false, DAnswer m) (st_log s) ->
  exists qs, In (c, m_id m, qs) (st_sent s) /\ answers (mkReq (m_id m) qs) m /\
    (forall i' qs', In (c, i', qs') (st_sent s) -> i' = m_id m /\ qs' = qs).
Proof.
  intros Hd Hrun Hin. destruct (demux_inv cs idle evs s Hd Hrun) as (_ & _ & _ & Huniq & Hsound & _). destruct (Hsound _ _ Hin) as (qs & Hs & Ha).
  exists qs. split; [exact Hs|]. split; [exact Ha|]. intros i' qs' H'. destruct (Huniq _ _ _ _ _ Hs H'). auto.
Qed.

(* exactly_once: a submitted request is either still pending in exactly one
   slot or has been completed exactly once (answer, WrongReplyForQuery, error,
   or end of stream); nobody else is ever completed; no panic site is reached *)
Theorem exactly_once cs idle (evs : list sevent) :
  distinct_callers evs ->
  exists s, s_run cs idle evs = Ok s /\
    forall c, pending c (st_q s) + tcount c (st_log s) = inb c (submitted evs).
Proof.
  intros Hd. destruct (demux_all cs idle evs Hd) as (s & E & Hinv). exists s. split; [exact E|]. apply Hinv.
Qed.

(* once the connection is down (read error, read timeout, write error, idle
   close) nothing is pending: every submitted request has been completed once *)
Theorem down_completes_all cs idle (evs : list sevent) s :
  distinct_callers evs -> s_run cs idle evs = Ok s -> st_conn s <> COpen ->
  forall c, tcount c (st_log s) = inb c (submitted evs).
Proof.
  intros Hd Hrun Hc c. destruct (demux_inv cs idle evs s Hd Hrun) as (_ & _ & _ & _ & _ & Hcount & Hdown). specialize (Hcount c). rewrite (Hdown (or_introl Hc) c) in Hcount. lia.
Qed.

Definition cs0 (e : entry) (m : msg) : bool * xfr * bool := (m_rcode m =? 1, XDone, true).
Definition good (id q : N) : msg := mkMsg id true false 0 1 0 0 0 (Some [q]) (Some []) None.

Example ex_demux :
  exists s, s_run cs0 false
    [ESubmit 1 [11] false false XDone; ESubmit 2 [22] false false XDone; EReply (good 1 22); EReply (good 0 22);
     ESubmit 3 [33] false false XDone; EReply (good 0 11); EReply (good 0 33); ESubmit 4 [44] false false XDone; EFail 7;
     ESubmit 5 [55] false false XDone] = Ok s /\
    st_log s = [(2, false, DAnswer (good 1 22)); (1, false, DWrong); (3, false, DWrong);
                (4, false, DError 7); (5, false, DError 7)] /\
    st_sent s = [(1, 0, [11]); (2, 1, [22]); (3, 0, [33]); (4, 0, [44])].
Proof. eexists. vm_compute. auto. Qed.

Example ex_distinct : distinct_callers [ESubmit 1 [11] false false XDone; EReply (good 0 11); ESubmit 2 [22] true false XDone].
Proof. cbn. intuition discriminate. Qed.

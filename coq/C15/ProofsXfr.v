(* C15 proofs: multi-response (XFR) streams: RequestMessageMulti::is_answer,
   check_stream, one delivered element per reply. *)
From Coq Require Import NArith List Bool Lia.
From DV Require Import Base.Outcome C15.Gen C15.Model C15.Proofs C15.ProofsNet C15.ProofsDemux.
Import ListNotations.
Local Open Scope N_scope.

(* what "answers" means for a multi-response request: as for single requests,
   plus RFC 5936 2.2: later AXFR responses may leave the question section empty *)
Definition answers_multi (axfr : bool) (r : req) (a : msg) : Prop :=
  m_qr a = true /\ m_id a = r_id r /\
  (hdr_only_error a \/ (axfr = true /\ m_qd a = 0) \/ m_qs a = Some (r_qs r)).

Lemma is_answer_multi_eq axfr r a :
  is_answer_multi axfr r a =
  m_qr a && (m_id a =? r_id r) &&
  (isans_hdr_only (m_rcode a) (m_qd a) (m_an a) (m_ns a) (m_ar a) || axfr && (m_qd a =? 0) || same_question r a).
Proof.
  unfold is_answer_multi, same_question. cbv [isans_reject isans_qd_reject isans_q_equal multi_axfr_rule].
  destruct (m_qr a), (m_id a =? r_id r), (isans_hdr_only _ _ _ _ _), (axfr && (m_qd a =? 0)), (m_qd a =? lenN (r_qs r)); reflexivity.
Qed.

Lemma is_answer_multi_sound axfr r a : is_answer_multi axfr r a = true -> answers_multi axfr r a.
Proof.
  rewrite is_answer_multi_eq, !andb_true_iff, !orb_true_iff, andb_true_iff, !N.eqb_eq, hdr_only_spec.
  intros ((Hqr & Hid) & Hq). split; [exact Hqr|]. split; [exact Hid|].
  destruct Hq as [[Hq|Hq]|Hq]; [left; exact Hq|right; left; exact Hq|right; right; apply same_question_sound, Hq].
Qed.

(* Error and Done are absorbing: nothing is accepted any more *)
Lemma cs_error_sticky e a :
  e_xfr e = XError \/ e_xfr e = XDone -> check_stream_m e a = (false, XError, false).
Proof. intros [H|H]; unfold check_stream_m; rewrite H; reflexivity. Qed.

(* the first response of a transfer is only accepted when it answers the request *)
Lemma cs_first_response_sound e a eof x :
  e_xfr e = XAxfrInit \/ e_xfr e = XIxfrInit ->
  check_stream_m e a = (eof, x, true) ->
  answers_multi (e_axfr e) (mkReq (m_id a) (e_qs e)) a.
Proof.
  intros Hinit H. apply is_answer_multi_sound.
  destruct (is_answer_multi (e_axfr e) (mkReq (m_id a) (e_qs e)) a) eqn:E; [reflexivity|].
  unfold check_stream_m in H. rewrite E in H. destruct Hinit as [Hi|Hi]; rewrite Hi in H; cbn [negb] in H; discriminate.
Qed.

(* a complete AXFR in one message: SOA, records that are not SOA, the same SOA *)
Lemma xfr_records_others s (others : list (option rr)) rest :
  Forall (fun o => o = Some ROther) others ->
  xfr_records (XAxfrFirstSoa s) (others ++ rest) = xfr_records (XAxfrFirstSoa s) rest.
Proof. induction 1 as [|o l Ho _ IH]; [reflexivity|]. subst o. cbn [app xfr_records]. exact IH. Qed.

Lemma axfr_single_message_complete e a s others :
  e_xfr e = XAxfrInit -> m_rcode a = 0 ->
  is_answer_multi (e_axfr e) (mkReq (m_id a) (e_qs e)) a = true ->
  Forall (fun o => o = Some ROther) others ->
  m_ans a = Some (Some (RSoa s) :: others ++ [Some (RSoa s)]) ->
  check_stream_m e a = (true, XDone, true).
Proof.
  intros Hx Hrc Ha Ho Hans. unfold check_stream_m. rewrite Hx, Ha, Hrc, Hans. cbn [negb N.eqb].
  cbn [xfr_records]. rewrite (xfr_records_others s others _ Ho). cbn [xfr_records]. rewrite N.eqb_refl. reflexivity.
Qed.

(* a record after the closing SOA, or a different closing serial, ends in Error
   without being handed on as an answer *)
Example ex_axfr_bad_serial :
  check_stream_m (mkEntry 0 [5] true XAxfrInit true)
    (mkMsg 3 true false 0 1 2 0 0 (Some [5]) (Some [Some (RSoa 1); Some (RSoa 2)]) None) = (false, XError, false).
Proof. vm_compute. reflexivity. Qed.

Example ex_ixfr :
  check_stream_m (mkEntry 0 [5] true XIxfrInit false)
    (mkMsg 3 true false 0 1 5 0 0 (Some [5])
       (Some [Some (RSoa 3); Some (RSoa 1); Some ROther; Some (RSoa 3); Some ROther]) None) = (false, XIxfrSecondDiffSoa 3, true) /\
  check_stream_m (mkEntry 0 [5] true (XIxfrSecondDiffSoa 3) false)
    (mkMsg 3 true false 0 1 1 0 0 (Some [5]) (Some [Some (RSoa 3)]) None) = (true, XDone, true).
Proof. vm_compute. auto. Qed.

Fixpoint elems (c : N) (log : list (N * bool * dlv)) : N :=
  match log with
  | [] => 0
  | (c', mu, d) :: r =>
      (if (c' =? c) && mu && (match d with DAnswer _ | DWrong => true | _ => false end) then 1 else 0) + elems c r
  end.

Lemma elems_app c l1 l2 : elems c (l1 ++ l2) = elems c l1 + elems c l2.
Proof. induction l1 as [|[[c' mu] d] r IH]; cbn [elems app]; lia. Qed.

(* a reply whose ID finds a pending multi-response request hands exactly one
   element (the message or WrongReplyForQuery) to that request's caller and
   nothing to anybody else; the entry stays under the same ID unless the
   stream ended *)
Theorem multi_element_once cs s m s' e :
  q_inv (st_q s) -> st_conn s = COpen ->
  q_get (st_q s) (m_id m) = Some e -> e_multi e = true ->
  s_step cs s (EReply m) = Ok s' ->
  (forall c, elems c (st_log s') = elems c (st_log s) + (if e_caller e =? c then 1 else 0)) /\
  (fst (fst (cs e m)) = false ->
     exists e', q_get (st_q s') (m_id m) = Some e' /\ e_caller e' = e_caller e /\ e_qs e' = e_qs e /\
                e_xfr e' = snd (fst (cs e m))) /\
  (fst (fst (cs e m)) = true -> q_get (st_q s') (m_id m) = None).
Proof.
  intros Hq Hc Hg Hmu H. cbn [s_step] in H. rewrite Hc in H.
  destruct (remove_spec (st_q s) (m_id m) Hq) as (q' & Er & Hq' & Hget' & _ & Hnone). rewrite Er, Hg, Hmu in H.
  rewrite Hg in Hnone. specialize (Hnone ltac:(discriminate)).
  destruct (cs e m) as [[eof x] isans]. cbn [fst snd]. destruct eof.
  - inversion H; subst s'. cbn [st_log st_q]. split; [|split; [discriminate|]].
    + intros c. rewrite !elems_app. cbn [elems]. rewrite !andb_true_r, andb_false_r.
      destruct (e_caller e =? c); destruct isans; cbn; lia.
    + intros _. rewrite Hget'. unfold clr. rewrite N.eqb_refl. reflexivity.
  - destruct (insert_at_spec q' (m_id m) (mkEntry (e_caller e) (e_qs e) true x (e_axfr e)) Hq' Hnone) as (q'' & Ei & _ & Hget'' & _).
    rewrite Ei in H. cbn [bind] in H. inversion H; subst s'. cbn [st_log st_q]. split; [|split; [|discriminate]].
    + intros c. rewrite elems_app. cbn [elems]. rewrite !andb_true_r.
      destruct (e_caller e =? c); destruct isans; cbn; lia.
    + intros _. eexists. split; [rewrite Hget''; unfold upd; rewrite N.eqb_refl; reflexivity|]. auto.
Qed.

(* a reply nobody waits for still has its options handled: a keepalive timeout
   of zero closes a connection that is idle *)
Lemma idle_keepalive_zero_closes cs s m :
  q_inv (st_q s) -> st_conn s = COpen -> st_idle s = true ->
  q_get (st_q s) (m_id m) = None -> m_ka m = Some (Some 0) ->
  exists s', s_step cs s (EReply m) = Ok s' /\ st_conn s' = CDown 10 /\ st_log s' = st_log s.
Proof.
  intros Hq Hc Hi Hg Hk. cbn [s_step]. rewrite Hc.
  destruct (remove_spec (st_q s) (m_id m) Hq) as (q' & Er & _). rewrite Er, Hg, Hi, Hk.
  eexists. split; [reflexivity|]. cbn. auto.
Qed.

(* the idle timeout expiring closes an idle connection and nothing else; nobody
   is waiting then, so nothing is handed to anybody *)
Lemma idle_tick_closes cs s :
  st_conn s = COpen -> st_idle s = true ->
  exists s', s_step cs s ETick = Ok s' /\ st_conn s' = CDown 10 /\ st_log s' = st_log s /\ st_q s' = st_q s.
Proof. intros Hc Hi. cbn [s_step]. rewrite Hc, Hi. eexists. split; [reflexivity|]. cbn. auto. Qed.

Lemma idle_tick_ignored_when_busy cs s : st_idle s = false -> s_step cs s ETick = Ok s.
Proof. intros Hi. cbn [s_step]. rewrite Hi. destruct (st_conn s); reflexivity. Qed.

(* C15 proofs: run-level statements about the redundant transport's result choice
   (provenance of what the caller is handed; the query never sits with nothing
   outstanding) and the load balancer's burst gate over whole request sequences. *)
From Coq Require Import PeanoNat NArith List Bool Lia.
From DV Require Import Base.Outcome C15.Gen C15.Model C15.ProofsConn.
Import ListNotations.
Local Open Scope N_scope.

(* what the caller may be handed, in terms of the events of the whole run: a
   reply some upstream produced, or a transport error some upstream produced *)
Definition r_from_upstream (all : list revent) (fin : rfinal) : Prop :=
  match fin with
  | RReturnOk m => exists i, In (RFin i (UGood m)) all \/ In (RFin i (USkip m)) all
  | RReturnErr e => exists i, In (RFin i (UErr e)) all
  end.

Definition r_prov (all : list revent) (d1 d2 : option N) : Prop :=
  (forall m, d1 = Some m -> r_from_upstream all (RReturnOk m)) /\
  (forall e, d2 = Some e -> r_from_upstream all (RReturnErr e)).

Lemma r_defer_prov n all s i d1 d2 : r_prov all d1 d2 ->
  r_post (fun s' => r_prov all (r_dreply s') (r_derr s')) (r_from_upstream all) True (r_defer n s i d1 d2).
Proof.
  intros Hp. unfold r_defer.
  assert (Hwait : forall out, r_post (fun s' => r_prov all (r_dreply s') (r_derr s')) (r_from_upstream all) True
                                     (r_settle (mkR RWait out d1 d2))).
  { intros out. pose proof (r_settle_wait out d1 d2) as Hs. destruct (r_settle _) as [[s'|[m|e]]| | |]; cbn; auto.
    - destruct Hs as (-> & _). exact Hp.
    - apply Hp, Hs.
    - apply Hp, Hs. }
  destruct (r_phase s) as [ind|]; [|apply Hwait]. destruct (i =? ind); [|exact Hp].
  unfold r_next. destruct (ind + 1 <? n); [exact Hp|apply Hwait].
Qed.

Lemma r_step_prov defer_err n all s ev :
  In ev all -> r_prov all (r_dreply s) (r_derr s) ->
  r_post (fun s' => r_prov all (r_dreply s') (r_derr s')) (r_from_upstream all) True (r_step defer_err n s ev).
Proof.
  intros Hin Hp. destruct ev as [i [m|m|e]|].
  - exists i. left. exact Hin.
  - rewrite r_step_skip. apply r_defer_prov. split; [|apply Hp].
    intros m' E. apply first_some_cases in E. destruct E as [E|<-]; [apply Hp, E|exists i; right; exact Hin].
  - destruct defer_err; [rewrite r_step_err|exists i; exact Hin]. apply r_defer_prov. split; [apply Hp|].
    intros e' E. apply first_some_cases in E. destruct E as [E|<-]; [apply Hp, E|exists i; exact Hin].
  - cbn [r_step]. destruct (r_phase s) as [ind|]; [|exact Hp].
    unfold r_next. destruct (ind + 1 <? n); exact Hp.
Qed.

(* Theorem: whatever the redundant query hands to its caller - over all orders
   of upstream completions and probe timeouts, both defer settings, any number of
   upstreams - is a reply or a transport error that one of the upstreams
   produced in this run; it never makes a result up. *)
Theorem red_result_from_upstream defer_err n (evs : list revent) fin :
  r_run defer_err n r_init evs = Ok (inr fin) -> r_from_upstream evs fin.
Proof.
  intros H.
  pose proof (r_run_inv defer_err n _ _ True evs (fun s ev => r_step_prov defer_err n evs s ev) r_init) as Hr.
  rewrite H in Hr. apply Hr. split; intros x E; discriminate E.
Qed.

(* the query is never left waiting with nothing outstanding *)
Definition r_live (s : rstate) : Prop :=
  match r_phase s with
  | RProbe ind => In ind (r_out s)
  | RWait => r_out s <> []
  end.

Lemma r_defer_live n s i d1 d2 : r_live s -> r_post r_live (fun _ => True) True (r_defer n s i d1 d2).
Proof.
  intros Hl. unfold r_defer.
  assert (Hwait : forall out, r_post r_live (fun _ => True) True (r_settle (mkR RWait out d1 d2))).
  { intros out. pose proof (r_settle_wait out d1 d2) as Hs. destruct (r_settle _) as [[s'|fin]| | |]; cbn; auto.
    destruct Hs as (-> & Hs). exact Hs. }
  unfold r_live in Hl. destruct (r_phase s) as [ind|]; [|apply Hwait].
  destruct (N.eqb_spec i ind) as [->|Hne]; [|apply in_remove_other; [exact Hl|congruence]].
  unfold r_next. destruct (ind + 1 <? n); [|apply Hwait]. apply in_or_app. right. left. reflexivity.
Qed.

Lemma r_step_live defer_err n s ev : r_live s -> r_post r_live (fun _ => True) True (r_step defer_err n s ev).
Proof.
  intros Hl. destruct ev as [i [m|m|e]|]; [exact I| | |].
  - rewrite r_step_skip. apply r_defer_live, Hl.
  - destruct defer_err; [rewrite r_step_err; apply r_defer_live, Hl|exact I].
  - cbn [r_step]. unfold r_live in Hl. destruct (r_phase s) as [ind|] eqn:Eph.
    + unfold r_next. destruct (ind + 1 <? n); unfold r_post, r_live; cbn [r_phase r_out].
      * apply in_or_app. right. left. reflexivity.
      * intros E. rewrite E in Hl. destruct Hl.
    + unfold r_post, r_live. rewrite Eph. exact Hl.
Qed.

(* Theorem: as long as the redundant query has not returned, at least one
   started upstream is still outstanding (so its completion - every upstream
   request completes, by the per-transport theorems - drives the query on);
   with nothing outstanding it has returned.  Together with
   red_run_no_panic: the query returns exactly one result and only then. *)
Theorem red_waiting_has_outstanding defer_err n (evs : list revent) s s' :
  r_live s -> r_run defer_err n s evs = Ok (inl s') -> r_live s'.
Proof.
  intros Hl H. pose proof (r_run_inv defer_err n _ _ True evs (fun s0 ev _ => r_step_live defer_err n s0 ev) s Hl) as Hr.
  rewrite H in Hr. exact Hr.
Qed.

Corollary red_waiting_outstanding_init defer_err n (evs : list revent) s' :
  r_run defer_err n r_init evs = Ok (inl s') -> r_out s' <> [].
Proof.
  intros H. assert (Hl : r_live r_init) by (unfold r_live, r_init; cbn; left; reflexivity).
  pose proof (red_waiting_has_outstanding defer_err n evs r_init s' Hl H) as H'.
  unfold r_live in H'. destruct (r_phase s'); [|exact H'].
  intros E. rewrite E in H'. destruct H'.
Qed.

Example ex_red_prov :
  r_run true 3 r_init [RProbeTimeout; RFin 1 (USkip 7); RFin 0 (UErr 3); RFin 2 (UErr 4)] = Ok (inr (RReturnOk 7)) /\
  r_from_upstream [RProbeTimeout; RFin 1 (USkip 7); RFin 0 (UErr 3); RFin 2 (UErr 4)] (RReturnOk 7) /\
  (exists s', r_run true 3 r_init [RProbeTimeout; RFin 1 (USkip 7)] = Ok (inl s') /\ r_out s' = [0; 2]).
Proof.
  split; [vm_compute; reflexivity|]. split.
  - exists 1. right. right. left. reflexivity.
  - eexists. split; [vm_compute; reflexivity|reflexivity].
Qed.

Definition lb_at (ups : list (option N * N)) (i : nat) : option N * N := nth i ups (None, 0).

(* one request: the upstream chosen exists and passes the burst gate, and only
   its burst counter moves; the request is answered locally only when every
   upstream is over its burst limit - whatever the selection policy picks *)
Lemma lb_step_spec ups pick ups' o : lb_step ups pick = (ups', o) ->
  match o with
  | Some i => (i < length ups)%nat /\ lb_usable (lb_at ups i) = true /\ ups' = lb_bump ups i
  | None => ups' = ups /\ forall i, (i < length ups)%nat -> lb_usable (lb_at ups i) = false
  end.
Proof.
  unfold lb_step, lb_at.
  set (f := fun i : nat => lb_usable (nth i ups (None, 0))).
  destruct (filter f (seq 0 (length ups))) as [|x l] eqn:Ef; intros H; injection H as <- <-.
  - split; [reflexivity|]. intros i Hi.
    destruct (f i) eqn:Efi; [|exact Efi].
    assert (Hin : In i (filter f (seq 0 (length ups)))).
    { apply filter_In. split; [apply in_seq; lia|exact Efi]. }
    rewrite Ef in Hin. destruct Hin.
  - assert (Hin : In (nth (Nat.modulo pick (length (x :: l))) (x :: l) O) (filter f (seq 0 (length ups)))).
    { rewrite Ef. apply nth_In. apply Nat.mod_upper_bound. cbn [length]. discriminate. }
    apply filter_In in Hin. destruct Hin as [Hs Hf].
    apply in_seq in Hs. destruct Hs as [_ Hs]. split; [exact Hs|]. split; [exact Hf|reflexivity].
Qed.

Lemma bump_nth_error (ups : list (option N * N)) : forall j i,
  nth_error (lb_bump ups j) i =
  match nth_error ups i with
  | Some (mb, b) => if Nat.eqb i j then Some (mb, b + lb_burst_inc) else Some (mb, b)
  | None => None
  end.
Proof.
  induction ups as [|[mb b] r IH]; intros j i.
  - destruct j; destruct i; reflexivity.
  - destruct j as [|j]; cbn [lb_bump].
    + destruct i; cbn [nth_error Nat.eqb]; [reflexivity|]. destruct (nth_error r i) as [[mb' b']|]; reflexivity.
    + destruct i; cbn [nth_error Nat.eqb]; [reflexivity|]. apply IH.
Qed.

Fixpoint lb_given (i : nat) (l : list (option nat)) : N :=
  match l with
  | [] => 0
  | Some j :: r => (if Nat.eqb j i then 1 else 0) + lb_given i r
  | None :: r => lb_given i r
  end.

(* Theorem (burst gate over whole request sequences): inside one burst interval
   an upstream with limit max_burst that has already been given b requests is
   given at most max_burst + 1 - b more, whatever the selection policy picks and
   however many requests arrive; the rest go elsewhere or are answered locally. *)
Theorem lb_burst_bounded (picks : list nat) : forall ups i mb b,
  nth_error ups i = Some (Some mb, b) -> b <= mb + 1 ->
  lb_given i (lb_run ups picks) + b <= mb + 1.
Proof.
  induction picks as [|p rest IH]; intros ups i mb b Hn Hb; cbn [lb_run lb_given]; [lia|].
  destruct (lb_step ups p) as [ups' o] eqn:Es. pose proof (lb_step_spec _ _ _ _ Es) as Hs.
  cbn [lb_given]. destruct o as [j|].
  - destruct Hs as (Hj & Hu & ->).
    pose proof (bump_nth_error ups j i) as Hbn. rewrite Hn in Hbn.
    destruct (Nat.eqb_spec j i) as [->|Hne].
    + rewrite Nat.eqb_refl in Hbn.
      unfold lb_at in Hu. rewrite (nth_error_nth _ _ _ Hn) in Hu.
      unfold lb_usable in Hu. cbn [fst snd] in Hu. cbv [lb_over_burst] in Hu.
      destruct (N.ltb_spec mb b) as [Hlt|Hge]; [discriminate Hu|].
      cbv [lb_burst_inc] in Hbn.
      pose proof (IH _ _ _ _ Hbn ltac:(lia)). lia.
    + destruct (Nat.eqb_spec i j) as [E|_]; [congruence|].
      pose proof (IH _ _ _ _ Hbn Hb). lia.
  - destruct Hs as (-> & _). apply (IH _ _ _ _ Hn Hb).
Qed.

(* every upstream a request is handed to passes the burst gate at that moment;
   a local SERVFAIL only when no upstream does *)
Theorem lb_run_head_spec ups p rest :
  match lb_run ups (p :: rest) with
  | Some i :: _ => (i < length ups)%nat /\ lb_usable (lb_at ups i) = true
  | None :: _ => forall i, (i < length ups)%nat -> lb_usable (lb_at ups i) = false
  | [] => False
  end.
Proof.
  cbn [lb_run]. destruct (lb_step ups p) as [ups' o] eqn:Es.
  pose proof (lb_step_spec _ _ _ _ Es) as Hs. destruct o as [i|].
  - destruct Hs as (H1 & H2 & _). split; assumption.
  - destruct Hs as (_ & H). exact H.
Qed.

Example ex_lb_burst :
  lb_run [(Some 1, 0); (None, 0)] [0; 0; 0; 0; 0; 0]%nat = [Some 0; Some 0; Some 1; Some 1; Some 1; Some 1]%nat /\
  lb_given 0 (lb_run [(Some 1, 0); (None, 0)] [0; 0; 0; 0; 0; 0]%nat) = 2.
Proof. vm_compute. split; reflexivity. Qed.

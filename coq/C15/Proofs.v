(* C15 proofs: the outstanding-query table.  Each operation is specified under
   the representation invariant by what it does to the map ID -> request (q_get)
   and to every sum over the slots (total). *)
From Coq Require Import PeanoNat NArith List Lia.
From DV Require Import Base.Outcome C15.Gen C15.Model.
Import ListNotations.
Local Open Scope N_scope.

Lemma set_nth_length {A} (l : list A) n x l' :
  set_nth l n x = Some l' -> length l' = length l.
Proof.
  revert n l'. induction l as [|a r IH]; intros [|n] l' H; cbn in H; try discriminate.
  - inversion H; reflexivity.
  - destruct (set_nth r n x) eqn:E; try discriminate. inversion H; subst. cbn. f_equal. eauto.
Qed.

Lemma set_nth_none {A} (l : list A) n x :
  set_nth l n x = None -> (length l <= n)%nat.
Proof.
  revert n. induction l as [|a r IH]; intros [|n] H; cbn in *; try lia; try discriminate.
  destruct (set_nth r n x) eqn:E; try discriminate. apply IH in E. lia.
Qed.

Lemma set_nth_some {A} (l : list A) n x :
  (n < length l)%nat -> exists l', set_nth l n x = Some l'.
Proof. intros H. destruct (set_nth l n x) eqn:E; [eauto|]. apply set_nth_none in E. lia. Qed.

Lemma set_nth_nth {A} (l : list A) n x l' m :
  set_nth l n x = Some l' -> nth_error l' m = if Nat.eqb m n then Some x else nth_error l m.
Proof.
  revert n l' m. induction l as [|a r IH]; intros [|n] l' m H; cbn in H; try discriminate.
  - inversion H; subst. destruct m; reflexivity.
  - destruct (set_nth r n x) eqn:E; try discriminate. inversion H; subst.
    destruct m; cbn; [reflexivity|]. eapply IH; eauto.
Qed.

(* the sum of f over the occupied slots *)
Definition wopt {T} (f : T -> N) (o : option T) : N := match o with Some x => f x | None => 0 end.
Fixpoint total {T} (f : T -> N) (l : list (option T)) : N :=
  match l with [] => 0 | o :: r => wopt f o + total f r end.

Lemma count_some_total {T} (l : list (option T)) : count_some l = total (fun _ => 1) l.
Proof. induction l as [|[x|] r IH]; cbn [count_some total wopt]; lia. Qed.

Lemma total_app {T} (f : T -> N) l1 l2 : total f (l1 ++ l2) = total f l1 + total f l2.
Proof. induction l1 as [|o r IH]; cbn [total app]; lia. Qed.

Lemma total_set {T} (f : T -> N) l n x l' old :
  set_nth l n x = Some l' -> nth_error l n = Some old -> total f l' + wopt f old = total f l + wopt f x.
Proof.
  revert n l'. induction l as [|a r IH]; intros [|n] l' H Ho; cbn in H, Ho; try discriminate.
  - inversion H; inversion Ho; subst. cbn [total]. lia.
  - destruct (set_nth r n x) as [l0|] eqn:E; try discriminate. inversion H; subst.
    specialize (IH n l0 E Ho). cbn [total]. lia.
Qed.

Lemma count_some_le {T} (l : list (option T)) : count_some l <= lenN l.
Proof. unfold lenN. induction l as [|[x|] r IH]; cbn [count_some length]; lia. Qed.

Lemma count_some_full {T} (l : list (option T)) :
  count_some l = lenN l -> forall n o, nth_error l n = Some o -> o <> None.
Proof.
  unfold lenN. induction l as [|a r IH]; intros H n o Hn.
  - destruct n; discriminate.
  - pose proof (count_some_le r) as Hle. unfold lenN in Hle.
    destruct a as [x|]; cbn [count_some length] in H.
    + destruct n; cbn in Hn; [inversion Hn; discriminate|]. eapply IH; eauto. lia.
    + lia.
Qed.

Lemma all_some_count {T} (l : list (option T)) :
  (forall n, (n < length l)%nat -> exists r, nth_error l n = Some (Some r)) ->
  count_some l = lenN l.
Proof.
  unfold lenN. induction l as [|a r IH]; intros H; [reflexivity|].
  destruct (H O) as [x Hx]; [cbn; lia|]. cbn in Hx. inversion Hx; subst.
  cbn [count_some length]. rewrite IH; [lia|]. intros n Hn. apply (H (S n)). cbn; lia.
Qed.

(* find_none l i looks at l as the slots i, i+1, ... *)
Lemma find_none_some {T} (l : list (option T)) i j :
  find_none l i = Some j ->
  exists k, j = i + N.of_nat k /\ nth_error l k = Some None /\
    forall k', (k' < k)%nat -> exists r, nth_error l k' = Some (Some r).
Proof.
  revert i. induction l as [|[x|] r IH]; intros i H; cbn in H; [discriminate| |].
  - apply IH in H. destruct H as (k & -> & Hk & Hbelow). exists (S k).
    split; [lia|]. split; [exact Hk|]. intros [|k'] Hk'; cbn; [eauto|]. apply Hbelow. lia.
  - inversion H; subst. exists O. split; [lia|]. split; [reflexivity|]. intros k' Hk'. lia.
Qed.

Lemma find_none_none {T} (l : list (option T)) i :
  find_none l i = None -> forall n, (n < length l)%nat -> exists r, nth_error l n = Some (Some r).
Proof.
  revert i. induction l as [|a r IH]; intros i H n Hn; cbn in *; [lia|].
  destruct a as [x|]; [|discriminate]. destruct n; cbn; eauto. eapply IH; eauto. lia.
Qed.

Lemma nth_error_skipn {A} (l : list A) c n : nth_error (skipn c l) n = nth_error l (c + n).
Proof.
  revert l. induction c as [|c IH]; intros l; [reflexivity|].
  destruct l; cbn [skipn]; [destruct n; reflexivity|]. cbn. apply IH.
Qed.

Lemma scan_from_some {T} (v : list (option T)) curr j :
  scan_from curr v = Some j ->
  curr <= j /\ slot_at v j = Some None /\
  forall k, curr <= k < j -> exists r, slot_at v k = Some (Some r).
Proof.
  unfold scan_from, slot_at. intros H. apply find_none_some in H. destruct H as (n & -> & Hn & Hbelow).
  rewrite nth_error_skipn in Hn. split; [lia|]. split.
  - replace (N.to_nat (curr + N.of_nat n)) with (N.to_nat curr + n)%nat by lia. exact Hn.
  - intros k Hk. destruct (Hbelow (N.to_nat (k - curr))) as [r Hr]; [lia|]. exists r.
    rewrite nth_error_skipn in Hr. replace (N.to_nat k) with (N.to_nat curr + N.to_nat (k - curr))%nat by lia. exact Hr.
Qed.

Lemma scan_from_none {T} (v : list (option T)) curr :
  scan_from curr v = None ->
  forall k, curr <= k < lenN v -> exists r, slot_at v k = Some (Some r).
Proof.
  unfold scan_from, slot_at, lenN. intros H k Hk.
  destruct (find_none_none _ _ H (N.to_nat (k - curr))) as [r Hr].
  - rewrite skipn_length. lia.
  - exists r. rewrite nth_error_skipn in Hr.
    replace (N.to_nat k) with (N.to_nat curr + N.to_nat (k - curr))%nat by lia. exact Hr.
Qed.

Lemma scan_from_end {T} (v : list (option T)) : scan_from (lenN v) v = None.
Proof. unfold scan_from, lenN. rewrite Nat2N.id, skipn_all. reflexivity. Qed.

Lemma slot_at_lt {T} (v : list (option T)) i s : slot_at v i = Some s -> i < lenN v.
Proof.
  unfold slot_at, lenN. intros H. assert (nth_error v (N.to_nat i) <> None) as Hn by congruence.
  apply nth_error_Some in Hn. lia.
Qed.

Lemma slot_at_ge {T} (v : list (option T)) i : lenN v <= i -> slot_at v i = None.
Proof. unfold slot_at, lenN. intros H. apply nth_error_None. lia. Qed.

Lemma slot_at_app {T} (v : list (option T)) x j :
  slot_at (v ++ [x]) j = if j =? lenN v then Some x else slot_at v j.
Proof.
  unfold slot_at, lenN. destruct (N.eqb_spec j (N.of_nat (length v))) as [->|Hne].
  - rewrite Nat2N.id, nth_error_app2, Nat.sub_diag by lia. reflexivity.
  - destruct (Nat.lt_ge_cases (N.to_nat j) (length v)) as [Hlt|Hge]; [apply nth_error_app1; exact Hlt|].
    transitivity (@None (option T)); [|symmetry]; apply nth_error_None; [rewrite app_length; cbn|]; lia.
Qed.

Lemma slot_at_set {T} (v : list (option T)) i x v' j :
  set_nth v (N.to_nat i) x = Some v' -> slot_at v' j = if j =? i then Some x else slot_at v j.
Proof.
  unfold slot_at. intros H. rewrite (set_nth_nth _ _ _ _ (N.to_nat j) H).
  destruct (N.eqb_spec j i) as [->|Hne]; [rewrite Nat.eqb_refl; reflexivity|].
  destruct (Nat.eqb_spec (N.to_nat j) (N.to_nat i)); [lia|reflexivity].
Qed.

Lemma lenN_set {T} (v : list (option T)) n x v' : set_nth v n x = Some v' -> lenN v' = lenN v.
Proof. unfold lenN. intros H. apply set_nth_length in H. lia. Qed.

Lemma lenN_app1 {A} (v : list A) x : lenN (v ++ [x]) = lenN v + 1.
Proof. unfold lenN. rewrite app_length. cbn. lia. Qed.

Lemma slot_set {T} (v : list (option T)) i old x :
  slot_at v i = Some old ->
  exists v', set_nth v (N.to_nat i) x = Some v' /\
    (forall j, slot_at v' j = if j =? i then Some x else slot_at v j) /\
    (forall f, total f v' + wopt f old = total f v + wopt f x) /\ lenN v' = lenN v.
Proof.
  intros Hs. pose proof (slot_at_lt _ _ _ Hs) as Hi.
  destruct (set_nth_some v (N.to_nat i) x) as [v' Ev']; [unfold lenN in Hi; lia|]. exists v'.
  split; [exact Ev'|]. split; [intros j; apply (slot_at_set _ _ _ _ j Ev')|].
  split; [intros f; apply (total_set f _ _ _ _ _ Ev' Hs)|apply (lenN_set _ _ _ _ Ev')].
Qed.

Lemma q_get_nil {T} c k i : q_get (@mkQ T c k []) i = None.
Proof. unfold q_get, slot_at. cbn [q_vec]. destruct (N.to_nat i); reflexivity. Qed.

Definition upd {T} (m : N -> option T) (i : N) (r : T) : N -> option T :=
  fun j => if j =? i then Some r else m j.
Definition clr {T} (m : N -> option T) (i : N) : N -> option T :=
  fun j => if j =? i then None else m j.
Definition a_empty {T} : N -> option T := fun _ => None.

Lemma q_inv_new {T} : q_inv (@q_new T).
Proof.
  unfold q_inv, q_new, lenN. cbn. repeat split; try lia; intros i Hi; lia.
Qed.

(* insert and insert_at end the same way: a slot at or after curr that held no
   request (empty, or the one just past the end) gets r *)
Lemma fill_spec {T} (q : queries T) i r v' :
  q_inv q -> q_curr q <= i ->
  (forall j, slot_at v' j = if j =? i then Some (Some r) else slot_at (q_vec q) j) ->
  (forall f, total f v' = total f (q_vec q) + f r) ->
  lenN (q_vec q) <= lenN v' <= 65534 ->
  let q' := mkQ (q_count q + 1) (if i =? q_curr q then q_curr q + 1 else q_curr q) v' in
  q_inv q' /\ (forall j, q_get q' j = upd (q_get q) i r j) /\
  (forall f, total f (q_vec q') = total f (q_vec q) + f r).
Proof.
  intros (Hc & Hcl & Hbelow & _) Hi Hslot Htot Hlen q'. split; [|split; [|exact Htot]].
  - unfold q_inv, q'. cbn [q_count q_curr q_vec].
    split; [rewrite count_some_total, Htot, <- count_some_total; lia|].
    split; [|split; [|lia]].
    + destruct (N.eqb_spec i (q_curr q)) as [<-|]; [|lia].
      assert (i < lenN v'); [|lia]. apply (slot_at_lt v' i (Some r)). rewrite Hslot, N.eqb_refl. reflexivity.
    + intros j Hj. rewrite Hslot. destruct (N.eqb_spec j i) as [_|Hne]; [eauto|].
      apply Hbelow. destruct (N.eqb_spec i (q_curr q)); lia.
  - intros j. unfold q_get, upd, q'. cbn [q_vec]. rewrite Hslot. destruct (j =? i); reflexivity.
Qed.

Lemma insert_full {T} (q : queries T) r : 65535 < 2 * q_count q -> q_insert q r = Ok (q, None).
Proof. intros H. unfold q_insert. cbv [ins_full]. destruct (N.ltb_spec 65535 (2 * q_count q)); [reflexivity|lia]. Qed.

Lemma insert_reuse {T} (q : queries T) r idx v' :
  2 * q_count q <= 65535 -> 2 * q_count q <= lenN (q_vec q) ->
  scan_from (q_curr q) (q_vec q) = Some idx -> idx < 65536 ->
  set_nth (q_vec q) (N.to_nat idx) (Some r) = Some v' ->
  q_insert q r = Ok (mkQ (q_count q + 1) (if idx =? q_curr q then q_curr q + 1 else q_curr q) v', Some idx).
Proof.
  intros Hroom Hs Escan Hidx Ev'. unfold q_insert.
  cbv [ins_full ins_scan ins_scan_from_curr ins_count_inc ins_bump ins_curr_inc idx_limit].
  destruct (N.ltb_spec 65535 (2 * q_count q)); [lia|]. destruct (N.leb_spec (2 * q_count q) (lenN (q_vec q))); [|lia].
  rewrite Escan, Ev', (slot_at_set _ _ _ _ idx Ev'), N.eqb_refl. destruct (N.ltb_spec idx 65536); [reflexivity|lia].
Qed.

Lemma insert_append {T} (q : queries T) r :
  2 * q_count q <= 65535 -> lenN (q_vec q) < 65536 ->
  (2 * q_count q <= lenN (q_vec q) -> scan_from (q_curr q) (q_vec q) = None) ->
  q_insert q r =
  Ok (mkQ (q_count q + 1) (if lenN (q_vec q) =? q_curr q then q_curr q + 1 else q_curr q) (q_vec q ++ [Some r]),
      Some (lenN (q_vec q))).
Proof.
  intros Hroom Hlen Hscan. unfold q_insert.
  cbv [ins_full ins_scan ins_scan_from_curr ins_count_inc ins_bump ins_curr_inc idx_limit].
  destruct (N.ltb_spec 65535 (2 * q_count q)); [lia|].
  destruct (N.leb_spec (2 * q_count q) (lenN (q_vec q))) as [Hs|_]; [rewrite (Hscan Hs)|];
    rewrite slot_at_app, N.eqb_refl; destruct (N.ltb_spec (lenN (q_vec q)) 65536); (reflexivity || lia).
Qed.

Lemma insert_spec {T} (q : queries T) (r : T) :
  q_inv q ->
  (32768 <= q_count q /\ q_insert q r = Ok (q, None)) \/
  (q_count q < 32768 /\ exists q' idx,
     q_insert q r = Ok (q', Some idx) /\ idx < 65536 /\ q_get q idx = None /\ q_inv q' /\
     (forall j, q_get q' j = upd (q_get q) idx r j) /\
     (forall f, total f (q_vec q') = total f (q_vec q) + f r)).
Proof.
  intros Hinv. pose proof Hinv as (Hc & Hcl & Hbelow & Hlen).
  destruct (N.lt_ge_cases 65535 (2 * q_count q)) as [Hfull|Hroom].
  { left. split; [lia|apply insert_full; exact Hfull]. }
  right. split; [lia|].
  assert (Hway : (exists idx, 2 * q_count q <= lenN (q_vec q) /\ scan_from (q_curr q) (q_vec q) = Some idx) \/
                 (lenN (q_vec q) < 65534 /\ (2 * q_count q <= lenN (q_vec q) -> scan_from (q_curr q) (q_vec q) = None))).
  { destruct (N.le_gt_cases (2 * q_count q) (lenN (q_vec q))) as [Hs|Hshort]; [|right; lia].
    destruct (scan_from (q_curr q) (q_vec q)) as [idx|] eqn:Escan; [left; eauto|right].
    (* the scan finds nothing: every slot is occupied (those below curr by the
       invariant), so count = len, and 2 * count <= len leaves len = 0 *)
    pose proof (scan_from_none _ _ Escan) as Hall.
    assert (count_some (q_vec q) = lenN (q_vec q)); [|split; [lia|reflexivity]].
    apply all_some_count. intros n Hn.
    destruct (N.lt_ge_cases (N.of_nat n) (q_curr q)) as [Hl|Hg];
      [destruct (Hbelow _ Hl) as [x Hx]|destruct (Hall (N.of_nat n)) as [x Hx]; [unfold lenN; lia|]];
      exists x; unfold slot_at in Hx; rewrite Nat2N.id in Hx; exact Hx. }
  destruct Hway as [(idx & Hs & Escan)|(Hshort & Hscan)].
  - pose proof (scan_from_some _ _ _ Escan) as (Hge & Hslot & _). pose proof (slot_at_lt _ _ _ Hslot) as Hidx.
    destruct (slot_set _ _ _ (Some r) Hslot) as (v' & Ev' & Hslot' & Htot' & Hlen').
    eexists _, idx. split; [apply insert_reuse; (eassumption || lia)|]. split; [lia|].
    split; [unfold q_get; rewrite Hslot; reflexivity|]. apply fill_spec; [exact Hinv|exact Hge|exact Hslot'| |lia].
    intros f. specialize (Htot' f). cbn [wopt] in Htot'. lia.
  - (* the vector grows: it was shorter than 2 * count <= 65534, or empty *)
    eexists _, (lenN (q_vec q)). split; [apply insert_append; (assumption || lia)|]. split; [lia|].
    split; [unfold q_get; rewrite slot_at_ge by lia; reflexivity|]. apply fill_spec; [exact Hinv|exact Hcl| | |].
    + intros j. apply slot_at_app.
    + intros f. rewrite total_app. cbn [total wopt]. lia.
    + rewrite lenN_app1. lia.
Qed.

(* capacity: insert fails exactly when 32768 requests are live *)
Theorem insert_full_iff {T} (q : queries T) r :
  q_inv q -> (exists q', q_insert q r = Ok (q', None)) <-> 32768 <= q_count q.
Proof.
  intros Hinv. destruct (insert_spec q r Hinv) as [(Hfull & E)|(Hroom & q' & idx & E & _)].
  - split; [auto|]. intros _. eauto.
  - split; [|lia]. intros (q'' & E'). rewrite E in E'. discriminate.
Qed.

Lemma remove_spec {T} (q : queries T) (i : N) :
  q_inv q ->
  exists q', q_try_remove q i = (q', q_get q i) /\ q_inv q' /\
    (forall j, q_get q' j = clr (q_get q) i j) /\
    (forall f, total f (q_vec q') + wopt f (q_get q i) = total f (q_vec q)) /\
    (q_get q i <> None -> slot_at (q_vec q') i = Some None).
Proof.
  intros Hinv. pose proof Hinv as (Hc & Hcl & Hbelow & Hlen).
  assert (Eg : q_get q i = match slot_at (q_vec q) i with Some (Some r) => Some r | _ => None end) by reflexivity.
  unfold q_try_remove. cbv [rem_count_dec rem_curr].
  destruct (slot_at (q_vec q) i) as [[r|]|] eqn:Es; rewrite Eg.
  2,3: exists q; split; [reflexivity|]; split; [exact Hinv|]; split; [|split; [intros f; cbn [wopt]; lia|congruence]];
    intros j; unfold clr; destruct (N.eqb_spec j i) as [->|]; [exact Eg|reflexivity].
  destruct (slot_set _ _ _ None Es) as (v' & Ev' & Hslot' & Htot' & Hlen').
  rewrite Ev'. eexists. split; [reflexivity|]. cbn [q_vec].
  assert (Htot : forall f, total f v' + f r = total f (q_vec q)).
  { intros f. specialize (Htot' f). cbn [wopt] in Htot'. lia. }
  pose proof (Hslot' i) as Hnone. rewrite N.eqb_refl in Hnone.
  split; [|split; [|auto]].
  - unfold q_inv. cbn [q_count q_curr q_vec]. specialize (Htot (fun _ => 1)). rewrite <- !count_some_total in Htot.
    rewrite Hlen'. split; [lia|]. split; [lia|]. split; [|lia].
    intros j Hj. rewrite Hslot'. destruct (N.eqb_spec j i); [lia|]. apply Hbelow. lia.
  - intros j. unfold q_get, clr. cbn [q_vec]. rewrite Hslot'. destruct (j =? i); reflexivity.
Qed.

Lemma insert_at_spec {T} (q : queries T) (i : N) (r : T) :
  q_inv q -> slot_at (q_vec q) i = Some None ->
  exists q', q_insert_at q i r = Ok q' /\ q_inv q' /\
    (forall j, q_get q' j = upd (q_get q) i r j) /\
    (forall f, total f (q_vec q') = total f (q_vec q) + f r).
Proof.
  intros Hinv Es. pose proof Hinv as (_ & _ & Hbelow & Hlen).
  unfold q_insert_at. cbv [insat_count_inc insat_bump insat_curr_inc].
  destruct (slot_set _ _ _ (Some r) Es) as (v' & Ev' & Hslot' & Htot' & Hlen').
  rewrite Ev'. eexists. split; [reflexivity|]. apply fill_spec; [exact Hinv| |exact Hslot'| |lia].
  - destruct (N.le_gt_cases (q_curr q) i) as [|Hlt]; [assumption|].
    destruct (Hbelow _ Hlt) as [x Hx]. congruence.
  - intros f. specialize (Htot' f). cbn [wopt] in Htot'. lia.
Qed.

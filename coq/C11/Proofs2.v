(* C11/Proofs2.v -- the MAC comparison; honestly signed requests, answers and
   sequence steps verify (under the framing premise reads_back); the unsigned
   counter; what an accepted MAC proves; the three repaired defects. *)
From Coq Require Import NArith List Bool Lia.
From DV Require Import Base.Outcome Base.Bytes Base.Names C11.Gen C11.Model C11.Proofs.
From DV Require Import C11.Hmac C11.Exec.
Import ListNotations.
Local Open Scope N_scope.

Lemma len_take_le (n : N) (l : bytes) : n <= len l -> len (take (N.to_nat n) l) = n.
Proof. unfold len, take. intros H. rewrite firstn_length_le by lia. lia. Qed.

Lemma expected_prefix (p e : bytes) : len p <= len e ->
  (if len p <? len e then take (length p) e else e) = take (length p) e.
Proof.
  unfold len, take. intros H.
  destruct (N.ltb_spec (N.of_nat (length p)) (N.of_nat (length e))); [reflexivity|].
  symmetry. apply firstn_all2. lia.
Qed.

Lemma alg_from_name_label a : alg_from_name [alg_label a] = Some a.
Proof. destruct a; reflexivity. Qed.

Lemma alg_eqb_refl a : alg_eqb a a = true.
Proof. destruct a; reflexivity. Qed.

(* compare_signatures = the RFC 8945 5.2.2.1 size gate (present in the source
   iff T1's compare_checks_rfc_size) in front of the core comparison *)
Definition compare_core (k : key) (expected provided : bytes) : outcome unit :=
  if len provided <? k_min k then Err VE_BADTRUNC
  else
    let e := if len provided <? len expected then take (length provided) expected else expected in
    if bytes_eqb e provided then Ok tt else Err VE_BADSIG.

Lemma compare_signatures_eq k e p :
  compare_signatures k e p =
    if compare_checks_rfc_size && negb (within_len_bounds (k_alg k) (len p)) then Err VE_FORMERR
    else compare_core k e p.
Proof. reflexivity. Qed.

Lemma compare_core_eq k e p :
  within_len_bounds (k_alg k) (len p) = true -> compare_signatures k e p = compare_core k e p.
Proof. intros H. rewrite compare_signatures_eq, H, andb_false_r. reflexivity. Qed.

Lemma compare_core_spec k e p :
  compare_core k e p = Ok tt <->
  (k_min k <= len p /\ p = if len p <? len e then take (length p) e else e).
Proof.
  unfold compare_core. cbn zeta. destruct (N.ltb_spec (len p) (k_min k)) as [H|H].
  - split; [discriminate | intros [H1 _]; lia].
  - destruct (bytes_eqb _ p) eqn:E.
    + apply bytes_eqb_spec in E. split; auto.
    + split; [discriminate|]. intros [_ H2]. symmetry in H2. apply (proj2 (bytes_eqb_spec _ _)) in H2. exfalso. exact (eq_true_false_abs _ H2 E).
Qed.

Lemma compare_core_not_ok k e p : compare_core k e p <> Ok tt ->
  compare_core k e p = if len p <? k_min k then Err VE_BADTRUNC else Err VE_BADSIG.
Proof. unfold compare_core. cbn zeta. destruct (_ <? _); [reflexivity|]. destruct (bytes_eqb _ p); congruence. Qed.

Lemma compare_rejects_other k e p :
  len p <= len e -> p <> take (length p) e -> exists x, compare_core k e p = Err x.
Proof.
  intros Hl Hne. rewrite compare_core_not_ok; [destruct (_ <? _); eauto|].
  intros E. apply compare_core_spec in E as [_ E]. rewrite expected_prefix in E by exact Hl. contradiction.
Qed.

Lemma compare_truncated k full n :
  within_len_bounds (k_alg k) n = true -> k_min k <= n -> n <= len full ->
  compare_signatures k full (take (N.to_nat n) full) = Ok tt.
Proof.
  intros Hw H1 H2. pose proof (len_take_le n full H2) as Hl.
  rewrite compare_core_eq by (rewrite Hl; exact Hw).
  apply compare_core_spec. rewrite expected_prefix, Hl by lia. split; [exact H1|].
  unfold take, len in *. rewrite firstn_length_le by lia. reflexivity.
Qed.

Section Generic.
  Variable mac : alg -> bytes -> bytes -> bytes.
  (* the only fact about the MAC function the positive theorems need: its
     output length (ring: hmac::Algorithm::len) *)
  Hypothesis mac_len : forall a k d, len (mac a k d) = native_len a.

  (* two parties share a key: same algorithm, secret and (case-insensitively)
     name; each has its own truncation policy *)
  Definition same_key (a b : key) : Prop :=
    k_alg a = k_alg b /\ k_secret a = k_secret b /\ name_eqb (k_name a) (k_name b) = true.

  Lemma vars_sign_same a b v : same_key a b -> vars_sign a v = vars_sign b v.
  Proof. intros (Ha & _ & Hn). apply name_eqb_spec in Hn. rewrite !vars_sign_eq, Ha, Hn. reflexivity. Qed.

  (* the verifier recomputes the signer's MAC over the same octets and accepts
     what the signer sent of it *)
  Lemma honest_compare ks kr d :
    same_key ks kr -> k_min kr <= k_sign ks -> within_len_bounds (k_alg ks) (k_sign ks) = true ->
    compare_signatures kr (ctx_sign mac kr d) (signature_slice ks (ctx_sign mac ks d)) = Ok tt.
  Proof.
    intros (Ha & Hs & _) Hmin Hwb. unfold ctx_sign, signature_slice. rewrite <- Ha, <- Hs.
    apply compare_truncated; [rewrite <- Ha; exact Hwb | exact Hmin |].
    rewrite mac_len. apply within_len_bounds_spec in Hwb. lia.
  Qed.

  (* "the parser reads back what push_tsig wrote": the TSIG record located in
     [w] carries the key's names, the variables [v] and the MAC [m] the signer
     put there, and sits right behind the signed message [msg].  Proofs4 shows
     it for every laid out message; the model's from_message is executed on
     every harness case (T2). *)
  Definition reads_back (w msg : bytes) (k : key) (v : vars) (m : bytes) (t : mtsig) : Prop :=
    from_message w = Ok t /\ stripped w t = Ok msg /\
    mt_owner t = k_name k /\ mt_algname t = [alg_label (k_alg k)] /\ mt_vars t = v /\ mt_mac t = m.

  (* ServerTransaction::request on what ClientTransaction::request signed: the
     MAC verifies, the time decides between the context with the message and
     the signed BADTIME error carrying the server's time as other data *)
  Lemma server_request_honest ks kr msg v w tl now :
    same_key ks kr -> k_min kr <= k_sign ks -> within_len_bounds (k_alg ks) (k_sign ks) = true ->
    reads_back w msg ks v (signature_slice ks (ctx_sign mac ks (digest_full ks [] msg v))) tl ->
    server_request mac kr w now =
      let c := apply_signature [] (signature_slice ks (ctx_sign mac ks (digest_full ks [] msg v))) in
      if negb (is_valid_at (v_time v) (v_fudge v) now)
      then Ok (SrvBadTime c (Vars (v_time v) (v_fudge v) RC_BADTIME (Some now)))
      else do out <- remove_tsig w tl; Ok (SrvOk c out).
  Proof.
    intros Hk Hmin Hwb (Hfm & Hst & Hown & Halg & <- & Hmac).
    unfold server_request. rewrite Hfm, Halg, alg_from_name_label.
    unfold store_get. rewrite Hown, name_eqb_sym, (proj2 (proj2 Hk)), <- (proj1 Hk), alg_eqb_refl.
    cbn [andb negb]. rewrite Hst. cbn [bind]. rewrite Hmac.
    unfold digest_full. rewrite <- (vars_sign_same ks kr _ Hk). rewrite honest_compare by assumption.
    reflexivity.
  Qed.

  Lemma get_answer_tsig_honest ks kr w msg v m tl :
    same_key ks kr -> reads_back w msg ks v m tl -> (hdr_rcode w =? RC_NOTAUTH) = false ->
    get_answer_tsig kr w = Ok (Some tl).
  Proof.
    intros (Ha & _ & Hn) (Hfm & _ & Hown & Halg & _) Hrc. unfold get_answer_tsig.
    rewrite Hfm, Hrc, Hown, Halg, Hn, <- Ha, name_eqb_refl. reflexivity.
  Qed.

  Lemma check_answer_time_plain w t now : (hdr_rcode w =? RC_NOTAUTH) = false ->
    check_answer_time w t now = if negb (is_valid_at (mt_time t) (mt_fudge t) now) then Err VE_BADTIME else Ok tt.
  Proof. intros Hrc. unfold check_answer_time. rewrite Hrc. reflexivity. Qed.

  (* ClientTransaction::answer on what ServerTransaction::answer signed; [c] is
     the context both hold after the request (the request MAC with its length) *)
  Lemma client_answer_honest ks kr c msg v w tl now :
    same_key ks kr -> k_min kr <= k_sign ks -> within_len_bounds (k_alg ks) (k_sign ks) = true ->
    reads_back w msg ks v (signature_slice ks (ctx_sign mac ks (digest_full ks c msg v))) tl ->
    (hdr_rcode w =? RC_NOTAUTH) = false ->
    client_answer mac kr c w now =
      if negb (is_valid_at (v_time v) (v_fudge v) now) then Err VE_BADTIME else remove_tsig w tl.
  Proof.
    intros Hk Hmin Hwb Hrb Hrc. unfold client_answer.
    rewrite (get_answer_tsig_honest _ _ _ _ _ _ _ Hk Hrb Hrc). cbn [bind].
    destruct Hrb as (_ & Hst & _ & _ & <- & Hmac). rewrite Hst. cbn [bind]. rewrite Hmac.
    unfold digest_full. rewrite <- (vars_sign_same ks kr _ Hk). rewrite honest_compare by assumption.
    cbn [bind]. rewrite check_answer_time_plain by exact Hrc. cbn [mt_vars v_time v_fudge].
    destruct (is_valid_at _ _ now); reflexivity.
  Qed.

  (* one step of a sequence: ClientSequence::answer on what ServerSequence::
     answer signed (the first message with the full variables, later ones with
     the timers), both holding context [c]; the client then holds the MAC it
     received, and its unsigned counter is reset *)
  Lemma cseq_answer_honest ks kr c (first : bool) u msg v w tl now :
    same_key ks kr -> k_min kr <= k_sign ks -> within_len_bounds (k_alg ks) (k_sign ks) = true ->
    reads_back w msg ks v
      (signature_slice ks (ctx_sign mac ks (if first then digest_full ks c msg v else digest_timers ks c msg v))) tl ->
    (hdr_rcode w =? RC_NOTAUTH) = false -> is_valid_at (v_time v) (v_fudge v) now = true ->
    cseq_answer mac kr (CSeq c first u) w now =
      (CSeq (apply_signature [] (mt_mac tl)) false (if first then u else 0), remove_tsig w tl).
  Proof.
    intros Hk Hmin Hwb Hrb Hrc Hwin. unfold cseq_answer.
    rewrite (get_answer_tsig_honest _ _ _ _ _ _ _ Hk Hrb Hrc).
    destruct Hrb as (_ & Hst & _ & _ & <- & Hmac). rewrite Hst. cbn [cs_first cs_ctx cs_unsigned].
    rewrite check_answer_time_plain by exact Hrc. cbn [mt_vars v_time v_fudge] in Hwin.
    rewrite Hwin. cbn [negb]. rewrite Hmac.
    destruct first; unfold digest_full, digest_timers.
    - rewrite <- (vars_sign_same ks kr _ Hk). rewrite honest_compare by assumption. reflexivity.
    - rewrite !vars_sign_timers_eq. rewrite honest_compare by assumption. reflexivity.
  Qed.

  Lemma cseq_answer_unsigned k s m now : get_answer_tsig k m = Ok None ->
    cseq_answer mac k s m now =
      if cs_first s then (s, Err VE_SERVERUNSIGNED)
      else if cs_unsigned s <? 99 then (CSeq (cs_ctx s ++ m) false (cs_unsigned s + 1), Ok m)
      else (s, Err VE_TOOMANYUNSIGNED).
  Proof. intros Hg. unfold cseq_answer. rewrite Hg. reflexivity. Qed.

  Fixpoint feed_unsigned (k : key) (s : cseq) (ms : list bytes) (now : N) : cseq * bool :=
    match ms with
    | [] => (s, true)
    | m :: r => match cseq_answer mac k s m now with
                | (s', Ok _) => feed_unsigned k s' r now
                | (s', _) => (s', false)
                end
    end.

  Theorem unsigned_run_limit k s ms now :
    cs_first s = false -> Forall (fun m => get_answer_tsig k m = Ok None) ms ->
    (snd (feed_unsigned k s ms now) = true <-> cs_unsigned s + N.of_nat (length ms) <= 99 \/ ms = []).
  Proof.
    intros Hf Hall. revert s Hf. induction Hall as [|m r Hm Hr IH]; intros s Hf.
    - cbn. split; auto.
    - cbn [feed_unsigned length]. rewrite (cseq_answer_unsigned k s m now Hm), Hf.
      destruct (N.ltb_spec (cs_unsigned s) 99) as [H|H].
      + rewrite IH by reflexivity. cbn [cs_unsigned].
        split; [intros [H1|H1]; [left; lia | subst r; cbn; left; lia] | intros [H1|H1]; [left; lia | discriminate]].
      + cbn. split; [discriminate | intros [H1|H1]; [lia | discriminate]].
  Qed.

  Theorem unsigned_counter_bounded k s m now :
    cs_unsigned s <= 99 -> cs_unsigned (fst (cseq_answer mac k s m now)) <= 99.
  Proof.
    intros H. destruct (get_answer_tsig k m) as [[t|]| | |] eqn:Hg.
    2: { rewrite cseq_answer_unsigned by exact Hg. destruct (cs_first s); [exact H|].
         destruct (N.ltb_spec (cs_unsigned s) 99); cbn; lia. }
    all: unfold cseq_answer; rewrite Hg; try exact H.
    destruct (stripped m t); try exact H.
    destruct (compare_signatures _ _ _); try exact H.
    destruct (check_answer_time _ _ _); try exact H.
    destruct (cs_first s); cbn; lia.
  Qed.

  (* done(): the last message must have been signed *)
  Theorem done_iff_last_signed s : cseq_done s = Ok tt <-> cs_unsigned s = 0.
  Proof. unfold cseq_done. destruct (N.eqb_spec (cs_unsigned s) 0); split; intros; try congruence; lia. Qed.

  (* Idealised MAC: two digest inputs that agree on the first n >= 10 octets of
     their MAC under the same key are equal.  No real MAC satisfies this
     literally; it is the standard idealisation and stays a premise. *)
  Definition mac_collision_free : Prop :=
    forall a k d d' n, 10 <= n -> take (N.to_nat n) (mac a k d) = take (N.to_nat n) (mac a k d') -> d = d'.

  (* if the server accepts a message, the MAC it carries is the (possibly
     truncated) MAC of exactly the digest input of RFC 8945 for the stripped
     message and the variables in the record *)
  Theorem server_accepts_only_valid_mac k w now c out :
    server_request mac k w now = Ok (SrvOk c out) ->
    exists t sm, from_message w = Ok t /\ stripped w t = Ok sm /\
      k_min k <= len (mt_mac t) /\
      mt_mac t = (let e := ctx_sign mac k (digest_full k [] sm (mt_vars t)) in
                  if len (mt_mac t) <? len e then take (length (mt_mac t)) e else e) /\
      is_valid_at (mt_time t) (mt_fudge t) now = true /\
      name_eqb (k_name k) (mt_owner t) = true /\ mt_algname t = mt_algname t.
  Proof.
    unfold server_request. intros H.
    destruct (from_message w) as [t|e| |] eqn:Hfm; try discriminate.
    2: { destruct (e =? TE_MISSING); discriminate. }
    destruct (alg_from_name (mt_algname t)) as [a|]; [|discriminate].
    destruct (store_get k (mt_owner t) a) eqn:Hst; [|discriminate]. cbn [negb] in H.
    destruct (stripped w t) as [sm| | |] eqn:Hs; try discriminate. cbn [bind] in H.
    rewrite compare_signatures_eq in H. destruct (compare_checks_rfc_size && _); [discriminate|].
    destruct (compare_core _ _ _) as [[]|e| |] eqn:Hc; try discriminate.
    destruct (is_valid_at _ _ _) eqn:Hv; [|discriminate].
    apply compare_core_spec in Hc as [Hc1 Hc2].
    exists t, sm. repeat split; auto.
    unfold store_get in Hst. apply andb_true_iff in Hst. tauto.
  Qed.

  (* tamper rejection: two accepted requests carrying the same MAC were signed
     over the same stripped message and the same variables *)
  Theorem tamper_rejected k w1 w2 now1 now2 c1 c2 o1 o2 t1 t2 s1 s2 :
    mac_collision_free ->
    10 <= k_min k ->
    server_request mac k w1 now1 = Ok (SrvOk c1 o1) -> server_request mac k w2 now2 = Ok (SrvOk c2 o2) ->
    from_message w1 = Ok t1 -> from_message w2 = Ok t2 -> stripped w1 t1 = Ok s1 -> stripped w2 t2 = Ok s2 ->
    mt_mac t1 = mt_mac t2 -> len (mt_mac t1) <= native_len (k_alg k) ->
    s1 ++ vars_sign k (mt_vars t1) = s2 ++ vars_sign k (mt_vars t2).
  Proof.
    intros Hcf Hmin H1 H2 Hf1 Hf2 Hs1 Hs2 Hm Hl.
    apply server_accepts_only_valid_mac in H1 as (t1' & s1' & Hf1' & Hs1' & Hmin1 & He1 & _).
    apply server_accepts_only_valid_mac in H2 as (t2' & s2' & Hf2' & Hs2' & _ & He2 & _).
    rewrite Hf1 in Hf1'. injection Hf1' as <-. rewrite Hf2 in Hf2'. injection Hf2' as <-.
    rewrite Hs1 in Hs1'. injection Hs1' as <-. rewrite Hs2 in Hs2'. injection Hs2' as <-.
    cbn zeta in He1, He2. rewrite <- Hm in He2.
    rewrite expected_prefix in He1, He2 by (unfold ctx_sign; rewrite mac_len; exact Hl).
    apply (Hcf (k_alg k) (k_secret k) _ _ (len (mt_mac t1))); [lia|].
    unfold ctx_sign, digest_full in He1, He2. cbn [app] in He1, He2. unfold len. rewrite Nat2N.id. congruence.
  Qed.
End Generic.

Definition ex_key (mn sg : N) : key := Key Sha256 [48;49;50;51;52;53;54;55;56;57;97;98;99;100;101;102;48;49;50;51] [[75;101;121]; [69;120;97;109;112;108;101]] mn sg.
(* query www.example.com A, ID 0x1234 *)
Definition ex_msg : bytes :=
  [18;52; 0;0; 0;1; 0;0; 0;0; 0;0; 3;119;119;119; 7;101;120;97;109;112;108;101; 3;99;111;109; 0; 0;1; 0;1].
Definition ex_t : N := 1700000000.

Lemma hmac_of_len a k d : len (hmac_of a k d) = native_len a.
Proof.
  unfold len. destruct a; cbn [hmac_of native_len].
  - rewrite hmac_sha1_length. reflexivity.
  - rewrite hmac_sha256_length. reflexivity.
  - rewrite hmac_sha384_length. reflexivity.
  - rewrite hmac_sha512_length. reflexivity.
Qed.

(* the MAC of the corpus request (2ef1939c...); the truncation settings of the
   key do not enter *)
Definition ex_mac : bytes := Eval vm_compute in
  ctx_sign hmac_of (ex_key 32 32) (digest_full (ex_key 32 32) [] ex_msg (Vars ex_t 300 RC_NOERROR None)).

Lemma ex_request_eq mn sg :
  client_request hmac_of (ex_key mn sg) ex_msg ex_t 300 =
    do w <- push_tsig (ex_key mn sg) (Vars ex_t 300 RC_NOERROR None) (take (N.to_nat sg) ex_mac) ex_msg;
    Ok (apply_signature [] (take (N.to_nat sg) ex_mac), w).
Proof.
  unfold client_request, signature_slice. cbv zeta. change (k_sign (ex_key mn sg)) with sg.
  replace (ctx_sign hmac_of _ _) with ex_mac by (vm_compute; reflexivity). reflexivity.
Qed.

(* the signed request of the harness corpus: same octets as the implementation
   produces (MAC 2ef1939c...), the honest server accepts inside the window and
   restores the octets, and answers BADTIME one second outside *)
Example ex_request_signs_and_verifies :
  exists c w, client_request hmac_of (ex_key 32 32) ex_msg ex_t 300 = Ok (c, w) /\
    firstn 4 (skipn (length w - 38) w) = [46; 241; 147; 156] /\
    (exists out, server_request hmac_of (ex_key 16 32) w (ex_t + 300) = Ok (SrvOk c out) /\ firstn (length ex_msg) out = ex_msg) /\
    server_request hmac_of (ex_key 16 32) w (ex_t + 301) = Ok (SrvBadTime c (Vars ex_t 300 RC_BADTIME (Some (ex_t + 301)))).
Proof.
  eexists. eexists. split. { rewrite ex_request_eq. vm_compute. reflexivity. }
  split. { vm_compute. reflexivity. }
  split. { eexists. split; vm_compute; reflexivity. }
  vm_compute. reflexivity.
Qed.

(* Three defects of /repo found by this check's oracle and repaired there
   (commits b40daa9, 9915138, 1bd6c1f): (1) a MAC mismatch was answered
   FORMERR, (2) a TSIG RR with CLASS <> ANY or TTL <> 0 verified, (3)
   ServerSequence digested the untruncated prior MAC.  T1 reads the repaired
   shape; the statements below are the positive versions. *)
Definition flip_at (w : bytes) (i : nat) : bytes := firstn i w ++ N.lxor (nth i w 0) 1 :: skipn (S i) w.

Lemma server_code_badsig_is_badsig : server_code_badsig = RC_BADSIG /\ server_code_badtrunc = RC_BADTRUNC.
Proof. split; reflexivity. Qed.

Lemma server_request_mac_error mac k w now t sm a e :
  from_message w = Ok t -> alg_from_name (mt_algname t) = Some a -> store_get k (mt_owner t) a = true ->
  stripped w t = Ok sm ->
  compare_signatures k (ctx_sign mac k (digest_full k [] sm (mt_vars t))) (mt_mac t) = Err e ->
  server_request mac k w now =
    Err (SE_UNSIGNED + (if e =? VE_BADTRUNC then RC_BADTRUNC else if e =? VE_BADKEY then RC_BADKEY
                        else if e =? VE_BADSIG then RC_BADSIG else RC_FORMERR)).
Proof.
  intros Hf Ha Hs Hst Hc. unfold server_request. rewrite Hf, Ha, Hs. cbn [negb]. rewrite Hst. cbn [bind].
  rewrite Hc. reflexivity.
Qed.

(* (1) RFC 8945 5.2.3: a MAC of acceptable length that does not verify is answered BADSIG *)
Lemma server_mac_mismatch_badsig mac k w now t sm a :
  from_message w = Ok t -> alg_from_name (mt_algname t) = Some a -> store_get k (mt_owner t) a = true ->
  stripped w t = Ok sm -> within_len_bounds (k_alg k) (len (mt_mac t)) = true -> k_min k <= len (mt_mac t) ->
  compare_signatures k (ctx_sign mac k (digest_full k [] sm (mt_vars t))) (mt_mac t) <> Ok tt ->
  server_request mac k w now = Err (SE_UNSIGNED + RC_BADSIG).
Proof.
  intros Hf Ha Hs Hst Hw Hmin Hc. rewrite compare_core_eq in Hc by exact Hw.
  apply compare_core_not_ok in Hc. destruct (N.ltb_spec (len (mt_mac t)) (k_min k)); [lia|].
  rewrite <- compare_core_eq in Hc by exact Hw.
  exact (server_request_mac_error mac k w now t sm a _ Hf Ha Hs Hst Hc).
Qed.

(* ... and a MAC shorter than min_mac_len is answered BADTRUNC *)
Lemma server_short_mac_badtrunc mac k w now t sm a :
  from_message w = Ok t -> alg_from_name (mt_algname t) = Some a -> store_get k (mt_owner t) a = true ->
  stripped w t = Ok sm -> within_len_bounds (k_alg k) (len (mt_mac t)) = true -> len (mt_mac t) < k_min k ->
  server_request mac k w now = Err (SE_UNSIGNED + RC_BADTRUNC).
Proof.
  intros Hf Ha Hs Hst Hw Hmin. apply (server_request_mac_error mac k w now t sm a VE_BADTRUNC Hf Ha Hs Hst).
  rewrite compare_core_eq by exact Hw. unfold compare_core. apply N.ltb_lt in Hmin. rewrite Hmin. reflexivity.
Qed.

(* RFC 8945 5.2.2.1: with the size gate in the source (T1), a MAC longer than the
   digest or shorter than max(10, half of it) is answered FORMERR *)
Lemma server_mac_size_formerr_now mac k w now t sm a :
  from_message w = Ok t -> alg_from_name (mt_algname t) = Some a -> store_get k (mt_owner t) a = true ->
  stripped w t = Ok sm -> within_len_bounds (k_alg k) (len (mt_mac t)) = false ->
  server_request mac k w now = Err (SE_UNSIGNED + RC_FORMERR).
Proof.
  intros Hf Ha Hs Hst Hw. apply (server_request_mac_error mac k w now t sm a VE_FORMERR Hf Ha Hs Hst).
  rewrite compare_signatures_eq, Hw. reflexivity.
Qed.

Example server_badsig_ex :
  exists c w, client_request hmac_of (ex_key 32 32) ex_msg ex_t 300 = Ok (c, w) /\
    server_request hmac_of (ex_key 32 32) (flip_at w 14) ex_t = Err (SE_UNSIGNED + RC_BADSIG).
Proof. eexists. eexists. split. { rewrite ex_request_eq. vm_compute. reflexivity. } vm_compute. reflexivity. Qed.

(* (2) a TSIG record whose CLASS is not ANY or whose TTL is not 0 is never located *)
Lemma tsig_class_ttl_enforced fuel m pos lim count h :
  count <> 0 -> record_parse m pos lim = Ok h -> rh_type h = RTYPE_TSIG ->
  (rh_class h <> CLASS_ANY \/ rh_ttl h <> 0) ->
  forall t, find_tsig (S fuel) m pos lim count <> Ok t.
Proof.
  intros Hc Hp Ht Hbad t. cbn [find_tsig]. destruct (N.eqb_spec count 0); [contradiction|].
  rewrite Hp. cbn [to_err bind]. rewrite Ht, N.eqb_refl.
  destruct (tsig_parse m h pos); cbn [to_err bind]; try discriminate.
  replace tsig_class_ttl_checked with true by reflexivity. cbn [andb].
  destruct (N.eqb_spec (rh_class h) CLASS_ANY), (N.eqb_spec (rh_ttl h) 0); cbn [negb orb]; try discriminate.
  destruct Hbad; contradiction.
Qed.

Example tsig_class_ex :
  exists c w, client_request hmac_of (ex_key 32 32) ex_msg ex_t 300 = Ok (c, w) /\
    server_request hmac_of (ex_key 32 32) (flip_at w (length ex_msg + 13 + 3)) ex_t = Err (SE_UNSIGNED + RC_FORMERR) /\
    server_request hmac_of (ex_key 32 32) (flip_at w (length ex_msg + 13 + 7)) ex_t = Err (SE_UNSIGNED + RC_FORMERR).
Proof.
  eexists. eexists. split. { rewrite ex_request_eq. vm_compute. reflexivity. }
  split; vm_compute; reflexivity.
Qed.

(* (3) the context of a ServerSequence holds the MAC as sent (truncated), which
       is what the client applies (mt_mac of the received record) *)
Lemma server_seq_context_is_sent_mac mac k c first msg now fudge c' w :
  server_seq_answer mac k c first msg now fudge = Ok (c', w) ->
  exists full, full = ctx_sign mac k (if first then digest_full k c msg (Vars now fudge RC_NOERROR None)
                                      else digest_timers k c msg (Vars now fudge RC_NOERROR None)) /\
    c' = apply_signature [] (signature_slice k full) /\
    push_tsig k (Vars now fudge RC_NOERROR None) (signature_slice k full) msg = Ok w.
Proof.
  intros H. unfold server_seq_answer in H. cbn zeta in H.
  replace server_seq_applies_full_mac with false in H by reflexivity.
  destruct first; (destruct (push_tsig _ _ _ msg) as [x| | |] eqn:E; try discriminate;
    cbn in H; injection H as <- <-; eexists; split; [reflexivity|]; split; [reflexivity | exact E]).
Qed.

Definition ex_answer (n : N) : bytes :=
  [18;52; 132;0; 0;1; 0;1; 0;0; 0;0; 3;119;119;119; 7;101;120;97;109;112;108;101; 3;99;111;109; 0; 0;1; 0;1;
   192;12; 0;1; 0;1; 0;0;0;60; 0;4; 10;0;0;n].

(* a three message sequence signed with MACs truncated to 16 octets verifies *)
Example sequence_truncated_ex :
  exists c0 w c1 w1 c2 w2 s1 s2,
    client_request hmac_of (ex_key 16 16) ex_msg ex_t 300 = Ok (c0, w) /\
    server_seq_answer hmac_of (ex_key 16 16) c0 true (ex_answer 1) ex_t 300 = Ok (c1, w1) /\
    server_seq_answer hmac_of (ex_key 16 16) c1 false (ex_answer 2) ex_t 300 = Ok (c2, w2) /\
    cseq_answer hmac_of (ex_key 16 16) (CSeq c0 true 0) w1 ex_t = (s1, Ok (ex_answer 1 ++ skipn (length (ex_answer 1)) w1)) /\
    cseq_answer hmac_of (ex_key 16 16) s1 w2 ex_t = (s2, Ok (ex_answer 2 ++ skipn (length (ex_answer 2)) w2)) /\
    cseq_done s2 = Ok tt.
Proof.
  do 8 eexists.
  split. { rewrite ex_request_eq. vm_compute. reflexivity. }
  split. { vm_compute. reflexivity. }
  split. { vm_compute. reflexivity. }
  split. { vm_compute. reflexivity. }
  split. { vm_compute. reflexivity. }
  vm_compute. reflexivity.
Qed.

(* a changed shape of the source flips these generated values and breaks the lemmas *)
Lemma repaired_shapes :
  compare_checks_rfc_size = true /\ formerr_plain_response = true /\ tsig_class_ttl_checked = true /\
  server_seq_applies_full_mac = false /\ server_code_badsig = RC_BADSIG /\ server_code_other = RC_FORMERR /\
  server_code_badtrunc = RC_BADTRUNC /\ server_mac_before_time = true /\
  tsig_scan_all_sections = true /\ client_wrapper_validates_all = true /\ client_steps_checked = true /\
  remove_tsig_sets_original_id = true.
Proof. repeat split. Qed.

Lemma prior_mac_prefix_width m : length (apply_signature [] m) = (N.to_nat prior_mac_len_prefix_octets + length m)%nat.
Proof. unfold apply_signature. cbn [app]. rewrite app_length. reflexivity. Qed.

(* C11/ProofsB.v -- Key::generate builds the key Key::new builds from the
   generated octets, so every theorem over keys covers generated keys, and the
   truncation settings land in the fields they were given for. *)
From Coq Require Import NArith List.
From DV Require Import Base.Outcome C11.Gen C11.Model C11.Generate C11.Proofs.
Import ListNotations.
Local Open Scope N_scope.

Lemma generate_as_new a rnd nm mn sg :
  key_generate a rnd nm mn sg =
    do k <- key_new a (firstn (N.to_nat (native_len a)) rnd) nm mn sg; Ok (k, k_secret k).
Proof.
  unfold key_generate, key_new.
  destruct (calculate_bounds a mn sg) as [[m s]| | |]; reflexivity.
Qed.

Definition setting (a : alg) (o : option N) : N := match o with Some l => l | None => native_len a end.

Lemma generate_honours_settings a rnd nm mn sg k bits :
  key_generate a rnd nm mn sg = Ok (k, bits) ->
  k_alg k = a /\ k_secret k = bits /\ k_name k = nm /\
  k_min k = setting a mn /\ k_sign k = setting a sg /\
  within_len_bounds a (k_min k) = true /\ within_len_bounds a (k_sign k) = true.
Proof.
  unfold key_generate. destruct (calculate_bounds a mn sg) as [[m s]| | |] eqn:E; try discriminate.
  apply calculate_bounds_Ok in E as (-> & -> & H1 & H2). intros [= <- <-]. repeat split; assumption.
Qed.

Lemma generate_rejects a rnd nm mn sg :
  (exists kb, key_generate a rnd nm mn sg = Ok kb) <->
  (forall l, mn = Some l -> within_len_bounds a l = true) /\ (forall l, sg = Some l -> within_len_bounds a l = true).
Proof.
  unfold key_generate. split.
  - intros [kb H]. destruct (calculate_bounds a mn sg) as [[m s]| | |] eqn:E; try discriminate.
    apply calculate_bounds_Ok in E as (-> & -> & H1 & H2). split; intros l ->; assumption.
  - intros [H1 H2]. rewrite (proj2 (calculate_bounds_Ok a mn sg (setting a mn) (setting a sg))); [eexists; reflexivity|].
    repeat split; [destruct mn | destruct sg]; auto; apply within_len_bounds_native.
Qed.

(* Model.key_new transcribes Key::new with the tuple taken in calculate_bounds' order: T1 reads that order *)
Lemma new_bounds_as_modelled : new_bounds_swapped = false.
Proof. reflexivity. Qed.

(* C11/ProofsA.v -- the rejections that need no MAC (unknown key / algorithm,
   malformed or misplaced TSIG on both sides), and honest multi-message
   streams of any length: every ServerSequence step verifies in
   ClientSequence and both ends hold the same context afterwards. *)
From Coq Require Import NArith List.
From DV Require Import Base.Outcome Base.Bytes Base.Names C02.ProofsName.
From DV Require Import C11.Gen C11.Model C11.Proofs2 C11.Proofs4 C11.Exec.
Import ListNotations.
Local Open Scope N_scope.

Section Reject.
  Variable mac : alg -> bytes -> bytes -> bytes.

  (* server: a TSIG whose algorithm name is none of the four, or whose owner /
     algorithm is not the key's, is BADKEY -- before any digest is computed *)
  Theorem server_unknown_key_badkey k w now t :
    from_message w = Ok t ->
    (alg_from_name (mt_algname t) = None \/
     exists a, alg_from_name (mt_algname t) = Some a /\ store_get k (mt_owner t) a = false) ->
    server_request mac k w now = Err (SE_UNSIGNED + RC_BADKEY).
  Proof.
    intros Hf [Hn | (a & Ha & Hs)]; unfold server_request; rewrite Hf.
    - rewrite Hn. reflexivity.
    - rewrite Ha, Hs. reflexivity.
  Qed.

  (* server: whatever from_message refuses (TSIG not last, two TSIGs, TSIG in
     another section, bad CLASS/TTL, unparsable) is FORMERR; no TSIG at all is
     not an error (Ok(None)) *)
  Theorem server_from_message_error k w now e :
    from_message w = Err e ->
    server_request mac k w now = if e =? TE_MISSING then Ok SrvNone else Err (SE_UNSIGNED + RC_FORMERR).
  Proof. intros Hf. unfold server_request. rewrite Hf. reflexivity. Qed.

  (* client transaction: the same two classes are ServerUnsigned / FormErr *)
  Theorem client_from_message_error k c m now e :
    from_message m = Err e ->
    client_answer mac k c m now = Err (if e =? TE_MISSING then VE_SERVERUNSIGNED else VE_FORMERR).
  Proof.
    intros Hf. unfold client_answer, get_answer_tsig. rewrite Hf.
    destruct (e =? TE_MISSING); reflexivity.
  Qed.

  (* client: a TSIG under another key name or algorithm is BadKey (unless the
     server reports BADKEY/BADSIG itself under NOTAUTH) *)
  Theorem client_wrong_key_badkey k c m now t :
    from_message m = Ok t -> (hdr_rcode m =? RC_NOTAUTH) = false ->
    (name_eqb (mt_owner t) (k_name k) = false \/ name_eqb (mt_algname t) [alg_label (k_alg k)] = false) ->
    client_answer mac k c m now = Err VE_BADKEY /\
    (forall s, cseq_answer mac k s m now = (s, Err VE_BADKEY)).
  Proof.
    intros Hf Hrc Hk.
    assert (Hg : get_answer_tsig k m = Err VE_BADKEY).
    { unfold get_answer_tsig. rewrite Hf, Hrc. cbn [andb].
      destruct Hk as [Hk | Hk]; rewrite Hk; cbn [negb orb]; [reflexivity|].
      destruct (name_eqb (mt_owner t) (k_name k)); reflexivity. }
    split.
    - unfold client_answer. rewrite Hg. reflexivity.
    - intros s. unfold cseq_answer. rewrite Hg. reflexivity.
  Qed.

  (* client: NOTAUTH with TSIG error BADKEY / BADSIG is reported as the
     server's verdict without looking at key or MAC *)
  Theorem client_server_verdict k c m now t :
    from_message m = Ok t -> (hdr_rcode m =? RC_NOTAUTH) = true ->
    (mt_error t = RC_BADKEY -> client_answer mac k c m now = Err VE_SERVERBADKEY) /\
    (mt_error t = RC_BADSIG -> client_answer mac k c m now = Err VE_SERVERBADSIG).
  Proof.
    intros Hf Hrc. split; intros He; unfold client_answer, get_answer_tsig; rewrite Hf, Hrc, He; reflexivity.
  Qed.
End Reject.

Example reject_ex :
  from_message ex_msg = Err TE_MISSING /\
  server_request hmac_of (ex_key 16 32) ex_msg ex_t = Ok SrvNone /\
  client_answer hmac_of (ex_key 16 32) [] ex_msg ex_t = Err VE_SERVERUNSIGNED.
Proof. repeat split; vm_compute; reflexivity. Qed.

(* a request signed under the key name "Key.Example" is BADKEY for a server
   that holds "Other.Example", and BadKey for such a client *)
Definition ex_other_key : key :=
  Key Sha256 (k_secret (ex_key 32 32)) [[79;116;104;101;114]; [69;120;97;109;112;108;101]] 32 32.
Example unknown_key_ex :
  exists c w t, client_request hmac_of (ex_key 32 32) ex_msg ex_t 300 = Ok (c, w) /\
    from_message w = Ok t /\ alg_from_name (mt_algname t) = Some Sha256 /\
    store_get ex_other_key (mt_owner t) Sha256 = false /\
    server_request hmac_of ex_other_key w ex_t = Err (SE_UNSIGNED + RC_BADKEY) /\
    name_eqb (mt_owner t) (k_name ex_other_key) = false /\
    client_answer hmac_of ex_other_key [] w ex_t = Err VE_BADKEY.
Proof.
  do 3 eexists. split. { rewrite ex_request_eq. vm_compute. reflexivity. }
  split. { vm_compute. reflexivity. }
  repeat split; vm_compute; reflexivity.
Qed.

Section Honest.
  Variable mac : alg -> bytes -> bytes -> bytes.
  Hypothesis mac_len : forall a k d, len (mac a k d) = native_len a.

  (* A stream of any length: ServerSequence signs message after message (the
     first with the full variables, the others with the timers), ClientSequence
     verifies them in order.  Invariant: after every message both ends hold the
     same context and the client's unsigned counter is 0. *)
  Record item := Item { i_msg : bytes; i_t : N; i_fudge : N; i_now : N }.

  Inductive signed_stream (ks : key) : ctx -> bool -> list item -> list bytes -> ctx -> Prop :=
  | ss_nil c f : signed_stream ks c f [] [] c
  | ss_cons c f it c1 w rest ws c2 :
      server_seq_answer mac ks c f (i_msg it) (i_t it) (i_fudge it) = Ok (c1, w) ->
      signed_stream ks c1 false rest ws c2 ->
      signed_stream ks c f (it :: rest) (w :: ws) c2.

  Fixpoint client_feed (kr : key) (s : cseq) (ws : list bytes) (its : list item) : cseq * list (outcome bytes) :=
    match ws, its with
    | w :: ws', it :: its' =>
        let s1 := fst (cseq_answer mac kr s w (i_now it)) in
        let o := snd (cseq_answer mac kr s w (i_now it)) in
        (fst (client_feed kr s1 ws' its'), o :: snd (client_feed kr s1 ws' its'))
    | _, _ => (s, [])
    end.

  Definition item_ok (it : item) : Prop :=
    (exists nq an ns ar, MsgAt (i_msg it) nq an ns ar) /\ i_t it < T48_LIMIT /\ i_fudge it < 65536 /\
    (hdr_rcode (i_msg it) =? RC_NOTAUTH) = false /\ is_valid_at (i_t it) (i_fudge it) (i_now it) = true.

  Theorem sequence_stream ks kr :
    same_key ks kr -> k_min kr <= k_sign ks -> within_len_bounds (k_alg ks) (k_sign ks) = true ->
    name_ok (k_name ks) ->
    forall c f its ws c2, signed_stream ks c f its ws c2 -> Forall item_ok its ->
    exists f', fst (client_feed kr (CSeq c f 0) ws its) = CSeq c2 f' 0 /\ (its <> [] -> f' = false) /\
      Forall2 (fun it o => exists rr, o = Ok (i_msg it ++ rr)) its (snd (client_feed kr (CSeq c f 0) ws its)) /\
      cseq_done (fst (client_feed kr (CSeq c f 0) ws its)) = Ok tt.
  Proof.
    intros Hk Hmin Hw Hn c f its ws c2 Hs. induction Hs as [c f | c f it c1 w rest ws c2 Hsrv Hs IH]; intros Hok.
    - exists f. cbn. repeat split; [congruence | constructor].
    - inversion Hok as [| x l Hit Hrest]; subst. destruct Hit as ((nq & an & ns & ar & Hm) & Ht & Hf & Hrc & Hwin).
      destruct (sequence_step_full mac mac_len ks kr c f 0 (i_msg it) nq an ns ar (i_t it) (i_fudge it) (i_now it) c1 w
                  Hk Hmin Hw Hm Hn Ht Hf Hrc Hsrv Hwin) as (rr & Ew & Hstep).
      replace (if f then 0 else 0) with 0 in Hstep by (destruct f; reflexivity).
      destruct (IH Hrest) as (f' & Hfst & Hne & Houts & Hdone).
      exists f'. cbn [client_feed]. rewrite Hstep. cbn [fst snd].
      split; [exact Hfst|]. split.
      + intros _. destruct rest as [|it2 rest2].
        * inversion Hs; subst. cbn in Hfst. injection Hfst as <-. reflexivity.
        * apply Hne. discriminate.
      + split; [|exact Hdone]. constructor; [exists rr; reflexivity | exact Houts].
  Qed.
End Honest.

(* non-vacuity: the corpus answer signed inside a transaction is BadTime one
   second outside the window; (the sequence steps: sequence_truncated_ex) *)
Example answer_outside_window_ex :
  exists c0 w0 w, client_request hmac_of (ex_key 32 32) ex_msg ex_t 300 = Ok (c0, w0) /\
    server_answer hmac_of (ex_key 32 16) c0 (ex_answer 1) ex_t 300 = Ok w /\
    client_answer hmac_of (ex_key 16 32) c0 w (ex_t + 301) = Err VE_BADTIME /\
    (hdr_rcode (ex_answer 1) =? RC_NOTAUTH) = false.
Proof.
  do 3 eexists. split. { rewrite ex_request_eq. vm_compute. reflexivity. }
  split. { vm_compute. reflexivity. }
  split; vm_compute; reflexivity.
Qed.

(* non-vacuity of the stream relation: two answers signed by ServerSequence
   with MACs truncated to 16 octets (the client side of the same stream is
   executed in sequence_truncated_ex) *)
Example signed_stream_ex :
  exists c0 w0 ws c2, client_request hmac_of (ex_key 16 16) ex_msg ex_t 300 = Ok (c0, w0) /\
    signed_stream hmac_of (ex_key 16 16) c0 true
      [Item (ex_answer 1) ex_t 300 ex_t; Item (ex_answer 2) ex_t 300 (ex_t + 300)] ws c2 /\
    length ws = 2%nat /\
    cseq_done (fst (client_feed hmac_of (ex_key 16 16) (CSeq c0 true 0) ws
      [Item (ex_answer 1) ex_t 300 ex_t; Item (ex_answer 2) ex_t 300 (ex_t + 300)])) = Ok tt.
Proof.
  do 4 eexists. split. { rewrite ex_request_eq. vm_compute. reflexivity. }
  split. { eapply ss_cons; [vm_compute; reflexivity|]. eapply ss_cons; [vm_compute; reflexivity|]. apply ss_nil. }
  split; vm_compute; reflexivity.
Qed.

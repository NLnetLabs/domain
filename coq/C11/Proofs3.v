(* C11/Proofs3.v -- the digest input is an injective function of
   (prior MAC, message, variables): the 16 bit length in front of the prior MAC
   and the fixed widths of the variables make the concatenation uniquely
   decodable. *)
From Coq Require Import NArith List Lia.
From DV Require Import Base.Bytes Base.Names C11.Gen C11.Model C11.Proofs.
Import ListNotations.
Local Open Scope N_scope.

Lemma app_eq_len_l {A} (a a' b b' : list A) :
  length a = length a' -> a ++ b = a' ++ b' -> a = a' /\ b = b'.
Proof.
  revert a'. induction a as [|x a IH]; intros [|y a'] Hl H; cbn in *; try discriminate; auto.
  injection H as -> H. injection Hl as Hl. destruct (IH a' Hl H) as [-> ->]. auto.
Qed.

Lemma app_eq_len_r {A} (a a' b b' : list A) :
  length b = length b' -> a ++ b = a' ++ b' -> a = a' /\ b = b'.
Proof.
  intros Hl H. apply app_eq_len_l; [|exact H].
  apply (f_equal (@length A)) in H. rewrite !app_length in H. lia.
Qed.

Definition wf_vars (v : vars) : Prop :=
  v_time v < T48_LIMIT /\ v_fudge v < 65536 /\ v_error v < 65536 /\
  match v_other v with Some t => t < T48_LIMIT | None => True end.

Lemma be_bytes_inj w x y : x < 256 ^ N.of_nat w -> y < 256 ^ N.of_nat w ->
  be_bytes w x = be_bytes w y -> x = y.
Proof.
  intros Hx Hy H. apply (f_equal (fun l => of_be l 0)) in H.
  rewrite !of_be_be_bytes in H by assumption. exact H.
Qed.

Lemma time48_octets_inj a b : a < T48_LIMIT -> b < T48_LIMIT -> time48_octets a = time48_octets b -> a = b.
Proof.
  unfold time48_octets. change (N.to_nat time48_width) with 6%nat.
  change T48_LIMIT with (256 ^ N.of_nat 6). apply be_bytes_inj.
Qed.

(* be16 keeps the whole quotient in its first octet *)
Lemma be16_inj a b : be16 a = be16 b -> a = b.
Proof. unfold be16. intros [= H0 H1]. rewrite (N.div_mod' a 256), (N.div_mod' b 256). congruence. Qed.

Lemma vars_sign_length k v :
  length (vars_sign k v) = (length (wire_abs (canon (k_name k))) + 6 + length (alg_wire (k_alg k)) + 12 +
                            match v_other v with Some _ => 6 | None => 0 end)%nat.
Proof.
  rewrite vars_sign_eq, !app_length, time48_octets_length.
  destruct (v_other v); rewrite ?time48_octets_length; cbn [length be16 be32]; lia.
Qed.

Lemma vars_sign_inj k v v' :
  wf_vars v -> wf_vars v' -> vars_sign k v = vars_sign k v' -> v = v'.
Proof.
  intros (Ht & Hf & He & Ho) (Ht' & Hf' & He' & Ho') H.
  rewrite !vars_sign_eq in H.
  apply app_inv_head in H. apply app_inv_head in H. apply app_inv_head in H. apply app_inv_head in H.
  apply app_eq_len_l in H; [|rewrite !time48_octets_length; reflexivity]. destruct H as [H1 H].
  apply app_eq_len_l in H; [|reflexivity]. destruct H as [H2 H].
  apply app_eq_len_l in H; [|reflexivity]. destruct H as [H3 H].
  apply app_eq_len_l in H; [|reflexivity]. destruct H as [H4 H5].
  apply time48_octets_inj in H1; try assumption.
  apply be16_inj in H2. apply be16_inj in H3.
  destruct v as [t f e o], v' as [t' f' e' o']; cbn in *. subst.
  destruct o as [x|], o' as [y|]; cbn in *.
  - apply time48_octets_inj in H5; try assumption. subst. reflexivity.
  - discriminate.
  - discriminate.
  - reflexivity.
Qed.

(* Other data present on one side only: the two variable blocks differ in
   length by 6, so the algorithm name of one side would have to coincide with
   itself shifted by six octets - but its first octet (the label length 9 or
   11) differs from its seventh ('s' of "hmac-sha..."). *)
Lemma shift6_impossible (A X X' t t' R R' : bytes) :
  length t = 6%nat -> length R = 12%nat -> length (t' ++ R') = 12%nat ->
  (6 < length A)%nat -> nth 0 A 0 <> nth 6 A 0 ->
  X ++ A ++ t ++ R = X' ++ A ++ t' ++ R' -> False.
Proof.
  intros Lt LR LR' LA Hne H.
  replace (X ++ A ++ t ++ R) with ((X ++ A ++ t) ++ R) in H by (rewrite <- !app_assoc; reflexivity).
  replace (X' ++ A ++ t' ++ R') with ((X' ++ A) ++ (t' ++ R')) in H by (rewrite <- !app_assoc; reflexivity).
  apply app_eq_len_r in H; [|lia]. destruct H as [H _].
  assert (H2 : (X ++ firstn 6 A) ++ (skipn 6 A ++ t) = X' ++ A).
  { rewrite <- H. rewrite <- !app_assoc. f_equal. rewrite (app_assoc (firstn 6 A)), firstn_skipn. reflexivity. }
  clear H. rename H2 into H.
  apply app_eq_len_r in H; [|rewrite app_length, skipn_length; lia]. destruct H as [_ H].
  assert (L6 : length (firstn 6 A) = 6%nat) by (rewrite firstn_length; lia).
  assert (E0 : nth 0 A 0 = nth 0 (skipn 6 A ++ t) 0) by (rewrite H; reflexivity).
  assert (E6 : nth 6 A 0 = nth 0 (skipn 6 A) 0).
  { rewrite <- (firstn_skipn 6 A) at 1. rewrite app_nth2 by (rewrite L6; lia). rewrite L6. reflexivity. }
  assert (E1 : nth 0 (skipn 6 A ++ t) 0 = nth 0 (skipn 6 A) 0) by (apply app_nth1; rewrite skipn_length; lia).
  apply Hne. congruence.
Qed.

Lemma other_presence_determined k msg msg' v v' :
  msg ++ vars_sign k v = msg' ++ vars_sign k v' -> (v_other v = None <-> v_other v' = None).
Proof.
  assert (G : forall m1 m2 v1 v2 o, v_other v1 = Some o -> v_other v2 = None ->
              m1 ++ vars_sign k v1 = m2 ++ vars_sign k v2 -> False).
  { intros m1 m2 v1 v2 o H1 H2 H. rewrite !vars_sign_eq, H1, H2, app_nil_r in H.
    eapply (shift6_impossible (alg_wire (k_alg k))
              (m1 ++ wire_abs (canon (k_name k)) ++ be16 CLASS_ANY ++ be32 0)
              (m2 ++ wire_abs (canon (k_name k)) ++ be16 CLASS_ANY ++ be32 0)
              (time48_octets (v_time v1)) (time48_octets (v_time v2))
              (be16 (v_fudge v1) ++ be16 (v_error v1) ++ be16 other_len_fed ++ time48_octets o)
              (be16 (v_fudge v2) ++ be16 (v_error v2) ++ be16 0)).
    - apply time48_octets_length.
    - rewrite !app_length, time48_octets_length. reflexivity.
    - rewrite !app_length, time48_octets_length. reflexivity.
    - destruct (k_alg k); cbn; lia.
    - destruct (k_alg k); cbn; lia.
    - repeat rewrite <- app_assoc in H. repeat rewrite <- app_assoc. exact H. }
  intros H. destruct (v_other v) as [o|] eqn:E1, (v_other v') as [o'|] eqn:E2; split; intros X; try discriminate; try reflexivity; exfalso.
  - eapply (G msg msg' v v'); eauto.
  - eapply (G msg' msg v' v); eauto.
Qed.

(* the 16 bit length in front of the prior MAC separates it from what follows *)
Lemma apply_signature_inj pm pm' r r' :
  len pm < 65536 -> len pm' < 65536 ->
  apply_signature [] pm ++ r = apply_signature [] pm' ++ r' -> pm = pm' /\ r = r'.
Proof.
  intros Hp Hp' H. unfold apply_signature in H. cbn [app] in H.
  rewrite !N.mod_small in H by assumption. rewrite <- !app_assoc in H.
  apply app_eq_len_l in H; [|reflexivity]. destruct H as [Hl H].
  apply be16_inj in Hl. apply app_eq_len_l in H; [exact H|unfold len in Hl; lia].
Qed.

(* full variables (request, response, first message of a sequence) *)
Theorem digest_injective k pm pm' msg msg' v v' :
  len pm < 65536 -> len pm' < 65536 -> wf_vars v -> wf_vars v' ->
  digest_full k (apply_signature [] pm) msg v = digest_full k (apply_signature [] pm') msg' v' ->
  pm = pm' /\ msg = msg' /\ v = v'.
Proof.
  intros Hp Hp' Hv Hv' H. apply apply_signature_inj in H as [-> H]; try assumption.
  pose proof (other_presence_determined _ _ _ _ _ H) as Ho.
  apply app_eq_len_r in H.
  - destruct H as [-> H]. apply vars_sign_inj in H; auto.
  - rewrite !vars_sign_length. destruct (v_other v), (v_other v'); try reflexivity.
    + destruct Ho as [_ Ho]. specialize (Ho eq_refl). discriminate.
    + destruct Ho as [Ho _]. specialize (Ho eq_refl). discriminate.
Qed.

(* timers only (later messages of a sequence) *)
Theorem digest_timers_injective k pm pm' msg msg' v v' :
  len pm < 65536 -> len pm' < 65536 ->
  v_time v < T48_LIMIT -> v_time v' < T48_LIMIT -> v_fudge v < 65536 -> v_fudge v' < 65536 ->
  digest_timers k (apply_signature [] pm) msg v = digest_timers k (apply_signature [] pm') msg' v' ->
  pm = pm' /\ msg = msg' /\ v_time v = v_time v' /\ v_fudge v = v_fudge v'.
Proof.
  intros Hp Hp' Ht Ht' Hf Hf' H. apply apply_signature_inj in H as [-> H]; try assumption.
  rewrite !vars_sign_timers_eq in H.
  apply app_eq_len_r in H; [|rewrite !app_length, !time48_octets_length; reflexivity].
  destruct H as [-> H].
  apply app_eq_len_l in H; [|rewrite !time48_octets_length; reflexivity]. destruct H as [H1 H2].
  apply time48_octets_inj in H1; try assumption. apply be16_inj in H2.
  auto.
Qed.

Example digest_injective_ex :
  digest_full (Key Sha1 [] [] 20 20) (apply_signature [] [1;2]) [9] (Vars 1 2 3 None) =
  [0;2;1;2; 9; 0; 0;255; 0;0;0;0; 9;104;109;97;99;45;115;104;97;49;0; 0;0;0;0;0;1; 0;2; 0;3; 0;0].
Proof. reflexivity. Qed.

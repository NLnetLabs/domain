(* C11/Proofs5.v -- from_message never runs out of fuel: the fuel
   S (length m) it hands to its three loops always suffices, because every
   iteration consumes at least one octet. *)
From Coq Require Import NArith List Bool Lia.
From DV Require Import Base.Outcome Base.Bytes Base.PName.
From DV Require Import C01.Proofs C01.Proofs3.
From DV Require Import C11.Gen C11.Model.
Import ListNotations.
Local Open Scope N_scope.

Lemma bind_no_fuel {A B} (x : outcome A) (f : A -> outcome B) :
  x <> OutOfFuel -> (forall a, x = Ok a -> f a <> OutOfFuel) -> bind x f <> OutOfFuel.
Proof. destruct x; cbn [bind]; auto; discriminate. Qed.

Lemma to_err_no_fuel {A} e (x : outcome A) : x <> OutOfFuel -> to_err e x <> OutOfFuel.
Proof. destruct x; cbn [to_err]; auto; discriminate. Qed.

Lemma advance_inv pos lim n e : advance pos lim n = Ok e -> e = pos + n /\ (pos <= lim -> e <= lim).
Proof. unfold advance. destruct (N.ltb_spec (lim - pos) n); [discriminate|]. intros [= <-]. split; [reflexivity | lia]. Qed.
Lemma advance_no_fuel pos lim n : advance pos lim n <> OutOfFuel.
Proof. unfold advance. destruct (_ <? _); discriminate. Qed.

Lemma rd_u16_inv m pos lim r : rd_u16 m pos lim = Ok r -> snd r = pos + 2 /\ (pos <= lim -> snd r <= lim).
Proof.
  unfold rd_u16. destruct (advance pos lim 2) as [p2| | |] eqn:E; cbn [bind]; try discriminate.
  apply advance_inv in E. destruct (get m pos); [|discriminate]. destruct (get m (pos + 1)); [|discriminate].
  intros [= <-]. exact E.
Qed.
Lemma rd_u16_no_fuel m pos lim : rd_u16 m pos lim <> OutOfFuel.
Proof.
  apply bind_no_fuel; [apply advance_no_fuel | intros p2 _].
  destruct (get m pos); [|discriminate]. destruct (get m (pos + 1)); discriminate.
Qed.
Lemma rd_octets_inv m pos lim n r : rd_octets m pos lim n = Ok r -> snd r = pos + n /\ (pos <= lim -> snd r <= lim).
Proof.
  unfold rd_octets. destruct (advance pos lim n) as [p2| | |] eqn:E; cbn [bind]; try discriminate.
  apply advance_inv in E. destruct (mlen m <? p2); [discriminate|]. intros [= <-]. exact E.
Qed.
Lemma rd_octets_no_fuel m pos lim n : rd_octets m pos lim n <> OutOfFuel.
Proof. apply bind_no_fuel; [apply advance_no_fuel | intros p2 _]. destruct (_ <? _); discriminate. Qed.

(* progress of the name readers: what parse accepts, skip accepts, with the
   same end, and a skipped name ends behind its start *)
Lemma parse_ref_skip m p lim pn : parse_ref m p lim = Ok pn -> skip_name m p lim = Ok (pn_end pn).
Proof.
  intros H. rewrite parse_ref_eq in H. rewrite skip_name_eq.
  eapply parse_then_skip; [|exact H]. lia.
Qed.

Lemma skip_name_progress m pos lim e : pos <= lim -> skip_name m pos lim = Ok e -> pos < e <= lim.
Proof. intros H E. rewrite skip_name_eq in E. eapply skip_labels_end; eauto. Qed.

Lemma parse_ref_progress m pos lim pn : pos <= lim -> parse_ref m pos lim = Ok pn -> pos < pn_end pn <= lim.
Proof. intros H E. apply (skip_name_progress m); [exact H | apply parse_ref_skip; exact E]. Qed.

Lemma question_parse_inv m pos lim e : pos <= lim -> question_parse m pos lim = Ok e -> pos < e <= lim.
Proof.
  intros H. unfold question_parse. destruct (parse_ref m pos lim) as [pn| | |] eqn:P; cbn [bind]; try discriminate.
  intros E. apply parse_ref_progress in P; [|exact H]. apply advance_inv in E. lia.
Qed.
Lemma question_parse_no_fuel m pos lim : question_parse m pos lim <> OutOfFuel.
Proof. apply bind_no_fuel; [apply parse_ref_no_fuel | intros pn _; apply advance_no_fuel]. Qed.

Lemma record_skip_inv m pos lim e : pos <= lim -> record_skip m pos lim = Ok e -> pos < e <= lim.
Proof.
  intros H. unfold record_skip.
  destruct (skip_name m pos lim) as [p1| | |] eqn:S; cbn [bind]; try discriminate.
  apply skip_name_progress in S; [|exact H].
  destruct (advance p1 lim 8) as [p2| | |] eqn:A; cbn [bind]; try discriminate. apply advance_inv in A.
  destruct (rd_u16 m p2 lim) as [r| | |] eqn:R; cbn [bind]; try discriminate. apply rd_u16_inv in R.
  intros E. apply advance_inv in E. lia.
Qed.
Lemma record_skip_no_fuel m pos lim : record_skip m pos lim <> OutOfFuel.
Proof.
  apply bind_no_fuel; [apply skip_name_no_fuel | intros p1 _].
  apply bind_no_fuel; [apply advance_no_fuel | intros p2 _].
  apply bind_no_fuel; [apply rd_u16_no_fuel | intros r _; apply advance_no_fuel].
Qed.

Lemma skip_questions_fuel : forall fuel m pos lim count, pos <= lim -> (N.to_nat (lim - pos) < fuel)%nat ->
  skip_questions fuel m pos lim count <> OutOfFuel /\
  (forall e, skip_questions fuel m pos lim count = Ok e -> pos <= e <= lim).
Proof.
  induction fuel as [|fuel IH]; intros m pos lim count H Hf; [lia|]. cbn [skip_questions].
  destruct (count =? 0); [split; [discriminate | intros e [= <-]; lia]|].
  destruct (question_parse m pos lim) as [p'| | |] eqn:Q; cbn [bind]; try (split; discriminate).
  - apply question_parse_inv in Q; [|exact H].
    destruct (IH m p' lim (count - 1) ltac:(lia) ltac:(lia)) as [I1 I2]. split; [exact I1|].
    intros e E. apply I2 in E. lia.
  - exfalso. exact (question_parse_no_fuel _ _ _ Q).
Qed.

Lemma skip_records_fuel : forall fuel m pos lim count, pos <= lim -> (N.to_nat (lim - pos) < fuel)%nat ->
  skip_records fuel m pos lim count <> OutOfFuel /\
  (forall e, skip_records fuel m pos lim count = Ok e -> pos <= e <= lim).
Proof.
  induction fuel as [|fuel IH]; intros m pos lim count H Hf; [lia|]. cbn [skip_records].
  destruct (count =? 0); [split; [discriminate | intros e [= <-]; lia]|].
  destruct (record_skip m pos lim) as [p'| | |] eqn:Q; cbn [bind]; try (split; discriminate).
  - apply record_skip_inv in Q; [|exact H].
    destruct (IH m p' lim (count - 1) ltac:(lia) ltac:(lia)) as [I1 I2]. split; [exact I1|].
    intros e E. apply I2 in E. lia.
  - exfalso. exact (record_skip_no_fuel _ _ _ Q).
Qed.

Lemma record_parse_inv m pos lim h : pos <= lim -> record_parse m pos lim = Ok h ->
  parse_ref m pos lim = Ok (rh_owner h) /\ pos < rh_next h <= lim /\ rh_data h + rh_rdlen h = rh_next h.
Proof.
  intros H. unfold record_parse.
  destruct (parse_ref m pos lim) as [pn| | |] eqn:P; cbn [bind]; try discriminate.
  pose proof (parse_ref_progress _ _ _ _ H P) as Hp.
  destruct (rd_u16 m (pn_end pn) lim) as [t| | |] eqn:R1; cbn [bind]; try discriminate. apply rd_u16_inv in R1.
  destruct (rd_u16 m (snd t) lim) as [c| | |] eqn:R2; cbn [bind]; try discriminate. apply rd_u16_inv in R2.
  destruct (rd_octets m (snd c) lim 4) as [tl| | |] eqn:R3; cbn [bind]; try discriminate. apply rd_octets_inv in R3.
  destruct (rd_u16 m (snd tl) lim) as [l| | |] eqn:R4; cbn [bind]; try discriminate. apply rd_u16_inv in R4.
  destruct (advance (snd l) lim (fst l)) as [nx| | |] eqn:A; cbn [bind]; try discriminate. apply advance_inv in A.
  intros [= <-]. cbn [rh_owner rh_next rh_data rh_rdlen]. split; [reflexivity|]. lia.
Qed.

Lemma record_parse_no_fuel m pos lim : record_parse m pos lim <> OutOfFuel.
Proof.
  apply bind_no_fuel; [apply parse_ref_no_fuel | intros pn _].
  apply bind_no_fuel; [apply rd_u16_no_fuel | intros t _].
  apply bind_no_fuel; [apply rd_u16_no_fuel | intros c _].
  apply bind_no_fuel; [apply rd_octets_no_fuel | intros tl _].
  apply bind_no_fuel; [apply rd_u16_no_fuel | intros l _].
  apply bind_no_fuel; [apply advance_no_fuel | discriminate].
Qed.

(* Tsig::parse on a record that ParsedRecord::parse accepted: the unchecked
   label iteration over the two names (owner, algorithm) is safe because both
   were validated by parse_ref (validate-then-trust, C01 parse_ref_sound) *)
Lemma tsig_parse_no_fuel m pos lim h start : wf_bytes m -> lim <= mlen m -> pos <= lim ->
  record_parse m pos lim = Ok h -> tsig_parse m h start <> OutOfFuel.
Proof.
  intros Hw Hl Hp Hr. apply record_parse_inv in Hr as (Po & Hn & Hd); [|exact Hp].
  apply bind_no_fuel; [apply parse_ref_no_fuel | intros pa P].
  apply bind_no_fuel; [apply rd_octets_no_fuel | intros t _].
  apply bind_no_fuel; [apply rd_u16_no_fuel | intros f _].
  apply bind_no_fuel; [apply rd_u16_no_fuel | intros ms _].
  apply bind_no_fuel; [apply rd_octets_no_fuel | intros mc _].
  apply bind_no_fuel; [apply rd_u16_no_fuel | intros oid _].
  apply bind_no_fuel; [apply rd_u16_no_fuel | intros er _].
  apply bind_no_fuel; [apply rd_u16_no_fuel | intros ol _].
  apply bind_no_fuel; [apply rd_octets_no_fuel | intros ot _].
  destruct (_ <? _); [discriminate|].
  destruct (parse_ref_sound m pos lim (rh_owner h) Po Hl Hw) as (lo & -> & _). cbn [bind].
  destruct (parse_ref_sound m _ _ pa P ltac:(lia) Hw) as (la & -> & _). discriminate.
Qed.

Lemma find_tsig_fuel : forall fuel m pos lim count, wf_bytes m -> lim <= mlen m -> pos <= lim ->
  (N.to_nat (lim - pos) < fuel)%nat -> find_tsig fuel m pos lim count <> OutOfFuel.
Proof.
  induction fuel as [|fuel IH]; intros m pos lim count Hw Hl H Hf; [lia|]. cbn [find_tsig].
  destruct (count =? 0); [discriminate|].
  apply bind_no_fuel; [apply to_err_no_fuel, record_parse_no_fuel | intros h R].
  destruct (record_parse m pos lim) as [h'| | |] eqn:R'; try discriminate. injection R as ->.
  destruct (rh_type h =? RTYPE_TSIG).
  - apply bind_no_fuel; [apply to_err_no_fuel; eapply tsig_parse_no_fuel; eassumption | intros t _].
    destruct (_ && _); [discriminate|]. destruct (_ <? _); discriminate.
  - apply record_parse_inv in R' as (_ & Hn & _); [|exact H].
    apply IH; auto; lia.
Qed.

Lemma scan_records_fuel : forall fuel m pos lim count, pos <= lim -> (N.to_nat (lim - pos) < fuel)%nat ->
  scan_records fuel m pos lim count <> OutOfFuel /\
  (forall e, scan_records fuel m pos lim count = Ok e -> pos <= e <= lim).
Proof.
  induction fuel as [|fuel IH]; intros m pos lim count H Hf; [lia|]. cbn [scan_records].
  destruct (count =? 0); [split; [discriminate | intros e [= <-]; lia]|].
  destruct (record_parse m pos lim) as [h| | |] eqn:Q; cbn [to_err bind]; try (split; discriminate).
  - apply record_parse_inv in Q; [|exact H]. destruct Q as (_ & Hn & _).
    destruct (rh_type h =? RTYPE_TSIG); [split; discriminate|].
    destruct (IH m (rh_next h) lim (count - 1) ltac:(lia) ltac:(lia)) as [I1 I2]. split; [exact I1|].
    intros e E. apply I2 in E. lia.
  - exfalso. exact (record_parse_no_fuel _ _ _ Q).
Qed.

(* MessageTsig::from_message terminates within the fuel it is given, for every
   octet string of at least header length *)
Theorem from_message_no_fuel m : wf_bytes m -> 12 <= mlen m -> from_message m <> OutOfFuel.
Proof.
  intros Hw H12. unfold from_message. cbn zeta. unfold HEADER_LEN.
  assert (Hlen : mlen m = N.of_nat (length m)) by reflexivity.
  destruct (skip_questions_fuel (S (length m)) m 12 (mlen m) (qdcount m) H12 ltac:(lia)) as [Q1 Q2].
  destruct (skip_questions (S (length m)) m 12 (mlen m) (qdcount m)) as [p1| | |] eqn:E1; cbn [to_err bind]; try discriminate; [|congruence].
  specialize (Q2 p1 eq_refl).
  destruct tsig_scan_all_sections.
  - destruct (scan_records_fuel (S (length m)) m p1 (mlen m) (ancount m) ltac:(lia) ltac:(lia)) as [A1 A2].
    destruct (scan_records (S (length m)) m p1 (mlen m) (ancount m)) as [p2| | |] eqn:E2; cbn [bind]; try discriminate; [|congruence].
    specialize (A2 p2 eq_refl).
    destruct (scan_records_fuel (S (length m)) m p2 (mlen m) (nscount m) ltac:(lia) ltac:(lia)) as [N1 N2].
    destruct (scan_records (S (length m)) m p2 (mlen m) (nscount m)) as [p3| | |] eqn:E3; cbn [bind]; try discriminate; [|congruence].
    specialize (N2 p3 eq_refl).
    apply find_tsig_fuel; auto; lia.
  - destruct (skip_records_fuel (S (length m)) m p1 (mlen m) (ancount m) ltac:(lia) ltac:(lia)) as [A1 A2].
    destruct (skip_records (S (length m)) m p1 (mlen m) (ancount m)) as [p2| | |] eqn:E2; cbn [to_err bind]; try discriminate; [|congruence].
    specialize (A2 p2 eq_refl).
    destruct (skip_records_fuel (S (length m)) m p2 (mlen m) (nscount m) ltac:(lia) ltac:(lia)) as [N1 N2].
    destruct (skip_records (S (length m)) m p2 (mlen m) (nscount m)) as [p3| | |] eqn:E3; cbn [to_err bind]; try discriminate; [|congruence].
    specialize (N2 p3 eq_refl).
    apply find_tsig_fuel; auto; lia.
Qed.

Example from_message_no_fuel_ex : from_message [0;0;0;0;0;1;255;255;0;0;0;0;1;97] = Err TE_PARSE.
Proof. vm_compute. reflexivity. Qed.

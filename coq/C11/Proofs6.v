(* C11/Proofs6.v -- the response to a rejected request (ServerError::
   build_message, unsigned arm): with the plain-FORMERR shape in the source
   (T1 formerr_plain_response) building it never panics, and the RCODE is the
   one RFC 8945 assigns: FORMERR for an uninterpretable or misplaced TSIG and
   for an impossible MAC size, NOTAUTH (with the TSIG error) otherwise. *)
From Coq Require Import NArith List.
From DV Require Import Base.Outcome Base.Bytes C11.Gen C11.Model.
Import ListNotations.
Local Open Scope N_scope.

Section WithMac.
  Variable mac : alg -> bytes -> bytes -> bytes.

  Theorem unsigned_error_response_total k req now code :
    formerr_plain_response = true ->
    server_request mac k req now = Err (SE_UNSIGNED + code) ->
    exists rc, unsigned_error_rcode req code = Ok rc /\
      (code = RC_FORMERR -> rc = RC_FORMERR) /\ (code <> RC_FORMERR -> rc = RC_NOTAUTH).
  Proof.
    intros Hflag. unfold server_request.
    assert (FIN : forall c, (c = RC_FORMERR \/ exists t, from_message req = Ok t) ->
              Err (A := server_result) (SE_UNSIGNED + c) = Err (SE_UNSIGNED + code) ->
              exists rc, unsigned_error_rcode req code = Ok rc /\
                (code = RC_FORMERR -> rc = RC_FORMERR) /\ (code <> RC_FORMERR -> rc = RC_NOTAUTH)).
    { intros c Hc H0.
      pose proof (f_equal (fun o : outcome server_result => match o with Err e => e | _ => 0 end) H0) as H.
      cbv beta iota in H. apply N.add_cancel_l in H. subst c.
      unfold unsigned_error_rcode. rewrite Hflag. cbn [andb].
      destruct (N.eqb_spec code RC_FORMERR) as [E|E].
      - eexists. split; [reflexivity|]. split; [auto | intros; contradiction].
      - destruct Hc as [Hc|[t Ht]]; [contradiction|]. rewrite Ht. eexists. split; [reflexivity|].
        split; [intros; contradiction | auto]. }
    destruct (from_message req) as [t|e| |] eqn:Hf; try (intros HH; discriminate HH).
    2: { destruct (e =? TE_MISSING); [intros HH; discriminate HH|]. apply FIN. left. reflexivity. }
    destruct (alg_from_name (mt_algname t)) as [a|]; [|apply FIN; right; eauto].
    destruct (store_get k (mt_owner t) a); cbn [negb]; [|apply FIN; right; eauto].
    unfold stripped. destruct (arcount req =? 0); cbn [bind]; [intros HH; discriminate HH|].
    destruct (compare_signatures _ _ _) as [[]|e| |]; try (intros HH; discriminate HH).
    - destruct (negb _); [intros HH; discriminate HH|]. unfold remove_tsig. destruct (arcount req =? 0); cbn [bind]; intros HH; discriminate HH.
    - apply FIN. right. eauto.
  Qed.
End WithMac.

Theorem unsigned_error_response_total_now (mac : alg -> bytes -> bytes -> bytes) k req now code :
  server_request mac k req now = Err (SE_UNSIGNED + code) ->
  exists rc, unsigned_error_rcode req code = Ok rc /\
    (code = RC_FORMERR -> rc = RC_FORMERR) /\ (code <> RC_FORMERR -> rc = RC_NOTAUTH).
Proof. apply unsigned_error_response_total. reflexivity. Qed.

Example unsigned_error_ex :
  unsigned_error_rcode [0;0;0;0;0;0;0;0;0;0;0;1;0] RC_BADSIG =
    (if formerr_plain_response then Panic P_EXPECT_TSIG else Panic P_EXPECT_TSIG).
Proof. destruct formerr_plain_response; vm_compute; reflexivity. Qed.

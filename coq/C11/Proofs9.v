(* C11/Proofs9.v -- MessageTsig::from_message's scan of the additional section
   accepts exactly: one TSIG record, and it is the last record.  Stated over a
   laid out additional section (RecordsAt: every record parses; tys are the
   record types in order). *)
From Coq Require Import NArith List Lia.
From DV Require Import Base.Outcome.
From DV Require Import C11.Model C11.Proofs4.
Import ListNotations.
Local Open Scope N_scope.

(* whatever the scan returns with Ok is the last record, and no record before it is a TSIG *)
Theorem find_tsig_accepts_only_last m p tys e lim : RecordsAt m p tys e -> e <= lim ->
  forall fuel t, find_tsig fuel m p lim (N.of_nat (length tys)) = Ok t ->
  exists pre, tys = pre ++ [RTYPE_TSIG] /\ Forall (fun ty => ty <> RTYPE_TSIG) pre.
Proof.
  induction 1 as [p|p ty e1 tys e Hr Hrs IH]; intros Hl fuel t H; (destruct fuel; [discriminate|]); [discriminate|].
  pose proof (RecordsAt_count _ _ _ _ Hrs).
  pose proof (find_tsig_step fuel m p ty e1 lim (N.of_nat (length (ty :: tys))) Hr ltac:(lia) ltac:(cbn; lia)) as St.
  destruct (N.eqb_spec ty RTYPE_TSIG) as [->|Hne].
  - apply St in H. exists []. split; [|constructor]. destruct tys; [reflexivity | cbn [length] in H; lia].
  - rewrite St in H. replace (N.of_nat (length (ty :: tys)) - 1) with (N.of_nat (length tys)) in H by (cbn [length]; lia).
    destruct (IH Hl fuel t H) as (pre & -> & Hpre). exists (ty :: pre). split; [reflexivity | constructor; assumption].
Qed.

(* the scan reports "no TSIG" exactly when no record of the section has type TSIG *)
Theorem find_tsig_missing_iff m p tys e lim : RecordsAt m p tys e -> e <= lim ->
  forall fuel, (length tys < fuel)%nat ->
  (find_tsig fuel m p lim (N.of_nat (length tys)) = Err TE_MISSING <-> Forall (fun ty => ty <> RTYPE_TSIG) tys).
Proof.
  intros HR Hl fuel Hf. split.
  - revert fuel Hf. induction HR as [p|p ty e1 tys e Hr Hrs IH]; intros fuel Hf H; [constructor|].
    destruct fuel; [cbn in Hf; lia|]. pose proof (RecordsAt_count _ _ _ _ Hrs).
    pose proof (find_tsig_step fuel m p ty e1 lim (N.of_nat (length (ty :: tys))) Hr ltac:(lia) ltac:(cbn; lia)) as St.
    destruct (N.eqb_spec ty RTYPE_TSIG) as [->|Hne]; [destruct St; contradiction|].
    rewrite St in H. replace (N.of_nat (length (ty :: tys)) - 1) with (N.of_nat (length tys)) in H by (cbn [length]; lia).
    constructor; [exact Hne|]. apply (IH Hl fuel); [cbn [length] in Hf; lia | exact H].
  - intros Hno. replace fuel with (length tys + (fuel - length tys))%nat by lia.
    replace (N.of_nat (length tys)) with (N.of_nat (length tys) + 0) by lia.
    rewrite (find_tsig_steps m p tys e lim HR Hl Hno).
    destruct (fuel - length tys)%nat eqn:E; [lia|]. reflexivity.
Qed.

(* consequence: two TSIG records, or a TSIG that is not the last record, are never accepted *)
Corollary find_tsig_rejects_misplaced m p tys e lim fuel t pre post :
  RecordsAt m p tys e -> e <= lim -> tys = pre ++ RTYPE_TSIG :: post -> post <> [] ->
  find_tsig fuel m p lim (N.of_nat (length tys)) <> Ok t.
Proof.
  intros HR Hl -> Hpost H. destruct (find_tsig_accepts_only_last _ _ _ _ _ HR Hl _ _ H) as (pre' & E & Hno).
  (* the first TSIG of the list is at position |pre'| on the right and at most |pre| on the left *)
  assert (Hlen : forall (a b : list N) x y, a ++ x :: b = y ++ [x] -> b <> [] -> In x y).
  { intros a b x y. revert a. induction y as [|z y IHy]; intros a E0 Hb.
    - destruct a as [|? a]; cbn in E0; [injection E0 as E1; congruence|].
      injection E0 as _ E1. destruct a; discriminate.
    - destruct a as [|z' a]; cbn in E0; injection E0 as E1 E2; [left; congruence|]. right. eapply IHy; eauto. }
  apply (Hlen pre post RTYPE_TSIG pre' E) in Hpost.
  rewrite Forall_forall in Hno. exact (Hno _ Hpost eq_refl).
Qed.

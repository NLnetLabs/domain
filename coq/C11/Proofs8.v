(* C11/Proofs8.v -- the client transport wrapper (TsigClient) and the order of
   the client's checks: which error wins for a double fault. *)
From Coq Require Import NArith List Bool.
From DV Require Import Base.Outcome Base.Bytes C11.Gen C11.Model C11.Proofs2.
Import ListNotations.
Local Open Scope N_scope.

Section Wrapper.
  Variable mac : alg -> bytes -> bytes -> bytes.

  (* single response path: a response without TSIG record is refused, whatever
     its RCODE and whatever its sections hold (RFC 8945 5.3) *)
  Theorem wrapper_single_unsigned_refused k c m now :
    from_message m = Err TE_MISSING ->
    wrapper_validate mac k (WTransaction c) (Some m) now = (WTransaction c, Err VE_SERVERUNSIGNED).
  Proof.
    intros H. unfold wrapper_validate, client_answer, get_answer_tsig. rewrite H.
    change (TE_MISSING =? TE_MISSING) with true. reflexivity.
  Qed.

  (* multi response path: every response is ClientSequence::answer, the end of
     the stream is ClientSequence::done *)
  Theorem wrapper_multi_is_sequence k s m now :
    wrapper_validate mac k (WSequence s) (Some m) now =
      (WSequence (fst (cseq_answer mac k s m now)),
       match snd (cseq_answer mac k s m now) with Ok o => Ok (Some o) | Err e => Err e | Panic p => Panic p | OutOfFuel => OutOfFuel end).
  Proof. unfold wrapper_validate. destruct (cseq_answer mac k s m now) as [s' [o|e|p|]]; reflexivity. Qed.

  (* a stream may not end on an unsigned message *)
  Theorem wrapper_stream_end k s now :
    snd (wrapper_validate mac k (WSequence s) None now) = Ok None <-> cs_unsigned s = 0.
  Proof.
    unfold wrapper_validate, cseq_done. cbn [snd]. destruct (N.eqb_spec (cs_unsigned s) 0); cbn [bind]; split; intros; try congruence; try discriminate.
  Qed.

  (* an unsigned message in a stream (not the first) is counted: accepted and
     passed on iff fewer than 99 precede it since the last signed one; the
     first message of a stream must be signed *)
  Theorem wrapper_stream_unsigned k s m now :
    from_message m = Err TE_MISSING ->
    wrapper_validate mac k (WSequence s) (Some m) now =
      if cs_first s then (WSequence s, Err VE_SERVERUNSIGNED)
      else if cs_unsigned s <? 99 then (WSequence (CSeq (cs_ctx s ++ m) false (cs_unsigned s + 1)), Ok (Some m))
      else (WSequence s, Err VE_TOOMANYUNSIGNED).
  Proof.
    intros H. unfold wrapper_validate. rewrite cseq_answer_unsigned by (unfold get_answer_tsig; rewrite H; reflexivity).
    destruct (cs_first s); [reflexivity|]. destruct (cs_unsigned s <? 99); reflexivity.
  Qed.

  (* Both ClientTransaction::answer and ClientSequence::answer compare the MAC
     before they look at the time (T1 client_steps_checked): a response with a
     wrong MAC AND a time outside the window is BadSig (or BadTrunc), never
     BadTime; BadTime is only reported for a message whose MAC verified. *)
  Theorem client_answer_mac_before_time k c m now t sm e :
    get_answer_tsig k m = Ok (Some t) -> stripped m t = Ok sm ->
    compare_signatures k (ctx_sign mac k (digest_full k c sm (mt_vars t))) (mt_mac t) = Err e ->
    client_answer mac k c m now = Err e.
  Proof.
    intros Hg Hs Hc. unfold client_answer. rewrite Hg. cbn [bind]. rewrite Hs. cbn [bind]. rewrite Hc. reflexivity.
  Qed.

  (* BadTime comes from the time check alone: neither the lookup of the record
     nor the MAC comparison reports it, and the buffer operations do not fail *)
  Lemma get_answer_tsig_err k m e : get_answer_tsig k m = Err e -> e <> VE_BADTIME.
  Proof.
    unfold get_answer_tsig. destruct (from_message m) as [t|e0| |]; try discriminate.
    - repeat match goal with |- context [if ?b then _ else _] => destruct b end; intros [= <-]; discriminate.
    - destruct (e0 =? TE_MISSING); intros [= <-]; discriminate.
  Qed.

  Lemma compare_signatures_err k x p e : compare_signatures k x p = Err e -> e <> VE_BADTIME.
  Proof.
    unfold compare_signatures.
    repeat match goal with |- context [if ?b then _ else _] => destruct b end; intros [= <-]; discriminate.
  Qed.

  Theorem client_answer_badtime_means_mac_ok k c m now :
    client_answer mac k c m now = Err VE_BADTIME ->
    exists t sm, get_answer_tsig k m = Ok (Some t) /\ stripped m t = Ok sm /\
      compare_signatures k (ctx_sign mac k (digest_full k c sm (mt_vars t))) (mt_mac t) = Ok tt /\
      is_valid_at (mt_time t) (mt_fudge t) now = false.
  Proof.
    unfold client_answer. destruct (get_answer_tsig k m) as [[t|]|e| |] eqn:Hg; cbn [bind]; try discriminate.
    2: { intros [= ->]. destruct (get_answer_tsig_err _ _ _ Hg eq_refl). }
    destruct (stripped m t) as [sm| | |] eqn:Hs; cbn [bind]; try discriminate.
    2: { unfold stripped in Hs. destruct (arcount m =? 0); discriminate. }
    destruct (compare_signatures _ _ _) as [[]|e| |] eqn:Hc; cbn [bind]; try discriminate.
    2: { intros [= ->]. destruct (compare_signatures_err _ _ _ _ Hc eq_refl). }
    unfold check_answer_time.
    destruct ((hdr_rcode m =? RC_NOTAUTH) && (mt_error t =? RC_BADTIME)).
    { destruct (other_time (mt_other t)); cbn [bind]; discriminate. }
    destruct (is_valid_at (mt_time t) (mt_fudge t) now) eqn:Hv; cbn [negb bind].
    { unfold remove_tsig. destruct (arcount m =? 0); discriminate. }
    intros _. exists t, sm. auto.
  Qed.

  Theorem cseq_answer_mac_before_time k s m now t sm e :
    get_answer_tsig k m = Ok (Some t) -> stripped m t = Ok sm ->
    compare_signatures k (if cs_first s then ctx_sign mac k (digest_full k (cs_ctx s) sm (mt_vars t))
                          else ctx_sign mac k (digest_timers k (cs_ctx s) sm (mt_vars t))) (mt_mac t) = Err e ->
    snd (cseq_answer mac k s m now) = Err e.
  Proof.
    intros Hg Hs Hc. unfold cseq_answer. rewrite Hg, Hs. cbv zeta. rewrite Hc. reflexivity.
  Qed.
End Wrapper.

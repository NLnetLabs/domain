(* C11/Proofs4.v -- framing: the parser finds the TSIG record push_tsig wrote,
   for every message described by layout predicates in the style of C02
   (QuestionsAt / RecordsAt; every octet read lies in the body [12, end)); then
   the sign/verify theorems without a framing premise.  The name reader facts
   are C01's (parse accepts => skip accepts) and C02's (NameIn). *)
From Coq Require Import PeanoNat NArith List Bool Lia.
From DV Require Import Base.Outcome Base.Bytes Base.Names Base.PName.
From DV Require Import C02.ProofsBasic C02.ProofsName C02.ProofsComp.
From DV Require Import C11.Gen C11.Model C11.Proofs C11.Proofs2 C11.Proofs5.
Import ListNotations.
Local Open Scope N_scope.

Lemma header_cases (P : bytes -> Prop) :
  (forall b0 b1 b2 b3 b4 b5 b6 b7 b8 b9 b10 b11 body,
     P (b0 :: b1 :: b2 :: b3 :: b4 :: b5 :: b6 :: b7 :: b8 :: b9 :: b10 :: b11 :: body)) ->
  forall m, 12 <= mlen m -> P m.
Proof. intros HP m H. unfold mlen in H. do 12 (destruct m as [|? m]; [cbn in H; lia|]). apply HP. Qed.

Definition hdr_wf (m : bytes) : Prop := Forall (fun b => b < 256) (firstn 12 m).

Lemma mlen_set_arcount m c : 12 <= mlen m -> mlen (set_arcount m c) = mlen m.
Proof.
  revert m. refine (header_cases _ _). intros. unfold set_arcount, take, drop, mlen. cbn. lia.
Qed.

Lemma get_set_arcount m c i : 12 <= mlen m -> 12 <= i -> get (set_arcount m c) i = get m i.
Proof.
  revert m. refine (header_cases _ _). intros. unfold set_arcount, take, drop, get. cbn [firstn skipn app be16].
  replace (N.to_nat i) with (12 + (N.to_nat i - 12))%nat by lia. reflexivity.
Qed.

Lemma hdr_set_arcount m c : 12 <= mlen m ->
  qdcount (set_arcount m c) = qdcount m /\ ancount (set_arcount m c) = ancount m /\
  nscount (set_arcount m c) = nscount m /\ hdr_id (set_arcount m c) = hdr_id m /\
  hdr_rcode (set_arcount m c) = hdr_rcode m /\ (c < 65536 -> arcount (set_arcount m c) = c).
Proof.
  revert m. refine (header_cases _ _). intros. repeat split. apply be16_roundtrip.
Qed.

Lemma hdr_app m x : 12 <= mlen m ->
  qdcount (m ++ x) = qdcount m /\ ancount (m ++ x) = ancount m /\ nscount (m ++ x) = nscount m /\
  arcount (m ++ x) = arcount m /\ hdr_id (m ++ x) = hdr_id m /\ hdr_rcode (m ++ x) = hdr_rcode m.
Proof.
  revert m. refine (header_cases _ _). intros. repeat split.
Qed.

Lemma hdr_id_lt m : 12 <= mlen m -> hdr_wf m -> hdr_id m < 65536.
Proof.
  revert m. refine (header_cases _ _). intros * Hw.
  unfold hdr_wf in Hw. cbn [firstn] in Hw.
  inversion Hw as [|? ? H0 Hw1]; subst. inversion Hw1 as [|? ? H1 _]; subst.
  unfold hdr_id, byte_at, of_be16. cbn [nth]. lia.
Qed.

(* undoing push_tsig's header change: original ID (unchanged) and ARCOUNT - 1 *)
Lemma restore_header m x : 12 <= mlen m -> hdr_wf m -> arcount m < 65535 ->
  set_arcount (set_id (set_arcount m (arcount m + 1) ++ x) (hdr_id m)) (arcount m + 1 - 1) = m ++ x.
Proof.
  revert m. refine (header_cases _ _). intros * Hw Ha.
  unfold hdr_wf in Hw. cbn [firstn] in Hw.
  repeat match goal with H : Forall _ (_ :: _) |- _ => inversion H; subst; clear H end.
  unfold set_arcount, set_id, arcount, hdr_id, hdr_count, byte_at. cbn [nth].
  rewrite N.add_sub, !of_be16_be16 by assumption. reflexivity.
Qed.

Lemma slice_signed m c x : 12 <= mlen m -> slice (set_arcount m c ++ x) 12 (mlen m) = drop 12 m.
Proof.
  revert m. refine (header_cases _ _). intros. unfold set_arcount, take, drop, slice, mlen.
  change (N.to_nat 12) with 12%nat. cbn [firstn skipn app be16 length].
  replace (N.to_nat (N.of_nat (S (S (S (S (S (S (S (S (S (S (S (S (length body))))))))))))) - 12)) with (length body) by lia.
  rewrite firstn_app, firstn_all, Nat.sub_diag. cbn [firstn]. apply app_nil_r.
Qed.

Lemma advance_ok pos lim n : pos + n <= lim -> advance pos lim n = Ok (pos + n).
Proof. intros H. unfold advance. destruct (N.ltb_spec (lim - pos) n); [lia | reflexivity]. Qed.

(* [b] is stored at [p], inside the message and the reader's limit; a reader
   walks over a concatenation of fields by the step lemmas below *)
Definition stored (m : bytes) (lim p : N) (b : bytes) : Prop :=
  bytes_at m p b /\ p + mlen b <= lim /\ p + mlen b <= mlen m.

Lemma stored_app m lim p a b : stored m lim p (a ++ b) ->
  bytes_at m p a /\ p + mlen a <= lim /\ p + mlen a <= mlen m /\ stored m lim (p + mlen a) b.
Proof.
  intros (H & L1 & L2). apply bytes_at_split in H as [Ha Hb]. rewrite mlen_app, N.add_assoc in L1, L2.
  pose proof (N.le_add_r (p + mlen a) (mlen b)) as Hle.
  repeat split; auto; eapply N.le_trans; eassumption.
Qed.

Lemma stored_intro m lim p b n : bytes_at m p b -> mlen b = n -> p + n <= lim -> p + n <= mlen m -> stored m lim p b.
Proof. intros H <-. split; auto. Qed.

Lemma stored_tail a b : stored (a ++ b) (mlen (a ++ b)) (mlen a) b.
Proof.
  unfold stored. rewrite mlen_app. repeat split; try apply N.le_refl.
  rewrite <- (app_nil_r b) at 1. apply bytes_at_app.
Qed.

Lemma rd16_step m lim p v rest : stored m lim p (be16 v ++ rest) -> v < 65536 ->
  rd_u16 m p lim = Ok (v, p + 2) /\ stored m lim (p + 2) rest.
Proof.
  intros S Hv. apply stored_app in S as (Hb & Hl & _ & S). split; [|exact S].
  unfold rd_u16. rewrite advance_ok by exact Hl. cbn [bind].
  unfold be16 in Hb. apply bytes_at_cons in Hb as [H0 Hb]. apply bytes_at_cons in Hb as [H1 _].
  rewrite H0, H1. f_equal. f_equal. apply be16_roundtrip. exact Hv.
Qed.

Lemma rd_octets_step m lim p b rest : stored m lim p (b ++ rest) ->
  rd_octets m p lim (mlen b) = Ok (b, p + mlen b) /\ stored m lim (p + mlen b) rest.
Proof.
  intros S. apply stored_app in S as (Hb & Hl & Hm & S). split; [|exact S].
  unfold rd_octets. rewrite advance_ok by exact Hl. cbn [bind].
  apply N.ltb_ge in Hm. rewrite Hm, slice_bytes_at by exact Hb. reflexivity.
Qed.

Lemma decode_name_inv m p lim n e : decode_name m p lim = Ok (n, e) ->
  exists pn b, parse_ref m p lim = Ok pn /\ pname_labels m pn = Ok (n, b) /\ pn_end pn = e.
Proof.
  unfold decode_name. destruct (parse_ref m p lim) as [pn| | |]; cbn [bind]; try discriminate.
  destruct (pname_labels m pn) as [[n0 b]| | |] eqn:E; cbn [bind fst]; try discriminate.
  intros H. injection H as <- <-. exists pn, b. auto.
Qed.

(* positions of the body below b: the reader never looks into the header *)
Definition okb (b : N) : N -> Prop := fun i => 12 <= i /\ i < b.
Definition agree_on (ok : N -> Prop) (m m' : bytes) : Prop :=
  forall i v, ok i -> get m i = Some v -> get m' i = Some v.

(* a (possibly compressed) name at p whose first segment ends at e1; all octets read lie in [12, e) *)
Definition NameAt (m : bytes) (e p e1 : N) : Prop := exists n, NameIn m (okb e) p p n e1 /\ name_ok n.
Definition QuestionAt (m : bytes) (p e : N) : Prop :=
  exists e1, NameAt m e p e1 /\ e = e1 + 4 /\ e <= mlen m /\ 12 <= p.
(* a record of type ty in [p, e): owner, TYPE, CLASS, TTL, RDLENGTH, RDLENGTH octets of data *)
Definition RecordAt (m : bytes) (p ty e : N) : Prop :=
  exists e1 cl ttl, NameAt m e p e1 /\
    bytes_at m e1 (be16 ty ++ be16 cl ++ be32 ttl ++ be16 (e - (e1 + 10))) /\
    ty < 65536 /\ cl < 65536 /\ e1 + 10 <= e /\ e - (e1 + 10) <= 65535 /\ e <= mlen m /\ 12 <= p.
Inductive QuestionsAt (m : bytes) : N -> nat -> N -> Prop :=
| QsA_nil p : QuestionsAt m p 0 p
| QsA_cons p e1 n e : QuestionAt m p e1 -> QuestionsAt m e1 n e -> QuestionsAt m p (S n) e.
Inductive RecordsAt (m : bytes) : N -> list N -> N -> Prop :=
| RsA_nil p : RecordsAt m p [] p
| RsA_cons p ty e1 tys e : RecordAt m p ty e1 -> RecordsAt m e1 tys e -> RecordsAt m p (ty :: tys) e.

Lemma NameAt_end m e p e1 : NameAt m e p e1 -> p < e1 /\ e1 <= mlen m.
Proof. intros (n & H & _). eapply NameIn_end_le; eauto. Qed.
Lemma QuestionAt_end m p e : QuestionAt m p e -> p < e /\ e <= mlen m.
Proof. intros (e1 & Hn & -> & Hm & _). apply NameAt_end in Hn. lia. Qed.
Lemma RecordAt_end m p ty e : RecordAt m p ty e -> p < e /\ e <= mlen m.
Proof. intros (e1 & cl & ttl & Hn & _ & _ & _ & H1 & _ & Hm & _). apply NameAt_end in Hn. lia. Qed.

(* each question / record occupies at least one octet: counts are bounded by the extent *)
Lemma QuestionsAt_count m p n e : QuestionsAt m p n e -> p + N.of_nat n <= e.
Proof. induction 1 as [|p e1 n e Hq _ IH]; [lia|]. apply QuestionAt_end in Hq. lia. Qed.
Lemma RecordsAt_count m p tys e : RecordsAt m p tys e -> p + N.of_nat (length tys) <= e.
Proof. induction 1 as [|p ty e1 tys e Hr _ IH]; [cbn; lia|]. apply RecordAt_end in Hr. cbn [length]. lia. Qed.

Lemma agree_on_mono a b m m' : a <= b -> agree_on (okb b) m m' -> agree_on (okb a) m m'.
Proof. intros L A i v [H1 H2]. apply A. split; lia. Qed.

Lemma NameAt_agree m m' e p e1 : agree_on (okb e) m m' -> NameAt m e p e1 -> NameAt m' e p e1.
Proof. intros A (n & H & K). exists n. split; [|exact K]. eapply NameIn_agree; eauto. Qed.
Lemma QuestionAt_agree m m' p e : agree_on (okb e) m m' -> e <= mlen m' -> QuestionAt m p e -> QuestionAt m' p e.
Proof. intros A L (e1 & Hn & E & _ & P). exists e1. repeat split; auto. eapply NameAt_agree; eauto. Qed.
Lemma RecordAt_agree m m' p ty e : agree_on (okb e) m m' -> e <= mlen m' -> RecordAt m p ty e -> RecordAt m' p ty e.
Proof.
  intros A L (e1 & cl & ttl & Hn & Hb & H1 & H2 & H3 & H4 & _ & P). exists e1, cl, ttl.
  pose proof (NameAt_end _ _ _ _ Hn) as [Hlt _].
  repeat split; auto; [eapply NameAt_agree; eauto|].
  eapply bytes_at_agree; [exact A| |exact Hb].
  intros i Hi. change (mlen _) with 10 in Hi. split; lia.
Qed.
Lemma QuestionsAt_agree m m' p n e : agree_on (okb e) m m' -> e <= mlen m' -> QuestionsAt m p n e -> QuestionsAt m' p n e.
Proof.
  intros A L H. induction H as [|p e1 n e Hq Hqs IH]; [constructor|].
  pose proof (QuestionsAt_count _ _ _ _ Hqs). econstructor; [|apply IH; auto].
  eapply QuestionAt_agree; [eapply agree_on_mono; [|exact A]; lia | lia | exact Hq].
Qed.
Lemma RecordsAt_agree m m' p tys e : agree_on (okb e) m m' -> e <= mlen m' -> RecordsAt m p tys e -> RecordsAt m' p tys e.
Proof.
  intros A L H. induction H as [|p ty e1 tys e Hr Hrs IH]; [constructor|].
  pose proof (RecordsAt_count _ _ _ _ Hrs). econstructor; [|apply IH; auto].
  eapply RecordAt_agree; [eapply agree_on_mono; [|exact A]; lia | lia | exact Hr].
Qed.

Lemma name_in_read m p n e1 e lim : NameIn m (okb e) p p n e1 -> name_ok n -> e <= lim ->
  exists pn b, parse_ref m p lim = Ok pn /\ pn_end pn = e1 /\ pname_labels m pn = Ok (n, b).
Proof.
  intros H K Hl.
  assert (D : decode_name m p lim = Ok (n, e1)).
  { eapply (decode_name_ok m (okb e) lim); eauto. intros i [_ Hi]. lia. }
  apply decode_name_inv in D as (pn & b & P & L & E). eauto.
Qed.

Lemma question_ok m p e lim : QuestionAt m p e -> e <= lim -> question_parse m p lim = Ok e.
Proof.
  intros (e1 & (n & Hn & Hk) & -> & _ & _) Hl.
  destruct (name_in_read m p n e1 (e1 + 4) lim Hn Hk Hl) as (pn & b & P & E & _).
  unfold question_parse. rewrite P. cbn [bind]. rewrite E. apply advance_ok. exact Hl.
Qed.

Lemma questions_ok m p n e lim : QuestionsAt m p n e -> e <= lim ->
  forall fuel, (n < fuel)%nat -> skip_questions fuel m p lim (N.of_nat n) = Ok e.
Proof.
  induction 1 as [p|p e1 n e Hq Hqs IH]; intros Hl fuel Hf.
  - destruct fuel; [lia|]. reflexivity.
  - destruct fuel; [lia|]. cbn [skip_questions].
    destruct (N.eqb_spec (N.of_nat (S n)) 0); [lia|].
    pose proof (QuestionsAt_count _ _ _ _ Hqs).
    rewrite (question_ok m p e1 lim Hq) by lia. cbn [bind].
    replace (N.of_nat (S n) - 1) with (N.of_nat n) by lia.
    apply IH; [exact Hl | lia].
Qed.

Lemma record_parse_at m p lim pn ty cl ttl rdlen :
  parse_ref m p lim = Ok pn ->
  stored m lim (pn_end pn) (be16 ty ++ be16 cl ++ be32 ttl ++ be16 rdlen ++ []) ->
  ty < 65536 -> cl < 65536 -> rdlen < 65536 -> pn_end pn + 10 + rdlen <= lim ->
  record_parse m p lim =
    Ok (RHead pn ty cl (of_be (be32 ttl) 0) rdlen (pn_end pn + 10) (pn_end pn + 10 + rdlen)).
Proof.
  intros P S0 Ht Hc Hr He. unfold record_parse. rewrite P. cbn [bind].
  destruct (rd16_step _ _ _ _ _ S0 Ht) as [-> S1]. cbn [bind fst snd].
  destruct (rd16_step _ _ _ _ _ S1 Hc) as [-> S2]. cbn [bind fst snd].
  destruct (rd_octets_step _ _ _ _ _ S2) as [R S3]. change (mlen (be32 ttl)) with 4 in R, S3. rewrite R. cbn [bind fst snd].
  destruct (rd16_step _ _ _ _ _ S3 Hr) as [-> _]. cbn [bind fst snd].
  replace (pn_end pn + 2 + 2 + 4 + 2) with (pn_end pn + 10) by lia.
  rewrite advance_ok by exact He. reflexivity.
Qed.

Lemma record_ok m p ty e lim : RecordAt m p ty e -> e <= lim ->
  record_skip m p lim = Ok e /\
  exists h, record_parse m p lim = Ok h /\ rh_type h = ty /\ rh_next h = e.
Proof.
  intros (e1 & cl & ttl & (n & Hn & Hk) & Hb & Ht & Hc & L1 & L2 & Hm & _) Hl.
  destruct (name_in_read m p n e1 e lim Hn Hk Hl) as (pn & b & P & E & _).
  assert (S0 : stored m lim e1 (be16 ty ++ be16 cl ++ be32 ttl ++ be16 (e - (e1 + 10)) ++ []))
    by (apply (stored_intro _ _ _ _ 10 Hb eq_refl); lia).
  split.
  - unfold record_skip. rewrite (parse_ref_skip _ _ _ _ P), E. cbn [bind].
    rewrite advance_ok by lia. cbn [bind].
    do 3 (apply stored_app in S0 as (_ & _ & _ & S0)).
    replace (e1 + 8) with (e1 + 2 + 2 + 4) by lia.
    destruct (rd16_step m lim (e1 + 2 + 2 + 4) _ _ S0 ltac:(lia)) as [-> _]. cbn [bind fst snd].
    rewrite advance_ok by lia. f_equal. lia.
  - rewrite <- E in S0. rewrite (record_parse_at m p lim pn ty cl ttl _ P S0) by (rewrite ?E; lia).
    eexists. split; [reflexivity|]. cbn [rh_type rh_next]. rewrite E. split; [reflexivity | lia].
Qed.

Lemma records_skip_ok m p tys e lim : RecordsAt m p tys e -> e <= lim ->
  forall fuel, (length tys < fuel)%nat -> skip_records fuel m p lim (N.of_nat (length tys)) = Ok e.
Proof.
  induction 1 as [p|p ty e1 tys e Hr Hrs IH]; intros Hl fuel Hf.
  - destruct fuel; [lia|]. reflexivity.
  - destruct fuel; [cbn in Hf; lia|]. cbn [skip_records length].
    destruct (N.eqb_spec (N.of_nat (S (length tys))) 0); [lia|].
    pose proof (RecordsAt_count _ _ _ _ Hrs).
    destruct (record_ok m p ty e1 lim Hr ltac:(lia)) as [Hs _]. rewrite Hs. cbn [bind].
    replace (N.of_nat (S (length tys)) - 1) with (N.of_nat (length tys)) by lia.
    apply IH; [exact Hl | cbn in Hf; lia].
Qed.

(* one iteration of from_message's loop on a stored record: a record of another
   type is stepped over; a TSIG record ends the loop, and well only if it is
   the last record *)
Lemma find_tsig_step fuel m p ty e lim c : RecordAt m p ty e -> e <= lim -> c <> 0 ->
  if ty =? RTYPE_TSIG
  then find_tsig (S fuel) m p lim c <> Err TE_MISSING /\ forall t, find_tsig (S fuel) m p lim c = Ok t -> c = 1
  else find_tsig (S fuel) m p lim c = find_tsig fuel m e lim (c - 1).
Proof.
  intros Hr Hl Hc. cbn [find_tsig]. destruct (N.eqb_spec c 0); [contradiction|].
  destruct (record_ok m p ty e lim Hr Hl) as [_ (h & -> & <- & <-)]. cbn [to_err bind].
  destruct (rh_type h =? RTYPE_TSIG); [|reflexivity].
  destruct (tsig_parse m h p); cbn [to_err bind]; try (split; [discriminate | intros; discriminate]).
  destruct (_ && _); [split; [discriminate | intros; discriminate]|].
  destruct (N.ltb_spec 0 (c - 1)); (split; [discriminate|]); [intros; discriminate | intros; lia].
Qed.

Lemma find_tsig_steps m p tys e lim : RecordsAt m p tys e -> e <= lim ->
  Forall (fun ty => ty <> RTYPE_TSIG) tys ->
  forall fuel c, find_tsig (length tys + fuel) m p lim (N.of_nat (length tys) + c) = find_tsig fuel m e lim c.
Proof.
  induction 1 as [p|p ty e1 tys e Hr Hrs IH]; intros Hl Hno fuel c; [reflexivity|].
  inversion Hno as [|? ? Hr0 Hno']; subst. cbn [length plus].
  pose proof (RecordsAt_count _ _ _ _ Hrs).
  pose proof (find_tsig_step (length tys + fuel) m p ty e1 lim (N.of_nat (S (length tys)) + c) Hr ltac:(lia) ltac:(lia)) as St.
  destruct (N.eqb_spec ty RTYPE_TSIG); [contradiction|]. rewrite St.
  replace (N.of_nat (S (length tys)) + c - 1) with (N.of_nat (length tys) + c) by lia.
  apply IH; assumption.
Qed.

(* the scan of answer and authority (T1 tsig_scan_all_sections) *)
Lemma records_scan_ok m p tys e lim : RecordsAt m p tys e -> e <= lim ->
  Forall (fun ty => ty <> RTYPE_TSIG) tys ->
  forall fuel, (length tys < fuel)%nat -> scan_records fuel m p lim (N.of_nat (length tys)) = Ok e.
Proof.
  induction 1 as [p|p ty e1 tys e Hr Hrs IH]; intros Hl Hno fuel Hf.
  - destruct fuel; [lia|]. reflexivity.
  - inversion Hno as [|? ? Hr0 Hno']; subst. destruct fuel; [cbn in Hf; lia|]. cbn [scan_records length].
    destruct (N.eqb_spec (N.of_nat (S (length tys))) 0); [lia|].
    pose proof (RecordsAt_count _ _ _ _ Hrs).
    destruct (record_ok m p ty e1 lim Hr ltac:(lia)) as [_ (h & Hp & Hty & Hnx)]. rewrite Hp. cbn [to_err bind].
    rewrite Hty. destruct (N.eqb_spec ty RTYPE_TSIG); [contradiction|]. rewrite Hnx.
    replace (N.of_nat (S (length tys)) - 1) with (N.of_nat (length tys)) by lia.
    apply IH; auto. cbn [length] in Hf. lia.
Qed.

(* msg consists of a header with the given counts, nq questions, and three
   record sections with the given record types, and nothing else; its
   record sections hold no TSIG record *)
Definition MsgAt (msg : bytes) (nq : nat) (an ns ar : list N) : Prop :=
  12 <= mlen msg /\ hdr_wf msg /\
  qdcount msg = N.of_nat nq /\ ancount msg = N.of_nat (length an) /\
  nscount msg = N.of_nat (length ns) /\ arcount msg = N.of_nat (length ar) /\
  Forall (fun ty => ty <> RTYPE_TSIG) ar /\
  Forall (fun ty => ty <> RTYPE_TSIG) an /\ Forall (fun ty => ty <> RTYPE_TSIG) ns /\
  exists p1 p2 p3, QuestionsAt msg 12 nq p1 /\ RecordsAt msg p1 an p2 /\ RecordsAt msg p2 ns p3 /\
                   RecordsAt msg p3 ar (mlen msg).

Lemma alg_label_ok a : name_ok [alg_label a].
Proof. destruct a; (split; [repeat constructor; cbn; lia | cbn; lia]). Qed.

Lemma plain_name_read a n x : name_ok n ->
  exists pn b, parse_ref (a ++ wire_abs n ++ x) (mlen a) (mlen (a ++ wire_abs n ++ x)) = Ok pn /\
    pn_end pn = mlen a + mlen (wire_abs n) /\ pname_labels (a ++ wire_abs n ++ x) pn = Ok (n, b).
Proof.
  intros [Hv Hw].
  pose proof (NameIn_wire a n x (fun i => mlen a <= i) (mlen a) Hv ltac:(auto) ltac:(lia)) as H.
  apply NameIn_below in H.
  assert (D : decode_name (a ++ wire_abs n ++ x) (mlen a) (mlen (a ++ wire_abs n ++ x)) = Ok (n, mlen a + mlen (wire_abs n))).
  { eapply decode_name_ok; [|exact H|split; assumption]. intros i [_ Hi]. exact Hi. }
  apply decode_name_inv in D. destruct D as (pn & b & P & L & E). exists pn, b. auto.
Qed.

Lemma alg_wire_plain a : alg_wire a = wire_abs [alg_label a].
Proof. destruct a; reflexivity. Qed.

Lemma tsig_parse_at m h start pa on bo an ba t f mac oid er :
  parse_ref m (rh_data h) (rh_data h + rh_rdlen h) = Ok pa ->
  stored m (rh_data h + rh_rdlen h) (pn_end pa)
    (time48_octets t ++ be16 f ++ be16 (mlen mac) ++ mac ++ be16 oid ++ be16 er ++ be16 0 ++ [] ++ []) ->
  rh_data h + rh_rdlen h <= pn_end pa + 16 + mlen mac ->
  t < T48_LIMIT -> f < 65536 -> mlen mac < 65536 -> oid < 65536 -> er < 65536 ->
  pname_labels m (rh_owner h) = Ok (on, bo) -> pname_labels m pa = Ok (an, ba) ->
  tsig_parse m h start = Ok (MTsig start on (rh_class h) an t f mac oid er []).
Proof.
  intros P S0 Hend Ht Hf Hs Ho He Lo La. unfold tsig_parse. cbn zeta. rewrite P. cbn [bind].
  destruct (rd_octets_step _ _ _ _ _ S0) as [R S1]. change (mlen (time48_octets t)) with 6 in R, S1.
  change time48_width with 6. rewrite R. cbn [bind fst snd].
  destruct (rd16_step _ _ _ _ _ S1 Hf) as [-> S2]. cbn [bind fst snd].
  destruct (rd16_step _ _ _ _ _ S2 Hs) as [-> S3]. cbn [bind fst snd].
  destruct (rd_octets_step _ _ _ _ _ S3) as [-> S4]. cbn [bind fst snd].
  destruct (rd16_step _ _ _ _ _ S4 Ho) as [-> S5]. cbn [bind fst snd].
  destruct (rd16_step _ _ _ _ _ S5 He) as [-> S6]. cbn [bind fst snd].
  destruct (rd16_step _ _ _ _ _ S6 eq_refl) as [-> S7]. cbn [bind fst snd].
  destruct (rd_octets_step _ _ _ _ _ S7) as [R8 _]. change (mlen []) with 0 in R8. rewrite R8. cbn [bind fst snd].
  destruct (N.ltb_spec 0 (rh_data h + rh_rdlen h - (pn_end pa + 6 + 2 + 2 + mlen mac + 2 + 2 + 2 + 0))); [lia|].
  rewrite Lo, La. cbn [bind fst]. rewrite of_be_time48 by exact Ht. reflexivity.
Qed.

Lemma vars_eta v : v_other v = None -> Vars (v_time v) (v_fudge v) (v_error v) None = v.
Proof. destruct v. cbn. intros ->. reflexivity. Qed.

Section Signed.
  Variables (msg : bytes) (nq : nat) (an ns ar : list N).
  Variables (k : key) (v : vars) (mc : bytes).
  Hypothesis Hmsg : MsgAt msg nq an ns ar.
  Hypothesis Hname : name_ok (k_name k).
  Hypothesis Htime : v_time v < T48_LIMIT.
  Hypothesis Hfudge : v_fudge v < 65536.
  Hypothesis Herror : v_error v < 65536.
  Hypothesis Hother : v_other v = None.

  Let rd := tsig_rdata (alg_wire (k_alg k)) (v_time v) (v_fudge v) mc (hdr_id msg) (v_error v) [].
  Let rr := tsig_rr (wire_abs (k_name k)) rd.
  Let w := set_arcount msg (arcount msg + 1) ++ rr.

  Hypothesis Har : arcount msg < 65535.
  Hypothesis Hlen : mlen msg + mlen rr <= 65535.

  Lemma push_tsig_is_w : push_tsig k v mc msg = Ok w.
  Proof.
    unfold push_tsig. rewrite Hother. fold rd. fold rr.
    destruct (N.leb_spec 65535 (arcount msg)); [lia|].
    change (len msg) with (mlen msg). change (len rr) with (mlen rr).
    destruct (N.ltb_spec 65535 (mlen msg + mlen rr)); [lia|]. reflexivity.
  Qed.

  Let m1 := set_arcount msg (arcount msg + 1).
  Let hd := be16 RTYPE_TSIG ++ be16 CLASS_ANY ++ be32 0 ++ be16 (mlen rd) ++ [].
  Let tl := time48_octets (v_time v) ++ be16 (v_fudge v) ++ be16 (mlen mc) ++ mc ++
            be16 (hdr_id msg) ++ be16 (v_error v) ++ be16 0 ++ [] ++ [].

  Lemma msg_header : 12 <= mlen msg. Proof. destruct Hmsg as (H & _). exact H. Qed.
  Lemma mlen_m1 : mlen m1 = mlen msg. Proof. apply mlen_set_arcount. exact msg_header. Qed.

  Lemma rd_eq : rd = wire_abs [alg_label (k_alg k)] ++ tl.
  Proof. unfold rd, tsig_rdata. rewrite alg_wire_plain. reflexivity. Qed.
  Lemma w_eq : w = m1 ++ wire_abs (k_name k) ++ hd ++ rd.
  Proof. reflexivity. Qed.

  Lemma mlen_w : mlen w = mlen msg + mlen rr /\ mlen rr = mlen (wire_abs (k_name k)) + 10 + mlen rd.
  Proof.
    split; [unfold w; fold m1; rewrite mlen_app, mlen_m1; reflexivity|].
    change rr with (wire_abs (k_name k) ++ hd ++ rd). rewrite !mlen_app. change (mlen hd) with 10. lia.
  Qed.

  Lemma mlen_rd : mlen rd = mlen (wire_abs [alg_label (k_alg k)]) + 16 + mlen mc.
  Proof.
    rewrite rd_eq. unfold tl. rewrite !mlen_app. change (mlen (time48_octets (v_time v))) with 6.
    change (mlen (be16 _)) with 2. change (mlen []) with 0. lia.
  Qed.

  Lemma agree_w : agree_on (okb (mlen msg)) msg w.
  Proof.
    intros i x [H1 H2] Hg. unfold w. fold m1. rewrite get_app_l by (rewrite mlen_m1; exact H2).
    unfold m1. rewrite get_set_arcount by (auto using msg_header). exact Hg.
  Qed.

  Lemma counts_w : qdcount w = N.of_nat nq /\ ancount w = N.of_nat (length an) /\
    nscount w = N.of_nat (length ns) /\ arcount w = N.of_nat (length ar) + 1 /\
    hdr_id w = hdr_id msg /\ hdr_rcode w = hdr_rcode msg.
  Proof.
    destruct Hmsg as (H & _ & Q & A & Nn & R & _).
    destruct (hdr_app m1 rr ltac:(rewrite mlen_m1; exact H)) as (E1 & E2 & E3 & E4 & E5 & E6).
    destruct (hdr_set_arcount msg (arcount msg + 1) H) as (F1 & F2 & F3 & F4 & F5 & F6).
    unfold w. fold m1. rewrite E1, E2, E3, E4, E5, E6. unfold m1. rewrite F1, F2, F3, F4, F5, F6 by lia.
    rewrite Q, A, Nn, R. repeat split.
  Qed.

  Definition signed_tsig : mtsig :=
    MTsig (mlen msg) (k_name k) CLASS_ANY [alg_label (k_alg k)] (v_time v) (v_fudge v) mc (hdr_id msg) (v_error v) [].

  Lemma find_tsig_signed fuel : find_tsig (S fuel) w (mlen msg) (mlen w) 1 = Ok signed_tsig.
  Proof.
    pose proof mlen_w as [Hw Hrr]. pose proof mlen_rd as Hrd. pose proof msg_header as H12.
    destruct (plain_name_read m1 (k_name k) (hd ++ rd) Hname) as (pn & b & P & E & Lb).
    rewrite <- w_eq in P, Lb. rewrite mlen_m1 in P, E.
    assert (S0 : stored w (mlen w) (pn_end pn) (hd ++ rd)).
    { rewrite E, <- mlen_m1, <- mlen_app, w_eq, app_assoc. apply stored_tail. }
    apply stored_app in S0 as (Bh & _ & _ & S1). change (mlen hd) with 10 in S1.
    assert (Sh : stored w (mlen w) (pn_end pn) hd) by (split; [exact Bh | change (mlen hd) with 10; lia]).
    cbn [find_tsig]. change (1 =? 0) with false. cbv iota.
    rewrite (record_parse_at w _ _ pn _ _ _ _ P Sh) by (try reflexivity; lia).
    cbn [to_err bind rh_type rh_class rh_ttl]. rewrite N.eqb_refl.
    rewrite rd_eq in S1. apply stored_app in S1 as (_ & _ & _ & S2).
    destruct (plain_name_read (m1 ++ wire_abs (k_name k) ++ hd) [alg_label (k_alg k)] tl (alg_label_ok _)) as (pa & b' & Pa & Ea & La).
    assert (Ew : (m1 ++ wire_abs (k_name k) ++ hd) ++ wire_abs [alg_label (k_alg k)] ++ tl = w)
      by (rewrite w_eq, rd_eq, <- !app_assoc; reflexivity).
    rewrite Ew in Pa, La.
    assert (Ed : mlen (m1 ++ wire_abs (k_name k) ++ hd) = pn_end pn + 10)
      by (rewrite !mlen_app, mlen_m1, E; change (mlen hd) with 10; lia).
    rewrite Ed in Pa, Ea. rewrite <- Ea in S2.
    rewrite (tsig_parse_at w _ (mlen msg) pa (k_name k) b [alg_label (k_alg k)] b' (v_time v) (v_fudge v) mc (hdr_id msg) (v_error v));
      cbn [rh_data rh_rdlen rh_owner]; try assumption.
    - cbn [to_err bind rh_class rh_ttl]. reflexivity.
    - replace (pn_end pn + 10 + mlen rd) with (mlen w) by lia. exact Pa.
    - replace (pn_end pn + 10 + mlen rd) with (mlen w) by lia. exact S2.
    - lia.
    - lia.
    - destruct Hmsg as (_ & Hwf & _). apply hdr_id_lt; assumption.
  Qed.

  Theorem from_message_signed : from_message w = Ok signed_tsig.
  Proof.
    destruct Hmsg as (H12' & Hw & Q & A & Nn & R & Hno & Hnoan & Hnons & p1 & p2 & p3 & HQ & HA & HN & HR).
    destruct counts_w as (C1 & C2 & C3 & C4 & _).
    pose proof agree_w as Ag. pose proof mlen_w as [Hmw _].
    pose proof (QuestionsAt_count _ _ _ _ HQ) as K1. pose proof (RecordsAt_count _ _ _ _ HA) as K2.
    pose proof (RecordsAt_count _ _ _ _ HN) as K3. pose proof (RecordsAt_count _ _ _ _ HR) as K4.
    assert (Hlw : mlen w = N.of_nat (length w)) by reflexivity.
    unfold from_message. rewrite C1, C2, C3, C4.
    assert (HQ' : QuestionsAt w 12 nq p1).
    { eapply QuestionsAt_agree; [eapply agree_on_mono; [|exact Ag]; lia | lia | exact HQ]. }
    assert (HA' : RecordsAt w p1 an p2).
    { eapply RecordsAt_agree; [eapply agree_on_mono; [|exact Ag]; lia | lia | exact HA]. }
    assert (HN' : RecordsAt w p2 ns p3).
    { eapply RecordsAt_agree; [eapply agree_on_mono; [|exact Ag]; lia | lia | exact HN]. }
    assert (HR' : RecordsAt w p3 ar (mlen msg)).
    { eapply RecordsAt_agree; [exact Ag | lia | exact HR]. }
    unfold HEADER_LEN.
    rewrite (questions_ok w 12 nq p1 (mlen w) HQ') by lia. cbn [to_err bind].
    assert (TAIL : find_tsig (S (length w)) w p3 (mlen w) (N.of_nat (length ar) + 1) = Ok signed_tsig).
    { replace (S (length w)) with (length ar + S (length w - length ar))%nat by lia.
      rewrite (find_tsig_steps w p3 ar (mlen msg) (mlen w) HR') by (auto; lia). apply find_tsig_signed. }
    destruct tsig_scan_all_sections.
    - rewrite (records_scan_ok w p1 an p2 (mlen w) HA') by (auto; lia). cbn [bind].
      rewrite (records_scan_ok w p2 ns p3 (mlen w) HN') by (auto; lia). exact TAIL.
    - rewrite (records_skip_ok w p1 an p2 (mlen w) HA') by lia. cbn [to_err bind].
      rewrite (records_skip_ok w p2 ns p3 (mlen w) HN') by lia. exact TAIL.
  Qed.

  (* what verification leaves in the buffer: the message as it was before
     signing, followed by the octets of the TSIG record (Message::
     remove_last_additional only decrements ARCOUNT) *)
  Theorem remove_tsig_signed : remove_tsig w signed_tsig = Ok (msg ++ rr).
  Proof.
    destruct counts_w as (_ & _ & _ & C4 & _). destruct Hmsg as (H & Hw & _ & _ & _ & R & _).
    unfold remove_tsig. rewrite C4. destruct (N.eqb_spec (N.of_nat (length ar) + 1) 0); [lia|].
    cbn [signed_tsig mt_oid]. rewrite <- R. unfold w. rewrite restore_header by assumption. reflexivity.
  Qed.

  Theorem stripped_signed : stripped w signed_tsig = Ok msg.
  Proof.
    destruct counts_w as (_ & _ & _ & C4 & _). destruct Hmsg as (H & Hw & _ & _ & _ & R & _).
    unfold stripped. rewrite C4. destruct (N.eqb_spec (N.of_nat (length ar) + 1) 0); [lia|].
    cbn [signed_tsig mt_oid mt_start]. rewrite <- R. unfold HEADER_LEN. unfold w. rewrite slice_signed by exact H.
    rewrite restore_header by assumption. f_equal.
    unfold take. rewrite firstn_app. replace (12 - length msg)%nat with 0%nat by (unfold mlen in H; lia).
    rewrite firstn_O, app_nil_r. apply firstn_skipn.
  Qed.

  Theorem reads_back_signed : reads_back w msg k v mc signed_tsig.
  Proof.
    split; [exact from_message_signed|]. split; [exact stripped_signed|]. repeat split.
    exact (vars_eta v Hother).
  Qed.
End Signed.

(* What push_tsig appends is found again, with the signer's names, variables
   and MAC; stripping it gives the signed octets back for the digest; removing
   it leaves the pre-signing message followed by exactly the octets of the TSIG
   record in the buffer, under the message's own RCODE. *)
Theorem signed_reads_back k v mc msg nq an ns ar w :
  MsgAt msg nq an ns ar -> name_ok (k_name k) ->
  v_time v < T48_LIMIT -> v_fudge v < 65536 -> v_error v < 65536 -> v_other v = None ->
  push_tsig k v mc msg = Ok w ->
  exists rr, w = set_arcount msg (arcount msg + 1) ++ rr /\
    reads_back w msg k v mc (signed_tsig msg k v mc) /\
    remove_tsig w (signed_tsig msg k v mc) = Ok (msg ++ rr) /\ hdr_rcode w = hdr_rcode msg.
Proof.
  intros Hm Hn Ht Hf He Ho H. unfold push_tsig in H. rewrite Ho in H.
  destruct (N.leb_spec 65535 (arcount msg)) as [|Har]; [discriminate|]. change len with mlen in H.
  destruct (N.ltb_spec 65535 (mlen msg + mlen (tsig_rr (wire_abs (k_name k)) (tsig_rdata (alg_wire (k_alg k)) (v_time v) (v_fudge v) mc (hdr_id msg) (v_error v) []))))
    as [|Hlen]; [discriminate|].
  injection H as <-. eexists. split; [reflexivity|].
  split; [eapply reads_back_signed; eassumption|]. split; [eapply remove_tsig_signed; eassumption|].
  eapply counts_w; eassumption.
Qed.

Section Full.
  Variable mac : alg -> bytes -> bytes -> bytes.
  Hypothesis mac_len : forall a k d, len (mac a k d) = native_len a.

  (* Request.  For every laid out message (any questions, any records in the
     three sections, compressed names allowed as long as pointers stay in the
     body), every pair of key halves with compatible truncation policies: the
     server verifies the MAC the client computed and holds the same context.
     Inside the window its buffer is the original message followed by the
     octets of the TSIG record; outside it yields the signed BADTIME error
     carrying the server's time as other data. *)
  Lemma server_request_full ks kr msg nq an ns ar t fudge now c w :
    same_key ks kr -> k_min kr <= k_sign ks -> within_len_bounds (k_alg ks) (k_sign ks) = true ->
    MsgAt msg nq an ns ar -> name_ok (k_name ks) -> t < T48_LIMIT -> fudge < 65536 ->
    client_request mac ks msg t fudge = Ok (c, w) ->
    exists rr, w = set_arcount msg (arcount msg + 1) ++ rr /\
      server_request mac kr w now =
        if negb (is_valid_at t fudge now) then Ok (SrvBadTime c (Vars t fudge RC_BADTIME (Some now)))
        else Ok (SrvOk c (msg ++ rr)).
  Proof.
    intros Hk Hmin Hw Hm Hn Ht Hf Hreq. unfold client_request in Hreq. cbn zeta in Hreq.
    destruct (push_tsig _ _ _ _) as [w'| | |] eqn:Ep; try discriminate. injection Hreq as <- <-.
    destruct (signed_reads_back ks (Vars t fudge RC_NOERROR None) _ _ _ _ _ _ _ Hm Hn Ht Hf eq_refl eq_refl Ep) as (rr & Ew & Hrb & Hrm & _).
    exists rr. split; [exact Ew|].
    rewrite (server_request_honest mac mac_len ks kr msg _ w' _ now Hk Hmin Hw Hrb), Hrm. reflexivity.
  Qed.

  Theorem sign_verify_request_full ks kr msg nq an ns ar t fudge now c w :
    same_key ks kr -> k_min kr <= k_sign ks -> within_len_bounds (k_alg ks) (k_sign ks) = true ->
    MsgAt msg nq an ns ar -> name_ok (k_name ks) -> t < T48_LIMIT -> fudge < 65536 ->
    client_request mac ks msg t fudge = Ok (c, w) ->
    is_valid_at t fudge now = true ->
    exists rr, w = set_arcount msg (arcount msg + 1) ++ rr /\
      server_request mac kr w now = Ok (SrvOk c (msg ++ rr)).
  Proof.
    intros Hk Hmin Hw Hm Hn Ht Hf Hreq Hwin.
    destruct (server_request_full ks kr msg nq an ns ar t fudge now c w) as (rr & Ew & H); auto.
    rewrite Hwin in H. eauto.
  Qed.

  Theorem request_outside_window_badtime_full ks kr msg nq an ns ar t fudge now c w :
    same_key ks kr -> k_min kr <= k_sign ks -> within_len_bounds (k_alg ks) (k_sign ks) = true ->
    MsgAt msg nq an ns ar -> name_ok (k_name ks) -> t < T48_LIMIT -> fudge < 65536 ->
    client_request mac ks msg t fudge = Ok (c, w) ->
    is_valid_at t fudge now = false ->
    server_request mac kr w now = Ok (SrvBadTime c (Vars t fudge RC_BADTIME (Some now))).
  Proof.
    intros Hk Hmin Hw Hm Hn Ht Hf Hreq Hwin.
    destruct (server_request_full ks kr msg nq an ns ar t fudge now c w) as (rr & Ew & H); auto.
    rewrite Hwin in H. exact H.
  Qed.

  (* Response: ServerTransaction::answer then ClientTransaction::answer; [c] is
     the context both sides hold after the request.  Inside the window the
     client accepts and restores the octets, outside it reports BadTime (the
     MAC is fine). *)
  Lemma client_answer_full ks kr c msg nq an ns ar t fudge now w :
    same_key ks kr -> k_min kr <= k_sign ks -> within_len_bounds (k_alg ks) (k_sign ks) = true ->
    MsgAt msg nq an ns ar -> name_ok (k_name ks) -> t < T48_LIMIT -> fudge < 65536 ->
    (hdr_rcode msg =? RC_NOTAUTH) = false ->
    server_answer mac ks c msg t fudge = Ok w ->
    exists rr, w = set_arcount msg (arcount msg + 1) ++ rr /\
      client_answer mac kr c w now = if negb (is_valid_at t fudge now) then Err VE_BADTIME else Ok (msg ++ rr).
  Proof.
    intros Hk Hmin Hw Hm Hn Ht Hf Hrc Hans.
    destruct (signed_reads_back ks (Vars t fudge RC_NOERROR None) _ _ _ _ _ _ _ Hm Hn Ht Hf eq_refl eq_refl Hans) as (rr & Ew & Hrb & Hrm & Er).
    exists rr. split; [exact Ew|]. rewrite <- Er in Hrc.
    rewrite (client_answer_honest mac mac_len ks kr c msg _ w _ now Hk Hmin Hw Hrb Hrc), Hrm. reflexivity.
  Qed.

  Theorem sign_verify_answer_full ks kr c msg nq an ns ar t fudge now w :
    same_key ks kr -> k_min kr <= k_sign ks -> within_len_bounds (k_alg ks) (k_sign ks) = true ->
    MsgAt msg nq an ns ar -> name_ok (k_name ks) -> t < T48_LIMIT -> fudge < 65536 ->
    (hdr_rcode msg =? RC_NOTAUTH) = false ->
    server_answer mac ks c msg t fudge = Ok w ->
    is_valid_at t fudge now = true ->
    exists rr, w = set_arcount msg (arcount msg + 1) ++ rr /\
      client_answer mac kr c w now = Ok (msg ++ rr).
  Proof.
    intros Hk Hmin Hw Hm Hn Ht Hf Hrc Hans Hwin.
    destruct (client_answer_full ks kr c msg nq an ns ar t fudge now w) as (rr & Ew & H); auto.
    rewrite Hwin in H. eauto.
  Qed.

  Theorem answer_outside_window_full ks kr c msg nq an ns ar t fudge now w :
    same_key ks kr -> k_min kr <= k_sign ks -> within_len_bounds (k_alg ks) (k_sign ks) = true ->
    MsgAt msg nq an ns ar -> name_ok (k_name ks) -> t < T48_LIMIT -> fudge < 65536 ->
    (hdr_rcode msg =? RC_NOTAUTH) = false ->
    server_answer mac ks c msg t fudge = Ok w ->
    is_valid_at t fudge now = false ->
    client_answer mac kr c w now = Err VE_BADTIME.
  Proof.
    intros Hk Hmin Hw Hm Hn Ht Hf Hrc Hans Hwin.
    destruct (client_answer_full ks kr c msg nq an ns ar t fudge now w) as (rr & Ew & H); auto.
    rewrite Hwin in H. exact H.
  Qed.

  (* multi-message responses: one ServerSequence step verifies in ClientSequence
     (first message: full variables, later ones: timers), both ends then hold
     the same context, the octets are restored, the unsigned counter is reset *)
  Theorem sequence_step_full ks kr c first u msg nq an ns ar t fudge now c' w :
    same_key ks kr -> k_min kr <= k_sign ks -> within_len_bounds (k_alg ks) (k_sign ks) = true ->
    MsgAt msg nq an ns ar -> name_ok (k_name ks) -> t < T48_LIMIT -> fudge < 65536 ->
    (hdr_rcode msg =? RC_NOTAUTH) = false ->
    server_seq_answer mac ks c first msg t fudge = Ok (c', w) ->
    is_valid_at t fudge now = true ->
    exists rr, w = set_arcount msg (arcount msg + 1) ++ rr /\
      cseq_answer mac kr (CSeq c first u) w now = (CSeq c' false (if first then u else 0), Ok (msg ++ rr)).
  Proof.
    intros Hk Hmin Hw Hm Hn Ht Hf Hrc Hsrv Hwin.
    apply server_seq_context_is_sent_mac in Hsrv as (full & -> & -> & Ep).
    destruct (signed_reads_back ks (Vars t fudge RC_NOERROR None) _ _ _ _ _ _ _ Hm Hn Ht Hf eq_refl eq_refl Ep) as (rr & Ew & Hrb & Hrm & Er).
    exists rr. split; [exact Ew|]. rewrite <- Er in Hrc.
    rewrite (cseq_answer_honest mac mac_len ks kr c first u msg _ w _ now Hk Hmin Hw Hrb Hrc Hwin), Hrm.
    destruct Hrb as (_ & _ & _ & _ & _ & ->). reflexivity.
  Qed.
End Full.

(* non-vacuity: the corpus query (www.example.com A) is a laid out message *)
Example ex_msg_layout : MsgAt ex_msg 1 [] [] [].
Proof.
  unfold MsgAt. split; [vm_compute; discriminate|]. split; [unfold hdr_wf; cbn [firstn ex_msg]; repeat constructor; lia|].
  repeat (split; [reflexivity|]). split; [constructor|]. split; [constructor|]. split; [constructor|].
  exists 33, 33, 33. split; [|repeat split; constructor].
  eapply QsA_cons; [|constructor].
  exists 29. split; [|split; [reflexivity|split; [vm_compute; discriminate|lia]]].
  exists [[119;119;119]; [101;120;97;109;112;108;101]; [99;111;109]]. split.
  - pose proof (NameIn_wire [18;52; 0;0; 0;1; 0;0; 0;0; 0;0] [[119;119;119]; [101;120;97;109;112;108;101]; [99;111;109]] [0;1;0;1]
                  (fun i => 12 <= i) 12) as H.
    change (mlen [18; 52; 0; 0; 0; 1; 0; 0; 0; 0; 0; 0]) with 12 in H.
    specialize (H ltac:(repeat constructor; cbn; lia) ltac:(auto) ltac:(lia)).
    apply NameIn_below in H. eapply NameIn_weaken; [|exact H].
    intros i [H1 H2]. change (mlen _) with 33 in H2. split; assumption.
  - split; [repeat constructor; cbn; lia | cbn; lia].
Qed.

Theorem verify_restores_octets k v mc msg nq an ns ar w :
  MsgAt msg nq an ns ar -> name_ok (k_name k) ->
  v_time v < T48_LIMIT -> v_fudge v < 65536 -> v_error v < 65536 -> v_other v = None ->
  push_tsig k v mc msg = Ok w ->
  exists rr t, w = set_arcount msg (arcount msg + 1) ++ rr /\
    from_message w = Ok t /\ mt_start t = mlen msg /\ mt_mac t = mc /\ mt_oid t = hdr_id msg /\
    stripped w t = Ok msg /\
    remove_tsig w t = Ok (msg ++ rr) /\
    firstn (length msg) (msg ++ rr) = msg /\ arcount (msg ++ rr) = arcount msg.
Proof.
  intros Hm Hn Ht Hf He Ho Hp.
  destruct (signed_reads_back _ _ _ _ _ _ _ _ _ Hm Hn Ht Hf He Ho Hp) as (rr & Ew & (Hfm & Hst & _) & Hrm & _).
  exists rr, (signed_tsig msg k v mc). repeat split; auto.
  - rewrite firstn_app, firstn_all, Nat.sub_diag. cbn [firstn]. apply app_nil_r.
  - destruct Hm as (H12 & _). apply hdr_app. exact H12.
Qed.

Lemma set_id_set_id m x y : 2 <= mlen m -> set_id (set_id m x) y = set_id m y.
Proof.
  unfold mlen. intros H. destruct m as [|a [|b r]]; cbn in H; try lia.
  unfold set_id, drop, be16. reflexivity.
Qed.

Lemma arcount_set_id m x : 12 <= mlen m -> arcount (set_id m x) = arcount m.
Proof.
  revert m. refine (header_cases _ _). reflexivity.
Qed.

(* A forwarder may have replaced the message ID (RFC 8945 5.1); neither the
   octets that go into the digest nor the message handed back depend on the ID
   the message arrived with: the original ID of the TSIG record is written into
   the header (T1 remove_tsig_sets_original_id). *)
Theorem forwarded_id_irrelevant m x t : 12 <= mlen m ->
  remove_tsig (set_id m x) t = remove_tsig m t /\
  (forall out, remove_tsig m t = Ok out -> hdr_id out = mt_oid t \/ 65536 <= mt_oid t).
Proof.
  intros H. split.
  - unfold remove_tsig. rewrite arcount_set_id by exact H. rewrite set_id_set_id by lia. reflexivity.
  - intros out Ho. unfold remove_tsig in Ho. destruct (arcount m =? 0); [discriminate|]. injection Ho as <-.
    destruct (N.lt_ge_cases (mt_oid t) 65536) as [Hl|Hl]; [left|right; exact Hl].
    revert m H Hl. refine (header_cases _ _). intros. apply be16_roundtrip. assumption.
Qed.

(* C11 -- property theorems only.  Proofs live in C11/Proofs*.v. *)
From Coq Require Import NArith List Bool.
From DV Require Import C02.ProofsName.
From DV Require Import Base.Outcome Base.Bytes Base.Names Base.PName C11.Gen C11.Model C11.Proofs C11.Proofs2 C11.Proofs3 C11.Proofs4 C11.Proofs5 C11.Proofs6 C11.Proofs7 C11.Proofs8 C11.Proofs9 C11.ProofsA C11.Generate C11.ProofsB.
Import ListNotations.
Local Open Scope N_scope.

Theorem C11_digest_variables_is_rfc8945 : forall k v,
  vars_sign k v = rfc8945_variables (rfc_key_of k) (v_time v) (v_fudge v) (v_error v) (vars_other v).
Proof. exact vars_sign_is_rfc8945. Qed.
Print Assumptions C11_digest_variables_is_rfc8945.

Theorem C11_digest_timers_is_rfc8945 : forall k v,
  vars_sign_timers k v = rfc8945_timers (v_time v) (v_fudge v).
Proof. exact vars_sign_timers_is_rfc8945. Qed.
Print Assumptions C11_digest_timers_is_rfc8945.

Theorem C11_prior_mac_is_rfc8945 : forall mac, len mac < 65536 ->
  apply_signature [] mac = rfc8945_mac_field mac.
Proof. exact apply_signature_is_rfc8945. Qed.
Print Assumptions C11_prior_mac_is_rfc8945.

Theorem C11_time_window_exact : forall now signed fudge,
  now < T48_LIMIT -> signed < T48_LIMIT -> fudge < 65536 ->
  (is_valid_at signed fudge now = true <-> (now - signed <= fudge /\ signed - now <= fudge)).
Proof. exact time_window_exact. Qed.
Print Assumptions C11_time_window_exact.

Theorem C11_truncation_bounds : forall a mn sg m s,
  calculate_bounds a mn sg = Ok (m, s) ->
  (10 <= m /\ native_len a / 2 <= m /\ m <= native_len a) /\
  (10 <= s /\ native_len a / 2 <= s /\ s <= native_len a).
Proof. exact calculate_bounds_ok. Qed.
Print Assumptions C11_truncation_bounds.




Theorem C11_mac_mismatch_is_badsig : forall mac k w now t sm a,
  from_message w = Ok t -> alg_from_name (mt_algname t) = Some a -> store_get k (mt_owner t) a = true ->
  stripped w t = Ok sm -> within_len_bounds (k_alg k) (len (mt_mac t)) = true -> k_min k <= len (mt_mac t) ->
  compare_signatures k (ctx_sign mac k (digest_full k [] sm (mt_vars t))) (mt_mac t) <> Ok tt ->
  server_request mac k w now = Err (SE_UNSIGNED + RC_BADSIG).
Proof. exact server_mac_mismatch_badsig. Qed.
Print Assumptions C11_mac_mismatch_is_badsig.

Theorem C11_short_mac_is_badtrunc : forall mac k w now t sm a,
  from_message w = Ok t -> alg_from_name (mt_algname t) = Some a -> store_get k (mt_owner t) a = true ->
  stripped w t = Ok sm -> within_len_bounds (k_alg k) (len (mt_mac t)) = true -> len (mt_mac t) < k_min k ->
  server_request mac k w now = Err (SE_UNSIGNED + RC_BADTRUNC).
Proof. exact server_short_mac_badtrunc. Qed.
Print Assumptions C11_short_mac_is_badtrunc.

Theorem C11_mac_size_out_of_range_is_formerr : forall mac k w now t sm a,
  from_message w = Ok t -> alg_from_name (mt_algname t) = Some a -> store_get k (mt_owner t) a = true ->
  stripped w t = Ok sm -> within_len_bounds (k_alg k) (len (mt_mac t)) = false ->
  server_request mac k w now = Err (SE_UNSIGNED + RC_FORMERR).
Proof. exact server_mac_size_formerr_now. Qed.
Print Assumptions C11_mac_size_out_of_range_is_formerr.

Theorem C11_accepted_mac_is_rfc8945 : forall mac,
  (forall a k d, len (mac a k d) = native_len a) ->
  forall k w now c out,
  server_request mac k w now = Ok (SrvOk c out) ->
  exists t sm, from_message w = Ok t /\ stripped w t = Ok sm /\
    k_min k <= len (mt_mac t) /\
    mt_mac t = (let e := ctx_sign mac k (digest_full k [] sm (mt_vars t)) in
                if len (mt_mac t) <? len e then take (length (mt_mac t)) e else e) /\
    is_valid_at (mt_time t) (mt_fudge t) now = true /\
    name_eqb (k_name k) (mt_owner t) = true /\ mt_algname t = mt_algname t.
Proof. exact (fun mac _ => server_accepts_only_valid_mac mac). Qed.
Print Assumptions C11_accepted_mac_is_rfc8945.

Theorem C11_tamper_rejected : forall mac,
  (forall a k d, len (mac a k d) = native_len a) ->
  forall k w1 w2 now1 now2 c1 c2 o1 o2 t1 t2 s1 s2,
  mac_collision_free mac ->
  10 <= k_min k ->
  server_request mac k w1 now1 = Ok (SrvOk c1 o1) -> server_request mac k w2 now2 = Ok (SrvOk c2 o2) ->
  from_message w1 = Ok t1 -> from_message w2 = Ok t2 -> stripped w1 t1 = Ok s1 -> stripped w2 t2 = Ok s2 ->
  mt_mac t1 = mt_mac t2 -> len (mt_mac t1) <= native_len (k_alg k) ->
  s1 ++ vars_sign k (mt_vars t1) = s2 ++ vars_sign k (mt_vars t2).
Proof. exact tamper_rejected. Qed.
Print Assumptions C11_tamper_rejected.

Theorem C11_tsig_class_ttl_enforced : forall fuel m pos lim count h,
  count <> 0 -> record_parse m pos lim = Ok h -> rh_type h = RTYPE_TSIG ->
  (rh_class h <> CLASS_ANY \/ rh_ttl h <> 0) ->
  forall t, find_tsig (S fuel) m pos lim count <> Ok t.
Proof. exact tsig_class_ttl_enforced. Qed.
Print Assumptions C11_tsig_class_ttl_enforced.

Theorem C11_unsigned_run_limit : forall mac,
  (forall a k d, len (mac a k d) = native_len a) ->
  forall k s ms now,
  cs_first s = false -> Forall (fun m => get_answer_tsig k m = Ok None) ms ->
  (snd (feed_unsigned mac k s ms now) = true <-> cs_unsigned s + N.of_nat (length ms) <= 99 \/ ms = []).
Proof. exact unsigned_run_limit. Qed.
Print Assumptions C11_unsigned_run_limit.

Theorem C11_unsigned_counter_bounded : forall mac,
  (forall a k d, len (mac a k d) = native_len a) ->
  forall k s m now,
  cs_unsigned s <= 99 -> cs_unsigned (fst (cseq_answer mac k s m now)) <= 99.
Proof. exact unsigned_counter_bounded. Qed.
Print Assumptions C11_unsigned_counter_bounded.

Theorem C11_done_iff_last_signed : forall s, cseq_done s = Ok tt <-> cs_unsigned s = 0.
Proof. exact done_iff_last_signed. Qed.
Print Assumptions C11_done_iff_last_signed.

Theorem C11_server_sequence_digests_sent_mac : forall mac k c first msg now fudge c' w,
  server_seq_answer mac k c first msg now fudge = Ok (c', w) ->
  exists full, full = ctx_sign mac k (if first then digest_full k c msg (Vars now fudge RC_NOERROR None)
                                    else digest_timers k c msg (Vars now fudge RC_NOERROR None)) /\
    c' = apply_signature [] (signature_slice k full) /\
    push_tsig k (Vars now fudge RC_NOERROR None) (signature_slice k full) msg = Ok w.
Proof. exact server_seq_context_is_sent_mac. Qed.
Print Assumptions C11_server_sequence_digests_sent_mac.

Theorem C11_digest_injective : forall k pm pm' msg msg' v v',
  len pm < 65536 -> len pm' < 65536 -> wf_vars v -> wf_vars v' ->
  digest_full k (apply_signature [] pm) msg v = digest_full k (apply_signature [] pm') msg' v' ->
  pm = pm' /\ msg = msg' /\ v = v'.
Proof. exact digest_injective. Qed.
Print Assumptions C11_digest_injective.

Theorem C11_digest_timers_injective : forall k pm pm' msg msg' v v',
  len pm < 65536 -> len pm' < 65536 ->
  v_time v < T48_LIMIT -> v_time v' < T48_LIMIT -> v_fudge v < 65536 -> v_fudge v' < 65536 ->
  digest_timers k (apply_signature [] pm) msg v = digest_timers k (apply_signature [] pm') msg' v' ->
  pm = pm' /\ msg = msg' /\ v_time v = v_time v' /\ v_fudge v = v_fudge v'.
Proof. exact digest_timers_injective. Qed.
Print Assumptions C11_digest_timers_injective.

(* The three sign/verify theorems below have no framing premise any more: the
   parser finding the record that push_tsig wrote is proved (Proofs4) for every
   laid out message MsgAt msg nq an ns ar. *)
Theorem C11_sign_verify_request : forall mac,
  (forall a k d, len (mac a k d) = native_len a) ->
  forall ks kr msg nq an ns ar t fudge now c w,
  same_key ks kr -> k_min kr <= k_sign ks -> within_len_bounds (k_alg ks) (k_sign ks) = true ->
  MsgAt msg nq an ns ar -> name_ok (k_name ks) -> t < T48_LIMIT -> fudge < 65536 ->
  client_request mac ks msg t fudge = Ok (c, w) ->
  is_valid_at t fudge now = true ->
  exists rr, w = set_arcount msg (arcount msg + 1) ++ rr /\
    server_request mac kr w now = Ok (SrvOk c (msg ++ rr)).
Proof. exact sign_verify_request_full. Qed.
Print Assumptions C11_sign_verify_request.

Theorem C11_request_outside_window_badtime : forall mac,
  (forall a k d, len (mac a k d) = native_len a) ->
  forall ks kr msg nq an ns ar t fudge now c w,
  same_key ks kr -> k_min kr <= k_sign ks -> within_len_bounds (k_alg ks) (k_sign ks) = true ->
  MsgAt msg nq an ns ar -> name_ok (k_name ks) -> t < T48_LIMIT -> fudge < 65536 ->
  client_request mac ks msg t fudge = Ok (c, w) ->
  is_valid_at t fudge now = false ->
  server_request mac kr w now = Ok (SrvBadTime c (Vars t fudge RC_BADTIME (Some now))).
Proof. exact request_outside_window_badtime_full. Qed.
Print Assumptions C11_request_outside_window_badtime.

Theorem C11_sign_verify_answer : forall mac,
  (forall a k d, len (mac a k d) = native_len a) ->
  forall ks kr c msg nq an ns ar t fudge now w,
  same_key ks kr -> k_min kr <= k_sign ks -> within_len_bounds (k_alg ks) (k_sign ks) = true ->
  MsgAt msg nq an ns ar -> name_ok (k_name ks) -> t < T48_LIMIT -> fudge < 65536 ->
  (hdr_rcode msg =? RC_NOTAUTH) = false ->
  server_answer mac ks c msg t fudge = Ok w ->
  is_valid_at t fudge now = true ->
  exists rr, w = set_arcount msg (arcount msg + 1) ++ rr /\
    client_answer mac kr c w now = Ok (msg ++ rr).
Proof. exact sign_verify_answer_full. Qed.
Print Assumptions C11_sign_verify_answer.

Theorem C11_verify_restores_octets : forall k v mc msg nq an ns ar w,
  MsgAt msg nq an ns ar -> name_ok (k_name k) ->
  v_time v < T48_LIMIT -> v_fudge v < 65536 -> v_error v < 65536 -> v_other v = None ->
  push_tsig k v mc msg = Ok w ->
  exists rr t, w = set_arcount msg (arcount msg + 1) ++ rr /\
    from_message w = Ok t /\ mt_start t = mlen msg /\ mt_mac t = mc /\ mt_oid t = hdr_id msg /\
    stripped w t = Ok msg /\
    remove_tsig w t = Ok (msg ++ rr) /\
    firstn (length msg) (msg ++ rr) = msg /\ arcount (msg ++ rr) = arcount msg.
Proof. exact verify_restores_octets. Qed.
Print Assumptions C11_verify_restores_octets.

Theorem C11_from_message_no_fuel : forall m, wf_bytes m -> 12 <= mlen m -> from_message m <> OutOfFuel.
Proof. exact from_message_no_fuel. Qed.
Print Assumptions C11_from_message_no_fuel.

(* building the response to a rejected request: with the plain-FORMERR shape in
   the source (T1) it never panics and carries the RFC's RCODE *)
Theorem C11_unsigned_error_response_total : forall (mac : alg -> bytes -> bytes -> bytes) k req now code,
  server_request mac k req now = Err (SE_UNSIGNED + code) ->
  exists rc, unsigned_error_rcode req code = Ok rc /\
    (code = RC_FORMERR -> rc = RC_FORMERR) /\ (code <> RC_FORMERR -> rc = RC_NOTAUTH).
Proof. exact unsigned_error_response_total_now. Qed.
Print Assumptions C11_unsigned_error_response_total.

(* The layout premise of the sign/verify theorems holds for every message the
   builder model of C02 can produce (any pushes, sections, rewinds, limits,
   targets, compressors), as long as its additional section holds no TSIG yet. *)
Theorem C11_built_message_laid_out : forall c ops s0 s a ws,
  C02.Model.init c = Some s0 -> Forall C02.ProofsBuild.wf_op ops ->
  C02.Model.run_acc c s0 C02.Model.acc0 ops = (s, a, ws) -> C02.ProofsRun.all_alive ws ->
  Forall (fun b => b < 256) (C02.Model.b_hdr s) ->
  Forall (fun r => C02.Model.r_type r <> RTYPE_TSIG) (C02.Model.a_ar a) ->
  Forall (fun r => C02.Model.r_type r <> RTYPE_TSIG) (C02.Model.a_an a) ->
  Forall (fun r => C02.Model.r_type r <> RTYPE_TSIG) (C02.Model.a_ns a) ->
  MsgAt (C02.Model.msg_of s) (length (C02.Model.a_q a)) (map C02.Model.r_type (C02.Model.a_an a))
        (map C02.Model.r_type (C02.Model.a_ns a)) (map C02.Model.r_type (C02.Model.a_ar a)).
Proof. exact built_message_laid_out. Qed.
Print Assumptions C11_built_message_laid_out.

Theorem C11_sign_verify_request_built : forall mac,
  (forall a k d, len (mac a k d) = native_len a) ->
  forall c ops s0 s a ws ks kr t fudge now cx w,
  C02.Model.init c = Some s0 -> Forall C02.ProofsBuild.wf_op ops ->
  C02.Model.run_acc c s0 C02.Model.acc0 ops = (s, a, ws) -> C02.ProofsRun.all_alive ws ->
  Forall (fun b => b < 256) (C02.Model.b_hdr s) ->
  Forall (fun r => C02.Model.r_type r <> RTYPE_TSIG) (C02.Model.a_ar a) ->
  Forall (fun r => C02.Model.r_type r <> RTYPE_TSIG) (C02.Model.a_an a) ->
  Forall (fun r => C02.Model.r_type r <> RTYPE_TSIG) (C02.Model.a_ns a) ->
  same_key ks kr -> k_min kr <= k_sign ks -> within_len_bounds (k_alg ks) (k_sign ks) = true ->
  name_ok (k_name ks) -> t < T48_LIMIT -> fudge < 65536 ->
  client_request mac ks (C02.Model.msg_of s) t fudge = Ok (cx, w) ->
  is_valid_at t fudge now = true ->
  exists rr, w = set_arcount (C02.Model.msg_of s) (arcount (C02.Model.msg_of s) + 1) ++ rr /\
    server_request mac kr w now = Ok (SrvOk cx (C02.Model.msg_of s ++ rr)).
Proof. exact (fun mac Hl c ops s0 s a ws ks kr t fudge now cx w HI Hwf HR AL Hh Hno Hnoan Hnons Hk Hmin Hw =>
  sign_verify_request_full mac Hl ks kr _ _ _ _ _ t fudge now cx w Hk Hmin Hw
    (built_message_laid_out c ops s0 s a ws HI Hwf HR AL Hh Hno Hnoan Hnons)). Qed.
Print Assumptions C11_sign_verify_request_built.

Theorem C11_request_outside_window_badtime_built : forall mac,
  (forall a k d, len (mac a k d) = native_len a) ->
  forall c ops s0 s a ws ks kr t fudge now cx w,
  C02.Model.init c = Some s0 -> Forall C02.ProofsBuild.wf_op ops ->
  C02.Model.run_acc c s0 C02.Model.acc0 ops = (s, a, ws) -> C02.ProofsRun.all_alive ws ->
  Forall (fun b => b < 256) (C02.Model.b_hdr s) ->
  Forall (fun r => C02.Model.r_type r <> RTYPE_TSIG) (C02.Model.a_ar a) ->
  Forall (fun r => C02.Model.r_type r <> RTYPE_TSIG) (C02.Model.a_an a) ->
  Forall (fun r => C02.Model.r_type r <> RTYPE_TSIG) (C02.Model.a_ns a) ->
  same_key ks kr -> k_min kr <= k_sign ks -> within_len_bounds (k_alg ks) (k_sign ks) = true ->
  name_ok (k_name ks) -> t < T48_LIMIT -> fudge < 65536 ->
  client_request mac ks (C02.Model.msg_of s) t fudge = Ok (cx, w) ->
  is_valid_at t fudge now = false ->
  server_request mac kr w now = Ok (SrvBadTime cx (Vars t fudge RC_BADTIME (Some now))).
Proof. exact (fun mac Hl c ops s0 s a ws ks kr t fudge now cx w HI Hwf HR AL Hh Hno Hnoan Hnons Hk Hmin Hw =>
  request_outside_window_badtime_full mac Hl ks kr _ _ _ _ _ t fudge now cx w Hk Hmin Hw
    (built_message_laid_out c ops s0 s a ws HI Hwf HR AL Hh Hno Hnoan Hnons)). Qed.
Print Assumptions C11_request_outside_window_badtime_built.

Theorem C11_sign_verify_answer_built : forall mac,
  (forall a k d, len (mac a k d) = native_len a) ->
  forall c ops s0 s a ws ks kr cx t fudge now w,
  C02.Model.init c = Some s0 -> Forall C02.ProofsBuild.wf_op ops ->
  C02.Model.run_acc c s0 C02.Model.acc0 ops = (s, a, ws) -> C02.ProofsRun.all_alive ws ->
  Forall (fun b => b < 256) (C02.Model.b_hdr s) ->
  Forall (fun r => C02.Model.r_type r <> RTYPE_TSIG) (C02.Model.a_ar a) ->
  Forall (fun r => C02.Model.r_type r <> RTYPE_TSIG) (C02.Model.a_an a) ->
  Forall (fun r => C02.Model.r_type r <> RTYPE_TSIG) (C02.Model.a_ns a) ->
  same_key ks kr -> k_min kr <= k_sign ks -> within_len_bounds (k_alg ks) (k_sign ks) = true ->
  name_ok (k_name ks) -> t < T48_LIMIT -> fudge < 65536 ->
  (hdr_rcode (C02.Model.msg_of s) =? RC_NOTAUTH) = false ->
  server_answer mac ks cx (C02.Model.msg_of s) t fudge = Ok w ->
  is_valid_at t fudge now = true ->
  exists rr, w = set_arcount (C02.Model.msg_of s) (arcount (C02.Model.msg_of s) + 1) ++ rr /\
    client_answer mac kr cx w now = Ok (C02.Model.msg_of s ++ rr).
Proof. exact (fun mac Hl c ops s0 s a ws ks kr cx t fudge now w HI Hwf HR AL Hh Hno Hnoan Hnons Hk Hmin Hw =>
  sign_verify_answer_full mac Hl ks kr cx _ _ _ _ _ t fudge now w Hk Hmin Hw
    (built_message_laid_out c ops s0 s a ws HI Hwf HR AL Hh Hno Hnoan Hnons)). Qed.
Print Assumptions C11_sign_verify_answer_built.

(* the client transport wrapper (net/client/tsig.rs) *)
Theorem C11_wrapper_single_unsigned_refused : forall mac k c m now,
  from_message m = Err TE_MISSING ->
  wrapper_validate mac k (WTransaction c) (Some m) now = (WTransaction c, Err VE_SERVERUNSIGNED).
Proof. exact wrapper_single_unsigned_refused. Qed.
Print Assumptions C11_wrapper_single_unsigned_refused.

Theorem C11_wrapper_stream_unsigned : forall mac k s m now,
  from_message m = Err TE_MISSING ->
  wrapper_validate mac k (WSequence s) (Some m) now =
    if cs_first s then (WSequence s, Err VE_SERVERUNSIGNED)
    else if cs_unsigned s <? 99 then (WSequence (CSeq (cs_ctx s ++ m) false (cs_unsigned s + 1)), Ok (Some m))
    else (WSequence s, Err VE_TOOMANYUNSIGNED).
Proof. exact wrapper_stream_unsigned. Qed.
Print Assumptions C11_wrapper_stream_unsigned.

Theorem C11_wrapper_stream_end : forall mac k s now,
  snd (wrapper_validate mac k (WSequence s) None now) = Ok None <-> cs_unsigned s = 0.
Proof. exact wrapper_stream_end. Qed.
Print Assumptions C11_wrapper_stream_end.

(* order of the client's checks: MAC before time, on both client paths *)
Theorem C11_client_mac_error_wins : forall mac k c m now t sm e,
  get_answer_tsig k m = Ok (Some t) -> stripped m t = Ok sm ->
  compare_signatures k (ctx_sign mac k (digest_full k c sm (mt_vars t))) (mt_mac t) = Err e ->
  client_answer mac k c m now = Err e.
Proof. exact client_answer_mac_before_time. Qed.
Print Assumptions C11_client_mac_error_wins.

Theorem C11_client_badtime_means_mac_ok : forall mac k c m now,
  client_answer mac k c m now = Err VE_BADTIME ->
  exists t sm, get_answer_tsig k m = Ok (Some t) /\ stripped m t = Ok sm /\
    compare_signatures k (ctx_sign mac k (digest_full k c sm (mt_vars t))) (mt_mac t) = Ok tt /\
    is_valid_at (mt_time t) (mt_fudge t) now = false.
Proof. exact client_answer_badtime_means_mac_ok. Qed.
Print Assumptions C11_client_badtime_means_mac_ok.

Theorem C11_sequence_mac_error_wins : forall mac k s m now t sm e,
  get_answer_tsig k m = Ok (Some t) -> stripped m t = Ok sm ->
  compare_signatures k (if cs_first s then ctx_sign mac k (digest_full k (cs_ctx s) sm (mt_vars t))
                        else ctx_sign mac k (digest_timers k (cs_ctx s) sm (mt_vars t))) (mt_mac t) = Err e ->
  snd (cseq_answer mac k s m now) = Err e.
Proof. exact cseq_answer_mac_before_time. Qed.
Print Assumptions C11_sequence_mac_error_wins.

(* MessageTsig::from_message's scan: accepted only if the TSIG is the last
   record and no other TSIG precedes it; "missing" iff there is none *)
Theorem C11_tsig_accepted_only_last : forall m p tys e lim, RecordsAt m p tys e -> e <= lim ->
  forall fuel t, find_tsig fuel m p lim (N.of_nat (length tys)) = Ok t ->
  exists pre, tys = pre ++ [RTYPE_TSIG] /\ Forall (fun ty => ty <> RTYPE_TSIG) pre.
Proof. exact find_tsig_accepts_only_last. Qed.
Print Assumptions C11_tsig_accepted_only_last.

Theorem C11_tsig_missing_iff : forall m p tys e lim, RecordsAt m p tys e -> e <= lim ->
  forall fuel, (length tys < fuel)%nat ->
  (find_tsig fuel m p lim (N.of_nat (length tys)) = Err TE_MISSING <-> Forall (fun ty => ty <> RTYPE_TSIG) tys).
Proof. exact find_tsig_missing_iff. Qed.
Print Assumptions C11_tsig_missing_iff.

(* a forwarder's message ID (RFC 8945 5.1) does not influence what verification
   hands back: the original ID of the TSIG record is written into the header *)
Theorem C11_forwarded_id_irrelevant : forall m x t, 12 <= mlen m ->
  remove_tsig (set_id m x) t = remove_tsig m t /\
  (forall out, remove_tsig m t = Ok out -> hdr_id out = mt_oid t \/ 65536 <= mt_oid t).
Proof. exact forwarded_id_irrelevant. Qed.
Print Assumptions C11_forwarded_id_irrelevant.

(* rejections that need no MAC *)
Theorem C11_server_unknown_key_is_badkey : forall (mac : alg -> bytes -> bytes -> bytes) k w now t,
  from_message w = Ok t ->
  (alg_from_name (mt_algname t) = None \/
   exists a, alg_from_name (mt_algname t) = Some a /\ store_get k (mt_owner t) a = false) ->
  server_request mac k w now = Err (SE_UNSIGNED + RC_BADKEY).
Proof. exact server_unknown_key_badkey. Qed.
Print Assumptions C11_server_unknown_key_is_badkey.

Theorem C11_server_misplaced_tsig_is_formerr : forall (mac : alg -> bytes -> bytes -> bytes) k w now e,
  from_message w = Err e ->
  server_request mac k w now = if e =? TE_MISSING then Ok SrvNone else Err (SE_UNSIGNED + RC_FORMERR).
Proof. exact server_from_message_error. Qed.
Print Assumptions C11_server_misplaced_tsig_is_formerr.

Theorem C11_client_misplaced_tsig_is_formerr : forall (mac : alg -> bytes -> bytes -> bytes) k c m now e,
  from_message m = Err e ->
  client_answer mac k c m now = Err (if e =? TE_MISSING then VE_SERVERUNSIGNED else VE_FORMERR).
Proof. exact client_from_message_error. Qed.
Print Assumptions C11_client_misplaced_tsig_is_formerr.

Theorem C11_client_wrong_key_is_badkey : forall (mac : alg -> bytes -> bytes -> bytes) k c m now t,
  from_message m = Ok t -> (hdr_rcode m =? RC_NOTAUTH) = false ->
  (name_eqb (mt_owner t) (k_name k) = false \/ name_eqb (mt_algname t) [alg_label (k_alg k)] = false) ->
  client_answer mac k c m now = Err VE_BADKEY /\
  (forall s, cseq_answer mac k s m now = (s, Err VE_BADKEY)).
Proof. exact client_wrong_key_badkey. Qed.
Print Assumptions C11_client_wrong_key_is_badkey.

Theorem C11_client_reports_server_verdict : forall (mac : alg -> bytes -> bytes -> bytes) k c m now t,
  from_message m = Ok t -> (hdr_rcode m =? RC_NOTAUTH) = true ->
  (mt_error t = RC_BADKEY -> client_answer mac k c m now = Err VE_SERVERBADKEY) /\
  (mt_error t = RC_BADSIG -> client_answer mac k c m now = Err VE_SERVERBADSIG).
Proof. exact client_server_verdict. Qed.
Print Assumptions C11_client_reports_server_verdict.

(* an honest answer verified outside the fudge window: BadTime (the MAC is fine) *)
Theorem C11_answer_outside_window_badtime : forall mac,
  (forall a k d, len (mac a k d) = native_len a) ->
  forall ks kr c msg nq an ns ar t fudge now w,
  same_key ks kr -> k_min kr <= k_sign ks -> within_len_bounds (k_alg ks) (k_sign ks) = true ->
  MsgAt msg nq an ns ar -> name_ok (k_name ks) -> t < T48_LIMIT -> fudge < 65536 ->
  (hdr_rcode msg =? RC_NOTAUTH) = false ->
  server_answer mac ks c msg t fudge = Ok w ->
  is_valid_at t fudge now = false ->
  client_answer mac kr c w now = Err VE_BADTIME.
Proof. exact answer_outside_window_full. Qed.
Print Assumptions C11_answer_outside_window_badtime.

(* multi-message responses: one ServerSequence step verifies in ClientSequence
   (first message: full variables, later ones: timers), both ends then hold the
   same context, the octets are restored, the unsigned counter is reset *)
Theorem C11_sign_verify_sequence_step : forall mac,
  (forall a k d, len (mac a k d) = native_len a) ->
  forall ks kr c first u msg nq an ns ar t fudge now c' w,
  same_key ks kr -> k_min kr <= k_sign ks -> within_len_bounds (k_alg ks) (k_sign ks) = true ->
  MsgAt msg nq an ns ar -> name_ok (k_name ks) -> t < T48_LIMIT -> fudge < 65536 ->
  (hdr_rcode msg =? RC_NOTAUTH) = false ->
  server_seq_answer mac ks c first msg t fudge = Ok (c', w) ->
  is_valid_at t fudge now = true ->
  exists rr, w = set_arcount msg (arcount msg + 1) ++ rr /\
    cseq_answer mac kr (CSeq c first u) w now = (CSeq c' false (if first then u else 0), Ok (msg ++ rr)).
Proof. exact sequence_step_full. Qed.
Print Assumptions C11_sign_verify_sequence_step.

(* ... and a whole stream of any length, by induction: every message is accepted
   with its pre-signing octets, the contexts stay equal, done() succeeds *)
Theorem C11_sign_verify_sequence_stream : forall mac,
  (forall a k d, len (mac a k d) = native_len a) ->
  forall ks kr,
  same_key ks kr -> k_min kr <= k_sign ks -> within_len_bounds (k_alg ks) (k_sign ks) = true ->
  name_ok (k_name ks) ->
  forall c f its ws c2, signed_stream mac ks c f its ws c2 -> Forall item_ok its ->
  exists f', fst (client_feed mac kr (CSeq c f 0) ws its) = CSeq c2 f' 0 /\ (its <> [] -> f' = false) /\
    Forall2 (fun it o => exists rr, o = Ok (i_msg it ++ rr)) its (snd (client_feed mac kr (CSeq c f 0) ws its)) /\
    cseq_done (fst (client_feed mac kr (CSeq c f 0) ws its)) = Ok tt.
Proof. exact sequence_stream. Qed.
Print Assumptions C11_sign_verify_sequence_stream.

(* Key::generate, the constructor next to Key::new: the key is the one Key::new
   builds from the generated octets (so every theorem above covers generated
   keys), min_mac_len and signing_len land in the fields they were given for,
   and the constructor fails exactly on a length outside the RFC 8945 bounds *)
Theorem C11_generate_is_new_on_generated_octets : forall a rnd nm mn sg,
  key_generate a rnd nm mn sg =
    do k <- key_new a (firstn (N.to_nat (native_len a)) rnd) nm mn sg; Ok (k, k_secret k).
Proof. exact generate_as_new. Qed.
Print Assumptions C11_generate_is_new_on_generated_octets.

Theorem C11_generate_honours_truncation_settings : forall a rnd nm mn sg k bits,
  key_generate a rnd nm mn sg = Ok (k, bits) ->
  k_alg k = a /\ k_secret k = bits /\ k_name k = nm /\
  k_min k = setting a mn /\ k_sign k = setting a sg /\
  within_len_bounds a (k_min k) = true /\ within_len_bounds a (k_sign k) = true.
Proof. exact generate_honours_settings. Qed.
Print Assumptions C11_generate_honours_truncation_settings.

Theorem C11_generate_fails_iff_out_of_bounds : forall a rnd nm mn sg,
  (exists kb, key_generate a rnd nm mn sg = Ok kb) <->
  (forall l, mn = Some l -> within_len_bounds a l = true) /\ (forall l, sg = Some l -> within_len_bounds a l = true).
Proof. exact generate_rejects. Qed.
Print Assumptions C11_generate_fails_iff_out_of_bounds.

(* C11/Proofs.v -- lemmas about the TSIG model: the fudge window, the truncation
   bounds, and the digest input against RFC 8945 transcribed. *)
From Coq Require Import PeanoNat NArith List Bool Lia.
From DV Require Import Base.Outcome Base.Bytes Base.Names C11.Gen C11.Model.
Import ListNotations.
Local Open Scope N_scope.

Lemma other_len_is_6 : other_len_fed = 6 /\ time48_width = 6 /\ other_time_len = 6.
Proof. repeat split. Qed.
Lemma default_fudge_300 : default_fudge = 300.
Proof. reflexivity. Qed.

Lemma unsigned_allowed_eq n : unsigned_allowed n = (n <? 99).
Proof. reflexivity. Qed.

Lemma vars_sign_eq k v :
  vars_sign k v =
    wire_abs (canon (k_name k)) ++ be16 CLASS_ANY ++ be32 0 ++ alg_wire (k_alg k) ++
    time48_octets (v_time v) ++ be16 (v_fudge v) ++ be16 (v_error v) ++
    be16 (match v_other v with Some _ => other_len_fed | None => 0 end) ++
    match v_other v with Some t => time48_octets t | None => [] end.
Proof. unfold vars_sign, sign_order. cbn [map concat field_bytes]. rewrite app_nil_r. reflexivity. Qed.

Lemma vars_sign_timers_eq k v : vars_sign_timers k v = time48_octets (v_time v) ++ be16 (v_fudge v).
Proof. unfold vars_sign_timers, timers_order. cbn [map concat field_bytes]. rewrite app_nil_r. reflexivity. Qed.

(* with arbitrary u64 fudge (the public eq_fudged): saturation never cuts a 48 bit window *)
Lemma eq_fudged_exact self other fudge :
  self < T48_LIMIT -> other < T48_LIMIT -> fudge <= U64_MAX ->
  (eq_fudged self other fudge = true <-> (self - other <= fudge /\ other - self <= fudge)).
Proof.
  unfold eq_fudged, sat_add, T48_LIMIT, U64_MAX. intros Hn Hs Hf.
  rewrite andb_true_iff, !N.leb_le. lia.
Qed.

Lemma time_window_exact now signed fudge :
  now < T48_LIMIT -> signed < T48_LIMIT -> fudge < 65536 ->
  (is_valid_at signed fudge now = true <-> (now - signed <= fudge /\ signed - now <= fudge)).
Proof. intros Hn Hs Hf. apply eq_fudged_exact; [exact Hn | exact Hs | unfold U64_MAX; lia]. Qed.

Example time_window_ex :
  is_valid_at 1000 300 1300 = true /\ is_valid_at 1000 300 1301 = false /\
  is_valid_at 1000 300 700 = true /\ is_valid_at 1000 300 699 = false /\ is_valid_at 100 300 0 = true.
Proof. repeat split. Qed.

Lemma within_len_bounds_spec a l :
  within_len_bounds a l = true <-> (10 <= l /\ native_len a / 2 <= l /\ l <= native_len a).
Proof.
  unfold within_len_bounds, trunc_floor, trunc_divisor.
  rewrite andb_true_iff, !N.leb_le. lia.
Qed.

Lemma within_len_bounds_native a : within_len_bounds a (native_len a) = true.
Proof. destruct a; reflexivity. Qed.

Lemma calculate_bounds_Ok a mn sg m s :
  calculate_bounds a mn sg = Ok (m, s) <->
  m = match mn with Some l => l | None => native_len a end /\
  s = match sg with Some l => l | None => native_len a end /\
  within_len_bounds a m = true /\ within_len_bounds a s = true.
Proof.
  unfold calculate_bounds. pose proof (within_len_bounds_native a) as Hn.
  destruct mn as [l1|]; [destruct (within_len_bounds a l1) eqn:E1|];
  (destruct sg as [l2|]; [destruct (within_len_bounds a l2) eqn:E2|]); cbn [bind];
  (split; [intros [= <- <-]; auto | intros (-> & -> & H1 & H2); congruence]).
Qed.

Lemma calculate_bounds_ok a mn sg m s :
  calculate_bounds a mn sg = Ok (m, s) ->
  (10 <= m /\ native_len a / 2 <= m /\ m <= native_len a) /\
  (10 <= s /\ native_len a / 2 <= s /\ s <= native_len a).
Proof. intros H. apply calculate_bounds_Ok in H as (_ & _ & H1 & H2). split; apply within_len_bounds_spec; assumption. Qed.

Lemma calculate_bounds_err a mn sg :
  (exists e, calculate_bounds a mn sg = Err e) <->
  ((exists l, mn = Some l /\ within_len_bounds a l = false) \/
   (exists l, sg = Some l /\ within_len_bounds a l = false)).
Proof.
  unfold calculate_bounds. split.
  - intros [e H].
    destruct mn as [l1|]; [destruct (within_len_bounds a l1) eqn:E1; [|left; eauto]|];
    (destruct sg as [l2|]; [destruct (within_len_bounds a l2) eqn:E2; [|right; eauto]|]); discriminate.
  - intros [[l [-> E]]|[l [-> E]]].
    + rewrite E. eexists; reflexivity.
    + destruct mn as [l1|]; [destruct (within_len_bounds a l1)|]; cbn; rewrite ?E; eexists; reflexivity.
Qed.

Example calculate_bounds_ex :
  calculate_bounds Sha256 (Some 16) None = Ok (16, 32) /\ calculate_bounds Sha256 (Some 15) None = Err 1 /\
  calculate_bounds Sha1 None (Some 9) = Err 2 /\ calculate_bounds Sha1 (Some 10) (Some 20) = Ok (10, 20) /\
  calculate_bounds Sha512 (Some 31) None = Err 1.
Proof. repeat split. Qed.

Lemma bytes_eqb_spec a b : bytes_eqb a b = true <-> a = b.
Proof.
  revert b; induction a as [|x a IH]; intros [|y b]; cbn; split; intros H; try reflexivity; try discriminate.
  - apply andb_true_iff in H as [H1 H2]. apply N.eqb_eq in H1. apply IH in H2. congruence.
  - injection H as -> ->. rewrite N.eqb_refl. cbn. apply IH. reflexivity.
Qed.

Lemma be_bytes_length w x : length (be_bytes w x) = w.
Proof. revert x; induction w; intros; cbn; [reflexivity|]. rewrite app_length, IHw. apply Nat.add_1_r. Qed.

(* of_be reads back what be_bytes wrote *)
Lemma of_be_app a b acc : of_be (a ++ b) acc = of_be b (of_be a acc).
Proof. revert acc; induction a; intros; cbn; auto. Qed.

Lemma of_be_be_bytes w : forall x acc, x < 256 ^ N.of_nat w -> of_be (be_bytes w x) acc = acc * 256 ^ N.of_nat w + x.
Proof.
  induction w as [|w IH]; intros x acc Hx.
  - cbn in *. lia.
  - cbn [be_bytes]. rewrite of_be_app. rewrite Nat2N.inj_succ, N.pow_succ_r' in *.
    rewrite IH by (apply N.div_lt_upper_bound; lia). cbn [of_be].
    pose proof (N.div_mod' x 256). nia.
Qed.

Lemma of_be_time48 t : t < T48_LIMIT -> of_be (time48_octets t) 0 = t.
Proof. intros H. unfold time48_octets. change (N.to_nat time48_width) with 6%nat. apply of_be_be_bytes. exact H. Qed.

Lemma len_app (a b : bytes) : len (a ++ b) = len a + len b.
Proof. unfold len. rewrite app_length. apply Nat2N.inj_add. Qed.

Lemma time48_octets_length t : length (time48_octets t) = 6%nat.
Proof. apply be_bytes_length. Qed.

Lemma be16_length n : length (be16 n) = 2%nat. Proof. reflexivity. Qed.
Lemma be32_length n : length (be32 n) = 4%nat. Proof. reflexivity. Qed.

(* Section 4.3.3 "TSIG Variables", in the order of the table:
     NAME (canonical wire format), CLASS, TTL, Algorithm Name (canonical wire
     format), Time Signed, Fudge, Error, Other Len, Other Data.
   Section 4.3.1: a response digests the request MAC first, "including the MAC
   Size field" (two octets, network order).  Section 4.3.2: the whole DNS
   message, TSIG RR removed, ARCOUNT decremented, original ID.  Section 5.3.1:
   in a multi-message answer the first message is signed like a response; later
   ones digest the prior MAC (with its length), the DNS messages since (unsigned
   ones included) and only the TSIG timers (Time Signed, Fudge). *)
Record rfc_key := RfcKey { rk_name : name; rk_alg_name : name }.

Definition u48 (t : N) : bytes :=
  [t / 1099511627776 mod 256; t / 4294967296 mod 256; t / 16777216 mod 256; t / 65536 mod 256; t / 256 mod 256; t mod 256].
Definition u16 (n : N) : bytes := [n / 256; n mod 256].

Definition rfc8945_variables (k : rfc_key) (time fudge error : N) (other : bytes) : bytes :=
  wire_abs (map lowers (rk_name k)) ++      (* NAME *)
  [0; 255] ++                               (* CLASS ANY *)
  [0; 0; 0; 0] ++                           (* TTL 0 *)
  wire_abs (map lowers (rk_alg_name k)) ++  (* Algorithm Name *)
  u48 time ++ u16 fudge ++ u16 error ++ u16 (len other) ++ other.

Definition rfc8945_timers (time fudge : N) : bytes := u48 time ++ u16 fudge.
Definition rfc8945_mac_field (mac : bytes) : bytes := u16 (len mac) ++ mac.

Definition rfc8945_request_digest k msg time fudge := msg ++ rfc8945_variables k time fudge 0 [].
Definition rfc8945_response_digest k reqmac msg time fudge error other :=
  rfc8945_mac_field reqmac ++ msg ++ rfc8945_variables k time fudge error other.
Definition rfc8945_subsequent_digest priormac (unsigned_msgs : list bytes) msg time fudge :=
  rfc8945_mac_field priormac ++ concat unsigned_msgs ++ msg ++ rfc8945_timers time fudge.

Definition rfc_key_of (k : key) : rfc_key := RfcKey (k_name k) [alg_label (k_alg k)].
Definition vars_other (v : vars) : bytes :=
  match v_other v with Some t => u48 t | None => [] end.

(* be_bytes divides by 256 six times over; N.div_div collects the divisors *)
Lemma time48_octets_u48 t : time48_octets t = u48 t.
Proof.
  unfold time48_octets, u48. change (N.to_nat time48_width) with 6%nat. cbn [be_bytes app].
  rewrite !N.div_div by discriminate. reflexivity.
Qed.

Lemma alg_wire_canonical a : alg_wire a = wire_abs (map lowers [alg_label a]).
Proof. destruct a; reflexivity. Qed.

Lemma vars_sign_is_rfc8945 k v :
  vars_sign k v = rfc8945_variables (rfc_key_of k) (v_time v) (v_fudge v) (v_error v) (vars_other v).
Proof.
  rewrite vars_sign_eq. unfold rfc8945_variables, rfc_key_of, vars_other, canon. cbn [rk_name rk_alg_name].
  rewrite alg_wire_canonical, time48_octets_u48.
  destruct (v_other v) as [t|]; [rewrite time48_octets_u48|]; reflexivity.
Qed.

Lemma vars_sign_timers_is_rfc8945 k v :
  vars_sign_timers k v = rfc8945_timers (v_time v) (v_fudge v).
Proof. rewrite vars_sign_timers_eq, time48_octets_u48. reflexivity. Qed.

Lemma apply_signature_is_rfc8945 mac : len mac < 65536 ->
  apply_signature [] mac = rfc8945_mac_field mac.
Proof.
  intros H. unfold apply_signature, rfc8945_mac_field, u16, be16. cbn [app].
  rewrite N.mod_small by exact H. reflexivity.
Qed.

Example vars_sign_ex :
  vars_sign (Key Sha1 [] [[75;101;121]] 20 20) (Vars 1 300 18 (Some 2)) =
  [3;107;101;121;0; 0;255; 0;0;0;0; 9;104;109;97;99;45;115;104;97;49;0; 0;0;0;0;0;1; 1;44; 0;18; 0;6; 0;0;0;0;0;2].
Proof. reflexivity. Qed.

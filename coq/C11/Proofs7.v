(* C11/Proofs7.v -- the layout premise MsgAt of the sign/verify theorems holds
   for every message a MessageBuilder can produce (C02's builder model: any
   finite sequence of pushes, section changes, rewinds, limits; any target, any
   compressor): the bridge from C02's reachable-state invariant (Layout: QsAt /
   RsAt) to C11's QuestionsAt / RecordsAt / MsgAt. *)
From Coq Require Import NArith List Lia.
From DV Require Import Base.Outcome Base.Bytes Base.PName.
From DV Require Import C02.Gen C02.Model C02.ProofsBasic C02.ProofsRun C02.ProofsName C02.ProofsComp C02.ProofsTop
  C02.ProofsLayout C02.ProofsBuild.
From DV Require C11.Model.
From DV Require Import C11.Proofs4.
Import ListNotations.
Local Open Scope N_scope.

Lemma Forall_firstn {A} (P : A -> Prop) n l : Forall P l -> Forall P (firstn n l).
Proof. intros H. revert n. induction H; intros [|n]; cbn [firstn]; constructor; auto. Qed.

Lemma NameAtO_NameAt m e p n e1 : NameAtO m (C02.ProofsLayout.okb e) p n e1 -> NameAt m e p e1.
Proof.
  intros (n' & H & C & [Hv Hw]). exists n'. split; [exact H|].
  split; [eapply NameIn_valid; eauto|]. rewrite (canon_wire_len _ _ C). exact Hw.
Qed.

Lemma QAt_QuestionAt m p q e : QAt m p q e -> QuestionAt m p e.
Proof.
  intros (e1 & Hn & (_ & _ & He) & -> & _ & L). exists e1.
  rewrite !mlen_app in He. change (mlen (be16 (q_type q))) with 2 in He. change (mlen (be16 (q_class q))) with 2 in He.
  split; [eapply NameAtO_NameAt; eauto|]. repeat split; auto; lia.
Qed.

Lemma RAt_RecordAt m p r e : RAt m p r e -> RecordAt m p (r_type r) e.
Proof.
  intros (e1 & Hn & (Hb & _ & He) & Hi & L1 & L2 & (_ & Ht & Hc & _ & _) & L).
  rewrite !mlen_app in He. change (mlen (be16 (r_type r))) with 2 in He. change (mlen (be16 (r_class r))) with 2 in He.
  change (mlen (be32 (r_ttl r))) with 4 in He. change (mlen (be16 (e - (e1 + 10)))) with 2 in He.
  pose proof (ItemsIn_end _ _ _ _ _ Hi ltac:(lia)) as [_ Hm].
  exists e1, (r_class r), (r_ttl r). split; [eapply NameAtO_NameAt; eauto|]. repeat split; auto.
Qed.

Lemma QsAt_QuestionsAt m p qs e : QsAt m p qs e -> QuestionsAt m p (length qs) e.
Proof. induction 1 as [|p q e1 qs e Hq _ IH]; [constructor|]. cbn [length]. econstructor; [eapply QAt_QuestionAt; eauto|exact IH]. Qed.

Lemma RsAt_RecordsAt m p rs e : RsAt m p rs e -> RecordsAt m p (map r_type rs) e.
Proof. induction 1 as [|p r e1 rs e Hr _ IH]; [constructor|]. cbn [map]. econstructor; [eapply RAt_RecordAt; eauto|exact IH]. Qed.

Lemma hdr_count_at m i v : bytes_at m (N.of_nat i) (be16 v) -> v < 65536 -> C11.Model.hdr_count m i = v.
Proof.
  intros Hb Hv. unfold be16 in Hb. apply bytes_at_cons in Hb as [H0 Hb]. apply bytes_at_cons in Hb as [H1 _].
  unfold get in H0, H1. rewrite Nat2N.id in H0. replace (N.to_nat (N.of_nat i + 1)) with (S i) in H1 by lia.
  unfold C11.Model.hdr_count, C11.Model.byte_at.
  rewrite (nth_error_nth _ _ 0 H0), (nth_error_nth _ _ 0 H1). apply be16_roundtrip. exact Hv.
Qed.

(* every message the builder model can reach is laid out; its record types are
   those of the accepted pushes *)
Theorem built_message_laid_out c ops s0 s a ws :
  init c = Some s0 -> Forall wf_op ops ->
  run_acc c s0 acc0 ops = (s, a, ws) -> all_alive ws ->
  Forall (fun b => b < 256) (b_hdr s) ->
  Forall (fun r => r_type r <> C11.Model.RTYPE_TSIG) (a_ar a) ->
  Forall (fun r => r_type r <> C11.Model.RTYPE_TSIG) (a_an a) ->
  Forall (fun r => r_type r <> C11.Model.RTYPE_TSIG) (a_ns a) ->
  MsgAt (msg_of s) (length (a_q a)) (map r_type (a_an a)) (map r_type (a_ns a)) (map r_type (a_ar a)).
Proof.
  intros HI Hwf HR AL Hh Hno Hnoan Hnons. destruct (init_inv c s0 HI) as (HB0 & HC0).
  destruct (run_acc_layout c ops s0 acc0 [12] s a ws HB0 HC0 (init_layout c s0 HI) Hwf HR AL) as (HB & HC & bs & HL).
  destruct HB as (_ & _ & L & _).
  destruct HC as (c1 & c2 & c3 & c4 & _).
  destruct HL as ((e0 & e1 & e2 & Q0 & R1 & R2 & R3 & _) & _ & _ & _ & (m1 & m2 & m3 & m4)).
  fold (buf_of s) in L.
  destruct (msg_of_split s L) as (h & Lh & E & Hb).
  assert (Lm : mlen (msg_of s) = mlen (buf_of s)) by (apply msg_of_mlen; exact L).
  pose proof (QsAt_end _ _ _ _ Q0) as [q1 q2]. pose proof (RsAt_end _ _ _ _ R1) as [r1 r1'].
  pose proof (RsAt_end _ _ _ _ R2) as [r2 r2']. pose proof (RsAt_end _ _ _ _ R3) as [r3 r3'].
  assert (Q0' : QsAt (msg_of s) 12 (a_q a) e0) by (eapply QsAt_agree; [apply agree_msg_of; exact L|lia|exact Q0]).
  assert (R1' : RsAt (msg_of s) e0 (a_an a) e1) by (eapply RsAt_agree; [apply agree_msg_of; exact L|lia|exact R1]).
  assert (R2' : RsAt (msg_of s) e1 (a_ns a) e2) by (eapply RsAt_agree; [apply agree_msg_of; exact L|lia|exact R2]).
  assert (R3' : RsAt (msg_of s) e2 (a_ar a) (mlen (msg_of s))) by (rewrite Lm; eapply RsAt_agree; [apply agree_msg_of; exact L|lia|exact R3]).
  apply bytes_at_split in Hb as [H1 Hb]. change (mlen (be16 (b_qd s))) with 2 in Hb.
  apply bytes_at_split in Hb as [H2 Hb]. change (mlen (be16 (b_an s))) with 2 in Hb.
  apply bytes_at_split in Hb as [H3 H4]. change (mlen (be16 (b_ns s))) with 2 in H4.
  unfold MsgAt. split; [lia|]. split.
  { (* the twelve header octets: four of the builder's header, eight of the counts *)
    unfold hdr_wf, msg_of.
    set (hd := firstn 4 (b_hdr s ++ [0; 0; 0; 0])).
    assert (L4 : length hd = 4%nat) by (subst hd; rewrite firstn_length, app_length; cbn [length]; lia).
    assert (Hall : Forall (fun b => b < 256) (hd ++ be16 (b_qd s) ++ be16 (b_an s) ++ be16 (b_ns s) ++ be16 (b_ar s))).
    { repeat (apply Forall_app; split); try (apply be16_wf; lia).
      apply Forall_firstn, Forall_app. split; [exact Hh | repeat constructor; lia]. }
    destruct hd as [|x0 [|x1 [|x2 [|x3 [|]]]]]; try discriminate L4. exact Hall. }
  split; [unfold C11.Model.qdcount; rewrite <- c1; apply (hdr_count_at _ 4); [exact H1|lia]|].
  split; [unfold C11.Model.ancount; rewrite map_length, <- c2; apply (hdr_count_at _ 6); [exact H2|lia]|].
  split; [unfold C11.Model.nscount; rewrite map_length, <- c3; apply (hdr_count_at _ 8); [exact H3|lia]|].
  split; [unfold C11.Model.arcount; rewrite map_length, <- c4; apply (hdr_count_at _ 10); [exact H4|lia]|].
  split; [apply Forall_map; exact Hno|]. split; [apply Forall_map; exact Hnoan|]. split; [apply Forall_map; exact Hnons|].
  exists e0, e1, e2. split; [apply QsAt_QuestionsAt; exact Q0'|].
  split; [apply RsAt_RecordsAt; exact R1'|]. split; [apply RsAt_RecordsAt; exact R2'|]. apply RsAt_RecordsAt; exact R3'.
Qed.

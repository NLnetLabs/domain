(* C09 proofs: API-call traces -- snapshot isolation, atomic commit,
   invisible abort, serialised writers, exact walk. *)
From Coq Require Import NArith List Bool Lia.
From DV Require Import C17.Gen C17.Model C17.Proofs C09.Gen C09.Model C09.Proofs C09.ProofsZone.
Import ListNotations.
Local Open Scope N_scope.

Lemma ver_next_small a : a + 1 < 4294967296 -> ver_next a = a + 1.
Proof.
  intros H. unfold ver_next, version_next. cbv [version_next_addend].
  rewrite add_total by lia. unfold M32. change ((a + 1) mod 4294967296 = a + 1). apply N.mod_small. exact H.
Qed.

Definition n_upto (c : N) : znode -> Prop := n_all (fun T d => le_all c d).
Definition z_le (c : N) (s : zstate) : Prop :=
  Forall (fun p => le_all c (snd p)) (z_apex s) /\ Forall (fun p => n_upto c (snd p)) (z_nodes s).

(* z_le and z_q both say that every cell of the zone satisfies something *)
Lemma z_all_impl (P Q : forall T, list (entry T) -> Prop) s :
  (forall T d, P T d -> Q T d) ->
  Forall (fun p => P _ (snd p)) (z_apex s) /\ ns_all P (z_nodes s) ->
  Forall (fun p => Q _ (snd p)) (z_apex s) /\ ns_all Q (z_nodes s).
Proof.
  intros HPQ [Ha Hn]. split; [|now apply (ns_all_impl P)].
  eapply Forall_impl; [|exact Ha]. intros p. apply HPQ.
Qed.

Lemma z_le_q c w s : c < w -> z_le c s -> z_q c w s.
Proof. intros Hc. apply (z_all_impl (fun T d => le_all c d) (fun T d => cq c w d)). intros T d. now apply cq_of_le. Qed.

Lemma z_q_le c s : z_q c (c + 1) s -> z_le (c + 1) s.
Proof. apply (z_all_impl (fun T d => cq c (c + 1) d) (fun T d => le_all (c + 1) d)). intros T d. apply le_of_cq. Qed.

Lemma n_q_rollback_upto c w : forall n, n_q c w n -> n_upto c (n_rollback n w).
Proof.
  induction n as [rs sp ch IH] using znode_ind'. intros H. destruct (n_q_inv _ _ _ _ _ H) as [Hr [Hs Hch]].
  rewrite n_rollback_eq. constructor.
  - unfold rs_rollback, rs_all, al_map. apply Forall_map. exact Hr.
  - exact Hs.
  - unfold al_map. apply Forall_map. unfold ns_q, ns_all in Hch. rewrite Forall_forall in *.
    intros p Hin. cbn [snd]. exact (IH p Hin (Hch p Hin)).
Qed.

Lemma z_q_rollback_le c w s : z_q c w s -> z_le c (z_rollback s w).
Proof.
  intros [Ha Hn]. rewrite z_rollback_eq. split; cbn [z_apex z_nodes].
  - unfold rs_rollback, rs_all, al_map. apply Forall_map. exact Ha.
  - unfold al_map. apply Forall_map. eapply Forall_impl; [|exact Hn]. intros p Hp. cbn [snd]. now apply n_q_rollback_upto.
Qed.

Lemma n_rollback_id c w : c < w -> forall n, n_upto c n -> n_rollback n w = n.
Proof.
  intros Hc. induction n as [rs sp ch IH] using znode_ind'. intros H. inversion H as [? ? ? H1 H2 H3]; subst.
  rewrite n_rollback_eq. f_equal; [now apply (rs_rollback_id c)|now apply (rollback_id c)|].
  apply al_map_id. rewrite Forall_forall in *. intros p Hin. exact (IH p Hin (H3 p Hin)).
Qed.

Lemma z_rollback_id c w s :
  c < w -> z_le c s -> z_apex (z_rollback s w) = z_apex s /\ z_nodes (z_rollback s w) = z_nodes s.
Proof.
  intros Hc [Ha Hn]. rewrite z_rollback_eq. split; cbn [z_apex z_nodes]; [now apply (rs_rollback_id c)|].
  apply al_map_id. intros p Hin. rewrite Forall_forall in Hn. exact (n_rollback_id c w Hc (snd p) (Hn p Hin)).
Qed.

(* state invariant of the reader/writer protocol:
   nothing newer than current is stored, except last entries of version
   current+1 while a writer has opened the zone *)
Definition zinv (s : zstate) : Prop :=
  match z_writer s with
  | None => z_le (z_cur s) s
  | Some wr =>
      w_new wr = z_cur s + 1 /\ (w_open wr = true -> w_dirty wr = true) /\
      (if w_dirty wr then z_q (z_cur s) (z_cur s + 1) s else z_le (z_cur s) s)
  end.

Lemma zinv_idle s : zinv s -> z_writer s = None -> z_le (z_cur s) s.
Proof. unfold zinv. intros H Hw. now rewrite Hw in H. Qed.

(* with a writer, dirty or not, the weaker of the two bounds holds *)
Lemma zinv_writer s wr :
  zinv s -> z_writer s = Some wr ->
  w_new wr = z_cur s + 1 /\ (w_open wr = true -> w_dirty wr = true) /\ z_q (z_cur s) (z_cur s + 1) s.
Proof.
  unfold zinv. intros H Hw. rewrite Hw in H. destruct H as [Hn [Ho Hq]].
  split; [exact Hn|split; [exact Ho|]]. destruct (w_dirty wr); [exact Hq|apply z_le_q; [lia|exact Hq]].
Qed.

(* use of a write handle after the commit or drop that ended its session *)
Definition is_stale (e : event) : bool := match e with EStale _ => true | _ => false end.
Fixpoint no_stale (evs : list event) : bool :=
  match evs with [] => true | e :: tl => negb (is_stale e) && no_stale tl end.
(* either the implementation rejects such use (T1 flag), or the trace has none *)
Definition stale_ok (e : event) : Prop := stale_handle_rejected = true \/ is_stale e = false.
Definition stale_free (evs : list event) : Prop := stale_handle_rejected = true \/ no_stale evs = true.

Lemma stale_free_cons e tl : stale_free (e :: tl) -> stale_ok e /\ stale_free tl.
Proof.
  intros [H|H]; [split; left; exact H|]. cbn [no_stale] in H. apply andb_prop in H. destruct H as [H1 H2].
  split; right; [now apply negb_true_iff in H1|exact H2].
Qed.

Fixpoint ncommits (evs : list event) : N :=
  match evs with
  | [] => 0
  | ECommit :: tl => 1 + ncommits tl
  | ECommitBump :: tl => 1 + ncommits tl
  | _ :: tl => ncommits tl
  end.

Definition view_eq (a b : zstate) (v : N) : Prop :=
  (forall name t, query a v name t = query b v name t) /\ walk a v = walk b v.

Lemma view_eq_refl a v : view_eq a a v.
Proof. split; reflexivity. Qed.
Lemma view_eq_trans a b c v : view_eq a b v -> view_eq b c v -> view_eq a c v.
Proof. intros [H1 H2] [H3 H4]. split; [intros; now rewrite H1|congruence]. Qed.
Lemma view_eq_sym a b v : view_eq a b v -> view_eq b a v.
Proof. intros [H1 H2]. split; [intros; now rewrite H1|congruence]. Qed.
Lemma view_of_sim a b v : z_sim v a b -> view_eq a b v.
Proof. apply z_sim_reads. Qed.
Lemma view_of_same a b v : z_apex a = z_apex b -> z_nodes a = z_nodes b -> view_eq a b v.
Proof. intros E1 E2. now apply view_of_sim, z_sim_same. Qed.

Lemma below_open c r : c + 1 < LIM -> r <= c -> ver_le (c + 1) r = false.
Proof. intros Hc Hr. rewrite ver_le_small by lia. apply N.leb_gt. lia. Qed.

(* a reader at or below the current version c sees neither what the writer of
   c + 1 has stored in a nor what it has stored in b, so it cannot tell a from b
   if what rollback would leave of them reads the same *)
Lemma view_below c a b r :
  c + 1 < LIM -> r <= c -> z_sim r (z_rollback a (c + 1)) (z_rollback b (c + 1)) -> view_eq b a r.
Proof.
  intros Hc Hr H. pose proof (below_open c r Hc Hr) as Hb.
  apply (view_eq_trans _ (z_rollback b (c + 1))); [now apply view_eq_sym, view_of_sim, z_sim_rollback|].
  apply (view_eq_trans _ (z_rollback a (c + 1))); [now apply view_eq_sym, view_of_sim|].
  now apply view_of_sim, z_sim_rollback.
Qed.

(* s' is a later state of the zone that was s: well formed, at most k versions
   further, and the same to every reader of a version s had published *)
Definition later (k : N) (s s' : zstate) : Prop :=
  zinv s' /\ z_cur s <= z_cur s' /\ z_cur s' <= z_cur s + k /\
  (forall r, r <= z_cur s -> view_eq s' s r).

Lemma later_same k s s' :
  zinv s' -> z_cur s' = z_cur s -> z_apex s' = z_apex s -> z_nodes s' = z_nodes s -> later k s s'.
Proof.
  intros Hi Hc Ha Hn. split; [exact Hi|]. rewrite Hc. split; [lia|split; [lia|]].
  intros r _. now apply view_of_same.
Qed.

Lemma later_trans j k a b c : later j a b -> later k b c -> later (j + k) a c.
Proof.
  intros [_ [H1 [H2 H3]]] [Hi [H4 [H5 H6]]]. split; [exact Hi|split; [lia|split; [lia|]]].
  intros r Hr. apply (view_eq_trans _ b); [apply H6; lia|now apply H3].
Qed.

Lemma data_op_fields s w e : z_cur (data_op s w e) = z_cur s /\ z_writer (data_op s w e) = z_writer s.
Proof. destruct e; cbn [data_op]; try (split; reflexivity); unfold at_node; destruct name; split; reflexivity. Qed.

Lemma data_step s wr e :
  zinv s -> z_writer s = Some wr -> w_open wr = true -> is_data e = true ->
  step s e = data_op s (z_cur s + 1) e /\
  zinv (step s e) /\ z_writer (step s e) = Some wr /\ z_cur (step s e) = z_cur s /\
  forall v, z_sim v (z_rollback s (z_cur s + 1)) (z_rollback (step s e) (z_cur s + 1)).
Proof.
  intros Hinv Hw Hop He. destruct (zinv_writer s wr Hinv Hw) as [Hnew [Hod Hq]].
  assert (Hst : step s e = data_op s (z_cur s + 1) e).
  { destruct e; cbn [is_data] in He; try discriminate; cbn [step is_data]; now rewrite Hw, Hop, Hnew. }
  rewrite Hst. destruct (data_op_base (z_cur s) (z_cur s + 1) s e ltac:(lia) Hq) as [Hq' Hsim].
  destruct (data_op_fields s (z_cur s + 1) e) as [Hc' Hw'].
  split; [reflexivity|split; [|split; [congruence|split; [exact Hc'|exact Hsim]]]].
  unfold zinv. rewrite Hw', Hw, Hc', (Hod Hop). auto.
Qed.

Lemma later_data s e : zinv s -> z_cur s + 1 < LIM -> is_data e = true -> later 0 s (step s e).
Proof.
  intros Hinv Hlim He.
  assert (Hst : step s e = match z_writer s with
                           | Some w => if w_open w then data_op s (w_new w) e else s
                           | None => s end).
  { destruct e; cbn [is_data] in He; try discriminate; reflexivity. }
  destruct (z_writer s) as [wr|] eqn:Hw; [destruct (w_open wr) eqn:Hop|];
    try (rewrite Hst; now apply later_same).
  destruct (data_step s wr e Hinv Hw Hop He) as [_ [Hi [_ [Hc Hsim]]]].
  split; [exact Hi|]. rewrite Hc. split; [lia|split; [lia|]].
  intros r Hr. now apply (view_below (z_cur s)).
Qed.

Lemma publish_eq s wr :
  w_new wr = z_cur s + 1 -> z_cur s + 2 < 4294967296 ->
  publish s wr = mkz (z_cur s + 1) (z_apex s) (z_nodes s) (Some (mkw (z_cur s + 2) false false))
                     (if w_open wr then Some (z_cur s + 1) else z_handle s).
Proof.
  intros Hnew Hlim. unfold publish. cbv [publish_sets_current_to_new publish_advances_new_version publish_clears_dirty].
  rewrite Hnew. rewrite ver_next_small by lia. f_equal. do 2 f_equal. lia.
Qed.

(* publishing s0, the state the writer's session made of s *)
Lemma later_publish s s0 wr :
  z_cur s0 = z_cur s -> w_new wr = z_cur s + 1 -> z_cur s + 2 < 4294967296 ->
  z_q (z_cur s) (z_cur s + 1) s0 -> (forall r, r <= z_cur s -> view_eq s0 s r) ->
  later 1 s (publish s0 wr).
Proof.
  intros Hc Hnew Hlim Hq Hv. rewrite <- Hc in Hnew, Hlim, Hq. rewrite (publish_eq s0 wr Hnew Hlim), Hc.
  split; [|cbn [z_cur]; split; [lia|split; [lia|]]].
  - unfold zinv. cbn [z_writer z_cur w_new w_dirty w_open].
    split; [lia|split; [discriminate|]]. rewrite <- Hc. exact (z_q_le _ _ Hq).
  - intros r Hr. apply (view_eq_trans _ s0); [now apply view_of_same|now apply Hv].
Qed.

(* commit(true) stores at most one more last entry of version w at the apex *)
Lemma bump_base c s wr :
  c < w_new wr -> z_q c (w_new wr) s ->
  z_cur (bump_soa s wr) = z_cur s /\ z_based c (w_new wr) s (bump_soa s wr).
Proof.
  intros Hc [Ha Hn]. unfold bump_soa.
  assert (Hsame : z_cur s = z_cur s /\ z_based c (w_new wr) s s)
    by (split; [reflexivity|split; [split; assumption|intros; now apply z_sim_same]]).
  destruct (get_soa s (z_cur s)) as [old|]; [|exact Hsame].
  destruct (match get_soa s (w_new wr) with None => true | Some new => soa_eqb new old end); [|exact Hsame].
  destruct (rs_at_base c (w_new wr) 6 (fun d => v_update d (w_new wr) (fst old, [ver_next (snd old)])) (z_apex s) Hc
              (wl_update _ _) Ha) as [H1 H2].
  split; [reflexivity|split; [split; assumption|]]. intros v. split; [apply H2|apply ns_sim_refl].
Qed.

Lemma drop_eq s wr :
  z_writer s = Some wr ->
  step s EDrop =
  let b := if w_dirty wr then z_rollback s (w_new wr) else s in
  mkz (z_cur s) (z_apex b) (z_nodes b) None (if w_open wr then Some (w_new wr) else z_handle s).
Proof. intros Hw. cbn [step]. rewrite Hw. cbv [drop_rolls_back_when_dirty]. destruct (w_dirty wr); reflexivity. Qed.

Lemma step_inv s e :
  zinv s -> z_cur s + 2 < LIM -> stale_ok e ->
  zinv (step s e) /\
  z_cur s <= z_cur (step s e) /\
  z_cur (step s e) <= z_cur s + (match e with ECommit | ECommitBump => 1 | _ => 0 end) /\
  (forall r, r <= z_cur s -> view_eq (step s e) s r).
Proof.
  unfold LIM. intros Hinv Hlim Hstale.
  change (later (match e with ECommit | ECommitBump => 1 | _ => 0 end) s (step s e)).
  assert (Hsame : forall k, later k s s) by (intros; now apply later_same).
  destruct e; try (apply later_data; [exact Hinv|unfold LIM; lia|reflexivity]); try apply Hsame.
  - cbn [step]. cbv [writer_takes_mutex]. destruct (z_writer s) eqn:Hw; [apply Hsame|]. apply later_same; try reflexivity.
    unfold zinv. cbn [set_writer z_writer z_cur w_new w_dirty w_open]. cbv [writer_version_is_next].
    rewrite ver_next_small by lia. split; [reflexivity|split; [discriminate|exact (zinv_idle s Hinv Hw)]].
  - cbn [step]. destruct (z_writer s) as [wr|] eqn:Hw; [|apply Hsame]. destruct (zinv_writer s wr Hinv Hw) as [Hnew [_ Hq]].
    apply later_same; try reflexivity.
    unfold zinv. cbn [set_writer z_writer z_cur w_new w_dirty w_open]. cbv [open_sets_dirty].
    split; [exact Hnew|split; [reflexivity|exact Hq]].
  - cbn [step]. destruct (z_writer s) as [wr|] eqn:Hw; [|apply Hsame]. destruct (zinv_writer s wr Hinv Hw) as [Hnew [_ Hq]].
    apply (later_publish s s wr); auto; [lia|intros; apply view_eq_refl].
  - cbn [step]. destruct (z_writer s) as [wr|] eqn:Hw; [|apply Hsame]. destruct (zinv_writer s wr Hinv Hw) as [Hnew [_ Hq]].
    cbv [commit_bumps_soa]. rewrite <- Hnew in Hq.
    destruct (bump_base (z_cur s) s wr ltac:(lia) Hq) as [Hc0 [Hq' Hsim]]. rewrite Hnew in Hq', Hsim.
    apply (later_publish s (bump_soa s wr) wr); auto; [lia|].
    intros r Hr. apply (view_below (z_cur s)); [unfold LIM; lia|exact Hr|apply Hsim].
  - destruct (z_writer s) as [wr|] eqn:Hw; [|cbn [step]; rewrite Hw; apply Hsame]. rewrite (drop_eq s wr Hw).
    unfold zinv in Hinv. rewrite Hw in Hinv. destruct Hinv as [Hnew [_ Hq]]. rewrite Hnew.
    destruct (w_dirty wr); cbn zeta; [|now apply later_same].
    split; [exact (z_q_rollback_le _ _ _ Hq)|cbn [z_cur]; split; [lia|split; [lia|]]].
    intros r Hr. apply (view_eq_trans _ (z_rollback s (z_cur s + 1))); [now apply view_of_same|].
    apply view_of_sim, z_sim_rollback, below_open; [unfold LIM; lia|exact Hr].
  - destruct Hstale as [Hrej|Hns]; [|discriminate]. cbn [step]. rewrite Hrej. apply Hsame.
Qed.

Lemma run_later evs : forall s,
  zinv s -> z_cur s + ncommits evs + 2 < LIM -> stale_free evs -> later (ncommits evs) s (run s evs).
Proof.
  induction evs as [|e tl IH]; intros s Hinv Hlim Hsf; [now apply later_same|].
  destruct (stale_free_cons _ _ Hsf) as [Hse Hsf'].
  assert (Hk : ncommits (e :: tl) = (match e with ECommit | ECommitBump => 1 | _ => 0 end) + ncommits tl)
    by (destruct e; reflexivity).
  rewrite Hk in *.
  pose proof (step_inv s e Hinv ltac:(lia) Hse) as H1.
  apply (later_trans _ _ s (step s e)); [exact H1|]. destruct H1 as [Hinv' [_ [Hhi _]]].
  apply (IH (step s e)); [exact Hinv'|lia|exact Hsf'].
Qed.

(* snapshot isolation: over every trace of API calls, a reader pinned at a
   version r <= current keeps reading exactly the same answers and the same walk *)
Theorem snapshot_isolation : forall evs s r,
  zinv s -> r <= z_cur s -> z_cur s + ncommits evs + 2 < LIM -> stale_free evs ->
  (forall name t, query (run s evs) r name t = query s r name t) /\ walk (run s evs) r = walk s r.
Proof. intros evs s r Hinv Hr Hlim Hsf. exact (proj2 (proj2 (proj2 (run_later evs s Hinv Hlim Hsf))) r Hr). Qed.

Lemma run_app s a b : run s (a ++ b) = run (run s a) b.
Proof. unfold run. apply fold_left_app. Qed.

Definition all_data (ops : list event) : Prop := Forall (fun e => is_data e = true) ops.

(* an open writer session stays open and dirty over data operations *)
Lemma session_run ops : forall s wr,
  all_data ops -> zinv s -> z_writer s = Some wr -> w_open wr = true ->
  let s' := run s ops in
  zinv s' /\ z_writer s' = Some wr /\ z_cur s' = z_cur s /\
  forall v, z_sim v (z_rollback s (z_cur s + 1)) (z_rollback s' (z_cur s + 1)).
Proof.
  induction ops as [|e tl IH]; intros s wr Hd Hinv Hw Hop.
  - cbn. split; [exact Hinv|split; [exact Hw|split; [reflexivity|intros; now apply z_sim_same]]].
  - inversion Hd as [|? ? He Htl]; subst.
    destruct (data_step s wr e Hinv Hw Hop He) as [_ [Hi1 [Hw1 [Hc1 Hs1]]]].
    destruct (IH (step s e) wr Htl Hi1 Hw1 Hop) as [Hi2 [Hw2 [Hc2 Hs2]]]. rewrite Hc1 in *.
    split; [exact Hi2|split; [exact Hw2|split; [exact Hc2|]]].
    intros v. exact (z_sim_trans v _ _ _ (Hs1 v) (Hs2 v)).
Qed.

(* write().await, open, then data operations, on a zone nobody is writing *)
Lemma session s ops :
  zinv s -> z_writer s = None -> z_cur s + 1 < LIM -> all_data ops ->
  let s2 := run s ([EWAcquire; EWOpen] ++ ops) in
  zinv s2 /\ z_writer s2 = Some (mkw (z_cur s + 1) true true) /\ z_cur s2 = z_cur s /\
  forall v, z_sim v s (z_rollback s2 (z_cur s + 1)).
Proof.
  unfold LIM. intros Hinv Hw Hlim Hd. pose proof (zinv_idle s Hinv Hw) as Hle.
  pose (s1 := set_writer s (Some (mkw (z_cur s + 1) true true))).
  assert (E1 : run s [EWAcquire; EWOpen] = s1).
  { cbn [run fold_left step]. rewrite Hw. cbv [writer_version_is_next open_sets_dirty].
    cbn [set_writer z_writer z_cur z_apex z_nodes z_handle w_new]. now rewrite ver_next_small by lia. }
  assert (Hinv1 : zinv s1).
  { unfold zinv, s1. cbn [set_writer z_writer z_cur w_new w_dirty w_open].
    split; [reflexivity|split; [reflexivity|]]. apply (z_le_q (z_cur s) (z_cur s + 1) s); [lia|exact Hle]. }
  cbn zeta. rewrite run_app, E1.
  destruct (session_run ops s1 _ Hd Hinv1 eq_refl eq_refl) as [Hi [Hw2 [Hc2 Hsim]]].
  split; [exact Hi|split; [exact Hw2|split; [exact Hc2|]]]. intros v.
  apply (z_sim_trans v _ (z_rollback s1 (z_cur s + 1))); [|apply Hsim].
  destruct (z_rollback_id (z_cur s) (z_cur s + 1) s1 ltac:(lia) Hle) as [Ea En].
  apply z_sim_same; symmetry; assumption.
Qed.

(* abort is invisible: a writer session that is dropped uncommitted leaves every
   answer and the walk of EVERY version (old, current and future) unchanged,
   including the sessions that call update_child for names that have no node *)
Theorem abort_invisible : forall s ops,
  zinv s -> z_writer s = None -> z_cur s + 1 < LIM -> all_data ops ->
  let s' := run s ([EWAcquire; EWOpen] ++ ops ++ [EDrop]) in
  z_cur s' = z_cur s /\ z_writer s' = None /\
  forall v, (forall name t, query s' v name t = query s v name t) /\ walk s' v = walk s v.
Proof.
  intros s ops Hinv Hw Hlim Hd. destruct (session s ops Hinv Hw Hlim Hd) as [_ [Hw2 [Hc2 Hsim]]].
  cbn zeta. rewrite app_assoc, run_app. set (s2 := run s ([EWAcquire; EWOpen] ++ ops)) in *.
  cbn [run fold_left]. rewrite (drop_eq s2 _ Hw2). cbn [w_dirty w_new].
  split; [exact Hc2|split; [reflexivity|]]. intros v.
  apply (view_eq_trans _ (z_rollback s2 (z_cur s + 1))); [now apply view_of_same|].
  apply view_eq_sym, view_of_sim, Hsim.
Qed.

(* commit is atomic: up to the commit call the current version and everything a
   reader of it (old or new) can see are those of before the session -- none of the
   operations; the commit call itself changes no stored data and makes the writer's
   version current -- all of them at once. *)
Theorem commit_atomic : forall s ops,
  zinv s -> z_writer s = None -> z_cur s + 2 < LIM -> all_data ops ->
  let sN := run s ([EWAcquire; EWOpen] ++ ops) in
  let sC := step sN ECommit in
  (z_cur sN = z_cur s /\
   (forall name t, query sN (z_cur s) name t = query s (z_cur s) name t) /\ walk sN (z_cur s) = walk s (z_cur s)) /\
  (z_cur sC = z_cur s + 1 /\
   forall v, (forall name t, query sC v name t = query sN v name t) /\ walk sC v = walk sN v).
Proof.
  intros s ops Hinv Hw Hlim Hd. destruct (session s ops Hinv Hw ltac:(lia) Hd) as [_ [Hw2 [Hc2 Hsim]]].
  cbn zeta. set (s2 := run s ([EWAcquire; EWOpen] ++ ops)) in *. split.
  - split; [exact Hc2|]. apply (view_eq_trans _ (z_rollback s2 (z_cur s + 1))).
    + apply view_eq_sym, view_of_sim, z_sim_rollback, below_open; lia.
    + apply view_eq_sym, view_of_sim, Hsim.
  - cbn [step]. rewrite Hw2. cbv [publish publish_sets_current_to_new]. cbn [w_new z_cur].
    split; [reflexivity|]. intros v. now apply view_of_same.
Qed.

(* writers are serialised: while a writer exists a second write().await does not
   complete, and the version a writer writes is always current+1 *)
Theorem writers_serialised : forall s wr,
  zinv s -> z_writer s = Some wr ->
  step s EWAcquire = s /\ w_new wr = z_cur s + 1 /\
  (forall rd tl, exists rest, trace s rd (EWAcquire :: tl) = OPending :: rest).
Proof.
  intros s wr Hinv Hw. destruct (zinv_writer s wr Hinv Hw) as [Hnew _].
  repeat split; [cbn [step]; now rewrite Hw|exact Hnew|].
  intros rd tl. cbn [trace]. rewrite Hw. cbv [writer_takes_mutex]. eauto.
Qed.

(* walk enumerates exactly the records of the reader's version: the RRsets that
   have a value at that version, the CNAME of a CNAME node, NS / DS / glue of a
   zone cut -- and nothing below a zone cut *)
Inductive n_has (v : N) : list N -> znode -> (list N * N * rrv) -> Prop :=
| has_rr path rs sp ch t d rr :
    In (t, d) rs -> v_get d v = Some rr -> n_has v path (mknode rs sp ch) (path, t, rr)
| has_cut_ns path rs sp ch ns ds glue :
    sp_get sp v = Some (SCut ns ds glue) -> n_has v path (mknode rs sp ch) (path, 2, ns)
| has_cut_ds path rs sp ch ns d glue :
    sp_get sp v = Some (SCut ns (Some d) glue) -> n_has v path (mknode rs sp ch) (path, 43, d)
| has_cut_glue path rs sp ch ns ds g :
    sp_get sp v = Some (SCut ns ds (Some g)) -> n_has v path (mknode rs sp ch) (path, 1, g)
| has_cname path rs sp ch id :
    sp_get sp v = Some (SCname id) -> n_has v path (mknode rs sp ch) (path, 5, id)
| has_child path rs sp ch k c x :
    (forall ns ds glue, sp_get sp v <> Some (SCut ns ds glue)) ->
    In (k, c) ch -> n_has v (path ++ [k]) c x -> n_has v path (mknode rs sp ch) x.

Lemma in_opt_item {A} (nm : A) t o x : In x (opt_item nm t o) <-> exists id, o = Some id /\ x = (nm, t, id).
Proof.
  destruct o as [id|]; cbn [opt_item In]; split.
  - intros [H|[]]. exists id. split; [reflexivity|now symmetry].
  - intros [id' [E ->]]. inversion E; subst. now left.
  - intros [].
  - intros [id' [E _]]. discriminate.
Qed.

Lemma walk_node_has v x : forall n path, In x (walk_node path n v) <-> n_has v path n x.
Proof.
  induction n as [rs sp ch IH] using znode_ind'. intros path. rewrite walk_node_eq, in_app_iff, in_walk_rrsets.
  assert (Hkids : In x (flat_map (fun p => walk_node (path ++ [fst p]) (snd p) v) ch) <->
                  exists k c, In (k, c) ch /\ n_has v (path ++ [k]) c x).
  { rewrite in_flat_map. rewrite Forall_forall in IH. split.
    - intros [[k c] [Hin Hx]]. exists k, c. split; [exact Hin|]. exact (proj1 (IH (k, c) Hin _) Hx).
    - intros [k [c [Hin Hx]]]. exists (k, c). split; [exact Hin|]. exact (proj2 (IH (k, c) Hin _) Hx). }
  split.
  - intros [[t [d [rr [-> [Hin Hg]]]]]|Hx]; [now apply (has_rr v path rs sp ch t d rr)|].
    assert (Hchild : In x (flat_map (fun p => walk_node (path ++ [fst p]) (snd p) v) ch) ->
                     (forall ns ds glue, sp_get sp v <> Some (SCut ns ds glue)) -> n_has v path (mknode rs sp ch) x).
    { intros Hk Hnc. apply Hkids in Hk. destruct Hk as [k [c [Hin Hk]]]. now apply (has_child v path rs sp ch k c). }
    destruct (sp_get sp v) as [[ns ds glue|id|]|] eqn:E; try (apply Hchild; [exact Hx|discriminate]).
    + rewrite !in_app_iff, !in_opt_item in Hx. destruct Hx as [[Hx|[]]|[[d [-> ->]]|[g [-> ->]]]].
      * subst x. now apply (has_cut_ns v path rs sp ch ns ds glue).
      * now apply (has_cut_ds v path rs sp ch ns d glue).
      * now apply (has_cut_glue v path rs sp ch ns ds g).
    + rewrite in_app_iff in Hx. destruct Hx as [[Hx|[]]|Hx]; [subst x; now apply has_cname|].
      apply Hchild; [exact Hx|discriminate].
  - intros H. inversion H as [? ? ? ? t d rr Hin Hg|? ? ? ? ns ds glue E|? ? ? ? ns d glue E|? ? ? ? ns ds g E|? ? ? ? id E|? ? ? ? k c ? Hnc Hin Hx]; subst.
    + left. exists t, d, rr. repeat split; assumption.
    + right. rewrite E. cbn [app In]. now left.
    + right. rewrite E. rewrite !in_app_iff, !in_opt_item. right. left. exists d. split; reflexivity.
    + right. rewrite E. rewrite !in_app_iff, !in_opt_item. right. right. exists g. split; reflexivity.
    + right. rewrite E. cbn [app In]. now left.
    + right. assert (Hk : In x (flat_map (fun p => walk_node (path ++ [fst p]) (snd p) v) ch)) by (apply Hkids; eauto).
      destruct (sp_get sp v) as [[ns ds glue|id|]|] eqn:E; [exfalso; exact (Hnc ns ds glue eq_refl)| | |]; try exact Hk.
      rewrite in_app_iff. now right.
Qed.

Theorem walk_exact : forall s v x,
  In x (walk s v) <->
  (exists t d rr, x = ([], t, rr) /\ In (t, d) (z_apex s) /\ v_get d v = Some rr) \/
  (exists k n, In (k, n) (z_nodes s) /\ n_has v [k] n x).
Proof.
  intros s v x. unfold walk. rewrite in_app_iff, in_walk_rrsets, in_flat_map. split.
  - intros [H|[[k n] [Hin Hx]]]; [now left|]. right. exists k, n. split; [exact Hin|]. now apply walk_node_has.
  - intros [H|[k [n [Hin Hx]]]]; [now left|]. right. exists (k, n). split; [exact Hin|]. now apply walk_node_has.
Qed.

Lemma rs_update_le c rs t rr :
  Forall (fun p => le_all c (snd p)) rs -> Forall (fun p => le_all c (snd p)) (rs_update rs t rr c).
Proof.
  intros H. unfold rs_update, rs_remove_rtype, rs_at.
  destruct (rrv_is_empty rr && update_empty_rrset_is_remove);
    (apply Forall_al_upd; [|constructor|exact H]); intros d Hd;
    [apply Forall_v_remove|apply Forall_v_update]; auto; cbn; lia.
Qed.

Lemma path_do_upto c fresh f :
  n_upto c fresh -> (forall n, n_upto c n -> n_upto c (f n)) ->
  forall p ns, Forall (fun q => n_upto c (snd q)) ns -> Forall (fun q => n_upto c (snd q)) (path_do ns p fresh f).
Proof.
  intros Hfresh Hf. induction p as [|l rest IH]; intros ns H; cbn [path_do]; [exact H|].
  apply (Forall_al_upd (n_upto c)); [|exact Hfresh|exact H].
  intros n Hn. destruct rest as [|l' rest']; [now apply Hf|].
  destruct n as [rs sp ch]. inversion Hn as [? ? ? H1 H2 H3]; subst. unfold set_children. cbn [n_rrsets n_special n_children].
  constructor; [exact H1|exact H2|]. now apply IH.
Qed.

Lemma build_zinv is : zinv (build is) /\ z_cur (build is) = 0 /\ z_writer (build is) = None.
Proof.
  unfold build.
  assert (H : forall s, (z_le 0 s /\ z_cur s = 0 /\ z_writer s = None) ->
              (z_le 0 (fold_left build_one is s) /\ z_cur (fold_left build_one is s) = 0 /\ z_writer (fold_left build_one is s) = None)).
  { induction is as [|i tl IH]; intros s Hs; [exact Hs|]. cbn [fold_left]. apply IH.
    destruct Hs as [[Ha Hn] [Hc Hw]].
    assert (Hnodes : forall name f, (forall n, n_upto 0 n -> n_upto 0 (f n)) ->
              z_le 0 (set_nodes s (path_do (z_nodes s) name empty_node f))).
    { intros name f Hf. split; [exact Ha|]. apply path_do_upto; [repeat constructor|exact Hf|exact Hn]. }
    assert (Hsp : forall sp n, n_upto 0 n -> n_upto 0 (n_update_special n 0 sp)).
    { intros sp [rs sp0 ch] Hn0. inversion Hn0 as [? ? ? H1 H2 H3]; subst.
      constructor; [exact H1|apply Forall_v_update; [cbn; lia|exact H2]|exact H3]. }
    destruct i as [name t rr|name id|name ns ds glue]; cbn [build_one]; destruct name as [|l rest];
      try (split; [split; assumption|split; assumption]); (split; [|split; assumption]).
    - split; [now apply rs_update_le|exact Hn].
    - apply Hnodes. intros [rs sp ch] Hn0. inversion Hn0 as [? ? ? H1 H2 H3]; subst.
      constructor; [now apply rs_update_le|exact H2|exact H3].
    - apply Hnodes, Hsp.
    - apply Hnodes, Hsp. }
  destruct (H (mkz 0 [] [] None None)) as [H1 [H2 H3]]; [repeat split; constructor|].
  split; [|split; assumption]. unfold zinv. rewrite H3, H2. exact H1.
Qed.

(* the invariant holds in every state reachable from a built zone by API calls *)
Theorem reachable_invariant : forall is evs,
  ncommits evs + 2 < LIM -> stale_free evs -> zinv (run (build is) evs).
Proof.
  intros is evs Hlim Hsf. destruct (build_zinv is) as [H1 [H2 H3]].
  apply (run_later evs (build is)); [exact H1| |exact Hsf]. rewrite H2. lia.
Qed.

(* the RRsets of the examples: one record, TTL 3600 *)
Definition r1 (x : N) : rrv := (3600, [x]).

Definition wit_zone : zstate := build [IRrset [] 6 (r1 1); IRrset [2] 1 (r1 11)].

Lemma wit_zinv : zinv wit_zone /\ z_writer wit_zone = None /\ z_cur wit_zone = 0.
Proof.
  repeat split; cbn; repeat constructor; cbn; lia.
Qed.

(* the history of DESIGN section 7 #13 (node existence used not to be versioned):
   update_child for a new name, seen by a held reader, then aborted / committed *)
Example ex_update_child_invisible :
  let s1 := run wit_zone [EWAcquire; EWOpen; EUpdate [3] 1 (r1 12)] in
  query wit_zone 0 [3] 1 = ANx (Some (3600, 1)) /\
  query s1 0 [3] 1 = ANx (Some (3600, 1)) /\
  query (run s1 [EDrop]) 0 [3] 1 = ANx (Some (3600, 1)) /\
  query (run s1 [ECommit]) 0 [3] 1 = ANx (Some (3600, 1)) /\
  query (run s1 [ECommit]) 1 [3] 1 = AData (r1 12) /\
  node_exists (z_nodes (run s1 [EDrop])) 3 = true.
Proof. repeat split; reflexivity. Qed.

Example ex_session :
  query (run wit_zone ([EWAcquire; EWOpen] ++ [EUpdate [2] 1 (r1 13)])) 0 [2] 1 = AData (r1 11) /\
  query (run wit_zone ([EWAcquire; EWOpen] ++ [EUpdate [2] 1 (r1 13)] ++ [ECommit])) 1 [2] 1 = AData (r1 13) /\
  query (run wit_zone ([EWAcquire; EWOpen] ++ [EUpdate [2] 1 (r1 13)] ++ [ECommit])) 0 [2] 1 = AData (r1 11) /\
  query (run wit_zone ([EWAcquire; EWOpen] ++ [EUpdate [2] 1 (r1 13)] ++ [EDrop])) 1 [2] 1 = AData (r1 11) /\
  walk (run wit_zone ([EWAcquire; EWOpen] ++ [EUpdate [2] 1 (r1 13)] ++ [ECommit])) 1 = [([], 6, r1 1); ([2], 1, r1 13)].
Proof. repeat split; reflexivity. Qed.
Example ex_second_writer :
  trace wit_zone [] [EWAcquire; EWAcquire; EDrop; EWAcquire] = [OGranted; OPending; OGranted].
Proof. reflexivity. Qed.

(* below the first level: a three-label name makes two empty non-terminals; a
   wildcard beside them stops matching for new readers only; remove_all at the
   inner node reaches the grandchild; a zone cut refers and ends the walk *)
Example ex_tree :
  let z := build [IRrset [] 6 (r1 1); IRrset [2; 1] 1 (r1 81); ICut [4] (r1 91) (Some (r1 92)) None; IRrset [4; 5] 1 (r1 94)] in
  let s1 := run z [EWAcquire; EWOpen; EUpdate [2; 3; 4] 1 (r1 82)] in
  query z 0 [2; 3] 1 = AData (r1 81) /\
  query s1 0 [2; 3] 1 = AData (r1 81) /\
  query (run s1 [ECommit]) 0 [2; 3] 1 = AData (r1 81) /\
  query (run s1 [ECommit]) 1 [2; 3] 1 = ANoData (Some (3600, 1)) /\
  query (run s1 [ECommit]) 1 [2; 3; 4] 1 = AData (r1 82) /\
  query (run s1 [EDrop]) 0 [2; 3; 4] 1 = AData (r1 81) /\
  query (run s1 [ECommit; EWOpen; ERemoveAllAt [2]; ECommit]) 2 [2; 3; 4] 1 = ANx (Some (3600, 1)) /\
  query (run s1 [ECommit; EWOpen; ERemoveAllAt [2]; ECommit]) 1 [2; 3; 4] 1 = AData (r1 82) /\
  query z 0 [4; 5] 1 = ARefer (r1 91) (Some (r1 92)) None /\ query z 0 [4] 43 = AData (r1 92) /\
  walk z 0 = [([], 6, r1 1); ([2; 1], 1, r1 81); ([4], 2, r1 91); ([4], 43, r1 92)] /\
  query z 0 [2; 1] 255 = AAny.
Proof. repeat split; reflexivity. Qed.

(* commit(true): the SOA serial is bumped unless the writer stored a new SOA; old readers keep theirs *)
Example ex_commit_bump :
  let s1 := run wit_zone [EWAcquire; EWOpen; EUpdate [2] 1 (r1 13)] in
  query (run s1 [ECommitBump]) 1 [] 6 = AData (r1 2) /\
  query (run s1 [ECommitBump]) 0 [] 6 = AData (r1 1) /\
  query (run s1 [ECommitBump]) 1 [3] 1 = ANx (Some (3600, 2)) /\
  query (run s1 [EUpdate [] 6 (r1 7); ECommitBump]) 1 [] 6 = AData (r1 7) /\
  query (run s1 [ERemove [] 6; ECommitBump]) 1 [] 6 = AData (r1 2) /\
  query (run s1 [ECommit]) 1 [] 6 = AData (r1 1) /\
  (* the serial wraps like Serial::add: 2^32 - 1 is followed by 0, which is a SOA, not an absence *)
  query (run (build [IRrset [] 6 (r1 4294967295)]) [EWAcquire; ECommitBump]) 1 [] 6 = AData (r1 0) /\
  query (run (build [IRrset [] 6 (r1 4294967295)]) [EWAcquire; ECommitBump; ECommitBump]) 2 [] 6 = AData (r1 1) /\
  query (run (build [IRrset [] 6 (r1 4294967295)]) [EWAcquire; ECommitBump]) 1 [3] 1 = ANx (Some (3600, 0)).
Proof. repeat split; reflexivity. Qed.

(* A WriteNode obtained before commit() keeps writing at the version it was opened
   for, which is the CURRENT version after the commit: a reader acquired after the
   commit sees the record change without any further commit.  (When the handle is
   rejected -- T1 flag stale_handle_rejected -- the premise is false.) *)
Lemma stale_handle_refuted :
  stale_handle_rejected = false ->
  exists s evs r name t,
    zinv s /\ r <= z_cur s /\ z_cur s + ncommits evs + 2 < LIM /\ no_stale evs = false /\
    query s r name t = AData (r1 21) /\ query (run s evs) r name t = AData (r1 22).
Proof.
  intros H.
  first
    [ discriminate H
    | exists (run wit_zone [EWAcquire; EWOpen; EUpdate [2] 1 (r1 21); ECommit]), [EStale (EUpdate [2] 1 (r1 22))], 1, [2], 1;
      split; [apply reachable_invariant; [cbn; unfold LIM; lia|right; reflexivity]|];
      repeat split; try reflexivity; cbn; unfold LIM; lia ].
Qed.

(* ... and after the writer was dropped the handle still writes, without the lock,
   at the version number the next writer will use: that writer's commit publishes it *)
Lemma stale_handle_after_drop_refuted :
  stale_handle_rejected = false ->
  exists s evs name t,
    zinv s /\ z_writer s = None /\ no_stale evs = false /\
    query s 1 name t = ANoData (Some (3600, 1)) /\ query (run s evs) 1 name t = AData (r1 31).
Proof.
  intros H.
  first
    [ discriminate H
    | exists (run wit_zone [EWAcquire; EWOpen; EUpdate [2] 1 (r1 21); EDrop]),
        [EStale (EUpdate [2] 16 (r1 31)); EWAcquire; EWOpen; EUpdate [2] 1 (r1 22); ECommit], [2], 16;
      split; [apply reachable_invariant; [cbn; unfold LIM; lia|right; reflexivity]|];
      repeat split; reflexivity ].
Qed.

Example ex_stale_rejected_or_effective :
  trace (run wit_zone [EWAcquire; EWOpen; ECommit]) [] [EStale (EUpdate [2] 1 (r1 22))]
  = [if stale_handle_rejected then OStaleRejected else OStaleDone].
Proof. reflexivity. Qed.

(* readers map after a list of events *)
Fixpoint rd_after (s : zstate) (rd : list (N * N)) (evs : list event) : list (N * N) :=
  match evs with
  | [] => rd
  | e :: tl =>
      match e with
      | EAcquire r => rd_after s ((r, z_cur s) :: rd) tl
      | ERelease r => rd_after s (filter (fun p => negb (fst p =? r)) rd) tl
      | EQuery _ _ _ | EWalk _ => rd_after s rd tl
      | _ => rd_after (step s e) rd tl
      end
  end.

Lemma trace_app : forall a s rd b,
  trace s rd (a ++ b) = trace s rd a ++ trace (run s a) (rd_after s rd a) b.
Proof.
  induction a as [|e tl IH]; intros s rd b; [reflexivity|].
  assert (Hst : forall r, step s (EAcquire r) = s) by reflexivity.
  destruct e; cbn [app trace rd_after run fold_left]; cbv [reader_pins_current];
    try (rewrite IH; reflexivity); try (cbn [app]; f_equal; rewrite IH; reflexivity).
Qed.

Definition touches_reader (r : N) (e : event) : bool :=
  match e with EAcquire r' | ERelease r' => r' =? r | _ => false end.

Lemma al_get_filter_other r r' (rd : list (N * N)) :
  (r' =? r) = false -> al_get r (filter (fun p => negb (fst p =? r')) rd) = al_get r rd.
Proof. intros Hne. now rewrite al_get_filter, N.eqb_sym, Hne. Qed.

Lemma rd_after_other r : forall evs s rd,
  forallb (fun e => negb (touches_reader r e)) evs = true -> al_get r (rd_after s rd evs) = al_get r rd.
Proof.
  induction evs as [|e tl IH]; intros s rd H; [reflexivity|]. cbn [forallb] in H. apply andb_prop in H. destruct H as [He Htl].
  apply negb_true_iff in He.
  destruct e; cbn [rd_after touches_reader] in *; try (now apply IH).
  - rewrite IH by exact Htl. cbn [al_get]. now rewrite He.
  - rewrite IH by exact Htl. now apply al_get_filter_other.
Qed.

(* THE property, in terms of what the API returns: a reader acquired now and
   queried (or asked to walk) after ANY further API calls -- by other readers and by
   writers opening, updating, removing, committing (also several versions),
   aborting -- gets the answer of the zone as it was when it was acquired *)
Theorem reader_sees_acquire_time : forall s rd r evs name t,
  zinv s -> z_cur s + ncommits evs + 2 < LIM -> stale_free evs ->
  forallb (fun e => negb (touches_reader r e)) evs = true ->
  exists before,
    trace s rd (EAcquire r :: evs ++ [EQuery r name t; EWalk r]) =
    before ++ [OAnswer (query s (z_cur s) name t); OWalk (walk s (z_cur s))].
Proof.
  intros s rd r evs name t Hinv Hlim Hsf Hr.
  cbn [trace]. cbv [reader_pins_current]. rewrite trace_app.
  exists (trace s ((r, z_cur s) :: rd) evs). f_equal.
  cbn [trace]. rewrite (rd_after_other r evs s _ Hr). cbn [al_get]. rewrite N.eqb_refl.
  destruct (snapshot_isolation evs s (z_cur s) Hinv ltac:(lia) Hlim Hsf) as [H1 H2].
  now rewrite H1, H2.
Qed.

Example ex_more_flags :
  (* a node that only has a CNAME exists; one that has nothing does not *)
  query (build [IRrset [] 6 (r1 1); ICname [2] (r1 7)]) 0 [2] 1 = ACname (r1 7) /\
  query (run (build [IRrset [] 6 (r1 1); ICname [2] (r1 7)]) [EWAcquire; EWOpen; ERegular [2]; ECommit]) 1 [2] 1 = ANx (Some (3600, 1)) /\
  (* an update with the empty RRset removes *)
  query (run wit_zone [EWAcquire; EWOpen; EUpdate [2] 1 (3600, []); ECommit]) 1 [2] 1 = ANx (Some (3600, 1)).
Proof. repeat split; reflexivity. Qed.

Lemma rs_versions c (rs : rrsets) :
  Forall (fun p => le_all c (snd p)) rs -> Forall (fun v => v <= c) (flat_map (fun p => map fst (snd p)) rs).
Proof. intros H. apply Forall_flat_map. eapply Forall_impl; [|exact H]. intros p Hp. now apply Forall_map. Qed.

Lemma upto_versions c : forall n, n_upto c n -> Forall (fun v => v <= c) (n_versions n).
Proof.
  induction n as [rs sp ch IH] using znode_ind'. intros H. inversion H as [? ? ? H1 H2 H3]; subst.
  cbn [n_versions]. rewrite !Forall_app. split; [now apply rs_versions|split; [now apply Forall_map|]].
  apply Forall_flat_map. rewrite Forall_forall in *. intros p Hp. exact (IH p Hp (H3 p Hp)).
Qed.

Lemma z_le_versions c s : z_le c s -> Forall (fun v => v <= c) (z_versions s).
Proof.
  intros [Ha Hn]. unfold z_versions. rewrite Forall_app. split; [now apply rs_versions|].
  apply Forall_flat_map. eapply Forall_impl; [|exact Hn]. intros p. apply upto_versions.
Qed.

(* whenever no writer has the zone open, no entry of a version above the current
   one is stored ANYWHERE in the tree -- under names that exist, that never existed
   or that stopped existing in an abandoned version alike.  In particular an aborted
   session leaves no marker of its version, so the next writer can reuse the number. *)
Theorem no_marker_above_current : forall is evs,
  ncommits evs + 2 < LIM -> stale_free evs ->
  let s := run (build is) evs in
  match z_writer s with
  | None => Forall (fun v => v <= z_cur s) (z_versions s)
  | Some wr => Forall (fun v => v <= z_cur s + 1) (z_versions s) /\ w_new wr = z_cur s + 1
  end.
Proof.
  intros is evs Hlim Hsf s. pose proof (reachable_invariant is evs Hlim Hsf) as Hinv. fold s in Hinv.
  destruct (z_writer s) as [wr|] eqn:Hw.
  - destruct (zinv_writer s wr Hinv Hw) as [Hnew [_ Hq]]. split; [|exact Hnew]. now apply z_le_versions, z_q_le.
  - now apply z_le_versions, zinv_idle.
Qed.

(* the write lock is held across commit(): a WriteZone kept after a commit (to be
   re-opened for the next batch) still excludes every other writer, and it writes
   the version after the one it just published *)
Theorem lock_held_across_commit : forall s wr,
  zinv s -> z_cur s + 2 < LIM -> z_writer s = Some wr ->
  let s' := step s ECommit in
  exists wr', z_writer s' = Some wr' /\ z_cur s' = z_cur s + 1 /\ w_new wr' = z_cur s' + 1 /\
    step s' EWAcquire = s' /\
    (forall rd tl, exists rest, trace s' rd (EWAcquire :: tl) = OPending :: rest) /\
    z_writer (step s' EWOpen) = Some (mkw (w_new wr') true true).
Proof.
  intros s wr Hinv Hlim Hw s'. destruct (zinv_writer s wr Hinv Hw) as [Hnew _].
  assert (E : s' = publish s wr) by (unfold s'; cbn [step]; now rewrite Hw).
  rewrite (publish_eq s wr Hnew ltac:(unfold LIM in Hlim; lia)) in E.
  exists (mkw (z_cur s + 2) false false). rewrite E.
  cbn [step trace z_writer z_cur w_new w_dirty]. cbv [writer_takes_mutex open_sets_dirty].
  split; [reflexivity|split; [reflexivity|split; [lia|split; [reflexivity|split; [eauto|reflexivity]]]]].
Qed.

Example ex_reopen_two_writers :
  trace wit_zone [] [EWAcquire; EWOpen; EUpdate [2] 1 (r1 21); ECommit; EWAcquire; EWOpen; EUpdate [2] 1 (r1 22); ECommit; EDrop; EWAcquire; EDump]
  = [OGranted; OPending; OGranted; ODump [0; 2; 1; 0]].
Proof. reflexivity. Qed.

Example ex_abort_after_removing_everything :
  let z := build [IRrset [] 6 (r1 1); IRrset [2; 3] 1 (r1 11)] in
  (* the aborted version removes all data of 3.2 (the name stops existing in it): no marker stays *)
  trace z [] [EWAcquire; EWOpen; ERemove [2; 3] 1; ERemoveAll; EDump; EDrop; EDump;
              EWAcquire; EWOpen; EUpdate [2; 3; 4] 16 (r1 7); ECommit; EDump; EAcquire 0; EQuery 0 [2; 3] 1; EQuery 0 [2; 3; 4] 16]
  = [OGranted; ODump [1; 0; 1; 0]; ODump [0; 0]; OGranted; ODump [0; 0; 1; 1]; OAnswer (AData (r1 11)); OAnswer (AData (r1 7))].
Proof. reflexivity. Qed.

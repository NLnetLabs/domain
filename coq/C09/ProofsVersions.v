(* C09 proofs: ZoneVersions / VersionMarker -- what clean_versions may
   remove.  (clean_versions has no caller in the crate; the model is tied to the
   source by T1 only.) *)
From Coq Require Import NArith List Bool Lia.
From DV Require Import C09.Gen C09.Model.
Import ListNotations.
Local Open Scope N_scope.

Lemma zv_alive_eq z it : zv_alive z it = (0 <? strong_count z (snd it)).
Proof. reflexivity. Qed.

Lemma count_held z slot it : In (slot, it) (zv_readers z) -> 0 < strong_count z (snd it).
Proof.
  intros H. unfold strong_count.
  assert (Hin : In (slot, it) (filter (fun p => snd (snd p) =? snd it) (zv_readers z))).
  { apply filter_In. split; [exact H|]. cbn [snd]. apply N.eqb_refl. }
  destruct (filter (fun p => snd (snd p) =? snd it) (zv_readers z)); [destruct Hin|]. cbn [length]. lia.
Qed.

Lemma count_current z : 0 < strong_count z (snd (zv_cur z)).
Proof. unfold strong_count. rewrite N.eqb_refl. lia. Qed.

(* only entries whose marker nobody holds are removed, and all of those are *)
Theorem clean_removes_exactly_dead : forall z it,
  In it (zv_all z) ->
  (In it (zv_all (fst (zv_clean z))) <-> 0 < strong_count z (snd it)).
Proof.
  intros z it Hin. cbn [zv_clean fst zv_all]. rewrite filter_In, zv_alive_eq, N.ltb_lt. tauto.
Qed.

(* the result names a removed version, and nothing is returned iff nothing is removed *)
Lemma clean_max_spec z : forall l acc,
  match clean_max z l acc with
  | None => acc = None /\ forall it, In it l -> zv_alive z it = true
  | Some m => acc = Some m \/ exists it, In it l /\ zv_alive z it = false /\ fst it = m
  end.
Proof.
  induction l as [|it tl IH]; intros acc; cbn [clean_max].
  - destruct acc; [now left|split; [reflexivity|intros ? []]].
  - destruct (zv_alive z it) eqn:E.
    + specialize (IH acc). destruct (clean_max z tl acc) as [m|].
      * destruct IH as [H|[it' [H1 [H2 H3]]]]; [now left|right; exists it'; split; [now right|split; assumption]].
      * destruct IH as [H1 H2]. split; [exact H1|]. intros it' [<-|H]; [exact E|now apply H2].
    + set (acc' := match acc with
                   | Some old => if ver_op clean_max_cmp_op (fst it) old then Some (fst it) else Some old
                   | None => Some (fst it) end).
      specialize (IH acc'). destruct (clean_max z tl acc') as [m|].
      * destruct IH as [H|[it' [H1 [H2 H3]]]].
        -- subst acc'. destruct acc as [old|].
           ++ destruct (ver_op clean_max_cmp_op (fst it) old); inversion H; subst; [right; exists it; repeat split; [now left|exact E]|now left].
           ++ inversion H; subst. right. exists it. repeat split; [now left|exact E].
        -- right. exists it'. split; [now right|split; assumption].
      * destruct IH as [H _]. subst acc'. destruct acc as [old|]; [destruct (ver_op clean_max_cmp_op (fst it) old)|]; discriminate.
Qed.

Theorem clean_result : forall z,
  match snd (zv_clean z) with
  | None => zv_all (fst (zv_clean z)) = zv_all z
  | Some m => exists it, In it (zv_all z) /\ ~ In it (zv_all (fst (zv_clean z))) /\ fst it = m
  end.
Proof.
  intros z. cbn [zv_clean snd fst zv_all]. pose proof (clean_max_spec z (zv_all z) None) as H.
  destruct (clean_max z (zv_all z) None) as [m|].
  - destruct H as [H|[it [H1 [H2 H3]]]]; [discriminate|]. exists it. split; [exact H1|split; [|exact H3]].
    rewrite filter_In. intros [_ H4]. congruence.
  - destruct H as [_ H]. induction (zv_all z) as [|it tl IH]; [reflexivity|]. cbn [filter].
    rewrite (H it (or_introl eq_refl)). f_equal. apply IH. intros it' Hin. apply H. now right.
Qed.

(* over every history of commits, reader acquisitions / releases and cleanings:
   the current version and every version a reader holds are listed in `all` *)
Definition zv_inv (z : zversions) : Prop :=
  In (zv_cur z) (zv_all z) /\ forall slot it, In (slot, it) (zv_readers z) -> In it (zv_all z).

Lemma zv_step_inv z o : zv_inv z -> zv_inv (zv_step z o).
Proof.
  intros [Hc Hr]. destruct o as [|slot|slot|]; cbn [zv_step].
  - split; cbn [zv_cur zv_all zv_readers]; [apply in_or_app; right; now left|].
    intros slot it H. apply in_or_app. left. now apply (Hr slot).
  - split; cbn [zv_cur zv_all zv_readers]; [exact Hc|]. intros s it [E|H]; [inversion E; subst; exact Hc|now apply (Hr s)].
  - split; cbn [zv_cur zv_all zv_readers]; [exact Hc|]. intros s it H. apply filter_In in H. now apply (Hr s).
  - (* the current version and the held ones are alive *)
    split.
    + apply (proj2 (clean_removes_exactly_dead z (zv_cur z) Hc)), count_current.
    + intros s it H. apply (proj2 (clean_removes_exactly_dead z it (Hr s it H))). now apply (count_held z s).
Qed.

Theorem held_versions_never_cleaned : forall os,
  let z := zv_run os in
  In (zv_cur z) (zv_all z) /\ forall slot it, In (slot, it) (zv_readers z) -> In it (zv_all z).
Proof.
  intros os. unfold zv_run.
  assert (H : forall z, zv_inv z -> zv_inv (fold_left zv_step os z)).
  { induction os as [|o tl IH]; intros z Hz; [exact Hz|]. cbn [fold_left]. apply IH. now apply zv_step_inv. }
  apply H. split; [now left|intros ? ? []].
Qed.

(* non-vacuity, and a warning for whoever gives clean_versions a caller: the
   returned "greatest cleaned version" can exceed a version that is still held,
   so it is not a bound below which stored data may be dropped *)
Example ex_clean :
  let z := zv_run [VAcquire 0; VCommit; VAcquire 1; VCommit; VRelease 1] in
  zv_all z = [(0, 0); (1, 1); (2, 2)] /\
  zv_clean z = (mkzv (2, 2) [(0, 0); (2, 2)] 3 [(0, (0, 0))], Some 1) /\
  In (0, (0, 0)) (zv_readers z).
Proof. repeat split; try reflexivity. now left. Qed.

(* two dead versions at once: the greater one is returned *)
Example ex_clean_max :
  snd (zv_clean (zv_run [VAcquire 0; VCommit; VAcquire 1; VCommit; VAcquire 2; VCommit; VRelease 1; VRelease 2])) = Some 2 /\
  snd (zv_clean (zv_run [VCommit; VCommit; VCommit])) = Some 2.
Proof. split; reflexivity. Qed.

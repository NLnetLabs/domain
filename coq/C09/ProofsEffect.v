(* C09 proofs: the stored cell of (name, type); what a data operation at a
   name does to the cells there and that it leaves every other name alone
   (path_do_cell); what the writer's version reads after an update / a remove. *)
From Coq Require Import NArith List Bool Lia.
From DV Require Import C09.Gen C09.Model C09.Proofs C09.ProofsZone.
Import ListNotations.
Local Open Scope N_scope.

(* the node a name leads to, whether or not it "exists" in some version *)
Fixpoint find_node (ns : list (N * znode)) (p : list N) : option znode :=
  match p with
  | [] => None
  | l :: rest =>
      match al_get l ns with
      | Some n => match rest with [] => Some n | _ => find_node (n_children n) rest end
      | None => None
      end
  end.

(* the Versioned<SharedRrset> stored for (name, type) *)
Definition cell_of (s : zstate) (name : list N) (t : N) : list (entry rrv) :=
  match name with
  | [] => cell t (z_apex s)
  | _ => match find_node (z_nodes s) name with Some n => cell t (n_rrsets n) | None => [] end
  end.

Definition ncell (t : N) (o : option znode) : list (entry rrv) :=
  match o with Some n => cell t (n_rrsets n) | None => [] end.

Lemma find_node_nil p : find_node [] p = None.
Proof. destruct p; reflexivity. Qed.

Lemma al_get_q c w k ns n : ns_q c w ns -> al_get k ns = Some n -> n_q c w n.
Proof.
  intros H E. destruct (al_get_in _ _ _ E) as [k' Hin]. unfold ns_q, ns_all in H. rewrite Forall_forall in H.
  exact (H (k', n) Hin).
Qed.

Lemma find_node_q c w : forall p ns n, ns_q c w ns -> find_node ns p = Some n -> n_q c w n.
Proof.
  induction p as [|k rest IH]; intros ns n Hns E; [discriminate|]. cbn [find_node] in E.
  destruct (al_get k ns) as [m|] eqn:G; [|discriminate]. pose proof (al_get_q c w k ns m Hns G) as Hm.
  destruct rest; [now inversion E; subst|]. destruct m as [rs sp ch].
  exact (IH ch n (proj2 (proj2 (n_q_inv _ _ _ _ _ Hm))) E).
Qed.

Lemma cell_of_q c w s name t : z_q c w s -> cq c w (cell_of s name t).
Proof.
  intros [Ha Hn]. unfold cell_of. destruct name as [|l rest]; [now apply cell_q|].
  destruct (find_node (z_nodes s) (l :: rest)) as [[rs sp ch]|] eqn:E; [|apply cq_nil].
  apply cell_q. exact (proj1 (n_q_inv _ _ _ _ _ (find_node_q c w _ _ _ Hn E))).
Qed.

Lemma check_nx_rrsets n w : n_rrsets (check_nx n w) = n_rrsets n.
Proof. destruct (check_nx_cases n w) as [->|[->| ->]]; destruct n; reflexivity. Qed.

Lemma check_nx_children n w : n_children (check_nx n w) = n_children n.
Proof. destruct (check_nx_cases n w) as [->|[->| ->]]; destruct n; reflexivity. Qed.

Lemma fresh_node_blank w : n_children (fresh_node w) = [] /\ n_rrsets (fresh_node w) = [].
Proof.
  unfold fresh_node. destruct update_child_creates_node; [|split; reflexivity].
  unfold n_make_regular. rewrite check_nx_children, check_nx_rrsets. split; reflexivity.
Qed.

(* if f turns the stored cell of type t' into g of it, so does path_do at (p, t');
   the cell of every other (p', t') stays: there g is the identity *)
Lemma path_do_cell fresh f t' g :
  (forall n, n_children (f n) = n_children n) ->
  n_children fresh = [] -> n_rrsets fresh = [] ->
  forall p ns p', p <> [] -> p' <> [] ->
    (p' = p -> forall n, cell t' (n_rrsets (f n)) = g (cell t' (n_rrsets n))) ->
    (p' <> p -> forall d, g d = d) ->
    ncell t' (find_node (path_do ns p fresh f) p') = g (ncell t' (find_node ns p')).
Proof.
  intros Hfc Hc0 Hr0. induction p as [|l rest IH]; intros ns p' Hp Hp' Hat Hoff; [contradiction|].
  destruct p' as [|l' rest']; [contradiction|].
  cbn [path_do find_node]. rewrite al_get_upd.
  destruct (N.eqb_spec l' l) as [->|Hne]; [|rewrite Hoff; [reflexivity|congruence]].
  set (x := match al_get l ns with Some a => a | None => fresh end).
  assert (Hold : ncell t' (match al_get l ns with
                           | Some n => match rest' with [] => Some n | _ => find_node (n_children n) rest' end
                           | None => None end) =
                 ncell t' (match rest' with [] => Some x | _ => find_node (n_children x) rest' end)).
  { subst x. destruct (al_get l ns) as [a|]; [reflexivity|].
    destruct rest'; cbn [ncell]; [now rewrite Hr0|]. rewrite Hc0. now rewrite find_node_nil. }
  rewrite Hold. clear Hold.
  destruct rest as [|l2 rest2]; destruct rest' as [|l2' rest2'].
  - cbn [ncell]. now apply Hat.
  - rewrite Hfc, Hoff; [reflexivity|discriminate].
  - rewrite Hoff by discriminate. cbn [ncell]. destruct x; reflexivity.
  - assert (E : n_children (set_children x (path_do (n_children x) (l2 :: rest2) fresh f)) =
                path_do (n_children x) (l2 :: rest2) fresh f) by (destruct x; reflexivity).
    rewrite E. apply IH; [discriminate|discriminate| |].
    + intros Heq. apply Hat. now rewrite Heq.
    + intros Hn. apply Hoff. congruence.
Qed.

Lemma at_node_cell s w name f name' t' g :
  (forall n, n_children (f n) = n_children n) -> name <> [] ->
  (name' = name -> forall n, cell t' (n_rrsets (f n)) = g (cell t' (n_rrsets n))) ->
  (name' <> name -> forall d, g d = d) ->
  cell_of (at_node s w name f) name' t' = g (cell_of s name' t').
Proof.
  intros Hfc Hne Hat Hoff. unfold at_node. destruct name as [|l rest]; [contradiction|].
  destruct name' as [|l' rest']; [now rewrite Hoff|].
  change (ncell t' (find_node (child_do (z_nodes s) (l :: rest) w f) (l' :: rest')) =
          g (ncell t' (find_node (z_nodes s) (l' :: rest')))).
  destruct (fresh_node_blank w) as [H1 H2]. apply path_do_cell; auto; discriminate.
Qed.

Lemma at_node_frame s w name f name' t' :
  (forall n, n_children (f n) = n_children n) ->
  (forall n, cell t' (n_rrsets (f n)) = cell t' (n_rrsets n)) ->
  cell_of (at_node s w name f) name' t' = cell_of s name' t'.
Proof.
  intros Hfc Hfr. destruct name as [|l rest]; [reflexivity|].
  apply (at_node_cell s w (l :: rest) f name' t' (fun d => d)); auto; discriminate.
Qed.

(* update_rrset and remove_rrset at `name`, at the apex or below, are G on the
   RRsets there (and check_nx_domain below the apex) *)
Lemma rrsets_op_cell s w name (G : rrsets -> rrsets) name' t' g :
  (name' = name -> forall rs, cell t' (G rs) = g (cell t' rs)) ->
  (name' <> name -> forall d, g d = d) ->
  cell_of (match name with
           | [] => set_apex s (G (z_apex s))
           | _ => at_node s w name (fun n => check_nx (set_rrsets n (G (n_rrsets n))) w)
           end) name' t' = g (cell_of s name' t').
Proof.
  intros Hat Hoff. destruct name as [|l rest].
  - destruct name' as [|l' rest']; [now apply Hat|]. now rewrite Hoff.
  - apply at_node_cell; [|discriminate| |exact Hoff].
    + intros n. rewrite check_nx_children. destruct n; reflexivity.
    + intros E n. rewrite check_nx_rrsets. destruct n as [rs sp ch]. now apply Hat.
Qed.

Lemma rs_update_cell rs t rr w t' :
  cell t' (rs_update rs t rr w) =
  if t' =? t then (if rrv_is_empty rr then v_remove (cell t rs) w else v_update (cell t rs) w rr) else cell t' rs.
Proof.
  unfold rs_update, rs_remove_rtype, rs_at. cbv [update_empty_rrset_is_remove]. rewrite andb_true_r.
  destruct (rrv_is_empty rr); apply cell_upd.
Qed.

(* update_rrset is Versioned::update on the stored cell of the addressed (name, type),
   remove_rrset is Versioned::remove on it -- in every state *)
Lemma update_cell s w name t rr :
  rrv_is_empty rr = false ->
  cell_of (data_op s w (EUpdate name t rr)) name t = v_update (cell_of s name t) w rr.
Proof.
  intros Hrr. apply (rrsets_op_cell s w name (fun rs => rs_update rs t rr w) name t (fun d => v_update d w rr)); [|contradiction].
  intros _ rs. now rewrite rs_update_cell, N.eqb_refl, Hrr.
Qed.

Lemma remove_cell s w name t :
  cell_of (data_op s w (ERemove name t)) name t = v_remove (cell_of s name t) w.
Proof.
  apply (rrsets_op_cell s w name (fun rs => rs_remove_rtype rs t w) name t (fun d => v_remove d w)); [|contradiction].
  intros _ rs. unfold rs_remove_rtype, rs_at. now rewrite cell_upd, N.eqb_refl.
Qed.

(* after update_rrset the writer's version (and every later reader until the next
   change) reads the new RRset *)
Theorem update_effect : forall c w s name t rr r,
  c < w -> z_q c w s -> rrv_is_empty rr = false -> ver_le w r = true ->
  v_get (cell_of (data_op s w (EUpdate name t rr)) name t) r = Some rr.
Proof. intros c w s name t rr r _ _ Hrr Hr. rewrite update_cell by exact Hrr. now apply cell_update_value. Qed.

Lemma visible_of_cq {T} c w r (d : list (entry T)) :
  c < w -> w <= r -> r < LIM -> cq c w d -> Forall (fun it => ver_le (fst it) r = true) d.
Proof.
  unfold LIM. intros Hc Hw Hr H.
  assert (Hall : forall l : list (entry T), le_all w l -> Forall (fun it => ver_le (fst it) r = true) l).
  { intros l Hl. eapply Forall_impl; [|exact Hl]. intros it Hit. cbn in Hit.
    rewrite ver_le_small by (unfold LIM; lia). apply N.leb_le. lia. }
  apply Hall. unfold cq in H. rewrite v_rollback_eq in H. destruct d as [|[lv lx] rest]; [constructor|].
  destruct (N.eqb_spec lv w) as [->|_]; [constructor; [cbn; lia|]|]; (eapply le_all_weaken; [|exact H]); lia.
Qed.

Lemma removed_reads_none {T} c w r (d : list (entry T)) :
  c < w -> w <= r -> r < LIM -> cq c w d -> v_get (v_remove d w) r = None.
Proof.
  intros Hc Hw Hr Hq. apply cell_remove_value; [|now apply (visible_of_cq c w r)].
  rewrite ver_le_small by (unfold LIM in *; lia). apply N.leb_le. lia.
Qed.

(* after remove_rrset they read nothing *)
Theorem remove_effect : forall c w s name t r,
  c < w -> z_q c w s -> w <= r -> r < LIM ->
  v_get (cell_of (data_op s w (ERemove name t)) name t) r = None.
Proof.
  intros c w s name t r Hc Hq Hw Hr. rewrite remove_cell.
  apply (removed_reads_none c w r); auto. now apply cell_of_q.
Qed.

Definition r1 (x : N) : rrv := (3600, [x]).
Example ex_effects :
  let s := build [IRrset [] 6 (r1 1); IRrset [2; 3] 1 (r1 11)] in
  v_get (cell_of (data_op s 1 (EUpdate [2; 3] 1 (r1 12))) [2; 3] 1) 1 = Some (r1 12) /\
  v_get (cell_of (data_op s 1 (EUpdate [2; 3] 1 (r1 12))) [2; 3] 1) 0 = Some (r1 11) /\
  v_get (cell_of (data_op s 1 (ERemove [2; 3] 1)) [2; 3] 1) 1 = None /\
  v_get (cell_of (data_op s 1 (EUpdate [4; 5; 6] 16 (r1 13))) [4; 5; 6] 16) 1 = Some (r1 13).
Proof. repeat split; reflexivity. Qed.

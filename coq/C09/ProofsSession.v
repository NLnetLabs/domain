(* C09 proofs: what a NEW reader gets, in terms of the trace runner (before the
   commit call, after it, after an abandoned session); the effect of remove_all in the
   writer's version; frame: the data operations change the stored cell of the addressed
   (name, type) only; what a commit publishes. *)
From Coq Require Import NArith List Bool Lia.
From DV Require Import C09.Gen C09.Model C09.Proofs C09.ProofsZone C09.ProofsTrace C09.ProofsEffect.
Import ListNotations.
Local Open Scope N_scope.

Lemma trace_new_reader s rd pre r name t :
  exists before,
    trace s rd (pre ++ [EAcquire r; EQuery r name t; EWalk r]) =
    before ++ [OAnswer (query (run s pre) (z_cur (run s pre)) name t); OWalk (walk (run s pre) (z_cur (run s pre)))].
Proof.
  rewrite trace_app. exists (trace s rd pre). f_equal.
  cbn [trace al_get fst]. cbv [reader_pins_current]. cbn [al_get]. now rewrite N.eqb_refl.
Qed.

(* a reader acquired while the writer's session is still open (whatever it has done)
   gets the zone of before the session; one acquired right after the commit call gets
   the writer's version whole (the state the writer built, read at its version); one
   acquired after the session was abandoned gets the zone of before the session *)
Theorem new_reader_visibility : forall s rd ops r name t,
  zinv s -> z_writer s = None -> z_cur s + 2 < LIM -> all_data ops ->
  let pre := [EWAcquire; EWOpen] ++ ops in
  (exists before,
     trace s rd (pre ++ [EAcquire r; EQuery r name t; EWalk r]) =
     before ++ [OAnswer (query s (z_cur s) name t); OWalk (walk s (z_cur s))]) /\
  (exists before,
     trace s rd ((pre ++ [ECommit]) ++ [EAcquire r; EQuery r name t; EWalk r]) =
     before ++ [OAnswer (query (run s pre) (z_cur s + 1) name t); OWalk (walk (run s pre) (z_cur s + 1))]) /\
  (exists before,
     trace s rd ((pre ++ [EDrop]) ++ [EAcquire r; EQuery r name t; EWalk r]) =
     before ++ [OAnswer (query s (z_cur s) name t); OWalk (walk s (z_cur s))]).
Proof.
  intros s rd ops r name t Hinv Hw Hlim Hd pre.
  destruct (commit_atomic s ops Hinv Hw Hlim Hd) as [[Hc [Hq Hwk]] [HcC HvC]].
  fold pre in Hc, Hq, Hwk, HcC, HvC.
  split; [|split].
  - destruct (trace_new_reader s rd pre r name t) as [b Hb]. exists b. rewrite Hb, Hc, Hq, Hwk. reflexivity.
  - destruct (trace_new_reader s rd (pre ++ [ECommit]) r name t) as [b Hb]. exists b. rewrite Hb.
    rewrite run_app. cbn [run fold_left]. change (fold_left step pre s) with (run s pre).
    rewrite HcC. destruct (HvC (z_cur s + 1)) as [H1 H2]. now rewrite H1, H2.
  - destruct (trace_new_reader s rd (pre ++ [EDrop]) r name t) as [b Hb]. exists b. rewrite Hb.
    destruct (abort_invisible s ops Hinv Hw ltac:(unfold LIM in *; lia) Hd) as [Ha [_ Hv]].
    unfold pre. rewrite <- app_assoc. rewrite Ha. destruct (Hv (z_cur s)) as [H1 H2]. now rewrite H1, H2.
Qed.

Example ex_new_reader :
  trace wit_zone [] (([EWAcquire; EWOpen] ++ [EUpdate [2] 1 (r1 12)]) ++ [EAcquire 0; EQuery 0 [2] 1]) = [OGranted; OAnswer (AData (r1 11))] /\
  trace wit_zone [] ((([EWAcquire; EWOpen] ++ [EUpdate [2] 1 (r1 12)]) ++ [ECommit]) ++ [EAcquire 0; EQuery 0 [2] 1]) = [OGranted; OAnswer (AData (r1 12))] /\
  trace wit_zone [] ((([EWAcquire; EWOpen] ++ [EUpdate [2] 1 (r1 12)]) ++ [EDrop]) ++ [EAcquire 0; EQuery 0 [2] 1]) = [OGranted; OAnswer (AData (r1 11))].
Proof. repeat split; reflexivity. Qed.

Lemma walk_rrsets_remove_all {A} c w r (nm : A) rs :
  c < w -> w <= r -> r < LIM -> rs_q c w rs -> walk_rrsets nm (rs_remove_all rs w) r = [].
Proof.
  intros Hc Hw Hr H. unfold rs_remove_all, rs_all, al_map.
  induction H as [|[k d] tl Hd _ IH]; [reflexivity|].
  cbn [map fst snd]. rewrite walk_rrsets_cons. cbn [snd] in Hd.
  rewrite (removed_reads_none c w r d Hc Hw Hr Hd). exact IH.
Qed.

Lemma flat_map_al_map_nil {B} (h : N * znode -> list B) F ns :
  (forall k n, In (k, n) ns -> h (k, F n) = []) -> flat_map h (al_map F ns) = [].
Proof.
  intros H. apply flat_map_nil. intros p Hin. apply in_map_iff in Hin.
  destruct Hin as [[k n] [<- Hin]]. now apply H.
Qed.

Lemma walk_node_remove_all c w r : c < w -> w <= r -> r < LIM ->
  forall n, n_q c w n -> forall path, walk_node path (n_remove_all n w) r = [].
Proof.
  intros Hc Hw Hr. induction n as [rs sp ch IH] using znode_ind'. intros Hq path.
  destruct (n_q_inv _ _ _ _ _ Hq) as [Hrs [Hsp Hch]].
  rewrite n_remove_all_eq, walk_node_eq.
  rewrite (walk_rrsets_remove_all c w r path rs Hc Hw Hr Hrs). cbn [app].
  unfold sp_get. rewrite (removed_reads_none c w r sp Hc Hw Hr Hsp).
  apply flat_map_al_map_nil. intros k n Hin. unfold ns_q, ns_all in Hch. rewrite Forall_forall in Hch, IH.
  exact (IH (k, n) Hin (Hch (k, n) Hin) _).
Qed.

(* after root.remove_all() the writer's version (and every later one until the next
   change) holds no record at all: its walk is empty *)
Theorem remove_all_effect : forall c w s r,
  c < w -> z_q c w s -> w <= r -> r < LIM -> walk (data_op s w ERemoveAll) r = [].
Proof.
  intros c w s r Hc [Ha Hn] Hw Hr. cbn [data_op]. unfold z_remove_all, walk.
  cbv [apex_remove_all_rrsets apex_remove_all_children]. cbn [z_apex z_nodes].
  rewrite (walk_rrsets_remove_all c w r [] _ Hc Hw Hr Ha). cbn [app].
  apply flat_map_al_map_nil. intros k n Hin. unfold ns_q, ns_all in Hn. rewrite Forall_forall in Hn.
  exact (walk_node_remove_all c w r Hc Hw Hr n (Hn (k, n) Hin) _).
Qed.

Example ex_remove_all :
  let s := build [IRrset [] 6 (r1 1); IRrset [2; 3] 1 (r1 11); ICname [4] (r1 5)] in
  length (walk s 0) = 3%nat /\ walk (data_op s 1 ERemoveAll) 1 = [] /\ length (walk (data_op s 1 ERemoveAll) 0) = 3%nat.
Proof. repeat split; reflexivity. Qed.

(* update_rrset / remove_rrset at (name, t) leave the stored RRset history of every
   other (name', t') exactly as it was -- for every state and version, no invariant
   needed: the writer's version differs from its base in the addressed RRsets only *)
Theorem update_frame : forall s w name t rr name' t',
  name' <> name \/ t' <> t ->
  cell_of (data_op s w (EUpdate name t rr)) name' t' = cell_of s name' t'.
Proof.
  intros s w name t rr name' t' Hne.
  apply (rrsets_op_cell s w name (fun rs => rs_update rs t rr w) name' t' (fun d => d)); [|reflexivity].
  intros E rs. destruct Hne as [Hn|Ht]; [contradiction|].
  rewrite rs_update_cell. destruct (N.eqb_spec t' t); [contradiction|reflexivity].
Qed.

Theorem remove_frame : forall s w name t name' t',
  name' <> name \/ t' <> t ->
  cell_of (data_op s w (ERemove name t)) name' t' = cell_of s name' t'.
Proof.
  intros s w name t name' t' Hne.
  apply (rrsets_op_cell s w name (fun rs => rs_remove_rtype rs t w) name' t' (fun d => d)); [|reflexivity].
  intros E rs. destruct Hne as [Hn|Ht]; [contradiction|].
  unfold rs_remove_rtype, rs_at. rewrite cell_upd. destruct (N.eqb_spec t' t); [contradiction|reflexivity].
Qed.

(* update_child alone, make_cname, make_zone_cut and make_regular store no RRset:
   every stored RRset history is as it was *)
Definition is_special_op (e : event) : bool :=
  match e with ETouch _ | ECname _ _ | ECut _ _ _ _ | ERegular _ => true | _ => false end.

Theorem special_ops_frame : forall s w e name' t',
  is_special_op e = true -> cell_of (data_op s w e) name' t' = cell_of s name' t'.
Proof.
  intros s w e name' t' He. destruct e; cbn [is_special_op] in He; try discriminate; cbn [data_op]; apply at_node_frame.
  all: intros n; unfold n_make_regular; rewrite ?check_nx_children, ?check_nx_rrsets; destruct n; reflexivity.
Qed.

Example ex_frame :
  let s := build [IRrset [] 6 (r1 1); IRrset [2; 3] 1 (r1 11); IRrset [2; 3] 16 (r1 7); IRrset [2] 1 (r1 9)] in
  let s' := data_op s 1 (EUpdate [2; 3] 1 (r1 12)) in
  cell_of s' [2; 3] 1 <> cell_of s [2; 3] 1 /\ cell_of s' [2; 3] 16 = [(0, Some (r1 7))] /\
  cell_of s' [2] 1 = [(0, Some (r1 9))] /\ cell_of s' [] 6 = [(0, Some (r1 1))] /\
  cell_of (data_op s 1 (ECname [2; 3] (r1 4))) [2; 3] 1 = [(0, Some (r1 11))].
Proof. repeat split; try reflexivity. vm_compute. discriminate. Qed.

Lemma fresh_q c w : c < w -> n_q c w (fresh_node w).
Proof.
  intros Hc. unfold fresh_node. cbv [update_child_creates_node].
  exact (proj1 (nl_make_regular w c empty_node Hc (n_q_empty c w))).
Qed.

Lemma find_path_do c w fresh f : n_q c w fresh -> forall p ns, p <> [] -> ns_q c w ns ->
  exists n0, n_q c w n0 /\ find_node (path_do ns p fresh f) p = Some (f n0).
Proof.
  intros Hfresh. induction p as [|l rest IH]; intros ns Hp Hns; [contradiction|].
  cbn [path_do find_node]. rewrite al_get_upd, N.eqb_refl.
  set (x := match al_get l ns with Some a => a | None => fresh end).
  assert (Hx : n_q c w x).
  { subst x. destruct (al_get l ns) as [a|] eqn:E; [now apply (al_get_q c w l ns)|exact Hfresh]. }
  destruct rest as [|l' rest']; [exists x; split; [exact Hx|reflexivity]|].
  destruct x as [rs sp ch]. unfold set_children. cbn [n_children n_rrsets n_special].
  destruct (n_q_inv _ _ _ _ _ Hx) as [_ [_ Hch]].
  destruct (IH ch ltac:(discriminate) Hch) as [n0 [H1 H2]]. exists n0. split; [exact H1|exact H2].
Qed.

(* after update_child(..)*.remove_all() at a name the writer's version holds nothing at
   that name nor anywhere below it: the walk of that subtree is empty and every type reads None *)
Theorem remove_all_at_effect : forall c w s name r,
  c < w -> z_q c w s -> w <= r -> r < LIM -> name <> [] ->
  exists n, find_node (z_nodes (data_op s w (ERemoveAllAt name))) name = Some n /\
    (forall path, walk_node path n r = []) /\
    (forall t, v_get (cell_of (data_op s w (ERemoveAllAt name)) name t) r = None).
Proof.
  intros c w s name r Hc [Ha Hn] Hw Hr Hne. cbn [data_op]. destruct name as [|l rest]; [contradiction|].
  unfold at_node, child_do. cbn [cell_of set_nodes z_nodes].
  destruct (find_path_do c w (fresh_node w) (fun n => n_remove_all n w) (fresh_q c w Hc) (l :: rest) (z_nodes s) ltac:(discriminate) Hn)
    as [n0 [Hq0 E]].
  rewrite E. exists (n_remove_all n0 w). split; [reflexivity|split].
  - intros path. now apply (walk_node_remove_all c w r).
  - intros t. destruct n0 as [rs sp ch]. rewrite n_remove_all_eq. cbn [n_rrsets].
    unfold rs_remove_all, rs_all. rewrite cell_map by reflexivity.
    apply (removed_reads_none c w r); auto. apply cell_q. exact (proj1 (n_q_inv _ _ _ _ _ Hq0)).
Qed.

Example ex_remove_all_at :
  let s := build [IRrset [] 6 (r1 1); IRrset [2; 3] 1 (r1 11); IRrset [2] 1 (r1 9); IRrset [4] 1 (r1 8)] in
  let s' := data_op s 1 (ERemoveAllAt [2]) in
  walk s' 1 = [([], 6, r1 1); ([4], 1, r1 8)] /\ length (walk s' 0) = 4%nat.
Proof. repeat split; reflexivity. Qed.

Lemma cell_of_same a b name t : z_apex a = z_apex b -> z_nodes a = z_nodes b -> cell_of a name t = cell_of b name t.
Proof. intros E1 E2. unfold cell_of. now rewrite E1, E2. Qed.

(* a whole session: any data operations, then a last one, then commit(false) *)
Lemma session_then s ops e :
  zinv s -> z_writer s = None -> z_cur s + 2 < LIM -> all_data ops -> is_data e = true ->
  let s2 := run s ([EWAcquire; EWOpen] ++ ops) in
  let sC := run s (([EWAcquire; EWOpen] ++ ops) ++ [e; ECommit]) in
  z_q (z_cur s) (z_cur s + 1) s2 /\ z_cur sC = z_cur s + 1 /\
  z_apex sC = z_apex (data_op s2 (z_cur s + 1) e) /\ z_nodes sC = z_nodes (data_op s2 (z_cur s + 1) e).
Proof.
  intros Hinv Hw Hlim Hd He.
  destruct (session s ops Hinv Hw ltac:(unfold LIM in *; lia) Hd) as [Hi [Hw2 [Hc2 _]]].
  cbn zeta. rewrite (run_app s ([EWAcquire; EWOpen] ++ ops)). set (s2 := run s ([EWAcquire; EWOpen] ++ ops)) in *.
  destruct (data_step s2 _ e Hi Hw2 eq_refl He) as [Hst [_ [Hw3 _]]].
  pose proof (proj2 (proj2 (zinv_writer s2 _ Hi Hw2))) as Hq. rewrite Hc2 in Hq, Hst.
  split; [exact Hq|]. cbn [run fold_left]. rewrite <- Hst. set (s3 := step s2 e) in *.
  cbn [step]. rewrite Hw3. split; [|split]; reflexivity.
Qed.

(* after a committed session whose last operation on (name, t) was update_rrset(rr),
   the published version -- what every reader acquired from now on reads -- holds rr there;
   if it was remove_rrset, nothing *)
Theorem committed_update_visible : forall s ops name t rr,
  zinv s -> z_writer s = None -> z_cur s + 2 < LIM -> all_data ops -> rrv_is_empty rr = false ->
  let sC := run s (([EWAcquire; EWOpen] ++ ops) ++ [EUpdate name t rr; ECommit]) in
  z_cur sC = z_cur s + 1 /\ v_get (cell_of sC name t) (z_cur sC) = Some rr.
Proof.
  intros s ops name t rr Hinv Hw Hlim Hd Hrr.
  destruct (session_then s ops (EUpdate name t rr) Hinv Hw Hlim Hd eq_refl) as [Hq [Hc [Ea En]]].
  cbn zeta. split; [exact Hc|]. rewrite Hc. rewrite (cell_of_same _ _ name t Ea En).
  apply (update_effect (z_cur s) (z_cur s + 1)); [lia|exact Hq|exact Hrr|].
  apply ver_le_refl. unfold LIM in *. lia.
Qed.

Theorem committed_remove_visible : forall s ops name t,
  zinv s -> z_writer s = None -> z_cur s + 2 < LIM -> all_data ops ->
  let sC := run s (([EWAcquire; EWOpen] ++ ops) ++ [ERemove name t; ECommit]) in
  z_cur sC = z_cur s + 1 /\ v_get (cell_of sC name t) (z_cur sC) = None.
Proof.
  intros s ops name t Hinv Hw Hlim Hd.
  destruct (session_then s ops (ERemove name t) Hinv Hw Hlim Hd eq_refl) as [Hq [Hc [Ea En]]].
  cbn zeta. split; [exact Hc|]. rewrite Hc. rewrite (cell_of_same _ _ name t Ea En).
  apply (remove_effect (z_cur s) (z_cur s + 1)); [lia|exact Hq|lia|unfold LIM in *; lia].
Qed.

Theorem committed_remove_all_visible : forall s ops,
  zinv s -> z_writer s = None -> z_cur s + 2 < LIM -> all_data ops ->
  let sC := run s (([EWAcquire; EWOpen] ++ ops) ++ [ERemoveAll; ECommit]) in
  z_cur sC = z_cur s + 1 /\ walk sC (z_cur sC) = [].
Proof.
  intros s ops Hinv Hw Hlim Hd.
  destruct (session_then s ops ERemoveAll Hinv Hw Hlim Hd eq_refl) as [Hq [Hc [Ea En]]].
  cbn zeta. split; [exact Hc|]. rewrite Hc.
  rewrite (proj2 (view_of_same _ (data_op (run s ([EWAcquire; EWOpen] ++ ops)) (z_cur s + 1) ERemoveAll) _ Ea En)).
  apply (remove_all_effect (z_cur s) (z_cur s + 1)); [lia|exact Hq|lia|unfold LIM in *; lia].
Qed.

Example ex_committed :
  let sC := run wit_zone (([EWAcquire; EWOpen] ++ [ERemove [2] 1]) ++ [EUpdate [2] 1 (r1 12); ECommit]) in
  z_cur sC = 1 /\ v_get (cell_of sC [2] 1) (z_cur sC) = Some (r1 12) /\ v_get (cell_of sC [2] 1) 0 = Some (r1 11) /\
  walk (run wit_zone (([EWAcquire; EWOpen] ++ []) ++ [ERemoveAll; ECommit])) 1 = [].
Proof. repeat split; reflexivity. Qed.

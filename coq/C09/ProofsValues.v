(* C09 proofs: no torn RRsets.  Every RRset (TTL and record list as a
   whole) that is stored anywhere, and hence every RRset a query or a walk
   returns, is one that was handed over whole to ZoneBuilder / update_rrset /
   make_cname / make_zone_cut, or an SOA that commit(true) derived from one. *)
From Coq Require Import NArith List Bool.
From DV Require Import C09.Gen C09.Model C09.Proofs C09.ProofsZone C09.ProofsTrace.
Import ListNotations.
Local Open Scope N_scope.

Section Vals.
Variable Q : rrv -> Prop.

Definition optQ (o : option rrv) : Prop := match o with Some x => Q x | None => True end.
Definition special_vals (s : special) : Prop :=
  match s with SCut ns ds glue => Q ns /\ optQ ds /\ optQ glue | SCname c => Q c | SNx => True end.

Definition cell_vals (d : list (entry rrv)) : Prop :=
  Forall (fun it => match snd it with Some x => Q x | None => True end) d.
Definition sp_vals (sp : list (entry (option special))) : Prop :=
  Forall (fun it => match snd it with Some (Some s) => special_vals s | _ => True end) sp.
Definition rs_vals (rs : rrsets) : Prop := Forall (fun p => cell_vals (snd p)) rs.

Inductive n_vals : znode -> Prop :=
| n_vals_intro rs sp ch : rs_vals rs -> sp_vals sp -> Forall (fun p => n_vals (snd p)) ch -> n_vals (mknode rs sp ch).
Definition ns_vals (ns : list (N * znode)) : Prop := Forall (fun p => n_vals (snd p)) ns.
Definition z_vals (s : zstate) : Prop := rs_vals (z_apex s) /\ ns_vals (z_nodes s).

Lemma rs_at_vals t f rs :
  (forall d, cell_vals d -> cell_vals (f d)) -> rs_vals rs -> rs_vals (rs_at t f rs).
Proof. intros Hf H. apply (Forall_al_upd cell_vals); [exact Hf|constructor|exact H]. Qed.
Lemma rs_all_vals f rs :
  (forall d, cell_vals d -> cell_vals (f d)) -> rs_vals rs -> rs_vals (rs_all f rs).
Proof. intros Hf H. apply (Forall_al_map cell_vals); [exact Hf|exact H]. Qed.

Lemma rs_update_vals rs t rr v : Q rr \/ rrv_is_empty rr = true -> rs_vals rs -> rs_vals (rs_update rs t rr v).
Proof.
  intros Hrr H. unfold rs_update, rs_remove_rtype. cbv [update_empty_rrset_is_remove]. rewrite andb_true_r.
  destruct (rrv_is_empty rr) eqn:E.
  - apply rs_at_vals; [|exact H]. intros d Hd. now apply Forall_v_remove.
  - destruct Hrr as [Hq|Hq]; [|discriminate]. apply rs_at_vals; [|exact H]. intros d Hd. now apply Forall_v_update.
Qed.
Lemma rs_remove_vals rs t v : rs_vals rs -> rs_vals (rs_remove_rtype rs t v).
Proof. intros H. apply rs_at_vals; [|exact H]. intros d Hd. now apply Forall_v_remove. Qed.

Definition keeps (F : znode -> znode) : Prop := forall n, n_vals n -> n_vals (F n).

Lemma keeps_update_special v s : match s with Some x => special_vals x | None => True end -> keeps (fun n => n_update_special n v s).
Proof.
  intros Hs [rs sp ch] H. inversion H; subst. unfold n_update_special, set_special. cbn [n_rrsets n_special n_children].
  constructor; [assumption| |assumption]. apply Forall_v_update; [destruct s; exact Hs|assumption].
Qed.
Lemma keeps_check_nx v : keeps (fun n => check_nx n v).
Proof.
  intros n H. destruct (check_nx_cases n v) as [->|[->| ->]];
    [exact H|now apply (keeps_update_special v None)|now apply (keeps_update_special v (Some SNx))].
Qed.
Lemma keeps_set_rrsets (G : rrsets -> rrsets) : (forall rs, rs_vals rs -> rs_vals (G rs)) -> keeps (fun n => set_rrsets n (G (n_rrsets n))).
Proof. intros HG [rs sp ch] H. inversion H; subst. unfold set_rrsets. cbn [n_rrsets n_special n_children]. constructor; auto. Qed.

Lemma keeps_update_rrset t rr v : Q rr \/ rrv_is_empty rr = true -> keeps (fun n => n_update_rrset n t rr v).
Proof.
  intros Hrr n H. unfold n_update_rrset. apply keeps_check_nx.
  apply (keeps_set_rrsets (fun rs => rs_update rs t rr v)); [|exact H]. intros rs Hrs. now apply rs_update_vals.
Qed.
Lemma keeps_remove_rrset t v : keeps (fun n => n_remove_rrset n t v).
Proof.
  intros n H. unfold n_remove_rrset. apply keeps_check_nx.
  apply (keeps_set_rrsets (fun rs => rs_remove_rtype rs t v)); [|exact H]. intros rs Hrs. now apply rs_remove_vals.
Qed.
Lemma keeps_make_regular v : keeps (fun n => n_make_regular n v).
Proof. intros n H. unfold n_make_regular. apply keeps_check_nx. now apply (keeps_update_special v None). Qed.

(* rollback and remove_all: a cell function on every cell of the subtree *)
Lemma keeps_all F f g :
  (forall rs sp ch, F (mknode rs sp ch) = mknode (rs_all f rs) (g sp) (al_map F ch)) ->
  (forall d, cell_vals d -> cell_vals (f d)) -> (forall sp, sp_vals sp -> sp_vals (g sp)) -> keeps F.
Proof.
  intros HF Hf Hg n. induction n as [rs sp ch IH] using znode_ind'. intros H. inversion H as [? ? ? H1 H2 H3]; subst.
  rewrite HF. constructor; [now apply rs_all_vals|now apply Hg|].
  unfold al_map. rewrite Forall_map. rewrite Forall_forall in *. intros p Hin. exact (IH p Hin (H3 p Hin)).
Qed.
Lemma keeps_remove_all v : keeps (fun n => n_remove_all n v).
Proof.
  apply (keeps_all _ (fun d => v_remove d v) (fun sp => v_remove sp v)); [reflexivity| |]; intros d Hd; now apply Forall_v_remove.
Qed.
Lemma keeps_rollback v : keeps (fun n => n_rollback n v).
Proof.
  apply (keeps_all _ (fun d => v_rollback d v) (fun sp => v_rollback sp v)); [reflexivity| |]; intros d Hd; now apply Forall_v_rollback.
Qed.

Lemma path_do_vals fresh f : n_vals fresh -> keeps f -> forall p ns, ns_vals ns -> ns_vals (path_do ns p fresh f).
Proof.
  intros Hfresh Hf. induction p as [|l rest IH]; intros ns H; cbn [path_do]; [exact H|].
  apply (Forall_al_upd n_vals); [|exact Hfresh|exact H].
  intros n Hn. destruct rest as [|l' rest']; [now apply Hf|].
  destruct n as [rs sp ch]. inversion Hn; subst. unfold set_children. cbn [n_rrsets n_special n_children].
  constructor; [assumption|assumption|]. now apply IH.
Qed.

Lemma empty_vals : n_vals empty_node.
Proof. constructor; constructor. Qed.
Lemma fresh_vals v : n_vals (fresh_node v).
Proof. unfold fresh_node. cbv [update_child_creates_node]. apply keeps_make_regular. apply empty_vals. Qed.

Fixpoint ev_vals (e : event) : Prop :=
  match e with
  | EUpdate _ _ rr => Q rr \/ rrv_is_empty rr = true
  | ECname _ c => Q c
  | ECut _ ns ds glue => Q ns /\ optQ ds /\ optQ glue
  | EStale e' => ev_vals e'
  | _ => True
  end.
Definition init_vals (i : init) : Prop :=
  match i with
  | IRrset _ _ rr => Q rr \/ rrv_is_empty rr = true
  | ICname _ c => Q c
  | ICut _ ns ds glue => Q ns /\ optQ ds /\ optQ glue
  end.
(* an SOA derived by commit(true): the old TTL, one record, serial + 1 *)
Definition bump_closed : Prop :=
  forall x ttl d, Q x -> rrv_first x = Some (ttl, d) -> Q (ttl, [ver_next d]).

Lemma v_get_in {T} (d : list (entry T)) v x : v_get d v = Some x -> exists u, In (u, Some x) d.
Proof.
  induction d as [|[lv lx] rest IH]; [discriminate|]. rewrite v_get_cons.
  destruct (ver_le lv v).
  - intros ->. exists lv. now left.
  - intros H. destruct (IH H) as [u Hu]. exists u. now right.
Qed.

(* what is read out of a cell is stored in it *)
Lemma stored_vals rs t d v rr : rs_vals rs -> In (t, d) rs -> v_get d v = Some rr -> Q rr.
Proof.
  intros H Hin Hg. destruct (v_get_in _ _ _ Hg) as [u Hu]. unfold rs_vals in H. rewrite Forall_forall in H.
  specialize (H (t, d) Hin). cbn [snd] in H. unfold cell_vals in H. rewrite Forall_forall in H. exact (H _ Hu).
Qed.

Lemma rs_get_vals rs t v x : rs_vals rs -> rs_get rs t v = Some x -> Q x.
Proof.
  intros H E. unfold rs_get, cell in E. destruct (al_get t rs) as [d|] eqn:G; [|discriminate E].
  destruct (al_get_in _ _ _ G) as [k Hin]. exact (stored_vals rs k d v x H Hin E).
Qed.
Lemma sp_get_vals sp v s : sp_vals sp -> sp_get sp v = Some s -> special_vals s.
Proof.
  intros H E. unfold sp_get in E. destruct (v_get sp v) as [[s'|]|] eqn:G; try discriminate. inversion E; subst.
  destruct (v_get_in _ _ _ G) as [u Hin]. unfold sp_vals in H. rewrite Forall_forall in H. exact (H _ Hin).
Qed.

Lemma data_op_vals s v e : ev_vals e -> z_vals s -> z_vals (data_op s v e).
Proof.
  intros He [Ha Hn].
  assert (Hchild : forall name F, keeps F -> z_vals (at_node s v name F)).
  { intros name F HF. unfold at_node. destruct name; [split; assumption|].
    split; cbn [set_nodes z_apex z_nodes]; [exact Ha|]. unfold child_do. apply path_do_vals; [apply fresh_vals|exact HF|exact Hn]. }
  destruct e; cbn [data_op ev_vals] in *; try (split; assumption).
  - destruct name; [split; cbn [set_apex z_apex z_nodes]; [now apply rs_update_vals|exact Hn]|].
    apply Hchild. now apply keeps_update_rrset.
  - destruct name; [split; cbn [set_apex z_apex z_nodes]; [now apply rs_remove_vals|exact Hn]|].
    apply Hchild. apply keeps_remove_rrset.
  - apply Hchild. intros n H. exact H.
  - unfold z_remove_all. cbv [apex_remove_all_rrsets apex_remove_all_children]. split; cbn [z_apex z_nodes].
    + apply rs_all_vals; [|exact Ha]. intros d Hd. now apply Forall_v_remove.
    + apply (Forall_al_map n_vals); [apply keeps_remove_all|exact Hn].
  - apply Hchild. apply keeps_remove_all.
  - apply Hchild. unfold n_make_cname. now apply (keeps_update_special v (Some (SCname id))).
  - apply Hchild. unfold n_make_cut. now apply (keeps_update_special v (Some (SCut ns ds glue))).
  - apply Hchild. apply keeps_make_regular.
Qed.

Lemma step_vals s e : bump_closed -> ev_vals e -> z_vals s -> z_vals (step s e).
Proof.
  intros Hb He H.
  assert (Hdata : forall v e', ev_vals e' -> z_vals (data_op s v e')) by (intros; now apply data_op_vals).
  assert (Hroll : forall v, z_vals (z_rollback s v)).
  { intros v. destruct H as [Ha Hn]. rewrite z_rollback_eq. split; cbn [z_apex z_nodes].
    - apply rs_all_vals; [|exact Ha]. intros d Hd. now apply Forall_v_rollback.
    - apply (Forall_al_map n_vals); [apply keeps_rollback|exact Hn]. }
  destruct e; cbn [step is_data ev_vals] in *;
    try (destruct (z_writer s) as [w|]; [destruct (w_open w); [now apply Hdata|exact H]|exact H]);
    try exact H.
  - destruct (z_writer s); [destruct writer_takes_mutex|]; exact H.
  - destruct (z_writer s); exact H.
  - destruct (z_writer s); exact H.
  - destruct (z_writer s) as [w|]; [|exact H]. cbv [commit_bumps_soa].
    change (z_vals (bump_soa s w)). unfold bump_soa, get_soa.
    destruct (rs_get (z_apex s) 6 (z_cur s)) as [x|] eqn:E; [|exact H].
    destruct (rrv_first x) as [[ttl d]|] eqn:F; [|exact H].
    destruct (match match rs_get (z_apex s) 6 (w_new w) with Some x0 => rrv_first x0 | None => None end with
              | Some new => soa_eqb new (ttl, d) | None => true end); [|exact H].
    destruct H as [Ha Hn]. split; cbn [set_apex z_apex z_nodes]; [|exact Hn].
    apply rs_at_vals; [|exact Ha]. intros d0 Hd0. apply Forall_v_update; [|exact Hd0].
    cbn [fst snd]. apply (Hb x ttl d); [now apply (rs_get_vals (z_apex s) 6 (z_cur s))|exact F].
  - destruct (z_writer s) as [w|]; [|exact H].
    destruct (w_dirty w && drop_rolls_back_when_dirty); [exact (Hroll (w_new w))|exact H].
  - destruct stale_handle_rejected; [exact H|]. destruct (z_handle s); [|exact H].
    destruct (is_data e); [now apply Hdata|exact H].
Qed.

Lemma build_vals is : Forall init_vals is -> z_vals (build is).
Proof.
  unfold build. assert (H : forall s, z_vals s -> Forall init_vals is -> z_vals (fold_left build_one is s)).
  { induction is as [|i tl IH]; intros s Hs Hi; [exact Hs|]. inversion Hi; subst. cbn [fold_left]. apply IH; [|assumption].
    destruct Hs as [Ha Hn].
    assert (Hnodes : forall name f, keeps f -> z_vals (set_nodes s (path_do (z_nodes s) name empty_node f))).
    { intros name f Hf. split; [exact Ha|]. apply path_do_vals; [apply empty_vals|exact Hf|exact Hn]. }
    destruct i as [name t rr|name c|name ns ds glue]; cbn [build_one init_vals] in *; destruct name;
      try (split; assumption); try apply Hnodes.
    - split; [now apply rs_update_vals|exact Hn].
    - apply (keeps_set_rrsets (fun rs => rs_update rs t rr 0)). intros rs Hrs. now apply rs_update_vals.
    - now apply (keeps_update_special 0 (Some (SCname c))).
    - now apply (keeps_update_special 0 (Some (SCut ns ds glue))). }
  intros Hi. apply H; [split; constructor|exact Hi].
Qed.

(* every stored RRset is a written one, over every history *)
Theorem stored_rrsets_were_written : forall is evs,
  bump_closed -> Forall init_vals is -> Forall ev_vals evs -> z_vals (run (build is) evs).
Proof.
  intros is evs Hb Hi He. unfold run.
  assert (H : forall s, z_vals s -> z_vals (fold_left step evs s)).
  { induction He as [|e tl He _ IH]; intros s Hs; [exact Hs|]. cbn [fold_left]. apply IH. now apply step_vals. }
  apply H. now apply build_vals.
Qed.

Definition answer_vals (a : answer) : Prop :=
  match a with
  | AData x => Q x
  | ACname c => Q c
  | ARefer ns ds glue => Q ns /\ optQ ds /\ optQ glue
  | _ => True
  end.

Lemma rrsets_answer_vals rs v t soa : rs_vals rs -> answer_vals (rrsets_answer rs v t soa).
Proof.
  intros H. unfold rrsets_answer. destruct (t =? 255); [destruct (rs_is_empty rs v); exact I|].
  destruct (rs_get rs t v) as [x|] eqn:E; [|exact I]. exact (rs_get_vals rs t v x H E).
Qed.

Lemma node_here_vals n v t soa : n_vals n -> answer_vals (node_here n v t soa).
Proof.
  intros H. destruct n as [rs sp ch]. inversion H as [? ? ? Hrs Hsp Hch]; subst. unfold node_here, n_with_special. cbn [n_rrsets n_special].
  destruct (sp_get sp v) as [[ns ds glue|c|]|] eqn:E.
  - pose proof (sp_get_vals sp v _ Hsp E) as [Ha [Hb Hc]].
    destruct (t =? 43); [destruct ds; [exact Hb|exact I]|repeat split; assumption].
  - exact (sp_get_vals sp v _ Hsp E).
  - cbv [nx_marker_answers_like_regular]. now apply rrsets_answer_vals.
  - now apply rrsets_answer_vals.
Qed.

Lemma child_at_vals ns l v n : ns_vals ns -> child_at ns l v = Some n -> n_vals n.
Proof.
  intros H E. unfold child_at in E. destruct (al_get l ns) as [m|] eqn:G; [|discriminate].
  assert (Hm : n_vals m). { destruct (al_get_in _ _ _ G) as [k Hin]. unfold ns_vals in H. rewrite Forall_forall in H. exact (H _ Hin). }
  destruct query_follows_only_existing_children; [destruct (n_exists m v); inversion E; subst; exact Hm|inversion E; subst; exact Hm].
Qed.

Lemma q_children_vals v t soa : forall p ns, ns_vals ns -> answer_vals (q_children ns p v t soa).
Proof.
  induction p as [|l rest IH]; intros ns H; [exact I|]. cbn [q_children].
  destruct (child_at ns l v) as [n|] eqn:E.
  - pose proof (child_at_vals ns l v n H E) as Hn.
    destruct rest as [|l' rest']; [now apply node_here_vals|].
    destruct n as [rs sp ch]. inversion Hn as [? ? ? Hrs Hsp Hch]; subst. unfold n_with_special. cbn [n_special n_children].
    destruct (sp_get sp v) as [[ns' ds glue|c|]|] eqn:G; try (now apply IH).
    exact (sp_get_vals sp v _ Hsp G).
  - destruct (child_at ns 1 v) as [n|] eqn:E1; [|exact I]. apply node_here_vals. exact (child_at_vals ns 1 v n H E1).
Qed.

(* a walk lists records the tree has (ProofsTrace.walk_exact), and those are stored *)
Lemma n_has_vals v path n x : n_has v path n x -> n_vals n -> Q (snd x).
Proof.
  induction 1 as [path rs sp ch t d rr Hin Hg|path rs sp ch ns ds glue E|path rs sp ch ns d glue E
                 |path rs sp ch ns ds g E|path rs sp ch id E|path rs sp ch k c x Hnc Hin Hx IH];
    intros H; inversion H as [? ? ? Hrs Hsp Hch]; subst; cbn [snd].
  - exact (stored_vals rs t d v rr Hrs Hin Hg).
  - exact (proj1 (sp_get_vals sp v _ Hsp E)).
  - exact (proj1 (proj2 (sp_get_vals sp v _ Hsp E))).
  - exact (proj2 (proj2 (sp_get_vals sp v _ Hsp E))).
  - exact (sp_get_vals sp v _ Hsp E).
  - apply IH. rewrite Forall_forall in Hch. exact (Hch (k, c) Hin).
Qed.
End Vals.

Theorem query_vals (Q : rrv -> Prop) s v name t : z_vals Q s -> answer_vals Q (query s v name t).
Proof.
  intros [Ha Hn]. unfold query. destruct name; [now apply rrsets_answer_vals|now apply q_children_vals].
Qed.

Theorem walk_vals (Q : rrv -> Prop) s v : z_vals Q s -> Forall (fun it => Q (snd it)) (walk s v).
Proof.
  intros [Ha Hn]. rewrite Forall_forall. intros x Hx. apply walk_exact in Hx.
  destruct Hx as [[t [d [rr [-> [Hin Hg]]]]]|[k [n [Hin Hx]]]]; [exact (stored_vals Q _ t d v rr Ha Hin Hg)|].
  apply (n_has_vals Q v [k] n x Hx). unfold ns_vals in Hn. rewrite Forall_forall in Hn. exact (Hn (k, n) Hin).
Qed.

(* no torn RRset: whatever API calls are made, every RRset in an answer or a walk of
   any reader is, TTL and records together, one of the RRsets that were written
   (or an SOA that commit(true) derived from a written one) *)
Theorem no_torn_rrset : forall (Q : rrv -> Prop) is evs v name t,
  bump_closed Q -> Forall (init_vals Q) is -> Forall (ev_vals Q) evs ->
  answer_vals Q (query (run (build is) evs) v name t) /\
  Forall (fun it => Q (snd it)) (walk (run (build is) evs) v).
Proof.
  intros Q is evs v name t Hb Hi He. pose proof (stored_rrsets_were_written Q is evs Hb Hi He) as H.
  split; [now apply query_vals|now apply walk_vals].
Qed.

(* non-vacuity: Q = "is one of these two RRsets or a one-record RRset" *)
Example ex_no_torn :
  let a := (3604, [44; 45; 46]) in let b := (3601, [100; 101]) in
  let Q := fun x : rrv => x = a \/ x = b \/ exists ttl s, x = (ttl, [s]) in
  answer_vals Q (query (run (build [IRrset [] 6 (3600, [5]); IRrset [2] 1 a]) [EWAcquire; EWOpen; EUpdate [2] 1 b; ECommitBump]) 1 [2] 1).
Proof.
  intros a b Q.
  refine (proj1 (no_torn_rrset Q [IRrset [] 6 (3600, [5]); IRrset [2] 1 a] [EWAcquire; EWOpen; EUpdate [2] 1 b; ECommitBump] 1 [2] 1 _ _ _)).
  - intros x ttl d Hx Hf. right; right; eauto.
  - constructor; [cbn; left; right; right; eauto|constructor; [cbn; left; now left|constructor]].
  - repeat (constructor; [cbn; try exact I; try (left; right; now left)|]). constructor.
Qed.

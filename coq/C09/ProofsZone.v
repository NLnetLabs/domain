(* C09 proofs: cells inside NodeRrsets / ZoneNode / the zone.  For a writer of
   version w the base of a tree is what rollback of w would leave of it.  Every data
   operation of that writer leaves the base the same to every reader (data_op_base),
   and a reader below w reads the base (z_sim_rollback). *)
From Coq Require Import NArith List Bool Lia.
From DV Require Import C09.Gen C09.Model C09.Proofs.
Import ListNotations.
Local Open Scope N_scope.

(* the cell minus a last entry of version w holds versions <= c only *)
Definition cq {T} (c w : N) (d : list (entry T)) : Prop := le_all c (v_rollback d w).

Lemma cq_nov {T} c w (d : list (entry T)) : c < w -> cq c w d -> nov w (v_rollback d w).
Proof. intros Hc H. eapply Forall_impl; [|exact H]. cbn. intros; lia. Qed.

(* f does not touch anything but a last entry of version w *)
Definition wl {T} (w : N) (f : list (entry T) -> list (entry T)) : Prop :=
  forall d, nov w (v_rollback d w) -> v_rollback (f d) w = v_rollback d w.

Lemma wl_update {T} w (x : T) : wl w (fun d => v_update d w x).
Proof. intros d Hd. exact (rollback_apply w d (CUpd w x) Hd eq_refl). Qed.
Lemma wl_remove {T} w : @wl T w (fun d => v_remove d w).
Proof. intros d Hd. exact (rollback_apply w d (CRem w) Hd eq_refl). Qed.
Lemma wl_id {T} w : @wl T w (fun d => d).
Proof. intros d _. reflexivity. Qed.

Lemma wl_cq {T} c w (f : list (entry T) -> list (entry T)) d :
  c < w -> wl w f -> cq c w d -> cq c w (f d).
Proof. intros Hc Hf Hd. unfold cq. rewrite (Hf d (cq_nov c w d Hc Hd)). exact Hd. Qed.

Lemma cq_nil {T} c w : @cq T c w [].
Proof. constructor. Qed.

Lemma rollback_id {T} c w (d : list (entry T)) : c < w -> le_all c d -> v_rollback d w = d.
Proof. intros Hc Hd. apply rollback_nov. eapply Forall_impl; [|exact Hd]. cbn. intros; lia. Qed.

Lemma cq_of_le {T} c w (d : list (entry T)) : c < w -> le_all c d -> cq c w d.
Proof. intros Hc Hd. unfold cq. now rewrite (rollback_id c w d Hc Hd). Qed.

Lemma le_of_cq {T} c (d : list (entry T)) : cq c (c + 1) d -> le_all (c + 1) d.
Proof.
  unfold cq. rewrite v_rollback_eq. destruct d as [|[lv lx] rest]; [constructor|].
  destruct (N.eqb_spec lv (c + 1)) as [->|_]; intros H.
  - constructor; [cbn; lia|]. eapply le_all_weaken; [|exact H]. lia.
  - eapply le_all_weaken; [|exact H]. lia.
Qed.

Lemma le_rollback {T} c w (d : list (entry T)) : le_all c d -> le_all c (v_rollback d w).
Proof. apply Forall_v_rollback. Qed.

Lemma al_get_upd {A} k k' (f : A -> A) dflt (l : list (N * A)) :
  al_get k' (al_upd k f dflt l) =
  if k' =? k then Some (f (match al_get k l with Some a => a | None => dflt end)) else al_get k' l.
Proof.
  induction l as [|[k0 a] tl IH]; cbn [al_upd al_get].
  - rewrite (N.eqb_sym k k'). destruct (k' =? k); reflexivity.
  - destruct (N.eqb_spec k0 k) as [->|Hne]; cbn [al_get].
    + rewrite (N.eqb_sym k k'). destruct (k' =? k); reflexivity.
    + rewrite IH. destruct (N.eqb_spec k' k) as [->|_].
      * destruct (N.eqb_spec k0 k); [contradiction|reflexivity].
      * reflexivity.
Qed.

Lemma al_get_map {A} k (g : A -> A) (l : list (N * A)) :
  al_get k (al_map g l) = option_map g (al_get k l).
Proof.
  induction l as [|[k0 a] tl IH]; [reflexivity|]. cbn [al_map map al_get fst snd].
  destruct (k0 =? k); [reflexivity|exact IH].
Qed.

Lemma al_map_id {A} (g : A -> A) (l : list (N * A)) :
  (forall p, In p l -> g (snd p) = snd p) -> al_map g l = l.
Proof.
  intros H. unfold al_map. rewrite <- (map_id l) at 2. apply map_ext_in.
  intros [k a] Hin. cbn. f_equal. exact (H (k, a) Hin).
Qed.

Lemma al_map_same {A} (l : list (N * A)) : al_map (fun a => a) l = l.
Proof. now apply al_map_id. Qed.

Lemma al_map_map {A} (g h : A -> A) (l : list (N * A)) :
  al_map g (al_map h l) = al_map (fun a => g (h a)) l.
Proof. unfold al_map. rewrite map_map. apply map_ext. intros [k a]. reflexivity. Qed.

Lemma Forall_al_upd {A} (Q : A -> Prop) k f dflt (l : list (N * A)) :
  (forall a, Q a -> Q (f a)) -> Q dflt ->
  Forall (fun p => Q (snd p)) l -> Forall (fun p => Q (snd p)) (al_upd k f dflt l).
Proof.
  intros Hf Hd H. induction H as [|[k0 a] tl Ha Htl IH]; cbn [al_upd].
  - constructor; [cbn; auto|constructor].
  - destruct (k0 =? k); constructor; cbn in *; auto.
Qed.

Lemma Forall_al_map {A} (Q : A -> Prop) g (l : list (N * A)) :
  (forall a, Q a -> Q (g a)) ->
  Forall (fun p => Q (snd p)) l -> Forall (fun p => Q (snd p)) (al_map g l).
Proof.
  intros Hg H. induction H as [|[k0 a] tl Ha _ IH]; cbn; constructor; cbn in *; auto.
Qed.

Definition rs_q (c w : N) (rs : rrsets) : Prop := Forall (fun p => cq c w (snd p)) rs.

Lemma cell_upd t t' f (rs : rrsets) :
  cell t' (al_upd t f [] rs) = if t' =? t then f (cell t rs) else cell t' rs.
Proof. unfold cell. rewrite al_get_upd. destruct (t' =? t); reflexivity. Qed.

Lemma cell_map t g (rs : rrsets) : g [] = [] -> cell t (al_map g rs) = g (cell t rs).
Proof. intros Hg. unfold cell. rewrite al_get_map. destruct (al_get t rs); cbn; auto. Qed.

Lemma cell_Forall (P : list (entry rrv) -> Prop) t rs : P [] -> Forall (fun p => P (snd p)) rs -> P (cell t rs).
Proof.
  intros H0 H. unfold cell. induction H as [|[k d] tl Hd _ IH]; cbn [al_get]; [exact H0|].
  destruct (k =? t); [exact Hd|exact IH].
Qed.

Lemma cell_q c w t rs : rs_q c w rs -> cq c w (cell t rs).
Proof. apply cell_Forall, cq_nil. Qed.

Lemma walk_rrsets_cons {A} (nm : A) k d (tl : rrsets) v :
  walk_rrsets nm ((k, d) :: tl) v =
  (match v_get d v with Some rr => [(nm, k, rr)] | None => [] end) ++ walk_rrsets nm tl v.
Proof. reflexivity. Qed.

Lemma in_walk_rrsets {A} (nm : A) rs v x :
  In x (walk_rrsets nm rs v) <-> exists t d rr, x = (nm, t, rr) /\ In (t, d) rs /\ v_get d v = Some rr.
Proof.
  unfold walk_rrsets. rewrite in_flat_map. split.
  - intros [[k d] [Hin Hx]]. cbn [fst snd] in Hx. destruct (v_get d v) as [y|] eqn:E; [|destruct Hx].
    destruct Hx as [Hx|[]]. subst x. exists k, d, y. repeat split; assumption.
  - intros [t [d [rr [-> [Hin Hg]]]]]. exists (t, d). split; [exact Hin|]. cbn [fst snd]. rewrite Hg. now left.
Qed.

Lemma is_empty_walk {A} (nm : A) rs v :
  rs_is_empty rs v = match walk_rrsets nm rs v with [] => true | _ => false end.
Proof.
  induction rs as [|[k d] tl IH]; [reflexivity|].
  rewrite walk_rrsets_cons. cbn [rs_is_empty forallb snd]. destruct (v_get d v); [reflexivity|exact IH].
Qed.

Lemma rs_all_base c w f rs :
  c < w -> wl w f -> rs_q c w rs -> rs_rollback (rs_all f rs) w = rs_rollback rs w.
Proof.
  intros Hc Hf H. unfold rs_rollback, rs_all, al_map. rewrite map_map. apply map_ext_in.
  intros [k d] Hin. cbn. f_equal. apply Hf. apply (cq_nov c); [exact Hc|].
  unfold rs_q in H. rewrite Forall_forall in H. exact (H (k, d) Hin).
Qed.

Lemma rs_at_q c w t f rs : c < w -> wl w f -> rs_q c w rs -> rs_q c w (rs_at t f rs).
Proof.
  intros Hc Hf H. apply Forall_al_upd; [|apply cq_nil|exact H].
  intros d Hd. now apply wl_cq.
Qed.
Lemma rs_all_q c w f rs : c < w -> wl w f -> rs_q c w rs -> rs_q c w (rs_all f rs).
Proof. intros Hc Hf H. apply Forall_al_map; [|exact H]. intros d Hd. now apply wl_cq. Qed.

Lemma rs_rollback_id c w rs : c < w -> Forall (fun p => le_all c (snd p)) rs -> rs_rollback rs w = rs.
Proof.
  intros Hc H. unfold rs_rollback, rs_all. apply al_map_id. intros p Hin.
  rewrite Forall_forall in H. exact (rollback_id c w _ Hc (H _ Hin)).
Qed.

Lemma znode_ind' (P : znode -> Prop) :
  (forall rs sp ch, Forall (fun p => P (snd p)) ch -> P (mknode rs sp ch)) -> forall n, P n.
Proof.
  intros H. fix IH 1. intros [rs sp ch]. apply H.
  induction ch as [|[k c] tl IHl]; constructor; [apply IH|exact IHl].
Qed.

(* a property of every cell of a subtree *)
Section AllCells.
Variable P : forall T, list (entry T) -> Prop.
Inductive n_all : znode -> Prop :=
| n_all_intro rs sp ch :
    Forall (fun p => P _ (snd p)) rs -> P _ sp -> Forall (fun p => n_all (snd p)) ch ->
    n_all (mknode rs sp ch).
Definition ns_all (ns : list (N * znode)) : Prop := Forall (fun p => n_all (snd p)) ns.
End AllCells.

Lemma n_all_impl (P Q : forall T, list (entry T) -> Prop) :
  (forall T d, P T d -> Q T d) -> forall n, n_all P n -> n_all Q n.
Proof.
  intros HPQ. induction n as [rs sp ch IH] using znode_ind'. intros H. inversion H as [? ? ? H1 H2 H3]; subst.
  constructor.
  - eapply Forall_impl; [|exact H1]. intros p. apply HPQ.
  - now apply HPQ.
  - rewrite Forall_forall in *. intros p Hin. apply (IH p Hin). exact (H3 p Hin).
Qed.

Lemma ns_all_impl (P Q : forall T, list (entry T) -> Prop) ns :
  (forall T d, P T d -> Q T d) -> ns_all P ns -> ns_all Q ns.
Proof. intros HPQ H. eapply Forall_impl; [|exact H]. intros p. now apply n_all_impl. Qed.

Definition n_q (c w : N) : znode -> Prop := n_all (fun T d => cq c w d).
Definition ns_q (c w : N) : list (N * znode) -> Prop := ns_all (fun T d => cq c w d).

Lemma n_q_inv c w rs sp ch :
  n_q c w (mknode rs sp ch) -> rs_q c w rs /\ cq c w sp /\ ns_q c w ch.
Proof. intros H. inversion H; subst. repeat split; assumption. Qed.

Lemma n_q_empty c w : n_q c w empty_node.
Proof. constructor; constructor. Qed.

Lemma n_rollback_eq rs sp ch w :
  n_rollback (mknode rs sp ch) w =
  mknode (rs_rollback rs w) (v_rollback sp w) (al_map (fun n => n_rollback n w) ch).
Proof. reflexivity. Qed.
Lemma n_remove_all_eq rs sp ch w :
  n_remove_all (mknode rs sp ch) w =
  mknode (rs_remove_all rs w) (v_remove sp w) (al_map (fun n => n_remove_all n w) ch).
Proof. reflexivity. Qed.
Lemma n_exists_eq rs sp ch v :
  n_exists (mknode rs sp ch) v = own_data rs sp v || existsb (fun p => n_exists (snd p) v) ch.
Proof. reflexivity. Qed.
Lemma walk_node_eq path rs sp ch v :
  walk_node path (mknode rs sp ch) v =
  walk_rrsets path rs v ++
  match sp_get sp v with
  | Some (SCut ns ds glue) => [(path, 2, ns)] ++ opt_item path 43 ds ++ opt_item path 1 glue
  | Some (SCname id) => [(path, 5, id)] ++ flat_map (fun p => walk_node (path ++ [fst p]) (snd p) v) ch
  | _ => flat_map (fun p => walk_node (path ++ [fst p]) (snd p) v) ch
  end.
Proof. reflexivity. Qed.
Lemma z_rollback_eq s w :
  z_rollback s w = mkz (z_cur s) (rs_rollback (z_apex s) w) (al_map (fun n => n_rollback n w) (z_nodes s)) (z_writer s) (z_handle s).
Proof. reflexivity. Qed.

Lemma existsb_false {A} (f : A -> bool) l : (forall x, In x l -> f x = false) -> existsb f l = false.
Proof. induction l as [|a tl IH]; intros H; [reflexivity|]. cbn [existsb]. rewrite (H a (or_introl eq_refl)). apply IH. intros x Hx. apply H. now right. Qed.
Lemma flat_map_nil {A B} (f : A -> list B) l : (forall x, In x l -> f x = []) -> flat_map f l = [].
Proof. induction l as [|a tl IH]; intros H; [reflexivity|]. cbn [flat_map]. rewrite (H a (or_introl eq_refl)). apply IH. intros x Hx. apply H. now right. Qed.

(* a node whose name does not exist in version v (created by an uncommitted, an
   abandoned or a later version, or emptied) contributes nothing to a walk at v *)
Lemma not_exists_walk v : forall n, n_exists n v = false -> forall path, walk_node path n v = [].
Proof.
  induction n as [rs sp ch IH] using znode_ind'. intros H path. rewrite n_exists_eq in H.
  apply orb_false_elim in H. destruct H as [Hown Hkids]. cbv [exists_counts_children] in Hkids.
  unfold own_data in Hown. cbv [exists_counts_rrsets exists_counts_cname] in Hown.
  apply orb_false_elim in Hown. destruct Hown as [He Hsp]. apply negb_false_iff in He.
  rewrite walk_node_eq.
  rewrite (is_empty_walk path) in He. destruct (walk_rrsets path rs v); [|discriminate]. cbn [app].
  assert (Hk : flat_map (fun p => walk_node (path ++ [fst p]) (snd p) v) ch = []).
  { apply flat_map_nil. intros p Hin. rewrite Forall_forall in IH. apply (IH p Hin).
    destruct (n_exists (snd p) v) eqn:E; [|reflexivity].
    assert (existsb (fun q => n_exists (snd q) v) ch = true) by (apply existsb_exists; exists p; split; assumption). congruence. }
  destruct (sp_get sp v) as [[ns ds glue|id|]|]; try discriminate; exact Hk.
Qed.

Lemma al_get_in {A} k (l : list (N * A)) y : al_get k l = Some y -> exists k', In (k', y) l.
Proof.
  induction l as [|[k0 a] tl IH]; cbn [al_get]; [discriminate|].
  destruct (k0 =? k); [intros E; inversion E; subst; eexists; now left|].
  intros E. destruct (IH E) as [k' Hin]. eexists; right; eauto.
Qed.

Lemma al_get_filter {A} l k (ns : list (N * A)) :
  al_get k (filter (fun p => negb (fst p =? l)) ns) = if k =? l then None else al_get k ns.
Proof.
  induction ns as [|[k0 a] tl IH]; cbn [filter al_get fst]; [now destruct (k =? l)|].
  destruct (N.eqb_spec k0 l) as [->|Hne]; cbn [negb al_get].
  - rewrite IH. rewrite (N.eqb_sym l k). destruct (N.eqb_spec k l); reflexivity.
  - rewrite IH. destruct (N.eqb_spec k0 k) as [->|Hk]; [|reflexivity].
    destruct (N.eqb_spec k l); [contradiction|reflexivity].
Qed.

(* ... and to a query it is as if the node were not in the tree at all: the same
   answers for every name, in particular for names two or more labels below it
   and for the wildcard fallback beside it *)
Theorem nonexistent_node_is_absent : forall ns l v t soa,
  child_at ns l v = None ->
  forall p, q_children ns p v t soa = q_children (filter (fun q => negb (fst q =? l)) ns) p v t soa.
Proof.
  intros ns l v t soa Hl p.
  assert (Hc : forall k, child_at (filter (fun q => negb (fst q =? l)) ns) k v = child_at ns k v).
  { intros k. unfold child_at. rewrite al_get_filter. destruct (N.eqb_spec k l) as [->|_]; [|reflexivity].
    unfold child_at in Hl. symmetry. exact Hl. }
  destruct p as [|k rest]; [reflexivity|]. cbn [q_children]. now rewrite !Hc.
Qed.

(* Two trees that a reader of version v cannot tell apart: node by node the same
   reads at v, and the second may have more nodes that do not exist at v. *)
Section Sim.
Variable v : N.

Definition rs_sim (a b : rrsets) : Prop :=
  (forall t, rs_get a t v = rs_get b t v) /\ (forall nm : list N, walk_rrsets nm a v = walk_rrsets nm b v).

Lemma rs_sim_refl a : rs_sim a a.
Proof. split; reflexivity. Qed.
Lemma rs_sim_trans a b c : rs_sim a b -> rs_sim b c -> rs_sim a c.
Proof. intros [H1 H2] [H3 H4]. split; intros; [now rewrite H1|now rewrite H2]. Qed.

Lemma is_empty_sim a b : rs_sim a b -> rs_is_empty a v = rs_is_empty b v.
Proof. intros [_ H]. now rewrite !(is_empty_walk (@nil N)), H. Qed.

Lemma rrsets_answer_sim a b t soa : rs_sim a b -> rrsets_answer a v t soa = rrsets_answer b v t soa.
Proof. intros H. unfold rrsets_answer. now rewrite (is_empty_sim _ _ H), (proj1 H t). Qed.

Inductive n_sim : znode -> znode -> Prop :=
| n_sim_intro rs sp ch rs' sp' ch' :
    rs_sim rs rs' -> sp_get sp v = sp_get sp' v -> ns_sim ch ch' -> n_sim (mknode rs sp ch) (mknode rs' sp' ch')
with ns_sim : list (N * znode) -> list (N * znode) -> Prop :=
| ns_sim_nil extra : Forall (fun p => n_exists (snd p) v = false) extra -> ns_sim [] extra
| ns_sim_cons k n n' a b : n_sim n n' -> ns_sim a b -> ns_sim ((k, n) :: a) ((k, n') :: b).

Scheme n_sim_min := Minimality for n_sim Sort Prop
  with ns_sim_min := Minimality for ns_sim Sort Prop.
Combined Scheme sim_mut from n_sim_min, ns_sim_min.

Lemma n_sim_inv a b :
  n_sim a b ->
  rs_sim (n_rrsets a) (n_rrsets b) /\ n_with_special a v = n_with_special b v /\ ns_sim (n_children a) (n_children b).
Proof. intros H. destruct H. split; [|split]; assumption. Qed.

Lemma ns_sim_map (g g' : znode -> znode) ch :
  Forall (fun p => n_sim (g (snd p)) (g' (snd p))) ch -> ns_sim (al_map g ch) (al_map g' ch).
Proof.
  intros H. induction H as [|[k n] tl Hn _ IH]; cbn [al_map map fst snd]; constructor; [constructor|exact Hn|exact IH].
Qed.

Lemma n_sim_refl n : n_sim n n.
Proof.
  induction n as [rs sp ch IH] using znode_ind'. constructor; [apply rs_sim_refl|reflexivity|].
  rewrite <- (al_map_same ch). now apply ns_sim_map.
Qed.
Lemma ns_sim_refl a : ns_sim a a.
Proof. rewrite <- (al_map_same a). apply ns_sim_map. apply Forall_forall. intros; apply n_sim_refl. Qed.

Lemma exists_sim_mut :
  (forall a b, n_sim a b -> n_exists a v = n_exists b v) /\
  (forall a b, ns_sim a b -> existsb (fun p => n_exists (snd p) v) a = existsb (fun p => n_exists (snd p) v) b).
Proof.
  apply sim_mut.
  - intros rs sp ch rs' sp' ch' Hr Hs _ IH. rewrite !n_exists_eq. unfold own_data.
    now rewrite (is_empty_sim _ _ Hr), Hs, IH.
  - intros extra He. symmetry. apply existsb_false. now apply Forall_forall.
  - intros k n n' a b _ IHn _ IHs. cbn [existsb snd]. now rewrite IHn, IHs.
Qed.
Definition n_exists_sim := proj1 exists_sim_mut.

Lemma gone_sim a b :
  ns_sim a b -> Forall (fun p => n_exists (snd p) v = false) a -> Forall (fun p => n_exists (snd p) v = false) b.
Proof.
  induction 1 as [extra He|k n n' a b Hn _ IH]; intros Ha; [exact He|].
  inversion Ha as [|? ? Hx Htl]; subst. cbn [snd] in Hx.
  constructor; [cbn [snd]; now rewrite <- (n_exists_sim _ _ Hn)|now apply IH].
Qed.

Lemma sim_trans_mut :
  (forall a b, n_sim a b -> forall c, n_sim b c -> n_sim a c) /\
  (forall a b, ns_sim a b -> forall c, ns_sim b c -> ns_sim a c).
Proof.
  apply sim_mut.
  - intros rs sp ch rs' sp' ch' Hr Hs _ IH c Hc. inversion Hc as [? ? ? rs'' sp'' ch'' Hr' Hs' Hc']; subst.
    constructor; [eapply rs_sim_trans; eauto|congruence|now apply IH].
  - intros extra He c Hc. constructor. exact (gone_sim _ _ Hc He).
  - intros k n n' a b _ IHn _ IHs c Hc. inversion Hc as [|? ? n'' ? c' Hn' Hc']; subst.
    constructor; [now apply IHn|now apply IHs].
Qed.
Definition n_sim_trans := proj1 sim_trans_mut.
Definition ns_sim_trans := proj2 sim_trans_mut.

Lemma node_here_sim a b t soa : n_sim a b -> node_here a v t soa = node_here b v t soa.
Proof.
  intros H. destruct (n_sim_inv _ _ H) as [Hr [Hs _]]. unfold node_here. rewrite Hs.
  now rewrite (rrsets_answer_sim _ _ t soa Hr).
Qed.

Lemma al_get_sim k a b :
  ns_sim a b ->
  match al_get k a, al_get k b with
  | Some x, Some y => n_sim x y
  | None, None => True
  | None, Some y => n_exists y v = false
  | Some _, None => False
  end.
Proof.
  intros H. induction H as [extra He|k0 n n' a b Hn _ IH]; cbn [al_get].
  - destruct (al_get k extra) as [y|] eqn:E; [|exact I].
    destruct (al_get_in _ _ _ E) as [k' Hin]. rewrite Forall_forall in He. exact (He _ Hin).
  - destruct (k0 =? k); [exact Hn|exact IH].
Qed.

Lemma child_at_sim k a b :
  ns_sim a b ->
  match child_at a k v, child_at b k v with
  | Some x, Some y => n_sim x y
  | None, None => True
  | _, _ => False
  end.
Proof.
  intros H. pose proof (al_get_sim k a b H) as Hg. unfold child_at. cbv [query_follows_only_existing_children].
  destruct (al_get k a) as [x|], (al_get k b) as [y|]; try contradiction.
  - rewrite (n_exists_sim _ _ Hg). destruct (n_exists y v); [exact Hg|exact I].
  - now rewrite Hg.
  - exact I.
Qed.

Lemma q_children_sim t soa : forall p a b, ns_sim a b -> q_children a p v t soa = q_children b p v t soa.
Proof.
  induction p as [|l rest IH]; intros a b H; [reflexivity|]. cbn [q_children].
  pose proof (child_at_sim l a b H) as H1. pose proof (child_at_sim 1 a b H) as H2.
  destruct (child_at a l v) as [x|], (child_at b l v) as [y|]; try contradiction.
  - destruct rest as [|l' rest']; [now apply node_here_sim|].
    destruct (n_sim_inv _ _ H1) as [_ [Hs Hch]]. rewrite Hs.
    destruct (n_with_special y v) as [[ns ds glue|id|]|]; try reflexivity; now apply IH.
  - destruct (child_at a 1 v), (child_at b 1 v); try contradiction; [now apply node_here_sim|reflexivity].
Qed.

Lemma walk_sim_mut :
  (forall a b, n_sim a b -> forall path, walk_node path a v = walk_node path b v) /\
  (forall a b, ns_sim a b -> forall path,
     flat_map (fun p => walk_node (path ++ [fst p]) (snd p) v) a =
     flat_map (fun p => walk_node (path ++ [fst p]) (snd p) v) b).
Proof.
  apply sim_mut.
  - intros rs sp ch rs' sp' ch' [_ Hw] Hs _ IH path. rewrite !walk_node_eq, Hw, Hs, IH. reflexivity.
  - intros extra He path. symmetry. apply flat_map_nil. intros p Hin. apply not_exists_walk.
    rewrite Forall_forall in He. exact (He p Hin).
  - intros k n n' a b _ IHn _ IHs path. cbn [flat_map fst snd]. now rewrite IHn, IHs.
Qed.

Definition z_sim (a b : zstate) : Prop := rs_sim (z_apex a) (z_apex b) /\ ns_sim (z_nodes a) (z_nodes b).

Lemma z_sim_same a b : z_apex a = z_apex b -> z_nodes a = z_nodes b -> z_sim a b.
Proof. intros E1 E2. unfold z_sim. rewrite E1, E2. split; [apply rs_sim_refl|apply ns_sim_refl]. Qed.
Lemma z_sim_trans a b c : z_sim a b -> z_sim b c -> z_sim a c.
Proof. intros [H1 H2] [H3 H4]. split; [eapply rs_sim_trans; eauto|eapply ns_sim_trans; eauto]. Qed.

Lemma z_sim_reads a b :
  z_sim a b -> (forall name t, query a v name t = query b v name t) /\ walk a v = walk b v.
Proof.
  intros [Ha Hn]. split.
  - intros name t. unfold query. rewrite (proj1 Ha 6).
    destruct name; [now apply rrsets_answer_sim|now apply q_children_sim].
  - unfold walk. rewrite (proj2 Ha []). f_equal. exact (proj2 walk_sim_mut _ _ Hn []).
Qed.

Lemma rs_sim_rollback w rs : ver_le w v = false -> rs_sim (rs_rollback rs w) rs.
Proof.
  intros Hr. unfold rs_rollback, rs_all. split.
  - intros t. unfold rs_get. rewrite cell_map by reflexivity. now apply get_base.
  - intros nm. induction rs as [|[k d] tl IH]; [reflexivity|].
    cbn [al_map map fst snd]. rewrite !walk_rrsets_cons, (get_base w d v Hr). f_equal. exact IH.
Qed.

Lemma n_sim_rollback w : ver_le w v = false -> forall n, n_sim (n_rollback n w) n.
Proof.
  intros Hr. induction n as [rs sp ch IH] using znode_ind'. rewrite n_rollback_eq.
  constructor; [now apply rs_sim_rollback|unfold sp_get; now rewrite get_base|].
  rewrite <- (al_map_same ch) at 2. now apply ns_sim_map.
Qed.

Lemma z_sim_rollback w s : ver_le w v = false -> z_sim (z_rollback s w) s.
Proof.
  intros Hr. rewrite z_rollback_eq. split; cbn [z_apex z_nodes]; [now apply rs_sim_rollback|].
  rewrite <- (al_map_same (z_nodes s)) at 2. apply ns_sim_map. apply Forall_forall. intros. now apply n_sim_rollback.
Qed.
End Sim.

(* x' is x after some work of the writer of w (c the current version): its cells
   still hold versions <= c under a last entry of w, and what rollback of w leaves
   of it reads, in every version, like what it leaves of x *)
Definition rs_based (c w : N) (rs rs' : rrsets) : Prop :=
  rs_q c w rs' /\ forall v, rs_sim v (rs_rollback rs w) (rs_rollback rs' w).
Definition n_based (c w : N) (n n' : znode) : Prop :=
  n_q c w n' /\ forall v, n_sim v (n_rollback n w) (n_rollback n' w).
Definition ns_based (c w : N) (ns ns' : list (N * znode)) : Prop :=
  ns_q c w ns' /\
  forall v, ns_sim v (al_map (fun n => n_rollback n w) ns) (al_map (fun n => n_rollback n w) ns').

Lemma rs_at_base c w t f rs :
  c < w -> wl w f -> rs_q c w rs -> rs_based c w rs (rs_at t f rs).
Proof.
  intros Hc Hf H. split; [now apply rs_at_q|]. intros v. unfold rs_rollback, rs_all, rs_at. split.
  - intros t'. unfold rs_get. rewrite !cell_map, cell_upd by reflexivity.
    destruct (N.eqb_spec t' t) as [->|_]; [|reflexivity].
    now rewrite (Hf _ (cq_nov c w _ Hc (cell_q c w t rs H))).
  - intros nm. induction H as [|[k d] tl Hd _ IH]; cbn [al_upd al_map map fst snd].
    + rewrite walk_rrsets_cons. now rewrite (Hf [] (Forall_nil _)).
    + destruct (k =? t); cbn [al_map map fst snd]; rewrite !walk_rrsets_cons.
      * now rewrite (Hf d (cq_nov c w d Hc Hd)).
      * f_equal. exact IH.
Qed.

Lemma rs_update_base c w t rr rs :
  c < w -> rs_q c w rs -> rs_based c w rs (rs_update rs t rr w).
Proof.
  intros Hc H. unfold rs_update, rs_remove_rtype.
  destruct (rrv_is_empty rr && update_empty_rrset_is_remove); apply (rs_at_base c); auto using wl_remove, wl_update.
Qed.

(* F changes the subtree only by w-local cell functions and by adding nodes that
   do not exist in any version once w is rolled back *)
Definition nl (w : N) (F : znode -> znode) : Prop :=
  forall c n, c < w -> n_q c w n -> n_based c w n (F n).

Lemma nl_id w : nl w (fun n => n).
Proof. intros c n Hc H. split; [exact H|intros; apply n_sim_refl]. Qed.

Lemma nl_comp w F G : nl w F -> nl w G -> nl w (fun n => G (F n)).
Proof.
  intros HF HG c n Hc H. destruct (HF c n Hc H) as [H1 H2]. destruct (HG c (F n) Hc H1) as [H3 H4].
  split; [exact H3|]. intros v. exact (n_sim_trans v _ _ (H2 v) _ (H4 v)).
Qed.

Lemma nl_update_special w s : nl w (fun n => n_update_special n w s).
Proof.
  intros c [rs sp ch] Hc H. destruct (n_q_inv _ _ _ _ _ H) as [Hr [Hs Hch]].
  unfold n_update_special, set_special. cbn [n_rrsets n_special n_children]. split.
  - constructor; [exact Hr| |exact Hch]. apply (wl_cq c w (fun d => v_update d w s)); auto using wl_update.
  - intros v. rewrite !n_rollback_eq, (wl_update w s sp (cq_nov c w sp Hc Hs)). apply n_sim_refl.
Qed.

Lemma check_nx_cases n w :
  check_nx n w = n \/ check_nx n w = n_update_special n w None \/ check_nx n w = n_update_special n w (Some SNx).
Proof.
  unfold check_nx. destruct nx_marker_follows_emptiness; [|now left].
  destruct (n_with_special n w) as [[ns ds glue|id|]|]; try (now left).
  - destruct (negb (rs_is_empty (n_rrsets n) w)); auto.
  - destruct (rs_is_empty (n_rrsets n) w); auto.
Qed.

Lemma nl_check_nx w : nl w (fun n => check_nx n w).
Proof.
  intros c n Hc H. destruct (check_nx_cases n w) as [->|[->| ->]]; [now apply nl_id|now apply nl_update_special..].
Qed.

Lemma nl_set_rrsets w (G : rrsets -> rrsets) :
  (forall c rs, c < w -> rs_q c w rs -> rs_based c w rs (G rs)) ->
  nl w (fun n => set_rrsets n (G (n_rrsets n))).
Proof.
  intros HG c [rs sp ch] Hc H. destruct (n_q_inv _ _ _ _ _ H) as [Hr [Hs Hch]].
  destruct (HG c _ Hc Hr) as [H1 H2]. unfold set_rrsets. cbn [n_rrsets n_special n_children]. split.
  - now constructor.
  - intros v. rewrite !n_rollback_eq. constructor; [apply H2|reflexivity|apply ns_sim_refl].
Qed.

Lemma nl_update_rrset w t rr : nl w (fun n => n_update_rrset n t rr w).
Proof.
  apply (nl_comp w (fun n => set_rrsets n (rs_update (n_rrsets n) t rr w)) (fun n => check_nx n w));
    [|apply nl_check_nx].
  apply (nl_set_rrsets w (fun rs => rs_update rs t rr w)). intros c rs Hc H. now apply rs_update_base.
Qed.

Lemma nl_remove_rrset w t : nl w (fun n => n_remove_rrset n t w).
Proof.
  apply (nl_comp w (fun n => set_rrsets n (rs_remove_rtype (n_rrsets n) t w)) (fun n => check_nx n w));
    [|apply nl_check_nx].
  apply (nl_set_rrsets w (fun rs => rs_remove_rtype rs t w)). intros c rs Hc H.
  apply (rs_at_base c); auto using wl_remove.
Qed.

Lemma nl_make_regular w : nl w (fun n => n_make_regular n w).
Proof.
  apply (nl_comp w (fun n => n_update_special n w None) (fun n => check_nx n w));
    [apply nl_update_special|apply nl_check_nx].
Qed.

Lemma al_map_base c w F ns :
  Forall (fun p => n_based c w (snd p) (F (snd p))) ns -> ns_based c w ns (al_map F ns).
Proof.
  intros H. split.
  - unfold ns_q, ns_all, al_map. rewrite Forall_map. eapply Forall_impl; [|exact H]. intros p [H1 _]. exact H1.
  - intros v. rewrite al_map_map. apply (ns_sim_map v (fun n => n_rollback n w) (fun n => n_rollback (F n) w)).
    eapply Forall_impl; [|exact H]. intros p [_ H2]. apply H2.
Qed.

Lemma nl_remove_all w : nl w (fun n => n_remove_all n w).
Proof.
  intros c n Hc. induction n as [rs sp ch IH] using znode_ind'. intros H.
  destruct (n_q_inv _ _ _ _ _ H) as [Hr [Hs Hch]].
  destruct (al_map_base c w (fun n => n_remove_all n w) ch) as [Hk1 Hk2].
  { unfold ns_q, ns_all in Hch. rewrite Forall_forall in *. intros p Hin. exact (IH p Hin (Hch p Hin)). }
  rewrite n_remove_all_eq. split.
  - constructor; [apply rs_all_q; auto using wl_remove| |exact Hk1].
    apply (wl_cq c w (fun d => v_remove d w)); auto using wl_remove.
  - intros v. rewrite !n_rollback_eq. unfold rs_remove_all. rewrite (rs_all_base c) by auto using wl_remove.
    rewrite (wl_remove w sp (cq_nov c w sp Hc Hs)).
    constructor; [apply rs_sim_refl|reflexivity|apply Hk2].
Qed.

Lemma al_upd_base c w l G fresh ns :
  c < w -> nl w G -> n_q c w (G fresh) -> (forall v, n_exists (n_rollback (G fresh) w) v = false) -> ns_q c w ns ->
  ns_based c w ns (al_upd l G fresh ns).
Proof.
  intros Hc HG Hq Hb H. induction H as [|[k n] tl Hn Htl IH]; cbn [al_upd].
  - split; [constructor; [exact Hq|constructor]|]. intros v.
    cbn [al_map map fst snd]. constructor. constructor; [apply Hb|constructor].
  - destruct (k =? l).
    + destruct (HG c n Hc Hn) as [H1 H2]. split; [constructor; assumption|]. intros v.
      cbn [al_map map fst snd]. constructor; [apply H2|apply ns_sim_refl].
    + destruct IH as [H1 H2]. split; [constructor; assumption|]. intros v.
      cbn [al_map map fst snd]. constructor; [apply n_sim_refl|apply H2].
Qed.

(* a node that update_child creates does not exist once w is rolled back *)
Lemma fresh_ok c w G :
  c < w -> nl w G ->
  n_q c w (G (fresh_node w)) /\ forall v, n_exists (n_rollback (G (fresh_node w)) w) v = false.
Proof.
  intros Hc HG. unfold fresh_node. cbv [update_child_creates_node].
  destruct (nl_comp w _ _ (nl_make_regular w) HG c empty_node Hc (n_q_empty c w)) as [H1 H2].
  split; [exact H1|]. intros v. now rewrite <- (n_exists_sim v _ _ (H2 v)).
Qed.

Lemma nl_set_children w (X : list (N * znode) -> list (N * znode)) :
  (forall c ns, c < w -> ns_q c w ns -> ns_based c w ns (X ns)) ->
  nl w (fun n => set_children n (X (n_children n))).
Proof.
  intros HX c [rs sp ch] Hc H. destruct (n_q_inv _ _ _ _ _ H) as [Hr [Hs Hch]].
  destruct (HX c ch Hc Hch) as [H1 H2]. unfold set_children. cbn [n_rrsets n_special n_children]. split.
  - now constructor.
  - intros v. rewrite !n_rollback_eq. constructor; [apply rs_sim_refl|reflexivity|apply H2].
Qed.

Lemma path_do_base w f :
  nl w f -> forall p c ns, c < w -> ns_q c w ns -> ns_based c w ns (path_do ns p (fresh_node w) f).
Proof.
  intros Hf. induction p as [|l rest IH]; intros c ns Hc H; cbn [path_do].
  - split; [exact H|intros; apply ns_sim_refl].
  - destruct rest as [|l' rest'].
    + destruct (fresh_ok c w f Hc Hf) as [Hq Hb]. now apply al_upd_base.
    + set (G := fun n => set_children n (path_do (n_children n) (l' :: rest') (fresh_node w) f)).
      assert (HG : nl w G) by (apply (nl_set_children w (fun ch => path_do ch (l' :: rest') (fresh_node w) f)); intros; now apply IH).
      destruct (fresh_ok c w G Hc HG) as [Hq Hb]. now apply (al_upd_base c w l G).
Qed.

Definition z_q (c w : N) (s : zstate) : Prop := rs_q c w (z_apex s) /\ ns_q c w (z_nodes s).
Definition z_based (c w : N) (s s' : zstate) : Prop :=
  z_q c w s' /\ forall v, z_sim v (z_rollback s w) (z_rollback s' w).

(* THE step lemma: whatever data operation the writer of version w performs
   (update_child along any path, creating what is missing, included), what
   rollback of w would leave reads the same in every version *)
Lemma data_op_base c w s e :
  c < w -> z_q c w s -> z_based c w s (data_op s w e).
Proof.
  intros Hc [Ha Hn].
  assert (Hsame : z_based c w s s) by (split; [split; assumption|intros; now apply z_sim_same]).
  assert (Hapex : forall G, rs_based c w (z_apex s) (G (z_apex s)) -> z_based c w s (set_apex s (G (z_apex s)))).
  { intros G [H1 H2]. split; [split; assumption|]. intros v. split; [apply H2|apply ns_sim_refl]. }
  assert (Hchild : forall name F, nl w F -> z_based c w s (at_node s w name F)).
  { intros name F HF. unfold at_node. destruct name as [|l rest]; [exact Hsame|].
    destruct (path_do_base w F HF (l :: rest) c _ Hc Hn) as [H1 H2].
    split; [split; assumption|]. intros v. split; [apply rs_sim_refl|apply H2]. }
  destruct e; cbn [data_op]; try exact Hsame.
  - destruct name; [|apply Hchild, nl_update_rrset].
    apply (Hapex (fun rs => rs_update rs t rr w)). now apply rs_update_base.
  - destruct name; [|apply Hchild, nl_remove_rrset].
    apply (Hapex (fun rs => rs_remove_rtype rs t w)). apply (rs_at_base c); auto using wl_remove.
  - apply Hchild, nl_id.
  - unfold z_remove_all. cbv [apex_remove_all_rrsets apex_remove_all_children].
    destruct (al_map_base c w (fun n => n_remove_all n w) (z_nodes s)) as [Hk1 Hk2].
    { eapply Forall_impl; [|exact Hn]. intros p Hp. now apply nl_remove_all. }
    split; [split; [apply rs_all_q; auto using wl_remove|exact Hk1]|].
    intros v. rewrite !z_rollback_eq. split; cbn [z_apex z_nodes]; [|apply Hk2].
    unfold rs_remove_all. rewrite (rs_all_base c); auto using wl_remove. apply rs_sim_refl.
  - apply Hchild, nl_remove_all.
  - apply Hchild, nl_update_special.
  - apply Hchild, nl_update_special.
  - apply Hchild, nl_make_regular.
Qed.

(* C09 proofs: one Versioned<T> cell. *)
From Coq Require Import NArith List Bool Lia Sorted.
From DV Require Import C17.Model C17.Proofs C09.Gen C09.Model.
Import ListNotations.
Local Open Scope N_scope.

(* `a <= b` on Version *)
Definition ver_le (a b : N) : bool := ver_op 0 a b.
Definition LIM : N := 2147483648.

(* `<=` holds iff the wrapping distance from a to b is below 2^31 *)
Lemma ver_le_wdiff a b : u32 a -> u32 b -> ver_le a b = (wdiff a b <? 2147483648).
Proof.
  intros Ua Ub. unfold ver_le, ver_op, ver_ocmp. rewrite (cmp_closed_form a b Ua Ub). unfold classify.
  destruct (N.eqb_spec (wdiff a b) 0) as [->|_]; [reflexivity|].
  destruct (wdiff a b <? 2147483648); [reflexivity|].
  destruct (wdiff a b =? 2147483648); reflexivity.
Qed.

Lemma ver_le_small a b : a < LIM -> b < LIM -> ver_le a b = (a <=? b).
Proof.
  unfold LIM. intros Ha Hb. rewrite ver_le_wdiff by (unfold u32, M32; lia). unfold wdiff, M32.
  destruct (N.leb_spec a b).
  - replace (b + 4294967296 - a) with (b - a + 1 * 4294967296) by lia.
    rewrite N.mod_add, N.mod_small by lia. apply N.ltb_lt. lia.
  - rewrite N.mod_small by lia. apply N.ltb_ge. lia.
Qed.

Lemma ver_le_refl a : a < 4294967296 -> ver_le a a = true.
Proof.
  intros Ha. rewrite ver_le_wdiff by exact Ha. unfold wdiff.
  replace (a + M32 - a) with M32 by lia. reflexivity.
Qed.

Section CellEq.
Context {T : Type}.

Lemma v_get_nil v : @v_get T [] v = None.
Proof. reflexivity. Qed.

Lemma v_get_cons lv (lx : option T) rest v :
  v_get ((lv, lx) :: rest) v = if ver_le lv v then lx else v_get rest v.
Proof.
  unfold v_get, ver_le. cbv [get_scans_newest_first get_cmp_op]. cbn [find fst snd].
  destruct (ver_op 0 lv v); reflexivity.
Qed.

Lemma v_rollback_eq (d : list (entry T)) v :
  v_rollback d v =
  match d with
  | (lv, _) :: rest => if lv =? v then rest else d
  | [] => []
  end.
Proof. destruct d as [|[lv lx] rest]; reflexivity. Qed.

Lemma v_rollback_same v (x : option T) b : v_rollback ((v, x) :: b) v = b.
Proof. now rewrite v_rollback_eq, N.eqb_refl. Qed.

(* update and remove first drop the entry this version already made, if any:
   that is what rollback does; remove then leaves a cell ending in a marker alone
   and puts no marker on an empty cell *)
Lemma v_update_eq (d : list (entry T)) v x : v_update d v x = (v, Some x) :: v_rollback d v.
Proof.
  rewrite v_rollback_eq. destruct d as [|[lv lx] rest]; [reflexivity|].
  unfold v_update. cbv [update_same_cmp_op ver_op]. destruct (N.eqb_spec lv v) as [->|_]; reflexivity.
Qed.

Lemma v_remove_eq (d : list (entry T)) v :
  v_remove d v =
  match d with
  | (_, None) :: _ => d
  | _ => match v_rollback d v with [] => [] | b => (v, None) :: b end
  end.
Proof.
  rewrite v_rollback_eq. destruct d as [|[lv [y|]] rest]; try reflexivity.
  unfold v_remove. cbv [is_marker remove_noop_when_last_is_marker Bool.eqb remove_same_cmp_op ver_op
                        remove_pop_len_op remove_pop_len n_op].
  destruct (N.eqb_spec lv v) as [->|_]; [|reflexivity].
  destruct rest as [|e rest]; [reflexivity|].
  cbn [length].
  destruct (N.eqb_spec (N.of_nat (S (S (length rest)))) 1) as [E|E]; [lia|reflexivity].
Qed.

Lemma Forall_v_rollback (P : entry T -> Prop) d v : Forall P d -> Forall P (v_rollback d v).
Proof.
  intros H. rewrite v_rollback_eq. destruct d as [|[lv lx] rest]; [constructor|].
  destruct (lv =? v); [now inversion H|exact H].
Qed.

Lemma Forall_v_update (P : entry T -> Prop) d v x :
  P (v, Some x) -> Forall P d -> Forall P (v_update d v x).
Proof. intros Hx H. rewrite v_update_eq. constructor; [exact Hx|now apply Forall_v_rollback]. Qed.

Lemma Forall_v_remove (P : entry T -> Prop) d v :
  P (v, None) -> Forall P d -> Forall P (v_remove d v).
Proof.
  intros Hn H. rewrite v_remove_eq. pose proof (Forall_v_rollback P d v H) as Hb.
  destruct d as [|[lv [y|]] rest]; [constructor| |exact H].
  destruct (v_rollback ((lv, Some y) :: rest) v); constructor; assumption.
Qed.
End CellEq.

Definition cop_ver {T} (o : cop T) : N :=
  match o with CUpd v _ => v | CRem v => v | CRb v => v end.

(* no entry of version w *)
Definition nov {T} (w : N) (d : list (entry T)) : Prop := Forall (fun it => fst it <> w) d.

Lemma rollback_nov {T} w (b : list (entry T)) : nov w b -> v_rollback b w = b.
Proof.
  intros Hb. rewrite v_rollback_eq. destruct b as [|[lv lx] rest]; [reflexivity|].
  inversion Hb as [|? ? Hne _]; subst. destruct (N.eqb_spec lv w); [contradiction|reflexivity].
Qed.

(* What the writer of version w does to a cell is confined to a last entry of
   version w: the cell minus such an entry -- what rollback would leave -- never
   changes. *)
Lemma rollback_apply {T} w (d : list (entry T)) (o : cop T) :
  nov w (v_rollback d w) -> cop_ver o = w -> v_rollback (c_apply d o) w = v_rollback d w.
Proof.
  intros Hb Ho. destruct o as [v x|v|v]; cbn [cop_ver] in Ho; subst v; cbn [c_apply].
  - now rewrite v_update_eq, v_rollback_same.
  - rewrite v_remove_eq. destruct d as [|[lv [y|]] rest]; try reflexivity.
    destruct (v_rollback ((lv, Some y) :: rest) w); [reflexivity|apply v_rollback_same].
  - now apply rollback_nov.
Qed.

Lemma rollback_run {T} w (b : list (entry T)) os :
  nov w b -> Forall (fun o => cop_ver o = w) os ->
  forall d, v_rollback d w = b -> v_rollback (c_run d os) w = b.
Proof.
  intros Hb Hos. induction Hos as [|o os Ho _ IH]; intros d Hd; [exact Hd|].
  cbn [c_run fold_left]. apply IH. rewrite rollback_apply; [exact Hd|now rewrite Hd|exact Ho].
Qed.

(* a reader version r that does not satisfy w <= r does not see that last entry *)
Lemma get_base {T} w (d : list (entry T)) r :
  ver_le w r = false -> v_get (v_rollback d w) r = v_get d r.
Proof.
  intros Hr. rewrite v_rollback_eq. destruct d as [|[lv lx] rest]; [reflexivity|].
  destruct (N.eqb_spec lv w) as [->|_]; [now rewrite v_get_cons, Hr|reflexivity].
Qed.

(* abort is invisible, cell level: after ANY mix of update / remove / rollback at
   the open version w on top of a cell b that has no entry of version w, rollback
   restores the exact entry list *)
Theorem cell_rollback_restores {T} w (b : list (entry T)) os :
  nov w b -> Forall (fun o => cop_ver o = w) os ->
  v_rollback (c_run b os) w = b.
Proof. intros Hb Hos. apply rollback_run; [exact Hb|exact Hos|now apply rollback_nov]. Qed.

(* snapshot isolation, cell level: a reader version r that does not satisfy
   w <= r never sees anything the writer of version w does *)
Theorem cell_snapshot_isolation {T} w (b : list (entry T)) os r :
  nov w b -> Forall (fun o => cop_ver o = w) os -> ver_le w r = false ->
  v_get (c_run b os) r = v_get b r.
Proof.
  intros Hb Hos Hr. now rewrite <- (get_base w (c_run b os) r Hr), cell_rollback_restores.
Qed.

(* the open version occupies at most the last entry *)
Theorem cell_open_version_last_only {T} w (b : list (entry T)) os :
  nov w b -> Forall (fun o => cop_ver o = w) os ->
  match c_run b os with
  | [] => True
  | _ :: rest => nov w rest
  end.
Proof.
  intros Hb Hos. pose proof (cell_rollback_restores w b os Hb Hos) as E. rewrite v_rollback_eq in E.
  destruct (c_run b os) as [|[lv lx] rest]; [exact I|].
  destruct (lv =? w); subst b; [exact Hb|now inversion Hb].
Qed.

(* what the new version reads after a write *)
Theorem cell_update_value {T} (d : list (entry T)) w x r :
  ver_le w r = true -> v_get (v_update d w x) r = Some x.
Proof. intros Hr. now rewrite v_update_eq, v_get_cons, Hr. Qed.

Theorem cell_remove_value {T} (d : list (entry T)) w r :
  ver_le w r = true -> Forall (fun it => ver_le (fst it) r = true) d ->
  v_get (v_remove d w) r = None.
Proof.
  intros Hr Hd. rewrite v_remove_eq. destruct d as [|[lv [y|]] rest]; [reflexivity| |].
  - destruct (v_rollback ((lv, Some y) :: rest) w); [reflexivity|now rewrite v_get_cons, Hr].
  - inversion Hd as [|? ? Hv _]; subst. cbn [fst] in Hv. now rewrite v_get_cons, Hv.
Qed.

(* entry versions strictly decrease from the last entry to the first *)
Definition desc {T} (d : list (entry T)) : Prop :=
  StronglySorted (fun a b => fst b < fst a) d.
Definition le_all {T} (w : N) (d : list (entry T)) : Prop := Forall (fun it => fst it <= w) d.

Lemma desc_rollback {T} (d : list (entry T)) w :
  desc d -> le_all w d -> desc (v_rollback d w) /\ Forall (fun it => fst it < w) (v_rollback d w).
Proof.
  intros Hd Hle. rewrite v_rollback_eq. destruct d as [|[lv lx] rest]; [split; constructor|].
  inversion Hd as [|? ? Hd' Hmax]; inversion Hle as [|? ? Hlv _]; subst. cbn [fst] in Hlv.
  destruct (N.eqb_spec lv w) as [->|Hne]; [split; assumption|].
  split; [exact Hd|]. constructor; [cbn; lia|]. eapply Forall_impl; [|exact Hmax]. cbn. intros; lia.
Qed.

Lemma step_sorted {T} (d : list (entry T)) (o : cop T) :
  desc d -> le_all (cop_ver o) d -> desc (c_apply d o) /\ le_all (cop_ver o) (c_apply d o).
Proof.
  intros Hd Hle. destruct (desc_rollback d (cop_ver o) Hd Hle) as [Hb Hlt].
  assert (Hble : le_all (cop_ver o) (v_rollback d (cop_ver o))).
  { eapply Forall_impl; [|exact Hlt]. cbn. intros; lia. }
  assert (Hpush : forall x, desc ((cop_ver o, x) :: v_rollback d (cop_ver o)) /\
                            le_all (cop_ver o) ((cop_ver o, x) :: v_rollback d (cop_ver o))).
  { intros x. split; constructor; [exact Hb|exact Hlt|cbn; lia|exact Hble]. }
  destruct o as [w x|w|w]; cbn [cop_ver c_apply] in *.
  - rewrite v_update_eq. apply Hpush.
  - rewrite v_remove_eq. destruct d as [|[lv [y|]] rest]; [split; constructor| |split; assumption].
    destruct (v_rollback ((lv, Some y) :: rest) w); [split; constructor|apply Hpush].
  - split; assumption.
Qed.

(* a history whose operation versions never decrease (what successive writers do:
   version current+1, again current+1 after an abort, current+2 after a commit) *)
Fixpoint mono_hist {T} (lo : N) (os : list (cop T)) : Prop :=
  match os with
  | [] => True
  | o :: tl => lo <= cop_ver o /\ mono_hist (cop_ver o) tl
  end.

Lemma le_all_weaken {T} a b (d : list (entry T)) : a <= b -> le_all a d -> le_all b d.
Proof. intros Hab H. eapply Forall_impl; [|exact H]. cbn. intros; lia. Qed.

Theorem history_monotone {T} (os : list (cop T)) : forall lo (d : list (entry T)),
  desc d -> le_all lo d -> mono_hist lo os ->
  desc (c_run d os) /\ (forall hi, Forall (fun o => cop_ver o <= hi) os -> lo <= hi -> le_all hi (c_run d os)).
Proof.
  induction os as [|o tl IH]; intros lo d Hd Hle Hm; cbn [c_run fold_left].
  - split; [exact Hd|]. intros hi _ Hhi. now apply (le_all_weaken lo).
  - destruct Hm as [Hlo Hm].
    destruct (step_sorted d o Hd (le_all_weaken _ _ _ Hlo Hle)) as [Hd' Hle'].
    destruct (IH (cop_ver o) (c_apply d o) Hd' Hle' Hm) as [H1 H2].
    split; [exact H1|]. intros hi Hall Hhi. inversion Hall; subst. apply H2; [assumption|lia].
Qed.

(* get = the entry with the greatest version <= v; a removal marker there hides
   everything older *)
Theorem versioned_get_spec {T} (d : list (entry T)) v :
  desc d -> le_all (LIM - 1) d -> v < LIM ->
  (forall u x, In (u, x) d -> u <= v ->
     (forall u' x', In (u', x') d -> u' <= v -> u' <= u) -> v_get d v = x) /\
  ((forall u x, In (u, x) d -> v < u) -> v_get d v = None).
Proof.
  unfold LIM. intros Hd Hle Hv. induction d as [|[lv lx] rest IH].
  - split; [intros u x []|reflexivity].
  - inversion Hle as [|? ? Hlv Hrest]; subst. cbn [fst] in Hlv.
    inversion Hd as [|? ? Hd' Hmax]; subst.
    destruct (IH Hd' Hrest) as [IH1 IH2].
    rewrite v_get_cons, ver_le_small by (unfold LIM; lia).
    split.
    + intros u x Hin Hu Hbest. destruct (N.leb_spec lv v) as [Hlv'|Hlv'].
      * destruct Hin as [E|Hin]; [now inversion E|].
        rewrite Forall_forall in Hmax. specialize (Hmax _ Hin). cbn [fst] in Hmax.
        specialize (Hbest lv lx (or_introl eq_refl) Hlv'). lia.
      * destruct Hin as [E|Hin]; [inversion E; subst; lia|].
        apply (IH1 u x Hin Hu). intros u' x' Hin' Hu'. apply (Hbest u' x'); [now right|exact Hu'].
    + intros Hall. destruct (N.leb_spec lv v) as [Hlv'|Hlv'].
      * specialize (Hall lv lx (or_introl eq_refl)). lia.
      * apply IH2. intros u x Hin. apply (Hall u x). now right.
Qed.

Example ex_rollback_pop_case :
  v_rollback (c_run ([] : list (entry N)) [CUpd 1 5; CRem 1; CUpd 1 6; CRem 1]) 1 = [].
Proof. reflexivity. Qed.
Example ex_rollback_marker_case :
  let b := [(0, Some 7)] in
  c_run b [CRem 1; CUpd 1 8; CRem 1] = [(1, None); (0, Some 7)] /\
  v_rollback (c_run b [CRem 1; CUpd 1 8; CRem 1]) 1 = b.
Proof. split; reflexivity. Qed.
Example ex_isolation :
  v_get (c_run [(0, Some 7)] [CUpd 1 8]) 0 = Some 7 /\ v_get (c_run [(0, Some 7)] [CUpd 1 8]) 1 = Some 8.
Proof. split; reflexivity. Qed.
Example ex_isolation_wrap :
  ver_le 0 4294967295 = false /\
  v_get (c_run [(4294967295, Some 7)] [CUpd 0 8]) 4294967295 = Some 7 /\
  v_get (c_run [(4294967295, Some 7)] [CUpd 0 8]) 0 = Some 8.
Proof. repeat split; reflexivity. Qed.
Example ex_open_last_only :
  c_run [(0, Some 7)] [CUpd 1 8; CUpd 1 9] = [(1, Some 9); (0, Some 7)].
Proof. reflexivity. Qed.
Example ex_update_value : v_get (v_update [(0, Some 7)] 1 8) 5 = Some 8.
Proof. reflexivity. Qed.
Example ex_remove_value : v_get (v_remove [(0, Some 7)] 1) 5 = None /\ v_get [(0, Some 7)] 5 = Some 7.
Proof. split; reflexivity. Qed.
Example ex_monotone :
  mono_hist 0 [CUpd 1 5; CRb 1; CRem 1; CUpd 1 6; CUpd 2 7] /\
  c_run [(0, Some 1)] [CUpd 1 5; CRb 1; CRem 1; CUpd 1 6; CUpd 2 7] = [(2, Some 7); (1, Some 6); (0, Some 1)].
Proof. split; [cbn; lia|reflexivity]. Qed.
Example ex_get_spec :
  v_get [(3, None); (1, Some 5)] 2 = Some 5 /\ v_get [(3, None); (1, Some 5)] 4 = None /\
  v_get [(3, None); (1, Some 5)] 0 = None.
Proof. repeat split; reflexivity. Qed.

(* Versioned::remove when the version being written already wrote an entry:
   the entry is popped if it is the only one (nothing older to hide), otherwise it
   becomes the removal marker of that version -- whatever was there before *)
Theorem update_then_remove_same_version {T} (d : list (entry T)) w x :
  v_remove (v_update d w x) w =
  match v_rollback d w with
  | [] => []
  | b => (w, None) :: b
  end.
Proof. now rewrite v_update_eq, v_remove_eq, v_rollback_same. Qed.

(* ... and then nothing is read at that version or later, older readers are not
   affected, and a rollback still restores the cell *)
Corollary update_then_remove_reads {T} (b : list (entry T)) w x r :
  nov w b ->
  v_rollback (v_remove (v_update b w x) w) w = b /\
  (ver_le w r = false -> v_get (v_remove (v_update b w x) w) r = v_get b r) /\
  (ver_le w r = true -> v_get (v_remove (v_update b w x) w) r = None).
Proof.
  intros Hb.
  assert (E : v_rollback (v_remove (v_update b w x) w) w = b)
    by exact (cell_rollback_restores w b [CUpd w x; CRem w] Hb ltac:(repeat constructor)).
  split; [exact E|split]; intros Hr.
  - now rewrite <- (get_base w _ r Hr), E.
  - rewrite update_then_remove_same_version, (rollback_nov w b Hb).
    destruct b; [reflexivity|now rewrite v_get_cons, Hr].
Qed.

Example ex_update_remove_same :
  v_remove (v_update ([] : list (entry N)) 1 5) 1 = [] /\
  v_remove (v_update [(0, Some 7)] 1 5) 1 = [(1, None); (0, Some 7)] /\
  v_remove (v_update [(1, Some 4); (0, Some 7)] 1 5) 1 = [(1, None); (0, Some 7)] /\
  v_remove (v_update [(1, Some 4)] 1 5) 1 = [].
Proof. repeat split; reflexivity. Qed.

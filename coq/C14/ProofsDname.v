(* C14 proofs: DNAME.  An unsigned CNAME is taken out of the answer section
   (and thereby escapes validation) only if it is exactly the synthesis of a DNAME of
   the section: same leading labels, DNAME owner replaced by the DNAME target. *)
From Coq Require Import NArith List Bool PeanoNat.
Import ListNotations.
From DV Require Import Base.Outcome Base.Bytes Base.Lex Base.Names.
From DV Require Import C17.Model C18.Model C14.Gen C14.Model.
Local Open Scope N_scope.

Theorem map_dname_spec owner dt nm r : map_dname owner dt nm = Some r ->
  r = firstn (length nm - length owner) nm ++ dt /\ (wire_len r <= 254)%nat.
Proof.
  unfold map_dname. destruct (Nat.leb_spec (wire_len (firstn (length nm - length owner) nm ++ dt)) 254); [|discriminate].
  intros X. inversion X. subst. split; [reflexivity|assumption].
Qed.

(* for a name below the owner the result keeps every label in front of the owner *)
Theorem map_dname_keeps_prefix owner dt p r : map_dname owner dt (p ++ owner) = Some r -> r = p ++ dt.
Proof.
  intros X. apply map_dname_spec in X as [X _].
  rewrite X, app_length, Nat.add_sub, firstn_app, Nat.sub_diag, firstn_all. simpl. rewrite app_nil_r. reflexivity.
Qed.

Definition synthesized_by (cowner ctarget : name) (g : agroup) : Prop :=
  a_rtype g = rt_DNAME /\ exists dt res,
    a_dname g = Some dt /\ ends_with cowner (a_owner g) = true /\ name_eqb cowner (a_owner g) = false /\
    map_dname (a_owner g) dt cowner = Some res /\ name_eqb ctarget res = true.

Theorem moved_to_dname_sound cowner ctarget gs :
  moved_to_dname cowner ctarget gs = true -> exists g, In g gs /\ synthesized_by cowner ctarget g.
Proof.
  induction gs as [|g gs IH]; simpl; [discriminate|].
  assert (Lift : moved_to_dname cowner ctarget gs = true -> exists g0, In g0 (g :: gs) /\ synthesized_by cowner ctarget g0).
  { intros X. destruct (IH X) as (g0 & I0 & S). exists g0. split; [right; exact I0|exact S]. }
  destruct (a_dname g) as [dt|] eqn:D; [|exact Lift].
  destruct (N.eqb_spec (a_rtype g) rt_DNAME) as [R|R]; cbn [negb]; [|exact Lift].
  destruct (ends_with cowner (a_owner g)) eqn:E; cbn [negb]; [|exact Lift].
  destruct (name_eqb cowner (a_owner g)) eqn:Q; [exact Lift|].
  destruct (map_dname (a_owner g) dt cowner) as [res|] eqn:M; [|discriminate].
  destruct (name_eqb ctarget res) eqn:T; [|exact Lift].
  intros _. exists g. split; [left; reflexivity|]. split; [exact R|]. exists dt, res. repeat split; assumption.
Qed.

(* what move_redundant_cnames removes, and nothing else *)
Theorem move_redundant_cnames_spec gs g :
  In g gs -> (In g (move_redundant_cnames gs) <-> is_courtesy_cname gs g = false).
Proof.
  intros I0. unfold move_redundant_cnames. rewrite filter_In. split.
  - intros [_ X]. destruct (is_courtesy_cname gs g); [discriminate|reflexivity].
  - intros X. rewrite X. auto.
Qed.

Theorem removed_cname_is_exact_synthesis gs g :
  In g gs -> ~ In g (move_redundant_cnames gs) ->
  a_rtype g = rt_CNAME /\ a_nrr g = 1 /\ a_signed g = false /\
  exists t, a_cname g = Some t /\ exists d, In d gs /\ synthesized_by (a_owner g) t d.
Proof.
  intros I0 N0. destruct (is_courtesy_cname gs g) eqn:C.
  2:{ exfalso. apply N0. apply move_redundant_cnames_spec; assumption. }
  unfold is_courtesy_cname in C. apply andb_true_iff in C as [C C4]. apply andb_true_iff in C as [C C3].
  apply andb_true_iff in C as [C1 C2]. apply N.eqb_eq in C1, C2.
  destruct (a_signed g); [discriminate|]. destruct (a_cname g) as [t|]; [|discriminate].
  repeat split; try assumption. exists t. split; [reflexivity|]. apply moved_to_dname_sound. exact C4.
Qed.

(* a forged sibling: same depth, same suffix, other leading label - never removed by this DNAME *)
Example dname_examples :
  let d := mkA true rt_DNAME 1 [[115]; [122]] None Secure false (Some [[111]; [122]]) true in   (* s.z DNAME o.z *)
  let cn t := mkA true rt_CNAME 1 [[108]; [115]; [122]] (Some t) Bogus false None false in       (* l.s.z CNAME t, unsigned *)
  map_dname [[115]; [122]] [[111]; [122]] [[108]; [115]; [122]] = Some [[108]; [111]; [122]] /\
  move_redundant_cnames [d; cn [[108]; [111]; [122]]] = [d] /\
  move_redundant_cnames [d; cn [[103]; [111]; [122]]] = [d; cn [[103]; [111]; [122]]] /\
  answer_msg_state [[108]; [115]; [122]] 1 11 [d; cn [[108]; [111]; [122]]; mkA true 1 1 [[108]; [111]; [122]] None Secure false None true] = Ok Secure /\
  answer_msg_state [[108]; [115]; [122]] 1 11 [d; cn [[103]; [111]; [122]]; mkA true 1 1 [[108]; [111]; [122]] None Secure false None true] = Ok Bogus.
Proof. vm_compute. repeat split. Qed.

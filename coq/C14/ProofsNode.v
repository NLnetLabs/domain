(* C14 proofs: a cached node never outlives the signatures (and TTLs) that justified it;
   which node answers for a name. *)
From Coq Require Import NArith List Bool Lia.
Import ListNotations.
From DV Require Import Base.Outcome Base.Bytes Base.Lex Base.Names.
From DV Require Import C17.Model C14.Gen C14.Model C14.ModelNode C14.ModelCache C14.ProofsDenial.
Local Open Scope N_scope.

(* with a wrapping subtraction (and before: while it does not underflow) the remaining
   lifetime is what is left until the expiration *)
Lemma ttl_for_sig_le now s v : ttl_for_sig_wraps = true -> now <= st_expiration s -> st_expiration s < M32 ->
  ttl_for_sig now s = Ok v -> v <= st_expiration s - now /\ v <= st_rr_ttl s /\ v <= st_orig_ttl s.
Proof.
  intros W Hn He. unfold ttl_for_sig, ttl_until_expired. rewrite W. simpl. intros [= <-].
  assert (E : (st_expiration s + M32 - now) mod M32 = st_expiration s - now).
  { rewrite (N.add_sub_swap _ _ _ Hn), <- N.add_mod_idemp_r, N.mod_same, N.add_0_r by discriminate.
    apply N.mod_small, (N.le_lt_trans _ _ _ (N.le_sub_l _ _) He). }
  rewrite E. split; [apply N.le_min_r|]. split; [etransitivity; [apply N.le_min_l|apply N.le_min_l]|etransitivity; [apply N.le_min_l|apply N.le_min_r]].
Qed.

Lemma lim_le on t x v : lim on t x = Ok v -> v <= t.
Proof. unfold lim. destruct on; [destruct x; simpl|]; intros [= <-]; [apply N.le_min_l|apply N.le_refl]. Qed.

Lemma lim_on_le t x v : lim true t x = Ok v -> exists w, x = Ok w /\ v <= w.
Proof. unfold lim. destruct x; simpl; intros [= <-]. eexists. split; [reflexivity|apply N.le_min_r]. Qed.

(* the trust anchor's node: usable from the cache only while the signature that validated
   the DNSKEY RRset is unexpired and the RRset's TTL has not run out *)
Theorem anchor_node_never_outlives_sig :
  anchor_node_limited_by_sig = true -> anchor_node_limited_by_dnskey_ttl = true -> ttl_for_sig_wraps = true ->
  forall now1 now2 maxv dttl sg,
  now1 <= st_expiration sg -> st_expiration sg < M32 -> now1 <= now2 ->
  anchor_still_trusts now1 now2 maxv dttl sg = Ok true ->
  now2 <= st_expiration sg /\ now2 - now1 <= dttl /\ now2 - now1 <= maxv.
Proof.
  intros A B W now1 now2 maxv dttl sg H1 H2 H3. unfold anchor_still_trusts, anchor_valid_for. rewrite A, B.
  cbn [lim bind]. destruct (ttl_for_sig now1 sg) as [u| | |] eqn:T; simpl; try (intros X0; discriminate X0).
  apply (ttl_for_sig_le _ _ _ W H1 H2) in T as (T1 & _).
  unfold node_usable. intros X. inversion X as [Y]. apply negb_true_iff in Y. apply N.ltb_ge in Y.
  apply N.min_glb_iff in Y as [Y Y3]. apply N.min_glb_iff in Y as [Y1 Y2]. lia.
Qed.

Theorem child_node_never_outlives_sigs :
  child_node_limited_by_ds = true -> group_ttl_limited_by_sig = true ->
  child_node_limited_by_dnskey_ttl = true -> child_node_limited_by_dnskey_sig = true -> ttl_for_sig_wraps = true ->
  forall now1 now2 pl dsttl dss kttl ks,
  now1 <= st_expiration dss -> st_expiration dss < M32 -> now1 <= st_expiration ks -> st_expiration ks < M32 -> now1 <= now2 ->
  child_still_trusts now1 now2 pl dsttl dss kttl ks = Ok true ->
  now2 <= st_expiration dss /\ now2 <= st_expiration ks /\ now2 - now1 <= dsttl /\ now2 - now1 <= kttl /\ now2 - now1 <= pl.
Proof.
  intros A B C D W now1 now2 pl dsttl dss kttl ks H1 H2 H3 H4 H5.
  unfold child_still_trusts, child_valid_for. rewrite A, B, C, D. cbn [lim].
  destruct (ttl_for_sig now1 dss) as [u1| | |] eqn:T1; destruct (ttl_for_sig now1 ks) as [u2| | |] eqn:T2; simpl; try (intros X0; discriminate X0).
  apply (ttl_for_sig_le _ _ _ W H1 H2) in T1 as (T1 & _).
  apply (ttl_for_sig_le _ _ _ W H3 H4) in T2 as (T2 & _).
  unfold node_usable. intros X. inversion X as [Y]. apply negb_true_iff in Y. apply N.ltb_ge in Y.
  repeat (match goal with Hm : _ <= N.min _ _ |- _ => apply N.min_glb_iff in Hm; destruct Hm end). lia.
Qed.

(* without the signature limit the node survives the signature: the withdrawn-key scenario *)
Theorem anchor_node_outlives_sig_refuted : anchor_node_limited_by_sig = false ->
  exists now1 now2 maxv dttl sg, now1 <= st_expiration sg /\ st_expiration sg < now2 /\
    anchor_still_trusts now1 now2 maxv dttl sg = Ok true.
Proof.
  intros A. exists 1000, 1005, 604800, 3600, (mkST 3600 3600 1003).
  split; [simpl; lia|]. split; [simpl; lia|].
  unfold anchor_still_trusts, anchor_valid_for. rewrite A. destruct anchor_node_limited_by_dnskey_ttl; vm_compute; reflexivity.
Qed.

Example node_ttl_ex : anchor_node_limited_by_sig = true -> ttl_for_sig_wraps = true ->
  anchor_still_trusts 1000 1005 604800 3600 (mkST 3600 3600 1003) = Ok false /\
  anchor_still_trusts 1000 1002 604800 3600 (mkST 3600 3600 1003) = Ok true.
Proof.
  intros A W. unfold anchor_still_trusts, anchor_valid_for, ttl_for_sig, ttl_until_expired. rewrite A, W.
  destruct anchor_node_limited_by_dnskey_ttl; vm_compute; split; reflexivity.
Qed.

(* the T1 switch stays a symbol in these proofs: they hold for both of its values *)
Local Opaque closest_skips_intermediate.

Section CacheP.
Variable now : N.
Variable ta_owner : name.
Variable ta_node : cnode.
Variable mk_child : name -> cnode -> cnode.

Lemma suffix_of_tail x l n : suffix_of (x :: l) n -> suffix_of l n.
Proof. intros [p ->]. exists (p ++ [x]). rewrite <- app_assoc. reflexivity. Qed.

(* what the search upwards may answer: an ancestor of n, found at the anchor or as a usable
   cached node (one that may sign, when intermediate nodes are skipped) *)
Definition closest_ok (n : name) (c : cache) (r : outcome (name * cnode * bool * list name * cache)) : Prop :=
  match r with
  | Ok (z, nd, fromc, names', c') =>
      suffix_of z n /\ Forall (fun x => suffix_of x n) names' /\
      if fromc then cache_lookup now c z = Some nd /\ c' = c /\
                    (closest_skips_intermediate = true -> cn_intermediate nd = false)
      else nd = ta_node
  | _ => True
  end.

(* one round of find_closest at curr; [up] is what the search answers when it has to go on *)
Lemma closest_stop n c curr names up :
  suffix_of curr n -> Forall (fun x => suffix_of x n) names -> closest_ok n c up ->
  closest_ok n c
    (if name_eqb ta_owner curr then Ok (curr, ta_node, false, names, (curr, ta_node) :: c)
     else match (match cache_lookup now c curr with
                 | Some nd => if closest_skips_intermediate && cn_intermediate nd then None else Some nd
                 | None => None end) with
          | Some nd => Ok (curr, nd, true, names, c)
          | None => up
          end).
Proof.
  intros Hs Hn Hup. destruct (name_eqb ta_owner curr).
  - (* curr is the anchor *)
    cbn. auto.
  - destruct (cache_lookup now c curr) as [nd|] eqn:L; [|exact Hup].
    destruct (closest_skips_intermediate && cn_intermediate nd) eqn:K; [exact Hup|].
    (* a usable cached node; K says it is not an intermediate one that is to be skipped *)
    cbn. split; [exact Hs|]. split; [exact Hn|]. split; [exact L|]. split; [reflexivity|].
    intros S. rewrite S in K. exact K.
Qed.

Lemma find_closest_inv n c : forall curr names,
  suffix_of curr n -> Forall (fun x => suffix_of x n) names ->
  closest_ok n c (find_closest now ta_owner ta_node c curr names).
Proof.
  induction curr as [|l curr IH]; intros names Hs Hn; cbn [find_closest]; apply closest_stop; try assumption.
  - (* the root is neither the anchor nor cached: the expect() panic, about which nothing is claimed *)
    exact I.
  - (* go on at the parent, with curr among the names still to create *)
    apply IH; [eapply suffix_of_tail; exact Hs|constructor; assumption].
Qed.

Lemma walk_down_spec n : forall names zone node signer c calls,
  suffix_of zone n -> Forall (fun x => suffix_of x n) names ->
  let '(z, nd, c', calls') := walk_down mk_child zone node signer names c calls in
  suffix_of z n /\ exists extra, calls' = calls ++ extra /\
    (extra = [] -> z = zone /\ nd = node /\ c' = c) /\
    (cn_intermediate signer = false -> Forall (fun cl => cn_intermediate (snd cl) = false) extra).
Proof.
  assert (Stop : forall zone (node signer : cnode) (c : cache) (calls : list (name * cnode)), suffix_of zone n ->
    suffix_of zone n /\ exists extra, calls = calls ++ extra /\
      (extra = [] -> zone = zone /\ node = node /\ c = c) /\
      (cn_intermediate signer = false -> Forall (fun cl => cn_intermediate (snd cl) = false) extra)).
  { intros zone node signer c calls Hz. split; [exact Hz|]. exists []. rewrite app_nil_r. auto. }
  induction names as [|child rest IH]; intros zone node signer c calls Hz Hn; simpl.
  - destruct (cn_state node); apply Stop, Hz.
  - destruct (cn_state node); try (apply Stop, Hz).
    inversion Hn as [|? ? Hch Hrest]; subst.
    destruct rest as [|r2 rest].
    + split; [exact Hch|]. exists [(child, signer)].
      split; [reflexivity|]. split; [discriminate|]. intros S. constructor; [exact S|constructor].
    + specialize (IH child (mk_child child signer)
        (if cn_intermediate (mk_child child signer) then signer else mk_child child signer)
        ((child, mk_child child signer) :: c) (calls ++ [(child, signer)]) Hch Hrest).
      destruct (walk_down _ _ _ _ (r2 :: rest) _ _) as [[[z nd] c2] calls2].
      destruct IH as (Hz' & extra & -> & _ & F).
      split; [exact Hz'|]. exists ((child, signer) :: extra).
      split; [rewrite <- app_assoc; reflexivity|]. split; [discriminate|].
      intros S. constructor; [exact S|]. apply F.
      destruct (cn_intermediate (mk_child child signer)) eqn:I; [exact S|exact I].
Qed.

Lemma cache_lookup_some c z nd : cache_lookup now c z = Some nd ->
  cache_get c z = Some nd /\ node_usable (cn_created nd) (cn_valid_for nd) now = true.
Proof.
  unfold cache_lookup. destruct (cache_get c z) as [nd1|]; [|discriminate].
  destruct (node_usable _ _ _) eqn:U; intros [= <-]. auto.
Qed.

(* the node that answers for a name stands for the name itself or an ancestor of it; a node
   taken from the cache was still usable; with the closest-node search skipping intermediate
   nodes, create_child_node is never handed a key-less (intermediate) signer node *)
Theorem get_node_sound c n r :
  get_node now ta_owner ta_node mk_child c n = Ok r ->
  suffix_of (l_zone r) n /\
  (l_from_cache r = true -> exists nd, cache_get c (l_zone r) = Some nd /\ l_node r = nd /\
                                       node_usable (cn_created nd) (cn_valid_for nd) now = true) /\
  (closest_skips_intermediate = true -> cn_intermediate ta_node = false ->
   Forall (fun cl => cn_intermediate (snd cl) = false) (l_calls r)).
Proof.
  unfold get_node. destruct (cache_lookup now c n) as [nd0|] eqn:L.
  - intros [= <-]. simpl. split; [apply suffix_of_refl|]. split; [|intros; constructor].
    intros _. exists nd0. apply cache_lookup_some in L as [L U]. auto.
  - destruct (name_eqb ta_owner n).
    + intros [= <-]. simpl. split; [apply suffix_of_refl|]. split; [discriminate|intros; constructor].
    + destruct n as [|l p]; cbn iota beta; [discriminate|].
      assert (Hn : Forall (fun x => suffix_of x (l :: p)) [l :: p])
        by (constructor; [apply suffix_of_refl|constructor]).
      pose proof (find_closest_inv (l :: p) c p [l :: p] (suffix_of_cons_r _ l _ (suffix_of_refl p)) Hn) as F.
      destruct (find_closest _ _ _ c p _) as [[[[[z nd] fromc] names] c1]| | |]; simpl; try discriminate.
      destruct F as (Hz & Hns & Hc).
      pose proof (walk_down_spec (l :: p) names z nd nd c1 [] Hz Hns) as Wd.
      destruct (walk_down mk_child z nd nd names c1 []) as [[[z' nd'] c2] calls].
      destruct Wd as (Hz' & extra & -> & Hx & Hsig). intros [= <-]. simpl.
      split; [exact Hz'|]. split.
      * intros Hf. apply andb_true_iff in Hf as [-> He]. destruct extra; [|discriminate].
        destruct (Hx eq_refl) as (-> & -> & _). destruct Hc as (Lk & _).
        exists nd. apply cache_lookup_some in Lk as [Lk U]. auto.
      * intros S T. apply Hsig. destruct fromc; [apply Hc, S|rewrite Hc; exact T].
Qed.

End CacheP.

(* without that, a cached intermediate node becomes the signer for the names below it:
   anchor ".", cache { a.z : secure intermediate }, asked for x.s.a.z - the node for s.a.z is
   created with the key-less node of a.z as signer *)
Theorem intermediate_signer_refuted : closest_skips_intermediate = false ->
  exists now ta_node mk c n r, get_node now [] ta_node mk c n = Ok r /\
    exists cl, In cl (l_calls r) /\ cn_intermediate (snd cl) = true.
Proof.
  intros S.
  first [ discriminate S
        | exists 1000, (mkCN Secure false 1000 300), (fun _ _ => mkCN Insecure false 1000 300),
                 [([[97]; [122]], mkCN Secure true 1000 300)], [[120]; [115]; [97]; [122]];
          eexists; split; [vm_compute; reflexivity|];
          eexists; split; [left; reflexivity|reflexivity] ].
Qed.

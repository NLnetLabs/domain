(* C14 proofs: soundness of the NSEC3 decision functions (RFC 5155 8.3-8.7)
   for every hash function H. *)
From Coq Require Import NArith List Bool PeanoNat.
Import ListNotations.
From DV Require Import Base.Outcome Base.Bytes Base.Lex Base.Names.
From DV Require Import C18.Model C14.Gen C14.Model C14.ModelN3 C14.Proofs C14.ProofsDenial C14.ProofsL2H.
Local Open Scope N_scope.

Inductive chain : list name -> Prop :=
| ch0 : chain []
| ch1 n : chain [n]
| ch2 a l rest : chain ((l :: a) :: rest) -> chain (a :: (l :: a) :: rest).

Lemma chain_inv n rest : chain (n :: rest) ->
  chain rest /\ match rest with [] => True | n' :: _ => exists l, n' = l :: n end.
Proof. inversion 1; subst; split; try constructor; eauto. Qed.

Lemma chain_snoc L a l : chain (L ++ [a]) -> chain (L ++ [a; l :: a]).
Proof.
  induction L as [|x L IH]; simpl; intros H.
  - apply ch2, ch1.
  - destruct L as [|y L]; simpl in *; inversion H; subst; apply ch2, IH; [apply ch1|assumption].
Qed.

Lemma take_while_suffixes_head p t :
  take_while p (suffixes t) = [] \/ exists r, take_while p (suffixes t) = t :: r.
Proof. destruct t; simpl; destruct (p _); eauto. Qed.

Lemma walk_names_chain t s : chain (walk_names t s).
Proof.
  unfold walk_names. set (p := fun n => ends_with n s).
  induction t as [|x t IH]; cbn [suffixes take_while].
  - destruct (p []); constructor.
  - destruct (p (x :: t)); [|constructor]. cbn [rev].
    destruct (take_while_suffixes_head p t) as [E|[r E]]; rewrite E in *; [constructor|].
    cbn [rev] in *. rewrite <- app_assoc. apply chain_snoc, IH.
Qed.

Lemma suffixes_suffix t n : In n (suffixes t) -> suffix_of n t.
Proof.
  induction t as [|x t IH]; simpl.
  - intros [<-|[]]. apply suffix_of_refl.
  - intros [<-|H]; [apply suffix_of_refl|apply suffix_of_cons_r, IH, H].
Qed.

Lemma take_while_incl {A} (p : A -> bool) l : incl (take_while p l) l.
Proof.
  induction l as [|y l IH]; simpl; [apply incl_refl|].
  destruct (p y); [apply incl_cons; [left; reflexivity|apply incl_tl, IH]|intros x []].
Qed.

Lemma walk_names_suffixes t s : Forall (fun n => suffix_of n t) (walk_names t s).
Proof.
  apply Forall_forall. intros n I0. apply in_rev, take_while_incl in I0. apply suffixes_suffix, I0.
Qed.

Lemma bytes_eqb_spec a b : bytes_eqb a b = true <-> a = b.
Proof. unfold bytes_eqb. rewrite <- lex_cmp_eq. destruct (lex_cmp a b); split; congruence. Qed.

Section N3P.
Variable H : N -> bytes -> name -> bytes.
Variable ci cb : N.

Notation chk := (get_checked_nsec3 ci cb).
Notation hof := (hash_of H).

(* what makes an NSEC3 group usable (Ok (CSome oh)) *)
Lemma checked_some g s oh : chk g s = Ok (CSome oh) ->
  h_nrr g = 1 /\ h_is_nsec3 g = true /\ h_secure g = true /\ name_eqb (h_signer g) s = true /\
  h_alg g = 1 /\ h_iter g <= ci /\ h_iter g <= cb /\
  nsec3_label_to_hash (h_label g) = Ok oh /\ length oh = length (h_next g).
Proof.
  unfold get_checked_nsec3. rewrite !iter_exceeds.
  destruct (N.eqb_spec (h_nrr g) 1); cbn [negb]; [|discriminate].
  destruct (h_is_nsec3 g); cbn [negb]; [|discriminate].
  destruct (h_secure g); cbn [negb]; [|discriminate].
  destruct (name_eqb (h_signer g) s); cbn [negb]; [|discriminate].
  destruct (supported_nsec3_hash (h_alg g)) eqn:A; cbn [negb]; [|discriminate].
  apply supported_nsec3_hash_spec in A.
  destruct (N.ltb_spec ci (h_iter g)); [destruct (cb <? h_iter g); discriminate|].
  destruct (N.ltb_spec cb (h_iter g)); [discriminate|]. cbn [orb].
  destruct (nsec3_label_to_hash (h_label g)) as [oh'| | |]; try discriminate.
  destruct (Nat.eqb_spec (length oh') (length (h_next g))); cbn [negb]; intros X; inversion X; subst.
  repeat split; assumption.
Qed.

Definition usable3 (g : n3group) (s : name) (oh : bytes) : Prop := chk g s = Ok (CSome oh).
Definition matches3 (g : n3group) (oh : bytes) (n : name) : Prop :=
  oh = hof g n /\ hasn rt_DNAME g = false /\ (hasn rt_NS g = true -> hasn rt_SOA g = true).
(* covered: strictly between the owner hash and the next hash (both ends excluded) *)
Definition covers3 (g : n3group) (oh : bytes) (n : name) : Prop :=
  oh <> hof g n /\ hof g n <> h_next g /\ nsec3_in_range (hof g n) oh (h_next g) = true.

Lemma in_range_covers3 g oh n : nsec3_in_range (hof g n) oh (h_next g) = true -> covers3 g oh n.
Proof.
  intros R. destruct (nsec3_in_range_strict _ _ _ R) as [S1 S2].
  split; [apply not_eq_sym, S1|]. split; [exact S2|exact R].
Qed.

Definition covered (gs : list n3group) (s n : name) (o : bool) : Prop :=
  exists g oh, In g gs /\ usable3 g s oh /\ covers3 g oh n /\ h_optout g = o.

(* [gs] is the part of the group list [gs0] still to be looked at *)
Lemma name_step_sound gs0 n cand mce s gs : incl gs gs0 ->
  match name_step H ci cb n cand mce s gs with
  | Ok SMatch => exists g oh, In g gs0 /\ usable3 g s oh /\ matches3 g oh n
  | Ok (SRet (N3DNE ce, e)) => cand = true /\ ce = mce /\ e = 0 /\ covered gs0 s n false
  | Ok (SRet (N3DNEInsecure ce, e)) => cand = true /\ ce = mce /\ covered gs0 s n true
  | _ => True
  end.
Proof.
  induction gs as [|g gs IH]; intros Hin; simpl; [exact I|].
  apply incl_cons_inv in Hin as [Ig Hin]. specialize (IH Hin).
  destruct (chk g s) as [[|ins e|oh]| | |] eqn:C; simpl; try exact I; [exact IH|destruct ins; exact I|].
  destruct (bytes_eqb oh (hof g n)) eqn:B.
  - apply bytes_eqb_spec in B.
    destruct (hasn rt_DNAME g || hasn rt_NS g && negb (hasn rt_SOA g)) eqn:T; [exact I|].
    apply orb_false_iff in T as [T1 T2].
    exists g, oh. split; [exact Ig|]. split; [exact C|]. split; [exact B|]. split; [exact T1|].
    intros Hns. rewrite Hns in T2. destruct (hasn rt_SOA g); [reflexivity|discriminate].
  - destruct (nsec3_in_range (hof g n) oh (h_next g)) eqn:R; [|exact IH].
    apply in_range_covers3 in R. destruct cand; [|exact I].
    destruct (h_optout g) eqn:O; repeat (split; [reflexivity|]); exists g, oh; auto.
Qed.

(* the closest encloser is the signer itself or matched by a usable NSEC3 *)
Definition established (gs : list n3group) (s ce : name) : Prop :=
  name_eqb ce s = true \/ exists g oh, In g gs /\ usable3 g s oh /\ matches3 g oh ce.

(* RFC 5155 8.3 closest encloser proof *)
Definition ce_proof (gs : list n3group) (s t ce : name) (o : bool) : Prop :=
  established gs s ce /\ exists l, suffix_of (l :: ce) t /\ covered gs s (l :: ce) o.

(* [cand] says that the name before the head of [names] is an established closest encloser [mce] *)
Lemma walk_sound t s gs : forall names cand mce,
  Forall (fun n => suffix_of n t) names -> chain names ->
  (cand = true -> established gs s mce /\ match names with [] => True | n :: _ => exists l, n = l :: mce end) ->
  match walk H ci cb names cand mce s gs with
  | Ok (N3DNE ce, e) => e = 0 /\ ce_proof gs s t ce false
  | Ok (N3DNEInsecure ce, _) => ce_proof gs s t ce true
  | _ => True
  end.
Proof.
  induction names as [|n rest IH]; intros cand mce Hs Hc Hinv; simpl; [exact I|].
  inversion Hs as [|? ? Hn Hs']; subst. apply chain_inv in Hc as [Hc' Hnext].
  destruct (name_eqb n s) eqn:Es.
  - apply (IH true n Hs' Hc'). intros _. split; [left; exact Es|exact Hnext].
  - pose proof (name_step_sound gs n cand mce s gs (incl_refl _)) as P.
    destruct (name_step H ci cb n cand mce s gs) as [[[[ce|ce| | |] e0]| | |]| | |]; simpl; try exact I.
    + destruct P as (Pc & -> & -> & R). destruct (Hinv Pc) as [Hest [l ->]].
      split; [reflexivity|]. split; [exact Hest|]. exists l. split; [exact Hn|exact R].
    + destruct P as (Pc & -> & R). destruct (Hinv Pc) as [Hest [l ->]].
      split; [exact Hest|]. exists l. split; [exact Hn|exact R].
    + apply (IH true n Hs' Hc'). intros _. split; [right; exact P|exact Hnext].
    + apply (IH false mce Hs' Hc'). discriminate.
    + apply (IH false mce Hs' Hc'). discriminate.
Qed.

(* RFC 5155 8.3 closest encloser proof: the closest encloser is the signer (zone
   apex) or has a matching usable NSEC3 that is neither DNAME nor a delegation;
   the next closer name - exactly one label longer, a suffix of the target - is
   covered by a usable NSEC3; the verdict is "insecure" exactly when that
   covering record has the Opt-Out flag *)
Theorem n3_not_exists_sound t gs s r e :
  nsec3_for_not_exists H ci cb t gs s = Ok (r, e) ->
  match r with
  | N3DNE ce => e = 0 /\ ce_proof gs s t ce false
  | N3DNEInsecure ce => ce_proof gs s t ce true
  | _ => True
  end.
Proof.
  intros E.
  pose proof (walk_sound t s gs _ false s (walk_names_suffixes t s) (walk_names_chain t s) ltac:(discriminate)) as W.
  unfold nsec3_for_not_exists in E. rewrite E in W. exact W.
Qed.

Lemma no_ce_sound t gs s : forall e,
  nsec3_for_not_exists_no_ce H ci cb t gs s = Ok (NcDNE, e) -> covered gs s t false.
Proof.
  induction gs as [|g gs IH]; intros e E; simpl in E; [inversion E|].
  assert (Skip : nsec3_for_not_exists_no_ce H ci cb t gs s = Ok (NcDNE, e) -> covered (g :: gs) s t false).
  { intros X. destruct (IH _ X) as (g0 & oh & I0 & R). exists g0, oh. split; [right; exact I0|exact R]. }
  destruct (chk g s) as [[|ins e0|oh]| | |] eqn:C; simpl in E; try discriminate; [exact (Skip E)|destruct ins; inversion E|].
  destruct (nsec3_in_range (hof g t) oh (h_next g)) eqn:R; [|exact (Skip E)].
  destruct (h_optout g) eqn:O; inversion E.
  exists g, oh. split; [left; reflexivity|]. split; [exact C|]. split; [apply in_range_covers3, R|exact O].
Qed.

(* RFC 5155 8.4 name error: closest encloser proof plus a usable, non-opt-out
   NSEC3 covering the wildcard at the closest encloser *)
Theorem n3_nxdomain_sound t gs s ce e :
  nsec3_for_nxdomain H ci cb t gs s = Ok (N3DNE ce, e) ->
  established gs s ce /\ (exists l, suffix_of (l :: ce) t /\ covered gs s (l :: ce) false) /\
  covered gs s (star_label :: ce) false.
Proof.
  unfold nsec3_for_nxdomain. intros E.
  destruct (nsec3_for_not_exists H ci cb t gs s) as [[st e1]| | |] eqn:E1; simpl in E; try discriminate.
  apply n3_not_exists_sound in E1.
  destruct st as [ce0|ce0| | |]; try discriminate;
    (destruct (star_name ce0) as [star|] eqn:Es; [|discriminate]);
    (destruct (nsec3_for_not_exists_no_ce H ci cb star gs s) as [[[] e2]| | |] eqn:E2; try discriminate).
  injection E as <- _. apply star_name_some in Es as ->. destruct E1 as (_ & B & D).
  split; [exact B|]. split; [exact D|exact (no_ce_sound _ _ _ _ E2)].
Qed.

(* RFC 5155 8.5 / 8.6 NODATA: a usable NSEC3 matching the name whose bitmap has
   neither the type nor CNAME, from the right side of a zone cut *)
Definition nodata3_proof (gs : list n3group) (s t : name) (rt : N) : Prop :=
  exists g oh, In g gs /\ usable3 g s oh /\ oh = hof g t /\ hasn rt g = false /\ hasn rt_CNAME g = false /\
    (if rt =? rt_DS then hasn rt_NS g && hasn rt_SOA g = false else hasn rt_NS g && negb (hasn rt_SOA g) = false).

(* [gs] is the part of [gs0] still to be looked at *)
Lemma nodata_loop3_sound t rt s gs0 gs : incl gs gs0 ->
  match nodata_loop3 H ci cb t rt s gs with
  | Ok (S3NoData, e) => e = 0 /\ nodata3_proof gs0 s t rt
  | _ => True
  end.
Proof.
  unfold nodata3_proof. induction gs as [|g gs IH]; intros Hin; simpl; [exact I|].
  apply incl_cons_inv in Hin as [Ig Hin]. specialize (IH Hin).
  destruct (chk g s) as [[|ins e0|oh]| | |] eqn:C; simpl; try exact I; [exact IH|destruct ins; exact I|].
  destruct (bytes_eqb oh (hof g t)) eqn:B; [|exact IH]. apply bytes_eqb_spec in B.
  destruct (hasn rt g || hasn rt_CNAME g) eqn:T; [exact I|]. apply orb_false_iff in T as [T1 T2].
  destruct (rt =? rt_DS);
    [destruct (hasn rt_NS g && hasn rt_SOA g) eqn:X|destruct (hasn rt_NS g && negb (hasn rt_SOA g)) eqn:X];
    try exact I; (split; [reflexivity|]); exists g, oh; repeat split; assumption.
Qed.

Theorem n3_nodata_sound t gs rt s e :
  nsec3_for_nodata H ci cb t gs rt s = Ok (S3NoData, e) -> e = 0 /\ nodata3_proof gs s t rt.
Proof.
  pose proof (nodata_loop3_sound t rt s gs gs (incl_refl _)) as S.
  unfold nsec3_for_nodata. destruct (rt =? rt_DS); intros E.
  - destruct (nsec3_for_not_exists H ci cb t gs s) as [[[] e1]| | |]; simpl in E; try discriminate.
    rewrite E in S. exact S.
  - rewrite E in S. exact S.
Qed.

(* RFC 5155 8.7 wildcard NODATA: closest encloser proof and a NODATA proof for the wildcard *)
Theorem n3_nodata_wildcard_sound t gs rt s e :
  nsec3_for_nodata_wildcard H ci cb t gs rt s = Ok (S3NoData, e) ->
  exists ce, established gs s ce /\ (exists l, suffix_of (l :: ce) t /\ covered gs s (l :: ce) false) /\
    exists g oh, In g gs /\ usable3 g s oh /\ oh = hof g (star_label :: ce) /\ hasn rt g = false /\ hasn rt_CNAME g = false.
Proof.
  unfold nsec3_for_nodata_wildcard. intros E.
  destruct (nsec3_for_not_exists H ci cb t gs s) as [[st e1]| | |] eqn:E1; simpl in E; try discriminate.
  apply n3_not_exists_sound in E1.
  destruct st as [ce|ce| | |]; try discriminate;
    (destruct (star_name ce) as [star|] eqn:Es; [|discriminate]);
    (destruct (nsec3_for_nodata H ci cb star gs rt s) as [[[] e2]| | |] eqn:E2; try discriminate).
  apply star_name_some in Es as ->.
  apply n3_nodata_sound in E2 as (_ & g & oh & I0 & U & M & T1 & T2 & _).
  destruct E1 as (_ & B & D). exists ce. split; [exact B|]. split; [exact D|]. exists g, oh. auto.
Qed.

Lemma chk_total g s : label_to_hash_expects = false -> no_panic (chk g s).
Proof.
  intros X. unfold get_checked_nsec3.
  destruct (negb (h_nrr g =? 1)); [exact I|]. destruct (negb (h_is_nsec3 g)); [exact I|].
  destruct (negb (h_secure g)); [exact I|]. destruct (negb (name_eqb (h_signer g) s)); [exact I|].
  destruct (negb (supported_nsec3_hash (h_alg g))); [exact I|].
  destruct (_ || _); [destruct (op_holds _ _); exact I|].
  pose proof (label_to_hash_total X (h_label g)) as T.
  destruct (nsec3_label_to_hash (h_label g)); try exact I; try contradiction.
  destruct (negb _); exact I.
Qed.

Lemma name_step_total n cand mce s gs : label_to_hash_expects = false -> no_panic (name_step H ci cb n cand mce s gs).
Proof.
  intros X. induction gs as [|g gs IH]; simpl; [exact I|].
  apply bind_no_panic; [apply chk_total, X|]. intros [|ins e|oh] _; [exact IH|exact I|].
  destruct (bytes_eqb _ _); [destruct (_ || _); exact I|].
  destruct (nsec3_in_range _ _ _); [destruct cand; exact I|exact IH].
Qed.

Lemma walk_total s gs : label_to_hash_expects = false -> forall names cand mce, no_panic (walk H ci cb names cand mce s gs).
Proof.
  intros X. induction names as [|n rest IH]; intros cand mce; simpl; [exact I|].
  destruct (name_eqb n s); [apply IH|].
  apply bind_no_panic; [apply name_step_total, X|]. intros [r| | |] _; [exact I|apply IH|apply IH|apply IH].
Qed.

Lemma no_ce_total t gs s : label_to_hash_expects = false -> no_panic (nsec3_for_not_exists_no_ce H ci cb t gs s).
Proof.
  intros X. induction gs as [|g gs IH]; simpl; [exact I|].
  apply bind_no_panic; [apply chk_total, X|]. intros [|ins e|oh] _; [exact IH|exact I|].
  destruct (nsec3_in_range _ _ _); [exact I|exact IH].
Qed.

Lemma nodata_loop3_total t rt s gs : label_to_hash_expects = false -> no_panic (nodata_loop3 H ci cb t rt s gs).
Proof.
  intros X. induction gs as [|g gs IH]; simpl; [exact I|].
  apply bind_no_panic; [apply chk_total, X|]. intros [|ins e|oh] _; [exact IH|exact I|].
  destruct (bytes_eqb _ _); [|exact IH].
  destruct (_ || _); [exact I|]. destruct (rt =? rt_DS); destruct (_ && _); exact I.
Qed.

Theorem n3_helpers_total t gs rt s : label_to_hash_expects = false ->
  no_panic (nsec3_for_not_exists H ci cb t gs s) /\ no_panic (nsec3_for_nodata H ci cb t gs rt s) /\
  no_panic (nsec3_for_nxdomain H ci cb t gs s) /\ no_panic (nsec3_for_nodata_wildcard H ci cb t gs rt s).
Proof.
  intros X.
  assert (N1 : forall t, no_panic (nsec3_for_not_exists H ci cb t gs s)) by (intros; apply walk_total, X).
  assert (N2 : forall t, no_panic (nsec3_for_nodata H ci cb t gs rt s)).
  { intros t0. unfold nsec3_for_nodata. destruct (rt =? rt_DS); [|apply nodata_loop3_total, X].
    apply bind_no_panic; [apply N1|]. intros [[| | | |] e] _; try exact I. apply nodata_loop3_total, X. }
  split; [apply N1|]. split; [apply N2|]. split.
  - unfold nsec3_for_nxdomain. apply bind_no_panic; [apply N1|]. intros [st e] _.
    destruct st as [ce|ce| | |]; try exact I;
      (destruct (star_name ce); [|exact I]; apply bind_no_panic; [apply no_ce_total, X|]; intros [[| | |] e2] _; exact I).
  - unfold nsec3_for_nodata_wildcard. apply bind_no_panic; [apply N1|]. intros [st e] _.
    destruct st as [ce|ce| | |]; try exact I;
      (destruct (star_name ce); [|exact I]; apply bind_no_panic; [apply N2|]; intros [[| | |] e2] _; exact I).
Qed.
End N3P.

(* non-vacuity with a toy hash: H n = [first octet of the first label] *)
Definition toyH (_ : N) (_ : bytes) (n : name) : bytes :=
  match n with (b :: _) :: _ => [b] | _ => [0] end.
(* owner labels: Base32hex of one octet: 0x10 -> "20", 0x50 -> "A0", 0x90 -> "I0" *)
Example n3_examples :
  let g a nxt ts oo := mkN3 1 true true [[122]] 1 oo 0 [] a nxt ts in
  (* zone z: apex hash [0x10]? the signer needs no match; next closer "P.z" (0x50) covered by 0x10 -> 0x90, wildcard "*" (0x2a) too *)
  nsec3_for_nxdomain toyH 100 500 [[80]; [122]] [g [50; 48] [144] [2; 6] false] [[122]] = Ok (N3DNE [[122]], 0) /\
  (* two labels below the closest encloser with only a cover of the full name: the flag is reset, no proof *)
  nsec3_for_not_exists toyH 100 500 [[80]; [200]; [122]] [g [50; 48] [144] [2; 6] false] [[122]] = Ok (N3Nothing, 9) /\
  (* opt-out makes it insecure *)
  nsec3_for_not_exists toyH 100 500 [[80]; [122]] [g [50; 48] [144] [2; 6] true] [[122]] = Ok (N3DNEInsecure [[122]], 18) /\
  (* too many iterations *)
  nsec3_for_not_exists toyH 100 500 [[80]; [122]] [mkN3 1 true true [[122]] 1 false 101 [] [50; 48] [144] [] ] [[122]] = Ok (N3Insecure, 12) /\
  nsec3_for_not_exists toyH 100 500 [[80]; [122]] [mkN3 1 true true [[122]] 1 false 501 [] [50; 48] [144] [] ] [[122]] = Ok (N3Bogus, 11) /\
  (* NODATA: match 0x50 *)
  nsec3_for_nodata toyH 100 500 [[80]; [122]] [g [65; 48] [144] [1] false] 28 [[122]] = Ok (S3NoData, 0) /\
  nsec3_for_nodata toyH 100 500 [[80]; [122]] [g [65; 48] [144] [1] false] 1 [[122]] = Ok (S3Nothing, 14).
Proof. vm_compute. repeat split. Qed.

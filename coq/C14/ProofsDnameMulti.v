(* C14, proof-only extension: GroupSet::moved_to_dname over DNAME RRsets with any number
   of records (C14.Model.moved_to_dname looks at the first record of a group only, which
   is what the T2 generator produces).  The code walks every record of every DNAME group;
   the first record above the CNAME's owner whose expansion fails ends the search. *)
From Coq Require Import NArith List.
Import ListNotations.
From DV Require Import Base.Outcome Base.Bytes Base.Lex Base.Names.
From DV Require Import C17.Model C18.Model C14.Gen C14.Model.
Local Open Scope N_scope.

(* a DNAME group: its owner and the targets of all its records, in RRset order *)
Record dngroup := mkDN { dn_rtype : N; dn_owner : name; dn_targets : list name }.

(* inner loop over the records of one group: Some true = moved, Some false = give up
   (`return false`), None = no decision, go on with the next group *)
Fixpoint dname_records (cowner ctarget downer : name) (targets : list name) : option bool :=
  match targets with
  | [] => None
  | dt :: rest =>
      if negb (ends_with cowner downer) then dname_records cowner ctarget downer rest
      else if name_eqb cowner downer then dname_records cowner ctarget downer rest
      else match map_dname downer dt cowner with
           | None => Some false
           | Some res => if name_eqb ctarget res then Some true else dname_records cowner ctarget downer rest
           end
  end.

Fixpoint moved_to_dname_all (cowner ctarget : name) (gs : list dngroup) : bool :=
  match gs with
  | [] => false
  | g :: r =>
      if negb (dn_rtype g =? rt_DNAME) then moved_to_dname_all cowner ctarget r
      else match dname_records cowner ctarget (dn_owner g) (dn_targets g) with
           | Some b => b
           | None => moved_to_dname_all cowner ctarget r
           end
  end.

Lemma dname_records_true cowner ctarget downer targets :
  dname_records cowner ctarget downer targets = Some true ->
  ends_with cowner downer = true /\ name_eqb cowner downer = false /\
  exists dt res, In dt targets /\ map_dname downer dt cowner = Some res /\ name_eqb ctarget res = true.
Proof.
  induction targets as [|dt rest IH]; simpl; [discriminate|].
  destruct (ends_with cowner downer) eqn:E; cbn [negb].
  2:{ intros X. destruct (IH X) as (A & _). congruence. }
  destruct (name_eqb cowner downer) eqn:Q.
  { intros X. destruct (IH X) as (_ & B & _). congruence. }
  destruct (map_dname downer dt cowner) as [res|] eqn:M; [|discriminate].
  destruct (name_eqb ctarget res) eqn:T.
  - intros _. split; [reflexivity|]. split; [reflexivity|]. exists dt, res. split; [left; reflexivity|]. split; assumption.
  - intros X. destruct (IH X) as (_ & _ & dt' & res' & I0 & R). split; [reflexivity|]. split; [reflexivity|].
    exists dt', res'. split; [right; exact I0|exact R].
Qed.

(* an unsigned CNAME leaves the answer section only as the exact synthesis of SOME record of a
   DNAME RRset of the section: owner strictly below the DNAME owner, target = the labels in front
   of the DNAME owner followed by that record's target *)
Theorem moved_to_dname_all_sound cowner ctarget gs :
  moved_to_dname_all cowner ctarget gs = true ->
  exists g dt res, In g gs /\ dn_rtype g = rt_DNAME /\ In dt (dn_targets g) /\
    ends_with cowner (dn_owner g) = true /\ name_eqb cowner (dn_owner g) = false /\
    map_dname (dn_owner g) dt cowner = Some res /\ name_eqb ctarget res = true.
Proof.
  induction gs as [|g gs IH]; simpl; [discriminate|].
  assert (Lift : moved_to_dname_all cowner ctarget gs = true ->
    exists g0 dt res, In g0 (g :: gs) /\ dn_rtype g0 = rt_DNAME /\ In dt (dn_targets g0) /\
      ends_with cowner (dn_owner g0) = true /\ name_eqb cowner (dn_owner g0) = false /\
      map_dname (dn_owner g0) dt cowner = Some res /\ name_eqb ctarget res = true).
  { intros X. destruct (IH X) as (g0 & dt & res & I0 & R). exists g0, dt, res. split; [right; exact I0|exact R]. }
  destruct (N.eqb_spec (dn_rtype g) rt_DNAME) as [R|R]; cbn [negb]; [|exact Lift].
  destruct (dname_records cowner ctarget (dn_owner g) (dn_targets g)) as [b|] eqn:D; [|exact Lift].
  intros ->. apply dname_records_true in D as (E & Q & dt & res & I0 & M & T).
  exists g, dt, res. split; [left; reflexivity|]. repeat split; assumption.
Qed.

(* on single-record DNAME groups this is C14.Model.moved_to_dname *)
Definition dn_of (g : agroup) : dngroup :=
  mkDN (match a_dname g with Some _ => a_rtype g | None => 0 end) (a_owner g)
       (match a_dname g with Some dt => [dt] | None => [] end).

Theorem moved_to_dname_all_agrees cowner ctarget gs :
  moved_to_dname_all cowner ctarget (map dn_of gs) = moved_to_dname cowner ctarget gs.
Proof.
  induction gs as [|g gs IH]; simpl; [reflexivity|]. unfold dn_of at 1. simpl.
  destruct (a_dname g) as [dt|]; simpl.
  - destruct (a_rtype g =? rt_DNAME); cbn [negb]; [|exact IH]. simpl.
    destruct (ends_with cowner (a_owner g)); cbn [negb]; [|exact IH].
    destruct (name_eqb cowner (a_owner g)); [exact IH|].
    destruct (map_dname (a_owner g) dt cowner) as [res|]; [|reflexivity].
    destruct (name_eqb ctarget res); [reflexivity|exact IH].
  - unfold rt_DNAME. simpl. exact IH.
Qed.

(* non-vacuity: the second record of a two-record DNAME RRset synthesizes the CNAME; a record whose
   expansion would be too long ends the search *)
Example dname_multi_ex :
  let d := mkDN rt_DNAME [[115]; [122]] [[[111]; [122]]; [[112]; [122]]] in     (* s.z DNAME o.z, p.z *)
  moved_to_dname_all [[108]; [115]; [122]] [[108]; [112]; [122]] [d] = true /\    (* l.s.z CNAME l.p.z *)
  moved_to_dname_all [[108]; [115]; [122]] [[103]; [112]; [122]] [d] = false /\   (* l.s.z CNAME g.p.z: forged sibling *)
  moved_to_dname_all [[108]; [115]; [122]] [[108]; [112]; [122]] [mkDN 1 [[115]; [122]] [[[112]; [122]]]] = false.
Proof. vm_compute. repeat split. Qed.

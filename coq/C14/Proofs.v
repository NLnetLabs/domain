(* C14 proofs: the range tests of NSEC (canonical name order) and NSEC3 (hash order). *)
From Coq Require Import NArith List Bool.
Import ListNotations.
From DV Require Import Base.Outcome Base.Bytes Base.Lex Base.Names.
From DV Require Import C17.Model C18.Model C14.Gen C14.Model.
Local Open Scope N_scope.

Definition nlt (a b : name) : Prop := name_cmp a b = Lt.
Definition hlt (a b : bytes) : Prop := lex_cmp a b = Lt.

Lemma name_cmp_gt_lt a b : name_cmp a b = Gt <-> name_cmp b a = Lt.
Proof. rewrite (name_cmp_antisym b a). destruct (name_cmp b a); simpl; split; congruence. Qed.

Lemma lex_cmp_gt_lt a b : lex_cmp a b = Gt <-> lex_cmp b a = Lt.
Proof. rewrite (lex_cmp_antisym b a). destruct (lex_cmp b a); simpl; split; congruence. Qed.

Lemma op_lt c : op_holds 0 c = true <-> c = Lt.
Proof. destruct c; simpl; split; congruence. Qed.

Lemma op_gt c : op_holds 2 c = true <-> c = Gt.
Proof. destruct c; simpl; split; congruence. Qed.

Theorem nsec_in_range_spec t o n :
  nsec_in_range t o n = true <->
  (nlt o n /\ nlt o t /\ nlt t n) \/ (~ nlt o n /\ nlt o t).
Proof.
  unfold nsec_in_range, nlt. cbv [nsec_cond_op nsec_norm_op1 nsec_norm_and nsec_norm_op2 nsec_wrap_op conn].
  rewrite <- (name_cmp_gt_lt t o), <- (op_lt (name_cmp o n)).
  destruct (op_holds 0 (name_cmp o n)); [rewrite andb_true_iff, op_gt, op_lt|rewrite op_gt];
    intuition congruence.
Qed.

Example nsec_in_range_ex :
  nsec_in_range [[98];[101;120]] [[97];[101;120]] [[99];[101;120]] = true /\   (* a.ex < b.ex < c.ex *)
  nsec_in_range [[97];[101;120]] [[97];[101;120]] [[99];[101;120]] = false /\  (* target = owner *)
  nsec_in_range [[99];[101;120]] [[97];[101;120]] [[99];[101;120]] = false /\  (* target = next *)
  nsec_in_range [[122;122];[101;120]] [[122];[101;120]] [[101;120]] = true /\  (* last NSEC, wraps to the apex *)
  nsec_in_range [[120];[101;120]] [[101;120]] [[101;120]] = true /\            (* single-record chain *)
  nsec_in_range [[66];[101;120]] [[97];[69;88]] [[99];[101;88]] = true.        (* case is ignored *)
Proof. vm_compute. repeat split. Qed.

Lemma in_range_not_owner t o n : nsec_in_range t o n = true -> name_eqb t o = false.
Proof.
  intros H. apply not_true_is_false. intros E. apply name_cmp_eq_iff in E.
  apply nsec_in_range_spec in H. unfold nlt in H. rewrite <- (name_cmp_gt_lt t o), E in H.
  destruct H as [(_ & H & _)|(_ & H)]; discriminate.
Qed.

Lemma in_range_not_next t o n : nsec_in_range t o n = true -> nlt o n -> name_eqb t n = false.
Proof.
  intros H Hon. apply not_true_is_false. intros E. apply name_cmp_eq_iff in E.
  apply nsec_in_range_spec in H. unfold nlt in H. rewrite E in H.
  destruct H as [(_ & _ & H)|(H & _)]; [discriminate|exact (H Hon)].
Qed.

(* the order ignores ASCII case, hence so does the range test *)
Lemma labels_cmp_canon_l a b : labels_cmp (map lowers a) b = labels_cmp a b.
Proof.
  revert b; induction a as [|x a IH]; intros [|y b]; simpl; try reflexivity.
  unfold label_cmp. rewrite lowers_idem, IH. reflexivity.
Qed.

Lemma name_cmp_canon_l a b : name_cmp (canon a) b = name_cmp a b.
Proof. unfold name_cmp, canon. rewrite <- map_rev. apply labels_cmp_canon_l. Qed.

Lemma name_cmp_canon a b : name_cmp (canon a) (canon b) = name_cmp a b.
Proof.
  rewrite name_cmp_canon_l, (name_cmp_antisym (canon b)), name_cmp_canon_l, <- name_cmp_antisym.
  reflexivity.
Qed.

Theorem nsec_in_range_case_insensitive t o n :
  nsec_in_range (canon t) (canon o) (canon n) = nsec_in_range t o n.
Proof. unfold nsec_in_range. rewrite !name_cmp_canon. reflexivity. Qed.

Theorem nsec3_in_range_spec t o n :
  nsec3_in_range t o n = true <->
  (hlt o n /\ hlt o t /\ hlt t n) \/ (~ hlt o n /\ (hlt o t \/ hlt t n)).
Proof.
  unfold nsec3_in_range, hlt.
  cbv [n3_cond_op n3_norm_op1 n3_norm_and n3_norm_op2 n3_wrap_op1 n3_wrap_and n3_wrap_op2 conn].
  rewrite <- (lex_cmp_gt_lt n o), <- op_gt.
  destruct (op_holds 2 (lex_cmp n o)); [rewrite andb_true_iff|rewrite orb_true_iff]; rewrite !op_lt;
    intuition congruence.
Qed.

(* both ends are excluded, also in the wrap-around case: a hash equal to the owner hash is a
   match, a hash equal to the next hash belongs to the next existing name - neither is covered *)
Theorem nsec3_in_range_strict t o n : nsec3_in_range t o n = true -> t <> o /\ t <> n.
Proof.
  intros H. apply nsec3_in_range_spec in H. unfold hlt in H.
  split; intros ->; rewrite lex_cmp_refl in H; intuition congruence.
Qed.

Example nsec3_in_range_ex :
  nsec3_in_range [5] [1] [9] = true /\ nsec3_in_range [1] [1] [9] = false /\ nsec3_in_range [9] [1] [9] = false /\
  nsec3_in_range [250] [200] [10] = true /\ nsec3_in_range [3] [200] [10] = true /\ nsec3_in_range [100] [200] [10] = false /\
  nsec3_in_range [7] [5] [5] = true /\ nsec3_in_range [5] [5] [5] = false.
Proof. vm_compute. repeat split. Qed.

Theorem supported_nsec3_hash_spec h : supported_nsec3_hash h = true <-> h = 1.
Proof.
  unfold supported_nsec3_hash, supported_nsec3_hashes. cbn. rewrite orb_false_r. apply N.eqb_eq.
Qed.

Lemma iter_exceeds a b : op_holds nsec3_iter_cmp_op (a ?= b) = (b <? a).
Proof. unfold N.ltb. rewrite (N.compare_antisym a b). destruct (a ?= b); reflexivity. Qed.

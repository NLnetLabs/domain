(* C14 proofs: a delegation is declared insecure only with a validated
   proof that no DS record exists at a delegation point. *)
From Coq Require Import NArith List Bool.
Import ListNotations.
From DV Require Import Base.Outcome Base.Bytes Base.Lex Base.Names.
From DV Require Import C18.Model C14.Gen C14.Model C14.ModelN3 C14.ModelDs C14.Proofs.
Local Open Scope N_scope.

(* NSEC: a validated, non-wildcard NSEC at the name itself with NS but neither DS nor SOA *)
Definition nsec_no_ds_proof (t : name) (g : dgroup) : Prop :=
  dg_rtype g = rt_NSEC /\ name_eqb t (dg_owner g) = true /\ dg_valid g = true /\ dg_ce g = None /\
  dhas rt_DS g = false /\ dhas rt_SOA g = false /\ dhas rt_NS g = true.

(* ... or an empty non-terminal there: the name itself with neither NS, DS nor SOA, or a name
   between a validated NSEC's owner and a next name below it *)
Definition nsec_intermediate_proof (t : name) (g : dgroup) : Prop :=
  dg_rtype g = rt_NSEC /\ dg_valid g = true /\
  ((name_eqb t (dg_owner g) = true /\ dg_ce g = None /\ dhas rt_DS g = false /\ dhas rt_SOA g = false /\ dhas rt_NS g = false) \/
   (name_eqb t (dg_owner g) = false /\ nsec_in_range t (dg_owner g) (dg_next g) = true /\ ends_with (dg_next g) t = true)).

(* [gs] is the part of [gs0] still to be looked at *)
Lemma nsec_for_ds_sound t gs0 gs : incl gs gs0 ->
  match nsec_for_ds t gs with
  | InsecureDelegation => exists g, In g gs0 /\ nsec_no_ds_proof t g
  | SecureIntermediate => exists g, In g gs0 /\ nsec_intermediate_proof t g
  | _ => True
  end.
Proof.
  induction gs as [|g gs IH]; intros Hin; simpl; [exact I|].
  apply incl_cons_inv in Hin as [Ig Hin]. specialize (IH Hin).
  destruct (N.eqb_spec (dg_rtype g) rt_NSEC) as [R|R]; cbn [negb]; [|exact IH].
  destruct (name_eqb t (dg_owner g)) eqn:E.
  - destruct (dg_valid g) eqn:V; cbn [negb]; [|exact I].
    destruct (dg_ce g) eqn:C; [exact I|].
    destruct (dhas rt_DS g) eqn:D; [exact I|]. destruct (dhas rt_SOA g) eqn:S; [exact I|].
    destruct (dhas rt_NS g) eqn:Ns; exists g; (split; [exact Ig|]).
    + repeat split; assumption.
    + split; [exact R|]. split; [exact V|]. left. repeat split; assumption.
  - destruct (ends_with t (dg_owner g) && negb (dg_valid g)); [exact I|].
    destruct (ends_with t (dg_owner g) && match dg_ce g with Some _ => true | None => false end); [exact I|].
    destruct (ends_with t (dg_owner g) && dhas rt_DNAME g); [exact I|].
    destruct (ends_with t (dg_owner g) && dhas rt_NS g && negb (dhas rt_SOA g)); [exact I|].
    destruct (nsec_in_range t (dg_owner g) (dg_next g) && ends_with (dg_next g) t) eqn:Rg; [|exact IH].
    apply andb_true_iff in Rg as [R1 R2].
    destruct (dg_valid g) eqn:V; cbn [negb]; [|exact I].
    assert (P : exists g0, In g0 gs0 /\ nsec_intermediate_proof t g0).
    { exists g. split; [exact Ig|]. split; [exact R|]. split; [exact V|]. right. repeat split; assumption. }
    destruct (dg_ce g) as [w|]; [destruct (negb (name_eqb t w)); [exact I|]|]; exact P.
Qed.

Theorem nsec_for_ds_insecure_sound t gs :
  nsec_for_ds t gs = InsecureDelegation -> exists g, In g gs /\ nsec_no_ds_proof t g.
Proof. intros E. pose proof (nsec_for_ds_sound t gs gs (incl_refl _)) as S. rewrite E in S. exact S. Qed.

(* the other verdicts of nsec_for_ds never come from an unvalidated record *)
Theorem nsec_for_ds_intermediate_sound t gs :
  nsec_for_ds t gs = SecureIntermediate -> exists g, In g gs /\ nsec_intermediate_proof t g.
Proof. intros E. pose proof (nsec_for_ds_sound t gs gs (incl_refl _)) as S. rewrite E in S. exact S. Qed.

Section DS3P.
Variable H : N -> bytes -> name -> bytes.
Variable ci cb : N.

(* NSEC3: a validated record that either matches the name (owner label = Base32hex of
   the hash, in the right zone) with NS but neither DS nor SOA, or covers it with
   Opt-Out set (RFC 5155 6), or has more iterations than the insecure limit allows *)
Definition nsec3_no_ds_proof (t : name) (g : dgroup) : Prop :=
  dg_rtype g = rt_NSEC3 /\ dg_valid g = true /\
  ((ci < dg_iter g /\ dg_iter g <= cb) \/
   (dg_iter g <= ci /\ dg_iter g <= cb /\ dg_alg g = 1 /\ ends_with t (parent_or_root (dg_owner g)) = true /\
    exists oh enc, nsec3_label_to_hash (first_label (dg_owner g)) = Ok oh /\
      b32_display (H (dg_iter g) (dg_salt g) t) = Ok enc /\
      ((label_eqb (first_label (dg_owner g)) enc = true /\ dhas rt_DS g = false /\ dhas rt_SOA g = false /\ dhas rt_NS g = true) \/
       (label_eqb (first_label (dg_owner g)) enc = false /\
        H (dg_iter g) (dg_salt g) t <> oh /\ H (dg_iter g) (dg_salt g) t <> dg_nexth g /\     (* strictly covered *)
        nsec3_in_range (H (dg_iter g) (dg_salt g) t) oh (dg_nexth g) = true /\ dg_optout g = true)))).

Theorem nsec3_for_ds_insecure_sound t gs :
  nsec3_for_ds H ci cb t gs = Ok InsecureDelegation -> exists g, In g gs /\ nsec3_no_ds_proof t g.
Proof.
  induction gs as [|g gs IH]; cbn [nsec3_for_ds]; [discriminate|].
  assert (Skip : nsec3_for_ds H ci cb t gs = Ok InsecureDelegation -> exists g', In g' (g :: gs) /\ nsec3_no_ds_proof t g').
  { intros X. destruct (IH X) as (g' & I0 & P). exists g'. split; [right; exact I0|exact P]. }
  destruct (N.eqb_spec (dg_rtype g) rt_NSEC3) as [R|R]; cbn [negb]; [|exact Skip].
  rewrite !iter_exceeds.
  destruct (N.ltb_spec ci (dg_iter g)) as [C1|C1]; cbn [orb].
  { destruct (dg_valid g) eqn:V; cbn [negb]; [|discriminate].
    destruct (N.ltb_spec cb (dg_iter g)) as [C2|C2]; [discriminate|].
    intros _. exists g. split; [left; reflexivity|]. split; [exact R|]. split; [exact V|]. left. split; assumption. }
  destruct (N.ltb_spec cb (dg_iter g)) as [C2|C2]; [destruct (negb (dg_valid g)); discriminate|].
  destruct (supported_nsec3_hash (dg_alg g)) eqn:A; cbn [negb]; [|exact Skip].
  apply supported_nsec3_hash_spec in A.
  destruct (nsec3_label_to_hash (first_label (dg_owner g))) as [oh|e|p|] eqn:L; try discriminate; [|exact Skip].
  destruct (ends_with t (parent_or_root (dg_owner g))) eqn:P; cbn [negb]; [|exact Skip].
  destruct (b32_display (H (dg_iter g) (dg_salt g) t)) as [enc| | |] eqn:B; simpl; try discriminate.
  assert (Hit : dg_valid g = true ->
    (label_eqb (first_label (dg_owner g)) enc = true /\ dhas rt_DS g = false /\ dhas rt_SOA g = false /\ dhas rt_NS g = true) \/
    (label_eqb (first_label (dg_owner g)) enc = false /\
     H (dg_iter g) (dg_salt g) t <> oh /\ H (dg_iter g) (dg_salt g) t <> dg_nexth g /\
     nsec3_in_range (H (dg_iter g) (dg_salt g) t) oh (dg_nexth g) = true /\ dg_optout g = true) ->
    exists g', In g' (g :: gs) /\ nsec3_no_ds_proof t g').
  { intros V D. exists g. split; [left; reflexivity|]. split; [exact R|]. split; [exact V|]. right.
    repeat (split; [assumption|]). exists oh, enc. auto. }
  destruct (label_eqb (first_label (dg_owner g)) enc) eqn:M.
  - destruct (dg_valid g) eqn:V; cbn [negb]; [|discriminate].
    destruct (dhas rt_DS g) eqn:D; [discriminate|]. destruct (dhas rt_SOA g) eqn:S; [discriminate|].
    destruct (dhas rt_NS g) eqn:Ns; [|discriminate]. intros _. apply Hit; auto.
  - destruct (nsec3_in_range (H (dg_iter g) (dg_salt g) t) oh (dg_nexth g)) eqn:Rg; [|exact Skip].
    destruct (dg_valid g) eqn:V; cbn [negb]; [|discriminate].
    destruct (dg_optout g) eqn:O; cbn [negb]; [|discriminate].
    intros _. destruct (nsec3_in_range_strict _ _ _ Rg). apply Hit; auto 6.
Qed.

(* insecure_only_with_no_ds_proof: create_child_node turns a DS reply without DS
   and CNAME answer into an insecure delegation only on one of these proofs *)
Theorem insecure_only_with_no_ds_proof t gs :
  no_ds_decision H ci cb t gs = Ok InsecureDelegation ->
  exists g, In g gs /\ (nsec_no_ds_proof t g \/ nsec3_no_ds_proof t g).
Proof.
  unfold no_ds_decision. destruct (nsec_for_ds t gs) eqn:E.
  - intros _. destruct (nsec_for_ds_insecure_sound t gs E) as (g & I0 & P). exists g. auto.
  - discriminate.
  - discriminate.
  - intros X. destruct (nsec3_for_ds_insecure_sound t gs X) as (g & I0 & P). exists g. auto.
Qed.
(* whatever else the DS reply carries: insecure needs one of the proofs, a CNAME never yields it *)
Theorem ds_reply_insecure_only_with_proof t cn gs :
  ds_reply_decision H ci cb t cn gs = Ok InsecureDelegation ->
  cn = NoCname /\ exists g, In g gs /\ (nsec_no_ds_proof t g \/ nsec3_no_ds_proof t g).
Proof.
  destruct cn; simpl; try discriminate. intros X. split; [reflexivity|]. apply insecure_only_with_no_ds_proof. exact X.
Qed.
End DS3P.

Example ds_decision_ex :
  let g ts v := mkDG rt_NSEC [[107]; [115]] v None [[108]; [115]] ts 0 false 0 [] [] in
  nsec_for_ds [[107]; [115]] [g [2; 46; 47] true] = InsecureDelegation /\
  nsec_for_ds [[107]; [115]] [g [2; 43; 46; 47] true] = CBogus /\       (* DS bit set *)
  nsec_for_ds [[107]; [115]] [g [2; 6; 46; 47] true] = CBogus /\        (* apex NSEC *)
  nsec_for_ds [[107]; [115]] [g [2; 46; 47] false] = CBogus /\          (* signature does not validate *)
  nsec_for_ds [[107]; [115]] [g [1; 46; 47] true] = SecureIntermediate /\
  nsec_for_ds [[120]; [107]; [115]] [g [2; 46; 47] true] = CBogus /\    (* below a delegation *)
  nsec_for_ds [[107]; [115]] [] = CNothing.
Proof. vm_compute. repeat split. Qed.

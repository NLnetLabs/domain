(* C14 proofs: the completeness direction ("correctly signed answers are reported
   secure", "below an insecure delegation: insecure, not bogus") for validate_groups,
   the positive verdict and the negative NSEC verdict. *)
From Coq Require Import NArith List Lia.
Import ListNotations.
From DV Require Import Base.Outcome Base.Bytes Base.Lex Base.Names.
From DV Require Import C17.Model C18.Model C14.Gen C14.Model C14.Proofs C14.ProofsSig.
Local Open Scope N_scope.

Example check_sig_complete_ex :
  let s := mkS [[97];[101;120]] [[97];[69;88]] true [[101;120]] 1 1 2 1000 1100 900 [[101;120]] 13 13 7 7 true true in
  check_sig s = true.
Proof. vm_compute. reflexivity. Qed.

Theorem validate_groups_complete l : ~ In Bogus l -> validate_groups l = Some l.
Proof.
  intros H. pose proof (validate_groups_spec l) as V.
  destruct (validate_groups l) as [l'|]; [destruct V as [-> _]; reflexivity|contradiction].
Qed.

Example validate_groups_complete_ex : validate_groups [Secure; Insecure; Indeterminate] = Some [Secure; Insecure; Indeterminate].
Proof. vm_compute. reflexivity. Qed.

Definition sec_or_insec (s : vstate) : Prop := s = Secure \/ s = Insecure.

Lemma no_bogus_state gs : (forall g : agroup, In g gs -> a_state g <> Bogus) -> ~ In Bogus (map a_state gs).
Proof. intros NB Hi. apply in_map_iff in Hi as (x & Hx & Hin). exact (NB x Hin Hx). Qed.

Lemma fold_sec_or_insec gs : forall acc, sec_or_insec acc -> Forall (fun g => sec_or_insec (a_state g)) gs ->
  sec_or_insec (fold_left (fun acc g => map_maybe_secure (a_state g) acc) gs acc).
Proof.
  induction gs as [|g gs IH]; intros acc Ha F; simpl; [exact Ha|].
  inversion F as [|? ? Hg F']; subst. apply IH; [|exact F'].
  destruct Hg as [-> | ->]; simpl; [exact Ha|right; reflexivity].
Qed.

(* every group of the answer section secure or insecure (none bogus or
   indeterminate), no CNAME / DNAME step applies to the question, a non-wildcard
   group answers it: the verdict is that of the data, never bogus -
   secure when everything is secure, insecure when the answering group is *)
Theorem positive_direct_verdict q qt maxc gs g :
  Forall (fun g => sec_or_insec (a_state g)) gs ->
  cname_find q qt gs = Some None ->
  get_answer_state q qt gs = Some g ->
  a_wild g = false ->
  exists s, positive_answer_state q qt maxc gs = Ok (Some s) /\ sec_or_insec s /\
    (a_state g = Insecure -> s = Insecure) /\
    ((forall g', In g' gs -> a_state g' = Secure) -> s = Secure).
Proof.
  intros F C G W. unfold positive_answer_state.
  assert (NB : ~ In Bogus (map a_state gs)).
  { apply no_bogus_state. intros x Hin. rewrite Forall_forall in F. destruct (F x Hin) as [E|E]; rewrite E; discriminate. }
  rewrite (validate_groups_complete _ NB).
  cbn [cname_chase]. rewrite C. cbn [bind]. cbn [map_maybe_secure].
  set (init := if answer_init_is_const then Secure
               else fold_left (fun acc g => map_maybe_secure (a_state g) acc) gs Secure).
  assert (Si : sec_or_insec init).
  { subst init. destruct answer_init_is_const; [left; reflexivity|]. apply fold_sec_or_insec; [left; reflexivity|exact F]. }
  assert (Sg : sec_or_insec (a_state g)).
  { rewrite Forall_forall in F. apply F. eapply get_answer_state_in. exact G. }
  assert (NBi : vstate_eqb init Bogus = false) by (destruct Si as [-> | ->]; reflexivity).
  rewrite NBi, G, W. cbn [andb].
  eexists. split; [reflexivity|]. split; [|split].
  - destruct Sg as [-> | ->]; simpl; [exact Si|right; reflexivity].
  - intros ->. reflexivity.
  - intros A. rewrite (A g (get_answer_state_in _ _ _ _ G)). simpl.
    subst init. destruct answer_init_is_const; [reflexivity|]. apply fold_secure_iff. auto.
Qed.

Example positive_direct_verdict_ex :
  let g1 := mkA true 1 1 [[97];[101;120]] None Secure false None true in
  let g2 := mkA true 1 1 [[98];[101;120]] None Insecure false None false in
  positive_answer_state [[97];[101;120]] 1 11 [g1] = Ok (Some Secure) /\
  positive_answer_state [[98];[101;120]] 1 11 [g2] = Ok (Some Insecure).
Proof. vm_compute. split; reflexivity. Qed.

Theorem negative_nxdomain_complete t qt s gs ce e :
  ~ In Bogus (map snd gs) ->
  nsec_for_nxdomain t (map fst gs) s = Ok (NxDoesNotExist ce, e) ->
  negative_msg_state true t qt s gs = Ok (Secure, e).
Proof.
  intros NB H. unfold negative_msg_state. rewrite (validate_groups_complete _ NB), H. reflexivity.
Qed.

Theorem negative_nodata_complete t qt s gs e :
  ~ In Bogus (map snd gs) ->
  nsec_for_nodata t (map fst gs) qt s = Ok (NoData, e) ->
  negative_msg_state false t qt s gs = Ok (Secure, e).
Proof.
  intros NB H. unfold negative_msg_state. rewrite (validate_groups_complete _ NB), H. reflexivity.
Qed.

Theorem negative_nodata_wildcard_complete t qt s gs e0 e :
  ~ In Bogus (map snd gs) ->
  nsec_for_nodata t (map fst gs) qt s = Ok (NNothing, e0) ->
  nsec_for_nodata_wildcard t (map fst gs) qt s = Ok (NoData, e) ->
  negative_msg_state false t qt s gs = Ok (Secure, e).
Proof.
  intros NB H0 H. unfold negative_msg_state. rewrite (validate_groups_complete _ NB), H0. cbn [bind]. rewrite H. reflexivity.
Qed.

(* a bogus group in the authority section makes the reply bogus whatever the proofs say *)
Theorem negative_bogus_group nx t qt s gs :
  In Bogus (map snd gs) -> negative_msg_state nx t qt s gs = Ok (Bogus, 99).
Proof.
  intros Hi. unfold negative_msg_state. pose proof (validate_groups_spec (map snd gs)) as V.
  destruct (validate_groups (map snd gs)); [destruct V as [_ V]; contradiction|reflexivity].
Qed.

(* the same for the positive path *)
Theorem positive_bogus_group q qt maxc gs g :
  In g gs -> a_state g = Bogus -> positive_answer_state q qt maxc gs = Ok (Some Bogus).
Proof.
  intros Hi Hb. unfold positive_answer_state. pose proof (validate_groups_spec (map a_state gs)) as V.
  destruct (validate_groups (map a_state gs)); [|reflexivity].
  destruct V as [_ V]. exfalso. apply V. rewrite <- Hb. apply in_map. exact Hi.
Qed.

Example negative_bogus_group_ex :
  negative_msg_state true [[97]] 1 [] [] = Ok (Bogus, 9) /\
  positive_answer_state [[97]] 1 11 [mkA true 1 1 [[97]] None Bogus false None true] = Ok (Some Bogus).
Proof. vm_compute. split; reflexivity. Qed.

(* a chain of k secure steps from n to m *)
Inductive chain_n (qtype : N) (gs : list agroup) : nat -> name -> name -> Prop :=
| cn_refl n : chain_n qtype gs 0 n n
| cn_step k n tgt m :
    cname_find n qtype gs = Some (Some (tgt, Secure)) ->
    chain_n qtype gs k tgt m -> chain_n qtype gs (S k) n m.

Lemma chain_n_chain_secure qt gs k n m : chain_n qt gs k n m -> chain_secure qt gs n m.
Proof. induction 1; [apply cs_refl|eapply cs_step; eassumption]. Qed.

Lemma cname_chase_complete qt gs maxc k n m : chain_n qt gs k n m ->
  cname_find m qt gs = Some None ->
  forall fuel count, (k < fuel)%nat -> count + N.of_nat k <= maxc ->
  cname_chase fuel count maxc n qt gs Secure = Ok (Some (m, Secure)).
Proof.
  induction 1 as [n|k n tgt m F Ch IH]; intros E fuel count Hf Hc.
  - destruct fuel as [|fuel]; [lia|]. simpl. rewrite E. reflexivity.
  - destruct fuel as [|fuel]; [lia|]. simpl. rewrite F.
    change (vstate_eqb Secure Bogus) with false. cbv iota.
    destruct (N.ltb_spec maxc (count + 1)) as [L|L]; [lia|].
    apply IH; [exact E|lia|lia].
Qed.

(* the converse of positive_secure_sound: a chain of at most max_cname_chain secure
   steps to a name that a secure non-wildcard group answers (and, when the verdict
   starts from the fold, an answer section that is secure throughout) is reported secure *)
Theorem positive_secure_complete q qt maxc gs k sname g :
  (forall g, In g gs -> a_state g <> Bogus) ->
  chain_n qt gs k q sname -> N.of_nat k <= maxc ->
  cname_find sname qt gs = Some None ->
  get_answer_state sname qt gs = Some g -> a_state g = Secure -> a_wild g = false ->
  (answer_init_is_const = false -> forall g, In g gs -> a_state g = Secure) ->
  positive_answer_state q qt maxc gs = Ok (Some Secure).
Proof.
  intros NBg Ch Hk E G Sg W A. unfold positive_answer_state.
  rewrite (validate_groups_complete _ (no_bogus_state gs NBg)).
  rewrite (cname_chase_complete qt gs maxc k q sname Ch E); [|lia|lia].
  cbn [bind map_maybe_secure].
  assert (I : (if answer_init_is_const then Secure
               else fold_left (fun acc g => map_maybe_secure (a_state g) acc) gs Secure) = Secure).
  { destruct answer_init_is_const eqn:Ic; [reflexivity|]. apply fold_secure_iff. auto. }
  rewrite I. change (vstate_eqb Secure Bogus) with false. cbv iota.
  rewrite G, W, Sg. reflexivity.
Qed.

Example positive_secure_complete_ex :
  let c := mkA true 5 1 [[97];[101;120]] (Some [[98];[101;120]]) Secure false None true in
  let g := mkA true 1 1 [[98];[101;120]] None Secure false None true in
  chain_n 1 [c; g] 1 [[97];[101;120]] [[98];[101;120]] /\
  positive_answer_state [[97];[101;120]] 1 11 [c; g] = Ok (Some Secure).
Proof.
  split; [|vm_compute; reflexivity].
  eapply cn_step; [vm_compute; reflexivity|apply cn_refl].
Qed.

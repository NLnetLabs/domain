(* C14 proofs: a wildcard-expanded answer is secure only with a proof that
   the queried name itself does not exist (RFC 4035 5.3.4, RFC 5155 8.8). *)
From Coq Require Import NArith List Lia PeanoNat.
Import ListNotations.
From DV Require Import Base.Outcome Base.Bytes Base.Lex Base.Names.
From DV Require Import C18.Model C14.Gen C14.Model C14.ModelN3 C14.ModelWild C14.Proofs C14.ProofsDenial C14.ProofsN3.
Local Open Scope N_scope.

Section WildP.
Variable H : N -> bytes -> name -> bytes.
Variable ci cb : N.

Lemma child_of_ce_spec t ce c : child_of_ce t ce = Some c ->
  length c = S (length ce) /\ suffix_of c t.
Proof.
  unfold child_of_ce. destruct (Nat.ltb_spec (length ce) (length t)) as [L|L]; [|discriminate].
  intros X. inversion X. split.
  - rewrite skipn_length. lia.
  - exists (firstn (length t - length ce - 1) t). symmetry. apply firstn_skipn.
Qed.

Lemma check_secure_sound t signer ce ngs n3gs :
  check_not_exists_for_wildcard H ci cb t ngs n3gs signer ce = Ok (true, Secure) ->
  (exists g, In g ngs /\ usable g signer /\ covers t g /\
             name_eqb ce (nsec_closest_encloser t (g_owner g) (g_next g)) = true) \/
  (exists c g oh, child_of_ce t ce = Some c /\ In g n3gs /\ usable3 ci cb g signer oh /\
             covers3 H g oh c /\ h_optout g = false).
Proof.
  unfold check_not_exists_for_wildcard.
  destruct (nsec_for_not_exists t ngs signer) as [[[|ce'|] e]| | |] eqn:N1; simpl; try discriminate.
  - destruct (name_eqb ce ce') eqn:Ec; [|discriminate]. intros _. left.
    apply not_exists_sound in N1 as (_ & g & I0 & U & C & ->). exists g. auto.
  - destruct (child_of_ce t ce) as [c|]; [|discriminate].
    destruct (nsec3_for_not_exists_no_ce H ci cb c n3gs signer) as [[[] e2]| | |] eqn:N3; simpl; try discriminate.
    intros _. right. apply no_ce_sound in N3 as (g & oh & R). exists c, g, oh. auto.
Qed.

Theorem wildcard_secure_sound sname signer ce ngs n3gs :
  wildcard_answer_state H ci cb sname Secure signer (Some ce) ngs n3gs = Ok Secure ->
  name_eqb sname (star_label :: ce) = true \/
  (exists g, In g ngs /\ usable g signer /\ covers sname g /\
             name_eqb ce (nsec_closest_encloser sname (g_owner g) (g_next g)) = true) \/
  (exists c g oh, child_of_ce sname ce = Some c /\ In g n3gs /\ usable3 ci cb g signer oh /\
             covers3 H g oh c /\ h_optout g = false).
Proof.
  unfold wildcard_answer_state. destruct (star_name ce) as [star|] eqn:Es; [|discriminate].
  apply star_name_some in Es as ->.
  destruct (name_eqb sname (star_label :: ce)); [intros _; left; reflexivity|].
  destruct (check_not_exists_for_wildcard H ci cb sname ngs n3gs signer ce) as [[[|] []]| | |] eqn:C;
    simpl; try discriminate.
  intros _. right. apply check_secure_sound, C.
Qed.

(* the panic of get_child_of_ce needs a closest encloser that is not a proper suffix-length of the name;
   wildcard_closest_encloser never produces one for the group's own owner *)
Theorem wildcard_answer_total sname st signer oce ngs n3gs :
  Forall wf_group ngs -> label_to_hash_expects = false ->
  (forall ce, oce = Some ce -> (length ce < length sname)%nat) ->
  no_panic (wildcard_answer_state H ci cb sname st signer oce ngs n3gs).
Proof.
  intros W X L. unfold wildcard_answer_state. destruct st; try exact I.
  destruct oce as [ce|]; [|exact I]. destruct (star_name ce); [|exact I].
  destruct (name_eqb sname _); [exact I|].
  apply bind_no_panic.
  - unfold check_not_exists_for_wildcard. apply bind_no_panic; [apply not_exists_loop_total, W|].
    intros [[|ce'|] e] _; [exact I|destruct (name_eqb ce ce'); exact I|].
    unfold child_of_ce. specialize (L ce eq_refl). destruct (Nat.ltb_spec (length ce) (length sname)); [|lia].
    apply bind_no_panic; [apply no_ce_total, X|]. intros [[| | |] e2] _; exact I.
  - intros [ok s] _. destruct ok; exact I.
Qed.
End WildP.

(* C14 proofs: a delegation with DS records is secure only through a
   key that a DS record vouches for. *)
From Coq Require Import NArith List.
Import ListNotations.
From DV Require Import Base.Outcome Base.Bytes Base.Lex C14.Gen C14.Model C14.ModelN3 C14.ModelChain C14.ProofsN3.
Local Open Scope N_scope.

Section ChainP.
Variable dg : dkey -> N -> bytes.
Variable vf : dkey -> ksig -> bool.

Lemma find_key_spec d keys k : find_key_for_ds dg d keys = Some k ->
  In k keys /\ k_alg k = d_alg d /\ k_tag k = d_tag d /\ d_digest d = dg k (d_dt d).
Proof.
  induction keys as [|x keys IH]; simpl; [discriminate|].
  assert (Skip : find_key_for_ds dg d keys = Some k ->
                 In k (x :: keys) /\ k_alg k = d_alg d /\ k_tag k = d_tag d /\ d_digest d = dg k (d_dt d)).
  { intros X. destruct (IH X) as (A & B). split; [right; exact A|exact B]. }
  destruct (N.eqb_spec (k_alg x) (d_alg d)); cbn [negb]; [|exact Skip].
  destruct (N.eqb_spec (k_tag x) (d_tag d)); cbn [negb]; [|exact Skip].
  destruct (bytes_eqb (d_digest d) (dg x (d_dt d))) eqn:B; [|exact Skip].
  intros [= <-]. apply bytes_eqb_spec in B. repeat split; auto; left; reflexivity.
Qed.

Lemma try_sigs_true k sigs : forall bad maxbad, try_sigs vf k sigs bad maxbad = inl true ->
  exists s, In s sigs /\ sg_tag s = k_tag k /\ vf k s = true.
Proof.
  induction sigs as [|s sigs IH]; simpl; intros bad maxbad H; [discriminate|].
  assert (Skip : forall bad', try_sigs vf k sigs bad' maxbad = inl true ->
                 exists s', In s' (s :: sigs) /\ sg_tag s' = k_tag k /\ vf k s' = true).
  { intros bad' X. destruct (IH _ _ X) as (s' & A & B). exists s'. split; [right; exact A|exact B]. }
  destruct (N.eqb_spec (sg_tag s) (k_tag k)); cbn [negb] in H; [|exact (Skip _ H)].
  destruct (vf k s) eqn:V; [exists s; split; [left; reflexivity|split; assumption]|].
  destruct (maxbad <? bad + 1); [discriminate|exact (Skip _ H)].
Qed.

(* [dss] is the part of [dss0] still to be tried *)
Lemma ds_loop_secure dss0 dss keys sigs : incl dss dss0 -> forall bad maxbad,
  ds_loop dg vf dss keys sigs bad maxbad = Secure ->
  exists d k s, In d dss0 /\ ds_supported d = true /\ In k keys /\ In s sigs /\
    k_alg k = d_alg d /\ k_tag k = d_tag d /\ d_digest d = dg k (d_dt d) /\
    sg_tag s = k_tag k /\ vf k s = true.
Proof.
  induction dss as [|d dss IH]; simpl; intros Hin bad maxbad H; [discriminate|].
  apply incl_cons_inv in Hin as [Id Hin].
  destruct (ds_supported d) eqn:S; cbn [negb] in H; [|exact (IH Hin _ _ H)].
  destruct (find_key_for_ds dg d keys) as [k|] eqn:F; [|exact (IH Hin _ _ H)].
  destruct (try_sigs vf k sigs bad maxbad) as [[|]|bad'] eqn:T; [|discriminate|exact (IH Hin _ _ H)].
  apply find_key_spec in F as (Ik & A & B & D). apply try_sigs_true in T as (s & Is & E & V).
  exists d, k, s. repeat split; assumption.
Qed.

(* secure_implies_chain: the child zone is secure only if some DS record with a
   supported algorithm and digest matches (algorithm, key tag, digest) a key of
   the DNSKEY RRset, and a signature carrying that key's tag verifies the DNSKEY
   RRset under that very key *)
Theorem secure_implies_chain dss keys sigs maxbad :
  child_node_state dg vf dss keys sigs maxbad = Secure ->
  exists d k s, In d dss /\ ds_supported d = true /\ In k keys /\ In s sigs /\
    k_alg k = d_alg d /\ k_tag k = d_tag d /\ d_digest d = dg k (d_dt d) /\
    sg_tag s = k_tag k /\ vf k s = true.
Proof.
  unfold child_node_state. destruct (existsb ds_supported dss); cbn [negb]; [|discriminate].
  apply ds_loop_secure, incl_refl.
Qed.

Lemma ds_loop_not_insecure dss keys sigs : forall bad maxbad, ds_loop dg vf dss keys sigs bad maxbad <> Insecure.
Proof.
  induction dss as [|d dss IH]; simpl; intros bad maxbad; [discriminate|].
  destruct (negb (ds_supported d)); [apply IH|].
  destruct (find_key_for_ds dg d keys) as [k|]; [|apply IH].
  destruct (try_sigs vf k sigs bad maxbad) as [[|]|]; try discriminate. apply IH.
Qed.

(* insecure exactly when no DS record has a supported algorithm and digest type (RFC 4035 5.2, RFC 6840 5.2) *)
Theorem insecure_iff_no_supported_ds dss keys sigs maxbad :
  child_node_state dg vf dss keys sigs maxbad = Insecure <-> forall d, In d dss -> ds_supported d = false.
Proof.
  unfold child_node_state. destruct (existsb ds_supported dss) eqn:E; cbn [negb].
  - split; [intros H; exfalso; exact (ds_loop_not_insecure _ _ _ _ _ H)|].
    intros H. apply existsb_exists in E as (d & I0 & S). rewrite (H d I0) in S. discriminate.
  - split; [|reflexivity]. intros _ d I0. destruct (ds_supported d) eqn:S; [|reflexivity].
    assert (existsb ds_supported dss = true) by (apply existsb_exists; eauto). congruence.
Qed.
End ChainP.

Example chain_ex :
  let dg := fun (k : dkey) (_ : N) => [k_id k] in
  let vf := fun (k : dkey) (s : ksig) => k_id k =? sg_id s in
  (* DS vouches for key 1; the RRset is signed by key 1 *)
  child_node_state dg vf [mkD 13 100 2 [1]] [mkK 13 100 1; mkK 13 200 2] [mkSg 100 1] 1 = Secure /\
  (* signed only by key 2, which no DS vouches for *)
  child_node_state dg vf [mkD 13 100 2 [1]] [mkK 13 100 1; mkK 13 200 2] [mkSg 200 2] 1 = Bogus /\
  (* an attacker key with the vouched tag but another digest *)
  child_node_state dg vf [mkD 13 100 2 [1]] [mkK 13 100 9] [mkSg 100 9] 1 = Bogus /\
  (* only unsupported DS algorithms: insecure *)
  child_node_state dg vf [mkD 15 100 2 [1]; mkD 13 100 3 [1]] [mkK 13 100 1] [mkSg 100 1] 1 = Insecure /\
  (* two bad signatures with the vouched tag before the good one: bogus (max_bad_signatures = 1) *)
  child_node_state dg vf [mkD 13 100 2 [1]] [mkK 13 100 1] [mkSg 100 7; mkSg 100 8; mkSg 100 1] 1 = Bogus /\
  child_node_state dg vf [mkD 13 100 2 [1]] [mkK 13 100 1] [mkSg 100 7; mkSg 100 1] 1 = Secure.
Proof. vm_compute. repeat split. Qed.

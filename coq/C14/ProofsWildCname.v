(* C14 proofs (over C14.ModelWildCname, not extracted): soundness of the positive path including
   wildcard-expanded CNAME steps and wildcard-expanded answers. *)
From Coq Require Import NArith List Bool.
Import ListNotations.
From DV Require Import Base.Outcome Base.Bytes Base.Lex Base.Names.
From DV Require Import C17.Model C18.Model C14.Gen C14.Model C14.ModelN3 C14.ModelWild C14.ModelWildCname.
From DV Require Import C14.Proofs C14.ProofsDenial C14.ProofsSig C14.ProofsN3 C14.ProofsWild.
Local Open Scope N_scope.
Local Opaque answer_init_is_const.

Section WCP.
Variable H : N -> bytes -> name -> bytes.
Variable ci cb : N.
Variable ngs : list vgroup.
Variable n3gs : list n3group.

(* what a secure wildcard check rests on *)
Definition nonexistence_proof (nm signer ce : name) : Prop :=
  (exists g, In g ngs /\ usable g signer /\ covers nm g /\
             name_eqb ce (nsec_closest_encloser nm (g_owner g) (g_next g)) = true) \/
  (exists c g oh, child_of_ce nm ce = Some c /\ In g n3gs /\ usable3 ci cb g signer oh /\
             covers3 H g oh c /\ h_optout g = false).

Lemma wild_check_secure_sound nm signer ce :
  wild_check H ci cb ngs n3gs nm signer ce = Ok (true, Secure) -> nonexistence_proof nm signer ce.
Proof. apply check_secure_sound. Qed.

(* one secure step of the chase: a secure CNAME at the name - if expanded from a wildcard, with a secure
   proof that the name itself does not exist - or a secure, non-wildcard DNAME above the name *)
Definition secure_step (nm tgt : name) (gs : list wgroup) : Prop :=
  exists w, In w gs /\ a_state (w_g w) = Secure /\
    ((a_cname (w_g w) = Some tgt /\ name_eqb (a_owner (w_g w)) nm = true /\
      match w_ce w with None => True | Some ce => nonexistence_proof nm (w_signer w) ce end) \/
     (exists dt, a_dname (w_g w) = Some dt /\ a_wild (w_g w) = false /\ map_dname (a_owner (w_g w)) dt nm = Some tgt)).

(* [gs] is the part of [gs0] still to be looked at *)
Lemma find_w_secure nm qt gs0 gs : incl gs gs0 ->
  match cname_find_w H ci cb ngs n3gs nm qt gs with
  | Ok (Some (tgt, Secure)) => secure_step nm tgt gs0
  | _ => True
  end.
Proof.
  induction gs as [|w gs IH]; intros Hin; simpl; [exact I|].
  apply incl_cons_inv in Hin as [Iw Hin]. specialize (IH Hin).
  destruct (negb (a_class_ok (w_g w))); [exact IH|].
  destruct ((a_rtype (w_g w) =? rt_CNAME) && (a_rtype (w_g w) =? qt)); [exact IH|].
  destruct (negb (a_nrr (w_g w) =? 1)); [exact IH|].
  destruct (a_cname (w_g w)) as [t0|] eqn:Cn.
  - destruct (name_eqb (a_owner (w_g w)) nm) eqn:E; cbn [negb]; [|exact IH].
    destruct (w_ce w) as [ce|] eqn:Ce.
    + destruct (wild_check H ci cb ngs n3gs nm (w_signer w) ce) as [[[|] s]| | |] eqn:Ck; simpl; try exact I.
      destruct (map_maybe_secure (a_state (w_g w)) s) eqn:M; try exact I.
      apply map_maybe_secure_secure in M as [Sg ->].
      exists w. split; [exact Iw|]. split; [exact Sg|]. left. split; [exact Cn|]. split; [exact E|].
      rewrite Ce. apply wild_check_secure_sound, Ck.
    + destruct (a_state (w_g w)) eqn:Sg; try exact I.
      exists w. split; [exact Iw|]. split; [exact Sg|]. left. split; [exact Cn|]. split; [exact E|].
      rewrite Ce. exact I.
  - destruct (a_dname (w_g w)) as [dt|] eqn:Dn; [|exact IH].
    destruct (ends_with nm (a_owner (w_g w))); cbn [negb]; [|exact IH].
    destruct (name_eqb (a_owner (w_g w)) nm); [exact IH|].
    destruct (a_wild (w_g w)) eqn:Wd; [exact I|].
    destruct (map_dname (a_owner (w_g w)) dt nm) as [res|] eqn:M; [|exact I].
    destruct (a_state (w_g w)) eqn:Sg; try exact I.
    exists w. split; [exact Iw|]. split; [exact Sg|]. right. exists dt. auto.
Qed.

Inductive chain_w (qtype : N) (gs : list wgroup) : name -> name -> Prop :=
| cw_refl n : chain_w qtype gs n n
| cw_step n tgt m : secure_step n tgt gs -> chain_w qtype gs tgt m -> chain_w qtype gs n m.

Lemma chase_w_secure qt gs maxc : forall fuel count n maybe m,
  chase_w H ci cb ngs n3gs fuel count maxc n qt gs maybe = Ok (m, Secure) ->
  maybe = Secure /\ chain_w qt gs n m.
Proof.
  induction fuel as [|fuel IH]; intros count n maybe m X; simpl in X; [discriminate|].
  destruct (cname_find_w H ci cb ngs n3gs n qt gs) as [[[tgt st]|]| | |] eqn:F; simpl in X; try discriminate.
  - destruct (vstate_eqb st Bogus); [inversion X|].
    destruct (maxc <? count + 1); [inversion X|].
    apply IH in X as [X1 X2]. apply map_maybe_secure_secure in X1 as [-> ->].
    split; [reflexivity|]. apply cw_step with tgt; [|exact X2].
    pose proof (find_w_secure n qt gs gs (incl_refl _)) as P. rewrite F in P. exact P.
  - inversion X. subst. split; [reflexivity|apply cw_refl].
Qed.

Lemma get_answer_w_in sname qt gs w : get_answer_w sname qt gs = Some w ->
  In w gs /\ a_rtype (w_g w) = qt /\ name_eqb (a_owner (w_g w)) sname = true.
Proof.
  induction gs as [|x gs IH]; simpl; [discriminate|].
  assert (Skip : get_answer_w sname qt gs = Some w ->
                 In w (x :: gs) /\ a_rtype (w_g w) = qt /\ name_eqb (a_owner (w_g w)) sname = true).
  { intros X. destruct (IH X) as (A & B). split; [right; exact A|exact B]. }
  destruct (negb (a_class_ok (w_g x))); [exact Skip|].
  destruct (N.eqb_spec (a_rtype (w_g x)) qt) as [Et|Et]; cbn [negb]; [|exact Skip].
  destruct (name_eqb (a_owner (w_g x)) sname) eqn:E; cbn [negb]; [|exact Skip].
  intros X. injection X as <-. split; [left; reflexivity|]. split; [exact Et|exact E].
Qed.

(* the extended soundness theorem: a secure verdict for a positive answer means no bogus group in the
   answer section, a chain of secure CNAME / DNAME steps from the question to the answering group - each
   wildcard-expanded CNAME on it with a secure proof that its name does not exist - and a secure answering
   group which, if wildcard-expanded itself, is the wildcard name or comes with such a proof *)
Theorem positive_full_sound q qt maxc gs :
  positive_full H ci cb ngs n3gs q qt maxc gs = Ok (Some Secure) ->
  (forall w, In w gs -> a_state (w_g w) <> Bogus) /\
  exists sname w, chain_w qt gs q sname /\ get_answer_w sname qt gs = Some w /\ In w gs /\
    a_state (w_g w) = Secure /\
    match w_ce w with
    | None => True
    | Some ce => name_eqb sname (star_label :: ce) = true \/ nonexistence_proof sname (w_signer w) ce
    end.
Proof.
  unfold positive_full. intros X.
  pose proof (validate_groups_spec (map (fun w => a_state (w_g w)) gs)) as V.
  destruct (validate_groups (map (fun w => a_state (w_g w)) gs)) as [l'|]; [|inversion X].
  destruct V as [_ V]. split.
  { intros w Hi Hb. apply V. rewrite <- Hb. apply (in_map (fun w => a_state (w_g w))). exact Hi. }
  destruct (chase_w H ci cb ngs n3gs (S (N.to_nat maxc + 1)) 0 maxc q qt gs Secure) as [[sname st]| | |] eqn:C; simpl in X; try discriminate.
  match type of X with context [map_maybe_secure st ?i] => set (init := i) in * end.
  destruct (vstate_eqb (map_maybe_secure st init) Bogus); [inversion X|].
  destruct (get_answer_w sname qt gs) as [w|] eqn:G; [|discriminate].
  destruct (get_answer_w_in _ _ _ _ G) as (Iw & _ & _).
  (* every secure way out has the form [map_maybe_secure s0 (map_maybe_secure st init)], s0 = Secure included *)
  assert (Fin : forall s0, Ok (Some (map_maybe_secure s0 (map_maybe_secure st init))) = Ok (Some Secure) ->
                s0 = Secure /\ chain_w qt gs q sname).
  { intros s0 Y. injection Y as Y. apply map_maybe_secure_secure in Y as [A B].
    apply map_maybe_secure_secure in B as [-> _]. apply chase_w_secure in C as [_ C]. auto. }
  destruct (vstate_eqb (a_state (w_g w)) Secure) eqn:Es; cbn [negb] in X.
  2:{ destruct (Fin _ X) as [Y _]. rewrite Y in Es. discriminate. }
  apply vstate_eqb_eq in Es. exists sname, w.
  destruct (w_ce w) as [ce|].
  - destruct (star_name ce) as [star|] eqn:Es2; [|inversion X]. apply star_name_some in Es2 as ->.
    destruct (name_eqb sname (star_label :: ce)) eqn:En.
    + destruct (Fin Secure X) as [_ Ch]. auto 6.
    + destruct (wild_check H ci cb ngs n3gs sname (w_signer w) ce) as [[[|] s]| | |] eqn:Ck; simpl in X; try discriminate.
      destruct (Fin s X) as [-> Ch]. apply wild_check_secure_sound in Ck. auto 6.
  - destruct (Fin Secure X) as [_ Ch]. auto 6.
Qed.
End WCP.

(* non-vacuity: *.z CNAME t.z expanded to x.z (closest encloser z), with the NSEC  a.z -> y.z  covering x.z
   and giving the closest encloser z; t.z A answers.  Without the NSEC the same reply is bogus. *)
Example wildcard_cname_ex :
  let z := [[122]] in
  let cn := mkW (mkA true rt_CNAME 1 [[120]; [122]] (Some [[116]; [122]]) Secure true None true) (Some z) z in
  let an := mkW (mkA true 1 1 [[116]; [122]] None Secure false None true) None z in
  let nsec := mkG rt_NSEC 1 true [[97]; [122]] [[121]; [122]] [1; 46; 47] true z None in
  positive_full (fun _ _ _ => []) 100 500 [nsec] [] [[120]; [122]] 1 11 [cn; an] = Ok (Some Secure) /\
  positive_full (fun _ _ _ => []) 100 500 [] [] [[120]; [122]] 1 11 [cn; an] = Ok (Some Bogus) /\
  positive_answer_state [[120]; [122]] 1 11 [w_g cn; w_g an] = Ok None.
Proof. vm_compute. repeat split. Qed.

Section Agree.
Variable H : N -> bytes -> name -> bytes.
Variable ci cb : N.
Variable ngs : list vgroup.
Variable n3gs : list n3group.

Lemma find_agrees nm qt gs r : Forall wf_wgroup gs ->
  cname_find nm qt (map w_g gs) = Some r -> cname_find_w H ci cb ngs n3gs nm qt gs = Ok r.
Proof.
  induction 1 as [|w gs W _ IH]; simpl; [intros X; inversion X; reflexivity|].
  destruct (negb (a_class_ok (w_g w))); [exact IH|].
  destruct ((a_rtype (w_g w) =? rt_CNAME) && (a_rtype (w_g w) =? qt)); [exact IH|].
  destruct (negb (a_nrr (w_g w) =? 1)); [exact IH|].
  destruct (a_cname (w_g w)) as [t0|].
  - destruct (negb (name_eqb (a_owner (w_g w)) nm)); [exact IH|].
    unfold wf_wgroup in W. destruct (w_ce w) as [ce|]; rewrite W; [discriminate|].
    intros X. inversion X. reflexivity.
  - destruct (a_dname (w_g w)) as [dt|]; [|exact IH].
    destruct (negb (ends_with nm (a_owner (w_g w)))); [exact IH|].
    destruct (name_eqb (a_owner (w_g w)) nm); [exact IH|].
    destruct (a_wild (w_g w)); [intros X; inversion X; reflexivity|].
    destruct (map_dname (a_owner (w_g w)) dt nm); intros X; inversion X; reflexivity.
Qed.

Lemma chase_agrees qt gs maxc : Forall wf_wgroup gs -> forall fuel count n maybe r,
  cname_chase fuel count maxc n qt (map w_g gs) maybe = Ok (Some r) ->
  chase_w H ci cb ngs n3gs fuel count maxc n qt gs maybe = Ok r.
Proof.
  intros W. induction fuel as [|fuel IH]; intros count n maybe r; simpl; [discriminate|].
  destruct (cname_find n qt (map w_g gs)) as [f|] eqn:F; [|discriminate].
  rewrite (find_agrees n qt gs f W F). simpl. destruct f as [[tgt st]|].
  - destruct (vstate_eqb st Bogus); [intros X; inversion X; reflexivity|].
    destruct (maxc <? count + 1); [intros X; inversion X; reflexivity|]. apply IH.
  - intros X. inversion X. reflexivity.
Qed.

Lemma get_answer_agrees sname qt gs : 
  get_answer_state sname qt (map w_g gs) = option_map w_g (get_answer_w sname qt gs).
Proof.
  induction gs as [|w gs IH]; simpl; [reflexivity|].
  destruct (negb (a_class_ok (w_g w))); [exact IH|].
  destruct (negb (a_rtype (w_g w) =? qt)); [exact IH|].
  destruct (negb (name_eqb (a_owner (w_g w)) sname)); [exact IH|]. reflexivity.
Qed.

Lemma fold_map_agrees gs : forall acc,
  fold_left (fun acc g => map_maybe_secure (a_state g) acc) (map w_g gs) acc =
  fold_left (fun acc w => map_maybe_secure (a_state (w_g w)) acc) gs acc.
Proof. induction gs as [|w gs IH]; intros acc; simpl; [reflexivity|apply IH]. Qed.

(* wherever the extracted (T2-tied) model decides, the extension decides the same *)
Theorem positive_full_extends q qt maxc gs s : Forall wf_wgroup gs ->
  positive_answer_state q qt maxc (map w_g gs) = Ok (Some s) ->
  positive_full H ci cb ngs n3gs q qt maxc gs = Ok (Some s).
Proof.
  intros W. unfold positive_answer_state, positive_full. rewrite map_map.
  destruct (validate_groups (map (fun x => a_state (w_g x)) gs)); [|intros X; exact X].
  rewrite fold_map_agrees.
  destruct (cname_chase (S (N.to_nat maxc + 1)) 0 maxc q qt (map w_g gs) Secure) as [[[sname st]|]| | |] eqn:C; cbn [bind]; try discriminate.
  rewrite (chase_agrees qt gs maxc W _ _ _ _ _ C). cbn [bind].
  match goal with |- context [map_maybe_secure st ?i] => set (init := i) end.
  destruct (vstate_eqb (map_maybe_secure st init) Bogus); [intros X; exact X|].
  rewrite get_answer_agrees. destruct (get_answer_w sname qt gs) as [w|] eqn:G; simpl; [|discriminate].
  assert (Ww : wf_wgroup w).
  { rewrite Forall_forall in W. apply W, (get_answer_w_in _ _ _ _ G). }
  unfold wf_wgroup in Ww.
  destruct (vstate_eqb (a_state (w_g w)) Secure) eqn:Es; cbn [negb].
  - destruct (w_ce w) as [ce|]; rewrite Ww; cbn [andb]; [discriminate|].
    apply vstate_eqb_eq in Es. rewrite Es. intros X. exact X.
  - rewrite andb_false_r. intros X. exact X.
Qed.
End Agree.

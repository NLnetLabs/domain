(* C14 proofs: a signature is only ever attached to the RRset it covers. *)
From Coq Require Import NArith List.
Import ListNotations.
From DV Require Import Base.Outcome Base.Bytes Base.Lex Base.Names C14.Gen C14.Model C14.ModelGroups.
Local Open Scope N_scope.

(* all records and signatures of a group agree with a head record in owner (ignoring case), class and
   type (signatures: type covered); records are not RRSIGs, signatures are *)
Definition agrees (f r : grec) : Prop :=
  name_eqb (r_owner f) (r_owner r) = true /\ r_class f = r_class r /\ r_type f = r_type r.
Definition head (g : mgroup) : option grec :=
  match m_rrs g with f :: _ => Some f | [] => match m_sigs g with f :: _ => Some f | [] => None end end.
Definition group_ok (g : mgroup) : Prop :=
  exists f, head g = Some f /\ Forall (agrees f) (m_rrs g) /\ Forall (agrees f) (m_sigs g) /\
            Forall (fun r => r_is_sig r = false) (m_rrs g) /\ Forall (fun r => r_is_sig r = true) (m_sigs g).

Lemma agrees_refl f : agrees f f.
Proof. repeat split. apply name_eqb_refl. Qed.

Lemma agrees_eucl f a b : agrees f a -> agrees f b -> agrees a b.
Proof.
  intros (A1 & A2 & A3) (B1 & B2 & B3). repeat split; try congruence.
  apply name_eqb_spec. apply name_eqb_spec in A1, B1. congruence.
Qed.

Lemma group_new_ok r : group_ok (group_new r).
Proof.
  unfold group_new, group_ok, head. destruct (r_is_sig r) eqn:S; simpl; exists r; repeat split; auto using agrees_refl; constructor; auto using agrees_refl.
Qed.

Lemma group_add_ok g r g' : group_ok g -> group_add g r = Some g' -> group_ok g'.
Proof.
  intros (f & Hh & Hr & Hs & Hnr & Hns). unfold group_add. fold (head g). rewrite Hh.
  destruct (name_eqb (r_owner f) (r_owner r)) eqn:E; cbn [negb]; [|discriminate].
  destruct (N.eqb_spec (r_class f) (r_class r)) as [C|]; cbn [andb negb]; [|discriminate].
  destruct (N.eqb_spec (r_type f) (r_type r)) as [T|]; cbn [negb]; [|discriminate].
  assert (A : agrees f r) by (repeat split; assumption).
  destruct (r_is_sig r) eqn:S.
  - destruct (existsb (same_rec r) (m_sigs g)); intros X; inversion X; subst; [exists f; repeat split; assumption|].
    exists f. unfold head in *. simpl.
    split. { destruct (m_rrs g); [|exact Hh]. destruct (m_sigs g); [discriminate|exact Hh]. }
    split; [exact Hr|]. split; [apply Forall_app; split; [exact Hs|constructor; [exact A|constructor]]|].
    split; [exact Hnr|apply Forall_app; split; [exact Hns|constructor; [exact S|constructor]]].
  - destruct (existsb (same_rec r) (m_rrs g)); intros X; inversion X; subst; [exists f; repeat split; assumption|].
    destruct (m_rrs g) as [|f0 rr] eqn:Rr.
    + (* a signature-only group gets its RRset: the head becomes the new record *)
      exists r. unfold head in *. simpl. rewrite Rr in Hh.
      split; [reflexivity|]. split; [constructor; [apply agrees_refl|constructor]|].
      split; [eapply Forall_impl; [exact (fun x => agrees_eucl f r x A)|exact Hs]|]. split; [constructor; [exact S|constructor]|exact Hns].
    + exists f. unfold head in *. cbn [m_rrs m_sigs]. rewrite Rr in Hh.
      split; [exact Hh|]. split; [apply Forall_app; split; [exact Hr|constructor; [exact A|constructor]]|].
      split; [exact Hs|]. split; [apply Forall_app; split; [exact Hnr|constructor; [exact S|constructor]]|exact Hns].
Qed.

Lemma try_groups_ok gs r gs' : Forall group_ok gs -> try_groups gs r = Some gs' -> Forall group_ok gs'.
Proof.
  revert gs'. induction gs as [|g gs IH]; intros gs' H; simpl; [discriminate|].
  inversion H as [|? ? Hg Hgs]; subst.
  destruct (group_add g r) as [g'|] eqn:A.
  - intros X. inversion X. constructor; [eapply group_add_ok; eassumption|exact Hgs].
  - destruct (try_groups gs r) as [bs|] eqn:T; simpl; [|discriminate].
    intros X. inversion X. constructor; [exact Hg|apply IH; [exact Hgs|reflexivity]].
Qed.

Lemma groupset_add_ok gs r : Forall group_ok gs -> Forall group_ok (groupset_add gs r).
Proof.
  intros H. unfold groupset_add.
  assert (Hr : Forall group_ok (rev gs)) by (apply Forall_rev; exact H).
  destruct (rev gs) as [|last before] eqn:R.
  - constructor; [apply group_new_ok|constructor].
  - inversion Hr as [|? ? Hl Hb]; subst.
    assert (Hb' : Forall group_ok (rev before)) by (apply Forall_rev; exact Hb).
    destruct (group_add last r) as [l'|] eqn:A.
    + apply Forall_app. split; [exact Hb'|constructor; [eapply group_add_ok; eassumption|constructor]].
    + destruct (try_groups (rev before) r) as [bs|] eqn:T.
      * apply Forall_app. split; [eapply try_groups_ok; eassumption|constructor; [exact Hl|constructor]].
      * apply Forall_app. split; [exact H|constructor; [apply group_new_ok|constructor]].
Qed.

(* whatever the section contains and in whatever order: in every group every RRSIG has the
   owner (ignoring case) and class of the group's records and covers exactly their type *)
Theorem signature_attached_only_to_covered_rrset rs g s :
  In g (groupset_of rs) -> In s (m_sigs g) ->
  r_is_sig s = true /\
  forall r, In r (m_rrs g) -> r_is_sig r = false /\ name_eqb (r_owner r) (r_owner s) = true /\
                              r_class r = r_class s /\ r_type r = r_type s.
Proof.
  assert (Hall : Forall group_ok (groupset_of rs)).
  { unfold groupset_of. generalize (Forall_nil group_ok). generalize (@nil mgroup).
    induction rs as [|r rs IH]; intros gs H; simpl; [exact H|]. apply IH, groupset_add_ok, H. }
  intros Ig Is. rewrite Forall_forall in Hall. destruct (Hall g Ig) as (f & _ & Hr & Hs & Hnr & Hns).
  rewrite Forall_forall in Hr, Hs, Hnr, Hns. split; [apply Hns, Is|].
  intros r Ir. split; [apply Hnr, Ir|]. exact (agrees_eucl f r s (Hr r Ir) (Hs s Is)).
Qed.

Example groups_ex :
  let a o := mkR o 1 false 1 7 in let sa o := mkR o 1 true 1 9 in let st o := mkR o 1 true 16 9 in
  (* RRSIG(TXT) between A and RRSIG(A): its own group; the A RRSIG joins the A RRset *)
  groupset_of [a [[119]]; st [[119]]; sa [[87]]] = [mkMG [a [[119]]] [sa [[87]]]; mkMG [] [st [[119]]]].
Proof. vm_compute. reflexivity. Qed.

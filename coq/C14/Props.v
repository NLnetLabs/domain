(* C14 -- property theorems only.  Proofs live in C14/Proofs*.v. *)
From Coq Require Import NArith List Bool.
Import ListNotations.
From DV Require Import Base.Outcome Base.Bytes Base.Lex Base.Names.
From DV Require Import C17.Model C17.Proofs C18.Model C14.Gen C14.Model C14.Proofs C14.ProofsDenial C14.ProofsSig C14.ProofsL2H C14.ModelN3 C14.ProofsN3 C14.ModelChain C14.ProofsChain C14.ModelDs C14.ProofsDs C14.ModelTa C14.ProofsTa C14.ModelWild C14.ProofsWild C14.ProofsDname C14.ModelNode C14.ProofsNode C14.ModelCache C14.ModelGroups C14.ProofsGroups C14.ModelConn C14.ProofsDnameMulti C14.ModelWildCname C14.ProofsWildCname C14.ProofsComplete.
Local Open Scope N_scope.

Theorem C14_nsec_in_range_spec : forall t o n,
  nsec_in_range t o n = true <->
  (nlt o n /\ nlt o t /\ nlt t n) \/ (~ nlt o n /\ nlt o t).
Proof. exact nsec_in_range_spec. Qed.
Print Assumptions C14_nsec_in_range_spec.

Theorem C14_nsec_in_range_case_insensitive : forall t o n,
  nsec_in_range (canon t) (canon o) (canon n) = nsec_in_range t o n.
Proof. exact nsec_in_range_case_insensitive. Qed.
Print Assumptions C14_nsec_in_range_case_insensitive.

Theorem C14_nsec3_in_range_spec : forall t o n,
  nsec3_in_range t o n = true <->
  (hlt o n /\ hlt o t /\ hlt t n) \/ (~ hlt o n /\ (hlt o t \/ hlt t n)).
Proof. exact nsec3_in_range_spec. Qed.
Print Assumptions C14_nsec3_in_range_spec.

Theorem C14_nsec3_in_range_strict : forall t o n, nsec3_in_range t o n = true -> t <> o /\ t <> n.
Proof. exact nsec3_in_range_strict. Qed.
Print Assumptions C14_nsec3_in_range_strict.

Theorem C14_supported_nsec3_hash_spec : forall h, supported_nsec3_hash h = true <-> h = 1.
Proof. exact supported_nsec3_hash_spec. Qed.
Print Assumptions C14_supported_nsec3_hash_spec.

Theorem C14_closest_encloser_spec : forall t o n,
  let ce := nsec_closest_encloser t o n in
  ends_with t ce = true /\ (suffix_of ce o \/ suffix_of ce n) /\
  forall s, suffix_of s o \/ suffix_of s n -> ends_with t s = true -> (length s <= length ce)%nat.
Proof. exact closest_encloser_spec. Qed.
Print Assumptions C14_closest_encloser_spec.

Theorem C14_nodata_sound : forall t gs rt s e,
  nsec_for_nodata t gs rt s = Ok (NoData, e) ->
  e = 0 /\ exists g, In g gs /\ usable g s /\ nodata_proof t rt g.
Proof. exact nodata_sound. Qed.
Print Assumptions C14_nodata_sound.

Theorem C14_not_exists_sound : forall t gs s ce e,
  nsec_for_not_exists t gs s = Ok (NxDoesNotExist ce, e) ->
  e = 0 /\ exists g, In g gs /\ usable g s /\ covers t g /\
                     ce = nsec_closest_encloser t (g_owner g) (g_next g).
Proof. exact not_exists_sound. Qed.
Print Assumptions C14_not_exists_sound.

Theorem C14_nxdomain_sound : forall t gs s ce' e,
  nsec_for_nxdomain t gs s = Ok (NxDoesNotExist ce', e) ->
  exists g1 g2 ce star,
    In g1 gs /\ In g2 gs /\ usable g1 s /\ usable g2 s /\
    covers t g1 /\ ce = nsec_closest_encloser t (g_owner g1) (g_next g1) /\
    star_name ce = Some star /\ star = star_label :: ce /\ covers star g2.
Proof. exact nxdomain_sound. Qed.
Print Assumptions C14_nxdomain_sound.

Theorem C14_nodata_wildcard_sound : forall t gs rt s e,
  nsec_for_nodata_wildcard t gs rt s = Ok (NoData, e) ->
  exists g1 g2 ce star,
    In g1 gs /\ In g2 gs /\ usable g1 s /\ usable g2 s /\
    covers t g1 /\ ce = nsec_closest_encloser t (g_owner g1) (g_next g1) /\
    star_name ce = Some star /\ nodata_proof star rt g2.
Proof. exact nodata_wildcard_sound. Qed.
Print Assumptions C14_nodata_wildcard_sound.

Theorem C14_delegation_nsec_never_denies : forall t gs s ce e g,
  nsec_for_not_exists t gs s = Ok (NxDoesNotExist ce, e) ->
  In g gs -> usable g s -> wf_group g ->
  (forall g', In g' gs -> g' = g) ->
  ends_with t (g_owner g) = true ->
  has rt_DNAME g = false /\ (has rt_NS g = true -> has rt_SOA g = true).
Proof. exact delegation_nsec_never_denies. Qed.
Print Assumptions C14_delegation_nsec_never_denies.

Theorem C14_helpers_total : forall t gs rt s, Forall wf_group gs ->
  no_panic (nsec_for_nodata t gs rt s) /\ no_panic (nsec_for_not_exists t gs s) /\
  no_panic (nsec_for_nxdomain t gs s) /\ no_panic (nsec_for_nodata_wildcard t gs rt s).
Proof. exact helpers_total. Qed.
Print Assumptions C14_helpers_total.

Theorem C14_label_to_hash_ok_iff : forall l h,
  nsec3_label_to_hash l = Ok h <-> exists cs, from_utf8 l = Some cs /\ spec_dec32 cs = Some h.
Proof. exact label_to_hash_ok_iff. Qed.
Print Assumptions C14_label_to_hash_ok_iff.

Theorem C14_label_to_hash_panic_iff : label_to_hash_expects = true -> forall l,
  nsec3_label_to_hash l = Panic 1 <-> exists cs, from_utf8 l = Some cs /\ spec_dec32 cs = None.
Proof. exact label_to_hash_panic_iff. Qed.
Print Assumptions C14_label_to_hash_panic_iff.

Theorem C14_label_to_hash_refuted : label_to_hash_expects = true ->
  exists l, valid_label l /\ nsec3_label_to_hash l = Panic 1.
Proof. exact label_to_hash_refuted. Qed.
Print Assumptions C14_label_to_hash_refuted.

Theorem C14_label_to_hash_total : label_to_hash_expects = false -> forall l, no_panic (nsec3_label_to_hash l).
Proof. exact label_to_hash_total. Qed.
Print Assumptions C14_label_to_hash_total.

Theorem C14_label_to_hash_only_panic : forall l p, nsec3_label_to_hash l = Panic p ->
  p = 1 /\ label_to_hash_expects = true /\ exists cs, from_utf8 l = Some cs /\ spec_dec32 cs = None.
Proof. exact label_to_hash_only_panic. Qed.
Print Assumptions C14_label_to_hash_only_panic.

Theorem C14_sig_time_ok_spec : sig_time_is_canonical = false -> forall now inc exp,
  u32 now -> u32 inc -> u32 exp ->
  (sig_time_ok now inc exp = true <-> (rfc_lt now exp \/ now = exp) /\ (rfc_gt now inc \/ now = inc)).
Proof. exact sig_time_ok_spec. Qed.
Print Assumptions C14_sig_time_ok_spec.

Theorem C14_sig_time_shift_invariant : sig_time_is_canonical = false -> forall now inc exp k,
  u32 now -> u32 inc -> u32 exp ->
  sig_time_ok ((now + k) mod M32) ((inc + k) mod M32) ((exp + k) mod M32) = sig_time_ok now inc exp.
Proof. exact sig_time_shift_invariant. Qed.
Print Assumptions C14_sig_time_shift_invariant.

Theorem C14_sig_time_rejects : sig_time_is_canonical = false -> forall now inc exp,
  u32 now -> u32 inc -> u32 exp ->
  rfc_gt now exp \/ rfc_lt now inc \/ (now + 2147483648) mod M32 = exp \/ (now + 2147483648) mod M32 = inc ->
  sig_time_ok now inc exp = false.
Proof. exact sig_time_rejects. Qed.
Print Assumptions C14_sig_time_rejects.

Theorem C14_check_sig_sound : forall s, check_sig s = true ->
  name_eqb (s_sig_owner s) (s_owner s) = true /\ s_same_class s = true /\
  ends_with (s_owner s) (s_signer s) = true /\
  s_type_covered s = s_rtype s /\
  s_sig_labels s <= N.of_nat (length (s_owner s)) /\
  sig_time_ok (s_now s) (s_inception s) (s_expiration s) = true /\
  name_eqb (s_signer s) (s_key_name s) = true /\ s_sig_alg s = s_key_alg s /\ s_sig_tag s = s_key_tag s /\
  s_zone_key s = true /\ s_crypto_ok s = true.
Proof. exact check_sig_sound. Qed.
Print Assumptions C14_check_sig_sound.

Theorem C14_check_sig_rejects_outside_validity : sig_time_is_canonical = false -> forall s,
  u32 (s_now s) -> u32 (s_inception s) -> u32 (s_expiration s) ->
  rfc_gt (s_now s) (s_expiration s) \/ rfc_lt (s_now s) (s_inception s) -> check_sig s = false.
Proof. exact check_sig_rejects_outside_validity. Qed.
Print Assumptions C14_check_sig_rejects_outside_validity.

Theorem C14_wildcard_ce_spec : forall owner labels,
  match wildcard_closest_encloser owner labels with
  | Some ce => (N.to_nat labels < length owner)%nat /\ length ce = N.to_nat labels /\ exists p, owner = p ++ ce
  | None => (length owner <= N.to_nat labels)%nat
  end.
Proof. exact wildcard_ce_spec. Qed.
Print Assumptions C14_wildcard_ce_spec.

Theorem C14_validate_groups_spec : forall l,
  match validate_groups l with
  | Some l' => l' = l /\ ~ In Bogus l
  | None => In Bogus l
  end.
Proof. exact validate_groups_spec. Qed.
Print Assumptions C14_validate_groups_spec.

Theorem C14_positive_secure_sound : forall q qt maxc gs,
  positive_answer_state q qt maxc gs = Ok (Some Secure) ->
  (forall g, In g gs -> a_state g <> Bogus) /\
  (exists sname g, chain_secure qt gs q sname /\ get_answer_state sname qt gs = Some g /\
                   In g gs /\ a_state g = Secure /\ a_wild g = false) /\
  (answer_init_is_const = false -> forall g, In g gs -> a_state g = Secure).
Proof. exact positive_secure_sound. Qed.
Print Assumptions C14_positive_secure_sound.

Theorem C14_secure_all_groups_refuted : answer_init_is_const = true ->
  exists q qt gs, positive_answer_state q qt 11 gs = Ok (Some Secure) /\
    exists g, In g gs /\ a_state g = Insecure.
Proof. exact secure_all_groups_refuted. Qed.
Print Assumptions C14_secure_all_groups_refuted.

Theorem C14_positive_answer_total : forall q qt maxc gs,
  no_panic (positive_answer_state q qt maxc gs).
Proof. exact positive_answer_total. Qed.
Print Assumptions C14_positive_answer_total.

Theorem C14_negative_secure_sound : forall nx t qt s gs e,
  negative_msg_state nx t qt s gs = Ok (Secure, e) ->
  ~ In Bogus (map snd gs) /\
  if nx then exists ce e', nsec_for_nxdomain t (map fst gs) s = Ok (NxDoesNotExist ce, e')
  else (exists e', nsec_for_nodata t (map fst gs) qt s = Ok (NoData, e')) \/
       (exists e', nsec_for_nodata_wildcard t (map fst gs) qt s = Ok (NoData, e')).
Proof. exact negative_secure_sound. Qed.
Print Assumptions C14_negative_secure_sound.

(* ---- NSEC3 (RFC 5155 8.3 - 8.7), for every hash function H *)
Theorem C14_n3_checked_some : forall ci cb g s oh, get_checked_nsec3 ci cb g s = Ok (CSome oh) ->
  h_nrr g = 1 /\ h_is_nsec3 g = true /\ h_secure g = true /\ name_eqb (h_signer g) s = true /\
  h_alg g = 1 /\ h_iter g <= ci /\ h_iter g <= cb /\
  nsec3_label_to_hash (h_label g) = Ok oh /\ length oh = length (h_next g).
Proof. exact checked_some. Qed.
Print Assumptions C14_n3_checked_some.

Theorem C14_n3_not_exists_sound : forall H ci cb t gs s r e,
  nsec3_for_not_exists H ci cb t gs s = Ok (r, e) ->
  match r with
  | N3DNE ce => e = 0 /\ established H ci cb gs s ce /\
      exists l, suffix_of (l :: ce) t /\ exists g oh, In g gs /\ usable3 ci cb g s oh /\ covers3 H g oh (l :: ce) /\ h_optout g = false
  | N3DNEInsecure ce => established H ci cb gs s ce /\
      exists l, suffix_of (l :: ce) t /\ exists g oh, In g gs /\ usable3 ci cb g s oh /\ covers3 H g oh (l :: ce) /\ h_optout g = true
  | _ => True
  end.
Proof. exact n3_not_exists_sound. Qed.
Print Assumptions C14_n3_not_exists_sound.

Theorem C14_n3_nxdomain_sound : forall H ci cb t gs s ce e,
  nsec3_for_nxdomain H ci cb t gs s = Ok (N3DNE ce, e) ->
  established H ci cb gs s ce /\
  (exists l, suffix_of (l :: ce) t /\ exists g oh, In g gs /\ usable3 ci cb g s oh /\ covers3 H g oh (l :: ce) /\ h_optout g = false) /\
  exists g oh, In g gs /\ usable3 ci cb g s oh /\ covers3 H g oh (star_label :: ce) /\ h_optout g = false.
Proof. exact n3_nxdomain_sound. Qed.
Print Assumptions C14_n3_nxdomain_sound.

Theorem C14_n3_nodata_sound : forall H ci cb t gs rt s e,
  nsec3_for_nodata H ci cb t gs rt s = Ok (S3NoData, e) ->
  e = 0 /\ exists g oh, In g gs /\ usable3 ci cb g s oh /\ oh = hash_of H g t /\ hasn rt g = false /\ hasn rt_CNAME g = false /\
     (if rt =? rt_DS then hasn rt_NS g && hasn rt_SOA g = false else hasn rt_NS g && negb (hasn rt_SOA g) = false).
Proof. exact n3_nodata_sound. Qed.
Print Assumptions C14_n3_nodata_sound.

Theorem C14_n3_nodata_wildcard_sound : forall H ci cb t gs rt s e,
  nsec3_for_nodata_wildcard H ci cb t gs rt s = Ok (S3NoData, e) ->
  exists ce, established H ci cb gs s ce /\
    (exists l, suffix_of (l :: ce) t /\ exists g oh, In g gs /\ usable3 ci cb g s oh /\ covers3 H g oh (l :: ce) /\ h_optout g = false) /\
    exists g oh, In g gs /\ usable3 ci cb g s oh /\ oh = hash_of H g (star_label :: ce) /\ hasn rt g = false /\ hasn rt_CNAME g = false.
Proof. exact n3_nodata_wildcard_sound. Qed.
Print Assumptions C14_n3_nodata_wildcard_sound.

Theorem C14_n3_helpers_total : forall H ci cb t gs rt s, label_to_hash_expects = false ->
  no_panic (nsec3_for_not_exists H ci cb t gs s) /\ no_panic (nsec3_for_nodata H ci cb t gs rt s) /\
  no_panic (nsec3_for_nxdomain H ci cb t gs s) /\ no_panic (nsec3_for_nodata_wildcard H ci cb t gs rt s).
Proof. exact n3_helpers_total. Qed.
Print Assumptions C14_n3_helpers_total.

(* ---- DS -> DNSKEY step of the chain, for every digest function and signature oracle *)
Theorem C14_secure_implies_chain : forall dg vf dss keys sigs maxbad,
  child_node_state dg vf dss keys sigs maxbad = Secure ->
  exists d k s, In d dss /\ ds_supported d = true /\ In k keys /\ In s sigs /\
    k_alg k = d_alg d /\ k_tag k = d_tag d /\ d_digest d = dg k (d_dt d) /\
    sg_tag s = k_tag k /\ vf k s = true.
Proof. exact secure_implies_chain. Qed.
Print Assumptions C14_secure_implies_chain.

Theorem C14_insecure_iff_no_supported_ds : forall dg vf dss keys sigs maxbad,
  child_node_state dg vf dss keys sigs maxbad = Insecure <-> forall d, In d dss -> ds_supported d = false.
Proof. exact insecure_iff_no_supported_ds. Qed.
Print Assumptions C14_insecure_iff_no_supported_ds.

(* ---- insecure delegations: nsec_for_ds / nsec3_for_ds *)
Theorem C14_nsec_for_ds_insecure_sound : forall t gs,
  nsec_for_ds t gs = InsecureDelegation -> exists g, In g gs /\ nsec_no_ds_proof t g.
Proof. exact nsec_for_ds_insecure_sound. Qed.
Print Assumptions C14_nsec_for_ds_insecure_sound.

Theorem C14_nsec_for_ds_intermediate_sound : forall t gs,
  nsec_for_ds t gs = SecureIntermediate ->
  exists g, In g gs /\ dg_rtype g = rt_NSEC /\ dg_valid g = true /\
    ((name_eqb t (dg_owner g) = true /\ dg_ce g = None /\ dhas rt_DS g = false /\ dhas rt_SOA g = false /\ dhas rt_NS g = false) \/
     (name_eqb t (dg_owner g) = false /\ nsec_in_range t (dg_owner g) (dg_next g) = true /\ ends_with (dg_next g) t = true)).
Proof. exact nsec_for_ds_intermediate_sound. Qed.
Print Assumptions C14_nsec_for_ds_intermediate_sound.

Theorem C14_nsec3_for_ds_insecure_sound : forall H ci cb t gs,
  nsec3_for_ds H ci cb t gs = Ok InsecureDelegation -> exists g, In g gs /\ nsec3_no_ds_proof H ci cb t g.
Proof. exact nsec3_for_ds_insecure_sound. Qed.
Print Assumptions C14_nsec3_for_ds_insecure_sound.

Theorem C14_insecure_only_with_no_ds_proof : forall H ci cb t gs,
  no_ds_decision H ci cb t gs = Ok InsecureDelegation ->
  exists g, In g gs /\ (nsec_no_ds_proof t g \/ nsec3_no_ds_proof H ci cb t g).
Proof. exact insecure_only_with_no_ds_proof. Qed.
Print Assumptions C14_insecure_only_with_no_ds_proof.

(* ---- the signature cache and the clock *)
Theorem C14_check_sig_cached_time_sound : sig_cache_checks_time_first = true -> forall c s,
  check_sig_cached c s = true -> sig_time_ok (s_now s) (s_inception s) (s_expiration s) = true.
Proof. exact check_sig_cached_time_sound. Qed.
Print Assumptions C14_check_sig_cached_time_sound.

Theorem C14_revalidate_sound : sig_cache_checks_time_first = true -> forall n1 n2 i e,
  revalidate n1 n2 i e = Ok true -> sig_time_ok n2 i e = true.
Proof. exact revalidate_sound. Qed.
Print Assumptions C14_revalidate_sound.

Theorem C14_revalidate_refuted : sig_cache_checks_time_first = false -> sig_time_is_canonical = false ->
  exists n1 n2 i e, sig_time_ok n2 i e = false /\
    (revalidate n1 n2 i e = Ok true \/ exists p, revalidate n1 n2 i e = Panic p).
Proof. exact revalidate_refuted. Qed.
Print Assumptions C14_revalidate_refuted.

Theorem C14_revalidate_total : sig_cache_checks_time_first = true -> sig_time_is_canonical = false ->
  forall n1 n2 i e, u32 n2 -> u32 i -> u32 e ->
  (ttl_for_sig_wraps = true \/ n2 < 2147483648) -> no_panic (revalidate n1 n2 i e).
Proof. exact revalidate_total. Qed.
Print Assumptions C14_revalidate_total.

Theorem C14_ttl_underflow_refuted : ttl_for_sig_wraps = false ->
  exists now exp, now < 4294967296 /\ exp < 4294967296 /\ rfc_lt now exp /\ ttl_until_expired now exp = Panic 1.
Proof. exact ttl_underflow_refuted. Qed.
Print Assumptions C14_ttl_underflow_refuted.

(* ---- trust anchor step *)
Theorem C14_anchor_secure_implies_anchored_key : forall dg vf tas keys sigs maxbad,
  trust_anchor_state dg vf tas keys sigs maxbad = Secure ->
  exists a k s, In a tas /\ In k keys /\ In s sigs /\ anchored dg a k /\ sg_tag s = k_tag k /\ vf k s = true.
Proof. exact anchor_secure_implies_anchored_key. Qed.
Print Assumptions C14_anchor_secure_implies_anchored_key.

Theorem C14_anchor_never_insecure : forall dg vf tas keys sigs maxbad,
  trust_anchor_state dg vf tas keys sigs maxbad = Secure \/ trust_anchor_state dg vf tas keys sigs maxbad = Bogus.
Proof. exact anchor_never_insecure. Qed.
Print Assumptions C14_anchor_never_insecure.

(* ---- wildcard-expanded answers *)
Theorem C14_wildcard_secure_sound : forall H ci cb sname signer ce ngs n3gs,
  wildcard_answer_state H ci cb sname Secure signer (Some ce) ngs n3gs = Ok Secure ->
  name_eqb sname (star_label :: ce) = true \/
  (exists g, In g ngs /\ usable g signer /\ covers sname g /\
             name_eqb ce (nsec_closest_encloser sname (g_owner g) (g_next g)) = true) \/
  (exists c g oh, child_of_ce sname ce = Some c /\ In g n3gs /\ usable3 ci cb g signer oh /\
             covers3 H g oh c /\ h_optout g = false).
Proof. exact wildcard_secure_sound. Qed.
Print Assumptions C14_wildcard_secure_sound.

Theorem C14_wildcard_answer_total : forall H ci cb sname st signer oce ngs n3gs,
  Forall wf_group ngs -> label_to_hash_expects = false ->
  (forall ce, oce = Some ce -> (length ce < length sname)%nat) ->
  no_panic (wildcard_answer_state H ci cb sname st signer oce ngs n3gs).
Proof. exact wildcard_answer_total. Qed.
Print Assumptions C14_wildcard_answer_total.

(* ---- DNAME: what may leave the answer section unvalidated *)
Theorem C14_map_dname_keeps_prefix : forall owner dt p r, map_dname owner dt (p ++ owner) = Some r -> r = p ++ dt.
Proof. exact map_dname_keeps_prefix. Qed.
Print Assumptions C14_map_dname_keeps_prefix.

Theorem C14_moved_to_dname_sound : forall cowner ctarget gs,
  moved_to_dname cowner ctarget gs = true -> exists g, In g gs /\ synthesized_by cowner ctarget g.
Proof. exact moved_to_dname_sound. Qed.
Print Assumptions C14_moved_to_dname_sound.

Theorem C14_removed_cname_is_exact_synthesis : forall gs g,
  In g gs -> ~ In g (move_redundant_cnames gs) ->
  a_rtype g = rt_CNAME /\ a_nrr g = 1 /\ a_signed g = false /\
  exists t, a_cname g = Some t /\ exists d, In d gs /\ synthesized_by (a_owner g) t d.
Proof. exact removed_cname_is_exact_synthesis. Qed.
Print Assumptions C14_removed_cname_is_exact_synthesis.

(* ---- cached nodes *)
Theorem C14_anchor_node_never_outlives_sig :
  anchor_node_limited_by_sig = true -> anchor_node_limited_by_dnskey_ttl = true -> ttl_for_sig_wraps = true ->
  forall now1 now2 maxv dttl sg,
  now1 <= st_expiration sg -> st_expiration sg < M32 -> now1 <= now2 ->
  anchor_still_trusts now1 now2 maxv dttl sg = Ok true ->
  now2 <= st_expiration sg /\ now2 - now1 <= dttl /\ now2 - now1 <= maxv.
Proof. exact anchor_node_never_outlives_sig. Qed.
Print Assumptions C14_anchor_node_never_outlives_sig.

Theorem C14_child_node_never_outlives_sigs :
  child_node_limited_by_ds = true -> group_ttl_limited_by_sig = true ->
  child_node_limited_by_dnskey_ttl = true -> child_node_limited_by_dnskey_sig = true -> ttl_for_sig_wraps = true ->
  forall now1 now2 pl dsttl dss kttl ks,
  now1 <= st_expiration dss -> st_expiration dss < M32 -> now1 <= st_expiration ks -> st_expiration ks < M32 -> now1 <= now2 ->
  child_still_trusts now1 now2 pl dsttl dss kttl ks = Ok true ->
  now2 <= st_expiration dss /\ now2 <= st_expiration ks /\ now2 - now1 <= dsttl /\ now2 - now1 <= kttl /\ now2 - now1 <= pl.
Proof. exact child_node_never_outlives_sigs. Qed.
Print Assumptions C14_child_node_never_outlives_sigs.

Theorem C14_anchor_node_outlives_sig_refuted : anchor_node_limited_by_sig = false ->
  exists now1 now2 maxv dttl sg, now1 <= st_expiration sg /\ st_expiration sg < now2 /\
    anchor_still_trusts now1 now2 maxv dttl sg = Ok true.
Proof. exact anchor_node_outlives_sig_refuted. Qed.
Print Assumptions C14_anchor_node_outlives_sig_refuted.

Theorem C14_ds_reply_insecure_only_with_proof : forall H ci cb t cn gs,
  ds_reply_decision H ci cb t cn gs = Ok InsecureDelegation ->
  cn = NoCname /\ exists g, In g gs /\ (nsec_no_ds_proof t g \/ nsec3_no_ds_proof H ci cb t g).
Proof. exact ds_reply_insecure_only_with_proof. Qed.
Print Assumptions C14_ds_reply_insecure_only_with_proof.

(* ---- the node cache path *)
Theorem C14_get_node_sound : forall now ta_owner ta_node mk_child c n r,
  get_node now ta_owner ta_node mk_child c n = Ok r ->
  suffix_of (l_zone r) n /\
  (l_from_cache r = true -> exists nd, cache_get c (l_zone r) = Some nd /\ l_node r = nd /\
                                       node_usable (cn_created nd) (cn_valid_for nd) now = true) /\
  (closest_skips_intermediate = true -> cn_intermediate ta_node = false ->
   Forall (fun cl => cn_intermediate (snd cl) = false) (l_calls r)).
Proof. exact get_node_sound. Qed.
Print Assumptions C14_get_node_sound.

Theorem C14_intermediate_signer_refuted : closest_skips_intermediate = false ->
  exists now ta_node mk c n r, get_node now [] ta_node mk c n = Ok r /\
    exists cl, In cl (l_calls r) /\ cn_intermediate (snd cl) = true.
Proof. exact intermediate_signer_refuted. Qed.
Print Assumptions C14_intermediate_signer_refuted.

(* ---- grouping records into RRsets with their signatures *)
Theorem C14_signature_attached_only_to_covered_rrset : forall rs g s,
  In g (groupset_of rs) -> In s (m_sigs g) ->
  r_is_sig s = true /\
  forall r, In r (m_rrs g) -> r_is_sig r = false /\ name_eqb (r_owner r) (r_owner s) = true /\
                              r_class r = r_class s /\ r_type r = r_type s.
Proof. exact signature_attached_only_to_covered_rrset. Qed.
Print Assumptions C14_signature_attached_only_to_covered_rrset.

(* ---- the validating transport: header flags handed to the client *)
Theorem C14_ad_only_when_validated_secure : conn_cd_do_repairs_ad = true ->
  forall req_cd req_do req_ad up_ad up_cd st,
  o_ad (connection req_cd req_do req_ad up_ad up_cd st) = true ->
  req_cd = false /\ st = Secure /\ (req_do = true \/ req_ad = true).
Proof. exact ad_only_when_validated_secure. Qed.
Print Assumptions C14_ad_only_when_validated_secure.

Theorem C14_upstream_ad_never_passed : conn_cd_do_repairs_ad = true ->
  forall req_cd req_do req_ad up_cd st,
  o_ad (connection req_cd req_do req_ad true up_cd st) = o_ad (connection req_cd req_do req_ad false up_cd st).
Proof. exact upstream_ad_never_passed. Qed.
Print Assumptions C14_upstream_ad_never_passed.

Theorem C14_upstream_ad_leak_refuted : conn_cd_do_repairs_ad = false ->
  exists st, o_ad (connection true true false true true st) = true.
Proof. exact upstream_ad_leak_refuted. Qed.
Print Assumptions C14_upstream_ad_leak_refuted.

Theorem C14_bogus_is_servfail : forall req_do req_ad up_ad up_cd,
  o_servfail (connection false req_do req_ad up_ad up_cd Bogus) = true /\
  o_ad (connection false req_do req_ad up_ad up_cd Bogus) = false.
Proof. exact bogus_is_servfail. Qed.
Print Assumptions C14_bogus_is_servfail.

(* ---- proof-only round: wildcard-expanded CNAME steps, multi-record DNAME RRsets *)
Theorem C14_positive_full_sound : forall H ci cb ngs n3gs q qt maxc gs,
  positive_full H ci cb ngs n3gs q qt maxc gs = Ok (Some Secure) ->
  (forall w, In w gs -> a_state (w_g w) <> Bogus) /\
  exists sname w, chain_w H ci cb ngs n3gs qt gs q sname /\ get_answer_w sname qt gs = Some w /\ In w gs /\
    a_state (w_g w) = Secure /\
    match w_ce w with
    | None => True
    | Some ce => name_eqb sname (star_label :: ce) = true \/ nonexistence_proof H ci cb ngs n3gs sname (w_signer w) ce
    end.
Proof. exact positive_full_sound. Qed.
Print Assumptions C14_positive_full_sound.

Theorem C14_wild_check_secure_sound : forall H ci cb ngs n3gs nm signer ce,
  wild_check H ci cb ngs n3gs nm signer ce = Ok (true, Secure) -> nonexistence_proof H ci cb ngs n3gs nm signer ce.
Proof. exact wild_check_secure_sound. Qed.
Print Assumptions C14_wild_check_secure_sound.

Theorem C14_positive_full_extends : forall H ci cb ngs n3gs q qt maxc gs s, Forall wf_wgroup gs ->
  positive_answer_state q qt maxc (map w_g gs) = Ok (Some s) ->
  positive_full H ci cb ngs n3gs q qt maxc gs = Ok (Some s).
Proof. exact positive_full_extends. Qed.
Print Assumptions C14_positive_full_extends.

Theorem C14_moved_to_dname_all_sound : forall cowner ctarget gs,
  moved_to_dname_all cowner ctarget gs = true ->
  exists g dt res, In g gs /\ dn_rtype g = rt_DNAME /\ In dt (dn_targets g) /\
    ends_with cowner (dn_owner g) = true /\ name_eqb cowner (dn_owner g) = false /\
    map_dname (dn_owner g) dt cowner = Some res /\ name_eqb ctarget res = true.
Proof. exact moved_to_dname_all_sound. Qed.
Print Assumptions C14_moved_to_dname_all_sound.

Theorem C14_moved_to_dname_all_agrees : forall cowner ctarget gs,
  moved_to_dname_all cowner ctarget (map dn_of gs) = moved_to_dname cowner ctarget gs.
Proof. exact moved_to_dname_all_agrees. Qed.
Print Assumptions C14_moved_to_dname_all_agrees.

(* ---- completeness: correctly signed data is reported secure, insecure data insecure (not bogus) *)
Theorem C14_check_sig_iff : forall s, check_sig s = true <->
  name_eqb (s_sig_owner s) (s_owner s) = true /\ s_same_class s = true /\
  ends_with (s_owner s) (s_signer s) = true /\
  s_type_covered s = s_rtype s /\
  s_sig_labels s <= N.of_nat (length (s_owner s)) /\
  sig_time_ok (s_now s) (s_inception s) (s_expiration s) = true /\
  name_eqb (s_signer s) (s_key_name s) = true /\ s_sig_alg s = s_key_alg s /\ s_sig_tag s = s_key_tag s /\
  s_zone_key s = true /\ s_crypto_ok s = true.
Proof. exact check_sig_iff. Qed.
Print Assumptions C14_check_sig_iff.

Theorem C14_validate_groups_complete : forall l, ~ In Bogus l -> validate_groups l = Some l.
Proof. exact validate_groups_complete. Qed.
Print Assumptions C14_validate_groups_complete.

Theorem C14_positive_direct_verdict : forall q qt maxc gs g,
  Forall (fun g => a_state g = Secure \/ a_state g = Insecure) gs ->
  cname_find q qt gs = Some None ->
  get_answer_state q qt gs = Some g ->
  a_wild g = false ->
  exists s, positive_answer_state q qt maxc gs = Ok (Some s) /\ (s = Secure \/ s = Insecure) /\
    (a_state g = Insecure -> s = Insecure) /\
    ((forall g', In g' gs -> a_state g' = Secure) -> s = Secure).
Proof. exact positive_direct_verdict. Qed.
Print Assumptions C14_positive_direct_verdict.

Theorem C14_positive_secure_complete : forall q qt maxc gs k sname g,
  (forall g, In g gs -> a_state g <> Bogus) ->
  chain_n qt gs k q sname -> N.of_nat k <= maxc ->
  cname_find sname qt gs = Some None ->
  get_answer_state sname qt gs = Some g -> a_state g = Secure -> a_wild g = false ->
  (answer_init_is_const = false -> forall g, In g gs -> a_state g = Secure) ->
  positive_answer_state q qt maxc gs = Ok (Some Secure).
Proof. exact positive_secure_complete. Qed.
Print Assumptions C14_positive_secure_complete.

Theorem C14_chain_n_is_chain_secure : forall qt gs k n m, chain_n qt gs k n m -> chain_secure qt gs n m.
Proof. exact chain_n_chain_secure. Qed.
Print Assumptions C14_chain_n_is_chain_secure.

Theorem C14_positive_bogus_group : forall q qt maxc gs g,
  In g gs -> a_state g = Bogus -> positive_answer_state q qt maxc gs = Ok (Some Bogus).
Proof. exact positive_bogus_group. Qed.
Print Assumptions C14_positive_bogus_group.

Theorem C14_negative_nxdomain_complete : forall t qt s gs ce e,
  ~ In Bogus (map snd gs) ->
  nsec_for_nxdomain t (map fst gs) s = Ok (NxDoesNotExist ce, e) ->
  negative_msg_state true t qt s gs = Ok (Secure, e).
Proof. exact negative_nxdomain_complete. Qed.
Print Assumptions C14_negative_nxdomain_complete.

Theorem C14_negative_nodata_complete : forall t qt s gs e,
  ~ In Bogus (map snd gs) ->
  nsec_for_nodata t (map fst gs) qt s = Ok (NoData, e) ->
  negative_msg_state false t qt s gs = Ok (Secure, e).
Proof. exact negative_nodata_complete. Qed.
Print Assumptions C14_negative_nodata_complete.

Theorem C14_negative_nodata_wildcard_complete : forall t qt s gs e0 e,
  ~ In Bogus (map snd gs) ->
  nsec_for_nodata t (map fst gs) qt s = Ok (NNothing, e0) ->
  nsec_for_nodata_wildcard t (map fst gs) qt s = Ok (NoData, e) ->
  negative_msg_state false t qt s gs = Ok (Secure, e).
Proof. exact negative_nodata_wildcard_complete. Qed.
Print Assumptions C14_negative_nodata_wildcard_complete.

Theorem C14_negative_bogus_group : forall nx t qt s gs,
  In Bogus (map snd gs) -> negative_msg_state nx t qt s gs = Ok (Bogus, 99).
Proof. exact negative_bogus_group. Qed.
Print Assumptions C14_negative_bogus_group.

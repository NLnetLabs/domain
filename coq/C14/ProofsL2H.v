(* C14 proofs: nsec3_label_to_hash.  Uses the C18 theorems about
   base32::decode_hex (b32_decode_spec: the decoder never panics and accepts
   exactly unpadded Base32hex, spec_dec32). *)
From Coq Require Import NArith List.
Import ListNotations.
From DV Require Import Base.Outcome Base.Bytes Base.Lex Base.Names.
From DV Require Import C18.Model C18.ProofsDec32 C14.Gen C14.Model.
Local Open Scope N_scope.

Lemma label_to_hash_cases l :
  nsec3_label_to_hash l =
  match from_utf8 l with
  | None => Err 1
  | Some cs => match spec_dec32 cs with
               | Some h => Ok h
               | None => if label_to_hash_expects then Panic 1 else Err 2
               end
  end.
Proof.
  unfold nsec3_label_to_hash. destruct (from_utf8 l) as [cs|]; [|reflexivity].
  pose proof (b32_decode_spec cs) as S.
  destruct (spec_dec32 cs); [rewrite S|destruct S as [e ->]]; reflexivity.
Qed.

Theorem label_to_hash_ok_iff l h :
  nsec3_label_to_hash l = Ok h <-> exists cs, from_utf8 l = Some cs /\ spec_dec32 cs = Some h.
Proof.
  rewrite label_to_hash_cases. destruct (from_utf8 l) as [cs|]; [destruct (spec_dec32 cs) as [h'|] eqn:E|].
  - split; [intros [= ->]; eauto|intros (cs' & [= <-] & E'); rewrite E in E'; injection E' as ->; reflexivity].
  - split; [destruct label_to_hash_expects; discriminate|intros (cs' & [= <-] & E'); rewrite E in E'; discriminate E'].
  - split; [discriminate|intros (cs & X & _); discriminate X].
Qed.

(* as long as the helper `expect`s the decode: it panics exactly on the labels
   that are valid UTF-8 but not unpadded Base32hex *)
Theorem label_to_hash_panic_iff : label_to_hash_expects = true -> forall l,
  nsec3_label_to_hash l = Panic 1 <-> exists cs, from_utf8 l = Some cs /\ spec_dec32 cs = None.
Proof.
  intros X l. rewrite label_to_hash_cases, X.
  destruct (from_utf8 l) as [cs|]; [destruct (spec_dec32 cs) as [h'|] eqn:E|].
  - split; [discriminate|intros (cs' & [= <-] & E'); rewrite E in E'; discriminate E'].
  - split; [eauto|reflexivity].
  - split; [discriminate|intros (cs & Y & _); discriminate Y].
Qed.

Theorem label_to_hash_refuted : label_to_hash_expects = true ->
  exists l, valid_label l /\ nsec3_label_to_hash l = Panic 1.
Proof.
  intros X. exists [122; 122; 122; 122]. split.
  - apply valid_labelb_spec. reflexivity.
  - rewrite label_to_hash_cases, X. reflexivity.
Qed.

(* once the decode error is mapped into the error type, no label panics *)
Theorem label_to_hash_total : label_to_hash_expects = false -> forall l, no_panic (nsec3_label_to_hash l).
Proof.
  intros X l. rewrite label_to_hash_cases, X.
  destruct (from_utf8 l) as [cs|]; [destruct (spec_dec32 cs)|]; exact I.
Qed.

(* whatever the switch: the only panic is site 1, and only on non-Base32hex text *)
Theorem label_to_hash_only_panic l p : nsec3_label_to_hash l = Panic p ->
  p = 1 /\ label_to_hash_expects = true /\ exists cs, from_utf8 l = Some cs /\ spec_dec32 cs = None.
Proof.
  rewrite label_to_hash_cases.
  destruct (from_utf8 l) as [cs|]; [destruct (spec_dec32 cs) eqn:E|]; [discriminate| |discriminate].
  destruct label_to_hash_expects; [|discriminate]. intros [= <-]. eauto.
Qed.

Example label_to_hash_ex :
  nsec3_label_to_hash [67; 80; 78; 77; 85; 79; 74; 49; 69; 56] = Ok [102; 111; 111; 98; 97; 114] /\
  nsec3_label_to_hash [255; 254] = Err 1 /\
  from_utf8 [195; 169] = Some [233] /\ from_utf8 [192; 128] = None /\ from_utf8 [237; 160; 128] = None /\
  from_utf8 [240; 159; 152; 128] = Some [128512].
Proof. vm_compute. repeat split. Qed.


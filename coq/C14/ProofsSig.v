(* C14 proofs: Group::check_sig conditions, signature times, validate_groups, the
   verdict of a positive answer and the header flags the client sees. *)
From Coq Require Import NArith List Bool Lia PeanoNat.
Import ListNotations.
From DV Require Import Base.Outcome Base.Bytes Base.Lex Base.Names.
From DV Require Import C17.Model C17.Proofs C18.Model C14.Gen C14.Model C14.ModelConn C14.Proofs.
Local Open Scope N_scope.

Lemma serial_le_rfc a b : u32 a -> u32 b -> (serial_le a b = true <-> rfc_lt a b \/ a = b).
Proof.
  intros Ha Hb. destruct (cmp_is_rfc1982 a b Ha Hb) as (L & _ & E). rewrite <- L, <- E. unfold serial_le.
  destruct (serial_partial_cmp a b) as [[[| |]|]| | |]; split; auto;
    first [discriminate | intros [X|X]; discriminate X].
Qed.

Lemma serial_ge_rfc a b : u32 a -> u32 b -> (serial_ge a b = true <-> rfc_gt a b \/ a = b).
Proof.
  intros Ha Hb. destruct (cmp_is_rfc1982 a b Ha Hb) as (_ & G & E). rewrite <- G, <- E. unfold serial_ge.
  destruct (serial_partial_cmp a b) as [[[| |]|]| | |]; split; auto;
    first [discriminate | intros [X|X]; discriminate X].
Qed.

(* RFC 4034 3.1.5 with RFC 1982 arithmetic: accepted iff now is not after the
   expiration and not before the inception, both comparisons being defined *)
Theorem sig_time_ok_spec : sig_time_is_canonical = false -> forall now inc exp,
  u32 now -> u32 inc -> u32 exp ->
  (sig_time_ok now inc exp = true <-> (rfc_lt now exp \/ now = exp) /\ (rfc_gt now inc \/ now = inc)).
Proof.
  intros X now inc exp Hn Hi He. unfold sig_time_ok. rewrite X.
  rewrite andb_true_iff, (serial_le_rfc now exp Hn He), (serial_ge_rfc now inc Hn Hi). reflexivity.
Qed.

(* the verdict depends only on the differences: shifting now, inception and
   expiration by the same amount (e.g. across the 2^32 wrap) does not change it *)
Theorem sig_time_shift_invariant : sig_time_is_canonical = false -> forall now inc exp k,
  u32 now -> u32 inc -> u32 exp ->
  sig_time_ok ((now + k) mod M32) ((inc + k) mod M32) ((exp + k) mod M32) = sig_time_ok now inc exp.
Proof.
  intros X now inc exp k Hn Hi He. unfold sig_time_ok, serial_le, serial_ge. rewrite X.
  rewrite (cmp_shift_invariant now exp k Hn He), (cmp_shift_invariant now inc k Hn Hi). reflexivity.
Qed.

(* the undefined comparison: (0, 2^31) shifted by now *)
Lemma cmp_half_turn now : u32 now -> serial_partial_cmp now ((now + 2147483648) mod M32) = Ok None.
Proof.
  intros Hn. transitivity (serial_partial_cmp 0 2147483648); [|reflexivity].
  rewrite <- (cmp_shift_invariant 0 2147483648 now) by reflexivity.
  rewrite N.add_0_l, (N.mod_small _ _ Hn), (N.add_comm 2147483648). reflexivity.
Qed.

(* expired, not yet valid, or undefined (2^31 apart): rejected *)
Theorem sig_time_rejects : sig_time_is_canonical = false -> forall now inc exp,
  u32 now -> u32 inc -> u32 exp ->
  rfc_gt now exp \/ rfc_lt now inc \/ (now + 2147483648) mod M32 = exp \/ (now + 2147483648) mod M32 = inc ->
  sig_time_ok now inc exp = false.
Proof.
  intros X now inc exp Hn Hi He H. unfold sig_time_ok, serial_le, serial_ge. rewrite X.
  destruct (cmp_is_rfc1982 now exp Hn He) as (_ & Ge & _).
  destruct (cmp_is_rfc1982 now inc Hn Hi) as (Li & _ & _).
  destruct H as [H|[H|[<-|<-]]].
  - apply Ge in H. rewrite H. reflexivity.
  - apply Li in H. rewrite H. apply andb_false_r.
  - rewrite (cmp_half_turn now Hn). reflexivity.
  - rewrite (cmp_half_turn now Hn). apply andb_false_r.
Qed.

Example sig_time_ex : sig_time_is_canonical = false ->
  sig_time_ok 1000 900 1100 = true /\ sig_time_ok 1000 1001 1100 = false /\ sig_time_ok 1000 900 999 = false /\
  sig_time_ok 1000 1000 1000 = true /\
  sig_time_ok 256 4294963200 65536 = true /\            (* inception 0xFFFFF000, now 0x100, expiration 0x10000: straddles the wrap *)
  sig_time_ok 1790000000 0 4294967295 = false /\         (* expiration more than 2^31 ahead = in the past *)
  sig_time_ok 0 0 2147483648 = false.                     (* undefined comparison *)
Proof. intros X. unfold sig_time_ok. rewrite X. vm_compute. repeat split. Qed.

Lemma if_negb (c r : bool) : (if negb c then false else r) = c && r.
Proof. destruct c; reflexivity. Qed.

Lemma andb_iff (b r : bool) P R : (b = true <-> P) -> (r = true <-> R) -> (b && r = true <-> P /\ R).
Proof. intros <- <-. apply andb_true_iff. Qed.

(* check_sig is the conjunction of its tests: written as one right-nested [&&], it is
   compared with the statement test by test *)
Theorem check_sig_iff s : check_sig s = true <->
  name_eqb (s_sig_owner s) (s_owner s) = true /\ s_same_class s = true /\
  ends_with (s_owner s) (s_signer s) = true /\          (* the signer is an ancestor of (or is) the owner *)
  s_type_covered s = s_rtype s /\
  s_sig_labels s <= N.of_nat (length (s_owner s)) /\    (* labels field not above the owner's label count *)
  sig_time_ok (s_now s) (s_inception s) (s_expiration s) = true /\
  name_eqb (s_signer s) (s_key_name s) = true /\ s_sig_alg s = s_key_alg s /\ s_sig_tag s = s_key_tag s /\
  s_zone_key s = true /\ s_crypto_ok s = true.
Proof.
  unfold check_sig, sig_labels_reject_op.
  change (op_holds 0 (N.of_nat (length (s_owner s)) ?= s_sig_labels s))
    with (N.of_nat (length (s_owner s)) <? s_sig_labels s).
  rewrite N.ltb_antisym, <- !negb_andb, !if_negb, <- !andb_assoc.
  repeat (apply andb_iff; [first [reflexivity | apply N.eqb_eq | apply N.leb_le]|]). reflexivity.
Qed.

Theorem check_sig_sound s : check_sig s = true ->
  name_eqb (s_sig_owner s) (s_owner s) = true /\ s_same_class s = true /\
  ends_with (s_owner s) (s_signer s) = true /\
  s_type_covered s = s_rtype s /\
  s_sig_labels s <= N.of_nat (length (s_owner s)) /\
  sig_time_ok (s_now s) (s_inception s) (s_expiration s) = true /\
  name_eqb (s_signer s) (s_key_name s) = true /\ s_sig_alg s = s_key_alg s /\ s_sig_tag s = s_key_tag s /\
  s_zone_key s = true /\ s_crypto_ok s = true.
Proof. apply check_sig_iff. Qed.

(* a signature outside its validity period never validates, whatever the key says *)
Theorem check_sig_rejects_outside_validity : sig_time_is_canonical = false -> forall s,
  u32 (s_now s) -> u32 (s_inception s) -> u32 (s_expiration s) ->
  rfc_gt (s_now s) (s_expiration s) \/ rfc_lt (s_now s) (s_inception s) -> check_sig s = false.
Proof.
  intros X s Hn Hi He H. apply not_true_is_false. intros E.
  apply check_sig_sound in E as (_ & _ & _ & _ & _ & T & _).
  rewrite (sig_time_rejects X _ _ _ Hn Hi He) in T; [discriminate|tauto].
Qed.

Example check_sig_ex :
  let s := mkS [[97];[101;120]] [[97];[69;88]] true [[101;120]] 1 1 2 1000 1100 900 [[101;120]] 13 13 7 7 true true in
  check_sig s = true /\
  check_sig (mkS [[97];[101;120]] [[97];[69;88]] true [[111]] 1 1 2 1000 1100 900 [[111]] 13 13 7 7 true true) = false /\  (* signer not an ancestor *)
  check_sig (mkS [[97];[101;120]] [[97];[69;88]] true [[101;120]] 1 1 3 1000 1100 900 [[101;120]] 13 13 7 7 true true) = false.   (* labels > owner labels *)
Proof. vm_compute. repeat split. Qed.

Theorem check_sig_cached_time_sound : sig_cache_checks_time_first = true -> forall c s,
  check_sig_cached c s = true -> sig_time_ok (s_now s) (s_inception s) (s_expiration s) = true.
Proof.
  intros X c s. unfold check_sig_cached. rewrite X.
  destruct (sig_time_ok (s_now s) (s_inception s) (s_expiration s)); [reflexivity|discriminate].
Qed.

Theorem revalidate_sound : sig_cache_checks_time_first = true -> forall n1 n2 i e,
  revalidate n1 n2 i e = Ok true -> sig_time_ok n2 i e = true.
Proof.
  intros X n1 n2 i e. unfold revalidate. rewrite X.
  destruct (sig_time_ok n2 i e); [reflexivity|discriminate].
Qed.

(* a cache that is trusted without looking at the clock accepts an expired signature
   (or, with a checked u32 subtraction in ttl_for_sig, panics) *)
Theorem revalidate_refuted : sig_cache_checks_time_first = false -> sig_time_is_canonical = false ->
  exists n1 n2 i e, sig_time_ok n2 i e = false /\
    (revalidate n1 n2 i e = Ok true \/ exists p, revalidate n1 n2 i e = Panic p).
Proof.
  intros X Y. exists 1000, 1010, 900, 1002. unfold revalidate, sig_time_ok, ttl_until_expired. rewrite X, Y.
  split; [reflexivity|].
  destruct ttl_for_sig_wraps; [left|right; exists 1]; reflexivity.
Qed.

(* with the clock consulted first, ttl_for_sig cannot underflow before the clock
   itself reaches 2^31 (19 January 2038); a wrapping subtraction never does *)
Theorem revalidate_total : sig_cache_checks_time_first = true -> sig_time_is_canonical = false ->
  forall n1 n2 i e, u32 n2 -> u32 i -> u32 e ->
  (ttl_for_sig_wraps = true \/ n2 < 2147483648) -> no_panic (revalidate n1 n2 i e).
Proof.
  intros X Y n1 n2 i e Hn Hi He W. unfold revalidate. rewrite X.
  destruct (sig_time_ok n2 i e) eqn:T; cbn [negb andb]; [|exact I].
  destruct (sig_time_ok n1 i e); [|exact I].
  unfold ttl_until_expired. destruct ttl_for_sig_wraps; [exact I|].
  destruct W as [W|W]; [discriminate|].
  apply (sig_time_ok_spec Y n2 i e Hn Hi He) in T. destruct T as [T _].
  unfold u32_sub. destruct (N.leb_spec n2 e) as [|L]; [exact I|].
  destruct T as [[[T _]|[_ T]]| ->]; [exact (N.lt_asymm _ _ T L)| |exact (N.lt_irrefl _ L)].
  apply N.gt_lt in T.
  exact (N.lt_irrefl _ (N.lt_trans _ _ _ T (N.le_lt_trans _ _ _ (N.le_sub_l n2 e) W))).
Qed.

Theorem ttl_underflow_refuted : ttl_for_sig_wraps = false ->
  exists now exp, now < 4294967296 /\ exp < 4294967296 /\ rfc_lt now exp /\ ttl_until_expired now exp = Panic 1.
Proof.
  intros X. exists 4294967000, 100. unfold ttl_until_expired. rewrite X.
  split; [reflexivity|]. split; [reflexivity|]. split; [right; split; reflexivity|reflexivity].
Qed.

(* wildcard_closest_encloser: Some exactly when the labels field is below the owner's count *)
Theorem wildcard_ce_spec owner labels :
  match wildcard_closest_encloser owner labels with
  | Some ce => (N.to_nat labels < length owner)%nat /\ length ce = N.to_nat labels /\ exists p, owner = p ++ ce
  | None => (length owner <= N.to_nat labels)%nat
  end.
Proof.
  unfold wildcard_closest_encloser. destruct (Nat.ltb_spec (N.to_nat labels) (length owner)) as [H|H]; [|exact H].
  split; [exact H|]. split.
  - rewrite skipn_length. apply Nat.add_sub_eq_l, Nat.sub_add, Nat.lt_le_incl, H.
  - exists (firstn (length owner - N.to_nat labels) owner). symmetry. apply firstn_skipn.
Qed.

Lemma abort_is_bogus s : (vstate_code s =? vg_abort_state) = true <-> s = Bogus.
Proof. destruct s; split; (discriminate || reflexivity). Qed.

Theorem validate_groups_spec l :
  match validate_groups l with
  | Some l' => l' = l /\ ~ In Bogus l
  | None => In Bogus l
  end.
Proof.
  induction l as [|s l IH]; simpl; [split; [reflexivity|intros []]|].
  destruct (vstate_code s =? vg_abort_state) eqn:A; [left; apply abort_is_bogus, A|].
  destruct (validate_groups l); simpl; [|right; exact IH].
  destruct IH as [-> IH]. split; [reflexivity|]. intros [->|X]; [discriminate A|exact (IH X)].
Qed.

Lemma map_maybe_secure_secure a b : map_maybe_secure a b = Secure -> a = Secure /\ b = Secure.
Proof. destruct a; simpl; intros H; try discriminate. auto. Qed.

Lemma vstate_eqb_eq a b : vstate_eqb a b = true -> a = b.
Proof. destruct a, b; (discriminate || reflexivity). Qed.

Inductive chain_secure (qtype : N) (gs : list agroup) : name -> name -> Prop :=
| cs_refl n : chain_secure qtype gs n n
| cs_step n tgt m :
    cname_find n qtype gs = Some (Some (tgt, Secure)) ->
    chain_secure qtype gs tgt m -> chain_secure qtype gs n m.

Lemma cname_chase_secure qt gs maxc : forall fuel count n maybe m,
  cname_chase fuel count maxc n qt gs maybe = Ok (Some (m, Secure)) ->
  maybe = Secure /\ chain_secure qt gs n m.
Proof.
  induction fuel as [|fuel IH]; intros count n maybe m H; simpl in H; [discriminate|].
  destruct (cname_find n qt gs) as [[[tgt st]|]|] eqn:F.
  - destruct (vstate_eqb st Bogus); [discriminate H|].
    destruct (maxc <? count + 1); [discriminate H|].
    apply IH in H as [H1 H2]. apply map_maybe_secure_secure in H1 as [-> ->].
    split; [reflexivity|]. eapply cs_step; eassumption.
  - inversion H. subst. split; [reflexivity|apply cs_refl].
  - discriminate.
Qed.

Lemma cname_chase_fuel qt gs maxc : forall fuel count n maybe,
  (N.to_nat maxc + 1 - N.to_nat count < fuel)%nat ->
  cname_chase fuel count maxc n qt gs maybe <> OutOfFuel /\ no_panic (cname_chase fuel count maxc n qt gs maybe).
Proof.
  induction fuel as [|fuel IH]; intros count n maybe H; [lia|]. simpl.
  destruct (cname_find n qt gs) as [[[tgt st]|]|]; try (split; [discriminate|exact I]).
  destruct (vstate_eqb st Bogus); [split; [discriminate|exact I]|].
  destruct (N.ltb_spec maxc (count + 1)); [split; [discriminate|exact I]|].
  apply IH. lia.
Qed.

Lemma fold_secure_iff gs : forall acc,
  fold_left (fun acc g => map_maybe_secure (a_state g) acc) gs acc = Secure <->
  acc = Secure /\ forall g, In g gs -> a_state g = Secure.
Proof.
  induction gs as [|g gs IH]; intros acc; simpl.
  - split; [intros H; split; [exact H|intros g []]|intros [H _]; exact H].
  - rewrite IH. split.
    + intros [H1 H2]. apply map_maybe_secure_secure in H1 as [Hg Ha].
      split; [exact Ha|]. intros g' [<-|Hi]; auto.
    + intros [-> A]. split; [rewrite (A g (or_introl eq_refl)); reflexivity|].
      intros g' Hi. apply A. right. exact Hi.
Qed.

Lemma get_answer_state_in q qt gs : forall g, get_answer_state q qt gs = Some g -> In g gs.
Proof.
  induction gs as [|x gs IH]; intros g H; simpl in H; [discriminate|].
  destruct (negb (a_class_ok x)); [right; auto|].
  destruct (negb (a_rtype x =? qt)); [right; auto|].
  destruct (negb (name_eqb (a_owner x) q)); [right; auto|].
  inversion H. left. reflexivity.
Qed.

(* "secure" for a positive answer: no group of the answer section is bogus, every
   CNAME followed and the answering group are secure - and, if the verdict starts
   from a fold over all answer groups, every group of the answer section is *)
Theorem positive_secure_sound q qt maxc gs :
  positive_answer_state q qt maxc gs = Ok (Some Secure) ->
  (forall g, In g gs -> a_state g <> Bogus) /\
  (exists sname g, chain_secure qt gs q sname /\ get_answer_state sname qt gs = Some g /\
                   In g gs /\ a_state g = Secure /\ a_wild g = false) /\
  (answer_init_is_const = false -> forall g, In g gs -> a_state g = Secure).
Proof.
  unfold positive_answer_state. generalize answer_init_is_const. intros aic H.
  pose proof (validate_groups_spec (map a_state gs)) as V.
  destruct (validate_groups (map a_state gs)) as [l'|]; [|discriminate H].
  destruct V as [_ V]. split.
  { intros g Hi Hb. apply V. rewrite <- Hb. apply in_map. exact Hi. }
  destruct (cname_chase (S (N.to_nat maxc + 1)) 0 maxc q qt gs Secure) as [[[sname st]|]| | |] eqn:C; simpl in H; try discriminate.
  match type of H with context [map_maybe_secure st ?i] => set (init := i) in * end.
  destruct (vstate_eqb (map_maybe_secure st init) Bogus); [discriminate H|].
  destruct (get_answer_state sname qt gs) as [g|] eqn:G; [|discriminate].
  destruct (a_wild g && vstate_eqb (a_state g) Secure) eqn:W; [discriminate|].
  injection H as H. apply map_maybe_secure_secure in H as [Hg Hm].
  apply map_maybe_secure_secure in Hm as [-> Hinit].
  apply cname_chase_secure in C as [_ C].
  split.
  - exists sname, g. split; [exact C|]. split; [exact G|]. split; [exact (get_answer_state_in _ _ _ _ G)|].
    split; [exact Hg|]. rewrite Hg, andb_true_r in W. exact W.
  - intros X. subst aic init. apply fold_secure_iff in Hinit as [_ Hall]. exact Hall.
Qed.

(* with the constant start the verdict says nothing about the other RRsets of
   the answer section: an unauthenticated RRset may ride along a secure answer *)
Theorem secure_all_groups_refuted : answer_init_is_const = true ->
  exists q qt gs, positive_answer_state q qt 11 gs = Ok (Some Secure) /\
    exists g, In g gs /\ a_state g = Insecure.
Proof.
  intros X.
  exists [[119]; [115]], 1,
    [mkA true 1 1 [[119]; [115]] None Secure false None true; mkA true 1 1 [[119]; [105]] None Insecure false None true].
  split.
  - unfold positive_answer_state. rewrite X. vm_compute. reflexivity.
  - eexists. split; [right; left; reflexivity|reflexivity].
Qed.

Theorem positive_answer_total q qt maxc gs :
  no_panic (positive_answer_state q qt maxc gs).
Proof.
  unfold positive_answer_state. destruct (validate_groups (map a_state gs)); [|exact I].
  pose proof (cname_chase_fuel qt gs maxc (S (N.to_nat maxc + 1)) 0 q Secure ltac:(lia)) as [F P].
  destruct (cname_chase (S (N.to_nat maxc + 1)) 0 maxc q qt gs Secure) as [[[sname st]|]| | |]; simpl; try exact I; try contradiction.
  destruct (vstate_eqb _ Bogus); [exact I|].
  destruct (get_answer_state sname qt gs) as [g|]; [|exact I].
  destruct (a_wild g && vstate_eqb (a_state g) Secure); exact I.
Qed.

Example positive_answer_ex :
  (* alias CNAME www (secure), www A (secure) *)
  positive_answer_state [[97]] 1 11
    [mkA true 5 1 [[97]] (Some [[119]]) Secure false None true; mkA true 1 1 [[119]] None Secure false None true] = Ok (Some Secure) /\
  (* the CNAME group is insecure: the answer is *)
  positive_answer_state [[97]] 1 11
    [mkA true 5 1 [[97]] (Some [[119]]) Insecure false None true; mkA true 1 1 [[119]] None Secure false None true] = Ok (Some Insecure) /\
  (* a bogus group anywhere: bogus *)
  positive_answer_state [[119]] 1 11
    [mkA true 1 1 [[119]] None Secure false None true; mkA true 16 1 [[120]] None Bogus false None true] = Ok (Some Bogus) /\
  (* a CNAME loop ends as bogus after max_cname_dname steps *)
  positive_answer_state [[97]] 1 11
    [mkA true 5 1 [[97]] (Some [[98]]) Secure false None true; mkA true 5 1 [[98]] (Some [[97]]) Secure false None true] = Ok (Some Bogus).
Proof. vm_compute. repeat split. Qed.

(* the negative path: a secure verdict comes from one of the three NSEC proofs *)
Theorem negative_secure_sound nx t qt s gs e :
  negative_msg_state nx t qt s gs = Ok (Secure, e) ->
  ~ In Bogus (map snd gs) /\
  if nx then exists ce e', nsec_for_nxdomain t (map fst gs) s = Ok (NxDoesNotExist ce, e')
  else (exists e', nsec_for_nodata t (map fst gs) qt s = Ok (NoData, e')) \/
       (exists e', nsec_for_nodata_wildcard t (map fst gs) qt s = Ok (NoData, e')).
Proof.
  unfold negative_msg_state. intros H.
  pose proof (validate_groups_spec (map snd gs)) as V.
  destruct (validate_groups (map snd gs)); [|discriminate H]. destruct V as [_ V]. split; [exact V|].
  destruct nx.
  - destruct (nsec_for_nxdomain t (map fst gs) s) as [[[|ce|] e1]| | |]; simpl in H; try discriminate; try (inversion H; fail).
    eauto.
  - destruct (nsec_for_nodata t (map fst gs) qt s) as [[[|] e1]| | |]; simpl in H; try discriminate.
    + left. eauto.
    + destruct (nsec_for_nodata_wildcard t (map fst gs) qt s) as [[[|] e2]| | |]; simpl in H; try discriminate; try (inversion H; fail).
      right. eauto.
Qed.

(* AD only for a reply that this validator validated as secure: never with CD in the request
   (nothing is validated then), and never for another verdict *)
Theorem ad_only_when_validated_secure : conn_cd_do_repairs_ad = true ->
  forall req_cd req_do req_ad up_ad up_cd st,
  o_ad (connection req_cd req_do req_ad up_ad up_cd st) = true ->
  req_cd = false /\ st = Secure /\ (req_do = true \/ req_ad = true).
Proof.
  intros X req_cd req_do req_ad up_ad up_cd st. unfold connection. rewrite X.
  destruct req_cd; [destruct req_do; [destruct up_ad, up_cd|]; discriminate|].
  destruct st, req_do; simpl; try discriminate; auto.
Qed.

(* the reply's own AD flag never reaches the client *)
Theorem upstream_ad_never_passed : conn_cd_do_repairs_ad = true ->
  forall req_cd req_do req_ad up_cd st,
  o_ad (connection req_cd req_do req_ad true up_cd st) = o_ad (connection req_cd req_do req_ad false up_cd st).
Proof.
  intros X req_cd req_do req_ad up_cd st. unfold connection. rewrite X.
  destruct req_cd; [destruct req_do; [destruct up_cd|]|]; reflexivity.
Qed.

Theorem upstream_ad_leak_refuted : conn_cd_do_repairs_ad = false ->
  exists st, o_ad (connection true true false true true st) = true.
Proof. intros X. exists Bogus. unfold connection. rewrite X. reflexivity. Qed.

Theorem bogus_is_servfail : forall req_do req_ad up_ad up_cd,
  o_servfail (connection false req_do req_ad up_ad up_cd Bogus) = true /\
  o_ad (connection false req_do req_ad up_ad up_cd Bogus) = false.
Proof. intros. split; reflexivity. Qed.

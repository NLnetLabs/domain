(* C14 proofs: closest encloser, get_checked_nsec, soundness and totality of the
   NSEC denial helpers. *)
From Coq Require Import NArith List Bool PeanoNat.
Import ListNotations.
From DV Require Import Base.Outcome Base.Bytes Base.Lex Base.Names.
From DV Require Import C17.Model C18.Model C14.Gen C14.Model C14.Proofs.
Local Open Scope N_scope.

Definition suffix_of (s n : name) : Prop := exists p, n = p ++ s.

Lemma ends_with_root t : ends_with t [] = true.
Proof. reflexivity. Qed.

Lemma suffix_of_refl n : suffix_of n n.
Proof. exists []. reflexivity. Qed.

Lemma suffix_of_cons_r s l n : suffix_of s n -> suffix_of s (l :: n).
Proof. intros [p ->]. exists (l :: p). reflexivity. Qed.

Lemma suffix_of_cons s l n : suffix_of s (l :: n) -> s = l :: n \/ suffix_of s n.
Proof.
  intros [[|x p] Hp]; simpl in Hp.
  - left. symmetry. exact Hp.
  - right. injection Hp as _ Hp. exists p. exact Hp.
Qed.

Lemma suffix_of_length s n : suffix_of s n -> (length s <= length n)%nat.
Proof. intros [p ->]. rewrite app_length. apply Nat.le_add_l. Qed.

Lemma first_suffix_is_suffix t n : suffix_of (first_suffix t n) n.
Proof.
  induction n as [|l n IH]; simpl; [apply suffix_of_refl|].
  destruct (ends_with t (l :: n)); [apply suffix_of_refl|apply suffix_of_cons_r, IH].
Qed.

Lemma first_suffix_ends t n : ends_with t (first_suffix t n) = true.
Proof.
  induction n as [|l n IH]; simpl; [reflexivity|].
  destruct (ends_with t (l :: n)) eqn:E; assumption.
Qed.

Lemma first_suffix_longest t n s :
  suffix_of s n -> ends_with t s = true -> (length s <= length (first_suffix t n))%nat.
Proof.
  induction n as [|l n IH]; simpl; intros Hs He.
  - apply suffix_of_length in Hs. exact Hs.
  - destruct (ends_with t (l :: n)) eqn:E.
    + apply suffix_of_length in Hs. exact Hs.
    + apply suffix_of_cons in Hs as [->|Hs]; [congruence|]. apply IH; assumption.
Qed.

(* nsec_closest_encloser returns a suffix of owner or next that target ends
   with, and no longer such suffix exists *)
Theorem closest_encloser_spec t o n :
  let ce := nsec_closest_encloser t o n in
  ends_with t ce = true /\ (suffix_of ce o \/ suffix_of ce n) /\
  forall s, suffix_of s o \/ suffix_of s n -> ends_with t s = true -> (length s <= length ce)%nat.
Proof.
  unfold nsec_closest_encloser.
  pose proof (first_suffix_longest t o) as Lo. pose proof (first_suffix_longest t n) as Ln.
  destruct (Nat.ltb_spec (length (first_suffix t n)) (length (first_suffix t o))) as [H|H]; cbn zeta.
  - split; [apply first_suffix_ends|]. split; [left; apply first_suffix_is_suffix|].
    intros s [Hs|Hs] He; [apply Lo; assumption|].
    apply Nat.lt_le_incl, (Nat.le_lt_trans _ _ _ (Ln s Hs He) H).
  - split; [apply first_suffix_ends|]. split; [right; apply first_suffix_is_suffix|].
    intros s [Hs|Hs] He; [|apply Ln; assumption].
    exact (Nat.le_trans _ _ _ (Lo s Hs He) H).
Qed.

Example closest_encloser_ex :
  (* target x.y.ex, NSEC a.ex -> y.ex? no: owner b.y.ex, next z.ex: closest encloser y.ex *)
  nsec_closest_encloser [[120];[121];[101;120]] [[98];[121];[101;120]] [[122];[101;120]] = [[121];[101;120]] /\
  nsec_closest_encloser [[120]] [[97]] [[122]] = [].
Proof. vm_compute. split; reflexivity. Qed.

Lemma star_name_some ce star : star_name ce = Some star -> star = star_label :: ce.
Proof. unfold star_name. destruct (Nat.leb (wire_len ce) 252); congruence. Qed.

Definition usable (g : vgroup) (signer : name) : Prop :=
  g_rtype g = rt_NSEC /\ g_nrr g = 1 /\ g_secure g = true /\ name_eqb (g_signer g) signer = true /\
  match g_ce g with
  | None => True
  | Some ce => exists star, star_name ce = Some star /\ name_eqb (g_owner g) star = true
  end.

Definition wf_group (g : vgroup) : Prop := g_rtype g = rt_NSEC -> g_nrr g = 1 -> g_is_nsec g = true.

Lemma get_checked_spec g s :
  match get_checked_nsec g s with
  | Ok (true, e) => usable g s /\ e = 0
  | Ok (false, _) => True
  | Panic _ => g_rtype g = rt_NSEC /\ g_nrr g = 1 /\ g_is_nsec g = false
  | _ => False
  end.
Proof.
  unfold get_checked_nsec, usable.
  destruct (N.eqb_spec (g_rtype g) rt_NSEC) as [Hr|]; cbn [negb]; [|exact I].
  destruct (N.eqb_spec (g_nrr g) 1) as [Hn|]; cbn [negb]; [|exact I].
  destruct (g_is_nsec g); cbn [negb]; [|auto].
  destruct (g_secure g); cbn [negb]; [|exact I].
  destruct (name_eqb (g_signer g) s); cbn [negb]; [|exact I].
  destruct (g_ce g) as [ce|]; [|repeat split; assumption].
  destruct (star_name ce) as [star|]; [|exact I].
  destruct (name_eqb (g_owner g) star) eqn:E; [|exact I].
  repeat split; try assumption. exists star. auto.
Qed.

Lemma get_checked_usable g s e : get_checked_nsec g s = Ok (true, e) -> usable g s /\ e = 0.
Proof. intros H. pose proof (get_checked_spec g s) as S. rewrite H in S. exact S. Qed.

Lemma get_checked_total g s : wf_group g -> exists u e, get_checked_nsec g s = Ok (u, e).
Proof.
  intros W. pose proof (get_checked_spec g s) as S.
  destruct (get_checked_nsec g s) as [[u e]| | |]; [eauto|contradiction| |contradiction].
  destruct S as (Hr & Hn & F). rewrite (W Hr Hn) in F. discriminate.
Qed.

(* a non-secure group, a group of another signer, a wildcard-expanded NSEC is never used *)
Lemma get_checked_rejects g s u e :
  get_checked_nsec g s = Ok (u, e) ->
  (g_secure g = false \/ name_eqb (g_signer g) s = false \/ g_rtype g <> rt_NSEC \/ g_nrr g <> 1) -> u = false.
Proof.
  intros H R. destruct u; [|reflexivity]. apply get_checked_usable in H as [(H1 & H2 & H3 & H4 & _) _].
  destruct R as [R|[R|[R|R]]]; congruence.
Qed.

(* the only panic of these helpers is the unreachable "NSEC expected" *)
Lemma get_checked_panic_iff g s :
  (exists p, get_checked_nsec g s = Panic p) <-> (g_rtype g = rt_NSEC /\ g_nrr g = 1 /\ g_is_nsec g = false).
Proof.
  split.
  - intros [p H]. pose proof (get_checked_spec g s) as S. rewrite H in S. exact S.
  - intros (Hr & Hn & F). exists 2. unfold get_checked_nsec. rewrite Hr, Hn, F. reflexivity.
Qed.

Definition nodata_proof (target : name) (rtype : N) (g : vgroup) : Prop :=
  (name_eqb target (g_owner g) = true /\ has rtype g = false /\ has rt_CNAME g = false /\
   (if (rtype =? rt_DS) && negb (is_root target)
    then has rt_NS g && has rt_SOA g = false           (* DS: not the child-side (apex) NSEC *)
    else has rt_NS g && negb (has rt_SOA g) = false))  (* otherwise: not the parent-side NSEC of a delegation *)
  \/
  (name_eqb target (g_owner g) = false /\ nsec_in_range target (g_owner g) (g_next g) = true /\
   ends_with (g_next g) target = true).                (* empty non-terminal *)

(* [gs] is the part of [gs0] still to be looked at *)
Lemma nodata_loop_sound t rt s gs0 gs : incl gs gs0 -> forall ede,
  match nodata_loop t rt s gs ede with
  | Ok (NoData, e) => e = 0 /\ exists g, In g gs0 /\ usable g s /\ nodata_proof t rt g
  | _ => True
  end.
Proof.
  induction gs as [|g gs IH]; intros Hin ede; simpl; [exact I|].
  apply incl_cons_inv in Hin as [Ig Hin]. specialize (IH Hin).
  destruct (get_checked_nsec g s) as [[[|] ne]| | |] eqn:C; simpl; try exact I; [|apply IH].
  apply get_checked_usable in C as [U _].
  destruct (name_eqb t (g_owner g)) eqn:Eo.
  - destruct (has rt g || has rt_CNAME g) eqn:Eb; [exact I|].
    apply orb_false_iff in Eb as [Eb1 Eb2].
    destruct ((rt =? rt_DS) && negb (is_root t)) eqn:Ed;
      [destruct (has rt_NS g && has rt_SOA g) eqn:En|destruct (has rt_NS g && negb (has rt_SOA g)) eqn:En];
      try exact I; (split; [reflexivity|]); exists g; (split; [exact Ig|]); (split; [exact U|]);
      left; rewrite Ed; auto.
  - destruct (nsec_in_range t (g_owner g) (g_next g) && ends_with (g_next g) t) eqn:Er; [|apply IH].
    apply andb_true_iff in Er as [Er1 Er2].
    split; [reflexivity|]. exists g. split; [exact Ig|]. split; [exact U|]. right. auto.
Qed.

Theorem nodata_sound t gs rt s e :
  nsec_for_nodata t gs rt s = Ok (NoData, e) ->
  e = 0 /\ exists g, In g gs /\ usable g s /\ nodata_proof t rt g.
Proof.
  intros E. pose proof (nodata_loop_sound t rt s gs gs (incl_refl _) 0) as S.
  unfold nsec_for_nodata in E. rewrite E in S. exact S.
Qed.

Definition covers (target : name) (g : vgroup) : Prop :=
  name_eqb target (g_owner g) = false /\
  nsec_in_range target (g_owner g) (g_next g) = true /\
  ends_with (g_next g) target = false /\                        (* not an empty non-terminal *)
  (ends_with target (g_owner g) = true ->                       (* owner is an ancestor of target: *)
     has rt_DNAME g = false /\ (has rt_NS g = true -> has rt_SOA g = true)).  (* no DNAME, no delegation *)

Lemma not_exists_loop_sound t s gs0 gs : incl gs gs0 -> forall ede,
  match not_exists_loop t s gs ede with
  | Ok (NxDoesNotExist ce, e) =>
      e = 0 /\ exists g, In g gs0 /\ usable g s /\ covers t g /\
                         ce = nsec_closest_encloser t (g_owner g) (g_next g)
  | _ => True
  end.
Proof.
  induction gs as [|g gs IH]; intros Hin ede; simpl; [exact I|].
  apply incl_cons_inv in Hin as [Ig Hin]. specialize (IH Hin).
  destruct (get_checked_nsec g s) as [[[|] ne]| | |] eqn:C; simpl; try exact I; [|apply IH].
  apply get_checked_usable in C as [U _].
  destruct (name_eqb t (g_owner g)) eqn:Eo; [exact I|].
  destruct (nsec_in_range t (g_owner g) (g_next g)) eqn:Er; cbn [negb]; [|apply IH].
  destruct (ends_with (g_next g) t) eqn:Ee; [exact I|].
  destruct (ends_with t (g_owner g) && (has rt_DNAME g || has rt_NS g && negb (has rt_SOA g))) eqn:Ed; [exact I|].
  split; [reflexivity|]. exists g. split; [exact Ig|]. split; [exact U|]. split; [|reflexivity].
  split; [assumption|]. split; [assumption|]. split; [assumption|].
  intros Hw. rewrite Hw in Ed. cbn [andb] in Ed. apply orb_false_iff in Ed as [Ed1 Ed2].
  split; [exact Ed1|]. intros Hns. rewrite Hns in Ed2. destruct (has rt_SOA g); [reflexivity|discriminate].
Qed.

Theorem not_exists_sound t gs s ce e :
  nsec_for_not_exists t gs s = Ok (NxDoesNotExist ce, e) ->
  e = 0 /\ exists g, In g gs /\ usable g s /\ covers t g /\
                     ce = nsec_closest_encloser t (g_owner g) (g_next g).
Proof.
  intros E. pose proof (not_exists_loop_sound t s gs gs (incl_refl _) 0) as S.
  unfold nsec_for_not_exists in E. rewrite E in S. exact S.
Qed.

(* name error: a usable NSEC covering the name and one covering the wildcard
   at the closest encloser computed from the first *)
Theorem nxdomain_sound t gs s ce' e :
  nsec_for_nxdomain t gs s = Ok (NxDoesNotExist ce', e) ->
  exists g1 g2 ce star,
    In g1 gs /\ In g2 gs /\ usable g1 s /\ usable g2 s /\
    covers t g1 /\ ce = nsec_closest_encloser t (g_owner g1) (g_next g1) /\
    star_name ce = Some star /\ star = star_label :: ce /\ covers star g2.
Proof.
  unfold nsec_for_nxdomain. intros H.
  destruct (nsec_for_not_exists t gs s) as [[[|ce|] e1]| | |] eqn:E1; simpl in H; try discriminate.
  apply not_exists_sound in E1 as [_ [g1 (I1 & U1 & C1 & Hce)]].
  destruct (star_name ce) as [star|] eqn:Es; [|inversion H].
  apply not_exists_sound in H as [_ [g2 (I2 & U2 & C2 & _)]].
  exists g1, g2, ce, star.
  exact (conj I1 (conj I2 (conj U1 (conj U2 (conj C1 (conj Hce (conj Es (conj (star_name_some _ _ Es) C2)))))))).
Qed.

(* NODATA through a wildcard: the name is covered, and the wildcard at the
   closest encloser has a NODATA proof *)
Theorem nodata_wildcard_sound t gs rt s e :
  nsec_for_nodata_wildcard t gs rt s = Ok (NoData, e) ->
  exists g1 g2 ce star,
    In g1 gs /\ In g2 gs /\ usable g1 s /\ usable g2 s /\
    covers t g1 /\ ce = nsec_closest_encloser t (g_owner g1) (g_next g1) /\
    star_name ce = Some star /\ nodata_proof star rt g2.
Proof.
  unfold nsec_for_nodata_wildcard. intros H.
  destruct (nsec_for_not_exists t gs s) as [[[|ce|] e1]| | |] eqn:E1; simpl in H; try discriminate.
  apply not_exists_sound in E1 as [_ [g1 (I1 & U1 & C1 & Hce)]].
  destruct (star_name ce) as [star|] eqn:Es; [|inversion H].
  apply nodata_sound in H as [_ [g2 (I2 & U2 & P2)]].
  exists g1, g2, ce, star. exact (conj I1 (conj I2 (conj U1 (conj U2 (conj C1 (conj Hce (conj Es P2))))))).
Qed.

(* an NSEC with NS but no SOA (the parent side of a delegation) or with DNAME
   never proves the non-existence of a name below its owner *)
Theorem delegation_nsec_never_denies t gs s ce e g :
  nsec_for_not_exists t gs s = Ok (NxDoesNotExist ce, e) ->
  In g gs -> usable g s -> wf_group g ->
  (forall g', In g' gs -> g' = g) ->          (* the only group offered *)
  ends_with t (g_owner g) = true ->
  has rt_DNAME g = false /\ (has rt_NS g = true -> has rt_SOA g = true).
Proof.
  intros H Hi Hu Hw Hall Hb.
  apply not_exists_sound in H as [_ [g' (I' & _ & (_ & _ & _ & C) & _)]].
  rewrite (Hall g' I') in C. apply C. exact Hb.
Qed.

Lemma nodata_loop_total t rt s gs : Forall wf_group gs -> forall ede, no_panic (nodata_loop t rt s gs ede).
Proof.
  induction 1 as [|g gs W _ IH]; intros ede; simpl; [exact I|].
  destruct (get_checked_total g s W) as (u & e & ->). simpl.
  destruct u; cbn [negb]; [|apply IH].
  destruct (name_eqb t (g_owner g)).
  - destruct (has rt g || has rt_CNAME g); [exact I|].
    destruct ((rt =? rt_DS) && negb (is_root t)).
    + destruct (has rt_NS g && has rt_SOA g); exact I.
    + destruct (has rt_NS g && negb (has rt_SOA g)); exact I.
  - destruct (nsec_in_range t (g_owner g) (g_next g) && ends_with (g_next g) t); [exact I|apply IH].
Qed.

Lemma not_exists_loop_total t s gs : Forall wf_group gs -> forall ede, no_panic (not_exists_loop t s gs ede).
Proof.
  induction 1 as [|g gs W _ IH]; intros ede; simpl; [exact I|].
  destruct (get_checked_total g s W) as (u & e & ->). simpl.
  destruct u; cbn [negb]; [|apply IH].
  destruct (name_eqb t (g_owner g)); [exact I|].
  destruct (nsec_in_range t (g_owner g) (g_next g)); cbn [negb]; [|apply IH].
  destruct (ends_with (g_next g) t); [exact I|].
  destruct (ends_with t (g_owner g) && (has rt_DNAME g || has rt_NS g && negb (has rt_SOA g))); exact I.
Qed.

Theorem helpers_total t gs rt s : Forall wf_group gs ->
  no_panic (nsec_for_nodata t gs rt s) /\ no_panic (nsec_for_not_exists t gs s) /\
  no_panic (nsec_for_nxdomain t gs s) /\ no_panic (nsec_for_nodata_wildcard t gs rt s).
Proof.
  intros W.
  assert (N1 : forall t, no_panic (nsec_for_not_exists t gs s)) by (intros; apply not_exists_loop_total; exact W).
  assert (N2 : forall t, no_panic (nsec_for_nodata t gs rt s)) by (intros; apply nodata_loop_total; exact W).
  split; [apply N2|]. split; [apply N1|]. split.
  - unfold nsec_for_nxdomain. apply bind_no_panic; [apply N1|].
    intros [[|ce|] e] _; try exact I. destruct (star_name ce); [apply N1|exact I].
  - unfold nsec_for_nodata_wildcard. apply bind_no_panic; [apply N1|].
    intros [[|ce|] e] _; try exact I. destruct (star_name ce); [apply N2|exact I].
Qed.

(* non-vacuity: a NODATA proof, a name error proof, and a delegation NSEC that is refused *)
Definition ex_zone : name := [[101;120]].
Definition ex_g (o nx : name) (ts : list N) : vgroup := mkG rt_NSEC 1 true o nx ts true ex_zone None.
Example denial_examples :
  nsec_for_nodata [[97];[101;120]] [ex_g [[97];[101;120]] [[99];[101;120]] [1;46;47]] 28 ex_zone = Ok (NoData, 0) /\
  nsec_for_nodata [[97];[101;120]] [ex_g [[97];[101;120]] [[99];[101;120]] [1;46;47]] 1 ex_zone = Ok (NNothing, 1) /\
  nsec_for_nxdomain [[98];[101;120]]
    [ex_g [[97];[101;120]] [[99];[101;120]] [1;46;47]; ex_g [[101;120]] [[97];[101;120]] [2;6;46;47;48]] ex_zone
    = Ok (NxDoesNotExist [[101;120]], 0) /\
  (* b.a.ex below the delegation a.ex: the parent-side NSEC cannot deny it *)
  nsec_for_not_exists [[98];[97];[101;120]] [ex_g [[97];[101;120]] [[99];[101;120]] [2;46;47]] ex_zone = Ok (NxExists, 7) /\
  (* a wildcard-expanded NSEC is ignored *)
  nsec_for_nodata [[97];[101;120]]
    [mkG rt_NSEC 1 true [[97];[101;120]] [[99];[101;120]] [1;46;47] true ex_zone (Some ex_zone)] 28 ex_zone = Ok (NNothing, 8).
Proof. vm_compute. repeat split. Qed.

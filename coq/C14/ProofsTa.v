(* C14 proofs: the trust anchor node is secure only through an anchored key. *)
From Coq Require Import NArith List.
Import ListNotations.
From DV Require Import Base.Outcome Base.Bytes Base.Lex C14.Gen C14.Model C14.ModelN3 C14.ModelChain C14.ModelTa C14.ProofsN3 C14.ProofsChain.
Local Open Scope N_scope.

Section TaP.
Variable dg : dkey -> N -> bytes.
Variable vf : dkey -> ksig -> bool.

Definition anchored (a : anchor) (k : dkey) : Prop :=
  match a with
  | TaKey id => k_id k = id
  | TaDs d => k_alg k = d_alg d /\ k_tag k = d_tag d /\ supported_digest (d_dt d) = true /\ d_digest d = dg k (d_dt d)
  | TaOther => False
  end.

Lemma anchor_key_spec a keys k : anchor_key dg a keys = Some k -> In k keys /\ anchored a k.
Proof.
  destruct a as [id|d|]; cbn [anchor_key]; [| |discriminate];
    induction keys as [|x keys IH]; cbn [has_key find_key_for_ds_any]; try discriminate.
  - destruct (N.eqb_spec (k_id x) id) as [E|]; [intros [= <-]; split; [left; reflexivity|exact E]|].
    intros X. destruct (IH X). split; [right; assumption|assumption].
  - assert (Skip : find_key_for_ds_any dg d keys = Some k -> In k (x :: keys) /\ anchored (TaDs d) k).
    { intros X. destruct (IH X). split; [right; assumption|assumption]. }
    destruct (N.eqb_spec (k_alg x) (d_alg d)); cbn [negb]; [|exact Skip].
    destruct (N.eqb_spec (k_tag x) (d_tag d)); cbn [negb]; [|exact Skip].
    destruct (supported_digest (d_dt d)) eqn:S; cbn [negb]; [|exact Skip].
    destruct (bytes_eqb (d_digest d) (dg x (d_dt d))) eqn:B; [|exact Skip].
    intros [= <-]. apply bytes_eqb_spec in B. split; [left; reflexivity|]. repeat split; assumption.
Qed.

(* [tas] is the part of [tas0] still to be tried *)
Lemma ta_loop_secure tas0 tas keys sigs : incl tas tas0 -> forall bad maxbad,
  ta_loop dg vf tas keys sigs bad maxbad = Secure ->
  exists a k s, In a tas0 /\ In k keys /\ In s sigs /\ anchored a k /\ sg_tag s = k_tag k /\ vf k s = true.
Proof.
  induction tas as [|a tas IH]; simpl; intros Hin bad maxbad H; [discriminate|].
  apply incl_cons_inv in Hin as [Ia Hin].
  destruct (anchor_key dg a keys) as [k|] eqn:F; [|exact (IH Hin _ _ H)].
  destruct (try_sigs vf k sigs bad maxbad) as [[|]|bad'] eqn:T; [|discriminate|exact (IH Hin _ _ H)].
  apply anchor_key_spec in F as (Ik & A). apply try_sigs_true in T as (s & Is & E & V).
  exists a, k, s. repeat split; assumption.
Qed.

(* the root of every chain: secure only if a configured anchor record (DNSKEY or DS)
   vouches for a key of the served RRset and that key's signature over the RRset verifies *)
Theorem anchor_secure_implies_anchored_key tas keys sigs maxbad :
  trust_anchor_state dg vf tas keys sigs maxbad = Secure ->
  exists a k s, In a tas /\ In k keys /\ In s sigs /\ anchored a k /\ sg_tag s = k_tag k /\ vf k s = true.
Proof. apply ta_loop_secure, incl_refl. Qed.

Theorem anchor_never_insecure tas keys sigs maxbad :
  trust_anchor_state dg vf tas keys sigs maxbad = Secure \/ trust_anchor_state dg vf tas keys sigs maxbad = Bogus.
Proof.
  unfold trust_anchor_state. generalize 0 as bad. induction tas as [|a tas IH]; simpl; intros bad; [right; reflexivity|].
  destruct (anchor_key dg a keys) as [k|]; [|apply IH].
  destruct (try_sigs vf k sigs bad maxbad) as [[|]|]; [left; reflexivity|right; reflexivity|apply IH].
Qed.
End TaP.

Example anchor_ex :
  let dg := fun (k : dkey) (_ : N) => [k_id k] in
  let vf := fun (k : dkey) (s : ksig) => k_id k =? sg_id s in
  trust_anchor_state dg vf [TaKey 1] [mkK 13 100 1; mkK 13 200 2] [mkSg 100 1] 1 = Secure /\
  trust_anchor_state dg vf [TaKey 1] [mkK 13 100 1; mkK 13 200 2] [mkSg 200 2] 1 = Bogus /\   (* signed by an unanchored key *)
  trust_anchor_state dg vf [TaKey 1] [mkK 13 100 1; mkK 13 100 2] [mkSg 100 2] 1 = Bogus /\   (* ... even with the anchored tag *)
  trust_anchor_state dg vf [TaDs (mkD 13 100 2 [1])] [mkK 13 100 2; mkK 13 100 1] [mkSg 100 1] 1 = Secure /\
  trust_anchor_state dg vf [TaDs (mkD 13 100 3 [1])] [mkK 13 100 1] [mkSg 100 1] 1 = Bogus /\   (* digest type without digest function *)
  trust_anchor_state dg vf [TaOther; TaKey 7] [mkK 13 100 1] [mkSg 100 1] 1 = Bogus.
Proof. vm_compute. repeat split. Qed.

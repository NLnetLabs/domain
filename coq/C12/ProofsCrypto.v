(* C12 -- sign then verify.  The signature scheme itself is NOT modelled:
   `sign` and `verify` are Section variables.  The only property used for the
   honest half is correctness (verify pk m (sign sk m) = true); the tamper
   half uses an explicit idealised binding hypothesis.  Both stay visible as
   premises of the exported theorems. *)
From Coq Require Import NArith List Bool.
From DV Require Import Base.Outcome Base.Bytes Base.Lex Base.Names C12.Gen C12.Model
  C12.Spec C12.ProofsSigned C12.ProofsInj.
Import ListNotations.
Local Open Scope N_scope.

Section Crypto.
  Variables secret public : Type.
  Variable sign : secret -> bytes -> bytes.
  Variable verify : public -> bytes -> bytes -> bool.   (* key, message, signature *)

  (* RrsigExt::verify_signed_data: Err 1 = InvalidData (algorithm mismatch),
     Err 2 = the backend rejects *)
  Definition verify_signed_data (pk : public) (dnskey_alg : N) (s : sigf) (signature data : bytes)
    : outcome unit :=
    if alg_mismatch (s_alg s) dnskey_alg then Err 1
    else if verify pk data signature then Ok tt else Err 2.

  Lemma verify_ok_inv key dalg s signature data :
    verify_signed_data key dalg s signature data = Ok tt -> verify key data signature = true.
  Proof.
    unfold verify_signed_data. destruct (alg_mismatch (s_alg s) dalg); [discriminate|].
    destruct (verify key data signature); [reflexivity|discriminate].
  Qed.

  Variable sk : secret.
  Variable pk : public.

  Lemma sign_then_verify :
    (forall m, verify pk m (sign sk m) = true) ->
    forall k o t c ttl rrset inc exp s scratch,
      valid_abs o -> uniform o t c ttl rrset ->
      sign_rrset k rrset inc exp = Ok (s, scratch) ->
      forall seen, resolver_view o t c rrset seen ->
        verify_signed_data pk (k_alg k) s (sign sk scratch) (signed_data s seen) = Ok tt.
  Proof.
    intros Hcorrect k o t c ttl rrset inc exp s scratch Hv Hu Hs seen Hseen.
    rewrite (validator_rebuilds_signer_input _ _ _ _ _ _ _ _ _ _ Hv Hu Hs seen Hseen).
    apply (sign_rrset_ok _ _ _ _ _ _ _ _ _ _ Hu) in Hs as (Hsig & _).
    unfold verify_signed_data, alg_mismatch. rewrite Hsig. cbn [s_alg]. rewrite N.eqb_refl. cbn [negb].
    rewrite andb_false_r. rewrite Hcorrect. reflexivity.
  Qed.

  (* idealised: a signature made over m verifies for no other message *)
  Lemma verified_means_same_covered :
    (forall m m', verify pk m' (sign sk m) = true -> m' = m) ->
    forall k o t c ttl rrset inc exp s scratch,
      valid_abs o -> uniform o t c ttl rrset ->
      sign_rrset k rrset inc exp = Ok (s, scratch) ->
      forall dalg s' seen seen',
        resolver_view o t c rrset seen ->
        wf_sig s -> wf_sig s' -> Forall wf_rr seen -> Forall wf_rr seen' ->
        verify_signed_data pk dalg s' (sign sk scratch) (signed_data s' seen') = Ok tt ->
        covered s' seen' = covered s seen.
  Proof.
    intros Hbind k o t c ttl rrset inc exp s scratch Hv Hu Hs dalg s' seen seen' Hseen W W' R R' H.
    apply verify_ok_inv, Hbind in H.
    rewrite <- (validator_rebuilds_signer_input _ _ _ _ _ _ _ _ _ _ Hv Hu Hs seen Hseen) in H.
    apply signed_data_injective; assumption.
  Qed.

  Lemma tamper_rejected :
    (forall m m', verify pk m' (sign sk m) = true -> m' = m) ->
    forall k o t c ttl rrset inc exp s scratch,
      valid_abs o -> uniform o t c ttl rrset ->
      sign_rrset k rrset inc exp = Ok (s, scratch) ->
      forall dalg s' seen seen',
        resolver_view o t c rrset seen ->
        wf_sig s -> wf_sig s' -> Forall wf_rr seen -> Forall wf_rr seen' ->
        covered s' seen' <> covered s seen ->
        verify_signed_data pk dalg s' (sign sk scratch) (signed_data s' seen') <> Ok tt.
  Proof.
    intros Hbind k o t c ttl rrset inc exp s scratch Hv Hu Hs dalg s' seen seen' Hseen W W' R R' Hne H.
    exact (Hne (verified_means_same_covered Hbind _ _ _ _ _ _ _ _ _ _ Hv Hu Hs _ _ _ _ Hseen W W' R R' H)).
  Qed.

  (* idealised: the only signature that verifies for m under pk is the one made
     with sk (unique signatures); then any altered signature - a flipped bit, a
     truncation - is rejected, whatever the records *)
  Lemma altered_signature_rejected :
    (forall m sg, verify pk m sg = true -> sg = sign sk m) ->
    forall k o t c ttl rrset inc exp s scratch,
      valid_abs o -> uniform o t c ttl rrset ->
      sign_rrset k rrset inc exp = Ok (s, scratch) ->
      forall seen sg', resolver_view o t c rrset seen ->
        sg' <> sign sk scratch ->
        verify_signed_data pk (k_alg k) s sg' (signed_data s seen) <> Ok tt.
  Proof.
    intros Huniq k o t c ttl rrset inc exp s scratch Hv Hu Hs seen sg' Hseen Hne H.
    rewrite (validator_rebuilds_signer_input _ _ _ _ _ _ _ _ _ _ Hv Hu Hs seen Hseen) in H.
    apply verify_ok_inv, Huniq in H. contradiction.
  Qed.

  (* idealised: a signature made with sk verifies under no other public key *)
  Lemma foreign_key_rejected :
    (forall pk' m, verify pk' m (sign sk m) = true -> pk' = pk) ->
    forall k o t c ttl rrset inc exp s scratch,
      valid_abs o -> uniform o t c ttl rrset ->
      sign_rrset k rrset inc exp = Ok (s, scratch) ->
      forall seen pk' dalg, resolver_view o t c rrset seen ->
        pk' <> pk ->
        verify_signed_data pk' dalg s (sign sk scratch) (signed_data s seen) <> Ok tt.
  Proof.
    intros Hkey k o t c ttl rrset inc exp s scratch Hv Hu Hs seen pk' dalg Hseen Hne H.
    rewrite (validator_rebuilds_signer_input _ _ _ _ _ _ _ _ _ _ Hv Hu Hs seen Hseen) in H.
    apply verify_ok_inv, Hkey in H. contradiction.
  Qed.

  (* a key of another algorithm is refused before any cryptography *)
  Lemma algorithm_mismatch_rejected s signature data dalg :
    s_alg s <> dalg -> verify_signed_data pk dalg s signature data = Err 1.
  Proof.
    intros H. unfold verify_signed_data, alg_mismatch, verify_checks_algorithm_match.
    destruct (N.eqb_spec (s_alg s) dalg); [contradiction|]. reflexivity.
  Qed.
End Crypto.

(* non-vacuity: a toy scheme that satisfies all four hypotheses *)
Example crypto_hypotheses_satisfiable :
  let sign := fun (_ : unit) (m : bytes) => m in
  let verify := fun (_ : unit) (m s : bytes) => match lex_cmp m s with Eq => true | _ => false end in
  (forall m, verify tt m (sign tt m) = true) /\
  (forall m m', verify tt m' (sign tt m) = true -> m' = m) /\
  (forall m sg, verify tt m sg = true -> sg = sign tt m) /\
  (forall pk' m, verify pk' m (sign tt m) = true -> pk' = tt).
Proof.
  cbv zeta. split.
  - intros m. rewrite lex_cmp_refl. reflexivity.
  - split; [|split].
    + intros m m' H. destruct (lex_cmp m' m) eqn:E; try discriminate. apply lex_cmp_eq. exact E.
    + intros m sg H. destruct (lex_cmp m sg) eqn:E; try discriminate. symmetry. apply lex_cmp_eq. exact E.
    + intros [] m _. reflexivity.
Qed.

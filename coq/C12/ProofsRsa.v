(* C12 -- public key parsing: rsa_exponent_modulus / rsa_encode round trip,
   what a successful parse guarantees (RFC 3110 section 2), key_size agrees
   with the parse and is total. *)
From Coq Require Import NArith List Bool Lia ZifyBool.
From DV Require Import Base.Outcome Base.Bytes C12.Gen C12.KeyModel.
Import ListNotations.
Local Open Scope N_scope.

Definition head_nonzero (b : bytes) : Prop := match b with f :: _ => f <> 0 | [] => False end.
Definition rsa_part_ok (b : bytes) : Prop := 1 <= len b <= 512 /\ head_nonzero b.

Lemma rsa_part_bad_spec b : rsa_part_bad b = false <-> rsa_part_ok b.
Proof.
  unfold rsa_part_bad, rsa_part_ok, rsa_part_min_len, rsa_part_max_len, head_nonzero.
  rewrite orb_false_iff, negb_false_iff, andb_true_iff, !N.leb_le.
  destruct b as [|f t].
  - unfold len. cbn [length]. split; [intros [[H _] _]; lia|intros [_ []]].
  - rewrite N.eqb_neq. tauto.
Qed.

Lemma trim_zeroes_id b : head_nonzero b -> trim_zeroes b = b.
Proof. destruct b as [|f t]; [intros []|]. cbn [head_nonzero trim_zeroes]. destruct f; [intros H; contradiction|reflexivity]. Qed.

Lemma firstn_len_app (a b : bytes) : firstn (N.to_nat (len a)) (a ++ b) = a.
Proof. unfold len. rewrite Nat2N.id. apply take_app_length. Qed.
Lemma skipn_len_app (a b : bytes) : skipn (N.to_nat (len a)) (a ++ b) = b.
Proof. unfold len. rewrite Nat2N.id. apply drop_app_length. Qed.

Lemma rsa_split_spec pk el rest :
  rsa_split pk = Some (el, rest) ->
  (exists l, pk = l :: rest /\ el = l /\ 1 <= l <= 255) \/
  (exists hi lo, pk = 0 :: hi :: lo :: rest /\ el = of_be16 hi lo /\ 1 <= hi <= 255).
Proof.
  unfold rsa_split, rsa_short_min, rsa_short_max, rsa_long_hi_min.
  destruct pk as [|l r]; [discriminate|].
  destruct ((1 <=? l) && (l <=? 255)) eqn:E.
  - intros H; injection H as <- <-. left. exists l. apply andb_true_iff in E. repeat split; lia.
  - destruct (N.eqb_spec l 0) as [->|_]; [|discriminate].
    destruct r as [|hi [|lo r']]; try discriminate.
    destruct ((1 <=? hi) && (hi <=? 255)) eqn:E2; [|discriminate].
    intros H; injection H as <- <-. right. exists hi, lo. apply andb_true_iff in E2. repeat split; lia.
Qed.

Lemma rsa_parse_sound pk min_len e n :
  rsa_exponent_modulus pk min_len = Ok (e, n) ->
  rsa_part_ok e /\ rsa_part_ok n /\ min_len <= len n /\
  (pk = len e :: e ++ n \/ exists hi lo, pk = 0 :: hi :: lo :: e ++ n /\ of_be16 hi lo = len e /\ 1 <= hi).
Proof.
  unfold rsa_exponent_modulus. destruct (rsa_split pk) as [[el rest]|] eqn:Es; [|discriminate].
  destruct (N.ltb_spec (len rest) el) as [|Hle]; [discriminate|].
  destruct (rsa_part_bad (firstn (N.to_nat el) rest)) eqn:Be; [discriminate|].
  destruct (rsa_part_bad (skipn (N.to_nat el) rest)) eqn:Bn; [discriminate|]. cbn [orb].
  destruct (N.ltb_spec (len (skipn (N.to_nat el) rest)) min_len) as [|Hm]; [discriminate|].
  intros H; injection H as <- <-.
  apply rsa_part_bad_spec in Be, Bn. repeat split; try assumption; try apply Be; try apply Bn.
  assert (Hlen : len (firstn (N.to_nat el) rest) = el).
  { unfold len in *. rewrite firstn_length. lia. }
  rewrite Hlen, firstn_skipn.
  apply rsa_split_spec in Es as [(l & -> & -> & _)|(hi & lo & -> & -> & Hhi)].
  - left. reflexivity.
  - right. exists hi, lo. repeat split; lia.
Qed.

(* ... and conversely: every well-formed encoding of parts within the RFC 3110
   limits (1..=512 octets each, a 4096-bit modulus included) is accepted *)
Lemma rsa_parse_complete pk min_len e n :
  rsa_part_ok e -> rsa_part_ok n -> min_len <= len n ->
  ((pk = len e :: e ++ n /\ len e <= 255) \/
   (exists hi lo, pk = 0 :: hi :: lo :: e ++ n /\ of_be16 hi lo = len e /\ 1 <= hi <= 255)) ->
  rsa_exponent_modulus pk min_len = Ok (e, n).
Proof.
  intros He Hn Hm Hpk. pose proof He as [[He1 He2] _]. apply rsa_part_bad_spec in He, Hn.
  unfold rsa_exponent_modulus.
  assert (Hfin : forall rest, rest = e ++ n ->
    (if len rest <? len e then Err 1
     else if rsa_part_bad (firstn (N.to_nat (len e)) rest) || rsa_part_bad (skipn (N.to_nat (len e)) rest) then Err 1
     else if len (skipn (N.to_nat (len e)) rest) <? min_len then Err 2
     else Ok (firstn (N.to_nat (len e)) rest, skipn (N.to_nat (len e)) rest)) = Ok (e, n)).
  { intros rest ->. rewrite len_app. replace (len e + len n <? len e) with false by lia.
    rewrite firstn_len_app, skipn_len_app, He, Hn. cbn [orb].
    replace (len n <? min_len) with false by lia. reflexivity. }
  destruct Hpk as [[-> Hs]|(hi & lo & -> & Hbe & Hhi)].
  - unfold rsa_split, rsa_short_min, rsa_short_max.
    replace ((1 <=? len e) && (len e <=? 255)) with true by lia.
    apply Hfin. reflexivity.
  - unfold rsa_split, rsa_short_min, rsa_short_max, rsa_long_hi_min. cbn [andb N.leb N.compare N.eqb].
    replace ((1 <=? hi) && (hi <=? 255)) with true by lia.
    rewrite Hbe. apply Hfin. reflexivity.
Qed.

(* what the library encodes, it parses back *)
Lemma rsa_roundtrip e n :
  rsa_part_ok e -> rsa_part_ok n ->
  exists pk, rsa_encode e n = Ok pk /\ rsa_exponent_modulus pk 0 = Ok (e, n).
Proof.
  intros He Hn. pose proof He as [[He1 He2] Hez]. pose proof Hn as [_ Hnz].
  unfold rsa_encode. rewrite (trim_zeroes_id e Hez), (trim_zeroes_id n Hnz).
  destruct (N.ltb_spec (len e) 256) as [Hs|Hl].
  - eexists. split; [reflexivity|]. apply rsa_parse_complete; [assumption|assumption|lia|].
    left. split; [reflexivity|lia].
  - replace (len e <? 65536) with true by lia.
    eexists. split; [reflexivity|]. apply rsa_parse_complete; [assumption|assumption|lia|].
    right. exists (len e / 256), (len e mod 256). unfold be16, of_be16. repeat split; lia.
Qed.

(* key_size on a key that parses: the modulus length in bits, counted from its
   first set bit *)
Lemma key_size_of_parsed alg pk min_len e n :
  memN alg ks_rsa_algorithms = true ->
  rsa_exponent_modulus pk min_len = Ok (e, n) ->
  exists f t, n = f :: t /\ key_size alg pk = Ok (len n * 8 - leading_zeros8 f) /\
              (len n - 1) * 8 < len n * 8 - leading_zeros8 f <= len n * 8.
Proof.
  intros Ha Hp. apply rsa_parse_sound in Hp as (He & Hn & _ & Hpk).
  destruct Hn as [[Hn1 Hn2] Hnz]. destruct n as [|f t]; [destruct Hnz|]. cbn [head_nonzero] in Hnz.
  exists f, t. split; [reflexivity|].
  assert (Hsz : 1 <= N.size f) by (destruct f; [contradiction|cbn [N.size]; lia]).
  split; [|unfold leading_zeros8; lia].
  unfold key_size. rewrite Ha.
  assert (Hgo : forall off pre, len pre = off -> forall pk', pk' = pre ++ e ++ f :: t ->
    (if off + len e <=? len pk' then
       match skipn (N.to_nat (off + len e)) pk' with
       | [] => Err 1 | f0 :: _ => Ok (len (skipn (N.to_nat (off + len e)) pk') * 8 - leading_zeros8 f0) end
     else Err 1) = Ok (len (f :: t) * 8 - leading_zeros8 f)).
  { intros off pre Hpre pk' ->. rewrite !len_app.
    replace (off + len e <=? len pre + (len e + len (f :: t))) with true by lia.
    replace (N.to_nat (off + len e)) with (length (pre ++ e)) by (unfold len in *; rewrite app_length; lia).
    rewrite app_assoc. pose proof (drop_app_length (pre ++ e) (f :: t)) as Hd. unfold drop in Hd. rewrite Hd. reflexivity. }
  destruct Hpk as [->|(hi & lo & -> & Hbe & Hhi)].
  - destruct He as [[He1 He2] _].
    pose proof (Hgo 1 [len e] eq_refl _ eq_refl) as Hg. clear Hgo. cbn [app] in Hg.
    destruct (len e) as [|p] eqn:El; [lia|]. exact Hg.
  - rewrite Hbe. apply (Hgo 3 [0; hi; lo]); reflexivity.
Qed.

(* every octet string gets a result or an error *)
Lemma key_size_no_panic alg pk : no_panic (key_size alg pk).
Proof.
  unfold key_size.
  assert (Hgo : forall el off,
    no_panic (if off + el <=? len pk then
       match skipn (N.to_nat (off + el)) pk with
       | [] => Err 1 | f0 :: _ => Ok (len (skipn (N.to_nat (off + el)) pk) * 8 - leading_zeros8 f0) end
     else Err 1)).
  { intros el off. destruct (off + el <=? len pk); [|exact I]. destruct (skipn _ pk); exact I. }
  destruct (memN alg ks_rsa_algorithms).
  - destruct pk as [|l r]; [exact I|]. destruct l as [|p].
    + destruct r as [|hi [|lo r']]; try exact I. apply Hgo.
    + apply Hgo.
  - destruct (memN alg ks_ecdsa_algorithms); [exact I|]. destruct (memN alg ks_eddsa_algorithms); exact I.
Qed.

Lemma rsa_parse_no_panic pk min_len : no_panic (rsa_exponent_modulus pk min_len).
Proof.
  unfold rsa_exponent_modulus. destruct (rsa_split pk) as [[el rest]|]; [|exact I].
  destruct (len rest <? el); [exact I|]. destruct (_ || _); [exact I|]. destruct (_ <? _); exact I.
Qed.

Example rsa_examples :
  rsa_exponent_modulus [3; 1; 0; 1; 200; 17] 2 = Ok ([1; 0; 1], [200; 17]) /\
  rsa_exponent_modulus [3; 1; 0; 1; 200; 17] 3 = Err 2 /\
  rsa_exponent_modulus [3; 1; 0; 1; 0; 17] 1 = Err 1 /\
  rsa_exponent_modulus [5; 1; 2] 0 = Err 1 /\ rsa_exponent_modulus [0; 0; 1; 7; 9] 0 = Err 1 /\
  key_size 8 [3; 1; 0; 1; 200; 17] = Ok 16 /\ key_size 8 [3; 1; 0; 1; 1; 17] = Ok 9 /\
  key_size 8 [] = Err 1 /\ key_size 8 [0] = Err 1 /\ key_size 8 [0; 1] = Err 1 /\
  key_size 8 [5; 1; 2] = Err 1 /\ key_size 8 [1; 3] = Err 1 /\
  key_size 13 [1; 2; 3; 4] = Ok 16 /\ key_size 15 [1; 2; 3] = Ok 24 /\ key_size 3 [1] = Err 2 /\
  rsa_encode [0; 1; 0; 1] [0; 200; 17] = Ok [3; 1; 0; 1; 200; 17] /\
  map (fun k => is_ok (rsa_exponent_modulus (3 :: 1 :: 0 :: 1 :: repeat 129 k) 0)) [511; 512; 513]%nat = [true; true; false] /\
  map (fun a => key_size a [1; 3; 129]) [5; 7; 8; 10; 13; 14; 15; 16; 1; 12] =
    [Ok 8; Ok 8; Ok 8; Ok 8; Ok 8; Ok 8; Ok 24; Ok 24; Err 2; Err 2].
Proof. vm_compute. repeat split. Qed.

(* C12 -- the signer on ANY record list (no RRset contract assumed: the only
   panic is the mixed-TTL expect, the labels debug_assert never fires), the
   signer's indifference to record order and owner case, and the single-field
   alterations of the property text one by one (an RRSIG field, one record's
   RDATA, a dropped or added record, type, class, owner) under the binding
   hypothesis on the signature scheme. *)
From Coq Require Import NArith List Sorting.Permutation.
From DV Require Import Base.Outcome Base.Bytes Base.Lex Base.Names C17.Model C17.Proofs
  C12.Gen C12.Model C12.Spec C12.ProofsSort C12.ProofsSigned C12.ProofsInj C12.ProofsCrypto.
Import ListNotations.
Local Open Scope N_scope.

Lemma forallb_false {A} (f : A -> bool) l :
  forallb f l = false -> exists x, In x l /\ f x = false.
Proof.
  induction l as [|a t IH]; cbn [forallb]; [discriminate|].
  destruct (f a) eqn:E; cbn [andb]; intros H.
  - destruct (IH H) as (x & Hx & Hf). exists x. split; [right; exact Hx|exact Hf].
  - exists a. split; [left; reflexivity|exact E].
Qed.

Lemma signer_outcomes_any_records k rrset inc exp :
  inc < 4294967296 -> exp < 4294967296 ->
  (sign_rrset k rrset inc exp = Err 3 /\ rrset = []) \/
  (sign_rrset k rrset inc exp = Panic 2 /\
     exists a b, In a rrset /\ In b rrset /\ r_ttl a <> r_ttl b) \/
  (sign_rrset k rrset inc exp = Err 1 /\ exists r, In r rrset /\ r_type r = 46) \/
  (sign_rrset k rrset inc exp = Err 2 /\ rrset <> [] /\ serial_partial_cmp exp inc = Ok (Some Lt)) \/
  (exists s scratch, sign_rrset k rrset inc exp = Ok (s, scratch) /\ rrset <> [] /\
                     serial_partial_cmp exp inc <> Ok (Some Lt)).
Proof.
  intros Hi He. unfold sign_rrset.
  change (if sign_rrset_sorts_ascending_by_canonical_rdata then sort_rr rrset else rrset)
    with (sort_rr rrset).
  assert (Hin : forall r, In r (sort_rr rrset) -> In r rrset).
  { intros r. apply Permutation_in, (sort_by_perm _ r_rdata rrset). }
  destruct (sort_rr rrset) as [|first rest] eqn:Es.
  { left. split; [reflexivity|apply sort_rr_nil; exact Es]. }
  right. assert (Hne : rrset <> []) by (intros ->; discriminate Es).
  unfold rrset_new, rrset_ttl_exempt_rtype, rrset_new_panics_on_mixed_ttl.
  destruct (N.eqb_spec (r_type first) 46) as [H46|H46].
  - (* an RRSIG first: Rrset::new lets it pass, the signer refuses *)
    cbn [bind]. rewrite sign_sorted_eq, H46. right; left. split; [reflexivity|].
    exists first. split; [apply Hin; left; reflexivity|exact H46].
  - destruct (forallb (fun r => r_ttl r =? r_ttl first) (first :: rest)) eqn:Ef.
    + cbn [bind]. rewrite sign_sorted_eq, (proj2 (N.eqb_neq _ _) H46), (cmp_closed_form exp inc He Hi).
      cbn [bind]. right; right.
      destruct (classify (wdiff exp inc)) as [[| |]|];
        [right|left; split; [reflexivity|split; [exact Hne|reflexivity]]|right|right];
        eexists; eexists; (split; [reflexivity|split; [exact Hne|discriminate]]).
    + left. split; [reflexivity|].
      apply forallb_false in Ef as (x & Hx & Hf). apply N.eqb_neq in Hf.
      exists x, first. split; [apply Hin; exact Hx|]. split; [apply Hin; left; reflexivity|exact Hf].
Qed.

Example signer_outcomes_examples :
  let k := mk_skey 15 7 [] in
  sign_rrset k [] 5 10 = Err 3 /\
  sign_rrset k [mk_rr [] 1 1 60 [1]; mk_rr [] 1 1 61 [2]] 5 10 = Panic 2 /\
  sign_rrset k [mk_rr [] 1 1 60 [1]; mk_rr [] 46 1 60 [0]] 5 10 = Err 1 /\
  sign_rrset k [mk_rr [] 1 1 60 [1]] 10 5 = Err 2 /\
  (exists r, sign_rrset k [mk_rr [[97]] 1 1 60 [1]; mk_rr [[98]] 2 3 60 [0]] 5 10 = Ok r).
Proof. vm_compute. repeat split. eexists; reflexivity. Qed.

Lemma signer_order_and_case_insensitive k o t c ttl rrset rrset' inc exp s scratch :
  uniform o t c ttl rrset -> uniform o t c ttl rrset' ->
  Permutation (map r_rdata rrset) (map r_rdata rrset') ->
  sign_rrset k rrset inc exp = Ok (s, scratch) ->
  sign_rrset k rrset' inc exp = Ok (s, scratch).
Proof.
  intros Hu Hu' Hp Hs.
  destruct (sign_rrset_ok _ _ _ _ _ _ _ _ _ _ Hu Hs) as (_ & _ & _ & _ & Hne).
  assert (Hne' : rrset' <> []).
  { intros ->. apply Permutation_sym, Permutation_nil, map_eq_nil in Hp. contradiction. }
  assert (Hk : map r_rdata (sort_rr rrset) = map r_rdata (sort_rr rrset'))
    by exact (sort_keys_perm r_rdata r_rdata _ _ Hp).
  rewrite (sign_rrset_uniform _ _ _ c _ _ _ _ Hu' Hne'), <- Hk, <- (sign_rrset_uniform _ _ _ c _ _ _ _ Hu Hne).
  exact Hs.
Qed.

Example signer_order_example :
  let k := mk_skey 15 7 [[101]] in
  let a := mk_rr [[87]; [101]] 1 1 60 [10;0;0;2] in
  let b := mk_rr [[119]; [101]] 1 1 60 [10;0;0;1] in
  sign_rrset k [a; b] 5 10 = sign_rrset k [b; a] 5 10 /\
  exists r, sign_rrset k [a; b] 5 10 = Ok r.
Proof. vm_compute. split; [reflexivity|eexists; reflexivity]. Qed.

Definition sig_fields (s : sigf) :=
  (s_tc s, s_alg s, s_labels s, s_ottl s, s_exp s, s_inc s, s_kt s, canon (s_signer s)).

(* what verifies has the covered information of the honest view (s, seen):
   each theorem names one way for (s', seen') of not having it *)
Section Tamper.
  Variables secret public : Type.
  Variable sign : secret -> bytes -> bytes.
  Variable verify : public -> bytes -> bytes -> bool.
  Variable sk : secret.
  Variable pk : public.
  Variables (k : skey) (o : name) (t c ttl : N) (rrset : list rr) (inc exp : N) (s : sigf) (scratch : bytes).
  Hypothesis Hbind : forall m m', verify pk m' (sign sk m) = true -> m' = m.
  Hypothesis Hv : valid_abs o.
  Hypothesis Hu : uniform o t c ttl rrset.
  Hypothesis Hs : sign_rrset k rrset inc exp = Ok (s, scratch).
  Variables (dalg : N) (s' : sigf) (seen seen' : list rr) (r' : rr).
  Hypothesis Hseen : resolver_view o t c rrset seen.
  Hypothesis W : wf_sig s.
  Hypothesis W' : wf_sig s'.
  Hypothesis R : Forall wf_rr seen.
  Hypothesis R' : Forall wf_rr seen'.
  Collection setting := Hbind Hv Hu Hs Hseen W W' R R'.

  Lemma verified_covered :
    verify_signed_data public verify pk dalg s' (sign sk scratch) (signed_data s' seen') = Ok tt ->
    covered s' seen' = covered s seen.
  Proof using setting.
    exact (verified_means_same_covered _ _ _ _ _ _ Hbind _ _ _ _ _ _ _ _ _ _ Hv Hu Hs _ _ _ _ Hseen W W' R R').
  Qed.

  (* any RRSIG field other than the signature (signer name up to case) *)
  Lemma altered_rrsig_field_rejected :
    sig_fields s' <> sig_fields s ->
    verify_signed_data public verify pk dalg s' (sign sk scratch) (signed_data s' seen') <> Ok tt.
  Proof using setting.
    intros Hne H. apply verified_covered, covered_fields in H as (H1 & H2 & H3 & H4 & H5 & H6 & H7 & H8 & _).
    apply Hne. unfold sig_fields. rewrite H1, H2, H3, H4, H5, H6, H7, H8. reflexivity.
  Qed.

  Lemma altered_rdata_multiset_rejected :
    ~ Permutation (map r_rdata seen') (map r_rdata seen) ->
    verify_signed_data public verify pk dalg s' (sign sk scratch) (signed_data s' seen') <> Ok tt.
  Proof using setting.
    intros Hne H. apply verified_covered, covered_fields in H as (_ & _ & _ & _ & _ & _ & _ & _ & P & _).
    exact (Hne P).
  Qed.

  (* a record dropped from or added to the RRset *)
  Lemma changed_record_count_rejected :
    length seen' <> length rrset ->
    verify_signed_data public verify pk dalg s' (sign sk scratch) (signed_data s' seen') <> Ok tt.
  Proof using setting.
    intros Hne H. apply verified_covered, covered_fields in H as (_ & _ & _ & _ & _ & _ & _ & _ & _ & L).
    destruct Hseen as [Hp _]. apply Permutation_length in Hp. rewrite !map_length in Hp.
    apply Hne. congruence.
  Qed.

  (* a record of another type, class or owner (after wildcard restoration) *)
  Lemma altered_type_class_owner_rejected :
    In r' seen' ->
    (r_type r' <> t \/ r_class r' <> c \/
     canon (rfc_name (s_labels s') (r_owner r')) <> canon o) ->
    verify_signed_data public verify pk dalg s' (sign sk scratch) (signed_data s' seen') <> Ok tt.
  Proof using setting.
    intros Hr' Hne H. apply verified_covered in H.
    destruct (covered_record _ _ _ _ r' H Hr') as (r & Hr & Hkey).
    unfold rr_key in Hkey. injection Hkey as Ho Hty Hcl _.
    destruct Hseen as [_ Hall]. rewrite Forall_forall in Hall. destruct (Hall r Hr) as (Hty' & Hcl' & Hown).
    destruct (sign_rrset_ok _ _ _ _ _ _ _ _ _ _ Hu Hs) as (Hsig & _).
    assert (Hlab : s_labels s = rfc_labels o).
    { rewrite Hsig. cbn [s_labels]. apply rrsig_label_count_is_rfc. exact Hv. }
    destruct Hne as [Hn|[Hn|Hn]]; apply Hn; [congruence|congruence|].
    rewrite Ho, Hlab. apply seen_owner_restored. exact Hown.
  Qed.
End Tamper.

(* one record's RDATA replaced (a flipped bit, a changed length, ...) *)
Lemma altered_rdata_rejected (secret public : Type) (sign : secret -> bytes -> bytes)
    (verify : public -> bytes -> bytes -> bool) (sk : secret) (pk : public) k o t c ttl rrset inc exp s scratch :
  (forall m m', verify pk m' (sign sk m) = true -> m' = m) ->
  valid_abs o -> uniform o t c ttl rrset ->
  sign_rrset k rrset inc exp = Ok (s, scratch) ->
  forall dalg s' l1 r r' l2, resolver_view o t c rrset (l1 ++ r :: l2) ->
    wf_sig s -> wf_sig s' -> Forall wf_rr (l1 ++ r :: l2) -> Forall wf_rr (l1 ++ r' :: l2) ->
    r_rdata r' <> r_rdata r ->
    verify_signed_data public verify pk dalg s' (sign sk scratch) (signed_data s' (l1 ++ r' :: l2)) <> Ok tt.
Proof.
  intros Hbind Hv Hu Hs dalg s' l1 r r' l2 Hseen W W' R R' Hne.
  apply (altered_rdata_multiset_rejected secret public sign verify sk pk _ _ _ _ _ _ _ _ _ _ Hbind Hv Hu Hs
           dalg s' _ _ Hseen W W' R R').
  rewrite !map_app. cbn [map]. intros P.
  apply Permutation_app_inv_l, (Permutation_app_inv_r _ [_] [_]), Permutation_length_1 in P.
  exact (Hne P).
Qed.

(* non-vacuity with a toy binding scheme (sign = identity, verify = equality):
   the honest view verifies, each alteration is refused *)
Example alterations_example :
  let sign := fun (_ : unit) (m : bytes) => m in
  let verify := fun (_ : unit) (m sg : bytes) => match lex_cmp m sg with Eq => true | _ => false end in
  let o := [star; [101;120]] in
  let rrset := [mk_rr o 1 1 300 [10;0;0;2]; mk_rr o 1 1 300 [10;0;0;1]] in
  let seen := [mk_rr [[87]; [69;88]] 1 1 17 [10;0;0;1]; mk_rr [[97]; [98]; [101;88]] 1 1 17 [10;0;0;2]] in
  exists s scratch, sign_rrset (mk_skey 15 4711 [[101;120]]) rrset 5 10 = Ok (s, scratch) /\
    verify_signed_data unit verify tt 15 s (sign tt scratch) (signed_data s seen) = Ok tt /\
    (* flipped RDATA bit *)
    verify_signed_data unit verify tt 15 s (sign tt scratch)
      (signed_data s [mk_rr [[87]; [69;88]] 1 1 17 [10;0;0;1]; mk_rr [[97]; [98]; [101;88]] 1 1 17 [10;0;0;3]]) = Err 2 /\
    (* dropped record *)
    verify_signed_data unit verify tt 15 s (sign tt scratch)
      (signed_data s [mk_rr [[87]; [69;88]] 1 1 17 [10;0;0;1]]) = Err 2 /\
    (* other class *)
    verify_signed_data unit verify tt 15 s (sign tt scratch)
      (signed_data s [mk_rr [[87]; [69;88]] 1 3 17 [10;0;0;1]; mk_rr [[97]; [98]; [101;88]] 1 1 17 [10;0;0;2]]) = Err 2 /\
    (* original TTL altered in the RRSIG *)
    verify_signed_data unit verify tt 15
      (mk_sigf (s_tc s) (s_alg s) (s_labels s) 299 (s_exp s) (s_inc s) (s_kt s) (s_signer s))
      (sign tt scratch)
      (signed_data (mk_sigf (s_tc s) (s_alg s) (s_labels s) 299 (s_exp s) (s_inc s) (s_kt s) (s_signer s)) seen) = Err 2 /\
    (* key of another algorithm *)
    verify_signed_data unit verify tt 13 s (sign tt scratch) (signed_data s seen) = Err 1.
Proof.
  cbv zeta. eexists; eexists. split; [vm_compute; reflexivity|].
  vm_compute. repeat split; reflexivity.
Qed.

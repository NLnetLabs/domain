(* C12 -- Dnskey::key_tag against RFC 4034 Appendix B (with the bound that keeps
   the u32 accumulator from overflowing), the algorithm-1 branch against
   Appendix B.1, the DS digest input against RFC 4034 5.1.4, and
   wildcard_closest_encloser. *)
From Coq Require Import NArith PeanoNat List Lia ZifyBool.
From DV Require Import Base.Outcome Base.Bytes C11.Sha C12.Gen C12.Model C12.Digest C12.Spec
  C12.ProofsSigned.
Import ListNotations.
Local Open Scope N_scope.

Lemma pair_ind (P : bytes -> Prop) :
  P [] -> (forall x, P [x]) -> (forall x y t, P t -> P (x :: y :: t)) -> forall l, P l.
Proof.
  intros H0 H1 H2. fix IH 1. intros [|x [|y t]]; [exact H0|apply H1|apply H2, IH].
Qed.

(* the sum the loop adds: octets at even positions times 256, odd as they are *)
Fixpoint kt_sum (pk : bytes) : N :=
  match pk with
  | [] => 0
  | [x] => x * 256
  | x :: y :: t => x * 256 + y + kt_sum t
  end.

Lemma shiftl8 x : N.shiftl x 8 = x * 256.
Proof. rewrite N.shiftl_mul_pow2. reflexivity. Qed.
Lemma shiftl0 x : N.shiftl x 0 = x.
Proof. apply N.shiftl_0_r. Qed.

Lemma u32_add_ok a b : a + b < 4294967296 -> u32_add a b = Ok (a + b).
Proof. intros H. unfold u32_add. destruct (N.ltb_spec (a + b) 4294967296); [reflexivity|lia]. Qed.

Lemma kt_loop_ok pk : forall res, res + kt_sum pk < 4294967296 -> kt_loop pk res = Ok (res + kt_sum pk).
Proof.
  induction pk as [|x|x y t IH] using pair_ind; intros res H; cbn [kt_loop kt_sum] in *;
    unfold kt_even_shift, kt_odd_shift.
  - f_equal. lia.
  - rewrite shiftl8. apply u32_add_ok. exact H.
  - rewrite shiftl8, shiftl0. rewrite u32_add_ok by lia. cbn [bind].
    rewrite u32_add_ok by lia. cbn [bind]. rewrite IH by lia. f_equal. lia.
Qed.

Lemma kt_sum_bound pk : wf_bytes pk -> kt_sum pk <= 32768 * (N.of_nat (length pk) + 1).
Proof.
  induction pk as [|x|x y t IH] using pair_ind; intros Hw; cbn [kt_sum length].
  - lia.
  - inversion Hw; subst. lia.
  - inversion Hw as [|? ? Hx Hw']; subst. inversion Hw' as [|? ? Hy Hw'']; subst.
    specialize (IH Hw''). lia.
Qed.

Lemma rfc_ac_even l : forall i ac, Nat.odd i = false -> rfc_ac l i ac = ac + kt_sum l.
Proof.
  induction l as [|x|x y t IH] using pair_ind; intros i ac Hi; cbn [rfc_ac kt_sum].
  - lia.
  - rewrite Hi. lia.
  - rewrite Hi. rewrite Nat.odd_succ, <- Nat.negb_odd, Hi. cbn [negb].
    rewrite IH by (cbn [Nat.odd Nat.even] in *; exact Hi). lia.
Qed.

Lemma dnskey_rdata_closed flags proto alg pk :
  dnskey_rdata flags proto alg pk = rfc_dnskey_rdata flags proto alg pk.
Proof.
  cbv [dnskey_rdata dnskey_rdata_order dnskey_field rfc_dnskey_rdata]. cbn [flat_map].
  rewrite app_nil_r. reflexivity.
Qed.

Lemma rfc_ac_rdata flags proto alg pk :
  rfc_ac (rfc_dnskey_rdata flags proto alg pk) 0 0 = flags + proto * 256 + alg + kt_sum pk.
Proof.
  unfold rfc_dnskey_rdata, be16. cbn [app rfc_ac Nat.odd Nat.even negb].
  rewrite rfc_ac_even by reflexivity. lia.
Qed.

Lemma land_65535 x : N.land x 65535 = x mod 65536.
Proof. change 65535 with (N.ones 16). rewrite N.land_ones. reflexivity. Qed.
Lemma shiftr16 x : N.shiftr x 16 = x / 65536.
Proof. rewrite N.shiftr_div_pow2. reflexivity. Qed.

Lemma key_tag_is_appendix_b flags proto alg pk :
  flags < 65536 -> proto < 256 -> alg < 256 -> alg <> 1 -> wf_bytes pk ->
  len (rfc_dnskey_rdata flags proto alg pk) <= 65535 ->
  key_tag flags proto alg pk = Ok (rfc_keytag (rfc_dnskey_rdata flags proto alg pk)) /\
  rfc_ac (rfc_dnskey_rdata flags proto alg pk) 0 0 + 65535 < 4294967296 /\
  rfc_keytag (rfc_dnskey_rdata flags proto alg pk) < 65536.
Proof.
  intros Hf Hp Ha Hne Hw Hl.
  assert (Hlen : N.of_nat (length pk) <= 65531).
  { unfold len, rfc_dnskey_rdata, be16 in Hl. cbn [app length] in Hl. lia. }
  pose proof (kt_sum_bound pk Hw) as Hb.
  assert (Hs : flags + proto * 256 + alg + kt_sum pk < 2147483647) by lia.
  unfold rfc_keytag. rewrite rfc_ac_rdata.
  split; [|split; [lia|apply N.mod_lt; lia]].
  unfold key_tag, kt_special_algorithm, kt_protocol_shift, kt_fold_shift, kt_fold_mask, kt_final_mask.
  destruct (N.eqb_spec alg 1) as [|_]; [contradiction|].
  rewrite shiftl8. rewrite u32_add_ok by lia. cbn [bind].
  rewrite u32_add_ok by lia. cbn [bind].
  rewrite kt_loop_ok by lia. cbn [bind].
  rewrite shiftr16, !land_65535.
  set (ac := flags + proto * 256 + alg + kt_sum pk) in *.
  assert (Hm : (ac / 65536) mod 65536 < 65536) by (apply N.mod_lt; lia).
  rewrite u32_add_ok by lia. cbn [bind]. rewrite land_65535. reflexivity.
Qed.

Lemma be_value_app a b : be_value (a ++ b) = fold_left (fun x y => x * 256 + y) b (be_value a).
Proof. unfold be_value. apply fold_left_app. Qed.

Lemma key_tag_alg1 flags proto pk :
  wf_bytes pk -> (3 <= length pk)%nat ->
  key_tag flags proto 1 pk = Ok (rfc_keytag_alg1 pk).
Proof.
  intros Hw H3.
  assert (Hsplit : exists pre a b c, pk = pre ++ [a; b; c]).
  { rewrite <- (rev_involutive pk), rev_length in *.
    destruct (rev pk) as [|c [|b [|a r]]]; try (simpl in H3; lia).
    exists (rev r), a, b, c. cbn [rev]. rewrite <- !app_assoc. reflexivity. }
  destruct Hsplit as (pre & a & b & c & ->).
  apply wf_bytes_app in Hw as [_ Hw3]. inversion Hw3 as [|? ? Ha Hw2]; subst.
  inversion Hw2 as [|? ? Hb Hw1]; subst. inversion Hw1 as [|? ? Hc _]; subst.
  unfold key_tag, kt_special_algorithm, kt1_min_len, kt1_from_end, kt1_to_end, len.
  cbn [N.eqb Pos.eqb]. rewrite app_length. cbn [length].
  replace (3 <=? N.of_nat (length pre + 3)) with true by lia.
  cbn [andb N.leb N.compare Pos.compare Pos.compare_cont].
  replace (N.to_nat (N.of_nat (length pre + 3) - 3)) with (length pre) by lia.
  pose proof (drop_app_length pre [a; b; c]) as Hd. unfold drop in Hd. rewrite Hd.
  replace (N.to_nat (3 - 1)) with 2%nat by reflexivity. cbn [firstn].
  f_equal. unfold rfc_keytag_alg1. rewrite be_value_app. cbn [fold_left]. unfold of_be16.
  set (v := be_value pre). lia.
Qed.

Lemma key_tag_alg1_short flags proto pk : (length pk < 3)%nat -> key_tag flags proto 1 pk = Ok 0.
Proof.
  intros H. unfold key_tag, kt_special_algorithm, kt1_min_len, len. cbn [N.eqb Pos.eqb].
  destruct (N.leb_spec 3 (N.of_nat (length pk))); [lia|reflexivity].
Qed.

(* Panic 11, 12 = slice indexing (excluded by B.1), Panic 10 = u32 overflow (by B) *)
Lemma key_tag_no_panic flags proto alg pk :
  flags < 65536 -> proto < 256 -> alg < 256 -> wf_bytes pk ->
  len (rfc_dnskey_rdata flags proto alg pk) <= 65535 -> no_panic (key_tag flags proto alg pk).
Proof.
  intros Hf Hp Ha Hw Hl. destruct (N.eq_dec alg 1) as [->|Hne].
  - destruct (Nat.le_gt_cases 3 (length pk)) as [H3|H3].
    + rewrite (key_tag_alg1 flags proto pk Hw H3). exact I.
    + rewrite (key_tag_alg1_short flags proto pk H3). exact I.
  - destruct (key_tag_is_appendix_b flags proto alg pk Hf Hp Ha Hne Hw Hl) as [-> _]. exact I.
Qed.

Lemma ds_input_is_rfc owner flags proto alg pk :
  ds_input owner flags proto alg pk = rfc_ds_input owner flags proto alg pk.
Proof.
  cbv [ds_input ds_input_order cname label_canonical_lowercases rfc_ds_input]. cbn [flat_map].
  rewrite dnskey_rdata_closed, app_nil_r. reflexivity.
Qed.

Lemma ds_digest_is_rfc owner flags proto alg pk :
  ds_digest 1 owner flags proto alg pk = Ok (sha1 (rfc_ds_input owner flags proto alg pk)) /\
  ds_digest 2 owner flags proto alg pk = Ok (sha256 (rfc_ds_input owner flags proto alg pk)) /\
  ds_digest 4 owner flags proto alg pk = Ok (sha384 (rfc_ds_input owner flags proto alg pk)) /\
  (forall d, d <> 1 -> d <> 2 -> d <> 4 -> ds_digest d owner flags proto alg pk = Err 1).
Proof.
  unfold ds_digest. rewrite ds_input_is_rfc. repeat split.
  intros d H1 H2 H4. unfold ds_algorithms. cbn [assocN].
  destruct (N.eqb_spec 1 d); [congruence|]. destruct (N.eqb_spec 2 d); [congruence|].
  destruct (N.eqb_spec 4 d); [congruence|]. reflexivity.
Qed.

Lemma wildcard_closest_encloser_spec labels owner :
  wildcard_closest_encloser labels owner =
  if labels <? N.of_nat (length owner) then Some (rightmost (N.to_nat labels) owner) else None.
Proof.
  cbv [wildcard_closest_encloser fqdn_labels wce_root_labels_subtracted wildcard_test wce_test_is_lt].
  rewrite N.add_sub.
  destruct (N.ltb_spec labels (N.of_nat (length owner))) as [Hlt|Hge]; [|reflexivity].
  rewrite pick_suffix_rightmost by lia. reflexivity.
Qed.

(* RFC 4034 5.4 example key: dskey.example.com. DNSKEY 256 3 5 (...) ; key tag 60485 *)
Example key_tag_example :
  key_tag 257 3 8 [3;1;0;1;200;17] = Ok (rfc_keytag (rfc_dnskey_rdata 257 3 8 [3;1;0;1;200;17])) /\
  key_tag 257 3 8 [3;1;0;1;200;17] = Ok 53020 /\
  key_tag 0 3 1 [9;8;7;6;5] = Ok 1798 /\ rfc_keytag_alg1 [9;8;7;6;5] = 1798 /\
  key_tag 0 0 1 [7;7] = Ok 0.
Proof. vm_compute. repeat split. Qed.

Example ds_example :
  ds_digest 2 [] 257 3 8 [3;1;0;1] = Ok (sha256 (0 :: [1;1;3;8;3;1;0;1])) /\
  ds_digest 3 [] 257 3 8 [3;1;0;1] = Err 1.
Proof. split; reflexivity. Qed.

Example wce_example :
  wildcard_closest_encloser 1 [[97]; [98]; [99]] = Some [[99]] /\
  wildcard_closest_encloser 3 [[97]; [98]; [99]] = None.
Proof. vm_compute. split; reflexivity. Qed.

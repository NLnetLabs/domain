(* C12 -- the whole zone, NSEC3 variant of sign_zone (dnssec/sign/mod.rs,
   DenialConfig::Nsec3), end to end with C13: SortedRecords::from
   (C13.sorted_records) -> generate_nsec3s (C13) -> sorted_extend of the
   NSEC3PARAM record and the NSEC3 records -> sign_sorted_zone_records.
   The map from a hashed owner to the owner name of its NSEC3 record
   (base32hex label in front of the apex: C13.ModelLabel.nsec3_owner_name, with
   C18's encoder) is a parameter `owner_of`: everything below holds for any such
   map, and the digest H is C13's parameter. *)
From Coq Require Import NArith List Sorting.Sorted.
From DV Require C13.Model C13.ProofsDedup C13.ProofsN3d C13.ProofsN3e.
From DV Require Import Base.Outcome Base.Bytes Base.Lex Base.Names C12.ZoneModel
  C12.ProofsZone C12.ProofsZoneSorted C12.SortedModel C12.ProofsWholeZone.
Import ListNotations.
Local Open Scope N_scope.

Section WholeZone3.
  Variable H : bytes -> bytes.
  Variable owner_of : bytes -> name.

  (* NSEC3 RDATA: hash algorithm, flags, iterations, salt, next hashed owner, type bitmap *)
  Definition nsec3_srec (c : C13.Model.n3cfg) (r : C13.Model.nsec3) : srec :=
    ((owner_of (C13.Model.h_owner r), 50),
     (false, [C13.Model.c_alg c; C13.Model.c_flags c] ++ be16 (C13.Model.c_iters c) ++
             len (C13.Model.c_salt c) :: C13.Model.c_salt c ++
             len (C13.Model.h_next r) :: C13.Model.h_next r ++ C13.Model.h_types r)).
  Definition nsec3param_srec (apex : name) (c : C13.Model.n3cfg) : srec :=
    ((apex, 51), (false, [C13.Model.c_alg c; 0] ++ be16 (C13.Model.c_iters c) ++
                         len (C13.Model.c_salt c) :: C13.Model.c_salt c)).

  Definition signed_collection3 (apex : name) (c : C13.Model.n3cfg) (l : list srec) (n3 : list C13.Model.nsec3)
    : list zrec :=
    C13.Model.strip (so_extend (C13.Model.sorted_records l) (nsec3param_srec apex c :: map (nsec3_srec c) n3)).

  Definition whole_zone_nsec3 (apex : name) (c : C13.Model.n3cfg) (k : nat) (l : list srec)
    : outcome (list zrec * list zrec) :=
    do n3 <- C13.Model.generate_nsec3s H apex c (C13.Model.strip (C13.Model.sorted_records l));
    Ok (signed_collection3 apex c l n3, sign_zone apex k (signed_collection3 apex c l n3)).

  Lemma signed_collection3_types apex c l n3 o t :
    C13.Model.has_type (signed_collection3 apex c l n3) o t <->
    C13.Model.has_type (C13.Model.strip l) o t \/
    (t = 51 /\ name_eqb apex o = true) \/
    (t = 50 /\ exists r, In r n3 /\ name_eqb (owner_of (C13.Model.h_owner r)) o = true).
  Proof.
    unfold signed_collection3, so_extend.
    rewrite C13.ProofsDedup.sorted_records_types, strip_app, has_type_app, C13.ProofsDedup.sorted_records_types.
    split.
    - intros [Hl|(m & Hin & E)]; [left; exact Hl|right].
      unfold C13.Model.strip in Hin. cbn [map] in Hin. destruct Hin as [Hp|Hin].
      + unfold nsec3param_srec in Hp. cbn [fst] in Hp. injection Hp as <- <-. left. split; [reflexivity|exact E].
      + rewrite map_map in Hin. apply in_map_iff in Hin as (r & Hr & Hin).
        unfold nsec3_srec in Hr. cbn [fst] in Hr. injection Hr as <- <-.
        right. split; [reflexivity|]. exists r. split; assumption.
    - intros [Hl|[(-> & E)|(-> & r & Hin & E)]]; [left; exact Hl| |]; right.
      + exists apex. split; [left; reflexivity|exact E].
      + exists (owner_of (C13.Model.h_owner r)). split; [|exact E]. right.
        unfold C13.Model.strip. rewrite map_map. apply in_map_iff. exists r. split; [reflexivity|exact Hin].
  Qed.

  Lemma whole_zone_nsec3_signed apex c k l coll sigs :
    whole_zone_nsec3 apex c k l = Ok (coll, sigs) ->
    exists n3,
      C13.Model.generate_nsec3s H apex c (C13.Model.strip (C13.Model.sorted_records l)) = Ok n3 /\
      coll = signed_collection3 apex c l n3 /\
      (* the RRSIGs are those of the stateless RFC 4035 2.2 reading of the collection *)
      sigs = spec_zone apex k coll /\
      (* one per key *)
      sigs = flat_map (fun x => repeat x k) (sign_zone apex 1 coll) /\
      (* nothing signed that RFC 4035 2.2 forbids *)
      (forall o t, In (o, t) sigs -> t <> 46 /\ C13.Model.has_type coll o t) /\
      (* the NSEC3 chain (C13): one record per included name and per empty non-terminal, by hash;
         in hash order, closed into a ring *)
      (forall x, (exists r, In r n3 /\ C13.Model.h_owner r = x) <->
         (exists n, (C13.ProofsN3d.included apex (C13.Model.strip (C13.Model.sorted_records l)) (C13.ProofsN3e.optout_excl c) n \/
                     C13.ProofsN3d.ent3 apex (C13.Model.strip (C13.Model.sorted_records l)) (C13.ProofsN3e.optout_excl c) n) /\
                    x = C13.Model.nsec3_hash H n (C13.Model.c_iters c) (C13.Model.c_salt c))) /\
      (StronglySorted (fun a b => lex_cmp (C13.Model.h_owner a) (C13.Model.h_owner b) = Lt) n3 /\ n3 <> [] /\
       map C13.Model.h_next n3 = tl (map C13.Model.h_owner n3) ++ [hd [] (map C13.Model.h_owner n3)]) /\
      (* the collection is the input plus NSEC3PARAM at the apex plus one NSEC3 RRset per chain record *)
      (forall o t, C13.Model.has_type coll o t <->
         C13.Model.has_type (C13.Model.strip l) o t \/
         (t = 51 /\ name_eqb apex o = true) \/
         (t = 50 /\ exists r, In r n3 /\ name_eqb (owner_of (C13.Model.h_owner r)) o = true)).
  Proof.
    unfold whole_zone_nsec3.
    destruct (C13.Model.generate_nsec3s H apex c (C13.Model.strip (C13.Model.sorted_records l))) as [n3| | |] eqn:En;
      cbn [bind]; try discriminate.
    intros Hw. injection Hw as <- <-. exists n3. split; [reflexivity|]. split; [reflexivity|].
    destruct (sign_zone_of_sorted apex k (signed_collection3 apex c l n3)) as (Hspec & Hper & Hsound).
    { unfold signed_collection3, so_extend. exact (C13.ProofsDedup.sorted_records_sorted _). }
    split; [exact Hspec|]. split; [exact Hper|]. split; [exact Hsound|].
    split; [exact (C13.ProofsN3e.nsec3_owners' H apex c _ n3 (C13.ProofsDedup.sorted_records_sorted l) En)|].
    split; [exact (C13.ProofsN3e.nsec3_sorted_closed' H apex c _ n3 En)|].
    intros o t. apply signed_collection3_types.
  Qed.

  (* completeness, as for NSEC: an in-zone owner group not at or below an earlier
     delegation gets RRSIGs for every admitted RRset - the NSEC3 RRsets (type 50
     at a hashed owner, which holds no NS) and NSEC3PARAM at the apex included *)
  Lemma whole_zone3_authoritative_rrsets_signed apex c k l coll sigs pre g post t :
    whole_zone_nsec3 apex c k l = Ok (coll, sigs) -> (0 < k)%nat ->
    filter (in_zoneb apex) (owner_groups coll) = pre ++ g :: post ->
    below_earlier_cut apex pre g = false ->
    In t (map snd g) ->
    rfc_signed_here (is_zone_cut apex g) (name_eqb (group_owner g) apex) t = true ->
    exists o, In (o, t) sigs.
  Proof.
    intros Hw Hk Hf Hb Ht Hr.
    destruct (whole_zone_nsec3_signed _ _ _ _ _ _ Hw) as (n3 & _ & _ & Hspec & _).
    rewrite Hspec. exact (spec_zone_complete apex k coll pre g post t Hk Hf Hb Ht Hr).
  Qed.

  Lemma nsec3_types_admitted_off_cuts at_apex : rfc_signed_here false at_apex 50 = true /\ rfc_signed_here false at_apex 51 = true.
  Proof. destruct at_apex; split; reflexivity. Qed.
End WholeZone3.

(* non-vacuity: a toy digest and a toy owner map; NSEC3PARAM and both NSEC3 RRsets are signed *)
Example whole_zone3_example :
  let apex := [[101;120]] in
  let s (o : name) (t : N) (d : bytes) : srec := (o, t, (false, d)) in
  exists coll,
    whole_zone_nsec3 (fun b => [N.of_nat (length b); hd 0 b]) (fun h => h :: apex) apex
      (C13.Model.mk_n3cfg false 1 0 0 [] false) 1
      [s ([[116]] ++ apex) 28 [2]; s apex 6 [4]; s apex 2 [6]] =
    Ok (coll, [(apex, 2); (apex, 6); (apex, 51); ([[4; 2]; [101; 120]], 50); ([[6; 1]; [101; 120]], 50);
               ([[116]; [101; 120]], 28)]).
Proof. cbv zeta. eexists. vm_compute. reflexivity. Qed.

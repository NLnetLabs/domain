(* C12 -- link to C04: the validator and the signer sort with
   `canonical_cmp` of the record data; C04 models that comparison per field
   (C04.Model.fields_cmp) and proves it equal to the octet order of the
   canonical encoding for record data of one schema (schema_cmp_bytewise).
   Hence sorting with the code's comparison gives the RR sequence that
   C12.Model.signed_data (which sorts canonical RDATA as octet strings) uses. *)
From Coq Require Import NArith List Sorting.Permutation.
From DV Require C04.Model C04.ProofsData.
From DV Require Import Base.Outcome Base.Bytes Base.Lex Base.Names C12.Model C12.Spec
  C12.ProofsSort C12.ProofsSigned.
Import ListNotations.
Local Open Scope N_scope.

Section CmpSort.
  Variable A : Type.
  Variable cmp : A -> A -> comparison.
  Variable key : A -> bytes.
  (* slice::sort_by with a comparison function, as a stable insertion sort *)
  Fixpoint insert_cmp (x : A) (l : list A) : list A :=
    match l with
    | [] => [x]
    | y :: t => match cmp x y with Gt => y :: insert_cmp x t | _ => x :: l end
    end.
  Definition sort_cmp (l : list A) : list A := fold_right insert_cmp [] l.

  Lemma insert_cmp_eq x l :
    (forall y, In y l -> cmp x y = lex_cmp (key x) (key y)) -> insert_cmp x l = insert_by key x l.
  Proof.
    induction l as [|y t IH]; intros H; cbn [insert_cmp insert_by]; [reflexivity|].
    rewrite (H y) by (left; reflexivity). rewrite IH by (intros z Hz; apply H; right; exact Hz). reflexivity.
  Qed.

  Lemma sort_cmp_eq l :
    (forall a b, In a l -> In b l -> cmp a b = lex_cmp (key a) (key b)) -> sort_cmp l = sort_by key l.
  Proof.
    induction l as [|x t IH]; intros H; cbn [sort_cmp sort_by fold_right]; [reflexivity|].
    fold (sort_cmp t). fold (sort_by key t).
    rewrite IH by (intros a b Ha Hb; apply H; right; assumption).
    apply insert_cmp_eq. intros y Hy. apply H; [left; reflexivity|right].
    eapply Permutation_in; [apply sort_by_perm|exact Hy].
  Qed.
End CmpSort.
Arguments sort_cmp {A} cmp l.

Lemma insert_by_map {A B} (f : A -> B) (key : B -> bytes) x l :
  insert_by key (f x) (map f l) = map f (insert_by (fun a => key (f a)) x l).
Proof.
  induction l as [|y t IH]; cbn [map insert_by]; [reflexivity|].
  destruct (lex_cmp (key (f x)) (key (f y))); cbn [map]; try reflexivity. rewrite IH. reflexivity.
Qed.

Lemma sort_by_map {A B} (f : A -> B) (key : B -> bytes) l :
  sort_by key (map f l) = map f (sort_by (fun a => key (f a)) l).
Proof.
  induction l as [|x t IH]; cbn [map sort_by fold_right]; [reflexivity|].
  fold (sort_by key (map f t)). fold (sort_by (fun a => key (f a)) t). rewrite IH. apply insert_by_map.
Qed.

(* a record whose data is given field by field, as C04 models record data *)
Record crec := mk_crec {
  c_owner : name; c_type : N; c_class : N; c_ttl : N; c_data : list C04.Model.field }.

(* canonical_cmp of the data as the code computes it *)
Definition code_cmp (a b : crec) : comparison :=
  match C04.Model.fields_cmp (c_data a) (c_data b) with Ok c => c | _ => Eq end.

Definition c_to_rr (x : crec) : rr :=
  mk_rr (c_owner x) (c_type x) (c_class x) (c_ttl x) (C04.Model.fields_enc (c_data x)).

(* signed_data with the records sorted by the code's comparison *)
Definition signed_data_code_order (s : sigf) (l : list crec) : bytes :=
  rfc_rrsig_rdata s ++ flat_map (rfc_rr s) (map c_to_rr (sort_cmp code_cmp l)).

(* one record type: every pair of data has the same schema and well-formed fields *)
Definition one_schema (l : list crec) : Prop :=
  (forall a b, In a l -> In b l -> C04.Model.same_schema (c_data a) (c_data b) = true) /\
  (forall a, In a l -> Forall C04.Model.field_ok (c_data a)).

Lemma code_order_is_octet_order s l : one_schema l ->
  signed_data_code_order s l = signed_data s (map c_to_rr l) /\
  (forall a b, In a l -> In b l -> no_panic (C04.Model.fields_cmp (c_data a) (c_data b))).
Proof.
  intros [Hs Hok].
  assert (Hc : forall a b, In a l -> In b l ->
            C04.Model.fields_cmp (c_data a) (c_data b) =
            Ok (lex_cmp (C04.Model.fields_enc (c_data a)) (C04.Model.fields_enc (c_data b)))).
  { intros a b Ha Hb. apply C04.ProofsData.schema_cmp_bytewise; auto. }
  split.
  - unfold signed_data_code_order. rewrite signed_data_closed. f_equal. f_equal.
    unfold sort_rr. rewrite (sort_by_map c_to_rr r_rdata l). f_equal.
    apply sort_cmp_eq. intros a b Ha Hb. unfold code_cmp. rewrite (Hc a b Ha Hb). reflexivity.
  - intros a b Ha Hb. rewrite (Hc a b Ha Hb). exact I.
Qed.

Example code_order_example :
  let r d := mk_crec [[97]] 1 1 60 [C04.Model.FFixed d] in
  signed_data_code_order (mk_sigf 1 15 1 60 2 1 7 []) [r [10;0;0;2]; r [10;0;0;1]] =
  signed_data (mk_sigf 1 15 1 60 2 1 7 []) (map c_to_rr [r [10;0;0;1]; r [10;0;0;2]]).
Proof. vm_compute. reflexivity. Qed.

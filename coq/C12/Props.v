(* C12 -- property theorems only.  Proofs live in C12/Proofs*.v. *)
From Coq Require Import NArith List Bool Sorting.Permutation Sorting.Sorted.
From DV Require Import Base.Outcome Base.Bytes Base.Lex Base.Names C11.Sha C17.Model
  C12.Gen C12.Model C12.Digest C12.Spec C12.ProofsSort C12.ProofsSigned C12.ProofsInj
  C12.ProofsKey C12.ProofsCrypto C12.KeyModel C12.ProofsRsa C12.ZoneModel C12.ProofsZone C12.ProofsC04 C12.ProofsC05 C12.ProofsZoneSorted C12.SortedModel C12.ProofsSortedRecords C12.ProofsWholeZone C12.ProofsWholeZone3 C12.ProofsV.
Import ListNotations.
Local Open Scope N_scope.

Theorem C12_signed_data_is_rfc4034 : forall s recs,
  RFC4034_signed_data s recs (signed_data s recs).
Proof. exact signed_data_is_rfc4034. Qed.
Print Assumptions C12_signed_data_is_rfc4034.

Theorem C12_rfc4034_signed_data_unique : forall s rrset o1 o2,
  (forall a b, In a rrset -> In b rrset -> r_rdata a = r_rdata b -> rfc_rr s a = rfc_rr s b) ->
  RFC4034_signed_data s rrset o1 -> RFC4034_signed_data s rrset o2 -> o1 = o2.
Proof. exact rfc4034_signed_data_unique. Qed.
Print Assumptions C12_rfc4034_signed_data_unique.

Theorem C12_signed_data_closed_form : forall s recs,
  signed_data s recs = rfc_rrsig_rdata s ++ flat_map (rfc_rr s) (sort_rr recs).
Proof. exact signed_data_closed. Qed.
Print Assumptions C12_signed_data_closed_form.

Theorem C12_signed_data_keeps_every_record : forall s r recs,
  length (signed_data s (r :: recs)) = (length (signed_data s recs) + length (rfc_rr s r))%nat.
Proof. exact signed_data_keeps_every_record. Qed.
Print Assumptions C12_signed_data_keeps_every_record.

Theorem C12_signer_input_is_rfc4034 : forall k o t c ttl rrset inc exp s scratch,
  uniform o t c ttl rrset ->
  sign_rrset k rrset inc exp = Ok (s, scratch) ->
  s = mk_sigf t (k_alg k) (rrsig_label_count o) ttl exp inc (k_tag k) (k_owner k) /\
  scratch = rfc_rrsig_rdata s ++ flat_map (rr_octets o t c ttl) (map r_rdata (sort_rr rrset)) /\
  t <> 46 /\ serial_partial_cmp exp inc <> Ok (Some Lt) /\ rrset <> [].
Proof. exact sign_rrset_ok. Qed.
Print Assumptions C12_signer_input_is_rfc4034.

Theorem C12_validator_rebuilds_signer_input : forall k o t c ttl rrset inc exp s scratch,
  valid_abs o -> uniform o t c ttl rrset ->
  sign_rrset k rrset inc exp = Ok (s, scratch) ->
  forall seen, resolver_view o t c rrset seen -> signed_data s seen = scratch.
Proof. exact validator_rebuilds_signer_input. Qed.
Print Assumptions C12_validator_rebuilds_signer_input.

Theorem C12_sign_sorted_agrees_on_sorted_input : forall k rrset inc exp,
  StronglySorted rdata_le rrset ->
  (do rs <- rrset_new rrset; sign_sorted k rs inc exp) = sign_rrset k rrset inc exp.
Proof. exact sign_sorted_on_sorted. Qed.
Print Assumptions C12_sign_sorted_agrees_on_sorted_input.

Theorem C12_signer_total : forall k o t c ttl rrset inc exp,
  valid_abs o -> uniform o t c ttl rrset -> rrset <> [] -> inc < 4294967296 -> exp < 4294967296 ->
  match sign_rrset k rrset inc exp with
  | Ok _ => t <> 46 /\ serial_partial_cmp exp inc <> Ok (Some Lt)
  | Err 1 => t = 46
  | Err 2 => t <> 46 /\ serial_partial_cmp exp inc = Ok (Some Lt)
  | _ => False
  end.
Proof. exact (fun k o t c ttl rrset inc exp _ => signer_total k o t c ttl rrset inc exp). Qed.
Print Assumptions C12_signer_total.

Theorem C12_signer_period_is_rfc1982 : forall k o t c ttl rrset inc exp,
  valid_abs o -> uniform o t c ttl rrset -> rrset <> [] -> t <> 46 ->
  inc < 4294967296 -> exp < 4294967296 ->
  (sign_rrset k rrset inc exp = Err 2 <-> rfc_lt exp inc) /\
  ((exists r, sign_rrset k rrset inc exp = Ok r) <-> ~ rfc_lt exp inc).
Proof. exact (fun k o t c ttl rrset inc exp _ => signer_period_is_rfc1982 k o t c ttl rrset inc exp). Qed.
Print Assumptions C12_signer_period_is_rfc1982.

Theorem C12_labels_field_is_rfc4034_3_1_3 : forall owner, valid_abs owner ->
  rrsig_label_count owner = rfc_labels owner /\ rfc_labels owner <= N.of_nat (length owner).
Proof. exact (fun owner Hv => conj (rrsig_label_count_is_rfc owner Hv) (rfc_labels_le owner)). Qed.
Print Assumptions C12_labels_field_is_rfc4034_3_1_3.

Theorem C12_sign_then_verify : forall (secret public : Type)
  (sign : secret -> bytes -> bytes) (verify : public -> bytes -> bytes -> bool) (sk : secret) (pk : public),
  (forall m, verify pk m (sign sk m) = true) ->
  forall k o t c ttl rrset inc exp s scratch,
    valid_abs o -> uniform o t c ttl rrset ->
    sign_rrset k rrset inc exp = Ok (s, scratch) ->
    forall seen, resolver_view o t c rrset seen ->
      verify_signed_data public verify pk (k_alg k) s (sign sk scratch) (signed_data s seen) = Ok tt.
Proof. exact sign_then_verify. Qed.
Print Assumptions C12_sign_then_verify.

Theorem C12_alteration_changes_input : forall s1 s2 recs1 recs2,
  wf_sig s1 -> wf_sig s2 -> Forall wf_rr recs1 -> Forall wf_rr recs2 ->
  covered s1 recs1 <> covered s2 recs2 -> signed_data s1 recs1 <> signed_data s2 recs2.
Proof. exact (fun s1 s2 recs1 recs2 W1 W2 R1 R2 Hne H => Hne (signed_data_injective s1 s2 recs1 recs2 W1 W2 R1 R2 H)). Qed.
Print Assumptions C12_alteration_changes_input.

Theorem C12_signed_octets_determine_covered_fields : forall s1 s2 recs1 recs2,
  wf_sig s1 -> wf_sig s2 -> Forall wf_rr recs1 -> Forall wf_rr recs2 ->
  signed_data s1 recs1 = signed_data s2 recs2 ->
  s_tc s1 = s_tc s2 /\ s_alg s1 = s_alg s2 /\ s_labels s1 = s_labels s2 /\ s_ottl s1 = s_ottl s2 /\
  s_exp s1 = s_exp s2 /\ s_inc s1 = s_inc s2 /\ s_kt s1 = s_kt s2 /\
  canon (s_signer s1) = canon (s_signer s2) /\
  Permutation (map r_rdata recs1) (map r_rdata recs2) /\ length recs1 = length recs2.
Proof. exact (fun s1 s2 recs1 recs2 W1 W2 R1 R2 H => covered_fields s1 s2 recs1 recs2 (signed_data_injective s1 s2 recs1 recs2 W1 W2 R1 R2 H)). Qed.
Print Assumptions C12_signed_octets_determine_covered_fields.

Theorem C12_tamper_rejected : forall (secret public : Type)
  (sign : secret -> bytes -> bytes) (verify : public -> bytes -> bytes -> bool) (sk : secret) (pk : public),
  (forall m m', verify pk m' (sign sk m) = true -> m' = m) ->
  forall k o t c ttl rrset inc exp s scratch,
    valid_abs o -> uniform o t c ttl rrset ->
    sign_rrset k rrset inc exp = Ok (s, scratch) ->
    forall dalg s' seen seen',
      resolver_view o t c rrset seen ->
      wf_sig s -> wf_sig s' -> Forall wf_rr seen -> Forall wf_rr seen' ->
      covered s' seen' <> covered s seen ->
      verify_signed_data public verify pk dalg s' (sign sk scratch) (signed_data s' seen') <> Ok tt.
Proof. exact tamper_rejected. Qed.
Print Assumptions C12_tamper_rejected.

Theorem C12_altered_signature_rejected : forall (secret public : Type)
  (sign : secret -> bytes -> bytes) (verify : public -> bytes -> bytes -> bool) (sk : secret) (pk : public),
  (forall m sg, verify pk m sg = true -> sg = sign sk m) ->
  forall k o t c ttl rrset inc exp s scratch,
    valid_abs o -> uniform o t c ttl rrset ->
    sign_rrset k rrset inc exp = Ok (s, scratch) ->
    forall seen sg', resolver_view o t c rrset seen ->
      sg' <> sign sk scratch ->
      verify_signed_data public verify pk (k_alg k) s sg' (signed_data s seen) <> Ok tt.
Proof. exact altered_signature_rejected. Qed.
Print Assumptions C12_altered_signature_rejected.

Theorem C12_foreign_key_rejected : forall (secret public : Type)
  (sign : secret -> bytes -> bytes) (verify : public -> bytes -> bytes -> bool) (sk : secret) (pk : public),
  (forall pk' m, verify pk' m (sign sk m) = true -> pk' = pk) ->
  forall k o t c ttl rrset inc exp s scratch,
    valid_abs o -> uniform o t c ttl rrset ->
    sign_rrset k rrset inc exp = Ok (s, scratch) ->
    forall seen pk' dalg, resolver_view o t c rrset seen ->
      pk' <> pk ->
      verify_signed_data public verify pk' dalg s (sign sk scratch) (signed_data s seen) <> Ok tt.
Proof. exact foreign_key_rejected. Qed.
Print Assumptions C12_foreign_key_rejected.

Theorem C12_key_tag_is_appendix_b : forall flags proto alg pk,
  flags < 65536 -> proto < 256 -> alg < 256 -> alg <> 1 -> wf_bytes pk ->
  len (rfc_dnskey_rdata flags proto alg pk) <= 65535 ->
  key_tag flags proto alg pk = Ok (rfc_keytag (rfc_dnskey_rdata flags proto alg pk)) /\
  rfc_ac (rfc_dnskey_rdata flags proto alg pk) 0 0 + 65535 < 4294967296 /\
  rfc_keytag (rfc_dnskey_rdata flags proto alg pk) < 65536.
Proof. exact key_tag_is_appendix_b. Qed.
Print Assumptions C12_key_tag_is_appendix_b.

Theorem C12_key_tag_algorithm_1 : forall flags proto pk,
  wf_bytes pk ->
  ((3 <= length pk)%nat -> key_tag flags proto 1 pk = Ok (rfc_keytag_alg1 pk)) /\
  ((length pk < 3)%nat -> key_tag flags proto 1 pk = Ok 0).
Proof. exact (fun flags proto pk Hw => conj (key_tag_alg1 flags proto pk Hw) (key_tag_alg1_short flags proto pk)). Qed.
Print Assumptions C12_key_tag_algorithm_1.

Theorem C12_key_tag_no_panic : forall flags proto alg pk,
  flags < 65536 -> proto < 256 -> alg < 256 -> wf_bytes pk ->
  len (rfc_dnskey_rdata flags proto alg pk) <= 65535 -> no_panic (key_tag flags proto alg pk).
Proof. exact key_tag_no_panic. Qed.
Print Assumptions C12_key_tag_no_panic.

Theorem C12_ds_digest_is_rfc4034_5_1_4 : forall owner flags proto alg pk,
  ds_digest 1 owner flags proto alg pk = Ok (sha1 (rfc_ds_input owner flags proto alg pk)) /\
  ds_digest 2 owner flags proto alg pk = Ok (sha256 (rfc_ds_input owner flags proto alg pk)) /\
  ds_digest 4 owner flags proto alg pk = Ok (sha384 (rfc_ds_input owner flags proto alg pk)) /\
  (forall d, d <> 1 -> d <> 2 -> d <> 4 -> ds_digest d owner flags proto alg pk = Err 1).
Proof. exact ds_digest_is_rfc. Qed.
Print Assumptions C12_ds_digest_is_rfc4034_5_1_4.

Theorem C12_wildcard_closest_encloser : forall labels owner,
  wildcard_closest_encloser labels owner =
  if labels <? N.of_nat (length owner) then Some (rightmost (N.to_nat labels) owner) else None.
Proof. exact wildcard_closest_encloser_spec. Qed.
Print Assumptions C12_wildcard_closest_encloser.

Theorem C12_rsa_key_roundtrip : forall e n, rsa_part_ok e -> rsa_part_ok n ->
  exists pk, rsa_encode e n = Ok pk /\ rsa_exponent_modulus pk 0 = Ok (e, n).
Proof. exact rsa_roundtrip. Qed.
Print Assumptions C12_rsa_key_roundtrip.

Theorem C12_rsa_parse_sound : forall pk min_len e n,
  rsa_exponent_modulus pk min_len = Ok (e, n) ->
  rsa_part_ok e /\ rsa_part_ok n /\ min_len <= len n /\
  (pk = len e :: e ++ n \/ exists hi lo, pk = 0 :: hi :: lo :: e ++ n /\ of_be16 hi lo = len e /\ 1 <= hi).
Proof. exact rsa_parse_sound. Qed.
Print Assumptions C12_rsa_parse_sound.

Theorem C12_key_size_of_parsed_key : forall alg pk min_len e n,
  memN alg ks_rsa_algorithms = true ->
  rsa_exponent_modulus pk min_len = Ok (e, n) ->
  exists f t, n = f :: t /\ key_size alg pk = Ok (len n * 8 - leading_zeros8 f) /\
              (len n - 1) * 8 < len n * 8 - leading_zeros8 f <= len n * 8.
Proof. exact key_size_of_parsed. Qed.
Print Assumptions C12_key_size_of_parsed_key.

Theorem C12_key_parsing_total : forall alg pk min_len,
  no_panic (key_size alg pk) /\ no_panic (rsa_exponent_modulus pk min_len).
Proof. exact (fun alg pk min_len => conj (key_size_no_panic alg pk) (rsa_parse_no_panic pk min_len)). Qed.
Print Assumptions C12_key_parsing_total.

Theorem C12_zone_signed_sound : forall apex k recs o t,
  In (o, t) (sign_zone apex k recs) ->
  t <> 46 /\
  exists g, In g (owner_groups (skip_before apex recs)) /\ In (o, t) g /\
            ends_with (group_owner g) apex = true /\
            (is_zone_cut apex g = true -> t = 43 \/ t = 47) /\
            (name_eqb (group_owner g) apex = true -> t <> 48 /\ t <> 59 /\ t <> 60).
Proof. exact zone_signed_sound. Qed.
Print Assumptions C12_zone_signed_sound.

Theorem C12_zone_delegation : forall apex k cut o t g' mid rest,
  ends_with o apex = true ->
  match cut with Some c => ends_with o c | None => false end = false ->
  is_zone_cut apex ((o, t) :: g') = true ->
  Forall (fun g => g <> [] /\ ends_with (group_owner g) apex = true /\ ends_with (group_owner g) o = true) mid ->
  sign_groups apex k cut (((o, t) :: g') :: mid ++ rest) =
  select_rrsets true o apex k ((o, t) :: g') ++ sign_groups apex k (Some o) rest.
Proof. exact delegation_signed. Qed.
Print Assumptions C12_zone_delegation.

Theorem C12_zone_authoritative_group_signed : forall apex k cut g rest t,
  g <> [] -> ends_with (group_owner g) apex = true ->
  match cut with Some c => ends_with (group_owner g) c | None => false end = false ->
  In t (map snd g) ->
  rfc_signed_here (is_zone_cut apex g) (name_eqb (group_owner g) apex) t = true -> (0 < k)%nat ->
  exists o, In (o, t) (sign_groups apex k cut (g :: rest)).
Proof. exact authoritative_group_signed. Qed.
Print Assumptions C12_zone_authoritative_group_signed.

Theorem C12_subtree_is_contiguous : forall c a x b,
  ends_with a c = true -> ends_with b c = true ->
  name_cmp a x <> Gt -> name_cmp x b <> Gt -> ends_with x c = true.
Proof. exact subtree_is_contiguous. Qed.
Print Assumptions C12_subtree_is_contiguous.

Theorem C12_zone_selection_is_rfc4035 : forall apex k gs,
  Forall (fun g => g <> [] /\ ends_with (group_owner g) apex = true) gs ->
  StronglySorted nle (map group_owner gs) ->
  sign_groups apex k None gs = spec_groups apex k [] gs.
Proof. exact zone_selection_is_rfc4035. Qed.
Print Assumptions C12_zone_selection_is_rfc4035.

Theorem C12_code_order_is_octet_order : forall s l, one_schema l ->
  signed_data_code_order s l = signed_data s (map c_to_rr l) /\
  (forall a b, In a l -> In b l -> no_panic (C04.Model.fields_cmp (c_data a) (c_data b))).
Proof. exact code_order_is_octet_order. Qed.
Print Assumptions C12_code_order_is_octet_order.

Theorem C12_embedded_name_case_is_invisible : forall a b,
  case_variant a b -> r_rdata (t_to_rr a) = r_rdata (t_to_rr b).
Proof. exact case_variant_same_rdata. Qed.
Print Assumptions C12_embedded_name_case_is_invisible.

Theorem C12_typed_validator_rebuilds_signer_input : forall k o t c ttl rrset inc exp s scratch,
  valid_abs o -> uniform o t c ttl (map t_to_rr rrset) ->
  sign_rrset k (map t_to_rr rrset) inc exp = Ok (s, scratch) ->
  forall seen, typed_resolver_view o t c rrset seen -> signed_data s (map t_to_rr seen) = scratch.
Proof. exact typed_validator_rebuilds_signer_input. Qed.
Print Assumptions C12_typed_validator_rebuilds_signer_input.

Theorem C12_sign_zone_is_rfc4035 : forall apex k recs,
  StronglySorted (fun a b : zrec => name_cmp (fst a) (fst b) <> Gt) recs ->
  sign_zone apex k recs = spec_zone apex k recs.
Proof. exact sign_zone_is_rfc4035. Qed.
Print Assumptions C12_sign_zone_is_rfc4035.

Theorem C12_zone_signing_from_any_records : forall apex k (l : list C13.Model.srec),
  sign_zone apex k (C13.Model.strip (C13.Model.sorted_records l)) =
  spec_zone apex k (C13.Model.strip (C13.Model.sorted_records l)).
Proof. exact zone_signing_from_any_records. Qed.
Print Assumptions C12_zone_signing_from_any_records.

Theorem C12_every_key_signs_every_selected_rrset : forall apex k gs cut,
  sign_groups apex k cut gs = flat_map (fun x => repeat x k) (sign_groups apex 1 cut gs).
Proof. exact sign_groups_per_key. Qed.
Print Assumptions C12_every_key_signs_every_selected_rrset.

Theorem C12_rsa_parse_complete : forall pk min_len e n,
  rsa_part_ok e -> rsa_part_ok n -> min_len <= len n ->
  ((pk = len e :: e ++ n /\ len e <= 255) \/
   (exists hi lo, pk = 0 :: hi :: lo :: e ++ n /\ of_be16 hi lo = len e /\ 1 <= hi <= 255)) ->
  rsa_exponent_modulus pk min_len = Ok (e, n).
Proof. exact rsa_parse_complete. Qed.
Print Assumptions C12_rsa_parse_complete.

Theorem C12_rsa_part_accepted_iff_1_to_512 : forall b,
  rsa_part_bad b = false <-> (1 <= len b <= 512 /\ head_nonzero b).
Proof. exact rsa_part_bad_spec. Qed.
Print Assumptions C12_rsa_part_accepted_iff_1_to_512.

Theorem C12_sorted_records_entry_points : forall vf ops,
  Forall (variant_by_type vf) (arrivals ops) ->
  strict (fst (c12_sorted_ops ops)) /\
  (forall x, In x (fst (c12_sorted_ops ops)) -> In x (arrivals ops)) /\
  (forall y, In y (arrivals ops) -> exists x, In x (fst (c12_sorted_ops ops)) /\ kcmp x y = Eq).
Proof. exact sorted_records_entry_points. Qed.
Print Assumptions C12_sorted_records_entry_points.

Theorem C12_any_interleaving_is_sort_dedup : forall vf ops,
  Forall (variant_by_type vf) (arrivals ops) ->
  Forall2 (fun a b => kcmp a b = Eq) (fst (c12_sorted_ops ops)) (C13.Model.sorted_records (arrivals ops)).
Proof. exact any_interleaving_is_sort_dedup. Qed.
Print Assumptions C12_any_interleaving_is_sort_dedup.

Theorem C12_whole_zone_nsec : forall apex dnskey k l coll sigs,
  whole_zone_nsec apex dnskey k l = Ok (coll, sigs) ->
  exists ns,
    C13.Model.generate_nsecs apex dnskey (C13.Model.strip (C13.Model.sorted_records l)) = Ok ns /\
    coll = signed_collection l ns /\
    sigs = spec_zone apex k coll /\
    sigs = flat_map (fun x => repeat x k) (sign_zone apex 1 coll) /\
    (forall o t, In (o, t) sigs -> t <> 46 /\ C13.Model.has_type coll o t) /\
    (forall n, C13.Model.auth_name apex (C13.Model.strip l) n <->
               exists r, In r ns /\ name_eqb (C13.Model.n_owner r) n = true) /\
    (forall o t, C13.Model.has_type coll o t <->
                 C13.Model.has_type (C13.Model.strip l) o t \/
                 (t = 47 /\ exists r, In r ns /\ name_eqb (C13.Model.n_owner r) o = true)).
Proof. exact whole_zone_nsec_signed. Qed.
Print Assumptions C12_whole_zone_nsec.

Theorem C12_whole_zone_authoritative_rrsets_signed : forall apex dnskey k l coll sigs pre g post t,
  whole_zone_nsec apex dnskey k l = Ok (coll, sigs) -> (0 < k)%nat ->
  filter (in_zoneb apex) (owner_groups coll) = pre ++ g :: post ->
  below_earlier_cut apex pre g = false ->
  In t (map snd g) ->
  (t = 47 \/ rfc_signed_here (is_zone_cut apex g) (name_eqb (group_owner g) apex) t = true) ->
  exists o, In (o, t) sigs /\
            sigs = flat_map (fun x => repeat x k) (sign_zone apex 1 coll).
Proof. exact whole_zone_authoritative_rrsets_signed. Qed.
Print Assumptions C12_whole_zone_authoritative_rrsets_signed.

Theorem C12_whole_zone_nsec3 : forall (H : bytes -> bytes) (owner_of : bytes -> name) apex c k l coll sigs,
  whole_zone_nsec3 H owner_of apex c k l = Ok (coll, sigs) ->
  exists n3,
    C13.Model.generate_nsec3s H apex c (C13.Model.strip (C13.Model.sorted_records l)) = Ok n3 /\
    coll = signed_collection3 owner_of apex c l n3 /\
    sigs = spec_zone apex k coll /\
    sigs = flat_map (fun x => repeat x k) (sign_zone apex 1 coll) /\
    (forall o t, In (o, t) sigs -> t <> 46 /\ C13.Model.has_type coll o t) /\
    (forall x, (exists r, In r n3 /\ C13.Model.h_owner r = x) <->
       (exists n, (C13.ProofsN3d.included apex (C13.Model.strip (C13.Model.sorted_records l)) (C13.ProofsN3e.optout_excl c) n \/
                   C13.ProofsN3d.ent3 apex (C13.Model.strip (C13.Model.sorted_records l)) (C13.ProofsN3e.optout_excl c) n) /\
                  x = C13.Model.nsec3_hash H n (C13.Model.c_iters c) (C13.Model.c_salt c))) /\
    (StronglySorted (fun a b => lex_cmp (C13.Model.h_owner a) (C13.Model.h_owner b) = Lt) n3 /\ n3 <> [] /\
     map C13.Model.h_next n3 = tl (map C13.Model.h_owner n3) ++ [hd [] (map C13.Model.h_owner n3)]) /\
    (forall o t, C13.Model.has_type coll o t <->
       C13.Model.has_type (C13.Model.strip l) o t \/
       (t = 51 /\ name_eqb apex o = true) \/
       (t = 50 /\ exists r, In r n3 /\ name_eqb (owner_of (C13.Model.h_owner r)) o = true)).
Proof. exact whole_zone_nsec3_signed. Qed.
Print Assumptions C12_whole_zone_nsec3.

Theorem C12_whole_zone_nsec3_authoritative_rrsets_signed :
  forall (H : bytes -> bytes) (owner_of : bytes -> name) apex c k l coll sigs pre g post t,
  whole_zone_nsec3 H owner_of apex c k l = Ok (coll, sigs) -> (0 < k)%nat ->
  filter (in_zoneb apex) (owner_groups coll) = pre ++ g :: post ->
  below_earlier_cut apex pre g = false ->
  In t (map snd g) ->
  rfc_signed_here (is_zone_cut apex g) (name_eqb (group_owner g) apex) t = true ->
  exists o, In (o, t) sigs.
Proof. exact whole_zone3_authoritative_rrsets_signed. Qed.
Print Assumptions C12_whole_zone_nsec3_authoritative_rrsets_signed.

Theorem C12_signer_outcomes_any_records : forall k rrset inc exp,
  inc < 4294967296 -> exp < 4294967296 ->
  (sign_rrset k rrset inc exp = Err 3 /\ rrset = []) \/
  (sign_rrset k rrset inc exp = Panic 2 /\
     exists a b, In a rrset /\ In b rrset /\ r_ttl a <> r_ttl b) \/
  (sign_rrset k rrset inc exp = Err 1 /\ exists r, In r rrset /\ r_type r = 46) \/
  (sign_rrset k rrset inc exp = Err 2 /\ rrset <> [] /\ serial_partial_cmp exp inc = Ok (Some Lt)) \/
  (exists s scratch, sign_rrset k rrset inc exp = Ok (s, scratch) /\ rrset <> [] /\
                     serial_partial_cmp exp inc <> Ok (Some Lt)).
Proof. exact signer_outcomes_any_records. Qed.
Print Assumptions C12_signer_outcomes_any_records.

Theorem C12_labels_assert_never_fires : forall o : name,
  rrsig_label_count o < N.of_nat (length o) + 1.
Proof. exact label_count_lt. Qed.
Print Assumptions C12_labels_assert_never_fires.

Theorem C12_signer_order_and_case_insensitive : forall k o t c ttl rrset rrset' inc exp s scratch,
  valid_abs o -> uniform o t c ttl rrset -> uniform o t c ttl rrset' ->
  Permutation (map r_rdata rrset) (map r_rdata rrset') ->
  inc < 4294967296 -> exp < 4294967296 ->
  sign_rrset k rrset inc exp = Ok (s, scratch) ->
  sign_rrset k rrset' inc exp = Ok (s, scratch).
Proof. exact (fun k o t c ttl rrset rrset' inc exp s scratch _ Hu Hu' Hp _ _ => signer_order_and_case_insensitive k o t c ttl rrset rrset' inc exp s scratch Hu Hu' Hp). Qed.
Print Assumptions C12_signer_order_and_case_insensitive.

Theorem C12_algorithm_mismatch_rejected : forall (public : Type)
  (verify : public -> bytes -> bytes -> bool) (pk : public) s signature data dalg,
  s_alg s <> dalg -> verify_signed_data public verify pk dalg s signature data = Err 1.
Proof. exact algorithm_mismatch_rejected. Qed.
Print Assumptions C12_algorithm_mismatch_rejected.

Theorem C12_altered_rrsig_field_rejected : forall (secret public : Type)
  (sign : secret -> bytes -> bytes) (verify : public -> bytes -> bytes -> bool) (sk : secret) (pk : public)
  k o t c ttl rrset inc exp s scratch,
  (forall m m', verify pk m' (sign sk m) = true -> m' = m) ->
  valid_abs o -> uniform o t c ttl rrset ->
  sign_rrset k rrset inc exp = Ok (s, scratch) ->
  forall dalg s' seen seen', resolver_view o t c rrset seen ->
    wf_sig s -> wf_sig s' -> Forall wf_rr seen -> Forall wf_rr seen' ->
    sig_fields s' <> sig_fields s ->
    verify_signed_data public verify pk dalg s' (sign sk scratch) (signed_data s' seen') <> Ok tt.
Proof. exact altered_rrsig_field_rejected. Qed.
Print Assumptions C12_altered_rrsig_field_rejected.

Theorem C12_altered_rdata_rejected : forall (secret public : Type)
  (sign : secret -> bytes -> bytes) (verify : public -> bytes -> bytes -> bool) (sk : secret) (pk : public)
  k o t c ttl rrset inc exp s scratch,
  (forall m m', verify pk m' (sign sk m) = true -> m' = m) ->
  valid_abs o -> uniform o t c ttl rrset ->
  sign_rrset k rrset inc exp = Ok (s, scratch) ->
  forall dalg s' l1 r r' l2, resolver_view o t c rrset (l1 ++ r :: l2) ->
    wf_sig s -> wf_sig s' -> Forall wf_rr (l1 ++ r :: l2) -> Forall wf_rr (l1 ++ r' :: l2) ->
    r_rdata r' <> r_rdata r ->
    verify_signed_data public verify pk dalg s' (sign sk scratch) (signed_data s' (l1 ++ r' :: l2)) <> Ok tt.
Proof. exact altered_rdata_rejected. Qed.
Print Assumptions C12_altered_rdata_rejected.

Theorem C12_changed_record_count_rejected : forall (secret public : Type)
  (sign : secret -> bytes -> bytes) (verify : public -> bytes -> bytes -> bool) (sk : secret) (pk : public)
  k o t c ttl rrset inc exp s scratch,
  (forall m m', verify pk m' (sign sk m) = true -> m' = m) ->
  valid_abs o -> uniform o t c ttl rrset ->
  sign_rrset k rrset inc exp = Ok (s, scratch) ->
  forall dalg s' seen seen', resolver_view o t c rrset seen ->
    wf_sig s -> wf_sig s' -> Forall wf_rr seen -> Forall wf_rr seen' ->
    length seen' <> length rrset ->
    verify_signed_data public verify pk dalg s' (sign sk scratch) (signed_data s' seen') <> Ok tt.
Proof. exact changed_record_count_rejected. Qed.
Print Assumptions C12_changed_record_count_rejected.

Theorem C12_altered_type_class_owner_rejected : forall (secret public : Type)
  (sign : secret -> bytes -> bytes) (verify : public -> bytes -> bytes -> bool) (sk : secret) (pk : public)
  k o t c ttl rrset inc exp s scratch,
  (forall m m', verify pk m' (sign sk m) = true -> m' = m) ->
  valid_abs o -> uniform o t c ttl rrset ->
  sign_rrset k rrset inc exp = Ok (s, scratch) ->
  forall dalg s' seen seen' r', resolver_view o t c rrset seen ->
    wf_sig s -> wf_sig s' -> Forall wf_rr seen -> Forall wf_rr seen' ->
    In r' seen' ->
    (r_type r' <> t \/ r_class r' <> c \/
     canon (rfc_name (s_labels s') (r_owner r')) <> canon o) ->
    verify_signed_data public verify pk dalg s' (sign sk scratch) (signed_data s' seen') <> Ok tt.
Proof. exact altered_type_class_owner_rejected. Qed.
Print Assumptions C12_altered_type_class_owner_rejected.

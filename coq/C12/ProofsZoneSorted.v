(* C12 -- zone signing from an arbitrary record list: SortedRecords::from (C13's
   model sorted_records = sort by Record::canonical_cmp, then dedup) feeding
   sign_sorted_zone_records, against the stateless RFC 4035 2.2 reading, with
   records outside the zone allowed anywhere in the input. *)
From Coq Require Import NArith List Bool Sorting.Sorted.
From DV Require C13.Model C13.ProofsDedup.
From DV Require Import Base.Bytes Base.Names C12.Gen C12.ZoneModel C12.ProofsZone.
Import ListNotations.
Local Open Scope N_scope.

Definition in_zoneb (apex : name) (g : list zrec) : bool := ends_with (group_owner g) apex.

(* what the RFC reading says for a whole record list: only owner groups inside
   the zone count, each judged against the delegations before it *)
Definition spec_zone (apex : name) (k : nat) (recs : list zrec) : list zrec :=
  spec_groups apex k [] (filter (in_zoneb apex) (owner_groups recs)).

Lemma rprefix_lowers p : forall s s', map lowers s = map lowers s' -> rprefix p s = rprefix p s'.
Proof.
  induction p as [|x p IH]; intros s s' H; [reflexivity|].
  destruct s as [|y s]; destruct s' as [|y' s']; try discriminate; [reflexivity|].
  cbn [map] in H. injection H as Hy Hs. cbn [rprefix]. rewrite (IH _ _ Hs). f_equal.
  destruct (label_eqb y x) eqn:E1; destruct (label_eqb y' x) eqn:E2; try reflexivity.
  - apply label_eqb_spec in E1. assert (E : label_eqb y' x = true) by (apply label_eqb_spec; congruence). congruence.
  - apply label_eqb_spec in E2. assert (E : label_eqb y x = true) by (apply label_eqb_spec; congruence). congruence.
Qed.

Lemma ends_with_name_eq a b c : name_eqb a b = true -> ends_with a c = ends_with b c.
Proof.
  intros H. apply name_eqb_spec in H. unfold ends_with. apply rprefix_lowers.
  unfold canon in H. rewrite !map_rev. f_equal. exact H.
Qed.

Lemma name_eqb_sym a b : name_eqb a b = true -> name_eqb b a = true.
Proof. intros H. apply name_eqb_spec in H. apply name_eqb_spec. symmetry. exact H. Qed.

Lemma name_eqb_ends_with a b : name_eqb a b = true -> ends_with b a = true.
Proof. intros H. rewrite <- (ends_with_name_eq a b a H). apply ends_with_refl. Qed.

Lemma og_cons o t rest :
  owner_groups ((o, t) :: rest) =
  match owner_groups rest with
  | ((o', t') :: g) :: gs => if name_eqb o' o then ((o, t) :: (o', t') :: g) :: gs
                             else [(o, t)] :: ((o', t') :: g) :: gs
  | gs => [(o, t)] :: gs
  end.
Proof. reflexivity. Qed.

Lemma og_nonempty l : Forall (fun g => g <> []) (owner_groups l).
Proof.
  induction l as [|[o t] rest IH]; [constructor|]. rewrite og_cons.
  destruct (owner_groups rest) as [|[|[o' t'] g] gs].
  - repeat constructor; discriminate.
  - constructor; [discriminate|exact IH].
  - inversion IH; subst. destruct (name_eqb o' o); repeat constructor; try discriminate; assumption.
Qed.

Lemma og_concat l : concat (owner_groups l) = l.
Proof.
  induction l as [|[o t] rest IH]; [reflexivity|]. rewrite og_cons.
  destruct (owner_groups rest) as [|[|[o' t'] g] gs]; cbn [concat app] in *; [rewrite <- IH; reflexivity..|].
  destruct (name_eqb o' o); cbn [concat app]; rewrite <- IH; reflexivity.
Qed.

Lemma og_owner_in l g : In g (owner_groups l) -> g <> [] -> In (group_owner g) (map fst l).
Proof.
  intros Hg Hne. destruct g as [|[o t] g']; [contradiction|]. cbn [group_owner].
  apply (in_map fst l (o, t)). rewrite <- (og_concat l). apply in_concat.
  exists ((o, t) :: g'). split; [exact Hg|left; reflexivity].
Qed.

Lemma og_sorted l :
  StronglySorted (fun a b : zrec => name_cmp (fst a) (fst b) <> Gt) l ->
  StronglySorted nle (map group_owner (owner_groups l)).
Proof.
  induction 1 as [|[o t] rest Hs IH Hall]; [constructor|]. rewrite og_cons.
  (* every group of the rest is headed by a record of the rest *)
  assert (Hfa : Forall (nle o) (map group_owner (owner_groups rest))).
  { apply Forall_forall. intros x Hx. apply in_map_iff in Hx as (g & <- & Hg).
    pose proof (og_nonempty rest) as Hne. rewrite Forall_forall in Hne.
    pose proof (og_owner_in rest g Hg (Hne g Hg)) as Hin. apply in_map_iff in Hin as (r & Hr & Hin).
    rewrite Forall_forall in Hall. specialize (Hall r Hin). unfold nle. rewrite <- Hr. exact Hall. }
  destruct (owner_groups rest) as [|[|[o' t'] g0] gs]; [repeat constructor|constructor; assumption|].
  destruct (name_eqb o' o); [|constructor; assumption].
  cbn [map group_owner] in *. inversion IH; inversion Hfa; subst. constructor; assumption.
Qed.

Lemma skip_before_sub apex z y : In y (skip_before apex z) -> In y z.
Proof.
  induction z as [|[o' t'] r IH]; cbn [skip_before]; [intros []|].
  destruct (name_eqb apex o' || ends_with o' apex); [auto|]. intros Hy. right. apply IH. exact Hy.
Qed.

Lemma in_groups_in_zone apex z g x : In g (owner_groups (skip_before apex z)) -> In x g -> In x z.
Proof.
  intros Hg Hx. apply (skip_before_sub apex). rewrite <- (og_concat (skip_before apex z)).
  apply in_concat. exists g. split; assumption.
Qed.

Fixpoint skip_groups (apex : name) (gs : list (list zrec)) : list (list zrec) :=
  match gs with
  | [] => []
  | g :: rest => if in_zoneb apex g then gs else skip_groups apex rest
  end.

Lemma skip_test apex o : name_eqb apex o || ends_with o apex = ends_with o apex.
Proof.
  destruct (name_eqb apex o) eqn:E; [|reflexivity]. cbn [orb]. symmetry. apply name_eqb_ends_with. exact E.
Qed.

Lemma skip_groups_head apex o t g gs :
  skip_groups apex (((o, t) :: g) :: gs) = if ends_with o apex then ((o, t) :: g) :: gs else skip_groups apex gs.
Proof. reflexivity. Qed.

Lemma skip_groups_Forall (P : list zrec -> Prop) apex gs : Forall P gs -> Forall P (skip_groups apex gs).
Proof.
  induction 1 as [|g gs Hg Hgs IH]; [constructor|]. cbn [skip_groups].
  destruct (in_zoneb apex g); [constructor; assumption|exact IH].
Qed.

Lemma og_skip apex l : owner_groups (skip_before apex l) = skip_groups apex (owner_groups l).
Proof.
  induction l as [|[o t] rest IH]; [reflexivity|]. cbn [skip_before]. rewrite skip_test.
  destruct (ends_with o apex) eqn:Ez.
  - rewrite og_cons. destruct (owner_groups rest) as [|[|[o' t'] g] gs]; [| |destruct (name_eqb o' o)];
      now rewrite (skip_groups_head apex o t), Ez.
  - rewrite IH, og_cons. destruct (owner_groups rest) as [|[|[o' t'] g] gs]; [| |destruct (name_eqb o' o) eqn:En];
      rewrite (skip_groups_head apex o t), Ez; try reflexivity.
    (* the record joins the group of an owner equal to its own, which is outside too *)
    now rewrite skip_groups_head, (ends_with_name_eq o' o apex En), Ez.
Qed.

(* the signer stops at the first owner outside the zone *)
Fixpoint take_zone (apex : name) (gs : list (list zrec)) : list (list zrec) :=
  match gs with
  | [] => []
  | g :: rest => if in_zoneb apex g then g :: take_zone apex rest else []
  end.

Lemma sign_groups_take_zone apex k gs : forall cut,
  Forall (fun g => g <> []) gs ->
  sign_groups apex k cut gs = sign_groups apex k cut (take_zone apex gs).
Proof.
  induction gs as [|g rest IH]; intros cut Hne; [reflexivity|].
  inversion Hne as [|? ? Hg Hrest]; subst. cbn [take_zone]. unfold in_zoneb.
  destruct (ends_with (group_owner g) apex) eqn:Ez.
  - rewrite !(sign_groups_step _ _ _ _ _ Hg Ez).
    destruct (match cut with Some c => ends_with (group_owner g) c | None => false end); [|f_equal];
      apply IH; exact Hrest.
  - destruct g as [|[o t] g']; [contradiction|]. cbn [group_owner] in Ez.
    cbn [sign_groups]. rewrite Ez. reflexivity.
Qed.

(* on sorted input the zone is one block: what skip_before and the break keep is
   exactly the in-zone owner groups *)
Lemma filter_after_in_zone apex g rest :
  StronglySorted nle (map group_owner (g :: rest)) -> in_zoneb apex g = true ->
  filter (in_zoneb apex) rest = take_zone apex rest.
Proof.
  revert g; induction rest as [|h rest' IH]; intros g Hs Hg; [reflexivity|].
  cbn [filter take_zone]. cbn [map] in Hs. inversion Hs as [|? ? Hs' Hall]; subst.
  destruct (in_zoneb apex h) eqn:Eh; [f_equal; exact (IH h Hs' Eh)|].
  (* h is outside: nothing after it can be inside *)
  clear IH. inversion Hs' as [|? ? _ Hall']; subst.
  assert (Hgh : nle (group_owner g) (group_owner h)) by (inversion Hall; assumption).
  assert (Hout : forall x, In x rest' -> in_zoneb apex x = false).
  { intros x Hx. destruct (in_zoneb apex x) eqn:Ex; [|reflexivity]. exfalso.
    assert (Hhx : nle (group_owner h) (group_owner x)).
    { rewrite Forall_forall in Hall'. apply Hall'. apply in_map. exact Hx. }
    unfold in_zoneb in *. rewrite (subtree_is_contiguous apex _ _ _ Hg Ex Hgh Hhx) in Eh. discriminate. }
  clear - Hout. induction rest' as [|x r IHr]; [reflexivity|]. cbn [filter].
  rewrite (Hout x (or_introl eq_refl)). apply IHr. intros y Hy. apply Hout. right. exact Hy.
Qed.

Lemma filter_is_take_skip apex gs :
  StronglySorted nle (map group_owner gs) ->
  filter (in_zoneb apex) gs = take_zone apex (skip_groups apex gs).
Proof.
  induction gs as [|g rest IH]; intros Hs; [reflexivity|].
  cbn [filter skip_groups]. destruct (in_zoneb apex g) eqn:Eg.
  - cbn [take_zone]. rewrite Eg. f_equal. exact (filter_after_in_zone apex g rest Hs Eg).
  - apply IH. cbn [map] in Hs. inversion Hs; assumption.
Qed.

Lemma sorted_filter {A} (R : A -> A -> Prop) (f : A -> bool) l :
  StronglySorted R l -> StronglySorted R (filter f l).
Proof.
  induction 1 as [|x l Hs IH Hall]; cbn [filter]; [constructor|].
  destruct (f x); [|exact IH]. constructor; [exact IH|].
  apply Forall_forall. intros y Hy. apply filter_In in Hy as [Hy _]. rewrite Forall_forall in Hall. auto.
Qed.

Lemma sorted_map_filter apex gs :
  StronglySorted nle (map group_owner gs) -> StronglySorted nle (map group_owner (filter (in_zoneb apex) gs)).
Proof.
  induction gs as [|g rest IH]; cbn [map filter]; intros Hs; [constructor|].
  inversion Hs as [|? ? Hs' Hall]; subst. destruct (in_zoneb apex g); [|exact (IH Hs')].
  cbn [map]. constructor; [exact (IH Hs')|]. apply Forall_forall. intros y Hy.
  apply in_map_iff in Hy as (h & <- & Hh). apply filter_In in Hh as [Hh _].
  rewrite Forall_forall in Hall. apply Hall. apply in_map. exact Hh.
Qed.

(* the record list in canonical owner order, records outside the zone anywhere *)
Lemma sign_zone_is_rfc4035 apex k recs :
  StronglySorted (fun a b : zrec => name_cmp (fst a) (fst b) <> Gt) recs ->
  sign_zone apex k recs = spec_zone apex k recs.
Proof.
  intros Hs. unfold sign_zone, spec_zone. pose proof (og_sorted recs Hs) as Hgs.
  rewrite og_skip.
  rewrite sign_groups_take_zone by apply skip_groups_Forall, og_nonempty.
  rewrite <- (filter_is_take_skip apex _ Hgs).
  apply zone_selection_is_rfc4035.
  - apply Forall_forall. intros g Hg. apply filter_In in Hg as [Hg Hz]. split; [|exact Hz].
    pose proof (og_nonempty recs) as Hne. rewrite Forall_forall in Hne. exact (Hne g Hg).
  - apply sorted_map_filter. exact Hgs.
Qed.

(* any record list, through SortedRecords::from (C13's model: sort, then dedup) *)
Lemma zone_signing_from_any_records apex k (l : list C13.Model.srec) :
  sign_zone apex k (C13.Model.strip (C13.Model.sorted_records l)) =
  spec_zone apex k (C13.Model.strip (C13.Model.sorted_records l)).
Proof. apply sign_zone_is_rfc4035. exact (C13.ProofsDedup.sorted_records_sorted l). Qed.

(* every selected RRset is signed once per key: the signer has no KSK/ZSK policy,
   all keys passed in sign everything that is signed (the apex DNSKEY/CDS/CDNSKEY
   RRsets are left to the caller, who signs them with sign_rrset and the key of
   its choice) *)
Lemma select_per_key at_cut name apex k g :
  select_rrsets at_cut name apex k g =
  flat_map (fun x => repeat x k) (select_rrsets at_cut name apex 1 g).
Proof.
  unfold select_rrsets. induction (type_runs g) as [|run rs IH]; cbn [flat_map]; [reflexivity|].
  rewrite flat_map_app. f_equal; [|exact IH]. destruct run as [|[o t] r]; [reflexivity|].
  destruct (rrset_signed at_cut name apex t); [|reflexivity].
  cbn [repeat flat_map]. rewrite app_nil_r. reflexivity.
Qed.

Lemma sign_groups_per_key apex k gs : forall cut,
  sign_groups apex k cut gs = flat_map (fun x => repeat x k) (sign_groups apex 1 cut gs).
Proof.
  induction gs as [|g rest IH]; intros cut; [reflexivity|]. cbn [sign_groups].
  destruct g as [|[o t] g']; [apply IH|].
  destruct (negb (ends_with o apex)); [destruct zs_out_of_zone_stops; [reflexivity|apply IH]|].
  destruct (match cut with Some c => ends_with o c | None => false end); [apply IH|].
  rewrite flat_map_app. f_equal; [apply select_per_key|apply IH].
Qed.

Definition c12_sign_zone_unsorted (apex : name) (k : nat) (l : list C13.Model.srec) : list zrec :=
  sign_zone apex k (C13.Model.strip (C13.Model.sorted_records l)).

Example unsorted_zone_example :
  let apex := [[101;120]] in
  let n l := l ++ apex in
  let s (o : name) (t : N) (d : bytes) : C13.Model.srec := (o, t, (false, d)) in
  sign_zone apex 1 (C13.Model.strip (C13.Model.sorted_records
    [s (n [[103]; [115]]) 1 [1]; s (n [[116]]) 28 [2]; s [[111]] 1 [9]; s (n [[115]]) 43 [3]; s apex 6 [4];
     s (n [[115]]) 2 [5]; s apex 2 [6]; s apex 6 [4]; s [[122]; [122]] 16 [7]])) =
  [(apex, 2); (apex, 6); (n [[115]], 43); (n [[116]], 28)].
Proof. vm_compute. reflexivity. Qed.

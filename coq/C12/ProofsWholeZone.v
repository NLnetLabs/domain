(* C12 -- the whole zone, end to end with C13 (NSEC variant of sign_zone,
   dnssec/sign/mod.rs): any record list goes through SortedRecords::from
   (C13.sorted_records), generate_nsecs (C13) makes the chain, sorted_extend
   puts the NSEC records into the collection (SortedModel.so_extend), and
   sign_sorted_zone_records (ZoneModel.sign_zone) makes the RRSIGs - with
   whatever keys the caller passes, every one of them signing every selected
   RRset.  How each RRSIG's signed data is the RFC 4034 3.1.8.1 construction is
   C12_signer_input_is_rfc4034 / C12_signed_data_is_rfc4034 (Props.v), per RRset. *)
From Coq Require Import NArith List Sorting.Sorted.
From DV Require Import Base.Outcome Base.Bytes Base.Names C12.ZoneModel C12.ProofsZone
  C12.ProofsZoneSorted C12.SortedModel.
Import ListNotations.
Local Open Scope N_scope.

(* an NSEC record as it enters the collection: owner, type 47, canonical RDATA =
   next name as it is (RFC 6840 5.1) followed by the type bitmap *)
Definition nsec_srec (r : C13.Model.nsec) : srec :=
  ((C13.Model.n_owner r, 47), (false, wire_abs (C13.Model.n_next r) ++ C13.Model.n_types r)).

(* sign_zone with DenialConfig::Nsec, at the level of (owner, type): the signed
   collection and the (owner, type) of the RRSIGs made over it *)
Definition signed_collection (l : list srec) (ns : list C13.Model.nsec) : list zrec :=
  C13.Model.strip (so_extend (C13.Model.sorted_records l) (map nsec_srec ns)).

Definition whole_zone_nsec (apex : name) (dnskey : bool) (k : nat) (l : list srec)
  : outcome (list zrec * list zrec) :=
  do ns <- C13.Model.generate_nsecs apex dnskey (C13.Model.strip (C13.Model.sorted_records l));
  Ok (signed_collection l ns, sign_zone apex k (signed_collection l ns)).

Lemma has_type_app z1 z2 o t :
  C13.Model.has_type (z1 ++ z2) o t <-> C13.Model.has_type z1 o t \/ C13.Model.has_type z2 o t.
Proof.
  unfold C13.Model.has_type. split.
  - intros (m & Hin & E). apply in_app_or in Hin as [H|H]; [left|right]; exists m; auto.
  - intros [(m & Hin & E)|(m & Hin & E)]; exists m; split; auto; apply in_or_app; auto.
Qed.

Lemma strip_app a b : C13.Model.strip (a ++ b) = C13.Model.strip a ++ C13.Model.strip b.
Proof. unfold C13.Model.strip. apply map_app. Qed.

Lemma signed_collection_types l ns o t :
  C13.Model.has_type (signed_collection l ns) o t <->
  C13.Model.has_type (C13.Model.strip l) o t \/
  (t = 47 /\ exists r, In r ns /\ name_eqb (C13.Model.n_owner r) o = true).
Proof.
  unfold signed_collection, so_extend.
  rewrite C13.ProofsDedup.sorted_records_types, strip_app, has_type_app, C13.ProofsDedup.sorted_records_types.
  split; intros [H|H]; try (left; exact H); right.
  - destruct H as (m & Hin & E). unfold C13.Model.strip in Hin. rewrite map_map in Hin.
    apply in_map_iff in Hin as (r & Hr & Hin). unfold nsec_srec in Hr. cbn [fst] in Hr. injection Hr as <- <-.
    split; [reflexivity|]. exists r. split; assumption.
  - destruct H as (-> & r & Hin & E). exists (C13.Model.n_owner r). split; [|exact E].
    unfold C13.Model.strip. rewrite map_map. apply in_map_iff. exists r. split; [reflexivity|exact Hin].
Qed.

(* for the NSEC and the NSEC3 variant alike; coll is an output of sorted_records *)
Lemma sign_zone_of_sorted apex k coll :
  StronglySorted (fun a b : zrec => name_cmp (fst a) (fst b) <> Gt) coll ->
  sign_zone apex k coll = spec_zone apex k coll /\
  sign_zone apex k coll = flat_map (fun x => repeat x k) (sign_zone apex 1 coll) /\
  (forall o t, In (o, t) (sign_zone apex k coll) -> t <> 46 /\ C13.Model.has_type coll o t).
Proof.
  intros Hs. split; [exact (sign_zone_is_rfc4035 apex k _ Hs)|].
  split; [unfold sign_zone; apply sign_groups_per_key|].
  intros o t Hin. destruct (zone_signed_sound apex k _ o t Hin) as (H46 & g & Hg & Hog & _).
  split; [exact H46|]. exists o. split; [|apply C13.ProofsNames.name_eqb_refl].
  exact (in_groups_in_zone apex _ g (o, t) Hg Hog).
Qed.

Lemma whole_zone_nsec_signed apex dnskey k l coll sigs :
  whole_zone_nsec apex dnskey k l = Ok (coll, sigs) ->
  exists ns,
    C13.Model.generate_nsecs apex dnskey (C13.Model.strip (C13.Model.sorted_records l)) = Ok ns /\
    coll = signed_collection l ns /\
    (* the RRSIGs are those of the stateless RFC 4035 2.2 reading of the collection *)
    sigs = spec_zone apex k coll /\
    (* one per key: k keys give k copies of what one key gives, RRset by RRset *)
    sigs = flat_map (fun x => repeat x k) (sign_zone apex 1 coll) /\
    (* nothing signed that RFC 4035 2.2 forbids *)
    (forall o t, In (o, t) sigs -> t <> 46 /\ C13.Model.has_type coll o t) /\
    (* the NSEC owners are exactly the authoritative names of the input (C13) *)
    (forall n, C13.Model.auth_name apex (C13.Model.strip l) n <->
               exists r, In r ns /\ name_eqb (C13.Model.n_owner r) n = true) /\
    (* the collection is the input plus one NSEC RRset per such name: types kept, nothing else added *)
    (forall o t, C13.Model.has_type coll o t <->
                 C13.Model.has_type (C13.Model.strip l) o t \/
                 (t = 47 /\ exists r, In r ns /\ name_eqb (C13.Model.n_owner r) o = true)).
Proof.
  unfold whole_zone_nsec.
  destruct (C13.Model.generate_nsecs apex dnskey (C13.Model.strip (C13.Model.sorted_records l))) as [ns| | |] eqn:En;
    cbn [bind]; try discriminate.
  intros H. injection H as <- <-. exists ns. split; [reflexivity|]. split; [reflexivity|].
  destruct (sign_zone_of_sorted apex k (signed_collection l ns)) as (Hspec & Hper & Hsound).
  { unfold signed_collection, so_extend. exact (C13.ProofsDedup.sorted_records_sorted _). }
  split; [exact Hspec|]. split; [exact Hper|]. split; [exact Hsound|].
  split; [exact (proj1 (C13.ProofsDedup.sorted_records_nsec_owners l apex dnskey ns En))|].
  intros o t. apply signed_collection_types.
Qed.

(* completeness: an owner group inside the zone that is not at or below an earlier
   delegation gets an RRSIG (per key) for every RRset the per-owner rule admits *)
Lemma spec_groups_complete apex k pre : forall seen g post t,
  (0 < k)%nat -> g <> [] -> below_earlier_cut apex (seen ++ pre) g = false ->
  In t (map snd g) ->
  rfc_signed_here (is_zone_cut apex g) (name_eqb (group_owner g) apex) t = true ->
  exists o, In (o, t) (spec_groups apex k seen (pre ++ g :: post)).
Proof.
  induction pre as [|p pre' IH]; intros seen g post t Hk Hne Hb Ht Hr.
  - cbn [app spec_groups]. rewrite app_nil_r in Hb. rewrite Hb.
    destruct (select_complete (is_zone_cut apex g) (group_owner g) apex k g t Ht) as (o & Ho); [|exact Hk|].
    + rewrite rrset_signed_is_rfc. exact Hr.
    + exists o. apply in_or_app. left. exact Ho.
  - cbn [app spec_groups].
    destruct (IH (seen ++ [p]) g post t Hk Hne) as (o & Ho); try assumption.
    + rewrite <- app_assoc. exact Hb.
    + exists o. apply in_or_app. right. exact Ho.
Qed.

Lemma spec_zone_complete apex k coll pre g post t :
  (0 < k)%nat -> filter (in_zoneb apex) (owner_groups coll) = pre ++ g :: post ->
  below_earlier_cut apex pre g = false -> In t (map snd g) ->
  rfc_signed_here (is_zone_cut apex g) (name_eqb (group_owner g) apex) t = true ->
  exists o, In (o, t) (spec_zone apex k coll).
Proof.
  intros Hk Hf Hb Ht Hr. unfold spec_zone. rewrite Hf.
  apply (spec_groups_complete apex k pre [] g post t Hk); try assumption.
  pose proof (og_nonempty coll) as Hne. rewrite Forall_forall in Hne. apply Hne.
  apply (proj1 (filter_In (in_zoneb apex) g (owner_groups coll))).
  rewrite Hf. apply in_or_app. right. left. reflexivity.
Qed.

(* an NSEC RRset (type 47) is admitted everywhere, at a delegation too *)
Lemma nsec_always_admitted at_cut at_apex : rfc_signed_here at_cut at_apex 47 = true.
Proof. destruct at_cut, at_apex; reflexivity. Qed.

Lemma whole_zone_authoritative_rrsets_signed apex dnskey k l coll sigs pre g post t :
  whole_zone_nsec apex dnskey k l = Ok (coll, sigs) -> (0 < k)%nat ->
  filter (in_zoneb apex) (owner_groups coll) = pre ++ g :: post ->
  below_earlier_cut apex pre g = false ->
  In t (map snd g) ->
  (t = 47 \/ rfc_signed_here (is_zone_cut apex g) (name_eqb (group_owner g) apex) t = true) ->
  exists o, In (o, t) sigs /\
            sigs = flat_map (fun x => repeat x k) (sign_zone apex 1 coll).
Proof.
  intros Hw Hk Hf Hb Ht Hr.
  destruct (whole_zone_nsec_signed _ _ _ _ _ _ Hw) as (ns & _ & _ & Hspec & Hper & _).
  assert (Hr' : rfc_signed_here (is_zone_cut apex g) (name_eqb (group_owner g) apex) t = true).
  { destruct Hr as [->|Hr]; [apply nsec_always_admitted|exact Hr]. }
  destruct (spec_zone_complete apex k coll pre g post t Hk Hf Hb Ht Hr') as (o & Ho).
  exists o. split; [rewrite Hspec; exact Ho|exact Hper].
Qed.

(* non-vacuity: an unsorted three-owner zone with a delegation, one key *)
Example whole_zone_example :
  let apex := [[101;120]] in
  let n l := l ++ apex in
  let s (o : name) (t : N) (d : bytes) : srec := (o, t, (false, d)) in
  exists coll sigs,
    whole_zone_nsec apex false 1
      [s (n [[103]; [115]]) 1 [1]; s (n [[116]]) 28 [2]; s (n [[115]]) 2 [5]; s apex 6 [4]; s apex 2 [6]] = Ok (coll, sigs) /\
    sigs = [(apex, 2); (apex, 6); (apex, 47); (n [[115]], 47); (n [[116]], 28); (n [[116]], 47)].
Proof. cbv zeta. eexists; eexists. split; vm_compute; reflexivity. Qed.

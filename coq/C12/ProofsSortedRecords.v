(* C12 -- SortedRecords: every entry point (insert, extend, from_iter,
   From<Vec>), in any interleaving, leaves the collection strictly ascending in
   Record::canonical_cmp - canonical order, no duplicates - and made of the
   records that arrived.  The comparison is C13's sr_cmp; record data of one
   type is of one variant (known to the library, or Unknown), which is how
   ZoneRecordData is parsed: hypothesis `variant_by_type vf`. *)
From Coq Require Import NArith List Bool Lia Sorting.Permutation Sorting.Sorted.
From DV Require C13.Gen C13.Model C13.ProofsNames C13.ProofsDedup C13.ProofsN3a.
From DV Require Import Base.Bytes Base.Lex Base.Names C12.ProofsSort C12.SortedModel.
Import ListNotations.
Local Open Scope N_scope.

Notation sr_cmp := C13.Model.sr_cmp.
Notation sr_insert := C13.Model.sr_insert.
Notation sr_name := C13.Model.sr_name.
Notation sr_type := C13.Model.sr_type.
Definition sr_flag (r : srec) : bool := fst (snd r).
Definition sr_data (r : srec) : bytes := snd (snd r).

Definition variant_by_type (vf : N -> bool) (r : srec) : Prop := sr_flag r = vf (sr_type r).

(* the comparison without the variant flags *)
Definition kcmp (a b : srec) : comparison :=
  match name_cmp (sr_name a) (sr_name b) with
  | Eq => match sr_type a ?= sr_type b with Eq => lex_cmp (sr_data a) (sr_data b) | c => c end
  | c => c
  end.

Lemma sr_cmp_k vf a b : variant_by_type vf a -> variant_by_type vf b -> sr_cmp a b = kcmp a b.
Proof.
  destruct a as [[na ta] [ua da]], b as [[nb tb] [ub db]].
  unfold variant_by_type, sr_flag, sr_cmp, kcmp, C13.Model.data_cmp, sr_name, sr_type, sr_data. cbn [fst snd].
  intros Ha Hb. destruct (name_cmp na nb); try reflexivity.
  destruct (N.compare_spec ta tb) as [->| |]; try reflexivity.
  rewrite Ha, Hb. destruct (vf tb); reflexivity.
Qed.

Lemma kcmp_anti a b : kcmp b a = CompOpp (kcmp a b).
Proof.
  unfold kcmp. rewrite (name_cmp_antisym (sr_name a) (sr_name b)).
  destruct (name_cmp (sr_name a) (sr_name b)); cbn [CompOpp]; try reflexivity.
  rewrite (N.compare_antisym (sr_type a) (sr_type b)).
  destruct (sr_type a ?= sr_type b); cbn [CompOpp]; try reflexivity.
  apply lex_cmp_antisym.
Qed.

Lemma kcmp_refl a : kcmp a a = Eq.
Proof. unfold kcmp. rewrite name_cmp_refl, N.compare_refl. apply lex_cmp_refl. Qed.

Lemma kcmp_trans_le a b c : kcmp a b <> Gt -> kcmp b c <> Gt -> kcmp a c <> Gt.
Proof.
  unfold kcmp. intros H1 H2.
  destruct (name_cmp (sr_name a) (sr_name b)) eqn:E1; try congruence;
  destruct (name_cmp (sr_name b) (sr_name c)) eqn:E2; try congruence.
  - (* Eq Eq *)
    apply C13.ProofsNames.name_eqb_cmp in E1. rewrite (C13.ProofsNames.name_cmp_eq_l _ _ _ E1), E2.
    destruct (N.compare_spec (sr_type a) (sr_type b)) as [Eab|Lab|Gab]; try congruence;
    destruct (N.compare_spec (sr_type b) (sr_type c)) as [Ebc|Lbc|Gbc]; try congruence.
    + rewrite Eab, Ebc, N.compare_refl. exact (ble_trans _ _ _ H1 H2).
    + rewrite Eab. destruct (N.compare_spec (sr_type b) (sr_type c)); try lia. discriminate.
    + rewrite <- Ebc. destruct (N.compare_spec (sr_type a) (sr_type b)); try lia. discriminate.
    + destruct (N.compare_spec (sr_type a) (sr_type c)); try lia. discriminate.
  - (* Eq Lt *)
    apply C13.ProofsNames.name_eqb_cmp in E1. rewrite (C13.ProofsNames.name_cmp_eq_l _ _ _ E1), E2. discriminate.
  - (* Lt Eq *)
    apply C13.ProofsNames.name_eqb_cmp in E2. rewrite <- (C13.ProofsNames.name_cmp_eq_r _ _ _ E2), E1. discriminate.
  - rewrite (name_cmp_trans _ _ _ _ E1 E2). discriminate.
Qed.

Lemma kcmp_lt_le a b c : kcmp a b = Lt -> kcmp b c <> Gt -> kcmp a c = Lt.
Proof.
  intros H1 H2. assert (H3 : kcmp a c <> Gt) by (apply (kcmp_trans_le a b c); [rewrite H1; discriminate|exact H2]).
  destruct (kcmp a c) eqn:E; try congruence. exfalso.
  assert (Hca : kcmp c a <> Gt) by (rewrite kcmp_anti, E; discriminate).
  pose proof (kcmp_trans_le b c a H2 Hca) as Hba. rewrite kcmp_anti, H1 in Hba. apply Hba. reflexivity.
Qed.

Lemma kcmp_le_lt a b c : kcmp a b <> Gt -> kcmp b c = Lt -> kcmp a c = Lt.
Proof.
  intros H1 H2. assert (H3 : kcmp a c <> Gt) by (apply (kcmp_trans_le a b c); [exact H1|rewrite H2; discriminate]).
  destruct (kcmp a c) eqn:E; try congruence. exfalso.
  assert (Hca : kcmp c a <> Gt) by (rewrite kcmp_anti, E; discriminate).
  pose proof (kcmp_trans_le c a b Hca H1) as Hcb. rewrite kcmp_anti, H2 in Hcb. apply Hcb. reflexivity.
Qed.

Lemma kcmp_eq_trans a b c : kcmp a b = Eq -> kcmp b c = Eq -> kcmp a c = Eq.
Proof.
  intros H1 H2.
  assert (Hle : kcmp a c <> Gt) by (apply (kcmp_trans_le a b c); [rewrite H1|rewrite H2]; discriminate).
  assert (Hge : kcmp c a <> Gt).
  { apply (kcmp_trans_le c b a); [rewrite kcmp_anti, H2|rewrite kcmp_anti, H1]; discriminate. }
  rewrite kcmp_anti in Hge. destruct (kcmp a c); cbn [CompOpp] in Hge; congruence.
Qed.

Definition klt (a b : srec) : Prop := kcmp a b = Lt.
Definition kle (a b : srec) : Prop := kcmp a b <> Gt.
Definition strict (l : list srec) : Prop := StronglySorted klt l.

Section WithVariants.
  Variable vf : N -> bool.
  Let P := variant_by_type vf.

  Lemma has_equal_false st r : Forall P st -> P r -> has_equal st r = false ->
    forall y, In y st -> kcmp y r <> Eq.
  Proof.
    unfold has_equal. intros Hst Hr H y Hy E.
    assert (Hex : existsb (fun y => match sr_cmp y r with Eq => true | _ => false end) st = true).
    { apply existsb_exists. exists y. split; [exact Hy|]. rewrite Forall_forall in Hst.
      rewrite (sr_cmp_k vf y r (Hst y Hy) Hr), E. reflexivity. }
    congruence.
  Qed.

  Lemma insert_strict x l : Forall P l -> P x -> strict l -> (forall y, In y l -> kcmp y x <> Eq) ->
    strict (sr_insert x l).
  Proof.
    intros Hl Hx Hs Hne. induction Hs as [|y t Hs IH Hall]; cbn [C13.Model.sr_insert]; [repeat constructor|].
    inversion Hl as [|? ? Hy Ht]; subst. rewrite (sr_cmp_k vf x y Hx Hy).
    destruct (kcmp x y) eqn:E.
    - exfalso. apply (Hne y (or_introl eq_refl)). rewrite kcmp_anti, E. reflexivity.
    - constructor; [constructor; assumption|]. constructor; [exact E|].
      eapply Forall_impl; [|exact Hall]. intros z Hz. apply (kcmp_lt_le x y z E). unfold klt in Hz. rewrite Hz. discriminate.
    - constructor; [apply IH; [exact Ht|intros z Hz; apply Hne; right; exact Hz]|].
      apply Forall_forall. intros z Hz.
      apply (Permutation_in _ (C13.ProofsDedup.sr_insert_perm x t)) in Hz as [<-|Hz].
      + unfold klt. rewrite kcmp_anti, E. reflexivity.
      + rewrite Forall_forall in Hall. apply Hall. exact Hz.
  Qed.

  Lemma insert_le_sorted x l : Forall P l -> P x -> StronglySorted kle l -> StronglySorted kle (sr_insert x l).
  Proof.
    intros Hl Hx Hs. induction Hs as [|y t Hs IH Hall]; cbn [C13.Model.sr_insert]; [repeat constructor|].
    inversion Hl as [|? ? Hy Ht]; subst. rewrite (sr_cmp_k vf x y Hx Hy).
    assert (Keep : kcmp x y <> Gt -> StronglySorted kle (x :: y :: t)).
    { intros Hle. constructor; [constructor; assumption|]. constructor; [exact Hle|].
      eapply Forall_impl; [|exact Hall]. intros z Hz. exact (kcmp_trans_le x y z Hle Hz). }
    destruct (kcmp x y) eqn:E; [apply Keep; discriminate|apply Keep; discriminate|].
    constructor; [apply IH; exact Ht|]. apply Forall_forall. intros z Hz.
    apply (Permutation_in _ (C13.ProofsDedup.sr_insert_perm x t)) in Hz as [<-|Hz].
    - unfold kle. rewrite kcmp_anti, E. discriminate.
    - rewrite Forall_forall in Hall. apply Hall. exact Hz.
  Qed.

  Lemma sort_le_sorted l : Forall P l -> StronglySorted kle (C13.Model.sr_sort l).
  Proof.
    unfold C13.Model.sr_sort. induction 1 as [|x t Hx Ht IH]; cbn [fold_right]; [constructor|].
    apply insert_le_sorted; [|exact Hx|exact IH].
    eapply Permutation_Forall; [apply Permutation_sym, C13.ProofsDedup.sr_sort_perm|exact Ht].
  Qed.

  (* Record::eq, used by dedup, agrees with canonical_cmp == Equal *)
  Lemma srec_eqb_k a b : P a -> P b -> C13.Model.srec_eqb a b = true <-> kcmp a b = Eq.
  Proof.
    destruct a as [[na ta] [ua da]], b as [[nb tb] [ub db]].
    unfold P, variant_by_type, sr_flag, C13.Model.srec_eqb, C13.Model.data_eqb, kcmp, sr_name, sr_type, sr_data,
      C13.Model.sr_name, C13.Model.sr_type. cbn [fst snd].
    change C13.Gen.unknown_eq_checks_rtype with true. intros Ha Hb. subst ua ub.
    rewrite andb_true_iff, C13.ProofsNames.name_eqb_cmp.
    destruct (name_cmp na nb); [|split; [intros [? _]; discriminate|discriminate]|split; [intros [? _]; discriminate|discriminate]].
    destruct (N.compare_spec ta tb) as [->|Hl|Hg].
    - destruct (vf tb); cbn [andb orb]; rewrite ?N.eqb_refl; cbn [andb];
        (split; [intros [_ H]; apply C13.ProofsN3a.bytes_eqb_eq in H; subst; apply lex_cmp_refl
                |intros H; split; [reflexivity|apply C13.ProofsN3a.bytes_eqb_eq, lex_cmp_eq; exact H]]).
    - split; [|discriminate]. intros [_ H]. exfalso.
      destruct (vf ta), (vf tb); cbn [andb orb] in H; try discriminate;
        apply andb_true_iff in H as [H _]; apply N.eqb_eq in H; lia.
    - split; [|discriminate]. intros [_ H]. exfalso.
      destruct (vf ta), (vf tb); cbn [andb orb] in H; try discriminate;
        apply andb_true_iff in H as [H _]; apply N.eqb_eq in H; lia.
  Qed.

  Lemma dedup_from_strict prev l : P prev -> Forall P l -> StronglySorted kle (prev :: l) ->
    strict (prev :: C13.Model.sr_dedup_from prev l).
  Proof.
    revert prev. induction l as [|x r IH]; intros prev Hp Hl Hs; cbn [C13.Model.sr_dedup_from]; [repeat constructor|].
    inversion Hl as [|? ? Hx Hr]; subst. inversion Hs as [|? ? Hs' Hall]; subst.
    inversion Hs' as [|? ? Hs'' Hallx]; subst. inversion Hall as [|? ? Hpx Hallr]; subst.
    destruct (C13.Model.srec_eqb x prev) eqn:E.
    - apply IH; [exact Hp|exact Hr|]. constructor; assumption.
    - assert (Hlt : klt prev x).
      { unfold klt, kle in *. destruct (kcmp prev x) eqn:Ec; [|reflexivity|congruence]. exfalso.
        assert (Hxp : kcmp x prev = Eq) by (rewrite kcmp_anti, Ec; reflexivity).
        apply (srec_eqb_k x prev Hx Hp) in Hxp. congruence. }
      specialize (IH x Hx Hr Hs'). constructor; [exact IH|].
      apply Forall_forall. intros z [<-|Hz]; [exact Hlt|].
      apply C13.ProofsDedup.sr_dedup_from_sub in Hz. rewrite Forall_forall in Hallx.
      exact (kcmp_lt_le prev x z Hlt (Hallx z Hz)).
  Qed.

  Lemma sorted_records_strict l : Forall P l -> strict (C13.Model.sorted_records l).
  Proof.
    intros Hl. unfold C13.Model.sorted_records, C13.Model.sr_dedup.
    pose proof (sort_le_sorted l Hl) as Hs.
    assert (Hp : Forall P (C13.Model.sr_sort l)).
    { eapply Permutation_Forall; [apply Permutation_sym, C13.ProofsDedup.sr_sort_perm|exact Hl]. }
    destruct (C13.Model.sr_sort l) as [|x r]; [constructor|].
    inversion Hp; subst. apply dedup_from_strict; assumption.
  Qed.

  Lemma sorted_records_sub l x : In x (C13.Model.sorted_records l) -> In x l.
  Proof.
    unfold C13.Model.sorted_records, C13.Model.sr_dedup. intros H.
    apply (Permutation_in _ (C13.ProofsDedup.sr_sort_perm l)).
    destruct (C13.Model.sr_sort l) as [|y r]; [destruct H|].
    destruct H as [<-|H]; [left; reflexivity|right; eapply C13.ProofsDedup.sr_dedup_from_sub; exact H].
  Qed.

  Definition arrivals (ops : list sop) : list srec :=
    flat_map (fun o => match o with OInsert r => [r] | OExtend l => l end) ops.

  Lemma dedup_from_keeps prev l : P prev -> Forall P l ->
    forall y, In y (prev :: l) -> exists x, In x (prev :: C13.Model.sr_dedup_from prev l) /\ kcmp x y = Eq.
  Proof.
    revert prev. induction l as [|z r IH]; intros prev Hp Hl y Hy; cbn [C13.Model.sr_dedup_from].
    - destruct Hy as [<-|[]]. exists prev. split; [left; reflexivity|apply kcmp_refl].
    - inversion Hl as [|? ? Hz Hr]; subst. destruct (C13.Model.srec_eqb z prev) eqn:E.
      + destruct Hy as [<-|[<-|Hy]].
        * apply (IH prev Hp Hr). left; reflexivity.
        * exists prev. split; [left; reflexivity|]. apply (srec_eqb_k z prev Hz Hp) in E. rewrite kcmp_anti, E. reflexivity.
        * apply (IH prev Hp Hr). right; exact Hy.
      + destruct Hy as [<-|Hy].
        * exists prev. split; [left; reflexivity|apply kcmp_refl].
        * destruct (IH z Hz Hr y Hy) as (x & Hx & Ex). exists x. split; [right; exact Hx|exact Ex].
  Qed.

  Lemma sorted_records_keeps l : Forall P l ->
    forall y, In y l -> exists x, In x (C13.Model.sorted_records l) /\ kcmp x y = Eq.
  Proof.
    intros Hl y Hy. unfold C13.Model.sorted_records, C13.Model.sr_dedup.
    assert (Hp : Forall P (C13.Model.sr_sort l)).
    { eapply Permutation_Forall; [apply Permutation_sym, C13.ProofsDedup.sr_sort_perm|exact Hl]. }
    apply (Permutation_in _ (Permutation_sym (C13.ProofsDedup.sr_sort_perm l))) in Hy.
    destruct (C13.Model.sr_sort l) as [|z r]; [destruct Hy|].
    inversion Hp; subst. apply dedup_from_keeps; assumption.
  Qed.

  (* kept by every entry point; arr = what arrived so far *)
  Definition tracks (st arr : list srec) : Prop :=
    Forall P st /\ strict st /\ (forall x, In x st -> In x arr) /\
    (forall y, In y arr -> exists x, In x st /\ kcmp x y = Eq).

  Lemma tracks_insert st arr r : tracks st arr -> P r -> tracks (fst (so_insert st r)) (arr ++ [r]).
  Proof.
    intros (Hst & Hs & Hsub & Hkeep) Hr. unfold so_insert. destruct (has_equal st r) eqn:E; cbn [fst].
    - (* refused: an Equal record is there already *)
      repeat split; [exact Hst|exact Hs|intros x Hx; apply in_or_app; left; auto|].
      intros y Hy. apply in_app_or in Hy as [Hy|[<-|[]]]; [auto|].
      unfold has_equal in E. apply existsb_exists in E as (x & Hx & Ex). exists x. split; [exact Hx|].
      rewrite Forall_forall in Hst. rewrite (sr_cmp_k vf x r (Hst x Hx) Hr) in Ex. destruct (kcmp x r); congruence.
    - pose proof (C13.ProofsDedup.sr_insert_perm r st) as Hp. repeat split.
      + eapply Permutation_Forall; [apply Permutation_sym, Hp|constructor; assumption].
      + apply insert_strict; try assumption. apply has_equal_false; assumption.
      + intros x Hx. apply in_or_app.
        apply (Permutation_in _ Hp) in Hx as [<-|Hx]; [right; left; reflexivity|left; auto].
      + intros y Hy. apply in_app_or in Hy as [Hy|[<-|[]]].
        * destruct (Hkeep y Hy) as (x & Hx & Ex). exists x. split; [|exact Ex].
          apply (Permutation_in _ (Permutation_sym Hp)). right. exact Hx.
        * exists r. split; [apply (Permutation_in _ (Permutation_sym Hp)); left; reflexivity|apply kcmp_refl].
  Qed.

  Lemma tracks_extend st arr l : tracks st arr -> Forall P l -> tracks (so_extend st l) (arr ++ l).
  Proof.
    intros (Hst & Hs & Hsub & Hkeep) Hl. unfold so_extend.
    assert (Hall : Forall P (st ++ l)) by (apply Forall_app; split; assumption).
    repeat split.
    - apply Forall_forall. intros x Hx. apply sorted_records_sub in Hx. rewrite Forall_forall in Hall. auto.
    - apply sorted_records_strict. exact Hall.
    - intros x Hx. apply sorted_records_sub, in_app_or in Hx as [Hx|Hx]; apply in_or_app; [left; auto|right; exact Hx].
    - intros y Hy. apply in_app_or in Hy as [Hy|Hy].
      + destruct (Hkeep y Hy) as (x & Hx & Ex).
        destruct (sorted_records_keeps _ Hall x (in_or_app _ _ _ (or_introl Hx))) as (x' & Hx' & Ex').
        exists x'. split; [exact Hx'|exact (kcmp_eq_trans _ _ _ Ex' Ex)].
      + apply (sorted_records_keeps _ Hall). apply in_or_app. right. exact Hy.
  Qed.

  Lemma so_run_tracks ops : forall st arr,
    tracks st arr -> Forall P (arrivals ops) -> tracks (fst (so_run st ops)) (arr ++ arrivals ops).
  Proof.
    induction ops as [|[r|l] rest IH]; intros st arr Ht Har; cbn [so_run arrivals flat_map] in *.
    - rewrite app_nil_r. exact Ht.
    - apply Forall_app in Har as [Hr Har].
      pose proof (tracks_insert st arr r Ht (Forall_inv Hr)) as Ht'.
      destruct (so_insert st r) as [st' ok]. specialize (IH st' _ Ht' Har).
      destruct (so_run st' rest) as [fin oks]. rewrite app_assoc. exact IH.
    - apply Forall_app in Har as [Hl Har]. rewrite app_assoc.
      apply IH; [apply tracks_extend; assumption|exact Har].
  Qed.
End WithVariants.

Lemma sorted_records_entry_points vf ops :
  Forall (variant_by_type vf) (arrivals ops) ->
  strict (fst (c12_sorted_ops ops)) /\
  (forall x, In x (fst (c12_sorted_ops ops)) -> In x (arrivals ops)) /\
  (forall y, In y (arrivals ops) -> exists x, In x (fst (c12_sorted_ops ops)) /\ kcmp x y = Eq).
Proof.
  intros H. refine (proj2 (so_run_tracks vf ops [] [] _ H)).
  repeat split; [constructor|constructor|intros x []|intros y []].
Qed.

(* strictly ascending lists with the same members up to Equal are the same up to
   Equal, position by position: the collection is determined by what arrived *)
Lemma strict_determined l1 : forall l2, strict l1 -> strict l2 ->
  (forall x, In x l1 -> exists y, In y l2 /\ kcmp x y = Eq) ->
  (forall y, In y l2 -> exists x, In x l1 /\ kcmp x y = Eq) ->
  Forall2 (fun a b => kcmp a b = Eq) l1 l2.
Proof.
  induction l1 as [|a t1 IH]; intros l2 H1 H2 F G.
  - destruct l2 as [|b t2]; [constructor|]. destruct (G b (or_introl eq_refl)) as (x & [] & _).
  - destruct l2 as [|b t2]; [destruct (F a (or_introl eq_refl)) as (y & [] & _)|].
    inversion H1 as [|? ? Hs1 Ha]; subst. inversion H2 as [|? ? Hs2 Hb]; subst.
    rewrite Forall_forall in Ha, Hb.
    assert (Eab : kcmp a b = Eq).
    { destruct (F a (or_introl eq_refl)) as (y & [<-|Hy] & Ey); [exact Ey|].
      destruct (G b (or_introl eq_refl)) as (x & [<-|Hx] & Ex); [exact Ex|].
      (* b < y = a < x = b *)
      exfalso. pose proof (Hb y Hy) as Hby. pose proof (Ha x Hx) as Hax. unfold klt in *.
      assert (Hba : kcmp b a = Lt).
      { apply (kcmp_lt_le b y a Hby). rewrite kcmp_anti, Ey. discriminate. }
      assert (Hab : kcmp a b = Lt).
      { apply (kcmp_lt_le a x b Hax). rewrite Ex. discriminate. }
      rewrite kcmp_anti, Hab in Hba. discriminate. }
    assert (Eba : kcmp b a = Eq) by (rewrite kcmp_anti, Eab; reflexivity).
    constructor; [exact Eab|]. apply IH; try assumption.
    + (* x in t1 cannot be matched by b: a < x, and a is Equal to b *)
      intros x Hx. destruct (F x (or_intror Hx)) as (y & [<-|Hy] & Ey); [|exists y; split; assumption].
      exfalso. pose proof (Ha x Hx) as Hax. unfold klt in Hax.
      rewrite (kcmp_eq_trans a b x Eab) in Hax by (rewrite kcmp_anti, Ey; reflexivity). discriminate.
    + intros y Hy. destruct (G y (or_intror Hy)) as (x & [<-|Hx] & Ex); [|exists x; split; assumption].
      exfalso. pose proof (Hb y Hy) as Hby. unfold klt in Hby.
      rewrite (kcmp_eq_trans b a y Eba Ex) in Hby. discriminate.
Qed.

(* hence: any interleaving of insert / extend / from_iter / From<Vec> over the same
   arrivals gives sort + dedup of the arrivals, record by record up to Equal *)
Lemma any_interleaving_is_sort_dedup vf ops :
  Forall (variant_by_type vf) (arrivals ops) ->
  Forall2 (fun a b => kcmp a b = Eq) (fst (c12_sorted_ops ops)) (C13.Model.sorted_records (arrivals ops)).
Proof.
  intros H. destruct (sorted_records_entry_points vf ops H) as (S1 & Sub1 & Keep1).
  apply strict_determined.
  - exact S1.
  - exact (sorted_records_strict vf _ H).
  - intros x Hx. destruct (sorted_records_keeps vf _ H x (Sub1 x Hx)) as (y & Hy & Ey).
    exists y. split; [exact Hy|]. rewrite kcmp_anti, Ey. reflexivity.
  - intros y Hy. apply Keep1. apply (sorted_records_sub _ _ Hy).
Qed.

(* the r3 shape: descending inserts into the RRset at the end *)
Example sorted_ops_example :
  let r (o : name) (t : N) (d : bytes) : srec := (o, t, (false, d)) in
  let w := [[119]; [101]] in
  c12_sorted_ops [OInsert (r [[101]] 6 [1]); OInsert (r w 1 [192;0;2;7]); OInsert (r w 1 [192;0;2;1]);
                  OInsert (r [[87]; [69]] 1 [192;0;2;7]); OExtend [r [[97]; [101]] 16 [0]; r w 1 [192;0;2;1]]] =
  ([r [[101]] 6 [1]; r [[97]; [101]] 16 [0]; r w 1 [192;0;2;1]; r w 1 [192;0;2;7]], [true; true; true; false]).
Proof. vm_compute. reflexivity. Qed.

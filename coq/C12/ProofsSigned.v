(* C12 -- the validator's signed_data and the signer's scratch buffer:
   closed forms (this is where the T1 field-order lists are compared with the
   RFC order), RFC 4034 3.1.8.1 conformance, and the resolver-transformation
   theorem. *)
From Coq Require Import NArith List Bool Lia Sorting.Permutation Sorting.Sorted.
From DV Require Import Base.Outcome Base.Bytes Base.Names C17.Model C17.Proofs C12.Gen
  C12.Model C12.Spec C12.ProofsSort.
Import ListNotations.
Local Open Scope N_scope.

(* sd_prefix_order and proto_order (T1) are both this list, the RFC order *)
Lemma sig_prefix_rfc_order s : sig_prefix [1; 2; 3; 4; 5; 6; 7; 8] s = rfc_rrsig_rdata s.
Proof.
  cbv [sig_prefix enc_sig_field cname label_canonical_lowercases rfc_rrsig_rdata].
  cbn [flat_map]. rewrite app_nil_r. reflexivity.
Qed.

Lemma sd_rr_closed ottl owner r :
  enc_rr sd_rr_order ottl owner r =
  owner ++ be16 (r_type r) ++ be16 (r_class r) ++ be32 ottl ++ be16 (len (r_rdata r)) ++ r_rdata r.
Proof.
  cbv [enc_rr sd_rr_order enc_rr_field]. cbn [flat_map].
  rewrite ?app_nil_r, <- ?app_assoc. reflexivity.
Qed.

Lemma record_canonical_closed r :
  record_canonical r =
  wire_abs (canon (r_owner r)) ++ be16 (r_type r) ++ be16 (r_class r) ++ be32 (r_ttl r) ++
  be16 (len (r_rdata r)) ++ r_rdata r.
Proof.
  cbv [record_canonical enc_rr record_canonical_order enc_rr_field cname label_canonical_lowercases].
  cbn [flat_map]. rewrite ?app_nil_r, <- ?app_assoc. reflexivity.
Qed.

Lemma proto_rrsig_closed first k inc exp :
  proto_rrsig first k inc exp =
  mk_sigf (r_type first) (k_alg k) (rrsig_label_count (r_owner first)) (r_ttl first)
          exp inc (k_tag k) (k_owner k).
Proof. reflexivity. Qed.

Lemma nth_suffixes n k : (k <= length n)%nat -> nth_error (suffixes n) k = Some (skipn k n).
Proof.
  revert k; induction n as [|l t IH]; intros k Hk.
  - destruct k; [reflexivity|simpl in Hk; lia].
  - destruct k as [|k]; [reflexivity|]. cbn [suffixes nth_error skipn].
    apply IH. simpl in Hk. lia.
Qed.

Lemma pick_suffix_skipn n k : k <= N.of_nat (length n) -> pick_suffix n k = skipn (N.to_nat k) n.
Proof. intros H. unfold pick_suffix. rewrite nth_suffixes by lia. reflexivity. Qed.

Lemma rightmost_skipn k (n : name) : rightmost k n = skipn (length n - k) n.
Proof. unfold rightmost. rewrite firstn_rev, rev_involutive. reflexivity. Qed.

Lemma pick_suffix_rightmost labels owner : labels <= N.of_nat (length owner) ->
  pick_suffix owner (N.of_nat (length owner) - labels) = rightmost (N.to_nat labels) owner.
Proof. intros H. rewrite pick_suffix_skipn, rightmost_skipn by lia. f_equal. lia. Qed.

Lemma restored_owner_is_rfc labels owner :
  restored_owner labels owner = wire_abs (canon (rfc_name labels owner)).
Proof.
  cbv [restored_owner fqdn_labels sd_root_labels_subtracted wildcard_test sd_wildcard_test_is_lt
       sd_suffix_index_is_fqdn_minus_rrsig sd_wildcard_label cname label_canonical_lowercases rfc_name].
  rewrite N.add_sub.
  destruct (N.ltb_spec labels (N.of_nat (length owner))) as [Hlt|Hge]; [|reflexivity].
  rewrite pick_suffix_rightmost by lia. reflexivity.
Qed.

Lemma signed_data_closed s recs :
  signed_data s recs = rfc_rrsig_rdata s ++ flat_map (rfc_rr s) (sort_rr recs).
Proof.
  unfold signed_data. f_equal; [apply sig_prefix_rfc_order|].
  change (if sd_sorts_ascending_by_canonical_rdata then sort_rr recs else recs) with (sort_rr recs).
  apply flat_map_ext. intros r. rewrite sd_rr_closed, restored_owner_is_rfc. reflexivity.
Qed.

Lemma signed_data_is_rfc4034 s recs : RFC4034_signed_data s recs (signed_data s recs).
Proof.
  exists (sort_rr recs). split; [apply sort_by_perm|]. split; [apply (sort_by_sorted _ r_rdata)|].
  apply signed_data_closed.
Qed.

(* the RFC construction determines the octets as soon as records with equal
   RDATA encode equally (true for an RRset: one owner, class, type) *)
Lemma flat_map_same_keys (f : rr -> bytes) (l1 l2 : list rr) :
  map r_rdata l1 = map r_rdata l2 ->
  (forall a b, In a l1 -> In b l2 -> r_rdata a = r_rdata b -> f a = f b) ->
  flat_map f l1 = flat_map f l2.
Proof.
  revert l2; induction l1 as [|a t1 IH]; intros [|b t2] Hm Hf; cbn [map flat_map] in *;
    try discriminate; [reflexivity|].
  injection Hm as Hab Hm. rewrite (Hf a b) by (simpl; auto).
  f_equal. apply IH; [exact Hm|]. intros x y Hx Hy. apply Hf; simpl; auto.
Qed.

Lemma rfc4034_signed_data_unique s rrset o1 o2 :
  (forall a b, In a rrset -> In b rrset -> r_rdata a = r_rdata b -> rfc_rr s a = rfc_rr s b) ->
  RFC4034_signed_data s rrset o1 -> RFC4034_signed_data s rrset o2 -> o1 = o2.
Proof.
  intros Hf (r1 & Hp1 & Hs1 & ->) (r2 & Hp2 & Hs2 & ->). f_equal.
  apply flat_map_same_keys.
  - apply sorted_perm_eq.
    + apply (sorted_map_key _ r_rdata). exact Hs1.
    + apply (sorted_map_key _ r_rdata). exact Hs2.
    + apply Permutation_map. rewrite Hp1. apply Permutation_sym. exact Hp2.
  - intros a b Ha Hb. apply Hf.
    + eapply Permutation_in; [exact Hp1|exact Ha].
    + eapply Permutation_in; [exact Hp2|exact Hb].
Qed.

(* duplicates: neither the validator nor the signer removes RRs with equal
   RDATA (RFC 4034 6.3 allows treating them as a protocol error); every record
   handed in is encoded *)
Lemma flat_map_length_perm {A} (f : A -> bytes) l1 l2 :
  Permutation l1 l2 -> length (flat_map f l1) = length (flat_map f l2).
Proof.
  induction 1 as [|x l l' _ IH|x y l|l l' l'' _ IH1 _ IH2]; cbn [flat_map]; rewrite ?app_length; lia.
Qed.

Lemma signed_data_keeps_every_record s r recs :
  length (signed_data s (r :: recs)) = (length (signed_data s recs) + length (rfc_rr s r))%nat.
Proof.
  rewrite !signed_data_closed, !app_length. unfold sort_rr.
  rewrite (flat_map_length_perm (rfc_rr s) _ _ (sort_by_perm _ r_rdata (r :: recs))).
  rewrite (flat_map_length_perm (rfc_rr s) _ _ (sort_by_perm _ r_rdata recs)).
  cbn [flat_map]. rewrite app_length. lia.
Qed.

Lemma is_wildcard_spec l : is_wildcard l = true <-> l = star.
Proof.
  unfold is_wildcard, wildcard_label_len, wildcard_label_octet, star.
  destruct l as [|c [|d t]]; cbn [length].
  - split; [intros H; discriminate|discriminate].
  - rewrite andb_true_iff, !N.eqb_eq. split; [intros [_ ->]; reflexivity|intros H; injection H as ->; split; reflexivity].
  - split; [|discriminate]. rewrite andb_true_iff, N.eqb_eq. intros [H _]. lia.
Qed.

Lemma valid_abs_labels (n : name) : valid_abs n -> (2 * length n <= 254)%nat.
Proof.
  intros [Hv Hl]. enough (2 * length n <= wire_len n)%nat by lia. clear Hl.
  induction Hv as [|l t [Hlen _] _ IH]; cbn [length wire_len]; lia.
Qed.

Lemma rrsig_label_count_is_rfc owner : valid_abs owner -> rrsig_label_count owner = rfc_labels owner.
Proof.
  intros Hv. pose proof (valid_abs_labels _ Hv) as Hl.
  destruct owner as [|l rest]; [reflexivity|].
  cbn [rrsig_label_count rfc_labels length] in *. unfold label_count_wildcard_minus.
  destruct (list_eq_dec N.eq_dec l star) as [->|Hne].
  - replace (is_wildcard star) with true by reflexivity.
    rewrite N.mod_small; lia.
  - destruct (is_wildcard l) eqn:E; [apply is_wildcard_spec in E; contradiction|].
    rewrite N.mod_small; lia.
Qed.

Lemma rfc_labels_le owner : rfc_labels owner <= N.of_nat (length owner).
Proof.
  destruct owner as [|l rest]; cbn [rfc_labels length]; [lia|].
  destruct (list_eq_dec N.eq_dec l star); lia.
Qed.

Lemma lower_42 c : lower c = 42 -> c = 42.
Proof. unfold lower. destruct ((65 <=? c) && (c <=? 90)) eqn:E; lia. Qed.

Lemma is_wildcard_lowers l : is_wildcard (lowers l) = is_wildcard l.
Proof.
  destruct (is_wildcard l) eqn:E.
  - apply is_wildcard_spec in E. subst. reflexivity.
  - destruct (is_wildcard (lowers l)) eqn:E2; [|reflexivity].
    apply is_wildcard_spec in E2. destruct l as [|c [|d t]]; try discriminate.
    unfold lowers, star in E2. cbn [map] in E2. injection E2 as E2. apply lower_42 in E2. subst.
    discriminate E.
Qed.

Lemma canon_length (a b : name) : canon a = canon b -> length a = length b.
Proof. intros H. apply (f_equal (@length _)) in H. unfold canon in H. rewrite !map_length in H. exact H. Qed.

Lemma rrsig_label_count_canon a b : canon a = canon b -> rrsig_label_count a = rrsig_label_count b.
Proof.
  intros H. pose proof (canon_length _ _ H) as Hl.
  destruct a as [|la ta]; destruct b as [|lb tb]; try discriminate; [reflexivity|].
  injection H as Hh _. cbn [length] in Hl.
  cbn [rrsig_label_count]. rewrite <- (is_wildcard_lowers la), <- (is_wildcard_lowers lb), Hh.
  destruct (is_wildcard (lowers lb)); f_equal; lia.
Qed.

Lemma label_count_lt (o : name) : rrsig_label_count o < N.of_nat (length o) + 1.
Proof.
  destruct o as [|l rest]; cbn [rrsig_label_count length]; [lia|].
  eapply N.le_lt_trans; [apply N.mod_le; discriminate|].
  unfold label_count_wildcard_minus. destruct (is_wildcard l); lia.
Qed.

(* the debug_assert on the labels field (Panic 3) is gone by label_count_lt *)
Lemma sign_sorted_eq k first rest inc exp :
  sign_sorted k (first :: rest) inc exp =
  if r_type first =? 46 then Err 1
  else do c <- serial_partial_cmp exp inc;
       match c with
       | Some Lt => Err 2
       | _ => let s := mk_sigf (r_type first) (k_alg k) (rrsig_label_count (r_owner first))
                               (r_ttl first) exp inc (k_tag k) (k_owner k) in
              Ok (s, rfc_rrsig_rdata s ++ flat_map record_canonical (first :: rest))
       end.
Proof.
  unfold sign_sorted, signer_refused_rtype, signer_rejects_exp_lt_inc,
    signer_scratch_is_prefix_then_records.
  destruct (r_type first =? 46); [reflexivity|].
  destruct (serial_partial_cmp exp inc) as [c| | |]; cbn [bind]; try reflexivity.
  rewrite proto_rrsig_closed, sig_prefix_rfc_order. cbn [s_labels].
  rewrite (proj2 (N.ltb_lt _ _) (label_count_lt (r_owner first))).
  destruct c as [[| |]|]; reflexivity.
Qed.

Lemma uniform_sort o t c ttl l : uniform o t c ttl l -> uniform o t c ttl (sort_rr l).
Proof. apply sort_by_forall. Qed.

Lemma sort_rr_nil l : sort_rr l = [] -> l = [].
Proof. intros E. apply Permutation_nil. rewrite <- E. apply (sort_by_perm _ r_rdata l). Qed.

Lemma rrset_new_ok l l' : rrset_new l = Ok l' -> l' = l /\ l <> [].
Proof.
  unfold rrset_new, rrset_ttl_exempt_rtype, rrset_new_panics_on_mixed_ttl. destruct l as [|f t]; [discriminate|].
  destruct (r_type f =? 46); [intros H; injection H as <-; split; [reflexivity|discriminate]|].
  destruct (forallb _ _); [|discriminate]. intros H; injection H as <-. split; [reflexivity|discriminate].
Qed.

Lemma rrset_new_uniform o t c ttl l : uniform o t c ttl l -> l <> [] -> rrset_new l = Ok l.
Proof.
  intros Hu Hne. destruct l as [|first rest]; [contradiction|].
  unfold rrset_new. destruct (r_type first =? rrset_ttl_exempt_rtype); [reflexivity|].
  replace (forallb _ _) with true; [reflexivity|].
  symmetry. apply forallb_forall. intros r Hr. apply N.eqb_eq.
  unfold uniform in Hu. rewrite Forall_forall in Hu.
  destruct (Hu r Hr) as (_ & _ & _ & ->). destruct (Hu first (or_introl eq_refl)) as (_ & _ & _ & ->).
  reflexivity.
Qed.

(* the octets the signer signs, for an RRset (one owner, type, class, TTL) *)
Definition rr_octets (o : name) (t c ttl : N) (d : bytes) : bytes :=
  wire_abs (canon o) ++ be16 t ++ be16 c ++ be32 ttl ++ be16 (len d) ++ d.

Lemma sign_rrset_uniform k o t c ttl rrset inc exp :
  uniform o t c ttl rrset -> rrset <> [] ->
  sign_rrset k rrset inc exp =
  if t =? 46 then Err 1
  else do cmp <- serial_partial_cmp exp inc;
       match cmp with
       | Some Lt => Err 2
       | _ => let s := mk_sigf t (k_alg k) (rrsig_label_count o) ttl exp inc (k_tag k) (k_owner k) in
              Ok (s, rfc_rrsig_rdata s ++ flat_map (rr_octets o t c ttl) (map r_rdata (sort_rr rrset)))
       end.
Proof.
  intros Hu Hne. unfold sign_rrset.
  change (if sign_rrset_sorts_ascending_by_canonical_rdata then sort_rr rrset else rrset)
    with (sort_rr rrset).
  pose proof (uniform_sort _ _ _ _ _ Hu) as Hus.
  assert (Hne' : sort_rr rrset <> []) by (intros E; exact (Hne (sort_rr_nil _ E))).
  rewrite (rrset_new_uniform _ _ _ _ _ Hus Hne'). cbn [bind].
  assert (Hrecs : flat_map record_canonical (sort_rr rrset) =
                  flat_map (rr_octets o t c ttl) (map r_rdata (sort_rr rrset))).
  { apply flat_map_via_key. eapply Forall_impl; [|exact Hus]. intros r (Hro & Hrt & Hrc & Hrl).
    rewrite record_canonical_closed, Hro, Hrt, Hrc, Hrl. reflexivity. }
  destruct (sort_rr rrset) as [|first rest]; [contradiction|].
  pose proof (Forall_inv Hus) as (Ho & Hty & _ & Httl).
  rewrite sign_sorted_eq, Hty, Httl, (rrsig_label_count_canon _ _ Ho), Hrecs. reflexivity.
Qed.

Lemma sign_rrset_ok k o t c ttl rrset inc exp s scratch :
  uniform o t c ttl rrset ->
  sign_rrset k rrset inc exp = Ok (s, scratch) ->
  s = mk_sigf t (k_alg k) (rrsig_label_count o) ttl exp inc (k_tag k) (k_owner k) /\
  scratch = rfc_rrsig_rdata s ++ flat_map (rr_octets o t c ttl) (map r_rdata (sort_rr rrset)) /\
  t <> 46 /\ serial_partial_cmp exp inc <> Ok (Some Lt) /\ rrset <> [].
Proof.
  intros Hu. destruct rrset as [|r0 rs]; [discriminate|].
  assert (Hne : r0 :: rs <> []) by discriminate.
  rewrite (sign_rrset_uniform _ _ _ c _ _ _ _ Hu Hne).
  destruct (N.eqb_spec t 46) as [|Ht]; [discriminate|].
  destruct (serial_partial_cmp exp inc) as [[[| |]|]| | |]; cbn [bind]; try discriminate;
    intros H; injection H as <- <-; repeat split; try assumption; discriminate.
Qed.

Lemma lowers_star_inv l : lowers l = lowers star -> lowers l = star.
Proof. intros ->. reflexivity. Qed.

Lemma rfc_name_expansion z x z' : x <> [] -> canon z' = canon z ->
  canon (rfc_name (N.of_nat (length z)) (x ++ z')) = canon (star :: z).
Proof.
  intros Hx Hz. pose proof (canon_length _ _ Hz) as Hlen. unfold rfc_name. rewrite app_length.
  assert (Hxl : (0 < length x)%nat) by (destruct x; [contradiction|simpl; lia]).
  destruct (N.ltb_spec (N.of_nat (length z)) (N.of_nat (length x + length z'))) as [_|Hge]; [|lia].
  rewrite rightmost_skipn, app_length.
  replace (length x + length z' - N.to_nat (N.of_nat (length z)))%nat with (length x) by lia.
  pose proof (drop_app_length x z') as Hd; unfold drop in Hd; rewrite Hd.
  unfold canon in *. cbn [map]. rewrite Hz. reflexivity.
Qed.

Lemma seen_owner_restored o o' :
  owner_seen_as o o' -> canon (rfc_name (rfc_labels o) o') = canon o.
Proof.
  intros [Hc|(z & x & z' & -> & -> & Hx & Hz)].
  - pose proof (canon_length _ _ Hc) as Hlen.
    destruct o as [|l rest]; destruct o' as [|l' rest']; try discriminate; [reflexivity|].
    cbn [rfc_labels]. destruct (list_eq_dec N.eq_dec l star) as [->|Hne].
    + (* same length: the "*" stands for the one label l' *)
      injection Hc as _ Hr. apply (rfc_name_expansion rest [l'] rest'); [discriminate|exact Hr].
    + unfold rfc_name. rewrite Hlen, N.ltb_irrefl. exact Hc.
  - cbn [rfc_labels]. destruct (list_eq_dec N.eq_dec star star) as [_|Hne]; [|contradiction].
    apply rfc_name_expansion; assumption.
Qed.

Lemma validator_rebuilds_signer_input k o t c ttl rrset inc exp s scratch :
  valid_abs o -> uniform o t c ttl rrset ->
  sign_rrset k rrset inc exp = Ok (s, scratch) ->
  forall seen, resolver_view o t c rrset seen -> signed_data s seen = scratch.
Proof.
  intros Hv Hu Hs seen [Hperm Hseen].
  apply (sign_rrset_ok _ _ _ _ _ _ _ _ _ _ Hu) in Hs as (Hsig & Hscr & _ & _ & _).
  rewrite signed_data_closed, Hscr. f_equal.
  rewrite (flat_map_via_key r_rdata (rfc_rr s) (rr_octets o t c ttl)).
  - f_equal. apply Permutation_sym in Hperm. apply (sort_keys_perm r_rdata r_rdata _ _ Hperm).
  - apply sort_by_forall. eapply Forall_impl; [|exact Hseen].
    intros r (Hrt & Hrc & Hro). unfold rfc_rr, rr_octets.
    rewrite Hsig. cbn [s_labels s_ottl]. rewrite (rrsig_label_count_is_rfc _ Hv).
    rewrite (seen_owner_restored _ _ Hro), Hrt, Hrc. reflexivity.
Qed.

(* sign_sorted_rrset_in agrees with sign_rrset on input that is already in
   canonical order (its documented precondition) *)
Lemma sign_sorted_on_sorted k rrset inc exp :
  StronglySorted rdata_le rrset ->
  (do rs <- rrset_new rrset; sign_sorted k rs inc exp) = sign_rrset k rrset inc exp.
Proof.
  intros Hs. unfold sign_rrset.
  change (if sign_rrset_sorts_ascending_by_canonical_rdata then sort_rr rrset else rrset)
    with (sort_rr rrset).
  unfold sort_rr. rewrite (sort_by_sorted_id _ r_rdata rrset Hs). reflexivity.
Qed.

(* the signer never panics on an RRset, and says exactly when it refuses *)
Lemma signer_total k o t c ttl rrset inc exp :
  uniform o t c ttl rrset -> rrset <> [] -> inc < 4294967296 -> exp < 4294967296 ->
  match sign_rrset k rrset inc exp with
  | Ok _ => t <> 46 /\ serial_partial_cmp exp inc <> Ok (Some Lt)
  | Err 1 => t = 46
  | Err 2 => t <> 46 /\ serial_partial_cmp exp inc = Ok (Some Lt)
  | _ => False
  end.
Proof.
  intros Hu Hne Hi He.
  rewrite (sign_rrset_uniform _ _ _ c _ _ _ _ Hu Hne), (cmp_closed_form exp inc He Hi). cbn [bind].
  destruct (N.eqb_spec t 46) as [->|Hne46]; [reflexivity|].
  destruct (classify (wdiff exp inc)) as [[| |]|]; split; try assumption; discriminate || reflexivity.
Qed.

(* the validity period check in RFC 1982 terms (C17): the signer refuses exactly
   when the expiration is serially before the inception; a distance of exactly
   2^31, where RFC 1982 leaves the order undefined, is accepted *)
Lemma signer_period_is_rfc1982 k o t c ttl rrset inc exp :
  uniform o t c ttl rrset -> rrset <> [] -> t <> 46 ->
  inc < 4294967296 -> exp < 4294967296 ->
  (sign_rrset k rrset inc exp = Err 2 <-> rfc_lt exp inc) /\
  ((exists r, sign_rrset k rrset inc exp = Ok r) <-> ~ rfc_lt exp inc).
Proof.
  intros Hu Hne Ht Hi He.
  destruct (cmp_is_rfc1982 exp inc He Hi) as (Hlt & _ & _). rewrite <- Hlt.
  rewrite (sign_rrset_uniform _ _ _ c _ _ _ _ Hu Hne), (cmp_closed_form exp inc He Hi). cbn [bind].
  destruct (N.eqb_spec t 46) as [|_]; [contradiction|].
  destruct (classify (wdiff exp inc)) as [[| |]|]; cbn zeta.
  2:{ split; [split; reflexivity|].
      split; [intros [r E]; discriminate E|intros E; contradiction E; reflexivity]. }
  all: split; [split; intros E; discriminate E|];
       split; [intros _ E; discriminate E|intros _; eexists; reflexivity].
Qed.

Example period_examples :
  let rs := [mk_rr [[97]] 1 1 60 [1;2;3;4]] in
  let k := mk_skey 15 7 [] in
  (exists r, sign_rrset k rs 4294967040 256 = Ok r) /\          (* expiration after the wrap *)
  sign_rrset k rs 256 4294967040 = Err 2 /\
  (exists r, sign_rrset k rs 5 5 = Ok r) /\
  (exists r, sign_rrset k rs 0 2147483648 = Ok r) /\             (* exactly 2^31 apart: undefined order, accepted *)
  (exists r, sign_rrset k rs 0 2147483647 = Ok r) /\
  sign_rrset k rs 0 2147483649 = Err 2 /\
  rrset_new [mk_rr [] 1 1 60 []; mk_rr [] 1 1 61 []] = Panic 2 /\
  rrset_new [mk_rr [] 46 1 60 []; mk_rr [] 46 1 61 []] = Ok [mk_rr [] 46 1 60 []; mk_rr [] 46 1 61 []].
Proof. vm_compute. repeat split; eexists; reflexivity. Qed.

(* non-vacuity: a two-record wildcard RRset, signed, then seen by a resolver
   as an expansion with other case, other order and a decremented TTL *)
Example rebuild_example :
  let o := [star; [101;120]] in
  let rrset := [mk_rr o 1 1 300 [10;0;0;2]; mk_rr o 1 1 300 [10;0;0;1]] in
  let seen := [mk_rr [[87;87;87]; [69;88]] 1 1 17 [10;0;0;1]; mk_rr [[97]; [98]; [101;88]] 1 1 17 [10;0;0;2]] in
  exists s scratch, sign_rrset (mk_skey 15 4711 [[101;120]]) rrset 5 10 = Ok (s, scratch) /\
    s_labels s = 1 /\ signed_data s seen = scratch /\ length scratch = 62%nat.
Proof.
  cbv zeta. eexists; eexists. split; [vm_compute; reflexivity|].
  vm_compute. repeat split; reflexivity.
Qed.

Example rfc_unique_example :
  RFC4034_signed_data (mk_sigf 1 15 1 300 10 5 4711 []) [mk_rr [] 1 1 0 [2]; mk_rr [] 1 1 0 [1]]
    (signed_data (mk_sigf 1 15 1 300 10 5 4711 []) [mk_rr [] 1 1 0 [2]; mk_rr [] 1 1 0 [1]]).
Proof. apply signed_data_is_rfc4034. Qed.

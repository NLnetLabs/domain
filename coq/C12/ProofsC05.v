(* C12 -- link to C05: the canonical RDATA that C12.Model treats as octets is
   `compose_canonical` of a typed value under the record type's schema
   (C05.Schema).  C05 proves that the canonical form only lower-cases the name
   fields flagged by RFC 4034 6.2 (canonical_only_lowercases).  Hence a change
   of ASCII case inside those names - which a resolver may see - does not
   change the signed octets, and the resolver theorem holds for typed records. *)
From Coq Require Import NArith List Sorting.Permutation.
From DV Require C05.Schema C05.ProofsB.
From DV Require Import Base.Outcome Base.Names C12.Model C12.Spec C12.ProofsSigned.
Import ListNotations.
Local Open Scope N_scope.

Record trec := mk_trec {
  t_owner : name; t_type : N; t_class : N; t_ttl : N;
  t_schema : C05.Schema.schema; t_value : C05.Schema.value }.

Definition t_to_rr (x : trec) : rr :=
  mk_rr (t_owner x) (t_type x) (t_class x) (t_ttl x)
        (C05.Schema.compose_canonical (t_schema x) (t_value x)).

(* same record data up to the case of the names that the canonical form folds *)
Definition case_variant (a b : trec) : Prop :=
  t_schema a = t_schema b /\
  C05.Schema.lower_flagged (t_schema a) (t_value a) = C05.Schema.lower_flagged (t_schema b) (t_value b).

Lemma case_variant_same_rdata a b : case_variant a b -> r_rdata (t_to_rr a) = r_rdata (t_to_rr b).
Proof.
  intros [Hs Hv]. unfold t_to_rr. cbn [r_rdata].
  rewrite !C05.ProofsB.canonical_only_lowercases, <- Hs, Hv, Hs. reflexivity.
Qed.

(* what a resolver may hold, at the level of typed records: the signed records
   in any order, each with any case in its folded names, any TTL, the owner in
   any case or any expansion of a wildcard owner *)
Definition typed_resolver_view (o : name) (t c : N) (signed seen : list trec) : Prop :=
  exists p, Permutation signed p /\
    Forall2 (fun a b => case_variant a b /\ t_type b = t /\ t_class b = c /\ owner_seen_as o (t_owner b)) p seen.

Lemma typed_view_is_view o t c signed seen :
  typed_resolver_view o t c signed seen ->
  resolver_view o t c (map t_to_rr signed) (map t_to_rr seen).
Proof.
  intros (p & Hp & Hf). split.
  - rewrite !map_map. rewrite (Permutation_map (fun x => r_rdata (t_to_rr x)) Hp).
    clear Hp. induction Hf as [|a b p' seen' (Hcv & _) _ IH]; cbn [map]; [reflexivity|].
    rewrite (case_variant_same_rdata a b Hcv). constructor. exact IH.
  - clear Hp. induction Hf as [|a b p' seen' (_ & Ht & Hc & Ho) _ IH]; cbn [map]; constructor; [|exact IH].
    unfold t_to_rr. cbn [r_type r_class r_owner]. auto.
Qed.

Lemma typed_validator_rebuilds_signer_input k o t c ttl rrset inc exp s scratch :
  valid_abs o -> uniform o t c ttl (map t_to_rr rrset) ->
  sign_rrset k (map t_to_rr rrset) inc exp = Ok (s, scratch) ->
  forall seen, typed_resolver_view o t c rrset seen -> signed_data s (map t_to_rr seen) = scratch.
Proof.
  intros Hv Hu Hs seen Hview.
  exact (validator_rebuilds_signer_input _ _ _ _ _ _ _ _ _ _ Hv Hu Hs _ (typed_view_is_view _ _ _ _ _ Hview)).
Qed.

(* non-vacuity: an MX exchange in another case *)
Example typed_case_example :
  let mx := C05.Schema.mkS [C05.Schema.U16; C05.Schema.NameC true] None true C05.Schema.PNone in
  let a := mk_trec [[97]] 15 1 60 mx [C05.Schema.VNum 10; C05.Schema.VName [[77; 88]; [101]]] in
  let b := mk_trec [[65]] 15 1 7 mx [C05.Schema.VNum 10; C05.Schema.VName [[109; 120]; [69]]] in
  case_variant a b /\ r_rdata (t_to_rr a) = [0; 10; 2; 109; 120; 1; 101; 0].
Proof. cbv zeta. split; [split; reflexivity|vm_compute; reflexivity]. Qed.

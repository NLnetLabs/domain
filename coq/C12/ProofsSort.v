(* C12 -- the stable sort by an octet-string key: it is a permutation, its
   result is sorted, and two sorted lists whose keys are permutations of each
   other carry the same key sequence (the order on octet strings is total and
   antisymmetric, Base/Lex.v). *)
From Coq Require Import NArith List Sorting.Permutation Sorting.Sorted.
From DV Require Import Base.Bytes Base.Lex C12.Model.
Import ListNotations.
Local Open Scope N_scope.

Definition ble (a b : bytes) : Prop := lex_cmp a b <> Gt.

Lemma ble_refl a : ble a a.
Proof. unfold ble. rewrite lex_cmp_refl. discriminate. Qed.

Lemma ble_antisym a b : ble a b -> ble b a -> a = b.
Proof.
  unfold ble. intros H1 H2. rewrite (lex_cmp_antisym a b) in H2.
  destruct (lex_cmp a b) eqn:E; simpl in H2; try congruence.
  apply lex_cmp_eq. exact E.
Qed.

Lemma ble_trans a b c : ble a b -> ble b c -> ble a c.
Proof.
  unfold ble. intros H1 H2.
  destruct (lex_cmp a b) eqn:E1; try congruence.
  - apply lex_cmp_eq in E1. subst. exact H2.
  - destruct (lex_cmp b c) eqn:E2; try congruence.
    + apply lex_cmp_eq in E2. subst. rewrite E1. discriminate.
    + rewrite (lex_cmp_trans _ _ _ _ E1 E2). discriminate.
Qed.

Lemma ble_total a b : ble a b \/ ble b a.
Proof.
  unfold ble. rewrite (lex_cmp_antisym a b).
  destruct (lex_cmp a b); simpl; [left|left|right]; discriminate.
Qed.

Lemma gt_ble a b : lex_cmp a b = Gt -> ble b a.
Proof. unfold ble. intros H. rewrite (lex_cmp_antisym a b), H. simpl. discriminate. Qed.

Section SortProps.
  Variable A : Type.
  Variable key : A -> bytes.
  Definition kle (a b : A) : Prop := ble (key a) (key b).

  Lemma insert_by_perm x l : Permutation (insert_by key x l) (x :: l).
  Proof.
    induction l as [|y t IH]; cbn [insert_by]; [reflexivity|].
    destruct (lex_cmp (key x) (key y)); try reflexivity.
    rewrite IH. apply perm_swap.
  Qed.

  Lemma sort_by_perm l : Permutation (sort_by key l) l.
  Proof.
    induction l as [|x t IH]; cbn [sort_by fold_right]; [reflexivity|].
    fold (sort_by key t). rewrite insert_by_perm. constructor. exact IH.
  Qed.

  Lemma insert_by_sorted x l : StronglySorted kle l -> StronglySorted kle (insert_by key x l).
  Proof.
    induction l as [|y t IH]; cbn [insert_by]; intros Hs; [repeat constructor|].
    inversion Hs as [|? ? Hst Hall]; subst.
    assert (Keep : kle x y -> StronglySorted kle (x :: y :: t)).
    { intros Hxy. constructor; [exact Hs|]. constructor; [exact Hxy|].
      eapply Forall_impl; [|exact Hall]. intros z. exact (ble_trans _ _ _ Hxy). }
    unfold kle, ble in Keep.
    destruct (lex_cmp (key x) (key y)) eqn:E; [apply Keep; discriminate|apply Keep; discriminate|].
    constructor; [apply IH; exact Hst|].
    eapply Permutation_Forall; [apply Permutation_sym, insert_by_perm|].
    constructor; [|exact Hall]. apply gt_ble. exact E.
  Qed.

  Lemma sort_by_sorted l : StronglySorted kle (sort_by key l).
  Proof.
    induction l as [|x t IH]; cbn [sort_by fold_right]; [constructor|].
    fold (sort_by key t). apply insert_by_sorted. exact IH.
  Qed.

  Lemma sorted_map_key l : StronglySorted kle l -> StronglySorted ble (map key l).
  Proof.
    induction 1 as [|x t Hs IH Hall]; cbn [map]; constructor; [exact IH|].
    apply Forall_map. exact Hall.
  Qed.

  Lemma sort_by_forall (P : A -> Prop) l : Forall P l -> Forall P (sort_by key l).
  Proof. intros H. eapply Permutation_Forall; [apply Permutation_sym, sort_by_perm|exact H]. Qed.

  Lemma insert_by_head x l : Forall (kle x) l -> insert_by key x l = x :: l.
  Proof.
    destruct l as [|y t]; cbn [insert_by]; intros H; [reflexivity|].
    inversion H as [|? ? Hxy _]; subst. unfold kle, ble in Hxy.
    destruct (lex_cmp (key x) (key y)); congruence.
  Qed.

  Lemma sort_by_sorted_id l : StronglySorted kle l -> sort_by key l = l.
  Proof.
    induction 1 as [|x t Hs IH Hall]; cbn [sort_by fold_right]; [reflexivity|].
    fold (sort_by key t). rewrite IH. apply insert_by_head. exact Hall.
  Qed.
End SortProps.
Arguments kle {A} key a b.

Lemma sorted_perm_eq (l1 l2 : list bytes) :
  StronglySorted ble l1 -> StronglySorted ble l2 -> Permutation l1 l2 -> l1 = l2.
Proof.
  revert l2. induction l1 as [|a t1 IH]; intros l2 H1 H2 Hp.
  - apply Permutation_nil in Hp. congruence.
  - destruct l2 as [|b t2]; [apply Permutation_sym, Permutation_nil in Hp; discriminate|].
    inversion H1 as [|? ? Hs1 Ha1]; subst. inversion H2 as [|? ? Hs2 Ha2]; subst.
    assert (Hab : a = b).
    { assert (Hin1 : In a (b :: t2)) by (eapply Permutation_in; [exact Hp|left; reflexivity]).
      assert (Hin2 : In b (a :: t1)) by (eapply Permutation_in; [apply Permutation_sym; exact Hp|left; reflexivity]).
      destruct Hin1 as [->|Hin1]; [reflexivity|].
      destruct Hin2 as [<-|Hin2]; [reflexivity|].
      rewrite Forall_forall in Ha1, Ha2.
      apply ble_antisym; [apply Ha1; exact Hin2|apply Ha2; exact Hin1]. }
    subst b. f_equal. apply IH; auto. eapply Permutation_cons_inv. exact Hp.
Qed.

Lemma sort_keys_perm {A B} (ka : A -> bytes) (kb : B -> bytes) (l1 : list A) (l2 : list B) :
  Permutation (map ka l1) (map kb l2) ->
  map ka (sort_by ka l1) = map kb (sort_by kb l2).
Proof.
  intros Hp. apply sorted_perm_eq.
  - apply sorted_map_key, sort_by_sorted.
  - apply sorted_map_key, sort_by_sorted.
  - rewrite (Permutation_map ka (sort_by_perm _ ka l1)).
    rewrite (Permutation_map kb (sort_by_perm _ kb l2)). exact Hp.
Qed.

Lemma flat_map_via_key {A} (key : A -> bytes) (f : A -> bytes) (g : bytes -> bytes) l :
  Forall (fun r => f r = g (key r)) l -> flat_map f l = flat_map g (map key l).
Proof.
  induction 1 as [|x t Hx Ht IH]; cbn [flat_map map]; [reflexivity|].
  rewrite Hx, IH. reflexivity.
Qed.

Example sort_example :
  sort_by (fun x => x) [[3;1]; [2]; []; [2;0]; [2]] = [[]; [2]; [2]; [2;0]; [3;1]].
Proof. vm_compute. reflexivity. Qed.

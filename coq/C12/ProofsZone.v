(* C12 -- sign_sorted_zone_records: what is signed and what is not
   (RFC 4035 section 2.2 and the function's documented exclusions). *)
From Coq Require Import NArith List Bool Lia ZifyBool Sorting.Sorted.
From DV Require Import Base.Bytes Base.Lex Base.Names C12.Gen C12.ZoneModel.
Import ListNotations.
Local Open Scope N_scope.

Definition group_owner (g : list zrec) : name := match g with (o, _) :: _ => o | [] => [] end.

(* RFC 4035 2.2, per owner name:
   - "An RRSIG RR itself MUST NOT be signed"
   - "The NS RRset at a delegation point MUST NOT be signed" (only DS and NSEC
     are authoritative there)
   - the apex DNSKEY, CDS and CDNSKEY RRsets are left to the caller (sign_rrset) *)
Definition rfc_signed_here (at_cut at_apex : bool) (t : N) : bool :=
  if at_cut then (t =? 43) || (t =? 47)
  else negb (t =? 46) && negb (at_apex && ((t =? 48) || (t =? 59) || (t =? 60))).

Lemma rrset_signed_is_rfc at_cut name apex t :
  rrset_signed at_cut name apex t = rfc_signed_here at_cut (name_eqb name apex) t.
Proof.
  unfold rrset_signed, rfc_signed_here, zs_cut_type_a, zs_cut_type_b, zs_apex_skipped_types, zs_never_signed_type.
  destruct at_cut; [reflexivity|]. cbn [existsb].
  rewrite (N.eqb_sym t 48), (N.eqb_sym t 59), (N.eqb_sym t 60), orb_false_r.
  destruct (name_eqb name apex); destruct (48 =? t); destruct (59 =? t); destruct (60 =? t);
    cbn [orb andb negb]; try reflexivity; destruct (t =? 46); reflexivity.
Qed.

Lemma rfc_signed_here_true at_cut at_apex t :
  rfc_signed_here at_cut at_apex t = true ->
  t <> 46 /\ (at_cut = true -> t = 43 \/ t = 47) /\ (at_apex = true -> t <> 48 /\ t <> 59 /\ t <> 60).
Proof. unfold rfc_signed_here. destruct at_cut, at_apex; cbn [andb negb]; lia. Qed.

Lemma some_flag {A} (b : bool) (x : A) :
  match (if b then Some x else None) with Some _ => true | None => false end = b.
Proof. destruct b; reflexivity. Qed.

Lemma in_repeat {A} (x y : A) k : In x (repeat y k) -> x = y.
Proof. induction k; cbn [repeat]; [intros []|intros [->|H]; auto]. Qed.

Lemma type_runs_concat g : concat (type_runs g) = g.
Proof.
  induction g as [|[o t] rest IH]; [reflexivity|]. cbn [type_runs].
  destruct (type_runs rest) as [|[|[o' t'] r] rs]; cbn [concat app] in *; [rewrite <- IH; reflexivity..|].
  destruct (t' =? t); cbn [concat app]; rewrite <- IH; reflexivity.
Qed.

Lemma select_sound at_cut name apex k g o t :
  In (o, t) (select_rrsets at_cut name apex k g) ->
  In (o, t) g /\ rrset_signed at_cut name apex t = true.
Proof.
  unfold select_rrsets. rewrite in_flat_map. intros (run & Hrun & Hin).
  destruct run as [|[o' t'] r]; [destruct Hin|].
  destruct (rrset_signed at_cut name apex t') eqn:E; [|destruct Hin].
  apply in_repeat in Hin. injection Hin as -> ->. split; [|exact E].
  rewrite <- (type_runs_concat g). apply in_concat. exists ((o', t') :: r). split; [exact Hrun|left; reflexivity].
Qed.

Lemma type_runs_complete g t : In t (map snd g) -> exists o r, In ((o, t) :: r) (type_runs g).
Proof.
  induction g as [|[o1 t1] rest IH]; cbn [map type_runs]; [intros []|].
  intros [Ht|Ht].
  - cbn [snd] in Ht. subst t1. destruct (type_runs rest) as [|[|[o' t'] r'] rs].
    + exists o1, []. left; reflexivity.
    + exists o1, []. left; reflexivity.
    + destruct (t' =? t); [exists o1, ((o', t') :: r')|exists o1, []]; left; reflexivity.
  - destruct (IH Ht) as (o & r & Hin). destruct (type_runs rest) as [|[|[o' t'] r'] rs] eqn:E; [destruct Hin| |].
    + exists o, r. right. exact Hin.
    + destruct (N.eqb_spec t' t1) as [->|Hne].
      * destruct Hin as [Hh|Hin]; [|exists o, r; right; exact Hin].
        injection Hh as -> -> ->. exists o1, ((o, t) :: r). left; reflexivity.
      * exists o, r. right. exact Hin.
Qed.

Lemma select_complete at_cut name apex k g t :
  In t (map snd g) -> rrset_signed at_cut name apex t = true -> (0 < k)%nat ->
  exists o, In (o, t) (select_rrsets at_cut name apex k g).
Proof.
  intros Ht Hs Hk. destruct (type_runs_complete g t Ht) as (o & r & Hin).
  exists o. unfold select_rrsets. apply in_flat_map. exists ((o, t) :: r). split; [exact Hin|].
  rewrite Hs. destruct k; [lia|]. left; reflexivity.
Qed.

Lemma sign_groups_step apex k cut g rest :
  g <> [] -> ends_with (group_owner g) apex = true ->
  sign_groups apex k cut (g :: rest) =
  if match cut with Some c => ends_with (group_owner g) c | None => false end
  then sign_groups apex k cut rest
  else select_rrsets (is_zone_cut apex g) (group_owner g) apex k g ++
       sign_groups apex k (if is_zone_cut apex g then Some (group_owner g) else None) rest.
Proof.
  intros Hne Hz. destruct g as [|[o t] g']; [contradiction|]. cbn [group_owner] in *.
  cbn [sign_groups]. rewrite Hz, some_flag. reflexivity.
Qed.

Lemma sign_groups_sound apex k gs : forall cut o t,
  In (o, t) (sign_groups apex k cut gs) ->
  exists g, In g gs /\ In (o, t) g /\ ends_with (group_owner g) apex = true /\
            rfc_signed_here (is_zone_cut apex g) (name_eqb (group_owner g) apex) t = true.
Proof.
  induction gs as [|g rest IH]; intros cut o t Hin; cbn [sign_groups] in Hin; [destruct Hin|].
  destruct g as [|[o1 t1] g'].
  - destruct (IH _ _ _ Hin) as (g & Hg & H). exists g. split; [right; exact Hg|exact H].
  - destruct (ends_with o1 apex) eqn:Ez; cbn [negb] in Hin.
    + destruct (match cut with Some c => ends_with o1 c | None => false end).
      * destruct (IH _ _ _ Hin) as (g & Hg & H). exists g. split; [right; exact Hg|exact H].
      * apply in_app_or in Hin as [Hin|Hin].
        -- apply select_sound in Hin as [Hg Hs]. exists ((o1, t1) :: g').
           split; [left; reflexivity|]. split; [exact Hg|]. split; [exact Ez|].
           rewrite rrset_signed_is_rfc in Hs. cbn [group_owner]. rewrite some_flag in Hs. exact Hs.
        -- destruct (IH _ _ _ Hin) as (g & Hg & H). exists g. split; [right; exact Hg|exact H].
    + unfold zs_out_of_zone_stops in Hin. destruct Hin.
Qed.

Lemma zone_signed_sound apex k recs o t :
  In (o, t) (sign_zone apex k recs) ->
  t <> 46 /\
  exists g, In g (owner_groups (skip_before apex recs)) /\ In (o, t) g /\
            ends_with (group_owner g) apex = true /\
            (is_zone_cut apex g = true -> t = 43 \/ t = 47) /\
            (name_eqb (group_owner g) apex = true -> t <> 48 /\ t <> 59 /\ t <> 60).
Proof.
  intros Hin. apply sign_groups_sound in Hin as (g & Hg & Hog & Hz & Hr).
  apply rfc_signed_here_true in Hr as (H46 & Hcut & Hapex).
  split; [exact H46|]. exists g. exact (conj Hg (conj Hog (conj Hz (conj Hcut Hapex)))).
Qed.

(* a delegation: at the cut only what the rule for cuts allows, and nothing of
   the owner groups below it (glue, occluded data, nested delegations), whatever
   they contain *)
Lemma below_cut_skipped apex k c mid rest :
  Forall (fun g => g <> [] /\ ends_with (group_owner g) apex = true /\ ends_with (group_owner g) c = true) mid ->
  sign_groups apex k (Some c) (mid ++ rest) = sign_groups apex k (Some c) rest.
Proof.
  induction 1 as [|g mid (Hne & Hz & Hc) _ IH]; [reflexivity|].
  cbn [app]. rewrite (sign_groups_step _ _ _ _ _ Hne Hz), Hc. exact IH.
Qed.

Lemma delegation_signed apex k cut o t g' mid rest :
  ends_with o apex = true ->
  match cut with Some c => ends_with o c | None => false end = false ->
  is_zone_cut apex ((o, t) :: g') = true ->
  Forall (fun g => g <> [] /\ ends_with (group_owner g) apex = true /\ ends_with (group_owner g) o = true) mid ->
  sign_groups apex k cut (((o, t) :: g') :: mid ++ rest) =
  select_rrsets true o apex k ((o, t) :: g') ++ sign_groups apex k (Some o) rest.
Proof.
  intros Hz Hc Hcut Hmid. cbn [sign_groups]. rewrite Hz, Hc, Hcut. cbn [negb].
  f_equal. apply below_cut_skipped. exact Hmid.
Qed.

(* an authoritative owner group: every RRset the RFC rule admits gets one RRSIG
   per key *)
Lemma authoritative_group_signed apex k cut g rest t :
  g <> [] -> ends_with (group_owner g) apex = true ->
  match cut with Some c => ends_with (group_owner g) c | None => false end = false ->
  In t (map snd g) ->
  rfc_signed_here (is_zone_cut apex g) (name_eqb (group_owner g) apex) t = true -> (0 < k)%nat ->
  exists o, In (o, t) (sign_groups apex k cut (g :: rest)).
Proof.
  intros Hne Hz Hc Ht Hr Hk. rewrite (sign_groups_step _ _ _ _ _ Hne Hz), Hc.
  destruct (select_complete (is_zone_cut apex g) (group_owner g) apex k g t Ht) as (o & Hin);
    [rewrite rrset_signed_is_rfc; exact Hr|exact Hk|].
  exists o. apply in_or_app. left. exact Hin.
Qed.

(* Canonical name order keeps a subtree together.
   RFC 4034 6.1 sorts names by their labels from the right; the names at or below
   a name c then form an interval: whatever sorts between two of them is one of
   them.  This is what makes the single `cut` variable of the signer sufficient,
   and it discharges the hypothesis about `mid` in delegation_signed for
   canonically sorted input. *)
(* folded to lower case, a label between two labels that fold to l folds to l *)
Lemma rprefix_convex p : forall a x b,
  rprefix p a = true -> rprefix p b = true ->
  labels_cmp a x <> Gt -> labels_cmp x b <> Gt -> rprefix p x = true.
Proof.
  induction p as [|l p' IH]; intros a x b Ha Hb Hax Hxb; [reflexivity|].
  destruct a as [|la a']; [discriminate|]. destruct b as [|lb b']; [discriminate|].
  cbn [rprefix] in Ha, Hb. apply andb_true_iff in Ha as [Hla Ha]. apply andb_true_iff in Hb as [Hlb Hb].
  destruct x as [|lx x']; [cbn [labels_cmp] in Hax; congruence|].
  cbn [labels_cmp] in Hax, Hxb. unfold label_cmp in Hax, Hxb.
  apply label_eqb_spec in Hla, Hlb. rewrite Hla in Hax. rewrite Hlb in Hxb.
  assert (E : lowers lx = lowers l).
  { apply lex_cmp_eq. rewrite (lex_cmp_antisym (lowers lx) (lowers l)) in Hax.
    destruct (lex_cmp (lowers lx) (lowers l));
      [reflexivity|exfalso; apply Hax; reflexivity|exfalso; apply Hxb; reflexivity]. }
  rewrite E, lex_cmp_refl in Hax, Hxb.
  cbn [rprefix]. apply andb_true_iff. split; [apply label_eqb_spec; exact E|exact (IH a' x' b' Ha Hb Hax Hxb)].
Qed.

Lemma subtree_is_contiguous c a x b :
  ends_with a c = true -> ends_with b c = true ->
  name_cmp a x <> Gt -> name_cmp x b <> Gt -> ends_with x c = true.
Proof. unfold ends_with, name_cmp. apply rprefix_convex. Qed.

(* The signer's single `cut` variable against a stateless reading of RFC 4035 2.2:
   an owner group is left alone when some EARLIER owner group is a delegation
   (not the apex, holds NS) and the group's owner is at or below that name;
   otherwise its RRsets are selected by the per-owner rule.  On input sorted in
   canonical name order the two agree. *)
Definition below_earlier_cut (apex : name) (seen : list (list zrec)) (g : list zrec) : bool :=
  existsb (fun c => is_zone_cut apex c && ends_with (group_owner g) (group_owner c)) seen.

Fixpoint spec_groups (apex : name) (k : nat) (seen gs : list (list zrec)) : list zrec :=
  match gs with
  | [] => []
  | g :: rest =>
      (if below_earlier_cut apex seen g then []
       else select_rrsets (is_zone_cut apex g) (group_owner g) apex k g)
      ++ spec_groups apex k (seen ++ [g]) rest
  end.

Lemma rprefix_refl p : rprefix p p = true.
Proof.
  induction p as [|l p IH]; [reflexivity|]. cbn [rprefix]. rewrite IH, andb_true_r.
  apply label_eqb_spec. reflexivity.
Qed.

Lemma rprefix_trans a : forall b c, rprefix a b = true -> rprefix b c = true -> rprefix a c = true.
Proof.
  induction a as [|x a IH]; intros b c Hab Hbc; [reflexivity|].
  destruct b as [|y b]; [discriminate|]. destruct c as [|z c]; [discriminate|].
  cbn [rprefix] in *. apply andb_true_iff in Hab as [H1 Hab]. apply andb_true_iff in Hbc as [H2 Hbc].
  apply andb_true_iff. split; [|exact (IH _ _ Hab Hbc)].
  apply label_eqb_spec. apply label_eqb_spec in H1, H2. congruence.
Qed.

Lemma ends_with_refl a : ends_with a a = true.
Proof. apply rprefix_refl. Qed.
Lemma ends_with_trans a b c : ends_with a b = true -> ends_with b c = true -> ends_with a c = true.
Proof. unfold ends_with. intros H1 H2. exact (rprefix_trans _ _ _ H2 H1). Qed.

Definition nle (a b : name) : Prop := name_cmp a b <> Gt.

Lemma below_earlier_cut_snoc apex seen g h :
  below_earlier_cut apex (seen ++ [g]) h =
  below_earlier_cut apex seen h || (is_zone_cut apex g && ends_with (group_owner h) (group_owner g)).
Proof. unfold below_earlier_cut. rewrite existsb_app. cbn [existsb]. rewrite orb_false_r. reflexivity. Qed.

Lemma sign_groups_is_spec apex k gs : forall cut seen,
  Forall (fun g => g <> [] /\ ends_with (group_owner g) apex = true) gs ->
  StronglySorted nle (map group_owner gs) ->
  (forall c, cut = Some c -> Forall (nle c) (map group_owner gs)) ->
  (forall h, In h gs -> below_earlier_cut apex seen h =
                        match cut with Some c => ends_with (group_owner h) c | None => false end) ->
  sign_groups apex k cut gs = spec_groups apex k seen gs.
Proof.
  induction gs as [|g rest IH]; intros cut seen Hz Hs Hc Hinv; [reflexivity|].
  inversion Hz as [|? ? [Hne Hgz] Hz']; subst. cbn [map] in *.
  inversion Hs as [|? ? Hs' Hafter]; subst.
  rewrite (sign_groups_step _ _ _ _ _ Hne Hgz). cbn [spec_groups].
  rewrite (Hinv _ (or_introl eq_refl)). set (o := group_owner g) in *.
  destruct (match cut with Some c => ends_with o c | None => false end) eqn:Eb.
  - (* below the current cut *)
    cbn [app]. apply IH; try assumption.
    + intros c Hcc. exact (Forall_inv_tail (Hc c Hcc)).
    + intros h Hh. rewrite below_earlier_cut_snoc, (Hinv h (or_intror Hh)). fold o.
      destruct cut as [c|]; [|discriminate].
      destruct (ends_with (group_owner h) c) eqn:E; [reflexivity|]. cbn [orb].
      destruct (ends_with (group_owner h) o) eqn:E2; [|apply andb_false_r].
      rewrite (ends_with_trans _ _ _ E2 Eb) in E. discriminate.
  - (* not below a cut: this group is judged, and decides the new cut *)
    f_equal. apply IH; try assumption.
    + intros c Hcc. destruct (is_zone_cut apex g); [|discriminate]. injection Hcc as <-. exact Hafter.
    + intros h Hh. rewrite below_earlier_cut_snoc, (Hinv h (or_intror Hh)). fold o.
      assert (Hoh : nle o (group_owner h)).
      { rewrite Forall_forall in Hafter. apply Hafter, in_map, Hh. }
      destruct cut as [c|]; [|destruct (is_zone_cut apex g); reflexivity].
      (* c <= o <= h, and o is not below c: neither is h *)
      destruct (ends_with (group_owner h) c) eqn:E.
      * rewrite (subtree_is_contiguous c c o _ (ends_with_refl c) E (Forall_inv (Hc c eq_refl)) Hoh) in Eb.
        discriminate.
      * destruct (is_zone_cut apex g); reflexivity.
Qed.

Lemma zone_selection_is_rfc4035 apex k gs :
  Forall (fun g => g <> [] /\ ends_with (group_owner g) apex = true) gs ->
  StronglySorted nle (map group_owner gs) ->
  sign_groups apex k None gs = spec_groups apex k [] gs.
Proof.
  intros Hz Hs. apply sign_groups_is_spec; try assumption.
  - intros c Hc. discriminate.
  - intros h _. reflexivity.
Qed.

Example zone_example :
  let apex := [[101;120]] in
  let n l := l ++ apex in
  sign_zone apex 1
    [([[122]], 1); (apex, 2); (apex, 6); (apex, 46); (apex, 48);
     (n [[97]], 1); (n [[97]], 1); (n [[97]], 16); (n [[97]], 46);
     (n [[115]], 2); (n [[115]], 43); (n [[115]], 47);
     (n [[103]; [115]], 1); (n [[110]; [115]], 2); (n [[120]; [110]; [115]], 1);
     (n [[116]], 28); ([[111]; [114]; [103]], 1); (n [[117]], 1)] =
  [(apex, 2); (apex, 6); (n [[97]], 1); (n [[97]], 16); (n [[115]], 43); (n [[115]], 47); (n [[116]], 28)].
Proof. vm_compute. reflexivity. Qed.

Example zone_spec_example :
  let apex := [[101;120]] in
  let n l := l ++ apex in
  let gs := owner_groups [(apex, 2); (apex, 6); (n [[97]], 1); (n [[115]], 2); (n [[115]], 43);
                          (n [[103]; [115]], 1); (n [[110]; [115]], 2); (n [[116]], 28)] in
  spec_groups apex 1 [] gs = sign_groups apex 1 None gs /\
  spec_groups apex 1 [] gs = [(apex, 2); (apex, 6); (n [[97]], 1); (n [[115]], 43); (n [[116]], 28)].
Proof. vm_compute. split; reflexivity. Qed.

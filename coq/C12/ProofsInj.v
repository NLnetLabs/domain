(* C12 -- the signed octets determine every covered field (the encoding is
   injective: fixed-width header, self-delimiting names, length-prefixed
   RDATA).  Contrapositive: altering any covered field changes the octets. *)
From Coq Require Import NArith List Lia Sorting.Permutation.
From DV Require Import Base.Bytes Base.Names C12.Model C12.Spec C12.ProofsSort C12.ProofsSigned.
Import ListNotations.
Local Open Scope N_scope.

(* be16 and be32 list the base-256 digits of n, the last quotient in front *)
Lemma div_mod_inj a b d : d <> 0 -> a / d = b / d -> a mod d = b mod d -> a = b.
Proof. intros Hd Hq Hr. rewrite (N.div_mod a d Hd), (N.div_mod b d Hd), Hq, Hr. reflexivity. Qed.

Lemma be16_app_inj a b (x y : bytes) : be16 a ++ x = be16 b ++ y -> a = b /\ x = y.
Proof.
  unfold be16. cbn [app]. intros H. injection H as H1 H2 H3.
  split; [exact (div_mod_inj a b 256 ltac:(discriminate) H1 H2)|exact H3].
Qed.

Lemma one_app_inj (a b : N) (x y : bytes) : [a] ++ x = [b] ++ y -> a = b /\ x = y.
Proof. cbn [app]. intros H. injection H as H1 H2. split; assumption. Qed.

Lemma be32_app_inj a b (x y : bytes) : be32 a ++ x = be32 b ++ y -> a = b /\ x = y.
Proof.
  unfold be32. cbn [app].
  change 65536 with (256 * 256). change 16777216 with (256 * 256 * 256).
  rewrite <- !N.div_div by discriminate.
  intros H. injection H as H1 H2 H3 H4 H5. split; [|exact H5].
  apply (div_mod_inj a b 256); [discriminate| |exact H4].
  apply (div_mod_inj _ _ 256); [discriminate| |exact H3].
  apply (div_mod_inj _ _ 256); [discriminate|exact H1|exact H2].
Qed.

Lemma app_same_length_inj {A} (a b x y : list A) :
  length a = length b -> a ++ x = b ++ y -> a = b /\ x = y.
Proof.
  revert b; induction a as [|h t IH]; intros [|h' t'] Hl H; cbn [length app] in *; try discriminate.
  - split; [reflexivity|exact H].
  - injection H as -> H. injection Hl as Hl. destruct (IH _ Hl H) as [-> ->]. split; reflexivity.
Qed.

Lemma name_app_inj n1 n2 (x y : bytes) :
  valid_abs n1 -> valid_abs n2 -> wire_abs n1 ++ x = wire_abs n2 ++ y -> n1 = n2 /\ x = y.
Proof.
  intros H1 H2 H.
  pose proof (decode_wire_abs n1 x H1) as D1. pose proof (decode_wire_abs n2 y H2) as D2.
  rewrite H in D1. rewrite D1 in D2. injection D2 as -> ->. split; reflexivity.
Qed.

Lemma valid_label_lowers l : valid_label l -> valid_label (lowers l).
Proof.
  intros [Hl Hb]. split; [rewrite lowers_length; exact Hl|].
  unfold wf_bytes, lowers in *. apply Forall_map. eapply Forall_impl; [|exact Hb].
  intros b. apply lower_byte.
Qed.

Lemma valid_abs_canon n : valid_abs n -> valid_abs (canon n).
Proof.
  intros [Hv Hl]. split; [|rewrite canon_wire_len; exact Hl].
  unfold canon. apply Forall_map. eapply Forall_impl; [|exact Hv]. apply valid_label_lowers.
Qed.

Lemma wire_len_skipn j (n : name) :
  Forall valid_label n -> (1 <= j <= length n)%nat -> (wire_len (skipn j n) + 2 <= wire_len n)%nat.
Proof.
  revert j; induction n as [|l t IH]; intros j Hv Hj; cbn [length] in Hj; [lia|].
  inversion Hv as [|? ? [Hl _] Hv']; subst.
  destruct j as [|j]; [lia|]. cbn [skipn wire_len].
  destruct j as [|j]; [cbn [skipn]; lia|].
  specialize (IH (S j) Hv' ltac:(lia)). lia.
Qed.

Lemma valid_label_star : valid_label star.
Proof. split; [simpl; lia|]. repeat constructor. Qed.

Lemma valid_abs_rfc_name labels n : valid_abs n -> valid_abs (rfc_name labels n).
Proof.
  intros [Hv Hl]. unfold rfc_name.
  destruct (N.ltb_spec labels (N.of_nat (length n))) as [Hlt|Hge]; [|split; assumption].
  rewrite rightmost_skipn. set (j := (length n - N.to_nat labels)%nat).
  assert (Hj : (1 <= j <= length n)%nat) by (unfold j; lia).
  split.
  - constructor; [apply valid_label_star|].
    rewrite <- (firstn_skipn j n) in Hv. apply Forall_app in Hv as [_ Hv]. exact Hv.
  - pose proof (wire_len_skipn j n Hv Hj). cbn [wire_len star length]. lia.
Qed.

Definition rr_key (labels : N) (r : rr) := (canon (rfc_name labels (r_owner r)), r_type r, r_class r, r_rdata r).

Lemma rfc_rr_inj s1 s2 r1 r2 (x y : bytes) :
  wf_rr r1 -> wf_rr r2 ->
  rfc_rr s1 r1 ++ x = rfc_rr s2 r2 ++ y ->
  rr_key (s_labels s1) r1 = rr_key (s_labels s2) r2 /\ s_ottl s1 = s_ottl s2 /\ x = y.
Proof.
  intros (Ho1 & _ & _ & _ & _ & Hl1) (Ho2 & _ & _ & _ & _ & Hl2) H.
  unfold rfc_rr in H. rewrite <- !app_assoc in H.
  apply name_app_inj in H as [Hn H];
    [|apply valid_abs_canon, valid_abs_rfc_name; assumption|apply valid_abs_canon, valid_abs_rfc_name; assumption].
  apply be16_app_inj in H as [Ht H]. apply be16_app_inj in H as [Hc H].
  apply be32_app_inj in H as [Httl H]. apply be16_app_inj in H as [Hlen H].
  apply app_same_length_inj in H as [Hd Hx]; [|unfold len in Hlen; lia].
  unfold rr_key. rewrite Hn, Ht, Hc, Hd. repeat split; assumption.
Qed.

Lemma rfc_rr_nonempty s r (x : bytes) : rfc_rr s r ++ x <> [].
Proof.
  unfold rfc_rr, wire_abs. rewrite <- !app_assoc.
  destruct (wire_rel (canon (rfc_name (s_labels s) (r_owner r)))); discriminate.
Qed.

Lemma rfc_rrs_inj s1 s2 l1 : forall l2,
  Forall wf_rr l1 -> Forall wf_rr l2 ->
  flat_map (rfc_rr s1) l1 = flat_map (rfc_rr s2) l2 ->
  map (rr_key (s_labels s1)) l1 = map (rr_key (s_labels s2)) l2.
Proof.
  induction l1 as [|a t1 IH]; intros [|b t2] H1 H2 H; cbn [flat_map map] in *.
  - reflexivity.
  - symmetry in H. apply rfc_rr_nonempty in H. contradiction.
  - apply rfc_rr_nonempty in H. contradiction.
  - inversion H1; subst. inversion H2; subst.
    apply rfc_rr_inj in H as (Hk & _ & H); try assumption.
    rewrite Hk. f_equal. apply IH; assumption.
Qed.

Lemma signed_data_injective s1 s2 recs1 recs2 :
  wf_sig s1 -> wf_sig s2 -> Forall wf_rr recs1 -> Forall wf_rr recs2 ->
  signed_data s1 recs1 = signed_data s2 recs2 -> covered s1 recs1 = covered s2 recs2.
Proof.
  intros (_ & _ & _ & _ & _ & _ & _ & Hn1) (_ & _ & _ & _ & _ & _ & _ & Hn2) Hr1 Hr2 H.
  rewrite !signed_data_closed in H. unfold rfc_rrsig_rdata in H. rewrite <- !app_assoc in H.
  apply be16_app_inj in H as [Htc H].
  apply one_app_inj in H as [Halg H]. apply one_app_inj in H as [Hlab H].
  apply be32_app_inj in H as [Hottl H]. apply be32_app_inj in H as [Hexp H].
  apply be32_app_inj in H as [Hinc H]. apply be16_app_inj in H as [Hkt H].
  apply name_app_inj in H as [Hsn H]; [|apply valid_abs_canon; assumption|apply valid_abs_canon; assumption].
  apply rfc_rrs_inj in H; [|apply sort_by_forall; assumption|apply sort_by_forall; assumption].
  unfold covered. unfold rr_key in H. rewrite Htc, Halg, Hlab, Hottl, Hexp, Hinc, Hkt, Hsn.
  rewrite Hlab in H. rewrite H. reflexivity.
Qed.

Lemma covered_fields s1 s2 recs1 recs2 :
  covered s1 recs1 = covered s2 recs2 ->
  s_tc s1 = s_tc s2 /\ s_alg s1 = s_alg s2 /\ s_labels s1 = s_labels s2 /\ s_ottl s1 = s_ottl s2 /\
  s_exp s1 = s_exp s2 /\ s_inc s1 = s_inc s2 /\ s_kt s1 = s_kt s2 /\
  canon (s_signer s1) = canon (s_signer s2) /\
  Permutation (map r_rdata recs1) (map r_rdata recs2) /\
  length recs1 = length recs2.
Proof.
  unfold covered. intros H. injection H as H1 H2 H3 H4 H5 H6 H7 H8 H9.
  assert (P : Permutation (map r_rdata recs1) (map r_rdata recs2)).
  { apply (f_equal (map (fun p : name * N * N * bytes => snd p))) in H9.
    rewrite !map_map in H9.
    change (map r_rdata (sort_by r_rdata recs1) = map r_rdata (sort_by r_rdata recs2)) in H9.
    rewrite <- (Permutation_map r_rdata (sort_by_perm _ r_rdata recs1)),
            <- (Permutation_map r_rdata (sort_by_perm _ r_rdata recs2)), H9.
    reflexivity. }
  repeat split; try assumption.
  apply Permutation_length in P. rewrite !map_length in P. exact P.
Qed.

Lemma covered_record s1 s2 recs1 recs2 r1 :
  covered s1 recs1 = covered s2 recs2 -> In r1 recs1 ->
  exists r2, In r2 recs2 /\ rr_key (s_labels s1) r1 = rr_key (s_labels s2) r2.
Proof.
  unfold covered. intros H Hr1. injection H as _ _ _ _ _ _ _ _ H9.
  assert (Hin : In (rr_key (s_labels s1) r1) (map (rr_key (s_labels s1)) (sort_rr recs1))).
  { apply in_map, (Permutation_in _ (Permutation_sym (sort_by_perm _ r_rdata recs1))), Hr1. }
  unfold rr_key in Hin at 2. rewrite H9 in Hin. apply in_map_iff in Hin as (r2 & E & Hr2).
  exists r2. split; [exact (Permutation_in _ (sort_by_perm _ r_rdata recs2) Hr2)|symmetry; exact E].
Qed.

Example alteration_example :
  let s := mk_sigf 1 15 2 300 10 5 4711 [[101;120]] in
  let r := mk_rr [[119]; [101;120]] 1 1 300 [10;0;0;1] in
  signed_data s [r] <> signed_data s [mk_rr [[119]; [101;120]] 1 1 300 [10;0;0;2]] /\
  signed_data s [r] <> signed_data (mk_sigf 1 15 2 301 10 5 4711 [[101;120]]) [r] /\
  signed_data s [r] = signed_data s [mk_rr [[87]; [69;88]] 1 1 7 [10;0;0;1]].
Proof. vm_compute. repeat split; discriminate. Qed.

(* C18 proofs: the text entry points of one type agree (Nsec3Salt::scan vs
   from_str, OwnerHash::scan vs from_str), and no character above U+007F - in
   particular none whose low octet is an alphabet character - is accepted by
   any char-taking entry point. *)
From Coq Require Import NArith List Bool Lia.
Import ListNotations.
From DV Require Import Base.Outcome C18.Gen C18.Model C18.Proofs C18.ProofsEnc C18.ProofsSpec
  C18.ProofsDec64 C18.ProofsDec32 C18.ProofsApi C18.ProofsConv C18.ProofsUsers C18.ProofsCap.
Local Open Scope N_scope.

Definition has_high (s : list N) : Prop := Exists (fun c => 127 < c) s.

Lemma not_ok_is_err (o : outcome (list N)) (sp : option (list N)) :
  match sp with Some bs => o = Ok bs | None => exists e, o = Err e end ->
  (forall bs, o <> Ok bs) -> exists e, o = Err e.
Proof. destruct sp as [bs|]; [intros -> H; exfalso; exact (H bs eq_refl)|auto]. Qed.

Theorem decode_rejects_above_ascii s : has_high s ->
  (exists e, b64_decode s = Err e) /\ (exists e, b32_decode s = Err e) /\ (exists e, b16_decode s = Err e).
Proof.
  intros H. repeat split.
  - apply (not_ok_is_err _ _ (b64_decode_spec s)). intros bs E.
    destruct (b64_accepts_only_alphabet s bs E) as [_ F]. rewrite Forall_forall in F.
    apply Exists_exists in H. destruct H as (c & I & G). destruct (F c I) as [->|V]; [lia|].
    apply V, val64_none_high, G.
  - apply (not_ok_is_err _ _ (b32_decode_spec s)). intros bs E.
    pose proof (b32_accepts_only_alphabet s bs E) as F. rewrite Forall_forall in F.
    apply Exists_exists in H. destruct H as (c & I & G). apply (F c I), val32_none_high, G.
  - apply (not_ok_is_err _ _ (b16_decode_spec s)). intros bs E.
    destruct (b16_accepts_only_alphabet s bs E) as [F _]. rewrite Forall_forall in F.
    apply Exists_exists in H. destruct H as (c & I & G). apply (F c I), val16_none_high, G.
Qed.

(* the per-push API reports the character itself (the full code point) *)
Theorem push_rejects_above_ascii ch : 127 < ch ->
  (forall d, d64_next d <> 240 -> b64_push_char d ch = Ok (d, Some (E_illegal ch))) /\
  (forall d, b32_push d ch = Ok (mk32 (d32_buf d) (d32_next d) (Err (E_illegal ch)), Some (E_illegal ch))) /\
  (forall d, b16_push d ch = Ok (mk16 (d16_buf d) (Err (E_illegal ch)), Some (E_illegal ch))).
Proof.
  intros H. repeat split; intros d.
  - intros Hn. rewrite b64_push_sem by (auto; lia). rewrite val64_none_high by exact H. reflexivity.
  - rewrite b32_push_sem, val32_none_high by exact H. reflexivity.
  - rewrite b16_push_sem, val16_none_high by exact H. reflexivity.
Qed.

Lemma same_result_not_ok o1 o2 : same_result o1 o2 -> (exists e, o2 = Err e) -> forall bs, o1 <> Ok bs.
Proof. intros S [e ->] bs ->. exact S. Qed.

Theorem converters_reject_above_ascii chunks : has_high (concat chunks) ->
  (forall bs, b64_convert chunks <> Ok bs) /\ (forall bs, b32_convert chunks <> Ok bs) /\
  (forall bs, b16_convert chunks <> Ok bs).
Proof.
  intros H. destruct (decode_rejects_above_ascii _ H) as (A & B & C).
  repeat split.
  - exact (same_result_not_ok _ _ (b64_converter_agrees chunks) A).
  - exact (same_result_not_ok _ _ (b32_converter_agrees chunks) B).
  - exact (same_result_not_ok _ _ (b16_converter_agrees chunks) C).
Qed.

Example high_code_points :
  b64_decode [90; 321; 57; 118] = Err (E_illegal 321) /\          (* U+0141: low octet 'A' *)
  b32_decode [67; 335] = Err (E_illegal 335) /\                    (* U+014F: low octet 'O' *)
  b16_decode [70; 304] = Err (E_illegal 304) /\                    (* U+0130: low octet '0' *)
  b64_convert [[90; 321; 57; 118]] = Err E_CONV_ILLEGAL.
Proof. vm_compute. repeat split. Qed.

Lemma c16_run_mono l : forall c acc out, c16_run c acc l = Ok out -> lenN acc <= lenN out.
Proof.
  induction l as [|x r IH]; intros c acc out H; cbn [c16_run] in H.
  - destruct (c16_process_tail c) as [t| | |]; cbn [bind] in H; try discriminate.
    injection H as <-. rewrite lenN_app. lia.
  - destruct (c16_process_symbol c x) as [[c' o]| | |]; cbn [bind fst snd] in H; try discriminate.
    apply IH in H. rewrite lenN_app in H. lia.
Qed.

Lemma salt_feed_agrees s : forall cc acc out, lenN acc <= 255 ->
  (finish salt_tail (feed saltconv (salt_process true) (mksc (Some (Some cc)) (lenN acc)) acc (map SChar s)) = Ok out
   <-> c16_run cc acc (map Sym s) = Ok out /\ lenN out <= 255).
Proof.
  induction s as [|ch r IH]; intros cc acc out Ha.
  - cbn [map feed finish bind fst snd salt_tail sc_st c16_run].
    destruct (c16_process_tail cc) as [t| | |] eqn:T; cbn [bind]; try (split; [discriminate|intros [X _]; discriminate]).
    assert (Et : t = []) by (unfold c16_process_tail in T; destruct (c16_pending cc); congruence).
    split.
    + intros Q. injection Q as <-. split; [reflexivity|]. subst t. rewrite app_nil_r. exact Ha.
    + intros [Q _]. exact Q.
  - cbn [map feed c16_run]. unfold salt_process at 1. cbn [sc_st sc_len].
    unfold c16_sym at 1. cbn [sym_char into_char bind].
    destruct (c16_process_symbol cc (Sym ch)) as [[c' o]| | |]; cbn [bind fst snd finish];
      try (split; [discriminate|intros [X _]; discriminate]).
    change nsec3_salt_max with 255.
    destruct (N.ltb_spec 255 (lenN acc + N.of_nat (length o))) as [G|L]; cbn [bind fst snd].
    + split; [discriminate|]. intros [X Y]. apply c16_run_mono in X. rewrite lenN_app in X. unfold lenN in *. lia.
    + replace (lenN acc + N.of_nat (length o)) with (lenN (acc ++ o)) by (rewrite lenN_app; reflexivity).
      apply IH. rewrite lenN_app. unfold lenN in *. lia.
Qed.

Theorem salt_scan_agrees_from_str chk s bs : ~ In 92 s ->
  (salt_scan_with chk true s = Ok bs <-> salt_from_str s = Ok bs).
Proof.
  intros H. unfold salt_scan_with. rewrite convert_token_plain by exact H.
  rewrite salt_from_str_spec.
  destruct s as [|c r].
  - cbn. split.
    + intros E. injection E as <-. right. split; [discriminate|]. split; [reflexivity|cbn; lia].
    + intros [[X _]|[_ [E _]]]; [discriminate X|]. cbn in E. injection E as <-. reflexivity.
  - cbn [map feed]. unfold salt_process at 1. cbn [sc_st sc_len into_char].
    change nsec3_salt_scan_empty_char with 45.
    destruct (N.eqb_spec c 45) as [->|Nc].
    + (* "-" must be the whole token *)
      cbn [bind fst snd]. destruct r as [|c2 r2].
      * cbn. split; [intros E; injection E as <-; left; auto|].
        intros [[_ ->]|[X _]]; [reflexivity|contradiction].
      * cbn [map feed]. unfold salt_process at 1. cbn [sc_st bind finish].
        split; [discriminate|]. intros [[X _]|[_ [E _]]]; [discriminate|].
        exfalso. apply (proj2 (b16_accepts_iff_wellformed _ _)) in E.
        destruct (b16_accepts_only_alphabet _ _ E) as [F _]. apply Forall_inv in F. apply F. reflexivity.
    +
      pose proof (salt_feed_agrees (c :: r) c16_new [] bs ltac:(cbn; lia)) as A.
      cbn [map feed] in A. unfold salt_process at 1 in A. cbn [sc_st sc_len] in A.
      change (lenN []) with 0 in A. rewrite A. clear A.
      pose proof (b16_converter_agrees [c :: r]) as S. unfold b16_convert in S.
      rewrite c16_run_tokens in S. cbn [concat] in S. rewrite app_nil_r in S.
      cbn [map] in S |- *.
      split.
      * intros [R L]. right. split; [intros X; injection X as -> _; contradiction|].
        rewrite R in S. destruct (b16_decode (c :: r)) as [bs'| | |] eqn:D; try contradiction.
        cbn in S. subst bs'. split; [apply b16_accepts_iff_wellformed, D|unfold lenN in L; lia].
      * intros [[X _]|[_ [E L]]]; [injection X as -> _; contradiction|].
        apply (proj2 (b16_accepts_iff_wellformed _ _)) in E. rewrite E in S.
        destruct (c16_run c16_new [] (Sym c :: map Sym r)) as [out| | |]; try contradiction.
        cbn in S. subst out. split; [reflexivity|unfold lenN; lia].
Qed.

Lemma c32_run_mono l : forall c acc out, c32_run c acc l = Ok out -> lenN acc <= lenN out.
Proof.
  induction l as [|x r IH]; intros c acc out H; cbn [c32_run] in H.
  - destruct (c32_process_tail c) as [t| | |]; cbn [bind] in H; try discriminate.
    injection H as <-. rewrite lenN_app. lia.
  - destruct (c32_process_symbol c x) as [[c' o]| | |]; cbn [bind fst snd] in H; try discriminate.
    apply IH in H. rewrite lenN_app in H. lia.
Qed.

Lemma hash_feed_agrees s : forall cc acc out, lenN acc <= 255 ->
  (finish (hash_tail true) (feed hashconv (hash_process true) (mkhc cc (lenN acc)) acc (map SChar s)) = Ok out
   <-> c32_run cc acc (map Sym s) = Ok out /\ lenN out <= 255).
Proof.
  induction s as [|ch r IH]; intros cc acc out Ha.
  - cbn [map feed finish bind fst snd c32_run]. unfold hash_tail. cbn [hc_c hc_len].
    destruct (c32_process_tail cc) as [t| | |]; cbn [bind]; try (split; [discriminate|intros [X _]; discriminate]).
    unfold hash_check. cbv zeta. change nsec3_hash_max with 255.
    destruct (N.ltb_spec 255 (lenN acc + N.of_nat (length t))) as [G|L]; cbn [bind].
    + split; [discriminate|]. intros [X Y]. injection X as <-. rewrite lenN_app in Y. unfold lenN in *. lia.
    + split.
      * intros Q. injection Q as <-. split; [reflexivity|]. rewrite lenN_app. unfold lenN in *. lia.
      * intros [Q _]. exact Q.
  - cbn [map feed c32_run c32_process_symbol]. unfold hash_process at 1. cbn [hc_c hc_len].
    unfold c32_sym at 1. cbn [sym_char into_char bind].
    destruct (c32_process_char cc ch) as [[c' o]| | |]; cbn [bind fst snd finish];
      try (split; [discriminate|intros [X _]; discriminate]).
    unfold hash_check. cbv zeta. change nsec3_hash_max with 255.
    destruct (N.ltb_spec 255 (lenN acc + N.of_nat (length o))) as [G|L]; cbn [bind fst snd].
    + split; [discriminate|]. intros [X Y]. apply c32_run_mono in X. rewrite lenN_app in X. unfold lenN in *. lia.
    + replace (lenN acc + N.of_nat (length o)) with (lenN (acc ++ o)) by (rewrite lenN_app; reflexivity).
      apply IH. rewrite lenN_app. unfold lenN in *. lia.
Qed.

Theorem hash_scan_agrees_from_str chk s bs : ~ In 92 s ->
  (hash_scan_with chk true s = Ok bs <-> hash_from_str_with true s = Ok bs).
Proof.
  intros H. unfold hash_scan_with. rewrite convert_token_plain by exact H.
  rewrite hash_from_str_limited_spec.
  pose proof (hash_feed_agrees s c32_new [] bs ltac:(cbn; lia)) as A. change (lenN []) with 0 in A.
  rewrite A. clear A.
  pose proof (b32_converter_agrees [s]) as S. unfold b32_convert in S.
  rewrite c32_run_tokens in S. cbn [concat] in S. rewrite app_nil_r in S.
  split.
  - intros [R L]. rewrite R in S. destruct (b32_decode s) as [bs'| | |] eqn:D; try contradiction.
    cbn in S. subst bs'. split; [apply b32_accepts_iff_wellformed, D|unfold lenN in L; lia].
  - intros [E L]. apply (proj2 (b32_accepts_iff_wellformed _ _)) in E. rewrite E in S.
    destruct (c32_run c32_new [] (map Sym s)) as [out| | |]; try contradiction.
    cbn in S. subst out. split; [reflexivity|unfold lenN; lia].
Qed.

Example scan_from_str_examples :
  salt_scan_with true true [45] = Ok [] /\ salt_from_str [45] = Ok [] /\
  salt_scan_with true true [45; 65; 66] = Err E_CONV_ILLEGAL /\ salt_from_str [45; 65; 66] = Err (E_illegal 45) /\
  salt_scan_with true true [65; 66; 45] = Err E_CONV_ILLEGAL /\ salt_from_str [65; 66; 45] = Err (E_illegal 45) /\
  salt_scan_with true true [] = Ok [] /\ salt_from_str [] = Ok [].
Proof. vm_compute. repeat split. Qed.

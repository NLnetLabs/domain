(* C18 proofs: the per-push API of the Base32hex and Base16 decoders is total and
   its errors are sticky (what base64 does not deliver: ProofsApi.v), for a
   bounded builder (cap = Some c, ShortBuf) as for the unbounded one. *)
From Coq Require Import NArith List Bool Lia.
Import ListNotations.
From DV Require Import Base.Outcome C18.Gen C18.Model C18.Proofs C18.ProofsEnc C18.ProofsSpec
  C18.ProofsDec64 C18.ProofsDec32 C18.ProofsApi.
Local Open Scope N_scope.

Definition is_err (t : target) : Prop := exists e, t = Err e.

Lemma append_cap_okerr cap t v : okerr t -> okerr (append_cap cap t v).
Proof. destruct t as [l| | |]; cbn; auto. destruct (fits cap l); exact (fun _ => I). Qed.
Lemma append_cap_err cap t v : is_err t -> is_err (append_cap cap t v).
Proof. intros [e ->]. eexists; reflexivity. Qed.
Lemma fold_append_okerr cap l : forall t, okerr t -> okerr (fold_left (append_cap cap) l t).
Proof. induction l as [|v r IH]; intros t H; [exact H|]. apply IH, append_cap_okerr, H. Qed.
Lemma fold_append_err cap l : forall t, is_err t -> is_err (fold_left (append_cap cap) l t).
Proof. induction l as [|v r IH]; intros t H; [exact H|]. apply IH, append_cap_err, H. Qed.

Definition inv32 (d : dec32) : Prop := d32_next d < 8 /\ okerr (d32_target d).

Lemma inv32_new : inv32 b32_new.
Proof. split; [cbn; lia|exact I]. Qed.

Lemma b32_push_cap_ok cap d ch : inv32 d ->
  exists d' res, b32_push_cap cap d ch = Ok (d', res) /\ res = target_err (d32_target d') /\ inv32 d' /\
                 (is_err (d32_target d) -> is_err (d32_target d')).
Proof.
  destruct d as [b n t]. unfold inv32. cbn [d32_next d32_target]. intros [Hn Ht].
  unfold b32_push_cap. cbn [d32_buf d32_next d32_target]. cbv [b32_ascii_max].
  destruct (N.ltb_spec 127 ch) as [G|L].
  { eexists _, _. split; [reflexivity|]. split; [reflexivity|]. cbn. repeat split; auto.
    intros _. eexists; reflexivity. }
  destruct (dec_tab32_ok ch) as (v & E1 & _); [lia|]. rewrite E1. cbn [bind].
  destruct (v =? b32_illegal_val).
  { eexists _, _. split; [reflexivity|]. split; [reflexivity|]. cbn. repeat split; auto.
    intros _. eexists; reflexivity. }
  destruct (buf8_set_spec b n v Hn) as (b' & Eb & _). rewrite Eb. cbn [bind].
  eexists _, _. split; [reflexivity|]. split; [reflexivity|].
  cbv [b32_group]. destruct (N.eqb_spec (n + 1) 8) as [E8|N8]; cbn [d32_next d32_target].
  - split; [split; [lia|apply fold_append_okerr, Ht]|]. apply fold_append_err.
  - split; [split; [lia|exact Ht]|]. auto.
Qed.

Lemma b32_finalize_cap_ok cap d : inv32 d ->
  no_panic (b32_finalize_cap cap d) /\ (is_err (d32_target d) -> exists e, b32_finalize_cap cap d = Err e).
Proof.
  destruct d as [b n t]. unfold inv32. cbn [d32_next d32_target]. intros [Hn Ht].
  destruct t as [l|e|p|]; try contradiction.
  - split; [|intros [e X]; discriminate].
    unfold b32_finalize_cap. cbn [d32_target d32_next d32_buf].
    assert (K : forall k, no_panic (fold_left (append_cap cap) (firstn k (b32_octets b)) (Ok l))).
    { intros k. pose proof (fold_append_okerr cap (firstn k (b32_octets b)) (Ok l) I) as O.
      destruct (fold_left _ _ _); try contradiction; exact I. }
    assert (C : n = 0 \/ n = 1 \/ n = 2 \/ n = 3 \/ n = 4 \/ n = 5 \/ n = 6 \/ n = 7) by lia.
    destruct C as [-> | [-> | [-> | [-> | [-> | [-> | [-> | ->]]]]]]];
      cbn [N.eqb Pos.eqb existsb b32_fin_short orb assoc b32_fin_partial]; try exact I; apply K.
  - split; [exact I|]. intros _. eexists. reflexivity.
Qed.

Theorem b32_cap_api_total cap s : no_panic (snd (b32_push_all_cap cap s)).
Proof.
  exact (push_all_total _ _ _ (fun _ => eq_refl) (fun _ _ _ => eq_refl) _ inv32 d32_target
           (b32_push_cap_ok cap) (b32_finalize_cap_ok cap) _ s inv32_new).
Qed.

Theorem b32_cap_errors_sticky cap s :
  (exists e, In (Some e) (fst (b32_push_all_cap cap s))) -> exists e, snd (b32_push_all_cap cap s) = Err e.
Proof.
  exact (push_all_sticky _ _ _ (fun _ => eq_refl) (fun _ _ _ => eq_refl) _ inv32 d32_target
           (b32_push_cap_ok cap) (b32_finalize_cap_ok cap) _ s inv32_new).
Qed.

Lemma b32_push_cap_none d ch : b32_push_cap None d ch = b32_push d ch.
Proof.
  unfold b32_push_cap, b32_push.
  destruct (b32_ascii_max <? ch); [reflexivity|].
  destruct (tab_get b32_decode_tab ch) as [v| | |]; reflexivity.
Qed.

Lemma b32_finalize_cap_none d : b32_finalize_cap None d = b32_finalize d.
Proof. unfold b32_finalize_cap, b32_finalize. destruct (d32_target d); reflexivity. Qed.

Lemma b32_push_ok d ch : inv32 d ->
  exists d' res, b32_push d ch = Ok (d', res) /\ res = target_err (d32_target d') /\ inv32 d' /\
                 (is_err (d32_target d) -> is_err (d32_target d')).
Proof. rewrite <- b32_push_cap_none. apply b32_push_cap_ok. Qed.

Lemma b32_finalize_inv d : inv32 d ->
  no_panic (b32_finalize d) /\ (is_err (d32_target d) -> exists e, b32_finalize d = Err e).
Proof. rewrite <- b32_finalize_cap_none. apply b32_finalize_cap_ok. Qed.

Theorem b32_api_total s : no_panic (snd (b32_push_all s)).
Proof.
  exact (push_all_total _ _ b32_run (fun _ => eq_refl) (fun _ _ _ => eq_refl) _ inv32 d32_target
           b32_push_ok b32_finalize_inv _ s inv32_new).
Qed.

Theorem b32_errors_sticky s :
  (exists e, In (Some e) (fst (b32_push_all s))) -> exists e, snd (b32_push_all s) = Err e.
Proof.
  exact (push_all_sticky _ _ b32_run (fun _ => eq_refl) (fun _ _ _ => eq_refl) _ inv32 d32_target
           b32_push_ok b32_finalize_inv _ s inv32_new).
Qed.

Theorem b32_errors_keep_coming d s : inv32 d -> is_err (d32_target d) ->
  ~ In None (fst (b32_run d s)).
Proof.
  exact (run_keeps_failing _ _ b32_run (fun _ => eq_refl) (fun _ _ _ => eq_refl) inv32 d32_target
           b32_push_ok d s).
Qed.

Example b32_sticky_example :
  b32_push_all [67; 33; 79] = ([None; Some (E_illegal 33); Some (E_illegal 33)], Err (E_illegal 33)).
Proof. vm_compute. reflexivity. Qed.

Definition inv16 (d : dec16) : Prop := okerr (d16_target d).

Lemma b16_push_cap_ok cap d ch : inv16 d ->
  exists d' res, b16_push_cap cap d ch = Ok (d', res) /\ res = target_err (d16_target d') /\ inv16 d' /\
                 (is_err (d16_target d) -> is_err (d16_target d')).
Proof.
  destruct d as [b t]. unfold inv16. cbn [d16_target]. intros Ht.
  unfold b16_push_cap. change b16_radix with 16. rewrite to_digit16_is_val16. cbn [bind d16_buf d16_target].
  destruct (val16 ch) as [v|].
  2:{ eexists _, _. split; [reflexivity|]. split; [reflexivity|]. cbn. split; auto. intros _. eexists; reflexivity. }
  destruct b as [u|]; (eexists _, _; split; [reflexivity|]; split; [reflexivity|]; cbn [d16_target]).
  - split; [apply append_cap_okerr, Ht|apply append_cap_err].
  - split; [exact Ht|auto].
Qed.

Lemma b16_finalize_inv d : inv16 d ->
  no_panic (b16_finalize d) /\ (is_err (d16_target d) -> exists e, b16_finalize d = Err e).
Proof.
  destruct d as [b t]. unfold inv16, b16_finalize. cbn [d16_target d16_buf]. intros Ht.
  destruct b as [u|].
  - split; [exact I|]. intros _. eexists; reflexivity.
  - destruct t as [l|e|p|]; try contradiction; (split; [exact I|]).
    + intros [e X]; discriminate.
    + intros _. eexists; reflexivity.
Qed.

Theorem b16_cap_api_total cap s : no_panic (snd (b16_push_all_cap cap s)).
Proof.
  exact (push_all_total _ _ _ (fun _ => eq_refl) (fun _ _ _ => eq_refl) _ inv16 d16_target
           (b16_push_cap_ok cap) b16_finalize_inv b16_new s I).
Qed.

Theorem b16_cap_errors_sticky cap s :
  (exists e, In (Some e) (fst (b16_push_all_cap cap s))) -> exists e, snd (b16_push_all_cap cap s) = Err e.
Proof.
  exact (push_all_sticky _ _ _ (fun _ => eq_refl) (fun _ _ _ => eq_refl) _ inv16 d16_target
           (b16_push_cap_ok cap) b16_finalize_inv b16_new s I).
Qed.

Lemma b16_push_cap_none d ch : b16_push_cap None d ch = b16_push d ch.
Proof.
  unfold b16_push_cap, b16_push. destruct (to_digit ch b16_radix) as [[v|]| | |]; reflexivity.
Qed.

Lemma b16_push_ok d ch : inv16 d ->
  exists d' res, b16_push d ch = Ok (d', res) /\ res = target_err (d16_target d') /\ inv16 d' /\
                 (is_err (d16_target d) -> is_err (d16_target d')).
Proof. rewrite <- b16_push_cap_none. apply b16_push_cap_ok. Qed.

Theorem b16_api_total s : no_panic (snd (b16_push_all s)).
Proof.
  exact (push_all_total _ _ b16_run (fun _ => eq_refl) (fun _ _ _ => eq_refl) _ inv16 d16_target
           b16_push_ok b16_finalize_inv b16_new s I).
Qed.

Theorem b16_errors_sticky s :
  (exists e, In (Some e) (fst (b16_push_all s))) -> exists e, snd (b16_push_all s) = Err e.
Proof.
  exact (push_all_sticky _ _ b16_run (fun _ => eq_refl) (fun _ _ _ => eq_refl) _ inv16 d16_target
           b16_push_ok b16_finalize_inv b16_new s I).
Qed.

Theorem b16_errors_keep_coming d s : inv16 d -> is_err (d16_target d) ->
  ~ In None (fst (b16_run d s)).
Proof.
  exact (run_keeps_failing _ _ b16_run (fun _ => eq_refl) (fun _ _ _ => eq_refl) inv16 d16_target
           b16_push_ok d s).
Qed.

Example b16_sticky_example :
  b16_push_all [49; 33; 50] = ([None; Some (E_illegal 33); Some (E_illegal 33)], Err (E_illegal 33)) /\
  b16_push_all [49; 33] = ([None; Some (E_illegal 33)], Err E_SHORT).
Proof. vm_compute. auto. Qed.

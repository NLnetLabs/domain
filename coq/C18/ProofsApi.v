(* C18 proofs: the per-push Decoder API and the scanner converter:
   splitting the input does not matter (state is a fold), base64 defects of the
   per-push API (refuted statements with witnesses, restricted theorems). *)
From Coq Require Import NArith List Bool Lia.
Import ListNotations.
From DV Require Import Base.Outcome C18.Gen C18.Model C18.Proofs C18.ProofsEnc C18.ProofsSpec
  C18.ProofsDec64 C18.ProofsDec32.
Local Open Scope N_scope.

Definition seq_runs {D} (run : D -> list N -> list (option N) * outcome D) (d : D) (a b : list N) :=
  let '(ta, fa) := run d a in
  match fa with
  | Ok d' => let '(tb, fb) := run d' b in (ta ++ tb, fb)
  | _ => (ta, fa)
  end.

(* the per-push drivers of Model.v (b64_run_with, b32_run, b16_run, run_g) all
   unfold in this way *)
Section Run.
  Variable D : Type.
  Variable push : D -> N -> outcome (D * option N).
  Variable run : D -> list N -> list (option N) * outcome D.
  Hypothesis run_nil : forall d, run d [] = ([], Ok d).
  Hypothesis run_cons : forall d ch r,
    run d (ch :: r) = match push d ch with
                      | Ok (d', res) => let '(tr, fin) := run d' r in (res :: tr, fin)
                      | Err e => ([], Err e)
                      | Panic p => ([], Panic p)
                      | OutOfFuel => ([], OutOfFuel)
                      end.

  Lemma run_app a b : forall d, run d (a ++ b) = seq_runs run d a b.
  Proof.
    unfold seq_runs. induction a as [|ch r IH]; intros d; cbn [app].
    - rewrite run_nil. destruct (run d b); reflexivity.
    - rewrite !run_cons. destruct (push d ch) as [[d' res]|e|p|]; try reflexivity.
      rewrite IH. destruct (run d' r) as [ta fa]. destruct fa as [d''|e|p|]; try reflexivity.
      destruct (run d'' b); reflexivity.
  Qed.

  Variable finalize : D -> outcome (list N).
  Definition push_all_of (d0 : D) (s : list N) : list (option N) * outcome (list N) :=
    let '(tr, fin) := run d0 s in
    (tr, match fin with
         | Ok d => match finalize d with
                   | Ok l => Ok l | Err e => Err e | Panic p => Panic p | OutOfFuel => OutOfFuel end
         | Err e => Panic 0 | Panic p => Panic p | OutOfFuel => OutOfFuel end).

  (* a decoder that keeps an invariant, returns from push the error it holds
     in its target, and never lets go of an error *)
  Variable inv : D -> Prop.
  Variable tgt : D -> target.
  Local Notation failed d := (exists e, tgt d = Err e).
  Hypothesis push_ok : forall d ch, inv d ->
    exists d' res, push d ch = Ok (d', res) /\ res = target_err (tgt d') /\ inv d' /\
                   (failed d -> failed d').
  Hypothesis fin_ok : forall d, inv d ->
    no_panic (finalize d) /\ (failed d -> exists e, finalize d = Err e).

  Lemma run_inv s : forall d, inv d ->
    exists d', snd (run d s) = Ok d' /\ inv d' /\
      (failed d -> failed d' /\ ~ In None (fst (run d s))) /\
      ((exists e, In (Some e) (fst (run d s))) -> failed d').
  Proof.
    induction s as [|ch r IH]; intros d Hi.
    - rewrite run_nil. exists d. split; [reflexivity|]. split; [exact Hi|].
      split; [intros X; split; [exact X|intros []]|intros [e []]].
    - rewrite run_cons. destruct (push_ok d ch Hi) as (d1 & res & E & -> & I1 & K1). rewrite E.
      destruct (IH d1 I1) as (d' & R & I' & K' & S').
      destruct (run d1 r) as [tr fin]. cbn [fst snd] in *.
      exists d'. split; [exact R|]. split; [exact I'|]. split.
      + intros X. destruct (K' (K1 X)) as [A B]. split; [exact A|].
        intros [Y|Y]; [|auto]. destruct (K1 X) as [e0 Z]. rewrite Z in Y. discriminate.
      + intros [e [Y|Y]].
        * apply K'. destruct (tgt d1) as [l|e1|p|]; try discriminate. eexists; reflexivity.
        * apply S'. eauto.
  Qed.

  Lemma push_all_total d0 s : inv d0 -> no_panic (snd (push_all_of d0 s)).
  Proof.
    intros Hi. unfold push_all_of.
    destruct (run_inv s d0 Hi) as (d & R & I1 & _).
    destruct (run d0 s) as [tr fin]. cbn [snd] in *. rewrite R.
    destruct (fin_ok d I1) as [F _]. destruct (finalize d); try contradiction; exact I.
  Qed.

  Lemma push_all_sticky d0 s : inv d0 ->
    (exists e, In (Some e) (fst (push_all_of d0 s))) -> exists e, snd (push_all_of d0 s) = Err e.
  Proof.
    intros Hi. unfold push_all_of.
    destruct (run_inv s d0 Hi) as (d & R & I1 & _ & S).
    destruct (run d0 s) as [tr fin]. cbn [fst snd] in *. rewrite R. intros EX.
    destruct (fin_ok d I1) as [_ F]. destruct (F (S EX)) as [e Fe]. rewrite Fe. eauto.
  Qed.

  Lemma run_keeps_failing d s : inv d -> failed d -> ~ In None (fst (run d s)).
  Proof. intros Hi X. destruct (run_inv s d Hi) as (d' & _ & _ & K & _). apply K, X. Qed.
End Run.

Theorem b64_chunk_independent sticky a b d :
  b64_run_with sticky d (a ++ b) = seq_runs (b64_run_with sticky) d a b.
Proof. exact (run_app _ (b64_push_with sticky) _ (fun _ => eq_refl) (fun _ _ _ => eq_refl) a b d). Qed.

Theorem b32_chunk_independent a b d : b32_run d (a ++ b) = seq_runs b32_run d a b.
Proof. exact (run_app _ b32_push _ (fun _ => eq_refl) (fun _ _ _ => eq_refl) a b d). Qed.

Theorem b16_chunk_independent a b d : b16_run d (a ++ b) = seq_runs b16_run d a b.
Proof. exact (run_app _ b16_push _ (fun _ => eq_refl) (fun _ _ _ => eq_refl) a b d). Qed.

(* the scanner hands the converter the characters of several tokens with
   EndOfToken in between, which every converter ignores: how the text is cut
   into tokens does not matter *)
Section ConvRun.
  Variable C : Type.
  Variable psym : C -> esym -> outcome (C * list N).
  Variable run : C -> list N -> list esym -> outcome (list N).
  Hypothesis run_cons : forall c acc x r,
    run c acc (x :: r) = do cr <- psym c x; run (fst cr) (acc ++ snd cr) r.
  Hypothesis psym_eot : forall c, psym c EndOfToken = Ok (c, []).

  Lemma run_tokens chunks : forall c acc,
    run c acc (tokens chunks) = run c acc (map Sym (concat chunks)).
  Proof.
    unfold tokens. induction chunks as [|ck r IH]; intros c acc; [reflexivity|].
    cbn [flat_map concat]. rewrite map_app, <- app_assoc. revert c acc.
    induction ck as [|ch ck IHck]; intros c acc; cbn [map app].
    - rewrite run_cons, psym_eot. cbn [bind fst snd]. rewrite app_nil_r. apply IH.
    - rewrite !run_cons. destruct (psym c (Sym ch)) as [[c' o]| | |]; cbn [bind]; auto.
  Qed.

  Lemma run_tokens_concat chunks c acc : run c acc (tokens chunks) = run c acc (tokens [concat chunks]).
  Proof. rewrite !run_tokens. cbn [concat]. rewrite app_nil_r. reflexivity. Qed.
End ConvRun.

Definition c64_run_tokens :=
  run_tokens _ c64_process_symbol c64_run (fun _ _ _ _ => eq_refl) (fun _ => eq_refl).
Definition c32_run_tokens :=
  run_tokens _ c32_process_symbol c32_run (fun _ _ _ _ => eq_refl) (fun _ => eq_refl).
Definition c16_run_tokens :=
  run_tokens _ c16_process_symbol c16_run (fun _ _ _ _ => eq_refl) (fun _ => eq_refl).

Theorem b64_convert_chunk_independent chunks : b64_convert chunks = b64_convert [concat chunks].
Proof.
  exact (run_tokens_concat _ c64_process_symbol c64_run (fun _ _ _ _ => eq_refl) (fun _ => eq_refl) chunks _ _).
Qed.

Theorem b32_convert_chunk_independent chunks : b32_convert chunks = b32_convert [concat chunks].
Proof.
  exact (run_tokens_concat _ c32_process_symbol c32_run (fun _ _ _ _ => eq_refl) (fun _ => eq_refl) chunks _ _).
Qed.

Theorem b16_convert_chunk_independent chunks : b16_convert chunks = b16_convert [concat chunks].
Proof.
  exact (run_tokens_concat _ c16_process_symbol c16_run (fun _ _ _ _ => eq_refl) (fun _ => eq_refl) chunks _ _).
Qed.

Example chunking_examples :
  b64_convert [[90; 109]; []; [57]; [118]] = Ok [102; 111; 111] /\
  b64_convert [[90; 109; 57; 118]] = Ok [102; 111; 111] /\
  b32_convert [[67]; [79]] = Ok [102] /\ b16_convert [[70]; [48; 48]; [102]] = Ok [240; 15] /\
  fst (b64_run b64_new [90; 103; 61; 61; 65]) = [None; None; None; None; Some E_TRAILING] /\
  fst (b64_run_with true b64_new [33; 65]) = [Some (E_illegal 33); Some (E_illegal 33)].
Proof. vm_compute. repeat split. Qed.

Lemma run_cons64 d ch r :
  b64_run d (ch :: r) =
  match b64_push_char d ch with
  | Ok (d', res) => let '(tr, fin) := b64_run d' r in (res :: tr, fin)
  | Err e => ([], Err e)
  | Panic p => ([], Panic p)
  | OutOfFuel => ([], OutOfFuel)
  end.
Proof. reflexivity. Qed.

(* (a) pushing on after an in-group TrailingInput error indexes buf[4] *)
Theorem b64_api_total_refuted :
  exists s, snd (b64_push_all_cur s) = Panic 2 /\
            fst (b64_push_all_cur s) = [None; None; None; Some E_TRAILING].
Proof. exists [90; 103; 61; 97; 98]. vm_compute. auto. Qed.

(* (b) an IllegalChar error is not recorded: later pushes and finalize succeed *)
Theorem b64_errors_sticky_refuted :
  exists s, fst (b64_push_all_cur s) = [Some (E_illegal 33); None; None; None; None] /\
            snd (b64_push_all_cur s) = Ok [102; 111; 111].
Proof. exists [33; 90; 109; 57; 118]. vm_compute. auto. Qed.

Definition okerr (t : target) : Prop := match t with Ok _ | Err _ => True | _ => False end.
Definition good64 (d : dec64) : Prop :=
  (d64_next d < 4 /\ exists acc, d64_target d = Ok acc) \/ (d64_next d = 240 /\ okerr (d64_target d)).

Lemma illegal_ne_trailing ch : E_illegal ch <> E_TRAILING.
Proof. unfold E_illegal, E_TRAILING. lia. Qed.

Lemma b64_push_cases d ch : d64_next d < 4 -> (exists acc, d64_target d = Ok acc) ->
  exists d' res, b64_push_char d ch = Ok (d', res) /\
    ((res = None /\ good64 d' /\ exists acc', d64_target d' = Ok acc') \/
     (res = Some (E_illegal ch) /\ d' = d) \/
     (res = Some E_TRAILING /\ d64_next d' = 4 /\ okerr (d64_target d'))).
Proof.
  destruct d as [[[[x0 x1] x2] x3] n t]. cbn [d64_next d64_target]. intros Hn [acc ->].
  assert (C : n = 0 \/ n = 1 \/ n = 2 \/ n = 3) by lia.
  destruct (N.eq_dec ch 61) as [->|Hc].
  - rewrite b64_push_pad by (cbn; lia). cbn [d64_next].
    destruct C as [-> | [-> | [-> | ->]]]; cbn [N.ltb N.compare Pos.compare Pos.compare_cont].
    + eexists _, _. split; [reflexivity|]. right; left. auto.
    + eexists _, _. split; [reflexivity|]. right; left. auto.
    + rewrite cont_2. eexists _, _. split; [reflexivity|]. left. split; [reflexivity|].
      split; [left; cbn; split; [lia|eauto]|cbn; eauto].
    + rewrite cont_3. cbv zeta. cbn [N.eqb Pos.eqb negb].
      eexists _, _. split; [reflexivity|]. left. split; [reflexivity|]. split; [right; split; [reflexivity|exact I]|cbn; eauto].
  - rewrite b64_push_sem by (cbn; auto; lia).
    destruct (val64 ch) as [v|] eqn:V.
    2:{ eexists _, _. split; [reflexivity|]. right; left. auto. }
    pose proof (val64_lt _ _ V) as Lv.
    destruct C as [-> | [-> | [-> | ->]]].
    + rewrite cont_0. eexists _, _. split; [reflexivity|]. left. split; [reflexivity|].
      split; [left; cbn; split; [lia|eauto]|cbn; eauto].
    + rewrite cont_1. eexists _, _. split; [reflexivity|]. left. split; [reflexivity|].
      split; [left; cbn; split; [lia|eauto]|cbn; eauto].
    + rewrite cont_2. eexists _, _. split; [reflexivity|]. left. split; [reflexivity|].
      split; [left; cbn; split; [lia|eauto]|cbn; eauto].
    + rewrite cont_3. cbv zeta. rewrite (ne128 v Lv). cbn [negb].
      destruct (x2 =? 128).
      * eexists _, _. split; [reflexivity|]. right; right. cbn. auto.
      * eexists _, _. split; [reflexivity|]. left. split; [reflexivity|].
        split; [left; cbn; split; [lia|eauto]|cbn; eauto].
Qed.

Lemma b64_push_at_eof d ch : d64_next d = 240 ->
  b64_push_char d ch = Ok (mk64 (d64_buf d) 240 (Err E_TRAILING), Some E_TRAILING).
Proof.
  intros H. rewrite b64_push_unfold, H. reflexivity.
Qed.

(* as long as no push has returned TrailingInput, pushing never panics and the
   decoder stays in a regular state *)
Lemma b64_run_good s : forall d, good64 d ->
  ~ In (Some E_TRAILING) (fst (b64_run d s)) ->
  exists d', snd (b64_run d s) = Ok d' /\ good64 d'.
Proof.
  induction s as [|ch r IH]; intros d G NT.
  - cbn. eauto.
  - rewrite run_cons64 in *. destruct G as [[Hn Ht]|[He _]].
    + destruct (b64_push_cases d ch Hn Ht) as (d' & res & E & C). rewrite E in *.
      destruct (b64_run d' r) as [tr fin] eqn:R. cbn [fst snd] in *.
      destruct C as [[-> [G' _]]|[[-> ->]|[-> _]]].
      * specialize (IH d' G'). rewrite R in IH. apply IH. intros I. apply NT. right. exact I.
      * specialize (IH d (or_introl (conj Hn Ht))). rewrite R in IH. apply IH.
        intros I. apply NT. right. exact I.
      * exfalso. apply NT. left. reflexivity.
    + rewrite (b64_push_at_eof d ch He) in NT.
      destruct (b64_run _ r) as [tr fin]. exfalso. apply NT. left. reflexivity.
Qed.

Lemma good64_new : good64 b64_new.
Proof. left. cbn. split; [lia|eauto]. Qed.

Lemma b64_finalize_no_panic d : good64 d -> no_panic (b64_finalize d).
Proof.
  intros [[_ [acc H]]|[_ H]]; unfold b64_finalize.
  - rewrite H. destruct (N.land (d64_next d) b64_fin_mask =? 0); exact I.
  - destruct (d64_target d) as [l|e|p|]; try contradiction; [|exact I].
    destruct (N.land (d64_next d) b64_fin_mask =? 0); exact I.
Qed.

Lemma push_all_snd64 s :
  snd (b64_push_all_cur s) =
  match snd (b64_run b64_new s) with
  | Ok d => match b64_finalize d with
            | Ok l => Ok l | Err e => Err e | Panic p => Panic p | OutOfFuel => OutOfFuel end
  | Err e => Panic 0 | Panic p => Panic p | OutOfFuel => OutOfFuel end
  /\ fst (b64_push_all_cur s) = fst (b64_run b64_new s).
Proof. unfold b64_push_all_cur, b64_push_all_with. fold b64_run. destruct (b64_run b64_new s). split; reflexivity. Qed.

Theorem b64_api_total_restricted s :
  ~ In (Some E_TRAILING) (fst (b64_push_all_cur s)) -> no_panic (snd (b64_push_all_cur s)).
Proof.
  destruct (push_all_snd64 s) as [E1 E2]. rewrite E1, E2. intros NT.
  destruct (b64_run_good s b64_new good64_new NT) as (d' & R & G). rewrite R.
  pose proof (b64_finalize_no_panic d' G) as F.
  destruct (b64_finalize d'); try contradiction; exact I.
Qed.

(* errors other than IllegalChar are sticky: once a push has returned
   TrailingInput, no later push returns Ok and finalize does not succeed
   (it fails or, defect (a), a later push panics) *)
Definition bad64 (d : dec64) : Prop :=
  (d64_next d = 240 /\ d64_target d = Err E_TRAILING) \/ (d64_next d = 4 /\ okerr (d64_target d)).

Lemma b64_push_at_4 d ch : d64_next d = 4 ->
  b64_push_char d ch = Panic 2 \/ b64_push_char d ch = Ok (d, Some (E_illegal ch)).
Proof.
  destruct d as [[[[x0 x1] x2] x3] n t]. cbn [d64_next]. intros ->.
  destruct (N.eq_dec ch 61) as [->|Hc].
  - left. rewrite b64_push_pad by (cbn; lia). reflexivity.
  - rewrite b64_push_sem by (cbn; auto; lia). destruct (val64 ch) as [v|]; [left|right]; reflexivity.
Qed.

Definition all_trailing (tr : list (option N)) : Prop := forall e, In (Some e) tr -> e = E_TRAILING.

Lemma b64_run_bad s : forall d, bad64 d -> all_trailing (fst (b64_run d s)) ->
  match snd (b64_run d s) with
  | Ok d' => bad64 d' /\ ~ In None (fst (b64_run d s))
  | Panic _ => ~ In None (fst (b64_run d s))
  | _ => False
  end.
Proof.
  induction s as [|ch r IH]; intros d B AT.
  - cbn. auto.
  - rewrite run_cons64 in *. destruct B as [[Hn Ht]|[Hn Ht]].
    + rewrite (b64_push_at_eof d ch Hn) in *.
      specialize (IH (mk64 (d64_buf d) 240 (Err E_TRAILING)) (or_introl (conj eq_refl eq_refl))).
      destruct (b64_run _ r) as [tr fin]. cbn [fst snd] in *.
      assert (A : all_trailing tr) by (intros e I; apply AT; right; exact I).
      specialize (IH A). destruct fin as [d'| |p|]; try contradiction.
      * destruct IH as [IH1 IH2]. split; [exact IH1|]. intros [X|X]; [discriminate|auto].
      * intros [X|X]; [discriminate|auto].
    + destruct (b64_push_at_4 d ch Hn) as [E|E]; rewrite E in *.
      * cbn. auto.
      * exfalso. destruct (b64_run d r) as [tr fin]. cbn [fst] in AT.
        apply (illegal_ne_trailing ch). apply AT. left. reflexivity.
Qed.

Lemma b64_run_sticky s : forall d, good64 d -> all_trailing (fst (b64_run d s)) ->
  (exists e, In (Some e) (fst (b64_run d s))) ->
  match snd (b64_run d s) with
  | Ok d' => bad64 d'
  | Panic _ => True
  | _ => False
  end.
Proof.
  induction s as [|ch r IH]; intros d G AT [e0 I0].
  - cbn in I0. contradiction.
  - rewrite run_cons64 in *. destruct G as [[Hn Ht]|[He Ht]].
    + destruct (b64_push_cases d ch Hn Ht) as (d' & res & E & C). rewrite E in *.
      destruct C as [[-> [G' _]]|[[-> ->]|[-> [N4 OE]]]].
      * specialize (IH d' G'). destruct (b64_run d' r) as [tr fin]. cbn [fst snd] in *.
        apply IH.
        -- intros e I. apply AT. right. exact I.
        -- destruct I0 as [X|X]; [discriminate|eauto].
      * exfalso. destruct (b64_run d r) as [tr fin]. cbn [fst] in AT.
        apply (illegal_ne_trailing ch). apply AT. left. reflexivity.
      * pose proof (b64_run_bad r d' (or_intror (conj N4 OE))) as B.
        destruct (b64_run d' r) as [tr fin]. cbn [fst snd] in *.
        assert (A : all_trailing tr) by (intros e I; apply AT; right; exact I).
        specialize (B A). destruct fin as [d''| |p|]; try contradiction; [apply B|exact I].
    + rewrite (b64_push_at_eof d ch He) in *.
      pose proof (b64_run_bad r (mk64 (d64_buf d) 240 (Err E_TRAILING)) (or_introl (conj eq_refl eq_refl))) as B.
      destruct (b64_run _ r) as [tr fin]. cbn [fst snd] in *.
      assert (A : all_trailing tr) by (intros e I; apply AT; right; exact I).
      specialize (B A). destruct fin as [d''| |p|]; try contradiction; [apply B|exact I].
Qed.

Lemma b64_finalize_bad d : bad64 d -> exists e, b64_finalize d = Err e.
Proof.
  unfold b64_finalize. intros [[Hn Ht]|[Hn Ht]].
  - rewrite Ht. eauto.
  - destruct (d64_target d) as [l|e|p|]; try contradiction; [|eauto].
    rewrite Hn. cbv [b64_fin_mask]. cbn. eauto.
Qed.

Theorem b64_errors_sticky_restricted s :
  all_trailing (fst (b64_push_all_cur s)) ->
  (exists e, In (Some e) (fst (b64_push_all_cur s))) ->
  forall l, snd (b64_push_all_cur s) <> Ok l.
Proof.
  destruct (push_all_snd64 s) as [E1 E2]. rewrite E1, E2. intros AT EX l.
  pose proof (b64_run_sticky s b64_new good64_new AT EX) as H.
  destruct (snd (b64_run b64_new s)) as [d| |p|]; try contradiction; try discriminate.
  destruct (b64_finalize_bad d H) as [e F]. rewrite F. discriminate.
Qed.

Example b64_sticky_nonvacuous :
  b64_push_all_cur [90; 103; 61; 61; 65; 65] =
    ([None; None; None; None; Some E_TRAILING; Some E_TRAILING], Err E_TRAILING) /\
  b64_push_all_cur [90; 103; 61; 97] = ([None; None; None; Some E_TRAILING], Err E_SHORT).
Proof. vm_compute. auto. Qed.

(* C18 proofs: the encoders are the RFC 4648 bit regrouping. *)
From Coq Require Import NArith List Bool Lia Arith.
Import ListNotations.
From DV Require Import Base.Outcome C18.Gen C18.Model C18.Proofs.
Local Open Scope N_scope.

Lemma list_ind3 {A} (P : list A -> Prop) :
  P [] -> (forall a, P [a]) -> (forall a b, P [a; b]) ->
  (forall a b c r, P r -> P (a :: b :: c :: r)) -> forall l, P l.
Proof.
  intros H0 H1 H2 H3. fix IH 1. intros [|a [|b [|c r]]];
    [exact H0|exact (H1 a)|exact (H2 a b)|exact (H3 a b c r (IH r))].
Qed.

Lemma list_ind4 {A} (P : list A -> Prop) :
  P [] -> (forall a, P [a]) -> (forall a b, P [a; b]) -> (forall a b c, P [a; b; c]) ->
  (forall a b c d r, P r -> P (a :: b :: c :: d :: r)) -> forall l, P l.
Proof.
  intros H0 H1 H2 H3 H4. fix IH 1. intros [|a [|b [|c [|d r]]]];
    [exact H0|exact (H1 a)|exact (H2 a b)|exact (H3 a b c)|exact (H4 a b c d r (IH r))].
Qed.

Lemma list_ind5 {A} (P : list A -> Prop) :
  P [] -> (forall a, P [a]) -> (forall a b, P [a; b]) -> (forall a b c, P [a; b; c]) ->
  (forall a b c d, P [a; b; c; d]) ->
  (forall a b c d e r, P r -> P (a :: b :: c :: d :: e :: r)) -> forall l, P l.
Proof.
  intros H0 H1 H2 H3 H4 H5. fix IH 1. intros [|a [|b [|c [|d [|e r]]]]];
    [exact H0|exact (H1 a)|exact (H2 a b)|exact (H3 a b c)|exact (H4 a b c d)|exact (H5 a b c d e r (IH r))].
Qed.

Lemma bits8 c : bits_msb 8 c = [tb c 7; tb c 6; tb c 5; tb c 4; tb c 3; tb c 2; tb c 1; tb c 0].
Proof. reflexivity. Qed.

Lemma regroup6_step a b c d e f R :
  regroup 6 [] (a :: b :: c :: d :: e :: f :: R) = bits_val [a; b; c; d; e; f] :: regroup 6 [] R.
Proof. reflexivity. Qed.
Lemma regroup5_step a b c d e R :
  regroup 5 [] (a :: b :: c :: d :: e :: R) = bits_val [a; b; c; d; e] :: regroup 5 [] R.
Proof. reflexivity. Qed.
Lemma regroup4_step a b c d R :
  regroup 4 [] (a :: b :: c :: d :: R) = bits_val [a; b; c; d] :: regroup 4 [] R.
Proof. reflexivity. Qed.

Ltac inv_octets H :=
  repeat match type of H with
  | octets (_ :: _) => let Hx := fresh "Ho" in pose proof (Forall_inv H) as Hx; apply Forall_inv_tail in H
  | Forall octet (_ :: _) => let Hx := fresh "Ho" in pose proof (Forall_inv H) as Hx; apply Forall_inv_tail in H
  end.

(* each shift/mask expression of the encoder picks a run of bits out of one
   octet, or joins the low bits of one octet with the high bits of the next *)
Lemma e64_3_0 a b c : octet a ->
  b64_e3_0 a b c = bits_val [tb a 7; tb a 6; tb a 5; tb a 4; tb a 3; tb a 2].
Proof. exact (shr_bits a 2 6). Qed.
Lemma e64_3_1 a b c : octet b ->
  b64_e3_1 a b c = bits_val [tb a 1; tb a 0; tb b 7; tb b 6; tb b 5; tb b 4].
Proof. exact (lor_shr_join _ _ b 4 4 (land_shl_bits a 2 4 eq_refl)). Qed.
Lemma e64_3_2 a b c : octet c ->
  b64_e3_2 a b c = bits_val [tb b 3; tb b 2; tb b 1; tb b 0; tb c 7; tb c 6].
Proof. exact (lor_shr_join _ _ c 6 2 (land_shl_bits b 4 2 eq_refl)). Qed.
Lemma e64_3_3 a b c :
  b64_e3_3 a b c = bits_val [tb c 5; tb c 4; tb c 3; tb c 2; tb c 1; tb c 0].
Proof. exact (land_shr_bits c 0 6). Qed.
Lemma e64_2_0 a b c : octet a ->
  b64_e2_0 a b c = bits_val [tb a 7; tb a 6; tb a 5; tb a 4; tb a 3; tb a 2].
Proof. exact (shr_bits a 2 6). Qed.
Lemma e64_2_1 a b c : octet b ->
  b64_e2_1 a b c = bits_val [tb a 1; tb a 0; tb b 7; tb b 6; tb b 5; tb b 4].
Proof. exact (e64_3_1 a b c). Qed.
Lemma e64_2_2 a b c :
  b64_e2_2 a b c = bits_val [tb b 3; tb b 2; tb b 1; tb b 0; false; false].
Proof. exact (land_shl_bits b 4 2 eq_refl). Qed.
Lemma e64_1_0 a b c : octet a ->
  b64_e1_0 a b c = bits_val [tb a 7; tb a 6; tb a 5; tb a 4; tb a 3; tb a 2].
Proof. exact (shr_bits a 2 6). Qed.
Lemma e64_1_1 a b c :
  b64_e1_1 a b c = bits_val [tb a 1; tb a 0; false; false; false; false].
Proof. exact (land_shl_bits a 2 4 eq_refl). Qed.

Lemma b64_ch_val a b c d e f :
  b64_ch (bits_val [a; b; c; d; e; f]) = Ok (sym alpha64 (bits_val [a; b; c; d; e; f])).
Proof. unfold b64_ch. rewrite enc_tab64_is_rfc. exact (tab_get_sym alpha64 _ (bits_val_lt [a; b; c; d; e; f])). Qed.


Lemma mod3_step n : Nat.modulo (3 + n) 3 = Nat.modulo n 3.
Proof. rewrite Nat.add_comm. exact (Nat.mod_add n 1 3 ltac:(discriminate)). Qed.

Lemma spec_enc64_step a b c r :
  spec_enc64 (a :: b :: c :: r) =
  sym alpha64 (bits_val [tb a 7; tb a 6; tb a 5; tb a 4; tb a 3; tb a 2]) ::
  sym alpha64 (bits_val [tb a 1; tb a 0; tb b 7; tb b 6; tb b 5; tb b 4]) ::
  sym alpha64 (bits_val [tb b 3; tb b 2; tb b 1; tb b 0; tb c 7; tb c 6]) ::
  sym alpha64 (bits_val [tb c 5; tb c 4; tb c 3; tb c 2; tb c 1; tb c 0]) :: spec_enc64 r.
Proof.
  unfold spec_enc64. change (length (a :: b :: c :: r)) with (3 + length r)%nat.
  rewrite mod3_step. reflexivity.
Qed.

Theorem b64_encode_is_rfc4648 bs : octets bs -> b64_display bs = Ok (spec_enc64 bs).
Proof.
  induction bs as [|a|a b|a b c r IH] using list_ind3; intros H; [reflexivity|..];
    inv_octets H; cbn [b64_display].
  - rewrite e64_1_0, e64_1_1 by assumption. rewrite !b64_ch_val. reflexivity.
  - rewrite e64_2_0, e64_2_1, e64_2_2 by assumption. rewrite !b64_ch_val. reflexivity.
  - rewrite e64_3_0, e64_3_1, e64_3_2, e64_3_3 by assumption. rewrite !b64_ch_val.
    cbn [bind]. rewrite (IH H). cbn [bind]. rewrite spec_enc64_step. reflexivity.
Qed.

Example b64_encode_foobar :
  b64_display [102; 111; 111; 98; 97] = Ok [90; 109; 57; 118; 89; 109; 69; 61] /\
  spec_enc64 [102] = [90; 103; 61; 61].
Proof. vm_compute. auto. Qed.

Lemma b32_e0_spec a b c d e : octet a ->
  b32_e0 a b c d e = bits_val [tb a 7; tb a 6; tb a 5; tb a 4; tb a 3].
Proof. exact (shr_bits a 3 5). Qed.
Lemma b32_e1_spec a b c d e : octet b ->
  b32_e1 a b c d e = bits_val [tb a 2; tb a 1; tb a 0; tb b 7; tb b 6].
Proof. exact (lor_shr_join _ _ b 6 2 (land_shl_bits a 3 2 eq_refl)). Qed.
Lemma b32_e2_spec a b c d e :
  b32_e2 a b c d e = bits_val [tb b 5; tb b 4; tb b 3; tb b 2; tb b 1].
Proof. exact (land_shr_bits b 1 5). Qed.
Lemma b32_e3_spec a b c d e : octet c ->
  b32_e3 a b c d e = bits_val [tb b 0; tb c 7; tb c 6; tb c 5; tb c 4].
Proof. exact (lor_shr_join _ _ c 4 4 (land_shl_bits b 1 4 eq_refl)). Qed.
Lemma b32_e4_spec a b c d e : octet d ->
  b32_e4 a b c d e = bits_val [tb c 3; tb c 2; tb c 1; tb c 0; tb d 7].
Proof. exact (lor_shr_join _ _ d 7 1 (land_shl_bits c 4 1 eq_refl)). Qed.
Lemma b32_e5_spec a b c d e :
  b32_e5 a b c d e = bits_val [tb d 6; tb d 5; tb d 4; tb d 3; tb d 2].
Proof. exact (land_shr_bits d 2 5). Qed.
Lemma b32_e6_spec a b c d e : octet e ->
  b32_e6 a b c d e = bits_val [tb d 1; tb d 0; tb e 7; tb e 6; tb e 5].
Proof. exact (lor_shr_join _ _ e 5 3 (land_shl_bits d 2 3 eq_refl)). Qed.
Lemma b32_e7_spec a b c d e :
  b32_e7 a b c d e = bits_val [tb e 4; tb e 3; tb e 2; tb e 1; tb e 0].
Proof. exact (land_shr_bits e 0 5). Qed.
Lemma b32_e1_last_spec a b c d e :
  b32_e1_last a b c d e = bits_val [tb a 2; tb a 1; tb a 0; false; false].
Proof. exact (land_shl_bits a 3 2 eq_refl). Qed.
Lemma b32_e3_last_spec a b c d e :
  b32_e3_last a b c d e = bits_val [tb b 0; false; false; false; false].
Proof. exact (land_shl_bits b 1 4 eq_refl). Qed.
Lemma b32_e4_last_spec a b c d e :
  b32_e4_last a b c d e = bits_val [tb c 3; tb c 2; tb c 1; tb c 0; false].
Proof. exact (land_shl_bits c 4 1 eq_refl). Qed.
Lemma b32_e6_last_spec a b c d e :
  b32_e6_last a b c d e = bits_val [tb d 1; tb d 0; false; false; false].
Proof. exact (land_shl_bits d 2 3 eq_refl). Qed.

Lemma b32_ch_val a b c d e :
  b32_ch (bits_val [a; b; c; d; e]) = Ok (sym alpha32hex (bits_val [a; b; c; d; e])).
Proof. unfold b32_ch. rewrite enc_tab32_is_rfc. exact (tab_get_sym alpha32hex _ (bits_val_lt [a; b; c; d; e])). Qed.


Lemma spec_enc32_step a b c d e r :
  spec_enc32 (a :: b :: c :: d :: e :: r) =
  sym alpha32hex (bits_val [tb a 7; tb a 6; tb a 5; tb a 4; tb a 3]) ::
  sym alpha32hex (bits_val [tb a 2; tb a 1; tb a 0; tb b 7; tb b 6]) ::
  sym alpha32hex (bits_val [tb b 5; tb b 4; tb b 3; tb b 2; tb b 1]) ::
  sym alpha32hex (bits_val [tb b 0; tb c 7; tb c 6; tb c 5; tb c 4]) ::
  sym alpha32hex (bits_val [tb c 3; tb c 2; tb c 1; tb c 0; tb d 7]) ::
  sym alpha32hex (bits_val [tb d 6; tb d 5; tb d 4; tb d 3; tb d 2]) ::
  sym alpha32hex (bits_val [tb d 1; tb d 0; tb e 7; tb e 6; tb e 5]) ::
  sym alpha32hex (bits_val [tb e 4; tb e 3; tb e 2; tb e 1; tb e 0]) :: spec_enc32 r.
Proof. reflexivity. Qed.

Theorem b32_encode_is_rfc4648 bs : octets bs -> b32_display bs = Ok (spec_enc32 bs).
Proof.
  induction bs as [|a|a b|a b c|a b c d|a b c d e r IH] using list_ind5; intros H; [reflexivity|..];
    inv_octets H; cbn [b32_display].
  - rewrite b32_e0_spec, b32_e1_last_spec by assumption. rewrite !b32_ch_val. reflexivity.
  - rewrite b32_e0_spec, b32_e1_spec, b32_e2_spec, b32_e3_last_spec by assumption.
    rewrite !b32_ch_val. reflexivity.
  - rewrite b32_e0_spec, b32_e1_spec, b32_e2_spec, b32_e3_spec, b32_e4_last_spec by assumption.
    rewrite !b32_ch_val. reflexivity.
  - rewrite b32_e0_spec, b32_e1_spec, b32_e2_spec, b32_e3_spec, b32_e4_spec, b32_e5_spec,
      b32_e6_last_spec by assumption.
    rewrite !b32_ch_val. reflexivity.
  - rewrite b32_e0_spec, b32_e1_spec, b32_e2_spec, b32_e3_spec, b32_e4_spec, b32_e5_spec,
      b32_e6_spec, b32_e7_spec by assumption.
    rewrite !b32_ch_val. cbn [bind]. rewrite (IH H). cbn [bind].
    rewrite spec_enc32_step. reflexivity.
Qed.

Example b32_encode_foobar :
  b32_display [102; 111; 111; 98; 97; 114] = Ok [67; 80; 78; 77; 85; 79; 74; 49; 69; 56] /\
  spec_enc32 [102] = [67; 79].
Proof. vm_compute. auto. Qed.

Lemma spec_enc16_step c r :
  spec_enc16 (c :: r) =
  sym alpha16 (bits_val [tb c 7; tb c 6; tb c 5; tb c 4]) ::
  sym alpha16 (bits_val [tb c 3; tb c 2; tb c 1; tb c 0]) :: spec_enc16 r.
Proof. reflexivity. Qed.

Lemma nth_error_range n c : c < N.of_nat n -> nth_error (range n) (N.to_nat c) = Some c.
Proof.
  intros H. unfold range. rewrite nth_error_map.
  rewrite (nth_error_nth' (seq 0 n) 0%nat) by (rewrite seq_length; lia).
  rewrite seq_nth by lia. cbn [option_map]. f_equal. lia.
Qed.

Lemma b16_tab_entry c : octet c ->
  nth_error b16_encode_tab (N.to_nat c) =
  Some (sym alpha16 (bits_val [tb c 7; tb c 6; tb c 5; tb c 4]),
        sym alpha16 (bits_val [tb c 3; tb c 2; tb c 1; tb c 0])).
Proof.
  intros H. rewrite enc_tab16_is_rfc, nth_error_map, nth_error_range by exact H. cbn [option_map].
  do 2 f_equal; f_equal.
  - exact (eq_trans (eq_sym (N.shiftr_div_pow2 c 4)) (shr_bits c 4 4 H)).
  - exact (eq_trans (eq_sym (N.land_ones c 4)) (land_shr_bits c 0 4)).
Qed.

Theorem b16_encode_is_rfc4648 bs : octets bs -> b16_display bs = Ok (spec_enc16 bs).
Proof.
  induction bs as [|c r IH]; intros H; [reflexivity|].
  inv_octets H. cbn [b16_display]. rewrite (b16_tab_entry c Ho), (IH H), spec_enc16_step. reflexivity.
Qed.

Example b16_encode_f00f :
  b16_display [240; 15] = Ok [70; 48; 48; 70] /\ spec_enc16 [171] = [65; 66].
Proof. vm_compute. auto. Qed.

(* C18 proofs: IterScanner::scan_name is Symbols::with(chars, from_symbols) =
   C03's name_from_chars, so the abstract from_symbols of scan_name_with is
   discharged: a token with a malformed escape is refused. *)
From Coq Require Import NArith List Bool Lia.
Import ListNotations.
From DV Require Import Base.Outcome C18.Gen C18.Model C18.ModelName C18.ProofsUsers.
From DV Require C03.Gen C03.Model C03.ModelText.
Local Open Scope N_scope.

(* C03's Symbol::from_chars step and this development's `symbols` read the same
   escape syntax *)
Lemma sym_next_ok cs :
  match C03.ModelText.sym_next cs with
  | Err _ => snd (symbols cs) = false
  | Ok None => cs = []
  | Ok (Some (_, rest)) => snd (symbols cs) = snd (symbols rest) /\ (length rest < length cs)%nat
  | _ => False
  end.
Proof.
  unfold C03.ModelText.sym_next, C03.ModelText.backslash, C03.ModelText.is_digit.
  cbv [C03.Gen.sym_dec_max C03.Gen.sym_simple_lo C03.Gen.sym_simple_hi].
  destruct cs as [|c r]; [reflexivity|]. cbn [symbols]. unfold is_digit.
  change sym_decimal_max with 255. change sym_simple_min with 32. change sym_simple_max with 126.
  destruct (negb (c =? 92)).
  { destruct (symbols r). cbn [snd length]. split; [reflexivity|lia]. }
  destruct r as [|d1 r1]; [reflexivity|].
  destruct ((48 <=? d1) && (d1 <=? 57)).
  - destruct r1 as [|d2 r2]; [reflexivity|].
    destruct ((48 <=? d2) && (d2 <=? 57)); cbn [negb]; [|reflexivity].
    destruct r2 as [|d3 r3]; [reflexivity|].
    destruct ((48 <=? d3) && (d3 <=? 57)); cbn [negb]; [|reflexivity].
    destruct (255 <? (d1 - 48) * 100 + (d2 - 48) * 10 + (d3 - 48)); [reflexivity|].
    destruct (symbols r3). cbn [snd length]. split; [reflexivity|lia].
  - destruct (255 <? d1); [reflexivity|].
    destruct ((d1 <? 32) || (126 <? d1)); [reflexivity|].
    destruct (symbols r1). cbn [snd length]. split; [reflexivity|lia].
Qed.

Lemma append_syms_kept fuel : forall cap st cs st' e,
  C03.ModelText.append_syms fuel cap st cs = Ok (st', e) -> e = None -> snd (symbols cs) = true.
Proof.
  induction fuel as [|f IH]; intros cap st cs st' e H En; cbn [C03.ModelText.append_syms] in H; [discriminate|].
  pose proof (sym_next_ok cs) as S.
  destruct (C03.ModelText.sym_next cs) as [[[y rest]|]|e0| |]; try contradiction.
  - destruct S as [S _]. rewrite S.
    destruct (C03.ModelText.push_symbol cap st y) as [st1 [u|e1|p|]]; try discriminate.
    exact (IH cap st1 rest st' e H En).
  - subst cs. reflexivity.
  - injection H as _ <-. discriminate En.
Qed.

Theorem scan_name_refuses_bad_escapes token : snd (symbols token) = false ->
  forall w, scan_name token <> Ok w.
Proof.
  intros B w H. unfold scan_name, C03.ModelText.name_from_chars in H.
  pose proof (sym_next_ok token) as Hs.
  destruct (C03.ModelText.sym_next token) as [[[first rest]|]|e0| |]; try discriminate; try contradiction.
  destruct Hs as [Hs _]. rewrite Hs in B.
  destruct (C03.ModelText.is_char first C03.Gen.sym_dot).
  - pose proof (sym_next_ok rest) as S2.
    destruct (C03.ModelText.sym_next rest) as [[[y r2]|]|e1| |]; try discriminate; try contradiction;
      try (destruct (C03.Model.raw_append None [] [0]); discriminate).
    subst rest. discriminate B.
  - destruct (C03.ModelText.push_symbol None C03.Model.b_init first) as [st [u|e1|p|]]; try discriminate.
    destruct (C03.ModelText.append_syms (S (length rest)) None st rest) as [[st' e]| | |] eqn:A; try discriminate.
    destruct e as [e|].
    + unfold C03.ModelText.kept in H. destruct (C03.Model.b_into_name None st'); discriminate.
    + rewrite (append_syms_kept _ _ _ _ _ _ A eq_refl) in B. discriminate.
Qed.

(* that an accepted token is a valid absolute name is C03's theorem
   from_chars_valid about the same function name_from_chars *)

Example scan_name_examples :
  scan_name [119; 46; 99; 46] = Ok [1; 119; 1; 99; 0] /\
  (forall w, scan_name [119; 46; 99; 92] <> Ok w) /\ (forall w, scan_name [119; 92; 51; 48; 48; 46] <> Ok w).
Proof.
  split; [vm_compute; reflexivity|]. split; apply scan_name_refuses_bad_escapes; vm_compute; reflexivity.
Qed.

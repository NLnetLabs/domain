(* C18 proofs: the scanner-side SymbolConverters accept exactly what
   `decode` accepts and hand the scanner the same octets (simulation between
   the converter state and the decoder state). *)
From Coq Require Import NArith List Bool Lia.
Import ListNotations.
From DV Require Import Base.Outcome C18.Gen C18.Model C18.Proofs C18.ProofsEnc C18.ProofsSpec
  C18.ProofsDec64 C18.ProofsDec32 C18.ProofsApi.
Local Open Scope N_scope.

Definition same_result (o1 o2 : outcome (list N)) : Prop :=
  match o1, o2 with
  | Ok a, Ok b => a = b
  | Err _, Err _ => True
  | _, _ => False
  end.

Definition c64_cont (c : conv64) (val : N) : outcome (conv64 * list N) :=
  do inp <- buf4_set (c64_input c) (c64_next c) val;
  let next' := c64_next c + 1 in
  if next' =? b64_conv_group then
    let '(x0, x1, x2, x3) := inp in
    let o0 := b64_conv_oct0 x0 x1 x2 x3 in
    if x2 =? b64_pad_marker then
      if x3 =? b64_pad_marker then Ok (mkc64 inp b64_eof_marker, [o0])
      else Err E_CONV_ILLEGAL
    else
      let o1 := b64_conv_oct1 x0 x1 x2 x3 in
      if x3 =? b64_pad_marker then Ok (mkc64 inp b64_eof_marker, [o0; o1])
      else Ok (mkc64 inp 0, [o0; o1; b64_conv_oct2 x0 x1 x2 x3])
  else Ok (mkc64 inp next', []).

Lemma c64_sem c ch : c64_next c <> 240 ->
  c64_process_char c ch =
  if ch =? 61 then (if c64_next c <? 2 then Err E_CONV_ILLEGAL else c64_cont c 128)
  else match val64 ch with None => Err E_CONV_ILLEGAL | Some v => c64_cont c v end.
Proof.
  intros Hn. unfold c64_process_char.
  cbv [b64_eof_marker b64_pad b64_conv_pad_min b64_conv_ascii_max b64_pad_marker].
  destruct (N.eqb_spec (c64_next c) 240); [contradiction|].
  destruct (N.eqb_spec ch 61); [reflexivity|].
  destruct (N.ltb_spec 127 ch) as [G|L].
  - rewrite val64_none_high by exact G. reflexivity.
  - destruct (dec_tab64_ok ch) as (v & E1 & E2); [lia|].
    rewrite E1. cbn [bind]. rewrite <- E2.
    change b64_conv_illegal_val with b64_illegal_val.
    destruct (v =? b64_illegal_val); reflexivity.
Qed.

Lemma ccont_0 x0 x1 x2 x3 v : c64_cont (mkc64 (x0, x1, x2, x3) 0) v = Ok (mkc64 (v, x1, x2, x3) 1, []).
Proof. reflexivity. Qed.
Lemma ccont_1 x0 x1 x2 x3 v : c64_cont (mkc64 (x0, x1, x2, x3) 1) v = Ok (mkc64 (x0, v, x2, x3) 2, []).
Proof. reflexivity. Qed.
Lemma ccont_2 x0 x1 x2 x3 v : c64_cont (mkc64 (x0, x1, x2, x3) 2) v = Ok (mkc64 (x0, x1, v, x3) 3, []).
Proof. reflexivity. Qed.
Lemma ccont_3 x0 x1 x2 x3 v :
  c64_cont (mkc64 (x0, x1, x2, x3) 3) v =
  if x2 =? 128 then
    (if v =? 128 then Ok (mkc64 (x0, x1, x2, v) 240, [b64_oct0 x0 x1 x2 v]) else Err E_CONV_ILLEGAL)
  else if v =? 128 then Ok (mkc64 (x0, x1, x2, v) 240, [b64_oct0 x0 x1 x2 v; b64_oct1 x0 x1 x2 v])
  else Ok (mkc64 (x0, x1, x2, v) 0, [b64_oct0 x0 x1 x2 v; b64_oct1 x0 x1 x2 v; b64_oct2 x0 x1 x2 v]).
Proof. reflexivity. Qed.

Lemma sim64 s : forall x0 x1 x2 x3 n acc, n < 4 \/ n = 240 ->
  same_result (c64_run (mkc64 (x0, x1, x2, x3) n) acc (map Sym s))
              (b64_decode_from (mk64 (x0, x1, x2, x3) n (Ok acc)) s).
Proof.
  induction s as [|ch r IH]; intros x0 x1 x2 x3 n acc Hn.
  - assert (C : n = 0 \/ n = 1 \/ n = 2 \/ n = 3 \/ n = 240) by lia.
    destruct C as [-> | [-> | [-> | [-> | ->]]]]; cbn; rewrite ?app_nil_r; auto.
  - cbn [map c64_run c64_process_symbol]. rewrite dfc64.
    destruct Hn as [Hn| ->].
    2:{ cbn. exact I. }
    assert (C : n = 0 \/ n = 1 \/ n = 2 \/ n = 3) by lia.
    rewrite c64_sem by (cbn; lia).
    destruct (N.eqb_spec ch 61) as [->|Hc].
    + rewrite b64_push_pad by (cbn; lia). cbn [c64_next d64_next].
      destruct C as [-> | [-> | [-> | ->]]]; cbn [N.ltb N.compare Pos.compare Pos.compare_cont].
      * exact I.
      * exact I.
      * rewrite ccont_2, cont_2. cbn [bind fst snd]. rewrite app_nil_r. apply IH. lia.
      * rewrite ccont_3, cont_3. cbv zeta. cbn [N.eqb Pos.eqb negb].
        destruct (x2 =? 128); cbn [negb bind fst snd].
        -- apply IH. lia.
        -- rewrite <- app_assoc. apply IH. lia.
    + rewrite b64_push_sem by (cbn; auto; lia).
      destruct (val64 ch) as [v|] eqn:V; [|exact I].
      pose proof (ne128 v (val64_lt _ _ V)) as Nv.
      destruct C as [-> | [-> | [-> | ->]]].
      * rewrite ccont_0, cont_0. cbn [bind fst snd]. rewrite app_nil_r. apply IH. lia.
      * rewrite ccont_1, cont_1. cbn [bind fst snd]. rewrite app_nil_r. apply IH. lia.
      * rewrite ccont_2, cont_2. cbn [bind fst snd]. rewrite app_nil_r. apply IH. lia.
      * rewrite ccont_3, cont_3. cbv zeta. rewrite Nv. cbn [negb].
        destruct (x2 =? 128); cbn [negb bind fst snd]; [exact I|].
        rewrite <- !app_assoc. apply IH. lia.
Qed.

Theorem b64_converter_agrees chunks :
  same_result (b64_convert chunks) (b64_decode (concat chunks)).
Proof.
  unfold b64_convert. rewrite c64_run_tokens, b64_decode_is_cur.
  apply (sim64 (concat chunks) 0 0 0 0 0 []). lia.
Qed.

Example b64_converter_examples :
  b64_convert [[90; 103]; [61; 61]] = Ok [102] /\ b64_convert [[90; 103; 61; 97]] = Err E_CONV_ILLEGAL /\
  b64_convert [[90; 103; 61; 61]; [65]] = Err E_TRAILING /\ b64_convert [[90]] = Err E_SHORT.
Proof. vm_compute. repeat split. Qed.

Definition c32_cont (c : conv32) (v : N) : outcome (conv32 * list N) :=
  do inp <- buf8_set (c32_input c) (c32_next c) v;
  let next' := c32_next c + 1 in
  if next' =? b32_conv_group then
    Ok (mkc32 inp 0, [app8 b32_conv_oct0 inp; app8 b32_conv_oct1 inp; app8 b32_conv_oct2 inp;
                      app8 b32_conv_oct3 inp; app8 b32_conv_oct4 inp])
  else Ok (mkc32 inp next', []).

Lemma c32_sem c ch :
  c32_process_char c ch = match val32 ch with None => Err E_CONV_ILLEGAL | Some v => c32_cont c v end.
Proof.
  unfold c32_process_char. cbv [b32_conv_ascii_max].
  destruct (N.ltb_spec 127 ch) as [G|L].
  - rewrite val32_none_high by exact G. reflexivity.
  - destruct (dec_tab32_ok ch) as (v & E1 & E2); [lia|].
    rewrite E1. cbn [bind]. rewrite <- E2.
    change b32_conv_illegal_val with b32_illegal_val.
    destruct (v =? b32_illegal_val); reflexivity.
Qed.

Lemma c32_tail_spec b n : n < 8 ->
  c32_process_tail (mkc32 b n) =
  if existsb (N.eqb n) [1; 3; 6] then Err E_SHORT else Ok (firstn (N.to_nat (5 * n / 8)) (b32_octets b)).
Proof.
  destruct b as [[[[[[[x0 x1] x2] x3] x4] x5] x6] x7]. intros H.
  assert (C : n = 0 \/ n = 1 \/ n = 2 \/ n = 3 \/ n = 4 \/ n = 5 \/ n = 6 \/ n = 7) by lia.
  destruct C as [-> | [-> | [-> | [-> | [-> | [-> | [-> | ->]]]]]]]; reflexivity.
Qed.

Lemma sim32 s : forall b n acc, n < 8 ->
  same_result (c32_run (mkc32 b n) acc (map Sym s)) (b32_decode_from (mk32 b n (Ok acc)) s).
Proof.
  induction s as [|ch r IH]; intros b n acc Hn.
  - cbn [map c32_run b32_decode_from]. rewrite c32_tail_spec, b32_finalize_spec by exact Hn.
    destruct (existsb (N.eqb n) [1; 3; 6]); cbn; auto.
  - cbn [map c32_run c32_process_symbol b32_decode_from].
    rewrite c32_sem, b32_push_sem.
    destruct (val32 ch) as [v|]; [|exact I].
    unfold c32_cont, b32_cont. cbn [c32_input c32_next d32_buf d32_next d32_target].
    destruct (buf8_set_spec b n v Hn) as (b' & -> & _). cbn [bind]. cbv [b32_conv_group b32_group].
    destruct (N.eqb_spec (n + 1) 8) as [E8|N8]; cbn [bind fst snd d32_target target_err].
    + rewrite fold_append_ok. apply IH. lia.
    + rewrite app_nil_r. apply IH. lia.
Qed.

Theorem b32_converter_agrees chunks :
  same_result (b32_convert chunks) (b32_decode (concat chunks)).
Proof.
  unfold b32_convert. rewrite c32_run_tokens.
  apply (sim32 (concat chunks) (0, 0, 0, 0, 0, 0, 0, 0) 0 []). lia.
Qed.

Lemma c16_sem c ch :
  c16_process_symbol c (Sym ch) =
  match val16 ch with
  | None => Err E_CONV_ILLEGAL
  | Some v => if c16_pending c
              then Ok (mkc16 (N.lor (c16_buf c) v) false, [N.lor (c16_buf c) v])
              else Ok (mkc16 (N.land (N.shiftl v b16_conv_shift) 255) true, [])
  end.
Proof.
  unfold c16_process_symbol. change b16_conv_radix with 16. rewrite to_digit16_is_val16. reflexivity.
Qed.

Lemma sim16 s : forall b acc,
  same_result (c16_run (mkc16 b false) acc (map Sym s)) (b16_decode_from (mk16 None (Ok acc)) s) /\
  same_result (c16_run (mkc16 b true) acc (map Sym s)) (b16_decode_from (mk16 (Some b) (Ok acc)) s).
Proof.
  induction s as [|ch r IH]; intros b acc.
  - cbn. rewrite app_nil_r. auto.
  - cbn [map c16_run b16_decode_from]. rewrite !c16_sem, !b16_push_sem.
    cbn [c16_pending c16_buf d16_buf d16_target].
    destruct (val16 ch) as [v|]; [|cbn; auto].
    cbv zeta. cbn [bind fst snd d16_target target_err append]. rewrite app_nil_r.
    change b16_conv_shift with b16_shift.
    split; [apply (IH (N.land (N.shiftl v b16_shift) 255) acc)|apply (IH (N.lor b v))].
Qed.

Theorem b16_converter_agrees chunks :
  same_result (b16_convert chunks) (b16_decode (concat chunks)).
Proof.
  unfold b16_convert. rewrite c16_run_tokens.
  apply (sim16 (concat chunks) 0 []).
Qed.

Example converter_examples_32_16 :
  b32_convert [[67]; [79]] = Ok [102] /\ b32_convert [[67]] = Err E_SHORT /\
  b32_convert [[67; 87]] = Err E_CONV_ILLEGAL /\
  b16_convert [[70]; [48]] = Ok [240] /\ b16_convert [[70]] = Err E_SHORT.
Proof. vm_compute. repeat split. Qed.

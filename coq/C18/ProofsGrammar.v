(* C18 proofs: well-formedness as a grammar.  RFC 4648 section 4: Base64 text is
   a sequence of 4-character quanta over the alphabet; only the final quantum
   may be  x x x =  or  x x = = .  wf64 says exactly this and is equivalent to
   acceptance by spec_dec64, hence by `decode`. *)
From Coq Require Import NArith List Bool Lia Arith.
Import ListNotations.
From DV Require Import Base.Outcome C18.Gen C18.Model C18.Proofs C18.ProofsEnc C18.ProofsSpec
  C18.ProofsDec64 C18.ProofsDec32.
Local Open Scope N_scope.

Definition in64 (c : N) : Prop := val64 c <> None.

Inductive wf64 : list N -> Prop :=
| wf64_nil : wf64 []
| wf64_quad a b c d r : in64 a -> in64 b -> in64 c -> in64 d -> wf64 r -> wf64 (a :: b :: c :: d :: r)
| wf64_pad1 a b c : in64 a -> in64 b -> in64 c -> wf64 [a; b; c; 61]
| wf64_pad2 a b : in64 a -> in64 b -> wf64 [a; b; 61; 61].

(* value: drop the '=' characters, concatenate the 6-bit values, cut into octets *)
Definition data64 (s : list N) : list N := filter (fun c => negb (c =? 61)) s.
Definition octets64 (s : list N) : list N :=
  match values val64 (data64 s) with
  | Some vs => take_octets (flat_map (bits_msb 6) vs)
  | None => []
  end.

Lemma in64_not_pad c : in64 c -> (c =? 61) = false.
Proof. intros H. apply N.eqb_neq. intros ->. apply H. reflexivity. Qed.
Lemma in64_some c : in64 c -> exists v, val64 c = Some v.
Proof. unfold in64. destruct (val64 c); [eauto|contradiction]. Qed.

Lemma take_octets_24 v0 v1 v2 v3 X :
  take_octets (bits_msb 6 v0 ++ bits_msb 6 v1 ++ bits_msb 6 v2 ++ bits_msb 6 v3 ++ X) =
  dec6 [v0; v1; v2; v3] ++ take_octets X.
Proof. unfold dec6. cbn [flat_map]. rewrite !bits6. reflexivity. Qed.

(* a text in the grammar has a value, and the specification decoder computes it *)
Lemma wf64_spec s : wf64 s ->
  exists vs, values val64 (data64 s) = Some vs /\
             spec_dec64 s = Some (take_octets (flat_map (bits_msb 6) vs)).
Proof.
  induction 1 as [|a b c d r Ha Hb Hc Hd Hr (vs & IHv & IHs)|a b c Ha Hb Hc|a b Ha Hb].
  - exists []. split; reflexivity.
  - destruct (in64_some a Ha) as [va Va]. destruct (in64_some b Hb) as [vb Vb].
    destruct (in64_some c Hc) as [vc Vc]. destruct (in64_some d Hd) as [vd Vd].
    exists (va :: vb :: vc :: vd :: vs). unfold data64 in *. cbn [filter spec_dec64].
    rewrite (in64_not_pad a Ha), (in64_not_pad b Hb), (in64_not_pad c Hc), (in64_not_pad d Hd).
    cbn [negb values]. rewrite Va, Vb, Vc, Vd, IHv. split; [reflexivity|].
    cbn [flat_map]. rewrite take_octets_24. destruct r as [|x l].
    + injection IHv as <-. cbn [flat_map take_octets]. rewrite app_nil_r. reflexivity.
    + rewrite IHs. reflexivity.
  - destruct (in64_some a Ha) as [va Va]. destruct (in64_some b Hb) as [vb Vb].
    destruct (in64_some c Hc) as [vc Vc]. exists [va; vb; vc]. unfold data64. cbn [filter spec_dec64].
    rewrite (in64_not_pad a Ha), (in64_not_pad b Hb), (in64_not_pad c Hc).
    cbn [negb values N.eqb Pos.eqb filter]. rewrite Va, Vb, Vc. split; reflexivity.
  - destruct (in64_some a Ha) as [va Va]. destruct (in64_some b Hb) as [vb Vb].
    exists [va; vb]. unfold data64. cbn [filter spec_dec64].
    rewrite (in64_not_pad a Ha), (in64_not_pad b Hb).
    cbn [negb values N.eqb Pos.eqb filter]. rewrite Va, Vb. split; reflexivity.
Qed.

Lemma wf64_accepts s : wf64 s -> exists bs, spec_dec64 s = Some bs.
Proof. intros W. destruct (wf64_spec s W) as (vs & _ & E). eauto. Qed.

Lemma some_in64 c v : val64 c = Some v -> in64 c.
Proof. unfold in64. intros ->. discriminate. Qed.

Lemma accepts_wf64 s : forall bs, spec_dec64 s = Some bs -> wf64 s.
Proof.
  induction s as [|a|a b|a b c|a b c d r IH] using list_ind4; intros bs H; try discriminate.
  - constructor.
  - cbn [spec_dec64] in H. destruct r as [|x l].
    + destruct (val64 a) as [va|] eqn:Va; [|discriminate].
      destruct (val64 b) as [vb|] eqn:Vb; [|discriminate].
      destruct (N.eqb_spec c 61) as [->|Nc].
      * destruct (N.eqb_spec d 61) as [->|Nd]; [|discriminate].
        apply wf64_pad2; eapply some_in64; eassumption.
      * destruct (val64 c) as [vc|] eqn:Vc; [|discriminate].
        destruct (N.eqb_spec d 61) as [->|Nd].
        -- apply wf64_pad1; eapply some_in64; eassumption.
        -- destruct (val64 d) as [vd|] eqn:Vd; [|discriminate].
           apply wf64_quad; try (eapply some_in64; eassumption). constructor.
    + destruct (val64 a) as [va|] eqn:Va; [|discriminate].
      destruct (val64 b) as [vb|] eqn:Vb; [|discriminate].
      destruct (val64 c) as [vc|] eqn:Vc; [|discriminate].
      destruct (val64 d) as [vd|] eqn:Vd; [|discriminate].
      destruct (spec_dec64 (x :: l)) as [bs'|] eqn:E; [|discriminate].
      apply wf64_quad; try (eapply some_in64; eassumption). apply (IH bs'). reflexivity.
Qed.

Lemma spec_dec64_value s bs : spec_dec64 s = Some bs -> bs = octets64 s.
Proof.
  intros H. destruct (wf64_spec s (accepts_wf64 s bs H)) as (vs & V & E).
  rewrite E in H. injection H as <-. unfold octets64. rewrite V. reflexivity.
Qed.

Theorem b64_accepts_iff_grammar s bs : b64_decode s = Ok bs <-> wf64 s /\ bs = octets64 s.
Proof.
  rewrite b64_accepts_iff_wellformed. split.
  - intros H. split; [exact (accepts_wf64 s bs H)|exact (spec_dec64_value s bs H)].
  - intros [W ->]. destruct (wf64_accepts s W) as [bs E]. rewrite E. f_equal.
    exact (spec_dec64_value s bs E).
Qed.

Lemma rejects_iff_not (o : outcome (list N)) (wf : Prop) (v : list N) :
  no_panic o -> (forall bs, o = Ok bs <-> wf /\ bs = v) -> (exists e, o = Err e) <-> ~ wf.
Proof.
  intros NP A. split.
  - intros [e ->] W. discriminate (proj2 (A v) (conj W eq_refl)).
  - intros NW. destruct o as [bs|e|p|]; try contradiction; [|eauto].
    destruct (NW (proj1 (proj1 (A bs) eq_refl))).
Qed.

Theorem b64_rejects_iff_not_grammar s : (exists e, b64_decode s = Err e) <-> ~ wf64 s.
Proof.
  exact (rejects_iff_not _ _ _ (proj1 (b64_decode_total s)) (b64_accepts_iff_grammar s)).
Qed.

(* Base32hex / Base16: every character in the alphabet (either case), no
   dangling character, octets of the concatenated 5- / 4-bit values *)
Definition wf_unpadded (k : nat) (val : N -> option N) (s : list N) : Prop :=
  Forall (fun c => val c <> None) s /\ (Nat.modulo (k * length s) 8 < k)%nat.
Definition octets_unpadded (k : nat) (val : N -> option N) (s : list N) : list N :=
  match values val s with Some vs => take_octets (flat_map (bits_msb k) vs) | None => [] end.

Lemma values_length val s : forall vs, values val s = Some vs -> length vs = length s.
Proof.
  induction s as [|c r IH]; intros vs V; cbn [values] in V.
  - injection V as <-. reflexivity.
  - destruct (val c); [|discriminate]. destruct (values val r) as [vr|]; [|discriminate].
    injection V as <-. cbn [length]. f_equal. apply IH. reflexivity.
Qed.
Lemma forall_values_some val s : Forall (fun c => val c <> None) s -> exists vs, values val s = Some vs.
Proof.
  induction 1 as [|c r Hc Hr [vr IH]]; [eexists; reflexivity|].
  cbn [values]. destruct (val c) as [v|]; [|contradiction]. rewrite IH. eexists; reflexivity.
Qed.

Lemma spec_unpadded_iff k val s bs :
  spec_dec_unpadded k val s = Some bs <-> wf_unpadded k val s /\ bs = octets_unpadded k val s.
Proof.
  unfold spec_dec_unpadded, wf_unpadded, octets_unpadded. split.
  - destruct (values val s) as [vs|] eqn:V; [|discriminate].
    rewrite (values_length _ _ _ V).
    destruct (Nat.ltb_spec (Nat.modulo (k * length s) 8) k) as [L|G]; [|discriminate].
    intros H. injection H as <-. split; [split; [exact (values_some_forall _ _ _ V)|exact L]|reflexivity].
  - intros [[F L] ->]. destruct (forall_values_some val s F) as [vs V]. rewrite V.
    rewrite (values_length _ _ _ V).
    destruct (Nat.ltb_spec (Nat.modulo (k * length s) 8) k) as [L'|G]; [reflexivity|lia].
Qed.

Theorem b32_accepts_iff_grammar s bs :
  b32_decode s = Ok bs <-> wf_unpadded 5 val32 s /\ bs = octets_unpadded 5 val32 s.
Proof. rewrite b32_accepts_iff_wellformed. apply spec_unpadded_iff. Qed.
Theorem b16_accepts_iff_grammar s bs :
  b16_decode s = Ok bs <-> wf_unpadded 4 val16 s /\ bs = octets_unpadded 4 val16 s.
Proof. rewrite b16_accepts_iff_wellformed. apply spec_unpadded_iff. Qed.

Example grammar_examples :
  wf64 [90; 103; 61; 61] /\ ~ wf64 [90; 103; 61; 97] /\ octets64 [90; 109; 57; 118] = [102; 111; 111] /\
  wf_unpadded 5 val32 [67; 79] /\ ~ wf_unpadded 5 val32 [67] /\ wf_unpadded 4 val16 [102; 48].
Proof.
  repeat split.
  - apply wf64_pad2; discriminate.
  - intros W. apply wf64_accepts in W. destruct W as [bs W]. vm_compute in W. discriminate.
  - repeat constructor; discriminate.
  - cbn. lia.
  - intros [_ L]. cbn in L. lia.
  - repeat constructor; discriminate.
  - cbn. lia.
Qed.

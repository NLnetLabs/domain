(* C18 proofs: the users of the codecs in presentation format:
   IterScanner::{convert_token,convert_entry} driving the SymbolConverters, and
   Nsec3Salt / OwnerHash FromStr, Display and scan.  Four T1 flags say which
   variant of the code is in /repo; the `_as_coded` statements give, for either
   value, the full statement or a refutation with a concrete witness. *)
From Coq Require Import NArith List Bool Lia.
Import ListNotations.
From DV Require Import Base.Outcome C18.Gen C18.Model C18.Proofs C18.ProofsEnc C18.ProofsSpec
  C18.ProofsDec64 C18.ProofsDec32 C18.ProofsApi C18.ProofsConv.
Local Open Scope N_scope.

Lemma symbols_plain s : ~ In 92 s -> symbols s = (map SChar s, true).
Proof.
  induction s as [|c r IH]; intros H; [reflexivity|].
  cbn [symbols map]. destruct (N.eqb_spec c 92) as [->|Nc].
  - exfalso. apply H. left. reflexivity.
  - cbn [negb]. rewrite IH; [reflexivity|]. intros I. apply H. right. exact I.
Qed.

Definition finish {C} (tail : C -> outcome (list N)) (r : outcome (C * list N)) : outcome (list N) :=
  do ca <- r; do t <- tail (fst ca); Ok (snd ca ++ t).

Lemma scan_token_plain_feed chk C process c acc s : ~ In 92 s ->
  scan_token chk C process c acc s = feed C process c acc (map SChar s).
Proof.
  intros H. unfold scan_token. rewrite (symbols_plain s H). cbn [negb]. rewrite andb_false_r.
  destruct (feed C process c acc (map SChar s)) as [[c' a]| | |]; reflexivity.
Qed.

(* a SymbolConverter fed the symbols of escape-free tokens runs as on their
   characters *)
Section ConvScan.
  Variable C : Type.
  Variable pchar : C -> N -> outcome (C * list N).
  Variable csym : C -> symbol -> outcome (C * list N).
  Variable tail : C -> outcome (list N).
  Variable run : C -> list N -> list esym -> outcome (list N).
  Hypothesis csym_eq : forall c y, csym c y = do ch <- sym_char y; pchar c ch.
  Hypothesis run_nil : forall c acc, run c acc [] = do t <- tail c; Ok (acc ++ t).
  Hypothesis run_cons : forall c acc ch r,
    run c acc (Sym ch :: r) = do cr <- pchar c ch; run (fst cr) (acc ++ snd cr) r.

  Lemma run_app_feed a : forall b c acc,
    run c acc (map Sym (a ++ b)) =
    do ca <- feed C csym c acc (map SChar a); run (fst ca) (snd ca) (map Sym b).
  Proof.
    induction a as [|ch r IH]; intros b c acc; [reflexivity|].
    cbn [app map feed]. rewrite run_cons, csym_eq. cbn [sym_char into_char bind].
    destruct (pchar c ch) as [[c' o]| | |]; cbn [bind fst snd]; try reflexivity. apply IH.
  Qed.

  Lemma entry_from_plain chk toks : forall c acc, Forall (fun t => ~ In 92 t) toks ->
    convert_entry_from chk C csym tail c acc toks = run c acc (map Sym (concat toks)).
  Proof.
    induction toks as [|tk r IH]; intros c acc H; [apply eq_sym, run_nil|].
    cbn [convert_entry_from concat]. rewrite scan_token_plain_feed by exact (Forall_inv H).
    rewrite run_app_feed.
    destruct (feed C csym c acc (map SChar tk)) as [[c' a]| | |]; cbn [bind fst snd]; try reflexivity.
    apply IH. exact (Forall_inv_tail H).
  Qed.
End ConvScan.

Definition entry_from_plain64 := entry_from_plain _ c64_process_char c64_sym c64_process_tail c64_run
  (fun _ _ => eq_refl) (fun _ _ => eq_refl) (fun _ _ _ _ => eq_refl).
Definition entry_from_plain32 := entry_from_plain _ c32_process_char c32_sym c32_process_tail c32_run
  (fun _ _ => eq_refl) (fun _ _ => eq_refl) (fun _ _ _ _ => eq_refl).
Definition entry_from_plain16 := entry_from_plain _ (fun c ch => c16_process_symbol c (Sym ch)) c16_sym c16_process_tail c16_run
  (fun _ _ => eq_refl) (fun _ _ => eq_refl) (fun _ _ _ _ => eq_refl).

Lemma convert_token_plain chk C process tail c0 s : ~ In 92 s ->
  convert_token chk C process tail c0 s = finish tail (feed C process c0 [] (map SChar s)).
Proof.
  intros H. unfold convert_token, scan_token, finish. rewrite (symbols_plain s H).
  cbn [negb]. rewrite andb_false_r.
  destruct (feed C process c0 [] (map SChar s)) as [[c a]| | |]; reflexivity.
Qed.

(* a token without backslash is converted exactly as the SymbolConverter run of
   C18_converter_agrees_with_decoder, hence accepted iff `decode` accepts it *)
Theorem scan_token_plain s : ~ In 92 s ->
  b64_scan_token s = b64_convert [s] /\ b32_scan_token s = b32_convert [s] /\
  b16_scan_token s = b16_convert [s].
Proof.
  intros H. unfold b64_convert, b32_convert, b16_convert.
  rewrite c64_run_tokens, c32_run_tokens, c16_run_tokens.
  assert (F : Forall (fun t => ~ In 92 t) [s]) by (constructor; [exact H|constructor]).
  exact (conj (entry_from_plain64 _ [s] _ _ F)
              (conj (entry_from_plain32 _ [s] _ _ F) (entry_from_plain16 _ [s] _ _ F))).
Qed.

Theorem scan_token_plain_agrees_with_decode s : ~ In 92 s ->
  same_result (b64_scan_token s) (b64_decode s) /\ same_result (b32_scan_token s) (b32_decode s) /\
  same_result (b16_scan_token s) (b16_decode s).
Proof.
  intros H. destruct (scan_token_plain s H) as (-> & -> & ->).
  pose proof (b64_converter_agrees [s]) as A. pose proof (b32_converter_agrees [s]) as B.
  pose proof (b16_converter_agrees [s]) as D. cbn [concat] in *. rewrite app_nil_r in *. auto.
Qed.

Lemma convert_token_bad_escape C process tail c0 token :
  snd (symbols token) = false ->
  forall bs, convert_token true C process tail c0 token <> Ok bs.
Proof.
  intros B bs. unfold convert_token, scan_token. destruct (symbols token) as [syms ok]. cbn [snd] in B.
  subst ok. cbn [negb andb].
  destruct (feed C process c0 [] syms) as [[c a]| | |]; cbn [bind]; discriminate.
Qed.

(* chk = true: the repaired IterScanner (pending/C18-iterscanner-bad-escape.diff);
   chk = false: a token is silently cut at the first malformed escape *)
Definition escapes_stmt_with (chk : bool) : Prop :=
  if chk
  then forall token, snd (symbols token) = false ->
         (forall bs, convert_token chk conv64 c64_sym c64_process_tail c64_new token <> Ok bs) /\
         (forall bs, convert_token chk conv32 c32_sym c32_process_tail c32_new token <> Ok bs) /\
         (forall bs, convert_token chk conv16 c16_sym c16_process_tail c16_new token <> Ok bs) /\
         (forall lim bs, salt_scan_with chk lim token <> Ok bs) /\
         (forall lim bs, hash_scan_with chk lim token <> Ok bs)
  else exists token, snd (symbols token) = false /\
         convert_token chk conv16 c16_sym c16_process_tail c16_new token = Ok [240; 15].

Lemma scan_escapes_sel chk : escapes_stmt_with chk.
Proof.
  destruct chk; unfold escapes_stmt_with.
  - intros token B. repeat split; intros; apply convert_token_bad_escape; assumption.
  - exists [70; 48; 48; 70; 92; 51; 48; 48]. vm_compute. split; reflexivity.
Qed.

Example symbols_examples :
  symbols [70; 92; 48; 52; 56] = ([SChar 70; SDecimal 48], true) /\
  symbols [70; 92; 45] = ([SChar 70; SSimple 45], true) /\
  symbols [70; 48; 92] = ([SChar 70; SChar 48], false) /\
  symbols [70; 92; 51; 48; 48; 70] = ([SChar 70], false) /\
  convert_token true conv16 c16_sym c16_process_tail c16_new [92; 70; 48] = Ok [240] /\
  convert_token true conv16 c16_sym c16_process_tail c16_new [70; 92; 48; 52; 56] = Err E_CONV_ILLEGAL.
Proof. vm_compute. repeat split. Qed.

Lemma list_eqb_eq a : forall b, list_eqb a b = true <-> a = b.
Proof.
  induction a as [|x a IH]; intros [|y b]; cbn [list_eqb]; split; intros H; try discriminate; auto.
  - apply andb_true_iff in H. destruct H as [H1 H2]. apply N.eqb_eq in H1. apply IH in H2. congruence.
  - injection H as -> ->. rewrite N.eqb_refl. cbn. apply IH. reflexivity.
Qed.

Lemma limit_ok (o : outcome (list N)) (lim : bool) (err : N) bs :
  match o with
  | Ok b => if lim && over true 255 b then Err err else Ok b
  | Err e => Err e
  | Panic p => Panic p
  | OutOfFuel => OutOfFuel
  end = Ok bs <-> o = Ok bs /\ (lim = true -> (length bs <= 255)%nat).
Proof.
  destruct o as [b| | |]; [|split; [discriminate|intros [X _]; discriminate]..].
  unfold over. destruct lim; cbn [andb].
  - destruct (N.ltb_spec 255 (N.of_nat (length b))); split.
    + discriminate.
    + intros [X L]. injection X as <-. specialize (L eq_refl). lia.
    + intros X. injection X as <-. split; [reflexivity|lia].
    + intros [X _]. exact X.
  - split; [intros X; split; [exact X|discriminate]|intros [X _]; exact X].
Qed.

Theorem salt_from_str_spec s bs :
  salt_from_str s = Ok bs <->
  (s = [45] /\ bs = []) \/ (s <> [45] /\ spec_dec16 s = Some bs /\ (length bs <= 255)%nat).
Proof.
  unfold salt_from_str. change nsec3_salt_empty_char with 45.
  destruct (list_eqb s [45]) eqn:E.
  - apply list_eqb_eq in E. subst s. split.
    + intros H. injection H as <-. left. auto.
    + intros [[_ ->]|[N _]]; [reflexivity|contradiction].
  - assert (N45 : s <> [45]) by (intros ->; cbn in E; discriminate).
    etransitivity; [exact (limit_ok (b16_decode s) true E_TOOLONG bs)|].
    rewrite b16_accepts_iff_wellformed. split.
    + intros [A B]. right. auto.
    + intros [[-> _]|[_ [A B]]]; [contradiction|auto].
Qed.

Theorem salt_roundtrip bs : octets bs -> (length bs <= 255)%nat ->
  exists t, salt_display bs = Ok t /\ salt_from_str t = Ok bs.
Proof.
  intros Ho Hl. destruct bs as [|c r].
  - exists [45]. split; [reflexivity|]. apply salt_from_str_spec. left. auto.
  - exists (spec_enc16 (c :: r)). split.
    + cbn [salt_display]. apply b16_encode_is_rfc4648, Ho.
    + apply salt_from_str_spec. right. split; [rewrite spec_enc16_step; discriminate|].
      split; [apply spec16_decode_encode, Ho|exact Hl].
Qed.

Theorem salt_display_is_dash_or_hex bs : octets bs ->
  salt_display bs = Ok (match bs with [] => [45] | _ => spec_enc16 bs end).
Proof. intros H. destruct bs; [reflexivity|]. cbn [salt_display]. apply b16_encode_is_rfc4648, H. Qed.

Theorem hash_roundtrip lim bs : octets bs -> (length bs <= 255)%nat ->
  exists t, hash_display bs = Ok t /\ hash_from_str_with lim t = Ok bs.
Proof.
  intros Ho Hl. exists (spec_enc32 bs). split; [apply b32_encode_is_rfc4648, Ho|].
  unfold hash_from_str_with.
  rewrite (proj2 (b32_accepts_iff_wellformed _ _) (spec32_decode_encode bs Ho)).
  unfold over. change nsec3_hash_limit_inclusive with true. change nsec3_hash_max with 255.
  destruct (N.ltb_spec 255 (N.of_nat (length bs))); [lia|]. rewrite andb_false_r. reflexivity.
Qed.

Theorem hash_from_str_limited_spec s bs :
  hash_from_str_with true s = Ok bs <-> spec_dec32 s = Some bs /\ (length bs <= 255)%nat.
Proof.
  etransitivity; [exact (limit_ok (b32_decode s) true E_SHORTBUF bs)|].
  rewrite b32_accepts_iff_wellformed. split; intros [A B]; auto.
Qed.

Theorem hash_from_str_unlimited_spec s bs :
  hash_from_str_with false s = Ok bs <-> spec_dec32 s = Some bs.
Proof.
  etransitivity; [exact (limit_ok (b32_decode s) false E_SHORTBUF bs)|].
  rewrite b32_accepts_iff_wellformed. split; [intros [A _]; exact A|intros A; split; [exact A|discriminate]].
Qed.

Theorem hash_from_str_unlimited_refuted :
  exists s bs, hash_from_str_with false s = Ok bs /\ length bs = 260%nat.
Proof.
  exists (spec_enc32 (repeat 0 260)), (repeat 0 260). split; [|apply repeat_length].
  apply hash_from_str_unlimited_spec, spec32_decode_encode, Forall_forall.
  intros x X. apply repeat_spec in X. subst x. reflexivity.
Qed.

Definition hash_from_str_stmt_with (lim : bool) : Prop :=
  if lim
  then forall s bs, hash_from_str_with lim s = Ok bs <-> spec_dec32 s = Some bs /\ (length bs <= 255)%nat
  else (forall s bs, hash_from_str_with lim s = Ok bs <-> spec_dec32 s = Some bs) /\
       exists s bs, hash_from_str_with lim s = Ok bs /\ length bs = 260%nat.
Lemma hash_from_str_sel lim : hash_from_str_stmt_with lim.
Proof.
  destruct lim; unfold hash_from_str_stmt_with.
  - exact hash_from_str_limited_spec.
  - exact (conj hash_from_str_unlimited_spec hash_from_str_unlimited_refuted).
Qed.

Lemma feed_inv C (process : C -> symbol -> outcome (C * list N)) (P : C -> list N -> Prop) :
  (forall c acc y c' o, P c acc -> process c y = Ok (c', o) -> P c' (acc ++ o)) ->
  forall l c acc c' acc', P c acc -> feed C process c acc l = Ok (c', acc') -> P c' acc'.
Proof.
  intros Step. induction l as [|y r IH]; intros c acc c' acc' Hp H; cbn [feed] in H.
  - injection H as <- <-. exact Hp.
  - destruct (process c y) as [[c1 o]| | |] eqn:E; cbn [bind fst snd] in H; try discriminate.
    exact (IH _ _ _ _ (Step _ _ _ _ _ Hp E) H).
Qed.

Lemma convert_token_ok chk C process tail c0 token bs :
  convert_token chk C process tail c0 token = Ok bs ->
  exists c acc t, feed C process c0 [] (fst (symbols token)) = Ok (c, acc) /\ tail c = Ok t /\ bs = acc ++ t.
Proof.
  unfold convert_token, scan_token. destruct (symbols token) as [syms ok]. cbn [fst].
  destruct (feed C process c0 [] syms) as [[c acc]| | |]; cbn [bind]; try discriminate.
  destruct (chk && negb ok); cbn [bind fst snd]; try discriminate.
  destruct (tail c) as [t| | |] eqn:T; cbn [bind]; try discriminate.
  intros H. injection H as <-. exists c, acc, t. auto.
Qed.

Theorem salt_scan_limited chk token bs : salt_scan_with chk true token = Ok bs -> (length bs <= 255)%nat.
Proof.
  intros H. apply convert_token_ok in H. destruct H as (c & acc & t & F & T & ->).
  assert (Inv : N.of_nat (length acc) = sc_len c /\ sc_len c <= 255).
  { refine (feed_inv saltconv (salt_process true)
              (fun c a => N.of_nat (length a) = sc_len c /\ sc_len c <= 255) _ _ _ _ _ _ _ F); [|cbn; lia].
    intros c1 a1 y c2 o [I1 I2] P. unfold salt_process in P.
    assert (Step : forall cc, (do cr <- c16_sym cc y;
                if nsec3_salt_max <? sc_len c1 + N.of_nat (length (snd cr)) then Err E_TOOLONG
                else Ok (mksc (Some (Some (fst cr))) (sc_len c1 + N.of_nat (length (snd cr))), snd cr))
                = Ok (c2, o) ->
              N.of_nat (length (a1 ++ o)) = sc_len c2 /\ sc_len c2 <= 255).
    { intros cc Q. destruct (c16_sym cc y) as [[c3 o3]| | |]; cbn [bind fst snd] in Q; try discriminate Q.
      change nsec3_salt_max with 255 in Q.
      destruct (N.ltb_spec 255 (sc_len c1 + N.of_nat (length o3))); [discriminate Q|].
      injection Q as <- <-. cbn [sc_len]. rewrite app_length. split; lia. }
    destruct (sc_st c1) as [[cc|]|].
    + exact (Step cc P).
    + discriminate P.
    + destruct (match into_char y with
                | Some c3 => c3 =? nsec3_salt_scan_empty_char
                | None => false
                end).
      * injection P as <- <-. cbn [sc_len]. rewrite app_nil_r. auto.
      * exact (Step c16_new P). }
  destruct Inv as [I1 I2].
  assert (t = []).
  { unfold salt_tail in T. destruct (sc_st c) as [[cc|]|]; try (injection T as <-; reflexivity).
    unfold c16_process_tail in T. destruct (c16_pending cc); [discriminate T|]. injection T as <-. reflexivity. }
  subst t. rewrite app_nil_r. lia.
Qed.

Theorem salt_scan_unlimited_refuted chk :
  exists token bs, salt_scan_with chk false token = Ok bs /\ length bs = 256%nat.
Proof.
  exists (repeat 65 512), (repeat 170 256). split; [|reflexivity].
  unfold salt_scan_with. rewrite convert_token_plain by (intros X; apply repeat_spec in X; discriminate).
  vm_compute. reflexivity.
Qed.

Theorem hash_scan_limited chk token bs : hash_scan_with chk true token = Ok bs -> (length bs <= 255)%nat.
Proof.
  intros H. apply convert_token_ok in H. destruct H as (c & acc & t & F & T & ->).
  assert (Inv : N.of_nat (length acc) = hc_len c /\ hc_len c <= 255).
  { refine (feed_inv hashconv (hash_process true)
              (fun c a => N.of_nat (length a) = hc_len c /\ hc_len c <= 255) _ _ _ _ _ _ _ F); [|cbn; lia].
    intros c1 a1 y c2 o [I1 I2] P. unfold hash_process in P.
    destruct (c32_sym (hc_c c1) y) as [[c3 o3]| | |]; cbn [bind fst snd] in P; try discriminate P.
    unfold hash_check in P. change nsec3_hash_max with 255 in P.
    destruct (N.ltb_spec 255 (hc_len c1 + N.of_nat (length o3))); cbn [bind] in P; [discriminate P|].
    injection P as <- <-. cbn [hc_len]. rewrite app_length. split; lia. }
  destruct Inv as [I1 I2]. unfold hash_tail in T.
  destruct (c32_process_tail (hc_c c)) as [t'| | |]; cbn [bind] in T; try discriminate T.
  unfold hash_check in T. change nsec3_hash_max with 255 in T.
  destruct (N.ltb_spec 255 (hc_len c + N.of_nat (length t'))); cbn [bind] in T; [discriminate T|].
  injection T as <-. rewrite app_length. lia.
Qed.

Theorem hash_scan_unlimited_refuted chk :
  exists token bs, hash_scan_with chk false token = Ok bs /\ length bs = 260%nat.
Proof.
  exists (repeat 48 416), (repeat 0 260). split; [|reflexivity].
  unfold hash_scan_with. rewrite convert_token_plain by (intros X; apply repeat_spec in X; discriminate).
  vm_compute. reflexivity.
Qed.

Definition scan_limit_stmt_with (chk lim_salt lim_hash : bool) : Prop :=
  (if lim_salt then forall token bs, salt_scan_with chk lim_salt token = Ok bs -> (length bs <= 255)%nat
   else exists token bs, salt_scan_with chk lim_salt token = Ok bs /\ length bs = 256%nat) /\
  (if lim_hash then forall token bs, hash_scan_with chk lim_hash token = Ok bs -> (length bs <= 255)%nat
   else exists token bs, hash_scan_with chk lim_hash token = Ok bs /\ length bs = 260%nat).
Lemma scan_limit_sel chk a b : scan_limit_stmt_with chk a b.
Proof.
  unfold scan_limit_stmt_with. split.
  - destruct a; [exact (salt_scan_limited chk)|exact (salt_scan_unlimited_refuted chk)].
  - destruct b; [exact (hash_scan_limited chk)|exact (hash_scan_unlimited_refuted chk)].
Qed.

Example nsec3_examples :
  salt_from_str [45] = Ok [] /\ salt_from_str [] = Ok [] /\ salt_from_str [45; 48] = Err (E_illegal 45) /\
  salt_display [] = Ok [45] /\ salt_display [171] = Ok [65; 66] /\
  salt_scan_with true true [45] = Ok [] /\ salt_scan_with true true [45; 48] = Err E_CONV_ILLEGAL /\
  salt_scan_with true true [92; 45] = Ok [] /\ salt_scan_with true true [70; 48; 92] = Err E_BAD_ESCAPE /\
  salt_scan_with false false [70; 48; 92] = Ok [240] /\
  salt_scan_with true true [97; 66] = Ok [171] /\ hash_scan_with true true [99; 111] = Ok [102] /\
  hash_from_str_with true [67] = Err E_SHORT /\ hash_from_str_with true (repeat 48 416) = Err E_SHORTBUF.
Proof. vm_compute. repeat split. Qed.

(* the entry is converted as the concatenation of its tokens: `decode` of the
   concatenated text decides *)
Theorem scan_entry_plain toks : Forall (fun t => ~ In 92 t) toks ->
  same_result (b64_scan_entry toks) (b64_decode (concat toks)) /\
  same_result (b32_scan_entry toks) (b32_decode (concat toks)) /\
  same_result (b16_scan_entry toks) (b16_decode (concat toks)).
Proof.
  intros H. unfold b64_scan_entry, b32_scan_entry, b16_scan_entry.
  rewrite entry_from_plain64, entry_from_plain32, entry_from_plain16 by exact H.
  pose proof (b64_converter_agrees toks) as A. pose proof (b32_converter_agrees toks) as B.
  pose proof (b16_converter_agrees toks) as D.
  unfold b64_convert, b32_convert, b16_convert in *.
  rewrite c64_run_tokens in A. rewrite c32_run_tokens in B.
  rewrite c16_run_tokens in D. auto.
Qed.

(* RFC 1035 5.1: \DDD with DDD <= 255, or \X with X a printable ASCII
   character other than a digit *)
Inductive wf_esc : list N -> Prop :=
| we_nil : wf_esc []
| we_char c r : c <> 92 -> wf_esc r -> wf_esc (c :: r)
| we_dec d1 d2 d3 r : is_digit d1 = true -> is_digit d2 = true -> is_digit d3 = true ->
    (d1 - 48) * 100 + (d2 - 48) * 10 + (d3 - 48) <= 255 -> wf_esc r -> wf_esc (92 :: d1 :: d2 :: d3 :: r)
| we_simple c r : is_digit c = false -> 32 <= c <= 126 -> wf_esc r -> wf_esc (92 :: c :: r).

Lemma symbols_ok_wf s : wf_esc s -> snd (symbols s) = true.
Proof.
  induction 1 as [|c r Hc Hr IH|d1 d2 d3 r H1 H2 H3 Hv Hr IH|c r Hd Hc Hr IH].
  - reflexivity.
  - cbn [symbols]. destruct (N.eqb_spec c 92); [contradiction|]. cbn [negb].
    destruct (symbols r). exact IH.
  - cbn [symbols N.eqb Pos.eqb negb]. rewrite H1, H2, H3. change sym_decimal_max with 255.
    rewrite (proj2 (N.ltb_ge _ _) Hv).
    destruct (symbols r). exact IH.
  - cbn [symbols N.eqb Pos.eqb negb]. rewrite Hd.
    change sym_simple_min with 32. change sym_simple_max with 126.
    destruct (N.ltb_spec 255 c); [lia|].
    destruct (N.ltb_spec c 32); [lia|]. destruct (N.ltb_spec 126 c); [lia|]. cbn [orb].
    destruct (symbols r). exact IH.
Qed.

Lemma wf_symbols_ok n : forall s, (length s <= n)%nat -> snd (symbols s) = true -> wf_esc s.
Proof.
  induction n as [|n IH]; intros s L H.
  - destruct s; [constructor|cbn in L; lia].
  - destruct s as [|c r]; [constructor|]. cbn [symbols] in H. cbn [length] in L.
    destruct (N.eqb_spec c 92) as [->|Nc]; cbn [negb] in H.
    2:{ destruct (symbols r) as [l ok] eqn:E. cbn [snd] in H. apply we_char; [exact Nc|].
        apply IH; [lia|]. rewrite E. exact H. }
    destruct r as [|d1 r1]; [discriminate H|]. cbn [length] in L.
    destruct (is_digit d1) eqn:D1.
    + destruct r1 as [|d2 r2]; [discriminate H|]. destruct (is_digit d2) eqn:D2; [|discriminate H].
      destruct r2 as [|d3 r3]; [discriminate H|]. destruct (is_digit d3) eqn:D3; [|discriminate H].
      change sym_decimal_max with 255 in H.
      destruct (N.ltb_spec 255 ((d1 - 48) * 100 + (d2 - 48) * 10 + (d3 - 48))); [discriminate H|].
      destruct (symbols r3) as [l ok] eqn:E. cbn [snd] in H. cbn [length] in L.
      apply we_dec; auto. apply IH; [lia|]. rewrite E. exact H.
    + change sym_simple_min with 32 in H. change sym_simple_max with 126 in H.
      destruct (N.ltb_spec 255 d1); [discriminate H|].
      destruct (N.ltb_spec d1 32); [discriminate H|]. destruct (N.ltb_spec 126 d1); [discriminate H|].
      cbn [orb] in H. destruct (symbols r1) as [l ok] eqn:E. cbn [snd] in H.
      apply we_simple; [exact D1|lia|]. apply IH; [lia|]. rewrite E. exact H.
Qed.

Theorem symbols_ok_iff_wf s : snd (symbols s) = true <-> wf_esc s.
Proof. split; [apply (wf_symbols_ok (length s)); lia|apply symbols_ok_wf]. Qed.

(* an escaped character stands for itself only if printable ASCII; a decimal
   escape never stands for a character of an encoding *)
Theorem into_char_spec y :
  into_char y = match y with
                | SChar c => Some c
                | SSimple c => if (32 <=? c) && (c <? 127) then Some c else None
                | SDecimal _ => None
                end.
Proof. destruct y; reflexivity. Qed.

Theorem scan_token_requires_wf_escapes token bs :
  (convert_token true conv64 c64_sym c64_process_tail c64_new token = Ok bs \/
   convert_token true conv32 c32_sym c32_process_tail c32_new token = Ok bs \/
   convert_token true conv16 c16_sym c16_process_tail c16_new token = Ok bs) -> wf_esc token.
Proof.
  intros H. apply symbols_ok_iff_wf. destruct (snd (symbols token)) eqn:E; [reflexivity|]. exfalso.
  destruct H as [H|[H|H]]; exact (convert_token_bad_escape _ _ _ _ token E bs H).
Qed.

Example wf_esc_examples :
  snd (symbols [92; 50; 53; 53]) = true /\ snd (symbols [92; 50; 53; 54]) = false /\
  snd (symbols [92; 32]) = true /\ snd (symbols [92; 31]) = false /\
  snd (symbols [92; 126]) = true /\ snd (symbols [92; 127]) = false /\
  into_char (SSimple 126) = Some 126 /\ into_char (SSimple 127) = None /\ into_char (SSimple 31) = None.
Proof. vm_compute. repeat split. Qed.

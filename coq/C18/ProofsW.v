(* C18 proofs: rejection is non-membership of the grammar (Base32hex / Base16);
   the encoders are injective with output in the grammar; the per-push API over
   any list of chunks; decode is not injective: left-over bits and letter case
   are ignored (the assumption recorded in tools/meta/C18.json). *)
From Coq Require Import NArith List Bool Lia Arith ZifyNat.
Import ListNotations.
From DV Require Import Base.Outcome C18.Gen C18.Model C18.Proofs C18.ProofsEnc C18.ProofsSpec
  C18.ProofsDec64 C18.ProofsDec32 C18.ProofsApi C18.ProofsGrammar.
Local Open Scope N_scope.

Theorem b32_rejects_iff_not_grammar s :
  (exists e, b32_decode s = Err e) <-> ~ wf_unpadded 5 val32 s.
Proof.
  exact (rejects_iff_not _ _ _ (proj1 (b32_decode_total s)) (b32_accepts_iff_grammar s)).
Qed.

Theorem b16_rejects_iff_not_grammar s :
  (exists e, b16_decode s = Err e) <-> ~ wf_unpadded 4 val16 s.
Proof.
  exact (rejects_iff_not _ _ _ (proj1 (b16_decode_total s)) (b16_accepts_iff_grammar s)).
Qed.

Example b32_rejects_dangling : exists e, b32_decode [48] = Err e.
Proof. vm_compute. eexists. reflexivity. Qed.
Example b16_rejects_dangling : exists e, b16_decode [48] = Err e.
Proof. vm_compute. eexists. reflexivity. Qed.

Lemma roundtrip_injective (enc dec : list N -> outcome (list N)) :
  (forall bs, octets bs -> exists t, enc bs = Ok t /\ dec t = Ok bs) ->
  forall a b, octets a -> octets b -> enc a = enc b -> a = b.
Proof.
  intros R a b Ha Hb E. destruct (R a Ha) as [ta [Da Ra]]. destruct (R b Hb) as [tb [Db Rb]].
  rewrite Da, Db in E. injection E as ->. rewrite Ra in Rb. injection Rb as Rb. exact Rb.
Qed.

Theorem encoders_injective a b : octets a -> octets b ->
  (b64_display a = b64_display b -> a = b) /\
  (b32_display a = b32_display b -> a = b) /\
  (b16_display a = b16_display b -> a = b).
Proof.
  intros Ha Hb.
  exact (conj (roundtrip_injective _ _ b64_decode_encode a b Ha Hb)
              (conj (roundtrip_injective _ _ b32_decode_encode a b Ha Hb)
                    (roundtrip_injective _ _ b16_decode_encode a b Ha Hb))).
Qed.

Example encoders_distinguish : b64_display [0] <> b64_display [0; 0].
Proof. vm_compute. discriminate. Qed.

Theorem encoded_is_wellformed bs : octets bs ->
  (exists t, b64_display bs = Ok t /\ wf64 t /\ octets64 t = bs) /\
  (exists t, b32_display bs = Ok t /\ wf_unpadded 5 val32 t /\ octets_unpadded 5 val32 t = bs) /\
  (exists t, b16_display bs = Ok t /\ wf_unpadded 4 val16 t /\ octets_unpadded 4 val16 t = bs).
Proof.
  intros H. repeat split.
  - destruct (b64_decode_encode bs H) as [t [D R]]. exists t. split; [exact D|].
    apply b64_accepts_iff_grammar in R. destruct R as [W V]. split; [exact W|symmetry; exact V].
  - destruct (b32_decode_encode bs H) as [t [D R]]. exists t. split; [exact D|].
    apply b32_accepts_iff_grammar in R. destruct R as [W V]. split; [exact W|symmetry; exact V].
  - destruct (b16_decode_encode bs H) as [t [D R]]. exists t. split; [exact D|].
    apply b16_accepts_iff_grammar in R. destruct R as [W V]. split; [exact W|symmetry; exact V].
Qed.

Example encoded_is_wellformed_ex : exists t, b64_display [102] = Ok t /\ t = [90; 103; 61; 61].
Proof. eexists. split; vm_compute; reflexivity. Qed.

Fixpoint runs_list {D} (run : D -> list N -> list (option N) * outcome D) (d : D)
    (chunks : list (list N)) : list (option N) * outcome D :=
  match chunks with
  | [] => ([], Ok d)
  | c :: r =>
      let '(ta, fa) := run d c in
      match fa with
      | Ok d' => let '(tb, fb) := runs_list run d' r in (ta ++ tb, fb)
      | _ => (ta, fa)
      end
  end.

Lemma runs_list_concat {D} (run : D -> list N -> list (option N) * outcome D) :
  (forall d, run d [] = ([], Ok d)) ->
  (forall a b d, run d (a ++ b) = seq_runs run d a b) ->
  forall chunks d, run d (concat chunks) = runs_list run d chunks.
Proof.
  intros Hnil Happ chunks. induction chunks as [|c r IH]; intros d.
  - cbn [concat runs_list]. apply Hnil.
  - cbn [concat runs_list]. rewrite Happ. unfold seq_runs.
    destruct (run d c) as [ta fa]. destruct fa as [d'|e|p|]; try reflexivity.
    rewrite IH. reflexivity.
Qed.

Theorem push_chunks_independent chunks :
  (forall sticky d, b64_run_with sticky d (concat chunks) = runs_list (b64_run_with sticky) d chunks) /\
  (forall d, b32_run d (concat chunks) = runs_list b32_run d chunks) /\
  (forall d, b16_run d (concat chunks) = runs_list b16_run d chunks).
Proof.
  repeat split; intros.
  - apply runs_list_concat; [reflexivity|]. intros a b d0. apply b64_chunk_independent.
  - apply runs_list_concat; [reflexivity|]. intros a b d0. apply b32_chunk_independent.
  - apply runs_list_concat; [reflexivity|]. intros a b d0. apply b16_chunk_independent.
Qed.

Theorem push_rechunk_independent c1 c2 : concat c1 = concat c2 ->
  (forall sticky d, runs_list (b64_run_with sticky) d c1 = runs_list (b64_run_with sticky) d c2) /\
  (forall d, runs_list b32_run d c1 = runs_list b32_run d c2) /\
  (forall d, runs_list b16_run d c1 = runs_list b16_run d c2).
Proof.
  intros E. destruct (push_chunks_independent c1) as [A1 [B1 C1]].
  destruct (push_chunks_independent c2) as [A2 [B2 C2]].
  repeat split; intros.
  - rewrite <- A1, <- A2, E. reflexivity.
  - rewrite <- B1, <- B2, E. reflexivity.
  - rewrite <- C1, <- C2, E. reflexivity.
Qed.

Example runs_list_ex :
  fst (runs_list b16_run b16_new [[52]; []; [49; 52]; [50]]) = fst (b16_run b16_new [52; 49; 52; 50]).
Proof. vm_compute. reflexivity. Qed.

Theorem decode_not_injective :
  (exists s1 s2 bs, s1 <> s2 /\ b64_decode s1 = Ok bs /\ b64_decode s2 = Ok bs) /\
  (exists s1 s2 bs, s1 <> s2 /\ b32_decode s1 = Ok bs /\ b32_decode s2 = Ok bs) /\
  (exists s1 s2 bs, s1 <> s2 /\ b16_decode s1 = Ok bs /\ b16_decode s2 = Ok bs).
Proof.
  split; [|split].
  - (* "QQ==" and "QR==": the four left-over bits are not checked *)
    exists [81; 81; 61; 61], [81; 82; 61; 61], [65].
    split; [discriminate|]. split; vm_compute; reflexivity.
  - (* "84" and "85": the two left-over bits are not checked *)
    exists [56; 52], [56; 53], [65].
    split; [discriminate|]. split; vm_compute; reflexivity.
  - (* "4a" and "4A": either case *)
    exists [52; 97], [52; 65], [74].
    split; [discriminate|]. split; vm_compute; reflexivity.
Qed.

Lemma bits_val8_octet a b c d e f g h : octet (bits_val [a; b; c; d; e; f; g; h]).
Proof. exact (bits_val_lt [a; b; c; d; e; f; g; h]). Qed.

Lemma take_octets_octets_n n : forall l, (length l <= n)%nat -> octets (take_octets l).
Proof.
  induction n as [|n IH]; intros l L.
  - destruct l; [constructor|cbn [length] in L; lia].
  - destruct l as [|a [|b [|c [|d [|e [|f [|g [|h r]]]]]]]]; try (cbn [take_octets]; constructor).
    + apply bits_val8_octet.
    + apply IH. cbn [length] in L. lia.
Qed.

Lemma take_octets_octets l : octets (take_octets l).
Proof. exact (take_octets_octets_n (length l) l (le_n _)). Qed.

Theorem decode_yields_octets s bs :
  (b64_decode s = Ok bs -> octets bs) /\ (b32_decode s = Ok bs -> octets bs) /\
  (b16_decode s = Ok bs -> octets bs).
Proof.
  repeat split; intros E.
  - apply b64_accepts_iff_grammar in E. destruct E as [_ ->]. unfold octets64.
    destruct (values val64 (data64 s)); [apply take_octets_octets|constructor].
  - apply b32_accepts_iff_grammar in E. destruct E as [_ ->]. unfold octets_unpadded.
    destruct (values val32 s); [apply take_octets_octets|constructor].
  - apply b16_accepts_iff_grammar in E. destruct E as [_ ->]. unfold octets_unpadded.
    destruct (values val16 s); [apply take_octets_octets|constructor].
Qed.

(* decode, re-encode, decode: every accepted text has a canonical form with the
   same octets (encode . decode is a retraction onto the encoder's image) *)
Theorem decode_reencode s bs :
  (b64_decode s = Ok bs -> exists t, b64_display bs = Ok t /\ b64_decode t = Ok bs) /\
  (b32_decode s = Ok bs -> exists t, b32_display bs = Ok t /\ b32_decode t = Ok bs) /\
  (b16_decode s = Ok bs -> exists t, b16_display bs = Ok t /\ b16_decode t = Ok bs).
Proof.
  destruct (decode_yields_octets s bs) as [A [B C]].
  repeat split; intros E.
  - apply b64_decode_encode. exact (A E).
  - apply b32_decode_encode. exact (B E).
  - apply b16_decode_encode. exact (C E).
Qed.

Example decode_reencode_ex : b64_decode [81; 82; 61; 61] = Ok [65] /\ b64_display [65] = Ok [81; 81; 61; 61].
Proof. split; vm_compute; reflexivity. Qed.

Lemma take_octets_length_n n : forall l, (length l <= n)%nat ->
  length (take_octets l) = (length l / 8)%nat.
Proof.
  induction n as [|n IH]; intros l L.
  - destruct l; [reflexivity|cbn [length] in L; lia].
  - destruct l as [|a [|b [|c [|d [|e [|f [|g [|h r]]]]]]]];
      try (cbn [take_octets length]; symmetry; apply Nat.div_small; lia).
    cbn [take_octets length]. rewrite IH by (cbn [length] in L; lia). lia.
Qed.

Lemma take_octets_length l : length (take_octets l) = (length l / 8)%nat.
Proof. exact (take_octets_length_n (length l) l (le_n _)). Qed.

Lemma octets_unpadded_length k val s : wf_unpadded k val s ->
  length (octets_unpadded k val s) = (k * length s / 8)%nat.
Proof.
  intros [F _]. unfold octets_unpadded. destruct (forall_values_some val s F) as [vs V]. rewrite V.
  rewrite take_octets_length, flat_bits_length, (values_length val s vs V). reflexivity.
Qed.

Theorem decoded_length_unpadded s bs :
  (b32_decode s = Ok bs -> length bs = (5 * length s / 8)%nat /\ (Nat.modulo (5 * length s) 8 < 5)%nat) /\
  (b16_decode s = Ok bs -> length s = (2 * length bs)%nat).
Proof.
  split; intros E.
  - apply b32_accepts_iff_grammar in E. destruct E as [W ->]. split.
    + apply octets_unpadded_length. exact W.
    + exact (proj2 W).
  - apply b16_accepts_iff_grammar in E. destruct E as [W ->].
    rewrite (octets_unpadded_length 4 val16 s W). destruct W as [_ M]. lia.
Qed.

Theorem encoded_length_unpadded bs t : octets bs ->
  (b32_display bs = Ok t -> length t = ((8 * length bs + 4) / 5)%nat) /\
  (b16_display bs = Ok t -> length t = (2 * length bs)%nat).
Proof.
  intros H. split; intros D.
  - destruct (b32_decode_encode bs H) as [t' [D' R]]. rewrite D in D'. injection D' as <-.
    destruct (decoded_length_unpadded t bs) as [A _]. destruct (A R) as [L M]. lia.
  - destruct (b16_decode_encode bs H) as [t' [D' R]]. rewrite D in D'. injection D' as <-.
    destruct (decoded_length_unpadded t bs) as [_ A]. exact (A R).
Qed.

Example encoded_length_ex : b32_display [1; 2; 3] = Ok [48; 52; 49; 48; 54] /\ ((8 * 3 + 4) / 5 = 5)%nat.
Proof. split; vm_compute; reflexivity. Qed.

Lemma wf64_length s : wf64 s -> (Nat.modulo (length s) 4 = 0)%nat.
Proof.
  induction 1 as [|a b c d r Ha Hb Hc Hd W IH| |]; try reflexivity.
  cbn [length]. lia.
Qed.

Theorem b64_decoded_length s bs : b64_decode s = Ok bs ->
  (Nat.modulo (length s) 4 = 0)%nat /\ length bs = (6 * length (data64 s) / 8)%nat.
Proof.
  intros E. apply b64_accepts_iff_grammar in E. destruct E as [W ->]. split.
  - exact (wf64_length s W).
  - unfold octets64. destruct (wf64_spec s W) as (vs & V & _). rewrite V.
    rewrite take_octets_length, flat_bits_length, (values_length val64 _ vs V). reflexivity.
Qed.

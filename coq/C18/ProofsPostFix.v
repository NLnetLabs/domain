(* C18 proofs: the repaired base64 Decoder::push (pending/C18-base64-decoder.diff;
   model: b64_push_with true) records every error in `target`, so the per-push
   API is total and sticky without restriction; `decode` is unchanged.  The
   selection lemmas at the end say what holds of the variant T1 finds in the source. *)
From Coq Require Import NArith List Bool Lia.
Import ListNotations.
From DV Require Import Base.Outcome C18.Gen C18.Model C18.Proofs C18.ProofsEnc C18.ProofsSpec
  C18.ProofsDec64 C18.ProofsDec32 C18.ProofsApi C18.ProofsApi2.
Local Open Scope N_scope.

Definition invF (d : dec64) : Prop := good64 d \/ is_err (d64_target d).


Lemma b64_push_char_cap_sem cap d ch : d64_next d <> 240 ->
  b64_push_char_cap cap d ch =
  if ch =? 61 then (if d64_next d <? 2 then Ok (d, Some (E_illegal ch)) else b64_cont_cap cap d 128)
  else match val64 ch with
       | None => Ok (d, Some (E_illegal ch))
       | Some v => b64_cont_cap cap d v
       end.
Proof.
  intros Hn. unfold b64_push_char_cap.
  cbv [b64_push_eof b64_pad b64_ascii_max b64_push_pad_min b64_push_pad_val].
  destruct (N.eqb_spec (d64_next d) 240); [contradiction|].
  destruct (N.eqb_spec ch 61); [reflexivity|].
  destruct (N.ltb_spec 127 ch) as [G|L].
  - rewrite val64_none_high by exact G. reflexivity.
  - destruct (dec_tab64_ok ch) as (v & E1 & E2); [lia|].
    rewrite E1. cbn [bind]. rewrite <- E2.
    destruct (v =? b64_illegal_val); reflexivity.
Qed.

Lemma b64_cont_cap_ok cap b n acc v : n < 4 ->
  exists d' res, b64_cont_cap cap (mk64 b n (Ok acc)) v = Ok (d', res) /\
    (res = None -> good64 d' /\ exists acc', d64_target d' = Ok acc').
Proof.
  destruct b as [[[x0 x1] x2] x3]. intros Hn.
  assert (C : n = 0 \/ n = 1 \/ n = 2 \/ n = 3) by lia.
  destruct C as [-> | [-> | [-> | ->]]].
  1-3: (eexists _, _; split; [reflexivity|]; intros _; split; [left; cbn; split; [lia|eauto]|cbn; eauto]).
  unfold b64_cont_cap, try_append. cbn [d64_buf d64_next d64_target buf4_set N.eqb Pos.eqb bind N.add Pos.add].
  cbv [b64_group]. cbn [N.eqb Pos.eqb Pos.succ].
  destruct (fits cap acc).
  2:{ eexists _, _. split; [reflexivity|]. discriminate. }
  destruct (negb (x2 =? b64_push_pad_val)).
  - destruct (fits cap (acc ++ [b64_oct0 x0 x1 x2 v])).
    2:{ eexists _, _. split; [reflexivity|]. discriminate. }
    destruct (negb (v =? b64_push_pad_val)).
    + destruct (x2 =? b64_push_pad_val).
      * eexists _, _. split; [reflexivity|]. discriminate.
      * destruct (fits cap _).
        -- eexists _, _. split; [reflexivity|]. intros _. split; [left; cbn; split; [lia|eauto]|cbn; eauto].
        -- eexists _, _. split; [reflexivity|]. discriminate.
    + eexists _, _. split; [reflexivity|]. intros _. split; [right; cbn; split; [reflexivity|exact I]|cbn; eauto].
  - destruct (negb (v =? b64_push_pad_val)).
    + destruct (x2 =? b64_push_pad_val).
      * eexists _, _. split; [reflexivity|]. discriminate.
      * destruct (fits cap _).
        -- eexists _, _. split; [reflexivity|]. intros _. split; [left; cbn; split; [lia|eauto]|cbn; eauto].
        -- eexists _, _. split; [reflexivity|]. discriminate.
    + eexists _, _. split; [reflexivity|]. intros _. split; [right; cbn; split; [reflexivity|exact I]|cbn; eauto].
Qed.

Lemma b64_push_char_cap_ok cap d ch : d64_next d < 4 -> (exists acc, d64_target d = Ok acc) ->
  exists d' res, b64_push_char_cap cap d ch = Ok (d', res) /\
    (res = None -> good64 d' /\ exists acc', d64_target d' = Ok acc').
Proof.
  destruct d as [b n t]. cbn [d64_next d64_target]. intros Hn [acc ->].
  rewrite b64_push_char_cap_sem by (cbn; lia). cbn [d64_next].
  destruct (ch =? 61).
  - destruct (n <? 2).
    + eexists _, _. split; [reflexivity|]. discriminate.
    + apply b64_cont_cap_ok, Hn.
  - destruct (val64 ch).
    + apply b64_cont_cap_ok, Hn.
    + eexists _, _. split; [reflexivity|]. discriminate.
Qed.

Lemma b64_push_char_cap_at_eof cap d ch : d64_next d = 240 ->
  b64_push_char_cap cap d ch = Ok (mk64 (d64_buf d) 240 (Err E_TRAILING), Some E_TRAILING).
Proof. intros H. unfold b64_push_char_cap. rewrite H. reflexivity. Qed.

Lemma b64_push_cap_ok cap d ch : invF d ->
  exists d' res, b64_push_cap cap true d ch = Ok (d', res) /\ res = target_err (d64_target d') /\
                 invF d' /\ (is_err (d64_target d) -> is_err (d64_target d')).
Proof.
  intros [G|[e T]].
  2:{ exists d, (Some e). cbn [b64_push_cap]. rewrite T.
      split; [reflexivity|]. split; [reflexivity|]. split; [right; exists e; exact T|]. auto. }
  destruct G as [[Hn [acc T]]|[He Ht]].
  - cbn [b64_push_cap]. rewrite T.
    destruct (b64_push_char_cap_ok cap d ch Hn (ex_intro _ acc T)) as (d' & res & E & C). rewrite E.
    destruct res as [e|].
    + eexists _, _. split; [reflexivity|]. cbn. split; [reflexivity|]. split; [right; eexists; reflexivity|].
      intros _. eexists; reflexivity.
    + destruct (C eq_refl) as [G' [acc' T']].
      exists d', None. split; [reflexivity|]. rewrite T'. split; [reflexivity|]. split; [left; exact G'|].
      intros [e0 X]. discriminate X.
  - destruct (d64_target d) as [acc|e|p|] eqn:T; try contradiction.
    + cbn [b64_push_cap]. rewrite T, (b64_push_char_cap_at_eof cap d ch He).
      eexists _, _. split; [reflexivity|]. cbn. split; [reflexivity|]. split; [right; eexists; reflexivity|].
      intros _. eexists; reflexivity.
    + exists d, (Some e). cbn [b64_push_cap]. rewrite T.
      split; [reflexivity|]. split; [reflexivity|]. split; [right; exists e; exact T|]. auto.
Qed.

Lemma b64_finalize_invF d : invF d ->
  no_panic (b64_finalize d) /\ (is_err (d64_target d) -> exists e, b64_finalize d = Err e).
Proof.
  intros Hi. split.
  - destruct Hi as [G|[e T]]; [apply b64_finalize_no_panic, G|].
    unfold b64_finalize. rewrite T. exact I.
  - intros [e T]. unfold b64_finalize. rewrite T. eauto.
Qed.

Lemma b64_cont_cap_none d v : b64_cont_cap None d v = b64_cont d v.
Proof.
  destruct d as [[[[x0 x1] x2] x3] n t]. unfold b64_cont_cap, b64_cont, try_append.
  cbn [fits d64_buf d64_next d64_target].
  destruct (buf4_set (x0, x1, x2, x3) n v) as [[[[y0 y1] y2] y3]| | |]; cbn [bind]; try reflexivity.
  destruct (n + 1 =? b64_group); [|reflexivity].
  destruct t as [t0| | |]; try reflexivity.
  destruct (y2 =? b64_push_pad_val); reflexivity.
Qed.

Lemma b64_push_char_cap_none d ch : b64_push_char_cap None d ch = b64_push_char d ch.
Proof.
  rewrite b64_push_unfold. unfold b64_push_char_cap. rewrite !b64_cont_cap_none.
  destruct (tab_get b64_decode_tab ch); cbn [bind]; try reflexivity.
  rewrite b64_cont_cap_none. reflexivity.
Qed.

Lemma b64_push_cap_none sticky d ch : b64_push_cap None sticky d ch = b64_push_with sticky d ch.
Proof. unfold b64_push_cap, b64_push_with. rewrite b64_push_char_cap_none. reflexivity. Qed.

Lemma b64_pushF_ok d ch : invF d ->
  exists d' res, b64_push_with true d ch = Ok (d', res) /\ res = target_err (d64_target d') /\
                 invF d' /\ (is_err (d64_target d) -> is_err (d64_target d')).
Proof. rewrite <- b64_push_cap_none. apply b64_push_cap_ok. Qed.

Theorem b64_fix_api_total s : no_panic (snd (b64_push_all_fix s)).
Proof.
  exact (push_all_total _ _ (b64_run_with true) (fun _ => eq_refl) (fun _ _ _ => eq_refl) _ invF d64_target
           b64_pushF_ok b64_finalize_invF _ s (or_introl good64_new)).
Qed.

Theorem b64_fix_errors_sticky s :
  (exists e, In (Some e) (fst (b64_push_all_fix s))) -> exists e, snd (b64_push_all_fix s) = Err e.
Proof.
  exact (push_all_sticky _ _ (b64_run_with true) (fun _ => eq_refl) (fun _ _ _ => eq_refl) _ invF d64_target
           b64_pushF_ok b64_finalize_invF _ s (or_introl good64_new)).
Qed.

Theorem b64_fix_errors_keep_coming d s : invF d -> is_err (d64_target d) ->
  ~ In None (fst (b64_run_with true d s)).
Proof.
  exact (run_keeps_failing _ _ (b64_run_with true) (fun _ => eq_refl) (fun _ _ _ => eq_refl) invF d64_target
           b64_pushF_ok d s).
Qed.

(* the witnesses of the two defects, run on the repaired model *)
Example b64_fix_witnesses :
  b64_push_all_fix [90; 103; 61; 97; 98] =
    ([None; None; None; Some E_TRAILING; Some E_TRAILING], Err E_TRAILING) /\
  b64_push_all_fix [33; 90; 109; 57; 118] =
    ([Some (E_illegal 33); Some (E_illegal 33); Some (E_illegal 33); Some (E_illegal 33);
      Some (E_illegal 33)], Err (E_illegal 33)) /\
  b64_push_all_fix [90; 109; 57; 118] = ([None; None; None; None], Ok [102; 111; 111]).
Proof. vm_compute. repeat split. Qed.

(* what holds of the variant found in the source *)

Definition api_total_stmt (b : bool) : Prop :=
  if b then forall s, no_panic (snd (b64_push_all_with b s))
  else (exists s, snd (b64_push_all_with b s) = Panic 2 /\
                  fst (b64_push_all_with b s) = [None; None; None; Some E_TRAILING]) /\
       (forall s, ~ In (Some E_TRAILING) (fst (b64_push_all_with b s)) ->
                  no_panic (snd (b64_push_all_with b s))).

Lemma b64_api_total_sel b : api_total_stmt b.
Proof.
  destruct b; unfold api_total_stmt.
  - exact b64_fix_api_total.
  - exact (conj b64_api_total_refuted b64_api_total_restricted).
Qed.

Definition errors_sticky_stmt (b : bool) : Prop :=
  if b then forall s, (exists e, In (Some e) (fst (b64_push_all_with b s))) ->
                      exists e, snd (b64_push_all_with b s) = Err e
  else (exists s, fst (b64_push_all_with b s) = [Some (E_illegal 33); None; None; None; None] /\
                  snd (b64_push_all_with b s) = Ok [102; 111; 111]) /\
       (forall s, all_trailing (fst (b64_push_all_with b s)) ->
                  (exists e, In (Some e) (fst (b64_push_all_with b s))) ->
                  forall l, snd (b64_push_all_with b s) <> Ok l).

Lemma b64_errors_sticky_sel b : errors_sticky_stmt b.
Proof.
  destruct b; unfold errors_sticky_stmt.
  - exact b64_fix_errors_sticky.
  - exact (conj b64_errors_sticky_refuted b64_errors_sticky_restricted).
Qed.

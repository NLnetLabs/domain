(* C18 proofs: bit lists and the shift/mask shapes of the Rust code; the
   T1 tables against the RFC 4648 alphabets. *)
From Coq Require Import NArith Arith List Bool Lia ZifyBool.
Import ListNotations.
From DV Require Base.Bytes.
From DV Require Import Base.Outcome C18.Gen C18.Model.
Local Open Scope N_scope.

Definition range (n : nat) : list N := map N.of_nat (seq 0 n).

Lemma In_range n x : x < N.of_nat n -> In x (range n).
Proof.
  intros H. unfold range. apply in_map_iff. exists (N.to_nat x). split.
  - apply N2Nat.id.
  - apply in_seq. lia.
Qed.

Lemma sweep1 (P : N -> bool) (n : nat) :
  forallb P (range n) = true -> forall x, x < N.of_nat n -> P x = true.
Proof. intros H x Hx. rewrite forallb_forall in H. apply H, In_range, Hx. Qed.

(* goal [b = true] with b a boolean expression in x; bound n *)
Ltac sweep1_bool x Hx n :=
  lazymatch goal with |- ?G = true =>
    let P := eval pattern x in G in
    lazymatch P with ?F _ =>
      exact (sweep1 F n ltac:(vm_compute; reflexivity) x Hx) end end.

Definition octet (c : N) : Prop := c < 256.
Definition octets (bs : list N) : Prop := Forall octet bs.

Notation tb := N.testbit.

Lemma bits_val_acc l : forall a,
  fold_left (fun a (b : bool) => 2 * a + (if b then 1 else 0)) l a =
  a * 2 ^ N.of_nat (length l) + bits_val l.
Proof.
  unfold bits_val. induction l as [|b l IH]; intros a; cbn [fold_left length].
  - cbn. lia.
  - rewrite IH, (IH (2 * 0 + _)), Nat2N.inj_succ, N.pow_succ_r'. lia.
Qed.

Lemma bits_val_app l1 l2 :
  bits_val (l1 ++ l2) = bits_val l1 * 2 ^ N.of_nat (length l2) + bits_val l2.
Proof. unfold bits_val at 1. rewrite fold_left_app. apply bits_val_acc. Qed.

Lemma bits_val_cons b l : bits_val (b :: l) = N.b2n b * 2 ^ N.of_nat (length l) + bits_val l.
Proof. exact (bits_val_acc l (2 * 0 + N.b2n b)). Qed.

Lemma bits_val_lt l : bits_val l < 2 ^ N.of_nat (length l).
Proof.
  induction l as [|b l IH]; [reflexivity|].
  rewrite bits_val_cons. cbn [length]. rewrite Nat2N.inj_succ, N.pow_succ_r'.
  destruct b; cbn [N.b2n]; lia.
Qed.

Lemma bits_val_pad l k : bits_val (l ++ repeat false k) = bits_val l * 2 ^ N.of_nat k.
Proof.
  rewrite bits_val_app, repeat_length.
  assert (Z : bits_val (repeat false k) = 0).
  { induction k as [|k IH]; [reflexivity|]. cbn [repeat]. rewrite bits_val_cons, IH. reflexivity. }
  rewrite Z. apply N.add_0_r.
Qed.

(* bits j+k-1 .. j of v, most significant first: what a shift/mask expression
   of the Rust code picks out of an octet or a symbol value *)
Fixpoint bits_from (j : N) (k : nat) (v : N) : list bool :=
  match k with
  | O => []
  | S k' => tb v (j + N.of_nat k') :: bits_from j k' v
  end.

Lemma bits_from_length j k v : length (bits_from j k v) = k.
Proof. induction k as [|k IH]; cbn [bits_from length]; [|rewrite IH]; reflexivity. Qed.

Lemma bits_val_from j k v : bits_val (bits_from j k v) = (v / 2 ^ j) mod 2 ^ N.of_nat k.
Proof.
  induction k as [|k IH]; cbn [bits_from].
  - cbn. rewrite N.mod_1_r. reflexivity.
  - rewrite bits_val_cons, IH, bits_from_length, Nat2N.inj_succ, N.pow_succ_r'.
    rewrite (N.mul_comm 2), N.mod_mul_r by (apply N.pow_nonzero; discriminate) || discriminate.
    rewrite N.testbit_spec', N.pow_add_r, N.div_div by (apply N.pow_nonzero; discriminate). lia.
Qed.

Lemma bits_msb_length k v : length (bits_msb k v) = k.
Proof. induction k as [|k IH]; cbn [bits_msb length]; [|rewrite IH]; reflexivity. Qed.

Lemma bits_val_msb k v : bits_val (bits_msb k v) = v mod 2 ^ N.of_nat k.
Proof.
  replace (bits_msb k v) with (bits_from 0 k v) by (induction k as [|k IH]; cbn; [|rewrite IH]; reflexivity).
  rewrite bits_val_from, N.div_1_r. reflexivity.
Qed.

Lemma bits_val_inj l : forall l', length l = length l' -> bits_val l = bits_val l' -> l = l'.
Proof.
  induction l as [|b l IH]; intros [|b' l'] L E; try discriminate; [reflexivity|].
  injection L as L. rewrite !bits_val_cons, <- L in E.
  pose proof (bits_val_lt l) as B. pose proof (bits_val_lt l') as B'. rewrite <- L in B'.
  destruct b, b'; cbn [N.b2n] in E; f_equal; try apply IH; lia.
Qed.

Lemma bits_msb_val l : bits_msb (length l) (bits_val l) = l.
Proof.
  apply bits_val_inj; [apply bits_msb_length|].
  rewrite bits_val_msb. apply N.mod_small, bits_val_lt.
Qed.

Lemma octet_bits_val c : octet c -> bits_val (bits_msb 8 c) = c.
Proof. intros H. rewrite bits_val_msb. apply N.mod_small, H. Qed.

Lemma bits_val_bits6 a b c d e f :
  bits_msb 6 (bits_val [a; b; c; d; e; f]) = [a; b; c; d; e; f].
Proof. exact (bits_msb_val [a; b; c; d; e; f]). Qed.

Lemma shr_bits x j k : x < 2 ^ (j + N.of_nat k) -> N.shiftr x j = bits_val (bits_from j k x).
Proof.
  intros H. rewrite bits_val_from, N.shiftr_div_pow2. symmetry. apply N.mod_small.
  apply N.div_lt_upper_bound; [apply N.pow_nonzero; discriminate|]. rewrite <- N.pow_add_r. exact H.
Qed.

Lemma land_shr_bits x j k :
  N.shiftr (N.land x (N.ones (j + N.of_nat k))) j = bits_val (bits_from j k x).
Proof.
  rewrite bits_val_from, N.shiftr_div_pow2, N.land_ones, N.pow_add_r.
  rewrite N.mod_mul_r by (apply N.pow_nonzero; discriminate).
  rewrite N.mul_comm, N.div_add by (apply N.pow_nonzero; discriminate).
  rewrite N.div_small by (apply N.mod_lt, N.pow_nonzero; discriminate). reflexivity.
Qed.

Lemma shl_bits x m k : x < 2 ^ N.of_nat m -> (m + k <=? 8)%nat = true ->
  N.land (N.shiftl x (N.of_nat k)) 255 = bits_val (bits_from 0 m x ++ repeat false k).
Proof.
  intros Hx H. apply Nat.leb_le in H. rewrite bits_val_pad, bits_val_from, N.shiftl_mul_pow2, N.div_1_r.
  rewrite (N.mod_small x) by exact Hx.
  change 255 with (N.ones 8). rewrite N.land_ones. apply N.mod_small.
  apply N.lt_le_trans with (2 ^ N.of_nat m * 2 ^ N.of_nat k).
  - apply N.mul_lt_mono_pos_r; [apply N.neq_0_lt_0, N.pow_nonzero; discriminate|exact Hx].
  - rewrite <- N.pow_add_r. apply N.pow_le_mono_r; [discriminate|lia].
Qed.

Lemma land_shl_bits x m k : (m + k <=? 8)%nat = true ->
  N.land (N.shiftl (N.land x (N.ones (N.of_nat m))) (N.of_nat k)) 255 =
  bits_val (bits_from 0 m x ++ repeat false k).
Proof.
  intros H. rewrite N.land_ones, shl_bits with (m := m) by
    (exact H || apply N.mod_lt, N.pow_nonzero; discriminate).
  rewrite !bits_val_pad, !bits_val_from, !N.div_1_r, N.mod_mod by (apply N.pow_nonzero; discriminate).
  reflexivity.
Qed.

Lemma shl_land_bits x k : (k <=? 8)%nat = true ->
  N.land (N.shiftl x (N.of_nat k)) 255 = bits_val (bits_from 0 (8 - k) x ++ repeat false k).
Proof.
  intros H. apply Nat.leb_le in H. rewrite bits_val_pad, bits_val_from, N.shiftl_mul_pow2, N.div_1_r.
  change 255 with (N.ones 8). rewrite N.land_ones.
  replace 8 with (N.of_nat (8 - k) + N.of_nat k) by lia.
  rewrite N.pow_add_r. apply N.mul_mod_distr_r; apply N.pow_nonzero; discriminate.
Qed.

Lemma lor_join l r :
  N.lor (bits_val (l ++ repeat false (length r))) (bits_val r) = bits_val (l ++ r).
Proof. rewrite bits_val_pad, bits_val_app. apply Base.Bytes.lor_mul_pow2_add, bits_val_lt. Qed.

Lemma lor_shr_join h l y j k : h = bits_val (l ++ repeat false k) -> y < 2 ^ (j + N.of_nat k) ->
  N.lor h (N.shiftr y j) = bits_val (l ++ bits_from j k y).
Proof.
  intros -> Hy. rewrite (shr_bits y j k Hy).
  rewrite <- (bits_from_length j k y) at 1. apply lor_join.
Qed.

(* the encode tables of the crate are the RFC 4648 alphabets *)
Lemma enc_tab64_is_rfc : b64_encode_tab = alpha64.
Proof. vm_compute. reflexivity. Qed.
Lemma enc_tab32_is_rfc : b32_encode_tab = alpha32hex.
Proof. vm_compute. reflexivity. Qed.
Lemma enc_tab16_is_rfc :
  b16_encode_tab = map (fun c => (sym alpha16 (c / 16), sym alpha16 (c mod 16))) (range 256).
Proof. vm_compute. reflexivity. Qed.

Definition opt_eqb (a b : option N) : bool :=
  match a, b with Some x, Some y => x =? y | None, None => true | _, _ => false end.
Lemma opt_eqb_eq a b : opt_eqb a b = true -> a = b.
Proof. destruct a, b; simpl; intros H; try discriminate; auto. apply N.eqb_eq in H. congruence. Qed.

(* the decode tables agree with the position in the RFC alphabet, entry by
   entry for all 128 ASCII code points; 0xFF exactly for the others *)
Definition tab_val (t : list N) (illegal ch : N) : option N :=
  match nth_error t (N.to_nat ch) with
  | Some v => if v =? illegal then None else Some v
  | None => None
  end.

Lemma dec_tab_ok (t : list N) (ill : N) (val : N -> option N) :
  forallb (fun ch => match nth_error t (N.to_nat ch) with
                     | Some v => opt_eqb (if v =? ill then None else Some v) (val ch)
                     | None => false
                     end) (range 128) = true ->
  forall ch, ch < 128 ->
  exists v, tab_get t ch = Ok v /\ (if v =? ill then None else Some v) = val ch.
Proof.
  intros A ch H. apply (sweep1 _ 128 A) in H. unfold tab_get.
  destruct (nth_error t (N.to_nat ch)) as [v|]; [|discriminate].
  exists v. split; [reflexivity|]. apply opt_eqb_eq, H.
Qed.

Lemma dec_tab64_ok ch : ch < 128 ->
  exists v, tab_get b64_decode_tab ch = Ok v /\
            (if v =? b64_illegal_val then None else Some v) = val64 ch.
Proof. apply dec_tab_ok. vm_compute. reflexivity. Qed.

Lemma dec_tab32_ok ch : ch < 128 ->
  exists v, tab_get b32_decode_tab ch = Ok v /\
            (if v =? b32_illegal_val then None else Some v) = val32 ch.
Proof. apply dec_tab_ok. vm_compute. reflexivity. Qed.

Lemma index_of_bound x l i v : index_of x l i = Some v -> In x l.
Proof.
  revert i. induction l as [|a r IH]; simpl; intros i H; [discriminate|].
  destruct (N.eqb_spec a x); [left; assumption|right; eauto].
Qed.

Lemma index_of_range x l i v : index_of x l i = Some v -> i <= v < i + N.of_nat (length l).
Proof.
  revert i. induction l as [|a r IH]; simpl length; intros i H; simpl in H; [discriminate|].
  destruct (a =? x).
  - injection H as <-. lia.
  - apply IH in H. lia.
Qed.

Lemma index_of_high alpha x i :
  forallb (fun a => a <=? 127) alpha = true -> 127 < x -> index_of x alpha i = None.
Proof.
  intros A H. destruct (index_of x alpha i) eqn:E; [|reflexivity].
  apply index_of_bound in E. rewrite forallb_forall in A. apply A in E. lia.
Qed.

Lemma upper_high ch : 127 < ch -> upper ch = ch.
Proof. intros H. unfold upper. destruct ((97 <=? ch) && (ch <=? 122)) eqn:B; lia. Qed.

Lemma val64_none_high ch : 127 < ch -> val64 ch = None.
Proof. apply index_of_high. reflexivity. Qed.
Lemma val32_none_high ch : 127 < ch -> val32 ch = None.
Proof. intros H. unfold val32. rewrite upper_high by exact H. apply index_of_high; [reflexivity|exact H]. Qed.
Lemma val16_none_high ch : 127 < ch -> val16 ch = None.
Proof. intros H. unfold val16. rewrite upper_high by exact H. apply index_of_high; [reflexivity|exact H]. Qed.

Lemma val64_lt ch v : val64 ch = Some v -> v < 64.
Proof. intros H. apply index_of_range in H. simpl in H. lia. Qed.
Lemma val32_lt ch v : val32 ch = Some v -> v < 32.
Proof. intros H. apply index_of_range in H. simpl in H. lia. Qed.
Lemma val16_lt ch v : val16 ch = Some v -> v < 16.
Proof. intros H. apply index_of_range in H. simpl in H. lia. Qed.

Lemma val64_pad : val64 61 = None.
Proof. reflexivity. Qed.

(* char::to_digit(16) is the position in the Base16 alphabet, case-insensitive *)
Lemma to_digit16_is_val16 ch : to_digit ch 16 = Ok (val16 ch).
Proof.
  destruct (N.ltb_spec ch 128) as [L|G].
  - assert (E : (match to_digit ch 16 with Ok o => opt_eqb o (val16 ch) | _ => false end) = true)
      by (sweep1_bool ch L 128%nat).
    destruct (to_digit ch 16) as [o| | |]; try discriminate. f_equal. apply opt_eqb_eq, E.
  - unfold to_digit. cbn [N.ltb N.compare Pos.compare Pos.compare_cont].
    replace ((48 <=? ch) && (ch <=? 57)) with false by lia.
    replace ((97 <=? ch) && (ch <=? 122)) with false by lia.
    replace ((65 <=? ch) && (ch <=? 90)) with false by lia.
    rewrite val16_none_high by lia. reflexivity.
Qed.

Lemma val64_sym v : v < 64 -> val64 (sym alpha64 v) = Some v.
Proof. intros H. apply opt_eqb_eq. sweep1_bool v H 64%nat. Qed.
Lemma val32_sym v : v < 32 -> val32 (sym alpha32hex v) = Some v.
Proof. intros H. apply opt_eqb_eq. sweep1_bool v H 32%nat. Qed.
Lemma val16_sym v : v < 16 -> val16 (sym alpha16 v) = Some v.
Proof. intros H. apply opt_eqb_eq. sweep1_bool v H 16%nat. Qed.
Lemma sym64_not_pad v : v < 64 -> sym alpha64 v <> 61.
Proof.
  intros H E. assert (B : negb (sym alpha64 v =? 61) = true) by (sweep1_bool v H 64%nat).
  rewrite E in B. discriminate.
Qed.

(* lower case is accepted with the same value (Base16 / Base32hex) *)
Lemma val32_lower v : v < 32 -> 10 <= v -> val32 (sym alpha32hex v + 32) = Some v.
Proof.
  intros H L. destruct (N.ltb_spec v 10); [lia|].
  apply opt_eqb_eq.
  assert (E : (if v <? 10 then true else opt_eqb (val32 (sym alpha32hex v + 32)) (Some v)) = true)
    by (sweep1_bool v H 32%nat).
  destruct (N.ltb_spec v 10); [lia|exact E].
Qed.

Lemma tab_get_sym (t : list N) v : v < N.of_nat (length t) -> tab_get t v = Ok (sym t v).
Proof.
  intros H. unfold tab_get, sym.
  destruct (nth_error t (N.to_nat v)) eqn:E.
  - f_equal. symmetry. apply nth_error_nth with (d := 0) in E. exact E.
  - apply nth_error_None in E. lia.
Qed.

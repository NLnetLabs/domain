(* C18 proofs: the RFC 4648 specification decoders invert the
   specification encoders (pure bit-list reasoning, no code involved). *)
From Coq Require Import NArith List Bool Lia Arith ZifyNat.
Import ListNotations.
From DV Require Import Base.Outcome C18.Gen C18.Model C18.Proofs C18.ProofsEnc.
Local Open Scope N_scope.

Lemma octet_val8 c : octet c ->
  bits_val [tb c 7; tb c 6; tb c 5; tb c 4; tb c 3; tb c 2; tb c 1; tb c 0] = c.
Proof. intros H. rewrite <- bits8. apply octet_bits_val, H. Qed.

Lemma regroup_nil k : regroup k [] [] = [].
Proof. reflexivity. Qed.
Lemma regroup6_tail2 x y : regroup 6 [] [x; y] = [bits_val [x; y; false; false; false; false]].
Proof. reflexivity. Qed.
Lemma regroup6_tail4 x y z w : regroup 6 [] [x; y; z; w] = [bits_val [x; y; z; w; false; false]].
Proof. reflexivity. Qed.
Lemma values_syms (val : N -> option N) (alpha : list N) (n : N) :
  (forall v, v < n -> val (sym alpha v) = Some v) ->
  forall qs, Forall (fun q => q < n) qs -> values val (map (sym alpha) qs) = Some qs.
Proof.
  intros Hv qs H. induction H as [|q r Hq Hr IH]; [reflexivity|].
  cbn [map values]. rewrite (Hv q Hq), IH. reflexivity.
Qed.

Lemma val64_sym_bits l : length l = 6%nat -> val64 (sym alpha64 (bits_val l)) = Some (bits_val l).
Proof. intros L. pose proof (bits_val_lt l) as B. rewrite L in B. exact (val64_sym _ B). Qed.

Lemma sym64_bits_not_pad l : length l = 6%nat -> (sym alpha64 (bits_val l) =? 61) = false.
Proof.
  intros L. pose proof (bits_val_lt l) as B. rewrite L in B. exact (proj2 (N.eqb_neq _ _) (sym64_not_pad _ B)).
Qed.

Ltac dec6_simpl :=
  unfold dec6; cbn [flat_map app]; rewrite !bits_val_bits6; cbn [app take_octets].

Theorem spec64_decode_encode bs : octets bs -> spec_dec64 (spec_enc64 bs) = Some bs.
Proof.
  induction bs as [|a|a b|a b c r IH] using list_ind3; intros H.
  - reflexivity.
  - inv_octets H.
    change (spec_enc64 [a]) with
      [sym alpha64 (bits_val [tb a 7; tb a 6; tb a 5; tb a 4; tb a 3; tb a 2]);
       sym alpha64 (bits_val [tb a 1; tb a 0; false; false; false; false]); 61; 61].
    cbn [spec_dec64]. rewrite !val64_sym_bits by reflexivity. cbn [N.eqb Pos.eqb]. dec6_simpl.
    rewrite octet_val8 by assumption. reflexivity.
  - inv_octets H.
    change (spec_enc64 [a; b]) with
      [sym alpha64 (bits_val [tb a 7; tb a 6; tb a 5; tb a 4; tb a 3; tb a 2]);
       sym alpha64 (bits_val [tb a 1; tb a 0; tb b 7; tb b 6; tb b 5; tb b 4]);
       sym alpha64 (bits_val [tb b 3; tb b 2; tb b 1; tb b 0; false; false]); 61].
    cbn [spec_dec64]. rewrite !val64_sym_bits, !sym64_bits_not_pad by reflexivity.
    cbn [N.eqb Pos.eqb]. dec6_simpl.
    rewrite !octet_val8 by assumption. reflexivity.
  - inv_octets H. specialize (IH H). rewrite spec_enc64_step.
    cbn [spec_dec64]. rewrite !val64_sym_bits by reflexivity.
    destruct (spec_enc64 r) as [|x l] eqn:E.
    + rewrite !sym64_bits_not_pad by reflexivity. dec6_simpl. rewrite !octet_val8 by assumption.
      cbn [spec_dec64] in IH. injection IH as <-. reflexivity.
    + rewrite IH. dec6_simpl. rewrite !octet_val8 by assumption. reflexivity.
Qed.

Lemma mod8_step5 n : Nat.modulo (5 * (8 + n)) 8 = Nat.modulo (5 * n) 8.
Proof. lia. Qed.

(* regrouping keeps the bits and pads the last group *)
Lemma regroup_bits k l : forall acc, (length acc < k)%nat ->
  exists z, flat_map (bits_msb k) (regroup k acc l) = acc ++ l ++ z /\ (length z < k)%nat /\
            Forall (fun q => q < 2 ^ N.of_nat k) (regroup k acc l).
Proof.
  induction l as [|b r IH]; intros acc H; cbn [regroup].
  - destruct acc as [|a acc]; [exists []; repeat split; [exact H|constructor]|].
    set (g := (a :: acc) ++ repeat false (k - length (a :: acc))).
    assert (L : length g = k) by (unfold g; rewrite app_length, repeat_length; lia).
    exists (repeat false (k - length (a :: acc))). cbn [flat_map app].
    rewrite app_nil_r, <- L at 1. rewrite bits_msb_val, repeat_length.
    split; [reflexivity|]. split; [cbn [length]; lia|]. constructor; [|constructor].
    rewrite <- L. apply bits_val_lt.
  - assert (L : length (acc ++ [b]) = S (length acc)) by (rewrite app_length; cbn; lia).
    destruct (Nat.eqb_spec (length (acc ++ [b])) k) as [E|NE].
    + destruct (IH [] ltac:(cbn; lia)) as (z & Ez & Lz & F). exists z. cbn [flat_map].
      rewrite Ez, <- E at 1. rewrite bits_msb_val, <- !app_assoc.
      split; [reflexivity|]. split; [exact Lz|]. constructor; [|exact F]. rewrite <- E. apply bits_val_lt.
    + destruct (IH (acc ++ [b]) ltac:(lia)) as (z & Ez & Lz & F). exists z.
      rewrite Ez, <- !app_assoc. auto.
Qed.

Lemma take_octets_bits bs z : octets bs -> (length z < 8)%nat -> take_octets (octet_bits bs ++ z) = bs.
Proof.
  intros H L. induction H as [|c r Hc Hr IH]; cbn [octet_bits flat_map app].
  - destruct z as [|? [|? [|? [|? [|? [|? [|? [|? ?]]]]]]]]; try reflexivity. cbn [length] in L. lia.
  - rewrite bits8. cbn [app take_octets]. rewrite octet_val8 by exact Hc. f_equal. exact IH.
Qed.

Lemma flat_bits_length k vs : length (flat_map (bits_msb k) vs) = (k * length vs)%nat.
Proof.
  induction vs as [|v r IH]; cbn [flat_map length]; [lia|].
  rewrite app_length, bits_msb_length, IH. lia.
Qed.

Theorem spec_unpadded_decode_encode k val alpha bs : (0 < k <= 8)%nat ->
  (forall v, v < 2 ^ N.of_nat k -> val (sym alpha v) = Some v) -> octets bs ->
  spec_dec_unpadded k val (map (sym alpha) (regroup k [] (octet_bits bs))) = Some bs.
Proof.
  intros Hk Hv Ho.
  destruct (regroup_bits k (octet_bits bs) [] ltac:(cbn; lia)) as (z & Ez & Lz & F). cbn [app] in Ez.
  unfold spec_dec_unpadded. rewrite (values_syms val alpha _ Hv _ F), Ez.
  assert (M : (k * length (regroup k [] (octet_bits bs)) = 8 * length bs + length z)%nat).
  { rewrite <- flat_bits_length, Ez, app_length. unfold octet_bits. rewrite flat_bits_length. reflexivity. }
  rewrite M. destruct (Nat.ltb_spec (Nat.modulo (8 * length bs + length z) 8) k); [|lia].
  f_equal. apply take_octets_bits; [exact Ho|lia].
Qed.

Theorem spec32_decode_encode bs : octets bs -> spec_dec32 (spec_enc32 bs) = Some bs.
Proof. exact (spec_unpadded_decode_encode 5 val32 alpha32hex bs ltac:(lia) val32_sym). Qed.

Theorem spec16_decode_encode bs : octets bs -> spec_dec16 (spec_enc16 bs) = Some bs.
Proof. exact (spec_unpadded_decode_encode 4 val16 alpha16 bs ltac:(lia) val16_sym). Qed.

Example spec_roundtrip_examples :
  spec_dec64 [90; 103; 61; 61] = Some [102] /\ spec_dec64 [90; 103; 61; 97] = None /\
  spec_dec32 [67; 79] = Some [102] /\ spec_dec32 [99; 111] = Some [102] /\ spec_dec32 [67] = None /\
  spec_dec16 [102; 48] = Some [240] /\ spec_dec16 [70] = None.
Proof. vm_compute. repeat split. Qed.

(* shape of well-formed Base64 text: length a multiple of 4, every character
   in the alphabet or '=' *)
Lemma spec_dec64_shape s bs : spec_dec64 s = Some bs ->
  Nat.modulo (length s) 4 = 0%nat /\ Forall (fun c => c = 61 \/ val64 c <> None) s.
Proof.
  revert bs.
  induction s as [|a|a b|a b c|a b c d r IH] using list_ind4; intros bs H; try discriminate.
  - split; [reflexivity|constructor].
  - cbn [spec_dec64] in H.
    assert (Hs : (val64 a <> None /\ val64 b <> None /\ (c = 61 \/ val64 c <> None) /\
                  (d = 61 \/ val64 d <> None)) /\
                 (r = [] \/ exists bs', spec_dec64 r = Some bs')).
    { destruct r as [|x l].
      - split; [|left; reflexivity].
        destruct (val64 a); [|discriminate]. destruct (val64 b); [|discriminate].
        destruct (N.eqb_spec c 61).
        + destruct (N.eqb_spec d 61); [|discriminate]. repeat split; auto; discriminate.
        + destruct (val64 c); [|discriminate].
          destruct (N.eqb_spec d 61).
          * repeat split; auto; try discriminate. right; discriminate.
          * destruct (val64 d); [|discriminate]. repeat split; try discriminate; right; discriminate.
      - destruct (val64 a); [|discriminate]. destruct (val64 b); [|discriminate].
        destruct (val64 c); [|discriminate]. destruct (val64 d); [|discriminate].
        destruct (spec_dec64 (x :: l)) as [bs'|]; [|discriminate].
        split; [repeat split; try discriminate; right; discriminate|right; eauto]. }
    destruct Hs as [(Ha & Hb & Hc & Hd) Hr].
    assert (R : Nat.modulo (length r) 4 = 0%nat /\ Forall (fun c => c = 61 \/ val64 c <> None) r).
    { destruct Hr as [->|[bs' Hr]]; [split; [reflexivity|constructor]|exact (IH bs' Hr)]. }
    destruct R as [R1 R2]. split.
    + change (length (a :: b :: c :: d :: r)) with (4 + length r)%nat.
      clear - R1. revert R1. generalize (length r). intros n Hn. lia.
    + repeat (constructor; auto).
Qed.

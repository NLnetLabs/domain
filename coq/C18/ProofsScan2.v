(* C18 proofs: the remaining token-reading methods of IterScanner: with the
   escape check (chk = true, what is in /repo) none of them accepts a token
   with a malformed escape sequence; and display into a writer that runs out
   of room. *)
From Coq Require Import NArith List Bool Lia.
Import ListNotations.
From DV Require Import Base.Outcome C18.Gen C18.Model C18.Proofs C18.ProofsEnc C18.ProofsSpec
  C18.ProofsDec64 C18.ProofsDec32 C18.ProofsApi C18.ProofsConv C18.ProofsUsers.
Local Open Scope N_scope.

Lemma scan_token_bad_escape C process c acc token :
  snd (symbols token) = false -> forall r, scan_token true C process c acc token <> Ok r.
Proof.
  intros B r. unfold scan_token. destruct (symbols token) as [syms ok]. cbn [snd] in B. subst ok.
  cbn [negb andb]. destruct (feed C process c acc syms) as [[c' a]| | |]; cbn [bind]; discriminate.
Qed.

Definition bad (token : list N) : Prop := snd (symbols token) = false.

Theorem scan_methods_refuse_bad_escapes token : bad token ->
  (forall r, scan_octets_with true token <> Ok r) /\
  (forall r, scan_charstr_with true token <> Ok r) /\
  (forall r, scan_string_with true token <> Ok r) /\
  (forall r, scan_ascii_str_with true token <> Ok r) /\
  (forall r, scan_symbols_with true token <> Ok r) /\
  (forall f r, scan_name_with true f token <> Ok r).
Proof.
  intros B.
  assert (T : forall C process c r, (do ca <- scan_token true C process c [] token; Ok (snd ca)) <> Ok r).
  { intros C process c r. pose proof (scan_token_bad_escape C process c [] token B) as S.
    destruct (scan_token true C process c [] token) as [ca| | |]; cbn [bind]; try discriminate.
    exfalso. exact (S ca eq_refl). }
  repeat split.
  - intros r. apply T.
  - intros r. apply T.
  - intros r. apply T.
  - intros r. unfold scan_ascii_str_with, scan_string_with.
    pose proof (T unit string_proc tt) as S.
    destruct (do ca <- scan_token true unit string_proc tt [] token; Ok (snd ca)) as [bs| | |]; cbn [bind]; try discriminate.
    exfalso. exact (S bs eq_refl).
  - intros r. unfold scan_symbols_with. unfold bad in B. destruct (symbols token) as [syms ok].
    cbn [snd] in B. subst ok. discriminate.
  - intros f r. unfold scan_name_with. unfold bad in B. destruct (symbols token) as [syms ok].
    cbn [snd] in B. subst ok. destruct (f syms); cbn [bind]; discriminate.
Qed.

Theorem scan_entry_methods_refuse_bad_escapes tokens : Exists bad tokens ->
  (forall r, scan_charstr_entry_with true tokens <> Ok r) /\
  (forall r, scan_entry_symbols_with true tokens <> Ok r).
Proof.
  induction tokens as [|tk rest IH]; intros E; [inversion E|].
  cbn [scan_charstr_entry_with scan_entry_symbols_with].
  apply Exists_cons in E. destruct E as [B|E].
  - destruct (scan_methods_refuse_bad_escapes tk B) as (_ & C1 & _ & _ & S1 & _). split; intros r.
    + destruct (scan_charstr_with true tk) as [cs| | |] eqn:X; cbn [bind]; try discriminate.
      exfalso. exact (C1 cs eq_refl).
    + destruct (scan_symbols_with true tk) as [sy| | |] eqn:X; cbn [bind]; try discriminate.
      exfalso. exact (S1 sy eq_refl).
  - destruct (IH E) as [C2 S2]. split; intros r.
    + destruct (scan_charstr_with true tk) as [cs| | |]; cbn [bind]; try discriminate.
        destruct (255 <? N.of_nat (length cs)); [discriminate|].
        destruct (scan_charstr_entry_with true rest) as [rr| | |] eqn:X; cbn [bind]; try discriminate.
        exfalso. exact (C2 rr eq_refl).
    + destruct (scan_symbols_with true tk) as [sy| | |]; cbn [bind]; try discriminate.
        destruct (scan_entry_symbols_with true rest) as [rr| | |] eqn:X; cbn [bind]; try discriminate.
        exfalso. exact (S2 rr eq_refl).
Qed.

(* what scan_symbols hands to its callback is the whole token, and only for
   tokens in the RFC 1035 escape grammar *)
Theorem scan_symbols_ok_iff token syms :
  scan_symbols_with true token = Ok syms <-> wf_esc token /\ syms = fst (symbols token).
Proof.
  unfold scan_symbols_with. rewrite <- symbols_ok_iff_wf. destruct (symbols token) as [l ok]. cbn [fst snd].
  destruct ok; cbn [negb andb]; split.
  - intros H. injection H as <-. auto.
  - intros [_ ->]. reflexivity.
  - discriminate.
  - intros [X _]. discriminate.
Qed.

Definition printable (c : N) : Prop := 32 <= c <= 126.

Lemma feed_octets_plain s : forall acc, Forall printable s ->
  feed unit octet_proc tt acc (map SChar s) = Ok (tt, acc ++ s).
Proof.
  induction s as [|c r IH]; intros acc H; cbn [map feed]; [rewrite app_nil_r; reflexivity|].
  pose proof (Forall_inv H) as Hc. unfold printable in Hc.
  unfold octet_proc at 1. cbn [into_octet]. change sym_octet_min with 32. change sym_octet_max with 126.
  replace ((c <? 128) && (32 <=? c) && (c <=? 126)) with true by lia.
  cbn [bind fst snd]. rewrite IH by exact (Forall_inv_tail H). rewrite <- app_assoc. reflexivity.
Qed.

Theorem scan_octets_plain chk s : ~ In 92 s -> Forall printable s ->
  scan_octets_with chk s = Ok s /\
  (N.of_nat (length s) <= 255 -> scan_charstr_with chk s = Ok s).
Proof.
  intros H P. unfold scan_octets_with, scan_charstr_with. rewrite !scan_token_plain_feed by exact H.
  rewrite feed_octets_plain by exact P. split; [reflexivity|]. intros L.
  assert (F : forall s n acc, Forall printable s -> n + N.of_nat (length s) <= 255 ->
            feed N charstr_proc n acc (map SChar s) = Ok (n + N.of_nat (length s), acc ++ s)).
  { clear. induction s as [|c r IH]; intros n acc P L; cbn [map feed length].
    - rewrite app_nil_r. f_equal. f_equal. lia.
    - pose proof (Forall_inv P) as Hc. unfold printable in Hc. cbn [length] in L.
      unfold charstr_proc at 1. cbn [into_octet]. change sym_octet_min with 32. change sym_octet_max with 126.
      replace ((c <? 128) && (32 <=? c) && (c <=? 126)) with true by lia.
      change charstr_max with 255. destruct (N.ltb_spec 255 (n + 1)); [lia|].
      cbn [bind fst snd]. rewrite IH by (try exact (Forall_inv_tail P); lia).
      rewrite <- app_assoc. f_equal. f_equal. lia. }
  rewrite (F s 0 [] P) by lia. reflexivity.
Qed.

Lemma feed_string_plain s : forall acc,
  feed unit string_proc tt acc (map SChar s) = Ok (tt, acc ++ flat_map utf8 s).
Proof.
  induction s as [|c r IH]; intros acc; cbn [map feed flat_map]; [rewrite app_nil_r; reflexivity|].
  unfold string_proc at 1. cbn [into_char bind fst snd]. rewrite IH, <- app_assoc. reflexivity.
Qed.

Theorem scan_string_plain chk s : ~ In 92 s -> scan_string_with chk s = Ok (flat_map utf8 s).
Proof.
  intros H. unfold scan_string_with. rewrite scan_token_plain_feed by exact H.
  rewrite feed_string_plain. reflexivity.
Qed.

Example scan_methods_examples :
  scan_octets_with true [97; 92; 46; 98] = Ok [97; 46; 98] /\
  scan_octets_with true [97; 92; 48; 52; 54; 98] = Ok [97; 46; 98] /\
  scan_octets_with true [97; 98; 92] = Err E_BAD_ESCAPE /\ scan_octets_with false [97; 98; 92] = Ok [97; 98] /\
  scan_octets_with true [233] = Err E_BAD_SYMBOL /\ scan_string_with true [233] = Ok [195; 169] /\
  scan_ascii_str_with true [233] = Err E_NON_ASCII /\
  scan_charstr_entry_with true [[97]; [98; 99]] = Ok [1; 97; 2; 98; 99] /\
  scan_charstr_with true (repeat 97 256) = Err E_SHORTBUF /\
  scan_entry_symbols_with true [[97]; [92; 46]] = Ok [Some (SChar 97); None; Some (SSimple 46); None] /\
  scan_opt_unknown_marker [92; 35] = true /\ scan_opt_unknown_marker [92; 35; 35] = false /\
  utf8 128512 = [240; 159; 152; 128].
Proof. vm_compute. repeat split. Qed.

Lemma w_each_closed l : forall held room,
  w_each (held, room) l =
  if N.of_nat (length l) <=? room then ((held ++ l, room - N.of_nat (length l)), true)
  else ((held ++ firstn (N.to_nat room) l, 0), false).
Proof.
  induction l as [|c r IH]; intros held room; cbn [w_each length].
  - rewrite app_nil_r. change (N.of_nat 0) with 0. destruct (N.leb_spec 0 room); [|lia].
    replace (room - 0) with room by lia. reflexivity.
  - unfold w_chars. cbn [length]. change (N.of_nat 1) with 1.
    destruct (N.leb_spec 1 room) as [L|G].
    + rewrite IH. rewrite <- app_assoc. cbn [app].
      destruct (N.leb_spec (N.of_nat (length r)) (room - 1));
        destruct (N.leb_spec (N.of_nat (S (length r))) room); try lia.
      * f_equal. f_equal. lia.
      * replace (N.to_nat room) with (S (N.to_nat (room - 1))) by lia. cbn [firstn].
        rewrite <- app_assoc. reflexivity.
    + destruct (N.leb_spec (N.of_nat (S (length r))) room); [lia|].
      replace room with 0 by lia. cbn. rewrite app_nil_r. reflexivity.
Qed.

Lemma b64_display_w_of bs : forall w t, b64_display bs = Ok t -> b64_display_w w bs = Ok (w_each w t).
Proof.
  induction bs as [|a|a b|a b c r IH] using list_ind3; intros w t; cbn [b64_display b64_display_w];
    repeat (destruct (b64_ch _) as [?| | |]; try discriminate; cbn [bind]).
  1-3: intros E; injection E as <-; cbn [w_each];
       repeat (destruct (w_chars _ _) as [?|]; [|reflexivity]); reflexivity.
  destruct (b64_display r) as [t'| | |]; try discriminate. cbn [bind].
  intros E. injection E as <-. cbn [w_each].
  repeat (destruct (w_chars _ _) as [?|]; [|reflexivity]). apply IH. reflexivity.
Qed.

(* the error of the writer is propagated at once; what has been written is the
   beginning of the RFC 4648 text; no panic *)
Theorem b64_display_into_writer bs room : octets bs ->
  b64_display_w ([], room) bs =
  Ok (if N.of_nat (length (spec_enc64 bs)) <=? room
      then ((spec_enc64 bs, room - N.of_nat (length (spec_enc64 bs))), true)
      else ((firstn (N.to_nat room) (spec_enc64 bs), 0), false)).
Proof.
  intros H. rewrite (b64_display_w_of bs _ _ (b64_encode_is_rfc4648 bs H)), w_each_closed. reflexivity.
Qed.

Fixpoint w_pairs (w : writer) (bs : list N) : writer * bool :=
  match bs with
  | [] => (w, true)
  | c :: r => match w_chars w (spec_enc16 [c]) with Some w' => w_pairs w' r | None => (w, false) end
  end.

Lemma b16_display_w_pairs bs : forall w, octets bs -> b16_display_w w bs = Ok (w_pairs w bs).
Proof.
  induction bs as [|c r IH]; intros w H; [reflexivity|].
  inv_octets H. cbn [b16_display_w w_pairs]. rewrite (b16_tab_entry c Ho).
  change (spec_enc16 [c]) with
    [sym alpha16 (bits_val [tb c 7; tb c 6; tb c 5; tb c 4]);
     sym alpha16 (bits_val [tb c 3; tb c 2; tb c 1; tb c 0])].
  destruct (w_chars w _); [apply IH, H|reflexivity].
Qed.

Lemma spec_enc16_app1 c r : spec_enc16 [c] ++ spec_enc16 r = spec_enc16 (c :: r).
Proof. rewrite !spec_enc16_step. reflexivity. Qed.

Lemma w_pairs_closed bs : forall held room,
  w_pairs (held, room) bs =
  if 2 * N.of_nat (length bs) <=? room
  then ((held ++ spec_enc16 bs, room - 2 * N.of_nat (length bs)), true)
  else ((held ++ spec_enc16 (firstn (N.to_nat (room / 2)) bs), room - 2 * (room / 2)), false).
Proof.
  induction bs as [|c r IH]; intros held room; cbn [w_pairs length].
  - change (2 * N.of_nat 0) with 0. destruct (N.leb_spec 0 room); [|lia].
    change (spec_enc16 []) with (@nil N). rewrite app_nil_r. replace (room - 0) with room by lia. reflexivity.
  - unfold w_chars. change (N.of_nat (length (spec_enc16 [c]))) with 2.
    destruct (N.leb_spec 2 room) as [L|G].
    + rewrite IH. rewrite <- !app_assoc, !spec_enc16_app1.
      destruct (N.leb_spec (2 * N.of_nat (length r)) (room - 2));
        destruct (N.leb_spec (2 * N.of_nat (S (length r))) room); try lia.
      * assert (E : room - 2 - 2 * N.of_nat (length r) = room - 2 * N.of_nat (S (length r))) by lia.
        rewrite E. reflexivity.
      * assert (E1 : N.to_nat (room / 2) = S (N.to_nat ((room - 2) / 2))) by lia.
        assert (E2 : room - 2 - 2 * ((room - 2) / 2) = room - 2 * (room / 2)) by lia.
        rewrite E1, E2. reflexivity.
    + destruct (N.leb_spec (2 * N.of_nat (S (length r))) room); [lia|].
      assert (E : room / 2 = 0) by lia. rewrite E.
      change (spec_enc16 (firstn (N.to_nat 0) (c :: r))) with (@nil N). rewrite app_nil_r.
      replace (room - 2 * 0) with room by lia. reflexivity.
Qed.

Theorem b16_display_into_writer bs room : octets bs ->
  b16_display_w ([], room) bs =
  Ok (if 2 * N.of_nat (length bs) <=? room
      then ((spec_enc16 bs, room - 2 * N.of_nat (length bs)), true)
      else ((spec_enc16 (firstn (N.to_nat (room / 2)) bs), room - 2 * (room / 2)), false)).
Proof. intros H. rewrite b16_display_w_pairs by exact H. rewrite w_pairs_closed. reflexivity. Qed.

Example display_writer_examples :
  b64_display_w ([], 5) [102; 111; 111; 98] = Ok (([90; 109; 57; 118; 89], 0), false) /\
  b64_display_w ([], 8) [102; 111; 111; 98] = Ok (([90; 109; 57; 118; 89; 103; 61; 61], 0), true) /\
  b16_display_w ([], 3) [240; 15] = Ok (([70; 48], 1), false).
Proof. vm_compute. repeat split. Qed.

Lemma b32_display_w_of bs : forall w t, b32_display bs = Ok t -> b32_display_w w bs = Ok (w_each w t).
Proof.
  induction bs as [|a|a b|a b c|a b c d|a b c d e r IH] using list_ind5; intros w t;
    cbn [b32_display b32_display_w];
    repeat (destruct (b32_ch _) as [?| | |]; try discriminate; cbn [bind]).
  1-5: intros E; injection E as <-; cbn [w_seq w_each bind];
       repeat (destruct (w_chars _ _) as [?|]; [|reflexivity]); reflexivity.
  destruct (b32_display r) as [t'| | |]; try discriminate. cbn [bind].
  intros E. injection E as <-. cbn [w_seq w_each bind].
  repeat (destruct (w_chars _ _) as [?|]; [|reflexivity]). apply IH. reflexivity.
Qed.

Theorem b32_display_into_writer bs room : octets bs ->
  b32_display_w ([], room) bs =
  Ok (if N.of_nat (length (spec_enc32 bs)) <=? room
      then ((spec_enc32 bs, room - N.of_nat (length (spec_enc32 bs))), true)
      else ((firstn (N.to_nat room) (spec_enc32 bs), 0), false)).
Proof.
  intros H. rewrite (b32_display_w_of bs _ _ (b32_encode_is_rfc4648 bs H)), w_each_closed. reflexivity.
Qed.

(* C18 proofs: base32hex `decode_hex` accepts exactly the well-formed
   texts (spec_dec32) and returns the specified octets; never panics. *)
From Coq Require Import NArith List Bool Lia Arith.
Import ListNotations.
From DV Require Import Base.Outcome C18.Gen C18.Model C18.Proofs C18.ProofsEnc C18.ProofsSpec C18.ProofsDec64.
Local Open Scope N_scope.

Definition b32_cont (d : dec32) (v : N) : outcome (dec32 * option N) :=
  do buf' <- buf8_set (d32_buf d) (d32_next d) v;
  let next' := d32_next d + 1 in
  let d1 :=
    if next' =? b32_group
    then mk32 buf' 0 (fold_left append (b32_octets buf') (d32_target d))
    else mk32 buf' next' (d32_target d) in
  Ok (d1, target_err (d32_target d1)).

Lemma b32_push_sem d ch :
  b32_push d ch = match val32 ch with
                  | None => Ok (mk32 (d32_buf d) (d32_next d) (Err (E_illegal ch)), Some (E_illegal ch))
                  | Some v => b32_cont d v
                  end.
Proof.
  unfold b32_push. cbv [b32_ascii_max].
  destruct (N.ltb_spec 127 ch) as [G|L].
  - rewrite val32_none_high by exact G. reflexivity.
  - destruct (dec_tab32_ok ch) as (v & E1 & E2); [lia|].
    rewrite E1. cbn [bind]. rewrite <- E2.
    destruct (v =? b32_illegal_val); reflexivity.
Qed.

Lemma fold_append_ok l : forall acc, fold_left append l (Ok acc) = Ok (acc ++ l).
Proof.
  induction l as [|v r IH]; intros acc; cbn [fold_left append]; [rewrite app_nil_r; reflexivity|].
  rewrite IH, <- app_assoc. reflexivity.
Qed.

(* the buffer as a list: its first `next` entries are the values pushed since
   the last complete group, the others are stale *)
Definition buf_list (b : buf8) : list N :=
  let '(x0, x1, x2, x3, x4, x5, x6, x7) := b in [x0; x1; x2; x3; x4; x5; x6; x7].

Lemma buf8_set_spec b n v : n < 8 ->
  exists b', buf8_set b n v = Ok b' /\
             firstn (S (N.to_nat n)) (buf_list b') = firstn (N.to_nat n) (buf_list b) ++ [v].
Proof.
  destruct b as [[[[[[[x0 x1] x2] x3] x4] x5] x6] x7]. intros H.
  assert (C : n = 0 \/ n = 1 \/ n = 2 \/ n = 3 \/ n = 4 \/ n = 5 \/ n = 6 \/ n = 7) by lia.
  destruct C as [-> | [-> | [-> | [-> | [-> | [-> | [-> | ->]]]]]]]; eexists; split; reflexivity.
Qed.

(* 5n bits hold 5n/8 whole octets; after 1, 3 or 6 characters the last one has
   contributed to no complete octet *)
Lemma b32_finalize_spec b n acc : n < 8 ->
  b32_finalize (mk32 b n (Ok acc)) =
  if existsb (N.eqb n) [1; 3; 6] then Err E_SHORT
  else Ok (acc ++ firstn (N.to_nat (5 * n / 8)) (b32_octets b)).
Proof.
  intros H. unfold b32_finalize. cbn [d32_target d32_next d32_buf].
  assert (C : n = 0 \/ n = 1 \/ n = 2 \/ n = 3 \/ n = 4 \/ n = 5 \/ n = 6 \/ n = 7) by lia.
  destruct C as [-> | [-> | [-> | [-> | [-> | [-> | [-> | ->]]]]]]];
    cbn [N.eqb Pos.eqb existsb b32_fin_short orb assoc b32_fin_partial];
    rewrite ?fold_append_ok; try reflexivity.
  cbn. rewrite app_nil_r. reflexivity.
Qed.

Lemma lor3_join x y z m k j : y < 2 ^ N.of_nat m -> z < 2 ^ (j + N.of_nat k) -> (m + k <=? 8)%nat = true ->
  N.lor (N.lor (N.land (N.shiftl x (N.of_nat (m + k))) 255) (N.land (N.shiftl y (N.of_nat k)) 255))
        (N.shiftr z j) =
  bits_val (bits_from 0 (8 - (m + k)) x ++ bits_from 0 m y ++ bits_from j k z).
Proof.
  intros Hy Hz H. rewrite app_assoc. apply lor_shr_join; [|exact Hz].
  rewrite shl_land_bits, (shl_bits y m k Hy) by (exact H || (apply Nat.leb_le in H; apply Nat.leb_le; lia)).
  rewrite <- app_assoc, <- (lor_join _ (bits_from 0 m y ++ repeat false k)).
  rewrite app_length, bits_from_length, repeat_length. reflexivity.
Qed.

Lemma o32_0 v0 v1 v2 v3 v4 v5 v6 v7 : v1 < 32 ->
  b32_oct0 v0 v1 v2 v3 v4 v5 v6 v7 = bits_val [tb v0 4; tb v0 3; tb v0 2; tb v0 1; tb v0 0; tb v1 4; tb v1 3; tb v1 2].
Proof. exact (lor_shr_join _ _ v1 2 3 (shl_land_bits v0 3 eq_refl)). Qed.
Lemma o32_1 v0 v1 v2 v3 v4 v5 v6 v7 : v2 < 32 -> v3 < 32 ->
  b32_oct1 v0 v1 v2 v3 v4 v5 v6 v7 = bits_val [tb v1 1; tb v1 0; tb v2 4; tb v2 3; tb v2 2; tb v2 1; tb v2 0; tb v3 4].
Proof. intros H2 H3. exact (lor3_join v1 v2 v3 5 1 4 H2 H3 eq_refl). Qed.
Lemma o32_2 v0 v1 v2 v3 v4 v5 v6 v7 : v4 < 32 ->
  b32_oct2 v0 v1 v2 v3 v4 v5 v6 v7 = bits_val [tb v3 3; tb v3 2; tb v3 1; tb v3 0; tb v4 4; tb v4 3; tb v4 2; tb v4 1].
Proof. exact (lor_shr_join _ _ v4 1 4 (shl_land_bits v3 4 eq_refl)). Qed.
Lemma o32_3 v0 v1 v2 v3 v4 v5 v6 v7 : v5 < 32 -> v6 < 32 ->
  b32_oct3 v0 v1 v2 v3 v4 v5 v6 v7 = bits_val [tb v4 0; tb v5 4; tb v5 3; tb v5 2; tb v5 1; tb v5 0; tb v6 4; tb v6 3].
Proof. intros H5 H6. exact (lor3_join v4 v5 v6 5 2 3 H5 H6 eq_refl). Qed.
Lemma o32_4 v0 v1 v2 v3 v4 v5 v6 v7 : v7 < 32 ->
  b32_oct4 v0 v1 v2 v3 v4 v5 v6 v7 = bits_val [tb v6 2; tb v6 1; tb v6 0; tb v7 4; tb v7 3; tb v7 2; tb v7 1; tb v7 0].
Proof. exact (lor_shr_join _ _ v7 0 5 (shl_land_bits v6 5 eq_refl)). Qed.

Lemma bits5 v : bits_msb 5 v = [tb v 4; tb v 3; tb v 2; tb v 1; tb v 0].
Proof. reflexivity. Qed.

Definition spec_vals (k : nat) (ws : list N) : option (list N) :=
  if Nat.ltb (Nat.modulo (k * length ws) 8) k
  then Some (take_octets (flat_map (bits_msb k) ws)) else None.

Lemma spec_dec_unpadded_vals k val s :
  spec_dec_unpadded k val s = match values val s with Some vs => spec_vals k vs | None => None end.
Proof. reflexivity. Qed.

Definition lt32 (v : N) : Prop := v < 32.

Ltac inv32 H :=
  repeat match type of H with
  | Forall lt32 (_ :: _) => let Hx := fresh "L" in pose proof (Forall_inv H) as Hx; unfold lt32 in Hx; apply Forall_inv_tail in H
  end.

Lemma spec_vals5_group b ws : Forall lt32 (buf_list b) ->
  spec_vals 5 (buf_list b ++ ws) =
  match spec_vals 5 ws with Some bs => Some (b32_octets b ++ bs) | None => None end.
Proof.
  destruct b as [[[[[[[v0 v1] v2] v3] v4] v5] v6] v7]. intros H. cbn [buf_list] in H. inv32 H.
  unfold spec_vals. cbn [buf_list app].
  change (length (v0 :: v1 :: v2 :: v3 :: v4 :: v5 :: v6 :: v7 :: ws)) with (8 + length ws)%nat.
  rewrite mod8_step5.
  destruct (Nat.ltb (Nat.modulo (5 * length ws) 8) 5); [|reflexivity].
  cbn [flat_map]. rewrite !bits5. cbn [app take_octets b32_octets app8].
  rewrite (o32_0 v0 v1 v2 v3 v4 v5 v6 v7), (o32_1 v0 v1 v2 v3 v4 v5 v6 v7),
    (o32_2 v0 v1 v2 v3 v4 v5 v6 v7), (o32_3 v0 v1 v2 v3 v4 v5 v6 v7),
    (o32_4 v0 v1 v2 v3 v4 v5 v6 v7) by assumption.
  reflexivity.
Qed.

Lemma spec_vals5_tail b n : n < 8 -> Forall lt32 (firstn (N.to_nat n) (buf_list b)) ->
  spec_vals 5 (firstn (N.to_nat n) (buf_list b)) =
  if existsb (N.eqb n) [1; 3; 6] then None else Some (firstn (N.to_nat (5 * n / 8)) (b32_octets b)).
Proof.
  destruct b as [[[[[[[v0 v1] v2] v3] v4] v5] v6] v7]. intros H.
  assert (C : n = 0 \/ n = 1 \/ n = 2 \/ n = 3 \/ n = 4 \/ n = 5 \/ n = 6 \/ n = 7) by lia.
  destruct C as [-> | [-> | [-> | [-> | [-> | [-> | [-> | ->]]]]]]]; intros P; try reflexivity;
    cbv [b32_octets app8]; simpl (firstn _ _) in *; inv32 P;
    unfold spec_vals; cbn [length Nat.mul Nat.add Nat.modulo Nat.divmod fst snd Nat.sub Nat.ltb Nat.leb flat_map];
    rewrite !bits5; cbn [app take_octets];
    rewrite ?(o32_0 v0 v1 v2 v3 v4 v5 v6 v7), ?(o32_1 v0 v1 v2 v3 v4 v5 v6 v7),
      ?(o32_2 v0 v1 v2 v3 v4 v5 v6 v7), ?(o32_3 v0 v1 v2 v3 v4 v5 v6 v7) by assumption;
    reflexivity.
Qed.

Lemma b32_decode_from_spec s : forall b n acc,
  n < 8 -> Forall lt32 (firstn (N.to_nat n) (buf_list b)) ->
  agree (b32_decode_from (mk32 b n (Ok acc)) s)
        (match values val32 s with
         | Some vs => spec_vals 5 (firstn (N.to_nat n) (buf_list b) ++ vs)
         | None => None
         end) acc.
Proof.
  induction s as [|ch r IH]; intros b n acc Hn Hp.
  - cbn [values b32_decode_from]. rewrite app_nil_r, b32_finalize_spec, spec_vals5_tail by assumption.
    unfold agree. destruct (existsb (N.eqb n) [1; 3; 6]); [eexists|]; reflexivity.
  - cbn [values b32_decode_from]. rewrite b32_push_sem.
    destruct (val32 ch) as [v|] eqn:V; [|unfold agree; eexists; reflexivity].
    destruct (buf8_set_spec b n v Hn) as (b' & Eb & Ef).
    assert (Hp' : Forall lt32 (firstn (S (N.to_nat n)) (buf_list b'))).
    { rewrite Ef. apply Forall_app. split; [exact Hp|]. constructor; [exact (val32_lt _ _ V)|constructor]. }
    unfold b32_cont. cbn [d32_buf d32_next d32_target]. rewrite Eb. cbn [bind]. cbv [b32_group].
    destruct (N.eqb_spec (n + 1) 8) as [E8|N8]; cbn [d32_target target_err].
    + rewrite fold_append_ok.
      specialize (IH b' 0 (acc ++ b32_octets b') ltac:(lia) (Forall_nil _)). cbn [N.to_nat firstn app] in IH.
      destruct (values val32 r) as [vs|]; [|exact IH].
      assert (E : firstn (S (N.to_nat n)) (buf_list b') = buf_list b').
      { apply firstn_all2. destruct b' as [[[[[[[? ?] ?] ?] ?] ?] ?] ?]. cbn [buf_list length]. lia. }
      rewrite E in Ef, Hp'.
      change (v :: vs) with ([v] ++ vs). rewrite app_assoc, <- Ef, spec_vals5_group by exact Hp'.
      destruct (spec_vals 5 vs) as [bs|]; unfold agree in *; [|exact IH].
      rewrite IH, <- app_assoc. reflexivity.
    + specialize (IH b' (n + 1) acc ltac:(lia)).
      replace (N.to_nat (n + 1)) with (S (N.to_nat n)) in IH by lia. specialize (IH Hp').
      destruct (values val32 r) as [vs|]; [|exact IH]. rewrite Ef, <- app_assoc in IH. exact IH.
Qed.

Theorem b32_decode_spec s :
  match spec_dec32 s with
  | Some bs => b32_decode s = Ok bs
  | None => exists e, b32_decode s = Err e
  end.
Proof.
  pose proof (b32_decode_from_spec s (0, 0, 0, 0, 0, 0, 0, 0) 0 [] ltac:(lia) (Forall_nil _)) as H.
  unfold spec_dec32. rewrite spec_dec_unpadded_vals.
  cbn [N.to_nat firstn app] in H. destruct (values val32 s) as [vs|]; [|exact H].
  destruct (spec_vals 5 vs); exact H.
Qed.

Theorem b32_accepts_iff_wellformed s bs : b32_decode s = Ok bs <-> spec_dec32 s = Some bs.
Proof. exact (proj1 (spec_decides _ _ (b32_decode_spec s)) bs). Qed.

Theorem b32_decode_total s : no_panic (b32_decode s) /\
  (spec_dec32 s = None -> exists e, b32_decode s = Err e).
Proof. exact (proj2 (spec_decides _ _ (b32_decode_spec s))). Qed.

Theorem b32_decode_encode bs : octets bs ->
  exists t, b32_display bs = Ok t /\ b32_decode t = Ok bs.
Proof.
  intros H. exists (spec_enc32 bs). split; [apply b32_encode_is_rfc4648, H|].
  apply b32_accepts_iff_wellformed, spec32_decode_encode, H.
Qed.

Example b32_decode_examples :
  b32_decode [67; 80; 78; 77; 85; 79; 74; 49; 69; 56] = Ok [102; 111; 111; 98; 97; 114] /\
  b32_decode [99; 111] = Ok [102] /\ b32_decode [67; 86] = Ok [103] /\
  b32_decode [67] = Err E_SHORT /\ b32_decode [67; 87] = Err (E_illegal 87) /\
  b32_decode [67; 79; 61] = Err (E_illegal 61).
Proof. vm_compute. repeat split. Qed.

Lemma b16_push_sem d ch :
  b16_push d ch =
  match val16 ch with
  | None => Ok (mk16 (d16_buf d) (Err (E_illegal ch)), Some (E_illegal ch))
  | Some value =>
      let d1 := match d16_buf d with
                | Some upper => mk16 None (append (d16_target d) (N.lor upper value))
                | None => mk16 (Some (N.land (N.shiftl value b16_shift) 255)) (d16_target d)
                end in
      Ok (d1, target_err (d16_target d1))
  end.
Proof.
  unfold b16_push. change b16_radix with 16. rewrite to_digit16_is_val16. reflexivity.
Qed.

Lemma bits4 v : bits_msb 4 v = [tb v 3; tb v 2; tb v 1; tb v 0].
Proof. reflexivity. Qed.

Lemma o16 v0 v1 : v1 < 16 ->
  N.lor (N.land (N.shiftl v0 b16_shift) 255) v1 =
  bits_val [tb v0 3; tb v0 2; tb v0 1; tb v0 0; tb v1 3; tb v1 2; tb v1 1; tb v1 0].
Proof. exact (lor_shr_join _ _ v1 0 4 (shl_land_bits v0 4 eq_refl)). Qed.

Lemma mod8_step4' n : Nat.modulo (4 * S (S n)) 8 = Nat.modulo (4 * n) 8.
Proof. lia. Qed.

Lemma spec_vals4_group v0 v1 ws : v0 < 16 -> v1 < 16 ->
  spec_vals 4 (v0 :: v1 :: ws) =
  match spec_vals 4 ws with
  | Some bs => Some (N.lor (N.land (N.shiftl v0 b16_shift) 255) v1 :: bs)
  | None => None
  end.
Proof.
  intros. unfold spec_vals. cbn [length]. rewrite mod8_step4'.
  destruct (Nat.ltb (Nat.modulo (4 * length ws) 8) 4); [|reflexivity].
  cbn [flat_map]. rewrite !bits4. cbn [app take_octets]. rewrite o16 by assumption. reflexivity.
Qed.

Lemma list_ind2 {A} (P : list A -> Prop) :
  P [] -> (forall a, P [a]) -> (forall a b r, P r -> P (a :: b :: r)) -> forall l, P l.
Proof.
  intros H0 H1 H2. fix IH 1. intros [|a [|b r]]; [exact H0|exact (H1 a)|exact (H2 a b r (IH r))].
Qed.

Lemma b16_decode_from_none s : forall acc,
  agree (b16_decode_from (mk16 None (Ok acc)) s)
        (match values val16 s with Some vs => spec_vals 4 vs | None => None end) acc.
Proof.
  induction s as [|a|a b r IH] using list_ind2; intros acc.
  - unfold agree. cbn. rewrite app_nil_r. reflexivity.
  - cbn [values b16_decode_from]. rewrite b16_push_sem. cbn [d16_buf].
    destruct (val16 a) as [va|]; unfold agree; cbn; eexists; reflexivity.
  - cbn [values b16_decode_from]. rewrite b16_push_sem. cbn [d16_buf d16_target].
    destruct (val16 a) as [va|] eqn:Va; [|unfold agree; eexists; reflexivity].
    cbv zeta. cbn [d16_target target_err b16_decode_from]. rewrite b16_push_sem. cbn [d16_buf d16_target].
    destruct (val16 b) as [vb|] eqn:Vb; [|unfold agree; eexists; reflexivity].
    cbv zeta. cbn [d16_target target_err append].
    specialize (IH (acc ++ [N.lor (N.land (N.shiftl va b16_shift) 255) vb])).
    destruct (values val16 r) as [vs|]; [|exact IH].
    rewrite spec_vals4_group by (eapply val16_lt; eassumption).
    destruct (spec_vals 4 vs) as [bs|]; unfold agree in *; [|exact IH].
    rewrite IH, <- app_assoc. reflexivity.
Qed.

Theorem b16_decode_spec s :
  match spec_dec16 s with
  | Some bs => b16_decode s = Ok bs
  | None => exists e, b16_decode s = Err e
  end.
Proof.
  pose proof (b16_decode_from_none s []) as H.
  unfold spec_dec16. rewrite spec_dec_unpadded_vals.
  destruct (values val16 s) as [vs|]; [|exact H]. destruct (spec_vals 4 vs); exact H.
Qed.

Theorem b16_accepts_iff_wellformed s bs : b16_decode s = Ok bs <-> spec_dec16 s = Some bs.
Proof. exact (proj1 (spec_decides _ _ (b16_decode_spec s)) bs). Qed.

Theorem b16_decode_total s : no_panic (b16_decode s) /\
  (spec_dec16 s = None -> exists e, b16_decode s = Err e).
Proof. exact (proj2 (spec_decides _ _ (b16_decode_spec s))). Qed.

Theorem b16_decode_encode bs : octets bs ->
  exists t, b16_display bs = Ok t /\ b16_decode t = Ok bs.
Proof.
  intros H. exists (spec_enc16 bs). split; [apply b16_encode_is_rfc4648, H|].
  apply b16_accepts_iff_wellformed, spec16_decode_encode, H.
Qed.

Example b16_decode_examples :
  b16_decode [70; 48; 48; 102] = Ok [240; 15] /\ b16_decode [70] = Err E_SHORT /\
  b16_decode [48; 103] = Err (E_illegal 103) /\ b16_decode [49; 33] = Err (E_illegal 33).
Proof. vm_compute. repeat split. Qed.

Lemma values_some_forall val s vs : values val s = Some vs -> Forall (fun c => val c <> None) s.
Proof.
  revert vs. induction s as [|c r IH]; intros vs H; [constructor|].
  cbn [values] in H. destruct (val c) eqn:V; [|discriminate].
  destruct (values val r) as [vr|]; [|discriminate].
  constructor; [rewrite V; discriminate|eapply IH; reflexivity].
Qed.

Theorem b64_accepts_only_alphabet s bs : b64_decode s = Ok bs ->
  Nat.modulo (length s) 4 = 0%nat /\ Forall (fun c => c = 61 \/ val64 c <> None) s.
Proof. intros H. apply b64_accepts_iff_wellformed in H. exact (spec_dec64_shape s bs H). Qed.

Theorem b32_accepts_only_alphabet s bs : b32_decode s = Ok bs -> Forall (fun c => val32 c <> None) s.
Proof.
  intros H. apply b32_accepts_iff_wellformed in H. unfold spec_dec32, spec_dec_unpadded in H.
  destruct (values val32 s) as [vs|] eqn:V; [|discriminate]. exact (values_some_forall _ _ _ V).
Qed.

Theorem b16_accepts_only_alphabet s bs : b16_decode s = Ok bs ->
  Forall (fun c => val16 c <> None) s /\ Nat.modulo (length s) 2 = 0%nat.
Proof.
  intros H. apply b16_accepts_iff_wellformed in H. unfold spec_dec16, spec_dec_unpadded in H.
  destruct (values val16 s) as [vs|] eqn:V; [|discriminate].
  split; [exact (values_some_forall _ _ _ V)|].
  assert (L : length vs = length s).
  { clear H. revert vs V. induction s as [|c r IH]; intros vs V; cbn [values] in V.
    - injection V as <-. reflexivity.
    - destruct (val16 c); [|discriminate]. destruct (values val16 r) as [vr|]; [|discriminate].
      injection V as <-. cbn [length]. f_equal. apply IH. reflexivity. }
  destruct (Nat.ltb_spec (Nat.modulo (4 * length vs) 8) 4) as [Lt|Ge]; [|discriminate].
  rewrite <- L. clear - Lt. revert Lt. generalize (length vs). intros n Lt. lia.
Qed.

Example only_alphabet_nonvacuous :
  b64_decode [90; 103; 61; 61] = Ok [102] /\ val64 90 <> None /\ val64 33 = None /\ val32 87 = None /\
  val16 71 = None /\ val16 102 = Some 15.
Proof. vm_compute. repeat split; discriminate. Qed.

(* C18 -- property theorems only.  Proofs live in C18/Proofs*.v. *)
From Coq Require Import NArith List Bool.
Import ListNotations.
From DV Require Import Base.Outcome C18.Gen C18.Model C18.Proofs C18.ProofsEnc C18.ProofsSpec
  C18.ProofsDec64 C18.ProofsDec32 C18.ProofsApi C18.ProofsApi2 C18.ProofsConv C18.ProofsPostFix
  C18.ProofsCap C18.ProofsGrammar C18.ProofsUsers C18.ProofsScan2 C18.ModelName C18.ProofsAgree C18.ProofsName C18.ProofsW.
Local Open Scope N_scope.

Theorem C18_encode_tables_are_rfc4648 :
  b64_encode_tab = alpha64 /\ b32_encode_tab = alpha32hex /\
  b16_encode_tab = map (fun c => (sym alpha16 (c / 16), sym alpha16 (c mod 16))) (range 256).
Proof. exact (conj enc_tab64_is_rfc (conj enc_tab32_is_rfc enc_tab16_is_rfc)). Qed.
Print Assumptions C18_encode_tables_are_rfc4648.

Theorem C18_b64_encode_is_rfc4648 : forall bs, octets bs -> b64_display bs = Ok (spec_enc64 bs).
Proof. exact b64_encode_is_rfc4648. Qed.
Print Assumptions C18_b64_encode_is_rfc4648.

Theorem C18_b32_encode_is_rfc4648 : forall bs, octets bs -> b32_display bs = Ok (spec_enc32 bs).
Proof. exact b32_encode_is_rfc4648. Qed.
Print Assumptions C18_b32_encode_is_rfc4648.

Theorem C18_b16_encode_is_rfc4648 : forall bs, octets bs -> b16_display bs = Ok (spec_enc16 bs).
Proof. exact b16_encode_is_rfc4648. Qed.
Print Assumptions C18_b16_encode_is_rfc4648.

Theorem C18_spec_decode_encode : forall bs, octets bs ->
  spec_dec64 (spec_enc64 bs) = Some bs /\ spec_dec32 (spec_enc32 bs) = Some bs /\
  spec_dec16 (spec_enc16 bs) = Some bs.
Proof.
  exact (fun bs H => conj (spec64_decode_encode bs H)
                          (conj (spec32_decode_encode bs H) (spec16_decode_encode bs H))).
Qed.
Print Assumptions C18_spec_decode_encode.

Theorem C18_b64_decode_encode : forall bs, octets bs ->
  exists t, b64_display bs = Ok t /\ b64_decode t = Ok bs.
Proof. exact b64_decode_encode. Qed.
Print Assumptions C18_b64_decode_encode.

Theorem C18_b32_decode_encode : forall bs, octets bs ->
  exists t, b32_display bs = Ok t /\ b32_decode t = Ok bs.
Proof. exact b32_decode_encode. Qed.
Print Assumptions C18_b32_decode_encode.

Theorem C18_b16_decode_encode : forall bs, octets bs ->
  exists t, b16_display bs = Ok t /\ b16_decode t = Ok bs.
Proof. exact b16_decode_encode. Qed.
Print Assumptions C18_b16_decode_encode.

Theorem C18_b64_accepts_iff_wellformed : forall s bs,
  b64_decode s = Ok bs <-> spec_dec64 s = Some bs.
Proof. exact b64_accepts_iff_wellformed. Qed.
Print Assumptions C18_b64_accepts_iff_wellformed.

Theorem C18_b32_accepts_iff_wellformed : forall s bs,
  b32_decode s = Ok bs <-> spec_dec32 s = Some bs.
Proof. exact b32_accepts_iff_wellformed. Qed.
Print Assumptions C18_b32_accepts_iff_wellformed.

Theorem C18_b16_accepts_iff_wellformed : forall s bs,
  b16_decode s = Ok bs <-> spec_dec16 s = Some bs.
Proof. exact b16_accepts_iff_wellformed. Qed.
Print Assumptions C18_b16_accepts_iff_wellformed.

Theorem C18_accepts_only_alphabet : forall s bs,
  (b64_decode s = Ok bs ->
     Nat.modulo (length s) 4 = 0%nat /\ Forall (fun c => c = 61 \/ val64 c <> None) s) /\
  (b32_decode s = Ok bs -> Forall (fun c => val32 c <> None) s) /\
  (b16_decode s = Ok bs -> Forall (fun c => val16 c <> None) s /\ Nat.modulo (length s) 2 = 0%nat).
Proof.
  exact (fun s bs => conj (b64_accepts_only_alphabet s bs)
                          (conj (b32_accepts_only_alphabet s bs) (b16_accepts_only_alphabet s bs))).
Qed.
Print Assumptions C18_accepts_only_alphabet.

Theorem C18_b64_decode_total : forall s, no_panic (b64_decode s) /\
  (spec_dec64 s = None -> exists e, b64_decode s = Err e).
Proof. exact b64_decode_total. Qed.
Print Assumptions C18_b64_decode_total.

Theorem C18_b32_decode_total : forall s, no_panic (b32_decode s) /\
  (spec_dec32 s = None -> exists e, b32_decode s = Err e).
Proof. exact b32_decode_total. Qed.
Print Assumptions C18_b32_decode_total.

Theorem C18_b16_decode_total : forall s, no_panic (b16_decode s) /\
  (spec_dec16 s = None -> exists e, b16_decode s = Err e).
Proof. exact b16_decode_total. Qed.
Print Assumptions C18_b16_decode_total.

Theorem C18_b64_chunk_independent : forall sticky a b d,
  b64_run_with sticky d (a ++ b) = seq_runs (b64_run_with sticky) d a b.
Proof. exact b64_chunk_independent. Qed.
Print Assumptions C18_b64_chunk_independent.

Theorem C18_b32_chunk_independent : forall a b d, b32_run d (a ++ b) = seq_runs b32_run d a b.
Proof. exact b32_chunk_independent. Qed.
Print Assumptions C18_b32_chunk_independent.

Theorem C18_b16_chunk_independent : forall a b d, b16_run d (a ++ b) = seq_runs b16_run d a b.
Proof. exact b16_chunk_independent. Qed.
Print Assumptions C18_b16_chunk_independent.

Theorem C18_convert_chunk_independent : forall chunks,
  b64_convert chunks = b64_convert [concat chunks] /\
  b32_convert chunks = b32_convert [concat chunks] /\
  b16_convert chunks = b16_convert [concat chunks].
Proof.
  exact (fun c => conj (b64_convert_chunk_independent c)
                       (conj (b32_convert_chunk_independent c) (b16_convert_chunk_independent c))).
Qed.
Print Assumptions C18_convert_chunk_independent.

Theorem C18_converter_agrees_with_decoder : forall chunks,
  same_result (b64_convert chunks) (b64_decode (concat chunks)) /\
  same_result (b32_convert chunks) (b32_decode (concat chunks)) /\
  same_result (b16_convert chunks) (b16_decode (concat chunks)).
Proof.
  exact (fun c => conj (b64_converter_agrees c)
                       (conj (b32_converter_agrees c) (b16_converter_agrees c))).
Qed.
Print Assumptions C18_converter_agrees_with_decoder.

Theorem C18_b64_decode_unchanged_by_fix : forall s, b64_decode s = b64_decode_from_with false b64_new s.
Proof. exact b64_decode_is_cur. Qed.
Print Assumptions C18_b64_decode_unchanged_by_fix.

Theorem C18_b64_api_total_refuted :
  exists s, snd (b64_push_all_cur s) = Panic 2 /\
            fst (b64_push_all_cur s) = [None; None; None; Some E_TRAILING].
Proof. exact b64_api_total_refuted. Qed.
Print Assumptions C18_b64_api_total_refuted.

Theorem C18_b64_api_total_restricted : forall s,
  ~ In (Some E_TRAILING) (fst (b64_push_all_cur s)) -> no_panic (snd (b64_push_all_cur s)).
Proof. exact b64_api_total_restricted. Qed.
Print Assumptions C18_b64_api_total_restricted.

Theorem C18_b64_errors_sticky_refuted :
  exists s, fst (b64_push_all_cur s) = [Some (E_illegal 33); None; None; None; None] /\
            snd (b64_push_all_cur s) = Ok [102; 111; 111].
Proof. exact b64_errors_sticky_refuted. Qed.
Print Assumptions C18_b64_errors_sticky_refuted.

Theorem C18_b64_errors_sticky_restricted : forall s,
  all_trailing (fst (b64_push_all_cur s)) ->
  (exists e, In (Some e) (fst (b64_push_all_cur s))) ->
  forall l, snd (b64_push_all_cur s) <> Ok l.
Proof. exact b64_errors_sticky_restricted. Qed.
Print Assumptions C18_b64_errors_sticky_restricted.

Theorem C18_b64_fix_api_total : forall s, no_panic (snd (b64_push_all_fix s)).
Proof. exact b64_fix_api_total. Qed.
Print Assumptions C18_b64_fix_api_total.

Theorem C18_b64_fix_errors_sticky : forall s,
  (exists e, In (Some e) (fst (b64_push_all_fix s))) -> exists e, snd (b64_push_all_fix s) = Err e.
Proof. exact b64_fix_errors_sticky. Qed.
Print Assumptions C18_b64_fix_errors_sticky.

Theorem C18_b64_api_total_as_coded :
  if b64_push_sticky then forall s, no_panic (snd (b64_push_all s))
  else (exists s, snd (b64_push_all s) = Panic 2 /\
                  fst (b64_push_all s) = [None; None; None; Some E_TRAILING]) /\
       (forall s, ~ In (Some E_TRAILING) (fst (b64_push_all s)) -> no_panic (snd (b64_push_all s))).
Proof. exact (b64_api_total_sel b64_push_sticky). Qed.
Print Assumptions C18_b64_api_total_as_coded.

Theorem C18_b64_errors_sticky_as_coded :
  if b64_push_sticky then forall s, (exists e, In (Some e) (fst (b64_push_all s))) ->
                                    exists e, snd (b64_push_all s) = Err e
  else (exists s, fst (b64_push_all s) = [Some (E_illegal 33); None; None; None; None] /\
                  snd (b64_push_all s) = Ok [102; 111; 111]) /\
       (forall s, all_trailing (fst (b64_push_all s)) ->
                  (exists e, In (Some e) (fst (b64_push_all s))) ->
                  forall l, snd (b64_push_all s) <> Ok l).
Proof. exact (b64_errors_sticky_sel b64_push_sticky). Qed.
Print Assumptions C18_b64_errors_sticky_as_coded.

Theorem C18_b32_api_total : forall s, no_panic (snd (b32_push_all s)).
Proof. exact b32_api_total. Qed.
Print Assumptions C18_b32_api_total.

Theorem C18_b32_errors_sticky : forall s,
  (exists e, In (Some e) (fst (b32_push_all s))) -> exists e, snd (b32_push_all s) = Err e.
Proof. exact b32_errors_sticky. Qed.
Print Assumptions C18_b32_errors_sticky.

Theorem C18_b16_api_total : forall s, no_panic (snd (b16_push_all s)).
Proof. exact b16_api_total. Qed.
Print Assumptions C18_b16_api_total.

Theorem C18_b16_errors_sticky : forall s,
  (exists e, In (Some e) (fst (b16_push_all s))) -> exists e, snd (b16_push_all s) = Err e.
Proof. exact b16_errors_sticky. Qed.
Print Assumptions C18_b16_errors_sticky.

(* ---- well-formedness as a grammar (RFC 4648 section 4 quanta) *)

Theorem C18_b64_accepts_iff_grammar : forall s bs,
  b64_decode s = Ok bs <-> wf64 s /\ bs = octets64 s.
Proof. exact b64_accepts_iff_grammar. Qed.
Print Assumptions C18_b64_accepts_iff_grammar.

Theorem C18_b64_rejects_iff_not_grammar : forall s, (exists e, b64_decode s = Err e) <-> ~ wf64 s.
Proof. exact b64_rejects_iff_not_grammar. Qed.
Print Assumptions C18_b64_rejects_iff_not_grammar.

Theorem C18_b32_accepts_iff_grammar : forall s bs,
  b32_decode s = Ok bs <-> wf_unpadded 5 val32 s /\ bs = octets_unpadded 5 val32 s.
Proof. exact b32_accepts_iff_grammar. Qed.
Print Assumptions C18_b32_accepts_iff_grammar.

Theorem C18_b16_accepts_iff_grammar : forall s bs,
  b16_decode s = Ok bs <-> wf_unpadded 4 val16 s /\ bs = octets_unpadded 4 val16 s.
Proof. exact b16_accepts_iff_grammar. Qed.
Print Assumptions C18_b16_accepts_iff_grammar.

(* ---- bounded octets builders (ShortBuf) *)

Theorem C18_cap_none_is_unbounded : forall s,
  (b64_decode_cap None s = b64_decode s /\ b64_push_all_cap None s = b64_push_all s) /\
  (b32_decode_cap None s = b32_decode s /\ b32_push_all_cap None s = b32_push_all s) /\
  (b16_decode_cap None s = b16_decode s /\ b16_push_all_cap None s = b16_push_all s).
Proof. exact cap_none_is_unbounded. Qed.
Print Assumptions C18_cap_none_is_unbounded.

Theorem C18_b32_cap_api_total_sticky : forall cap s,
  no_panic (snd (b32_push_all_cap cap s)) /\
  ((exists e, In (Some e) (fst (b32_push_all_cap cap s))) -> exists e, snd (b32_push_all_cap cap s) = Err e).
Proof. exact (fun cap s => conj (b32_cap_api_total cap s) (b32_cap_errors_sticky cap s)). Qed.
Print Assumptions C18_b32_cap_api_total_sticky.

Theorem C18_b16_cap_api_total_sticky : forall cap s,
  no_panic (snd (b16_push_all_cap cap s)) /\
  ((exists e, In (Some e) (fst (b16_push_all_cap cap s))) -> exists e, snd (b16_push_all_cap cap s) = Err e).
Proof. exact (fun cap s => conj (b16_cap_api_total cap s) (b16_cap_errors_sticky cap s)). Qed.
Print Assumptions C18_b16_cap_api_total_sticky.

Theorem C18_b64_cap_api_total_sticky : forall cap s,
  no_panic (snd (b64_push_all_cap_fix cap s)) /\
  ((exists e, In (Some e) (fst (b64_push_all_cap_fix cap s))) ->
   exists e, snd (b64_push_all_cap_fix cap s) = Err e).
Proof. exact (fun cap s => conj (b64_cap_api_total cap s) (b64_cap_errors_sticky cap s)). Qed.
Print Assumptions C18_b64_cap_api_total_sticky.

(* the push found in the source is the error-recording wrapper (T1), so the
   previous theorem is about the code in /repo *)
Theorem C18_b64_cap_is_as_coded : b64_push_sticky = true /\
  forall cap s, b64_push_all_cap cap s = b64_push_all_cap_fix cap s.
Proof. exact (conj eq_refl (fun _ _ => eq_refl)). Qed.
Print Assumptions C18_b64_cap_is_as_coded.

(* ---- users: IterScanner entry points, NSEC3 salt and owner hash *)

Theorem C18_scan_token_plain_agrees_with_decode : forall s, ~ In 92 s ->
  same_result (b64_scan_token s) (b64_decode s) /\ same_result (b32_scan_token s) (b32_decode s) /\
  same_result (b16_scan_token s) (b16_decode s).
Proof. exact scan_token_plain_agrees_with_decode. Qed.
Print Assumptions C18_scan_token_plain_agrees_with_decode.

Theorem C18_scan_entry_plain_agrees_with_decode : forall toks, Forall (fun t => ~ In 92 t) toks ->
  same_result (b64_scan_entry toks) (b64_decode (concat toks)) /\
  same_result (b32_scan_entry toks) (b32_decode (concat toks)) /\
  same_result (b16_scan_entry toks) (b16_decode (concat toks)).
Proof. exact scan_entry_plain. Qed.
Print Assumptions C18_scan_entry_plain_agrees_with_decode.

Theorem C18_scan_escapes_as_coded :
  if iter_scanner_checks_escapes
  then forall token, snd (symbols token) = false ->
         (forall bs, b64_scan_token token <> Ok bs) /\ (forall bs, b32_scan_token token <> Ok bs) /\
         (forall bs, b16_scan_token token <> Ok bs) /\
         (forall lim bs, salt_scan_with iter_scanner_checks_escapes lim token <> Ok bs) /\
         (forall lim bs, hash_scan_with iter_scanner_checks_escapes lim token <> Ok bs)
  else exists token, snd (symbols token) = false /\ b16_scan_token token = Ok [240; 15].
Proof. exact (scan_escapes_sel iter_scanner_checks_escapes). Qed.
Print Assumptions C18_scan_escapes_as_coded.

Theorem C18_salt_from_str_spec : forall s bs,
  salt_from_str s = Ok bs <->
  (s = [45] /\ bs = []) \/ (s <> [45] /\ spec_dec16 s = Some bs /\ (length bs <= 255)%nat).
Proof. exact salt_from_str_spec. Qed.
Print Assumptions C18_salt_from_str_spec.

Theorem C18_salt_roundtrip : forall bs, octets bs -> (length bs <= 255)%nat ->
  exists t, salt_display bs = Ok t /\ salt_from_str t = Ok bs.
Proof. exact salt_roundtrip. Qed.
Print Assumptions C18_salt_roundtrip.

Theorem C18_hash_roundtrip : forall bs, octets bs -> (length bs <= 255)%nat ->
  exists t, hash_display bs = Ok t /\ hash_from_str t = Ok bs.
Proof. exact (hash_roundtrip nsec3_hash_from_str_limited). Qed.
Print Assumptions C18_hash_roundtrip.

Theorem C18_hash_from_str_as_coded :
  if nsec3_hash_from_str_limited
  then forall s bs, hash_from_str s = Ok bs <-> spec_dec32 s = Some bs /\ (length bs <= 255)%nat
  else (forall s bs, hash_from_str s = Ok bs <-> spec_dec32 s = Some bs) /\
       exists s bs, hash_from_str s = Ok bs /\ length bs = 260%nat.
Proof. exact (hash_from_str_sel nsec3_hash_from_str_limited). Qed.
Print Assumptions C18_hash_from_str_as_coded.

Theorem C18_nsec3_scan_limit_as_coded :
  (if nsec3_salt_scan_limited
   then forall token bs, salt_scan token = Ok bs -> (length bs <= 255)%nat
   else exists token bs, salt_scan token = Ok bs /\ length bs = 256%nat) /\
  (if nsec3_hash_scan_limited
   then forall token bs, hash_scan token = Ok bs -> (length bs <= 255)%nat
   else exists token bs, hash_scan token = Ok bs /\ length bs = 260%nat).
Proof. exact (scan_limit_sel iter_scanner_checks_escapes nsec3_salt_scan_limited nsec3_hash_scan_limited). Qed.
Print Assumptions C18_nsec3_scan_limit_as_coded.

(* the repaired variants are the ones in /repo (T1): reverting a fix breaks this *)
Theorem C18_fixes_present :
  b64_push_sticky = true /\ iter_scanner_checks_escapes = true /\ nsec3_salt_scan_limited = true /\
  nsec3_hash_from_str_limited = true /\ nsec3_hash_scan_limited = true.
Proof. exact (conj eq_refl (conj eq_refl (conj eq_refl (conj eq_refl eq_refl)))). Qed.
Print Assumptions C18_fixes_present.

Theorem C18_symbols_ok_iff_wf_escapes : forall s, snd (symbols s) = true <-> wf_esc s.
Proof. exact symbols_ok_iff_wf. Qed.
Print Assumptions C18_symbols_ok_iff_wf_escapes.

Theorem C18_into_char_spec : forall y,
  into_char y = match y with
                | SChar c => Some c
                | SSimple c => if (32 <=? c) && (c <? 127) then Some c else None
                | SDecimal _ => None
                end.
Proof. exact into_char_spec. Qed.
Print Assumptions C18_into_char_spec.

(* decode into a builder of capacity c: the unbounded result if it fits,
   ShortBuf if the text is well-formed but too long, an error otherwise *)
Theorem C18_decode_cap_spec : forall c s,
  cap_decode_stmt b64_decode b64_decode_cap c s /\ cap_decode_stmt b32_decode b32_decode_cap c s /\
  cap_decode_stmt b16_decode b16_decode_cap c s.
Proof.
  exact (fun c s => conj (b64_decode_cap_spec c s) (conj (b32_decode_cap_spec c s) (b16_decode_cap_spec c s))).
Qed.
Print Assumptions C18_decode_cap_spec.

(* textual T1 anchors that carry no value: the wrappers are calls of display,
   decode is push-with-? then finalize, ShortBuf is handled as modelled *)
Theorem C18_t1_shape_anchors :
  encode_wrappers_are_display = true /\ shortbuf_paths_as_modelled = true /\
  decode_is_push_try_finalize = true /\ serde_modules_use_codecs = true /\
  codec_entry_points_as_listed = true /\ nsec3_serde_uses_text_entry_points = true.
Proof. exact (conj eq_refl (conj eq_refl (conj eq_refl (conj eq_refl (conj eq_refl eq_refl))))). Qed.
Print Assumptions C18_t1_shape_anchors.

(* ---- the other token-reading methods of IterScanner; display into a failing writer *)

Theorem C18_scan_methods_refuse_bad_escapes : forall token, snd (symbols token) = false ->
  (forall r, scan_octets token <> Ok r) /\ (forall r, scan_charstr token <> Ok r) /\
  (forall r, scan_string token <> Ok r) /\ (forall r, scan_ascii_str token <> Ok r) /\
  (forall r, scan_symbols token <> Ok r) /\
  (forall f r, scan_name_with iter_scanner_checks_escapes f token <> Ok r).
Proof. exact scan_methods_refuse_bad_escapes. Qed.
Print Assumptions C18_scan_methods_refuse_bad_escapes.

Theorem C18_scan_entry_methods_refuse_bad_escapes : forall tokens,
  Exists (fun token => snd (symbols token) = false) tokens ->
  (forall r, scan_charstr_entry tokens <> Ok r) /\ (forall r, scan_entry_symbols tokens <> Ok r).
Proof. exact scan_entry_methods_refuse_bad_escapes. Qed.
Print Assumptions C18_scan_entry_methods_refuse_bad_escapes.

Theorem C18_scan_symbols_ok_iff : forall token syms,
  scan_symbols token = Ok syms <-> wf_esc token /\ syms = fst (symbols token).
Proof. exact scan_symbols_ok_iff. Qed.
Print Assumptions C18_scan_symbols_ok_iff.

Theorem C18_scan_octets_plain : forall s, ~ In 92 s -> Forall printable s ->
  scan_octets s = Ok s /\ (N.of_nat (length s) <= 255 -> scan_charstr s = Ok s).
Proof. exact (scan_octets_plain iter_scanner_checks_escapes). Qed.
Print Assumptions C18_scan_octets_plain.

Theorem C18_scan_string_plain : forall s, ~ In 92 s -> scan_string s = Ok (flat_map utf8 s).
Proof. exact (scan_string_plain iter_scanner_checks_escapes). Qed.
Print Assumptions C18_scan_string_plain.

Theorem C18_b64_display_into_writer : forall bs room, octets bs ->
  b64_display_w ([], room) bs =
  Ok (if N.of_nat (length (spec_enc64 bs)) <=? room
      then ((spec_enc64 bs, room - N.of_nat (length (spec_enc64 bs))), true)
      else ((firstn (N.to_nat room) (spec_enc64 bs), 0), false)).
Proof. exact b64_display_into_writer. Qed.
Print Assumptions C18_b64_display_into_writer.

Theorem C18_b16_display_into_writer : forall bs room, octets bs ->
  b16_display_w ([], room) bs =
  Ok (if 2 * N.of_nat (length bs) <=? room
      then ((spec_enc16 bs, room - 2 * N.of_nat (length bs)), true)
      else ((spec_enc16 (firstn (N.to_nat (room / 2)) bs), room - 2 * (room / 2)), false)).
Proof. exact b16_display_into_writer. Qed.
Print Assumptions C18_b16_display_into_writer.

(* characters above ASCII, agreement of the text entry points, scan_name *)

Theorem C18_decode_rejects_above_ascii : forall s, Exists (fun c => 127 < c) s ->
  (exists e, b64_decode s = Err e) /\ (exists e, b32_decode s = Err e) /\ (exists e, b16_decode s = Err e).
Proof. exact decode_rejects_above_ascii. Qed.
Print Assumptions C18_decode_rejects_above_ascii.

Theorem C18_push_rejects_above_ascii : forall ch, 127 < ch ->
  (forall d, d64_next d <> 240 -> b64_push_char d ch = Ok (d, Some (E_illegal ch))) /\
  (forall d, b32_push d ch = Ok (mk32 (d32_buf d) (d32_next d) (Err (E_illegal ch)), Some (E_illegal ch))) /\
  (forall d, b16_push d ch = Ok (mk16 (d16_buf d) (Err (E_illegal ch)), Some (E_illegal ch))).
Proof. exact push_rejects_above_ascii. Qed.
Print Assumptions C18_push_rejects_above_ascii.

Theorem C18_converters_reject_above_ascii : forall chunks, Exists (fun c => 127 < c) (concat chunks) ->
  (forall bs, b64_convert chunks <> Ok bs) /\ (forall bs, b32_convert chunks <> Ok bs) /\
  (forall bs, b16_convert chunks <> Ok bs).
Proof. exact converters_reject_above_ascii. Qed.
Print Assumptions C18_converters_reject_above_ascii.

Theorem C18_salt_scan_agrees_from_str : forall s bs, ~ In 92 s ->
  (salt_scan s = Ok bs <-> salt_from_str s = Ok bs).
Proof. exact (salt_scan_agrees_from_str iter_scanner_checks_escapes). Qed.
Print Assumptions C18_salt_scan_agrees_from_str.

Theorem C18_hash_scan_agrees_from_str : forall s bs, ~ In 92 s ->
  (hash_scan s = Ok bs <-> hash_from_str s = Ok bs).
Proof. exact (hash_scan_agrees_from_str iter_scanner_checks_escapes). Qed.
Print Assumptions C18_hash_scan_agrees_from_str.

Theorem C18_scan_name_refuses_bad_escapes : forall token, snd (symbols token) = false ->
  forall w, scan_name token <> Ok w.
Proof. exact scan_name_refuses_bad_escapes. Qed.
Print Assumptions C18_scan_name_refuses_bad_escapes.

Theorem C18_b32_display_into_writer : forall bs room, octets bs ->
  b32_display_w ([], room) bs =
  Ok (if N.of_nat (length (spec_enc32 bs)) <=? room
      then ((spec_enc32 bs, room - N.of_nat (length (spec_enc32 bs))), true)
      else ((firstn (N.to_nat room) (spec_enc32 bs), 0), false)).
Proof. exact b32_display_into_writer. Qed.
Print Assumptions C18_b32_display_into_writer.

Theorem C18_b32_rejects_iff_not_grammar : forall s,
  (exists e, b32_decode s = Err e) <-> ~ wf_unpadded 5 val32 s.
Proof. exact b32_rejects_iff_not_grammar. Qed.
Print Assumptions C18_b32_rejects_iff_not_grammar.

Theorem C18_b16_rejects_iff_not_grammar : forall s,
  (exists e, b16_decode s = Err e) <-> ~ wf_unpadded 4 val16 s.
Proof. exact b16_rejects_iff_not_grammar. Qed.
Print Assumptions C18_b16_rejects_iff_not_grammar.

Theorem C18_encoders_injective : forall a b, octets a -> octets b ->
  (b64_display a = b64_display b -> a = b) /\
  (b32_display a = b32_display b -> a = b) /\
  (b16_display a = b16_display b -> a = b).
Proof. exact encoders_injective. Qed.
Print Assumptions C18_encoders_injective.

Theorem C18_encoded_is_wellformed : forall bs, octets bs ->
  (exists t, b64_display bs = Ok t /\ wf64 t /\ octets64 t = bs) /\
  (exists t, b32_display bs = Ok t /\ wf_unpadded 5 val32 t /\ octets_unpadded 5 val32 t = bs) /\
  (exists t, b16_display bs = Ok t /\ wf_unpadded 4 val16 t /\ octets_unpadded 4 val16 t = bs).
Proof. exact encoded_is_wellformed. Qed.
Print Assumptions C18_encoded_is_wellformed.

Theorem C18_push_chunks_independent : forall chunks,
  (forall sticky d, b64_run_with sticky d (concat chunks) = runs_list (b64_run_with sticky) d chunks) /\
  (forall d, b32_run d (concat chunks) = runs_list b32_run d chunks) /\
  (forall d, b16_run d (concat chunks) = runs_list b16_run d chunks).
Proof. exact push_chunks_independent. Qed.
Print Assumptions C18_push_chunks_independent.

Theorem C18_push_rechunk_independent : forall c1 c2, concat c1 = concat c2 ->
  (forall sticky d, runs_list (b64_run_with sticky) d c1 = runs_list (b64_run_with sticky) d c2) /\
  (forall d, runs_list b32_run d c1 = runs_list b32_run d c2) /\
  (forall d, runs_list b16_run d c1 = runs_list b16_run d c2).
Proof. exact push_rechunk_independent. Qed.
Print Assumptions C18_push_rechunk_independent.

Theorem C18_decode_not_injective :
  (exists s1 s2 bs, s1 <> s2 /\ b64_decode s1 = Ok bs /\ b64_decode s2 = Ok bs) /\
  (exists s1 s2 bs, s1 <> s2 /\ b32_decode s1 = Ok bs /\ b32_decode s2 = Ok bs) /\
  (exists s1 s2 bs, s1 <> s2 /\ b16_decode s1 = Ok bs /\ b16_decode s2 = Ok bs).
Proof. exact decode_not_injective. Qed.
Print Assumptions C18_decode_not_injective.

Theorem C18_decode_yields_octets : forall s bs,
  (b64_decode s = Ok bs -> octets bs) /\ (b32_decode s = Ok bs -> octets bs) /\
  (b16_decode s = Ok bs -> octets bs).
Proof. exact decode_yields_octets. Qed.
Print Assumptions C18_decode_yields_octets.

Theorem C18_decode_reencode : forall s bs,
  (b64_decode s = Ok bs -> exists t, b64_display bs = Ok t /\ b64_decode t = Ok bs) /\
  (b32_decode s = Ok bs -> exists t, b32_display bs = Ok t /\ b32_decode t = Ok bs) /\
  (b16_decode s = Ok bs -> exists t, b16_display bs = Ok t /\ b16_decode t = Ok bs).
Proof. exact decode_reencode. Qed.
Print Assumptions C18_decode_reencode.

Theorem C18_decoded_length_unpadded : forall s bs,
  (b32_decode s = Ok bs -> length bs = Nat.div (Nat.mul 5 (length s)) 8 /\ lt (Nat.modulo (Nat.mul 5 (length s)) 8) 5) /\
  (b16_decode s = Ok bs -> length s = Nat.mul 2 (length bs)).
Proof. exact decoded_length_unpadded. Qed.
Print Assumptions C18_decoded_length_unpadded.

Theorem C18_encoded_length_unpadded : forall bs t, octets bs ->
  (b32_display bs = Ok t -> length t = Nat.div (Nat.add (Nat.mul 8 (length bs)) 4) 5) /\
  (b16_display bs = Ok t -> length t = Nat.mul 2 (length bs)).
Proof. exact encoded_length_unpadded. Qed.
Print Assumptions C18_encoded_length_unpadded.

Theorem C18_b64_decoded_length : forall s bs, b64_decode s = Ok bs ->
  Nat.modulo (length s) 4 = O /\ length bs = Nat.div (Nat.mul 6 (length (data64 s))) 8.
Proof. exact b64_decoded_length. Qed.
Print Assumptions C18_b64_decoded_length.

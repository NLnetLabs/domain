(* C18 proofs: bounded octets builders (ShortBuf).  The *_cap model
   with cap = None is the unbounded model of the other files; `decode` into a
   builder of capacity c gives the unbounded result if it fits, ShortBuf if not. *)
From Coq Require Import NArith List Bool Lia.
Import ListNotations.
From DV Require Import Base.Outcome C18.Gen C18.Model C18.Proofs C18.ProofsEnc C18.ProofsSpec
  C18.ProofsDec64 C18.ProofsDec32 C18.ProofsApi C18.ProofsApi2 C18.ProofsPostFix.
Local Open Scope N_scope.

Section RunInv.
  Variable D : Type.
  Variable push : D -> N -> outcome (D * option N).
  Variable inv : D -> Prop.
  Variable tgt : D -> target.
  Hypothesis push_ok : forall d ch, inv d ->
    exists d' res, push d ch = Ok (d', res) /\ res = target_err (tgt d') /\ inv d' /\
                   (is_err (tgt d) -> is_err (tgt d')).

  Lemma run_g_keeps_failing d s : inv d -> is_err (tgt d) -> ~ In None (fst (run_g D push d s)).
  Proof.
    exact (run_keeps_failing D push (run_g D push) (fun _ => eq_refl) (fun _ _ _ => eq_refl) inv tgt push_ok d s).
  Qed.
End RunInv.

Lemma okerr_is_err_or_ok t : okerr t -> is_err t \/ exists l, t = Ok l.
Proof. destruct t as [l|e| |]; cbn; intros H; try contradiction; [right|left]; eexists; reflexivity. Qed.

Lemma append_cap_none t v : append_cap None t v = append t v.
Proof. destruct t; reflexivity. Qed.
Lemma fold_append_none l : forall t, fold_left (append_cap None) l t = fold_left append l t.
Proof. induction l as [|v r IH]; intros t; [reflexivity|]. cbn [fold_left]. rewrite append_cap_none. apply IH. Qed.

Definition b64_push_all_cap_fix (cap : option N) (s : list N) :=
  push_all_g dec64 (b64_push_cap cap true) b64_finalize b64_new s.

Theorem b64_cap_api_total cap s : no_panic (snd (b64_push_all_cap_fix cap s)).
Proof.
  exact (push_all_total _ _ _ (fun _ => eq_refl) (fun _ _ _ => eq_refl) _ invF d64_target
           (b64_push_cap_ok cap) b64_finalize_invF _ s (or_introl good64_new)).
Qed.

Theorem b64_cap_errors_sticky cap s :
  (exists e, In (Some e) (fst (b64_push_all_cap_fix cap s))) ->
  exists e, snd (b64_push_all_cap_fix cap s) = Err e.
Proof.
  exact (push_all_sticky _ _ _ (fun _ => eq_refl) (fun _ _ _ => eq_refl) _ invF d64_target
           (b64_push_cap_ok cap) b64_finalize_invF _ s (or_introl good64_new)).
Qed.

(* with the pinned push (no wrapper) a ShortBuf inside a group leaves next = 4
   exactly like the in-group TrailingInput did: same defect, same repair *)
Example b64_cap_pinned_shortbuf_panics :
  push_all_g dec64 (b64_push_cap (Some 0) false) b64_finalize b64_new [90; 103; 61; 61; 65] =
    ([None; None; None; Some E_SHORTBUF], Panic 2) /\
  b64_push_all_cap_fix (Some 0) [90; 103; 61; 61; 65] =
    ([None; None; None; Some E_SHORTBUF; Some E_SHORTBUF], Err E_SHORTBUF) /\
  b64_push_all_cap_fix (Some 1) [90; 103; 61; 61] = ([None; None; None; None], Ok [102]) /\
  b32_push_all_cap (Some 0) [67; 79] = ([None; None], Err E_SHORTBUF) /\
  b16_push_all_cap (Some 1) [70; 48; 48; 102] = ([None; None; None; Some E_SHORTBUF], Err E_SHORTBUF).
Proof. vm_compute. repeat split. Qed.

(* cap = None: a generic driver whose push and finalize agree pointwise with
   those of a driver of Model.v is that driver *)
Section SameDriver.
  Variable D : Type.
  Variables push push' : D -> N -> outcome (D * option N).
  Variables finalize finalize' : D -> outcome (list N).
  Hypothesis push_ext : forall d ch, push d ch = push' d ch.
  Hypothesis fin_ext : forall d, finalize d = finalize' d.

  Variable dec' : D -> list N -> outcome (list N).
  Hypothesis dec_nil : forall d, dec' d [] = finalize' d.
  Hypothesis dec_cons : forall d ch r,
    dec' d (ch :: r) = match push' d ch with
                       | Ok (d', None) => dec' d' r
                       | Ok (_, Some e) => Err e
                       | Err e => Err e
                       | Panic p => Panic p
                       | OutOfFuel => OutOfFuel
                       end.

  Lemma decode_from_g_same s : forall d, decode_from_g D push finalize d s = dec' d s.
  Proof.
    induction s as [|ch r IH]; intros d; cbn [decode_from_g].
    - rewrite dec_nil. apply fin_ext.
    - rewrite dec_cons, push_ext. destruct (push' d ch) as [[d' [e|]]| | |]; auto.
  Qed.

  Variable run' : D -> list N -> list (option N) * outcome D.
  Hypothesis run_nil : forall d, run' d [] = ([], Ok d).
  Hypothesis run_cons : forall d ch r,
    run' d (ch :: r) = match push' d ch with
                       | Ok (d', res) => let '(tr, fin) := run' d' r in (res :: tr, fin)
                       | Err e => ([], Err e)
                       | Panic p => ([], Panic p)
                       | OutOfFuel => ([], OutOfFuel)
                       end.

  Lemma push_all_g_same d s : push_all_g D push finalize d s = push_all_of D run' finalize' d s.
  Proof.
    unfold push_all_g, push_all_of.
    assert (R : forall s d, run_g D push d s = run' d s).
    { clear s d. induction s as [|ch r IH]; intros d; cbn [run_g]; [symmetry; apply run_nil|].
      rewrite run_cons, push_ext. destruct (push' d ch) as [[d' res]| | |]; auto. rewrite IH. reflexivity. }
    rewrite R. destruct (run' d s) as [tr [d'| | |]]; auto. rewrite fin_ext. reflexivity.
  Qed.
End SameDriver.

Lemma cap_none_64 s : b64_decode_cap None s = b64_decode s /\ b64_push_all_cap None s = b64_push_all s.
Proof.
  exact (conj (decode_from_g_same _ _ _ _ _ (b64_push_cap_none _) (fun _ => eq_refl) (b64_decode_from_with _)
                 (fun _ => eq_refl) (fun _ _ _ => eq_refl) s _)
              (push_all_g_same _ _ _ _ _ (b64_push_cap_none _) (fun _ => eq_refl) (b64_run_with _)
                 (fun _ => eq_refl) (fun _ _ _ => eq_refl) _ s)).
Qed.
Lemma cap_none_32 s : b32_decode_cap None s = b32_decode s /\ b32_push_all_cap None s = b32_push_all s.
Proof.
  exact (conj (decode_from_g_same _ _ _ _ _ b32_push_cap_none b32_finalize_cap_none b32_decode_from
                 (fun _ => eq_refl) (fun _ _ _ => eq_refl) s _)
              (push_all_g_same _ _ _ _ _ b32_push_cap_none b32_finalize_cap_none b32_run
                 (fun _ => eq_refl) (fun _ _ _ => eq_refl) _ s)).
Qed.
Lemma cap_none_16 s : b16_decode_cap None s = b16_decode s /\ b16_push_all_cap None s = b16_push_all s.
Proof.
  exact (conj (decode_from_g_same _ _ _ _ _ b16_push_cap_none (fun _ => eq_refl) b16_decode_from
                 (fun _ => eq_refl) (fun _ _ _ => eq_refl) s _)
              (push_all_g_same _ _ _ _ _ b16_push_cap_none (fun _ => eq_refl) b16_run
                 (fun _ => eq_refl) (fun _ _ _ => eq_refl) _ s)).
Qed.

Theorem cap_none_is_unbounded s :
  (b64_decode_cap None s = b64_decode s /\ b64_push_all_cap None s = b64_push_all s) /\
  (b32_decode_cap None s = b32_decode s /\ b32_push_all_cap None s = b32_push_all s) /\
  (b16_decode_cap None s = b16_decode s /\ b16_push_all_cap None s = b16_push_all s).
Proof. exact (conj (cap_none_64 s) (conj (cap_none_32 s) (cap_none_16 s))). Qed.

Definition lenN (l : list N) : N := N.of_nat (length l).
Lemma lenN_app a b : lenN (a ++ b) = lenN a + lenN b.
Proof. unfold lenN. rewrite app_length. lia. Qed.
Lemma fits_spec c l : fits (Some c) l = (lenN l + 1 <=? c).
Proof. reflexivity. Qed.

Definition cap_decode_stmt (dec : list N -> outcome (list N)) (decc : option N -> list N -> outcome (list N))
  (c : N) (s : list N) : Prop :=
  match dec s with
  | Ok bs => if lenN bs <=? c then decc (Some c) s = Ok bs else decc (Some c) s = Err E_SHORTBUF
  | Err e => exists e', decc (Some c) s = Err e'
  | _ => False
  end.

Section CapSim.
  Variable D : Type.
  Variable inv : D -> Prop.
  Variable tgt : D -> target.
  Variable c : N.

  (* the results of an unbounded and a bounded push on a decoder holding acc:
     the same as long as the octets fit, ShortBuf as soon as they do not *)
  Definition res_sim (acc : list N) (ru rc : outcome (D * option N)) : Prop :=
    exists du res, ru = Ok (du, res) /\
      match res with
      | None => inv du /\ exists accu, tgt du = Ok accu /\ lenN acc <= lenN accu /\
                (lenN acc <= c ->
                   if lenN accu <=? c then rc = Ok (du, None)
                   else exists d', rc = Ok (d', Some E_SHORTBUF))
      | Some e => lenN acc <= c -> exists d' e', rc = Ok (d', Some e')
      end.
  Definition push_sim (push_u push_c : D -> N -> outcome (D * option N)) : Prop :=
    forall d ch acc, inv d -> tgt d = Ok acc -> res_sim acc (push_u d ch) (push_c d ch).
  Definition fin_sim (fin_u fin_c : D -> outcome (list N)) : Prop :=
    forall d acc, inv d -> tgt d = Ok acc ->
    match fin_u d with
    | Ok bs => lenN acc <= lenN bs /\
               (lenN acc <= c -> if lenN bs <=? c then fin_c d = Ok bs else fin_c d = Err E_SHORTBUF)
    | Err e => lenN acc <= c -> exists e', fin_c d = Err e'
    | _ => False
    end.

  Variables push_u push_c : D -> N -> outcome (D * option N).
  Variables fin_u fin_c : D -> outcome (list N).
  Hypothesis Hpush : push_sim push_u push_c.
  Hypothesis Hfin : fin_sim fin_u fin_c.
  Variable dec_u : D -> list N -> outcome (list N).
  Hypothesis dec_nil : forall d, dec_u d [] = fin_u d.
  Hypothesis dec_cons : forall d ch r,
    dec_u d (ch :: r) = match push_u d ch with
                        | Ok (d', None) => dec_u d' r
                        | Ok (_, Some e) => Err e
                        | Err e => Err e
                        | Panic p => Panic p
                        | OutOfFuel => OutOfFuel
                        end.

  Lemma cap_mono s : forall d acc, inv d -> tgt d = Ok acc ->
    match dec_u d s with
    | Ok bs => lenN acc <= lenN bs
    | Err _ => True
    | _ => False
    end.
  Proof.
    induction s as [|ch r IH]; intros d acc Hi Ht.
    - rewrite dec_nil. pose proof (Hfin d acc Hi Ht) as F. destruct (fin_u d); try contradiction; [apply F|exact I].
    - rewrite dec_cons. destruct (Hpush d ch acc Hi Ht) as (du & res & E & R). rewrite E.
      destruct res as [e|]; [exact I|].
      destruct R as (Hi' & accu & Ht' & L & _).
      pose proof (IH du accu Hi' Ht') as M. destruct (dec_u du r); try contradiction; [lia|exact I].
  Qed.

  Lemma cap_sim s : forall d acc, inv d -> tgt d = Ok acc -> lenN acc <= c ->
    match dec_u d s with
    | Ok bs => if lenN bs <=? c then decode_from_g D push_c fin_c d s = Ok bs
               else decode_from_g D push_c fin_c d s = Err E_SHORTBUF
    | Err e => exists e', decode_from_g D push_c fin_c d s = Err e'
    | _ => False
    end.
  Proof.
    induction s as [|ch r IH]; intros d acc Hi Ht Hc; cbn [decode_from_g].
    - rewrite dec_nil. pose proof (Hfin d acc Hi Ht) as F.
      destruct (fin_u d); try contradiction; [apply F, Hc|apply F, Hc].
    - rewrite dec_cons. destruct (Hpush d ch acc Hi Ht) as (du & res & E & R). rewrite E.
      destruct res as [e|].
      + destruct (R Hc) as (d' & e' & ->). eauto.
      + destruct R as (Hi' & accu & Ht' & L & Q). specialize (Q Hc).
        destruct (N.leb_spec (lenN accu) c) as [Le|Gt].
        * rewrite Q. exact (IH du accu Hi' Ht' Le).
        * destruct Q as [d' ->].
          pose proof (cap_mono r du accu Hi' Ht') as M.
          destruct (dec_u du r) as [bs|e| |]; try contradiction.
          -- destruct (N.leb_spec (lenN bs) c); [lia|reflexivity].
          -- eauto.
  Qed.
End CapSim.

Lemma fold_append_cap_err cap l e : fold_left (append_cap cap) l (Err e) = Err e.
Proof. induction l as [|v r IH]; [reflexivity|exact IH]. Qed.
Lemma fold_append_cap_some c l : forall acc, lenN acc <= c ->
  fold_left (append_cap (Some c)) l (Ok acc) =
  if lenN acc + lenN l <=? c then Ok (acc ++ l) else Err E_SHORTBUF.
Proof.
  induction l as [|v r IH]; intros acc H.
  - cbn [fold_left]. rewrite app_nil_r. unfold lenN at 2. cbn [length N.of_nat].
    destruct (N.leb_spec (lenN acc + 0) c); [reflexivity|lia].
  - cbn [fold_left append_cap]. rewrite fits_spec.
    destruct (N.leb_spec (lenN acc + 1) c) as [F|NF].
    + rewrite IH by (rewrite lenN_app; unfold lenN at 2; cbn; lia).
      rewrite lenN_app, <- app_assoc. unfold lenN at 2 5. cbn [length app].
      destruct (N.leb_spec (lenN acc + N.of_nat 1 + lenN r) c);
        destruct (N.leb_spec (lenN acc + N.of_nat (S (length r))) c); try reflexivity; unfold lenN in *; lia.
    + rewrite fold_append_cap_err. unfold lenN at 2. cbn [length].
      destruct (N.leb_spec (lenN acc + N.of_nat (S (length r))) c); [lia|reflexivity].
Qed.

Lemma b16_cap_push c : push_sim dec16 (fun _ => True) d16_target c b16_push (b16_push_cap (Some c)).
Proof.
  intros d ch acc _ T. destruct d as [b t]. cbn [d16_target] in T. subst t.
  rewrite b16_push_sem. unfold b16_push_cap. change b16_radix with 16. rewrite to_digit16_is_val16.
  cbn [bind d16_buf d16_target]. destruct (val16 ch) as [v|].
  2:{ eexists _, _. split; [reflexivity|]. intros _. eexists _, _. reflexivity. }
  destruct b as [u|]; cbv zeta; cbn [d16_target append append_cap target_err].
  - eexists _, _. split; [reflexivity|]. split; [exact I|].
    eexists. split; [reflexivity|]. split; [rewrite lenN_app; lia|]. intros Hc.
    rewrite fits_spec, lenN_app. change (lenN [N.lor u v]) with 1.
    destruct (N.leb_spec (lenN acc + 1) c); [reflexivity|]. eexists. reflexivity.
  - eexists _, _. split; [reflexivity|]. split; [exact I|].
    eexists. split; [reflexivity|]. split; [lia|]. intros Hc.
    destruct (N.leb_spec (lenN acc) c); [reflexivity|lia].
Qed.

Lemma b16_cap_fin c : fin_sim dec16 (fun _ => True) d16_target c b16_finalize b16_finalize.
Proof.
  intros d acc _ T. destruct d as [b t]. cbn [d16_target] in T. subst t. unfold b16_finalize. cbn [d16_buf d16_target].
  destruct b; [eauto|]. split; [lia|]. intros Hc. destruct (N.leb_spec (lenN acc) c); [reflexivity|lia].
Qed.

Theorem b16_decode_cap_spec c s : cap_decode_stmt b16_decode b16_decode_cap c s.
Proof.
  exact (cap_sim _ _ _ c _ _ _ _ (b16_cap_push c) (b16_cap_fin c) b16_decode_from
           (fun _ => eq_refl) (fun _ _ _ => eq_refl) s b16_new [] I eq_refl (N.le_0_l c)).
Qed.

Definition b32_cont_cap (cap : option N) (d : dec32) (v : N) : outcome (dec32 * option N) :=
  do buf' <- buf8_set (d32_buf d) (d32_next d) v;
  let next' := d32_next d + 1 in
  let d1 :=
    if next' =? b32_group
    then mk32 buf' 0 (fold_left (append_cap cap) (b32_octets buf') (d32_target d))
    else mk32 buf' next' (d32_target d) in
  Ok (d1, target_err (d32_target d1)).

Lemma b32_push_cap_sem cap d ch :
  b32_push_cap cap d ch =
  match val32 ch with
  | None => Ok (mk32 (d32_buf d) (d32_next d) (Err (E_illegal ch)), Some (E_illegal ch))
  | Some v => b32_cont_cap cap d v
  end.
Proof.
  unfold b32_push_cap. cbv [b32_ascii_max].
  destruct (N.ltb_spec 127 ch) as [G|L].
  - rewrite val32_none_high by exact G. reflexivity.
  - destruct (dec_tab32_ok ch) as (v & E1 & E2); [lia|].
    rewrite E1. cbn [bind]. rewrite <- E2.
    destruct (v =? b32_illegal_val); reflexivity.
Qed.

Lemma b32_cap_push c :
  push_sim dec32 (fun d => d32_next d < 8) d32_target c b32_push (b32_push_cap (Some c)).
Proof.
  intros d ch acc. destruct d as [b n t]. cbn [d32_next d32_target]. intros Hn ->.
  rewrite b32_push_sem, b32_push_cap_sem. destruct (val32 ch) as [v|].
  2:{ eexists _, _. split; [reflexivity|]. intros _. eexists _, _. reflexivity. }
  unfold b32_cont, b32_cont_cap. cbn [d32_buf d32_next d32_target].
  destruct (buf8_set_spec b n v Hn) as (b' & -> & _). cbn [bind]. cbv [b32_group].
  destruct (N.eqb_spec (n + 1) 8) as [E8|N8].
  - rewrite fold_append_ok. cbn [d32_target target_err].
    eexists _, _. split; [reflexivity|]. split; [cbn; lia|].
    eexists. split; [reflexivity|]. split; [rewrite lenN_app; lia|]. intros Hc.
    rewrite (fold_append_cap_some c _ acc Hc), lenN_app.
    destruct (N.leb_spec (lenN acc + lenN (b32_octets b')) c); [reflexivity|]. eexists. reflexivity.
  - cbn [d32_target target_err].
    eexists _, _. split; [reflexivity|]. split; [cbn; lia|].
    eexists. split; [reflexivity|]. split; [lia|]. intros Hc.
    destruct (N.leb_spec (lenN acc) c); [reflexivity|lia].
Qed.

Lemma b32_cap_fin c :
  fin_sim dec32 (fun d => d32_next d < 8) d32_target c b32_finalize (b32_finalize_cap (Some c)).
Proof.
  intros d acc. destruct d as [b n t]. cbn [d32_next d32_target]. intros Hn ->.
  unfold b32_finalize, b32_finalize_cap. cbn [d32_target d32_next d32_buf].
  assert (K : forall k,
    match fold_left append (firstn k (b32_octets b)) (Ok acc) with
    | Ok bs => lenN acc <= lenN bs /\
               (lenN acc <= c -> if lenN bs <=? c
                  then fold_left (append_cap (Some c)) (firstn k (b32_octets b)) (Ok acc) = Ok bs
                  else fold_left (append_cap (Some c)) (firstn k (b32_octets b)) (Ok acc) = Err E_SHORTBUF)
    | Err e => lenN acc <= c -> exists e', fold_left (append_cap (Some c)) (firstn k (b32_octets b)) (Ok acc) = Err e'
    | _ => False
    end).
  { intros k. rewrite fold_append_ok. split; [rewrite lenN_app; lia|]. intros Hc.
    rewrite (fold_append_cap_some c _ acc Hc), lenN_app.
    destruct (N.leb_spec (lenN acc + lenN (firstn k (b32_octets b))) c); reflexivity. }
  assert (C : n = 0 \/ n = 1 \/ n = 2 \/ n = 3 \/ n = 4 \/ n = 5 \/ n = 6 \/ n = 7) by lia.
  destruct C as [-> | [-> | [-> | [-> | [-> | [-> | [-> | ->]]]]]]];
    cbn [N.eqb Pos.eqb existsb b32_fin_short orb assoc b32_fin_partial];
    try (intros _; eexists; reflexivity); try apply K.
  split; [lia|]. intros Hc. destruct (N.leb_spec (lenN acc) c); [reflexivity|lia].
Qed.

Theorem b32_decode_cap_spec c s : cap_decode_stmt b32_decode b32_decode_cap c s.
Proof.
  exact (cap_sim _ _ _ c _ _ _ _ (b32_cap_push c) (b32_cap_fin c) b32_decode_from
           (fun _ => eq_refl) (fun _ _ _ => eq_refl) s b32_new [] eq_refl eq_refl (N.le_0_l c)).
Qed.

Definition inv64c (d : dec64) : Prop := d64_next d < 4 \/ d64_next d = 240.

Lemma b64_cap_cont c b n acc v : n < 4 ->
  res_sim dec64 inv64c d64_target c acc
    (b64_cont (mk64 b n (Ok acc)) v) (b64_cont_cap (Some c) (mk64 b n (Ok acc)) v).
Proof.
  destruct b as [[[x0 x1] x2] x3]. intros Hn.
  assert (C : n = 0 \/ n = 1 \/ n = 2 \/ n = 3) by lia.
  destruct C as [-> | [-> | [-> | ->]]].
  1-3: (eexists _, _; split; [reflexivity|]; split; [left; cbn; lia|];
        eexists; split; [reflexivity|]; split; [lia|]; intros Hc;
        destruct (N.leb_spec (lenN acc) c); [reflexivity|lia]).
  rewrite cont_3. cbv zeta.
  unfold b64_cont_cap, try_append.
  cbn [d64_buf d64_next d64_target buf4_set N.eqb Pos.eqb bind N.add Pos.add].
  cbv [b64_group b64_push_pad_val b64_push_eof]. cbn [N.eqb Pos.eqb Pos.succ].
  assert (L1 : forall x, lenN [x] = 1) by reflexivity.
  destruct (x2 =? 128); destruct (v =? 128); cbn [negb].
  - (* x x = = *)
    eexists _, _. split; [reflexivity|]. split; [right; reflexivity|].
    eexists. split; [reflexivity|]. split; [rewrite lenN_app; lia|]. intros Hc.
    rewrite !fits_spec, !lenN_app, !L1.
    destruct (lenN acc + 1 <=? c); [reflexivity|eexists; reflexivity].
  - (* x x = x : TrailingInput *)
    eexists _, _. split; [reflexivity|]. intros Hc. rewrite !fits_spec.
    destruct (lenN acc + 1 <=? c); eexists _, _; reflexivity.
  - (* x x x = *)
    eexists _, _. split; [reflexivity|]. split; [right; reflexivity|].
    eexists. split; [reflexivity|]. split; [rewrite !lenN_app; lia|]. intros Hc.
    rewrite !lenN_app, !L1, fits_spec.
    destruct (N.leb_spec (lenN acc + 1) c).
    2:{ destruct (N.leb_spec (lenN acc + 1 + 1) c); [lia|]. eexists; reflexivity. }
    rewrite fits_spec, lenN_app, L1.
    destruct (lenN acc + 1 + 1 <=? c); [reflexivity|eexists; reflexivity].
  - (* x x x x *)
    eexists _, _. split; [reflexivity|]. split; [left; cbn; lia|].
    eexists. split; [reflexivity|]. split; [rewrite !lenN_app; lia|]. intros Hc.
    rewrite !lenN_app, !L1, fits_spec.
    destruct (N.leb_spec (lenN acc + 1) c).
    2:{ destruct (N.leb_spec (lenN acc + 1 + 1 + 1) c); [lia|]. eexists; reflexivity. }
    rewrite fits_spec, lenN_app, L1.
    destruct (N.leb_spec (lenN acc + 1 + 1) c).
    2:{ destruct (N.leb_spec (lenN acc + 1 + 1 + 1) c); [lia|]. eexists; reflexivity. }
    rewrite fits_spec, !lenN_app, !L1.
    destruct (lenN acc + 1 + 1 + 1 <=? c); [reflexivity|eexists; reflexivity].
Qed.

(* the wrapper that records the error of the decoding step in the target *)
Definition record_err (r : outcome (dec64 * option N)) : outcome (dec64 * option N) :=
  match r with
  | Ok (d', Some e) => Ok (mk64 (d64_buf d') (d64_next d') (Err e), Some e)
  | Ok (d', None) => Ok (d', None)
  | Err e => Err e
  | Panic p => Panic p
  | OutOfFuel => OutOfFuel
  end.

Lemma res_sim_record c acc ru rc :
  res_sim dec64 inv64c d64_target c acc ru rc ->
  res_sim dec64 inv64c d64_target c acc (record_err ru) (record_err rc).
Proof.
  intros (du & res & -> & R). destruct res as [e|].
  - eexists _, _. split; [reflexivity|]. intros Hc. destruct (R Hc) as (d' & e' & ->). cbn. eauto.
  - exists du, None. split; [reflexivity|]. destruct R as (I1 & accu & T & L & Q).
    split; [exact I1|]. exists accu. split; [exact T|]. split; [exact L|]. intros Hc. specialize (Q Hc).
    destruct (lenN accu <=? c); [rewrite Q; reflexivity|]. destruct Q as [d' ->]. cbn. eauto.
Qed.

Lemma b64_cap_push c :
  push_sim dec64 inv64c d64_target c (b64_push_with true) (b64_push_cap (Some c) true).
Proof.
  intros [b n t] ch acc Hi T. cbn [d64_target] in T. subst t.
  cbn [b64_push_with b64_push_cap d64_target].
  destruct Hi as [Hn|He]; cbn [d64_next] in *.
  2:{ subst n. rewrite (b64_push_at_eof (mk64 b 240 (Ok acc)) ch eq_refl),
        (b64_push_char_cap_at_eof (Some c) (mk64 b 240 (Ok acc)) ch eq_refl).
      eexists _, _. split; [reflexivity|]. intros _. eexists _, _. reflexivity. }
  rewrite b64_push_char_cap_sem by (cbn; lia).
  destruct (N.eq_dec ch 61) as [->|Nc].
  - rewrite b64_push_pad by (cbn; lia). cbn [d64_next N.eqb Pos.eqb].
    destruct (n <? 2).
    + eexists _, _. split; [reflexivity|]. intros _. eexists _, _. reflexivity.
    + exact (res_sim_record c acc _ _ (b64_cap_cont c b n acc 128 Hn)).
  - rewrite b64_push_sem by (cbn; auto; lia). destruct (N.eqb_spec ch 61); [contradiction|].
    destruct (val64 ch) as [v|].
    + exact (res_sim_record c acc _ _ (b64_cap_cont c b n acc v Hn)).
    + eexists _, _. split; [reflexivity|]. intros _. eexists _, _. reflexivity.
Qed.

Lemma b64_cap_fin c : fin_sim dec64 inv64c d64_target c b64_finalize b64_finalize.
Proof.
  intros d acc _ T. unfold b64_finalize. rewrite T.
  destruct (N.land (d64_next d) b64_fin_mask =? 0); [|eauto].
  split; [lia|]. intros Hc. destruct (N.leb_spec (lenN acc) c); [reflexivity|lia].
Qed.

Theorem b64_decode_cap_spec c s : cap_decode_stmt b64_decode b64_decode_cap c s.
Proof.
  exact (cap_sim _ _ _ c _ _ _ _ (b64_cap_push c) (b64_cap_fin c) (b64_decode_from_with true)
           (fun _ => eq_refl) (fun _ _ _ => eq_refl) s b64_new [] (or_introl eq_refl) eq_refl (N.le_0_l c)).
Qed.

Example decode_cap_examples :
  b64_decode_cap (Some 3) [90; 109; 57; 118] = Ok [102; 111; 111] /\
  b64_decode_cap (Some 2) [90; 109; 57; 118] = Err E_SHORTBUF /\
  b32_decode_cap (Some 0) [67; 79] = Err E_SHORTBUF /\ b32_decode_cap (Some 1) [67; 79] = Ok [102] /\
  b16_decode_cap (Some 1) [70; 48; 48; 70] = Err E_SHORTBUF.
Proof. vm_compute. repeat split. Qed.

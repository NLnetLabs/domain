(* C18 proofs: base64 `decode` accepts exactly the well-formed texts
   (spec_dec64) and returns the specified octets; never panics. *)
From Coq Require Import NArith List Bool Lia.
Import ListNotations.
From DV Require Import Base.Outcome C18.Gen C18.Model C18.Proofs C18.ProofsEnc C18.ProofsSpec.
Local Open Scope N_scope.

(* the continuation of Decoder::push once the value of the character is known *)
Definition b64_cont (d : dec64) (val : N) : outcome (dec64 * option N) :=
  do buf' <- buf4_set (d64_buf d) (d64_next d) val;
  let next' := d64_next d + 1 in
  if next' =? b64_group then
    match d64_target d with
    | Ok t0 =>
        let '(x0, x1, x2, x3) := buf' in
        let t1 := t0 ++ [b64_oct0 x0 x1 x2 x3] in
        let t2 := if negb (x2 =? b64_push_pad_val) then t1 ++ [b64_oct1 x0 x1 x2 x3] else t1 in
        if negb (x3 =? b64_push_pad_val) then
          if x2 =? b64_push_pad_val then Ok (mk64 buf' next' (Ok t2), Some E_TRAILING)
          else Ok (mk64 buf' 0 (Ok (t2 ++ [b64_oct2 x0 x1 x2 x3])), None)
        else Ok (mk64 buf' b64_push_eof (Ok t2), None)
    | _ => Panic 3
    end
  else Ok (mk64 buf' next' (d64_target d), None).

Lemma b64_push_unfold d ch :
  b64_push_char d ch =
  if d64_next d =? b64_push_eof then
    Ok (mk64 (d64_buf d) (d64_next d) (Err E_TRAILING), Some E_TRAILING)
  else if ch =? b64_pad then
    if d64_next d <? b64_push_pad_min then Ok (d, Some (E_illegal ch)) else b64_cont d b64_push_pad_val
  else if b64_ascii_max <? ch then Ok (d, Some (E_illegal ch))
  else do v <- tab_get b64_decode_tab ch;
       if v =? b64_illegal_val then Ok (d, Some (E_illegal ch)) else b64_cont d v.
Proof. reflexivity. Qed.

Lemma dfc64 d ch r :
  b64_decode_from d (ch :: r) =
  match b64_push_char d ch with
  | Ok (d', None) => b64_decode_from d' r
  | Ok (_, Some e) => Err e
  | Err e => Err e
  | Panic p => Panic p
  | OutOfFuel => OutOfFuel
  end.
Proof. reflexivity. Qed.
Lemma dfn64 d : b64_decode_from d [] = b64_finalize d.
Proof. reflexivity. Qed.

(* push of a non-pad character, in terms of the RFC alphabet position *)
Lemma b64_push_sem d ch : d64_next d <> 240 -> ch <> 61 ->
  b64_push_char d ch = match val64 ch with
                  | None => Ok (d, Some (E_illegal ch))
                  | Some v => b64_cont d v
                  end.
Proof.
  intros Hn Hc. rewrite b64_push_unfold.
  cbv [b64_push_eof b64_pad b64_ascii_max].
  destruct (N.eqb_spec (d64_next d) 240); [contradiction|].
  destruct (N.eqb_spec ch 61); [contradiction|].
  destruct (N.ltb_spec 127 ch) as [G|L].
  - rewrite val64_none_high by exact G. reflexivity.
  - destruct (dec_tab64_ok ch) as (v & E1 & E2); [lia|].
    rewrite E1. cbn [bind]. rewrite <- E2.
    destruct (v =? b64_illegal_val); reflexivity.
Qed.

Lemma b64_push_pad d : d64_next d <> 240 ->
  b64_push_char d 61 = if d64_next d <? 2 then Ok (d, Some (E_illegal 61)) else b64_cont d 128.
Proof.
  intros Hn. rewrite b64_push_unfold. cbv [b64_push_eof b64_pad b64_push_pad_min b64_push_pad_val].
  destruct (N.eqb_spec (d64_next d) 240); [contradiction|]. reflexivity.
Qed.

(* a character that is not in the alphabet is refused in positions 0 and 1
   ('=' included: it has no alphabet position) *)
Lemma b64_push_bad_early d ch : d64_next d < 2 -> val64 ch = None ->
  b64_push_char d ch = Ok (d, Some (E_illegal ch)).
Proof.
  intros Hn V. destruct (N.eq_dec ch 61) as [->|Hc].
  - rewrite b64_push_pad by lia. destruct (N.ltb_spec (d64_next d) 2); [reflexivity|lia].
  - rewrite b64_push_sem by (auto; lia). rewrite V. reflexivity.
Qed.

Lemma cont_0 x0 x1 x2 x3 t v :
  b64_cont (mk64 (x0, x1, x2, x3) 0 t) v = Ok (mk64 (v, x1, x2, x3) 1 t, None).
Proof. reflexivity. Qed.
Lemma cont_1 x0 x1 x2 x3 t v :
  b64_cont (mk64 (x0, x1, x2, x3) 1 t) v = Ok (mk64 (x0, v, x2, x3) 2 t, None).
Proof. reflexivity. Qed.
Lemma cont_2 x0 x1 x2 x3 t v :
  b64_cont (mk64 (x0, x1, x2, x3) 2 t) v = Ok (mk64 (x0, x1, v, x3) 3 t, None).
Proof. reflexivity. Qed.

Lemma cont_3 x0 x1 x2 x3 acc v :
  b64_cont (mk64 (x0, x1, x2, x3) 3 (Ok acc)) v =
  let t1 := acc ++ [b64_oct0 x0 x1 x2 v] in
  let t2 := if negb (x2 =? 128) then t1 ++ [b64_oct1 x0 x1 x2 v] else t1 in
  if negb (v =? 128) then
    if x2 =? 128 then Ok (mk64 (x0, x1, x2, v) 4 (Ok t2), Some E_TRAILING)
    else Ok (mk64 (x0, x1, x2, v) 0 (Ok (t2 ++ [b64_oct2 x0 x1 x2 v])), None)
  else Ok (mk64 (x0, x1, x2, v) 240 (Ok t2), None).
Proof. reflexivity. Qed.

(* the octets computed by the shifts are the RFC regrouping of the sextets *)
Lemma oct0_spec v0 v1 x y : v1 < 64 ->
  b64_oct0 v0 v1 x y = bits_val [tb v0 5; tb v0 4; tb v0 3; tb v0 2; tb v0 1; tb v0 0; tb v1 5; tb v1 4].
Proof. exact (lor_shr_join _ _ v1 4 2 (shl_land_bits v0 2 eq_refl)). Qed.
Lemma oct1_spec x v1 v2 y : v2 < 64 ->
  b64_oct1 x v1 v2 y = bits_val [tb v1 3; tb v1 2; tb v1 1; tb v1 0; tb v2 5; tb v2 4; tb v2 3; tb v2 2].
Proof. exact (lor_shr_join _ _ v2 2 4 (shl_land_bits v1 4 eq_refl)). Qed.
Lemma oct2_spec x y v2 v3 : v3 < 64 ->
  b64_oct2 x y v2 v3 = bits_val [tb v2 1; tb v2 0; tb v3 5; tb v3 4; tb v3 3; tb v3 2; tb v3 1; tb v3 0].
Proof. exact (lor_shr_join _ _ v3 0 6 (shl_land_bits v2 6 eq_refl)). Qed.

Lemma bits6 v : bits_msb 6 v = [tb v 5; tb v 4; tb v 3; tb v 2; tb v 1; tb v 0].
Proof. reflexivity. Qed.

Lemma dec6_2 v0 v1 x y : v0 < 64 -> v1 < 64 -> dec6 [v0; v1] = [b64_oct0 v0 v1 x y].
Proof.
  intros. unfold dec6. cbn [flat_map]. rewrite !bits6. cbn [app take_octets].
  rewrite (oct0_spec v0 v1 x y) by assumption. reflexivity.
Qed.
Lemma dec6_3 v0 v1 v2 y : v0 < 64 -> v1 < 64 -> v2 < 64 ->
  dec6 [v0; v1; v2] = [b64_oct0 v0 v1 v2 y; b64_oct1 v0 v1 v2 y].
Proof.
  intros. unfold dec6. cbn [flat_map]. rewrite !bits6. cbn [app take_octets].
  rewrite (oct0_spec v0 v1 v2 y), (oct1_spec v0 v1 v2 y) by assumption. reflexivity.
Qed.
Lemma dec6_4 v0 v1 v2 v3 : v0 < 64 -> v1 < 64 -> v2 < 64 -> v3 < 64 ->
  dec6 [v0; v1; v2; v3] = [b64_oct0 v0 v1 v2 v3; b64_oct1 v0 v1 v2 v3; b64_oct2 v0 v1 v2 v3].
Proof.
  intros. unfold dec6. cbn [flat_map]. rewrite !bits6. cbn [app take_octets].
  rewrite (oct0_spec v0 v1 v2 v3), (oct1_spec v0 v1 v2 v3), (oct2_spec v0 v1 v2 v3) by assumption.
  reflexivity.
Qed.

(* what `decode` and the specification have to agree on *)
Definition agree (o : outcome (list N)) (sp : option (list N)) (acc : list N) : Prop :=
  match sp with
  | Some bs => o = Ok (acc ++ bs)
  | None => exists e, o = Err e
  end.

Lemma step_bad x0 x1 x2 x3 n t ch r : n < 2 -> val64 ch = None ->
  b64_decode_from (mk64 (x0, x1, x2, x3) n t) (ch :: r) = Err (E_illegal ch).
Proof.
  intros Hn V. rewrite dfc64. rewrite b64_push_bad_early by (cbn; assumption). reflexivity.
Qed.
Lemma step_ok b b' n t ch v r : n < 3 -> val64 ch = Some v -> buf4_set b n v = Ok b' ->
  b64_decode_from (mk64 b n t) (ch :: r) = b64_decode_from (mk64 b' (n + 1) t) r.
Proof.
  intros Hn V E. rewrite dfc64.
  rewrite b64_push_sem by (cbn; first [lia | intros ->; rewrite val64_pad in V; discriminate]).
  rewrite V. unfold b64_cont. cbn [d64_buf d64_next d64_target]. rewrite E. cbn [bind].
  destruct (N.eqb_spec (n + 1) b64_group) as [G|_]; [cbv [b64_group] in G; lia|reflexivity].
Qed.

(* the first two characters of a quantum: both in the alphabet, or rejected *)
Lemma first_two x0 x1 x2 x3 t a b r :
  b64_decode_from (mk64 (x0, x1, x2, x3) 0 t) (a :: b :: r) =
  match val64 a, val64 b with
  | Some va, Some vb => b64_decode_from (mk64 (va, vb, x2, x3) 2 t) r
  | Some _, None => Err (E_illegal b)
  | None, _ => Err (E_illegal a)
  end.
Proof.
  destruct (val64 a) as [va|] eqn:Va; [|apply step_bad; [reflexivity|exact Va]].
  rewrite (step_ok _ (va, x1, x2, x3) 0 _ a va) by first [assumption | reflexivity].
  destruct (val64 b) as [vb|] eqn:Vb; [|apply step_bad; [reflexivity|exact Vb]].
  exact (step_ok (va, x1, x2, x3) (va, vb, x2, x3) 1 _ b vb _ eq_refl Vb eq_refl).
Qed.

Lemma step_pad2 x0 x1 x2 x3 t r :
  b64_decode_from (mk64 (x0, x1, x2, x3) 2 t) (61 :: r) = b64_decode_from (mk64 (x0, x1, 128, x3) 3 t) r.
Proof.
  rewrite dfc64. rewrite b64_push_pad by (cbn; discriminate). reflexivity.
Qed.
Lemma step_bad_late x0 x1 x2 x3 n t ch r : n <> 240 -> ch <> 61 -> val64 ch = None ->
  b64_decode_from (mk64 (x0, x1, x2, x3) n t) (ch :: r) = Err (E_illegal ch).
Proof.
  intros Hn Hc V. rewrite dfc64. rewrite b64_push_sem by (cbn; assumption).
  rewrite V. reflexivity.
Qed.
Lemma step_eof b t ch r :
  b64_decode_from (mk64 b 240 t) (ch :: r) = Err E_TRAILING.
Proof. reflexivity. Qed.

Lemma ne128 v : v < 64 -> (v =? 128) = false.
Proof. intros. apply N.eqb_neq. lia. Qed.

Lemma step3_vv x0 x1 x2 x3 acc ch v r : x2 < 64 -> val64 ch = Some v ->
  b64_decode_from (mk64 (x0, x1, x2, x3) 3 (Ok acc)) (ch :: r) =
  b64_decode_from (mk64 (x0, x1, x2, v) 0
     (Ok (acc ++ [b64_oct0 x0 x1 x2 v; b64_oct1 x0 x1 x2 v; b64_oct2 x0 x1 x2 v]))) r.
Proof.
  intros H2 V. rewrite dfc64.
  rewrite b64_push_sem by (cbn; first [discriminate | intros ->; rewrite val64_pad in V; discriminate]).
  rewrite V, cont_3. cbv zeta. rewrite (ne128 x2 H2), (ne128 v (val64_lt _ _ V)). cbn [negb].
  rewrite <- !app_assoc. reflexivity.
Qed.
Lemma step3_vp x0 x1 x2 x3 acc r : x2 < 64 ->
  b64_decode_from (mk64 (x0, x1, x2, x3) 3 (Ok acc)) (61 :: r) =
  b64_decode_from (mk64 (x0, x1, x2, 128) 240
     (Ok (acc ++ [b64_oct0 x0 x1 x2 128; b64_oct1 x0 x1 x2 128]))) r.
Proof.
  intros H2. rewrite dfc64. rewrite b64_push_pad by (cbn; discriminate).
  cbn [d64_next N.ltb N.compare Pos.compare Pos.compare_cont].
  rewrite cont_3. cbv zeta. rewrite (ne128 x2 H2). cbn [negb N.eqb Pos.eqb].
  rewrite <- !app_assoc. reflexivity.
Qed.
Lemma step3_pp x0 x1 x3 acc r :
  b64_decode_from (mk64 (x0, x1, 128, x3) 3 (Ok acc)) (61 :: r) =
  b64_decode_from (mk64 (x0, x1, 128, 128) 240 (Ok (acc ++ [b64_oct0 x0 x1 128 128]))) r.
Proof.
  rewrite dfc64. rewrite b64_push_pad by (cbn; discriminate). reflexivity.
Qed.
Lemma step3_pv x0 x1 x3 acc ch v r : val64 ch = Some v ->
  b64_decode_from (mk64 (x0, x1, 128, x3) 3 (Ok acc)) (ch :: r) = Err E_TRAILING.
Proof.
  intros V. rewrite dfc64.
  rewrite b64_push_sem by (cbn; first [discriminate | intros ->; rewrite val64_pad in V; discriminate]).
  rewrite V, cont_3. cbv zeta. rewrite (ne128 v (val64_lt _ _ V)). reflexivity.
Qed.

Lemma fin_ok b acc : b64_decode_from (mk64 b 0 (Ok acc)) [] = Ok acc.
Proof. reflexivity. Qed.
Lemma fin_eof b acc : b64_decode_from (mk64 b 240 (Ok acc)) [] = Ok acc.
Proof. reflexivity. Qed.

Ltac both_reject :=
  unfold agree; repeat first [rewrite val64_pad | progress cbv beta iota]; eexists; reflexivity.

Lemma b64_decode_from_spec s : forall buf acc,
  agree (b64_decode_from (mk64 buf 0 (Ok acc)) s) (spec_dec64 s) acc.
Proof.
  induction s as [|a|a b|a b c|a b c d r IH] using list_ind4; intros [[[x0 x1] x2] x3] acc;
    cbn [spec_dec64]; rewrite ?first_two.
  - unfold agree. rewrite fin_ok, app_nil_r. reflexivity.
  - destruct (val64 a) as [va|] eqn:Va.
    + rewrite (step_ok _ (va, x1, x2, x3) 0 _ a va) by first [assumption | reflexivity]. both_reject.
    + rewrite step_bad by first [assumption | reflexivity]. both_reject.
  - destruct (val64 a), (val64 b); both_reject.
  - destruct (val64 a) as [va|]; [destruct (val64 b) as [vb|]|]; try both_reject.
    destruct (N.eq_dec c 61) as [->|Hc].
    + rewrite step_pad2. both_reject.
    + destruct (val64 c) as [vc|] eqn:Vc.
      * rewrite (step_ok _ (va, vb, vc, x3) 2 _ c vc) by first [assumption | reflexivity]. both_reject.
      * rewrite step_bad_late by (assumption || discriminate). both_reject.
  - destruct (val64 a) as [va|] eqn:Va; [destruct (val64 b) as [vb|] eqn:Vb|];
      try (destruct r; both_reject).
    pose proof (val64_lt _ _ Va) as La. pose proof (val64_lt _ _ Vb) as Lb.
    destruct (N.eqb_spec c 61) as [->|Hc].
    + (* third character is '=' *)
      rewrite step_pad2.
      destruct (N.eqb_spec d 61) as [->|Hd].
      * rewrite step3_pp. destruct r as [|x l].
        -- rewrite fin_eof. unfold agree. rewrite (dec6_2 va vb 128 128) by assumption. reflexivity.
        -- rewrite step_eof. both_reject.
      * destruct (val64 d) as [vd|] eqn:Vd.
        -- rewrite (step3_pv _ _ _ _ _ vd) by assumption. destruct r; both_reject.
        -- rewrite step_bad_late by (assumption || discriminate). destruct r; both_reject.
    + destruct (val64 c) as [vc|] eqn:Vc;
        [|rewrite step_bad_late by (assumption || discriminate); destruct r; both_reject].
      rewrite (step_ok _ (va, vb, vc, x3) 2 _ c vc) by first [assumption | reflexivity].
      cbn [N.add Pos.add]. pose proof (val64_lt _ _ Vc) as Lc.
      destruct (N.eqb_spec d 61) as [->|Hd].
      * rewrite step3_vp by assumption. destruct r as [|x l].
        -- rewrite fin_eof. unfold agree. rewrite (dec6_3 va vb vc 128) by assumption. reflexivity.
        -- rewrite step_eof. both_reject.
      * destruct (val64 d) as [vd|] eqn:Vd;
          [|rewrite step_bad_late by (assumption || discriminate); destruct r; both_reject].
        pose proof (val64_lt _ _ Vd) as Ld.
        rewrite (step3_vv _ _ _ _ _ _ vd) by assumption.
        destruct r as [|x l].
        -- rewrite fin_ok. unfold agree. rewrite dec6_4 by assumption. reflexivity.
        -- specialize (IH (va, vb, vc, vd)
             (acc ++ [b64_oct0 va vb vc vd; b64_oct1 va vb vc vd; b64_oct2 va vb vc vd])).
           destruct (spec_dec64 (x :: l)) as [bs|]; unfold agree in *.
           ++ rewrite IH, dec6_4 by assumption. rewrite <- app_assoc. reflexivity.
           ++ exact IH.
Qed.

(* `decode` stops at the first error, so making errors final (the repaired
   `push`) does not change it: everything proved about `decode` holds for the
   code with and without pending/C18-base64-decoder.diff *)
Lemma b64_cont_target d v d' acc : d64_target d = Ok acc ->
  b64_cont d v = Ok (d', None) -> exists acc', d64_target d' = Ok acc'.
Proof.
  destruct d as [[[[x0 x1] x2] x3] n t]. cbn [d64_target]. intros ->.
  unfold b64_cont, buf4_set. cbn [d64_buf d64_next d64_target].
  destruct (n =? 0); [|destruct (n =? 1); [|destruct (n =? 2); [|destruct (n =? 3)]]];
    cbn [bind]; try discriminate;
    (destruct (n + 1 =? b64_group); [|intros H; injection H as <-; cbn; eauto]);
    repeat match goal with |- context [if ?c then _ else _] => destruct c end;
    intros H; try discriminate; injection H as <-; cbn; eauto.
Qed.

Lemma b64_push_char_target d ch d' acc : d64_target d = Ok acc ->
  b64_push_char d ch = Ok (d', None) -> exists acc', d64_target d' = Ok acc'.
Proof.
  intros T. rewrite b64_push_unfold.
  destruct (d64_next d =? b64_push_eof); [discriminate|].
  destruct (ch =? b64_pad).
  - destruct (d64_next d <? b64_push_pad_min); [discriminate|]. apply b64_cont_target with (acc := acc), T.
  - destruct (b64_ascii_max <? ch); [discriminate|].
    destruct (tab_get b64_decode_tab ch) as [v| | |]; cbn [bind]; try discriminate.
    destruct (v =? b64_illegal_val); [discriminate|]. apply b64_cont_target with (acc := acc), T.
Qed.

Lemma b64_decode_from_fix_same s : forall d acc, d64_target d = Ok acc ->
  b64_decode_from_with true d s = b64_decode_from_with false d s.
Proof.
  induction s as [|ch r IH]; intros d acc T; [reflexivity|].
  cbn [b64_decode_from_with b64_push_with]. rewrite T.
  destruct (b64_push_char d ch) as [[d' [e|]]| | |] eqn:E; try reflexivity.
  destruct (b64_push_char_target d ch d' acc T E) as [acc' T']. apply (IH d' acc' T').
Qed.

Lemma b64_decode_is_cur s : b64_decode s = b64_decode_from b64_new s.
Proof.
  unfold b64_decode, b64_decode_from. destruct b64_push_sticky; [|reflexivity].
  apply (b64_decode_from_fix_same s b64_new []). reflexivity.
Qed.

Theorem b64_decode_spec s :
  match spec_dec64 s with
  | Some bs => b64_decode s = Ok bs
  | None => exists e, b64_decode s = Err e
  end.
Proof. rewrite b64_decode_is_cur. exact (b64_decode_from_spec s (0, 0, 0, 0) []). Qed.

Lemma spec_decides (o : outcome (list N)) (sp : option (list N)) :
  match sp with Some bs => o = Ok bs | None => exists e, o = Err e end ->
  (forall bs, o = Ok bs <-> sp = Some bs) /\ no_panic o /\ (sp = None -> exists e, o = Err e).
Proof.
  destruct sp as [bs'|]; [intros ->|intros [e ->]]; (split; [|split; [exact I|]]).
  - split; intros E; injection E as <-; reflexivity.
  - discriminate.
  - split; discriminate.
  - eauto.
Qed.

Theorem b64_accepts_iff_wellformed s bs : b64_decode s = Ok bs <-> spec_dec64 s = Some bs.
Proof. exact (proj1 (spec_decides _ _ (b64_decode_spec s)) bs). Qed.

Theorem b64_decode_total s : no_panic (b64_decode s) /\
  (spec_dec64 s = None -> exists e, b64_decode s = Err e).
Proof. exact (proj2 (spec_decides _ _ (b64_decode_spec s))). Qed.

Theorem b64_decode_encode bs : octets bs ->
  exists t, b64_display bs = Ok t /\ b64_decode t = Ok bs.
Proof.
  intros H. exists (spec_enc64 bs). split; [apply b64_encode_is_rfc4648, H|].
  apply b64_accepts_iff_wellformed, spec64_decode_encode, H.
Qed.

(* non-canonical trailing bits are accepted and ignored (RFC 4648 3.5) *)
Example b64_ignores_trailing_bits :
  b64_decode [90; 103; 61; 61] = Ok [102] /\ b64_decode [90; 104; 61; 61] = Ok [102] /\
  b64_decode [90; 109; 56; 61] = Ok [102; 111] /\ b64_decode [90; 109; 57; 61] = Ok [102; 111].
Proof. vm_compute. auto. Qed.
Example b64_decode_rejects :
  b64_decode [70; 80; 117; 99; 65] = Err E_SHORT /\
  b64_decode [70; 80; 117; 99; 65; 61] = Err (E_illegal 61) /\
  b64_decode [70; 80; 117; 99; 65; 119; 61; 97] = Err E_TRAILING /\
  b64_decode [90; 233; 61; 61] = Err (E_illegal 233).
Proof. vm_compute. auto. Qed.

(* C16 proofs, part 3: stream framing.  Write side (StreamTarget shim), read
   side (DnsMessageReceiver::recv + process_read_request as a byte machine),
   independence of chunking, agreement with the declarative split of the byte
   stream, round trip. *)
From Coq Require Import NArith Arith List Bool Lia.
From DV Require Import Base.Outcome Base.Bytes C16.Gen C16.Model.
Import ListNotations.
Local Open Scope N_scope.

Definition frame (m : bytes) : bytes := be16 (len m) ++ m.

Lemma frame_out_spec m : len m <= 65535 -> frame_out m = Ok (frame m).
Proof. intros H. unfold frame_out. destruct (N.ltb_spec 65535 (len m)); [lia|reflexivity]. Qed.

Lemma frame_out_too_long m : 65535 < len m -> frame_out m = Err 1.
Proof. intros H. unfold frame_out. destruct (N.ltb_spec 65535 (len m)); [reflexivity|lia]. Qed.

Lemma framing_exact m f : frame_out m = Ok f ->
  exists h l, f = h :: l :: m /\ h < 256 /\ l < 256 /\ of_be16 h l = len m /\
              len f = len m + 2.
Proof.
  unfold frame_out. destruct (N.ltb_spec 65535 (len m)) as [L|L]; [discriminate|].
  intros E; inversion E; subst f. exists (len m / 256), (len m mod 256).
  split; [reflexivity|]. split; [apply N.div_lt_upper_bound; lia|].
  split; [apply N.mod_lt; discriminate|]. split; [apply be16_roundtrip; lia|].
  unfold len. cbn [be16 app length]. lia.
Qed.

Example frame_ex : frame_out [7; 8; 9] = Ok [0; 3; 7; 8; 9]. Proof. reflexivity. Qed.

Lemma conn_bytes_cons st b t :
  conn_bytes st (b :: t) =
  let '(st1, e1) := conn_byte st b in
  let '(st2, e2) := conn_bytes st1 t in (st2, e1 ++ e2).
Proof. reflexivity. Qed.

Lemma conn_bytes_app st a b :
  conn_bytes st (a ++ b) =
  let '(st1, e1) := conn_bytes st a in
  let '(st2, e2) := conn_bytes st1 b in (st2, e1 ++ e2).
Proof.
  revert st; induction a as [|x a IH]; intros st.
  - cbn [app conn_bytes]. destruct (conn_bytes st b). reflexivity.
  - cbn [app conn_bytes]. destruct (conn_byte st x) as [s1 ev1]. rewrite IH.
    destruct (conn_bytes s1 a) as [s2 ev2]. destruct (conn_bytes s2 b) as [s3 ev3].
    rewrite app_assoc. reflexivity.
Qed.

Lemma conn_chunks_concat chunks : forall st,
  conn_chunks st chunks = conn_bytes st (concat chunks).
Proof.
  induction chunks as [|c t IH]; intros st; [reflexivity|].
  cbn [conn_chunks concat]. rewrite conn_bytes_app.
  destruct (conn_bytes st c) as [s1 e1]. rewrite IH. reflexivity.
Qed.

Lemma framing_chunk_independent c1 c2 : concat c1 = concat c2 ->
  conn_chunks conn_init c1 = conn_chunks conn_init c2.
Proof. intros E. rewrite !conn_chunks_concat, E. reflexivity. Qed.

Lemma conn_bytes_closed rx bs : conn_bytes (mkConn rx false) bs = (mkConn rx false, []).
Proof. induction bs as [|b t IH]; [reflexivity|]. cbn [conn_bytes conn_byte c_open]. rewrite IH. reflexivity. Qed.

(* a complete frame [f] has arrived and [rest] follows *)
Definition after_frame (f : bytes) (rest : bytes) : conn_state * list conn_event :=
  match classify_frame f with
  | EvDisconnect => (mkConn (RxHeader []) false, [EvDisconnect])
  | e => let '(st, ev) := conn_bytes (mkConn (RxHeader []) true) rest in (st, e :: ev)
  end.

Lemma conn_frame_done st b f t : c_open st = true -> rx_byte (c_rx st) b = (RxHeader [], Some f) ->
  conn_bytes st (b :: t) = after_frame f t.
Proof.
  intros O E. cbn [conn_bytes]. unfold conn_byte, after_frame. rewrite O, E.
  destruct (classify_frame f); [destruct (conn_bytes _ t); reflexivity..|].
  rewrite conn_bytes_closed. reflexivity.
Qed.

(* the body phase: k more octets wanted, acc holds what arrived (reversed) *)
Lemma body_short k acc bs : (length bs < k)%nat ->
  conn_bytes (mkConn (RxBody k acc) true) bs = (mkConn (RxBody (k - length bs) (rev bs ++ acc)) true, []).
Proof.
  revert k acc; induction bs as [|b t IH]; intros k acc H.
  - cbn. rewrite Nat.sub_0_r. reflexivity.
  - cbn [length] in H. destruct k as [|[|k]]; [lia..|].
    cbn [conn_bytes conn_byte c_open c_rx rx_byte].
    rewrite IH by lia. cbn [length rev app]. rewrite <- app_assoc. reflexivity.
Qed.

Lemma body_full k acc bs : (0 < k)%nat -> (k <= length bs)%nat ->
  conn_bytes (mkConn (RxBody k acc) true) bs = after_frame (rev acc ++ firstn k bs) (skipn k bs).
Proof.
  revert k acc; induction bs as [|b t IH]; intros k acc Hk H; [cbn in H; lia|].
  destruct k as [|[|k]]; [lia| |].
  - apply conn_frame_done; reflexivity.
  - cbn [conn_bytes conn_byte c_open c_rx rx_byte]. cbn [length] in H.
    rewrite IH by lia. cbn [rev]. rewrite <- app_assoc.
    change (rev acc ++ [b] ++ firstn (S k) t) with (rev acc ++ firstn (S (S k)) (b :: t)).
    change (skipn (S k) t) with (skipn (S (S k)) (b :: t)).
    destruct (after_frame _ _). reflexivity.
Qed.

Lemma conn_head h l body :
  conn_bytes conn_init (h :: l :: body) =
  let n := N.to_nat (of_be16 h l) in
  if (length body <? n)%nat
  then (mkConn (match n with O => RxHeader [] | S _ => RxBody (n - length body) (rev body) end) true, [])
  else after_frame (firstn n body) (skipn n body).
Proof.
  cbv zeta. rewrite conn_bytes_cons.
  change (conn_byte conn_init h) with (mkConn (RxHeader [h]) true, @nil conn_event). cbv iota. cbn [app].
  assert (R : rx_byte (RxHeader [h]) l =
              match N.to_nat (of_be16 h l) with
              | O => (RxHeader [], Some [])
              | S _ => (RxBody (N.to_nat (of_be16 h l)) [], None)
              end) by reflexivity.
  destruct (N.to_nat (of_be16 h l)) as [|n].
  - rewrite (conn_frame_done (mkConn (RxHeader [h]) true) l [] body eq_refl R).
    cbn [Nat.ltb Nat.leb firstn skipn]. destruct (after_frame [] body). reflexivity.
  - rewrite conn_bytes_cons. unfold conn_byte. cbn [c_open c_rx]. rewrite R. cbv iota. cbn [app].
    destruct (Nat.ltb_spec (length body) (S n)) as [L|L].
    + rewrite body_short by exact L. rewrite app_nil_r. reflexivity.
    + rewrite body_full by lia. destruct (after_frame _ _). reflexivity.
Qed.

Lemma events_of_cons f fs :
  events_of (f :: fs) = match classify_frame f with EvDisconnect => [EvDisconnect] | e => e :: events_of fs end.
Proof. reflexivity. Qed.

(* the machine delivers exactly the complete frames of the stream, in order,
   up to and including the first one that is too short to be a message, and is
   closed exactly when it met such a frame *)
Lemma conn_bytes_split : forall fuel s, (length s < fuel)%nat ->
  let '(st, ev) := conn_bytes conn_init s in
  ev = events_of (fst (split_frames fuel s)) /\ (c_open st = false <-> In EvDisconnect ev).
Proof.
  assert (Q : forall rx, @nil conn_event = [] /\ (c_open (mkConn rx true) = false <-> In EvDisconnect []))
    by (split; [reflexivity|split; [discriminate|contradiction]]).
  induction fuel as [|fuel IH]; intros s H; [lia|].
  destruct s as [|h [|l body]]; [apply Q..|].
  cbn [split_frames]. rewrite conn_head. cbv zeta.
  destruct (Nat.ltb_spec (length body) (N.to_nat (of_be16 h l))) as [L|L]; [apply Q|].
  assert (Hs : (length (skipn (N.to_nat (of_be16 h l)) body) < fuel)%nat)
    by (rewrite skipn_length; cbn [length] in H; lia).
  specialize (IH _ Hs).
  destruct (split_frames fuel (skipn (N.to_nat (of_be16 h l)) body)) as [fs rest].
  cbn [fst] in *. rewrite events_of_cons. unfold after_frame.
  change (mkConn (RxHeader []) true) with conn_init.
  set (rest' := skipn _ body) in *.
  assert (K : forall e, e <> EvDisconnect ->
            let '(st, ev) := (let '(st0, ev0) := conn_bytes conn_init rest' in (st0, e :: ev0)) in
            ev = e :: events_of fs /\ (c_open st = false <-> In EvDisconnect ev)).
  { intros e Ne. destruct (conn_bytes conn_init rest') as [st ev]. destruct IH as [-> O].
    split; [reflexivity|]. rewrite O. cbn [In]. split; [auto|intros [D|D]; [congruence|exact D]]. }
  destruct (classify_frame (firstn (N.to_nat (of_be16 h l)) body)); [apply K; discriminate..|].
  split; [reflexivity|]. cbn. split; auto.
Qed.

Lemma framing_is_split chunks :
  snd (conn_chunks conn_init chunks) =
  events_of (fst (split_frames (S (length (concat chunks))) (concat chunks))).
Proof.
  rewrite conn_chunks_concat. pose proof (conn_bytes_split _ (concat chunks) (Nat.lt_succ_diag_r _)) as S.
  destruct (conn_bytes conn_init (concat chunks)). exact (proj1 S).
Qed.

Lemma split_frames_app ms : Forall (fun m => len m <= 65535) ms ->
  forall fuel junk, (length ms <= fuel)%nat ->
  split_frames fuel (concat (map frame ms) ++ junk) =
  let '(fs, rest) := split_frames (fuel - length ms) junk in (ms ++ fs, rest).
Proof.
  induction ms as [|m t IH]; intros Hf fuel junk H.
  - cbn [map concat app length]. rewrite Nat.sub_0_r. destruct (split_frames fuel junk). reflexivity.
  - destruct fuel as [|fuel]; [cbn in H; lia|]. inversion Hf as [|? ? Hm Ht]; subst.
    cbn [map concat length Nat.sub]. unfold frame at 1. rewrite <- !app_assoc. cbn [be16 app split_frames].
    rewrite be16_roundtrip by lia. unfold len. rewrite Nat2N.id, app_length.
    destruct (Nat.ltb_spec (length m + length (concat (map frame t) ++ junk)) (length m)); [lia|].
    rewrite skipn_app, skipn_all, Nat.sub_diag, firstn_app, firstn_all, Nat.sub_diag.
    cbn [skipn firstn app]. rewrite app_nil_r, (IH Ht) by (cbn in H; lia).
    destruct (split_frames (fuel - length t) junk). reflexivity.
Qed.

Lemma framing_roundtrip ms : Forall (fun m => len m <= 65535) ms ->
  Forall (fun m => frame_out m = Ok (frame m)) ms /\
  split_frames (S (length ms)) (concat (map frame ms)) = (ms, []).
Proof.
  intros H. split; [eapply Forall_impl; [|exact H]; exact frame_out_spec|].
  rewrite <- (app_nil_r (concat _)), (split_frames_app ms H) by lia.
  destruct (_ - _)%nat; cbn [split_frames]; rewrite app_nil_r; reflexivity.
Qed.

(* the machine is total; what it hands on is never shorter than a header, a
   direct FORMERR only goes to QR = 1, and nothing follows a disconnect *)
Definition ok_event (e : conn_event) : Prop :=
  match e with
  | EvDispatch m => header_len <= len m /\ qr_set m = false
  | EvFormErr m => header_len <= len m /\ qr_set m = true
  | EvDisconnect => True
  end.

Lemma classify_frame_ok f : ok_event (classify_frame f).
Proof.
  unfold classify_frame, too_short. cbv [short_msg_cmp_is_lt].
  destruct (N.ltb_spec (len f) header_len); [exact I|].
  destruct (qr_set f) eqn:E; cbn; auto.
Qed.

Lemma events_of_ok fs : Forall ok_event (events_of fs) /\
  (forall pre post, events_of fs = pre ++ EvDisconnect :: post -> post = []).
Proof.
  induction fs as [|f t [IH1 IH2]]; [split; [constructor|intros [|? ?] ? E; discriminate]|].
  rewrite events_of_cons. pose proof (classify_frame_ok f) as Hk.
  assert (K : forall e, e <> EvDisconnect -> ok_event e -> Forall ok_event (e :: events_of t) /\
            (forall pre post, e :: events_of t = pre ++ EvDisconnect :: post -> post = [])).
  { intros e Ne He. split; [constructor; assumption|].
    intros [|p pre] post E; inversion E; [congruence|]. eapply IH2; eassumption. }
  destruct (classify_frame f); [apply K; [discriminate|exact Hk]..|].
  split; [repeat constructor|]. intros [|p pre] post E; [inversion E; reflexivity|].
  inversion E. destruct pre; discriminate.
Qed.

Lemma hostile_input_total chunks :
  exists st ev, conn_chunks conn_init chunks = (st, ev) /\ Forall ok_event ev /\
    (forall pre post, ev = pre ++ EvDisconnect :: post -> post = []) /\
    (c_open st = false <-> In EvDisconnect ev).
Proof.
  rewrite conn_chunks_concat. pose proof (conn_bytes_split _ (concat chunks) (Nat.lt_succ_diag_r _)) as S.
  destruct (conn_bytes conn_init (concat chunks)) as [st ev]. destruct S as [-> O].
  exists st. eexists. split; [reflexivity|]. split; [apply events_of_ok|]. split; [apply events_of_ok|exact O].
Qed.

Example conn_ex1 :
  c16_conn [[0; 12; 0; 9; 0]; [0; 0; 0; 0; 0; 0; 0; 0; 0]; [0; 3; 1; 2; 3]; [0; 12]]
  = (false, [EvDispatch [0; 9; 0; 0; 0; 0; 0; 0; 0; 0; 0; 0]; EvDisconnect]).
Proof. reflexivity. Qed.
Example conn_ex2 : c16_conn [[0]; [0]] = (false, [EvDisconnect]). Proof. reflexivity. Qed.
Example conn_ex3 : c16_conn [[0; 12; 0; 9; 128; 0; 0; 0; 0; 0; 0; 0; 0; 0]]
  = (true, [EvFormErr [0; 9; 128; 0; 0; 0; 0; 0; 0; 0; 0; 0]]).
Proof. reflexivity. Qed.

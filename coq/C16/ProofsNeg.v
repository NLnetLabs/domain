(* C16 proofs, part 1: the size negotiation, the limit enforced on UDP, the
   configured limit, the builder's push limit. *)
From Coq Require Import NArith List Bool Lia.
From DV Require Import Base.Outcome Base.Bytes C16.Gen C16.Model.
Import ListNotations.
Local Open Scope N_scope.

Ltac unfold_gen :=
  cbv [neg_client_is_max neg_clamp_lo_is_min_resp_len neg_clamp_hi_is_client
       neg_combine_is_min min_resp_len push_limit_cmp_is_ge trunc_cmp_is_gt
       cfg_min cfg_max cfg_default].

Lemma clamp_client_spec c : clamp_client c = N.max c 512.
Proof. unfold clamp_client. unfold_gen. lia. Qed.

(* the clamp's bounds are always ordered: its assert! cannot fire *)
Lemma negotiate_clamp_ordered c : min_resp_len <= clamp_client c.
Proof. rewrite clamp_client_spec. unfold_gen. lia. Qed.

Lemma negotiate_spec c h :
  negotiate c (Some h) = Ok (N.min (N.max c 512) (N.max h 512)).
Proof.
  unfold negotiate, u16_clamp. rewrite clamp_client_spec. unfold_gen.
  destruct (N.ltb_spec (N.max c 512) 512); [lia|].
  cbv [bind]. f_equal.
  destruct (N.ltb_spec h 512); [lia|].
  destruct (N.ltb_spec (N.max c 512) h); lia.
Qed.

Lemma negotiate_spec_none c : negotiate c None = Ok (N.max c 512).
Proof. unfold negotiate. rewrite clamp_client_spec. reflexivity. Qed.

Lemma negotiate_no_panic c h : no_panic (negotiate c h).
Proof. destruct h; [rewrite negotiate_spec|rewrite negotiate_spec_none]; exact I. Qed.

Example negotiate_ex1 : negotiate 4096 (Some 1232) = Ok 1232. Proof. reflexivity. Qed.
Example negotiate_ex2 : negotiate 100 (Some 1232) = Ok 512. Proof. reflexivity. Qed.
Example negotiate_ex3 : negotiate 65535 (Some 511) = Ok 512. Proof. reflexivity. Qed.
Example negotiate_ex4 : negotiate 700 None = Ok 700. Proof. reflexivity. Qed.
(* the Panic site is real in the model: a clamp with swapped bounds panics *)
Example clamp_panics : u16_clamp 5 10 9 = Panic 1. Proof. reflexivity. Qed.

Lemma negotiate_bounds c h n : negotiate c h = Ok n -> 512 <= n /\ n <= N.max c 512.
Proof.
  destruct h; [rewrite negotiate_spec|rewrite negotiate_spec_none]; intros E; inversion E; lia.
Qed.

(* the hint EdnsMiddlewareSvc leaves for truncate *)
Definition edns_hint (client hint : option N) : option N :=
  match client with
  | None => hint
  | Some c => Some (match hint with
                    | Some h => N.min (N.max c 512) (N.max h 512)
                    | None => N.max c 512
                    end)
  end.

Lemma hint_after_edns_spec client hint : hint_after_edns client hint = Ok (edns_hint client hint).
Proof.
  unfold hint_after_edns. destruct client as [c|]; [|reflexivity].
  destruct hint as [h|]; [rewrite negotiate_spec|rewrite negotiate_spec_none]; reflexivity.
Qed.

Lemma udp_limit_gen_hint fx client hint :
  udp_limit_gen fx client hint = Ok (trunc_max_gen fx (is_some client) (edns_hint client hint)).
Proof. unfold udp_limit_gen. rewrite hint_after_edns_spec. reflexivity. Qed.

Definition hint_ok (hint : option N) : Prop :=
  match hint with Some h => 512 <= h | None => True end.

(* once truncate holds requests without OPT to 512, the limit it uses on the hint the
   EDNS layer left is the property text's *)
Lemma trunc_max_is_text client hint : hint_ok hint ->
  trunc_max_gen true (is_some client) (edns_hint client hint) = text_limit client hint.
Proof.
  destruct client as [c|]; [|reflexivity]. destruct hint as [h|]; [|reflexivity].
  cbv [trunc_max_gen is_some edns_hint text_limit hint_ok andb negb]. lia.
Qed.

(* with an OPT record in the request the enforced limit is the property text's *)
Lemma limit_with_edns fx c hint : hint_ok hint ->
  udp_limit_gen fx (Some c) hint = Ok (text_limit (Some c) hint).
Proof. intros H. rewrite udp_limit_gen_hint, <- (trunc_max_is_text (Some c) hint H). destruct fx; reflexivity. Qed.

(* [udp_limit] is this at the flag T1 read from mandatory.rs, [true] on the current source
   (fix 2e0728b); were it [false] again the instance would not type-check *)
Lemma limit_is_text_when_fixed client hint : hint_ok hint ->
  udp_limit_gen true client hint = Ok (text_limit client hint).
Proof. intros H. rewrite udp_limit_gen_hint, (trunc_max_is_text _ _ H). reflexivity. Qed.

Lemma edns_hint_ok client hint : hint_ok hint -> hint_ok (edns_hint client hint).
Proof. destruct client as [c|]; [|exact (fun H => H)]. destruct hint; simpl; lia. Qed.

Lemma trunc_max_ge fx b h : hint_ok h -> 512 <= trunc_max_gen fx b h.
Proof.
  intros H. unfold trunc_max_gen. cbv [min_resp_len]. destruct (fx && negb b); [lia|].
  destruct h; simpl in H; lia.
Qed.

(* the code before fix 2e0728b (flag false; kept as a statement about that variant of the
   model): a request without EDNS was held to the configured limit, not to 512 *)
Lemma limit_no_edns_unfixed h : udp_limit_gen false None (Some h) = Ok h.
Proof. reflexivity. Qed.

Lemma limit_no_edns_refuted_gen :
  exists h, cfg_min <= h <= cfg_max /\ udp_limit_gen false None (Some h) = Ok h /\
            text_limit None (Some h) < h.
Proof. exists cfg_default. unfold_gen. repeat split; lia. Qed.

(* a hint below 512 (not reachable through dgram::Config) is raised to 512 *)
Lemma limit_small_hint_refuted :
  exists c h, udp_limit (Some c) (Some h) = Ok 512 /\ text_limit (Some c) (Some h) < 512.
Proof. exists 4096, 100. split; reflexivity. Qed.

Example limit_ex1 : udp_limit (Some 4096) (Some 1232) = Ok 1232. Proof. reflexivity. Qed.
Example limit_ex2 : udp_limit_gen true None (Some 1232) = Ok 512. Proof. reflexivity. Qed.
Example limit_ex3 : udp_limit_gen false None (Some 1232) = Ok 1232. Proof. reflexivity. Qed.

(* dgram::Config keeps the configured limit inside [512, 4096] *)
Lemma cfg_hint_range v h : cfg_hint v = Some h -> cfg_min <= h <= cfg_max.
Proof.
  destruct v as [x|]; [|discriminate]. intros E; inversion E.
  unfold cfg_limit. unfold_gen. lia.
Qed.

Lemma cfg_hint_ok v : hint_ok (cfg_hint v).
Proof.
  destruct (cfg_hint v) as [h|] eqn:E; [|exact I]. apply cfg_hint_range in E. exact (proj1 E).
Qed.
Example cfg_ex : cfg_hint (Some 100) = Some 512 /\ cfg_hint (Some 65535) = Some 4096. Proof. split; reflexivity. Qed.

Lemma push_limited_ok l pos add p :
  push_limited (Some l) pos add = Ok p <-> p = pos + add /\ pos + add < l /\ pos + add <= 65535.
Proof.
  unfold push_limited, limit_hit. unfold_gen.
  destruct (N.ltb_spec 65535 (pos + add)); [split; [discriminate|lia]|].
  destruct (N.leb_spec l (pos + add)); [split; [discriminate|lia]|].
  split; [intros E; inversion E; lia|intros (-> & _); reflexivity].
Qed.

Lemma push_exactly_limit_fails pos add : pos + add <= 65535 ->
  push_limited (Some (pos + add)) pos add = Err 2.
Proof.
  intros H. unfold push_limited, limit_hit. unfold_gen.
  destruct (N.ltb_spec 65535 (pos + add)); [lia|]. rewrite N.leb_refl. reflexivity.
Qed.

Lemma push_script_cons l pos a rest :
  snd (push_script l pos (a :: rest)) =
  snd (push_script l (match push_limited l pos a with Ok p => p | _ => pos end) rest).
Proof. cbn [push_script]. destruct (push_script l _ rest). reflexivity. Qed.

Lemma push_script_bound l adds : forall pos, pos < l ->
  snd (push_script (Some l) pos adds) < l.
Proof.
  induction adds as [|a rest IH]; intros pos H; [exact H|].
  rewrite push_script_cons. apply IH.
  destruct (push_limited (Some l) pos a) eqn:E; try exact H.
  apply push_limited_ok in E. lia.
Qed.

Lemma push_script_monotone l adds : forall pos, pos <= snd (push_script l pos adds).
Proof.
  induction adds as [|a rest IH]; intros pos; [reflexivity|].
  rewrite push_script_cons. etransitivity; [|apply IH].
  unfold push_limited. destruct (65535 <? pos + a); [reflexivity|].
  destruct l as [l|]; [destruct (limit_hit l (pos + a)); [reflexivity|]|]; lia.
Qed.

Example push_ex1 : push_script (Some 25) 12 [12; 13; 1] = ([Ok 24; Err 2; Err 2], 24). Proof. reflexivity. Qed.
Example push_ex2 : push_limited (Some 25) 12 12 = Ok 24 /\ push_limited (Some 25) 12 13 = Err 2. Proof. split; reflexivity. Qed.
Example push_ex3 : push_limited None 65530 6 = Err 1. Proof. reflexivity. Qed.

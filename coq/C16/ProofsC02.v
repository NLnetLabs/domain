(* C16 proofs, part 5: the tie to C02's builder model.  Whatever sequence of
   builder operations (C02: pushes into any section, rewinds, limits, header
   edits, over a StreamTarget) produced a response, the octets handed to the
   stream - StreamTarget::as_stream_slice - are the two-octet big-endian length
   followed by the message, and the length is at most 65535: the premise of
   C16's framing theorems is discharged by C02's reachable-state invariant. *)
From Coq Require Import NArith List.
From DV Require Import Base.Outcome Base.Bytes Base.PName.
From DV Require C02.Gen C02.Model C02.ProofsRun.
From DV Require Import C16.Gen C16.Model C16.ProofsFrame.
Import ListNotations.
Local Open Scope N_scope.

Module B := C02.Model.

(* a response as C02's builder leaves it: reachable by a script over a stream target *)
Definition built (s : B.bstate) : Prop :=
  exists c ops s0 a ws, B.t_stream c = true /\ B.init c = Some s0 /\
    B.run_acc c s0 B.acc0 ops = (s, a, ws) /\ C02.ProofsRun.all_alive ws.

Lemma built_framed s : built s ->
  len (B.msg_of s) <= 65535 /\ frame_out (B.msg_of s) = Ok (B.stream_of s) /\
  B.stream_of s = frame (B.msg_of s).
Proof.
  intros (c & ops & s0 & a & ws & Hs & Hi & Hr & Ha).
  destruct (C02.ProofsRun.reachable_inv c ops s0 s a ws Hi Hr Ha) as (_ & _ & F).
  destruct (F Hs) as (E & L). change (PName.mlen (B.msg_of s)) with (len (B.msg_of s)) in *.
  split; [exact L|]. rewrite frame_out_spec by exact L. unfold frame. rewrite E. split; reflexivity.
Qed.

(* pipelined: the concatenated stream slices of any number of built responses
   split back into exactly these responses *)
Lemma built_pipeline ss : Forall built ss ->
  split_frames (S (length ss)) (concat (map B.stream_of ss)) = (map B.msg_of ss, []).
Proof.
  intros H.
  assert (E : map B.stream_of ss = map frame (map B.msg_of ss)).
  { induction H as [|s t Hs Ht IH]; [reflexivity|]. cbn [map]. rewrite IH.
    destruct (built_framed s Hs) as (_ & _ & ->). reflexivity. }
  rewrite E. clear E.
  assert (L : Forall (fun m => len m <= 65535) (map B.msg_of ss)).
  { induction H as [|s t Hs Ht IH]; [constructor|]. cbn [map]. constructor; [apply (built_framed s Hs)|exact IH]. }
  destruct (framing_roundtrip _ L) as (_ & R). rewrite map_length in R. exact R.
Qed.

(* C16 -- property theorems only.  Proofs live in C16/Proofs*.v. *)
From Coq Require Import NArith List.
From DV Require Import Base.Outcome Base.Bytes C16.Gen C16.Model C16.ProofsNeg C16.ProofsTrunc
  C16.ProofsFrame C16.ProofsSrv C16.ProofsTop C16.ProofsC02 C16.ProofsWide.
Import ListNotations.
Local Open Scope N_scope.

(* ---- negotiation *)
Theorem C16_negotiate_spec : forall c h,
  negotiate c (Some h) = Ok (N.min (N.max c 512) (N.max h 512)) /\
  negotiate c None = Ok (N.max c 512).
Proof. exact (fun c h => conj (negotiate_spec c h) (negotiate_spec_none c)). Qed.
Print Assumptions C16_negotiate_spec.

Theorem C16_negotiate_no_panic : forall c h, no_panic (negotiate c h).
Proof. exact negotiate_no_panic. Qed.
Print Assumptions C16_negotiate_no_panic.

Theorem C16_limit_with_edns : forall c hint, hint_ok hint ->
  udp_limit (Some c) hint = Ok (text_limit (Some c) hint).
Proof. exact (limit_with_edns FX). Qed.
Print Assumptions C16_limit_with_edns.

Theorem C16_limit_is_property_text : forall client hint, hint_ok hint ->
  udp_limit client hint = Ok (text_limit client hint).
Proof. exact limit_is_text_when_fixed. Qed.
Print Assumptions C16_limit_is_property_text.

Theorem C16_small_hint_refuted :
  exists c h, udp_limit (Some c) (Some h) = Ok 512 /\ text_limit (Some c) (Some h) < 512.
Proof. exact limit_small_hint_refuted. Qed.
Print Assumptions C16_small_hint_refuted.

Theorem C16_cfg_hint_range : forall v h, cfg_hint v = Some h -> cfg_min <= h <= cfg_max.
Proof. exact cfg_hint_range. Qed.
Print Assumptions C16_cfg_hint_range.

(* ---- push limit *)
Theorem C16_push_limit_strict : forall l pos add p,
  push_limited (Some l) pos add = Ok p <-> p = pos + add /\ pos + add < l /\ pos + add <= 65535.
Proof. exact push_limited_ok. Qed.
Print Assumptions C16_push_limit_strict.

Theorem C16_push_script_bound : forall l adds pos, pos < l ->
  snd (push_script (Some l) pos adds) < l.
Proof. exact push_script_bound. Qed.
Print Assumptions C16_push_script_bound.

(* ---- truncation and the UDP size bound *)
Theorem C16_udp_size_cases : forall rq hint m, mlen m <= 65535 ->
  (mlen m <= tmax rq hint /\ mlen (post rq hint m) = mlen m /\
   tc_set (m_b2 (post rq hint m)) = tc_set (m_b2 m) /\ m_qs (post rq hint m) = m_qs m /\
   m_an (post rq hint m) = m_an m /\ m_ns (post rq hint m) = m_ns m /\ m_ar (post rq hint m) = m_ar m) \/
  (tmax rq hint < mlen m /\ mlen (post rq hint m) = mlen (tform (tmax rq hint) m) /\
   tc_set (m_b2 (post rq hint m)) = true /\
   m_qs (post rq hint m) = kept_q (tmax rq hint) (m_qs m) /\
   m_an (post rq hint m) = [] /\ m_ns (post rq hint m) = [] /\
   m_ar (post rq hint m) = trunc_ar (tmax rq hint) (kept_q (tmax rq hint) (m_qs m)) (m_ar m)).
Proof. exact (udp_size_cases FX FQ EQ). Qed.
Print Assumptions C16_udp_size_cases.

(* the truncated form, three ways: no OPT / the response's OPT when it fits /
   the OPT without its options when only that fits *)
Theorem C16_truncated_form_three_way : forall max m,
  let qs := kept_q max (m_qs m) in
  (trunc_ar max qs (m_ar m) = [] /\ mlen (tform max m) = 12 + qs_len qs) \/
  (exists o, first_opt (m_ar m) = Some o /\ trunc_ar max qs (m_ar m) = [RROpt o] /\
             mlen (tform max m) = 12 + qs_len qs + opt_len o /\ 12 + qs_len qs + opt_len o <= max) \/
  (exists o, first_opt (m_ar m) = Some o /\ trunc_ar max qs (m_ar m) = [RROpt (min_opt o)] /\
             mlen (tform max m) = 12 + qs_len qs + 11 /\
             max < 12 + qs_len qs + opt_len o /\ 12 + qs_len qs + 11 <= max).
Proof. exact (trunc_ar_cases FQ). Qed.
Print Assumptions C16_truncated_form_three_way.

Theorem C16_kept_questions : forall max qs,
  (exists rest, qs = kept_q max qs ++ rest) /\
  (12 + qs_len qs <= max -> kept_q max qs = qs) /\
  (12 <= max -> 12 + qs_len (kept_q max qs) <= max).
Proof. exact (fun max qs => conj (kept_prefix _ qs 12) (conj (kept_qs_all FQ max qs) (kept_qs_fits max qs))). Qed.
Print Assumptions C16_kept_questions.

(* the response of the middleware stack fits the limit - no proviso left but a
   limit of at least the 12 header octets (it is at least 512) *)
Theorem C16_udp_size_bound : forall rq hint m, mlen m <= 65535 -> 12 <= tmax rq hint ->
  mlen (post rq hint m) <= tmax rq hint.
Proof. exact (fun rq hint m H L => udp_size_bound_gen FX FQ EQ rq hint m H (or_introl (conj eq_refl L))). Qed.
Print Assumptions C16_udp_size_bound.

(* one well-formed question (every ordinary response): within the property
   text's limit, with or without EDNS, whatever the service produced *)
Theorem C16_udp_size_bound_one_question : forall rq cfg m r q,
  m_qs m = [q] -> wf_q q -> hint_ok cfg -> mlen m <= 65535 ->
  udp_response rq cfg m = Ok r -> mlen r <= text_limit (rq_client rq) cfg.
Proof. exact (udp_size_bound_one_question FQ EQ). Qed.
Print Assumptions C16_udp_size_bound_one_question.

(* the hand-over between the two middleware layers (shared size hint): TC exactly
   when the response, after the EDNS fix-ups, exceeds the negotiated limit, which is
   the property text's *)
Theorem C16_hint_handover : forall rq cfg m r, hint_ok cfg -> mlen m <= 65535 ->
  udp_response rq cfg m = Ok r ->
  tc_set (m_b2 r) = true <->
  (text_limit (rq_client rq) cfg < mlen (edns_post (is_some (rq_client rq)) m) \/ tc_set (m_b2 m) = true).
Proof. exact (hint_handover FQ EQ). Qed.
Print Assumptions C16_hint_handover.

(* ---- the datagram server as a whole: every path that answers a datagram *)
Theorem C16_udp_server_bound : forall x cfg svc r,
  hint_ok cfg -> Forall wf_q (firstn 1 (x_qs x)) ->
  (forall m, svc = SvcOk m -> mlen m <= 65535) ->
  udp_server x cfg svc = Ok (Some r) -> mlen r <= text_limit (x_client x) cfg.
Proof. exact udp_server_bound. Qed.
Print Assumptions C16_udp_server_bound.

Theorem C16_udp_server_total : forall x cfg svc, exists r, udp_server x cfg svc = Ok r.
Proof. exact (fun x cfg svc => proj1 (udp_server_answers FX FQ EQ x cfg svc)). Qed.
Print Assumptions C16_udp_server_total.

Theorem C16_udp_server_id : forall x cfg svc r, udp_server x cfg svc = Ok (Some r) -> m_id r = x_id x.
Proof. exact (fun x cfg svc r E => proj2 (udp_server_hdr_id FX FQ EQ x cfg svc r E)). Qed.
Print Assumptions C16_udp_server_id.

Theorem C16_tc_iff : forall rq hint m, mlen m <= 65535 ->
  tc_set (m_b2 (post rq hint m)) = true <-> (tmax rq hint < mlen m \/ tc_set (m_b2 m) = true).
Proof. exact (tc_iff_gen FX FQ EQ). Qed.
Print Assumptions C16_tc_iff.

Theorem C16_dropped_implies_tc : forall rq hint m, mlen m <= 65535 ->
  (m_qs (post rq hint m) <> m_qs m \/ m_an (post rq hint m) <> m_an m \/
   m_ns (post rq hint m) <> m_ns m \/ m_ar (post rq hint m) <> m_ar m) ->
  tc_set (m_b2 (post rq hint m)) = true.
Proof. exact (dropped_implies_tc FX FQ EQ). Qed.
Print Assumptions C16_dropped_implies_tc.

Theorem C16_truncated_wellformed : forall rq hint m,
  mlen m <= 65535 -> rq_id rq < 65536 -> wf_resp m -> tmax rq hint < mlen m ->
  tc_set (m_b2 (post rq hint m)) = true /\ m_an (post rq hint m) = [] /\ m_ns (post rq hint m) = [] /\
  m_qs (post rq hint m) = kept_q (tmax rq hint) (m_qs m) /\
  m_ar (post rq hint m) = trunc_ar (tmax rq hint) (m_qs (post rq hint m)) (m_ar m) /\
  parse_min (wire_msg (post rq hint m)) = Some (post rq hint m).
Proof. exact (truncated_wellformed_gen FX FQ EQ). Qed.
Print Assumptions C16_truncated_wellformed.

Theorem C16_id_question_echoed : forall rq cfg m r, mlen m <= 65535 ->
  udp_response rq cfg m = Ok r ->
  m_id r = rq_id rq /\ (exists rest, m_qs m = m_qs r ++ rest) /\
  (forall q, hint_ok cfg -> m_qs m = [q] -> wf_q q -> m_qs r = [q]).
Proof. exact (id_question_echoed FX FQ EQ). Qed.
Print Assumptions C16_id_question_echoed.

Theorem C16_udp_response_total : forall rq cfg m, exists r, udp_response rq cfg m = Ok r.
Proof. exact (udp_response_total FX FQ EQ). Qed.
Print Assumptions C16_udp_response_total.

(* ---- the datagram receive buffer *)
(* a request is at least a header long and all its questions lie within the
   datagram's own octets *)
Theorem C16_dgram_received_only : forall d x,
  xreq_of_datagram d = Some x -> 12 + qs_len (x_qs x) <= len d.
Proof. exact dgram_received_only. Qed.
Print Assumptions C16_dgram_received_only.

Theorem C16_t1_shape_constants :
  frame_len_octets = 2 /\ frame_big_endian = true /\ shim_len = 2 /\ shim_big_endian = true /\
  tc_octet = 2 /\ tc_bit = 1 /\ header_len = 12 /\ max_queued_default = 10 /\ rc_refused = 5 /\
  stream_short_msg_disconnects = true /\ qr_request_gets_formerr = true /\
  frame_prefix_read_exact = true /\ stream_full_queue_retries = true /\ svc_error_bypasses_middleware = true.
Proof. exact t1_shape_constants. Qed.
Print Assumptions C16_t1_shape_constants.

(* ---- the cookies middleware's own rejections *)
Theorem C16_cookie_reject_echo : forall rq cfg k r,
  hint_ok cfg -> Forall wf_q (firstn 1 (rq_qs rq)) ->
  cookie_reject_response rq cfg k = Ok r ->
  m_id r = rq_id rq /\ m_qs r = firstn 1 (rq_qs rq) /\ mlen r <= 282.
Proof. exact (cookie_reject_echo FX FQ). Qed.
Print Assumptions C16_cookie_reject_echo.

(* ---- the accept loop *)
Theorem C16_accept_loop_serves_all : forall evs, accept_loop evs = map is_conn evs.
Proof. exact accept_loop_serves_all. Qed.
Print Assumptions C16_accept_loop_serves_all.

(* ---- the stream server (EDNS non-UDP arm, edns-tcp-keepalive) *)
Theorem C16_tcp_server_framed : forall x idle svc r,
  12 + qs_len (x_qs x) + 11 <= 65535 -> (forall m, svc = SvcOk m -> mlen m <= 65535) ->
  tcp_server x idle svc = Ok (Some r) ->
  mlen r <= 65535 /\ exists f, frame_out (wire_msg r) = Ok f.
Proof. exact (tcp_server_framed FX FQ EQ). Qed.
Print Assumptions C16_tcp_server_framed.

Theorem C16_tcp_server_id : forall x idle svc r, tcp_server x idle svc = Ok (Some r) -> m_id r = x_id x.
Proof. exact (fun x idle svc r E => proj2 (tcp_server_hdr_id FX FQ EQ x idle svc r E)). Qed.
Print Assumptions C16_tcp_server_id.

Theorem C16_keepalive_option : forall ms ka, keepalive_option ms = Some ka ->
  exists v, v = ms / 100 /\ v < 65536 /\ ka = [0; 11; 0; 2; v / 256; v mod 256].
Proof. exact keepalive_option_spec. Qed.
Print Assumptions C16_keepalive_option.

(* ---- idle timeout, connection limit *)
Theorem C16_idle_open_spec : forall reset_at timeout now,
  idle_open reset_at timeout now = true <-> now < reset_at + timeout.
Proof. exact idle_open_spec. Qed.
Print Assumptions C16_idle_open_spec.

Theorem C16_connection_limit : forall max k num, num <= max ->
  N.of_nat (length (filter (fun b => b) (served_connections max num k))) + num <= max /\
  (N.of_nat k + num <= max -> served_connections max num k = repeat true k).
Proof. exact served_connections_spec. Qed.
Print Assumptions C16_connection_limit.

(* ---- stream framing *)
Theorem C16_framing_exact : forall m f, frame_out m = Ok f ->
  exists h l, f = h :: l :: m /\ h < 256 /\ l < 256 /\ of_be16 h l = len m /\ len f = len m + 2.
Proof. exact framing_exact. Qed.
Print Assumptions C16_framing_exact.

Theorem C16_framing_roundtrip : forall ms, Forall (fun m => len m <= 65535) ms ->
  Forall (fun m => frame_out m = Ok (frame m)) ms /\
  split_frames (S (length ms)) (concat (map frame ms)) = (ms, []).
Proof. exact framing_roundtrip. Qed.
Print Assumptions C16_framing_roundtrip.

Theorem C16_framing_chunk_independent : forall c1 c2, concat c1 = concat c2 ->
  conn_chunks conn_init c1 = conn_chunks conn_init c2.
Proof. exact framing_chunk_independent. Qed.
Print Assumptions C16_framing_chunk_independent.

Theorem C16_framing_is_split : forall chunks,
  snd (conn_chunks conn_init chunks) =
  events_of (fst (split_frames (S (length (concat chunks))) (concat chunks))).
Proof. exact framing_is_split. Qed.
Print Assumptions C16_framing_is_split.

Theorem C16_hostile_input_total : forall chunks,
  exists st ev, conn_chunks conn_init chunks = (st, ev) /\ Forall ok_event ev /\
    (forall pre post, ev = pre ++ EvDisconnect :: post -> post = []) /\
    (c_open st = false <-> In EvDisconnect ev).
Proof. exact hostile_input_total. Qed.
Print Assumptions C16_hostile_input_total.

(* ---- tie to C02's builder model: what the builder hands to a stream *)
(* a response produced by ANY script of builder operations over a StreamTarget
   (C02's reachable states) is at most 65535 octets and its stream slice is the
   two-octet big-endian length followed by the message *)
Theorem C16_built_response_framed : forall s, built s ->
  len (C02.Model.msg_of s) <= 65535 /\
  frame_out (C02.Model.msg_of s) = Ok (C02.Model.stream_of s) /\
  C02.Model.stream_of s = frame (C02.Model.msg_of s).
Proof. exact built_framed. Qed.
Print Assumptions C16_built_response_framed.

(* pipelined: the concatenated stream slices of built responses split back into them *)
Theorem C16_built_pipeline_splits : forall ss, Forall built ss ->
  split_frames (S (length ss)) (concat (map C02.Model.stream_of ss)) = (map C02.Model.msg_of ss, []).
Proof. exact built_pipeline. Qed.
Print Assumptions C16_built_pipeline_splits.

(* pipelined requests, reply header, which path answers *)
(* pipelined well-formed request frames (QR clear: to the service; QR set: a direct
   FORMERR) are delivered exactly once each, in order, for every chunking, and the
   connection stays open *)
Theorem C16_pipeline_delivered_once : forall ms chunks, Forall is_msg ms ->
  concat chunks = concat (map frame ms) ->
  exists st, conn_chunks conn_init chunks = (st, map ev_of ms) /\ c_open st = true.
Proof. exact pipeline_exact. Qed.
Print Assumptions C16_pipeline_delivered_once.

(* ... and whatever follows them on the connection (garbage, a short frame, an
   abort mid-frame) does not take them back *)
Theorem C16_pipeline_prefix_survives : forall ms junk chunks, Forall is_msg ms ->
  concat chunks = concat (map frame ms) ++ junk ->
  exists rest, snd (conn_chunks conn_init chunks) = map ev_of ms ++ rest.
Proof. exact pipeline_prefix. Qed.
Print Assumptions C16_pipeline_prefix_survives.

(* every response, on every path: QR set, RD copied from the request *)
Theorem C16_udp_server_header : forall x cfg svc r, udp_server x cfg svc = Ok (Some r) ->
  N.testbit (m_b2 r) 7 = true /\ N.testbit (m_b2 r) 0 = N.testbit (x_b2 x) 0.
Proof. exact (fun x cfg svc r E => proj1 (udp_server_hdr_id FX FQ EQ x cfg svc r E)). Qed.
Print Assumptions C16_udp_server_header.

Theorem C16_tcp_server_header : forall x idle svc r, tcp_server x idle svc = Ok (Some r) ->
  N.testbit (m_b2 r) 7 = true /\ N.testbit (m_b2 r) 0 = N.testbit (x_b2 x) 0.
Proof. exact (fun x idle svc r E => proj1 (tcp_server_hdr_id FX FQ EQ x idle svc r E)). Qed.
Print Assumptions C16_tcp_server_header.

(* whenever the service produced a response or failed, something is sent *)
Theorem C16_udp_server_answers : forall x cfg svc, svc <> SvcNone ->
  exists r, udp_server x cfg svc = Ok (Some r).
Proof. exact (fun x cfg svc => proj2 (udp_server_answers FX FQ EQ x cfg svc)). Qed.
Print Assumptions C16_udp_server_answers.

Theorem C16_tcp_server_answers : forall x idle svc,
  (exists r, tcp_server x idle svc = Ok r) /\
  (svc <> SvcNone -> exists r, tcp_server x idle svc = Ok (Some r)).
Proof. exact (tcp_server_answers FX FQ EQ). Qed.
Print Assumptions C16_tcp_server_answers.

(* a request that is not rejected: the datagram server is the service's result
   passed through the middleware response path *)
Theorem C16_udp_server_served : forall x cfg svc, reject_rcode x = None ->
  udp_server x cfg svc =
  match svc with
  | SvcOk m => do r <- udp_response (x_base x) cfg m; Ok (Some r)
  | SvcErr rc => Ok (Some (error_response_gen true (x_base x) rc))
  | SvcNone => Ok None
  end.
Proof. exact (udp_server_served FX FQ EQ). Qed.
Print Assumptions C16_udp_server_served.

(* a rejected request (reply received as request, IQUERY, QDCOUNT > 1, several /
   unparseable OPT, EDNS version > 0): one error reply with that rcode, the
   request's id and first question, whatever the service would do *)
Theorem C16_udp_server_rejects : forall x cfg svc rc,
  hint_ok cfg -> Forall wf_q (firstn 1 (x_qs x)) -> reject_rcode x = Some rc ->
  exists r, udp_server x cfg svc = Ok (Some r) /\ err_reply x rc r.
Proof. exact (udp_server_rejects FX FQ). Qed.
Print Assumptions C16_udp_server_rejects.

(* size / TC discipline at the level of the whole datagram server *)
Theorem C16_udp_server_served_discipline : forall x cfg m r,
  hint_ok cfg -> mlen m <= 65535 -> reject_rcode x = None ->
  udp_server x cfg (SvcOk m) = Ok (Some r) ->
  mlen r <= text_limit (x_client x) cfg /\
  (tc_set (m_b2 r) = true <->
   (text_limit (x_client x) cfg < mlen (edns_post (is_some (x_client x)) m) \/ tc_set (m_b2 m) = true)) /\
  (exists rest, m_qs m = m_qs r ++ rest) /\
  ((m_an r <> m_an m \/ m_ns r <> m_ns m) -> tc_set (m_b2 r) = true).
Proof. exact (udp_server_served_discipline EQ). Qed.
Print Assumptions C16_udp_server_served_discipline.

(* the stream server never truncates: question, answer, authority, rcode, TC and
   the non-OPT additional records of the service's response leave as they are *)
Theorem C16_tcp_server_served : forall x idle svc, reject_rcode_tcp x = None ->
  match svc with
  | SvcOk m => exists r, tcp_server x idle svc = Ok (Some r) /\ stream_kept x m r
  | SvcErr rc => tcp_server x idle svc = Ok (Some (error_response_gen true (x_base x) rc))
  | SvcNone => tcp_server x idle svc = Ok None
  end.
Proof. exact (tcp_server_served FX FQ EQ). Qed.
Print Assumptions C16_tcp_server_served.

Theorem C16_tcp_server_rejects : forall x idle svc rc, reject_rcode_tcp x = Some rc ->
  exists r, tcp_server x idle svc = Ok (Some r) /\ err_reply x rc r.
Proof. exact (tcp_server_rejects FX FQ). Qed.
Print Assumptions C16_tcp_server_rejects.

(* a datagram end to end: any octets the model reads as a request (no records, no
   compression pointers), any service behaviour, any configured limit - what is sent
   back has the request's id, QR set, RD copied, and at most 512 octets; the
   premise on the question's well-formedness is discharged by the parser *)
Theorem C16_dgram_end_to_end : forall d cfg svc x r,
  wf_bytes d -> hint_ok cfg -> (forall m, svc = SvcOk m -> mlen m <= 65535) ->
  xreq_of_datagram d = Some x -> udp_server x cfg svc = Ok (Some r) ->
  mlen r <= 512 /\ m_id r = x_id x /\
  (N.testbit (m_b2 r) 7 = true /\ N.testbit (m_b2 r) 0 = N.testbit (x_b2 x) 0).
Proof. exact dgram_end_to_end. Qed.
Print Assumptions C16_dgram_end_to_end.

(* the questions read from received octets are well-formed *)
Theorem C16_parsed_questions_wellformed : forall n w, wf_bytes w ->
  Forall wf_q (parse_questions_prefix n w).
Proof. exact parse_prefix_wf. Qed.
Print Assumptions C16_parsed_questions_wellformed.

(* the octets a connection writes for any sequence of answered requests split back
   into exactly the responses: one correctly framed message each, in order *)
Theorem C16_tcp_responses_framed : forall (qs : list tcp_req) (rs : list msg),
  Forall2 tcp_answered qs rs ->
  Forall (fun r => frame_out (wire_msg r) = Ok (frame (wire_msg r))) rs /\
  split_frames (S (length rs)) (concat (map (fun r => frame (wire_msg r)) rs)) = (map wire_msg rs, []).
Proof. exact tcp_responses_framed. Qed.
Print Assumptions C16_tcp_responses_framed.

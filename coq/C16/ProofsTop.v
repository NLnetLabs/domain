(* C16: abbreviations for the statements of Props.v, which speak of the model as
   generated: the flags are whatever T1 read from the source, and each theorem is
   the instance of a lemma proved for the fixed code at these flags - an instance
   that stops type-checking when a flag falls back. *)
From Coq Require Import NArith List.
From DV Require Import Base.Outcome Base.Bytes C16.Gen C16.Model C16.ProofsTrunc.
Import ListNotations.
Local Open Scope N_scope.

Notation FX := trunc_no_opt_is_min.
Notation FQ := trunc_questions_limited.
Notation EQ := err_resp_first_question_only.
Definition post rq hint m := mandatory_post_gen FX FQ EQ true rq hint m.
Definition tmax rq hint := trunc_max (is_some (rq_client rq)) hint.
Definition hq_len (m : msg) : N := 12 + qs_len (m_qs m).   (* header + questions *)
Definition kept_q max qs := kept_qs FQ max qs.             (* the questions truncate keeps *)
Definition tform max m := trunc_form FQ max m.

(* values T1 reads from the source that the model has as shapes rather than as
   numbers: the two-octet big-endian prefix on both sides of the stream, header
   octet 2 carrying TC, the default response queue length the harness assumes,
   REFUSED as the fourth ServiceError rcode *)
Lemma t1_shape_constants :
  frame_len_octets = 2 /\ frame_big_endian = true /\ shim_len = 2 /\ shim_big_endian = true /\
  tc_octet = 2 /\ tc_bit = 1 /\ header_len = 12 /\ max_queued_default = 10 /\ rc_refused = 5 /\
  stream_short_msg_disconnects = true /\ qr_request_gets_formerr = true /\
  frame_prefix_read_exact = true /\ stream_full_queue_retries = true /\ svc_error_bypasses_middleware = true.
Proof. repeat split. Qed.

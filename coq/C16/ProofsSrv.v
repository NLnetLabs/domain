(* C16 proofs, part 4: the parts the servers are made of - error responses, the
   stream's OPT fix-ups and keepalive option, the datagram receive buffer, the
   cookies middleware's own rejections, idle timeout, connection limit, accept
   loop - and the witnesses against the code before its fixes. *)
From Coq Require Import NArith Arith List Bool Lia.
From DV Require Import Base.Outcome Base.Bytes Base.Names C16.Gen C16.Model C16.ProofsNeg C16.ProofsTrunc.
Import ListNotations.
Local Open Scope N_scope.

Lemma error_response_len eq rq rc :
  mlen (error_response_gen eq rq rc) = 12 + qs_len (if eq then firstn 1 (rq_qs rq) else rq_qs rq) + 11.
Proof. unfold error_response_gen. apply mlen_with_opt. Qed.

(* 12 + 259 + 11 *)
Lemma error_response_small rq rc : Forall wf_q (firstn 1 (rq_qs rq)) ->
  mlen (error_response_gen true rq rc) <= 282.
Proof.
  rewrite error_response_len. destruct (rq_qs rq) as [|q t]; cbn [firstn]; intros H; [cbn; lia|].
  inversion H as [|? ? Hq _]; subst. rewrite qs_len_one. pose proof (wire_q_len q Hq). lia.
Qed.

Lemma error_response_id eq rq rc : m_id (error_response_gen eq rq rc) = rq_id rq.
Proof. reflexivity. Qed.

Lemma error_response_tc eq rq rc : tc_set (m_b2 (error_response_gen eq rq rc)) = false.
Proof.
  unfold tc_set, error_response_gen. cbv [tc_bit]. cbn [m_b2].
  rewrite N.setbit_neq by discriminate. rewrite N.land_spec. apply andb_false_r.
Qed.

Lemma post_id fx fq eq rq h m : m_id (mandatory_post_gen fx fq eq true rq h m) = rq_id rq.
Proof. reflexivity. Qed.

(* the code before fixes 4f39cd3 / a929056 (flags false): kept as statements
   about those variants of the model; the witnesses are replayed by the harness
   corpus as regressions *)

(* truncate not limiting the questions: a STATUS request with 100 questions,
   answered by a service that echoes them, leaves as 712 octets, TC set *)
Definition many_q_x : xreq := mkX 7 16 100 (repeat (mkQ [[97]] 1 1) 100) OptNone.
Definition many_q_svc : svc_result := SvcOk (mkMsg 7 144 0 (repeat (mkQ [[97]] 1 1) 100) [[0; 0; 1; 0; 1; 0; 0; 0; 0; 0; 0]] [] []).

Lemma many_questions_refuted_gen fx eq :
  exists r, udp_server_gen fx false eq many_q_x None many_q_svc = Ok (Some r) /\
            tc_set (m_b2 r) = true /\ mlen r = 712 /\ text_limit (x_client many_q_x) None = 512.
Proof.
  destruct fx; (eexists; split; [vm_compute; reflexivity|]; split; [reflexivity|]; split; [vm_compute; reflexivity|reflexivity]).
Qed.

(* error responses echoing every question: a reply (QR = 1) with 100 questions
   is answered, without passing the middleware, by 723 octets *)
Definition many_q_reply : xreq := mkX 7 128 100 (repeat (mkQ [[97]] 1 1) 100) OptNone.

Lemma error_echo_refuted_gen fx fq :
  exists r, udp_server_gen fx fq false many_q_reply (Some 1232) SvcNone = Ok (Some r) /\
            tc_set (m_b2 r) = false /\ mlen r = 723 /\ text_limit (x_client many_q_reply) (Some 1232) = 512.
Proof. eexists. split; [vm_compute; reflexivity|]. split; [reflexivity|]. split; [vm_compute; reflexivity|reflexivity]. Qed.

(* with both fixes the same inputs stay small *)
Example many_q_fixed :
  exists r1 r2, udp_server_gen true true true many_q_x None many_q_svc = Ok (Some r1) /\ mlen r1 <= 512 /\
                tc_set (m_b2 r1) = true /\
                udp_server_gen true true true many_q_reply (Some 1232) SvcNone = Ok (Some r2) /\ mlen r2 = 30.
Proof.
  eexists. eexists. split; [vm_compute; reflexivity|]. split; [vm_compute; discriminate|].
  split; [reflexivity|]. split; [vm_compute; reflexivity|reflexivity].
Qed.

Example srv_badvers :
  exists r, udp_server (mkX 5 1 1 [mkQ [[97]] 1 1] (OptOne 4096 1)) (Some 1232) SvcNone = Ok (Some r) /\
            m_b3 r = 0 /\ first_opt (m_ar r) = Some (mkOpt 0 16777216 []).
Proof. eexists. split; [vm_compute; reflexivity|]. split; reflexivity. Qed.

Lemma add_option_len m ka : mlen m <= 65535 -> mlen (add_option m ka) <= 65535.
Proof.
  intros H. unfold add_option. destruct (first_opt (m_ar m)) as [o|].
  - destruct (N.ltb_spec 65535 (mlen (with_ar m (filter (fun r => negb (is_opt r)) (m_ar m)
                                                ++ [RROpt (mkOpt (o_size o) (o_ttl o) (o_data o ++ ka))]))))
      as [L|L]; [|exact L].
    pose proof (mlen_with_ar m (filter (fun r => negb (is_opt r)) (m_ar m))).
    pose proof (filter_len (m_ar m)). lia.
  - destruct (N.ltb_spec 65535 (mlen (with_ar m (m_ar m ++ [RROpt (mkOpt 0 0 ka)])))) as [L|L]; [exact H|exact L].
Qed.

(* the stream fix-up is a chain of three steps: what is reflexive, transitive and
   holds across each step holds across the whole *)
Lemma edns_post_tcp_steps (R : msg -> msg -> Prop) :
  (forall m, R m m) -> (forall m1 m2 m3, R m1 m2 -> R m2 m3 -> R m1 m3) ->
  (forall m, R m (strip_opt m)) -> (forall m ka, R m (add_option m ka)) ->
  (forall m, mlen m + 11 <= 65535 -> R m (with_ar m (m_ar m ++ [RROpt empty_opt]))) ->
  forall a b idle m, R m (edns_post_tcp a b idle m).
Proof.
  intros Rr Rt Rs Ra Re a b idle m. unfold edns_post_tcp.
  set (m1 := if negb a then strip_opt m else m).
  assert (R1 : R m m1) by (subst m1; destruct (negb a); auto).
  set (m2 := if b then _ else m1).
  assert (R2 : R m m2).
  { subst m2. destruct b; [|exact R1]. destruct idle as [ms|]; [|exact R1].
    destruct (keepalive_option ms); [|exact R1]. exact (Rt _ _ _ R1 (Ra m1 _)). }
  destruct a; [|exact R2]. destruct (first_opt (m_ar m2)); [exact R2|].
  destruct (N.ltb_spec 65535 (mlen m2 + 11)) as [L|L]; [exact R2|]. exact (Rt _ _ _ R2 (Re m2 L)).
Qed.

Lemma edns_post_tcp_len a b idle m : mlen m <= 65535 -> mlen (edns_post_tcp a b idle m) <= 65535.
Proof.
  apply (edns_post_tcp_steps (fun m m' => mlen m <= 65535 -> mlen m' <= 65535)).
  - intros m0 H. exact H.
  - intros m1 m2 m3 H12 H23 H. exact (H23 (H12 H)).
  - intros m0 H. pose proof (strip_opt_len m0). lia.
  - intros m0 ka. apply add_option_len.
  - intros m0 L _. rewrite mlen_empty_opt. exact L.
Qed.

(* the keepalive value: the idle timeout in units of 100 ms when that fits 16 bits *)
Lemma keepalive_option_spec ms ka : keepalive_option ms = Some ka ->
  exists v, v = ms / 100 /\ v < 65536 /\ ka = [0; 11; 0; 2; v / 256; v mod 256].
Proof.
  unfold keepalive_option. cbv zeta.
  (* ms = 1000 q + r, so ms / 100 = 10 q + r / 100 *)
  replace (ms / 1000 * 10 + ms mod 1000 / 100) with (ms / 100).
  - destruct (N.ltb_spec (ms / 100) 65536) as [L|L]; [|discriminate].
    intros E; inversion E; subst. exists (ms / 100). auto.
  - rewrite (N.div_mod ms 1000) at 1 by discriminate.
    replace (1000 * (ms / 1000)) with (ms / 1000 * 10 * 100) by lia.
    apply N.div_add_l. discriminate.
Qed.
Example keepalive_ex : keepalive_option 30000 = Some [0; 11; 0; 2; 1; 44] /\ keepalive_option 6553600 = None.
Proof. split; reflexivity. Qed.

Example tcp_ex :
  exists r, tcp_server (mkX 5 1 1 [mkQ [[97]] 1 1] (OptOne 1232 0)) (Some 30000)
              (SvcOk (mkMsg 5 129 0 [mkQ [[97]] 1 1] [] [] [])) = Ok (Some r) /\
            m_ar r = [RROpt (mkOpt 0 0 [0; 11; 0; 2; 1; 44])].
Proof. eexists. split; [vm_compute; reflexivity|]. reflexivity. Qed.

Lemma decode_abs_sound w n rest : decode_abs w = inl (Some (n, rest)) ->
  w = wire_abs n ++ rest /\ Forall (fun l : label => (1 <= length l <= 63)%nat) n /\ (wire_len n <= 254)%nat.
Proof.
  intros H. apply parse_flat_sound in H; [|lia]. destruct H as (m & -> & Hb & Hv & Hu). auto.
Qed.

Lemma wire_abs_valid n rest : Forall (fun l : label => (1 <= length l <= 63)%nat) n ->
  wf_bytes (wire_abs n ++ rest) -> Forall valid_label n /\ wf_bytes rest.
Proof.
  induction 1 as [|l n Hl _ IH]; intros Hw; [inversion Hw; auto|].
  rewrite wire_abs_cons in Hw. inversion Hw as [|? ? _ Hw']; subst.
  apply wf_bytes_app in Hw' as [Hwl Hwn]. destruct (IH Hwn) as [Hv Hr].
  split; [constructor; [split; assumption|exact Hv]|exact Hr].
Qed.

Lemma parse_prefix_step n w :
  parse_questions_prefix (S n) w = [] \/
  exists nm t1 t2 c1 c2 rest,
    w = wire_abs nm ++ t1 :: t2 :: c1 :: c2 :: rest /\
    Forall (fun l : label => (1 <= length l <= 63)%nat) nm /\ (wire_len nm <= 254)%nat /\
    parse_questions_prefix (S n) w = mkQ nm (of_be16 t1 t2) (of_be16 c1 c2) :: parse_questions_prefix n rest.
Proof.
  cbn [parse_questions_prefix]. destruct (decode_abs w) as [[[nm r]|]|] eqn:E; auto.
  destruct r as [|t1 [|t2 [|c1 [|c2 rest]]]]; auto.
  right. apply decode_abs_sound in E. destruct E as (-> & V & L). exists nm, t1, t2, c1, c2, rest. auto.
Qed.

Lemma parse_prefix_within n : forall w, qs_len (parse_questions_prefix n w) <= len w.
Proof.
  induction n as [|n IH]; intros w; [cbn; lia|].
  destruct (parse_prefix_step n w) as [->|(nm & t1 & t2 & c1 & c2 & rest & -> & _ & _ & ->)]; [cbn; lia|].
  rewrite qs_len_cons. specialize (IH rest).
  unfold wire_q. cbn [q_name q_type q_class]. rewrite !len_app. unfold be16, len in *. cbn [length] in *. lia.
Qed.

Lemma parse_prefix_wf n : forall w, wf_bytes w -> Forall wf_q (parse_questions_prefix n w).
Proof.
  induction n as [|n IH]; intros w Hw; [constructor|].
  destruct (parse_prefix_step n w) as [->|(nm & t1 & t2 & c1 & c2 & rest & -> & V & L & ->)]; [constructor|].
  apply (wire_abs_valid nm _ V) in Hw. destruct Hw as (Hv & Hr).
  inversion Hr as [|? ? H1 Hr1]; subst. inversion Hr1 as [|? ? H2 Hr2]; subst.
  inversion Hr2 as [|? ? H3 Hr3]; subst. inversion Hr3 as [|? ? H4 Hr4]; subst.
  constructor; [|apply IH; exact Hr4].
  unfold wf_q, valid_abs, of_be16. cbn [q_name q_type q_class]. repeat split; try assumption; lia.
Qed.

Lemma xreq_of_buffer_sound b x : xreq_of_buffer b = Some x ->
  12 + qs_len (x_qs x) <= len b /\ x_opt x = OptNone /\ (wf_bytes b -> Forall wf_q (x_qs x)).
Proof.
  unfold xreq_of_buffer, parse_header.
  destruct b as [|i1 [|i2 [|b2 [|b3 [|q1 [|q2 [|a1 [|a2 [|n1 [|n2 [|r1 [|r2 rest]]]]]]]]]]]]; try discriminate.
  destruct ((of_be16 a1 a2 =? 0) && (of_be16 n1 n2 =? 0) && (of_be16 r1 r2 =? 0)); [|discriminate].
  intros E; inversion E; subst. cbn [x_qs x_opt]. split; [|split; [reflexivity|]].
  - pose proof (parse_prefix_within (N.to_nat (of_be16 q1 q2)) rest). unfold len in *. cbn [length]. lia.
  - intros Hw. apply parse_prefix_wf.
    change (wf_bytes ([i1; i2; b2; b3; q1; q2; a1; a2; n1; n2; r1; r2] ++ rest)) in Hw.
    apply wf_bytes_app in Hw. tauto.
Qed.

(* parsing only the octets received (fix 3a255a9; [xreq_of_datagram] is this at the
   flag T1 read): a request is at least a header long and its questions are the
   datagram's own *)
Lemma dgram_received_only d x :
  xreq_of_buffer (dgram_buffer_gen false d) = Some x -> 12 + qs_len (x_qs x) <= len d.
Proof.
  intros H. apply xreq_of_buffer_sound in H. destruct H as (H & _). unfold dgram_buffer_gen in H.
  unfold len in *. rewrite firstn_length in H. lia.
Qed.

(* parsing the whole buffer: a 12-octet datagram (STATUS, QDCOUNT 65535) becomes a
   request with 202 questions made of padding, and is answered by 512 octets *)
Definition pad_datagram : bytes := [18; 52; 16; 0; 255; 255; 0; 0; 0; 0; 0; 0].

Lemma dgram_padding_refuted_gen fx fq eq :
  exists x r, xreq_of_buffer (dgram_buffer_gen true pad_datagram) = Some x /\ cnt (x_qs x) = 202 /\
    udp_server_gen fx fq eq x (Some 1232)
      (SvcOk (mk_response (x_base x) 144 0 1 15 0 11 None)) = Ok (Some r) /\
    len pad_datagram = 12 /\ 512 <= mlen r.
Proof.
  set (x := mkX 4660 16 65535 (repeat (mkQ [] 0 0) 202) OptNone).
  assert (R : exists r, udp_server_gen fx fq eq x (Some 1232)
                          (SvcOk (mk_response (x_base x) 144 0 1 15 0 11 None)) = Ok (Some r) /\ 512 <= mlen r)
    by (destruct fx; [destruct fq|]; (eexists; split; [vm_compute; reflexivity|vm_compute; discriminate])).
  destruct R as (r & R1 & R2). exists x, r.
  split; [vm_compute; reflexivity|]. split; [reflexivity|]. split; [exact R1|]. split; [reflexivity|exact R2].
Qed.

(* every datagram, even an empty one, is a message when the whole buffer is parsed *)
Lemma dgram_buffer_whole_len d : len (dgram_buffer_gen true d) = dgram_buf_len.
Proof.
  unfold dgram_buffer_gen, len. rewrite firstn_length, app_length, repeat_length.
  rewrite Nat.min_l by lia. apply N2Nat.id.
Qed.

Lemma cookie_reject_spec fx fq eq echo rq cfg k :
  cookie_reject_response_gen fx fq eq echo rq cfg k =
  Ok (mandatory_post_gen fx fq eq true rq (edns_hint (rq_client rq) cfg)
        (edns_post (is_some (rq_client rq)) (cookie_own_answer_gen echo eq rq k))).
Proof. unfold cookie_reject_response_gen. rewrite hint_after_edns_spec. reflexivity. Qed.

Lemma cookie_own_answer_len echo eq rq k :
  mlen (cookie_own_answer_gen echo eq rq k) =
  if echo then mlen (error_response_gen eq rq (match k with CkMalformed => rc_formerr | CkDeniedNoCookie => rc_refused end))
  else 12.
Proof.
  unfold cookie_own_answer_gen. destruct k, echo; cbv zeta; rewrite ?mlen_spec; reflexivity.
Qed.

Lemma cookie_own_answer_qs echo eq rq k :
  m_qs (cookie_own_answer_gen echo eq rq k) =
  if echo then (if eq then firstn 1 (rq_qs rq) else rq_qs rq) else [].
Proof. unfold cookie_own_answer_gen. destruct k, echo; reflexivity. Qed.

Lemma cookie_reject_small fx fq eq echo rq cfg k r : hint_ok cfg ->
  mlen (edns_post (is_some (rq_client rq)) (cookie_own_answer_gen echo eq rq k)) <= 512 ->
  cookie_reject_response_gen fx fq eq echo rq cfg k = Ok r ->
  m_id r = rq_id rq /\ m_qs r = m_qs (cookie_own_answer_gen echo eq rq k) /\
  mlen r = mlen (edns_post (is_some (rq_client rq)) (cookie_own_answer_gen echo eq rq k)).
Proof.
  intros Hk Hm. rewrite cookie_reject_spec. intros R; inversion R; subst r; clear R.
  rewrite post_small by (try apply edns_hint_ok; assumption).
  rewrite stamp_mlen. cbn [stamp m_id m_qs]. repeat split. apply edns_post_same.
Qed.

(* built from an empty builder the answer has no question section, whatever the request asked *)
Lemma cookie_reject_no_question fx fq eq rq cfg k r : hint_ok cfg ->
  cookie_reject_response_gen fx fq eq false rq cfg k = Ok r -> m_id r = rq_id rq /\ m_qs r = [].
Proof.
  intros Hk E. apply cookie_reject_small in E; [|exact Hk|].
  - rewrite cookie_own_answer_qs in E. tauto.
  - destruct (edns_post_mlen (is_some (rq_client rq)) (cookie_own_answer_gen false eq rq k)) as [L|(_ & L & _)];
      rewrite cookie_own_answer_len in L; lia.
Qed.

(* built by mk_error_response it carries the request's id and (first) question
   (fix ce095ac; [cookie_reject_response] is this at the flags T1 read) *)
Lemma cookie_reject_echo fx fq rq cfg k r : hint_ok cfg -> Forall wf_q (firstn 1 (rq_qs rq)) ->
  cookie_reject_response_gen fx fq true true rq cfg k = Ok r ->
  m_id r = rq_id rq /\ m_qs r = firstn 1 (rq_qs rq) /\ mlen r <= 282.
Proof.
  intros Hk Hq E.
  assert (Hm : mlen (edns_post (is_some (rq_client rq)) (cookie_own_answer_gen true true rq k)) <= 282).
  { assert (exists o, first_opt (m_ar (cookie_own_answer_gen true true rq k)) = Some o) as (o & Eo)
      by (destruct k; eexists; reflexivity).
    pose proof (edns_post_le_opt (is_some (rq_client rq)) _ o Eo) as L.
    rewrite cookie_own_answer_len in L. pose proof (fun rc => error_response_small rq rc Hq) as S.
    destruct k; [pose proof (S rc_formerr)|pose proof (S rc_refused)]; lia. }
  apply cookie_reject_small in E; [|exact Hk|lia].
  rewrite cookie_own_answer_qs in E. destruct E as (A & B & C). rewrite C. auto.
Qed.

Definition ck_request : request := mk_request 36892 1 [1] 1 None.
Example cookie_reject_ex :
  exists r, cookie_reject_response_gen true true true false ck_request (Some 1232) CkDeniedNoCookie = Ok r /\
            mlen r = 12 /\ tc_set (m_b2 r) = true /\ m_b3 r = 5 /\ m_qs r = [] /\ rq_qs ck_request <> [].
Proof. eexists. split; [vm_compute; reflexivity|]. repeat split. discriminate. Qed.

Lemma idle_open_spec reset_at timeout now :
  idle_open reset_at timeout now = true <-> now < reset_at + timeout.
Proof.
  unfold idle_open, idle_expired. cbv [idle_expired_cmp_is_le].
  destruct (N.leb_spec (reset_at + timeout) now); cbn [negb]; split; intros; try discriminate; try reflexivity; lia.
Qed.

Lemma idle_reset_extends r1 r2 timeout now : r1 <= r2 ->
  idle_open r1 timeout now = true -> idle_open r2 timeout now = true.
Proof. rewrite !idle_open_spec. lia. Qed.

Lemma at_connection_limit_spec num max : at_connection_limit num max = true <-> max <= num.
Proof. unfold at_connection_limit. cbv [conn_limit_cmp_is_ge]. apply N.leb_le. Qed.

Lemma served_connections_spec max k : forall num, num <= max ->
  N.of_nat (length (filter (fun b => b) (served_connections max num k))) + num <= max /\
  (N.of_nat k + num <= max -> served_connections max num k = repeat true k).
Proof.
  induction k as [|k IH]; intros num H; [cbn; split; [lia|reflexivity]|].
  cbn [served_connections]. destruct (at_connection_limit num max) eqn:E.
  - apply at_connection_limit_spec in E. destruct (IH num H) as (A & B). cbn [filter]. split; [exact A|]. lia.
  - assert (num < max). { destruct (N.leb_spec max num) as [L|L]; [apply at_connection_limit_spec in L; congruence|exact L]. }
    destruct (IH (num + 1)) as (A & B); [lia|]. cbn [filter length]. split; [lia|].
    intros F. cbn [repeat]. rewrite B by lia. reflexivity.
Qed.
Example served_ex : served_connections 2 0 4 = [true; true; false; false]. Proof. reflexivity. Qed.

Definition is_conn (e : accept_event) : bool := match e with AcConn => true | _ => false end.

(* when accept errors do not end the loop every connection is served, whatever
   happened to the attempts before it ([accept_loop] is this at the flags T1 read) *)
Lemma accept_loop_serves_all evs : accept_loop_gen false false evs = map is_conn evs.
Proof. induction evs as [|e t IH]; [reflexivity|]. destruct e; cbn [accept_loop_gen map is_conn andb]; rewrite IH; reflexivity. Qed.

(* ... and when they do, one aborted attempt leaves every later client unserved *)
Lemma accept_loop_stopping_refuted inline :
  accept_loop_gen true inline [AcConn; AcError 0; AcConn; AcConn] = [true; false; false; false].
Proof. destruct inline; reflexivity. Qed.

(* awaiting the stream's future in the accept loop: one peer that never finishes its
   connection setup leaves every later client unserved *)
Lemma accept_loop_inline_refuted stops :
  accept_loop_gen stops true [AcConn; AcStalled; AcConn; AcConn] = [true; false; false; false].
Proof. destruct stops; reflexivity. Qed.

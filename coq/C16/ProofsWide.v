(* C16 proofs, part 6: pipelined requests on one stream connection; the datagram
   and the stream server as wholes, both as one cascade of rejections in front of
   the service: which path answers a request, header, size and framing of every
   response, the stream server never truncates. *)
From Coq Require Import NArith List Bool Lia.
From DV Require Import Base.Outcome Base.Bytes Base.Names C16.Gen C16.Model C16.ProofsNeg C16.ProofsTrunc
  C16.ProofsFrame C16.ProofsSrv C16.ProofsTop.
Import ListNotations.
Local Open Scope N_scope.

Definition ev_of (m : bytes) : conn_event := if qr_set m then EvFormErr m else EvDispatch m.
Definition is_msg (m : bytes) : Prop := 12 <= len m /\ len m <= 65535.

Lemma events_of_msgs_app ms fs : Forall is_msg ms ->
  events_of (ms ++ fs) = map ev_of ms ++ events_of fs.
Proof.
  induction 1 as [|m t [Hm _] _ IH]; [reflexivity|].
  cbn [app map]. rewrite events_of_cons, IH.
  unfold classify_frame, too_short, ev_of. cbv [short_msg_cmp_is_lt header_len].
  destruct (N.ltb_spec (len m) 12); [lia|]. destruct (qr_set m); reflexivity.
Qed.

Lemma frames_length ms : (length ms <= length (concat (map frame ms)))%nat.
Proof.
  induction ms as [|m t IH]; [cbn; lia|].
  cbn [map concat length]. unfold frame at 1. rewrite !app_length. cbn [be16 length]. lia.
Qed.

Lemma pipeline_events ms junk chunks : Forall is_msg ms ->
  concat chunks = concat (map frame ms) ++ junk ->
  exists k, snd (conn_chunks conn_init chunks) = map ev_of ms ++ events_of (fst (split_frames k junk)).
Proof.
  intros Hm E. rewrite framing_is_split, E.
  assert (Hl : Forall (fun m => len m <= 65535) ms)
    by (eapply Forall_impl; [|exact Hm]; intros m [_ L]; exact L).
  rewrite (split_frames_app ms Hl) by (pose proof (frames_length ms); rewrite app_length; lia).
  exists (S (length (concat (map frame ms) ++ junk)) - length ms)%nat.
  destruct (split_frames _ junk) as [fs rest]. apply events_of_msgs_app. exact Hm.
Qed.

(* requests already written to a connection are delivered, each exactly once and
   in order, whatever the chunking and whatever octets (garbage, short frames, an
   abort) follow them *)
Lemma pipeline_prefix ms junk chunks : Forall is_msg ms ->
  concat chunks = concat (map frame ms) ++ junk ->
  exists rest, snd (conn_chunks conn_init chunks) = map ev_of ms ++ rest.
Proof. intros Hm E. destruct (pipeline_events ms junk chunks Hm E) as (k & P). eexists. exact P. Qed.

Lemma pipeline_exact ms chunks : Forall is_msg ms ->
  concat chunks = concat (map frame ms) ->
  exists st, conn_chunks conn_init chunks = (st, map ev_of ms) /\ c_open st = true.
Proof.
  intros Hm E. rewrite <- (app_nil_r (concat (map frame ms))) in E.
  destruct (pipeline_events ms [] chunks Hm E) as (k & P).
  replace (events_of (fst (split_frames k []))) with (@nil conn_event) in P by (destruct k; reflexivity).
  rewrite app_nil_r in P.
  destruct (hostile_input_total chunks) as (st & ev & C & _ & _ & O).
  rewrite C in P. cbn [snd] in P. subst ev. exists st. split; [exact C|].
  destruct (c_open st); [reflexivity|]. exfalso. destruct O as [O _]. specialize (O eq_refl).
  apply in_map_iff in O. destruct O as (m & D & _). unfold ev_of in D. destruct (qr_set m); discriminate.
Qed.

Example pipeline_ex :
  snd (conn_chunks conn_init [[0; 12; 0; 9; 0]; [0; 0; 0; 0; 0; 0; 0; 0; 0; 0; 12; 0; 7]; [128; 0; 0; 0; 0; 0; 0; 0; 0; 0; 0; 1]])
  = [EvDispatch [0; 9; 0; 0; 0; 0; 0; 0; 0; 0; 0; 0]; EvFormErr [0; 7; 128; 0; 0; 0; 0; 0; 0; 0; 0; 0]].
Proof. reflexivity. Qed.

(* the requests the transport / middleware answers itself, with which rcode
   (datagram server); None: the request reaches the service *)
Definition reject_rcode (x : xreq) : option N :=
  if N.testbit (x_b2 x) 7 then Some rc_formerr
  else if x_opcode x =? opcode_iquery then Some rc_notimp
  else if (x_opcode x =? opcode_query) && (qdcount_max <? x_qd x) then Some rc_formerr
  else match x_opt x with
       | OptDup _ => Some rc_formerr
       | OptBad => Some rc_formerr
       | OptOne _ v => if edns_version_max <? v then Some rc_badvers else None
       | _ => None
       end.

(* ... on a stream a keepalive option carrying a timeout value is also FORMERR *)
Definition reject_rcode_tcp (x : xreq) : option N :=
  match reject_rcode x with
  | Some rc => Some rc
  | None => match x_opt x with OptKa _ true => Some rc_formerr | _ => None end
  end.

(* the three forms an error response leaves in: as made, through Mandatory's
   postprocess, through both postprocess steps *)
Definition reject_forms (err : msg) (post epost : msg -> msg) (r : msg) : Prop :=
  r = err \/ r = post err \/ r = epost err.

(* the shape udp_server_gen and tcp_server_gen share: the transport answers a
   reply received as request itself, Mandatory answers IQUERY and QDCOUNT > 1,
   Edns answers what is wrong with the OPT, everything else is served *)
Definition srv_cascade (tcp : bool) (x : xreq) (err : N -> msg) (post epost : msg -> msg)
  (serve : outcome (option msg)) : outcome (option msg) :=
  if N.testbit (x_b2 x) 7 then Ok (Some (err rc_formerr))
  else if x_opcode x =? opcode_iquery then Ok (Some (post (err rc_notimp)))
  else if (x_opcode x =? opcode_query) && (qdcount_max <? x_qd x) then Ok (Some (post (err rc_formerr)))
  else match x_opt x with
       | OptDup _ => Ok (Some (epost (err rc_formerr)))
       | OptBad => Ok (Some (epost (err rc_formerr)))
       | OptOne _ v => if edns_version_max <? v then Ok (Some (epost (err rc_badvers))) else serve
       | OptKa _ t => if tcp && t then Ok (Some (epost (err rc_formerr))) else serve
       | OptNone => serve
       end.

(* a rejected request gets an error response with that rcode, whatever the
   service would do; any other request gets what serving it gives *)
Lemma srv_cascade_paths (tcp : bool) x err post epost serve :
  match (if tcp then reject_rcode_tcp x else reject_rcode x) with
  | Some rc => exists r, srv_cascade tcp x err post epost serve = Ok (Some r) /\
                         reject_forms (err rc) post epost r
  | None => srv_cascade tcp x err post epost serve = serve
  end.
Proof.
  assert (A : forall rc r, reject_forms (err rc) post epost r ->
              exists r0, Ok (Some r) = Ok (Some r0) /\ reject_forms (err rc) post epost r0) by eauto.
  unfold reject_rcode_tcp, reject_rcode, srv_cascade.
  destruct (N.testbit (x_b2 x) 7); [destruct tcp; apply A; left; reflexivity|].
  destruct (x_opcode x =? opcode_iquery); [destruct tcp; apply A; right; left; reflexivity|].
  destruct ((x_opcode x =? opcode_query) && (qdcount_max <? x_qd x)); [destruct tcp; apply A; right; left; reflexivity|].
  destruct (x_opt x) as [|s v|s [|]|s|]; try destruct (edns_version_max <? v);
    destruct tcp; try reflexivity; apply A; right; right; reflexivity.
Qed.

Lemma srv_cascade_all (P : msg -> Prop) tcp x err post epost serve r :
  (forall rc r', reject_forms (err rc) post epost r' -> P r') ->
  (serve = Ok (Some r) -> P r) ->
  srv_cascade tcp x err post epost serve = Ok (Some r) -> P r.
Proof.
  intros H S E. pose proof (srv_cascade_paths tcp x err post epost serve) as Q.
  destruct (if tcp then reject_rcode_tcp x else reject_rcode x) as [rc|].
  - destruct Q as (r0 & E0 & F). rewrite E0 in E. inversion E; subst r0. exact (H rc r F).
  - rewrite Q in E. exact (S E).
Qed.

(* what serving a request gives: each service response through the middleware's
   response path, a service error as a plain error response, no response as none *)
Definition udp_serve (fx fq eq : bool) (x : xreq) (cfg : option N) (svc : svc_result) : outcome (option msg) :=
  match svc with
  | SvcOk m => do r <- udp_response_gen fx fq eq (x_base x) cfg m; Ok (Some r)
  | SvcErr rc => Ok (Some (error_response_gen eq (x_base x) rc))
  | SvcNone => Ok None
  end.

Definition tcp_serve (fx fq eq : bool) (x : xreq) (idle : option N) (svc : svc_result) : outcome (option msg) :=
  match svc with
  | SvcOk m => Ok (Some (mandatory_post_gen fx fq eq false (x_base x) None
                           (edns_post_tcp (is_some (x_client x)) (x_any_opt x) idle m)))
  | SvcErr rc => Ok (Some (error_response_gen eq (x_base x) rc))
  | SvcNone => Ok None
  end.

Lemma udp_server_cascade fx fq eq x cfg svc :
  udp_server_gen fx fq eq x cfg svc =
  srv_cascade false x (error_response_gen eq (x_base x)) (mandatory_post_gen fx fq eq true (x_base x) cfg)
    (fun m => mandatory_post_gen fx fq eq true (x_base x) cfg (edns_post (is_some (x_client x)) m))
    (udp_serve fx fq eq x cfg svc).
Proof.
  unfold udp_serve. destruct svc; [rewrite udp_response_spec|..];
    unfold udp_server_gen; rewrite ?hint_after_edns_spec; reflexivity.
Qed.

Lemma tcp_server_cascade fx fq eq x idle svc :
  tcp_server_gen fx fq eq x idle svc =
  srv_cascade true x (error_response_gen eq (x_base x)) (mandatory_post_gen fx fq eq false (x_base x) None)
    (fun m => mandatory_post_gen fx fq eq false (x_base x) None
                (edns_post_tcp (is_some (x_client x)) (x_any_opt x) idle m))
    (tcp_serve fx fq eq x idle svc).
Proof. reflexivity. Qed.

Lemma udp_server_paths fx fq eq x cfg svc :
  match reject_rcode x with
  | Some rc => exists r, udp_server_gen fx fq eq x cfg svc = Ok (Some r) /\
      reject_forms (error_response_gen eq (x_base x) rc) (mandatory_post_gen fx fq eq true (x_base x) cfg)
        (fun m => mandatory_post_gen fx fq eq true (x_base x) cfg (edns_post (is_some (x_client x)) m)) r
  | None => udp_server_gen fx fq eq x cfg svc = udp_serve fx fq eq x cfg svc
  end.
Proof. rewrite udp_server_cascade. apply (srv_cascade_paths false). Qed.

Lemma tcp_server_paths fx fq eq x idle svc :
  match reject_rcode_tcp x with
  | Some rc => exists r, tcp_server_gen fx fq eq x idle svc = Ok (Some r) /\
      reject_forms (error_response_gen eq (x_base x) rc) (stamp (x_base x))
        (fun m => stamp (x_base x) (edns_post_tcp (is_some (x_client x)) (x_any_opt x) idle m)) r
  | None => tcp_server_gen fx fq eq x idle svc = tcp_serve fx fq eq x idle svc
  end.
Proof.
  exact (srv_cascade_paths true x (error_response_gen eq (x_base x)) (stamp (x_base x))
           (fun m => stamp (x_base x) (edns_post_tcp (is_some (x_client x)) (x_any_opt x) idle m))
           (tcp_serve fx fq eq x idle svc)).
Qed.

Lemma udp_server_served fx fq eq x cfg svc : reject_rcode x = None ->
  udp_server_gen fx fq eq x cfg svc = udp_serve fx fq eq x cfg svc.
Proof. intros H. pose proof (udp_server_paths fx fq eq x cfg svc) as Q. rewrite H in Q. exact Q. Qed.

Lemma udp_serve_inv fx fq eq x cfg svc r : udp_serve fx fq eq x cfg svc = Ok (Some r) ->
  (exists m, svc = SvcOk m /\ udp_response_gen fx fq eq (x_base x) cfg m = Ok r) \/
  (exists rc, svc = SvcErr rc /\ r = error_response_gen eq (x_base x) rc).
Proof.
  destruct svc as [m|rc|]; cbn [udp_serve]; [|intros E; inversion E; right; eauto|discriminate].
  rewrite udp_response_spec. intros E; inversion E. left. exists m. split; [reflexivity|apply udp_response_spec].
Qed.

Lemma udp_server_answers fx fq eq x cfg svc :
  (exists r, udp_server_gen fx fq eq x cfg svc = Ok r) /\
  (svc <> SvcNone -> exists r, udp_server_gen fx fq eq x cfg svc = Ok (Some r)).
Proof.
  pose proof (udp_server_paths fx fq eq x cfg svc) as Q. destruct (reject_rcode x).
  - destruct Q as (r & -> & _). eauto.
  - rewrite Q. destruct svc; cbn [udp_serve]; rewrite ?udp_response_spec; cbn [bind]; split; eauto; congruence.
Qed.

Lemma tcp_server_answers fx fq eq x idle svc :
  (exists r, tcp_server_gen fx fq eq x idle svc = Ok r) /\
  (svc <> SvcNone -> exists r, tcp_server_gen fx fq eq x idle svc = Ok (Some r)).
Proof.
  pose proof (tcp_server_paths fx fq eq x idle svc) as Q. destruct (reject_rcode_tcp x).
  - destruct Q as (r & -> & _). eauto.
  - rewrite Q. destruct svc; cbn [tcp_serve]; split; eauto; congruence.
Qed.

Example rejects_ex :
  reject_rcode (mkX 5 1 1 [mkQ [[97]] 1 1] (OptOne 1232 1)) = Some 16 /\
  reject_rcode (mkX 5 1 1 [mkQ [[97]] 1 1] (OptOne 1232 0)) = None.
Proof. split; reflexivity. Qed.

Definition hdr_ok (x : xreq) (r : msg) : Prop :=
  N.testbit (m_b2 r) 7 = true /\ N.testbit (m_b2 r) 0 = N.testbit (x_b2 x) 0.

Lemma stamp_hdr_id x m : hdr_ok x (stamp (x_base x) m) /\ m_id (stamp (x_base x) m) = x_id x.
Proof.
  split; [|reflexivity]. unfold hdr_ok. cbn [stamp m_b2]. rewrite !set_bit_to_spec.
  split; [apply N.setbit_eq|reflexivity].
Qed.

Lemma err_hdr_id eq x rc :
  hdr_ok x (error_response_gen eq (x_base x) rc) /\ m_id (error_response_gen eq (x_base x) rc) = x_id x.
Proof.
  split; [|reflexivity]. unfold hdr_ok, error_response_gen. cbn [m_b2 rq_b2 x_base]. split; [apply N.setbit_eq|].
  rewrite N.setbit_neq by discriminate. rewrite N.land_spec. apply andb_true_r.
Qed.

Lemma udp_server_hdr_id fx fq eq x cfg svc r :
  udp_server_gen fx fq eq x cfg svc = Ok (Some r) -> hdr_ok x r /\ m_id r = x_id x.
Proof.
  rewrite udp_server_cascade. apply (srv_cascade_all (fun r => hdr_ok x r /\ m_id r = x_id x)).
  - intros rc r' [-> | [-> | ->]]; [apply err_hdr_id|exact (stamp_hdr_id x _)..].
  - intros U. apply udp_serve_inv in U. destruct U as [(m & _ & U)|(rc & _ & ->)]; [|apply err_hdr_id].
    rewrite udp_response_spec in U. inversion U. exact (stamp_hdr_id x _).
Qed.

Lemma tcp_server_hdr_id fx fq eq x idle svc r :
  tcp_server_gen fx fq eq x idle svc = Ok (Some r) -> hdr_ok x r /\ m_id r = x_id x.
Proof.
  rewrite tcp_server_cascade. apply (srv_cascade_all (fun r => hdr_ok x r /\ m_id r = x_id x)).
  - intros rc r' [-> | [-> | ->]]; [apply err_hdr_id|apply stamp_hdr_id..].
  - destruct svc; intros U; inversion U; [apply stamp_hdr_id|apply err_hdr_id].
Qed.

Example answers_ex :
  exists r, udp_server (mkX 5 1 1 [mkQ [[97]] 1 1] OptNone) None (SvcErr 2) = Ok (Some r) /\
            hdr_ok (mkX 5 1 1 [mkQ [[97]] 1 1] OptNone) r /\ m_b3 r = 2.
Proof. eexists. split; [vm_compute; reflexivity|]. split; [split; reflexivity|reflexivity]. Qed.

Definition nonopt (r : rr) : bool := negb (is_opt r).

(* [m'] is [m] but for OPT records of the additional section *)
Definition pres (m m' : msg) : Prop :=
  m_id m' = m_id m /\ m_b2 m' = m_b2 m /\ m_b3 m' = m_b3 m /\ m_qs m' = m_qs m /\
  m_an m' = m_an m /\ m_ns m' = m_ns m /\ filter nonopt (m_ar m') = filter nonopt (m_ar m).

Lemma pres_refl m : pres m m.
Proof. unfold pres. repeat split. Qed.

Lemma pres_trans a b c : pres a b -> pres b c -> pres a c.
Proof.
  unfold pres. intros (A1 & A2 & A3 & A4 & A5 & A6 & A7) (B1 & B2 & B3 & B4 & B5 & B6 & B7).
  repeat split; congruence.
Qed.

Lemma filter_idem {A} (f : A -> bool) l : filter f (filter f l) = filter f l.
Proof.
  induction l as [|a t IH]; [reflexivity|]. cbn [filter]. destruct (f a) eqn:E; [|exact IH].
  cbn [filter]. rewrite E, IH. reflexivity.
Qed.

Lemma pres_strip m : pres m (strip_opt m).
Proof. unfold pres, strip_opt. cbn [m_ar]. repeat split. apply filter_idem. Qed.

Lemma pres_app_opt m o : pres m (with_ar m (m_ar m ++ [RROpt o])).
Proof. unfold pres, with_ar. cbn [m_ar]. repeat split. rewrite filter_app. apply app_nil_r. Qed.

Lemma pres_add m ka : pres m (add_option m ka).
Proof.
  unfold add_option. destruct (first_opt (m_ar m)) as [o|].
  - destruct (65535 <? _); unfold pres, with_ar; cbn [m_ar]; repeat split; rewrite ?filter_app, ?app_nil_r;
      apply (filter_idem nonopt).
  - destruct (65535 <? _); [apply pres_refl|apply pres_app_opt].
Qed.

Lemma pres_edns_post_tcp a b idle m : pres m (edns_post_tcp a b idle m).
Proof.
  apply (edns_post_tcp_steps pres pres_refl pres_trans pres_strip pres_add (fun m _ => pres_app_opt m empty_opt)).
Qed.

(* the datagram fix-up is the stream's without a keepalive option *)
Lemma pres_edns_post b m : pres m (edns_post b m).
Proof.
  replace (edns_post b m) with (edns_post_tcp b false None m) by (destruct b; reflexivity).
  apply pres_edns_post_tcp.
Qed.

(* what leaves for a service response: the service's message with id / QR / RD set
   and the OPT fix-ups, nothing else touched *)
Definition stream_kept (x : xreq) (m r : msg) : Prop :=
  m_id r = x_id x /\ m_qs r = m_qs m /\ m_an r = m_an m /\ m_ns r = m_ns m /\ m_b3 r = m_b3 m /\
  tc_set (m_b2 r) = tc_set (m_b2 m) /\ filter nonopt (m_ar r) = filter nonopt (m_ar m).

Lemma stamp_kept x m m' : pres m m' -> stream_kept x m (stamp (x_base x) m').
Proof.
  intros (_ & E2 & E3 & E4 & E5 & E6 & E7). unfold stream_kept. rewrite stamp_tc, E2.
  cbn [stamp m_id m_b3 m_qs m_an m_ns m_ar]. repeat split; assumption.
Qed.

(* a request that is not rejected on a stream: the service's result, untouched but
   for the stamp and the OPT *)
Lemma tcp_server_served fx fq eq x idle svc : reject_rcode_tcp x = None ->
  match svc with
  | SvcOk m => exists r, tcp_server_gen fx fq eq x idle svc = Ok (Some r) /\ stream_kept x m r
  | SvcErr rc => tcp_server_gen fx fq eq x idle svc = Ok (Some (error_response_gen eq (x_base x) rc))
  | SvcNone => tcp_server_gen fx fq eq x idle svc = Ok None
  end.
Proof.
  intros H. pose proof (tcp_server_paths fx fq eq x idle svc) as Q. rewrite H in Q. rewrite Q.
  destruct svc; try reflexivity. eexists. split; [reflexivity|]. apply stamp_kept, pres_edns_post_tcp.
Qed.

(* an error reply: id and (first) question of the request, the rcode, no
   records but an OPT at most, TC clear *)
Definition err_reply (x : xreq) (rc : N) (r : msg) : Prop :=
  m_id r = x_id x /\ m_qs r = firstn 1 (x_qs x) /\ m_an r = [] /\ m_ns r = [] /\
  tc_set (m_b2 r) = false /\ m_b3 r = rc mod 16.

Lemma stamped_err_reply x rc m : pres (error_response_gen true (x_base x) rc) m ->
  err_reply x rc (stamp (x_base x) m).
Proof.
  intros Hp. destruct (stamp_kept x _ m Hp) as (K1 & K2 & K3 & K4 & K5 & K6 & _).
  unfold err_reply. rewrite K2, K3, K4, K5, K6. repeat split. apply error_response_tc.
Qed.

Lemma err_is_reply x rc : err_reply x rc (error_response_gen true (x_base x) rc).
Proof. unfold err_reply. repeat split. apply error_response_tc. Qed.

Lemma tcp_server_rejects fx fq x idle svc rc : reject_rcode_tcp x = Some rc ->
  exists r, tcp_server_gen fx fq true x idle svc = Ok (Some r) /\ err_reply x rc r.
Proof.
  intros H. pose proof (tcp_server_paths fx fq true x idle svc) as Q. rewrite H in Q.
  destruct Q as (r & E & F). exists r. split; [exact E|].
  destruct F as [-> | [-> | ->]];
    [apply err_is_reply|apply stamped_err_reply, pres_refl|apply stamped_err_reply, pres_edns_post_tcp].
Qed.

(* an error response made by the middleware passes the response path unchanged
   but for the OPT fix-up: it is far below any limit *)
Lemma udp_reject_reply fx fq x cfg b rc r : hint_ok cfg -> Forall wf_q (firstn 1 (x_qs x)) ->
  reject_forms (error_response_gen true (x_base x) rc) (mandatory_post_gen fx fq true true (x_base x) cfg)
    (fun m => mandatory_post_gen fx fq true true (x_base x) cfg (edns_post b m)) r ->
  err_reply x rc r /\ mlen r <= 282.
Proof.
  intros Hk Hq F. pose proof (error_response_small (x_base x) rc Hq) as L.
  assert (L2 : mlen (edns_post b (error_response_gen true (x_base x) rc)) <= 282)
    by (pose proof (edns_post_le_opt b (error_response_gen true (x_base x) rc) _ eq_refl); lia).
  destruct F as [-> | [-> | ->]].
  - split; [apply err_is_reply|exact L].
  - rewrite post_small, stamp_mlen by (try exact Hk; lia). split; [apply stamped_err_reply, pres_refl|exact L].
  - rewrite post_small, stamp_mlen by (try exact Hk; lia). split; [apply stamped_err_reply, pres_edns_post|exact L2].
Qed.

(* one error reply with that rcode, whatever the service would have done
   (hostile input is answered and does not reach the service) *)
Lemma udp_server_rejects fx fq x cfg svc rc : hint_ok cfg -> Forall wf_q (firstn 1 (x_qs x)) ->
  reject_rcode x = Some rc ->
  exists r, udp_server_gen fx fq true x cfg svc = Ok (Some r) /\ err_reply x rc r.
Proof.
  intros Hk Hq H. pose proof (udp_server_paths fx fq true x cfg svc) as Q. rewrite H in Q.
  destruct Q as (r & E & F). exists r. split; [exact E|]. exact (proj1 (udp_reject_reply fx fq x cfg _ rc r Hk Hq F)).
Qed.

Example tcp_kept_ex :
  reject_rcode_tcp (mkX 5 1 1 [mkQ [[97]] 1 1] (OptKa 1232 true)) = Some 1 /\
  reject_rcode_tcp (mkX 5 1 1 [mkQ [[97]] 1 1] (OptKa 1232 false)) = None.
Proof. split; reflexivity. Qed.

(* every datagram the server sends, on every path, is within the property text's
   limit - once truncate limits the questions and error responses echo at most
   the first question (and requests without OPT are held to 512) *)
Lemma udp_server_bound x cfg svc r :
  hint_ok cfg -> Forall wf_q (firstn 1 (x_qs x)) ->
  (forall m, svc = SvcOk m -> mlen m <= 65535) ->
  udp_server_gen true true true x cfg svc = Ok (Some r) ->
  mlen r <= text_limit (x_client x) cfg.
Proof.
  intros Hk Hq Hs.
  assert (T : 512 <= text_limit (x_client x) cfg)
    by (rewrite <- (trunc_max_is_text _ _ Hk); apply trunc_max_ge, edns_hint_ok, Hk).
  rewrite udp_server_cascade. apply (srv_cascade_all (fun r => mlen r <= text_limit (x_client x) cfg)).
  - intros rc r' F. apply (udp_reject_reply true true x cfg _ rc r' Hk Hq) in F. lia.
  - intros U. apply udp_serve_inv in U. destruct U as [(m & -> & U)|(rc & _ & ->)].
    + rewrite <- (trunc_max_is_text _ _ Hk).
      apply (udp_size_bound_service true true true (x_base x) cfg m r); auto.
    + pose proof (error_response_small (x_base x) rc Hq). lia.
Qed.

Lemma tcp_server_framed fx fq eq x idle svc r :
  12 + qs_len (x_qs x) + 11 <= 65535 -> (forall m, svc = SvcOk m -> mlen m <= 65535) ->
  tcp_server_gen fx fq eq x idle svc = Ok (Some r) ->
  mlen r <= 65535 /\ exists f, frame_out (wire_msg r) = Ok f.
Proof.
  intros Hq Hs E. assert (L : mlen r <= 65535); [|split; [exact L|]].
  2:{ rewrite frame_out_spec by exact L. eexists; reflexivity. }
  assert (Herr : forall rc, mlen (error_response_gen eq (x_base x) rc) <= 65535).
  { intros rc. rewrite error_response_len. cbn [x_base rq_qs]. destruct eq; [|lia].
    pose proof (qs_len_app (firstn 1 (x_qs x)) (skipn 1 (x_qs x))) as A. rewrite firstn_skipn in A. lia. }
  revert E. rewrite tcp_server_cascade. apply (srv_cascade_all (fun r => mlen r <= 65535)).
  - intros rc r' [-> | [-> | ->]]; rewrite ?mandatory_post_tcp, ?stamp_mlen; auto using edns_post_tcp_len.
  - destruct svc as [m| |]; intros U; inversion U; [|apply Herr].
    rewrite mandatory_post_tcp, stamp_mlen. apply edns_post_tcp_len, Hs. reflexivity.
Qed.

Lemma fx_true : FX = true. Proof. reflexivity. Qed.

(* the size / TC discipline lifted to the server as a whole: for a request that
   reaches the service, the datagram sent for a service response is within the
   property text's limit, carries TC exactly when the response (after the OPT
   fix-up) exceeded it or the service had set TC, keeps a prefix of the
   questions, and has TC set whenever a record section was dropped *)
Lemma udp_server_served_discipline eq x cfg m r :
  hint_ok cfg -> mlen m <= 65535 -> reject_rcode x = None ->
  udp_server_gen true true eq x cfg (SvcOk m) = Ok (Some r) ->
  mlen r <= text_limit (x_client x) cfg /\
  (tc_set (m_b2 r) = true <->
   (text_limit (x_client x) cfg < mlen (edns_post (is_some (x_client x)) m) \/ tc_set (m_b2 m) = true)) /\
  (exists rest, m_qs m = m_qs r ++ rest) /\
  ((m_an r <> m_an m \/ m_ns r <> m_ns m) -> tc_set (m_b2 r) = true).
Proof.
  intros Hk Hl Hr E. rewrite (udp_server_served _ _ _ x cfg _ Hr) in E.
  apply udp_serve_inv in E. destruct E as [(m0 & M & U)|(rc & M & _)]; [|discriminate]. inversion M; subst m0.
  split; [|split; [|split]].
  - rewrite <- (trunc_max_is_text _ _ Hk). apply (udp_size_bound_service true true eq (x_base x) cfg m r); auto.
  - exact (hint_handover true eq (x_base x) cfg m r Hk Hl U).
  - destruct (id_question_echoed _ _ _ (x_base x) cfg m r Hl U) as (_ & Q & _). exact Q.
  - rewrite udp_response_spec in U. inversion U; subst r; clear U.
    destruct (edns_post_same (is_some (x_client x)) m) as (_ & _ & _ & _ & A5 & A6).
    intros D. apply dropped_implies_tc; [apply edns_post_len; exact Hl|]. rewrite A5, A6. tauto.
Qed.

Definition ex_x (o : opt_state) : xreq := mkX 5 1 1 [mkQ [[97]] 1 1] o.
Definition ex_big : msg := mk_response (x_base (ex_x (OptOne 1232 0))) 129 0 100 15 0 11 None.

Example rejects_nonvacuous :
  exists r, udp_server (ex_x (OptOne 1232 1)) (Some 1232) SvcNone = Ok (Some r) /\
            m_b3 r = 0 /\ m_qs r = [mkQ [[97]] 1 1] /\ m_id r = 5.
Proof. eexists. split; [vm_compute; reflexivity|]. repeat split. Qed.

Example served_discipline_nonvacuous :
  reject_rcode (ex_x (OptOne 1232 0)) = None /\ mlen ex_big = 1519 /\
  exists r, udp_server (ex_x (OptOne 1232 0)) (Some 1232) (SvcOk ex_big) = Ok (Some r) /\
            tc_set (m_b2 r) = true /\ m_an r = [] /\ mlen r = 30.
Proof.
  split; [reflexivity|]. split; [vm_compute; reflexivity|].
  eexists. split; [vm_compute; reflexivity|]. repeat split.
Qed.

Example tcp_served_nonvacuous :
  reject_rcode_tcp (ex_x (OptOne 1232 0)) = None /\
  exists r, tcp_server (ex_x (OptOne 1232 0)) (Some 30000) (SvcOk ex_big) = Ok (Some r) /\
            m_an r = m_an ex_big /\ tc_set (m_b2 r) = false /\ mlen r = 1519 + 17.
Proof.
  split; [reflexivity|]. eexists. split; [vm_compute; reflexivity|].
  split; [vm_compute; reflexivity|]. split; [reflexivity|vm_compute; reflexivity].
Qed.

(* any datagram of octets that the model reads as a request (no records, no
   compression pointers), any service behaviour, any configured limit: whatever
   is sent back has the request's id, QR set, and at most 512 octets *)
Lemma dgram_end_to_end d cfg svc x r :
  wf_bytes d -> hint_ok cfg -> (forall m, svc = SvcOk m -> mlen m <= 65535) ->
  xreq_of_buffer (dgram_buffer_gen false d) = Some x -> udp_server_gen true true true x cfg svc = Ok (Some r) ->
  mlen r <= 512 /\ m_id r = x_id x /\ hdr_ok x r.
Proof.
  intros Hw Hk Hm Hx E.
  destruct (xreq_of_buffer_sound _ x Hx) as (_ & O & Q).
  assert (Hq : Forall wf_q (x_qs x)).
  { apply Q. unfold dgram_buffer_gen. rewrite <- (firstn_skipn (N.to_nat dgram_buf_len) d) in Hw.
    apply wf_bytes_app in Hw. tauto. }
  destruct (udp_server_hdr_id _ _ _ _ _ _ _ E) as (H & I). split; [|split; assumption].
  rewrite <- (firstn_skipn 1 (x_qs x)) in Hq. apply Forall_app in Hq.
  pose proof (udp_server_bound x cfg svc r Hk (proj1 Hq) Hm E) as B.
  unfold x_client in B. rewrite O in B. exact B.
Qed.

Example dgram_end_to_end_nonvacuous :
  exists x r, xreq_of_datagram [18; 52; 1; 0; 0; 1; 0; 0; 0; 0; 0; 0; 1; 97; 0; 0; 1; 0; 1] = Some x /\
    udp_server x (Some 1232) (SvcOk (mk_response (x_base x) 129 0 100 15 0 11 None)) = Ok (Some r) /\
    mlen r = 19 /\ tc_set (m_b2 r) = true /\ m_id r = 4660.
Proof. eexists. eexists. split; [vm_compute; reflexivity|]. split; [vm_compute; reflexivity|]. repeat split. Qed.

Definition tcp_req := (xreq * option N * svc_result)%type.
Definition tcp_answered (q : tcp_req) (r : msg) : Prop :=
  let '(x, idle, svc) := q in
  12 + qs_len (x_qs x) + 11 <= 65535 /\ (forall m, svc = SvcOk m -> mlen m <= 65535) /\
  tcp_server x idle svc = Ok (Some r).

(* the octets written for any sequence of requests of a connection split back into
   exactly the responses, one frame each, in order *)
Lemma tcp_responses_framed (qs : list tcp_req) (rs : list msg) : Forall2 tcp_answered qs rs ->
  Forall (fun r => frame_out (wire_msg r) = Ok (frame (wire_msg r))) rs /\
  split_frames (S (length rs)) (concat (map (fun r => frame (wire_msg r)) rs)) = (map wire_msg rs, []).
Proof.
  intros H.
  assert (L : Forall (fun m => len m <= 65535) (map wire_msg rs)).
  { induction H as [|[[x idle] svc] r qs' rs' (A & B & C) _ IH]; [constructor|].
    cbn [map]. constructor; [|exact IH]. exact (proj1 (tcp_server_framed _ _ _ x idle svc r A B C)). }
  destruct (framing_roundtrip _ L) as (F & S). rewrite map_map, map_length in S. split; [|exact S].
  rewrite Forall_map in F. exact F.
Qed.

Example tcp_responses_framed_nonvacuous :
  exists r, tcp_answered (ex_x (OptOne 1232 0), Some 30000, SvcOk ex_big) r.
Proof.
  eexists. unfold tcp_answered. split; [vm_compute; discriminate|]. split; [|vm_compute; reflexivity].
  intros m E. inversion E; subst. vm_compute. discriminate.
Qed.

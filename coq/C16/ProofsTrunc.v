(* C16 proofs, part 2: truncation (mandatory.rs truncate / postprocess), the UDP
   size bound, TC, the truncated form parses, id and question. *)
From Coq Require Import NArith Arith List Bool Lia.
From DV Require Import Base.Outcome Base.Bytes Base.Names C16.Gen C16.Model C16.ProofsNeg.
Import ListNotations.
Local Open Scope N_scope.

Definition qs_len (qs : list question) : N := len (concat (map wire_q qs)).
Definition opt_len (o : optrec) : N := len (wire_opt o).

Lemma opt_len_spec o : opt_len o = 11 + len (o_data o).
Proof. unfold opt_len, wire_opt, len. rewrite !app_length. cbn [length be16 be32]. lia. Qed.

Lemma mlen_spec m :
  mlen m = 12 + qs_len (m_qs m) + len (concat (m_an m)) + len (concat (m_ns m))
           + len (concat (map wire_rr (m_ar m))).
Proof. unfold mlen, wire_msg, qs_len. rewrite !len_app. change (len (wire_header m)) with 12. lia. Qed.

Lemma first_opt_len ar o : first_opt ar = Some o ->
  opt_len o <= len (concat (map wire_rr ar)).
Proof.
  induction ar as [|r t IH]; [discriminate|].
  cbn [first_opt map concat]. rewrite len_app. destruct r as [o'|w].
  - intros E; inversion E; subst. cbn [wire_rr]. unfold opt_len. lia.
  - intros E. specialize (IH E). lia.
Qed.

Lemma qs_len_cons q t : qs_len (q :: t) = len (wire_q q) + qs_len t.
Proof. apply len_app. Qed.

Lemma qs_len_one q : qs_len [q] = len (wire_q q).
Proof. unfold qs_len. cbn [map concat]. rewrite app_nil_r. reflexivity. Qed.

Lemma qs_len_app a b : qs_len (a ++ b) = qs_len a + qs_len b.
Proof. unfold qs_len. rewrite map_app, concat_app. apply len_app. Qed.

(* push_questions without its error exit: the longest prefix whose pushes all
   stay under the limit *)
Fixpoint kept (lim : option N) (pos : N) (qs : list question) : list question :=
  match qs with
  | [] => []
  | q :: t =>
      let n := pos + len (wire_q q) in
      if match lim with Some l => limit_hit l n | None => false end then []
      else q :: kept lim n t
  end.

Lemma push_questions_ok lim qs : forall pos, pos + qs_len qs <= 65535 ->
  push_questions lim pos qs = Ok (kept lim pos qs).
Proof.
  induction qs as [|q t IH]; intros pos H; [reflexivity|].
  rewrite qs_len_cons in H. cbn [push_questions kept]. cbv zeta.
  destruct (N.ltb_spec 65535 (pos + len (wire_q q))); [lia|].
  destruct (match lim with Some l => limit_hit l (pos + len (wire_q q)) | None => false end); [reflexivity|].
  rewrite IH by lia. reflexivity.
Qed.

Lemma kept_none pos qs : kept None pos qs = qs.
Proof. revert pos; induction qs as [|q t IH]; intros pos; [reflexivity|]. cbn [kept]. rewrite IH. reflexivity. Qed.

Lemma kept_prefix lim qs : forall pos, exists rest, qs = kept lim pos qs ++ rest.
Proof.
  induction qs as [|q t IH]; intros pos; [exists []; reflexivity|]. cbn [kept]. cbv zeta.
  destruct (match lim with Some l => limit_hit l _ | None => false end).
  - exists (q :: t). reflexivity.
  - destruct (IH (pos + len (wire_q q))) as (rest & E). exists rest. cbn [app]. rewrite <- E. reflexivity.
Qed.

Lemma kept_len lim pos qs : qs_len (kept lim pos qs) <= qs_len qs.
Proof. destruct (kept_prefix lim qs pos) as (rest & E). rewrite E at 2. rewrite qs_len_app. lia. Qed.

Lemma kept_forall (P : question -> Prop) lim pos qs : Forall P qs -> Forall P (kept lim pos qs).
Proof.
  intros H. destruct (kept_prefix lim qs pos) as (rest & E). rewrite E in H.
  apply Forall_app in H. tauto.
Qed.

Lemma kept_cnt lim pos qs : cnt (kept lim pos qs) <= cnt qs.
Proof.
  destruct (kept_prefix lim qs pos) as (rest & E). unfold cnt. rewrite E at 2. rewrite app_length. lia.
Qed.

(* the rebuild's push limit is max + 1, compared with [<=] *)
Lemma limit_hit_succ max n : limit_hit (max + 1) n = negb (n <=? max).
Proof.
  unfold limit_hit. cbv [push_limit_cmp_is_ge].
  destruct (N.leb_spec (max + 1) n), (N.leb_spec n max); try reflexivity; lia.
Qed.

Lemma kept_fits max qs : forall pos, pos <= max -> pos + qs_len (kept (Some (max + 1)) pos qs) <= max.
Proof.
  induction qs as [|q t IH]; intros pos H; cbn [kept]; [cbn; lia|].
  cbv zeta. rewrite limit_hit_succ.
  destruct (N.leb_spec (pos + len (wire_q q)) max); cbn [negb]; [|cbn; lia].
  rewrite qs_len_cons. specialize (IH (pos + len (wire_q q))). lia.
Qed.

Lemma kept_all max qs : forall pos, pos + qs_len qs <= max -> kept (Some (max + 1)) pos qs = qs.
Proof.
  induction qs as [|q t IH]; intros pos H; [reflexivity|]. rewrite qs_len_cons in H.
  cbn [kept]. cbv zeta. rewrite limit_hit_succ.
  destruct (N.leb_spec (pos + len (wire_q q)) max); [|lia]. cbn [negb]. rewrite IH by lia. reflexivity.
Qed.

Definition qlim (fq : bool) (max : N) : option N := if fq then Some (max + 1) else None.
Definition kept_qs (fq : bool) (max : N) (qs : list question) : list question := kept (qlim fq max) 12 qs.

Lemma kept_qs_unlimited max qs : kept_qs false max qs = qs.
Proof. apply kept_none. Qed.

Lemma kept_qs_all fq max qs : 12 + qs_len qs <= max -> kept_qs fq max qs = qs.
Proof. intros H. destruct fq; [apply kept_all; exact H|apply kept_none]. Qed.

Lemma kept_qs_fits max qs : 12 <= max -> 12 + qs_len (kept_qs true max qs) <= max.
Proof. apply kept_fits. Qed.

Lemma min_opt_len o : opt_len (min_opt o) = 11.
Proof. apply opt_len_spec. Qed.

Lemma opt_len_ge o : 11 <= opt_len o.
Proof. rewrite opt_len_spec. lia. Qed.

(* what is left of the additional section, three ways: the response's OPT when
   header + kept questions + OPT fit the limit, else the OPT without options
   when that fits, else nothing *)
Definition trunc_ar (max : N) (qs : list question) (ar : list rr) : list rr :=
  match first_opt ar with
  | None => []
  | Some o =>
      if 12 + qs_len qs + opt_len o <=? max then [RROpt o]
      else if 12 + qs_len qs + 11 <=? max then [RROpt (min_opt o)]
      else []
  end.

(* header (TC set), the questions that fit, the OPT as far as it fits *)
Definition trunc_form (fq : bool) (max : N) (m : msg) : msg :=
  mkMsg (m_id m) (set_tc (m_b2 m)) (m_b3 m) (kept_qs fq max (m_qs m)) [] []
        (trunc_ar max (kept_qs fq max (m_qs m)) (m_ar m)).

Lemma mlen_base id b2 b3 qs : mlen (mkMsg id b2 b3 qs [] [] []) = 12 + qs_len qs.
Proof. rewrite mlen_spec. cbn. lia. Qed.

Lemma mlen_with_opt id b2 b3 qs o :
  mlen (mkMsg id b2 b3 qs [] [] [RROpt o]) = 12 + qs_len qs + opt_len o.
Proof.
  rewrite mlen_spec. cbn [m_qs m_an m_ns m_ar map concat wire_rr]. rewrite app_nil_r.
  unfold opt_len. cbn. lia.
Qed.

Lemma trunc_ar_cases fq max m :
  let qs := kept_qs fq max (m_qs m) in
  (trunc_ar max qs (m_ar m) = [] /\ mlen (trunc_form fq max m) = 12 + qs_len qs) \/
  (exists o, first_opt (m_ar m) = Some o /\ trunc_ar max qs (m_ar m) = [RROpt o] /\
             mlen (trunc_form fq max m) = 12 + qs_len qs + opt_len o /\
             12 + qs_len qs + opt_len o <= max) \/
  (exists o, first_opt (m_ar m) = Some o /\ trunc_ar max qs (m_ar m) = [RROpt (min_opt o)] /\
             mlen (trunc_form fq max m) = 12 + qs_len qs + 11 /\
             max < 12 + qs_len qs + opt_len o /\ 12 + qs_len qs + 11 <= max).
Proof.
  cbv zeta. unfold trunc_form, trunc_ar. set (qs := kept_qs fq max (m_qs m)).
  destruct (first_opt (m_ar m)) as [o|] eqn:E.
  - destruct (N.leb_spec (12 + qs_len qs + opt_len o) max) as [A|A].
    + right; left. exists o. rewrite mlen_with_opt. auto.
    + destruct (N.leb_spec (12 + qs_len qs + 11) max) as [B|B].
      * right; right. exists o. rewrite mlen_with_opt, min_opt_len. auto.
      * left. rewrite mlen_base. auto.
  - left. rewrite mlen_base. auto.
Qed.

Lemma trunc_form_le fq max m : mlen (trunc_form fq max m) <= mlen m.
Proof.
  rewrite (mlen_spec m). pose proof (kept_len (qlim fq max) 12 (m_qs m)) as K. fold (kept_qs fq max (m_qs m)) in K.
  destruct (trunc_ar_cases fq max m) as [(_ & L)|[(o & E & _ & L & _)|(o & E & _ & L & _)]]; rewrite L;
    try (apply first_opt_len in E; pose proof (opt_len_ge o)); lia.
Qed.

Lemma trunc_form_fits fq max m : 12 + qs_len (kept_qs fq max (m_qs m)) <= max ->
  mlen (trunc_form fq max m) <= max.
Proof.
  intros H. destruct (trunc_ar_cases fq max m) as [(_ & L)|[(o & _ & _ & L & F)|(o & _ & _ & L & _ & F)]]; lia.
Qed.

(* rebuild never fails on a message that exists (at most 65535 octets) and
   yields the truncated form *)
Lemma rebuild_spec fq max m : mlen m <= 65535 ->
  rebuild fq (rebuild_limit max)
    (mkMsg (m_id m) (set_tc (m_b2 m)) (m_b3 m) (m_qs m) (m_an m) (m_ns m) (m_ar m))
  = Ok (trunc_form fq max m).
Proof.
  intros H. rewrite (mlen_spec m) in H.
  unfold rebuild, rebuild_limit. cbv [trunc_rebuild_has_push_limit trunc_rebuild_limit_slack].
  cbn [m_id m_b2 m_b3 m_qs m_ar].
  change (if fq then Some (max + 1) else None) with (qlim fq max).
  rewrite push_questions_ok by lia. cbn [bind]. fold (kept_qs fq max (m_qs m)).
  pose proof (kept_len (qlim fq max) 12 (m_qs m)) as K. fold (kept_qs fq max (m_qs m)) in K.
  unfold trunc_form, trunc_ar. set (qs := kept_qs fq max (m_qs m)) in *.
  destruct (first_opt (m_ar m)) as [o|] eqn:E; [|reflexivity].
  apply first_opt_len in E. pose proof (opt_len_ge o) as G. cbv zeta.
  unfold push_fails. rewrite !mlen_with_opt, min_opt_len, !limit_hit_succ.
  destruct (N.ltb_spec 65535 (12 + qs_len qs + opt_len o)); [lia|].
  destruct (N.ltb_spec 65535 (12 + qs_len qs + 11)); [lia|]. cbn [orb].
  destruct (_ <=? max); [reflexivity|]. destruct (_ <=? max); reflexivity.
Qed.

Lemma truncate_spec fx fq has_opt hint m : mlen m <= 65535 ->
  truncate_gen fx fq true has_opt hint m =
  Ok (if trunc_max_gen fx has_opt hint <? mlen m
      then trunc_form fq (trunc_max_gen fx has_opt hint) m else m).
Proof.
  intros H. unfold truncate_gen, over_limit. cbv [trunc_cmp_is_gt].
  destruct (N.ltb_spec (trunc_max_gen fx has_opt hint) (mlen m)); [|reflexivity].
  apply rebuild_spec; exact H.
Qed.

(* postprocess's header edits: the request's id, QR set, RD as in the request *)
Definition stamp (rq : request) (m : msg) : msg :=
  mkMsg (rq_id rq) (set_bit_to (N.setbit (m_b2 m) 7) 0 (N.testbit (rq_b2 rq) 0)) (m_b3 m)
        (m_qs m) (m_an m) (m_ns m) (m_ar m).

Lemma stamp_mlen rq m : mlen (stamp rq m) = mlen m.
Proof. rewrite !mlen_spec. reflexivity. Qed.

Lemma set_bit_to_spec a v k : N.testbit (set_bit_to a 0 v) k = if k =? 0 then v else N.testbit a k.
Proof.
  unfold set_bit_to. destruct (N.eqb_spec k 0) as [->|H], v;
    auto using N.setbit_eq, N.clearbit_eq, N.setbit_neq, N.clearbit_neq.
Qed.

Lemma stamp_tc rq m : tc_set (m_b2 (stamp rq m)) = tc_set (m_b2 m).
Proof. unfold tc_set. cbn [stamp m_b2]. rewrite set_bit_to_spec. apply N.setbit_neq. discriminate. Qed.

Lemma mandatory_post_tcp fx fq eq rq hint m : mandatory_post_gen fx fq eq false rq hint m = stamp rq m.
Proof. reflexivity. Qed.

Lemma mandatory_post_udp fx fq eq rq hint m : mlen m <= 65535 ->
  mandatory_post_gen fx fq eq true rq hint m =
  stamp rq (if trunc_max_gen fx (is_some (rq_client rq)) hint <? mlen m
            then trunc_form fq (trunc_max_gen fx (is_some (rq_client rq)) hint) m else m).
Proof. intros H. unfold mandatory_post_gen. rewrite truncate_spec by exact H. reflexivity. Qed.

Lemma post_fits fx fq eq rq hint m : mlen m <= trunc_max_gen fx (is_some (rq_client rq)) hint ->
  mandatory_post_gen fx fq eq true rq hint m = stamp rq m.
Proof.
  intros H. unfold mandatory_post_gen, truncate_gen, over_limit. cbv [trunc_cmp_is_gt].
  destruct (N.ltb_spec (trunc_max_gen fx (is_some (rq_client rq)) hint) (mlen m)); [lia|reflexivity].
Qed.

(* a response of at most 512 octets passes postprocess but for id / QR / RD *)
Lemma post_small fx fq eq rq h m : hint_ok h -> mlen m <= 512 ->
  mandatory_post_gen fx fq eq true rq h m = stamp rq m.
Proof.
  intros Hk Hm. apply post_fits. pose proof (trunc_max_ge fx (is_some (rq_client rq)) h Hk). lia.
Qed.

(* not truncated: within the limit, nothing changed but id / QR / RD.
   truncated: header + the questions that fit + what trunc_ar leaves of the OPT *)
Lemma udp_size_cases fx fq eq rq hint m : mlen m <= 65535 ->
  let max := trunc_max_gen fx (is_some (rq_client rq)) hint in
  let r := mandatory_post_gen fx fq eq true rq hint m in
  (mlen m <= max /\ mlen r = mlen m /\ tc_set (m_b2 r) = tc_set (m_b2 m) /\
   m_qs r = m_qs m /\ m_an r = m_an m /\ m_ns r = m_ns m /\ m_ar r = m_ar m) \/
  (max < mlen m /\ mlen r = mlen (trunc_form fq max m) /\ tc_set (m_b2 r) = true /\
   m_qs r = kept_qs fq max (m_qs m) /\ m_an r = [] /\ m_ns r = [] /\
   m_ar r = trunc_ar max (kept_qs fq max (m_qs m)) (m_ar m)).
Proof.
  intros H. cbv zeta. rewrite mandatory_post_udp by exact H. rewrite stamp_mlen, stamp_tc.
  destruct (N.ltb_spec (trunc_max_gen fx (is_some (rq_client rq)) hint) (mlen m)); [right|left];
    repeat split; try assumption.
  apply N.setbit_eq.
Qed.

(* the response fits the limit as soon as header + kept questions do: always with
   the limit-aware question loop, otherwise when header + questions fit *)
Lemma udp_size_bound_gen fx fq eq rq hint m : mlen m <= 65535 ->
  let max := trunc_max_gen fx (is_some (rq_client rq)) hint in
  (fq = true /\ 12 <= max) \/ 12 + qs_len (m_qs m) <= max ->
  mlen (mandatory_post_gen fx fq eq true rq hint m) <= max.
Proof.
  intros H. cbv zeta. intros C.
  destruct (udp_size_cases fx fq eq rq hint m H) as [(A & -> & _)|(_ & -> & _)]; [exact A|].
  apply trunc_form_fits. destruct C as [(-> & C)|C].
  - apply kept_qs_fits. exact C.
  - rewrite kept_qs_all by exact C. exact C.
Qed.

(* the question loop without the limit *)
Lemma udp_size_unlimited_questions fx eq rq hint m : mlen m <= 65535 ->
  let max := trunc_max_gen fx (is_some (rq_client rq)) hint in
  let r := mandatory_post_gen fx false eq true rq hint m in
  max < 12 + qs_len (m_qs m) ->
  mlen r = 12 + qs_len (m_qs m) /\ tc_set (m_b2 r) = true /\ m_an r = [] /\ m_ns r = [] /\ m_ar r = [].
Proof.
  intros H. cbv zeta. intros L.
  destruct (udp_size_cases fx false eq rq hint m H) as [(A & _)|(_ & B & T & _ & Han & Hns & Har)].
  - rewrite mlen_spec in A. lia.
  - pose proof (trunc_ar_cases false (trunc_max_gen fx (is_some (rq_client rq)) hint) m) as C. cbv zeta in C.
    rewrite kept_qs_unlimited in *.
    destruct C as [(E1 & E2)|[(o & _ & _ & _ & F)|(o & _ & _ & _ & _ & F)]]; [|lia|lia].
    rewrite B, Har, E1, E2. auto.
Qed.

Lemma tc_iff_gen fx fq eq rq hint m : mlen m <= 65535 ->
  tc_set (m_b2 (mandatory_post_gen fx fq eq true rq hint m)) = true <->
  (trunc_max_gen fx (is_some (rq_client rq)) hint < mlen m \/ tc_set (m_b2 m) = true).
Proof.
  intros H. destruct (udp_size_cases fx fq eq rq hint m H) as [(A & _ & T & _)|(A & _ & T & _)]; rewrite T.
  - split; [intros; right; assumption|intros [L|L]; [lia|assumption]].
  - split; [intros; left; assumption|reflexivity].
Qed.

Lemma dropped_implies_tc fx fq eq rq hint m : mlen m <= 65535 ->
  let r := mandatory_post_gen fx fq eq true rq hint m in
  (m_qs r <> m_qs m \/ m_an r <> m_an m \/ m_ns r <> m_ns m \/ m_ar r <> m_ar m) -> tc_set (m_b2 r) = true.
Proof.
  intros H. cbv zeta. intros D.
  destruct (udp_size_cases fx fq eq rq hint m H) as [(_ & _ & _ & A0 & A1 & A2 & A3)|(_ & _ & T & _)]; [|exact T].
  rewrite A0, A1, A2, A3 in D. tauto.
Qed.

Definition wf_q (q : question) : Prop :=
  valid_abs (q_name q) /\ q_type q < 65536 /\ q_class q < 65536.

Lemma wire_q_len q : wf_q q -> len (wire_q q) <= 259.
Proof.
  intros ((_ & Hl) & _ & _). unfold wire_q. rewrite !len_app. unfold len at 1.
  rewrite wire_abs_length. cbn. lia.
Qed.

Lemma edns_post_same b m :
  m_id (edns_post b m) = m_id m /\ m_b2 (edns_post b m) = m_b2 m /\ m_b3 (edns_post b m) = m_b3 m /\
  m_qs (edns_post b m) = m_qs m /\ m_an (edns_post b m) = m_an m /\ m_ns (edns_post b m) = m_ns m.
Proof.
  unfold edns_post. destruct b; cbn [negb]; [|repeat split; reflexivity].
  destruct (first_opt (m_ar m)); [repeat split; reflexivity|].
  destruct (65535 <? mlen m + 11); repeat split; reflexivity.
Qed.

Lemma filter_len ar : len (concat (map wire_rr (filter (fun r => negb (is_opt r)) ar)))
                      <= len (concat (map wire_rr ar)).
Proof.
  induction ar as [|r t IH]; [cbn; lia|]. cbn [filter].
  destruct (negb (is_opt r)); cbn [map concat]; rewrite ?len_app; lia.
Qed.

Lemma mlen_with_ar m ar :
  mlen (with_ar m ar) + len (concat (map wire_rr (m_ar m))) = mlen m + len (concat (map wire_rr ar)).
Proof. rewrite !mlen_spec. unfold with_ar. cbn [m_qs m_an m_ns m_ar]. lia. Qed.

Lemma mlen_empty_opt m : mlen (with_ar m (m_ar m ++ [RROpt empty_opt])) = mlen m + 11.
Proof.
  pose proof (mlen_with_ar m (m_ar m ++ [RROpt empty_opt])) as E.
  rewrite map_app, concat_app, len_app in E. cbn [map concat wire_rr] in E. rewrite app_nil_r in E.
  change (len (wire_opt empty_opt)) with 11 in E. lia.
Qed.

Lemma strip_opt_len m : mlen (strip_opt m) <= mlen m.
Proof.
  pose proof (mlen_with_ar m (filter (fun r => negb (is_opt r)) (m_ar m))). pose proof (filter_len (m_ar m)).
  unfold strip_opt, with_ar in *. lia.
Qed.

Lemma edns_post_mlen b m :
  mlen (edns_post b m) <= mlen m \/
  (first_opt (m_ar m) = None /\ mlen (edns_post b m) = mlen m + 11 /\ mlen m + 11 <= 65535).
Proof.
  unfold edns_post. destruct b; cbn [negb]; [|left; apply strip_opt_len].
  destruct (first_opt (m_ar m)); [left; lia|].
  destruct (N.ltb_spec 65535 (mlen m + 11)); [left; lia|right; split; [reflexivity|]].
  pose proof (mlen_empty_opt m) as E. unfold with_ar in E. lia.
Qed.

Lemma edns_post_le_opt b m o : first_opt (m_ar m) = Some o -> mlen (edns_post b m) <= mlen m.
Proof. intros E. destruct (edns_post_mlen b m) as [L|(E' & _)]; [exact L|congruence]. Qed.

Lemma edns_post_len b m : mlen m <= 65535 -> mlen (edns_post b m) <= 65535.
Proof. destruct (edns_post_mlen b m) as [L|(_ & L)]; lia. Qed.

(* the hint Mandatory reads is the negotiated one: the request clones share the cell
   ([hint_shared_between_clones], read by T1) *)
Lemma udp_response_spec fx fq eq rq cfg m :
  udp_response_gen fx fq eq rq cfg m =
  Ok (mandatory_post_gen fx fq eq true rq (edns_hint (rq_client rq) cfg) (edns_post (is_some (rq_client rq)) m)).
Proof. unfold udp_response_gen. rewrite hint_after_edns_spec. reflexivity. Qed.

(* the service path: the datagram never exceeds the negotiated limit when the
   response carries one well-formed question - or, with the limit-aware question
   loop, whatever it carries *)
Lemma udp_size_bound_service fx fq eq rq cfg m r :
  (fq = true \/ exists q, m_qs m = [q] /\ wf_q q) -> hint_ok cfg -> mlen m <= 65535 ->
  udp_response_gen fx fq eq rq cfg m = Ok r ->
  mlen r <= trunc_max_gen fx (is_some (rq_client rq)) (edns_hint (rq_client rq) cfg).
Proof.
  intros Hq Hk Hl. rewrite udp_response_spec. intros R; inversion R; subst r; clear R.
  pose proof (trunc_max_ge fx (is_some (rq_client rq)) _ (edns_hint_ok (rq_client rq) _ Hk)) as G.
  apply udp_size_bound_gen; [apply edns_post_len; exact Hl|].
  destruct Hq as [->|(q & Hq & Hwf)]; [left; split; [reflexivity|lia]|right].
  destruct (edns_post_same (is_some (rq_client rq)) m) as (_ & _ & _ & -> & _). rewrite Hq, qs_len_one.
  pose proof (wire_q_len q Hwf). lia.
Qed.

Lemma udp_size_bound_one_question fq eq rq cfg m r q :
  m_qs m = [q] -> wf_q q -> hint_ok cfg -> mlen m <= 65535 ->
  udp_response_gen true fq eq rq cfg m = Ok r -> mlen r <= text_limit (rq_client rq) cfg.
Proof.
  intros Hq Hw Hk Hl E. rewrite <- (trunc_max_is_text _ _ Hk).
  apply (udp_size_bound_service true fq eq rq cfg m r); eauto.
Qed.

(* the hand-over: the response leaves truncated (TC) exactly when, after the EDNS
   fix-ups, it is longer than the property text's limit - the size negotiated by
   EdnsMiddlewareSvc is the one MandatoryMiddlewareSvc truncates to *)
Lemma hint_handover fq eq rq cfg m r : hint_ok cfg -> mlen m <= 65535 ->
  udp_response_gen true fq eq rq cfg m = Ok r ->
  tc_set (m_b2 r) = true <->
  (text_limit (rq_client rq) cfg < mlen (edns_post (is_some (rq_client rq)) m) \/ tc_set (m_b2 m) = true).
Proof.
  intros Hk Hl. rewrite udp_response_spec. intros R; inversion R; subst r; clear R.
  rewrite tc_iff_gen by (apply edns_post_len; exact Hl). rewrite (trunc_max_is_text _ _ Hk).
  destruct (edns_post_same (is_some (rq_client rq)) m) as (_ & -> & _). reflexivity.
Qed.

(* the fallback is live: a response with 604 octets of OPT options against a
   limit of 512 keeps an OPT without options *)
Definition big_opt_request : request := mk_request 4352 0 [3] 1 (Some 512).
Definition big_opt_response : msg := mk_response big_opt_request 128 0 2 100 0 11 (Some (1232, 604)).

Example big_opt_now_minimal :
  exists r, udp_response big_opt_request (Some 1232) big_opt_response = Ok r /\
    mlen r = 32 /\ tc_set (m_b2 r) = true /\ m_ar r = [RROpt (mkOpt 1232 0 [])].
Proof. eexists. split; [vm_compute; reflexivity|]. repeat split. Qed.

Example udp_response_ex :
  exists r, udp_response (mk_request 9 1 [7; 4] 16 (Some 4096)) (Some 1232)
              (mk_response (mk_request 9 1 [7; 4] 16 (Some 4096)) 133 0 1 1192 0 11 (Some (1232, 0))) = Ok r
            /\ mlen r = 41 /\ tc_set (m_b2 r) = true.
Proof. eexists. split; [vm_compute; reflexivity|]. split; reflexivity. Qed.

(* the id is the request's; the questions are the response's, all of them when
   header + questions fit the limit, else a prefix *)
Lemma id_question_echoed fx fq eq rq cfg m r : mlen m <= 65535 ->
  udp_response_gen fx fq eq rq cfg m = Ok r ->
  m_id r = rq_id rq /\ (exists rest, m_qs m = m_qs r ++ rest) /\
  (forall q, hint_ok cfg -> m_qs m = [q] -> wf_q q -> m_qs r = [q]).
Proof.
  intros H. rewrite udp_response_spec. intros R; inversion R; subst r; clear R.
  set (m' := edns_post (is_some (rq_client rq)) m). set (h := edns_hint (rq_client rq) cfg).
  assert (Q : m_qs m' = m_qs m) by apply edns_post_same.
  split; [reflexivity|].
  destruct (udp_size_cases fx fq eq rq h m' (edns_post_len _ m H)) as [(_ & _ & _ & B & _)|(_ & _ & _ & B & _)];
    rewrite B, Q.
  - split; [exists []; apply app_nil_end|]. intros q _ -> _. reflexivity.
  - split; [apply kept_prefix|]. intros q Hk -> Hw. apply kept_qs_all. rewrite qs_len_one.
    pose proof (wire_q_len q Hw). pose proof (trunc_max_ge fx (is_some (rq_client rq)) h (edns_hint_ok _ _ Hk)).
    lia.
Qed.

Lemma questions_unlimited_echoed fx eq rq cfg m r : mlen m <= 65535 ->
  udp_response_gen fx false eq rq cfg m = Ok r -> m_qs r = m_qs m.
Proof.
  intros H. rewrite udp_response_spec. intros R; inversion R; subst r; clear R.
  rewrite mandatory_post_udp by (apply edns_post_len; exact H). cbn [stamp m_qs].
  destruct (_ <? _); cbn [trunc_form m_qs]; rewrite ?kept_qs_unlimited; apply edns_post_same.
Qed.

Lemma udp_response_total fx fq eq rq cfg m : exists r, udp_response_gen fx fq eq rq cfg m = Ok r.
Proof. rewrite udp_response_spec. eexists; reflexivity. Qed.

Definition wf_opt (o : optrec) : Prop :=
  o_size o < 65536 /\ o_ttl o < 4294967296 /\ len (o_data o) < 65536.

Definition wf_min (m : msg) : Prop :=
  m_id m < 65536 /\ Forall wf_q (m_qs m) /\ cnt (m_qs m) < 65536 /\
  m_an m = [] /\ m_ns m = [] /\
  (m_ar m = [] \/ exists o, m_ar m = [RROpt o] /\ wf_opt o).

Lemma parse_questions_wire qs rest : Forall wf_q qs ->
  parse_questions (length qs) (concat (map wire_q qs) ++ rest) = Some (qs, rest).
Proof.
  induction qs as [|q t IH]; intros Hf; [reflexivity|].
  inversion Hf as [|? ? (Hv & Ht & Hc) Hf']; subst.
  cbn [length parse_questions map concat]. unfold wire_q at 1.
  rewrite <- !app_assoc. rewrite decode_wire_abs by exact Hv.
  cbn [be16 app]. rewrite (IH Hf'). rewrite !be16_roundtrip by assumption.
  destruct q; reflexivity.
Qed.

Lemma parse_opt_wire o : wf_opt o -> parse_opt (wire_opt o) = Some (o, []).
Proof.
  intros (Hs & Ht & Hd). unfold wire_opt. cbn [be16 be32 app parse_opt].
  change (of_be16 (41 / 256) (41 mod 256) =? 41) with true. cbv iota.
  rewrite be16_roundtrip by exact Hd. unfold len. rewrite Nat2N.id.
  rewrite Nat.ltb_irrefl. rewrite firstn_all, skipn_all.
  rewrite be16_roundtrip by exact Hs. rewrite be32_roundtrip by exact Ht.
  destruct o; reflexivity.
Qed.

Lemma parse_min_wire m : wf_min m -> parse_min (wire_msg m) = Some m.
Proof.
  intros (Hid & Hq & Hc & Han & Hns & Har).
  destruct m as [id b2 b3 qs an ns ar]. cbn [m_id m_qs m_an m_ns m_ar] in *. subst an ns.
  unfold wire_msg, wire_header. cbn [m_id m_b2 m_b3 m_qs m_an m_ns m_ar concat].
  cbn [be16 app]. unfold parse_min. cbn [parse_header].
  rewrite (be16_roundtrip id Hid).
  change (cnt (@nil bytes)) with 0. change (of_be16 (0 / 256) (0 mod 256)) with 0.
  rewrite (be16_roundtrip (cnt qs) Hc).
  cbn [N.eqb andb]. unfold cnt at 1. rewrite Nat2N.id.
  destruct Har as [-> | (o & -> & Ho)].
  - cbn [map concat]. rewrite (parse_questions_wire qs [] Hq). reflexivity.
  - cbn [map concat wire_rr]. rewrite app_nil_r. rewrite (parse_questions_wire qs _ Hq).
    change (of_be16 (cnt [RROpt o] / 256) (cnt [RROpt o] mod 256)) with 1.
    cbn [N.eqb Pos.eqb]. rewrite (parse_opt_wire o Ho). reflexivity.
Qed.

Definition wf_resp (m : msg) : Prop :=
  Forall wf_q (m_qs m) /\ cnt (m_qs m) < 65536 /\
  (forall o, first_opt (m_ar m) = Some o -> wf_opt o).

Lemma min_opt_wf o : wf_opt o -> wf_opt (min_opt o).
Proof.
  intros (A & B & _). split; [exact A|]. split; [|reflexivity]. cbn [min_opt o_ttl].
  rewrite N.mul_comm. eapply N.le_lt_trans; [apply N.mul_div_le; discriminate|exact B].
Qed.

(* TC set by truncation: the datagram is header + questions (+ OPT, possibly
   without its options) and parses back *)
Lemma truncated_wellformed_gen fx fq eq rq hint m : mlen m <= 65535 -> rq_id rq < 65536 -> wf_resp m ->
  let max := trunc_max_gen fx (is_some (rq_client rq)) hint in
  max < mlen m ->
  let r := mandatory_post_gen fx fq eq true rq hint m in
  tc_set (m_b2 r) = true /\ m_an r = [] /\ m_ns r = [] /\
  m_qs r = kept_qs fq max (m_qs m) /\ m_ar r = trunc_ar max (m_qs r) (m_ar m) /\
  parse_min (wire_msg r) = Some r.
Proof.
  intros H Hid (Hq & Hc & Ho). cbv zeta. intros L.
  destruct (udp_size_cases fx fq eq rq hint m H) as [(A & _)|(_ & _ & T & Hqs & Han & Hns & Har)]; [lia|].
  repeat split; try assumption; [rewrite Hqs; exact Har|].
  apply parse_min_wire.
  unfold wf_min. rewrite Hqs, Han, Hns, Har. repeat split; try assumption.
  - apply kept_forall. exact Hq.
  - pose proof (kept_cnt (qlim fq (trunc_max_gen fx (is_some (rq_client rq)) hint)) 12 (m_qs m)) as K.
    unfold kept_qs. lia.
  - pose proof (trunc_ar_cases fq (trunc_max_gen fx (is_some (rq_client rq)) hint) m) as C. cbv zeta in C.
    destruct C as [(E & _)|[(o & F & E & _)|(o & F & E & _)]]; rewrite E; [left; reflexivity|right..].
    + exists o. split; [reflexivity|]. exact (Ho o F).
    + exists (min_opt o). split; [reflexivity|]. exact (min_opt_wf o (Ho o F)).
Qed.

Example parse_min_ex :
  parse_min (wire_msg (mkMsg 9 131 0 [mkQ [[97; 98]] 16 1] [] [] [RROpt (mkOpt 1232 0 [1; 2])]))
  = Some (mkMsg 9 131 0 [mkQ [[97; 98]] 16 1] [] [] [RROpt (mkOpt 1232 0 [1; 2])]).
Proof. reflexivity. Qed.
Example parse_min_rejects_answer :
  parse_min (wire_msg (mkMsg 9 131 0 [mkQ [[97]] 1 1] [[0; 0; 1; 0; 1; 0; 0; 0; 0; 0; 0]] [] [])) = None.
Proof. reflexivity. Qed.

(* C20 -- basic lemmas: keys, the store, TTL minima, validity bounds, ageing. *)
From Coq Require Import NArith List Bool Lia ZifyN ZifyBool.
From DV Require Import Base.Outcome C20.Gen C20.Model.
Import ListNotations.
Local Open Scope N_scope.

(* what T1 says about the code: a change there breaks these *)
Lemma gen_rd_fix : rd_fix_sets = false. Proof. reflexivity. Qed.
Lemma gen_ad_fix : ad_fix_sets = false. Proof. reflexivity. Qed.
Lemma gen_alt_rd : alt_rd = true. Proof. reflexivity. Qed.
Lemma gen_alt_ad : addo_of_code alt_ad = AdDo_Ad. Proof. reflexivity. Qed.
Lemma gen_alt_do : addo_of_code alt_do = AdDo_Do. Proof. reflexivity. Qed.
Lemma gen_skip_zero : insert_skips_zero = true. Proof. reflexivity. Qed.
Lemma gen_cap_failure : forall c, cfg_field c cap_failure = c_tf c. Proof. reflexivity. Qed.
Lemma gen_cap_base : forall c, cfg_field c cap_base = c_maxv c. Proof. reflexivity. Qed.
Lemma gen_cap_nodata : forall c, cfg_field c cap_nodata = c_nodata c. Proof. reflexivity. Qed.
Lemma gen_cap_deleg : forall c, cfg_field c cap_deleg = c_deleg c. Proof. reflexivity. Qed.
Lemma gen_cap_nx : forall c, cfg_field c cap_nx = c_nx c. Proof. reflexivity. Qed.
Lemma gen_cap_misc : forall c, cfg_field c cap_misc = c_misc c. Proof. reflexivity. Qed.
Lemma gen_cast_bits : secs_cast_bits = 32. Proof. reflexivity. Qed.
Lemma gen_soa_ns_not_dnssec : is_dnssec rtype_soa = false /\ is_dnssec rtype_ns = false /\ is_dnssec rtype_opt = false.
Proof. repeat split; reflexivity. Qed.
Lemma gen_maxv_fits : maxv_max < 2 ^ 32. Proof. reflexivity. Qed.
Lemma gen_tf_fits : tf_max < 2 ^ 32. Proof. reflexivity. Qed.
(* the class is decided by the extended rcode (T1: validity matches on msg.opt_rcode()) *)
Lemma gen_uses_opt_rcode : validity_uses_opt_rcode = true. Proof. reflexivity. Qed.
Lemma gen_opt_shift : opt_rcode_shift = 4. Proof. reflexivity. Qed.

(* the structural anchors (a pattern that stops matching is a T1 failure; a
   changed count or mapping breaks this lemma) and the default capacity the
   harness relies on for "no eviction in T2" *)
Lemma gen_structure :
  strip_sections = 3 /\ ttl_min_sections = 3 /\ ttl_sub_checked = true /\
  strip_parses_all_records = true /\ decrement_parses_all_records = true /\
  lookup_error_fails_request = true /\ parse_error_is_message_parse_error = true /\
  100 <= entries_def /\ cache_truncated_def = false /\ class_in = 1 /\ rtype_opt = 41.
Proof. repeat split; try reflexivity. vm_compute; discriminate. Qed.

(* [returns o P]: the operation neither fails nor panics, and its result satisfies P *)
Definition returns {A} (o : outcome A) (P : A -> Prop) : Prop :=
  match o with Ok a => P a | _ => False end.

Lemma returns_bind {A B} (x : outcome A) (f : A -> outcome B) (P : A -> Prop) (Q : B -> Prop) :
  returns x P -> (forall a, P a -> returns (f a) Q) -> returns (bind x f) Q.
Proof. destruct x; cbn; auto. Qed.

Lemma returns_ex {A} (o : outcome A) P : returns o P -> exists a, o = Ok a /\ P a.
Proof. destruct o; cbn; [eauto|contradiction..]. Qed.

Lemma returns_ok {A} (o : outcome A) P a : returns o P -> o = Ok a -> P a.
Proof. intros H ->. exact H. Qed.

Definition cfg_ok (c : config) : Prop :=
  maxv_min <= c_maxv c <= maxv_max /\ tf_min <= c_tf c <= tf_max /\
  misc_min <= c_misc c <= misc_max /\ nx_min <= c_nx c <= nx_max /\
  nodata_min <= c_nodata c <= nodata_max /\ deleg_min <= c_deleg c <= deleg_max.

Lemma limit_range lo hi v : lo <= hi -> lo <= limit lo hi v <= hi.
Proof. unfold limit. lia. Qed.

Lemma config_of_ok a b c d e f t : cfg_ok (config_of a b c d e f t).
Proof.
  unfold cfg_ok, config_of; cbn [c_maxv c_tf c_misc c_nx c_nodata c_deleg].
  repeat split; apply limit_range; vm_compute; discriminate.
Qed.

(* every setter is the identity on its default *)
Lemma config_default_ok : cfg_ok config_default.
Proof. exact (config_of_ok maxv_def tf_def misc_def nx_def nodata_def deleg_def cache_truncated_def). Qed.

Lemma addo_eqb_eq a b : addo_eqb a b = true <-> a = b.
Proof. destruct a, b; simpl; intuition congruence. Qed.

Lemma key_eqb_eq a b : key_eqb a b = true <-> a = b.
Proof.
  destruct a as [n1 c1 t1 a1 d1 r1], b as [n2 c2 t2 a2 d2 r2]; unfold key_eqb;
    cbn [k_name k_class k_type k_addo k_cd k_rd].
  rewrite !andb_true_iff, !N.eqb_eq, addo_eqb_eq, !Bool.eqb_true_iff.
  split.
  - intros [[[[[-> ->] ->] ->] ->] ->]; reflexivity.
  - intros H; injection H; intros; subst; auto 10.
Qed.

Lemma cget_In k c v : cget k c = Some v -> In (k, v) c.
Proof.
  induction c as [|[k' v'] t IH]; cbn [cget]; [discriminate|].
  destruct (key_eqb k' k) eqn:E.
  - intros [= ->]. apply key_eqb_eq in E; subst. now left.
  - intros H; right; auto.
Qed.

Lemma cinsert_In k v c e : In e (cinsert k v c) -> e = (k, v) \/ In e c.
Proof.
  unfold cinsert; intros [<-|H]; [now left|].
  apply filter_In in H; tauto.
Qed.

Lemma evict_In n c e : In e (evict_nth n c) -> In e c.
Proof.
  revert n; induction c as [|a t IH]; intros n; [destruct n; simpl; tauto|].
  destruct n; cbn [evict_nth]; [now right|].
  intros [<-|H]; [now left|right; eauto].
Qed.

(* [ttl_min] and [ttl_min_opt] are folds of this shape, over the records that
   [p] selects; [ttl_min] selects all *)
Lemma fold_min_le (p : rr -> bool) l : forall acc,
  fold_left (fun a r => if p r then N.min a (r_ttl r) else a) l acc <= acc /\
  forall r, In r l -> p r = true ->
    fold_left (fun a r => if p r then N.min a (r_ttl r) else a) l acc <= r_ttl r.
Proof.
  induction l as [|x t IH]; intros acc; cbn [fold_left]; [split; [lia|intros r []]|].
  destruct (IH (if p x then N.min acc (r_ttl x) else acc)) as [La Li]. split.
  - destruct (p x); lia.
  - intros r [->|H] Hp; [rewrite Hp in La; lia|exact (Li r H Hp)].
Qed.

Lemma ttl_min_le acc l : ttl_min acc l <= acc /\ forall r, In r l -> ttl_min acc l <= r_ttl r.
Proof.
  destruct (fold_min_le (fun _ => true) l acc) as [La Li].
  split; [exact La|intros r H; exact (Li r H eq_refl)].
Qed.

Lemma ttl_min_opt_le acc l : ttl_min_opt acc l <= acc /\
  forall r, In r l -> (r_type r =? rtype_opt) = false -> ttl_min_opt acc l <= r_ttl r.
Proof.
  destruct (fold_min_le (fun r => negb (r_type r =? rtype_opt)) l acc) as [La Li].
  split; [exact La|intros r H E; apply (Li r H); rewrite E; reflexivity].
Qed.

(* every non-OPT record of a message *)
Definition counted (m : msg) (r : rr) : Prop :=
  In r (m_an m) \/ In r (m_ns m) \/ (In r (m_ar m) /\ (r_type r =? rtype_opt) = false).

Lemma class_rcode_is_opt m : class_rcode m = opt_rcode m.
Proof. unfold class_rcode. rewrite gen_uses_opt_rcode. reflexivity. Qed.

Lemma class_cap_spec cfg m cap : class_cap cfg m = Ok cap ->
  cap <= c_maxv cfg /\
  (opt_rcode m = 3 -> cap <= c_nx cfg) /\
  (opt_rcode m <> 0 -> opt_rcode m <> 3 -> cap <= c_misc cfg) /\
  (opt_rcode m = 0 -> classify_no_error m = Ok NoData -> cap <= c_nodata cfg) /\
  (opt_rcode m = 0 -> classify_no_error m = Ok Delegation -> cap <= c_deleg cfg) /\
  (opt_rcode m = 0 -> classify_no_error m = Ok Weird -> cap = 0).
Proof.
  unfold class_cap.
  rewrite gen_cap_base, gen_cap_nodata, gen_cap_deleg, gen_cap_nx, gen_cap_misc, class_rcode_is_opt.
  destruct (opt_rcode m) as [|p].
  - destruct (classify_no_error m) as [cl| | |]; cbn [bind]; try discriminate.
    intros [= <-]. split; [destruct cl; lia|].
    repeat split; try discriminate; try congruence; intros _ [= ->]; lia.
  - destruct p as [[]|[]|]; intros [= <-]; repeat split; try discriminate; try congruence; intros; lia.
Qed.

(* A validity is zero (the answer is not stored) for a truncated answer unless
   cache_truncated and for a weird NOERROR answer; otherwise it is at most the
   cap of the class of the message and at most every TTL that counts. *)
Lemma validity_by_class cfg m v : validity cfg (RMsg m) = Ok v ->
  v <= c_maxv cfg /\
  (opt_rcode m = 3 -> v <= c_nx cfg) /\
  (opt_rcode m <> 0 -> opt_rcode m <> 3 -> v <= c_misc cfg) /\
  (opt_rcode m = 0 -> classify_no_error m = Ok NoData -> v <= c_nodata cfg) /\
  (opt_rcode m = 0 -> classify_no_error m = Ok Delegation -> v <= c_deleg cfg) /\
  (opt_rcode m = 0 -> classify_no_error m = Ok Weird -> v = 0) /\
  (m_tc m = true -> c_trunc cfg = false -> v = 0) /\
  (m_broken m = true -> v = 0) /\
  (forall y, counted m y -> v <= r_ttl y).
Proof.
  unfold validity. destruct (m_tc m && negb (c_trunc cfg)) eqn:T.
  - intros [= <-]. repeat split; intros; lia.
  - destruct (m_broken m); [discriminate|].
    destruct (class_cap cfg m) as [cap| | |] eqn:C; cbn [bind]; try discriminate.
    intros [= <-].
    destruct (ttl_min_le cap (m_an m)) as [L1 I1].
    destruct (ttl_min_le (ttl_min cap (m_an m)) (m_ns m)) as [L2 I2].
    destruct (ttl_min_opt_le (ttl_min (ttl_min cap (m_an m)) (m_ns m)) (m_ar m)) as [L3 I3].
    destruct (class_cap_spec _ _ _ C) as (H1 & H2 & H3 & H4 & H5 & H6).
    repeat split; try (intros; lia); try discriminate.
    intros y [H|[H|[H Ho]]]; [specialize (I1 _ H)|specialize (I2 _ H)|specialize (I3 _ H Ho)]; lia.
Qed.

Definition age (a : N) (r : rr) : rr := mkRR (r_type r) (r_class r) (r_ttl r - a) (r_id r) false.
Definition age_opt (a : N) (r : rr) : rr := if negb (r_type r =? rtype_opt) then age a r else r.

(* what ageing a section by [f], where the records that satisfy [ok] have TTL
   enough, does: the first record in the way decides between the parse error
   and the underflow panic *)
Definition dec_post (ok : rr -> Prop) (f : rr -> rr) (l : list rr) (o : outcome (list rr)) : Prop :=
  match o with
  | Ok l' => l' = map f l /\ Forall ok l /\ existsb r_bad l = false
  | Err e => e = parse_error /\ existsb r_bad l = true
  | Panic _ => ~ Forall ok l
  | OutOfFuel => False
  end.

Lemma dec_post_cons (ok : rr -> Prop) f r r' t o :
  r_bad r = false -> ok r -> r' = f r -> dec_post ok f t o ->
  dec_post ok f (r :: t) (do t' <- o; Ok (r' :: t')).
Proof.
  intros B Hr ->. destruct o as [t'|e|s|]; cbn [bind dec_post existsb map]; rewrite ?B; cbn [orb]; auto.
  - intros (-> & F & E). auto.
  - intros H F. apply H. inversion F; assumption.
Qed.

Lemma dec_list_spec a l : dec_post (fun r => a <= r_ttl r) (age a) l (dec_list a l).
Proof.
  induction l as [|r t IH]; cbn [dec_list]; [repeat split; constructor|].
  unfold dec_rr. destruct (r_bad r) eqn:B; cbn [bind]; [split; [reflexivity|cbn [existsb]; rewrite B; reflexivity]|].
  destruct (N.ltb_spec (r_ttl r) a) as [Hlt|Hge]; cbn [bind]; [intros F; inversion F; lia|].
  apply dec_post_cons; [exact B|exact Hge|reflexivity|exact IH].
Qed.

Definition opt_ok (a : N) (r : rr) : Prop := (r_type r =? rtype_opt) = false -> a <= r_ttl r.

Lemma dec_list_opt_spec a l : dec_post (opt_ok a) (age_opt a) l (dec_list_opt a l).
Proof.
  induction l as [|r t IH]; cbn [dec_list_opt]; [repeat split; constructor|].
  unfold dec_rr. destruct (r_type r =? rtype_opt) eqn:E; cbn [negb];
    (destruct (r_bad r) eqn:B; cbn [bind]; [split; [reflexivity|cbn [existsb]; rewrite B; reflexivity]|]).
  - apply dec_post_cons; [exact B|intros H; congruence|unfold age_opt; rewrite E; reflexivity|exact IH].
  - destruct (N.ltb_spec (r_ttl r) a) as [Hlt|Hge]; cbn [bind].
    + intros F. inversion F as [|? ? Hr]; subst. specialize (Hr E). lia.
    + apply dec_post_cons; [exact B|intros _; exact Hge|unfold age_opt; rewrite E; reflexivity|exact IH].
Qed.

Definition aged_msg (a qc : N) (m : msg) : msg :=
  mkMsg (m_id m) (m_rcode m) (m_aa m) (m_tc m) (m_rd m) (m_ad m) (m_q m) (restore_case m qc)
        (map (age a) (m_an m)) (map (age a) (m_ns m)) (map (age_opt a) (m_ar m)) (m_broken m).
Definition aged (a qc : N) (r : resp) : resp :=
  match r with RMsg m => RMsg (aged_msg a qc m) | RErr e => RErr e end.

Definition resp_has_bad (r : resp) : bool := match r with RMsg m => has_bad m | RErr _ => false end.

(* with the TTL bound, ageing either succeeds or hits an unparsable record *)
Lemma dec_post_eq ok f l o : dec_post ok f l o -> Forall ok l ->
  o = if existsb r_bad l then Err parse_error else Ok (map f l).
Proof.
  destruct o; cbn [dec_post]; [intros (-> & _ & ->) _|intros (-> & ->) _|intros H F; destruct (H F)|intros []];
    reflexivity.
Qed.

Lemma decrement_eq r a qc :
  (forall m, r = RMsg m -> forall x, counted m x -> a <= r_ttl x) ->
  decrement_ttl r a qc = if resp_has_bad r then Err parse_error else Ok (aged a qc r).
Proof.
  destruct r as [m|e]; cbn [decrement_ttl aged resp_has_bad]; [|reflexivity].
  intros H. specialize (H m eq_refl). unfold has_bad.
  rewrite (dec_post_eq _ _ _ _ (dec_list_spec a (m_an m))), (dec_post_eq _ _ _ _ (dec_list_spec a (m_ns m))),
    (dec_post_eq _ _ _ _ (dec_list_opt_spec a (m_ar m))).
  - destruct (existsb r_bad (m_an m)), (existsb r_bad (m_ns m)), (existsb r_bad (m_ar m)); reflexivity.
  - apply Forall_forall. intros x Hx Ho. apply H. right; right. tauto.
  - apply Forall_forall. intros x Hx. apply H. right; left. exact Hx.
  - apply Forall_forall. intros x Hx. apply H. left. exact Hx.
Qed.

(* conversely, a response that has been aged had the bound and no unparsable record *)
Lemma decrement_ok r a qc r' : decrement_ttl r a qc = Ok r' ->
  r' = aged a qc r /\ resp_has_bad r = false /\
  (forall m, r = RMsg m -> forall x, counted m x -> a <= r_ttl x).
Proof.
  destruct r as [m|e]; cbn [decrement_ttl aged resp_has_bad]; [|intros [= <-]; repeat split; discriminate].
  pose proof (dec_list_spec a (m_an m)) as S1. pose proof (dec_list_spec a (m_ns m)) as S2.
  pose proof (dec_list_opt_spec a (m_ar m)) as S3.
  destruct (dec_list a (m_an m)) as [an| | |]; cbn [bind]; try discriminate.
  destruct (dec_list a (m_ns m)) as [ns| | |]; cbn [bind]; try discriminate.
  destruct (dec_list_opt a (m_ar m)) as [ar| | |]; cbn [bind]; try discriminate.
  destruct S1 as (-> & F1 & B1), S2 as (-> & F2 & B2), S3 as (-> & F3 & B3). intros [= <-].
  split; [reflexivity|]. split; [unfold has_bad; rewrite B1, B2, B3; reflexivity|].
  rewrite Forall_forall in F1, F2, F3. intros m' [= <-] x [H|[H|[H Ho]]]; auto. exact (F3 x H Ho).
Qed.

Lemma not_expired_le e v : expired e v = false -> e <= v * 1000.
Proof. unfold expired; destruct expired_is_gt; lia. Qed.

Lemma expired_gt e v : v * 1000 < e -> expired e v = true.
Proof. unfold expired; destruct expired_is_gt; lia. Qed.

(* the boundary itself is not expired: `>`, not `>=` (T1) *)
Lemma le_not_expired e v : e <= v * 1000 -> expired e v = false.
Proof. unfold expired. change expired_is_gt with true. cbn match. apply N.ltb_ge. Qed.

Lemma cast_secs_small ms : ms / 1000 < 2 ^ 32 -> cast_secs ms = ms / 1000.
Proof. unfold cast_secs; rewrite gen_cast_bits; intros H; apply N.mod_small; exact H. Qed.

Lemma cast_secs_le ms : cast_secs ms <= ms / 1000.
Proof. unfold cast_secs. apply N.mod_le. rewrite gen_cast_bits. discriminate. Qed.

Lemma not_expired_secs e v : expired e v = false -> e / 1000 <= v.
Proof.
  intros E. apply not_expired_le in E. apply N.div_le_upper_bound; [discriminate|]. lia.
Qed.

(* within the limits of the setters the cast to u32 never wraps *)
Lemma cast_secs_fresh cfg m v e :
  cfg_ok cfg -> validity cfg (RMsg m) = Ok v -> expired e v = false -> cast_secs e = e / 1000.
Proof.
  intros [[_ C] _] V E. apply validity_by_class in V. destruct V as [V _].
  apply not_expired_secs in E. pose proof gen_maxv_fits. apply cast_secs_small. lia.
Qed.

(* the subtraction in decrement_ttl cannot underflow on an entry that has not
   expired: the validity is at most every TTL that is decremented *)
Lemma age_le_ttl cfg m v e : validity cfg (RMsg m) = Ok v -> expired e v = false ->
  forall y, counted m y -> cast_secs e <= r_ttl y.
Proof.
  intros V E y Hy. apply validity_by_class in V. destruct V as (_ & _ & _ & _ & _ & _ & _ & _ & V).
  specialize (V y Hy). apply not_expired_secs in E. pose proof (cast_secs_le e). lia.
Qed.

(* what a request is answered with from an entry that has not expired *)
Definition served_resp (v : value) (now qc : N) : resp :=
  if resp_has_bad (v_resp v) then RErr parse_error
  else aged (cast_secs (elapsed_ms v now)) qc (v_resp v).

Lemma get_response_valid cfg v now qc : validity cfg (v_resp v) = Ok (v_valid v) ->
  get_response v now qc =
  if expired (elapsed_ms v now) (v_valid v) then None
  else Some (if resp_has_bad (v_resp v) then Err parse_error
             else Ok (aged (cast_secs (elapsed_ms v now)) qc (v_resp v))).
Proof.
  intros V. unfold get_response. destruct (expired (elapsed_ms v now) (v_valid v)) eqn:E; [reflexivity|].
  f_equal. apply decrement_eq. intros m Hm. rewrite Hm in V. exact (age_le_ttl cfg m _ _ V E).
Qed.

(* C20 -- one upstream exchange explains a served answer in every respect at
   once; every QUERY/IN request is served, or reaches upstream and is logged;
   ageing of one entry is monotone in time. *)
From Coq Require Import NArith List Bool Lia.
From DV Require Import Base.Outcome C20.Gen C20.Model C20.ProofsBase C20.ProofsInv C20.ProofsMain.
Import ListNotations.
Local Open Scope N_scope.

Lemma served_single_witness cfg evs st os ev k now qc st' r :
  request_of ev = Some (k, now, qc) ->
  cfg_ok cfg ->
  run cfg state_init evs = Ok (st, os) ->
  step cfg st ev = Ok (st', OServed r) ->
  exists k0 t0 u0,
    logged evs os (k0, t0, u0) /\ same_question k0 k /\ flags_compatible k0 k /\ derives u0 r /\
    resp_aged ((now - t0) / 1000) u0 r /\
    fresh_by_class cfg (now - t0) u0 r /\
    (k_addo k <> AdDo_Do -> k_addo k0 = AdDo_Do -> no_dnssec r) /\
    (k_addo k = AdDo_None -> k_addo k0 <> AdDo_None -> resp_ad r = false).
Proof.
  intros Hq C R S.
  destruct (served_explained_run _ _ _ _ _ _ _ _ _ _ Hq R S) as (k0 & t0 & u0 & L & X).
  pose proof (ex_fresh X C (lookup_failed_only_before_fix cfg evs st os k gen_strip_miss R)) as Fr.
  exists k0, t0, u0.
  exact (conj L (conj (ex_question X) (conj (ex_flags X) (conj (ex_derives X) (conj (ex_aged X C)
           (conj Fr (conj (ex_stripped X) (ex_ad_clear X)))))))).
Qed.

Lemma query_trichotomy cfg st k op qc now delay u st' o :
  inv cfg st -> step cfg st (EQuery k op qc now delay u) = Ok (st', o) ->
  (exists r, o = OServed r /\ s_log st' = s_log st) \/
  (o = OBypass /\ st' = st) \/
  (forwarded o /\ op = 0 /\ k_class k = class_in /\ s_log st' = (k, now + delay, u) :: s_log st).
Proof.
  intros I. cbn [step].
  destruct (returns_ex _ _ (start_ok cfg st k op qc now I)) as ([st1 sr] & -> & L1 & _ & P).
  cbn [bind fst snd] in *. destruct sr as [s| |].
  - intros [= <- <-]. left. eauto.
  - intros F. destruct (finish_spec _ _ _ _ _ _ _ F) as (Fw & L & _).
    right; right. rewrite L, L1. tauto.
  - intros [= <- <-]. right; left. tauto.
Qed.

(* two answers built from the same stored value at now1 <= now2: every TTL of
   the later one is the earlier one's minus the whole seconds in between *)
Lemma later_serving_not_younger cfg L k v now1 now2 qc1 qc2 m1 m2 :
  cfg_ok cfg -> prov cfg L k v -> now1 <= now2 ->
  get_response v now1 qc1 = Some (Ok (RMsg m1)) ->
  get_response v now2 qc2 = Some (Ok (RMsg m2)) ->
  let d := (now2 - v_created v) / 1000 - (now1 - v_created v) / 1000 in
  m_an m2 = map (age d) (m_an m1) /\ m_ns m2 = map (age d) (m_ns m1) /\
  m_ar m2 = map (age_opt d) (m_ar m1) /\
  (forall y, counted m1 y -> d <= r_ttl y).
Proof.
  intros C P Hle G1 G2 d.
  pose proof (prov_valid _ _ _ _ P) as V.
  rewrite (get_response_valid cfg v now1 qc1 V) in G1. rewrite (get_response_valid cfg v now2 qc2 V) in G2.
  unfold elapsed_ms in *.
  destruct (expired (now1 - v_created v) (v_valid v)) eqn:E1; [discriminate|].
  destruct (expired (now2 - v_created v) (v_valid v)) eqn:E2; [discriminate|].
  destruct (resp_has_bad (v_resp v)); [discriminate|].
  destruct (v_resp v) as [m|e] eqn:Hv; [|discriminate].
  pose proof (age_le_ttl cfg m _ _ V E2) as B2.
  rewrite (cast_secs_fresh cfg m _ _ C V E1) in G1. rewrite (cast_secs_fresh cfg m _ _ C V E2) in G2, B2.
  injection G1 as <-. injection G2 as <-.
  set (a1 := (now1 - v_created v) / 1000) in *. set (a2 := (now2 - v_created v) / 1000) in *.
  assert (Ha : a1 <= a2) by (apply N.div_le_mono; [discriminate|lia]). clearbody a1 a2.
  assert (Hage : forall y, a2 <= r_ttl y -> age d (age a1 y) = age a2 y).
  { intros y Hy. unfold age; cbn. f_equal. subst d. lia. }
  cbn [aged_msg m_an m_ns m_ar]. rewrite !map_map.
  repeat split.
  - apply map_ext_in. intros y Hy. symmetry. apply Hage. apply B2. left; exact Hy.
  - apply map_ext_in. intros y Hy. symmetry. apply Hage. apply B2. right; left; exact Hy.
  - apply map_ext_in. intros y Hy. symmetry. unfold age_opt at 2 3.
    destruct (r_type y =? rtype_opt) eqn:T; cbn [negb]; unfold age_opt; cbn [age r_type]; rewrite T; cbn [negb];
      [reflexivity|]. apply Hage. apply B2. right; right; auto.
  - intros y Hy. destruct (counted_aged _ _ _ _ Hy) as (y0 & Hy0 & ->). specialize (B2 _ Hy0). subst d. lia.
Qed.

Definition wk : key := key_of_request 1 1 1 true false false false.
Definition wA (ttl id : N) := mkRR 1 1 ttl id false.
Definition wup : resp :=
  RMsg (mkMsg 7 0 true false true false (Some (1, 1)) 1 [wA 300 1; wA 120 2] [] [] false).

Example ex_single_witness :
  c20_run config_default [EQuery wk 0 1 0 0 wup; EQuery wk 0 2 61999 0 (RErr 1); EQuery wk 0 2 120000 0 (RErr 1);
                          EQuery wk 0 2 120001 0 (RErr 1)]
  = Ok [OForwarded;
        OServed (RMsg (mkMsg 7 0 false false true false (Some (1, 1)) 2 [wA 239 1; wA 59 2] [] [] false));
        OServed (RMsg (mkMsg 7 0 false false true false (Some (1, 1)) 2 [wA 180 1; wA 0 2] [] [] false));
        OForwarded].
Proof. vm_compute. reflexivity. Qed.

Example ex_trichotomy_forward :
  exists st', step config_default state_init (EQuery wk 0 1 5 7 wup) = Ok (st', OForwarded) /\
              s_log st' = [(wk, 12, wup)].
Proof. eexists; split; vm_compute; reflexivity. Qed.

Example ex_later_serving :
  let v := mkValue 0 120 wup in
  get_response v 61999 1 = Some (Ok (RMsg (mkMsg 7 0 true false true false (Some (1, 1)) 1 [wA 239 1; wA 59 2] [] [] false))) /\
  get_response v 120000 1 = Some (Ok (RMsg (mkMsg 7 0 true false true false (Some (1, 1)) 1 [wA 180 1; wA 0 2] [] [] false))).
Proof. split; vm_compute; reflexivity. Qed.

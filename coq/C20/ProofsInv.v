(* C20 -- provenance invariant of the store: every entry is a transformation
   (clear AA / RD / AD, strip DNSSEC) of a logged upstream answer for a
   compatible key, created when that answer arrived, with its validity
   recomputed from its own content. *)
From Coq Require Import NArith List Bool.
From DV Require Import Base.Outcome C20.Gen C20.Model C20.ProofsBase.
Import ListNotations.
Local Open Scope N_scope.

Record xf := mkXf { x_rd : bool; x_ad : bool; x_strip : bool }.

Definition xform (x : xf) (m : msg) : msg :=
  mkMsg (m_id m) (m_rcode m) false (m_tc m)
        (if x_rd x then false else m_rd m) (if x_ad x then false else m_ad m) (m_q m) (m_qcase m)
        (if x_strip x then filter keep_rr (m_an m) else m_an m)
        (if x_strip x then filter keep_rr (m_ns m) else m_ns m)
        (if x_strip x then filter keep_rr (m_ar m) else m_ar m) (m_broken m).

Definition map_resp (f : msg -> msg) (r : resp) : resp :=
  match r with RMsg m => RMsg (f m) | RErr e => RErr e end.
Definition xform_resp (x : xf) : resp -> resp := map_resp (xform x).
Definition xid : xf := mkXf false false false.
Definition resp_ad (r : resp) : bool := match r with RMsg m => m_ad m | RErr _ => false end.

Lemma filter_idem {A} (f : A -> bool) l : filter f (filter f l) = filter f l.
Proof.
  induction l as [|a t IH]; [reflexivity|]. cbn [filter].
  destruct (f a) eqn:E; cbn [filter]; [rewrite E, IH; reflexivity|exact IH].
Qed.

(* each rewrite of the cascade maps transformations to transformations *)
Lemma xform_set_aa x m : msg_set_aa false (xform x m) = xform x m.
Proof. reflexivity. Qed.
Lemma xform_set_rd x m : msg_set_rd false (xform x m) = xform (mkXf true (x_ad x) (x_strip x)) m.
Proof. reflexivity. Qed.
Lemma xform_set_ad x m : msg_set_ad false (xform x m) = xform (mkXf (x_rd x) true (x_strip x)) m.
Proof. reflexivity. Qed.
Lemma xform_strip x m (ad : bool) :
  remove_dnssec ad (xform x m) = xform (mkXf (x_rd x) (if ad then x_ad x else true) true) m.
Proof.
  unfold remove_dnssec, xform; cbn.
  destruct (x_strip x); rewrite ?filter_idem; destruct ad, (x_ad x); reflexivity.
Qed.
Lemma xform_xid_raw m : m_aa m = false -> xform xid m = m.
Proof. destruct m; cbn; intros ->; reflexivity. Qed.
Lemma set_aa_is_xid m : msg_set_aa false m = xform xid m.
Proof. reflexivity. Qed.
Lemma set_ad_noop m : m_ad m = false -> msg_set_ad false m = m.
Proof. destruct m; cbn; intros ->; reflexivity. Qed.
Lemma set_aa_noop m : m_aa m = false -> msg_set_aa false m = m.
Proof. destruct m; cbn; intros ->; reflexivity. Qed.

(* validity never fails on a transformed message if it did not on the
   original: success depends only on (tc, rcode, question, walkable) *)
Definition shape (m : msg) := (m_tc m, class_rcode m, m_q m, m_broken m).

(* stripping keeps the OPT record, hence the extended rcode *)
Lemma first_opt_filter l : first_opt (filter keep_rr l) = first_opt l.
Proof.
  unfold first_opt. induction l as [|r t IH]; [reflexivity|]. cbn [filter find].
  destruct (r_type r =? rtype_opt) eqn:E.
  - assert (K : keep_rr r = true).
    { apply N.eqb_eq in E. unfold keep_rr. rewrite E.
      destruct gen_soa_ns_not_dnssec as (_ & _ & ->). reflexivity. }
    rewrite K. cbn [find]. rewrite E. reflexivity.
  - destruct (keep_rr r); cbn [find]; [rewrite E|]; exact IH.
Qed.

Lemma class_rcode_ar m m' : m_rcode m' = m_rcode m -> first_opt (m_ar m') = first_opt (m_ar m) ->
  class_rcode m' = class_rcode m.
Proof. unfold class_rcode, opt_rcode. intros -> ->. reflexivity. Qed.

Lemma shape_strip ad m : shape (remove_dnssec ad m) = shape m.
Proof.
  unfold shape. rewrite (class_rcode_ar m (remove_dnssec ad m)); [reflexivity|reflexivity|].
  cbn [remove_dnssec m_ar]. apply first_opt_filter.
Qed.

Lemma shape_xform x m : shape (xform x m) = shape m.
Proof.
  unfold shape. rewrite (class_rcode_ar m (xform x m)); [reflexivity|reflexivity|].
  cbn [xform m_ar]. destruct (x_strip x); [apply first_opt_filter|reflexivity].
Qed.

Lemma validity_ok_shape cfg m m' : shape m = shape m' ->
  (exists v, validity cfg (RMsg m) = Ok v) -> exists v, validity cfg (RMsg m') = Ok v.
Proof.
  unfold shape; intros [= Htc Hrc Hq Hb]. unfold validity; rewrite <- Htc, <- Hb.
  destruct (m_tc m && negb (c_trunc cfg)); [eauto|].
  destruct (m_broken m); [intros [v H]; discriminate|].
  unfold class_cap; rewrite <- Hrc.
  destruct (class_rcode m) as [|p]; [|intros _; destruct p as [[]|[]|]; cbn [bind]; eauto].
  (* NOERROR: classification succeeds on a message with a question, and
     otherwise only if the expect() is gone *)
  unfold classify_no_error; rewrite <- Hq. destruct (m_q m) as [[qt qc]|].
  - intros _. destruct (existsb _ (m_an m')); cbn [bind]; eauto.
  - destruct classify_expects_question; [intros [v H]; discriminate|cbn [bind]; eauto].
Qed.

Definition compat (k0 k : key) (x : xf) (u0 : resp) : Prop :=
  k_name k0 = k_name k /\ k_class k0 = k_class k /\ k_type k0 = k_type k /\ k_cd k0 = k_cd k /\
  (k_rd k = true -> k_rd k0 = true) /\
  (k_addo k = AdDo_Do -> k_addo k0 = AdDo_Do) /\
  (k_addo k = AdDo_Ad -> k_addo k0 <> AdDo_None) /\
  (x_rd x = true -> k_rd k = false) /\
  (x_strip x = true -> k_addo k <> AdDo_Do /\ is_dnssec (k_type k) = false) /\
  (x_ad x = true -> k_addo k = AdDo_None) /\
  (k_addo k0 = AdDo_Do -> k_addo k <> AdDo_Do -> x_strip x = true) /\
  (k_addo k = AdDo_None -> k_addo k0 <> AdDo_None -> resp_ad (xform_resp x u0) = false).

Definition same_question (k0 k : key) : Prop :=
  k_name k0 = k_name k /\ k_class k0 = k_class k /\ k_type k0 = k_type k.

(* the upstream request carried at least the flags of the served one:
   CD equal; RD=1 only from RD=1; DO only from DO; AD only from AD or DO *)
Definition flags_compatible (k0 k : key) : Prop :=
  k_cd k0 = k_cd k /\ (k_rd k = true -> k_rd k0 = true) /\
  (k_addo k = AdDo_Do -> k_addo k0 = AdDo_Do) /\ (k_addo k = AdDo_Ad -> k_addo k0 <> AdDo_None).

Lemma compat_question k0 k x u : compat k0 k x u -> same_question k0 k /\ flags_compatible k0 k.
Proof. unfold compat, same_question, flags_compatible; tauto. Qed.

Lemma compat_refl k u : compat k k xid u.
Proof. unfold compat, xid; cbn; repeat split; try congruence; try discriminate. Qed.

Definition ulog := list (key * N * resp).

Definition prov (cfg : config) (L : ulog) (k : key) (v : value) : Prop :=
  exists k0 t0 u0 x,
    In (k0, t0, u0) L /\ v_created v = t0 /\ v_resp v = xform_resp x u0 /\
    compat k0 k x u0 /\ validity cfg (v_resp v) = Ok (v_valid v).

Definition invC (cfg : config) (L : ulog) (c : cache) : Prop :=
  forall k v, In (k, v) c -> prov cfg L k v.

Lemma prov_incl cfg L L' k v : incl L L' -> prov cfg L k v -> prov cfg L' k v.
Proof.
  intros H (k0 & t0 & u0 & x & Hin & R). exists k0, t0, u0, x. split; [apply H; exact Hin|exact R].
Qed.

Lemma prov_valid cfg L k v : prov cfg L k v -> validity cfg (v_resp v) = Ok (v_valid v).
Proof. intros (k0 & t0 & u0 & x & _ & _ & _ & _ & H); exact H. Qed.

(* [v'] is [v] with its message rewritten by [g]: creation time kept, validity recomputed *)
Definition rewritten (cfg : config) (g : msg -> msg) (v v' : value) : Prop :=
  v_created v' = v_created v /\ v_resp v' = map_resp g (v_resp v) /\
  validity cfg (v_resp v') = Ok (v_valid v').

Lemma update_message_spec cfg v tst f g v' :
  validity cfg (v_resp v) = Ok (v_valid v) ->
  (forall m m', f m = Ok m' -> m' = g m) ->
  (forall m, tst m = false -> g m = m) ->
  update_message cfg v tst f = Ok v' -> rewritten cfg g v v'.
Proof.
  intros Hv Hf Hid. unfold update_message, rewritten.
  destruct (v_resp v) as [m|e] eqn:R.
  - destruct (tst m) eqn:T.
    + destruct (f m) as [m'| | |] eqn:F; cbn [bind]; try discriminate.
      rewrite (Hf _ _ F).
      destruct (validity cfg (RMsg (g m))) as [val| | |] eqn:V; cbn [bind]; try discriminate.
      intros [= <-]; cbn [v_created v_valid v_resp map_resp]. auto.
    + intros [= <-]. rewrite R; cbn [map_resp]. rewrite (Hid _ T). auto.
  - intros [= <-]. rewrite R; cbn [map_resp]. auto.
Qed.

Lemma pure_spec g m m' : pure g m = Ok m' -> m' = g m.
Proof. unfold pure; intros [= <-]; reflexivity. Qed.

Lemma strip_spec ad m m' : remove_dnssec_o ad m = Ok m' -> m' = remove_dnssec ad m.
Proof. unfold remove_dnssec_o; destruct (has_bad m); [discriminate|intros [= <-]; reflexivity]. Qed.

Lemma always_tested (g : msg -> msg) m : (fun _ : msg => true) m = false -> g m = m.
Proof. discriminate. Qed.

(* a header edit cannot fail on a stored value *)
Lemma update_message_pure_total cfg v tst g :
  validity cfg (v_resp v) = Ok (v_valid v) ->
  (forall m, shape (g m) = shape m) ->
  exists v', update_message cfg v tst (pure g) = Ok v'.
Proof.
  intros Hv Hs. unfold update_message, pure.
  destruct (v_resp v) as [m|e]; [|eauto].
  destruct (tst m); [|eauto]. cbn [bind].
  destruct (validity_ok_shape cfg m (g m) (eq_sym (Hs m)) (ex_intro _ _ Hv)) as [val ->]. cbn [bind]. eauto.
Qed.

(* stripping can fail, and then only because of an unparsable record *)
Lemma update_message_strip_cases cfg v ad :
  validity cfg (v_resp v) = Ok (v_valid v) ->
  (exists v', update_message cfg v (fun _ => true) (remove_dnssec_o ad) = Ok v') \/
  (update_message cfg v (fun _ => true) (remove_dnssec_o ad) = Err parse_error /\
   resp_has_bad (v_resp v) = true).
Proof.
  intros Hv. unfold update_message, remove_dnssec_o.
  destruct (v_resp v) as [m|e]; [|left; eauto]. cbn [resp_has_bad].
  destruct (has_bad m); cbn [bind]; [right; auto|]. left.
  destruct (validity_ok_shape cfg m (remove_dnssec ad m) (eq_sym (shape_strip ad m)) (ex_intro _ _ Hv)) as [val ->].
  cbn [bind]. eauto.
Qed.

(* The three rewrites of the cascade carry provenance from the alternate key
   [k1] to the query key [k]: the rewrite [g] acts on transformations as [fx]
   does, and what [fx] yields is compatible with [k]. *)
Lemma prov_rewrite cfg L k1 k v v' g (fx : xf -> xf) :
  (forall x m, g (xform x m) = xform (fx x) m) ->
  (forall k0 x u0, compat k0 k1 x u0 -> compat k0 k (fx x) u0) ->
  prov cfg L k1 v -> rewritten cfg g v v' -> prov cfg L k v'.
Proof.
  intros Hg Hfx (k0 & t0 & u0 & x & Hin & Hc & Hr & Hk & _) (C' & R' & V').
  exists k0, t0, u0, (fx x).
  split; [exact Hin|]. split; [congruence|]. split; [|split; [exact (Hfx _ _ _ Hk)|exact V']].
  rewrite R', Hr. destruct u0; cbn [xform_resp map_resp]; [rewrite Hg|]; reflexivity.
Qed.

Lemma prov_ad_step cfg L k v v' :
  k_addo k = AdDo_None -> prov cfg L (key_set_addo k AdDo_Ad) v ->
  update_message cfg v m_ad (pure (msg_set_ad false)) = Ok v' -> prov cfg L k v'.
Proof.
  intros Ha P U.
  apply (prov_rewrite cfg L (key_set_addo k AdDo_Ad) k v v' (msg_set_ad false)
           (fun x => mkXf (x_rd x) true (x_strip x)));
    [exact xform_set_ad| |exact P|
     exact (update_message_spec cfg v _ _ _ v' (prov_valid _ _ _ _ P) (pure_spec _) set_ad_noop U)].
  intros k0 x u0. unfold compat; cbn [key_set_addo k_name k_class k_type k_addo k_cd k_rd x_rd x_ad x_strip].
  intros (H1 & H2 & H3 & H4 & H5 & H6 & H7 & H8 & H9 & H10 & H11 & H12).
  rewrite Ha. repeat split; try assumption; try congruence; try discriminate.
  - destruct (H9 H); assumption.
  - intros Hd _. apply H11; [exact Hd|discriminate].
  - intros _ _. destruct u0; reflexivity.
Qed.

Lemma prov_do_step cfg L k v v' :
  k_addo k <> AdDo_Do -> is_dnssec (k_type k) = false -> prov cfg L (key_set_addo k AdDo_Do) v ->
  update_message cfg v (fun _ => true) (remove_dnssec_o (addo_ad (k_addo k))) = Ok v' -> prov cfg L k v'.
Proof.
  intros Ha Hd P U.
  apply (prov_rewrite cfg L (key_set_addo k AdDo_Do) k v v' (remove_dnssec (addo_ad (k_addo k)))
           (fun x => mkXf (x_rd x) (if addo_ad (k_addo k) then x_ad x else true) true));
    [intros x m; apply xform_strip| |exact P|
     exact (update_message_spec cfg v _ _ _ v' (prov_valid _ _ _ _ P) (strip_spec _) (always_tested _) U)].
  intros k0 x u0. unfold compat; cbn [key_set_addo k_name k_class k_type k_addo k_cd k_rd x_rd x_ad x_strip].
  intros (H1 & H2 & H3 & H4 & H5 & H6 & H7 & H8 & H9 & H10 & H11 & H12).
  specialize (H6 eq_refl).
  repeat split; try assumption; try congruence.
  - destruct (k_addo k); cbn; intros H; try congruence. apply H10 in H. discriminate.
  - intros Hn _. rewrite Hn; cbn. destruct u0; reflexivity.
Qed.

Lemma prov_rd_step cfg L k v v' :
  k_rd k = false -> prov cfg L (key_set_rd k true) v ->
  update_message cfg v (fun _ => true) (pure (msg_set_rd false)) = Ok v' -> prov cfg L k v'.
Proof.
  intros Ha P U.
  apply (prov_rewrite cfg L (key_set_rd k true) k v v' (msg_set_rd false)
           (fun x => mkXf true (x_ad x) (x_strip x)));
    [exact xform_set_rd| |exact P|
     exact (update_message_spec cfg v _ _ _ v' (prov_valid _ _ _ _ P) (pure_spec _) (always_tested _) U)].
  intros k0 x u0. unfold compat; cbn [key_set_rd k_name k_class k_type k_addo k_cd k_rd x_rd x_ad x_strip].
  intros (H1 & H2 & H3 & H4 & H5 & H6 & H7 & H8 & H9 & H10 & H11 & H12).
  repeat split; try assumption; try congruence.
  - destruct (H9 H); assumption.
  - destruct (H9 H); assumption.
  - intros Hn Hn0. specialize (H12 Hn Hn0). destruct u0; cbn in *; [exact H12|reflexivity].
Qed.

(* every entry of [c'] is one of [c] or has provenance and a validity that is not zero *)
Definition grows (cfg : config) (L : ulog) (c c' : cache) : Prop :=
  forall k v, In (k, v) c' -> In (k, v) c \/ (prov cfg L k v /\ v_valid v <> 0).

Lemma grows_refl cfg L c : grows cfg L c c.
Proof. intros k v H; now left. Qed.

Lemma grows_trans cfg L c1 c2 c3 : grows cfg L c1 c2 -> grows cfg L c2 c3 -> grows cfg L c1 c3.
Proof. intros G1 G2 k v H. destruct (G2 k v H) as [H2|H2]; [exact (G1 k v H2)|now right]. Qed.

Lemma grows_incl cfg L L' c c' : incl L L' -> grows cfg L c c' -> grows cfg L' c c'.
Proof.
  intros HL G k v H. destruct (G k v H) as [H1|[P Z]]; [now left|right].
  split; [exact (prov_incl _ _ _ _ _ HL P)|exact Z].
Qed.

Lemma grows_inv cfg L L' c c' : incl L L' -> invC cfg L c -> grows cfg L' c c' -> invC cfg L' c'.
Proof.
  intros HL I G k v H. destruct (G k v H) as [H1|[P _]]; [|exact P].
  exact (prov_incl _ _ _ _ _ HL (I k v H1)).
Qed.

Definition nonzero (c : cache) : Prop := forall k v, In (k, v) c -> v_valid v <> 0.

Lemma grows_nonzero cfg L c c' : nonzero c -> grows cfg L c c' -> nonzero c'.
Proof. intros Z G k v H. destruct (G k v H) as [H1|[_ Z1]]; [exact (Z k v H1)|exact Z1]. Qed.

Lemma validity_set_aa cfg r : validity cfg (map_resp (msg_set_aa false) r) = validity cfg r.
Proof. destruct r as [[]|]; reflexivity. Qed.

(* cache_insert never fails on a value whose validity is its own; what it stores,
   if anything, is that value with AA cleared, and not of zero validity (T1) *)
Lemma cache_insert_spec cfg k v c :
  validity cfg (v_resp v) = Ok (v_valid v) ->
  returns (cache_insert cfg k v c) (fun c' =>
    c' = c \/ exists v', c' = cinsert k v' c /\ rewritten cfg (msg_set_aa false) v v' /\ v_valid v' <> 0).
Proof.
  intros Hv. unfold cache_insert. rewrite gen_skip_zero. cbn [andb].
  destruct (N.eqb_spec (v_valid v) 0) as [Z|Z]; [now left|].
  destruct (update_message_pure_total cfg v m_aa (msg_set_aa false) Hv) as [v' U]; [reflexivity|].
  rewrite U. right. exists v'. split; [reflexivity|].
  pose proof (update_message_spec cfg v m_aa _ _ v' Hv (pure_spec _) set_aa_noop U) as W.
  split; [exact W|]. destruct W as (_ & R & V). rewrite R, validity_set_aa, Hv in V. injection V as <-. exact Z.
Qed.

Lemma cache_insert_grows cfg L k v c :
  validity cfg (v_resp v) = Ok (v_valid v) ->
  (forall v', rewritten cfg (msg_set_aa false) v v' -> prov cfg L k v') ->
  returns (cache_insert cfg k v c) (grows cfg L c).
Proof.
  intros Hv Hp. pose proof (cache_insert_spec cfg k v c Hv) as S.
  destruct (cache_insert cfg k v c) as [c'| | |]; try contradiction.
  destruct S as [->|(v' & -> & W & Z)]; [apply grows_refl|].
  intros k1 v1 H1. apply cinsert_In in H1. destruct H1 as [[= -> ->]|H1]; [right; auto|now left].
Qed.

(* re-insertion of a value that has provenance: AA is clear already *)
Lemma cache_insert_prov cfg L k v c :
  prov cfg L k v -> returns (cache_insert cfg k v c) (grows cfg L c).
Proof.
  intros P. apply cache_insert_grows; [exact (prov_valid _ _ _ _ P)|]. intros v' W.
  apply (prov_rewrite cfg L k k v v' (msg_set_aa false) (fun x => x)); [exact xform_set_aa|auto|exact P|exact W].
Qed.

(* insertion of the upstream answer that has just been logged *)
Lemma cache_insert_fresh cfg L k t val u c :
  validity cfg u = Ok val ->
  returns (cache_insert cfg k (mkValue t val u) c) (grows cfg ((k, t, u) :: L) c).
Proof.
  intros Hv. apply cache_insert_grows; [exact Hv|]. intros v' (C' & R' & V').
  exists k, t, u, xid.
  split; [now left|]. split; [exact C'|]. split; [|split; [apply compat_refl|exact V']].
  rewrite R'. destruct u; reflexivity.
Qed.

Lemma has_bad_xform x m : has_bad (xform x m) = true -> has_bad m = true.
Proof.
  assert (F : forall l, existsb r_bad (if x_strip x then filter keep_rr l else l) = true ->
                        existsb r_bad l = true).
  { intros l. destruct (x_strip x); [|auto]. rewrite !existsb_exists.
    intros (r & Hin & Hb). exists r. apply filter_In in Hin. tauto. }
  unfold has_bad; cbn [xform m_an m_ns m_ar]. rewrite !orb_true_iff.
  intros [[H|H]|H]; apply F in H; tauto.
Qed.

(* a failed lookup: only without the fix, only a parse error, only because a
   logged upstream message for the same question and at least these flags
   holds a record that does not parse; nothing is said about its age *)
Definition fail_post (L : ulog) (k : key) (e : N) : Prop :=
  strip_failure_is_miss = false /\ e = parse_error /\
  exists k0 t0 m0, In (k0, t0, RMsg m0) L /\ same_question k0 k /\ flags_compatible k0 k /\
                   has_bad m0 = true.

(* Every level of the cascade, started on a store [c] with the invariant,
   returns; the new store holds what [c] held and re-insertions with
   provenance; a value found has provenance for the key asked for. *)
Definition lookup_post cfg L k c (r : cache * lres) : Prop :=
  grows cfg L c (fst r) /\
  match snd r with
  | LSome v => prov cfg L k v
  | LNone => True
  | LFail e => fail_post L k e
  end.

Lemma lookup_ad_ok cfg L k c :
  invC cfg L c -> returns (cache_lookup_ad cfg k c) (lookup_post cfg L k c).
Proof.
  intros I. pose proof (grows_refl cfg L c) as G0. unfold cache_lookup_ad.
  destruct (cget k c) as [v|] eqn:G; [exact (conj G0 (I _ _ (cget_In _ _ _ G)))|].
  destruct (addo_ad (k_addo k)) eqn:A; [exact (conj G0 Logic.I)|].
  rewrite gen_alt_ad, gen_ad_fix.
  destruct (cget (key_set_addo k AdDo_Ad) c) as [v|] eqn:G2; [|exact (conj G0 Logic.I)].
  pose proof (I _ _ (cget_In _ _ _ G2)) as P.
  destruct (update_message_pure_total cfg v m_ad (msg_set_ad false) (prov_valid _ _ _ _ P)) as [v' U];
    [reflexivity|].
  rewrite U; cbn [try_].
  assert (P' : prov cfg L k v').
  { apply (prov_ad_step cfg L k v v'); [destruct (k_addo k); try discriminate; reflexivity|exact P|exact U]. }
  apply (returns_bind _ _ _ _ (cache_insert_prov cfg L k v' c P')). intros c' G'. exact (conj G' P').
Qed.

Lemma lookup_do_ad_ok cfg L k c :
  invC cfg L c -> returns (cache_lookup_do_ad cfg k c) (lookup_post cfg L k c).
Proof.
  intros I. unfold cache_lookup_do_ad.
  apply (returns_bind _ _ _ _ (lookup_ad_ok cfg L k c I)). intros [c1 res] [G1 P1]; cbn [fst snd] in G1, P1.
  destruct res as [v| |e]; [exact (conj G1 P1)| |exact (conj G1 P1)].
  destruct (addo_do (k_addo k)) eqn:D; [exact (conj G1 Logic.I)|].
  destruct (is_dnssec (k_type k)) eqn:Q; [exact (conj G1 Logic.I)|].
  rewrite gen_alt_do.
  destruct (cget (key_set_addo k AdDo_Do) c1) as [v|] eqn:G2; [|exact (conj G1 Logic.I)].
  pose proof (grows_inv _ _ _ _ _ (incl_refl L) I G1 _ _ (cget_In _ _ _ G2)) as P.
  assert (Hk : k_addo k <> AdDo_Do) by (destruct (k_addo k); try discriminate; congruence).
  destruct (update_message_strip_cases cfg v (addo_ad (k_addo k)) (prov_valid _ _ _ _ P))
    as [[v' U]|[U B]]; rewrite U.
  - assert (P' : prov cfg L k v') by (apply (prov_do_step cfg L k v v'); assumption).
    apply (returns_bind _ _ _ _ (cache_insert_prov cfg L k v' c1 P')). intros c2 G'.
    exact (conj (grows_trans _ _ _ _ _ G1 G') P').
  - destruct strip_failure_is_miss eqn:Fl; [exact (conj G1 Logic.I)|].
    (* without the fix: the entry under the DO key, from which [v] stems, is the culprit *)
    split; [exact G1|]. split; [exact Fl|]. split; [reflexivity|].
    destruct P as (k0 & t0 & u0 & x & Hin & _ & Hr & Hc & _).
    rewrite Hr in B. destruct u0 as [m0|e0]; cbn in B; [|discriminate].
    exists k0, t0, m0. split; [exact Hin|].
    destruct (compat_question _ _ _ _ Hc) as [(Q1 & Q2 & Q3) (F1 & F2 & F3 & F4)].
    cbn [key_set_addo k_name k_class k_type k_cd k_rd k_addo] in *.
    specialize (F3 eq_refl).
    split; [repeat split; assumption|]. split; [|apply (has_bad_xform x); exact B].
    repeat split; try assumption; [congruence|intros _; rewrite F3; discriminate].
Qed.

Lemma fail_post_rd L k e : k_rd k = false -> fail_post L (key_set_rd k true) e -> fail_post L k e.
Proof.
  intros Hr (F & E & k0 & t0 & m0 & Hin & (Q1 & Q2 & Q3) & (F1 & F2 & F3 & F4) & B).
  cbn [key_set_rd k_name k_class k_type k_cd k_rd k_addo] in *.
  split; [exact F|]. split; [exact E|]. exists k0, t0, m0.
  repeat split; try assumption. congruence.
Qed.

Lemma lookup_ok cfg L k c :
  invC cfg L c -> returns (cache_lookup cfg k c) (lookup_post cfg L k c).
Proof.
  intros I. unfold cache_lookup, cache_lookup_rd_do_ad.
  apply (returns_bind _ _ _ _ (lookup_do_ad_ok cfg L k c I)). intros [c1 res] [G1 P1]; cbn [fst snd] in G1, P1.
  destruct res as [v| |e]; [exact (conj G1 P1)| |exact (conj G1 P1)].
  destruct (k_rd k) eqn:D; [exact (conj G1 Logic.I)|].
  rewrite gen_alt_rd, gen_rd_fix.
  pose proof (grows_inv _ _ _ _ _ (incl_refl L) I G1) as I1.
  apply (returns_bind _ _ _ _ (lookup_do_ad_ok cfg L (key_set_rd k true) c1 I1)).
  intros [c2 res2] [G2 P2]; cbn [fst snd] in G2, P2.
  pose proof (grows_trans _ _ _ _ _ G1 G2) as G12.
  destruct res2 as [v| |e]; [|exact (conj G12 Logic.I)|exact (conj G12 (fail_post_rd _ _ _ D P2))].
  destruct (update_message_pure_total cfg v (fun _ => true) (msg_set_rd false) (prov_valid _ _ _ _ P2)) as [v' U];
    [reflexivity|].
  rewrite U; cbn [try_].
  assert (P' : prov cfg L k v') by (apply (prov_rd_step cfg L k v v'); assumption).
  apply (returns_bind _ _ _ _ (cache_insert_prov cfg L k v' c2 P')). intros c3 G'.
  exact (conj (grows_trans _ _ _ _ _ G12 G') P').
Qed.

(* after the fix a lookup never fails *)
Lemma lookup_never_fails cfg L k c c' e :
  strip_failure_is_miss = true -> invC cfg L c -> cache_lookup cfg k c <> Ok (c', LFail e).
Proof.
  intros F I H. destruct (returns_ok _ _ _ (lookup_ok cfg L k c I) H) as [_ (F' & _)]. congruence.
Qed.

Definition inv (cfg : config) (st : state) : Prop := invC cfg (s_log st) (s_cache st).

Lemma inv_init cfg : inv cfg state_init.
Proof. intros k v []. Qed.

(* [start] on a state with the invariant returns.  It leaves the log alone.  A
   request that is not QUERY/IN bypasses the cache; any other misses, or is
   answered from a value with provenance that has not expired, or with the
   error of a failed lookup. *)
Definition start_post cfg st k op qc now (r : state * sres) : Prop :=
  s_log (fst r) = s_log st /\ grows cfg (s_log st) (s_cache st) (s_cache (fst r)) /\
  match snd r with
  | SBypass => fst r = st /\ (op <> 0 \/ k_class k <> class_in)
  | SMiss => op = 0 /\ k_class k = class_in
  | SServed s =>
      op = 0 /\ k_class k = class_in /\
      ((exists v, prov cfg (s_log st) k v /\ expired (elapsed_ms v now) (v_valid v) = false /\
                  s = served_resp v now qc) \/
       (exists c e, cache_lookup cfg k (s_cache st) = Ok (c, LFail e) /\ s = RErr e /\
                    fail_post (s_log st) k e))
  end.

Lemma start_ok cfg st k op qc now :
  inv cfg st -> returns (start cfg st k op qc now) (start_post cfg st k op qc now).
Proof.
  intros I. unfold start.
  assert (By : op <> 0 \/ k_class k <> class_in -> start_post cfg st k op qc now (st, SBypass)).
  { intros H. split; [reflexivity|]. split; [apply grows_refl|]. split; [reflexivity|exact H]. }
  destruct (N.eqb_spec op 0) as [Ho|Ho]; cbn [andb negb]; [|exact (By (or_introl Ho))].
  destruct (N.eqb_spec (k_class k) class_in) as [Hc|Hc]; cbn [negb]; [|exact (By (or_intror Hc))].
  pose proof (lookup_ok cfg _ k _ I) as LK.
  destruct (cache_lookup cfg k (s_cache st)) as [[c1 res]| | |] eqn:E; try contradiction.
  destruct LK as [G1 P1]; cbn [fst snd bind] in *.
  destruct res as [v| |e].
  - rewrite (get_response_valid cfg) by exact (prov_valid _ _ _ _ P1).
    destruct (expired (elapsed_ms v now) (v_valid v)) eqn:Ex; [repeat split; assumption|].
    assert (S : start_post cfg st k op qc now (mkState c1 (s_log st), SServed (served_resp v now qc))).
    { split; [reflexivity|]. split; [exact G1|]. cbn [snd]. eauto 8. }
    unfold served_resp in S. destruct (resp_has_bad (v_resp v)); exact S.
  - repeat split; assumption.
  - split; [reflexivity|]. split; [exact G1|]. cbn [snd]. eauto 10.
Qed.

Definition forwarded (o : obs) : Prop := o = OForwarded \/ exists e, o = OFwdErr e.

(* [finish] logs the exchange, whatever becomes of the answer *)
Lemma finish_spec cfg st k t u st' o :
  finish cfg st k t u = Ok (st', o) ->
  forwarded o /\ s_log st' = (k, t, u) :: s_log st /\
  grows cfg (s_log st') (s_cache st) (s_cache st').
Proof.
  unfold finish. destruct (validity cfg u) as [val|e| |] eqn:V; try discriminate.
  - pose proof (cache_insert_fresh cfg (s_log st) k t val u (s_cache st) V) as CI.
    destruct (cache_insert cfg k (mkValue t val u) (s_cache st)) as [c2| | |]; try contradiction.
    intros [= <- <-]. split; [left; reflexivity|]. split; [reflexivity|exact CI].
  - intros [= <- <-]. split; [right; eauto|]. split; [reflexivity|apply grows_refl].
Qed.

(* the store only gains entries with provenance; the log gains at most the
   exchange of a forwarded request *)
Lemma step_spec cfg st ev st' o :
  inv cfg st -> step cfg st ev = Ok (st', o) ->
  grows cfg (s_log st') (s_cache st) (s_cache st') /\
  (s_log st' = s_log st \/
   (forwarded o /\ exists k t u, s_log st' = (k, t, u) :: s_log st /\
      (ev = EFinish k t u \/ exists qc now delay, ev = EQuery k 0 qc now delay u /\ t = now + delay))).
Proof.
  intros I. destruct ev as [k op qc now delay u|k op qc now|k t u|n]; cbn [step].
  - destruct (returns_ex _ _ (start_ok cfg st k op qc now I)) as ([st1 sr] & -> & L1 & G1 & P).
    cbn [bind fst snd] in *.
    destruct sr; try (intros [= <- _]; rewrite L1; split; [exact G1|now left]).
    intros F. destruct (finish_spec _ _ _ _ _ _ _ F) as (Fw & L & G). rewrite L1 in L. split.
    + refine (grows_trans _ _ _ _ _ (grows_incl _ _ _ _ _ _ G1) G). rewrite L. apply incl_tl, incl_refl.
    + right. split; [exact Fw|]. exists k, (now + delay), u. split; [exact L|].
      right. destruct P as [-> _]. eauto.
  - destruct (returns_ex _ _ (start_ok cfg st k op qc now I)) as ([st1 sr] & -> & L1 & G1 & _).
    cbn [bind fst] in *. intros [= <- _]. rewrite L1. split; [exact G1|now left].
  - intros F. destruct (finish_spec _ _ _ _ _ _ _ F) as (Fw & L & G).
    split; [exact G|]. right. split; [exact Fw|]. exists k, t, u. auto.
  - intros [= <- _]. cbn [s_cache s_log]. split; [|now left].
    intros k v H. left. exact (evict_In _ _ _ H).
Qed.

Lemma step_inv cfg st ev st' o : inv cfg st -> step cfg st ev = Ok (st', o) -> inv cfg st'.
Proof.
  intros I S. destruct (step_spec _ _ _ _ _ I S) as [G HL]. refine (grows_inv _ _ _ _ _ _ I G).
  destruct HL as [->|(_ & k & t & u & -> & _)]; [apply incl_refl|apply incl_tl, incl_refl].
Qed.

(* the invariant of all histories: provenance, and no entry of zero validity *)
Definition store_ok (cfg : config) (st : state) : Prop := inv cfg st /\ nonzero (s_cache st).

Lemma run_store_ok cfg evs : forall st st' os,
  store_ok cfg st -> run cfg st evs = Ok (st', os) -> store_ok cfg st'.
Proof.
  induction evs as [|e t IH]; intros st st' os I; cbn [run].
  - intros [= <- _]; exact I.
  - destruct (step cfg st e) as [[st1 o]| | |] eqn:S; cbn [bind]; try discriminate.
    destruct (run cfg st1 t) as [[st2 os2]| | |] eqn:R; cbn [bind]; try discriminate.
    intros [= <- _]. refine (IH _ _ _ _ R). destruct I as [I Z].
    split; [exact (step_inv _ _ _ _ _ I S)|].
    exact (grows_nonzero _ _ _ _ Z (proj1 (step_spec _ _ _ _ _ I S))).
Qed.

Lemma store_ok_init cfg : store_ok cfg state_init.
Proof. split; intros k v []. Qed.

(* the ghost log is the history: each entry is a forwarded QUERY/IN request of it *)
Definition logged (evs : list event) (os : list obs) (e : key * N * resp) : Prop :=
  exists i o, nth_error os i = Some o /\ forwarded o /\
    ((exists qc now delay,
        nth_error evs i = Some (EQuery (fst (fst e)) 0 qc now delay (snd e)) /\ snd (fst e) = now + delay) \/
     nth_error evs i = Some (EFinish (fst (fst e)) (snd (fst e)) (snd e))).

Lemma run_log cfg evs : forall st st' os e, inv cfg st ->
  run cfg st evs = Ok (st', os) -> In e (s_log st') -> In e (s_log st) \/ logged evs os e.
Proof.
  induction evs as [|ev t IH]; intros st st' os e I; cbn [run].
  - intros [= <- _]; now left.
  - destruct (step cfg st ev) as [[st1 o]| | |] eqn:St; cbn [bind]; try discriminate.
    destruct (run cfg st1 t) as [[st2 os2]| | |] eqn:R; cbn [bind]; try discriminate.
    intros [= <- <-] H.
    destruct (IH _ _ _ _ (step_inv _ _ _ _ _ I St) R H) as [H1|(i & o' & E1 & E2 & E3)];
      [|right; exists (S i), o'; cbn [nth_error]; auto].
    destruct (step_spec _ _ _ _ _ I St) as [_ [L|(Fw & k & tm & u & L & Hev)]]; rewrite L in H1; [now left|].
    destruct H1 as [<-|H1]; [right|now left].
    exists O, o. cbn [nth_error fst snd]. split; [reflexivity|]. split; [exact Fw|].
    destruct Hev as [->|(qc & now & delay & -> & ->)]; [right; reflexivity|left; eauto].
Qed.

(* C20 -- the property theorems, over all histories.  Whatever is answered
   without upstream is built from a stored value that has provenance and has
   not expired; [fresh_value_explained] says everything about such an answer at
   once, and the theorems about served answers are its projections. *)
From Coq Require Import NArith List Bool Lia.
From DV Require Import Base.Outcome C20.Gen C20.Model C20.ProofsBase C20.ProofsInv.
Import ListNotations.
Local Open Scope N_scope.

Definition lookup_failed (cfg : config) (st : state) (k : key) : Prop :=
  exists c e, cache_lookup cfg k (s_cache st) = Ok (c, LFail e).

(* a request event: its key, the time its get_response runs, its spelling of the name *)
Definition request_of (ev : event) : option (key * N * N) :=
  match ev with
  | EQuery k _ qc now _ _ | EStart k _ qc now => Some (k, now, qc)
  | _ => None
  end.

(* one section of an aged transformed message: each record stems from one of
   the upstream section, related to it by [R] *)
Lemma in_map_kept (R : rr -> rr -> Prop) f (strip : bool) l0 :
  (forall r0, In r0 (if strip then filter keep_rr l0 else l0) -> R r0 (f r0)) ->
  forall r, In r (map f (if strip then filter keep_rr l0 else l0)) -> exists r0, In r0 l0 /\ R r0 r.
Proof.
  intros H r Hr. apply in_map_iff in Hr. destruct Hr as (r0 & <- & Hr). exists r0.
  split; [destruct strip; [apply filter_In in Hr; tauto|exact Hr]|exact (H r0 Hr)].
Qed.

(* how a served response stems from the upstream one *)
Definition rr_from (r0 r : rr) : Prop :=
  r_type r = r_type r0 /\ r_class r = r_class r0 /\ r_id r = r_id r0 /\ r_ttl r <= r_ttl r0.

Definition sec_from (l0 l : list rr) : Prop :=
  (forall r, In r l -> exists r0, In r0 l0 /\ rr_from r0 r) /\
  (forall r0, In r0 l0 -> keep_rr r0 = true -> exists r, In r l /\ rr_from r0 r).

Definition derives (u0 r : resp) : Prop :=
  match u0, r with
  | RErr e0, RErr e => e = e0
  | RMsg m0, RErr e => e = parse_error /\ has_bad m0 = true   (* the message could not be rebuilt *)
  | RMsg m0, RMsg m =>
      m_rcode m = m_rcode m0 /\ m_tc m = m_tc m0 /\ m_q m = m_q m0 /\
      (m_ad m = true -> m_ad m0 = true) /\ (m_rd m = true -> m_rd m0 = true) /\
      m_id m = m_id m0 /\
      sec_from (m_an m0) (m_an m) /\ sec_from (m_ns m0) (m_ns m) /\ sec_from (m_ar m0) (m_ar m)
  | _, _ => False
  end.

Lemma rr_from_age a r : rr_from r (age a r).
Proof. unfold rr_from, age; cbn. repeat split; lia. Qed.

Lemma rr_from_age_opt a r : rr_from r (age_opt a r).
Proof.
  unfold age_opt. destruct (negb (r_type r =? rtype_opt)); [apply rr_from_age|].
  unfold rr_from. repeat split; lia.
Qed.

Lemma sec_from_map f (strip : bool) l0 : (forall r0, rr_from r0 (f r0)) ->
  sec_from l0 (map f (if strip then filter keep_rr l0 else l0)).
Proof.
  intros F. split; [apply (in_map_kept rr_from); intros r0 _; apply F|].
  intros r0 H K. exists (f r0). split; [|apply F].
  apply in_map. destruct strip; [apply filter_In; tauto|exact H].
Qed.

Lemma derives_aged x a qc u0 : derives u0 (aged a qc (xform_resp x u0)).
Proof.
  destruct u0 as [m0|e]; cbn; [|reflexivity].
  repeat split; try reflexivity;
    try (apply (sec_from_map (age a) (x_strip x)); intro; apply rr_from_age);
    try (apply (sec_from_map (age_opt a) (x_strip x)); intro; apply rr_from_age_opt).
  - destruct (x_ad x); [discriminate|auto].
  - destruct (x_rd x); [discriminate|auto].
Qed.

(* every served TTL is exactly the upstream TTL minus the whole seconds spent in the cache *)
Definition rr_aged (secs : N) (opt_exempt : bool) (r0 r : rr) : Prop :=
  r_type r = r_type r0 /\ r_class r = r_class r0 /\ r_id r = r_id r0 /\
  (if opt_exempt && (r_type r0 =? rtype_opt) then r_ttl r = r_ttl r0
   else r_ttl r + secs = r_ttl r0).

Definition sec_aged (secs : N) (opt_exempt : bool) (l0 l : list rr) : Prop :=
  forall r, In r l -> exists r0, In r0 l0 /\ rr_aged secs opt_exempt r0 r.

Definition resp_aged (secs : N) (u0 r : resp) : Prop :=
  match u0, r with
  | RMsg m0, RMsg m =>
      sec_aged secs false (m_an m0) (m_an m) /\ sec_aged secs false (m_ns m0) (m_ns m) /\
      sec_aged secs true (m_ar m0) (m_ar m)
  | RErr _, RErr _ => True
  | RMsg m0, RErr e => e = parse_error /\ has_bad m0 = true
  | _, _ => False
  end.

Lemma rr_aged_age secs r0 : secs <= r_ttl r0 -> rr_aged secs false r0 (age secs r0).
Proof. intros H. unfold rr_aged, age; cbn. repeat split; lia. Qed.

Lemma rr_aged_age_opt secs r0 : ((r_type r0 =? rtype_opt) = false -> secs <= r_ttl r0) ->
  rr_aged secs true r0 (age_opt secs r0).
Proof.
  intros H. unfold rr_aged, age_opt. destruct (r_type r0 =? rtype_opt); cbn [negb andb].
  - repeat split; reflexivity.
  - apply (rr_aged_age secs r0), H. reflexivity.
Qed.

Lemma resp_aged_aged secs qc x m0 : (forall y, counted (xform x m0) y -> secs <= r_ttl y) ->
  resp_aged secs (RMsg m0) (RMsg (aged_msg secs qc (xform x m0))).
Proof.
  unfold counted. cbn [resp_aged aged_msg xform m_an m_ns m_ar]. unfold sec_aged. intros B.
  split; [|split]; apply (in_map_kept (rr_aged secs _)); intros r0 H.
  - apply rr_aged_age, B. left; exact H.
  - apply rr_aged_age, B. right; left; exact H.
  - apply rr_aged_age_opt. intros T. apply B. right; right. split; assumption.
Qed.

(* ageing changes neither the class nor the extended rcode of a message *)
Lemma scan_auth_map f qc l : (forall r, r_type (f r) = r_type r /\ r_class (f r) = r_class r) ->
  forall b, scan_auth qc b (map f l) = scan_auth qc b l.
Proof.
  intros Hf. induction l as [|r t IH]; intros b; cbn [map scan_auth]; [reflexivity|].
  destruct (Hf r) as [-> ->]. rewrite IH. reflexivity.
Qed.

Lemma existsb_map {A B} (f : B -> bool) (g : A -> B) l :
  existsb f (map g l) = existsb (fun x => f (g x)) l.
Proof. induction l as [|a t IH]; cbn; [reflexivity|rewrite IH; reflexivity]. Qed.

Lemma classify_aged a qc m : classify_no_error (aged_msg a qc m) = classify_no_error m.
Proof.
  unfold classify_no_error; cbn [aged_msg m_q m_an m_ns].
  destruct (m_q m) as [[qt qc0]|]; [|reflexivity].
  rewrite existsb_map. cbn [age r_type r_class].
  rewrite (scan_auth_map (age a)); [reflexivity|intros r; split; reflexivity].
Qed.

Lemma first_opt_age a l : first_opt (map (age_opt a) l) = first_opt l.
Proof.
  unfold first_opt. induction l as [|r t IH]; [reflexivity|]. cbn [map find].
  unfold age_opt at 1 2. destruct (r_type r =? rtype_opt) eqn:E; cbn [negb].
  - rewrite E. reflexivity.
  - cbn [age r_type]. rewrite E. exact IH.
Qed.

Lemma opt_rcode_aged a c m : opt_rcode (aged_msg a c m) = opt_rcode m.
Proof. unfold opt_rcode. cbn [aged_msg m_ar m_rcode]. rewrite first_opt_age. reflexivity. Qed.

Lemma counted_aged a qc m y : counted (aged_msg a qc m) y ->
  exists y0, counted m y0 /\ r_ttl y = r_ttl y0 - a.
Proof.
  unfold counted; cbn [aged_msg m_an m_ns m_ar].
  intros [H|[H|[H Ho]]]; apply in_map_iff in H; destruct H as (y0 & <- & H).
  - exists y0; split; [left; exact H|reflexivity].
  - exists y0; split; [right; left; exact H|reflexivity].
  - unfold age_opt in *. destruct (r_type y0 =? rtype_opt) eqn:T; cbn [negb] in *.
    + rewrite T in Ho; discriminate.
    + exists y0; split; [right; right; split; assumption|reflexivity].
Qed.

(* the bound that applies to a served answer, read off the answer itself *)
Definition within (elapsed_ms bound_s : N) : Prop := elapsed_ms <= bound_s * 1000.

Definition fresh_by_class (cfg : config) (e : N) (u0 r : resp) : Prop :=
  match r with
  | RErr _ =>
      match u0 with
      | RErr _ => within e (c_tf cfg)      (* a cached transport failure *)
      | RMsg _ => within e (c_maxv cfg)    (* the parse error standing for a fresh entry *)
      end
  | RMsg m =>
      within e (c_maxv cfg) /\
      (opt_rcode m = 3 -> within e (c_nx cfg)) /\
      (opt_rcode m <> 0 -> opt_rcode m <> 3 -> within e (c_misc cfg)) /\
      (opt_rcode m = 0 -> classify_no_error m = Ok NoData -> within e (c_nodata cfg)) /\
      (opt_rcode m = 0 -> classify_no_error m = Ok Delegation -> within e (c_deleg cfg)) /\
      (opt_rcode m = 0 -> classify_no_error m = Ok Weird -> e = 0) /\
      (m_tc m = true -> c_trunc cfg = false -> e = 0) /\
      (* no record is served beyond its own TTL: its original TTL is what is
         left plus the whole seconds spent in the cache *)
      (forall x, counted m x -> within e (r_ttl x + e / 1000))
  end.

(* ageing changes neither class nor rcode, so the bounds of the stored
   validity ([validity_by_class]) are those of the served message *)
Lemma fresh_by_class_aged cfg e qc m v u0 : validity cfg (RMsg m) = Ok v -> e <= v * 1000 ->
  fresh_by_class cfg e u0 (RMsg (aged_msg (e / 1000) qc m)).
Proof.
  intros V E. cbn [fresh_by_class]. rewrite classify_aged, opt_rcode_aged. cbn [aged_msg m_tc].
  destruct (validity_by_class _ _ _ V) as (H1 & H2 & H3 & H4 & H5 & H6 & H7 & _ & H9).
  unfold within. repeat split; try (intros; lia).
  intros y Hy. destruct (counted_aged _ _ _ _ Hy) as (y0 & Hy0 & ->). specialize (H9 _ Hy0).
  assert (Hs : e / 1000 <= v) by (apply N.div_le_upper_bound; lia).
  set (s := e / 1000) in *. clearbody s. lia.
Qed.

Definition no_dnssec_rrs (l : list rr) : Prop := forall r, In r l -> is_dnssec (r_type r) = false.
Definition no_dnssec (r : resp) : Prop :=
  match r with
  | RMsg m => no_dnssec_rrs (m_an m) /\ no_dnssec_rrs (m_ns m) /\ no_dnssec_rrs (m_ar m)
  | RErr _ => True
  end.

Lemma age_type a r : r_type (age a r) = r_type r. Proof. reflexivity. Qed.
Lemma age_opt_type a r : r_type (age_opt a r) = r_type r.
Proof. unfold age_opt; destruct (negb _); reflexivity. Qed.

Lemma no_dnssec_filter_age f l :
  (forall r, r_type (f r) = r_type r) -> no_dnssec_rrs (map f (filter keep_rr l)).
Proof.
  intros Hf r H. destruct (in_map_kept (fun r0 r => is_dnssec (r_type r) = false) f true l) with (r := r)
    as (_ & _ & K); [|exact H|exact K].
  intros r0 H0. apply filter_In in H0. rewrite Hf. apply negb_true_iff, H0.
Qed.

Lemma no_dnssec_sub l : no_dnssec_rrs l -> no_dnssec_rrs (filter keep_rr l).
Proof. intros N r H. apply filter_In in H. apply N; tauto. Qed.

Lemma no_dnssec_from l0 l : sec_from l0 l -> no_dnssec_rrs l0 -> no_dnssec_rrs l.
Proof. intros [F _] N r H. destruct (F r H) as (r0 & H0 & T & _). rewrite T. exact (N r0 H0). Qed.

(* the stripped types are RRSIG, NSEC and NSEC3 *)
Lemma no_dnssec_types l : no_dnssec_rrs l ->
  forall r, In r l -> r_type r <> 46 /\ r_type r <> 47 /\ r_type r <> 50.
Proof.
  intros N r H. specialize (N r H).
  repeat split; intros E; rewrite E in N; discriminate N.
Qed.

Lemma leak_aged k0 k x u0 a qc : compat k0 k x u0 ->
  (k_addo k <> AdDo_Do -> k_addo k0 = AdDo_Do -> no_dnssec (aged a qc (xform_resp x u0))) /\
  (k_addo k = AdDo_None -> k_addo k0 <> AdDo_None -> resp_ad (aged a qc (xform_resp x u0)) = false).
Proof.
  intros (_ & _ & _ & _ & _ & _ & _ & _ & _ & _ & H11 & H12). split.
  - intros Hn Hd. specialize (H11 Hd Hn).
    destruct u0 as [m0|e0]; cbn; [|exact I]. rewrite H11.
    repeat split; apply no_dnssec_filter_age; intros; [apply age_type|apply age_type|apply age_opt_type].
  - intros Hn Hd. specialize (H12 Hn Hd). destruct u0 as [m0|e0]; cbn in *; [exact H12|reflexivity].
Qed.

(* The exchange (k0, t0, u0) explains the answer [r] to a request with key [k]
   and spelling [qc] at time [now].  [fresh] excludes the known class of
   [never_stale]: the error of a failed lookup says nothing about age. *)
Set Implicit Arguments.
Record explained (cfg : config) (k0 : key) (t0 : N) (u0 : resp) (k : key) (now qc : N) (r : resp)
  (fresh : Prop) : Prop := {
  ex_question : same_question k0 k;
  ex_flags : flags_compatible k0 k;
  ex_derives : derives u0 r;
  ex_stripped : k_addo k <> AdDo_Do -> k_addo k0 = AdDo_Do -> no_dnssec r;
  ex_ad_clear : k_addo k = AdDo_None -> k_addo k0 <> AdDo_None -> resp_ad r = false;
  ex_header : forall m, r = RMsg m -> m_aa m = false /\ (m_q m <> None -> m_qcase m = qc);
  ex_aged : cfg_ok cfg -> resp_aged ((now - t0) / 1000) u0 r;
  ex_fresh : cfg_ok cfg -> fresh -> fresh_by_class cfg (now - t0) u0 r }.
Unset Implicit Arguments.

(* MessageParseError in place of an entry that holds an unparsable record *)
Lemma explained_parse_error cfg k0 t0 m0 k now qc (fresh : Prop) :
  same_question k0 k -> flags_compatible k0 k -> has_bad m0 = true ->
  (fresh -> within (now - t0) (c_maxv cfg)) ->
  explained cfg k0 t0 (RMsg m0) k now qc (RErr parse_error) fresh.
Proof.
  intros Q Fl B W.
  split; [exact Q|exact Fl|cbn; auto|intros; exact I|reflexivity|discriminate|cbn; auto|intros _; exact W].
Qed.

Lemma fresh_value_explained cfg L k v now qc (fresh : Prop) :
  prov cfg L k v -> expired (elapsed_ms v now) (v_valid v) = false ->
  exists k0 u0, In (k0, v_created v, u0) L /\
    explained cfg k0 (v_created v) u0 k now qc (served_resp v now qc) fresh.
Proof.
  intros (k0 & t0 & u0 & x & Hin & <- & Hr & Hk & V) E. exists k0, u0. split; [exact Hin|].
  destruct (compat_question _ _ _ _ Hk) as [Q Fl].
  unfold served_resp, elapsed_ms in *. rewrite Hr in *.
  destruct (resp_has_bad (xform_resp x u0)) eqn:B.
  { destruct u0 as [m0|e0]; [|discriminate B]. cbn [xform_resp map_resp resp_has_bad] in B, V.
    apply explained_parse_error; [exact Q|exact Fl|exact (has_bad_xform x m0 B)|].
    intros _. apply validity_by_class in V. destruct V as [V _]. apply not_expired_le in E. unfold within. lia. }
  split; [exact Q|exact Fl|apply derives_aged|apply (leak_aged k0 k x u0), Hk|apply (leak_aged k0 k x u0), Hk|..];
    destruct u0 as [m0|e0]; cbn [xform_resp map_resp aged] in *; try discriminate.
  - intros m [= <-]. split; [reflexivity|]. cbn. unfold restore_case. cbn. destruct (m_q m0); congruence.
  - intros C. pose proof (age_le_ttl cfg _ _ _ V E) as Bd. rewrite (cast_secs_fresh cfg _ _ _ C V E) in *.
    exact (resp_aged_aged _ qc x m0 Bd).
  - intros _. exact I.
  - intros C _. rewrite (cast_secs_fresh cfg _ _ _ C V E).
    apply (fresh_by_class_aged cfg _ qc _ _ _ V), not_expired_le, E.
  - intros _ _. cbn [validity] in V. rewrite gen_cap_failure in V. injection V as V.
    cbn [fresh_by_class]. rewrite V. exact (not_expired_le _ _ E).
Qed.

(* the common core: whatever is answered without upstream comes from a logged
   upstream exchange for the same question with compatible flags *)
Lemma served_explained cfg st ev k now qc st' r :
  request_of ev = Some (k, now, qc) -> inv cfg st -> step cfg st ev = Ok (st', OServed r) ->
  exists k0 t0 u0, In (k0, t0, u0) (s_log st) /\
    explained cfg k0 t0 u0 k now qc r (~ lookup_failed cfg st k).
Proof.
  intros Q I S.
  assert (St : exists op st1, start cfg st k op qc now = Ok (st1, SServed r)).
  { destruct ev as [k' op qc' now' delay u|k' op qc' now'| |]; try discriminate;
      injection Q as -> -> ->; cbn [step] in S; exists op;
      destruct (start cfg st k op qc now) as [[st1 [s| |]]| | |]; cbn [bind] in S; try discriminate.
    - injection S as _ <-. eauto.
    - destruct (finish_spec _ _ _ _ _ _ _ S) as ([H|[e H]] & _); discriminate H.
    - injection S as _ <-. eauto. }
  destruct St as (op & st1 & St).
  destruct (returns_ok _ _ _ (start_ok cfg st k op qc now I) St)
    as (_ & _ & _ & _ & [(v & P & E & ->)|(c & e & LF & -> & F)]).
  - destruct (fresh_value_explained cfg _ k v now qc (~ lookup_failed cfg st k) P E) as (k0 & u0 & H).
    exists k0, (v_created v), u0. exact H.
  - destruct F as (_ & -> & k0 & t0 & m0 & Hin & Q' & Fl & B).
    exists k0, t0, (RMsg m0). split; [exact Hin|].
    apply explained_parse_error; try assumption. intros NF. destruct NF. exists c, parse_error. exact LF.
Qed.

Lemma store_invariant cfg evs st os : run cfg state_init evs = Ok (st, os) -> inv cfg st.
Proof. intros R. exact (proj1 (run_store_ok cfg evs _ _ _ (store_ok_init cfg) R)). Qed.

Lemma served_explained_run cfg evs st os ev k now qc st' r :
  request_of ev = Some (k, now, qc) ->
  run cfg state_init evs = Ok (st, os) ->
  step cfg st ev = Ok (st', OServed r) ->
  exists k0 t0 u0, logged evs os (k0, t0, u0) /\
    explained cfg k0 t0 u0 k now qc r (~ lookup_failed cfg st k).
Proof.
  intros Hq R S.
  destruct (served_explained _ _ _ _ _ _ _ _ Hq (store_invariant _ _ _ _ R) S) as (k0 & t0 & u0 & Hin & X).
  exists k0, t0, u0. split; [|exact X].
  destruct (run_log cfg evs _ _ _ _ (inv_init cfg) R Hin) as [[]|L]; exact L.
Qed.

Lemma served_was_received cfg evs st os ev k now qc st' r :
  request_of ev = Some (k, now, qc) ->
  run cfg state_init evs = Ok (st, os) ->
  step cfg st ev = Ok (st', OServed r) ->
  exists k0 t0 u0,
    logged evs os (k0, t0, u0) /\ same_question k0 k /\ flags_compatible k0 k /\ derives u0 r.
Proof.
  intros Hq R S.
  destruct (served_explained_run _ _ _ _ _ _ _ _ _ _ Hq R S) as (k0 & t0 & u0 & L & X).
  exists k0, t0, u0. exact (conj L (conj (ex_question X) (conj (ex_flags X) (ex_derives X)))).
Qed.

(* CD partitions the cache, DO is only satisfied from DO *)
Lemma same_cd_compatible_do cfg evs st os ev k now qc st' r :
  request_of ev = Some (k, now, qc) ->
  run cfg state_init evs = Ok (st, os) ->
  step cfg st ev = Ok (st', OServed r) ->
  exists k0 t0 u0, logged evs os (k0, t0, u0) /\ same_question k0 k /\ derives u0 r /\
    k_cd k0 = k_cd k /\ (k_addo k = AdDo_Do -> k_addo k0 = AdDo_Do).
Proof.
  intros Hq R S. destruct (served_was_received cfg evs st os ev k now qc st' r Hq R S)
    as (k0 & t0 & u0 & L & Q & (F1 & _ & F3 & _) & D).
  exists k0, t0, u0. auto.
Qed.

Lemma ttl_aged cfg evs st os ev k now qc st' r :
  request_of ev = Some (k, now, qc) ->
  cfg_ok cfg ->
  run cfg state_init evs = Ok (st, os) ->
  step cfg st ev = Ok (st', OServed r) ->
  exists k0 t0 u0,
    logged evs os (k0, t0, u0) /\ same_question k0 k /\ resp_aged ((now - t0) / 1000) u0 r.
Proof.
  intros Hq C R S.
  destruct (served_explained_run _ _ _ _ _ _ _ _ _ _ Hq R S) as (k0 & t0 & u0 & L & X).
  exists k0, t0, u0. exact (conj L (conj (ex_question X) (ex_aged X C))).
Qed.

(* The known class: the cascade failed while rewriting an entry.  Its age is
   never looked at, so such a parse error can be handed out long after the
   entry's validity has passed (never_stale_refuted). *)
Lemma never_stale cfg evs st os ev k now qc st' r :
  request_of ev = Some (k, now, qc) ->
  cfg_ok cfg ->
  run cfg state_init evs = Ok (st, os) ->
  ~ lookup_failed cfg st k ->
  step cfg st ev = Ok (st', OServed r) ->
  exists k0 t0 u0,
    logged evs os (k0, t0, u0) /\ same_question k0 k /\ derives u0 r /\
    fresh_by_class cfg (now - t0) u0 r.
Proof.
  intros Hq C R NF S.
  destruct (served_explained_run _ _ _ _ _ _ _ _ _ _ Hq R S) as (k0 & t0 & u0 & L & X).
  exists k0, t0, u0. exact (conj L (conj (ex_question X) (conj (ex_derives X) (ex_fresh X C NF)))).
Qed.

(* after the fix (T1: strip_failure_is_miss = true) the excluded class is empty *)
Lemma lookup_failed_only_before_fix cfg evs st os k :
  strip_failure_is_miss = true -> run cfg state_init evs = Ok (st, os) -> ~ lookup_failed cfg st k.
Proof.
  intros F R (c & e & H). exact (lookup_never_fails cfg _ k _ c e F (store_invariant _ _ _ _ R) H).
Qed.

(* the fix is in (T1): no premise left *)
Lemma gen_strip_miss : strip_failure_is_miss = true. Proof. reflexivity. Qed.

Lemma never_stale_unconditional cfg evs st os ev k now qc st' r :
  request_of ev = Some (k, now, qc) ->
  cfg_ok cfg ->
  run cfg state_init evs = Ok (st, os) ->
  step cfg st ev = Ok (st', OServed r) ->
  exists k0 t0 u0,
    logged evs os (k0, t0, u0) /\ same_question k0 k /\ derives u0 r /\
    fresh_by_class cfg (now - t0) u0 r.
Proof.
  intros Hq C R S. apply (never_stale cfg evs st os ev k now qc st' r Hq C R); [|exact S].
  exact (lookup_failed_only_before_fix cfg evs st os k gen_strip_miss R).
Qed.

(* witness: an answer to a DO request with one unparsable record, valid for
   60 s; a request without DO a million seconds later gets MessageParseError
   from the cache, upstream is not asked *)
Definition witness_stale_bad : resp :=
  RMsg (mkMsg 7 0 false false true false (Some (1, 1)) 1 [mkRR 1 1 60 1 false; mkRR 1 1 60 2 true] [] [] false).
Definition witness_stale : list event :=
  [EQuery (key_of_request 1 1 1 true false false true) 0 1 0 0 witness_stale_bad].
Definition witness_stale_query : event :=
  EQuery (key_of_request 1 1 1 true false false false) 0 1 1000000000 0 (RErr 1).

Lemma never_stale_refuted : strip_failure_is_miss = false ->
  validity config_default witness_stale_bad = Ok 60 /\
  exists st os st',
    run config_default state_init witness_stale = Ok (st, os) /\
    lookup_failed config_default st (key_of_request 1 1 1 true false false false) /\
    step config_default st witness_stale_query = Ok (st', OServed (RErr parse_error)).
Proof.
  intros F.
  (* once the fix is in, T1 makes the premise false *)
  first
    [ solve [exfalso; vm_compute in F; discriminate F]
    | solve [split; [vm_compute; reflexivity|];
             do 3 eexists; split; [lazy; reflexivity|];
             split; [do 2 eexists; lazy; reflexivity|lazy; reflexivity]] ].
Qed.

(* (a) whatever upstream does: an answer obtained for a DO request is stripped
   before it reaches a request without DO, and AD is cleared for a request
   with neither AD nor DO unless the very same kind of request obtained it *)
Lemma no_dnssec_leak cfg evs st os ev k now qc st' r :
  request_of ev = Some (k, now, qc) ->
  run cfg state_init evs = Ok (st, os) ->
  step cfg st ev = Ok (st', OServed r) ->
  exists k0 t0 u0,
    logged evs os (k0, t0, u0) /\ same_question k0 k /\ flags_compatible k0 k /\ derives u0 r /\
    (k_addo k <> AdDo_Do -> k_addo k0 = AdDo_Do -> no_dnssec r) /\
    (k_addo k = AdDo_None -> k_addo k0 <> AdDo_None -> resp_ad r = false).
Proof.
  intros Hq R S.
  destruct (served_explained_run _ _ _ _ _ _ _ _ _ _ Hq R S) as (k0 & t0 & u0 & L & X).
  exists k0, t0, u0.
  exact (conj L (conj (ex_question X) (conj (ex_flags X) (conj (ex_derives X) (conj (ex_stripped X) (ex_ad_clear X)))))).
Qed.

(* (b) with an upstream that itself respects DO / AD, no served answer leaks:
   what was not stripped or cleared on the way was never there *)
Definition upstream_respects_flags (L : ulog) : Prop :=
  forall k0 t0 m0, In (k0, t0, RMsg m0) L ->
    (k_addo k0 <> AdDo_Do -> no_dnssec (RMsg m0)) /\ (k_addo k0 = AdDo_None -> m_ad m0 = false).

Lemma no_leak_honest_upstream cfg evs st os ev k now qc st' r :
  request_of ev = Some (k, now, qc) ->
  run cfg state_init evs = Ok (st, os) -> upstream_respects_flags (s_log st) ->
  step cfg st ev = Ok (st', OServed r) ->
  (k_addo k <> AdDo_Do -> no_dnssec r) /\ (k_addo k = AdDo_None -> resp_ad r = false).
Proof.
  intros Hq R W S.
  destruct (served_explained _ _ _ _ _ _ _ _ Hq (store_invariant _ _ _ _ R) S)
    as (k0 & t0 & u0 & Hin & [_ _ D L1 L2 _ _ _]).
  destruct r as [m|e]; [|split; intros; [exact I|reflexivity]].
  destruct u0 as [m0|e0]; [|destruct D].
  destruct (W _ _ _ Hin) as [W1 W2].
  destruct D as (_ & _ & _ & Dad & _ & _ & San & Sns & Sar).
  split; intros Hn; destruct (k_addo k0) eqn:K0;
    try (apply L1; [exact Hn|reflexivity]); try (apply L2; [exact Hn|discriminate]).
  1,2: destruct W1 as (N1 & N2 & N3); [discriminate|]; repeat split; eapply no_dnssec_from; eassumption.
  cbn. destruct (m_ad m); [|reflexivity]. specialize (Dad eq_refl). specialize (W2 eq_refl). congruence.
Qed.

(* the served question carries the name as the current request spelled it *)
Lemma served_question_case cfg st ev k now qc st' m :
  request_of ev = Some (k, now, qc) ->
  inv cfg st -> step cfg st ev = Ok (st', OServed (RMsg m)) -> m_q m <> None -> m_qcase m = qc.
Proof.
  intros Hq I S. destruct (served_explained _ _ _ _ _ _ _ _ Hq I S) as (k0 & t0 & u0 & _ & X).
  exact (proj2 (ex_header X eq_refl)).
Qed.

Lemma served_not_authoritative cfg st ev k now qc st' m :
  request_of ev = Some (k, now, qc) ->
  inv cfg st -> step cfg st ev = Ok (st', OServed (RMsg m)) -> m_aa m = false.
Proof.
  intros Hq I S. destruct (served_explained _ _ _ _ _ _ _ _ Hq I S) as (k0 & t0 & u0 & _ & X).
  exact (proj1 (ex_header X eq_refl)).
Qed.

Lemma expired_entry_not_served v now qc :
  v_valid v * 1000 < now - v_created v -> get_response v now qc = None.
Proof. intros H. unfold get_response, elapsed_ms. rewrite (expired_gt _ _ H). reflexivity. Qed.

(* classification does not change when DNSSEC records are stripped for a
   question whose type is not a DNSSEC type *)
Lemma scan_auth_filter qc l : forall b, scan_auth qc b (filter keep_rr l) = scan_auth qc b l.
Proof.
  induction l as [|r t IH]; intros b; cbn [filter scan_auth]; [reflexivity|].
  destruct (keep_rr r) eqn:K; cbn [scan_auth]; [rewrite IH; reflexivity|].
  unfold keep_rr in K. apply negb_false_iff in K.
  destruct gen_soa_ns_not_dnssec as (S1 & S2 & _).
  destruct (r_type r =? rtype_soa) eqn:E1; [apply N.eqb_eq in E1; congruence|].
  destruct (r_type r =? rtype_ns) eqn:E2; [apply N.eqb_eq in E2; congruence|].
  rewrite !andb_false_r. apply IH.
Qed.

Lemma class_stable x m0 qt qc :
  m_q m0 = Some (qt, qc) -> (x_strip x = true -> is_dnssec qt = false) ->
  classify_no_error (xform x m0) = classify_no_error m0.
Proof.
  intros Q H. unfold classify_no_error; cbn [xform m_q m_an m_ns]. rewrite Q.
  destruct (x_strip x); [|reflexivity]. specialize (H eq_refl).
  rewrite scan_auth_filter.
  replace (existsb (fun r => (r_type r =? qt) && (r_class r =? qc)) (filter keep_rr (m_an m0)))
    with (existsb (fun r => (r_type r =? qt) && (r_class r =? qc)) (m_an m0)); [reflexivity|].
  induction (m_an m0) as [|r t IH]; [reflexivity|]. cbn [filter existsb].
  destruct (keep_rr r) eqn:K; cbn [existsb]; [rewrite IH; reflexivity|].
  unfold keep_rr in K. apply negb_false_iff in K.
  destruct (r_type r =? qt) eqn:E; [apply N.eqb_eq in E; congruence|]. cbn [andb orb]. exact IH.
Qed.

(* the known class: an upstream "response" without a question section *)
Definition no_question (u : resp) : Prop := exists m, u = RMsg m /\ m_q m = None.

Definition ev_ok (ev : event) : Prop :=
  match ev with
  | EQuery _ _ _ _ _ u | EFinish _ _ u => classify_expects_question = true -> ~ no_question u
  | _ => True
  end.

Lemma validity_cases cfg u : (classify_expects_question = true -> ~ no_question u) ->
  (exists v, validity cfg u = Ok v) \/ validity cfg u = Err parse_error.
Proof.
  intros H. destruct u as [m|e]; [|cbn; eauto].
  unfold validity. destruct (m_tc m && negb (c_trunc cfg)); [eauto|].
  destruct (m_broken m); [right; reflexivity|]. left.
  unfold class_cap. destruct (class_rcode m) as [|p].
  - unfold classify_no_error. destruct (m_q m) as [[qt qc]|] eqn:Q.
    + destruct (existsb _ (m_an m)); cbn [bind]; eauto.
    + destruct classify_expects_question; [|cbn [bind]; eauto].
      exfalso. apply (H eq_refl). exists m; auto.
  - destruct p as [[]|[]|]; cbn [bind]; eauto.
Qed.

Lemma finish_total cfg st k t u :
  (classify_expects_question = true -> ~ no_question u) -> exists r, finish cfg st k t u = Ok r.
Proof.
  intros Hev. unfold finish.
  destruct (validity_cases cfg u Hev) as [[val V]|V]; rewrite V; [|eauto].
  destruct (returns_ex _ _ (cache_insert_fresh cfg (s_log st) k t val u (s_cache st) V)) as (c2 & -> & _).
  cbn [bind]. eauto.
Qed.

(* the lookup and get_response never panic on a store with the invariant
   ([start_ok]); only the classification of a new upstream answer can *)
Lemma step_total cfg st ev : inv cfg st -> ev_ok ev -> exists r, step cfg st ev = Ok r.
Proof.
  intros I Hev. destruct ev as [k op qc now delay u|k op qc now|k t u|n]; cbn [step]; [| | |eauto].
  - destruct (returns_ex _ _ (start_ok cfg st k op qc now I)) as ([st1 sr] & -> & _). cbn [bind].
    destruct sr; [eauto| |eauto]. apply finish_total. exact Hev.
  - destruct (returns_ex _ _ (start_ok cfg st k op qc now I)) as ([st1 sr] & -> & _). cbn [bind]. eauto.
  - apply finish_total. exact Hev.
Qed.

Lemma run_total cfg evs : forall st, inv cfg st -> Forall ev_ok evs ->
  exists r, run cfg st evs = Ok r.
Proof.
  induction evs as [|e t IH]; intros st I F; cbn [run]; [eauto|].
  inversion F as [|? ? He Ft]; subst.
  destruct (step_total cfg st e I He) as [[st1 o] S]. rewrite S; cbn [bind].
  destruct (IH st1 (step_inv _ _ _ _ _ I S) Ft) as [[st2 os] R]. rewrite R; cbn [bind]. eauto.
Qed.

Lemma no_panic_all_histories cfg evs : Forall ev_ok evs -> exists os, c20_run cfg evs = Ok os.
Proof.
  intros F. unfold c20_run.
  destruct (run_total cfg evs state_init (inv_init cfg) F) as [[st os] R]. rewrite R. cbn. eauto.
Qed.

(* the expect() is gone from classify_no_error (T1), so there is no premise left *)
Lemma gen_no_expect : classify_expects_question = false. Proof. reflexivity. Qed.

Lemma no_panic_unconditional cfg evs : exists os, c20_run cfg evs = Ok os.
Proof.
  apply no_panic_all_histories. apply Forall_forall. intros ev _.
  destruct ev; cbn; try exact I; rewrite gen_no_expect; discriminate.
Qed.

Definition witness_no_question : list event :=
  [EQuery (mkKey 1 1 1 AdDo_None false true) 0 1 0 0
     (RMsg (mkMsg 7 0 false false true false None 1 [mkRR 1 1 60 7 false] [] [] false))].

Lemma no_panic_refuted : classify_expects_question = true ->
  ~ Forall ev_ok witness_no_question /\ c20_run config_default witness_no_question = Panic 1.
Proof.
  intros H.
  first
    [ solve [exfalso; vm_compute in H; discriminate H]
    | solve [split;
             [intros F; inversion F as [|? ? He _]; subst; apply (He H); eexists; split; reflexivity
             |vm_compute; reflexivity]] ].
Qed.

(* only QUERY / IN requests touch the cache *)
Lemma bypass_untouched cfg st k op qc now delay u :
  op <> 0 \/ k_class k <> class_in ->
  step cfg st (EQuery k op qc now delay u) = Ok (st, OBypass) /\
  step cfg st (EStart k op qc now) = Ok (st, OBypass).
Proof.
  intros H. cbn [step]. unfold start.
  destruct ((op =? 0) && (k_class k =? class_in)) eqn:E; [|split; reflexivity].
  apply andb_true_iff in E. destruct E as [E1 E2]. apply N.eqb_eq in E1, E2. tauto.
Qed.

Example ex_bypass :
  c20_run config_default
    [EQuery (key_of_request 1 3 1 true false false false) 0 1 0 0 (RErr 1);
     EQuery (key_of_request 1 1 1 true false false false) 4 1 0 0 (RErr 1);
     EQuery (key_of_request 1 1 1 true false false false) 0 1 0 0 (RErr 1);
     EQuery (key_of_request 1 1 1 true false false false) 0 1 1 0 (RErr 1)]
  = Ok [OBypass; OBypass; OForwarded; OServed (RErr 1)].
Proof. vm_compute. reflexivity. Qed.

(* liveness: a fresh exact entry is always served, the store is not touched *)
Lemma fresh_entry_served cfg st k qc now v :
  inv cfg st -> k_class k = class_in -> cget k (s_cache st) = Some v ->
  now - v_created v <= v_valid v * 1000 ->
  exists r,
    (forall delay u, step cfg st (EQuery k 0 qc now delay u) = Ok (st, OServed r)) /\
    step cfg st (EStart k 0 qc now) = Ok (st, OServed r) /\
    (r = aged (cast_secs (now - v_created v)) qc (v_resp v) \/
     (r = RErr parse_error /\ resp_has_bad (v_resp v) = true)).
Proof.
  intros I Hc G Hb. exists (served_resp v now qc).
  assert (St : start cfg st k 0 qc now = Ok (st, SServed (served_resp v now qc))).
  { unfold start. rewrite Hc, !N.eqb_refl. cbn [andb negb].
    unfold cache_lookup, cache_lookup_rd_do_ad, cache_lookup_do_ad, cache_lookup_ad. rewrite G. cbn [bind].
    rewrite (get_response_valid cfg) by exact (prov_valid _ _ _ _ (I _ _ (cget_In _ _ _ G))).
    unfold elapsed_ms, served_resp. rewrite (le_not_expired _ _ Hb).
    destruct st; destruct (resp_has_bad (v_resp v)); reflexivity. }
  cbn [step]. rewrite St. split; [reflexivity|]. split; [reflexivity|].
  unfold served_resp. destruct (resp_has_bad (v_resp v)); auto.
Qed.

(* at the boundary: `>` not `>=` *)
Lemma boundary_served cfg st k qc now delay u v :
  inv cfg st -> k_class k = class_in -> cget k (s_cache st) = Some v ->
  now - v_created v = v_valid v * 1000 ->
  exists st' r, step cfg st (EQuery k 0 qc now delay u) = Ok (st', OServed r).
Proof.
  intros I Hc G Hb. destruct (fresh_entry_served cfg st k qc now v I Hc G) as (r & S & _); [lia|].
  exists st, r. apply S.
Qed.

(* BADVERS (16), BADMODE (19), 0x123, ...: whatever the low nibble says, an
   extended rcode is a "misc error" and is kept for at most misc_error_duration *)
Lemma extended_rcode_both cfg m v : 16 <= opt_rcode m ->
  class_cap cfg m = Ok (N.min (c_maxv cfg) (c_misc cfg)) /\
  (validity cfg (RMsg m) = Ok v -> v <= c_misc cfg).
Proof.
  intros H. split.
  - unfold class_cap. rewrite gen_cap_base, gen_cap_misc, class_rcode_is_opt.
    destruct (opt_rcode m) as [|p]; [lia|].
    destruct p as [[p|p|]|[p|p|]|]; try reflexivity; lia.
  - intros V. apply validity_by_class in V. destruct V as (_ & _ & V & _). apply V; lia.
Qed.

(* the high bits sit in the OPT record: a NOERROR / NXDOMAIN header with an
   OPT ext-rcode octet e > 0 is an extended rcode *)
Lemma opt_rcode_high m o : first_opt (m_ar m) = Some o -> r_bad o = false -> 2 ^ 24 <= r_ttl o ->
  16 <= opt_rcode m.
Proof.
  intros F B H. unfold opt_rcode. rewrite F, B, gen_opt_shift.
  assert (1 <= r_ttl o / 2 ^ 24) by (apply N.div_le_lower_bound; lia). lia.
Qed.

Example ex_badvers :
  c20_run config_default
    [EQuery (mkKey 1 1 1 AdDo_None false true) 0 1 0 0
       (RMsg (mkMsg 9 0 false false true false (Some (1, 1)) 1 [mkRR 1 1 600 1 false] []
                    [mkRR 41 1232 16777216 2 false] false));
     EQuery (mkKey 1 1 1 AdDo_None false true) 0 1 30000 0 (RErr 1);
     EQuery (mkKey 1 1 1 AdDo_None false true) 0 1 30001 0 (RErr 1)]
  = Ok [OForwarded;
        OServed (RMsg (mkMsg 9 0 false false true false (Some (1, 1)) 1 [mkRR 1 1 570 1 false] []
                    [mkRR 41 1232 16777216 2 false] false));
        OForwarded].
Proof. vm_compute. reflexivity. Qed.

(* Key::new: every component of the request is in the key *)
Lemma key_of_request_fields name cls ty rd cd ad dnssec_ok :
  let k := key_of_request name cls ty rd cd ad dnssec_ok in
  k_name k = name /\ k_class k = cls /\ k_type k = ty /\ k_cd k = cd /\ k_rd k = rd /\
  k_addo k = (if dnssec_ok then AdDo_Do else if ad then AdDo_Ad else AdDo_None).
Proof. destruct rd, cd, ad, dnssec_ok; cbn; auto 10. Qed.

(* RequestMessage: one serialisation, the base message's OPT record never
   reaches the key or the wire *)
Lemma gen_request_paths : request_one_serialisation = true /\ request_base_opt_dropped = true.
Proof. split; reflexivity. Qed.

Lemma base_opt_ignored name cls ty rd cd ad b b' own :
  key_of_request_msg name cls ty rd cd ad b own = key_of_request_msg name cls ty rd cd ad b' own /\
  (own = None -> k_addo (key_of_request_msg name cls ty rd cd ad b own) <> AdDo_Do).
Proof.
  split; [reflexivity|]. intros ->. unfold key_of_request_msg, request_do, key_of_request. cbn.
  destruct ad; discriminate.
Qed.

Lemma value_served cfg L k v now qc r :
  prov cfg L k v -> get_response v now qc = Some (Ok r) ->
  exists k0 t0 u0,
    In (k0, t0, u0) L /\ same_question k0 k /\ flags_compatible k0 k /\ derives u0 r /\
    v_created v = t0 /\ now - t0 <= v_valid v * 1000.
Proof.
  intros P G. rewrite (get_response_valid cfg) in G by exact (prov_valid _ _ _ _ P).
  destruct (expired (elapsed_ms v now) (v_valid v)) eqn:E; [discriminate|].
  destruct (fresh_value_explained cfg L k v now qc True P E) as (k0 & u0 & Hin & [Q F D _ _ _ _ _]).
  unfold served_resp in D. destruct (resp_has_bad (v_resp v)); [discriminate|]. injection G as <-.
  exists k0, (v_created v), u0. repeat (split; [assumption|]). split; [reflexivity|exact (not_expired_le _ _ E)].
Qed.

(* Between two awaits on the store other requests may read, insert and evict.
   Safety does not depend on the cascade being atomic: (1) whatever is read
   from the store has provenance; (2) provenance survives growth of the log;
   (3) each of the three rewrites turns provenance for the alternate key into
   provenance for the query key, whatever the store looks like by then;
   (4) inserting a value with provenance, at any later time, keeps the store
   invariant; (5) a response prepared from any value with provenance is
   explained by a logged upstream answer and is fresh for that value. *)
Lemma interleaved_cascade_safe cfg :
  (forall st k v, inv cfg st -> cget k (s_cache st) = Some v -> prov cfg (s_log st) k v) /\
  (forall L L' k v, incl L L' -> prov cfg L k v -> prov cfg L' k v) /\
  (forall L k v v', k_addo k = AdDo_None -> prov cfg L (key_set_addo k AdDo_Ad) v ->
     update_message cfg v m_ad (pure (msg_set_ad false)) = Ok v' -> prov cfg L k v') /\
  (forall L k v v', k_addo k <> AdDo_Do -> is_dnssec (k_type k) = false ->
     prov cfg L (key_set_addo k AdDo_Do) v ->
     update_message cfg v (fun _ => true) (remove_dnssec_o (addo_ad (k_addo k))) = Ok v' -> prov cfg L k v') /\
  (forall L k v v', k_rd k = false -> prov cfg L (key_set_rd k true) v ->
     update_message cfg v (fun _ => true) (pure (msg_set_rd false)) = Ok v' -> prov cfg L k v') /\
  (forall st k v c', inv cfg st -> prov cfg (s_log st) k v ->
     cache_insert cfg k v (s_cache st) = Ok c' -> inv cfg (mkState c' (s_log st))) /\
  (forall L k v now qc r, prov cfg L k v -> get_response v now qc = Some (Ok r) ->
     exists k0 t0 u0, In (k0, t0, u0) L /\ same_question k0 k /\ flags_compatible k0 k /\ derives u0 r /\
       v_created v = t0 /\ now - t0 <= v_valid v * 1000).
Proof.
  split; [intros st k v I G; apply I, cget_In, G|].
  split; [exact (prov_incl cfg)|].
  split; [exact (prov_ad_step cfg)|].
  split; [exact (prov_do_step cfg)|].
  split; [exact (prov_rd_step cfg)|].
  split; [|exact (value_served cfg)].
  intros st k v c' I P CI.
  exact (grows_inv _ _ _ _ _ (incl_refl _) I (returns_ok _ _ _ (cache_insert_prov cfg _ k v _ P) CI)).
Qed.

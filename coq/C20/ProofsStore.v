(* C20 -- what the store can hold over all histories: no entry of zero
   validity, hence none of the answers whose validity is zero; AA clear;
   validity within the bound of the class.  Without an entry for the question
   the request goes upstream. *)
From Coq Require Import NArith List Bool Lia.
From DV Require Import Base.Outcome C20.Gen C20.Model C20.ProofsBase C20.ProofsInv C20.ProofsMain.
Import ListNotations.
Local Open Scope N_scope.

Lemma zero_validity_never_stored cfg evs st os k v :
  run cfg state_init evs = Ok (st, os) -> In (k, v) (s_cache st) ->
  v_valid v <> 0 /\ validity cfg (v_resp v) = Ok (v_valid v).
Proof.
  intros R H. destruct (run_store_ok cfg evs _ _ _ (store_ok_init cfg) R) as [I Z].
  split; [exact (Z k v H)|exact (prov_valid _ _ _ _ (I _ _ H))].
Qed.

(* each way for a validity to be zero ([validity_by_class]) is excluded *)
Lemma stored_entries_cacheable cfg evs st os k v m :
  run cfg state_init evs = Ok (st, os) -> In (k, v) (s_cache st) -> v_resp v = RMsg m ->
  (m_tc m = true -> c_trunc cfg = true) /\ m_broken m = false /\ m_aa m = false /\
  (opt_rcode m = 0 -> classify_no_error m <> Ok Weird) /\
  (forall y, counted m y -> 1 <= r_ttl y) /\
  v_valid v <= c_maxv cfg.
Proof.
  intros R H Hm. destruct (zero_validity_never_stored _ _ _ _ _ _ R H) as [Z V].
  destruct (store_invariant _ _ _ _ R _ _ H) as (k0 & t0 & u0 & x & _ & _ & Hr & _ & _).
  rewrite Hm in V, Hr. destruct (validity_by_class _ _ _ V) as (H1 & _ & _ & _ & _ & H6 & H7 & H8 & H9).
  split; [intros Ht; destruct (c_trunc cfg); [reflexivity|destruct (Z (H7 Ht eq_refl))]|].
  split; [destruct (m_broken m); [destruct (Z (H8 eq_refl))|reflexivity]|].
  split; [destruct u0 as [m0|e0]; [injection Hr as ->; reflexivity|discriminate]|].
  split; [intros Hrc Hw; exact (Z (H6 Hrc Hw))|].
  split; [intros y Hy; specialize (H9 _ Hy); lia|exact H1].
Qed.

Definition sk : key := key_of_request 1 1 1 true false false false.
Definition sA (ttl id : N) := mkRR 1 1 ttl id false.
Definition s_trunc : resp := RMsg (mkMsg 7 0 false true true false (Some (1, 1)) 1 [sA 300 1] [] [] false).
Definition s_zero : resp := RMsg (mkMsg 7 0 false false true false (Some (1, 1)) 1 [sA 0 1] [] [] false).
Definition s_weird : resp := RMsg (mkMsg 7 0 false false true false (Some (1, 1)) 1 [] [] [] false).
Definition s_good : resp := RMsg (mkMsg 7 0 true false true false (Some (1, 1)) 1 [sA 300 1] [] [] false).

Example ex_not_storable :
  (do r <- run config_default state_init
     [EQuery sk 0 1 0 0 s_trunc; EQuery sk 0 1 0 0 s_zero; EQuery sk 0 1 0 0 s_weird]; Ok (s_cache (fst r), snd r))
  = Ok ([], [OForwarded; OForwarded; OForwarded]).
Proof. vm_compute. reflexivity. Qed.

Example ex_stored_aa_clear :
  (do r <- run config_default state_init [EQuery sk 0 1 0 0 s_good]; Ok (s_cache (fst r)))
  = Ok [(sk, mkValue 0 300 (RMsg (mkMsg 7 0 false false true false (Some (1, 1)) 1 [sA 300 1] [] [] false)))].
Proof. vm_compute. reflexivity. Qed.

(* no entry for the question (whatever the flags): the request goes upstream *)
Definition no_entry_for (k : key) (c : cache) : Prop :=
  forall k1 v1, In (k1, v1) c -> ~ same_question k1 k.

Lemma cget_no_entry k k' c : no_entry_for k c -> same_question k' k -> cget k' c = None.
Proof.
  intros N Q. destruct (cget k' c) as [v|] eqn:G; [|reflexivity].
  destruct (N _ _ (cget_In _ _ _ G) Q).
Qed.

Lemma same_question_refl k : same_question k k.
Proof. unfold same_question; auto. Qed.
Lemma same_question_addo k a : same_question (key_set_addo k a) k.
Proof. unfold same_question; cbn; auto. Qed.
Lemma same_question_rd k b : same_question (key_set_rd k b) k.
Proof. unfold same_question; cbn; auto. Qed.

Lemma no_entry_same k k' c : same_question k' k -> no_entry_for k c -> no_entry_for k' c.
Proof.
  intros (Q1 & Q2 & Q3) N k1 v1 H (E1 & E2 & E3). apply (N k1 v1 H). unfold same_question. intuition congruence.
Qed.

Lemma lookup_ad_none cfg k c : no_entry_for k c -> cache_lookup_ad cfg k c = Ok (c, LNone).
Proof.
  intros N. unfold cache_lookup_ad. rewrite (cget_no_entry k k c N (same_question_refl k)).
  destruct (addo_ad (k_addo k)); [reflexivity|].
  rewrite (cget_no_entry k _ c N (same_question_addo k _)). reflexivity.
Qed.

Lemma lookup_do_ad_none cfg k c : no_entry_for k c -> cache_lookup_do_ad cfg k c = Ok (c, LNone).
Proof.
  intros N. unfold cache_lookup_do_ad. rewrite (lookup_ad_none cfg k c N). cbn [bind].
  destruct (addo_do (k_addo k)); [reflexivity|].
  destruct (is_dnssec (k_type k)); [reflexivity|].
  rewrite (cget_no_entry k _ c N (same_question_addo k _)). reflexivity.
Qed.

Lemma lookup_none cfg k c : no_entry_for k c -> cache_lookup cfg k c = Ok (c, LNone).
Proof.
  intros N. unfold cache_lookup, cache_lookup_rd_do_ad.
  rewrite (lookup_do_ad_none cfg k c N). cbn [bind].
  destruct (k_rd k); [reflexivity|].
  rewrite (lookup_do_ad_none cfg _ c (no_entry_same _ _ _ (same_question_rd k alt_rd) N)). reflexivity.
Qed.

Lemma no_entry_goes_upstream cfg st k qc now :
  k_class k = class_in -> no_entry_for k (s_cache st) ->
  (forall delay u, step cfg st (EQuery k 0 qc now delay u) = finish cfg st k (now + delay) u) /\
  step cfg st (EStart k 0 qc now) = Ok (st, OPending) /\
  (forall delay u st' o, step cfg st (EQuery k 0 qc now delay u) = Ok (st', o) ->
     forwarded o /\ s_log st' = (k, now + delay, u) :: s_log st).
Proof.
  intros Hc N.
  assert (S : start cfg st k 0 qc now = Ok (st, SMiss)).
  { unfold start. rewrite Hc, !N.eqb_refl. cbn [andb negb].
    rewrite (lookup_none cfg k _ N). cbn [bind]. destruct st; reflexivity. }
  assert (Q : forall delay u, step cfg st (EQuery k 0 qc now delay u) = finish cfg st k (now + delay) u).
  { intros delay u. cbn [step]. rewrite S. reflexivity. }
  split; [exact Q|]. split; [cbn [step]; rewrite S; reflexivity|].
  intros delay u st' o. rewrite Q. intros F.
  destruct (finish_spec _ _ _ _ _ _ _ F) as (Fw & L & _). auto.
Qed.

Example ex_no_entry_first_query :
  no_entry_for sk (s_cache state_init) /\
  exists st', step config_default state_init (EQuery sk 0 1 0 0 s_good) = Ok (st', OForwarded).
Proof. split; [intros k1 v1 []|eexists; vm_compute; reflexivity]. Qed.

(* an entry for another question (here: another name) does not answer *)
Example ex_no_entry_other_name :
  (do r <- run config_default state_init
     [EQuery sk 0 1 0 0 s_good; EQuery (key_of_request 2 1 1 true false false false) 0 1 1 0 s_good]; Ok (snd r))
  = Ok [OForwarded; OForwarded].
Proof. vm_compute. reflexivity. Qed.

(* retention: the validity of every stored entry is within the bound of its class *)
Definition retention_bounded (cfg : config) (v : value) : Prop :=
  match v_resp v with
  | RErr _ => v_valid v = c_tf cfg
  | RMsg m =>
      v_valid v <= c_maxv cfg /\
      (opt_rcode m = 3 -> v_valid v <= c_nx cfg) /\
      (opt_rcode m <> 0 -> opt_rcode m <> 3 -> v_valid v <= c_misc cfg) /\
      (opt_rcode m = 0 -> classify_no_error m = Ok NoData -> v_valid v <= c_nodata cfg) /\
      (opt_rcode m = 0 -> classify_no_error m = Ok Delegation -> v_valid v <= c_deleg cfg) /\
      (forall y, counted m y -> v_valid v <= r_ttl y)
  end.

Lemma stored_retention_bounded cfg evs st os k v :
  run cfg state_init evs = Ok (st, os) -> In (k, v) (s_cache st) ->
  retention_bounded cfg v /\
  (forall now qc, v_valid v * 1000 < now - v_created v -> get_response v now qc = None).
Proof.
  intros R H. split; [|intros now qc; apply expired_entry_not_served].
  destruct (zero_validity_never_stored _ _ _ _ _ _ R H) as [_ V].
  unfold retention_bounded. destruct (v_resp v) as [m|e].
  - destruct (validity_by_class _ _ _ V) as (H1 & H2 & H3 & H4 & H5 & _ & _ & _ & H9). auto 10.
  - cbn [validity] in V. rewrite gen_cap_failure in V. injection V as V. congruence.
Qed.

Definition s_nx : resp := RMsg (mkMsg 7 3 false false true false (Some (1, 1)) 1 [] [mkRR 6 1 86400 5 false] [] false).
Example ex_retention :
  (do r <- run config_default state_init [EQuery sk 0 1 0 0 s_nx; EEvict 5;
        EQuery (key_of_request 2 1 1 true false false false) 0 1 0 0 (RErr 3)];
   Ok (map (fun e => v_valid (snd e)) (s_cache (fst r))))
  = Ok [30; 3600].
Proof. vm_compute. reflexivity. Qed.

(* RFC 1982 serial arithmetic on u32.  Everything goes through the wrapped
   difference [wdiff a b]: the one step d < 2^32 with (a + d) mod 2^32 = b
   ([wdiff_reach], [wdiff_unique]).  The comparison is [classify] of that step
   ([cmp_closed_form]); shift, flip and additivity are modular arithmetic on
   the step, and the value of 2^32 only matters for the thresholds of
   [classify]. *)
From Coq Require Import NArith Lia ZArith.
Local Open Scope bool_scope.
From DV Require Import Base.Outcome C17.Gen C17.Model.
Local Open Scope N_scope.

Definition u32 (a : N) : Prop := a < M32.

Lemma ok_inj {A} (x y : A) : @Ok A x = Ok y <-> x = y.
Proof. split; [intros H; injection H; auto | intros; subst; auto]. Qed.

Lemma M32_nz : M32 <> 0.
Proof. discriminate. Qed.

Lemma mod_u32 x : u32 (x mod M32).
Proof. apply N.mod_lt, M32_nz. Qed.

Lemma mod_M32 q r x : r < M32 -> x = q * M32 + r -> x mod M32 = r.
Proof.
  intros Hr ->. rewrite N.add_comm, N.mod_add by exact M32_nz.
  apply N.mod_small, Hr.
Qed.

Lemma add_mod_assoc a n m : ((a + n) mod M32 + m) mod M32 = (a + (n + m)) mod M32.
Proof. rewrite N.add_mod_idemp_l by exact M32_nz. rewrite N.add_assoc. reflexivity. Qed.

Lemma wdiff_range a b : wdiff a b < M32.
Proof. apply mod_u32. Qed.

Lemma wdiff_le a b : a <= b -> u32 b -> wdiff a b = b - a.
Proof. intros L Hb. apply (mod_M32 1); unfold u32 in Hb; lia. Qed.

Lemma wdiff_gt a b : b < a -> u32 a -> wdiff a b = M32 - (a - b).
Proof. intros G Ha. apply (mod_M32 0); unfold u32 in Ha; lia. Qed.

Lemma wdiff_diag a : u32 a -> wdiff a a = 0.
Proof. intros Ha. rewrite wdiff_le by (reflexivity || exact Ha). apply N.sub_diag. Qed.

Lemma wdiff_reach a b : u32 a -> u32 b -> (a + wdiff a b) mod M32 = b.
Proof.
  unfold u32, wdiff. intros Ha Hb. rewrite N.add_mod_idemp_r by exact M32_nz.
  apply (mod_M32 1); lia.
Qed.

Lemma wdiff_unique a b d : u32 a -> d < M32 -> (a + d) mod M32 = b -> wdiff a b = d.
Proof.
  unfold u32. intros Ha Hd <-. destruct (N.lt_ge_cases (a + d) M32) as [S|W].
  - rewrite (N.mod_small _ _ S). rewrite wdiff_le by (unfold u32; lia). lia.
  - rewrite (mod_M32 1 (a + d - M32)) by lia. rewrite wdiff_gt by (unfold u32; lia). lia.
Qed.

Lemma wdiff_zero a b : u32 a -> u32 b -> (wdiff a b = 0 <-> a = b).
Proof.
  intros Ha Hb. split; intros E.
  - rewrite <- (wdiff_reach a b Ha Hb), E, N.add_0_r. symmetry. apply N.mod_small, Ha.
  - subst b. apply wdiff_diag, Ha.
Qed.

(* The next three: the right-hand side is a step below 2^32 that leads from
   the first operand to the second, so it is the step ([wdiff_unique]). *)
Lemma wdiff_shift a b k : u32 a -> u32 b ->
  wdiff ((a + k) mod M32) ((b + k) mod M32) = wdiff a b.
Proof.
  intros Ha Hb. apply wdiff_unique; [apply mod_u32 | apply wdiff_range |].
  rewrite add_mod_assoc, (N.add_comm k), <- add_mod_assoc, wdiff_reach by assumption.
  reflexivity.
Qed.

Lemma wdiff_add a b c : u32 a -> u32 b -> u32 c ->
  wdiff a c = (wdiff a b + wdiff b c) mod M32.
Proof.
  intros Ha Hb Hc. apply wdiff_unique; [exact Ha | apply mod_u32 |].
  rewrite N.add_mod_idemp_r by exact M32_nz.
  rewrite <- add_mod_assoc, !wdiff_reach by assumption. reflexivity.
Qed.

Lemma wdiff_flip a b : u32 a -> u32 b -> wdiff a b <> 0 ->
  wdiff b a = M32 - wdiff a b.
Proof.
  intros Ha Hb NZ. pose proof (wdiff_range a b) as R.
  apply wdiff_unique; [exact Hb | lia |].
  rewrite <- (wdiff_reach a b Ha Hb) at 1. rewrite N.add_mod_idemp_l by exact M32_nz.
  apply (mod_M32 1); [exact Ha | lia].
Qed.

Lemma classify_cases d :
  (classify d = Some Eq <-> d = 0) /\
  (classify d = Some Lt <-> 0 < d < 2147483648) /\
  (classify d = None <-> d = 2147483648) /\
  (classify d = Some Gt <-> 2147483648 < d).
Proof.
  unfold classify.
  destruct (N.eqb_spec d 0); [subst; repeat split; intros; try discriminate; try lia; auto|].
  destruct (N.ltb_spec d 2147483648);
    [repeat split; intros; try discriminate; try lia; auto|].
  destruct (N.eqb_spec d 2147483648);
    repeat split; intros; try discriminate; try lia; auto.
Qed.

(* away from 0, classify is the comparison with 2^31, so it turns around
   on the far side 2^32 - d *)
Lemma classify_cmp d : 0 < d ->
  classify d = match d ?= 2147483648 with Lt => Some Lt | Eq => None | Gt => Some Gt end.
Proof.
  intros P. unfold classify. rewrite (proj2 (N.eqb_neq d 0)) by lia.
  destruct (N.compare_spec d 2147483648) as [E|L|G].
  - subst d. reflexivity.
  - rewrite (proj2 (N.ltb_lt _ _) L). reflexivity.
  - rewrite (proj2 (N.ltb_ge _ _)), (proj2 (N.eqb_neq _ _)) by lia. reflexivity.
Qed.

Lemma classify_flip d : 0 < d < M32 ->
  classify (M32 - d) = option_map CompOpp (classify d).
Proof.
  unfold M32. intros P. rewrite !classify_cmp by lia.
  destruct (N.compare_spec d 2147483648) as [E|L|G].
  - subst d. reflexivity.
  - rewrite (proj2 (N.compare_gt_iff _ _)) by lia. reflexivity.
  - rewrite (proj2 (N.compare_lt_iff _ _)) by lia. reflexivity.
Qed.

(* Serial::partial_cmp subtracts the smaller from the larger operand and
   compares with 2^31: for a < b that is the step itself, for a > b its far
   side *)
Lemma cmp_closed_form a b : u32 a -> u32 b ->
  serial_partial_cmp a b = Ok (classify (wdiff a b)).
Proof.
  intros Ha Hb. unfold serial_partial_cmp, u32_sub.
  cbv [lt_sub_other_minus_self gt_sub_self_minus_other arm_eq arm_lt_lt arm_lt_gt
       arm_lt_eq arm_gt_lt arm_gt_gt arm_gt_eq half bind].
  destruct (N.compare_spec a b) as [E|L|G].
  - subst b. rewrite wdiff_diag by exact Ha. reflexivity.
  - rewrite (proj2 (N.leb_le a b)), wdiff_le, classify_cmp by (assumption || lia).
    reflexivity.
  - rewrite (proj2 (N.leb_le b a)), wdiff_gt, classify_flip, classify_cmp
      by (assumption || unfold u32 in Ha; lia).
    destruct (a - b ?= 2147483648); reflexivity.
Qed.

Lemma cmp_no_panic a b : u32 a -> u32 b -> no_panic (serial_partial_cmp a b).
Proof. intros Ha Hb. rewrite cmp_closed_form by assumption. exact I. Qed.

Lemma cmp_swap a b : u32 a -> u32 b ->
  serial_partial_cmp b a = Ok (option_map CompOpp (classify (wdiff a b))).
Proof.
  intros Ha Hb. rewrite cmp_closed_form by assumption. f_equal.
  destruct (N.eq_dec a b) as [<-|Q].
  - rewrite wdiff_diag by exact Ha. reflexivity.
  - assert (NZ : wdiff a b <> 0) by (rewrite wdiff_zero by assumption; exact Q).
    pose proof (wdiff_range a b) as R.
    rewrite wdiff_flip by assumption. apply classify_flip. lia.
Qed.

(* each result of the comparison, as a condition on the step *)
Lemma cmp_eq_iff a b : u32 a -> u32 b -> (serial_partial_cmp a b = Ok (Some Eq) <-> a = b).
Proof.
  intros Ha Hb. rewrite cmp_closed_form, ok_inj, <- wdiff_zero by assumption. apply classify_cases.
Qed.

Lemma cmp_lt_iff a b : u32 a -> u32 b ->
  (serial_partial_cmp a b = Ok (Some Lt) <-> 0 < wdiff a b < 2147483648).
Proof. intros Ha Hb. rewrite cmp_closed_form, ok_inj by assumption. apply classify_cases. Qed.

Lemma cmp_gt_iff a b : u32 a -> u32 b ->
  (serial_partial_cmp a b = Ok (Some Gt) <-> 2147483648 < wdiff a b).
Proof. intros Ha Hb. rewrite cmp_closed_form, ok_inj by assumption. apply classify_cases. Qed.

Lemma cmp_none_iff a b : u32 a -> u32 b ->
  (serial_partial_cmp a b = Ok None <->
   (a + 2147483648) mod M32 = b).
Proof.
  intros Ha Hb. rewrite cmp_closed_form, ok_inj by assumption.
  destruct (classify_cases (wdiff a b)) as (_ & _ & N1 & _). rewrite N1.
  split; intros H.
  - rewrite <- H. apply wdiff_reach; assumption.
  - apply wdiff_unique; [exact Ha | reflexivity | exact H].
Qed.

Lemma cmp_shift_invariant a b k : u32 a -> u32 b ->
  serial_partial_cmp ((a + k) mod M32) ((b + k) mod M32) = serial_partial_cmp a b.
Proof.
  intros Ha Hb. rewrite !cmp_closed_form by (assumption || apply mod_u32).
  rewrite wdiff_shift by assumption. reflexivity.
Qed.

(* the code's comparison is the RFC 1982 section 3.2 definition: the two
   cases a < b, a > b of the RFC are the two cases of the step *)
Lemma rfc_lt_wdiff a b : u32 a -> u32 b -> (rfc_lt a b <-> 0 < wdiff a b < 2147483648).
Proof.
  intros Ha Hb. unfold rfc_lt. destruct (N.le_gt_cases a b) as [L|G].
  - rewrite wdiff_le by assumption. lia.
  - rewrite wdiff_gt by assumption. unfold u32, M32 in *. lia.
Qed.

Lemma rfc_gt_wdiff a b : u32 a -> u32 b -> (rfc_gt a b <-> 2147483648 < wdiff a b).
Proof.
  intros Ha Hb. unfold rfc_gt. destruct (N.le_gt_cases a b) as [L|G].
  - rewrite wdiff_le by assumption. lia.
  - rewrite wdiff_gt by assumption. unfold u32, M32 in *. lia.
Qed.

Lemma cmp_is_rfc1982 a b : u32 a -> u32 b ->
  (serial_partial_cmp a b = Ok (Some Lt) <-> rfc_lt a b) /\
  (serial_partial_cmp a b = Ok (Some Gt) <-> rfc_gt a b) /\
  (serial_partial_cmp a b = Ok (Some Eq) <-> a = b).
Proof.
  intros Ha Hb. rewrite rfc_lt_wdiff, rfc_gt_wdiff by assumption.
  split; [apply cmp_lt_iff|split; [apply cmp_gt_iff|apply cmp_eq_iff]]; assumption.
Qed.

Lemma add_panics_iff a n : serial_add a n = Panic 2 <-> 2147483647 < n.
Proof.
  unfold serial_add. cbv [add_guard_is_le add_max add_wraps].
  destruct (N.leb_spec n 2147483647); split; intros; try discriminate; try lia; auto.
Qed.

Lemma add_total a n : n <= 2147483647 -> serial_add a n = Ok ((a + n) mod M32).
Proof.
  unfold serial_add. cbv [add_guard_is_le add_max add_wraps]. intros.
  destruct (N.leb_spec n 2147483647); [reflexivity|lia].
Qed.

(* adding 1 .. 2^31-1 yields a strictly greater serial: the step is n *)
Lemma add_lt a n : u32 a -> 1 <= n <= 2147483647 ->
  serial_partial_cmp a ((a + n) mod M32) = Ok (Some Lt).
Proof.
  intros Ha Hn. apply cmp_lt_iff; [exact Ha | apply mod_u32 |].
  rewrite (wdiff_unique a _ n) by (assumption || reflexivity || unfold M32; lia). lia.
Qed.

(* ... seen from both sides *)
Lemma add_gt a n : u32 a -> 1 <= n <= 2147483647 ->
  exists s, serial_add a n = Ok s /\ u32 s /\
    serial_partial_cmp a s = Ok (Some Lt) /\
    serial_partial_cmp s a = Ok (Some Gt).
Proof.
  intros Ha Hn. exists ((a + n) mod M32).
  assert (Hs : u32 ((a + n) mod M32)) by apply mod_u32.
  pose proof (add_lt a n Ha Hn) as L.
  split; [apply add_total; lia|]. split; [exact Hs|]. split; [exact L|].
  rewrite cmp_closed_form in L by assumption. injection L as L.
  rewrite (cmp_swap a _ Ha Hs), L. reflexivity.
Qed.

Lemma version_next_gt a : u32 a ->
  exists s, version_next a = Ok s /\ serial_partial_cmp a s = Ok (Some Lt).
Proof.
  intros Ha. exists ((a + 1) mod M32).
  split; [apply add_total | apply add_lt; [exact Ha|]]; lia.
Qed.

(* canonical order on serials is plain u32 order (RFC 4034 6.2 octet order of
   the 4-octet big-endian form) *)
Lemma canonical_is_u32_order a b : serial_canonical_cmp a b = (a ?= b).
Proof. reflexivity. Qed.

(* non-vacuity: the wrap-around case really is covered *)
Example add_gt_wraps :
  serial_add 4294967295 2147483647 = Ok 2147483646 /\
  serial_partial_cmp 4294967295 2147483646 = Ok (Some Lt) /\
  serial_partial_cmp 2147483646 4294967295 = Ok (Some Gt).
Proof. vm_compute. auto. Qed.

Example cmp_none_example :
  serial_partial_cmp 3000000000 852516352 = Ok None /\
  serial_partial_cmp 852516352 3000000000 = Ok None.
Proof. vm_compute. auto. Qed.

(* The call sites.  [x <? y] is a match on [x ?= y], like [classify_cmp]. *)
Lemma serial_le_spec a b : u32 a -> u32 b ->
  serial_le a b = (wdiff a b <? 2147483648).
Proof.
  intros Ha Hb. unfold serial_le. rewrite cmp_closed_form by assumption.
  destruct (N.eq_0_gt_0_cases (wdiff a b)) as [Z|P]; [rewrite Z; reflexivity|].
  rewrite classify_cmp by exact P. unfold N.ltb.
  destruct (wdiff a b ?= 2147483648); reflexivity.
Qed.

Lemma serial_lt_spec a b : u32 a -> u32 b ->
  serial_lt a b = (0 <? wdiff a b) && (wdiff a b <? 2147483648).
Proof.
  intros Ha Hb. unfold serial_lt. rewrite cmp_closed_form by assumption.
  destruct (N.eq_0_gt_0_cases (wdiff a b)) as [Z|P]; [rewrite Z; reflexivity|].
  rewrite classify_cmp, (proj2 (N.ltb_lt 0 _) P) by exact P. unfold N.ltb.
  destruct (wdiff a b ?= 2147483648); reflexivity.
Qed.

Lemma serial_ge_le a b : u32 a -> u32 b -> serial_ge a b = serial_le b a.
Proof.
  intros Ha Hb. unfold serial_ge, serial_le.
  rewrite (cmp_swap b a), cmp_closed_form by assumption.
  destruct (classify (wdiff b a)) as [[]|]; reflexivity.
Qed.

Lemma serial_ge_spec a b : u32 a -> u32 b ->
  serial_ge a b = (wdiff b a <? 2147483648).
Proof. intros Ha Hb. rewrite serial_ge_le by assumption. apply serial_le_spec; assumption. Qed.

(* the validator accepts a signature exactly when now lies in the RFC 1982
   window [inception, expiration]: inception at most 2^31-1 behind, expiration
   at most 2^31-1 ahead (RFC 4034 3.1.5) *)
Lemma sig_time_ok_spec now i e : u32 now -> u32 i -> u32 e ->
  sig_time_ok now i e = (wdiff now e <? 2147483648) && (wdiff i now <? 2147483648).
Proof.
  intros. unfold sig_time_ok. cbv [sig_time_uses_serial_order].
  rewrite serial_le_spec, serial_ge_spec by assumption. reflexivity.
Qed.

(* ... hence the verdict is the same wherever the three times sit relative to
   the 2^32 wrap-around *)
Lemma sig_time_shift_invariant now i e k : u32 now -> u32 i -> u32 e ->
  sig_time_ok ((now + k) mod M32) ((i + k) mod M32) ((e + k) mod M32) = sig_time_ok now i e.
Proof.
  intros Hn Hi He. unfold sig_time_ok, serial_le, serial_ge.
  rewrite !cmp_shift_invariant by assumption. reflexivity.
Qed.

Lemma ixfr_up_to_date_spec q z : u32 q -> u32 z ->
  ixfr_client_up_to_date q z = (wdiff z q <? 2147483648).
Proof.
  intros. unfold ixfr_client_up_to_date. cbv [ixfr_uptodate_is_serial_ge].
  apply serial_ge_spec; assumption.
Qed.

Lemma ixfr_up_to_date_shift q z k : u32 q -> u32 z ->
  ixfr_client_up_to_date ((q + k) mod M32) ((z + k) mod M32) = ixfr_client_up_to_date q z.
Proof.
  intros Hq Hz. unfold ixfr_client_up_to_date, serial_ge.
  rewrite cmp_shift_invariant by assumption. reflexivity.
Qed.

(* a zone diff is rejected when its end serial equals its start serial or lies
   serially before it; undefined (2^31 apart) passes *)
Lemma diff_range_spec s e : u32 s -> u32 e ->
  diff_range_rejected s e = (wdiff s e =? 0) || (2147483648 <? wdiff s e).
Proof.
  intros Hs He. unfold diff_range_rejected, serial_lt. cbv [diff_range_rejects_eq_or_serial_lt].
  rewrite (cmp_swap s e) by assumption.
  destruct (N.eqb_spec s e) as [<-|Q].
  - rewrite wdiff_diag by exact Hs. reflexivity.
  - assert (NZ : wdiff s e <> 0) by (rewrite wdiff_zero by assumption; exact Q).
    rewrite classify_cmp, (proj2 (N.eqb_neq _ 0) NZ) by (apply N.neq_0_lt_0, NZ).
    unfold N.ltb. rewrite (N.compare_antisym (wdiff s e)).
    destruct (wdiff s e ?= 2147483648); reflexivity.
Qed.

Lemma diff_range_shift s e k : u32 s -> u32 e ->
  diff_range_rejected ((s + k) mod M32) ((e + k) mod M32) = diff_range_rejected s e.
Proof.
  intros Hs He. rewrite !diff_range_spec by (assumption || apply mod_u32).
  rewrite wdiff_shift by assumption. reflexivity.
Qed.

Lemma diff_range_accepts_bumped s n : u32 s -> 1 <= n <= 2147483647 ->
  diff_range_rejected s ((s + n) mod M32) = false.
Proof.
  intros Hs Hn. rewrite diff_range_spec by (assumption || apply mod_u32).
  rewrite (wdiff_unique s _ n) by (assumption || reflexivity || unfold M32; lia).
  rewrite (proj2 (N.eqb_neq n 0)), (proj2 (N.ltb_ge _ n)) by lia. reflexivity.
Qed.

Example sig_time_wrap :
  sig_time_ok 256 4294963200 65536 = true /\            (* inception before the wrap, now and expiration after *)
  sig_time_ok 1790000000 0 4294967295 = false /\        (* expiration more than 2^31 ahead: serially in the past *)
  ixfr_client_up_to_date 5 4294967290 = true /\         (* client serial 5 is newer than 0xFFFFFFFA *)
  diff_range_rejected 4294967295 3 = false.
Proof. vm_compute. auto. Qed.

(* Serial from a point in time: `as u32` of the signed seconds is mod 2^32,
   which turns + on Z into the wrapped + on serials *)
Lemma serial_of_time_u32 secs : u32 (serial_of_time secs).
Proof.
  unfold serial_of_time, u32, M32. cbv [from_time_cast_wraps].
  pose proof (Z.mod_pos_bound secs 4294967296 eq_refl). lia.
Qed.

Lemma serial_of_time_add secs k : (0 <= k)%Z ->
  serial_of_time (secs + k) = (serial_of_time secs + Z.to_N k) mod M32.
Proof.
  intros Hk. unfold serial_of_time. cbv [from_time_cast_wraps].
  pose proof (Z.mod_pos_bound secs 4294967296 eq_refl).
  rewrite <- (Z.add_mod_idemp_l secs k) by discriminate.
  rewrite (Z2N.inj_mod (_ + k)), Z2N.inj_add by lia. reflexivity.
Qed.

Lemma from_time_add secs k : (0 <= k <= 2147483647)%Z ->
  serial_add (serial_of_time secs) (Z.to_N k) = Ok (serial_of_time (secs + k)).
Proof. intros Hk. rewrite add_total, serial_of_time_add by lia. reflexivity. Qed.

(* no condition on secs: before 1970, across 2038 and across the 2106 wrap alike *)
Lemma time_later_is_greater secs k : (1 <= k <= 2147483647)%Z ->
  serial_partial_cmp (serial_of_time secs) (serial_of_time (secs + k)) = Ok (Some Lt).
Proof.
  intros Hk. rewrite serial_of_time_add by lia.
  apply add_lt; [apply serial_of_time_u32 | lia].
Qed.

Example from_time_examples :
  serial_of_time 0 = 0%N /\
  serial_of_time 4294967295 = 4294967295%N /\
  serial_of_time 4294967296 = 0%N /\            (* 2106-02-07 06:28:16 *)
  serial_of_time 4294967297 = 1%N /\
  serial_of_time (-1) = 4294967295%N /\         (* 1969-12-31 23:59:59 *)
  serial_of_time 253402207200 = 4294104032%N /\ (* jiff's maximum *)
  serial_partial_cmp (serial_of_time 4294967290) (serial_of_time 4294967300) = Ok (Some Lt).
Proof. vm_compute. auto 10. Qed.

(* both routes to a signature time agree: the date notation and the conversion *)
Lemma from_time_is_date_notation secs : serial_of_time secs = timestamp_of_secs secs.
Proof. unfold serial_of_time, timestamp_of_secs. cbv [from_time_cast_wraps date_cast_wraps]. reflexivity. Qed.

Lemma timestamp_of_secs_u32 secs : u32 (timestamp_of_secs secs).
Proof. rewrite <- from_time_is_date_notation. apply serial_of_time_u32. Qed.

Lemma date_later_is_greater secs k : (1 <= k <= 2147483647)%Z ->
  serial_partial_cmp (timestamp_of_secs secs) (timestamp_of_secs (secs + k)) = Ok (Some Lt).
Proof. rewrite <- !from_time_is_date_notation. apply time_later_is_greater. Qed.

Example date_examples :
  timestamp_of_date 1970 1 1 0 0 0 = 0%N /\
  timestamp_of_date 2106 2 7 6 28 15 = 4294967295%N /\
  timestamp_of_date 2106 2 7 6 28 16 = 0%N /\
  timestamp_of_date 2038 1 19 3 14 8 = 2147483648%N /\
  timestamp_of_date 2026 9 26 0 0 0 = 1790380800%N.
Proof. vm_compute. auto. Qed.

(* commit(true).  An untouched SOA: the published serial s becomes
   (s + 1) mod 2^32, which is strictly newer in RFC 1982 order - also at
   0xFFFFFFFF, where it becomes 0 *)
Lemma commit_bump_newer old : u32 old ->
  commit_serial old None = Ok ((old + 1) mod M32) /\
  serial_partial_cmp old ((old + 1) mod M32) = Ok (Some Lt).
Proof.
  intros Hu. split; [apply add_total | apply add_lt; [exact Hu|]]; lia.
Qed.
(* the same when the writer wrote back an SOA with the published serial *)
Lemma commit_same_soa_bumps old : u32 old ->
  commit_serial old (Some old) = Ok ((old + 1) mod M32).
Proof.
  intros Hu. unfold commit_serial. cbv [commit_bumps_iff_soa_untouched commit_bump_addend].
  rewrite N.eqb_refl. apply add_total; lia.
Qed.
(* an SOA the writer wrote with another serial is kept, whatever the numeric order
   of the two serials - a zone whose serial crosses 2^32 keeps the writer's SOA *)
Lemma commit_keeps_written_soa old z : z <> old -> commit_serial old (Some z) = Ok z.
Proof.
  intros Hn. unfold commit_serial. cbv [commit_bumps_iff_soa_untouched].
  destruct (N.eqb_spec z old) as [E|_]; [contradiction|reflexivity].
Qed.
Example commit_examples :
  commit_serial 4294967295 None = Ok 0 /\
  commit_serial 4294967280 (Some 5) = Ok 5 /\      (* 0xFFFFFFF0 -> 5: the writer's SOA stays *)
  commit_serial 7 (Some 7) = Ok 8.
Proof. vm_compute. auto. Qed.

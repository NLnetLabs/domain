(* Further theorems over the same model: the swap symmetry as one equation,
   Serial::add on both sides, (non-)transitivity, the derived operators, the
   signature window, commit and iterated Version::next. *)
From Coq Require Import NArith Lia.
Local Open Scope bool_scope.
From DV Require Import Base.Outcome C17.Gen C17.Model C17.Proofs.
Local Open Scope N_scope.

(* antisymmetry as one equation: swapping the operands mirrors the result *)
Definition flip_cmp (o : option comparison) : option comparison :=
  match o with Some c => Some (CompOpp c) | None => None end.

Lemma cmp_flip a b : u32 a -> u32 b ->
  exists o, serial_partial_cmp a b = Ok o /\ serial_partial_cmp b a = Ok (flip_cmp o).
Proof.
  intros Ha Hb. exists (classify (wdiff a b)).
  split; [apply cmp_closed_form | apply cmp_swap]; assumption.
Qed.

(* the four equivalences are read off the mirrored result case by case *)
Lemma cmp_antisym a b : u32 a -> u32 b ->
  (serial_partial_cmp a b = Ok (Some Lt) <-> serial_partial_cmp b a = Ok (Some Gt)) /\
  (serial_partial_cmp a b = Ok (Some Gt) <-> serial_partial_cmp b a = Ok (Some Lt)) /\
  (serial_partial_cmp a b = Ok (Some Eq) <-> a = b) /\
  (serial_partial_cmp a b = Ok None <-> serial_partial_cmp b a = Ok None).
Proof.
  intros Ha Hb. pose proof (cmp_eq_iff a b Ha Hb) as E.
  destruct (cmp_flip a b Ha Hb) as (o & Hab & Hba). rewrite Hab in E |- *. rewrite Hba.
  split; [|split; [|split; [exact E|]]];
    destruct o as [[]|]; split; intros H; (discriminate H || reflexivity).
Qed.

Example cmp_flip_example :
  serial_partial_cmp 4294967295 5 = Ok (Some Lt) /\ serial_partial_cmp 5 4294967295 = Ok (flip_cmp (Some Lt)).
Proof. vm_compute. auto. Qed.

Lemma cmp_add_same a b n a' b' : u32 a -> u32 b ->
  serial_add a n = Ok a' -> serial_add b n = Ok b' ->
  serial_partial_cmp a' b' = serial_partial_cmp a b.
Proof.
  intros Ha Hb H1 H2.
  destruct (N.leb_spec n 2147483647) as [L|G].
  - rewrite add_total in H1, H2 by assumption.
    injection H1 as <-. injection H2 as <-.
    apply cmp_shift_invariant; assumption.
  - apply (add_panics_iff a n) in G. rewrite G in H1. discriminate.
Qed.

Example cmp_add_same_example :
  serial_add 4294967290 100 = Ok 94 /\ serial_add 10 100 = Ok 110 /\
  serial_partial_cmp 94 110 = serial_partial_cmp 4294967290 10.
Proof. vm_compute. auto. Qed.

Lemma add_zero a : u32 a ->
  serial_add a 0 = Ok a /\ serial_partial_cmp a a = Ok (Some Eq).
Proof.
  intros Ha. split.
  - rewrite add_total, N.add_0_r, N.mod_small by (exact Ha || lia). reflexivity.
  - apply cmp_eq_iff; auto.
Qed.

Example add_zero_example : serial_add 4294967295 0 = Ok 4294967295.
Proof. vm_compute. auto. Qed.

Lemma add_add a n m : n + m <= 2147483647 ->
  exists s, serial_add a n = Ok s /\ serial_add s m = serial_add a (n + m).
Proof.
  intros H. exists ((a + n) mod M32).
  rewrite !add_total, add_mod_assoc by lia. split; reflexivity.
Qed.

Example add_add_example :
  serial_add 4294967000 200 = Ok 4294967200 /\ serial_add 4294967200 200 = serial_add 4294967000 400.
Proof. vm_compute. auto. Qed.

(* two steps below 2^31 add up without wrapping *)
Lemma lt_lt_classified a b c : u32 a -> u32 b -> u32 c ->
  serial_partial_cmp a b = Ok (Some Lt) -> serial_partial_cmp b c = Ok (Some Lt) ->
  serial_partial_cmp a c = Ok (classify (wdiff a b + wdiff b c)).
Proof.
  intros Ha Hb Hc H1 H2. apply cmp_lt_iff in H1, H2; try assumption.
  rewrite cmp_closed_form, (wdiff_add a b c) by assumption.
  rewrite N.mod_small by (unfold M32; lia). reflexivity.
Qed.

(* transitivity holds exactly while the two steps sum below 2^31 *)
Lemma lt_trans_bounded a b c : u32 a -> u32 b -> u32 c ->
  serial_partial_cmp a b = Ok (Some Lt) -> serial_partial_cmp b c = Ok (Some Lt) ->
  (serial_partial_cmp a c = Ok (Some Lt) <-> wdiff a b + wdiff b c < 2147483648).
Proof.
  intros Ha Hb Hc H1 H2. rewrite (lt_lt_classified a b c), ok_inj by assumption.
  apply cmp_lt_iff in H1, H2; try assumption.
  destruct (classify_cases (wdiff a b + wdiff b c)) as (_ & L & _). rewrite L. lia.
Qed.

Lemma lt_not_transitive : exists a b c, u32 a /\ u32 b /\ u32 c /\
  serial_partial_cmp a b = Ok (Some Lt) /\ serial_partial_cmp b c = Ok (Some Lt) /\
  serial_partial_cmp a c = Ok (Some Gt).
Proof. exists 0, 2147483647, 4294967294. repeat split; reflexivity. Qed.

Example lt_trans_example :
  serial_partial_cmp 4294967290 5 = Ok (Some Lt) /\ serial_partial_cmp 5 100 = Ok (Some Lt) /\
  serial_partial_cmp 4294967290 100 = Ok (Some Lt) /\ wdiff 4294967290 5 + wdiff 5 100 = 106.
Proof. vm_compute. auto. Qed.

(* the derived operators agree with each other: all three are tables over the
   one result o of partial_cmp a b, and o = Some Eq exactly when a = b *)
Lemma ops_consistent a b : u32 a -> u32 b ->
  serial_le a b = serial_ge b a /\
  serial_lt a b = serial_le a b && negb (a =? b) /\
  ((serial_le a b = false /\ serial_ge a b = false) <-> serial_partial_cmp a b = Ok None).
Proof.
  intros Ha Hb. split; [symmetry; apply serial_ge_le; assumption|].
  pose proof (cmp_eq_iff a b Ha Hb) as E.
  unfold serial_lt, serial_le, serial_ge. rewrite cmp_closed_form, ok_inj in * by assumption.
  revert E. destruct (classify (wdiff a b)) as [[]|]; intros E.
  1: rewrite (proj2 (N.eqb_eq a b)) by (apply E; reflexivity).
  2-4: rewrite (proj2 (N.eqb_neq a b)) by (intros Q; apply E in Q; discriminate Q).
  all: split; [reflexivity|]; split; [intros [H1 H2] | intros H]; (discriminate || auto).
Qed.

Example ops_example :
  serial_le 0 2147483648 = false /\ serial_ge 0 2147483648 = false /\
  serial_lt 4294967295 0 = true /\ serial_le 4294967295 0 = true /\ serial_ge 0 4294967295 = true.
Proof. vm_compute. auto 10. Qed.

Example diff_range_examples :
  diff_range_rejected 7 7 = true /\ diff_range_rejected 5 4294967290 = true /\
  diff_range_rejected 4294967290 5 = false /\ diff_range_rejected 0 2147483648 = false.
Proof. vm_compute. auto. Qed.

(* signature window shorter than 2^31 s: accepted times are exactly the
   window [inception, expiration] measured from inception *)
Lemma sig_time_window_exact now i e : u32 now -> u32 i -> u32 e ->
  wdiff i e < 2147483648 ->
  sig_time_ok now i e = (wdiff i now <=? wdiff i e).
Proof.
  intros Hn Hi He. rewrite sig_time_ok_spec, (wdiff_add i now e) by assumption.
  pose proof (wdiff_range i now) as Rx. pose proof (wdiff_range now e) as Ry.
  revert Rx Ry. generalize (wdiff i now) (wdiff now e). intros x y Rx Ry.
  (* the two steps x, y either add up to the window, or wrap once *)
  destruct (N.lt_ge_cases (x + y) M32) as [S|W].
  - rewrite (N.mod_small _ _ S). intros Hw.
    rewrite (proj2 (N.ltb_lt y _)), (proj2 (N.ltb_lt x _)), (proj2 (N.leb_le x _)) by lia.
    reflexivity.
  - rewrite (mod_M32 1 (x + y - M32)) by lia. unfold M32 in *. intros Hw.
    rewrite (proj2 (N.leb_gt x _)) by lia.
    destruct (N.ltb_spec y 2147483648); [|reflexivity].
    rewrite (proj2 (N.ltb_ge x _)) by lia. reflexivity.
Qed.

Example sig_time_window_example :
  wdiff 4294963200 65536 = 69632 /\
  sig_time_ok 256 4294963200 65536 = true /\ sig_time_ok 65537 4294963200 65536 = false /\
  sig_time_ok 4294963199 4294963200 65536 = false.
Proof. vm_compute. auto. Qed.

Lemma commit_changes_serial old written : u32 old ->
  match written with Some z => u32 z | None => True end ->
  exists s, commit_serial old written = Ok s /\ u32 s /\ s <> old.
Proof.
  intros Ho Hw. destruct (commit_bump_newer old Ho) as [B Lt].
  assert (U : u32 ((old + 1) mod M32) /\ (old + 1) mod M32 <> old).
  { split; [apply mod_u32|]. intros E. rewrite E in Lt.
    rewrite (proj2 (cmp_eq_iff old old Ho Ho) eq_refl) in Lt. discriminate Lt. }
  destruct written as [z|]; [|exists ((old + 1) mod M32); tauto].
  destruct (N.eq_dec z old) as [E|E].
  - subst z. exists ((old + 1) mod M32). split; [apply commit_same_soa_bumps, Ho | exact U].
  - exists z. split; [apply commit_keeps_written_soa, E | auto].
Qed.

Example commit_changes_example :
  commit_serial 4294967295 (Some 4294967295) = Ok 0 /\ commit_serial 9 (Some 3) = Ok 3.
Proof. vm_compute. auto. Qed.

(* k successive Version::next: closed form by induction *)
Fixpoint next_iter (k : nat) (a : N) : outcome N :=
  match k with
  | O => Ok a
  | S k' => match next_iter k' a with Ok s => version_next s | r => r end
  end.

Lemma next_iter_closed k a : u32 a -> next_iter k a = Ok ((a + N.of_nat k) mod M32).
Proof.
  intros Ha. induction k as [|k IH]; cbn [next_iter].
  - rewrite N.add_0_r, N.mod_small by exact Ha. reflexivity.
  - rewrite IH. unfold version_next. cbv [version_next_addend].
    rewrite add_total, add_mod_assoc, Nat2N.inj_succ, N.add_1_r by lia. reflexivity.
Qed.

Lemma next_iter_gt k a : u32 a -> 1 <= N.of_nat k <= 2147483647 ->
  exists s, next_iter k a = Ok s /\ serial_partial_cmp a s = Ok (Some Lt).
Proof.
  intros Ha Hk. rewrite next_iter_closed by assumption.
  eexists. split; [reflexivity | apply add_lt; assumption].
Qed.

Lemma next_iter_half_undefined k a : u32 a -> N.of_nat k = 2147483648 ->
  exists s, next_iter k a = Ok s /\ serial_partial_cmp a s = Ok None.
Proof.
  intros Ha Hk. rewrite next_iter_closed, Hk by assumption.
  eexists. split; [reflexivity|]. apply cmp_none_iff; auto. apply mod_u32.
Qed.

Example next_iter_example :
  next_iter 3 4294967294 = Ok 1 /\ serial_partial_cmp 4294967294 1 = Ok (Some Lt).
Proof. vm_compute. auto. Qed.

(* C04 proofs: ParsedName::parse_ref (Base/PName.v) on pre ++ wire_abs n ++ post
   at |pre| returns an uncompressed ParsedName that denotes n: the side
   condition `flat_ok` of ProofsParsed is what the parser establishes. *)
From Coq Require Import NArith Arith List Lia.
From DV Require Import Base.Outcome Base.Names Base.PName C04.Gen C04.Model
  C04.ProofsIter C04.ProofsRepr C04.ProofsParsed.
Import ListNotations.
Local Open Scope N_scope.

Lemma get_app_len a h t : get (a ++ h :: t) (N.of_nat (length a)) = Some h.
Proof. unfold get. rewrite Nat2N.id, nth_error_app2 by lia. rewrite Nat.sub_diag. reflexivity. Qed.

Lemma mlen_app a b : mlen (a ++ b) = mlen a + mlen b.
Proof. unfold mlen. rewrite app_length. lia. Qed.

Lemma slice_app a w r :
  slice (a ++ w ++ r) (N.of_nat (length a)) (N.of_nat (length a) + N.of_nat (length w)) = w.
Proof.
  unfold slice.
  replace (N.of_nat (length a) + N.of_nat (length w) - N.of_nat (length a)) with (N.of_nat (length w)) by lia.
  rewrite !Nat2N.id. rewrite skipn_app, skipn_all, Nat.sub_diag. cbn [skipn app].
  rewrite firstn_app, firstn_all, Nat.sub_diag. cbn [firstn]. apply app_nil_r.
Qed.

Lemma wire_label_length l : length (wire_label l) = S (length l).
Proof. reflexivity. Qed.

Lemma ltp_normal m a h t : m = a ++ h :: t -> h <= 63 ->
  label_type_parse m (N.of_nat (length a)) (mlen m) = Ok (LNormal h, N.of_nat (length a) + 1).
Proof.
  intros -> H. unfold label_type_parse.
  assert (E : (mlen (a ++ h :: t) <=? N.of_nat (length a)) = false).
  { apply N.leb_gt. rewrite mlen_app. unfold mlen. cbn [length]. lia. }
  rewrite E, get_app_len.
  assert (E2 : (h <=? 63) = true) by (apply N.leb_le; exact H). rewrite E2. reflexivity.
Qed.

Lemma get_label_flat m a l r fuel : m = a ++ wire_label l ++ r -> (length l <= 63)%nat ->
  get_label (S fuel) m (N.of_nat (length a)) = Ok (l, N.of_nat (length (a ++ wire_label l))).
Proof.
  intros -> H. cbn [get_label]. unfold wire_label. cbn [app]. rewrite get_app_len.
  assert (E : (N.of_nat (length l) <=? 63) = true) by (apply N.leb_le; lia). rewrite E. cbv zeta.
  assert (E2 : (mlen (a ++ N.of_nat (length l) :: l ++ r) <? N.of_nat (length a) + 1 + N.of_nat (length l)) = false).
  { apply N.ltb_ge. rewrite mlen_app. unfold mlen. cbn [length]. rewrite app_length. lia. }
  rewrite E2.
  replace (a ++ N.of_nat (length l) :: l ++ r) with ((a ++ [N.of_nat (length l)]) ++ l ++ r)
    by (rewrite <- app_assoc; reflexivity).
  replace (N.of_nat (length a) + 1) with (N.of_nat (length (a ++ [N.of_nat (length l)])))
    by (rewrite app_length; simpl; lia).
  rewrite slice_app. f_equal. f_equal. rewrite !app_length. cbn [length]. lia.
Qed.

Lemma plabels_flat ls : forall m a r, short_labels ls -> m = a ++ wire_labels ls ++ r ->
  plabels m (N.of_nat (length a)) (N.of_nat (length (wire_labels ls))) ls.
Proof.
  induction ls as [|l ls IH]; intros m a r Hsl E.
  - constructor.
  - inversion Hsl as [|? ? Hl Hs]; subst. rewrite wire_labels_cons, app_length, wire_label_length.
    eapply PL_cons with (pos' := N.of_nat (length (a ++ wire_label l))).
    + lia.
    + eapply get_label_flat; [|exact Hl]. rewrite <- app_assoc. reflexivity.
    + unfold clen. lia.
    + replace (N.of_nat (S (length l) + length (wire_labels ls)) - clen l) with (N.of_nat (length (wire_labels ls)))
        by (unfold clen; lia).
      eapply IH; [exact Hs|]. rewrite <- !app_assoc. reflexivity.
Qed.

Lemma parse_labels_flat rest : forall fuel m a r name_len start,
  Forall valid_label rest -> m = a ++ wire_abs rest ++ r -> (length rest < fuel)%nat ->
  name_len + N.of_nat (wire_len rest) + 1 <= 255 ->
  parse_labels fuel m (mlen m) (N.of_nat (length a)) name_len start false None =
  Ok (mkPName start (name_len + N.of_nat (wire_len rest) + 1) false
              (N.of_nat (length a) + N.of_nat (wire_len rest) + 1)).
Proof.
  induction rest as [|l rest IH]; intros fuel m a r name_len start V E Hf Hb;
    (destruct fuel as [|fuel]; [simpl in Hf; lia|]); cbn [parse_labels].
  - rewrite (ltp_normal m a 0 r) by (try exact E; lia).
    cbn [N.eqb]. cbn [wire_len]. f_equal. f_equal; lia.
  - inversion V as [|? ? [Hl Hw] V']; subst.
    rewrite (ltp_normal _ a (N.of_nat (length l)) (l ++ wire_abs rest ++ r))
      by (try lia; rewrite wire_abs_cons'; unfold wire_label; rewrite <- !app_assoc; reflexivity).
    assert (E0 : (N.of_nat (length l) =? 0) = false) by (apply N.eqb_neq; lia). rewrite E0.
    set (m := a ++ wire_abs (l :: rest) ++ r).
    assert (Hm : mlen m = N.of_nat (length a) + N.of_nat (S (length l)) + N.of_nat (length (wire_abs rest ++ r))).
    { subst m. rewrite wire_abs_cons', <- app_assoc. unfold mlen. rewrite !app_length, wire_label_length. lia. }
    assert (E1 : (mlen m - (N.of_nat (length a) + 1) <? N.of_nat (length l)) = false) by (apply N.ltb_ge; lia).
    rewrite E1. cbn [wire_len] in Hb.
    assert (E2 : (255 <=? name_len + N.of_nat (length l) + 1) = false) by (apply N.leb_gt; lia).
    rewrite E2.
    replace (N.of_nat (length a) + 1 + N.of_nat (length l)) with (N.of_nat (length (a ++ wire_label l)))
      by (rewrite app_length, wire_label_length; lia).
    rewrite (IH fuel m (a ++ wire_label l) r); [|exact V'| |simpl in Hf; lia|lia].
    + f_equal. cbn [wire_len]. rewrite app_length, wire_label_length. f_equal; lia.
    + subst m. rewrite wire_abs_cons', <- !app_assoc. reflexivity.
Qed.

Theorem parsed_uncompressed_embedding pre n post : valid_abs n ->
  let m := pre ++ wire_abs n ++ post in
  exists p, parse_ref m (N.of_nat (length pre)) (mlen m) = Ok p /\ pn_compressed p = false /\
            denotes (NParsed m p) (n ++ [[]]).
Proof.
  intros [V L] m.
  assert (Hn : (length n < PARSE_FUEL)%nat).
  { pose proof (length_le_wire_len n). unfold PARSE_FUEL. lia. }
  eexists. split; [|split].
  - unfold parse_ref. apply (parse_labels_flat n PARSE_FUEL m pre post 0 (N.of_nat (length pre)) V eq_refl Hn). lia.
  - reflexivity.
  - assert (Hw : N.of_nat (length (wire_labels (n ++ [[]]))) = 0 + N.of_nat (wire_len n) + 1).
    { rewrite wire_labels_abs, wire_abs_length. lia. }
    apply denotes_parsed; cbn [pn_pos pn_len pn_compressed].
    + rewrite <- Hw. apply (plabels_flat (n ++ [[]]) m pre post); [apply valid_short_root; exact V|].
      rewrite wire_labels_abs. reflexivity.
    + intros _. cbn [pn_pos pn_len]. rewrite <- Hw. split.
      * subst m. rewrite wire_labels_abs, !mlen_app. unfold mlen. lia.
      * subst m. rewrite wire_labels_abs. apply slice_app.
Qed.

Theorem parsed_uncompressed_same_as_flat pre n post b rb : valid_abs n -> valid_abs b ->
  denotes rb (b ++ [[]]) ->
  let m := pre ++ wire_abs n ++ post in
  exists p, parse_ref m (N.of_nat (length pre)) (mlen m) = Ok p /\
    m_name_eq (NParsed m p) rb = Ok (name_eqb n b) /\
    m_name_cmp (NParsed m p) rb = Ok (name_cmp n b) /\
    m_name_hash (NParsed m p) = Ok (name_hash_feed n).
Proof.
  intros Vn Vb Db m. destruct (parsed_uncompressed_embedding pre n post Vn) as [p [Hp [_ D]]].
  exists p. repeat split; auto with name_repr.
Qed.

Example embed_example :
  let m := [9;9] ++ wire_abs [[97];[66]] ++ [7] in
  exists p, parse_ref m 2 (mlen m) = Ok p /\ pn_compressed p = false /\ pn_len p = 5 /\
    as_flat (NParsed m p) = Ok (Some (wire_abs [[97];[66]])).
Proof. exists (mkPName 2 5 false 7). vm_compute. repeat split; reflexivity. Qed.

(* C04 proofs: a representation `denotes` a label sequence when its iterator
   yields it forwards and backwards and its flat slice, if it offers one, is
   the wire form of that sequence.  Every operation is a function of the
   denoted sequence only. *)
From Coq Require Import NArith List Bool Lia.
From DV Require Import Base.Outcome Base.Bytes Base.Lex Base.Names C04.Gen C04.Model
  C04.ProofsLabel C04.ProofsIter.
Import ListNotations.
Local Open Scope N_scope.

Record denotes (r : nrepr) (ls : list label) : Prop := mkDenotes {
  d_fwd : yields (iter_of r) ls;
  d_bwd : yields_back (iter_of r) (rev ls);
  d_flat : as_flat r = Ok None \/ as_flat r = Ok (Some (wire_labels ls))
}.

Lemma denotes_flat ls : short_labels ls -> denotes (NFlat (wire_labels ls)) ls.
Proof.
  intros H. constructor; cbn [iter_of as_flat].
  - apply yields_flat. exact H.
  - apply yields_back_flat. exact H.
  - right. reflexivity.
Qed.

Lemma denotes_flat_abs n : Forall valid_label n -> denotes (NFlat (wire_abs n)) (n ++ [[]]).
Proof. intros H. rewrite <- wire_labels_abs. apply denotes_flat. apply valid_short_root. exact H. Qed.

Lemma denotes_flat_rel n : Forall valid_label n -> denotes (NFlat (wire_rel n)) n.
Proof. intros H. rewrite <- wire_labels_rel. apply denotes_flat. apply valid_short. exact H. Qed.

Lemma denotes_chain l r la lb : denotes l la -> denotes r lb -> denotes (NChain l r) (la ++ lb).
Proof.
  intros [F1 B1 _] [F2 B2 _]. constructor; cbn [iter_of as_flat].
  - apply yields_chain; assumption.
  - rewrite rev_app_distr. apply yields_back_chain; assumption.
  - left. reflexivity.
Qed.

Lemma valid_rel_length n : valid_rel n -> (length n < LOOP_FUEL)%nat.
Proof. intros [_ Hl]. pose proof (length_le_wire_len n). unfold LOOP_FUEL. lia. Qed.

Lemma valid_abs_length n : valid_abs n -> (length (n ++ [[]]) < LOOP_FUEL)%nat.
Proof. intros [_ Hl]. pose proof (length_le_wire_len n). rewrite app_length. unfold LOOP_FUEL. simpl. lia. Qed.

Lemma eq_gen_repr ra rb la lb : denotes ra la -> denotes rb lb -> (length la < LOOP_FUEL)%nat ->
  eq_ci (wire_labels la) (wire_labels lb) = name_eqb la lb ->
  name_eq_gen true ra rb = Ok (name_eqb la lb).
Proof.
  intros [Fa _ Da] [Fb _ Db] L E. unfold name_eq_gen.
  pose proof (iters_eq_yields _ _ Fa _ _ _ Fb L) as I.
  destruct Da as [Da|Da]; destruct Db as [Db|Db]; rewrite Da, Db; cbn [bind]; try exact I.
  rewrite E. reflexivity.
Qed.

Lemma cmp_back_repr ra rb la lb : denotes ra la -> denotes rb lb -> (length la < LOOP_FUEL)%nat ->
  iters_cmp_back LOOP_FUEL Lt Gt Eq (iter_of ra) (iter_of rb) = Ok (labels_cmp (rev la) (rev lb)).
Proof.
  intros [_ Ba _] [_ Bb _] L. apply (iters_cmp_back_yields _ _ Ba _ _ _ Bb). rewrite rev_length. exact L.
Qed.

Lemma hash_repr ra la : denotes ra la -> (length la < LOOP_FUEL)%nat ->
  m_name_hash ra = Ok (flat_map m_label_hash la).
Proof. intros [Fa _ _] L. apply (iters_hash_yields _ _ Fa _ L). Qed.

Theorem name_eq_repr ra rb a b : denotes ra (a ++ [[]]) -> denotes rb (b ++ [[]]) ->
  valid_abs a -> valid_abs b -> m_name_eq ra rb = Ok (name_eqb a b).
Proof.
  intros Da Db Va Vb. rewrite <- name_eqb_root.
  apply (eq_gen_repr _ _ _ _ Da Db (valid_abs_length a Va)).
  rewrite !wire_labels_abs, name_eqb_root. apply flat_eq_iff_label_eq; assumption.
Qed.

Theorem name_cmp_repr ra rb a b : denotes ra (a ++ [[]]) -> denotes rb (b ++ [[]]) ->
  valid_abs a -> m_name_cmp ra rb = Ok (name_cmp a b).
Proof.
  intros Da Db Va. rewrite <- labels_cmp_root. apply (cmp_back_repr _ _ _ _ Da Db (valid_abs_length a Va)).
Qed.

Theorem name_hash_repr ra a : denotes ra (a ++ [[]]) -> valid_abs a ->
  m_name_hash ra = Ok (name_hash_feed a).
Proof.
  intros Da Va. rewrite (hash_repr _ _ Da (valid_abs_length a Va)), hash_root by apply Va. reflexivity.
Qed.

Theorem composed_cmp_repr ra rb a b : denotes ra (a ++ [[]]) -> denotes rb (b ++ [[]]) ->
  valid_abs a -> valid_abs b -> m_composed_cmp ra rb = Ok (lex_cmp (wire_abs a) (wire_abs b)).
Proof.
  intros [Fa _ Da] [Fb _ Db] Va Vb. unfold m_composed_cmp.
  assert (I : iters_composed LOOP_FUEL m_label_composed_cmp composed_arm_none_none (iter_of ra) (iter_of rb)
              = Ok (lex_cmp (wire_abs a) (wire_abs b))).
  { change composed_arm_none_none with Eq.
    rewrite (iters_composed_yields _ _ _ Fa _ _ _ Fb) by (apply valid_abs_length; exact Va).
    apply labels_composed_wire; [apply Va|apply Vb]. }
  destruct Da as [Da|Da]; destruct Db as [Db|Db]; rewrite Da, Db; cbn [bind]; try exact I.
  rewrite !wire_labels_abs. reflexivity.
Qed.

Theorem lc_composed_cmp_repr ra rb a b : denotes ra (a ++ [[]]) -> denotes rb (b ++ [[]]) ->
  valid_abs a -> valid_abs b ->
  m_lc_composed_cmp ra rb = Ok (lex_cmp (wire_abs (canon a)) (wire_abs (canon b))).
Proof.
  intros [Fa _ _] [Fb _ _] Va Vb. unfold m_lc_composed_cmp.
  change lc_composed_arm_none_none with Eq.
  rewrite (iters_composed_yields _ _ _ Fa _ _ _ Fb) by (apply valid_abs_length; exact Va).
  apply labels_lc_composed_wire; [apply Va|apply Vb].
Qed.

Create HintDb name_repr discriminated.
#[export] Hint Resolve name_eq_repr name_cmp_repr name_hash_repr composed_cmp_repr lc_composed_cmp_repr
  : name_repr.

Theorem relname_eq_repr ra rb a b : denotes ra a -> denotes rb b ->
  valid_rel a -> valid_rel b -> m_relname_eq ra rb = Ok (name_eqb a b).
Proof.
  intros Da Db Va Vb. apply (eq_gen_repr _ _ _ _ Da Db (valid_rel_length a Va)).
  apply flat_eq_iff_label_eq_rel; assumption.
Qed.

Theorem relname_cmp_repr ra rb a b : denotes ra a -> denotes rb b ->
  valid_rel a -> m_relname_cmp ra rb = Ok (name_cmp a b).
Proof. intros Da Db Va. apply (cmp_back_repr _ _ _ _ Da Db (valid_rel_length a Va)). Qed.

Theorem eq_implies_same_hash ra rb a b : denotes ra (a ++ [[]]) -> denotes rb (b ++ [[]]) ->
  valid_abs a -> valid_abs b -> m_name_eq ra rb = Ok true -> m_name_hash ra = m_name_hash rb.
Proof.
  intros Da Db Va Vb. erewrite name_eq_repr, !name_hash_repr by eassumption.
  intros E. injection E as E. f_equal. apply name_eq_hash. exact E.
Qed.

Theorem cmp_eq_iff_eq ra rb a b : denotes ra (a ++ [[]]) -> denotes rb (b ++ [[]]) ->
  valid_abs a -> valid_abs b -> (m_name_cmp ra rb = Ok Eq <-> m_name_eq ra rb = Ok true).
Proof.
  intros Da Db Va Vb. erewrite name_eq_repr, name_cmp_repr by eassumption.
  split; intros H; injection H as H; f_equal; apply name_cmp_eq_iff; exact H.
Qed.

Theorem cmp_antisym_repr ra rb a b : denotes ra (a ++ [[]]) -> denotes rb (b ++ [[]]) ->
  valid_abs a -> valid_abs b ->
  exists c, m_name_cmp ra rb = Ok c /\ m_name_cmp rb ra = Ok (CompOpp c).
Proof.
  intros Da Db Va Vb. exists (name_cmp a b).
  erewrite !name_cmp_repr by eassumption. rewrite (name_cmp_antisym a b). auto.
Qed.

Theorem cmp_trans_repr ra rb rc a b c o : denotes ra (a ++ [[]]) -> denotes rb (b ++ [[]]) ->
  denotes rc (c ++ [[]]) -> valid_abs a -> valid_abs b -> valid_abs c ->
  m_name_cmp ra rb = Ok o -> m_name_cmp rb rc = Ok o -> m_name_cmp ra rc = Ok o.
Proof.
  intros Da Db Dc Va Vb Vc. erewrite !name_cmp_repr by eassumption. intros H1 H2. injection H1 as H1. injection H2 as H2.
  f_equal. eapply name_cmp_trans; eauto.
Qed.

Theorem name_eq_equiv_repr ra rb rc a b c :
  denotes ra (a ++ [[]]) -> denotes rb (b ++ [[]]) -> denotes rc (c ++ [[]]) ->
  valid_abs a -> valid_abs b -> valid_abs c ->
  m_name_eq ra ra = Ok true /\
  m_name_eq ra rb = m_name_eq rb ra /\
  (m_name_eq ra rb = Ok true -> m_name_eq rb rc = Ok true -> m_name_eq ra rc = Ok true).
Proof.
  intros Da Db Dc Va Vb Vc. erewrite !name_eq_repr by eassumption.
  split; [rewrite name_eqb_refl; reflexivity|]. split; [rewrite name_eqb_sym; reflexivity|].
  intros H1 H2. injection H1 as H1. injection H2 as H2. f_equal.
  apply name_eqb_spec in H1. apply name_eqb_spec in H2. apply name_eqb_spec. congruence.
Qed.

(* ASCII case is invisible to ==, name_cmp, the hash and lowercase_composed_cmp *)
Theorem case_independent_repr ra ra' rb a a' b :
  denotes ra (a ++ [[]]) -> denotes ra' (a' ++ [[]]) -> denotes rb (b ++ [[]]) ->
  valid_abs a -> valid_abs a' -> valid_abs b -> canon a = canon a' ->
  m_name_eq ra rb = m_name_eq ra' rb /\
  m_name_cmp ra rb = m_name_cmp ra' rb /\
  m_name_cmp rb ra = m_name_cmp rb ra' /\
  m_name_hash ra = m_name_hash ra' /\
  m_lc_composed_cmp ra rb = m_lc_composed_cmp ra' rb.
Proof.
  intros Da Da' Db Va Va' Vb H.
  erewrite !name_eq_repr, !name_cmp_repr, !name_hash_repr, !lc_composed_cmp_repr by eassumption.
  repeat split.
  - f_equal. apply eq_true_iff_eq. rewrite !name_eqb_spec, H. tauto.
  - f_equal. rewrite (name_cmp_canon a b), (name_cmp_canon a' b), H. reflexivity.
  - f_equal. rewrite (name_cmp_canon b a), (name_cmp_canon b a'), H. reflexivity.
  - f_equal. apply name_eq_hash. apply name_eqb_spec. exact H.
  - rewrite H. reflexivity.
Qed.

Theorem composed_cmp_eq_iff ra rb a b : denotes ra (a ++ [[]]) -> denotes rb (b ++ [[]]) ->
  valid_abs a -> valid_abs b ->
  (m_composed_cmp ra rb = Ok Eq <-> a = b) /\
  (m_lc_composed_cmp ra rb = Ok Eq <-> m_name_eq ra rb = Ok true).
Proof.
  intros Da Db Va Vb. erewrite composed_cmp_repr, lc_composed_cmp_repr, name_eq_repr by eassumption.
  split; split; intros H.
  - injection H as H. apply lex_cmp_eq in H. apply wire_abs_inj, H.
  - subst b. rewrite lex_cmp_refl. reflexivity.
  - injection H as H. apply lex_cmp_eq in H. f_equal. apply name_eqb_spec.
    apply wire_abs_inj, H.
  - injection H as H. apply name_eqb_spec in H. rewrite H, lex_cmp_refl. reflexivity.
Qed.

Lemma same_denotation ra ra' rb a b : denotes ra (a ++ [[]]) -> denotes ra' (a ++ [[]]) ->
  denotes rb (b ++ [[]]) -> valid_abs a -> valid_abs b ->
  m_name_eq ra rb = m_name_eq ra' rb /\ m_name_cmp ra rb = m_name_cmp ra' rb /\
  m_name_hash ra = m_name_hash ra' /\ m_lc_composed_cmp ra rb = m_lc_composed_cmp ra' rb /\
  m_composed_cmp ra rb = m_composed_cmp ra' rb.
Proof.
  intros Da Da' Db Va Vb.
  erewrite !name_eq_repr, !name_cmp_repr, !name_hash_repr, !lc_composed_cmp_repr, !composed_cmp_repr
    by eassumption.
  repeat split.
Qed.

(* the same name flat and as a chain of a relative prefix and an absolute suffix *)
Theorem chain_same_as_flat p s b rb : Forall valid_label p -> Forall valid_label s ->
  valid_abs (p ++ s) -> valid_abs b -> denotes rb (b ++ [[]]) ->
  let ch := NChain (NFlat (wire_rel p)) (NFlat (wire_abs s)) in
  let fl := NFlat (wire_abs (p ++ s)) in
  m_name_eq ch rb = m_name_eq fl rb /\ m_name_cmp ch rb = m_name_cmp fl rb /\
  m_name_hash ch = m_name_hash fl /\ m_lc_composed_cmp ch rb = m_lc_composed_cmp fl rb /\
  m_composed_cmp ch rb = m_composed_cmp fl rb.
Proof.
  intros Hp Hs Vps Vb Db ch fl. apply (same_denotation ch fl rb (p ++ s) b); try assumption.
  - rewrite <- app_assoc. apply denotes_chain; [apply denotes_flat_rel|apply denotes_flat_abs]; assumption.
  - apply denotes_flat_abs. apply Vps.
Qed.

(* RFC 4034 6.1 shape of the canonical order *)

Lemma labels_cmp_app_same p : forall x y, labels_cmp (p ++ x) (p ++ y) = labels_cmp x y.
Proof.
  induction p as [|l p IH]; intros x y; simpl; [reflexivity|].
  assert (E : label_cmp l l = Eq) by (apply label_cmp_eq, label_eqb_spec; reflexivity).
  rewrite E. apply IH.
Qed.

Theorem name_cmp_common_suffix a b s : name_cmp (a ++ s) (b ++ s) = name_cmp a b.
Proof. unfold name_cmp. rewrite !rev_app_distr. apply labels_cmp_app_same. Qed.

(* siblings sort by their leftmost label, compared as lower-cased octet strings *)
Theorem name_cmp_siblings x y s : name_cmp (x :: s) (y :: s) = lex_cmp (lowers x) (lowers y).
Proof.
  change (x :: s) with ([x] ++ s). change (y :: s) with ([y] ++ s).
  rewrite name_cmp_common_suffix. unfold name_cmp. simpl. unfold label_cmp.
  destruct (lex_cmp (lowers x) (lowers y)); reflexivity.
Qed.

(* a name sorts before every name strictly below it *)
Theorem name_cmp_parent_first p s : p <> [] -> name_cmp s (p ++ s) = Lt.
Proof.
  intros H. change s with ([] ++ s) at 1. rewrite name_cmp_common_suffix.
  unfold name_cmp. simpl. destruct (rev p) eqn:E; [|reflexivity].
  apply (f_equal (@rev _)) in E. rewrite rev_involutive in E. simpl in E. contradiction.
Qed.

Theorem name_cmp_first_difference a b x y s : label_cmp x y <> Eq ->
  name_cmp (a ++ x :: s) (b ++ y :: s) = label_cmp x y.
Proof.
  intros H. change (x :: s) with ([x] ++ s). change (y :: s) with ([y] ++ s).
  rewrite !app_assoc, name_cmp_common_suffix. unfold name_cmp. rewrite !rev_app_distr. simpl.
  destruct (label_cmp x y); try reflexivity. contradiction.
Qed.

Theorem name_cmp_rfc4034_repr ra rb a b x y s :
  denotes ra ((a ++ x :: s) ++ [[]]) -> denotes rb ((b ++ y :: s) ++ [[]]) ->
  valid_abs (a ++ x :: s) -> lex_cmp (lowers x) (lowers y) <> Eq ->
  m_name_cmp ra rb = Ok (lex_cmp (lowers x) (lowers y)).
Proof.
  intros Da Db Va H. rewrite (name_cmp_repr _ _ _ _ Da Db Va). f_equal.
  apply name_cmp_first_difference. exact H.
Qed.

Theorem name_cmp_parent_first_repr ra rb p s :
  denotes ra (s ++ [[]]) -> denotes rb ((p ++ s) ++ [[]]) -> valid_abs s -> valid_abs (p ++ s) ->
  p <> [] -> m_name_cmp ra rb = Ok Lt /\ m_name_cmp rb ra = Ok Gt.
Proof.
  intros Da Db Vs E H.
  rewrite (name_cmp_repr _ _ _ _ Da Db Vs), (name_cmp_repr _ _ _ _ Db Da E).
  pose proof (name_cmp_parent_first p s H) as L. split; f_equal; [exact L | exact (eq_trans (name_cmp_antisym s (p ++ s)) (f_equal CompOpp L))].
Qed.

(* the operators are the trait functions (T1 tie: a rewritten Ord::cmp makes
   this lemma fail) *)
Lemma name_ops_delegate :
  name_ord_is_name_cmp = true /\ relname_ord_is_name_cmp = true /\ parsed_ord_is_name_cmp = true.
Proof. repeat split; reflexivity. Qed.

Theorem name_ord_repr ra rb a b : denotes ra (a ++ [[]]) -> denotes rb (b ++ [[]]) -> valid_abs a ->
  m_name_ord ra rb = Ok (name_cmp a b) /\ m_parsed_ord ra rb = Ok (name_cmp a b).
Proof.
  intros Da Db Va. unfold m_name_ord, m_parsed_ord, ord_via.
  destruct name_ops_delegate as [-> [_ ->]]. split; apply name_cmp_repr; assumption.
Qed.

Theorem relname_ord_repr ra rb a b : denotes ra a -> denotes rb b -> valid_rel a ->
  m_relname_ord ra rb = Ok (name_cmp a b).
Proof.
  intros Da Db Va. unfold m_relname_ord, ord_via. destruct name_ops_delegate as [_ [-> _]].
  apply relname_cmp_repr; assumption.
Qed.

Theorem uncertain_abs_eq a b : valid_abs a -> valid_abs b ->
  m_uncertain_eq (UAbs (wire_abs a)) (UAbs (wire_abs b)) = Ok (name_eqb a b) /\
  m_uncertain_eq (UAbs (wire_abs a)) (URel (wire_rel b)) = Ok false /\
  m_uncertain_eq (URel (wire_rel a)) (URel (wire_rel b)) = Ok (name_eqb a b).
Proof.
  intros Va Vb. cbn [m_uncertain_eq]. change uncertain_eq_same_variant_only with true. cbv iota.
  split; [|split; [reflexivity|]].
  - apply name_eq_repr; try assumption; apply denotes_flat_abs; [apply Va|apply Vb].
  - apply relname_eq_repr; try assumption; apply denotes_flat_rel; [apply Va|apply Vb].
Qed.

Theorem uncertain_eq_hash a b : valid_abs a -> valid_abs b ->
  (m_uncertain_eq (UAbs (wire_abs a)) (UAbs (wire_abs b)) = Ok true ->
   m_uncertain_hash (UAbs (wire_abs a)) = m_uncertain_hash (UAbs (wire_abs b))) /\
  (m_uncertain_eq (URel (wire_rel a)) (URel (wire_rel b)) = Ok true ->
   m_uncertain_hash (URel (wire_rel a)) = m_uncertain_hash (URel (wire_rel b))).
Proof.
  intros Va Vb. destruct (uncertain_abs_eq a b Va Vb) as [E1 [_ E3]].
  split; intros H; [rewrite E1 in H|rewrite E3 in H]; injection H as H; cbn [m_uncertain_hash].
  - rewrite (name_hash_repr _ a (denotes_flat_abs a (proj1 Va)) Va), (name_hash_repr _ b (denotes_flat_abs b (proj1 Vb)) Vb).
    f_equal. apply name_eq_hash. exact H.
  - rewrite (hash_repr _ a (denotes_flat_rel a (proj1 Va)) (valid_rel_length a Va)),
      (hash_repr _ b (denotes_flat_rel b (proj1 Vb)) (valid_rel_length b Vb)),
      !flat_map_hash_feed by (apply Va || apply Vb).
    (* the feed of an absolute name is that of its labels followed by the root's *)
    f_equal. apply (app_inv_tail [0]). apply (name_eq_hash a b H).
Qed.

(* core::iter::Chain fuses its first half; the unfused IChain of the model
   yields the same labels because the halves keep answering None *)
Inductive fused_yields : option iter -> iter -> list label -> Prop :=
| FY_nil oa b : fused_next oa b = Ok None -> fused_yields oa b []
| FY_cons oa b l oa' b' ls : fused_next oa b = Ok (Some (l, (oa', b'))) -> fused_yields oa' b' ls ->
    fused_yields oa b (l :: ls).

Lemma fused_yields_second b lb : yields b lb -> fused_yields None b lb.
Proof.
  induction 1 as [b Hm | b l b' ls Hm Hb IH].
  - apply FY_nil. cbn [fused_next]. rewrite Hm. reflexivity.
  - eapply FY_cons; [|exact IH]. cbn [fused_next]. rewrite Hm. reflexivity.
Qed.

Theorem chain_fused_same a b la lb : yields a la -> yields b lb ->
  fused_yields (Some a) b (la ++ lb) /\ yields (IChain a b) (la ++ lb).
Proof.
  intros Ha Hb. split; [|apply yields_chain; assumption].
  induction Ha as [a Hn | a l a' ls Hn Ha IH].
  - cbn [app]. inversion Hb as [? Hm | ? l b' ls Hm Hb']; subst.
    + apply FY_nil. cbn [fused_next]. rewrite Hn. cbn [bind]. rewrite Hm. reflexivity.
    + eapply FY_cons; [|apply fused_yields_second; exact Hb'].
      cbn [fused_next]. rewrite Hn. cbn [bind]. rewrite Hm. reflexivity.
  - cbn [app]. eapply FY_cons; [|exact IH]. cbn [fused_next]. rewrite Hn. reflexivity.
Qed.

Lemma yields_det i a : yields i a -> forall b, yields i b -> a = b.
Proof.
  induction 1 as [i Hn | i l i' ls Hn Hi IH]; intros b Hb; inversion Hb as [? Hm | ? l2 i2 ls2 Hm Hb2]; subst;
    rewrite Hn in Hm; try discriminate; [reflexivity|].
  inversion Hm; subst. f_equal. apply IH. exact Hb2.
Qed.

Example repr_example :
  let ch := NChain (NFlat (wire_rel [[87;87;87]])) (NFlat (wire_abs [[97]; [66]])) in
  let fl := NFlat (wire_abs [[119;119;119]; [65]; [98]]) in
  m_name_eq ch fl = Ok true /\ m_name_cmp ch fl = Ok Eq /\ m_name_hash ch = m_name_hash fl /\
  m_composed_cmp ch fl = Ok Lt /\ m_lc_composed_cmp ch fl = Ok Eq.
Proof. vm_compute. auto. Qed.

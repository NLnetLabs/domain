(* C04 proofs: ParsedName (a name inside a message, possibly compressed) as a
   representation.  `plabels m pos len ls`: the ParsedNameIter {slice m, pos,
   len} reads the label sequence ls, following compression pointers and
   consuming len octets of uncompressed length. *)
From Coq Require Import NArith Arith List Lia.
From DV Require Import Base.Outcome Base.Bytes Base.Names Base.PName C04.Gen C04.Model
  C04.ProofsIter C04.ProofsRepr.
Import ListNotations.
Local Open Scope N_scope.

Definition clen (l : label) : N := N.of_nat (length l) + 1.

Inductive plabels (m : bytes) : N -> N -> list label -> Prop :=
| PL_nil pos : plabels m pos 0 []
| PL_cons pos len l pos' ls :
    len <> 0 -> get_label (S (length m)) m pos = Ok (l, pos') -> clen l <= len ->
    plabels m pos' (len - clen l) ls -> plabels m pos len (l :: ls).

Lemma plabels_nonnil_len m pos len ls : plabels m pos len ls -> ls <> [] -> len <> 0.
Proof. inversion 1; [congruence|auto]. Qed.

Lemma plabels_cons_len m pos len l ls : plabels m pos len (l :: ls) -> len <> 0.
Proof. intros H. apply (plabels_nonnil_len _ _ _ _ H). discriminate. Qed.

Lemma plabels_length m pos len ls : plabels m pos len ls -> (length ls <= N.to_nat len)%nat.
Proof. induction 1 as [|pos len l pos' ls Hn Hg Hc Hp IH]; simpl; unfold clen in *; lia. Qed.

Lemma yields_parsed m pos len ls : plabels m pos len ls -> yields (IParsed m pos len) ls.
Proof.
  induction 1 as [|pos len l pos' ls Hn Hg Hc Hp IH].
  - apply Y_nil. reflexivity.
  - eapply Y_cons; [|exact IH]. cbn [iter_next].
    rewrite (proj2 (N.eqb_neq _ _) Hn), Hg. cbn [bind].
    fold (clen l). rewrite (proj2 (N.ltb_ge _ _) Hc). reflexivity.
Qed.

Lemma parsed_last_spec m ls : forall pos len l fuel, plabels m pos len (ls ++ [l]) ->
  (length ls < fuel)%nat -> parsed_last fuel m pos len = Ok l.
Proof.
  induction ls as [|x ls IH]; intros pos len l fuel H Hf; (destruct fuel as [|fuel]; [lia|]);
    cbn [app] in H; inversion H as [|? ? ? pos' ? Hn Hg Hc Hp]; subst; cbn [parsed_last]; rewrite Hg; cbn [bind].
  - fold (clen l). rewrite (proj2 (N.ltb_ge _ _) Hc).
    inversion Hp. reflexivity.
  - fold (clen x). rewrite (proj2 (N.ltb_ge _ _) Hc).
    assert (Hn' : len - clen x <> 0).
    { apply (plabels_nonnil_len _ _ _ _ Hp). destruct ls; discriminate. }
    rewrite (proj2 (N.eqb_neq _ _) Hn').
    apply IH; [exact Hp|simpl in Hf; lia].
Qed.

Lemma plabels_snoc m ls : forall pos len l, plabels m pos len (ls ++ [l]) ->
  clen l <= len /\ plabels m pos (len - clen l) ls.
Proof.
  induction ls as [|x ls IH]; intros pos len l H; cbn [app] in H;
    inversion H as [|? ? ? pos' ? Hn Hg Hc Hp]; subst.
  - inversion Hp. split; [exact Hc|]. constructor.
  - destruct (IH _ _ _ Hp) as [Hl Hq]. unfold clen in *. split; [lia|].
    eapply PL_cons; [lia|exact Hg|unfold clen; lia|].
    replace (len - (N.of_nat (length l) + 1) - clen x) with (len - clen x - (N.of_nat (length l) + 1)) by (unfold clen; lia).
    exact Hq.
Qed.

Lemma yields_back_parsed m ls : forall pos len, plabels m pos len ls ->
  yields_back (IParsed m pos len) (rev ls).
Proof.
  induction ls as [|l ls IH] using rev_ind; intros pos len H.
  - inversion H; subst. apply YB_nil. reflexivity.
  - rewrite rev_unit. destruct (plabels_snoc _ _ _ _ _ H) as [Hc Hq].
    eapply YB_cons; [|apply IH; exact Hq]. cbn [iter_next_back].
    assert (Hn : len <> 0).
    { apply (plabels_nonnil_len _ _ _ _ H). destruct ls; discriminate. }
    rewrite (proj2 (N.eqb_neq _ _) Hn).
    rewrite (parsed_last_spec m ls pos len l); [|exact H|].
    + cbn [bind]. fold (clen l). rewrite (proj2 (N.ltb_ge _ _) Hc). reflexivity.
    + pose proof (plabels_length _ _ _ _ H) as G. rewrite app_length in G. simpl in G. lia.
Qed.

(* if the name is uncompressed its flat slice must be the wire form of the
   labels (true for every name ParsedName::parse produces:
   ProofsEmbed.parsed_uncompressed_embedding, ProofsCompressed) *)
Definition flat_ok (m : bytes) (p : pname) (ls : list label) : Prop :=
  pn_compressed p = false ->
  pn_pos p + pn_len p <= mlen m /\ slice m (pn_pos p) (pn_pos p + pn_len p) = wire_labels ls.

Theorem denotes_parsed m p ls : plabels m (pn_pos p) (pn_len p) ls -> flat_ok m p ls ->
  denotes (NParsed m p) ls.
Proof.
  intros H F. constructor; cbn [iter_of as_flat].
  - apply yields_parsed. exact H.
  - apply yields_back_parsed. exact H.
  - destruct (pn_compressed p) eqn:C; [left; reflexivity|right].
    destruct (F C) as [Hr Hs].
    assert (E : (mlen m <? pn_pos p + pn_len p) = false) by (apply N.ltb_ge; exact Hr).
    rewrite E, Hs. reflexivity.
Qed.

Lemma iter_labels_plabels m : forall fuel pos len acc n b,
  iter_labels fuel m pos len acc = Ok (n, b) ->
  exists ls, n ++ (if b then [[]] else []) = rev acc ++ ls /\ plabels m pos len ls.
Proof.
  induction fuel as [|fuel IH]; intros pos len acc n b H; [discriminate|].
  cbn [iter_labels] in H. destruct (len =? 0) eqn:E0.
  - apply N.eqb_eq in E0. subst. injection H as <- <-. exists []. split; [reflexivity|constructor].
  - apply N.eqb_neq in E0.
    destruct (get_label (S (length m)) m pos) as [[l pos']| | |] eqn:G; cbn [bind] in H; try discriminate.
    destruct (len <? N.of_nat (length l) + 1) eqn:E1; [discriminate|]. apply N.ltb_ge in E1.
    destruct (Nat.eqb (length l) 0) eqn:El.
    + apply Nat.eqb_eq in El. destruct l; [|discriminate]. cbn [length] in *.
      destruct (len - (N.of_nat 0 + 1) =? 0) eqn:E2.
      * injection H as <- <-. exists [[]]. split; [reflexivity|].
        eapply PL_cons; [exact E0|exact G|unfold clen; simpl; lia|].
        apply N.eqb_eq in E2. unfold clen. cbn [length]. rewrite E2. constructor.
      * destruct (IH _ _ _ _ _ H) as [ls [Hl Hp]]. exists ([] :: ls). split.
        -- rewrite Hl. cbn [rev]. rewrite <- app_assoc. reflexivity.
        -- eapply PL_cons; [exact E0|exact G|unfold clen; simpl; lia|exact Hp].
    + destruct (IH _ _ _ _ _ H) as [ls [Hl Hp]]. exists (l :: ls). split.
      * rewrite Hl. cbn [rev]. rewrite <- app_assoc. reflexivity.
      * eapply PL_cons; [exact E0|exact G|unfold clen; lia|exact Hp].
Qed.

(* as an equation to rewrite with: after [unfold pname_labels in H] the kernel is left a
   conversion that it attacks by running the loop on its 300 units of fuel *)
Lemma pname_labels_unfold m p :
  pname_labels m p = iter_labels PARSE_FUEL m (pn_pos p) (pn_len p) [].
Proof. reflexivity. Qed.

Theorem denotes_parsed_pname m p n : pname_labels m p = Ok (n, true) -> flat_ok m p (n ++ [[]]) ->
  denotes (NParsed m p) (n ++ [[]]).
Proof.
  intros H F. rewrite pname_labels_unfold in H. apply iter_labels_plabels in H. destruct H as [ls [Hl Hp]].
  cbn [rev app] in Hl. subst ls. apply denotes_parsed; assumption.
Qed.

Theorem parsed_same_as_flat m p n b rb : pname_labels m p = Ok (n, true) -> flat_ok m p (n ++ [[]]) ->
  valid_abs n -> valid_abs b -> denotes rb (b ++ [[]]) ->
  let pa := NParsed m p in
  let fl := NFlat (wire_abs n) in
  m_name_eq pa rb = m_name_eq fl rb /\ m_name_cmp pa rb = m_name_cmp fl rb /\
  m_name_hash pa = m_name_hash fl /\ m_lc_composed_cmp pa rb = m_lc_composed_cmp fl rb /\
  m_composed_cmp pa rb = m_composed_cmp fl rb /\
  m_name_eq pa fl = Ok true /\ m_name_cmp pa fl = Ok Eq.
Proof.
  intros H F Vn Vb Db pa fl.
  assert (Dpa : denotes pa (n ++ [[]])) by (apply denotes_parsed_pname; assumption).
  assert (Dfl : denotes fl (n ++ [[]])) by (apply denotes_flat_abs; apply Vn).
  pose proof (same_denotation pa fl rb n b Dpa Dfl Db Vn Vb) as S.
  rewrite (name_eq_repr _ _ _ _ Dpa Dfl Vn Vn), (name_cmp_repr _ _ _ _ Dpa Dfl Vn), name_eqb_refl, name_cmp_refl.
  tauto.
Qed.

(* a compressed name: header, "b.c." at 12, then "A" + pointer to 12 at 17 *)
Example parsed_example :
  let m := [0;0;0;0;0;0;0;0;0;0;0;0; 1;98;1;99;0; 1;65;192;12] in
  exists p, parse_ref m 17 (mlen m) = Ok p /\ pn_compressed p = true /\
    pname_labels m p = Ok ([[65];[98];[99]], true) /\
    m_name_eq (NParsed m p) (NFlat (wire_abs [[97];[66];[67]])) = Ok true /\
    m_name_cmp (NParsed m p) (NFlat (wire_abs [[97];[98];[99]])) = Ok Eq /\
    m_name_hash (NParsed m p) = m_name_hash (NFlat (wire_abs [[97];[98];[99]])).
Proof. exists (mkPName 17 7 true 21). vm_compute. repeat split; reflexivity. Qed.

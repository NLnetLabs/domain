(* C04 proofs: record data values typed by the T1 table rd_table.  For every
   type in the table PartialEq, Ord, CanonicalOrd and Hash range over exactly
   the struct's fields, equal values feed the Hasher identically, and
   canonical_cmp is the octet order of the canonical encodings. *)
From Coq Require Import NArith Arith List Bool Lia.
From DV Require Import Base.Outcome Base.Bytes Base.Lex Base.Names C04.Gen C04.Model
  C04.ProofsLabel C04.ProofsIter C04.ProofsData.
Import ListNotations.
Local Open Scope N_scope.

Fixpoint nlist_eqb (a b : list N) : bool :=
  match a, b with
  | [], [] => true
  | x :: a', y :: b' => (x =? y) && nlist_eqb a' b'
  | _, _ => false
  end.

Lemma nlist_eqb_eq a b : nlist_eqb a b = true -> a = b.
Proof. apply bytes_eqb_eq. Qed.

Definition iota (n : nat) : list N := map N.of_nat (seq 0 n).

(* variable-length kinds without own delimiter (7 octets, 9 bitmap) only in
   last position *)
Fixpoint tails_last (kinds : list N) : bool :=
  match kinds with
  | [] => true
  | k :: rest => (if (k =? 7) || (k =? 9) then match rest with [] => true | _ => false end else true)
                 && tails_last rest
  end.

Definition row_ok (r : rd_row) : bool :=
  let n := iota (length (row_kinds r)) in
  nlist_eqb (row_eq r) n && nlist_eqb (row_cmp r) n && nlist_eqb (row_canonical r) n &&
  nlist_eqb (row_hash r) n && tails_last (row_kinds r) &&
  forallb (fun k => (1 <=? k) && (k <=? 13)) (row_kinds r).

(* T1 tie: every impl of every listed type ranges over all fields, in
   declaration order *)
Lemma rd_table_ok : forallb (fun cr => row_ok (snd cr)) rd_table = true.
Proof. vm_compute. reflexivity. Qed.

Lemma rd_lookup_in t code r : rd_lookup t code = Some r -> In (code, r) t.
Proof.
  induction t as [|[c r'] t IH]; cbn [rd_lookup]; [discriminate|].
  destruct (N.eqb_spec c code) as [->|_]; intros H; [inversion H; subst; left; reflexivity|right; auto].
Qed.

Lemma rd_lookup_ok code r : rd_lookup rd_table code = Some r -> row_ok r = true.
Proof.
  intros H. apply rd_lookup_in in H. pose proof rd_table_ok as T. rewrite forallb_forall in T.
  apply (T _ H).
Qed.

Lemma row_ok_spec r : row_ok r = true ->
  let n := iota (length (row_kinds r)) in
  row_eq r = n /\ row_cmp r = n /\ row_canonical r = n /\ row_hash r = n /\ tails_last (row_kinds r) = true.
Proof.
  unfold row_ok. rewrite !andb_true_iff. intros [[[[[He Hc] Hcc] Hh] Ht] _].
  repeat split; try apply nlist_eqb_eq; assumption.
Qed.

(* each == is one of four equalities of keys, and the feed is a function of the key *)

Lemma fv_eq_hash a b : fv_eq a b = true -> fv_hash a = fv_hash b.
Proof.
  destruct a, b; cbn [fv_eq fv_hash]; intros H; try discriminate;
    first [apply N.eqb_eq in H | apply bytes_eqb_eq in H | apply name_eq_hash in H | apply charstr_eq_hash in H];
    congruence.
Qed.

Lemma all2_eq_hash a : forall b, all2 fv_eq a b = true -> flat_map fv_hash a = flat_map fv_hash b.
Proof.
  induction a as [|x a IH]; intros [|y b] H; cbn [all2] in H; try discriminate; [reflexivity|].
  apply andb_true_iff in H as [H1 H2]. cbn [flat_map]. rewrite (fv_eq_hash _ _ H1), (IH _ H2). reflexivity.
Qed.

Theorem rd_eq_hash rtype code r a b : rd_lookup rd_table code = Some r ->
  rd_eq (row_eq r) a b = true -> rd_hash rtype (row_hash r) a = rd_hash rtype (row_hash r) b.
Proof.
  intros L E. destruct (row_ok_spec r (rd_lookup_ok _ _ L)) as (He & _ & _ & Hh & _).
  unfold rd_hash. rewrite Hh, <- He. f_equal. apply all2_eq_hash. exact E.
Qed.

Theorem c04_rd_eq_hash code a b : c04_rd_eq code a b = Some true -> c04_rd_hash code a = c04_rd_hash code b.
Proof.
  unfold c04_rd_eq, c04_rd_hash. destruct (rd_lookup rd_table code) as [r|] eqn:L; [|discriminate].
  intros [= H]. apply (rd_eq_hash _ code r a b L H).
Qed.

Lemma fv_eq_sym a b : fv_eq a b = fv_eq b a.
Proof.
  destruct a, b; cbn [fv_eq]; try reflexivity;
    auto using N.eqb_sym, name_eqb_sym, bytes_eqb_sym, (proj1 (proj2 (charstr_eq_equiv _ _ []))).
Qed.

Theorem rd_eq_sym e a b : rd_eq e a b = rd_eq e b a.
Proof.
  unfold rd_eq. generalize (pick e a) (pick e b). intros x; induction x as [|v x IH]; intros [|w y]; cbn [all2]; try reflexivity.
  rewrite fv_eq_sym, IH. reflexivity.
Qed.

Definition fv_ok (v : fval) : Prop := field_ok (fv_field v).

Lemma pick_iota vs : pick (iota (length vs)) vs = vs.
Proof.
  unfold pick, iota.
  assert (G : forall pre, flat_map (fun i => match nth_error (pre ++ vs) (N.to_nat i) with Some v => [v] | None => [] end)
                (map N.of_nat (seq (length pre) (length vs))) = vs).
  { induction vs as [|v vs IH]; intros pre; [reflexivity|]. cbn [length seq map flat_map].
    rewrite Nat2N.id, nth_error_app2, Nat.sub_diag by lia. cbn [nth_error app]. f_equal.
    specialize (IH (pre ++ [v])). rewrite <- app_assoc in IH. cbn [app] in IH.
    rewrite app_length in IH. cbn [length] in IH. replace (length pre + 1)%nat with (S (length pre)) in IH by lia.
    exact IH. }
  apply (G []).
Qed.

Lemma pick_row r vs : map fv_kind vs = row_kinds r -> pick (iota (length (row_kinds r))) vs = vs.
Proof. intros <-. rewrite map_length. apply pick_iota. Qed.

Lemma pad_length n w : length (pad n w) = n.
Proof. unfold pad. rewrite firstn_length, app_length, repeat_length. lia. Qed.
Lemma be48_length x : length (be48 x) = 6%nat.
Proof. reflexivity. Qed.

Lemma same_schema_kinds a : forall b, map fv_kind a = map fv_kind b -> tails_last (map fv_kind a) = true ->
  same_schema (map fv_field a) (map fv_field b) = true.
Proof.
  induction a as [|x a IH]; intros [|y b] K T; cbn [map] in *; try discriminate; [reflexivity|].
  injection K as K1 K2. cbn [tails_last] in T. apply andb_true_iff in T as [T1 T2].
  cbn [same_schema]. rewrite (IH b K2 T2), andb_true_r. apply andb_true_iff. split.
  - destruct x, y; cbn in K1; try discriminate; cbn [fv_field same_kind be16 be32 length];
      rewrite ?pad_length, ?be48_length; reflexivity.
  - destruct x; cbn [fv_kind fv_field tail_last] in *; try reflexivity; destruct a; cbn [map]; try reflexivity; discriminate.
Qed.

Theorem rd_canonical_bytewise code r a b : rd_lookup rd_table code = Some r ->
  map fv_kind a = row_kinds r -> map fv_kind b = row_kinds r -> Forall fv_ok a -> Forall fv_ok b ->
  rd_canonical_cmp (row_canonical r) a b = Ok (lex_cmp (rd_enc a) (rd_enc b)).
Proof.
  intros L Ka Kb Oa Ob. destruct (row_ok_spec r (rd_lookup_ok _ _ L)) as (_ & _ & Hc & _ & Ht).
  unfold rd_canonical_cmp, rd_enc. rewrite Hc, (pick_row r a Ka), (pick_row r b Kb).
  apply schema_cmp_bytewise.
  - apply same_schema_kinds; [congruence|rewrite Ka; assumption].
  - apply Forall_map, Oa.
  - apply Forall_map, Ob.
Qed.

(* canonical_cmp never fails on well-formed values of a table type, is a total
   order, and is Equal exactly when the canonical wire forms are identical
   (RFC 4034 6.3: no duplicates) *)
Theorem rd_canonical_total code r a b c : rd_lookup rd_table code = Some r ->
  map fv_kind a = row_kinds r -> map fv_kind b = row_kinds r -> map fv_kind c = row_kinds r ->
  Forall fv_ok a -> Forall fv_ok b -> Forall fv_ok c ->
  exists o, rd_canonical_cmp (row_canonical r) a b = Ok o /\
    rd_canonical_cmp (row_canonical r) b a = Ok (CompOpp o) /\
    (o = Eq <-> rd_enc a = rd_enc b) /\
    (rd_canonical_cmp (row_canonical r) b c = Ok o -> rd_canonical_cmp (row_canonical r) a c = Ok o).
Proof.
  intros L Ka Kb Kc Oa Ob Oc. exists (lex_cmp (rd_enc a) (rd_enc b)).
  rewrite (rd_canonical_bytewise _ _ _ _ L Ka Kb Oa Ob), (rd_canonical_bytewise _ _ _ _ L Kb Ka Ob Oa),
    (rd_canonical_bytewise _ _ _ _ L Kb Kc Ob Oc), (rd_canonical_bytewise _ _ _ _ L Ka Kc Oa Oc).
  split; [reflexivity|]. split; [f_equal; apply lex_cmp_antisym|]. split; [apply lex_cmp_eq|].
  intros H. injection H as H. f_equal. eapply lex_cmp_trans; [reflexivity|exact H].
Qed.

(* types outside rd_table (TSIG, SVCB/HTTPS, IPSECKEY, OPT): T1 reads that
   their Hash impls feed every struct field in declaration order, which is
   what c04_rdh does; equal values (field-wise ==) feed identical tokens *)
Lemma rd_extra_hash_ok :
  forallb (fun r => nlist_eqb (snd (snd r)) (iota (N.to_nat (fst (snd r))))) rd_extra_hash = true.
Proof. vm_compute. reflexivity. Qed.

Theorem rdh_eq_hash code a b : all2 fv_eq a b = true -> c04_rdh code a = c04_rdh code b.
Proof. intros H. unfold c04_rdh. f_equal. apply all2_eq_hash. exact H. Qed.

(* the pre-fix Record::hash pattern on this level: a Hash impl that feeds a
   field == ignores is rejected by row_ok *)
Example row_ok_rejects_extra_hash_field :
  row_ok ([2; 4], ([0], [0; 1], [0; 1], [0; 1])) = false /\
  row_ok ([2; 4], ([0; 1], [0; 1], [1; 0], [0; 1])) = false /\
  row_ok ([2; 4], ([0; 1], [0; 1], [0; 1], [0; 1])) = true.
Proof. vm_compute. auto. Qed.

Example typed_example :
  c04_rd_eq 15 [VU16 10; VNameLc [[65]]] [VU16 10; VNameLc [[97]]] = Some true /\
  c04_rd_hash 15 [VU16 10; VNameLc [[65]]] = [TW 15; TW 10; TB 1; TB 97; TB 0] /\
  c04_rd_ccmp 15 [VU16 10; VNameLc [[98]]] [VU16 10; VNameLc [[97;97]]] = Ok Lt /\
  c04_rd_hash 43 [VU16 1; VU8 8; VU8 2; VOcts [1;2]] = [TW 43; TW 1; TB 8; TB 2; TN 2; TR [1;2]] /\
  c04_rdh 1 [VAddr4 [1;2;3;4]] = [TW 1; TD 67305985] /\
  c04_rdh 45 [VU8 2; VU8 1; VU8 2; VAddr4 [9;8;7;6]; VOcts [5]] = [TW 45; TB 2; TB 1; TB 2; TD 101124105; TN 1; TR [5]].
Proof. vm_compute. repeat split; reflexivity. Qed.

(* C04 -- property theorems only.  Proofs live in C04/Proofs*.v. *)
From Coq Require Import NArith Arith List Bool.
From DV Require Import Base.Outcome Base.Bytes Base.Lex Base.Names Base.PName C04.Gen C04.Model
  C04.ProofsLabel C04.ProofsIter C04.ProofsRepr C04.ProofsData C04.ProofsParsed C04.ProofsEmbed C04.ProofsOrder C04.ProofsCompressed C04.ProofsTyped C04.ProofsSuffix C04.ProofsOrdTable C04.ProofsAccept.
Import ListNotations.
Local Open Scope N_scope.

Theorem C04_label_is_spec : forall a b : label, m_label_eq a b = label_eqb a b /\ m_label_cmp a b = label_cmp a b /\ ((length a < 256)%nat -> m_label_hash a = label_hash_feed a).
Proof. intros a b. split; [apply m_label_eq_spec|split; [apply m_label_cmp_spec|apply m_label_hash_spec]]. Qed.
Print Assumptions C04_label_is_spec.

Theorem C04_label_eq_hash_model : forall a b, m_label_eq a b = true -> m_label_hash a = m_label_hash b.
Proof. exact label_eq_hash_model. Qed.
Print Assumptions C04_label_eq_hash_model.

Theorem C04_label_cmp_eq_model : forall a b, m_label_cmp a b = Eq <-> m_label_eq a b = true.
Proof. exact label_cmp_eq_model. Qed.
Print Assumptions C04_label_cmp_eq_model.

Theorem C04_lower_is_std : forall b, b < 256 -> lower b = std_to_ascii_lowercase b.
Proof. exact lower_is_std. Qed.
Print Assumptions C04_lower_is_std.

Theorem C04_flat_eq_iff_label_eq : forall a b, valid_abs a -> valid_abs b -> eq_ci (wire_abs a) (wire_abs b) = name_eqb a b.
Proof. exact flat_eq_iff_label_eq. Qed.
Print Assumptions C04_flat_eq_iff_label_eq.

Theorem C04_flat_eq_iff_label_eq_rel : forall a b, valid_rel a -> valid_rel b -> eq_ci (wire_rel a) (wire_rel b) = name_eqb a b.
Proof. exact flat_eq_iff_label_eq_rel. Qed.
Print Assumptions C04_flat_eq_iff_label_eq_rel.

Theorem C04_name_eq_repr : forall ra rb a b, denotes ra (a ++ [[]]) -> denotes rb (b ++ [[]]) -> valid_abs a -> valid_abs b -> m_name_eq ra rb = Ok (name_eqb a b).
Proof. exact name_eq_repr. Qed.
Print Assumptions C04_name_eq_repr.

Theorem C04_name_cmp_repr : forall ra rb a b, denotes ra (a ++ [[]]) -> denotes rb (b ++ [[]]) -> valid_abs a -> m_name_cmp ra rb = Ok (name_cmp a b).
Proof. exact name_cmp_repr. Qed.
Print Assumptions C04_name_cmp_repr.

Theorem C04_name_hash_repr : forall ra a, denotes ra (a ++ [[]]) -> valid_abs a -> m_name_hash ra = Ok (name_hash_feed a).
Proof. exact name_hash_repr. Qed.
Print Assumptions C04_name_hash_repr.

Theorem C04_composed_cmp_repr : forall ra rb a b, denotes ra (a ++ [[]]) -> denotes rb (b ++ [[]]) -> valid_abs a -> valid_abs b -> m_composed_cmp ra rb = Ok (lex_cmp (wire_abs a) (wire_abs b)).
Proof. exact composed_cmp_repr. Qed.
Print Assumptions C04_composed_cmp_repr.

Theorem C04_lc_composed_cmp_repr : forall ra rb a b, denotes ra (a ++ [[]]) -> denotes rb (b ++ [[]]) -> valid_abs a -> valid_abs b -> m_lc_composed_cmp ra rb = Ok (lex_cmp (wire_abs (canon a)) (wire_abs (canon b))).
Proof. exact lc_composed_cmp_repr. Qed.
Print Assumptions C04_lc_composed_cmp_repr.

Theorem C04_relname_eq_repr : forall ra rb a b, denotes ra a -> denotes rb b -> valid_rel a -> valid_rel b -> m_relname_eq ra rb = Ok (name_eqb a b).
Proof. exact relname_eq_repr. Qed.
Print Assumptions C04_relname_eq_repr.

Theorem C04_relname_cmp_repr : forall ra rb a b, denotes ra a -> denotes rb b -> valid_rel a -> m_relname_cmp ra rb = Ok (name_cmp a b).
Proof. exact relname_cmp_repr. Qed.
Print Assumptions C04_relname_cmp_repr.

Theorem C04_name_ord_repr : forall ra rb a b, denotes ra (a ++ [[]]) -> denotes rb (b ++ [[]]) -> valid_abs a -> m_name_ord ra rb = Ok (name_cmp a b) /\ m_parsed_ord ra rb = Ok (name_cmp a b).
Proof. exact name_ord_repr. Qed.
Print Assumptions C04_name_ord_repr.

Theorem C04_relname_ord_repr : forall ra rb a b, denotes ra a -> denotes rb b -> valid_rel a -> m_relname_ord ra rb = Ok (name_cmp a b).
Proof. exact relname_ord_repr. Qed.
Print Assumptions C04_relname_ord_repr.

Theorem C04_eq_implies_same_hash : forall ra rb a b, denotes ra (a ++ [[]]) -> denotes rb (b ++ [[]]) -> valid_abs a -> valid_abs b -> m_name_eq ra rb = Ok true -> m_name_hash ra = m_name_hash rb.
Proof. exact eq_implies_same_hash. Qed.
Print Assumptions C04_eq_implies_same_hash.

Theorem C04_cmp_eq_iff_eq : forall ra rb a b, denotes ra (a ++ [[]]) -> denotes rb (b ++ [[]]) -> valid_abs a -> valid_abs b -> (m_name_cmp ra rb = Ok Eq <-> m_name_eq ra rb = Ok true).
Proof. exact cmp_eq_iff_eq. Qed.
Print Assumptions C04_cmp_eq_iff_eq.

Theorem C04_cmp_antisym_repr : forall ra rb a b, denotes ra (a ++ [[]]) -> denotes rb (b ++ [[]]) -> valid_abs a -> valid_abs b -> exists c, m_name_cmp ra rb = Ok c /\ m_name_cmp rb ra = Ok (CompOpp c).
Proof. exact cmp_antisym_repr. Qed.
Print Assumptions C04_cmp_antisym_repr.

Theorem C04_cmp_trans_repr : forall ra rb rc a b c o, denotes ra (a ++ [[]]) -> denotes rb (b ++ [[]]) -> denotes rc (c ++ [[]]) -> valid_abs a -> valid_abs b -> valid_abs c -> m_name_cmp ra rb = Ok o -> m_name_cmp rb rc = Ok o -> m_name_cmp ra rc = Ok o.
Proof. exact cmp_trans_repr. Qed.
Print Assumptions C04_cmp_trans_repr.

Theorem C04_chain_same_as_flat : forall p s b rb, Forall valid_label p -> Forall valid_label s -> valid_abs (p ++ s) -> valid_abs b -> denotes rb (b ++ [[]]) -> let ch := NChain (NFlat (wire_rel p)) (NFlat (wire_abs s)) in let fl := NFlat (wire_abs (p ++ s)) in m_name_eq ch rb = m_name_eq fl rb /\ m_name_cmp ch rb = m_name_cmp fl rb /\ m_name_hash ch = m_name_hash fl /\ m_lc_composed_cmp ch rb = m_lc_composed_cmp fl rb /\ m_composed_cmp ch rb = m_composed_cmp fl rb.
Proof. exact chain_same_as_flat. Qed.
Print Assumptions C04_chain_same_as_flat.

Theorem C04_uncertain_abs_eq : forall a b, valid_abs a -> valid_abs b -> m_uncertain_eq (UAbs (wire_abs a)) (UAbs (wire_abs b)) = Ok (name_eqb a b) /\ m_uncertain_eq (UAbs (wire_abs a)) (URel (wire_rel b)) = Ok false /\ m_uncertain_eq (URel (wire_rel a)) (URel (wire_rel b)) = Ok (name_eqb a b).
Proof. exact uncertain_abs_eq. Qed.
Print Assumptions C04_uncertain_abs_eq.

Theorem C04_uncertain_eq_hash : forall a b, valid_abs a -> valid_abs b -> (m_uncertain_eq (UAbs (wire_abs a)) (UAbs (wire_abs b)) = Ok true -> m_uncertain_hash (UAbs (wire_abs a)) = m_uncertain_hash (UAbs (wire_abs b))) /\ (m_uncertain_eq (URel (wire_rel a)) (URel (wire_rel b)) = Ok true -> m_uncertain_hash (URel (wire_rel a)) = m_uncertain_hash (URel (wire_rel b))).
Proof. exact uncertain_eq_hash. Qed.
Print Assumptions C04_uncertain_eq_hash.

Theorem C04_chain_fused_same : forall a b la lb, yields a la -> yields b lb -> fused_yields (Some a) b (la ++ lb) /\ yields (IChain a b) (la ++ lb).
Proof. exact chain_fused_same. Qed.
Print Assumptions C04_chain_fused_same.

Theorem C04_denotes_parsed : forall m p ls, plabels m (pn_pos p) (pn_len p) ls -> flat_ok m p ls -> denotes (NParsed m p) ls.
Proof. exact denotes_parsed. Qed.
Print Assumptions C04_denotes_parsed.

Theorem C04_denotes_parsed_pname : forall m p n, pname_labels m p = Ok (n, true) -> flat_ok m p (n ++ [[]]) -> denotes (NParsed m p) (n ++ [[]]).
Proof. exact denotes_parsed_pname. Qed.
Print Assumptions C04_denotes_parsed_pname.

Theorem C04_parsed_same_as_flat : forall m p n b rb, pname_labels m p = Ok (n, true) -> flat_ok m p (n ++ [[]]) -> valid_abs n -> valid_abs b -> denotes rb (b ++ [[]]) -> let pa := NParsed m p in let fl := NFlat (wire_abs n) in m_name_eq pa rb = m_name_eq fl rb /\ m_name_cmp pa rb = m_name_cmp fl rb /\ m_name_hash pa = m_name_hash fl /\ m_lc_composed_cmp pa rb = m_lc_composed_cmp fl rb /\ m_composed_cmp pa rb = m_composed_cmp fl rb /\ m_name_eq pa fl = Ok true /\ m_name_cmp pa fl = Ok Eq.
Proof. exact parsed_same_as_flat. Qed.
Print Assumptions C04_parsed_same_as_flat.

Theorem C04_parsed_uncompressed_embedding : forall pre n post, valid_abs n -> let m := pre ++ wire_abs n ++ post in exists p, parse_ref m (N.of_nat (length pre)) (mlen m) = Ok p /\ pn_compressed p = false /\ denotes (NParsed m p) (n ++ [[]]).
Proof. exact parsed_uncompressed_embedding. Qed.
Print Assumptions C04_parsed_uncompressed_embedding.

Theorem C04_parsed_uncompressed_same_as_flat : forall pre n post b rb, valid_abs n -> valid_abs b -> denotes rb (b ++ [[]]) -> let m := pre ++ wire_abs n ++ post in exists p, parse_ref m (N.of_nat (length pre)) (mlen m) = Ok p /\ m_name_eq (NParsed m p) rb = Ok (name_eqb n b) /\ m_name_cmp (NParsed m p) rb = Ok (name_cmp n b) /\ m_name_hash (NParsed m p) = Ok (name_hash_feed n).
Proof. exact parsed_uncompressed_same_as_flat. Qed.
Print Assumptions C04_parsed_uncompressed_same_as_flat.

Theorem C04_decode_abs_sound : forall w n rest, wf_bytes w -> decode_abs w = inl (Some (n, rest)) -> valid_abs n /\ w = wire_abs n ++ rest.
Proof. exact decode_abs_sound. Qed.
Print Assumptions C04_decode_abs_sound.

Theorem C04_accepted_flat_ops : forall wa a wb b, wf_bytes wa -> wf_bytes wb -> decode_abs wa = inl (Some (a, [])) -> decode_abs wb = inl (Some (b, [])) -> m_name_eq (NFlat wa) (NFlat wb) = Ok (name_eqb a b) /\ m_name_cmp (NFlat wa) (NFlat wb) = Ok (name_cmp a b) /\ m_name_ord (NFlat wa) (NFlat wb) = Ok (name_cmp a b) /\ m_name_hash (NFlat wa) = Ok (name_hash_feed a) /\ m_composed_cmp (NFlat wa) (NFlat wb) = Ok (lex_cmp wa wb) /\ m_lc_composed_cmp (NFlat wa) (NFlat wb) = Ok (lex_cmp (wire_abs (canon a)) (wire_abs (canon b))).
Proof. exact accepted_flat_ops. Qed.
Print Assumptions C04_accepted_flat_ops.

Theorem C04_parsed_denotes : forall m pos lim p, parse_ref m pos lim = Ok p -> lim <= mlen m -> wf_bytes m -> exists n, valid_abs n /\ pname_labels m p = Ok (n, true) /\ denotes (NParsed m p) (n ++ [[]]).
Proof. exact parsed_denotes. Qed.
Print Assumptions C04_parsed_denotes.

Theorem C04_parsed_parsed_ops : forall m1 pos1 lim1 p1 m2 pos2 lim2 p2, parse_ref m1 pos1 lim1 = Ok p1 -> lim1 <= mlen m1 -> wf_bytes m1 -> parse_ref m2 pos2 lim2 = Ok p2 -> lim2 <= mlen m2 -> wf_bytes m2 -> exists a b, pname_labels m1 p1 = Ok (a, true) /\ pname_labels m2 p2 = Ok (b, true) /\ m_name_eq (NParsed m1 p1) (NParsed m2 p2) = Ok (name_eqb a b) /\ m_name_cmp (NParsed m1 p1) (NParsed m2 p2) = Ok (name_cmp a b) /\ m_name_hash (NParsed m1 p1) = Ok (name_hash_feed a) /\ m_composed_cmp (NParsed m1 p1) (NParsed m2 p2) = Ok (lex_cmp (wire_abs a) (wire_abs b)) /\ m_lc_composed_cmp (NParsed m1 p1) (NParsed m2 p2) = Ok (lex_cmp (wire_abs (canon a)) (wire_abs (canon b))).
Proof. exact parsed_parsed_ops. Qed.
Print Assumptions C04_parsed_parsed_ops.

Theorem C04_parsed_any_ops : forall m pos lim p rb b, parse_ref m pos lim = Ok p -> lim <= mlen m -> wf_bytes m -> valid_abs b -> denotes rb (b ++ [[]]) -> exists a, pname_labels m p = Ok (a, true) /\ valid_abs a /\ m_name_eq (NParsed m p) rb = Ok (name_eqb a b) /\ m_name_eq rb (NParsed m p) = Ok (name_eqb b a) /\ m_name_cmp (NParsed m p) rb = Ok (name_cmp a b) /\ m_name_cmp rb (NParsed m p) = Ok (name_cmp b a) /\ m_name_hash (NParsed m p) = Ok (name_hash_feed a).
Proof. exact parsed_any_ops. Qed.
Print Assumptions C04_parsed_any_ops.

Theorem C04_parent_step : forall m p l ls, plabels m (pn_pos p) (pn_len p) (l :: ls) -> flat_ok m p (l :: ls) -> (1 <= length l <= 63)%nat -> ls <> [] -> exists q, parent_gen true m p = Ok (Some q) /\ plabels m (pn_pos q) (pn_len q) ls /\ flat_ok m q ls /\ pn_compressed q = pn_compressed p.
Proof. exact parent_step. Qed.
Print Assumptions C04_parent_step.

Theorem C04_parsed_suffix_denotes : forall m pos lim p, parse_ref m pos lim = Ok p -> lim <= mlen m -> wf_bytes m -> forall k, exists n q, parent_n k m p = Ok q /\ valid_abs n /\ denotes (NParsed m q) (n ++ [[]]).
Proof. exact parsed_suffix_denotes. Qed.
Print Assumptions C04_parsed_suffix_denotes.

Theorem C04_parsed_suffix_ops : forall m pos lim p k rb b, parse_ref m pos lim = Ok p -> lim <= mlen m -> wf_bytes m -> valid_abs b -> denotes rb (b ++ [[]]) -> exists n q, parent_n k m p = Ok q /\ valid_abs n /\ m_name_eq (NParsed m q) rb = Ok (name_eqb n b) /\ m_name_cmp (NParsed m q) rb = Ok (name_cmp n b) /\ m_composed_cmp (NParsed m q) rb = Ok (lex_cmp (wire_abs n) (wire_abs b)) /\ m_lc_composed_cmp (NParsed m q) rb = Ok (lex_cmp (wire_abs (canon n)) (wire_abs (canon b))) /\ m_name_hash (NParsed m q) = Ok (name_hash_feed n).
Proof. exact parsed_suffix_ops. Qed.
Print Assumptions C04_parsed_suffix_ops.

Theorem C04_parent_clearing_flag_refuted : let m := [0;0;0;0;0;0;0;0;0;0;0;0; 3;99;111;109;0; 1;98;192;12; 1;97;192;17; 0;0;0;0;0] in let com := NFlat (wire_abs [[99;111;109]]) in exists p p1 q, parse_ref m 21 (mlen m) = Ok p /\ parent_gen false m p = Ok (Some p1) /\ parent_gen false m p1 = Ok (Some q) /\ pn_compressed q = false /\ m_name_eq (NParsed m q) com = Ok false /\ m_name_cmp (NParsed m q) com = Ok Eq /\ m_name_hash (NParsed m q) = m_name_hash com /\ (exists q', parent_gen true m p1 = Ok (Some q') /\ m_name_eq (NParsed m q') com = Ok true).
Proof. exact parent_clearing_flag_refuted. Qed.
Print Assumptions C04_parent_clearing_flag_refuted.

Theorem C04_charstr_cmp_eq_iff : forall a b, m_charstr_cmp a b = Eq <-> m_charstr_eq a b = true.
Proof. exact charstr_cmp_eq_iff. Qed.
Print Assumptions C04_charstr_cmp_eq_iff.

Theorem C04_charstr_eq_hash : forall a b, m_charstr_eq a b = true -> m_charstr_hash a = m_charstr_hash b.
Proof. exact charstr_eq_hash. Qed.
Print Assumptions C04_charstr_eq_hash.

Theorem C04_charstr_cmp_antisym : forall a b, m_charstr_cmp b a = CompOpp (m_charstr_cmp a b).
Proof. exact charstr_cmp_antisym. Qed.
Print Assumptions C04_charstr_cmp_antisym.

Theorem C04_charstr_cmp_trans : forall a b c o, m_charstr_cmp a b = o -> m_charstr_cmp b c = o -> m_charstr_cmp a c = o.
Proof. exact charstr_cmp_trans. Qed.
Print Assumptions C04_charstr_cmp_trans.

Theorem C04_charstr_canonical_bytewise : forall a b, m_charstr_canonical_cmp a b = lex_cmp (wire_charstr a) (wire_charstr b).
Proof. exact charstr_canonical_bytewise. Qed.
Print Assumptions C04_charstr_canonical_bytewise.

Theorem C04_schema_cmp_bytewise : forall a, forall b, same_schema a b = true -> Forall field_ok a -> Forall field_ok b -> fields_cmp a b = Ok (lex_cmp (fields_enc a) (fields_enc b)).
Proof. exact schema_cmp_bytewise. Qed.
Print Assumptions C04_schema_cmp_bytewise.

Theorem C04_a_canonical_bytewise : forall x y, length x = length y -> fields_cmp (rd_a x) (rd_a y) = Ok (lex_cmp (fields_enc (rd_a x)) (fields_enc (rd_a y))).
Proof. exact a_canonical_bytewise. Qed.
Print Assumptions C04_a_canonical_bytewise.

Theorem C04_mx_canonical_bytewise : forall p1 e1 p2 e2, valid_abs e1 -> valid_abs e2 -> fields_cmp (rd_mx p1 e1) (rd_mx p2 e2) = Ok (lex_cmp (fields_enc (rd_mx p1 e1)) (fields_enc (rd_mx p2 e2))).
Proof. exact mx_canonical_bytewise. Qed.
Print Assumptions C04_mx_canonical_bytewise.

Theorem C04_soa_canonical_bytewise : forall m1 r1 s1 f1 t1 e1 n1 m2 r2 s2 f2 t2 e2 n2, valid_abs m1 -> valid_abs r1 -> valid_abs m2 -> valid_abs r2 -> fields_cmp (rd_soa m1 r1 s1 f1 t1 e1 n1) (rd_soa m2 r2 s2 f2 t2 e2 n2) = Ok (lex_cmp (fields_enc (rd_soa m1 r1 s1 f1 t1 e1 n1)) (fields_enc (rd_soa m2 r2 s2 f2 t2 e2 n2))).
Proof. exact soa_canonical_bytewise. Qed.
Print Assumptions C04_soa_canonical_bytewise.

Theorem C04_srv_canonical_bytewise : forall p1 w1 o1 t1 p2 w2 o2 t2, valid_abs t1 -> valid_abs t2 -> fields_cmp (rd_srv p1 w1 o1 t1) (rd_srv p2 w2 o2 t2) = Ok (lex_cmp (fields_enc (rd_srv p1 w1 o1 t1)) (fields_enc (rd_srv p2 w2 o2 t2))).
Proof. exact srv_canonical_bytewise. Qed.
Print Assumptions C04_srv_canonical_bytewise.

Theorem C04_ds_canonical_bytewise : forall k1 a1 t1 d1 k2 a2 t2 d2, fields_cmp (rd_ds k1 a1 t1 d1) (rd_ds k2 a2 t2 d2) = Ok (lex_cmp (fields_enc (rd_ds k1 a1 t1 d1)) (fields_enc (rd_ds k2 a2 t2 d2))).
Proof. exact ds_canonical_bytewise. Qed.
Print Assumptions C04_ds_canonical_bytewise.

Theorem C04_dnskey_canonical_bytewise : forall k1 a1 t1 d1 k2 a2 t2 d2, fields_cmp (rd_dnskey k1 a1 t1 d1) (rd_dnskey k2 a2 t2 d2) = Ok (lex_cmp (fields_enc (rd_dnskey k1 a1 t1 d1)) (fields_enc (rd_dnskey k2 a2 t2 d2))).
Proof. exact dnskey_canonical_bytewise. Qed.
Print Assumptions C04_dnskey_canonical_bytewise.

Theorem C04_txt_canonical_bytewise : forall c1 c2, fields_cmp (rd_txt c1) (rd_txt c2) = Ok (lex_cmp (fields_enc (rd_txt c1)) (fields_enc (rd_txt c2))).
Proof. exact txt_canonical_bytewise. Qed.
Print Assumptions C04_txt_canonical_bytewise.

Theorem C04_hinfo_canonical_bytewise : forall c1 o1 c2 o2, (length c1 <= 255)%nat -> (length o1 <= 255)%nat -> (length c2 <= 255)%nat -> (length o2 <= 255)%nat -> fields_cmp (rd_hinfo c1 o1) (rd_hinfo c2 o2) = Ok (lex_cmp (fields_enc (rd_hinfo c1 o1)) (fields_enc (rd_hinfo c2 o2))).
Proof. exact hinfo_canonical_bytewise. Qed.
Print Assumptions C04_hinfo_canonical_bytewise.

Theorem C04_name1_canonical_bytewise : forall n1 n2, valid_abs n1 -> valid_abs n2 -> fields_cmp (rd_name1 n1) (rd_name1 n2) = Ok (lex_cmp (fields_enc (rd_name1 n1)) (fields_enc (rd_name1 n2))).
Proof. exact name1_canonical_bytewise. Qed.
Print Assumptions C04_name1_canonical_bytewise.

Theorem C04_name2_canonical_bytewise : forall a1 b1 a2 b2, valid_abs a1 -> valid_abs b1 -> valid_abs a2 -> valid_abs b2 -> fields_cmp (rd_name2 a1 b1) (rd_name2 a2 b2) = Ok (lex_cmp (fields_enc (rd_name2 a1 b1)) (fields_enc (rd_name2 a2 b2))).
Proof. exact name2_canonical_bytewise. Qed.
Print Assumptions C04_name2_canonical_bytewise.

Theorem C04_tlsa_canonical_bytewise : forall u1 s1 m1 d1 u2 s2 m2 d2, fields_cmp (rd_tlsa u1 s1 m1 d1) (rd_tlsa u2 s2 m2 d2) = Ok (lex_cmp (fields_enc (rd_tlsa u1 s1 m1 d1)) (fields_enc (rd_tlsa u2 s2 m2 d2))).
Proof. exact tlsa_canonical_bytewise. Qed.
Print Assumptions C04_tlsa_canonical_bytewise.

Theorem C04_sshfp_canonical_bytewise : forall a1 t1 f1 a2 t2 f2, fields_cmp (rd_sshfp a1 t1 f1) (rd_sshfp a2 t2 f2) = Ok (lex_cmp (fields_enc (rd_sshfp a1 t1 f1)) (fields_enc (rd_sshfp a2 t2 f2))).
Proof. exact sshfp_canonical_bytewise. Qed.
Print Assumptions C04_sshfp_canonical_bytewise.

Theorem C04_zonemd_canonical_bytewise : forall s1 c1 a1 d1 s2 c2 a2 d2, fields_cmp (rd_zonemd s1 c1 a1 d1) (rd_zonemd s2 c2 a2 d2) = Ok (lex_cmp (fields_enc (rd_zonemd s1 c1 a1 d1)) (fields_enc (rd_zonemd s2 c2 a2 d2))).
Proof. exact zonemd_canonical_bytewise. Qed.
Print Assumptions C04_zonemd_canonical_bytewise.

Theorem C04_rrsig_canonical_bytewise : forall c1 a1 l1 o1 e1 i1 t1 n1 s1 c2 a2 l2 o2 e2 i2 t2 n2 s2, valid_abs n1 -> valid_abs n2 -> fields_cmp (rd_rrsig c1 a1 l1 o1 e1 i1 t1 n1 s1) (rd_rrsig c2 a2 l2 o2 e2 i2 t2 n2 s2) = Ok (lex_cmp (fields_enc (rd_rrsig c1 a1 l1 o1 e1 i1 t1 n1 s1)) (fields_enc (rd_rrsig c2 a2 l2 o2 e2 i2 t2 n2 s2))).
Proof. exact rrsig_canonical_bytewise. Qed.
Print Assumptions C04_rrsig_canonical_bytewise.

Theorem C04_nsec3_canonical_bytewise : forall h1 f1 i1 s1 n1 t1 h2 f2 i2 s2 n2 t2, (length s1 <= 255)%nat -> (length n1 <= 255)%nat -> (length s2 <= 255)%nat -> (length n2 <= 255)%nat -> fields_cmp (rd_nsec3 h1 f1 i1 s1 n1 t1) (rd_nsec3 h2 f2 i2 s2 n2 t2) = Ok (lex_cmp (fields_enc (rd_nsec3 h1 f1 i1 s1 n1 t1)) (fields_enc (rd_nsec3 h2 f2 i2 s2 n2 t2))).
Proof. exact nsec3_canonical_bytewise. Qed.
Print Assumptions C04_nsec3_canonical_bytewise.

Theorem C04_nsec3param_canonical_bytewise : forall h1 f1 i1 s1 h2 f2 i2 s2, (length s1 <= 255)%nat -> (length s2 <= 255)%nat -> fields_cmp (rd_nsec3param h1 f1 i1 s1) (rd_nsec3param h2 f2 i2 s2) = Ok (lex_cmp (fields_enc (rd_nsec3param h1 f1 i1 s1)) (fields_enc (rd_nsec3param h2 f2 i2 s2))).
Proof. exact nsec3param_canonical_bytewise. Qed.
Print Assumptions C04_nsec3param_canonical_bytewise.

Theorem C04_caa_canonical_bytewise : forall f1 t1 v1 f2 t2 v2, (length t1 <= 255)%nat -> (length t2 <= 255)%nat -> fields_cmp (rd_caa f1 t1 v1) (rd_caa f2 t2 v2) = Ok (lex_cmp (fields_enc (rd_caa f1 t1 v1)) (fields_enc (rd_caa f2 t2 v2))).
Proof. exact caa_canonical_bytewise. Qed.
Print Assumptions C04_caa_canonical_bytewise.

Theorem C04_naptr_canonical_bytewise : forall o1 p1 f1 s1 r1 n1 o2 p2 f2 s2 r2 n2, (length f1 <= 255)%nat -> (length s1 <= 255)%nat -> (length r1 <= 255)%nat -> valid_abs n1 -> (length f2 <= 255)%nat -> (length s2 <= 255)%nat -> (length r2 <= 255)%nat -> valid_abs n2 -> fields_cmp (rd_naptr o1 p1 f1 s1 r1 n1) (rd_naptr o2 p2 f2 s2 r2 n2) = Ok (lex_cmp (fields_enc (rd_naptr o1 p1 f1 s1 r1 n1)) (fields_enc (rd_naptr o2 p2 f2 s2 r2 n2))).
Proof. exact naptr_canonical_bytewise. Qed.
Print Assumptions C04_naptr_canonical_bytewise.

Theorem C04_tsig_canonical_bytewise : forall a1 t1 f1 m1 i1 e1 o1 a2 t2 f2 m2 i2 e2 o2, valid_abs a1 -> valid_abs a2 -> N.of_nat (length m1) <= 65535 -> N.of_nat (length o1) <= 65535 -> N.of_nat (length m2) <= 65535 -> N.of_nat (length o2) <= 65535 -> fields_cmp (rd_tsig a1 t1 f1 m1 i1 e1 o1) (rd_tsig a2 t2 f2 m2 i2 e2 o2) = Ok (lex_cmp (fields_enc (rd_tsig a1 t1 f1 m1 i1 e1 o1)) (fields_enc (rd_tsig a2 t2 f2 m2 i2 e2 o2))).
Proof. exact tsig_canonical_bytewise. Qed.
Print Assumptions C04_tsig_canonical_bytewise.

Theorem C04_opt_canonical_bytewise : forall o1 o2, fields_cmp (rd_opt o1) (rd_opt o2) = Ok (lex_cmp (fields_enc (rd_opt o1)) (fields_enc (rd_opt o2))).
Proof. exact opt_canonical_bytewise. Qed.
Print Assumptions C04_opt_canonical_bytewise.

Theorem C04_ipseckey_addr_canonical_bytewise : forall p1 g1 a1 d1 k1 p2 g2 a2 d2 k2, length d1 = length d2 -> fields_cmp (rd_ipseckey_addr p1 g1 a1 d1 k1) (rd_ipseckey_addr p2 g2 a2 d2 k2) = Ok (lex_cmp (fields_enc (rd_ipseckey_addr p1 g1 a1 d1 k1)) (fields_enc (rd_ipseckey_addr p2 g2 a2 d2 k2))).
Proof. exact ipseckey_addr_canonical_bytewise. Qed.
Print Assumptions C04_ipseckey_addr_canonical_bytewise.

Theorem C04_rd_table_ok : forallb (fun cr => row_ok (snd cr)) rd_table = true.
Proof. exact rd_table_ok. Qed.
Print Assumptions C04_rd_table_ok.

Theorem C04_rd_eq_hash : forall code r a b, rd_lookup rd_table code = Some r -> rd_eq (row_eq r) a b = true -> rd_hash code (row_hash r) a = rd_hash code (row_hash r) b.
Proof. exact (fun code => rd_eq_hash code code). Qed.
Print Assumptions C04_rd_eq_hash.

Theorem C04_c04_rd_eq_hash : forall code a b, c04_rd_eq code a b = Some true -> c04_rd_hash code a = c04_rd_hash code b.
Proof. exact c04_rd_eq_hash. Qed.
Print Assumptions C04_c04_rd_eq_hash.

Theorem C04_rd_eq_sym : forall e a b, rd_eq e a b = rd_eq e b a.
Proof. exact rd_eq_sym. Qed.
Print Assumptions C04_rd_eq_sym.

Theorem C04_rd_canonical_bytewise : forall code r a b, rd_lookup rd_table code = Some r -> map fv_kind a = row_kinds r -> map fv_kind b = row_kinds r -> Forall fv_ok a -> Forall fv_ok b -> rd_canonical_cmp (row_canonical r) a b = Ok (lex_cmp (rd_enc a) (rd_enc b)).
Proof. exact rd_canonical_bytewise. Qed.
Print Assumptions C04_rd_canonical_bytewise.

Theorem C04_rd_extra_hash_ok : forallb (fun r => nlist_eqb (snd (snd r)) (iota (N.to_nat (fst (snd r))))) rd_extra_hash = true.
Proof. exact rd_extra_hash_ok. Qed.
Print Assumptions C04_rd_extra_hash_ok.

Theorem C04_rdh_eq_hash : forall code a b, all2 fv_eq a b = true -> c04_rdh code a = c04_rdh code b.
Proof. exact rdh_eq_hash. Qed.
Print Assumptions C04_rdh_eq_hash.

Theorem C04_rd_ord_table_ok : nlist_eqb (map fst rd_ord_table) (map fst rd_table) = true /\ forallb (fun cr => match rd_lookup rd_table (fst cr) with | Some r => orow_ok (row_kinds r) (snd cr) | None => false end) rd_ord_table = true.
Proof. exact rd_ord_table_ok. Qed.
Print Assumptions C04_rd_ord_table_ok.

Theorem C04_rd_partial_is_cmp : forall code a b, c04_rd_partial code a b = c04_rd_cmp code a b.
Proof. exact rd_partial_is_cmp. Qed.
Print Assumptions C04_rd_partial_is_cmp.

Theorem C04_rd_cmp_eq_iff : forall code row a b, rd_lookup rd_table code = Some row -> map fv_kind a = row_kinds row -> map fv_kind b = row_kinds row -> Forall fv_ok a -> Forall fv_ok b -> exists c, c04_rd_cmp code a b = Some c /\ c04_rd_partial code a b = Some c /\ (c = Eq <-> rd_eq (row_eq row) a b = true).
Proof. exact rd_cmp_eq_iff. Qed.
Print Assumptions C04_rd_cmp_eq_iff.

Theorem C04_record_partial_is_cmp : forall code oa ca a ob cb b, c04_record_partial code oa ca a ob cb b = c04_record_cmp code oa ca a ob cb b.
Proof. exact record_partial_is_cmp. Qed.
Print Assumptions C04_record_partial_is_cmp.

Theorem C04_record_cmp_eq_iff : forall code row oa ca a ob cb b, rd_lookup rd_table code = Some row -> map fv_kind a = row_kinds row -> map fv_kind b = row_kinds row -> Forall fv_ok a -> Forall fv_ok b -> exists c, c04_record_cmp code oa ca a ob cb b = Some c /\ (c = Eq <-> c04_record_eq code oa ca a ob cb b = true).
Proof. exact record_cmp_eq_iff. Qed.
Print Assumptions C04_record_cmp_eq_iff.

Theorem C04_header_partial_is_cmp : forall a b, hdr_chain header_partial_fields a b = m_header_cmp a b.
Proof. exact header_partial_is_cmp. Qed.
Print Assumptions C04_header_partial_is_cmp.

Theorem C04_nsec_canonical_bytewise : forall vs n1 t1 n2 t2, valid_abs n1 -> valid_abs n2 -> ~ nsec_self_compare vs t1 t2 -> nsec_canonical_cmp_gen vs n1 t1 n2 t2 = Ok (lex_cmp (nsec_enc n1 t1) (nsec_enc n2 t2)).
Proof. exact nsec_canonical_bytewise. Qed.
Print Assumptions C04_nsec_canonical_bytewise.

Theorem C04_nsec_canonical_refuted : exists n t1 t2, valid_abs n /\ nsec_canonical_cmp_gen false n t1 n t2 = Ok Eq /\ lex_cmp (nsec_enc n t1) (nsec_enc n t2) = Gt.
Proof. exact nsec_canonical_refuted. Qed.
Print Assumptions C04_nsec_canonical_refuted.

Theorem C04_svcb_canonical_bytewise : forall composed p1 t1 par1 p2 t2 par2, p1 < 65536 -> p2 < 65536 -> valid_abs t1 -> valid_abs t2 -> ~ svcb_name_cmp_used composed p1 p2 t1 t2 -> svcb_canonical_cmp_gen composed p1 t1 par1 p2 t2 par2 = Ok (lex_cmp (svcb_enc p1 t1 par1) (svcb_enc p2 t2 par2)).
Proof. exact (fun composed p1 t1 par1 p2 t2 par2 _ _ => svcb_canonical_bytewise composed p1 t1 par1 p2 t2 par2). Qed.
Print Assumptions C04_svcb_canonical_bytewise.

Theorem C04_svcb_canonical_refuted : exists t1 t2, valid_abs t1 /\ valid_abs t2 /\ svcb_canonical_cmp_gen false 1 t1 [] 1 t2 [] = Ok Gt /\ lex_cmp (svcb_enc 1 t1 []) (svcb_enc 1 t2 []) = Lt.
Proof. exact svcb_canonical_refuted. Qed.
Print Assumptions C04_svcb_canonical_refuted.

Theorem C04_svcb_canonical_case_refuted : svcb_canonical_cmp_gen false 1 [[65]] [] 1 [[97]] [] = Ok Eq /\ lex_cmp (svcb_enc 1 [[65]] []) (svcb_enc 1 [[97]] []) = Lt.
Proof. exact svcb_canonical_case_refuted. Qed.
Print Assumptions C04_svcb_canonical_case_refuted.

Theorem C04_prefixed_name_cmp_bytewise : forall composed pre1 t1 tail1 pre2 t2 tail2, length pre1 = length pre2 -> valid_abs t1 -> valid_abs t2 -> ~ name_cmp_used composed pre1 pre2 t1 t2 -> prefixed_name_cmp_gen composed pre1 t1 tail1 pre2 t2 tail2 = Ok (lex_cmp (pre1 ++ wire_abs t1 ++ tail1) (pre2 ++ wire_abs t2 ++ tail2)).
Proof. exact prefixed_name_cmp_bytewise. Qed.
Print Assumptions C04_prefixed_name_cmp_bytewise.

Theorem C04_ipseckey_canonical_bytewise : forall composed p1 a1 g1 k1 p2 a2 g2 k2, valid_abs g1 -> valid_abs g2 -> ~ name_cmp_used composed [p1; 3; a1] [p2; 3; a2] g1 g2 -> prefixed_name_cmp_gen composed [p1; 3; a1] g1 k1 [p2; 3; a2] g2 k2 = Ok (lex_cmp (ipseckey_enc p1 a1 g1 k1) (ipseckey_enc p2 a2 g2 k2)).
Proof. exact ipseckey_canonical_bytewise. Qed.
Print Assumptions C04_ipseckey_canonical_bytewise.

Theorem C04_ipseckey_canonical_refuted : exists g1 g2, valid_abs g1 /\ valid_abs g2 /\ prefixed_name_cmp_gen false [10; 3; 2] g1 [1] [10; 3; 2] g2 [1] = Ok Gt /\ lex_cmp (ipseckey_enc 10 2 g1 [1]) (ipseckey_enc 10 2 g2 [1]) = Lt.
Proof. exact ipseckey_canonical_refuted. Qed.
Print Assumptions C04_ipseckey_canonical_refuted.

Theorem C04_ipseckey_gateway_hash_total : forall gw, no_panic (ipseckey_gateway_hash_gen false gw).
Proof. exact ipseckey_gateway_hash_total. Qed.
Print Assumptions C04_ipseckey_gateway_hash_total.

Theorem C04_ipseckey_gateway_hash_refuted : ipseckey_gateway_hash_gen true None = Panic P_TODO.
Proof. exact ipseckey_gateway_hash_refuted. Qed.
Print Assumptions C04_ipseckey_gateway_hash_refuted.

Theorem C04_unknown_eq_hash : forall r1 d1 r2 d2, unknown_eq_gen true r1 d1 r2 d2 = true -> m_zone_unknown_hash r1 d1 = m_zone_unknown_hash r2 d2.
Proof. exact unknown_eq_hash. Qed.
Print Assumptions C04_unknown_eq_hash.

Theorem C04_unknown_eq_hash_refuted : exists r1 r2 d, unknown_eq_gen false r1 d r2 d = true /\ m_zone_unknown_hash r1 d <> m_zone_unknown_hash r2 d.
Proof. exact unknown_eq_hash_refuted. Qed.
Print Assumptions C04_unknown_eq_hash_refuted.

Theorem C04_all_record_data_eq_refl : forall with_rtype r d, all_eq_gen true (unknown_eq_gen with_rtype r d r d) = true /\ all_eq_gen true (bytes_eqb d d) = true.
Proof. exact all_record_data_eq_refl. Qed.
Print Assumptions C04_all_record_data_eq_refl.

Theorem C04_all_record_data_eq_refuted : forall inner, all_eq_gen false inner = false.
Proof. exact all_record_data_eq_refuted. Qed.
Print Assumptions C04_all_record_data_eq_refuted.

Theorem C04_record_eq_hash : forall a b, (forall f, In f record_eq_fields -> c_eq (a f) = c_eq (b f) -> c_feed (a f) = c_feed (b f)) -> m_record_eq a b = true -> m_record_hash a = m_record_hash b.
Proof. exact record_eq_hash. Qed.
Print Assumptions C04_record_eq_hash.

Theorem C04_header_eq_hash : forall a b, (forall f, In f header_eq_fields -> c_eq (a f) = c_eq (b f) -> c_feed (a f) = c_feed (b f)) -> m_header_eq a b = true -> m_header_hash a = m_header_hash b.
Proof. exact header_eq_hash. Qed.
Print Assumptions C04_header_eq_hash.

Theorem C04_record_fields_agree : record_hash_fields = record_eq_fields /\ header_hash_fields = header_eq_fields /\ ~ In 3 record_eq_fields /\ record_canonical_fields = [2; 1; 5; 4].
Proof. exact record_fields_agree. Qed.
Print Assumptions C04_record_fields_agree.

Theorem C04_record_hash_ttl_refuted : exists a b : rec, fields_eq [1;2;4] a b = true /\ fields_hash [1;2;3;4] a <> fields_hash [1;2;3;4] b.
Proof. exact record_hash_ttl_refuted. Qed.
Print Assumptions C04_record_hash_ttl_refuted.

Theorem C04_record_canonical_unfold : forall a b, m_record_canonical_cmp a b = then_cmp (r_class a ?= r_class b) (then_cmp (name_cmp (r_owner a) (r_owner b)) (then_cmp (r_rtype a ?= r_rtype b) (lex_cmp (r_rdata a) (r_rdata b)))).
Proof. exact record_canonical_unfold. Qed.
Print Assumptions C04_record_canonical_unfold.

Theorem C04_record_rrset_order : forall a b, r_class a = r_class b -> name_eqb (r_owner a) (r_owner b) = true -> r_rtype a = r_rtype b -> m_record_canonical_cmp a b = lex_cmp (r_rdata a) (r_rdata b).
Proof. exact record_rrset_order. Qed.
Print Assumptions C04_record_rrset_order.

Theorem C04_record_canonical_antisym : forall a b, m_record_canonical_cmp b a = CompOpp (m_record_canonical_cmp a b).
Proof. exact record_canonical_antisym. Qed.
Print Assumptions C04_record_canonical_antisym.

Theorem C04_record_canonical_trans : forall a b c o, m_record_canonical_cmp a b = o -> m_record_canonical_cmp b c = o -> m_record_canonical_cmp a c = o.
Proof. exact record_canonical_trans. Qed.
Print Assumptions C04_record_canonical_trans.

Theorem C04_record_canonical_eq_subst : forall a b c, m_record_canonical_cmp a b = Eq -> m_record_canonical_cmp a c = m_record_canonical_cmp b c.
Proof. exact record_canonical_eq_subst. Qed.
Print Assumptions C04_record_canonical_eq_subst.

Theorem C04_record_canonical_eq_iff : forall a b, m_record_canonical_cmp a b = Eq <-> r_class a = r_class b /\ name_eqb (r_owner a) (r_owner b) = true /\ r_rtype a = r_rtype b /\ r_rdata a = r_rdata b.
Proof. exact record_canonical_eq_iff. Qed.
Print Assumptions C04_record_canonical_eq_iff.

Theorem C04_u32_partial_agrees : forall a b, u32_partial_gen false a b = Some (a ?= b).
Proof. exact u32_partial_agrees. Qed.
Print Assumptions C04_u32_partial_agrees.

Theorem C04_u32_partial_serial_refuted : u32_partial_gen true 0 2147483648 = None /\ u32_partial_gen true 0 2147483649 = Some Gt /\ (0 ?= 2147483649) = Lt.
Proof. exact u32_partial_serial_refuted. Qed.
Print Assumptions C04_u32_partial_serial_refuted.

Theorem C04_pfx_partial_agrees : forall a b, pfx_partial_gen true a b = Some (m_charstr_canonical_cmp a b).
Proof. exact pfx_partial_agrees. Qed.
Print Assumptions C04_pfx_partial_agrees.

Theorem C04_pfx_partial_plain_refuted : pfx_partial_gen false [2] [1;1] = Some Gt /\ m_charstr_canonical_cmp [2] [1;1] = Lt.
Proof. exact pfx_partial_plain_refuted. Qed.
Print Assumptions C04_pfx_partial_plain_refuted.

Theorem C04_header_cmp_trans : forall a b c o, m_header_cmp a b = o -> m_header_cmp b c = o -> m_header_cmp a c = o.
Proof. exact header_cmp_trans. Qed.
Print Assumptions C04_header_cmp_trans.

Theorem C04_header_cmp_antisym : forall a b, m_header_cmp b a = CompOpp (m_header_cmp a b).
Proof. exact header_cmp_antisym. Qed.
Print Assumptions C04_header_cmp_antisym.

Theorem C04_header_cmp_eq_iff : forall a b, m_header_cmp a b = Eq <-> m_header_eqb a b = true.
Proof. exact header_cmp_eq_iff. Qed.
Print Assumptions C04_header_cmp_eq_iff.

Theorem C04_parsed_record_eq_equiv : (forall a d, m_parsed_record_eq a d a d = true) /\ (forall a d b e, m_parsed_record_eq a d b e = m_parsed_record_eq b e a d) /\ (forall a d b e c f, m_parsed_record_eq a d b e = true -> m_parsed_record_eq b e c f = true -> m_parsed_record_eq a d c f = true).
Proof. exact parsed_record_eq_equiv. Qed.
Print Assumptions C04_parsed_record_eq_equiv.

Theorem C04_record_order_is_not_wire_order : exists a b, m_record_canonical_cmp a b = Gt /\ lex_cmp (record_wire a) (record_wire b) = Lt.
Proof. exact record_order_is_not_wire_order. Qed.
Print Assumptions C04_record_order_is_not_wire_order.

Theorem C04_name_eq_equiv_repr : forall ra rb rc a b c, denotes ra (a ++ [[]]) -> denotes rb (b ++ [[]]) -> denotes rc (c ++ [[]]) -> valid_abs a -> valid_abs b -> valid_abs c -> m_name_eq ra ra = Ok true /\ m_name_eq ra rb = m_name_eq rb ra /\ (m_name_eq ra rb = Ok true -> m_name_eq rb rc = Ok true -> m_name_eq ra rc = Ok true).
Proof. exact name_eq_equiv_repr. Qed.
Print Assumptions C04_name_eq_equiv_repr.

Theorem C04_case_independent_repr : forall ra ra' rb a a' b, denotes ra (a ++ [[]]) -> denotes ra' (a' ++ [[]]) -> denotes rb (b ++ [[]]) -> valid_abs a -> valid_abs a' -> valid_abs b -> canon a = canon a' -> m_name_eq ra rb = m_name_eq ra' rb /\ m_name_cmp ra rb = m_name_cmp ra' rb /\ m_name_cmp rb ra = m_name_cmp rb ra' /\ m_name_hash ra = m_name_hash ra' /\ m_lc_composed_cmp ra rb = m_lc_composed_cmp ra' rb.
Proof. exact case_independent_repr. Qed.
Print Assumptions C04_case_independent_repr.

Theorem C04_composed_cmp_eq_iff : forall ra rb a b, denotes ra (a ++ [[]]) -> denotes rb (b ++ [[]]) -> valid_abs a -> valid_abs b -> (m_composed_cmp ra rb = Ok Eq <-> a = b) /\ (m_lc_composed_cmp ra rb = Ok Eq <-> m_name_eq ra rb = Ok true).
Proof. exact composed_cmp_eq_iff. Qed.
Print Assumptions C04_composed_cmp_eq_iff.

Theorem C04_name_cmp_common_suffix : forall a b s, name_cmp (a ++ s) (b ++ s) = name_cmp a b.
Proof. exact name_cmp_common_suffix. Qed.
Print Assumptions C04_name_cmp_common_suffix.

Theorem C04_name_cmp_siblings : forall x y s, name_cmp (x :: s) (y :: s) = lex_cmp (lowers x) (lowers y).
Proof. exact name_cmp_siblings. Qed.
Print Assumptions C04_name_cmp_siblings.

Theorem C04_name_cmp_parent_first : forall p s, p <> [] -> name_cmp s (p ++ s) = Lt.
Proof. exact name_cmp_parent_first. Qed.
Print Assumptions C04_name_cmp_parent_first.

Theorem C04_name_cmp_first_difference : forall a b x y s, label_cmp x y <> Eq -> name_cmp (a ++ x :: s) (b ++ y :: s) = label_cmp x y.
Proof. exact name_cmp_first_difference. Qed.
Print Assumptions C04_name_cmp_first_difference.

Theorem C04_name_cmp_rfc4034_repr : forall ra rb a b x y s, denotes ra ((a ++ x :: s) ++ [[]]) -> denotes rb ((b ++ y :: s) ++ [[]]) -> valid_abs (a ++ x :: s) -> lex_cmp (lowers x) (lowers y) <> Eq -> m_name_cmp ra rb = Ok (lex_cmp (lowers x) (lowers y)).
Proof. exact name_cmp_rfc4034_repr. Qed.
Print Assumptions C04_name_cmp_rfc4034_repr.

Theorem C04_name_cmp_parent_first_repr : forall ra rb p s, denotes ra (s ++ [[]]) -> denotes rb ((p ++ s) ++ [[]]) -> valid_abs s -> valid_abs (p ++ s) -> p <> [] -> m_name_cmp ra rb = Ok Lt /\ m_name_cmp rb ra = Ok Gt.
Proof. exact name_cmp_parent_first_repr. Qed.
Print Assumptions C04_name_cmp_parent_first_repr.

Theorem C04_label_total_order : forall a b c o, m_label_cmp b a = CompOpp (m_label_cmp a b) /\ (m_label_cmp a b = o -> m_label_cmp b c = o -> m_label_cmp a c = o) /\ m_label_eq a a = true /\ m_label_eq a b = m_label_eq b a /\ (m_label_eq a b = true -> m_label_eq b c = true -> m_label_eq a c = true).
Proof. exact label_total_order. Qed.
Print Assumptions C04_label_total_order.

Theorem C04_label_case_independent : forall a a' b, lowers a = lowers a' -> m_label_eq a b = m_label_eq a' b /\ m_label_cmp a b = m_label_cmp a' b /\ m_label_cmp b a = m_label_cmp b a' /\ m_label_eq a (lowers a) = true.
Proof. exact label_case_independent. Qed.
Print Assumptions C04_label_case_independent.

Theorem C04_charstr_eq_equiv : forall a b c, m_charstr_eq a a = true /\ m_charstr_eq a b = m_charstr_eq b a /\ (m_charstr_eq a b = true -> m_charstr_eq b c = true -> m_charstr_eq a c = true).
Proof. exact charstr_eq_equiv. Qed.
Print Assumptions C04_charstr_eq_equiv.

Theorem C04_charstr_case_independent : forall a a' b, lowers a = lowers a' -> m_charstr_eq a b = m_charstr_eq a' b /\ m_charstr_cmp a b = m_charstr_cmp a' b /\ m_charstr_cmp b a = m_charstr_cmp b a' /\ m_charstr_hash a = m_charstr_hash a' /\ m_charstr_eq a (lowers a) = true.
Proof. exact charstr_case_independent. Qed.
Print Assumptions C04_charstr_case_independent.

Theorem C04_charstr_canonical_total : forall a b c o, (m_charstr_canonical_cmp a b = Eq <-> a = b) /\ m_charstr_canonical_cmp b a = CompOpp (m_charstr_canonical_cmp a b) /\ (m_charstr_canonical_cmp a b = o -> m_charstr_canonical_cmp b c = o -> m_charstr_canonical_cmp a c = o).
Proof. exact charstr_canonical_total. Qed.
Print Assumptions C04_charstr_canonical_total.

Theorem C04_rd_canonical_total : forall code r a b c, rd_lookup rd_table code = Some r -> map fv_kind a = row_kinds r -> map fv_kind b = row_kinds r -> map fv_kind c = row_kinds r -> Forall fv_ok a -> Forall fv_ok b -> Forall fv_ok c -> exists o, rd_canonical_cmp (row_canonical r) a b = Ok o /\ rd_canonical_cmp (row_canonical r) b a = Ok (CompOpp o) /\ (o = Eq <-> rd_enc a = rd_enc b) /\ (rd_canonical_cmp (row_canonical r) b c = Ok o -> rd_canonical_cmp (row_canonical r) a c = Ok o).
Proof. exact rd_canonical_total. Qed.
Print Assumptions C04_rd_canonical_total.

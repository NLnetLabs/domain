(* C04 proofs: labels, and the flat fast path of name_eq. *)
From Coq Require Import NArith Arith List Bool Lia.
From DV Require Import Base.Bytes Base.Lex Base.Names C04.Gen C04.Model.
Import ListNotations.
Local Open Scope N_scope.

Lemma m_label_eq_spec a b : m_label_eq a b = label_eqb a b.
Proof. reflexivity. Qed.

Lemma m_label_cmp_spec a b : m_label_cmp a b = label_cmp a b.
Proof. reflexivity. Qed.

Lemma m_label_hash_unfold l : m_label_hash l = N.of_nat (length l) mod 256 :: lowers l.
Proof.
  unfold m_label_hash, label_hash_items. cbn [flat_map hash_item N.eqb Pos.eqb app].
  rewrite app_nil_r. reflexivity.
Qed.

Lemma m_label_hash_spec l : (length l < 256)%nat -> m_label_hash l = label_hash_feed l.
Proof.
  intros H. rewrite m_label_hash_unfold. unfold label_hash_feed. f_equal. apply N.mod_small. lia.
Qed.

Lemma label_eq_hash_model a b : m_label_eq a b = true -> m_label_hash a = m_label_hash b.
Proof.
  rewrite m_label_eq_spec, label_eqb_spec. intros H.
  rewrite !m_label_hash_unfold, <- (lowers_length a), <- (lowers_length b), H. reflexivity.
Qed.

Lemma label_cmp_eq_model a b : m_label_cmp a b = Eq <-> m_label_eq a b = true.
Proof. rewrite m_label_cmp_spec, m_label_eq_spec. apply label_cmp_eq. Qed.

Example label_example :
  m_label_eq [87;119;87] [119;87;119] = true /\ m_label_cmp [65] [98] = Lt /\
  m_label_cmp [91] [97] = Lt /\ m_label_hash [65;0] = [2;97;0].
Proof. vm_compute. auto. Qed.

Lemma bytes_eqb_eq a b : bytes_eqb a b = true <-> a = b.
Proof.
  revert b; induction a as [|x a IH]; intros [|y b]; cbn [bytes_eqb]; split; intros H;
    try reflexivity; try discriminate.
  - apply andb_true_iff in H as [H1 H2]. apply N.eqb_eq in H1. apply IH in H2. congruence.
  - injection H as -> ->. apply andb_true_iff. split; [apply N.eqb_refl|apply IH; reflexivity].
Qed.

Lemma bytes_eqb_refl d : bytes_eqb d d = true.
Proof. apply bytes_eqb_eq. reflexivity. Qed.

Lemma bytes_eqb_sym a b : bytes_eqb a b = bytes_eqb b a.
Proof. apply eq_true_iff_eq. rewrite !bytes_eqb_eq. split; auto. Qed.

Lemma eq_ci_bool a b c d : (lowers a = lowers b <-> lowers c = lowers d) -> eq_ci a b = eq_ci c d.
Proof. intros H. apply eq_true_iff_eq. rewrite !eq_ci_spec. exact H. Qed.

Theorem label_total_order a b c o :
  m_label_cmp b a = CompOpp (m_label_cmp a b) /\
  (m_label_cmp a b = o -> m_label_cmp b c = o -> m_label_cmp a c = o) /\
  m_label_eq a a = true /\ m_label_eq a b = m_label_eq b a /\
  (m_label_eq a b = true -> m_label_eq b c = true -> m_label_eq a c = true).
Proof.
  rewrite !m_label_cmp_spec, !m_label_eq_spec. unfold label_eqb.
  split; [apply label_cmp_antisym|]. split; [apply label_cmp_trans|].
  split; [apply eq_ci_spec; reflexivity|]. split; [apply eq_ci_bool; split; congruence|].
  rewrite !eq_ci_spec. congruence.
Qed.

Theorem label_case_independent a a' b : lowers a = lowers a' ->
  m_label_eq a b = m_label_eq a' b /\ m_label_cmp a b = m_label_cmp a' b /\
  m_label_cmp b a = m_label_cmp b a' /\ m_label_eq a (lowers a) = true.
Proof.
  intros H. split; [|split; [|split]].
  - rewrite !m_label_eq_spec. apply eq_ci_bool. rewrite H. tauto.
  - rewrite !m_label_cmp_spec. unfold label_cmp. rewrite H. reflexivity.
  - rewrite !m_label_cmp_spec. unfold label_cmp. rewrite H. reflexivity.
  - rewrite m_label_eq_spec. apply eq_ci_spec. rewrite lowers_idem. reflexivity.
Qed.

(* the lower-casing of the model (Base/Bytes.lower) is std's definition of
   u8::to_ascii_lowercase *)
Theorem lower_is_std : forall b, b < 256 -> lower b = std_to_ascii_lowercase b.
Proof.
  intros b _. unfold lower, std_to_ascii_lowercase.
  destruct ((65 <=? b) && (b <=? 90)) eqn:E; [|symmetry; apply N.lor_0_r].
  (* setting bit 5 of a capital letter adds 32: the 26 letters by evaluation *)
  assert (H : forallb (fun n => n + 32 =? N.lor n (1 * 32)) (map N.of_nat (seq 65 26)) = true)
    by (vm_compute; reflexivity).
  rewrite forallb_forall in H. apply N.eqb_eq, H, in_map_iff.
  exists (N.to_nat b). split; [lia|apply in_seq; lia].
Qed.

Lemma m_label_composed_unfold a b :
  m_label_composed_cmp a b = then_cmp (len_cmp a b) (lex_cmp a b).
Proof. reflexivity. Qed.

Lemma m_label_lc_composed_unfold a b :
  m_label_lc_composed_cmp a b = then_cmp (len_cmp a b) (lex_cmp (lowers a) (lowers b)).
Proof. reflexivity. Qed.

Lemma then_cmp_eq_r c : then_cmp c Eq = c.
Proof. destruct c; reflexivity. Qed.

Lemma then_cmp_eq c d : then_cmp c d = Eq <-> c = Eq /\ d = Eq.
Proof. destruct c; cbn [then_cmp]; intuition discriminate. Qed.

Lemma u8_cmp a b : lex_cmp [a] [b] = (a ?= b).
Proof. cbn [lex_cmp]. destruct (a ?= b); reflexivity. Qed.

(* c decides the order of x and y, before whatever follows them *)
Definition decides (c : comparison) (x y : bytes) : Prop :=
  forall r1 r2, lex_cmp (x ++ r1) (y ++ r2) = then_cmp c (lex_cmp r1 r2).

Lemma decides_eq c x y : decides c x y -> c = lex_cmp x y.
Proof. intros H. specialize (H [] []). rewrite !app_nil_r in H. rewrite H. symmetry. apply then_cmp_eq_r. Qed.

Lemma decides_same_length x y : length x = length y -> decides (lex_cmp x y) x y.
Proof. intros L r1 r2. rewrite lex_cmp_app by exact L. destruct (lex_cmp x y); reflexivity. Qed.

Lemma decides_app c d x y x' y' : decides c x y -> decides d x' y' -> decides (then_cmp c d) (x ++ x') (y ++ y').
Proof. intros H H' r1 r2. rewrite <- !app_assoc, H, H'. destruct c; reflexivity. Qed.

(* behind a length prefix of fixed width that orders like the lengths, octet
   order is "length first, then octets" *)
Lemma len_prefixed_cmp_gen pa pb a b : length pa = length pb -> lex_cmp pa pb = len_cmp a b ->
  decides (then_cmp (len_cmp a b) (lex_cmp a b)) (pa ++ a) (pb ++ b).
Proof.
  intros L H r1 r2. rewrite <- !app_assoc, lex_cmp_app, H by exact L. unfold len_cmp.
  destruct (Nat.compare (length a) (length b)) eqn:E; cbn [then_cmp]; try reflexivity.
  apply Nat.compare_eq in E. rewrite lex_cmp_app by exact E. destruct (lex_cmp a b); reflexivity.
Qed.

Lemma len_prefixed_cmp a b :
  decides (then_cmp (len_cmp a b) (lex_cmp a b)) (N.of_nat (length a) :: a) (N.of_nat (length b) :: b).
Proof.
  apply (len_prefixed_cmp_gen [_] [_]); [reflexivity|]. rewrite u8_cmp. symmetry. apply Nat2N.inj_compare.
Qed.

Lemma label_composed_wire a b : decides (m_label_composed_cmp a b) (wire_label a) (wire_label b).
Proof. exact (len_prefixed_cmp a b). Qed.

Lemma label_lc_composed_wire a b r1 r2 :
  lex_cmp (wire_label (lowers a) ++ r1) (wire_label (lowers b) ++ r2) =
  then_cmp (m_label_lc_composed_cmp a b) (lex_cmp r1 r2).
Proof.
  rewrite m_label_lc_composed_unfold, (label_composed_wire _ _ r1 r2), m_label_composed_unfold.
  unfold len_cmp. rewrite !lowers_length. reflexivity.
Qed.

Lemma lower_below_letters b : b < 65 -> lower b = b.
Proof. intros H. unfold lower. destruct ((65 <=? b) && (b <=? 90)) eqn:E; [lia|reflexivity]. Qed.

Lemma lowers_wire_label l : (length l <= 63)%nat -> lowers (wire_label l) = wire_label (lowers l).
Proof.
  intros H. unfold wire_label, lowers. cbn [map]. fold (lowers l).
  rewrite lower_below_letters, lowers_length by lia. reflexivity.
Qed.

Lemma lowers_wire_rel n : Forall valid_label n -> lowers (wire_rel n) = wire_rel (canon n).
Proof.
  induction n as [|l n IH]; intros H; [reflexivity|].
  inversion H as [|? ? [Hl _] Hn]; subst.
  unfold wire_rel, canon in *. cbn [map concat]. rewrite lowers_app, lowers_wire_label by lia.
  rewrite IH by assumption. reflexivity.
Qed.

Lemma lowers_wire_abs n : Forall valid_label n -> lowers (wire_abs n) = wire_abs (canon n).
Proof. intros H. unfold wire_abs. rewrite lowers_app, lowers_wire_rel by assumption. reflexivity. Qed.

Lemma canon_valid_labels n : Forall valid_label n -> Forall valid_label (canon n).
Proof.
  intros H. apply Forall_map. eapply Forall_impl; [|exact H]. intros l [Hl Hb].
  split; [rewrite lowers_length; exact Hl|].
  apply Forall_map. eapply Forall_impl; [|exact Hb]. apply lower_byte.
Qed.

(* the flat fast path: comparing whole wire slices ignoring ASCII case is the
   label-wise case-insensitive equality *)
Theorem flat_eq_iff_label_eq a b : valid_abs a -> valid_abs b ->
  eq_ci (wire_abs a) (wire_abs b) = name_eqb a b.
Proof.
  intros Ha Hb. apply eq_true_iff_eq. rewrite eq_ci_spec, name_eqb_spec.
  rewrite !lowers_wire_abs by (apply Ha || apply Hb). split.
  - apply wire_abs_inj.
  - intros ->. reflexivity.
Qed.

Theorem flat_eq_iff_label_eq_rel a b : valid_rel a -> valid_rel b ->
  eq_ci (wire_rel a) (wire_rel b) = name_eqb a b.
Proof.
  intros Ha Hb. apply eq_true_iff_eq. rewrite eq_ci_spec, name_eqb_spec.
  rewrite !lowers_wire_rel by (apply Ha || apply Hb). split.
  - apply wire_rel_inj.
  - intros ->. reflexivity.
Qed.

(* the label boundary cannot be faked by an escaped dot: a.b versus a\.b *)
Example flat_eq_boundary :
  eq_ci (wire_abs [[97]; [98]]) (wire_abs [[97; 46; 98]]) = false /\
  eq_ci (wire_abs [[65]; [98]]) (wire_abs [[97]; [66]]) = true /\
  name_eqb [[65]; [98]] [[97]; [66]] = true.
Proof. vm_compute. auto. Qed.

(* without the bound on length octets the fast path would be wrong: a
   "label" of 65 octets has length octet 'A', which equals 'a' = 97 ignoring
   case.  This is why validity is a premise. *)
Example flat_eq_needs_short_labels :
  lower 65 = lower 97 /\ lower 63 <> lower 95.
Proof. vm_compute. split; [reflexivity|discriminate]. Qed.

(* C04 proofs: character strings, the record data field schema and its
   instances, NSEC / SVCB / unknown record data, records. *)
From Coq Require Import NArith Arith List Bool Lia.
From DV Require Import Base.Outcome Base.Bytes Base.Lex Base.Names C04.Gen C04.Model
  C04.ProofsLabel C04.ProofsIter.
Import ListNotations.
Local Open Scope N_scope.

Lemma m_charstr_eq_spec a b : m_charstr_eq a b = eq_ci a b.
Proof. reflexivity. Qed.
Lemma m_charstr_cmp_spec a b : m_charstr_cmp a b = lex_cmp (lowers a) (lowers b).
Proof. reflexivity. Qed.
Lemma m_charstr_hash_spec a : m_charstr_hash a = lowers a.
Proof. reflexivity. Qed.
Lemma m_charstr_canonical_unfold a b :
  m_charstr_canonical_cmp a b = then_cmp (len_cmp a b) (lex_cmp a b).
Proof. reflexivity. Qed.

Theorem charstr_cmp_eq_iff a b : m_charstr_cmp a b = Eq <-> m_charstr_eq a b = true.
Proof.
  rewrite m_charstr_cmp_spec, m_charstr_eq_spec. split; intros H.
  - apply eq_ci_spec. apply lex_cmp_eq. exact H.
  - apply lex_cmp_eq. apply eq_ci_spec. exact H.
Qed.

Theorem charstr_eq_hash a b : m_charstr_eq a b = true -> m_charstr_hash a = m_charstr_hash b.
Proof. rewrite m_charstr_eq_spec, !m_charstr_hash_spec. intros H. apply eq_ci_spec. exact H. Qed.

Theorem charstr_cmp_antisym a b : m_charstr_cmp b a = CompOpp (m_charstr_cmp a b).
Proof. rewrite !m_charstr_cmp_spec. apply lex_cmp_antisym. Qed.

Theorem charstr_cmp_trans a b c o :
  m_charstr_cmp a b = o -> m_charstr_cmp b c = o -> m_charstr_cmp a c = o.
Proof. rewrite !m_charstr_cmp_spec. apply lex_cmp_trans. Qed.

(* canonical order: "length first, then octets" IS the octet order of the wire
   form, because the wire form starts with the length octet *)
Lemma charstr_canonical_decides a b : decides (m_charstr_canonical_cmp a b) (wire_charstr a) (wire_charstr b).
Proof. exact (len_prefixed_cmp a b). Qed.

Theorem charstr_canonical_bytewise a b :
  m_charstr_canonical_cmp a b = lex_cmp (wire_charstr a) (wire_charstr b).
Proof. apply decides_eq, charstr_canonical_decides. Qed.

Theorem charstr_canonical_total a b c o :
  (m_charstr_canonical_cmp a b = Eq <-> a = b) /\
  m_charstr_canonical_cmp b a = CompOpp (m_charstr_canonical_cmp a b) /\
  (m_charstr_canonical_cmp a b = o -> m_charstr_canonical_cmp b c = o -> m_charstr_canonical_cmp a c = o).
Proof.
  rewrite !charstr_canonical_bytewise. split; [|split; [apply lex_cmp_antisym|apply lex_cmp_trans]].
  rewrite lex_cmp_eq. unfold wire_charstr. split; intros H; [injection H as _ H; exact H|subst; reflexivity].
Qed.

Theorem charstr_eq_equiv a b c :
  m_charstr_eq a a = true /\ m_charstr_eq a b = m_charstr_eq b a /\
  (m_charstr_eq a b = true -> m_charstr_eq b c = true -> m_charstr_eq a c = true).
Proof.
  rewrite !m_charstr_eq_spec.
  split; [apply eq_ci_spec; reflexivity|]. split; [apply eq_ci_bool; split; congruence|].
  rewrite !eq_ci_spec. congruence.
Qed.

Theorem charstr_case_independent a a' b : lowers a = lowers a' ->
  m_charstr_eq a b = m_charstr_eq a' b /\ m_charstr_cmp a b = m_charstr_cmp a' b /\
  m_charstr_cmp b a = m_charstr_cmp b a' /\ m_charstr_hash a = m_charstr_hash a' /\
  m_charstr_eq a (lowers a) = true.
Proof.
  intros H. split; [|split; [|split; [|split]]].
  - rewrite !m_charstr_eq_spec. apply eq_ci_bool. rewrite H. tauto.
  - rewrite !m_charstr_cmp_spec, H. reflexivity.
  - rewrite !m_charstr_cmp_spec, H. reflexivity.
  - rewrite !m_charstr_hash_spec. exact H.
  - rewrite m_charstr_eq_spec. apply eq_ci_spec. rewrite lowers_idem. reflexivity.
Qed.

Example charstr_example :
  m_charstr_eq [65;98] [97;66] = true /\ m_charstr_cmp [98] [97;97] = Gt /\
  m_charstr_canonical_cmp [98] [97;97] = Lt /\ m_charstr_canonical_cmp [65] [97] = Lt /\
  m_charstr_hash [65;0;90] = [97;0;122].
Proof. vm_compute. auto. Qed.

Lemma compare_mul_add B q r q' r' : r < B -> r' < B ->
  (B * q + r ?= B * q' + r') = match q ?= q' with Eq => r ?= r' | c => c end.
Proof.
  intros Hr Hr'. destruct (N.compare_spec q q') as [->|L|G].
  - destruct (N.compare_spec r r'); [apply N.compare_eq_iff|apply N.compare_lt_iff|apply N.compare_gt_iff]; lia.
  - apply N.compare_lt_iff. pose proof (N.mul_le_mono_l (q + 1) q' B). lia.
  - apply N.compare_gt_iff. pose proof (N.mul_le_mono_l (q' + 1) q B). lia.
Qed.

Lemma lex_cmp_div_mod B a b ha la hb lb : B <> 0 -> length ha = length hb ->
  lex_cmp ha hb = (a / B ?= b / B) -> lex_cmp la lb = (a mod B ?= b mod B) ->
  lex_cmp (ha ++ la) (hb ++ lb) = (a ?= b).
Proof.
  intros HB L Hh Hl. rewrite lex_cmp_app, Hh, Hl by exact L.
  rewrite (N.div_mod a B HB) at 3. rewrite (N.div_mod b B HB) at 3.
  symmetry. apply compare_mul_add; apply N.mod_lt, HB.
Qed.

Lemma lex_cmp_snoc_octet ha hb a b : length ha = length hb -> lex_cmp ha hb = (a / 256 ?= b / 256) ->
  lex_cmp (ha ++ [a mod 256]) (hb ++ [b mod 256]) = (a ?= b).
Proof. intros L H. apply (lex_cmp_div_mod 256); [discriminate|exact L|exact H|apply u8_cmp]. Qed.

Lemma be16_cmp a b : lex_cmp (be16 a) (be16 b) = (a ?= b).
Proof. apply (lex_cmp_snoc_octet [_] [_]); [reflexivity|apply u8_cmp]. Qed.

Lemma be32_cmp a b : lex_cmp (be32 a) (be32 b) = (a ?= b).
Proof.
  apply (lex_cmp_snoc_octet [_; _; _] [_; _; _]); [reflexivity|].
  apply (lex_cmp_snoc_octet [_; _] [_; _]); [reflexivity|]. rewrite !N.div_div by discriminate.
  apply (lex_cmp_snoc_octet [_] [_] (a / 65536) (b / 65536)); [reflexivity|]. rewrite !N.div_div by discriminate.
  apply u8_cmp.
Qed.

Definition is_tail (f : field) : bool := match f with FTail _ => true | _ => false end.

Lemma field_cmp_enc f g : same_kind f g = true -> field_ok f -> field_ok g -> is_tail f = false ->
  field_cmp f g = Ok (lex_cmp (field_enc f) (field_enc g)) /\
  decides (lex_cmp (field_enc f) (field_enc g)) (field_enc f) (field_enc g).
Proof.
  intros K Of Og T. destruct f as [a|a|a|a|a|a]; destruct g as [b|b|b|b|b|b]; try discriminate; cbn [field_cmp field_enc].
  - split; [reflexivity|]. apply decides_same_length, Nat.eqb_eq, K.
  - apply labels_lc_composed_wire; [apply Of|apply Og].
  - apply labels_composed_wire; [apply Of|apply Og].
  - rewrite charstr_canonical_bytewise. split; [reflexivity|].
    rewrite <- charstr_canonical_bytewise. apply charstr_canonical_decides.
  - assert (D : decides (then_cmp (len_cmp a b) (lex_cmp a b)) (be16 (N.of_nat (length a)) ++ a) (be16 (N.of_nat (length b)) ++ b))
      by (apply len_prefixed_cmp_gen; [reflexivity|]; rewrite be16_cmp; symmetry; apply Nat2N.inj_compare).
    rewrite <- (decides_eq _ _ _ D). split; [reflexivity|exact D].
Qed.

Lemma same_schema_nil_l b : same_schema [] b = true -> b = [].
Proof. destruct b; [reflexivity|discriminate]. Qed.

(* field-wise canonical_cmp = octet order of the concatenated canonical
   encodings, for every pair of values of the same record type *)
Theorem schema_cmp_bytewise a : forall b, same_schema a b = true ->
  Forall field_ok a -> Forall field_ok b ->
  fields_cmp a b = Ok (lex_cmp (fields_enc a) (fields_enc b)).
Proof.
  induction a as [|f a IH]; intros b S Oa Ob.
  - apply same_schema_nil_l in S. subst. reflexivity.
  - destruct b as [|g b]; [discriminate|]. cbn [same_schema] in S.
    apply andb_true_iff in S as [S S3]. apply andb_true_iff in S as [S1 S2].
    inversion Oa as [|? ? Of Oa']; subst. inversion Ob as [|? ? Og Ob']; subst.
    cbn [fields_cmp fields_enc flat_map]. fold (fields_enc a). fold (fields_enc b).
    destruct (is_tail f) eqn:T.
    + destruct f as [?|?|?|?|t1|?]; try discriminate. destruct g as [?|?|?|?|t2|?]; try discriminate.
      destruct a as [|? ?]; [|discriminate]. apply same_schema_nil_l in S3. subst.
      cbn [field_cmp bind fields_cmp fields_enc flat_map field_enc]. rewrite !app_nil_r.
      destruct (lex_cmp t1 t2); reflexivity.
    + destruct (field_cmp_enc f g S1 Of Og T) as [Hc Hw]. rewrite Hc. cbn [bind].
      rewrite Hw, (IH b S3 Oa' Ob'). destruct (lex_cmp (field_enc f) (field_enc g)); reflexivity.
Qed.

Lemma field_cmp_u8 x y : field_cmp (FFixed [x]) (FFixed [y]) = Ok (x ?= y).
Proof. cbn [field_cmp]. rewrite u8_cmp. reflexivity. Qed.
Lemma field_cmp_u16 x y : x < 65536 -> y < 65536 ->
  field_cmp (FFixed (be16 x)) (FFixed (be16 y)) = Ok (x ?= y).
Proof. intros. cbn [field_cmp]. rewrite be16_cmp. reflexivity. Qed.
Lemma field_cmp_u32 x y : x < 4294967296 -> y < 4294967296 ->
  field_cmp (FFixed (be32 x)) (FFixed (be32 y)) = Ok (x ?= y).
Proof. intros. cbn [field_cmp]. rewrite be32_cmp. reflexivity. Qed.

(* the field lists in the order of each type's canonical_cmp (T1 checks the
   order and the comparison method of every field) *)
Definition rd_a (addr : bytes) : list field := [FFixed addr].
Definition rd_mx (pref : N) (ex : name) : list field := [FFixed (be16 pref); FName ex].
Definition rd_soa (m r : name) (serial refresh retry expire minimum : N) : list field :=
  [FName m; FName r; FFixed (be32 serial); FFixed (be32 refresh); FFixed (be32 retry);
   FFixed (be32 expire); FFixed (be32 minimum)].
Definition rd_srv (prio weight port : N) (target : name) : list field :=
  [FFixed (be16 prio); FFixed (be16 weight); FFixed (be16 port); FName target].
Definition rd_ds (key_tag alg dtype : N) (digest : bytes) : list field :=
  [FFixed (be16 key_tag); FFixed [alg]; FFixed [dtype]; FTail digest].
Definition rd_dnskey (flags proto alg : N) (key : bytes) : list field :=
  [FFixed (be16 flags); FFixed [proto]; FFixed [alg]; FTail key].
Definition rd_txt (content : bytes) : list field := [FTail content].
Definition rd_hinfo (cpu os : bytes) : list field := [FStr cpu; FStr os].
Definition rd_nsec (next : name) (types : bytes) : list field := [FNameRaw next; FTail types].

(* a record type's field list over variables: the schema test evaluates, each
   field_ok is trivial or a hypothesis *)
Ltac fields_ok :=
  repeat (apply Forall_cons; [cbn [field_ok]; first [exact I | assumption]|]); apply Forall_nil.
Ltac schema_instance :=
  intros; apply schema_cmp_bytewise; [reflexivity | fields_ok | fields_ok].

Theorem a_canonical_bytewise x y : length x = length y ->
  fields_cmp (rd_a x) (rd_a y) = Ok (lex_cmp (fields_enc (rd_a x)) (fields_enc (rd_a y))).
Proof.
  intros H. apply schema_cmp_bytewise; [|fields_ok|fields_ok].
  cbn [rd_a same_schema same_kind tail_last andb]. rewrite H, Nat.eqb_refl. reflexivity.
Qed.

Theorem mx_canonical_bytewise p1 e1 p2 e2 : valid_abs e1 -> valid_abs e2 ->
  fields_cmp (rd_mx p1 e1) (rd_mx p2 e2) = Ok (lex_cmp (fields_enc (rd_mx p1 e1)) (fields_enc (rd_mx p2 e2))).
Proof. schema_instance. Qed.

Theorem soa_canonical_bytewise m1 r1 s1 f1 t1 e1 n1 m2 r2 s2 f2 t2 e2 n2 :
  valid_abs m1 -> valid_abs r1 -> valid_abs m2 -> valid_abs r2 ->
  fields_cmp (rd_soa m1 r1 s1 f1 t1 e1 n1) (rd_soa m2 r2 s2 f2 t2 e2 n2) =
  Ok (lex_cmp (fields_enc (rd_soa m1 r1 s1 f1 t1 e1 n1)) (fields_enc (rd_soa m2 r2 s2 f2 t2 e2 n2))).
Proof. schema_instance. Qed.

Theorem srv_canonical_bytewise p1 w1 o1 t1 p2 w2 o2 t2 : valid_abs t1 -> valid_abs t2 ->
  fields_cmp (rd_srv p1 w1 o1 t1) (rd_srv p2 w2 o2 t2) =
  Ok (lex_cmp (fields_enc (rd_srv p1 w1 o1 t1)) (fields_enc (rd_srv p2 w2 o2 t2))).
Proof. schema_instance. Qed.

Theorem ds_canonical_bytewise k1 a1 t1 d1 k2 a2 t2 d2 :
  fields_cmp (rd_ds k1 a1 t1 d1) (rd_ds k2 a2 t2 d2) =
  Ok (lex_cmp (fields_enc (rd_ds k1 a1 t1 d1)) (fields_enc (rd_ds k2 a2 t2 d2))).
Proof. schema_instance. Qed.

Theorem dnskey_canonical_bytewise k1 a1 t1 d1 k2 a2 t2 d2 :
  fields_cmp (rd_dnskey k1 a1 t1 d1) (rd_dnskey k2 a2 t2 d2) =
  Ok (lex_cmp (fields_enc (rd_dnskey k1 a1 t1 d1)) (fields_enc (rd_dnskey k2 a2 t2 d2))).
Proof. schema_instance. Qed.

Theorem txt_canonical_bytewise c1 c2 :
  fields_cmp (rd_txt c1) (rd_txt c2) = Ok (lex_cmp (fields_enc (rd_txt c1)) (fields_enc (rd_txt c2))).
Proof. schema_instance. Qed.

Theorem hinfo_canonical_bytewise c1 o1 c2 o2 : (length c1 <= 255)%nat -> (length o1 <= 255)%nat ->
  (length c2 <= 255)%nat -> (length o2 <= 255)%nat ->
  fields_cmp (rd_hinfo c1 o1) (rd_hinfo c2 o2) =
  Ok (lex_cmp (fields_enc (rd_hinfo c1 o1)) (fields_enc (rd_hinfo c2 o2))).
Proof. schema_instance. Qed.

Example schema_example :
  fields_cmp (rd_mx 10 [[98]]) (rd_mx 10 [[97;97]]) = Ok Lt /\
  fields_enc (rd_mx 10 [[66]]) = [0;10;1;98;0] /\
  fields_cmp (rd_mx 256 [[98]]) (rd_mx 1 [[98]]) = Ok Gt /\
  fields_cmp (rd_soa [[97]] [[98]] 1 2 3 4 5) (rd_soa [[65]] [[98]] 1 2 3 4 6) = Ok Lt.
Proof. vm_compute. auto. Qed.

Definition rd_name1 (n : name) : list field := [FName n].   (* NS CNAME PTR DNAME MB MD MF MG MR *)
Definition rd_name2 (a b : name) : list field := [FName a; FName b].   (* MINFO RP *)
Definition rd_tlsa (usage selector mtype : N) (data : bytes) : list field :=
  [FFixed [usage]; FFixed [selector]; FFixed [mtype]; FTail data].
Definition rd_sshfp (alg ftype : N) (fp : bytes) : list field := [FFixed [alg]; FFixed [ftype]; FTail fp].
Definition rd_zonemd (serial scheme algo : N) (digest : bytes) : list field :=
  [FFixed (be32 serial); FFixed [scheme]; FFixed [algo]; FTail digest].
Definition rd_rrsig (covered alg labels ottl expiration inception tag : N) (signer : name) (sig : bytes)
  : list field :=
  [FFixed (be16 covered); FFixed [alg]; FFixed [labels]; FFixed (be32 ottl); FFixed (be32 expiration);
   FFixed (be32 inception); FFixed (be16 tag); FName signer; FTail sig].
Definition rd_nsec3 (halg flags iter : N) (salt next types : bytes) : list field :=
  [FFixed [halg]; FFixed [flags]; FFixed (be16 iter); FStr salt; FStr next; FTail types].
Definition rd_nsec3param (halg flags iter : N) (salt : bytes) : list field :=
  [FFixed [halg]; FFixed [flags]; FFixed (be16 iter); FStr salt].
Definition rd_caa (flags : N) (tag value : bytes) : list field := [FFixed [flags]; FStr tag; FTail value].
Definition rd_naptr (order pref : N) (flags services regexp : bytes) (repl : name) : list field :=
  [FFixed (be16 order); FFixed (be16 pref); FStr flags; FStr services; FStr regexp; FName repl].

Theorem name1_canonical_bytewise n1 n2 : valid_abs n1 -> valid_abs n2 ->
  fields_cmp (rd_name1 n1) (rd_name1 n2) = Ok (lex_cmp (fields_enc (rd_name1 n1)) (fields_enc (rd_name1 n2))).
Proof. schema_instance. Qed.
Theorem name2_canonical_bytewise a1 b1 a2 b2 : valid_abs a1 -> valid_abs b1 -> valid_abs a2 -> valid_abs b2 ->
  fields_cmp (rd_name2 a1 b1) (rd_name2 a2 b2) = Ok (lex_cmp (fields_enc (rd_name2 a1 b1)) (fields_enc (rd_name2 a2 b2))).
Proof. schema_instance. Qed.
Theorem tlsa_canonical_bytewise u1 s1 m1 d1 u2 s2 m2 d2 :
  fields_cmp (rd_tlsa u1 s1 m1 d1) (rd_tlsa u2 s2 m2 d2) =
  Ok (lex_cmp (fields_enc (rd_tlsa u1 s1 m1 d1)) (fields_enc (rd_tlsa u2 s2 m2 d2))).
Proof. schema_instance. Qed.
Theorem sshfp_canonical_bytewise a1 t1 f1 a2 t2 f2 :
  fields_cmp (rd_sshfp a1 t1 f1) (rd_sshfp a2 t2 f2) =
  Ok (lex_cmp (fields_enc (rd_sshfp a1 t1 f1)) (fields_enc (rd_sshfp a2 t2 f2))).
Proof. schema_instance. Qed.
Theorem zonemd_canonical_bytewise s1 c1 a1 d1 s2 c2 a2 d2 :
  fields_cmp (rd_zonemd s1 c1 a1 d1) (rd_zonemd s2 c2 a2 d2) =
  Ok (lex_cmp (fields_enc (rd_zonemd s1 c1 a1 d1)) (fields_enc (rd_zonemd s2 c2 a2 d2))).
Proof. schema_instance. Qed.
Theorem rrsig_canonical_bytewise c1 a1 l1 o1 e1 i1 t1 n1 s1 c2 a2 l2 o2 e2 i2 t2 n2 s2 :
  valid_abs n1 -> valid_abs n2 ->
  fields_cmp (rd_rrsig c1 a1 l1 o1 e1 i1 t1 n1 s1) (rd_rrsig c2 a2 l2 o2 e2 i2 t2 n2 s2) =
  Ok (lex_cmp (fields_enc (rd_rrsig c1 a1 l1 o1 e1 i1 t1 n1 s1)) (fields_enc (rd_rrsig c2 a2 l2 o2 e2 i2 t2 n2 s2))).
Proof. schema_instance. Qed.
Theorem nsec3_canonical_bytewise h1 f1 i1 s1 n1 t1 h2 f2 i2 s2 n2 t2 :
  (length s1 <= 255)%nat -> (length n1 <= 255)%nat -> (length s2 <= 255)%nat -> (length n2 <= 255)%nat ->
  fields_cmp (rd_nsec3 h1 f1 i1 s1 n1 t1) (rd_nsec3 h2 f2 i2 s2 n2 t2) =
  Ok (lex_cmp (fields_enc (rd_nsec3 h1 f1 i1 s1 n1 t1)) (fields_enc (rd_nsec3 h2 f2 i2 s2 n2 t2))).
Proof. schema_instance. Qed.
Theorem nsec3param_canonical_bytewise h1 f1 i1 s1 h2 f2 i2 s2 :
  (length s1 <= 255)%nat -> (length s2 <= 255)%nat ->
  fields_cmp (rd_nsec3param h1 f1 i1 s1) (rd_nsec3param h2 f2 i2 s2) =
  Ok (lex_cmp (fields_enc (rd_nsec3param h1 f1 i1 s1)) (fields_enc (rd_nsec3param h2 f2 i2 s2))).
Proof. schema_instance. Qed.
Theorem caa_canonical_bytewise f1 t1 v1 f2 t2 v2 : (length t1 <= 255)%nat -> (length t2 <= 255)%nat ->
  fields_cmp (rd_caa f1 t1 v1) (rd_caa f2 t2 v2) =
  Ok (lex_cmp (fields_enc (rd_caa f1 t1 v1)) (fields_enc (rd_caa f2 t2 v2))).
Proof. schema_instance. Qed.
Theorem naptr_canonical_bytewise o1 p1 f1 s1 r1 n1 o2 p2 f2 s2 r2 n2 :
  (length f1 <= 255)%nat -> (length s1 <= 255)%nat -> (length r1 <= 255)%nat -> valid_abs n1 ->
  (length f2 <= 255)%nat -> (length s2 <= 255)%nat -> (length r2 <= 255)%nat -> valid_abs n2 ->
  fields_cmp (rd_naptr o1 p1 f1 s1 r1 n1) (rd_naptr o2 p2 f2 s2 r2 n2) =
  Ok (lex_cmp (fields_enc (rd_naptr o1 p1 f1 s1 r1 n1)) (fields_enc (rd_naptr o2 p2 f2 s2 r2 n2))).
Proof. schema_instance. Qed.

(* TSIG, OPT and IPSECKEY with an address (or no) gateway *)
Lemma be48_cmp a b : a < 281474976710656 -> b < 281474976710656 -> lex_cmp (be48 a) (be48 b) = (a ?= b).
Proof.
  intros _ _. apply (lex_cmp_div_mod 4294967296); [discriminate|reflexivity|apply be16_cmp|apply be32_cmp].
Qed.
Definition rd_tsig (alg : name) (time fudge : N) (mac : bytes) (oid err : N) (other : bytes) : list field :=
  [FNameRaw alg; FFixed (be48 time); FFixed (be16 fudge); FStr16 mac; FFixed (be16 oid); FFixed (be16 err);
   FStr16 other].
Definition rd_opt (options : bytes) : list field := [FTail options].
(* addr: 4 or 16 octets, or none for gateway type 0 *)
Definition rd_ipseckey_addr (prec gtype alg : N) (addr key : bytes) : list field :=
  [FFixed [prec]; FFixed [gtype]; FFixed [alg]; FFixed addr; FTail key].

Theorem tsig_canonical_bytewise a1 t1 f1 m1 i1 e1 o1 a2 t2 f2 m2 i2 e2 o2 :
  valid_abs a1 -> valid_abs a2 -> N.of_nat (length m1) <= 65535 -> N.of_nat (length o1) <= 65535 ->
  N.of_nat (length m2) <= 65535 -> N.of_nat (length o2) <= 65535 ->
  fields_cmp (rd_tsig a1 t1 f1 m1 i1 e1 o1) (rd_tsig a2 t2 f2 m2 i2 e2 o2) =
  Ok (lex_cmp (fields_enc (rd_tsig a1 t1 f1 m1 i1 e1 o1)) (fields_enc (rd_tsig a2 t2 f2 m2 i2 e2 o2))).
Proof. schema_instance. Qed.
Theorem opt_canonical_bytewise o1 o2 :
  fields_cmp (rd_opt o1) (rd_opt o2) = Ok (lex_cmp (fields_enc (rd_opt o1)) (fields_enc (rd_opt o2))).
Proof. schema_instance. Qed.
Theorem ipseckey_addr_canonical_bytewise p1 g1 a1 d1 k1 p2 g2 a2 d2 k2 : length d1 = length d2 ->
  fields_cmp (rd_ipseckey_addr p1 g1 a1 d1 k1) (rd_ipseckey_addr p2 g2 a2 d2 k2) =
  Ok (lex_cmp (fields_enc (rd_ipseckey_addr p1 g1 a1 d1 k1)) (fields_enc (rd_ipseckey_addr p2 g2 a2 d2 k2))).
Proof.
  intros H. unfold rd_ipseckey_addr. apply schema_cmp_bytewise; [|fields_ok|fields_ok].
  cbn [same_schema same_kind tail_last length andb]. rewrite H, !Nat.eqb_refl. reflexivity.
Qed.

(* NSEC: the coded comparison compares `self.types` with itself *)

Definition nsec_enc (n : name) (t : bytes) : bytes := wire_abs n ++ t.

Lemma nsec_fixed_is_schema n1 t1 n2 t2 :
  nsec_canonical_cmp_gen true n1 t1 n2 t2 = fields_cmp (rd_nsec n1 t1) (rd_nsec n2 t2).
Proof.
  unfold nsec_canonical_cmp_gen, rd_nsec. cbn [fields_cmp].
  destruct (field_cmp (FNameRaw n1) (FNameRaw n2)) as [c| | |]; cbn [bind]; try reflexivity.
  destruct c; try reflexivity. cbn [field_cmp bind]. destruct (lex_cmp t1 t2); reflexivity.
Qed.

(* the defect class: different type bitmaps while `types` is compared with self *)
Definition nsec_self_compare (vs_other : bool) (t1 t2 : bytes) : Prop := vs_other = false /\ t1 <> t2.

Theorem nsec_canonical_bytewise vs n1 t1 n2 t2 : valid_abs n1 -> valid_abs n2 ->
  ~ nsec_self_compare vs t1 t2 ->
  nsec_canonical_cmp_gen vs n1 t1 n2 t2 = Ok (lex_cmp (nsec_enc n1 t1) (nsec_enc n2 t2)).
Proof.
  intros V1 V2 K.
  assert (E : nsec_canonical_cmp_gen vs n1 t1 n2 t2 = nsec_canonical_cmp_gen true n1 t1 n2 t2).
  { destruct vs; [reflexivity|]. destruct (list_eq_dec N.eq_dec t1 t2) as [->|D].
    - unfold nsec_canonical_cmp_gen. reflexivity.
    - exfalso. apply K. split; [reflexivity|exact D]. }
  rewrite E, nsec_fixed_is_schema. unfold rd_nsec.
  rewrite schema_cmp_bytewise; [|reflexivity|fields_ok|fields_ok].
  unfold nsec_enc. cbn [fields_enc flat_map field_enc]. rewrite !app_nil_r. reflexivity.
Qed.

(* next name "a.", type bitmaps {A} and {NS}: equal for the code, different
   canonical forms *)
Theorem nsec_canonical_refuted : exists n t1 t2, valid_abs n /\
  nsec_canonical_cmp_gen false n t1 n t2 = Ok Eq /\ lex_cmp (nsec_enc n t1) (nsec_enc n t2) = Gt.
Proof. exists [[97]], [0;1;64], [0;1;32]. split; [apply valid_relb_spec; reflexivity|vm_compute; auto]. Qed.

(* a name compared with name_cmp or composed_cmp between a fixed-length prefix
   and a tail (IPSECKEY with a name gateway, SVCB / HTTPS): the canonical form
   keeps the name as is *)

Definition name_cmp_used (composed : bool) (pre1 pre2 : bytes) (t1 t2 : name) : Prop :=
  composed = false /\ pre1 = pre2 /\ t1 <> t2.

Theorem prefixed_name_cmp_bytewise composed pre1 t1 tail1 pre2 t2 tail2 :
  length pre1 = length pre2 -> valid_abs t1 -> valid_abs t2 ->
  ~ name_cmp_used composed pre1 pre2 t1 t2 ->
  prefixed_name_cmp_gen composed pre1 t1 tail1 pre2 t2 tail2 =
  Ok (lex_cmp (pre1 ++ wire_abs t1 ++ tail1) (pre2 ++ wire_abs t2 ++ tail2)).
Proof.
  intros Hl V1 V2 K. rewrite lex_cmp_app by exact Hl. unfold prefixed_name_cmp_gen.
  destruct (lex_cmp pre1 pre2) eqn:Ep; try reflexivity. apply lex_cmp_eq in Ep. subst pre2.
  destruct (labels_composed_wire t1 (proj1 V1) t2 (proj1 V2)) as [Hc Hw].
  assert (S : (if composed then field_cmp (FNameRaw t1) (FNameRaw t2) else Ok (name_cmp t1 t2)) =
              Ok (lex_cmp (wire_abs t1) (wire_abs t2))).
  { destruct composed; [exact Hc|].
    (* name_cmp is only asked about identical names, and answers Equal as the octets do *)
    destruct (list_eq_dec (list_eq_dec N.eq_dec) t1 t2) as [->|D]; [|exfalso; apply K; repeat split; auto].
    rewrite name_cmp_refl, lex_cmp_refl. reflexivity. }
  rewrite S. cbn [bind]. rewrite Hw. destruct (lex_cmp (wire_abs t1) (wire_abs t2)); reflexivity.
Qed.

Definition svcb_name_cmp_used (composed : bool) (p1 p2 : N) (t1 t2 : name) : Prop :=
  composed = false /\ p1 = p2 /\ t1 <> t2.

Theorem svcb_canonical_bytewise composed p1 t1 par1 p2 t2 par2 : valid_abs t1 -> valid_abs t2 ->
  ~ svcb_name_cmp_used composed p1 p2 t1 t2 ->
  svcb_canonical_cmp_gen composed p1 t1 par1 p2 t2 par2 =
  Ok (lex_cmp (svcb_enc p1 t1 par1) (svcb_enc p2 t2 par2)).
Proof.
  intros V1 V2 K. unfold svcb_enc.
  rewrite <- (prefixed_name_cmp_bytewise composed (be16 p1) t1 par1 (be16 p2) t2 par2 eq_refl V1 V2).
  - unfold svcb_canonical_cmp_gen, prefixed_name_cmp_gen. rewrite be16_cmp. reflexivity.
  - intros [C [E D]]. apply K. repeat split; try assumption.
    apply N.compare_eq_iff. rewrite <- be16_cmp, E. apply lex_cmp_refl.
Qed.

(* priority 1, targets "b." and "aa.": name order says greater, octets less *)
Theorem svcb_canonical_refuted : exists t1 t2, valid_abs t1 /\ valid_abs t2 /\
  svcb_canonical_cmp_gen false 1 t1 [] 1 t2 [] = Ok Gt /\
  lex_cmp (svcb_enc 1 t1 []) (svcb_enc 1 t2 []) = Lt.
Proof.
  exists [[98]], [[97;97]]. split; [apply valid_relb_spec; reflexivity|].
  split; [apply valid_relb_spec; reflexivity|]. vm_compute. auto.
Qed.

(* upper and lower case targets: equal for the code, different octets *)
Theorem svcb_canonical_case_refuted :
  svcb_canonical_cmp_gen false 1 [[65]] [] 1 [[97]] [] = Ok Eq /\
  lex_cmp (svcb_enc 1 [[65]] []) (svcb_enc 1 [[97]] []) = Lt.
Proof. vm_compute. auto. Qed.

Definition ipseckey_enc (prec alg : N) (gw : name) (key : bytes) : bytes :=
  [prec; 3; alg] ++ wire_abs gw ++ key.

Theorem ipseckey_canonical_bytewise composed p1 a1 g1 k1 p2 a2 g2 k2 : valid_abs g1 -> valid_abs g2 ->
  ~ name_cmp_used composed [p1; 3; a1] [p2; 3; a2] g1 g2 ->
  prefixed_name_cmp_gen composed [p1; 3; a1] g1 k1 [p2; 3; a2] g2 k2 =
  Ok (lex_cmp (ipseckey_enc p1 a1 g1 k1) (ipseckey_enc p2 a2 g2 k2)).
Proof. intros. apply prefixed_name_cmp_bytewise; auto. Qed.

Theorem ipseckey_canonical_refuted : exists g1 g2, valid_abs g1 /\ valid_abs g2 /\
  prefixed_name_cmp_gen false [10; 3; 2] g1 [1] [10; 3; 2] g2 [1] = Ok Gt /\
  lex_cmp (ipseckey_enc 10 2 g1 [1]) (ipseckey_enc 10 2 g2 [1]) = Lt.
Proof.
  exists [[98]], [[97;97]]. split; [apply valid_relb_spec; reflexivity|].
  split; [apply valid_relb_spec; reflexivity|]. vm_compute. auto.
Qed.

(* hashing a gateway never panics once the todo!() is gone *)
Theorem ipseckey_gateway_hash_total gw : no_panic (ipseckey_gateway_hash_gen false gw).
Proof. destruct gw; exact I. Qed.
Theorem ipseckey_gateway_hash_refuted : ipseckey_gateway_hash_gen true None = Panic P_TODO.
Proof. reflexivity. Qed.

Theorem unknown_eq_hash r1 d1 r2 d2 : unknown_eq_gen true r1 d1 r2 d2 = true ->
  m_zone_unknown_hash r1 d1 = m_zone_unknown_hash r2 d2.
Proof.
  unfold unknown_eq_gen. intros H. apply andb_true_iff in H as [H1 H2].
  apply N.eqb_eq in H1. apply bytes_eqb_eq in H2. subst. reflexivity.
Qed.

Theorem unknown_eq_hash_refuted : exists r1 r2 d,
  unknown_eq_gen false r1 d r2 d = true /\ m_zone_unknown_hash r1 d <> m_zone_unknown_hash r2 d.
Proof. exists 65280, 65281, [1]. split; [reflexivity|discriminate]. Qed.

(* AllRecordData: == must be reflexive on the Unknown and Opt variants *)
Theorem all_record_data_eq_refl with_rtype r d :
  all_eq_gen true (unknown_eq_gen with_rtype r d r d) = true /\ all_eq_gen true (bytes_eqb d d) = true.
Proof.
  unfold all_eq_gen, unknown_eq_gen. rewrite bytes_eqb_refl, N.eqb_refl. destruct with_rtype; auto.
Qed.

Theorem all_record_data_eq_refuted : forall inner, all_eq_gen false inner = false.
Proof. reflexivity. Qed.

Lemma fields_eq_hash_gen efs hfs (a b : rec) : incl hfs efs ->
  (forall f, In f efs -> c_eq (a f) = c_eq (b f) -> c_feed (a f) = c_feed (b f)) ->
  fields_eq efs a b = true -> fields_hash hfs a = fields_hash hfs b.
Proof.
  intros I C E. unfold fields_eq in E. rewrite forallb_forall in E. unfold fields_hash.
  induction hfs as [|f hfs IH]; [reflexivity|]. cbn [flat_map].
  rewrite IH by (intros x Hx; apply I; right; exact Hx). f_equal.
  assert (Hf : In f efs) by (apply I; left; reflexivity).
  apply C; [exact Hf|]. apply bytes_eqb_eq. apply E. exact Hf.
Qed.

(* Record: Hash feeds exactly the fields Eq compares *)
Theorem record_eq_hash a b :
  (forall f, In f record_eq_fields -> c_eq (a f) = c_eq (b f) -> c_feed (a f) = c_feed (b f)) ->
  m_record_eq a b = true -> m_record_hash a = m_record_hash b.
Proof. apply fields_eq_hash_gen. intros x Hx. exact Hx. Qed.

Theorem header_eq_hash a b :
  (forall f, In f header_eq_fields -> c_eq (a f) = c_eq (b f) -> c_feed (a f) = c_feed (b f)) ->
  m_header_eq a b = true -> m_header_hash a = m_header_hash b.
Proof. apply fields_eq_hash_gen. intros x Hx. exact Hx. Qed.

Theorem record_fields_agree :
  record_hash_fields = record_eq_fields /\ header_hash_fields = header_eq_fields /\
  ~ In 3 record_eq_fields /\ record_canonical_fields = [2; 1; 5; 4].
Proof. repeat split. intros H. cbn in H. intuition discriminate. Qed.

(* the repaired defect: Hash fed the TTL (field 3) which Eq ignores *)
Theorem record_hash_ttl_refuted : exists a b : rec,
  fields_eq [1;2;4] a b = true /\ fields_hash [1;2;3;4] a <> fields_hash [1;2;3;4] b.
Proof.
  exists (fun f => if f =? 3 then mkComp [1] [1] else mkComp [] []),
         (fun f => if f =? 3 then mkComp [2] [2] else mkComp [] []).
  split; [reflexivity|discriminate].
Qed.

(* Record::canonical_cmp: class, then owner in canonical name order, then
   type, then the canonical record data *)
Theorem record_canonical_unfold a b :
  m_record_canonical_cmp a b =
  then_cmp (r_class a ?= r_class b)
    (then_cmp (name_cmp (r_owner a) (r_owner b))
      (then_cmp (r_rtype a ?= r_rtype b) (lex_cmp (r_rdata a) (r_rdata b)))).
Proof.
  unfold m_record_canonical_cmp, record_canonical_fields. cbn [chain_cmp crec_field_cmp N.eqb Pos.eqb].
  rewrite then_cmp_eq_r. reflexivity.
Qed.

(* RFC 4034 6.3: within an RRset the order is that of the canonical RDATA *)
Theorem record_rrset_order a b : r_class a = r_class b -> name_eqb (r_owner a) (r_owner b) = true ->
  r_rtype a = r_rtype b -> m_record_canonical_cmp a b = lex_cmp (r_rdata a) (r_rdata b).
Proof.
  intros C O T. rewrite record_canonical_unfold, C, T, !N.compare_refl.
  apply name_cmp_eq_iff in O. rewrite O. reflexivity.
Qed.

Theorem record_canonical_antisym a b :
  m_record_canonical_cmp b a = CompOpp (m_record_canonical_cmp a b).
Proof.
  rewrite !record_canonical_unfold, !then_cmp_opp.
  rewrite <- !N.compare_antisym, <- name_cmp_antisym, <- lex_cmp_antisym. reflexivity.
Qed.

Theorem record_canonical_eq_iff a b : m_record_canonical_cmp a b = Eq <->
  r_class a = r_class b /\ name_eqb (r_owner a) (r_owner b) = true /\ r_rtype a = r_rtype b /\
  r_rdata a = r_rdata b.
Proof.
  rewrite record_canonical_unfold, !then_cmp_eq, !N.compare_eq_iff, name_cmp_eq_iff, lex_cmp_eq. reflexivity.
Qed.

(* the order of whole records is NOT the octet order of their canonical wire
   forms (owner | type | class | ttl | rdlength | rdata): class comes first,
   owners sort in canonical name order (rightmost label first) *)
Definition record_wire (r : crec) : bytes :=
  wire_abs (canon (r_owner r)) ++ be16 (r_rtype r) ++ be16 (r_class r) ++ be32 (r_ttl r)
  ++ be16 (N.of_nat (length (r_rdata r))) ++ r_rdata r.

Theorem record_order_is_not_wire_order : exists a b,
  m_record_canonical_cmp a b = Gt /\ lex_cmp (record_wire a) (record_wire b) = Lt.
Proof. exists (mkCrec [[98]] 1 0 1 [1;2;3;4]), (mkCrec [[97;97]] 1 0 1 [1;2;3;4]). vm_compute. auto. Qed.

Example record_example :
  m_record_canonical_cmp (mkCrec [[97]] 1 5 1 [1]) (mkCrec [[65]] 1 9 1 [2]) = Lt /\
  m_record_canonical_cmp (mkCrec [[122]] 1 5 1 [1]) (mkCrec [[97]] 3 5 1 [1]) = Lt /\
  m_record_canonical_cmp (mkCrec [[97]] 1 5 16 [1]) (mkCrec [[97]] 1 5 2 [9]) = Gt.
Proof. vm_compute. auto. Qed.

(* C04 proofs: what the uncompressed decoder of Base/Names.v (Name::from_octets /
   check_slice) accepts is the wire form of a valid name, so the theorems about
   flat names apply to every Name the constructor returns. *)
From Coq Require Import NArith Arith List Lia.
From DV Require Import Base.Outcome Base.Bytes Base.Lex Base.Names C04.Gen C04.Model
  C04.ProofsIter C04.ProofsRepr C04.ProofsEmbed.
Import ListNotations.
Local Open Scope N_scope.

Theorem decode_abs_sound w n rest : wf_bytes w -> decode_abs w = inl (Some (n, rest)) ->
  valid_abs n /\ w = wire_abs n ++ rest.
Proof.
  intros Hw H. unfold decode_abs in H. apply parse_flat_sound in H; [|lia].
  destruct H as [m [Hn [Hb [Hv Hu]]]]. cbn [rev app] in Hn. subst m. split; [|exact Hb].
  split; [|lia]. rewrite Hb in Hw. apply wf_bytes_app in Hw as [Hw _].
  clear - Hv Hw. induction n as [|l n IH]; [constructor|].
  inversion Hv; subst. rewrite wire_abs_cons' in Hw. apply wf_bytes_app in Hw as [Hl Hn].
  constructor; [split; [assumption|]|apply IH; assumption].
  unfold wire_label in Hl. inversion Hl; assumption.
Qed.

Theorem accepted_flat_ops wa a wb b : wf_bytes wa -> wf_bytes wb ->
  decode_abs wa = inl (Some (a, [])) -> decode_abs wb = inl (Some (b, [])) ->
  m_name_eq (NFlat wa) (NFlat wb) = Ok (name_eqb a b) /\
  m_name_cmp (NFlat wa) (NFlat wb) = Ok (name_cmp a b) /\
  m_name_ord (NFlat wa) (NFlat wb) = Ok (name_cmp a b) /\
  m_name_hash (NFlat wa) = Ok (name_hash_feed a) /\
  m_composed_cmp (NFlat wa) (NFlat wb) = Ok (lex_cmp wa wb) /\
  m_lc_composed_cmp (NFlat wa) (NFlat wb) = Ok (lex_cmp (wire_abs (canon a)) (wire_abs (canon b))).
Proof.
  intros Wa Wb Da Db. destruct (decode_abs_sound _ _ _ Wa Da) as [Va Ea]. destruct (decode_abs_sound _ _ _ Wb Db) as [Vb Eb].
  rewrite app_nil_r in Ea, Eb. subst wa wb.
  pose proof (denotes_flat_abs a (proj1 Va)) as Dna. pose proof (denotes_flat_abs b (proj1 Vb)) as Dnb.
  pose proof (proj1 (name_ord_repr _ _ a b Dna Dnb Va)) as Ho. repeat split; auto with name_repr.
Qed.

Example accept_example :
  decode_abs [1;65;1;98;0] = inl (Some ([[65];[98]], [])) /\
  m_name_eq (NFlat [1;65;1;98;0]) (NFlat [1;97;1;66;0]) = Ok true.
Proof. vm_compute. auto. Qed.

(* C04 proofs: label iterators (flat slices, chains); the loops of name_eq /
   name_cmp / composed_cmp / lowercase_composed_cmp / Hash as list functions
   over the yielded label sequences. *)
From Coq Require Import NArith Arith List Bool Lia.
From DV Require Import Base.Outcome Base.Bytes Base.Lex Base.Names C04.Gen C04.Model
  C04.ProofsLabel.
Import ListNotations.
Local Open Scope N_scope.

(* the sequence an iterator yields with next() until None *)
Inductive yields : iter -> list label -> Prop :=
| Y_nil i : iter_next i = Ok None -> yields i []
| Y_cons i l i' ls : iter_next i = Ok (Some (l, i')) -> yields i' ls -> yields i (l :: ls).

(* ... and with next_back() until None *)
Inductive yields_back : iter -> list label -> Prop :=
| YB_nil i : iter_next_back i = Ok None -> yields_back i []
| YB_cons i l i' ls : iter_next_back i = Ok (Some (l, i')) -> yields_back i' ls ->
    yields_back i (l :: ls).

Definition wire_labels (ls : list label) : bytes := concat (map wire_label ls).
Definition short_labels (ls : list label) : Prop := Forall (fun l => (length l <= 63)%nat) ls.

Lemma wire_labels_cons l ls : wire_labels (l :: ls) = wire_label l ++ wire_labels ls.
Proof. reflexivity. Qed.

Lemma wire_labels_app a b : wire_labels (a ++ b) = wire_labels a ++ wire_labels b.
Proof. unfold wire_labels. rewrite map_app, concat_app. reflexivity. Qed.

Lemma wire_labels_abs n : wire_labels (n ++ [[]]) = wire_abs n.
Proof. rewrite wire_labels_app. reflexivity. Qed.

Lemma wire_labels_rel n : wire_labels n = wire_rel n.
Proof. reflexivity. Qed.

Lemma wire_abs_cons' l n : wire_abs (l :: n) = wire_label l ++ wire_abs n.
Proof. unfold wire_abs. rewrite <- !wire_labels_rel, wire_labels_cons, app_assoc. reflexivity. Qed.

Lemma length_le_wire_len n : (length n <= wire_len n)%nat.
Proof. induction n; simpl; lia. Qed.

Lemma short_labels_app a b : short_labels (a ++ b) <-> short_labels a /\ short_labels b.
Proof. apply Forall_app. Qed.

Lemma valid_short n : Forall valid_label n -> short_labels n.
Proof. intros H. eapply Forall_impl; [|exact H]. intros l [Hl _]. lia. Qed.

Lemma valid_short_root n : Forall valid_label n -> short_labels (n ++ [[]]).
Proof. intros H. apply short_labels_app. split; [apply valid_short; exact H|]. repeat constructor. Qed.

Lemma split_from_wire l t : (length l <= 63)%nat -> split_from (wire_label l ++ t) = inl (l, t).
Proof.
  intros H. unfold split_from, wire_label. cbn [app].
  assert (E1 : (N.of_nat (length l) <=? split_normal_max) = true) by (unfold split_normal_max; lia).
  rewrite E1, Nat2N.id.
  assert (E2 : (length (N.of_nat (length l) :: l ++ t) <? S (length l))%nat = false).
  { apply Nat.ltb_ge. cbn [length]. rewrite app_length. lia. }
  rewrite E2. cbn [firstn skipn].
  rewrite firstn_app, firstn_all, Nat.sub_diag. cbn [firstn]. rewrite app_nil_r.
  rewrite skipn_app, skipn_all, Nat.sub_diag. reflexivity.
Qed.

Lemma yields_flat ls : short_labels ls -> yields (IFlat (wire_labels ls)) ls.
Proof.
  induction ls as [|l ls IH]; intros H.
  - apply Y_nil. reflexivity.
  - inversion H as [|? ? Hl Hs]; subst. eapply Y_cons; [|apply IH; exact Hs].
    cbn [iter_next]. rewrite wire_labels_cons, split_from_wire by exact Hl. reflexivity.
Qed.

Lemma wire_labels_snoc_cons ls l : exists h t, wire_labels (ls ++ [l]) = h :: t.
Proof. destruct ls; cbn [app]; rewrite wire_labels_cons; unfold wire_label; cbn [app]; eauto. Qed.

Lemma flat_last_wire ls l fuel : short_labels (ls ++ [l]) -> (length ls < fuel)%nat ->
  flat_last fuel (wire_labels (ls ++ [l])) = Ok l.
Proof.
  revert fuel; induction ls as [|x ls IH]; intros fuel H Hf; (destruct fuel as [|fuel]; [lia|]);
    inversion H as [|? ? Hx Hs]; subst; cbn [app flat_last]; rewrite wire_labels_cons, split_from_wire by exact Hx.
  - reflexivity.
  - destruct (wire_labels_snoc_cons ls l) as [h [t E]]. rewrite E. rewrite <- E.
    apply IH; [exact Hs | simpl in Hf; lia].
Qed.

Lemma yields_back_flat ls : short_labels ls -> yields_back (IFlat (wire_labels ls)) (rev ls).
Proof.
  induction ls as [|l ls IH] using rev_ind; intros H.
  - apply YB_nil. reflexivity.
  - apply short_labels_app in H as Hs. destruct Hs as [Hs Hl].
    rewrite rev_unit. eapply YB_cons; [|apply IH; exact Hs].
    cbn [iter_next_back]. destruct (wire_labels_snoc_cons ls l) as [h [t E]]. rewrite E, <- E.
    rewrite flat_last_wire; [|exact H|].
    2:{ pose proof (length_le_wire_len (ls ++ [l])) as G.
        rewrite <- wire_rel_length, app_length in G. simpl in G. rewrite wire_labels_rel. lia. }
    cbn [bind]. rewrite wire_labels_app.
    assert (El : length (wire_labels [l]) = S (length l)).
    { unfold wire_labels, wire_label. simpl. rewrite app_nil_r. reflexivity. }
    rewrite app_length, El.
    assert (E2 : (length (wire_labels ls) + S (length l) <? S (length l))%nat = false) by (apply Nat.ltb_ge; lia).
    rewrite E2.
    replace (length (wire_labels ls) + S (length l) - S (length l))%nat with (length (wire_labels ls)) by lia.
    rewrite firstn_app, firstn_all, Nat.sub_diag. cbn [firstn]. rewrite app_nil_r. reflexivity.
Qed.

Lemma yields_chain i j a b : yields i a -> yields j b -> yields (IChain i j) (a ++ b).
Proof.
  intros Hi Hj. induction Hi as [i Hn | i l i' ls Hn Hi IH].
  - cbn [app]. induction Hj as [j Hm | j l j' ls Hm Hj IH].
    + apply Y_nil. cbn [iter_next]. rewrite Hn. cbn [bind]. rewrite Hm. reflexivity.
    + eapply Y_cons; [|exact IH]. cbn [iter_next]. rewrite Hn. cbn [bind]. rewrite Hm. reflexivity.
  - cbn [app]. eapply Y_cons; [|exact IH]. cbn [iter_next]. rewrite Hn. reflexivity.
Qed.

Lemma yields_back_chain i j a b : yields_back i a -> yields_back j b ->
  yields_back (IChain i j) (b ++ a).
Proof.
  intros Hi Hj. induction Hj as [j Hm | j l j' ls Hm Hj IH].
  - cbn [app]. induction Hi as [i Hn | i l i' ls Hn Hi IH].
    + apply YB_nil. cbn [iter_next_back]. rewrite Hm. cbn [bind]. rewrite Hn. reflexivity.
    + eapply YB_cons; [|exact IH]. cbn [iter_next_back]. rewrite Hm. cbn [bind]. rewrite Hn. reflexivity.
  - cbn [app]. eapply YB_cons; [|exact IH]. cbn [iter_next_back]. rewrite Hm. reflexivity.
Qed.

Lemma name_eqb_cons x a y b : name_eqb (x :: a) (y :: b) = label_eqb x y && name_eqb a b.
Proof.
  unfold name_eqb. cbn [length Nat.eqb combine forallb fst snd].
  destruct (label_eqb x y), (length a =? length b)%nat; reflexivity.
Qed.

Lemma iters_eq_yields a la : yields a la -> forall b lb fuel, yields b lb ->
  (length la < fuel)%nat -> iters_eq fuel a b = Ok (name_eqb la lb).
Proof.
  induction 1 as [a Hn | a x a' la Hn Ha IH]; intros b lb fuel Hb Hf;
    (destruct fuel as [|fuel]; [simpl in Hf; lia|]); cbn [iters_eq]; rewrite Hn; cbn [bind].
  - inversion Hb as [? Hm | ? y b' lb' Hm Hb']; subst; rewrite Hm; reflexivity.
  - inversion Hb as [? Hm | ? y b' lb' Hm Hb']; subst; rewrite Hm; cbn [bind]; [reflexivity|].
    rewrite name_eqb_cons, m_label_eq_spec. destruct (label_eqb x y); [|reflexivity].
    apply IH; [exact Hb'|simpl in Hf; lia].
Qed.

Lemma iters_cmp_back_yields a la : yields_back a la -> forall b lb fuel, yields_back b lb ->
  (length la < fuel)%nat -> iters_cmp_back fuel Lt Gt Eq a b = Ok (labels_cmp la lb).
Proof.
  induction 1 as [a Hn | a x a' la Hn Ha IH]; intros b lb fuel Hb Hf;
    (destruct fuel as [|fuel]; [simpl in Hf; lia|]); cbn [iters_cmp_back]; rewrite Hn; cbn [bind].
  - inversion Hb as [? Hm | ? y b' lb' Hm Hb']; subst; rewrite Hm; reflexivity.
  - inversion Hb as [? Hm | ? y b' lb' Hm Hb']; subst; rewrite Hm; cbn [bind labels_cmp]; [reflexivity|].
    rewrite m_label_cmp_spec. destruct (label_cmp x y); try reflexivity.
    apply IH; [exact Hb'|simpl in Hf; lia].
Qed.

Lemma iters_composed_yields lc a la : yields a la -> forall b lb fuel, yields b lb ->
  (length la < fuel)%nat -> iters_composed fuel lc Eq a b = labels_composed lc la lb.
Proof.
  induction 1 as [a Hn | a x a' la Hn Ha IH]; intros b lb fuel Hb Hf;
    (destruct fuel as [|fuel]; [simpl in Hf; lia|]); cbn [iters_composed]; rewrite Hn; cbn [bind].
  - inversion Hb as [? Hm | ? y b' lb' Hm Hb']; subst; rewrite Hm; reflexivity.
  - inversion Hb as [? Hm | ? y b' lb' Hm Hb']; subst; rewrite Hm; cbn [bind labels_composed]; [reflexivity|].
    destruct (lc x y); try reflexivity. apply IH; [exact Hb'|simpl in Hf; lia].
Qed.

Lemma iters_hash_yields a la : yields a la -> forall fuel,
  (length la < fuel)%nat -> iters_hash fuel a = Ok (flat_map m_label_hash la).
Proof.
  induction 1 as [a Hn | a x a' la Hn Ha IH]; intros fuel Hf;
    (destruct fuel as [|fuel]; [simpl in Hf; lia|]); cbn [iters_hash]; rewrite Hn; cbn [bind].
  - reflexivity.
  - rewrite IH by (simpl in Hf; lia). reflexivity.
Qed.

Lemma name_eqb_root a b : name_eqb (a ++ [[]]) (b ++ [[]]) = name_eqb a b.
Proof.
  apply eq_true_iff_eq. rewrite !name_eqb_spec. unfold canon. rewrite !map_app.
  split; [apply app_inv_tail | intros H; f_equal; exact H].
Qed.

Lemma labels_cmp_root a b : labels_cmp (rev (a ++ [[]])) (rev (b ++ [[]])) = name_cmp a b.
Proof. rewrite !rev_unit. reflexivity. Qed.

Lemma flat_map_hash_feed ls : Forall valid_label ls ->
  flat_map m_label_hash ls = concat (map label_hash_feed ls).
Proof.
  induction ls as [|l ls IH]; intros H; [reflexivity|].
  inversion H as [|? ? [Hl _] Hs]; subst. cbn [flat_map map concat].
  rewrite m_label_hash_spec by lia. rewrite IH by exact Hs. reflexivity.
Qed.

Lemma hash_root n : Forall valid_label n -> flat_map m_label_hash (n ++ [[]]) = name_hash_feed n.
Proof.
  intros H. rewrite flat_map_app. unfold name_hash_feed. rewrite flat_map_hash_feed by exact H.
  reflexivity.
Qed.

Lemma labels_cmp_canon a : forall b, labels_cmp a b = labels_cmp (map lowers a) (map lowers b).
Proof.
  induction a as [|x a IH]; intros [|y b]; cbn [map labels_cmp]; try reflexivity.
  unfold label_cmp. rewrite !lowers_idem. destruct (lex_cmp (lowers x) (lowers y)); try reflexivity. apply IH.
Qed.

Lemma name_cmp_canon a b : name_cmp a b = name_cmp (canon a) (canon b).
Proof. unfold name_cmp, canon. rewrite <- !map_rev. apply labels_cmp_canon. Qed.

Lemma len_cmp_nil_cons (x : N) (l : bytes) : len_cmp [] (x :: l) = Lt.
Proof. reflexivity. Qed.

(* label-wise composed comparison of two absolute names is the octet order of
   their wire forms, decided before whatever follows them; the unreachable!()
   arms are never taken: no valid label is empty, so the root ends both names *)
Lemma labels_composed_wire a : Forall valid_label a -> forall b, Forall valid_label b ->
  labels_composed m_label_composed_cmp (a ++ [[]]) (b ++ [[]]) = Ok (lex_cmp (wire_abs a) (wire_abs b)) /\
  decides (lex_cmp (wire_abs a) (wire_abs b)) (wire_abs a) (wire_abs b).
Proof.
  induction a as [|x a IH]; intros Ha b Hb.
  - destruct b as [|y b]; [split; [|intros r1 r2]; reflexivity|].
    inversion Hb as [|? ? [Hy _] _]; subst. destruct y; [simpl in Hy; lia|].
    split; [|intros r1 r2]; reflexivity.
  - inversion Ha as [|? ? Hx Ha']; subst. destruct b as [|y b].
    + destruct Hx as [Hx _]. destruct x; [simpl in Hx; lia|].
      split; [|intros r1 r2]; reflexivity.
    + inversion Hb as [|? ? Hy Hb']; subst. destruct (IH Ha' b Hb') as [Hc Hw].
      pose proof (decides_app _ _ _ _ _ _ (label_composed_wire x y) Hw) as W.
      rewrite <- !wire_abs_cons' in W. rewrite <- (decides_eq _ _ _ W). split; [|exact W].
      cbn [app labels_composed]. rewrite Hc. destruct (m_label_composed_cmp x y); reflexivity.
Qed.

Lemma labels_lc_composed_canon a b :
  labels_composed m_label_lc_composed_cmp a b = labels_composed m_label_composed_cmp (canon a) (canon b).
Proof.
  unfold canon. revert b; induction a as [|x a IH]; intros [|y b]; cbn [map labels_composed]; try reflexivity.
  assert (E : m_label_lc_composed_cmp x y = m_label_composed_cmp (lowers x) (lowers y)).
  { rewrite m_label_lc_composed_unfold, m_label_composed_unfold. unfold len_cmp. rewrite !lowers_length. reflexivity. }
  rewrite E. destruct (m_label_composed_cmp (lowers x) (lowers y)); try reflexivity. apply IH.
Qed.

Lemma labels_lc_composed_wire a b : Forall valid_label a -> Forall valid_label b ->
  labels_composed m_label_lc_composed_cmp (a ++ [[]]) (b ++ [[]]) =
    Ok (lex_cmp (wire_abs (canon a)) (wire_abs (canon b))) /\
  decides (lex_cmp (wire_abs (canon a)) (wire_abs (canon b))) (wire_abs (canon a)) (wire_abs (canon b)).
Proof.
  intros Ha Hb. rewrite labels_lc_composed_canon. unfold canon. rewrite !map_app.
  apply labels_composed_wire; apply canon_valid_labels; assumption.
Qed.

Example iter_example :
  iters_eq 10 (IChain (IFlat [1;65]) (IFlat [1;98;0])) (IFlat [1;97;1;66;0]) = Ok true /\
  iters_cmp_back 10 Lt Gt Eq (IFlat [1;122;1;97;0]) (IFlat [1;97;1;98;0]) = Ok Lt /\
  iters_composed 10 m_label_composed_cmp Eq (IFlat [1;98;0]) (IFlat [2;97;97;0]) = Ok Lt /\
  iters_hash 10 (IFlat [1;65;0]) = Ok [1;97;0].
Proof. vm_compute. auto. Qed.

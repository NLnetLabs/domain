(* C04 proofs: names derived from a parsed name by parent() / split_first() /
   iter_suffixes().  With the `compressed` flag left alone (what the code does,
   T1) every suffix still denotes its labels, also across chained pointers;
   clearing the flag after a crossed pointer is refuted. *)
From Coq Require Import NArith Arith List Lia.
From DV Require Import Base.Outcome Base.Bytes Base.Lex Base.Names Base.PName C01.Proofs
  C04.Gen C04.Model C04.ProofsIter C04.ProofsRepr C04.ProofsParsed C04.ProofsEmbed
  C04.ProofsCompressed.
Import ListNotations.
Local Open Scope N_scope.

Lemma get_label_start fuel m p r : get_label fuel m p = Ok r -> p < mlen m.
Proof.
  destruct fuel as [|fuel]; [discriminate|]. cbn [get_label].
  destruct (get m p) as [b|] eqn:E; [|discriminate]. intros _. eapply get_lt; eauto.
Qed.

(* the checked walk of parent() finds the label the unchecked iterator reads *)
Lemma get_label_first_label : forall fuel m pos l e crossed,
  get_label fuel m pos = Ok (l, e) -> l <> [] ->
  exists t cr, first_label fuel m pos crossed = Ok (t, clen l, cr) /\ e = t + clen l /\
    (forall b, get m pos = Some b -> b <= 63 -> t = pos /\ cr = crossed).
Proof.
  induction fuel as [|fuel IH]; intros m pos l e crossed H Hl; [discriminate|].
  cbn [get_label] in H. cbn [first_label].
  destruct (get m pos) as [b|] eqn:Eb; [|discriminate].
  pose proof (get_lt _ _ _ Eb) as Hlt.
  assert (E1 : (mlen m - pos <? 1) = false) by (apply N.ltb_ge; lia). rewrite E1.
  destruct (N.leb_spec b 63) as [H63|H63].
  - cbv zeta in H. destruct (N.ltb_spec (mlen m) (pos + 1 + b)) as [Hs|Hs]; [discriminate|].
    inversion H; subst l e. unfold clen. rewrite slice_length by lia.
    replace (N.of_nat (N.to_nat (pos + 1 + b - (pos + 1)))) with b by lia.
    destruct (N.eqb_spec b 0) as [Hb0|Hb0].
    + exfalso. apply Hl. subst b. replace (pos + 1 + 0) with (pos + 1) by lia. apply slice_nil.
    + exists pos, crossed. split; [reflexivity|]. split; [lia|]. intros b' Hb' _. auto.
  - destruct (N.leb_spec 192 b) as [H192|H192]; [|discriminate].
    destruct (get m (pos + 1)) as [c|] eqn:Ec; [|discriminate].
    pose proof (get_lt _ _ _ Ec) as Hlt2.
    assert (E2 : (mlen m - pos <? 2) = false) by (apply N.ltb_ge; lia). rewrite E2.
    pose proof (get_label_start _ _ _ _ H) as Hp.
    assert (E3 : (mlen m <? c + 256 * (b mod 64)) = false) by (apply N.ltb_ge; lia). rewrite E3.
    destruct (IH m _ l e true H Hl) as [t [cr [Hf [He _]]]].
    exists t, cr. split; [exact Hf|]. split; [exact He|].
    intros b' Hb' Hle. inversion Hb'; subst. lia.
Qed.

Lemma slice_head m a b x rest : slice m a b = x :: rest -> get m a = Some x.
Proof.
  unfold slice, get. generalize (N.to_nat (b - a)). intros k. generalize (N.to_nat a). intros i. revert m.
  induction i as [|i IH]; intros [|y m] H; cbn in *; try (destruct k; discriminate).
  - destruct k; [discriminate|]. inversion H. reflexivity.
  - apply IH. exact H.
Qed.

Lemma app_len_inj {A} (a c b d : list A) : length a = length c -> a ++ b = c ++ d -> b = d.
Proof.
  intros Hl H. apply (f_equal (skipn (length a))) in H.
  rewrite skipn_app, skipn_all, Nat.sub_diag in H. rewrite Hl in H.
  rewrite skipn_app, skipn_all, Nat.sub_diag in H. exact H.
Qed.

Theorem parent_step m p l ls :
  plabels m (pn_pos p) (pn_len p) (l :: ls) -> flat_ok m p (l :: ls) ->
  (1 <= length l <= 63)%nat -> ls <> [] ->
  exists q, parent_gen true m p = Ok (Some q) /\
    plabels m (pn_pos q) (pn_len q) ls /\ flat_ok m q ls /\ pn_compressed q = pn_compressed p.
Proof.
  intros H F Hl Hn. inversion H as [|? ? ? pos' ? Hz Hg Hc Hp]; subst.
  assert (Hne : l <> []) by (intros ->; simpl in Hl; lia).
  destruct (get_label_first_label _ _ _ _ _ false Hg Hne) as [t [cr [Hf [He Hflat]]]].
  pose proof (plabels_nonnil_len _ _ _ _ Hp Hn) as Hrest.
  unfold parent_gen.
  assert (Hcl : 2 <= clen l) by (unfold clen; lia).
  assert (E1 : (pn_len p =? 1) = false) by (apply N.eqb_neq; clear - Hcl Hc Hrest; lia). rewrite E1, Hf. cbn [bind].
  assert (E2 : (pn_len p <? clen l) = false) by (apply N.ltb_ge; exact Hc). rewrite E2.
  eexists. split; [reflexivity|]. cbn [pn_pos pn_len pn_compressed]. rewrite <- He.
  split; [exact Hp|]. split; [|reflexivity].
  intros Hcf. cbn [pn_pos pn_len pn_compressed] in *. destruct (F Hcf) as [Hr Hs].
  rewrite wire_labels_cons in Hs.
  assert (Hhead : get m (pn_pos p) = Some (N.of_nat (length l))).
  { unfold wire_label in Hs. cbn [app] in Hs. eapply slice_head. exact Hs. }
  assert (Hb63 : N.of_nat (length l) <= 63) by lia.
  destruct (Hflat _ Hhead Hb63) as [Ht _]. subst t. subst pos'.
  split; [unfold clen in *; lia|].
  rewrite (slice_split m (pn_pos p) (pn_pos p + clen l)) in Hs by (unfold clen in *; lia).
  replace (pn_pos p + clen l + (pn_len p - clen l)) with (pn_pos p + pn_len p) by (unfold clen in *; lia).
  eapply app_len_inj; [|exact Hs].
  rewrite slice_length by (unfold clen in *; lia). rewrite wire_label_length. unfold clen. lia.
Qed.

Lemma plabels_root_len m pos len : plabels m pos len [[]] -> len = 1.
Proof.
  intros H. inversion H as [|? ? ? pos' ? Hz Hg Hc Hp]; subst. inversion Hp. unfold clen in *. cbn [length] in *. lia.
Qed.

(* T1 tie: neither parent() nor split_first() touches the flag *)
Lemma parent_flag_kept : parent_keeps_compressed_flag = true /\ split_first_keeps_compressed_flag = true /\
  suffix_iter_is_parent = true.
Proof. repeat split; reflexivity. Qed.

Theorem parsed_suffix_denotes m pos lim p : parse_ref m pos lim = Ok p -> lim <= mlen m -> wf_bytes m ->
  forall k, exists n q, parent_n k m p = Ok q /\ valid_abs n /\ denotes (NParsed m q) (n ++ [[]]).
Proof.
  intros H Hl Hw k. pose proof (proj1 parent_flag_kept) as Hk.
  destruct (parsed_inv m pos lim p H Hl Hw) as [n [Vn [_ [Hpl Hf]]]].
  clear H. revert p n Vn Hpl Hf. induction k as [|k IH]; intros p n Vn Hpl Hf.
  - exists n, p. split; [reflexivity|]. split; [exact Vn|]. apply denotes_parsed; assumption.
  - unfold parent_n. cbn [step_n]. fold parent_n. unfold m_parent. rewrite Hk. destruct n as [|l n'].
    + cbn [app] in Hpl. apply plabels_root_len in Hpl as Hone.
      unfold parent_gen. rewrite Hone. cbn [N.eqb Pos.eqb bind].
      exists [], p. split; [reflexivity|]. split; [exact Vn|]. apply denotes_parsed; assumption.
    + destruct Vn as [Vl Vw]. inversion Vl as [|? ? [Hl1 Hb] Vl']; subst.
      assert (Hne : n' ++ [[]] <> []) by (destruct n'; discriminate).
      destruct (parent_step m p l (n' ++ [[]]) Hpl Hf ltac:(lia) Hne) as [q [Hq [Hplq [Hfq _]]]].
      rewrite Hq. cbn [bind].
      apply (IH q n'); [split; [exact Vl'|cbn [wire_len] in Vw; lia]|exact Hplq|exact Hfq].
Qed.

Theorem parsed_suffix_ops m pos lim p k rb b : parse_ref m pos lim = Ok p -> lim <= mlen m -> wf_bytes m ->
  valid_abs b -> denotes rb (b ++ [[]]) ->
  exists n q, parent_n k m p = Ok q /\ valid_abs n /\
    m_name_eq (NParsed m q) rb = Ok (name_eqb n b) /\ m_name_cmp (NParsed m q) rb = Ok (name_cmp n b) /\
    m_composed_cmp (NParsed m q) rb = Ok (lex_cmp (wire_abs n) (wire_abs b)) /\
    m_lc_composed_cmp (NParsed m q) rb = Ok (lex_cmp (wire_abs (canon n)) (wire_abs (canon b))) /\
    m_name_hash (NParsed m q) = Ok (name_hash_feed n).
Proof.
  intros H Hl Hw Vb Db. destruct (parsed_suffix_denotes m pos lim p H Hl Hw k) as [n [q [Hq [Vn Dq]]]].
  exists n, q. repeat split; auto with name_repr; apply Vn.
Qed.

(* the flag-clearing variant: "a.b.com." stored as a + ptr -> (b + ptr -> com.)
   parent() crosses the first pointer, the rest "b.com." still contains one.
   With the flag cleared the suffix's flat slice is `01 62 c0 0c ..`, not the
   wire form: it is no longer == to the flat name although name_cmp says Equal *)
Theorem parent_clearing_flag_refuted :
  let m := [0;0;0;0;0;0;0;0;0;0;0;0; 3;99;111;109;0; 1;98;192;12; 1;97;192;17; 0;0;0;0;0] in
  let com := NFlat (wire_abs [[99;111;109]]) in
  exists p p1 q, parse_ref m 21 (mlen m) = Ok p /\ parent_gen false m p = Ok (Some p1) /\
    parent_gen false m p1 = Ok (Some q) /\ pn_compressed q = false /\
    m_name_eq (NParsed m q) com = Ok false /\ m_name_cmp (NParsed m q) com = Ok Eq /\
    m_name_hash (NParsed m q) = m_name_hash com /\
    (exists q', parent_gen true m p1 = Ok (Some q') /\ m_name_eq (NParsed m q') com = Ok true).
Proof.
  exists (mkPName 21 9 true 25), (mkPName 23 7 true 25), (mkPName 19 5 false 25).
  split; [vm_compute; reflexivity|]. split; [vm_compute; reflexivity|]. split; [vm_compute; reflexivity|].
  split; [reflexivity|]. split; [vm_compute; reflexivity|]. split; [vm_compute; reflexivity|].
  split; [vm_compute; reflexivity|].
  exists (mkPName 19 5 true 25). split; vm_compute; reflexivity.
Qed.

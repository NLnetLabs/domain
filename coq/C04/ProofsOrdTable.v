(* C04 proofs: the Ord / PartialOrd / CanonicalOrd arms of every record type of
   the T1 tables (rd_table: struct kinds; rd_ord_table: the comparison mode of
   every step of the three impls).  A type whose partial_cmp compares a Serial
   / Timestamp in serial arithmetic, a name in another order than Ord, or a
   salt without the length makes rd_ord_table_ok fail. *)
From Coq Require Import NArith Arith List Bool Lia.
From DV Require Import Base.Lex Base.Names C04.Gen C04.Model
  C04.ProofsLabel C04.ProofsData C04.ProofsTyped.
Import ListNotations.
Local Open Scope N_scope.

(* modes that order a field of kind k in a way compatible with its == *)
Definition mode_ok (k mode : N) : bool :=
  if (k =? 1) || (k =? 2) || (k =? 3) then mode =? 1
  else if (k =? 4) || (k =? 5) then (mode =? 3) || (mode =? 4)
  else if k =? 6 then mode =? 6
  else if (k =? 7) || (k =? 9) then mode =? 8
  else if (k =? 8) || (k =? 13) then (mode =? 7) || (mode =? 8)
  else if (k =? 10) || (k =? 11) then mode =? 8
  else if k =? 12 then mode =? 1
  else false.
(* the mode CanonicalOrd must use: the octet order of the canonical encoding *)
Definition canonical_mode (k : N) : N :=
  if (k =? 1) || (k =? 2) || (k =? 3) then 1 else if k =? 4 then 4 else if k =? 5 then 5
  else if (k =? 6) || (k =? 8) || (k =? 13) then 7 else if k =? 12 then 1 else 8.

Fixpoint steps_eqb (a b : list (N * N)) : bool :=
  match a, b with
  | [], [] => true
  | (i, m) :: a', (j, n) :: b' => (i =? j) && (m =? n) && steps_eqb a' b'
  | _, _ => false
  end.

Definition orow_ok (kinds : list N) (r : ord_row) : bool :=
  let n := iota (length kinds) in
  steps_eqb (orow_partial r) (orow_ord r) &&
  nlist_eqb (map fst (orow_ord r)) n && nlist_eqb (map fst (orow_canonical r)) n &&
  nlist_eqb (map snd (orow_canonical r)) (map canonical_mode kinds) &&
  forallb (fun km => mode_ok (fst km) (snd km)) (combine kinds (map snd (orow_ord r))).

Lemma rd_ord_table_ok :
  nlist_eqb (map fst rd_ord_table) (map fst rd_table) = true /\
  forallb (fun cr => match rd_lookup rd_table (fst cr) with
                     | Some r => orow_ok (row_kinds r) (snd cr)
                     | None => false
                     end) rd_ord_table = true.
Proof. split; vm_compute; reflexivity. Qed.

Lemma steps_eqb_eq a b : steps_eqb a b = true -> a = b.
Proof.
  revert b; induction a as [|[i m] a IH]; intros [|[j n] b] H; cbn in H; try discriminate; [reflexivity|].
  apply andb_true_iff in H as [H H3]. apply andb_true_iff in H as [H1 H2].
  apply N.eqb_eq in H1, H2. subst. f_equal. apply IH. exact H3.
Qed.

Lemma orow_ok_spec kinds r : orow_ok kinds r = true ->
  orow_partial r = orow_ord r /\ map fst (orow_ord r) = iota (length kinds) /\
  forallb (fun km => mode_ok (fst km) (snd km)) (combine kinds (map snd (orow_ord r))) = true.
Proof.
  unfold orow_ok. rewrite !andb_true_iff. intros [[[[Hp Ho] _] _] Hm].
  split; [apply steps_eqb_eq, Hp|]. split; [apply nlist_eqb_eq, Ho|exact Hm].
Qed.

Lemma ord_lookup_in t code r : ord_lookup t code = Some r -> In (code, r) t.
Proof.
  induction t as [|[c r'] t IH]; cbn [ord_lookup]; [discriminate|].
  destruct (N.eqb_spec c code) as [->|_]; intros H; [inversion H; subst; left; reflexivity|right; auto].
Qed.

Lemma ord_lookup_ok code r : ord_lookup rd_ord_table code = Some r ->
  exists row, rd_lookup rd_table code = Some row /\ orow_ok (row_kinds row) r = true.
Proof.
  intros H. apply ord_lookup_in in H. destruct rd_ord_table_ok as [_ T]. rewrite forallb_forall in T.
  specialize (T _ H). cbn [fst snd] in T. destruct (rd_lookup rd_table code) as [row|]; [|discriminate].
  exists row. auto.
Qed.

Lemma ord_lookup_same_keys (t : list (N * rd_row)) code row : rd_lookup t code = Some row ->
  forall ot, map fst ot = map fst t -> exists r, ord_lookup ot code = Some r.
Proof.
  induction t as [|[c r] t IH]; intros L [|[c' r'] ot] Hc; try discriminate.
  injection Hc as -> Hc. cbn [rd_lookup] in L. cbn [ord_lookup]. destruct (c =? code); eauto.
Qed.

Theorem rd_partial_is_cmp code a b : c04_rd_partial code a b = c04_rd_cmp code a b.
Proof.
  unfold c04_rd_partial, c04_rd_cmp. destruct (ord_lookup rd_ord_table code) as [r|] eqn:L; [|reflexivity].
  destruct (ord_lookup_ok _ _ L) as [row [_ K]]. apply orow_ok_spec in K as [-> _]. reflexivity.
Qed.

(* one step: every admissible mode of every kind is one of six comparisons of
   keys, each Equal exactly when the == of that key holds *)

Lemma num_cmp_eq a b : (a ?= b) = Eq <-> (a =? b) = true.
Proof. rewrite N.compare_eq_iff, N.eqb_eq. reflexivity. Qed.

Lemma lex_cmp_eqb x y : lex_cmp x y = Eq <-> bytes_eqb x y = true.
Proof. rewrite lex_cmp_eq, bytes_eqb_eq. reflexivity. Qed.

Lemma lenfirst_eqb x y : then_cmp (len_cmp x y) (lex_cmp x y) = Eq <-> bytes_eqb x y = true.
Proof.
  rewrite <- m_charstr_canonical_unfold, bytes_eqb_eq. apply (proj1 (charstr_canonical_total x y [] Eq)).
Qed.

Lemma lc_name_eq x y : valid_abs x -> valid_abs y ->
  lex_cmp (wire_abs (canon x)) (wire_abs (canon y)) = Eq <-> name_eqb x y = true.
Proof.
  intros Vx Vy. rewrite lex_cmp_eq, name_eqb_spec. split; [|intros ->; reflexivity].
  apply wire_abs_inj.
Qed.

Lemma step_cmp_spec mode x y : mode_ok (fv_kind x) mode = true -> fv_kind y = fv_kind x ->
  fv_ok x -> fv_ok y ->
  exists c, step_cmp mode x y = Some c /\ (c = Eq <-> fv_eq x y = true).
Proof.
  intros M K Ox Oy.
  destruct x; destruct y; try discriminate K; cbn in M;
    repeat (apply orb_true_iff in M as [M|M]); apply N.eqb_eq in M; subst mode;
    cbn [step_cmp N.eqb Pos.eqb fv_num fv_name fv_octs fv_eq]; eexists; (split; [reflexivity|]);
    auto using num_cmp_eq, name_cmp_eq_iff, lc_name_eq, charstr_cmp_eq_iff, lex_cmp_eqb, lenfirst_eqb.
Qed.

Fixpoint chain_zip (modes : list N) (a b : list fval) : option comparison :=
  match modes, a, b with
  | [], _, _ => Some Eq
  | m :: ms, x :: a', y :: b' =>
      match step_cmp m x y with
      | Some Eq => chain_zip ms a' b'
      | r => r
      end
  | _, _, _ => None
  end.

Lemma chain_opt_iota steps : forall pa pb a b,
  length pa = length pb -> map fst steps = map N.of_nat (seq (length pa) (length steps)) ->
  chain_opt steps (pa ++ a) (pb ++ b) = chain_zip (map snd steps) a b.
Proof.
  induction steps as [|[i m] steps IH]; intros pa pb a b Hl Hi; [reflexivity|].
  cbn [map length seq fst] in Hi. injection Hi as Hi1 Hi2. subst i. cbn [chain_opt map snd chain_zip].
  rewrite Nat2N.id. rewrite (nth_error_app2 pa a) by lia. rewrite Nat.sub_diag.
  rewrite (nth_error_app2 pb b) by lia. rewrite Hl, Nat.sub_diag.
  destruct a as [|x a]; destruct b as [|y b]; cbn [nth_error]; try reflexivity.
  destruct (step_cmp m x y) as [[| |]|]; try reflexivity.
  specialize (IH (pa ++ [x]) (pb ++ [y]) a b). rewrite <- !app_assoc in IH. cbn [app] in IH.
  apply IH; [rewrite !app_length; cbn; lia|]. rewrite app_length. cbn [length].
  replace (length pa + 1)%nat with (S (length pa)) by lia. exact Hi2.
Qed.

Lemma chain_zip_spec modes : forall a b,
  map fv_kind a = map fv_kind b -> length modes = length a ->
  forallb (fun km => mode_ok (fst km) (snd km)) (combine (map fv_kind a) modes) = true ->
  Forall fv_ok a -> Forall fv_ok b ->
  exists c, chain_zip modes a b = Some c /\ (c = Eq <-> all2 fv_eq a b = true).
Proof.
  induction modes as [|m ms IH]; intros a b K L M Oa Ob.
  - destruct a; [|discriminate]. destruct b; [|discriminate]. exists Eq. split; [reflexivity|]. cbn. tauto.
  - destruct a as [|x a]; [discriminate|]. destruct b as [|y b]; [discriminate|].
    cbn [map] in K. injection K as K1 K2. cbn [map combine forallb fst snd] in M.
    apply andb_true_iff in M as [M1 M2]. inversion Oa; subst. inversion Ob; subst.
    destruct (step_cmp_spec m x y M1 (eq_sym K1)) as [c [Hc He]]; try assumption.
    cbn [chain_zip all2]. rewrite Hc.
    destruct (IH a b K2 ltac:(cbn in L; lia) M2) as [c' [Hc' He']]; try assumption.
    destruct c.
    + exists c'. split; [exact Hc'|]. rewrite andb_true_iff, <- He', <- He. tauto.
    + exists Lt. split; [reflexivity|]. rewrite andb_true_iff, <- He. split; [discriminate|intros [E _]; discriminate].
    + exists Gt. split; [reflexivity|]. rewrite andb_true_iff, <- He. split; [discriminate|intros [E _]; discriminate].
Qed.

(* cmp (hence partial_cmp) is total on values of the type and is Equal
   exactly when == holds *)
Theorem rd_cmp_eq_iff code row a b : rd_lookup rd_table code = Some row ->
  map fv_kind a = row_kinds row -> map fv_kind b = row_kinds row -> Forall fv_ok a -> Forall fv_ok b ->
  exists c, c04_rd_cmp code a b = Some c /\ c04_rd_partial code a b = Some c /\
            (c = Eq <-> rd_eq (row_eq row) a b = true).
Proof.
  intros L Ka Kb Oa Ob.
  destruct (ord_lookup_same_keys _ _ _ L rd_ord_table (nlist_eqb_eq _ _ (proj1 rd_ord_table_ok))) as [r Lo].
  destruct (ord_lookup_ok _ _ Lo) as [row' [L' K]]. rewrite L in L'. inversion L'; subst row'.
  apply orow_ok_spec in K as (_ & Hidx & Hm).
  rewrite rd_partial_is_cmp. unfold c04_rd_cmp. rewrite Lo.
  assert (Hlen : length (orow_ord r) = length a).
  { apply (f_equal (@length N)) in Hidx. unfold iota in Hidx. rewrite !map_length, seq_length in Hidx.
    rewrite <- Ka, map_length in Hidx. exact Hidx. }
  pose proof (chain_opt_iota (orow_ord r) [] [] a b eq_refl) as Hz. cbn [app length] in Hz.
  rewrite Hz by (rewrite Hidx; unfold iota; rewrite <- Ka, map_length, Hlen; reflexivity).
  destruct (chain_zip_spec (map snd (orow_ord r)) a b) as [c [Hc He]]; try assumption.
  - congruence.
  - rewrite map_length. exact Hlen.
  - rewrite Ka. exact Hm.
  - exists c. split; [exact Hc|]. split; [exact Hc|].
    destruct (row_ok_spec row (rd_lookup_ok _ _ L)) as (-> & _). unfold rd_eq.
    rewrite (pick_row row a Ka), (pick_row row b Kb). exact He.
Qed.

Lemma record_header_partial_fields_ok :
  record_partial_fields = record_cmp_fields /\ header_partial_fields = header_cmp_fields /\
  record_cmp_fields = record_eq_fields.
Proof. repeat split; reflexivity. Qed.

Theorem record_partial_is_cmp code oa ca a ob cb b :
  c04_record_partial code oa ca a ob cb b = c04_record_cmp code oa ca a ob cb b.
Proof.
  unfold c04_record_partial, c04_record_cmp. rewrite rd_partial_is_cmp.
  destruct record_header_partial_fields_ok as [-> _]. reflexivity.
Qed.

Theorem record_cmp_eq_iff code row oa ca a ob cb b : rd_lookup rd_table code = Some row ->
  map fv_kind a = row_kinds row -> map fv_kind b = row_kinds row -> Forall fv_ok a -> Forall fv_ok b ->
  exists c, c04_record_cmp code oa ca a ob cb b = Some c /\
            (c = Eq <-> c04_record_eq code oa ca a ob cb b = true).
Proof.
  intros L Ka Kb Oa Ob. destruct (rd_cmp_eq_iff code row a b L Ka Kb Oa Ob) as [c [Hc [_ He]]].
  unfold c04_record_cmp, c04_record_eq, c04_rd_eq. rewrite L, Hc.
  unfold record_cmp_fields, record_eq_fields. cbn [rec_chain rec_cmp_step rec_eq_step forallb N.eqb Pos.eqb].
  exists (then_cmp (name_cmp oa ob) (then_cmp (ca ?= cb) c)). split.
  - destruct (name_cmp oa ob), (ca ?= cb), c; reflexivity.
  - rewrite !then_cmp_eq, !andb_true_iff, name_cmp_eq_iff, num_cmp_eq, He. tauto.
Qed.

Theorem header_partial_is_cmp a b : hdr_chain header_partial_fields a b = m_header_cmp a b.
Proof. unfold m_header_cmp. destruct record_header_partial_fields_ok as [_ [-> _]]. reflexivity. Qed.

(* what the defect class looks like in the table: ZONEMD before the repair
   compared its serial in serial number arithmetic in partial_cmp only *)
Example orow_ok_rejects_serial_arith :
  orow_ok [3; 1; 1; 7] ([(0, 1); (1, 1); (2, 1); (3, 8)], [(0, 2); (1, 1); (2, 1); (3, 8)],
                        [(0, 1); (1, 1); (2, 1); (3, 8)]) = false /\
  chain_opt [(0, 2); (1, 1)] [VU32 0; VU8 1] [VU32 2147483648; VU8 1] = None /\
  chain_opt [(0, 1); (1, 1)] [VU32 0; VU8 1] [VU32 2147483648; VU8 1] = Some Lt /\
  (* NSEC3 before the repair: salt as plain octets in partial_cmp, length first in cmp *)
  orow_ok [1; 1; 2; 8] ([(0, 1); (1, 1); (2, 1); (3, 7)], [(0, 1); (1, 1); (2, 1); (3, 8)],
                        [(0, 1); (1, 1); (2, 1); (3, 7)]) = false.
Proof. vm_compute. auto. Qed.

Example ord_table_example :
  c04_rd_cmp 15 [VU16 10; VNameLc [[98]]] [VU16 10; VNameLc [[97;97]]] = Some Gt /\
  c04_rd_ccmp_steps 15 [VU16 10; VNameLc [[98]]] [VU16 10; VNameLc [[97;97]]] = Some Lt /\
  c04_rd_partial 46 [VU16 1; VU8 8; VU8 2; VU32 0; VU32 0; VU32 2147483649; VU16 5; VNameLc [[97]]; VOcts [1]]
                    [VU16 1; VU8 8; VU8 2; VU32 0; VU32 0; VU32 0; VU16 5; VNameLc [[97]]; VOcts [1]] = Some Gt.
Proof. vm_compute. auto. Qed.

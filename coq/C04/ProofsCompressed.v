(* C04 proofs: every ParsedName the parser returns denotes a valid name.  With
   C01's parse_ref_walk: a ParsedName flagged `compressed = false` is one
   contiguous run of labels, so its as_flat_slice is the wire form of exactly
   the labels its iterator yields. *)
From Coq Require Import NArith List Lia.
From DV Require Import Base.Outcome Base.Bytes Base.Lex Base.Names Base.PName C01.Proofs
  C04.Gen C04.Model C04.ProofsIter C04.ProofsRepr C04.ProofsParsed C04.ProofsEmbed.
Import ListNotations.
Local Open Scope N_scope.

(* labels laid out one after the other from q, ending with the root octet *)
Inductive flat_at (m : bytes) : N -> name -> Prop :=
| fa_root q : get m q = Some 0 -> flat_at m q []
| fa_label q l ls : get m q = Some l -> 1 <= l -> l <= 63 -> q + 1 + l <= mlen m ->
    flat_at m (q + 1 + l) ls -> flat_at m q (slice m (q + 1) (q + 1 + l) :: ls).

Lemma parse_labels_flat_at : forall fuel m lim,
  lim <= mlen m ->
  (forall cur nl start c e p, nl <> 0 ->
     parse_labels fuel m lim cur nl start c e = Ok p -> pn_compressed p = false ->
     c = false /\ pn_pos p = start /\ exists ls, flat_at m cur ls) /\
  (forall cur c e p,
     parse_labels fuel m lim cur 0 cur c e = Ok p -> pn_compressed p = false ->
     exists ls, flat_at m (pn_pos p) ls).
Proof.
  induction fuel as [|fuel IH]; intros m lim Hl; (split; [intros cur nl start c e p Hnl H Hc | intros cur c e p H Hc]);
    try discriminate; cbn [parse_labels] in H;
    pose proof (ltp_spec m cur lim) as Hs;
    (destruct (label_type_parse m cur lim) as [[[b|ptr] cur']| | |]; try discriminate);
    destruct (IH m lim Hl) as [IH1 IH2].
  - (* nl <> 0, normal *)
    destruct Hs as (Hlt & Hb & Hle & ->). destruct (N.eqb_spec b 0) as [Hb0|Hb0].
    + inversion H; subst p b. cbn [pn_compressed pn_pos] in *. repeat split; auto.
      exists []. constructor. exact Hb.
    + destruct (N.ltb_spec (lim - (cur + 1)) b) as [Hs|Hs]; [discriminate|].
      destruct (N.leb_spec 255 (nl + b + 1)) as [H255|H255]; [discriminate|].
      assert (Hnz : nl + b + 1 <> 0) by lia.
      destruct (IH1 _ _ _ _ _ _ Hnz H Hc) as [Hcf [Hpos [ls Hf]]].
      repeat split; auto. exists (slice m (cur + 1) (cur + 1 + b) :: ls).
      apply fa_label; try assumption; lia.
  - (* nl <> 0, pointer: the flag becomes true *)
    destruct (hops (S (S (N.to_nat ptr))) m lim ptr cur') as [tgt| | |]; cbn [bind] in H; try discriminate.
    destruct (N.eqb_spec nl 0) as [Hz|Hz]; [contradiction|].
    destruct (IH1 _ _ _ _ _ _ Hz H Hc) as [Hcf _]. discriminate.
  - (* nl = 0, normal *)
    destruct Hs as (Hlt & Hb & Hle & ->). destruct (N.eqb_spec b 0) as [Hb0|Hb0].
    + inversion H; subst p b. cbn [pn_pos]. exists []. constructor. exact Hb.
    + destruct (N.ltb_spec (lim - (cur + 1)) b) as [Hs|Hs]; [discriminate|].
      destruct (N.leb_spec 255 (0 + b + 1)) as [H255|H255]; [discriminate|].
      assert (Hnz : 0 + b + 1 <> 0) by lia.
      destruct (IH1 _ _ _ _ _ _ Hnz H Hc) as [Hcf [Hpos [ls Hf]]].
      rewrite Hpos. exists (slice m (cur + 1) (cur + 1 + b) :: ls).
      apply fa_label; try assumption; lia.
  - (* nl = 0, pointer: the name starts at the target *)
    destruct (hops (S (S (N.to_nat ptr))) m lim ptr cur') as [tgt| | |]; cbn [bind] in H; try discriminate.
    cbn [N.eqb] in H. eapply IH2; eauto.
Qed.

Lemma parse_ref_flat_at m pos lim p : lim <= mlen m ->
  parse_ref m pos lim = Ok p -> pn_compressed p = false -> exists ls, flat_at m (pn_pos p) ls.
Proof.
  intros Hl H Hc. rewrite parse_ref_eq in H.
  destruct (parse_labels_flat_at PARSE_FUEL m lim Hl) as [_ L2]. eapply L2; eauto.
Qed.

(* a contiguous run is walked without taking any pointer: the labels agree *)
Lemma resolve_normal m q t b : resolve m q t -> get m q = Some b -> b <= 63 -> t = q.
Proof.
  intros Hr Hg Hb. inversion Hr as [? ? ? ? |? b' ? ? Hg' H63]; subst; [reflexivity|].
  rewrite Hg in Hg'. inversion Hg'; subst. lia.
Qed.

Lemma flat_at_walk m q ls : flat_at m q ls -> forall n, walk m q n -> n = ls.
Proof.
  induction 1 as [q Hg | q l ls Hg H1 H63 Hlen Hf IH]; intros n Hw.
  - inversion Hw as [? t Hr Ht | ? t l' ls' Hr Ht Hl1]; subst; [reflexivity|].
    rewrite (resolve_normal _ _ _ _ Hr Hg) in Ht by lia. rewrite Hg in Ht. inversion Ht; subst. lia.
  - inversion Hw as [? t Hr Ht | ? t l' ls' Hr Ht Hl1 Hl63 Hlen' Hw']; subst.
    + rewrite (resolve_normal _ _ _ _ Hr Hg) in Ht by lia. rewrite Hg in Ht. inversion Ht; subst. lia.
    + assert (t = q) by (eapply resolve_normal; eauto). subst t.
      rewrite Hg in Ht. inversion Ht; subst l'. f_equal. apply IH. exact Hw'.
Qed.

(* ... and its octets are the wire form *)
Lemma firstn_add {A} i j (l : list A) : firstn (i + j) l = firstn i l ++ firstn j (skipn i l).
Proof.
  revert l; induction i as [|i IH]; intros l; [reflexivity|].
  destruct l as [|x l]; cbn [plus firstn skipn app]; [destruct j; reflexivity|]. f_equal. apply IH.
Qed.

Lemma slice_split m a b c : a <= b -> b <= c -> slice m a c = slice m a b ++ slice m b c.
Proof.
  intros H1 H2. unfold slice.
  replace (N.to_nat (c - a)) with (N.to_nat (b - a) + N.to_nat (c - b))%nat by lia.
  rewrite firstn_add, skipn_add.
  replace (N.to_nat a + N.to_nat (b - a))%nat with (N.to_nat b) by lia. reflexivity.
Qed.

Lemma slice_one m q b : get m q = Some b -> slice m q (q + 1) = [b].
Proof.
  unfold get, slice. intros H. replace (N.to_nat (q + 1 - q)) with 1%nat by lia.
  revert H. generalize (N.to_nat q). intros k. revert m. induction k as [|k IH]; intros [|x m] H; cbn in *; try discriminate.
  - inversion H. reflexivity.
  - apply IH. exact H.
Qed.

Lemma flat_at_slice m q ls : flat_at m q ls ->
  q + N.of_nat (wire_len ls) + 1 <= mlen m /\
  slice m q (q + N.of_nat (wire_len ls) + 1) = wire_abs ls.
Proof.
  induction 1 as [q Hg | q l ls Hg H1 H63 Hlen Hf [IH1 IH2]].
  - cbn [wire_len]. apply get_lt in Hg as Hlt. split; [lia|].
    replace (q + N.of_nat 0 + 1) with (q + 1) by lia. apply slice_one. exact Hg.
  - cbn [wire_len]. rewrite slice_length by lia.
    replace (q + N.of_nat (S (N.to_nat (q + 1 + l - (q + 1))) + wire_len ls) + 1)
      with (q + 1 + l + N.of_nat (wire_len ls) + 1) by lia.
    split; [exact IH1|].
    rewrite (slice_split m q (q + 1)) by lia. rewrite (slice_one m q l Hg).
    rewrite (slice_split m (q + 1) (q + 1 + l)) by lia. rewrite IH2.
    rewrite wire_abs_cons'. unfold wire_label.
    rewrite slice_length by lia. replace (N.of_nat (N.to_nat (q + 1 + l - (q + 1)))) with l by lia.
    reflexivity.
Qed.

Lemma parsed_inv m pos lim p : parse_ref m pos lim = Ok p -> lim <= mlen m -> wf_bytes m ->
  exists n, valid_abs n /\ pname_labels m p = Ok (n, true) /\
    plabels m (pn_pos p) (pn_len p) (n ++ [[]]) /\ flat_ok m p (n ++ [[]]).
Proof.
  intros H Hl Hw.
  destruct (parse_ref_walk m pos lim p H Hl) as [n [Hwalk [Hlen H255]]].
  assert (Hv : Forall valid_label n) by (eapply walk_valid; eauto).
  assert (Hp : pname_labels m p = Ok (n, true)) by (apply pname_labels_walk; assumption).
  exists n. split; [split; [exact Hv|lia]|]. split; [exact Hp|]. split.
  - pose proof Hp as Hq. rewrite pname_labels_unfold in Hq. apply iter_labels_plabels in Hq.
    destruct Hq as [ls [Hls Hpl]]. cbn [rev app] in Hls. subst ls. exact Hpl.
  - intros Hc. destruct (parse_ref_flat_at m pos lim p Hl H Hc) as [ls Hf].
    assert (n = ls) by (eapply flat_at_walk; eauto). subst ls.
    destruct (flat_at_slice _ _ _ Hf) as [Hr Hs].
    rewrite wire_labels_abs. rewrite Hlen.
    replace (pn_pos p + (N.of_nat (wire_len n) + 1)) with (pn_pos p + N.of_nat (wire_len n) + 1) by lia.
    split; assumption.
Qed.

Theorem parsed_denotes m pos lim p : parse_ref m pos lim = Ok p -> lim <= mlen m -> wf_bytes m ->
  exists n, valid_abs n /\ pname_labels m p = Ok (n, true) /\ denotes (NParsed m p) (n ++ [[]]).
Proof.
  intros H Hl Hw. destruct (parsed_inv m pos lim p H Hl Hw) as [n [Vn [Hp [Hpl Hf]]]].
  exists n. split; [exact Vn|]. split; [exact Hp|]. apply denotes_parsed; assumption.
Qed.

Theorem parsed_parsed_ops m1 pos1 lim1 p1 m2 pos2 lim2 p2 :
  parse_ref m1 pos1 lim1 = Ok p1 -> lim1 <= mlen m1 -> wf_bytes m1 ->
  parse_ref m2 pos2 lim2 = Ok p2 -> lim2 <= mlen m2 -> wf_bytes m2 ->
  exists a b, pname_labels m1 p1 = Ok (a, true) /\ pname_labels m2 p2 = Ok (b, true) /\
    m_name_eq (NParsed m1 p1) (NParsed m2 p2) = Ok (name_eqb a b) /\
    m_name_cmp (NParsed m1 p1) (NParsed m2 p2) = Ok (name_cmp a b) /\
    m_name_hash (NParsed m1 p1) = Ok (name_hash_feed a) /\
    m_composed_cmp (NParsed m1 p1) (NParsed m2 p2) = Ok (lex_cmp (wire_abs a) (wire_abs b)) /\
    m_lc_composed_cmp (NParsed m1 p1) (NParsed m2 p2) = Ok (lex_cmp (wire_abs (canon a)) (wire_abs (canon b))).
Proof.
  intros H1 L1 W1 H2 L2 W2.
  destruct (parsed_denotes _ _ _ _ H1 L1 W1) as [a [Va [Pa Da]]].
  destruct (parsed_denotes _ _ _ _ H2 L2 W2) as [b [Vb [Pb Db]]].
  exists a, b. repeat split; auto with name_repr.
Qed.

Theorem parsed_any_ops m pos lim p rb b :
  parse_ref m pos lim = Ok p -> lim <= mlen m -> wf_bytes m -> valid_abs b -> denotes rb (b ++ [[]]) ->
  exists a, pname_labels m p = Ok (a, true) /\ valid_abs a /\
    m_name_eq (NParsed m p) rb = Ok (name_eqb a b) /\ m_name_eq rb (NParsed m p) = Ok (name_eqb b a) /\
    m_name_cmp (NParsed m p) rb = Ok (name_cmp a b) /\ m_name_cmp rb (NParsed m p) = Ok (name_cmp b a) /\
    m_name_hash (NParsed m p) = Ok (name_hash_feed a).
Proof.
  intros H L W Vb Db. destruct (parsed_denotes _ _ _ _ H L W) as [a [Va [Pa Da]]].
  exists a. repeat split; auto with name_repr; apply Va.
Qed.

Example compressed_example :
  let m := [0;0;0;0;0;0;0;0;0;0;0;0; 1;98;1;99;0; 1;65;192;12; 192;17] in
  parse_ref m 21 (mlen m) = Ok (mkPName 17 7 true 23) /\
  parse_ref m 12 (mlen m) = Ok (mkPName 12 5 false 17) /\
  m_name_cmp (NParsed m (mkPName 17 7 true 23)) (NParsed m (mkPName 12 5 false 17)) = Ok Gt.
Proof. vm_compute. repeat split; reflexivity. Qed.

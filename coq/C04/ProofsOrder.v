(* C04 proofs: comparison chains built with then_cmp from well-behaved component
   orders are well-behaved; the canonical order of records is a total preorder
   whose equivalence is record_canonical_eq_iff. *)
From Coq Require Import NArith List Bool Lia.
From DV Require Import Base.Bytes Base.Lex Base.Names C04.Gen C04.Model
  C04.ProofsLabel C04.ProofsIter C04.ProofsData.
Import ListNotations.
Local Open Scope N_scope.

Definition good {A} (f : A -> A -> comparison) : Prop :=
  (forall a b c o, f a b = o -> f b c = o -> f a c = o) /\
  (forall a b c, f a b = Eq -> f a c = f b c) /\
  (forall a b c, f b c = Eq -> f a b = f a c).

Lemma good_then {A} (f g : A -> A -> comparison) : good f -> good g ->
  good (fun a b => then_cmp (f a b) (g a b)).
Proof.
  intros [Tf [Lf Rf]] [Tg [Lg Rg]]. repeat split.
  - intros a b c o H1 H2. destruct (f a b) eqn:E1; cbn [then_cmp] in H1.
    + rewrite (Lf a b c E1). destruct (f b c) eqn:E2; cbn [then_cmp] in *; try assumption.
      eapply Tg; eauto.
    + subst o. destruct (f b c) eqn:E2; cbn [then_cmp] in H2.
      * rewrite <- (Rf a b c E2), E1. reflexivity.
      * rewrite (Tf a b c Lt E1 E2). reflexivity.
      * discriminate.
    + subst o. destruct (f b c) eqn:E2; cbn [then_cmp] in H2.
      * rewrite <- (Rf a b c E2), E1. reflexivity.
      * discriminate.
      * rewrite (Tf a b c Gt E1 E2). reflexivity.
  - intros a b c H. destruct (f a b) eqn:E1; cbn [then_cmp] in H; try discriminate.
    rewrite (Lf a b c E1), (Lg a b c H). reflexivity.
  - intros a b c H. destruct (f b c) eqn:E1; cbn [then_cmp] in H; try discriminate.
    rewrite (Rf a b c E1), (Rg a b c H). reflexivity.
Qed.

Lemma good_N {A} (p : A -> N) : good (fun a b => p a ?= p b).
Proof.
  repeat split.
  - intros a b c [] H1 H2.
    + apply N.compare_eq in H1, H2. rewrite H1, H2. apply N.compare_refl.
    + rewrite N.compare_lt_iff in *. eapply N.lt_trans; eassumption.
    + rewrite N.compare_gt_iff in *. eapply N.lt_trans; eassumption.
  - intros a b c H. apply N.compare_eq in H. rewrite H. reflexivity.
  - intros a b c H. apply N.compare_eq in H. rewrite H. reflexivity.
Qed.

Lemma good_lex {A} (p : A -> bytes) : good (fun a b => lex_cmp (p a) (p b)).
Proof.
  repeat split.
  - intros a b c o. apply lex_cmp_trans.
  - intros a b c H. apply lex_cmp_eq in H. rewrite H. reflexivity.
  - intros a b c H. apply lex_cmp_eq in H. rewrite H. reflexivity.
Qed.

Lemma good_name {A} (p : A -> name) : good (fun a b => name_cmp (p a) (p b)).
Proof.
  repeat split.
  - intros a b c o. apply name_cmp_trans.
  - intros a b c H. apply name_cmp_eq_iff, name_eqb_spec in H.
    rewrite (name_cmp_canon (p a)), (name_cmp_canon (p b)), H. reflexivity.
  - intros a b c H. apply name_cmp_eq_iff, name_eqb_spec in H.
    rewrite (name_cmp_canon (p a) (p b)), (name_cmp_canon (p a) (p c)), H. reflexivity.
Qed.

Lemma record_canonical_good : good m_record_canonical_cmp.
Proof.
  assert (G : good (fun a b : crec => then_cmp (r_class a ?= r_class b)
            (then_cmp (name_cmp (r_owner a) (r_owner b))
              (then_cmp (r_rtype a ?= r_rtype b) (lex_cmp (r_rdata a) (r_rdata b)))))).
  { apply good_then; [apply good_N|]. apply good_then; [apply good_name|].
    apply good_then; [apply good_N|apply good_lex]. }
  destruct G as [T [L R]]. repeat split.
  - intros a b c o. rewrite !record_canonical_unfold. apply T.
  - intros a b c. rewrite !record_canonical_unfold. apply L.
  - intros a b c. rewrite !record_canonical_unfold. apply R.
Qed.

Theorem record_canonical_trans a b c o :
  m_record_canonical_cmp a b = o -> m_record_canonical_cmp b c = o -> m_record_canonical_cmp a c = o.
Proof. apply record_canonical_good. Qed.

Theorem record_canonical_eq_subst a b c :
  m_record_canonical_cmp a b = Eq -> m_record_canonical_cmp a c = m_record_canonical_cmp b c.
Proof. apply record_canonical_good. Qed.

(* PartialOrd must agree with Ord: partial_cmp a b = Some (cmp a b) *)
Theorem u32_partial_agrees a b : u32_partial_gen false a b = Some (a ?= b).
Proof. reflexivity. Qed.

(* serial number arithmetic: undefined at distance 2^31, reversed beyond *)
Theorem u32_partial_serial_refuted :
  u32_partial_gen true 0 2147483648 = None /\ u32_partial_gen true 0 2147483649 = Some Gt /\
  (0 ?= 2147483649) = Lt.
Proof. vm_compute. auto. Qed.

Theorem pfx_partial_agrees a b :
  pfx_partial_gen true a b = Some (m_charstr_canonical_cmp a b).
Proof. reflexivity. Qed.

(* plain octet order of salts: 02 vs 01 01 is Greater, canonically (length
   first) Less *)
Theorem pfx_partial_plain_refuted :
  pfx_partial_gen false [2] [1;1] = Some Gt /\ m_charstr_canonical_cmp [2] [1;1] = Lt.
Proof. vm_compute. auto. Qed.

Lemma good_hdr_field f : good (hdr_field_cmp f).
Proof.
  unfold hdr_field_cmp. destruct (f =? 1).
  - apply (good_name h_owner).
  - apply (good_N (hdr_num f)).
Qed.

Lemma good_eq_const {A} : good (fun _ _ : A => Eq).
Proof. repeat split; intros; congruence. Qed.

Lemma good_hdr_chain fs : good (hdr_chain fs).
Proof.
  induction fs as [|f fs IH]; cbn [hdr_chain]; [apply good_eq_const|].
  apply (good_then (hdr_field_cmp f) (hdr_chain fs)); [apply good_hdr_field|exact IH].
Qed.

Theorem header_cmp_trans a b c o : m_header_cmp a b = o -> m_header_cmp b c = o -> m_header_cmp a c = o.
Proof. apply good_hdr_chain. Qed.

Lemma hdr_field_cmp_antisym f a b : hdr_field_cmp f b a = CompOpp (hdr_field_cmp f a b).
Proof. unfold hdr_field_cmp. destruct (f =? 1); [apply name_cmp_antisym|apply N.compare_antisym]. Qed.

Theorem header_cmp_antisym a b : m_header_cmp b a = CompOpp (m_header_cmp a b).
Proof.
  unfold m_header_cmp. induction header_cmp_fields as [|f fs IH]; cbn [hdr_chain]; [reflexivity|].
  rewrite then_cmp_opp, <- hdr_field_cmp_antisym, <- IH. reflexivity.
Qed.

Lemma hdr_field_cmp_eq f a b : hdr_field_cmp f a b = Eq <-> hdr_field_eq f a b = true.
Proof.
  unfold hdr_field_cmp, hdr_field_eq. destruct (f =? 1).
  - apply name_cmp_eq_iff.
  - rewrite N.compare_eq_iff, N.eqb_eq. reflexivity.
Qed.

Lemma hdr_chain_eq fs a b : hdr_chain fs a b = Eq <-> forallb (fun f => hdr_field_eq f a b) fs = true.
Proof.
  induction fs as [|f fs IH]; cbn [hdr_chain forallb]; [split; reflexivity|].
  rewrite andb_true_iff, <- IH, <- hdr_field_cmp_eq. apply then_cmp_eq.
Qed.

(* Ord and Eq of RecordHeader look at the same fields (T1), hence agree *)
Theorem header_cmp_eq_iff a b : m_header_cmp a b = Eq <-> m_header_eqb a b = true.
Proof.
  unfold m_header_cmp, m_header_eqb.
  replace header_eq_fields with header_cmp_fields by reflexivity. apply hdr_chain_eq.
Qed.

(* ParsedRecord ==: an equivalence; it compares the RDATA octets as they stand
   in the message, so the same record with a differently compressed name in
   its RDATA is a different ParsedRecord (by design: see its to_record) *)
Theorem parsed_record_eq_equiv :
  (forall a d, m_parsed_record_eq a d a d = true) /\
  (forall a d b e, m_parsed_record_eq a d b e = m_parsed_record_eq b e a d) /\
  (forall a d b e c f, m_parsed_record_eq a d b e = true -> m_parsed_record_eq b e c f = true ->
     m_parsed_record_eq a d c f = true).
Proof.
  assert (S : forall a d b e, m_parsed_record_eq a d b e = true <-> m_header_cmp a b = Eq /\ d = e).
  { intros. unfold m_parsed_record_eq. rewrite andb_true_iff, header_cmp_eq_iff, bytes_eqb_eq. reflexivity. }
  split; [|split].
  - (* only Equal is its own opposite *)
    intros a d. apply S. pose proof (header_cmp_antisym a a) as H.
    destruct (m_header_cmp a a); try discriminate. auto.
  - intros a d b e. apply eq_true_iff_eq. rewrite !S, (header_cmp_antisym a b).
    destruct (m_header_cmp a b); cbn [CompOpp]; intuition congruence.
  - intros a d b e c f. rewrite !S. intros [H1 ->] [H2 ->]. split; [eapply header_cmp_trans; eassumption|reflexivity].
Qed.

Example parsed_record_eq_is_octetwise :
  let h := mkHdr [[97]] 15 1 0 5 in
  m_parsed_record_eq h [0;10;1;98;0] h [0;10;192;12] = false.
Proof. vm_compute. reflexivity. Qed.

Example order_example :
  m_record_canonical_cmp (mkCrec [[97]] 1 0 1 [1]) (mkCrec [[98]] 1 0 1 [0]) = Lt /\
  m_record_canonical_cmp (mkCrec [[98]] 1 0 1 [0]) (mkCrec [[98]] 1 9 2 [0]) = Lt /\
  m_record_canonical_cmp (mkCrec [[97]] 1 0 1 [1]) (mkCrec [[98]] 1 9 2 [0]) = Lt.
Proof. vm_compute. auto. Qed.

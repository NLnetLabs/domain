(* C10 proofs, part 8: the zone's REAL diff (diff-capture model) fed through
   the DiffFunneler, the batcher, the interpreter and the updater reproduces the
   sender's new content, for good histories. *)
From Coq Require Import NArith List.
From DV Require Import Base.Outcome C10.Gen C10.Model C10.Proofs1 C10.Proofs2 C10.Proofs3
  C10.Proofs5 C10.Proofs6.
Import ListNotations.
Local Open Scope N_scope.

(* a store as a zone; a reported diff as a difference sequence *)
Definition entry_ids (e : N * rrs) : list N := if fst e =? 0 then [] else snd (snd e).
Definition store_ids (st : store) : list N := flat_map entry_ids st.
Definition store_soa (st : store) : option N :=
  match s_get 0 st with Some (_, s :: _) => Some s | _ => None end.
Definition store_zone (st : store) : zone :=
  match store_soa st with Some s => [Soa s] | None => [] end ++ map Other (store_ids st).

(* DiffFunneler::run for one diff: removed SOA, removed RRsets except the SOA,
   added SOA, added RRsets except the SOA *)
Definition funnel (d : store * store) : option diff :=
  match store_soa (fst d), store_soa (snd d) with
  | Some so, Some sn => Some (mkDiff so (store_ids (fst d)) sn (store_ids (snd d)))
  | _, _ => None
  end.

Definition ukeys (st : store) : Prop := NoDup (map fst st).

Lemma s_remove_keys k st x : In x (map fst (s_remove k st)) -> In x (map fst st) /\ x <> k.
Proof.
  induction st as [|[k' v] st IH]; cbn [s_remove map]; [intros []|].
  destruct (N.eqb_spec k' k).
  - intros H. destruct (IH H). split; [right|]; auto.
  - cbn [map In fst]. intros [<-|H]; [split; [left; reflexivity|auto]|].
    destruct (IH H). split; [right|]; auto.
Qed.

Lemma ukeys_remove k st : ukeys st -> ukeys (s_remove k st).
Proof.
  unfold ukeys. induction st as [|[k' v] st IH]; cbn [s_remove map]; [auto|].
  intros H. inversion H as [|? ? Hn Hd]; subst. destruct (k' =? k); [auto|].
  cbn [map fst]. constructor; [|auto]. intros Q. apply s_remove_keys in Q as [Q _]. contradiction.
Qed.

Lemma ukeys_set k v st : ukeys st -> ukeys (s_set k v st).
Proof.
  intros H. unfold ukeys, s_set. cbn [map fst]. constructor; [|apply ukeys_remove; exact H].
  intros Q. apply s_remove_keys in Q as [_ Q]. contradiction.
Qed.

Lemma s_get_in st : ukeys st -> forall k v, s_get k st = Some v <-> In (k, v) st.
Proof.
  unfold ukeys. induction st as [|[k' v'] st IH]; intros U k v; cbn [s_get In].
  - split; [discriminate|intros []].
  - inversion U as [|? ? Hn Hd]; subst. destruct (N.eqb_spec k' k).
    + subst k'. split; [intros E; inversion E; left; reflexivity|].
      intros [E|E]; [inversion E; reflexivity|]. exfalso. apply Hn. apply (in_map fst) in E. exact E.
    + rewrite (IH Hd). split; [auto|]. intros [E|E]; [inversion E; contradiction|exact E].
Qed.

Lemma in_store_ids st : ukeys st -> forall x,
  In x (store_ids st) <-> exists k, k <> 0 /\ In x (rrs_data (s_get k st)).
Proof.
  intros U x. unfold store_ids. rewrite in_flat_map. split.
  - intros [[k v] [He Hx]]. unfold entry_ids in Hx. cbn [fst snd] in Hx.
    destruct (N.eqb_spec k 0); [destruct Hx|]. exists k. split; [auto|].
    apply (s_get_in st U) in He. rewrite He. exact Hx.
  - intros [k [Hk Hx]]. destruct (s_get k st) as [v|] eqn:E; [|destruct Hx].
    exists (k, v). split; [apply (s_get_in st U); exact E|].
    unfold entry_ids. cbn [fst snd]. destruct (N.eqb_spec k 0); [contradiction|exact Hx].
Qed.

Lemma in_store_zone st r : ukeys st ->
  (In r (store_zone st) <->
   match r with
   | Soa s => store_soa st = Some s
   | Other x => exists k, k <> 0 /\ In x (rrs_data (s_get k st))
   end).
Proof.
  intros U. unfold store_zone. rewrite in_app_iff, in_map_iff. destruct r as [s|x].
  - split.
    + intros [H|[y [E _]]]; [|discriminate]. destruct (store_soa st); [|destruct H].
      destruct H as [E|[]]. congruence.
    + intros ->. left. left. reflexivity.
  - rewrite <- (in_store_ids st U). split.
    + intros [H|[y [E H]]]; [destruct (store_soa st); [destruct H as [E|[]]; discriminate|destruct H]|].
      inversion E; subst. exact H.
    + intros H. right. exists x. auto.
Qed.

(* the same record does not occur under two RRsets *)
Definition keyed (key_of : N -> N) (st : store) : Prop :=
  forall k v x, s_get k st = Some v -> In x (snd v) -> key_of x = k.

Lemma first_soa_store_zone st s : store_soa st = Some s -> z_first_soa (store_zone st) = Some s.
Proof.
  intros E. unfold store_zone, z_first_soa. rewrite E. cbn [app filter is_soa].
  destruct (filter is_soa (map Other (store_ids st))); reflexivity.
Qed.

Definition ukeys4 (st : dstate) : Prop :=
  ukeys (ds_pub st) /\ ukeys (ds_work st) /\ ukeys (ds_rem st) /\ ukeys (ds_add st).

Lemma ukeys4_start pub : ukeys pub -> ukeys4 (d_start pub).
Proof. intros U. repeat split; auto; constructor. Qed.

Lemma ukeys4_update k v st : ukeys4 st -> ukeys4 (update_rrset k v st).
Proof.
  intros [U1 [U2 [U3 U4]]].
  destruct (update_rrset_shape k v st) as (r & a & -> & [->|[x ->]] & [->|[y ->]]);
  repeat split; cbn [ds_pub ds_work ds_rem ds_add]; auto using ukeys_set.
Qed.

Lemma ukeys4_step o st : ukeys4 st -> ukeys4 (fst (d_step o st)).
Proof.
  intros U. destruct o; cbn [d_step fst]; try (apply ukeys4_update; exact U).
  - destruct U as [U1 [_ [U3 U4]]]. repeat split; auto. constructor.
  - destruct (is_nil _); [|apply ukeys4_update; exact U].
    destruct U as [U1 [U2 [U3 U4]]]. unfold remove_rrset, ukeys4. destruct (s_get _ (ds_pub st));
    cbn [ds_pub ds_work ds_rem ds_add]; repeat split; auto using ukeys_set, ukeys_remove.
  - apply ukeys4_start. apply U.
  - apply ukeys4_start. apply (ukeys4_update 0 (t, [s]) st U).
Qed.

Lemma ukeys4_run ops : forall st, ukeys4 st -> ukeys4 (fst (d_run ops st)).
Proof.
  induction ops as [|o ops IH]; intros st U; cbn [d_run]; [exact U|].
  apply (ukeys4_step o) in U. destruct (d_step o st) as [st1 r1].
  specialize (IH st1 U). destruct (d_run ops st1). exact IH.
Qed.

(* one commit: the funnelled diff relates the two published zones *)
Lemma commit_diff_rel key_of st rem add d :
  minv st -> ukeys4 st -> keyed key_of (ds_pub st) ->
  snd (d_commit st) = Some (rem, add) -> funnel (rem, add) = Some d ->
  diff_rel d (store_zone (ds_pub st)) (store_zone (ds_work st)) /\
  store_soa (ds_pub st) = Some (d_old d) /\ store_soa (ds_work st) = Some (d_new d) /\
  soa_serial (d_old d) <> soa_serial (d_new d).
Proof.
  intros [Hn [[to [so P0]] [[tn [sn W0]] K]]] [U1 [U2 [U3 U4]]] Ky C F.
  unfold d_commit in C. rewrite P0, W0 in C. cbn [snd] in C.
  destruct (serial_range_invalid (soa_serial so) (soa_serial sn)) eqn:SR; [discriminate|].
  injection C as <- <-.
  unfold funnel, store_soa in F. cbn [fst snd] in F. rewrite !s_get_set_same in F. injection F as <-.
  cbn [d_old d_new d_dels d_adds].
  assert (Sp : store_soa (ds_pub st) = Some so) by (unfold store_soa; rewrite P0; reflexivity).
  assert (Sw : store_soa (ds_work st) = Some sn) by (unfold store_soa; rewrite W0; reflexivity).
  split; [|split; [exact Sp|split; [exact Sw|]]].
  2:{ intros E. unfold serial_range_invalid in SR. rewrite E, N.eqb_refl in SR. discriminate. }
  assert (Ur : ukeys (s_set 0 (to, [so]) (ds_rem st))) by (apply ukeys_set; exact U3).
  assert (Ua : ukeys (s_set 0 (tn, [sn]) (ds_add st))) by (apply ukeys_set; exact U4).
  intros r. rewrite (in_store_zone (ds_work st) r U2). destruct r as [s|x]; cbn [d_new d_adds d_dels].
  - rewrite Sw. split; congruence.
  - rewrite (in_store_ids _ Ua), (in_store_ids _ Ur), (in_store_zone (ds_pub st) (Other x) U1).
    split.
    + intros [k [Hk Hx]]. destruct (K k Hk) as [IR [IA _]].
      destruct (in_dec N.eq_dec x (rrs_data (s_get k (ds_pub st)))) as [Hp|Hp].
      * right. split; [exists k; auto|].
        intros [k' [Hk' Hr]]. rewrite (s_get_set_other 0 k' _ _ Hk') in Hr.
        destruct (K k' Hk') as [IR' _]. apply IR' in Hr as [Hp' Hw'].
        assert (k' = k).
        { destruct (s_get k' (ds_pub st)) as [v'|] eqn:E1; [|destruct Hp'].
          destruct (s_get k (ds_pub st)) as [v|] eqn:E2; [|destruct Hp].
          rewrite <- (Ky k' v' x E1 Hp'), <- (Ky k v x E2 Hp). reflexivity. }
        subst k'. contradiction.
      * left. exists k. split; [auto|]. rewrite (s_get_set_other 0 k _ _ Hk). apply IA. auto.
    + intros [[k [Hk Ha]]|[[k [Hk Hp]] Hnr]].
      * rewrite (s_get_set_other 0 k _ _ Hk) in Ha. destruct (K k Hk) as [_ [IA _]].
        apply IA in Ha as [Hw _]. exists k. auto.
      * exists k. split; [auto|]. destruct (K k Hk) as [IR _].
        destruct (in_dec N.eq_dec x (rrs_data (s_get k (ds_work st)))) as [Hw|Hw]; [exact Hw|].
        exfalso. apply Hnr. exists k. split; [auto|]. rewrite (s_get_set_other 0 k _ _ Hk). apply IR. auto.
Qed.

(* after a good body and update_soa: the state Finished commits from *)
Lemma finish_diff_rel key_of pub body s t ra d :
  minv (d_start pub) -> ukeys pub -> keyed key_of pub -> good_body body (d_start pub) = true ->
  let st1 := fst (d_step (DSoa s t) (fst (d_run body (d_start pub)))) in
  snd (d_commit st1) = Some ra -> funnel ra = Some d ->
  diff_rel d (store_zone pub) (store_zone (ds_work st1)) /\
  store_soa pub = Some (d_old d) /\ store_soa (ds_work st1) = Some (d_new d) /\
  soa_serial (d_old d) <> soa_serial (d_new d) /\ minv st1 /\ ukeys (ds_work st1).
Proof.
  intros M0 Uk Ky G st1 C F.
  assert (M1 : minv st1).
  { apply minv_step; [|reflexivity]. apply minv_run; [exact M0|apply good_body_multi; exact G]. }
  assert (U1 : ukeys4 st1) by (apply ukeys4_step, ukeys4_run, ukeys4_start; exact Uk).
  assert (P1 : ds_pub st1 = pub) by (unfold st1; rewrite ds_pub_step, ds_pub_body; auto).
  destruct ra as [rem add].
  destruct (commit_diff_rel key_of st1 rem add d M1 U1) as [DR [So [Sn Sne]]]; auto.
  { rewrite P1. exact Ky. }
  rewrite P1 in DR, So. destruct U1 as [_ [U _]]. auto 8.
Qed.

Section EndToEnd.
Variable chk : bool.

Theorem real_diff_transfer_identity key_of pub body s t rem add d size limit chunks :
  pub_ok pub = true -> ukeys pub -> keyed key_of pub ->
  good_body body (d_start pub) = true ->
  (* the diff the zone reports for this batch *)
  last (c10_diff pub (body ++ [DFinish s t])) None = Some (rem, add) ->
  funnel (rem, add) = Some d ->
  (forall r1 r2, size r1 + size r2 <= limit) ->
  batch size limit (sender_hard false 251) (ixfr_seq (d_new d) [d]) = Ok chunks ->
  exists us st, run None (sender_msgs 251 chunks) = (us, SDone) /\
    u_apply_all chk us (u_start (store_zone pub)) = Ok st /\ u_fin st = true /\
    zeq (u_visible st) (store_zone (content_after pub (body ++ [DFinish s t]))).
Proof.
  intros Hok Uk Ky G L F Hfit Hb.
  unfold c10_diff, content_after in *.
  rewrite d_run_snoc, d_step_finish, d_step_batch in L |- *. cbn [fst snd d_start ds_work] in L |- *.
  rewrite last_last in L.
  destruct (finish_diff_rel key_of pub body s t _ d (minv_start pub Hok) Uk Ky G L F)
    as [DR [So [Sn [Sne [_ Uw]]]]].
  apply (ixfr_transfer chk (d_new d) [d] (d_old d) (store_zone pub) _ size limit chunks);
    try assumption.
  - discriminate.
  - intros d' [<-|[]] E. apply Sne. rewrite E. reflexivity.
  - eexists. split; [exact DR|intros r; tauto].
  - intros s0. rewrite (in_store_zone _ (Soa s0) Uw), Sn. split; congruence.
  - apply first_soa_store_zone. exact So.
  - cbn. auto.
Qed.

End EndToEnd.

Example real_diff_example :
  let pub := [(0, (3600, [50])); (1, (300, [5; 6]))] in
  let ops := [DDel 1 5 300; DSoa 52 3600; DAdd 1 7 300; DAdd 2 9 60; DFinish 52 3600] in
  option_map (fun d => (d_old d, d_dels d, d_new d, d_adds d))
    (match last (c10_diff pub ops) None with Some ra => funnel ra | None => None end)
  = Some (50, [5], 52, [9; 7]).
Proof. vm_compute. reflexivity. Qed.

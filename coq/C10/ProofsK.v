(* C10 proofs, part K: a message the interpreter refuses in every state (corrupt
   header, unparsable record), at any position of any stream, ends the stream
   with an error; the updates delivered are those before the fault.  Updater:
   what is visible is what was visible at the last commit point. *)
From Coq Require Import NArith List.
From DV Require Import Base.Outcome C10.Gen C10.Model C10.Proofs1 C10.Proofs2.
Import ListNotations.
Local Open Scope N_scope.

(* the message is refused in every interpreter state *)
Definition refused (r : iresult) : Prop :=
  match r with IErr _ => True | IUpd _ (Some _) => True | _ => False end.

Definition rejecting (m : msg) : Prop := forall st, refused (snd (interpret_response st m)).

Lemma run_cut_at_rejecting m : rejecting m -> forall ms1 ms2 st,
  run st (ms1 ++ m :: ms2) = run st (ms1 ++ [m]) /\
  exists e, snd (run st (ms1 ++ m :: ms2)) = SErr e.
Proof.
  intros R ms1 ms2. induction ms1 as [|a ms1 IH]; intros st; cbn [app run].
  - specialize (R st). destruct (interpret_response st m) as [st' [e|us [e|]|site]];
      cbn in R; try contradiction; (split; [reflexivity|eexists; reflexivity]).
  - pose proof (interpret_no_panic st a) as NP.
    destruct (interpret_response st a) as [st' [e|us [e|]|site]]; cbn [snd] in *.
    + split; [reflexivity|eexists; reflexivity].
    + split; [reflexivity|eexists; reflexivity].
    + destruct (IH st') as [E [e He]]. rewrite E.
      destruct (run st' (ms1 ++ [m])) as [us' s'] eqn:Q. split; [reflexivity|].
      exists e. rewrite E in He. cbn [snd] in *. exact He.
    + exfalso. apply (NP site). reflexivity.
Qed.

(* the updates delivered are at least those of the messages before the fault *)
Lemma run_prefix_updates m ms1 : forall ms2 st us,
  run st ms1 = (us, SIncomplete) ->
  exists us', fst (run st (ms1 ++ m :: ms2)) = us ++ us'.
Proof.
  induction ms1 as [|a ms1 IH]; intros ms2 st us H; cbn [app run] in *.
  - destruct (st_finished st); inversion H; subst. cbn [app]. eauto.
  - destruct (interpret_response st a) as [st' [e|u1 [e|]|site]]; try (inversion H; fail).
    destruct (run st' ms1) as [u2 s2] eqn:Q. inversion H; subst.
    destruct (IH ms2 st' u2 Q) as [us' E].
    destruct (run st' (ms1 ++ m :: ms2)) as [u3 s3]. cbn [fst] in *. subst u3.
    exists us'. apply app_assoc.
Qed.

Lemma bad_header_rejecting m :
  (forall first, check_response first (m_hdr m) = true) -> rejecting m.
Proof.
  intros H st. unfold interpret_response.
  destruct (st_finished st); [exact I|]. rewrite H. exact I.
Qed.

(* a header fault of one of the six kinds check_response lists is refused
   whether or not the message is the first one *)
Lemma header_fault_both m :
  existsb (fun t => check_cond t (m_hdr m)) check_tags = true ->
  forall first, check_response first (m_hdr m) = true.
Proof. intros H first. unfold check_response. rewrite H. reflexivity. Qed.

Lemma corrupt_header_anywhere m ms1 ms2 st :
  (forall first, check_response first (m_hdr m) = true) ->
  fst (run st (ms1 ++ m :: ms2)) = fst (run st ms1) /\
  exists e, snd (run st (ms1 ++ m :: ms2)) = SErr e.
Proof.
  intros H. split; [|apply (run_cut_at_rejecting m (bad_header_rejecting m H))].
  revert st. induction ms1 as [|a ms1 IH]; intros st; cbn [app run].
  - unfold interpret_response. destruct (st_finished st); [reflexivity|]. rewrite H. reflexivity.
  - destruct (interpret_response st a) as [st' [e|us [e|]|site]]; try reflexivity.
    specialize (IH st'). destruct (run st' (ms1 ++ m :: ms2)) as [u1 s1].
    destruct (run st' ms1) as [u2 s2]. cbn [fst] in *. subst. reflexivity.
Qed.

Example corrupt_header_nonvacuous :
  let h := mkHdr true 0 0 true 1 1 0 (Some 252) in
  (forall first, check_response first h = true) /\
  existsb (fun t => check_cond t h) check_tags = true.
Proof. split; [intros []; reflexivity|reflexivity]. Qed.

Lemma iter_msg_bad pre post : forall p,
  exists p' us e, iter_msg p (pre ++ Bad :: post) = (p', us, Some e).
Proof.
  induction pre as [|[r|] pre IH]; intros p; cbn [app iter_msg].
  - eauto.
  - destruct (process_record p r) as [p1 [e|us]]; [eauto|].
    destruct (IH p1) as [p' [us' [e E]]]. rewrite E. eauto.
  - eauto.
Qed.

Lemma bad_record_rejecting m pre post :
  m_items m = pre ++ Bad :: post -> rejecting m.
Proof.
  intros H st. unfold interpret_response.
  destruct (st_finished st); [exact I|].
  destruct (check_response _ _); [exact I|].
  destruct st as [p|].
  - rewrite H. destruct (iter_msg_bad pre post p) as [p' [us [e E]]]. rewrite E. exact I.
  - destruct (inner_new m) as [e|p]; [exact I|].
    rewrite H. destruct (iter_msg_bad pre post p) as [p' [us [e E]]]. rewrite E. exact I.
Qed.

Lemma bad_record_anywhere m pre post ms1 ms2 st :
  m_items m = pre ++ Bad :: post ->
  run st (ms1 ++ m :: ms2) = run st (ms1 ++ [m]) /\
  exists e, snd (run st (ms1 ++ m :: ms2)) = SErr e.
Proof. intros H. apply (run_cut_at_rejecting m (bad_record_rejecting m pre post H)). Qed.

Example bad_record_nonvacuous :
  let m := mkMsg (mkHdr true 0 0 false 1 2 0 (Some 252)) [Rec (Soa 1); Rec (Other 3); Bad; Rec (Soa 1)] in
  m_items m = [Rec (Soa 1); Rec (Other 3)] ++ Bad :: [Rec (Soa 1)] /\
  run None [m] = ([UDeleteAll; UAdd (Other 3)], SErr E_IterParse).
Proof. split; reflexivity. Qed.

(* a rejected message never makes a transfer complete, whatever follows *)
Lemma rejecting_never_done m ms1 ms2 st :
  rejecting m ->
  snd (run st (ms1 ++ m :: ms2)) <> SDone /\ snd (run st (ms1 ++ m :: ms2)) <> SIncomplete.
Proof.
  intros R. destruct (run_cut_at_rejecting m R ms1 ms2 st) as [_ [e ->]].
  split; discriminate.
Qed.

Section Upd.
Variable chk : bool.

Lemma visible_is_last_commit us1 us2 st st' :
  u_apply_all chk (us1 ++ us2) st = Ok st' ->
  forallb (fun u => negb (is_commit u)) us2 = true ->
  exists st1, u_apply_all chk us1 st = Ok st1 /\ u_visible st' = u_visible st1.
Proof.
  intros H NC. rewrite (u_apply_all_app chk) in H.
  destruct (u_apply_all chk us1 st) as [st1| | |]; cbn [bind] in H; try discriminate.
  exists st1. split; [reflexivity|]. eapply (u_apply_all_visible chk); eauto.
Qed.

(* nothing is applied after Finished: duplicated or reordered tail updates are refused *)
Lemma finished_is_terminal u us st :
  u_fin st = true -> u_apply_all chk (u :: us) st = Err E_Finished.
Proof. intros H. cbn [u_apply_all]. unfold u_apply. rewrite H. reflexivity. Qed.

End Upd.

Example visible_is_last_commit_nonvacuous :
  u_apply_all true ([UDeleteAll; UAdd (Other 1); UFinished 4] ++ []) (u_start [Soa 2; Other 9])
  = Ok (mkU [Soa 4; Other 1] [Soa 4; Other 1] false false true).
Proof. reflexivity. Qed.

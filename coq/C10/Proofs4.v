(* C10 proofs, part 4: truncated and mis-closed IXFR streams; readers only ever
   see versions of the chain. *)
From Coq Require Import NArith List Lia.
From DV Require Import Base.Outcome C10.Model C10.Proofs1 C10.Proofs2.
Import ListNotations.
Local Open Scope N_scope.

(* the contents the working copy goes through: old, then after each diff *)
Fixpoint scan (ds : list diff) (w : zone) : list zone :=
  w :: match ds with [] => [] | d :: ds' => scan ds' (apply_diff_z d w) end.

Lemma scan_head ds w : In w (scan ds w).
Proof. destruct ds; left; reflexivity. Qed.

Lemma scan_last ds : forall w, In (fold_left (fun z d => apply_diff_z d z) ds w) (scan ds w).
Proof.
  induction ds as [|d ds IH]; intros w; cbn [fold_left scan].
  - left. reflexivity.
  - right. apply IH.
Qed.

Section WithChk.
Variable chk : bool.
Local Notation u_apply_all := (Model.u_apply_all chk).
Local Notation c10_apply z us := (Model.u_apply_all chk us (u_start z)).
Local Notation chain_ok := (Proofs2.chain_ok chk).
Local Notation u_apply_all_app := (Proofs2.u_apply_all_app chk).
Local Notation u_diff := (Proofs2.u_diff chk).
Local Notation u_diffs := (Proofs2.u_diffs chk).
Local Notation u_ixfr := (Proofs2.u_ixfr chk).

Lemma u_no_commit us : forall v w,
  forallb (fun u => negb (is_commit u)) us = true ->
  exists w', u_apply_all us (mkU v w true true false) = Ok (mkU v w' true true false).
Proof.
  induction us as [|u us IH]; intros v w H; cbn [forallb Model.u_apply_all] in *; [eauto|].
  apply andb_prop in H as [Hu H].
  destruct u; try discriminate Hu; unfold Model.u_apply, with_root; cbn; apply IH; exact H.
Qed.

Lemma diff_body_no_commit d us m :
  us ++ m = dels (d_dels d) ++ UBeginAdd (d_new d) :: adds (d_adds d) ->
  forallb (fun u => negb (is_commit u)) us = true.
Proof.
  intros E.
  assert (H : forallb (fun u => negb (is_commit u)) (us ++ m) = true).
  { rewrite E, forallb_app. cbn [forallb is_commit negb andb].
    apply andb_true_intro.
    split; apply forallb_forall; intros u Hu; apply in_map_iff in Hu as [k [<- _]]; reflexivity. }
  rewrite forallb_app in H. apply andb_prop in H as [H _]. exact H.
Qed.

(* inside a difference sequence nothing is committed after its BeginBatchDelete *)
Lemma prefix_diffs ds : forall v w us1 us2,
  chain_ok ds w ->
  us1 ++ us2 = concat (map diff_upds ds) ->
  exists v' w', u_apply_all us1 (mkU v w true true false) = Ok (mkU v' w' true true false) /\
    (v' = v \/ In v' (scan ds w)).
Proof.
  induction ds as [|d ds IH]; intros v w us1 us2 C E; cbn [map concat] in E.
  - apply app_eq_nil in E as [-> _]. exists v, w. split; [reflexivity|left; reflexivity].
  - destruct C as [B C]. apply app_eq_app in E as [m [[E1 E2]|[E1 E2]]].
    + (* past this difference sequence *)
      subst us1. destruct (IH w (apply_diff_z d w) m us2 C (eq_sym E2)) as [v' [w' [A V]]].
      exists v', w'. rewrite u_apply_all_app, (u_diff d v w B). split; [exact A|].
      right. cbn [scan]. destruct V as [->|V]; [left; reflexivity|right; exact V].
    + (* inside it *)
      destruct us1 as [|u us1]; [exists v, w; split; [reflexivity|left; reflexivity]|].
      unfold diff_upds in E1. injection E1 as <- E1.
      destruct (u_no_commit us1 w w (diff_body_no_commit d us1 m (eq_sym E1))) as [w' A].
      exists w, w'. split; [|right; apply scan_head].
      cbn [Model.u_apply_all]. unfold Model.u_apply at 1, u_commit.
      cbn [u_fin u_open u_working u_write u_visible]. rewrite B.
      destruct chk; exact A.
Qed.

Definition final_zone (snew : N) (ds : list diff) (old : zone) : zone :=
  z_update_soa snew (fold_left (fun z d => apply_diff_z d z) ds old).

(* every prefix of the update stream of a valid IXFR leaves readers on a
   version of the chain: old, an intermediate one, or (whole stream) new *)
Theorem ixfr_prefix_visible snew ds old us1 us2 :
  chain_ok ds old ->
  us1 ++ us2 = ixfr_upds snew ds ->
  exists st, u_apply_all us1 (u_start old) = Ok st /\
    (In (u_visible st) (scan ds old) \/ (us2 = [] /\ u_visible st = final_zone snew ds old)) /\
    (us2 <> [] -> u_fin st = false).
Proof.
  intros C E. unfold ixfr_upds in E.
  destruct (prefix_cases _ _ _ _ _ E) as [[m E1]|[m E1]].
  - destruct (prefix_diffs ds old old us1 m C E1) as [v' [w' [A V]]].
    eexists. split; [exact A|]. split; [|reflexivity].
    left. destruct V as [->|V]; [apply scan_head|exact V].
  - subst us1. rewrite <- app_assoc in E. apply app_inv_head in E.
    injection E as E. apply app_eq_nil in E as [-> ->].
    eexists. split; [apply (u_ixfr snew ds old C)|]. split; [right; split; reflexivity|].
    intros H; contradiction.
Qed.

Example scan_example :
  scan [mkDiff 3 [5] 4 [6]] [Soa 3; Other 5; Other 9] = [[Soa 3; Other 5; Other 9]; [Other 6; Soa 4; Other 9]].
Proof. vm_compute. reflexivity. Qed.

Lemma flat_split a : forall p b p2 us,
  flat p (a ++ b) = (p2, us, None) ->
  exists p1 us1 us2, flat p a = (p1, us1, None) /\ flat p1 b = (p2, us2, None) /\ us = us1 ++ us2.
Proof.
  intros p b p2 us H. rewrite flat_app in H.
  destruct (flat p a) as [[p1 us1] [e|]]; [discriminate|].
  destruct (flat p1 b) as [[p3 us2] e2] eqn:F. inversion H; subst. eauto 7.
Qed.

(* a truncated IXFR (at least the closing SOA is missing), any packaging:
   never Done, the updates apply, readers see a version of the chain *)
Theorem reject_truncated_ixfr snew ds old ms cs rest :
  (forall d, In d ds -> d_old d <> snew) -> chain_ok ds old ->
  packs 251 ms cs -> concat cs ++ rest = ixfr_seq snew ds -> rest <> [] ->
  ~ lone_soa_first Ixfr cs ->
  snd (run None ms) <> SDone /\
  exists st, c10_apply old (fst (run None ms)) = Ok st /\ u_fin st = false /\
    In (u_visible st) (scan ds old).
Proof.
  intros Hne Hck Hp Hc Hr Hl.
  destruct (flat_ixfr snew ds Hne) as [p' [F Hf]]. rewrite <- Hc in F.
  destruct (flat_split _ _ _ _ _ F) as [p1 [us1 [us2 [F1 [F2 Eus]]]]].
  assert (Hnf : p_finished p1 = false).
  { destruct rest as [|r rest]; [contradiction|]. cbn [flat] in F2. unfold process_record in F2.
    destruct (p_finished p1); [discriminate|reflexivity]. }
  assert (Hu2 : us2 <> []).
  { intros ->. apply flat_silent in F2. congruence. }
  destruct (concat cs) as [|r tl] eqn:Hs; [exact (False_ind _ (packs_nonempty _ _ _ Hp Hs))|].
  injection Hc as -> _.
  destruct (split_irrelevant_lemma Ixfr ms cs Hp Hl) as [H1 H2].
  unfold flat_run in H1, H2. rewrite Hs, F1 in H1, H2. rewrite Hnf in H1, H2.
  assert (Hus : fst (run None ms) = us1) by (destruct (single_soa_fires p1); exact H1).
  split.
  - intros D. rewrite D in H2.
    destruct (single_soa_fires p1), H2 as [H2|[e1 [e2 [H2 _]]]]; discriminate.
  - rewrite Hus.
    destruct (ixfr_prefix_visible snew ds old us1 us2 Hck (eq_sym Eus)) as [st [A [V Fn]]].
    exists st. split; [exact A|]. split; [apply Fn; exact Hu2|].
    destruct V as [V|[E _]]; [exact V|contradiction].
Qed.

(* the closing SOA is not the opening one: the stream never finishes.  All
   difference sequences apply; the stray SOA opens a further batch (committing
   the last version of the chain) or, with the updater's SOA check, is refused *)
Theorem reject_mismatched_close_ixfr snew s' ds old ms cs :
  s' <> snew -> (forall d, In d ds -> d_old d <> snew) -> chain_ok ds old ->
  packs 251 ms cs -> concat cs = Soa snew :: concat (map diff_seq ds) ++ [Soa s'] ->
  ~ lone_soa_first Ixfr cs ->
  run None ms = (concat (map diff_upds ds) ++ [UBeginDel s'], SIncomplete) /\
  (exists st, c10_apply old (concat (map diff_upds ds)) = Ok st /\
     u_fin st = false /\ In (u_working st) (scan ds old)) /\
  (forall st, c10_apply old (concat (map diff_upds ds) ++ [UBeginDel s']) = Ok st ->
     u_fin st = false /\ In (u_visible st) (scan ds old)).
Proof.
  intros Hs Hne Hck Hp Hc Hl.
  destruct (flat_ixfr_close snew s' ds Hne) as [p' [F [Hf Hcnt]]].
  apply N.eqb_neq in Hs. rewrite Hs in F, Hf. rewrite <- Hc in F.
  destruct (u_diffs ds old old Hck) as [v' A].
  split; [|split].
  - rewrite (run_of_flat Ixfr ms cs snew _ p' _ Hp Hl Hc F), Hf; [reflexivity|].
    apply quiet_unless_one_record. lia.
  - eexists. unfold u_start. split; [exact A|]. cbn. split; [reflexivity|apply scan_last].
  - intros st H. unfold u_start in H. rewrite u_apply_all_app, A in H. cbn [bind Model.u_apply_all] in H.
    unfold Model.u_apply, u_commit in H. cbn [u_fin u_open u_working u_write u_visible] in H.
    destruct (if chk then if batch_soa_ok chk s' (fold_left (fun z d => apply_diff_z d z) ds old)
                          then Ok tt else Err E_SoaMismatch else Ok tt) as [[]| | |];
      cbn in H; inversion H; subst; cbn. split; [reflexivity|apply scan_last].
Qed.

Example reject_truncated_ixfr_nonvacuous :
  exists ms cs rest, packs 251 ms cs /\ rest <> [] /\
    concat cs ++ rest = ixfr_seq 4 [mkDiff 3 [5] 4 [6]] /\ ~ lone_soa_first Ixfr cs.
Proof.
  exists [mkMsg (mkHdr true 0 0 false 1 3 0 (Some 251)) [Rec (Soa 4); Rec (Soa 3); Rec (Other 5)]],
         [[Soa 4; Soa 3; Other 5]], [Soa 4; Other 6; Soa 4].
  split; [|split; [discriminate|split; [reflexivity|]]].
  - cbn. repeat split; try (cbn; lia); try discriminate. constructor.
  - intros [_ [r [cs' [E _]]]]. discriminate.
Qed.

End WithChk.

(* difference sequences that do not chain (finding
   ixfr_unchained_diff_accepted).  process_record stores current_soa and never
   compares it; ZoneUpdater::apply ignores the SOA of BeginBatchDelete unless
   the check of pending/C10-updater-soa-check.diff is there
   (Gen.updater_checks_batch_soa). *)
Definition unchained_witness_msgs : list msg :=
  [mkMsg (mkHdr true 0 0 false 1 6 0 (Some 251))
     [Rec (Soa 64); Rec (Soa 62); Rec (Other 5); Rec (Other 11); Rec (Soa 64); Rec (Other 12); Rec (Soa 64)]].
Definition unchained_witness_old : zone := [Soa 60; Other 0; Other 5].

(* without the check the stream is accepted: readers get "serial 32" (SOA id
   64) built from a diff that starts at serial 31 while the zone was at 30 *)
Lemma unchained_diff_accepted_refuted :
  packs 251 unchained_witness_msgs [[Soa 64; Soa 62; Other 5; Other 11; Soa 64; Other 12; Soa 64]] /\
  ~ soa_chain 60 [mkDiff 62 [5; 11] 64 [12]] /\
  exists us st, run None unchained_witness_msgs = (us, SDone) /\
    u_apply_all false us (u_start unchained_witness_old) = Ok st /\ u_fin st = true /\
    z_first_soa (u_visible st) = Some 64.
Proof.
  split; [cbn; repeat split; try (cbn; lia); try discriminate; constructor|].
  split; [intros [H _]; vm_compute in H; discriminate|].
  eexists. eexists. split; [vm_compute; reflexivity|]. split; [vm_compute; reflexivity|].
  split; reflexivity.
Qed.

(* with the check any batch that does not start at the serial of the working
   copy is refused before anything is committed *)
Theorem unchained_batch_rejected s w v rest :
  batch_soa_ok true s w = false ->
  u_apply_all true (UBeginDel s :: rest) (mkU v w true true false) = Err E_SoaMismatch.
Proof.
  intros B. cbn [u_apply_all]. unfold u_apply. cbn [u_fin u_open u_working]. rewrite B. reflexivity.
Qed.

Example unchained_batch_rejected_nonvacuous :
  batch_soa_ok true 62 unchained_witness_old = false.
Proof. vm_compute. reflexivity. Qed.

(* the statement of the property for such streams: the offending batch is
   refused, and whatever prefix of the stream was applied before, readers see a
   version that was reached by difference sequences that chain *)
Theorem unchained_rejected snew ds1 d ds2 old :
  chain_ok true ds1 old ->
  batch_soa_ok true (d_old d) (fold_left (fun z x => apply_diff_z x z) ds1 old) = false ->
  u_apply_all true (ixfr_upds snew (ds1 ++ d :: ds2)) (u_start old) = Err E_SoaMismatch /\
  (forall us1 us2 st, us1 ++ us2 = ixfr_upds snew (ds1 ++ d :: ds2) ->
     u_apply_all true us1 (u_start old) = Ok st ->
     u_fin st = false /\ In (u_visible st) (scan ds1 old)).
Proof.
  intros C B.
  destruct (u_diffs true ds1 old old C) as [v' A].
  assert (Esplit : exists tl, ixfr_upds snew (ds1 ++ d :: ds2) =
            concat (map diff_upds ds1) ++ UBeginDel (d_old d) :: tl).
  { unfold ixfr_upds. rewrite map_app, concat_app. cbn [map concat]. unfold diff_upds at 2.
    rewrite <- app_assoc. cbn [app]. eexists. reflexivity. }
  destruct Esplit as [tl ->].
  assert (Fail : forall m, u_apply_all true (concat (map diff_upds ds1) ++ UBeginDel (d_old d) :: m)
                             (u_start old) = Err E_SoaMismatch).
  { intros m. rewrite (Proofs2.u_apply_all_app true). unfold u_start. rewrite A. cbn [bind].
    apply unchained_batch_rejected. exact B. }
  split; [apply Fail|].
  intros us1 us2 st E H. destruct (prefix_cases _ _ _ _ _ E) as [[m E1]|[m ->]].
  - destruct (prefix_diffs true ds1 old old us1 m C E1) as [v1 [w1 [A1 V]]].
    unfold u_start in H. rewrite A1 in H. injection H as <-. cbn. split; [reflexivity|].
    destruct V as [->|V]; [apply scan_head|exact V].
  - rewrite Fail in H. discriminate.
Qed.

Example unchained_rejected_nonvacuous :
  u_apply_all true (ixfr_upds 64 ([] ++ mkDiff 62 [5; 11] 64 [12] :: [])) (u_start unchained_witness_old)
  = Err E_SoaMismatch.
Proof. vm_compute. reflexivity. Qed.

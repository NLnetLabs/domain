(* C10 proofs, part 6: the diff reported on commit applies, for every batch
   outside the three known defect classes (good_history, decidable). *)
From Coq Require Import NArith List Bool Lia.
From DV Require Import C10.Model C10.Proofs3.
From DV Require C17.Gen C17.Model C17.Proofs.
Import ListNotations.
Local Open Scope N_scope.

Lemma s_get_remove_same k st : s_get k (s_remove k st) = None.
Proof.
  induction st as [|[k' v] st IH]; cbn [s_remove s_get]; [reflexivity|].
  destruct (k' =? k) eqn:E; [exact IH|]. cbn [s_get]. rewrite E. exact IH.
Qed.

Lemma s_get_remove_other k k' st : k' <> k -> s_get k' (s_remove k st) = s_get k' st.
Proof.
  intros Hn. induction st as [|[k2 v] st IH]; cbn [s_remove s_get]; [reflexivity|].
  destruct (k2 =? k) eqn:E.
  - apply N.eqb_eq in E. subst k2. destruct (N.eqb_spec k k'); [congruence|exact IH].
  - cbn [s_get]. destruct (k2 =? k'); [reflexivity|exact IH].
Qed.

Lemma s_get_set_same k v st : s_get k (s_set k v st) = Some v.
Proof. unfold s_set. cbn [s_get]. rewrite N.eqb_refl. reflexivity. Qed.

Lemma s_get_set_other k k' v st : k' <> k -> s_get k' (s_set k v st) = s_get k' st.
Proof.
  intros Hn. unfold s_set. cbn [s_get]. destruct (N.eqb_spec k k'); [congruence|].
  apply s_get_remove_other. exact Hn.
Qed.

Definition pub_ne (pub : store) : Prop := forall k v, s_get k pub = Some v -> snd v <> [].

Lemma pub_ok_ne pub : pub_ok pub = true -> pub_ne pub.
Proof.
  unfold pub_ok. intros H. apply andb_prop in H as [H _]. rewrite forallb_forall in H.
  intros k. induction pub as [|[k' v'] pub IH]; cbn [s_get]; [discriminate|].
  intros v. destruct (k' =? k).
  - intros [= <-] N0. specialize (H (k', v') (or_introl eq_refl)). cbn in H.
    rewrite N0 in H. discriminate.
  - apply IH. intros x Hx. apply H. right. exact Hx.
Qed.

(* update_rrset: the published content stays, the working RRset is replaced,
   and each diff map is left alone or gets a new entry under the same key *)
Lemma update_rrset_shape k v st :
  exists r a, update_rrset k v st = mkD (ds_pub st) (s_set k v (ds_work st)) r a /\
    (r = ds_rem st \/ exists x, r = s_set k x (ds_rem st)) /\
    (a = ds_add st \/ exists x, a = s_set k x (ds_add st)).
Proof.
  unfold update_rrset.
  destruct (s_get k (ds_pub st)) as [c|]; [destruct (negb (rrs_eqb v c) && negb (is_nil (snd c)))|];
  destruct (negb (is_nil (snd v)));
  repeat match goal with |- context [if ?b then _ else _] => destruct b end;
  (do 2 eexists; split; [reflexivity|split; ((left; reflexivity) || (right; eexists; reflexivity))]).
Qed.

Lemma ds_pub_update k v st : ds_pub (update_rrset k v st) = ds_pub st.
Proof. destruct (update_rrset_shape k v st) as (r & a & -> & _). reflexivity. Qed.

Lemma ds_work_update k v st : ds_work (update_rrset k v st) = s_set k v (ds_work st).
Proof. destruct (update_rrset_shape k v st) as (r & a & -> & _). reflexivity. Qed.

Definition same_at (k : N) (st st' : dstate) : Prop :=
  s_get k (ds_pub st') = s_get k (ds_pub st) /\ s_get k (ds_work st') = s_get k (ds_work st) /\
  s_get k (ds_rem st') = s_get k (ds_rem st) /\ s_get k (ds_add st') = s_get k (ds_add st).

Lemma update_rrset_other k k' v st : k' <> k -> same_at k' st (update_rrset k v st).
Proof.
  intros Hn. destruct (update_rrset_shape k v st) as (r & a & -> & [->|[x ->]] & [->|[y ->]]);
  unfold same_at; cbn [ds_pub ds_work ds_rem ds_add]; rewrite ?(s_get_set_other k k' _ _ Hn); auto.
Qed.

Lemma remove_rrset_other k k' st : k' <> k -> same_at k' st (remove_rrset k st).
Proof.
  intros Hn. unfold same_at, remove_rrset.
  destruct (s_get k (ds_pub st)); cbn [ds_pub ds_work ds_rem ds_add];
  rewrite ?(s_get_set_other k k' _ _ Hn), (s_get_remove_other k k' _ Hn); auto.
Qed.

(* the invariant of one key: the two diff maps hold exactly the set difference
   between the published and the working RRset, nothing empty is stored, and
   the TTLs agree *)
Definition kinv (st : dstate) (k : N) : Prop :=
  let P := rrs_data (s_get k (ds_pub st)) in
  let W := rrs_data (s_get k (ds_work st)) in
  (forall x, In x (rrs_data (s_get k (ds_rem st))) <-> In x P /\ ~ In x W) /\
  (forall x, In x (rrs_data (s_get k (ds_add st))) <-> In x W /\ ~ In x P) /\
  (forall v, s_get k (ds_work st) = Some v -> snd v <> []) /\
  (forall v, s_get k (ds_add st) = Some v -> snd v <> []) /\
  (forall w, s_get k (ds_work st) = Some w ->
     (forall p, s_get k (ds_pub st) = Some p -> fst w = fst p) /\
     (forall a, s_get k (ds_add st) = Some a -> fst a = fst w)).

Lemma kinv_same k st st' : same_at k st st' -> kinv st k -> kinv st' k.
Proof. intros [E1 [E2 [E3 E4]]]. unfold kinv. rewrite E1, E2, E3, E4. auto. Qed.

Lemma kinv_start pub k : pub_ne pub -> kinv (d_start pub) k.
Proof.
  intros Hp. unfold kinv, d_start. cbn [ds_pub ds_work ds_rem ds_add s_get rrs_data].
  split; [intros x; cbn; tauto|]. split; [intros x; cbn; tauto|].
  split; [exact (Hp k)|]. split; [discriminate|].
  intros w Hw. split; [intros p Ep; congruence|discriminate].
Qed.

(* the entry update_rrset leaves in a diff map: the records of [l] not in [m],
   or, if there are none, the entry that was there *)
Lemma diff_entry k t l m (st0 : store) :
  (forall x, In x (rrs_data (s_get k st0)) -> (forall y, In y l -> In y m) -> False) ->
  let d := filter (fun x => negb (memN x m)) l in
  forall y, In y (rrs_data (s_get k (if is_nil d then st0 else s_set k (t, d) st0)))
            <-> In y l /\ ~ In y m.
Proof.
  intros Stale d y. destruct (is_nil d) eqn:Dn.
  - apply is_nil_spec in Dn. rewrite <- in_filter_notin. fold d. rewrite Dn.
    split; [|intros []]. intros Hy. apply (Stale y Hy). intros z Hz.
    destruct (in_dec N.eq_dec z m) as [|Hn]; [assumption|].
    exfalso. assert (H : In z d) by (apply in_filter_notin; auto). rewrite Dn in H. exact H.
  - rewrite s_get_set_same. apply in_filter_notin.
Qed.

(* update_rrset on key k with a new non-empty RRset whose data differs from the
   published one as a set and whose TTL is the published one *)
Lemma kinv_update st k t new :
  pub_ne (ds_pub st) -> kinv st k ->
  new <> [] ->
  (forall p, s_get k (ds_pub st) = Some p ->
     fst p = t /\ exists x, (In x (snd p) /\ ~ In x new) \/ (In x new /\ ~ In x (snd p))) ->
  (* a diff entry stays when its computed replacement is empty: it must be
     empty already, i.e. nothing published was missing / nothing new was there *)
  ((forall y, In y (rrs_data (s_get k (ds_pub st))) -> In y new) ->
   forall y, In y (rrs_data (s_get k (ds_pub st))) -> In y (rrs_data (s_get k (ds_work st)))) ->
  ((forall y, In y new -> In y (rrs_data (s_get k (ds_pub st)))) ->
   forall y, In y (rrs_data (s_get k (ds_work st))) -> In y (rrs_data (s_get k (ds_pub st)))) ->
  kinv (update_rrset k (t, new) st) k.
Proof.
  intros Hok [IR [IA [IW [IAn IT]]]] Hne Hp KeepR KeepA.
  unfold update_rrset.
  destruct (s_get k (ds_pub st)) as [c|] eqn:Pc.
  - destruct (Hp c eq_refl) as [Ht [x Hx]].
    assert (Ne : rrs_eqb (t, new) c = false).
    { unfold rrs_eqb. cbn [fst snd]. destruct (list_eqb new (snd c)) eqn:L; [|apply andb_false_r].
      apply list_eqb_spec in L. subst new. destruct Hx as [[A B]|[A B]]; contradiction. }
    rewrite Ne. cbn [negb andb].
    assert (Cn : is_nil (snd c) = false).
    { destruct (snd c) eqn:E; [exfalso; exact (Hok k c Pc E)|reflexivity]. }
    rewrite Cn. cbn [negb].
    destruct new as [|n0 new']; [contradiction|]. cbn [is_nil negb snd fst].
    set (new := n0 :: new') in *.
    set (added := filter (fun x => negb (memN x (snd c))) new).
    unfold kinv. cbn [ds_pub ds_work ds_rem ds_add]. rewrite Pc. cbn [rrs_data] in *.
    rewrite s_get_set_same. cbn [rrs_data snd fst].
    split. { apply diff_entry. intros z Hz Hall. apply IR in Hz as [Hz1 Hz2]. exact (Hz2 (KeepR Hall z Hz1)). }
    split. { apply diff_entry. intros z Hz Hall. apply IA in Hz as [Hz1 Hz2]. exact (Hz2 (KeepA Hall z Hz1)). }
    split; [intros v [= <-]; discriminate|]. split.
    + intros v. destruct (is_nil added) eqn:An; [apply IAn|].
      rewrite s_get_set_same. intros [= <-] Q. cbn [snd] in Q. rewrite Q in An. discriminate.
    + intros w [= <-]. cbn [fst]. split; [intros p [= <-]; symmetry; exact Ht|].
      intros a. destruct (is_nil added) eqn:An; [|rewrite s_get_set_same; intros [= <-]; reflexivity].
      (* the old entry: its TTL is that of the old working RRset = the published one *)
      intros Ea. destruct (s_get k (ds_work st)) as [w0|] eqn:W0.
      * destruct (IT w0 eq_refl) as [T1 T2]. rewrite (T2 a Ea), (T1 c eq_refl). exact Ht.
      * (* no working RRset: the add entry would be empty *)
        exfalso. destruct (snd a) as [|z zs] eqn:Sa; [exact (IAn a Ea Sa)|].
        assert (H : In z (rrs_data (s_get k (ds_add st)))) by (rewrite Ea; cbn; rewrite Sa; left; reflexivity).
        apply IA in H as [[] _].
  - (* key not published: the whole new RRset is recorded as added *)
    destruct new as [|n0 new']; [contradiction|]. cbn [is_nil negb snd].
    unfold kinv. cbn [ds_pub ds_work ds_rem ds_add]. rewrite Pc. cbn [rrs_data] in *.
    rewrite !s_get_set_same. cbn [rrs_data snd fst].
    split; [|split; [|split; [|split]]].
    + intros y. split; [|intros [[] _]]. intros Hy. apply IR in Hy as [[] _].
    + intros y. tauto.
    + intros v [= <-]. discriminate.
    + intros v [= <-]. discriminate.
    + intros w [= <-]. split; [discriminate|]. intros a [= <-]. reflexivity.
Qed.

Lemma in_filter_neq x d l : In x (filter (fun y => negb (y =? d)) l) <-> In x l /\ x <> d.
Proof.
  rewrite filter_In. destruct (N.eqb_spec x d); cbn; split; intros [A B]; split; auto; congruence.
Qed.

Lemma ds_pub_step o st : is_commit_op o = false -> ds_pub (fst (d_step o st)) = ds_pub st.
Proof.
  destruct o; try discriminate; intros _; cbn [d_step fst]; try apply ds_pub_update; [reflexivity|].
  destruct (is_nil _); [reflexivity|apply ds_pub_update].
Qed.

(* one good operation keeps the invariant of every key *)
Lemma kinv_step st o k :
  pub_ne (ds_pub st) -> good_op o st = true -> k <> 0 -> kinv st k -> kinv (fst (d_step o st)) k.
Proof.
  intros Hok G Hk I.
  destruct o as [|k0 d t|k0 d t| |s t|s t]; cbn [good_op] in G; try discriminate.
  - (* add d, neither published nor there: new = d :: W *)
    apply andb_prop in G as [G Gt]. apply andb_prop in G as [G Gp]. apply andb_prop in G as [G0 Gw].
    apply neg_memN in Gw, Gp. cbn [d_step fst].
    destruct (N.eq_dec k k0) as [->|Hne]; [|exact (kinv_same _ _ _ (update_rrset_other _ _ _ _ Hne) I)].
    change (d_existing k0 st) with (rrs_data (s_get k0 (ds_work st))).
    apply (kinv_update st k0 t _ Hok I).
    + discriminate.
    + intros p Ep. rewrite Ep in Gt, Gp. split; [apply N.eqb_eq; exact Gt|].
      exists d. right. split; [left; reflexivity|exact Gp].
    + intros Hall y Hy. destruct (Hall y Hy) as [<-|H]; [contradiction|exact H].
    + intros Hall. destruct Gp. apply Hall. left. reflexivity.
  - (* delete d, published and there: new = W without d *)
    apply andb_prop in G as [G Gt]. apply andb_prop in G as [G Gp]. apply andb_prop in G as [G0 Gw].
    apply memN_spec in Gw, Gp. cbn [d_step fst].
    change (d_existing k0 st) with (rrs_data (s_get k0 (ds_work st))).
    set (data := filter (fun x => negb (x =? d)) (rrs_data (s_get k0 (ds_work st)))).
    assert (Hd : forall y, In y data <-> In y (rrs_data (s_get k0 (ds_work st))) /\ y <> d)
      by (intros y; apply in_filter_neq).
    destruct (N.eq_dec k k0) as [->|Hne].
    2:{ destruct (is_nil data);
          [exact (kinv_same _ _ _ (remove_rrset_other _ _ _ Hne) I)
          |exact (kinv_same _ _ _ (update_rrset_other _ _ _ _ Hne) I)]. }
    destruct (is_nil data) eqn:Dn.
    + (* d was the last record: remove_rrset records the published RRset *)
      apply is_nil_spec in Dn. pose proof I as [IR [IA [IW [IAn IT]]]].
      destruct (s_get k0 (ds_pub st)) as [c|] eqn:Pc; [|destruct Gp].
      assert (Wsub : forall y, In y (rrs_data (s_get k0 (ds_work st))) -> y = d).
      { intros y Hy. destruct (N.eq_dec y d); [auto|]. exfalso.
        assert (H : In y data) by (apply Hd; auto). rewrite Dn in H. destruct H. }
      unfold kinv, remove_rrset. rewrite Pc. cbn [ds_pub ds_work ds_rem ds_add].
      rewrite Pc, s_get_set_same, s_get_remove_same. cbn [rrs_data].
      split; [|split; [|split; [|split]]].
      * intros y. tauto.
      * intros y. split; [|intros [[] _]]. intros Hy. apply IA in Hy as [H1 H2].
        exfalso. apply Wsub in H1. subst y. exact (H2 Gp).
      * discriminate.
      * exact IAn.
      * discriminate.
    + apply (kinv_update st k0 t data Hok I).
      * intros E. rewrite E in Dn. discriminate.
      * intros p Ep. rewrite Ep in Gt, Gp. split; [apply N.eqb_eq; exact Gt|].
        exists d. left. split; [exact Gp|]. intros Q. apply Hd in Q as [_ Q]. congruence.
      * intros Hall. apply Hall, Hd in Gp as [_ Q]. congruence.
      * intros Hall y Hy. destruct (N.eq_dec y d) as [->|Ny]; [exact Gp|]. apply Hall, Hd. auto.
  - (* DSoa: key 0 only *)
    exact (kinv_same _ _ _ (update_rrset_other _ _ _ _ Hk) I).
Qed.

Lemma rrs_minus_data v gone :
  rrs_data (rrs_minus v gone) = filter (fun x => negb (memN x gone)) (snd v).
Proof.
  unfold rrs_minus. destruct (is_nil _) eqn:E; [|reflexivity].
  apply is_nil_spec in E. rewrite E. reflexivity.
Qed.

Lemma same_rrset_by_data a b :
  (forall v, a = Some v -> snd v <> []) -> (forall v, b = Some v -> snd v <> []) ->
  (forall va vb, a = Some va -> b = Some vb -> fst va = fst vb) ->
  (forall x, In x (rrs_data a) <-> In x (rrs_data b)) -> same_rrset a b.
Proof.
  intros Na Nb T D. destruct a as [[ta da]|], b as [[tb db]|]; cbn [same_rrset rrs_data snd] in *.
  - split; [exact (T _ _ eq_refl eq_refl)|exact D].
  - destruct da as [|z da]; [exact (Na _ eq_refl eq_refl)|]. apply (D z). left. reflexivity.
  - destruct db as [|z db]; [exact (Nb _ eq_refl eq_refl)|]. apply (D z). left. reflexivity.
  - exact I.
Qed.

Lemma kinv_applies st k :
  pub_ne (ds_pub st) -> kinv st k ->
  same_rrset (applied_at k (ds_pub st) (ds_rem st) (ds_add st)) (s_get k (ds_work st)).
Proof.
  intros Hok [IR [IA [IW [IAn IT]]]]. unfold applied_at.
  set (base := match s_get k (ds_pub st) with
               | Some v => match s_get k (ds_rem st) with
                           | Some r => rrs_minus v (snd r) | None => Some v end
               | None => None end).
  (* base: what is published and still there *)
  assert (Hb : forall x, In x (rrs_data base) <->
                 In x (rrs_data (s_get k (ds_pub st))) /\ In x (rrs_data (s_get k (ds_work st)))).
  { intros x.
    assert (E : In x (rrs_data base) <->
                In x (rrs_data (s_get k (ds_pub st))) /\ ~ In x (rrs_data (s_get k (ds_rem st)))).
    { unfold base. destruct (s_get k (ds_pub st)) as [c|]; [|cbn; tauto].
      destruct (s_get k (ds_rem st)) as [r|]; [|cbn; tauto].
      rewrite rrs_minus_data. apply in_filter_notin. }
    rewrite E, IR. destruct (in_dec N.eq_dec x (rrs_data (s_get k (ds_work st)))); tauto. }
  assert (Hbt : forall b, base = Some b ->
                  snd b <> [] /\ exists c, s_get k (ds_pub st) = Some c /\ fst b = fst c).
  { intros b. unfold base. destruct (s_get k (ds_pub st)) as [c|] eqn:Pc; [|discriminate].
    destruct (s_get k (ds_rem st)) as [r|].
    - unfold rrs_minus. destruct (is_nil _) eqn:Nn; [discriminate|]. intros [= <-]. cbn [fst snd].
      split; [intros Q; rewrite Q in Nn; discriminate|eauto].
    - intros [= <-]. split; [exact (Hok k c Pc)|eauto]. }
  apply same_rrset_by_data.
  - destruct (s_get k (ds_add st)) as [a|] eqn:Aa; [|intros v E; apply (Hbt v E)].
    intros v [= <-]. cbn [snd]. destruct (snd a) as [|z zs] eqn:Sa; [contradiction (IAn a eq_refl Sa)|].
    intros Q.
    assert (H : In z (rrs_data base ++ filter (fun y => negb (memN y (rrs_data base))) (z :: zs))).
    { rewrite in_app_iff, in_filter_notin. cbn [In].
      destruct (in_dec N.eq_dec z (rrs_data base)); auto. }
    rewrite Q in H. exact H.
  - exact IW.
  - intros va w Ea Ew. destruct (IT w Ew) as [T1 T2].
    destruct (s_get k (ds_add st)) as [a|]; [injection Ea as <-; exact (T2 a eq_refl)|].
    destruct (Hbt va Ea) as [_ [c [Pc ->]]]. symmetry. exact (T1 c Pc).
  - (* (published and still there) or (there and not published) *)
    intros x.
    assert (E : In x (rrs_data match s_get k (ds_add st) with
                               | Some a => Some (fst a, rrs_data base ++
                                             filter (fun y => negb (memN y (rrs_data base))) (snd a))
                               | None => base end) <->
                In x (rrs_data base) \/ In x (rrs_data (s_get k (ds_add st)))).
    { destruct (s_get k (ds_add st)) as [a|]; cbn [rrs_data snd]; [|cbn [In]; tauto].
      rewrite in_app_iff, in_filter_notin. destruct (in_dec N.eq_dec x (rrs_data base)); tauto. }
    rewrite E, Hb, IA. destruct (in_dec N.eq_dec x (rrs_data (s_get k (ds_pub st)))); tauto.
Qed.

Lemma d_run_app a : forall b st,
  d_run (a ++ b) st =
  let '(st1, r1) := d_run a st in let '(st2, r2) := d_run b st1 in (st2, r1 ++ r2).
Proof.
  induction a as [|o a IH]; intros b st; cbn [app d_run].
  - destruct (d_run b st). reflexivity.
  - destruct (d_step o st) as [st1 r1]. rewrite IH.
    destruct (d_run a st1) as [st2 r2]. destruct (d_run b st2) as [st3 r3]. rewrite app_assoc. reflexivity.
Qed.

Lemma d_run_snoc a o st :
  d_run (a ++ [o]) st =
  (fst (d_step o (fst (d_run a st))), snd (d_run a st) ++ snd (d_step o (fst (d_run a st)))).
Proof.
  rewrite d_run_app. destruct (d_run a st) as [st1 r1]. cbn [d_run fst snd].
  destruct (d_step o st1). rewrite app_nil_r. reflexivity.
Qed.

Lemma d_step_batch st : d_step DBatch st = (d_start (ds_work st), [snd (d_commit st)]).
Proof. reflexivity. Qed.

Lemma d_step_finish s t st : d_step (DFinish s t) st = d_step DBatch (fst (d_step (DSoa s t) st)).
Proof. reflexivity. Qed.

Lemma good_body_no_commit ops : forall st, good_body ops st = true -> snd (d_run ops st) = [].
Proof.
  induction ops as [|o ops IH]; intros st G; cbn [d_run good_body] in *; [reflexivity|].
  apply andb_prop in G as [G1 G2].
  destruct o; cbn [good_op] in G1; try discriminate; cbn [d_step fst] in *;
  specialize (IH _ G2); destruct (d_run ops _) as [st2 r2]; cbn in *; subst; reflexivity.
Qed.

Lemma good_op_no_commit o st : good_op o st = true -> is_commit_op o = false.
Proof. destruct o; (discriminate || reflexivity). Qed.

Lemma ds_pub_body ops : forall st, good_body ops st = true -> ds_pub (fst (d_run ops st)) = ds_pub st.
Proof.
  induction ops as [|o ops IH]; intros st G; cbn [d_run good_body] in *; [reflexivity|].
  apply andb_prop in G as [G1 G2]. specialize (IH _ G2).
  rewrite (ds_pub_step o st (good_op_no_commit _ _ G1)) in IH.
  destruct (d_step o st) as [st1 r1]. cbn [fst] in *. destruct (d_run ops st1). exact IH.
Qed.

Lemma good_body_multi body : forall st, good_body body st = true -> good_multi body st = true.
Proof.
  induction body as [|o b IH]; intros st G; cbn [good_multi good_body] in *; [reflexivity|].
  apply andb_prop in G as [G1 G2]. rewrite G1, (IH _ G2). destruct (is_commit_op o); reflexivity.
Qed.

Lemma good_multi_app a : forall b st,
  good_multi (a ++ b) st = good_multi a st && good_multi b (fst (d_run a st)).
Proof.
  induction a as [|o a IH]; intros b st; cbn [app good_multi d_run]; [reflexivity|].
  rewrite IH, andb_assoc. destruct (d_step o st) as [st1 r1]. cbn [fst].
  destruct (d_run a st1). reflexivity.
Qed.

(* the invariant of a state between operations: every key but the apex SOA
   satisfies [kinv]; the apex holds exactly one SOA, published and working *)
Definition soa_shape (st : store) : Prop := exists t s, s_get 0 st = Some (t, [s]).

Definition minv (st : dstate) : Prop :=
  pub_ne (ds_pub st) /\ soa_shape (ds_pub st) /\ soa_shape (ds_work st) /\
  forall k, k <> 0 -> kinv st k.

Lemma minv_start pub : pub_ok pub = true -> minv (d_start pub).
Proof.
  intros H. pose proof (pub_ok_ne pub H) as Hn.
  assert (S : soa_shape pub).
  { unfold pub_ok in H. apply andb_prop in H as [_ H0]. unfold soa_shape.
    destruct (s_get 0 pub) as [[to [|so [|? ?]]]|]; try discriminate. eauto. }
  split; [exact Hn|]. split; [exact S|]. split; [exact S|]. intros k _. apply kinv_start. exact Hn.
Qed.

(* the content a commit publishes is a well-formed published content again *)
Lemma minv_committed st : minv st -> minv (d_start (ds_work st)).
Proof.
  intros [Hn [Sp [Sw K]]].
  assert (Wn : pub_ne (ds_work st)).
  { intros k v E. destruct (N.eq_dec k 0) as [->|Hk].
    - destruct Sw as [t [s0 Es]]. rewrite Es in E. injection E as <-. discriminate.
    - destruct (K k Hk) as [_ [_ [IW _]]]. exact (IW v E). }
  split; [exact Wn|]. split; [exact Sw|]. split; [exact Sw|]. intros k _. apply kinv_start. exact Wn.
Qed.

Lemma minv_step o st :
  minv st -> (if is_commit_op o then true else good_op o st) = true -> minv (fst (d_step o st)).
Proof.
  assert (Rec : forall o st, minv st -> good_op o st = true -> minv (fst (d_step o st))).
  { clear. intros o st [Hn [Sp [Sw K]]] G. unfold minv.
    rewrite (ds_pub_step o st (good_op_no_commit _ _ G)).
    split; [exact Hn|]. split; [exact Sp|]. split; [|intros k Hk; apply kinv_step; auto].
    unfold soa_shape.
    destruct o as [|k0 d t|k0 d t| |s t|s t]; cbn [good_op] in G; try discriminate; cbn [d_step fst].
    - destruct (N.eqb_spec k0 0) as [|Hk]; [discriminate G|]. apply not_eq_sym in Hk.
      rewrite ds_work_update, (s_get_set_other _ _ _ _ Hk). exact Sw.
    - destruct (N.eqb_spec k0 0) as [|Hk]; [discriminate G|]. apply not_eq_sym in Hk.
      destruct (is_nil _).
      + cbn [remove_rrset ds_work]. rewrite (s_get_remove_other _ _ _ Hk). exact Sw.
      + rewrite ds_work_update, (s_get_set_other _ _ _ _ Hk). exact Sw.
    - exists t, s. rewrite ds_work_update. apply s_get_set_same. }
  intros M G. destruct o; try (apply Rec; assumption).
  - apply minv_committed. exact M.
  - rewrite d_step_finish. apply minv_committed, Rec; [exact M|reflexivity].
Qed.

Lemma minv_run ops : forall st, minv st -> good_multi ops st = true -> minv (fst (d_run ops st)).
Proof.
  induction ops as [|o ops IH]; intros st M G; cbn [d_run good_multi] in *; [exact M|].
  apply andb_prop in G as [G1 G2].
  pose proof (minv_step o st M G1) as M1.
  destruct (d_step o st) as [st1 r1]. cbn [fst] in *.
  specialize (IH st1 M1 G2). destruct (d_run ops st1) as [st2 r2]. exact IH.
Qed.

(* a commit on a state with the invariant reports a diff that applies *)
Lemma commit_applies st rem add :
  minv st -> snd (d_commit st) = Some (rem, add) ->
  forall k, same_rrset (applied_at k (ds_pub st) rem add) (s_get k (ds_work st)).
Proof.
  intros [Hn [[to [so P0]] [[tn [sn W0]] K]]] C k.
  unfold d_commit in C. rewrite P0, W0 in C. cbn [snd] in C.
  destruct (serial_range_invalid (soa_serial so) (soa_serial sn)); [discriminate|].
  injection C as <- <-.
  destruct (N.eq_dec k 0) as [->|Hk].
  - (* the SOA: old one removed, new one added *)
    unfold applied_at. rewrite P0, !s_get_set_same, W0. unfold rrs_minus. cbn [snd fst filter memN existsb].
    rewrite N.eqb_refl. cbn. split; [reflexivity|]. intros x. tauto.
  - unfold applied_at. rewrite !(s_get_set_other 0 k _ _ Hk).
    exact (kinv_applies st k Hn (K k Hk)).
Qed.

(* every diff reported in a multi-step history of good batches applies to the
   version that was published when its batch began *)
Theorem good_multi_diff_applies pub pre o post rem add :
  pub_ok pub = true -> good_multi (pre ++ o :: post) (d_start pub) = true ->
  let st := fst (d_run pre (d_start pub)) in
  snd (d_step o st) = [Some (rem, add)] ->
  forall k, same_rrset (applied_at k (ds_pub st) rem add) (s_get k (ds_work (fst (d_step o st)))).
Proof.
  intros Hok G st R k. rewrite good_multi_app in G. apply andb_prop in G as [Gp _].
  pose proof (minv_run pre _ (minv_start pub Hok) Gp) as M. fold st in M.
  destruct o as [|k0 d t|k0 d t| |s t|s t]; try discriminate R.
  - rewrite d_step_batch in R |- *. injection R as R. apply (commit_applies st); assumption.
  - rewrite d_step_finish, d_step_batch in R |- *. injection R as R.
    rewrite <- (ds_pub_step (DSoa s t) st eq_refl).
    apply (commit_applies (fst (d_step (DSoa s t) st))); [|exact R].
    apply minv_step; [exact M|reflexivity].
Qed.

(* the whole batch: [BeginBatchDelete] body Finished *)
Theorem good_history_diff_applies pub ops rem add :
  good_history pub ops = true ->
  last (c10_diff pub ops) None = Some (rem, add) ->
  forall k, same_rrset (applied_at k pub rem add) (s_get k (content_after pub ops)).
Proof.
  unfold good_history, c10_diff, content_after.
  set (ops' := match ops with DBatch :: r => r | _ => ops end).
  (* a leading BeginBatchDelete commits nothing and changes nothing *)
  assert (Lead : exists x, d_run ops (d_start pub) =
            (fst (d_run ops' (d_start pub)), x ++ snd (d_run ops' (d_start pub)))).
  { unfold ops'. destruct ops as [|[] r]; try (exists []; apply surjective_pairing).
    exists [snd (d_commit (d_start pub))]. cbn [d_run]. rewrite d_step_batch.
    change (d_start (ds_work (d_start pub))) with (d_start pub).
    destruct (d_run r (d_start pub)). reflexivity. }
  destruct Lead as [x ->]. cbn [fst snd].
  destruct (rev ops') as [|[| | | | |s t] rbody] eqn:R; try discriminate.
  assert (E : ops' = rev rbody ++ [DFinish s t]) by (rewrite <- (rev_involutive ops'), R; reflexivity).
  rewrite E, d_run_snoc. cbn [fst snd]. intros G L k. apply andb_prop in G as [Hok G].
  pose proof (good_multi_diff_applies pub (rev rbody) (DFinish s t) [] rem add Hok) as A.
  cbv zeta in A. rewrite (ds_pub_body _ _ G) in A. apply A.
  - rewrite good_multi_app, (good_body_multi _ _ G). reflexivity.
  - rewrite d_step_finish, d_step_batch in L |- *. cbn [snd] in L |- *.
    rewrite !app_assoc, last_last in L. rewrite L. reflexivity.
Qed.

Example good_history_example :
  good_history [(0, (3600, [50])); (1, (300, [5; 6]))]
               [DBatch; DDel 1 5 300; DSoa 52 3600; DAdd 1 7 300; DFinish 52 3600] = true /\
  diff_applies_b [(0, (3600, [50])); (1, (300, [5; 6]))]
               [DBatch; DDel 1 5 300; DSoa 52 3600; DAdd 1 7 300; DFinish 52 3600] = true.
Proof. vm_compute. split; reflexivity. Qed.

(* the three known classes are outside good_history *)
Example known_classes_not_good :
  good_history [(0, (3600, [50])); (1, (900, [9]))]
               [DBatch; DDel 1 9 900; DSoa 54 3600; DAdd 1 9 1900; DFinish 54 3600] = false /\
  good_history [(0, (3600, [50])); (1, (3600, [0; 1]))]
               [DDeleteAll; DAdd 1 0 3600; DAdd 1 1 3600; DFinish 52 3600] = false /\
  good_history [(0, (3600, [50])); (1, (900, [9])); (2, (300, [5]))]
               [DDeleteAll; DAdd 2 5 300; DFinish 52 3600] = false.
Proof. vm_compute. repeat split; reflexivity. Qed.

Example good_multi_example :
  good_history_multi [(0, (3600, [50])); (1, (300, [5; 6]))]
    [DBatch; DDel 1 5 300; DSoa 52 3600; DAdd 1 7 300; DBatch; DDel 1 6 300; DDel 1 7 300; DSoa 54 3600; DAdd 2 9 60; DFinish 54 3600] = true /\
  applies_multi
    [DBatch; DDel 1 5 300; DSoa 52 3600; DAdd 1 7 300; DBatch; DDel 1 6 300; DDel 1 7 300; DSoa 54 3600; DAdd 2 9 60; DFinish 54 3600]
    (d_start [(0, (3600, [50])); (1, (300, [5; 6]))]) = true.
Proof. vm_compute. split; reflexivity. Qed.

(* b - a modulo 2^32, for a and b below 2^32 *)
Lemma wrap_sub a b : a < 4294967296 -> b < 4294967296 ->
  (b + 4294967296 - a) mod 4294967296 = if a <=? b then b - a else b + 4294967296 - a.
Proof.
  intros Ha Hb. destruct (N.leb_spec a b).
  - replace (b + 4294967296 - a) with (b - a + 1 * 4294967296) by lia.
    rewrite N.mod_add by discriminate. apply N.mod_small. lia.
  - apply N.mod_small. lia.
Qed.

(* the serial range check of InMemoryZoneDiff::new is in RFC 1982 order (C17's
   closed form of Serial::partial_cmp), not in integer order *)
Theorem serial_range_invalid_spec s e :
  s < 4294967296 -> e < 4294967296 ->
  (serial_range_invalid s e = false <->
   let d := (e + 4294967296 - s) mod 4294967296 in 0 < d /\ d <= 2147483648).
Proof.
  intros Hs He. unfold serial_range_invalid.
  rewrite (C17.Proofs.cmp_closed_form e s He Hs).
  unfold C17.Model.classify, C17.Model.wdiff, C17.Model.M32. cbv zeta.
  rewrite (wrap_sub s e Hs He), (wrap_sub e s He Hs).
  destruct (N.eqb_spec s e) as [->|Hne]; cbn [orb].
  - rewrite N.leb_refl, N.sub_diag. split; [discriminate|lia].
  - destruct (N.leb_spec s e), (N.leb_spec e s); try lia.
    + (* s < e: the distance back from e to s is 2^32 - (e - s) *)
      destruct (N.eqb_spec (s + 4294967296 - e) 0); [lia|].
      destruct (N.ltb_spec (s + 4294967296 - e) 2147483648);
        [|destruct (N.eqb_spec (s + 4294967296 - e) 2147483648)];
        (split; [try discriminate; lia|try reflexivity; lia]).
    + destruct (N.eqb_spec (s - e) 0); [lia|].
      destruct (N.ltb_spec (s - e) 2147483648);
        [|destruct (N.eqb_spec (s - e) 2147483648)];
        (split; [try discriminate; lia|try reflexivity; lia]).
Qed.

Example diff_across_the_wrap :
  serial_range_invalid 4294967295 0 = false /\ serial_range_invalid 0 4294967295 = true /\
  serial_range_invalid 4294967294 7 = false /\ serial_range_invalid 5 5 = true.
Proof. vm_compute. repeat split; reflexivity. Qed.

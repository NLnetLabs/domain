(* C10 proofs, part 9: the (visible, working) pair the updater model uses,
   DERIVED from C09's model of the versioned store for one RRset cell
   (Versioned<SharedRrset>): while a writer edits version w on top of a history b,
   readers of older versions keep seeing what b holds (visible), a reader of w
   - what every reader sees once commit makes w current - sees the last value
   written (working), and dropping the writer (rollback of w) restores b. *)
From Coq Require Import NArith List Lia.
From DV Require C09.Gen C09.Model C09.Proofs.
Import ListNotations.
Local Open Scope N_scope.

Section CellRefinement.
Context {T : Type}.

(* the writer's edits of one RRset inside one open version: update_rrset /
   remove_rrset (WriteNode) = NodeRrset::update / remove at new_version *)
Inductive wop := WSet (x : T) | WClear.

Definition to_cop (w : N) (o : wop) : C09.Model.cop T :=
  match o with WSet x => C09.Model.CUpd w x | WClear => C09.Model.CRem w end.

(* the working value of the pair: the last edit, or what was published *)
Definition pair_work (published : option T) (os : list wop) : option T :=
  match rev os with
  | [] => published
  | WSet x :: _ => Some x
  | WClear :: _ => None
  end.

Lemma all_at w os : Forall (fun o => C09.Proofs.cop_ver o = w) (map (to_cop w) os).
Proof. induction os as [|[x|] os IH]; cbn; constructor; auto. Qed.

Lemma mono_at w os : C09.Proofs.mono_hist w (map (to_cop w) os).
Proof. induction os as [|[x|] os IH]; cbn; auto; split; try lia; exact IH. Qed.

Lemma c_run_app (d : list (C09.Model.entry T)) a b :
  C09.Model.c_run d (a ++ b) = C09.Model.c_run (C09.Model.c_run d a) b.
Proof. unfold C09.Model.c_run. apply fold_left_app. Qed.

Theorem cell_refines_pair w (b : list (C09.Model.entry T)) os :
  (* b: the cell as published: ordered history, all versions below the open one *)
  C09.Proofs.desc b -> C09.Proofs.le_all (w - 1) b -> 0 < w -> w < C09.Proofs.LIM ->
  let cell := C09.Model.c_run b (map (to_cop w) os) in
  (* visible: readers of any older version are not affected *)
  (forall r, C09.Proofs.ver_le w r = false -> C09.Model.v_get cell r = C09.Model.v_get b r) /\
  (* working: a reader of w (after commit) sees the pair's working value *)
  C09.Model.v_get cell w = pair_work (C09.Model.v_get b w) os /\
  (* drop: rolling w back restores the published cell *)
  C09.Model.v_rollback cell w = b.
Proof.
  intros Hd Hle Hw0 Hw. cbv zeta.
  assert (Nov : C09.Proofs.nov w b).
  { unfold C09.Proofs.nov, C09.Proofs.le_all in *. eapply Forall_impl; [|exact Hle]. cbn. intros a H. lia. }
  split; [|split].
  - intros r Hr. apply (C09.Proofs.cell_snapshot_isolation w b _ r Nov (all_at w os) Hr).
  - unfold pair_work. destruct (rev os) as [|o ro] eqn:R.
    + assert (os = []) by (rewrite <- (rev_involutive os), R; reflexivity). subst os. reflexivity.
    + assert (E : os = rev ro ++ [o]) by (rewrite <- (rev_involutive os), R; reflexivity).
      rewrite E, map_app, c_run_app. cbn [map C09.Model.c_run fold_left].
      assert (Rw : C09.Proofs.ver_le w w = true) by (apply C09.Proofs.ver_le_refl; unfold C09.Proofs.LIM in Hw; lia).
      destruct o as [x|]; cbn [to_cop C09.Model.c_apply].
      * apply C09.Proofs.cell_update_value. exact Rw.
      * apply C09.Proofs.cell_remove_value; [exact Rw|].
        (* every entry written so far is at a version <= w *)
        destruct (C09.Proofs.history_monotone (map (to_cop w) (rev ro)) w b Hd
                    (C09.Proofs.le_all_weaken (w - 1) w b ltac:(lia) Hle) (mono_at w (rev ro))) as [_ H2].
        specialize (H2 w). assert (Fa : Forall (fun o => C09.Proofs.cop_ver o <= w) (map (to_cop w) (rev ro))).
        { eapply Forall_impl; [|apply all_at]. cbn. intros a Ha. lia. }
        specialize (H2 Fa ltac:(lia)).
        eapply Forall_impl; [|exact H2]. intros a Ha. cbv beta in Ha |- *.
        rewrite C09.Proofs.ver_le_small; [apply N.leb_le; exact Ha|unfold C09.Proofs.LIM in *; lia|exact Hw].
  - apply (C09.Proofs.cell_rollback_restores w b _ Nov (all_at w os)).
Qed.

End CellRefinement.

Example cell_refines_pair_nonvacuous :
  C09.Model.v_get (C09.Model.c_run [(3, Some 10)] (map (to_cop 4) [WSet 11; WClear; WSet 12])) 4 = Some 12 /\
  C09.Model.v_get (C09.Model.c_run [(3, Some 10)] (map (to_cop 4) [WSet 11; WClear; WSet 12])) 3 = Some 10.
Proof. vm_compute. split; reflexivity. Qed.

(* XfrMiddlewareSvc::preprocess: the decision table *)
From DV Require Import C10.Gen C10.Model.
From DV Require C17.Gen C17.Model.

Definition xfr_request (q : N) (ser : option N) (udp : bool) : xreq := mkReq true q ser udp.

(* an IXFR client that is not behind (RFC 1982 order, C17) gets the zone SOA
   alone - when the provider has diffs to offer *)
Theorem decide_up_to_date qs zs udp n compat :
  n <> 0 -> C17.Model.serial_ge qs zs = true ->
  decide (xfr_request 251 (Some qs) udp) (PData n compat) (Some zs) = DSingleSoa.
Proof.
  intros Hn Hs. unfold decide, xfr_request, qtype_axfr, qtype_ixfr. cbn.
  destruct (N.eqb_spec n 0); [contradiction|]. rewrite Hs. reflexivity.
Qed.

Theorem decide_behind qs zs udp n compat :
  n <> 0 -> C17.Model.serial_ge qs zs = false ->
  decide (xfr_request 251 (Some qs) udp) (PData n compat) (Some zs) = DIxfr.
Proof.
  intros Hn Hs. unfold decide, xfr_request, qtype_axfr, qtype_ixfr. cbn.
  destruct (N.eqb_spec n 0); [contradiction|]. rewrite Hs. reflexivity.
Qed.

(* no diffs: the whole zone, whatever the serials; one record per message only
   for AXFR questions *)
Theorem decide_fallback ser udp compat zs :
  decide (xfr_request 251 (Some ser) udp) (PData 0 compat) (Some zs) = DAxfr false.
Proof. unfold decide, xfr_request, qtype_axfr, qtype_ixfr, sender_compat_axfr_only. cbn. destruct compat; reflexivity. Qed.

Theorem decide_axfr compat zs :
  decide (xfr_request 252 None false) (PData 0 compat) (Some zs) = DAxfr compat /\
  decide (xfr_request 252 None true) (PData 0 compat) (Some zs) = DNotimp.
Proof. unfold decide, xfr_request, qtype_axfr, qtype_ixfr, sender_compat_axfr_only. cbn. destruct compat; split; reflexivity. Qed.

Theorem decide_errors q ser udp zs :
  (q = 252 \/ (q = 251 /\ ser <> None)) ->
  decide (xfr_request q ser udp) PUnknown zs = DErr 9 /\         (* NOTAUTH *)
  decide (xfr_request q ser udp) PRefused zs = DErr 5 /\         (* REFUSED *)
  decide (xfr_request q ser udp) PUnavailable zs = DErr 2 /\     (* SERVFAIL *)
  decide (xfr_request q ser udp) PParse zs = DErr 1 /\           (* FORMERR *)
  (forall n c, decide (xfr_request q ser udp) (PData n c) None = DErr 2) /\
  decide (xfr_request 251 None udp) PUnknown zs = DErr 1.        (* IXFR without SOA: FORMERR first *)
Proof.
  intros [->|[-> Hs]]; unfold decide, xfr_request, qtype_axfr, qtype_ixfr,
    rc_prov_unknown, rc_prov_refused, rc_prov_unavailable, rc_prov_parse, rc_no_soa, rc_ixfr_no_soa; cbn;
  try (destruct ser; [|contradiction]); repeat split; reflexivity.
Qed.

(* the unreachable!() arm is reached only by a provider that hands out diffs
   for an AXFR question *)
Theorem decide_no_panic rq pr zs :
  (forall n c, pr = PData n c -> rq_qtype rq = 252 -> n = 0) -> decide rq pr zs <> DPanic.
Proof.
  intros H. unfold decide, qtype_axfr, qtype_ixfr.
  destruct (rq_relevant rq); cbn [andb negb]; [|discriminate].
  destruct (N.eqb_spec (rq_qtype rq) 252) as [E2|N2]; destruct (N.eqb_spec (rq_qtype rq) 251) as [E1|N1];
    cbn [orb negb andb]; try discriminate; try (rewrite E2 in E1; discriminate).
  - destruct pr; try discriminate. destruct zs; [|discriminate].
    destruct (rq_udp rq); [discriminate|]. rewrite (H ndiffs compat eq_refl E2). cbn. discriminate.
  - destruct (rq_serial rq) as [qs|]; cbn; [|discriminate]. destruct pr as [nd cp| | | |]; try discriminate.
    destruct zs as [z0|]; [|discriminate]. destruct (nd =? 0); [discriminate|].
    destruct (C17.Model.serial_ge qs z0); discriminate.
Qed.

Example decide_across_the_wrap :
  decide (xfr_request 251 (Some 2) false) (PData 1 false) (Some 4294967295) = DSingleSoa /\
  decide (xfr_request 251 (Some 4294967295) false) (PData 1 false) (Some 2) = DIxfr.
Proof. vm_compute. split; reflexivity. Qed.

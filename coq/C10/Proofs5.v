(* C10 proofs, part 5: the sender's record sequences and batching composed with
   the receiver: what the receiver ends up with is the sender's zone. *)
From Coq Require Import NArith List Lia Permutation.
From DV Require Import Base.Outcome C10.Gen C10.Model C10.Proofs1 C10.Proofs2 C10.Proofs3.
Import ListNotations.
Local Open Scope N_scope.

Lemma batch_go_spec size limit hard rs : forall cur cursz chunks,
  batch_go size limit hard cur cursz rs = Ok chunks ->
  concat chunks = rev cur ++ rs /\ Forall (fun c => c <> []) chunks.
Proof.
  induction rs as [|r rest IH]; intros cur cursz chunks; cbn [batch_go].
  - intros [= <-]. destruct cur as [|c cur]; cbn.
    + split; [reflexivity|constructor].
    + rewrite !app_nil_r. split; [reflexivity|].
      constructor; [|constructor]. intros E. apply app_eq_nil in E as [_ E]. discriminate.
  - (* the record is in the message [cur'], [pre] was sent before it *)
    assert (Tail : forall pre cur' sz' chunks,
      Forall (fun c => c <> []) pre -> cur' <> [] ->
      (if match hard with Some h => N.of_nat (length cur') =? h | None => false end
       then do t <- batch_go size limit hard [] 0 rest; Ok (pre ++ rev cur' :: t)
       else do t <- batch_go size limit hard cur' sz' rest; Ok (pre ++ t)) = Ok chunks ->
      concat chunks = concat pre ++ rev cur' ++ rest /\ Forall (fun c => c <> []) chunks).
    { intros pre cur' sz' chunks' Hpre Hc'.
      assert (Ne : rev cur' <> []).
      { intros E. apply (f_equal (@rev rr)) in E. rewrite rev_involutive in E. contradiction. }
      destruct (match hard with Some h => _ | None => false end);
        [destruct (batch_go size limit hard [] 0 rest) as [t| | |] eqn:B
        |destruct (batch_go size limit hard cur' sz' rest) as [t| | |] eqn:B];
        cbn [bind]; try discriminate; intros [= <-]; destruct (IH _ _ _ B) as [C F];
        rewrite concat_app; cbn [concat]; rewrite C; (split; [reflexivity|]);
        apply Forall_app; split; auto. }
    destruct (cursz + size r <=? limit).
    + intros H. apply (Tail [] (r :: cur)) in H as [C F]; [|constructor|discriminate].
      split; [|exact F]. rewrite C. cbn [concat rev app]. rewrite <- app_assoc. reflexivity.
    + (* it does not fit: the message so far is sent, the record opens a new one *)
      destruct cur as [|c cur]; [discriminate|].
      destruct (size r <=? limit); [|discriminate].
      intros H. apply (Tail [rev (c :: cur)] [r]) in H as [C F]; [| |discriminate].
      * split; [|exact F]. rewrite C. cbn [concat rev app]. rewrite <- !app_assoc. reflexivity.
      * constructor; [|constructor]. cbn [rev]. intros E. apply app_eq_nil in E as [_ E]. discriminate.
Qed.

Lemma batch_spec size limit hard rs chunks :
  batch size limit hard rs = Ok chunks ->
  concat chunks = rs /\ Forall (fun c => c <> []) chunks.
Proof. apply batch_go_spec. Qed.

(* without a record limit, the first message takes at least the records that
   were already in it *)
Lemma batch_go_first size limit rs : forall cur cursz c t,
  cur <> [] -> batch_go size limit None cur cursz rs = Ok (c :: t) ->
  (length cur <= length c)%nat.
Proof.
  induction rs as [|r rest IH]; intros cur cursz c t Hc; cbn [batch_go].
  - destruct cur; [contradiction|]. intros H; inversion H; subst. cbn [rev]. rewrite ?app_length, ?rev_length. cbn [length]. lia.
  - destruct (cursz + size r <=? limit).
    + destruct (batch_go size limit None (r :: cur) (cursz + size r) rest) as [t'| | |] eqn:B; cbn [bind]; try discriminate.
      intros H; inversion H; subst.
      assert (L := IH (r :: cur) _ c t ltac:(discriminate) B). cbn [length] in L. lia.
    + destruct cur as [|x cur]; [contradiction|].
      destruct (size r <=? limit); [|intros H; discriminate].
      destruct (batch_go size limit None [r] (0 + size r) rest) as [t'| | |]; cbn [bind]; try discriminate.
      intros H; inversion H; subst. cbn [rev]. rewrite ?app_length, ?rev_length. cbn [length]. lia.
Qed.

Lemma batch_first_two size limit r1 r2 rest c t :
  size r1 + size r2 <= limit ->
  batch size limit None (r1 :: r2 :: rest) = Ok (c :: t) -> (2 <= length c)%nat.
Proof.
  intros Hs. unfold batch. cbn [batch_go].
  assert (F1 : (0 + size r1 <=? limit) = true) by (apply N.leb_le; lia).
  rewrite F1.
  assert (F2 : (0 + size r1 + size r2 <=? limit) = true) by (apply N.leb_le; lia).
  rewrite F2.
  destruct (batch_go size limit None [r2; r1] (0 + size r1 + size r2) rest) as [t'| | |] eqn:B; cbn [bind]; try discriminate.
  intros H; inversion H; subst.
  assert (Hne : [r2; r1] <> []) by discriminate.
  assert (L := batch_go_first size limit rest [r2; r1] _ c t Hne B). cbn [length] in L. exact L.
Qed.

Lemma sender_msg_carries first q c : c <> [] ->
  carries first (mkMsg (mkHdr true opcode_query rcode_noerror false 1 (N.of_nat (length c)) 0 (Some q))
                       (map Rec c)) c.
Proof.
  intros Hc. split; [|split; [reflexivity|exact Hc]].
  assert (G : good_hdr true (mkHdr true opcode_query rcode_noerror false 1 (N.of_nat (length c)) 0 (Some q))).
  { unfold good_hdr, opcode_query, rcode_noerror. cbn. repeat split.
    destruct c; [contradiction|]. cbn [length]. lia. }
  destruct first; [exact G|apply later_qd_0_or_1_ok; exact G].
Qed.

Lemma sender_msgs_later q chunks :
  Forall (fun c => c <> []) chunks -> packs_later (sender_msgs q chunks) chunks.
Proof.
  induction 1 as [|c cs Hc _ IH]; cbn [sender_msgs map]; constructor; [|exact IH].
  apply sender_msg_carries. exact Hc.
Qed.

Lemma sender_msgs_packs q chunks :
  chunks <> [] -> Forall (fun c => c <> []) chunks -> packs q (sender_msgs q chunks) chunks.
Proof.
  intros Hn F. destruct F as [|c cs Hc Fcs]; [contradiction|]. cbn [sender_msgs map packs].
  split; [apply sender_msg_carries; exact Hc|]. split; [reflexivity|apply sender_msgs_later; exact Fcs].
Qed.

Lemma keys_of_zone_of v : keys_of (zone_of v) = snd v.
Proof.
  unfold zone_of, keys_of. cbn [flat_map app]. induction (snd v) as [|k ks IH]; cbn; [reflexivity|].
  f_equal. exact IH.
Qed.

Lemma sender_axfr_zone_of v : sender_axfr (zone_of v) = Some (axfr_seq (fst v) (snd v)).
Proof. unfold sender_axfr. rewrite keys_of_zone_of. reflexivity. Qed.

Section Loop.
Variable chk : bool.

(* AXFR: zone walk -> batcher -> interpreter -> updater = the sender's zone,
   for every message size limit, record limit and start zone *)
Theorem transfer_identity_axfr v size limit hard rs chunks z0 :
  sender_axfr (zone_of v) = Some rs ->
  batch size limit hard rs = Ok chunks ->
  exists us st, run None (sender_msgs 252 chunks) = (us, SDone) /\
    u_apply_all chk us (u_start z0) = Ok st /\ u_fin st = true /\
    Permutation (u_visible st) (zone_of v).
Proof.
  intros Hs Hb. rewrite sender_axfr_zone_of in Hs. inversion Hs; subst rs. clear Hs.
  destruct (batch_spec _ _ _ _ _ Hb) as [C F].
  assert (Hn : chunks <> []).
  { intros ->. cbn in C. unfold axfr_seq in C. discriminate. }
  destruct (axfr_fidelity chk (fst v) (snd v) _ chunks z0 (sender_msgs_packs 252 chunks Hn F) C)
    as [us [st [R [A [Fi [_ P]]]]]].
  exists us, st. repeat split; auto.
Qed.

Lemma mk_diff_rel v v' : diff_rel (mk_diff v v') (zone_of v) (zone_of v').
Proof.
  assert (O : forall k l, In (Other k) (map Other l) <-> In k l).
  { intros k l. rewrite in_map_iff. split; [intros [k' [[= ->] H]]; exact H|eauto]. }
  intros r. unfold zone_of, mk_diff. cbn [In d_new d_adds d_dels fst snd].
  destruct r as [s|k].
  - rewrite in_map_iff. split; [intros [[= ->]|[k [[=] _]]]; reflexivity|intros ->; left; reflexivity].
  - rewrite !in_filter_notin, !O.
    split; [intros [[=]|H]; destruct (in_dec N.eq_dec k (snd v)); tauto|].
    intros [[H _]|[[[=]|H] Hn]]; [tauto|]. destruct (in_dec N.eq_dec k (snd v')); tauto.
Qed.

Lemma mk_diffs_chain v vs :
  chain_rel (zone_of v) (mk_diffs (v :: vs)) (zone_of (last (v :: vs) (0, []))).
Proof.
  revert v. induction vs as [|v' vs IH]; intros v.
  - cbn. intros r. tauto.
  - cbn [mk_diffs chain_rel]. exists (zone_of v'). split; [apply mk_diff_rel|].
    change (last (v :: v' :: vs) (0, [])) with (last (v' :: vs) (0, [])). apply IH.
Qed.

Lemma mk_diffs_soa_chain v vs : soa_chain (fst v) (mk_diffs (v :: vs)).
Proof.
  revert v. induction vs as [|v' vs IH]; intros v; cbn [mk_diffs soa_chain]; [exact I|].
  split; [reflexivity|]. apply IH.
Qed.

Lemma mk_diffs_old v vs d : In d (mk_diffs (v :: vs)) -> In (d_old d) (map fst (removelast (v :: vs))).
Proof.
  revert v. induction vs as [|v' vs IH]; intros v; cbn [mk_diffs]; [intros []|].
  intros [<-|H]; [left; reflexivity|]. right. apply IH. exact H.
Qed.

(* IXFR: diffs -> DiffFunneler -> batcher (no record limit: compatibility mode
   is for AXFR questions only) -> interpreter -> updater on the oldest version =
   the newest version *)
Theorem ixfr_transfer snew ds cur old new size limit chunks :
  ds <> [] -> (forall d, In d ds -> d_old d <> snew) ->
  chain_rel old ds new -> (forall s, In (Soa s) new <-> s = snew) ->
  z_first_soa old = Some cur -> soa_chain cur ds ->
  (forall r1 r2, size r1 + size r2 <= limit) ->
  batch size limit None (ixfr_seq snew ds) = Ok chunks ->
  exists us st, run None (sender_msgs 251 chunks) = (us, SDone) /\
    u_apply_all chk us (u_start old) = Ok st /\ u_fin st = true /\ zeq (u_visible st) new.
Proof.
  intros Hds Hne Hch Hsoa Hcur Hsc Hfit Hb.
  destruct (batch_spec _ _ _ _ _ Hb) as [C F].
  assert (Hn : chunks <> []) by (intros ->; discriminate C).
  apply (ixfr_fidelity chk snew ds old new _ chunks Hne Hch Hsoa (soa_chain_ok chk ds old cur Hcur Hsc)
           (sender_msgs_packs 251 chunks Hn F) C).
  (* the SOA does not travel alone: the sequence has at least three records *)
  intros [_ [r [cs' [-> _]]]]. destruct ds as [|d ds]; [contradiction|].
  apply batch_first_two in Hb; [cbn in Hb; lia|apply Hfit].
Qed.

Theorem transfer_identity_ixfr v vs size limit chunks :
  vs <> [] ->
  (* the serial of the newest version is not one of the older ones *)
  ~ In (fst (last (v :: vs) (0, []))) (map fst (removelast (v :: vs))) ->
  (* any two records fit one message *)
  (forall r1 r2, size r1 + size r2 <= limit) ->
  batch size limit None (sender_ixfr (v :: vs)) = Ok chunks ->
  exists us st, run None (sender_msgs 251 chunks) = (us, SDone) /\
    u_apply_all chk us (u_start (zone_of v)) = Ok st /\ u_fin st = true /\
    zeq (u_visible st) (zone_of (last (v :: vs) (0, []))).
Proof.
  intros Hvs Hnew Hfit Hb.
  apply (ixfr_transfer (fst (last (v :: vs) (0, []))) (mk_diffs (v :: vs)) (fst v) _ _ size limit chunks); auto.
  - destruct vs; [contradiction|discriminate].
  - intros d Hd E. apply Hnew. rewrite <- E. apply mk_diffs_old. exact Hd.
  - apply mk_diffs_chain.
  - intros s. unfold zone_of. cbn [In]. rewrite in_map_iff. split.
    + intros [[= <-]|[k [[=] _]]]. reflexivity.
    + intros ->. left. reflexivity.
  - apply mk_diffs_soa_chain.
Qed.

End Loop.

Example transfer_identity_ixfr_nonvacuous :
  batch (fun _ => 10) 35 None (sender_ixfr [(6, [1; 2]); (8, [2; 3]); (12, [3])]) =
  Ok [[Soa 12; Soa 6; Other 1]; [Soa 8; Other 3; Soa 8]; [Other 2; Soa 12; Soa 12]].
Proof. vm_compute. reflexivity. Qed.

Example transfer_identity_axfr_nonvacuous :
  batch (fun _ => 10) 100 (Some 1) (axfr_seq 6 [1; 2]) = Ok [[Soa 6]; [Other 1]; [Other 2]; [Soa 6]].
Proof. vm_compute. reflexivity. Qed.

(* the counter is a usize: as wide as the target's pointers (T1, from
   `rustc --print cfg`), so it cannot wrap on any stream the address space
   holds; a narrower counter breaks [rr_count_width] *)
Lemma rr_count_width : target_pointer_width <= rr_count_bits.
Proof. unfold rr_count_bits, target_pointer_width. lia. Qed.

Theorem rr_count_no_overflow ty s rs p' us e :
  flat (proc_new ty s) rs = (p', us, e) ->
  N.of_nat (length rs) < 2 ^ target_pointer_width -> p_count p' < 2 ^ rr_count_bits.
Proof.
  intros F L. apply flat_count in F as [F _]. cbn [proc_new p_count] in F.
  pose proof (N.pow_le_mono_r 2 target_pointer_width rr_count_bits ltac:(lia) rr_count_width). lia.
Qed.

Example rr_count_example :
  p_count (fst (fst (flat (proc_new Axfr 7) [Soa 7; Other 1; Soa 7; Other 2]))) = 3.
Proof. vm_compute. reflexivity. Qed.

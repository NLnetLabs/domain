(* C10 proofs, part 1: header check, record processing as a fold, message
   boundaries are irrelevant (up to the documented single-SOA rule). *)
From Coq Require Import NArith List Bool Lia.
From DV Require Import C10.Gen C10.Model.
Import ListNotations.
Local Open Scope N_scope.

Definition good_hdr (first : bool) (h : hdr) : Prop :=
  h_qr h = true /\ h_opcode h = 0 /\ h_rcode h = 0 /\ h_tc h = false /\
  0 < h_an h /\ h_ns h = 0 /\
  (if first then h_qd h = 1 else h_qd h <= 1).

Lemma check_response_spec first h :
  check_response first h = false <-> good_hdr first h.
Proof.
  unfold check_response, good_hdr, check_tags, rcode_noerror, opcode_query,
    qd_first_op, qd_first_const, qd_later_op, qd_later_const.
  cbn [existsb check_cond].
  (* one equivalence per test of the header, then the question count *)
  rewrite !orb_false_iff, !negb_false_iff, !N.eqb_eq, N.eqb_neq, N.neq_0_lt_0.
  destruct first; cbn [cmp_op]; [rewrite negb_false_iff, N.eqb_eq|rewrite N.ltb_ge]; tauto.
Qed.

Example good_hdr_nonvacuous : good_hdr true (mkHdr true 0 0 false 1 3 0 (Some 252)).
Proof. unfold good_hdr; cbn; repeat split; lia. Qed.

Definition is_first (st : option proc) : bool := match st with None => true | Some _ => false end.

(* every header fault rejects the message, leaves the interpreter state as it
   was and produces no update *)
Lemma reject_header st m :
  st_finished st = false -> ~ good_hdr (is_first st) (m_hdr m) ->
  interpret_response st m = (st, IErr E_NotValid).
Proof.
  intros Hf Hb. unfold interpret_response. rewrite Hf.
  destruct (check_response (match st with None => true | Some _ => false end) (m_hdr m)) eqn:E.
  - reflexivity.
  - exfalso. apply Hb. apply check_response_spec. exact E.
Qed.

(* the individual faults of the property text *)
Lemma bad_rcode first h : h_rcode h <> 0 -> ~ good_hdr first h.
Proof. unfold good_hdr; tauto. Qed.
Lemma bad_tc first h : h_tc h = true -> ~ good_hdr first h.
Proof. unfold good_hdr; intros H [_ [_ [_ [T _]]]]; congruence. Qed.
Lemma bad_qr first h : h_qr h = false -> ~ good_hdr first h.
Proof. unfold good_hdr; intros H [T _]; congruence. Qed.
Lemma bad_opcode first h : h_opcode h <> 0 -> ~ good_hdr first h.
Proof. unfold good_hdr; tauto. Qed.
Lemma bad_ancount first h : h_an h = 0 -> ~ good_hdr first h.
Proof. unfold good_hdr; intros H [_ [_ [_ [_ [T _]]]]]; lia. Qed.
Lemma bad_nscount first h : h_ns h <> 0 -> ~ good_hdr first h.
Proof. unfold good_hdr; tauto. Qed.
Lemma bad_qd_first h : h_qd h <> 1 -> ~ good_hdr true h.
Proof. unfold good_hdr; tauto. Qed.
Lemma bad_qd_later h : 1 < h_qd h -> ~ good_hdr false h.
Proof. unfold good_hdr; intros H [_ [_ [_ [_ [_ [_ T]]]]]]; lia. Qed.
(* and qdcount 0 IS accepted in later messages, 1 as well (the `>` of the code) *)
Lemma later_qd_0_or_1_ok h : good_hdr true h -> good_hdr false h.
Proof. unfold good_hdr; intuition lia. Qed.

Definition ty_of_qtype (q : option N) : option xfr_type :=
  match q with
  | Some q => if q =? 252 then Some Axfr else if q =? 251 then Some Ixfr else None
  | None => None
  end.

Lemma inner_new_spec m :
  inner_new m =
  match ty_of_qtype (h_qtype (m_hdr m)) with
  | None => inl E_NotValid
  | Some ty =>
      match m_items m with
      | Rec (Soa s) :: _ => inr (proc_new ty s)
      | Rec (Other _) :: _ => inl E_NotValid
      | _ => inl E_Malformed
      end
  end.
Proof.
  unfold inner_new, ty_of_qtype, qtype_axfr, qtype_ixfr.
  destruct (h_qtype (m_hdr m)) as [q|]; [|reflexivity].
  destruct (q =? 252); [|destruct (q =? 251)]; try reflexivity;
  destruct (m_items m) as [|[[?|?]|] ?]; reflexivity.
Qed.

(* wrong question: any type other than AXFR (252) / IXFR (251), or no question *)
Lemma reject_wrong_question m :
  ty_of_qtype (h_qtype (m_hdr m)) = None ->
  interpret_response None m = (None, IErr E_NotValid).
Proof.
  intros H. unfold interpret_response. cbn [st_finished].
  destruct (check_response true (m_hdr m)); [reflexivity|].
  rewrite inner_new_spec, H. reflexivity.
Qed.

Lemma reject_first_not_soa m k rest :
  m_items m = Rec (Other k) :: rest ->
  interpret_response None m = (None, IErr E_NotValid).
Proof.
  intros H. unfold interpret_response. cbn [st_finished].
  destruct (check_response true (m_hdr m)); [reflexivity|].
  rewrite inner_new_spec, H. destruct (ty_of_qtype _); reflexivity.
Qed.

(* the one case analysis of process_record: counter, finished flag, errors *)
Lemma process_record_facts p r p' res :
  process_record p r = (p', res) ->
  if p_finished p then p' = p /\ res = inl E_AlreadyFinished else
  p_count p' = p_count p + 1 /\
  match res with
  | inl e => p_count p = 0 /\ is_soa r = false /\ e = E_MissingInitialSoa
  | inr us => us = [] -> p_finished p' = false
  end.
Proof.
  unfold process_record, start_count, fallback_count, set_finished, toggle.
  destruct (p_finished p). { intros [= <- <-]. auto. }
  destruct (N.eqb_spec (p_count p + 1) 1) as [C1|_].
  - destruct r; cbn [is_soa]; intros [= <- <-]; cbn; repeat split; lia.
  - intros H.
    destruct (p_ty p), r as [s|k]; cbn [is_soa negb andb] in H;
    repeat match type of H with
    | context [if ?b then _ else _] => destruct b
    | context [match ?x with Deleting => _ | Adding => _ end] => destruct x
    end; cbn in H; injection H as <- <-; split; (reflexivity || discriminate).
Qed.

Lemma pr_err_state p r p' e :
  process_record p r = (p', inl e) ->
  (p' = p /\ p_finished p = true /\ e = E_AlreadyFinished) \/
  (p_finished p = false /\ p_count p = 0 /\ e = E_MissingInitialSoa /\ is_soa r = false).
Proof.
  intros H. apply process_record_facts in H. destruct (p_finished p).
  - left. destruct H as [-> [= ->]]. auto.
  - right. tauto.
Qed.

(* the record stream as a fold *)
Fixpoint flat (p : proc) (rs : list rr) : proc * list upd * option N :=
  match rs with
  | [] => (p, [], None)
  | r :: rest =>
      match process_record p r with
      | (p', inl e) => (p', [], Some e)
      | (p', inr us) => let '(p'', us', e) := flat p' rest in (p'', us ++ us', e)
      end
  end.

Lemma flat_app a : forall p b,
  flat p (a ++ b) =
  match flat p a with
  | (p', us, None) => let '(p'', us', e) := flat p' b in (p'', us ++ us', e)
  | r => r
  end.
Proof.
  induction a as [|r a IH]; intros p b; cbn [app flat].
  - destruct (flat p b) as [[? ?] ?]. reflexivity.
  - destruct (process_record p r) as [p' [e|us]]; [reflexivity|].
    rewrite IH. destruct (flat p' a) as [[p1 us1] [e1|]]; [reflexivity|].
    destruct (flat p1 b) as [[p2 us2] e2]. rewrite app_assoc. reflexivity.
Qed.

Lemma flat_count rs : forall p p' us e,
  flat p rs = (p', us, e) ->
  p_count p' <= p_count p + N.of_nat (length rs) /\
  (e = None -> p_count p' = p_count p + N.of_nat (length rs)).
Proof.
  induction rs as [|r rs IH]; intros p p' us e; cbn [flat length].
  - intros [= <- _ <-]. lia.
  - destruct (process_record p r) as [p1 [e1|us1]] eqn:E; apply process_record_facts in E;
      destruct (p_finished p).
    + destruct E as [-> _]. intros [= <- _ <-]. split; [lia|discriminate].
    + intros [= <- _ <-]. split; [lia|discriminate].
    + destruct E as [_ [=]].
    + destruct (flat p1 rs) as [[p2 us2] e2] eqn:F. intros [= <- _ <-].
      apply IH in F as [F1 F2]. destruct E as [E _].
      split; [lia|intros H; specialize (F2 H); lia].
Qed.

Lemma flat_silent rs : forall p p',
  flat p rs = (p', [], None) -> p_finished p' = p_finished p.
Proof.
  induction rs as [|r rs IH]; intros p p'; cbn [flat].
  - intros [= <-]. reflexivity.
  - destruct (process_record p r) as [p1 [e1|us1]] eqn:E; [discriminate|].
    destruct (flat p1 rs) as [[p2 us2] e2] eqn:F. intros [= <- H ->].
    apply app_eq_nil in H as [-> ->]. rewrite (IH _ _ F).
    apply process_record_facts in E. destruct (p_finished p); [destruct E as [_ [=]]|].
    apply E. reflexivity.
Qed.

(* the iterator's end-of-message rule (SingleSoaIxfrTcpRetrySignal) *)
Definition single_soa_fires (p : proc) : bool :=
  negb (p_finished p) && (match p_ty p with Ixfr => true | Axfr => false end)
  && (p_count p =? 1).

Lemma quiet_unless_one_record p : p_count p <> 1 -> single_soa_fires p = false.
Proof.
  intros H. unfold single_soa_fires. destruct (N.eqb_spec (p_count p) 1); [contradiction|].
  apply andb_false_r.
Qed.

Lemma quiet_when_finished p : p_finished p = true -> single_soa_fires p = false.
Proof. intros H. unfold single_soa_fires. rewrite H. reflexivity. Qed.

Lemma iter_msg_flat rs : forall p,
  iter_msg p (map Rec rs) =
  match flat p rs with
  | (p', us, None) =>
      if single_soa_fires p' then (set_finished p', us, Some E_SingleSoa) else (p', us, None)
  | res => res
  end.
Proof.
  induction rs as [|r rs IH]; intros p; cbn [map iter_msg flat].
  - reflexivity.
  - destruct (process_record p r) as [p1 [e|us1]]; [reflexivity|].
    rewrite IH. destruct (flat p1 rs) as [[p2 us2] [e2|]]; [reflexivity|].
    destruct (single_soa_fires p2); reflexivity.
Qed.

Definition carries (first : bool) (m : msg) (c : list rr) : Prop :=
  good_hdr first (m_hdr m) /\ m_items m = map Rec c /\ c <> [].

Inductive packs_later : list msg -> list (list rr) -> Prop :=
| pl_nil : packs_later [] []
| pl_cons m c ms cs : carries false m c -> packs_later ms cs -> packs_later (m :: ms) (c :: cs).

Definition packs (q : N) (ms : list msg) (cs : list (list rr)) : Prop :=
  match ms, cs with
  | m :: ms', c :: cs' =>
      carries true m c /\ h_qtype (m_hdr m) = Some q /\ packs_later ms' cs'
  | _, _ => False
  end.

Lemma packs_nonempty q ms cs : packs q ms cs -> concat cs <> [].
Proof.
  destruct ms, cs as [|c cs]; try contradiction. intros [[_ [_ Hne]] _] E.
  apply app_eq_nil in E as [E _]. contradiction.
Qed.

Definition status_of (p : proc) (e : option N) : status :=
  match e with Some e => SErr e | None => if p_finished p then SDone else SIncomplete end.

(* statuses agree, or both are errors (a message after the end gives
   Error::Finished where a record after the end gives AlreadyFinished) *)
Definition st_equiv (a b : status) : Prop :=
  a = b \/ (exists e1 e2, a = SErr e1 /\ b = SErr e2).

(* the end-of-message rule needs exactly one record so far and every message
   carries at least one: after a first record the rule is silent for good *)
Lemma run_later ms : forall cs p,
  packs_later ms cs -> 1 <= p_count p ->
  let '(p', us, e) := flat p (concat cs) in
  fst (run (Some p) ms) = us /\ st_equiv (snd (run (Some p) ms)) (status_of p' e).
Proof.
  induction ms as [|m ms IH]; intros cs p Hp Hs.
  - inversion Hp; subst. cbn. split; [reflexivity|left; reflexivity].
  - inversion Hp as [|m0 c ms0 cs0 [Hh [Hi Hne]] Hrest]; subst.
    cbn [concat run]. unfold interpret_response. cbn [st_finished].
    destruct (p_finished p) eqn:F.
    + (* already finished: Error::Finished vs AlreadyFinished on the next record *)
      destruct c as [|r c]; [congruence|]. cbn [app flat].
      unfold process_record. rewrite F. cbn. split; [reflexivity|].
      right. eauto.
    + apply check_response_spec in Hh. rewrite Hh, Hi, flat_app, iter_msg_flat.
      destruct (flat p c) as [[p1 us1] [e1|]] eqn:Fc.
      * cbn. split; [reflexivity|left; reflexivity].
      * apply flat_count in Fc as [_ Fc]. specialize (Fc eq_refl).
        assert (Hl : length c <> 0%nat) by (destruct c; [congruence|discriminate]).
        rewrite quiet_unless_one_record by lia.
        specialize (IH cs0 p1 Hrest ltac:(lia)).
        destruct (flat p1 (concat cs0)) as [[p2 us2] e2].
        destruct (run (Some p1) ms) as [usr sr]. cbn in IH. destruct IH as [IH1 IH2].
        subst. cbn. split; [reflexivity|exact IH2].
Qed.

(* the reference semantics of a whole record sequence under question type [ty] *)
Definition flat_run (ty : xfr_type) (rs : list rr) : list upd * status :=
  match rs with
  | [] => ([], SErr E_Malformed)
  | Other _ :: _ => ([], SErr E_NotValid)
  | Soa s :: _ =>
      let '(p', us, e) := flat (proc_new ty s) rs in
      match e with
      | Some e => (us, SErr e)
      | None => if single_soa_fires p' then (us, SErr E_SingleSoa)
                else (us, if p_finished p' then SDone else SIncomplete)
      end
  end.

Definition qtype_of (ty : xfr_type) : N := match ty with Axfr => 252 | Ixfr => 251 end.

(* the one packaging the interpreter does not accept (known finding
   ixfr_lone_soa_first_message): IXFR question, first message holds exactly one
   record, more messages follow *)
Definition lone_soa_first (ty : xfr_type) (cs : list (list rr)) : Prop :=
  ty = Ixfr /\ exists r cs', cs = [r] :: cs' /\ cs' <> [].

Lemma split_irrelevant_lemma ty ms cs :
  packs (qtype_of ty) ms cs -> ~ lone_soa_first ty cs ->
  fst (run None ms) = fst (flat_run ty (concat cs)) /\
  st_equiv (snd (run None ms)) (snd (flat_run ty (concat cs))).
Proof.
  intros Hp Hl. destruct ms as [|m ms], cs as [|c cs]; try contradiction.
  destruct Hp as [[Hh [Hi Hne]] [Hq Hrest]].
  cbn [run concat]. unfold interpret_response. cbn [st_finished].
  apply check_response_spec in Hh. rewrite Hh, inner_new_spec, Hq, Hi.
  replace (ty_of_qtype (Some (qtype_of ty))) with (Some ty) by (destruct ty; reflexivity).
  destruct c as [|[s|k] c]; [congruence| |].
  2:{ cbn. split; [reflexivity|left; reflexivity]. }
  cbn [map app flat_run].
  change (Rec (Soa s) :: map Rec c) with (map Rec (Soa s :: c)). rewrite iter_msg_flat.
  change (Soa s :: c ++ concat cs) with ((Soa s :: c) ++ concat cs). rewrite flat_app.
  destruct (flat (proc_new ty s) (Soa s :: c)) as [[p1 us1] [e1|]] eqn:Fc.
  { cbn. split; [reflexivity|left; reflexivity]. }
  pose proof (flat_count _ _ _ _ _ Fc) as [_ Hcnt]. specialize (Hcnt eq_refl).
  cbn [proc_new p_count length] in Hcnt.
  destruct (single_soa_fires p1) eqn:Fire.
  - (* the SOA alone in the first message of an IXFR: it is the whole stream *)
    destruct c as [|r c].
    2:{ rewrite quiet_unless_one_record in Fire by (cbn [length] in Hcnt; lia). discriminate. }
    destruct ty; [injection Fc as <- _; discriminate Fire|].
    destruct cs as [|c2 cs].
    2:{ exfalso. apply Hl. split; [reflexivity|]. exists (Soa s), (c2 :: cs). split; [reflexivity|discriminate]. }
    inversion Hrest; subst. cbn [concat flat]. rewrite Fire, app_nil_r.
    cbn. split; [reflexivity|left; reflexivity].
  - pose proof (run_later ms cs p1 Hrest ltac:(lia)) as HL.
    destruct (flat p1 (concat cs)) as [[p2 us2] e2] eqn:F2.
    destruct (run (Some p1) ms) as [usr sr]. cbn in HL. destruct HL as [-> HL2].
    destruct e2 as [e2|]; [cbn; split; [reflexivity|exact HL2]|].
    (* still silent at the end: no further record, or more than one by now *)
    assert (Q : single_soa_fires p2 = false).
    { destruct (concat cs); [injection F2 as <- _; exact Fire|].
      apply flat_count in F2 as [_ F2]. specialize (F2 eq_refl). cbn [length] in F2.
      apply quiet_unless_one_record. lia. }
    rewrite Q. cbn. split; [reflexivity|exact HL2].
Qed.

Lemma run_of_flat ty ms cs s rest p' us :
  packs (qtype_of ty) ms cs -> ~ lone_soa_first ty cs -> concat cs = Soa s :: rest ->
  flat (proc_new ty s) (concat cs) = (p', us, None) -> single_soa_fires p' = false ->
  run None ms = (us, if p_finished p' then SDone else SIncomplete).
Proof.
  intros Hp Hl Hc F Q. destruct (split_irrelevant_lemma ty ms cs Hp Hl) as [H1 H2].
  unfold flat_run in H1, H2. rewrite Hc in H1, H2. rewrite <- Hc, F, Q in H1, H2.
  destruct (run None ms) as [a b]. cbn [fst snd] in *. subst a. f_equal.
  destruct H2 as [H2|[e1 [e2 [_ H2]]]]; [exact H2|destruct (p_finished p'); discriminate].
Qed.

(* non-vacuity: an AXFR of two records split 1+2+1 *)
Example split_example :
  let h1 := mkHdr true 0 0 false 1 1 0 (Some 252) in
  let h2 := mkHdr true 0 0 false 0 2 0 None in
  let h3 := mkHdr true 0 0 false 1 1 0 (Some 252) in
  run None [mkMsg h1 [Rec (Soa 7)]; mkMsg h2 [Rec (Other 1); Rec (Other 2)]; mkMsg h3 [Rec (Soa 7)]]
  = ([UDeleteAll; UAdd (Other 1); UAdd (Other 2); UFinished 7], SDone).
Proof. vm_compute. reflexivity. Qed.

(* the known finding, in the model: the same IXFR-question stream completes as
   one message and is refused when the SOA travels alone in the first one *)
Lemma lone_soa_first_message_refuted :
  exists ms cs, packs 251 ms cs /\ lone_soa_first Ixfr cs /\
    snd (flat_run Ixfr (concat cs)) = SDone /\ snd (run None ms) = SErr E_SingleSoa.
Proof.
  exists [mkMsg (mkHdr true 0 0 false 1 1 0 (Some 251)) [Rec (Soa 7)];
          mkMsg (mkHdr true 0 0 false 0 3 0 None) [Rec (Other 1); Rec (Other 2); Rec (Soa 7)]],
         [[Soa 7]; [Other 1; Other 2; Soa 7]].
  split.
  - cbn. repeat split; try (cbn; lia); try discriminate.
    constructor; [|constructor]. repeat split; try (cbn; lia); try discriminate.
  - split.
    + split; [reflexivity|]. exists (Soa 7), [[Other 1; Other 2; Soa 7]]. split; [reflexivity|discriminate].
    + split; vm_compute; reflexivity.
Qed.

Lemma interpret_no_panic st m : forall s, snd (interpret_response st m) <> IPanic s.
Proof.
  intros s. unfold interpret_response.
  destruct (st_finished st); [cbn; discriminate|].
  destruct (check_response _ _); [cbn; discriminate|].
  destruct st as [p|].
  - destruct (iter_msg p (m_items m)) as [[? ?] ?]. cbn. discriminate.
  - destruct (inner_new m) as [e|p]; [cbn; discriminate|].
    destruct (iter_msg p (m_items m)) as [[? ?] ?]. cbn. discriminate.
Qed.

Lemma run_no_panic ms : forall st s, snd (run st ms) <> SPanic s.
Proof.
  induction ms as [|m ms IH]; intros st s; cbn [run].
  - destruct (st_finished st); cbn; discriminate.
  - pose proof (interpret_no_panic st m) as NP.
    destruct (interpret_response st m) as [st' [e|us [e|]|site]]; cbn; try discriminate.
    + specialize (IH st' s). destruct (run st' ms) as [us' s']. cbn in *. exact IH.
    + exfalso. apply (NP site). reflexivity.
Qed.

(* after the end of a transfer every further message is refused *)
Lemma run_after_done st m ms :
  st_finished st = true -> run st (m :: ms) = ([], SErr E_Finished).
Proof. intros H. cbn [run]. unfold interpret_response. rewrite H. reflexivity. Qed.

(* C10 proofs, part 3: the diff a zone reports on commit (diff_applies).
   The faithful model of WriteNode::update_rrset / remove_rrset / remove_all +
   WriteZone::commit (agreeing with the code on every T2 `df` case) violates the
   statement in three ways; each has a concrete witness history below, replayed
   on the implementation by the harness oracle. *)
From Coq Require Import NArith List Bool Lia.
From DV Require Import C10.Model.
Import ListNotations.
Local Open Scope N_scope.

Definition last_diff (pub : store) (ops : list dop) : option (store * store) :=
  last (c10_diff pub ops) None.
Definition content_after (pub : store) (ops : list dop) : store :=
  ds_work (fst (d_run ops (d_start pub))).

(* the statement of the property: the reported diff applied to the old content
   gives, key by key, the RRsets of the new content (data as sets, same TTL) *)
Definition same_rrset (a b : option rrs) : Prop :=
  match a, b with
  | None, None => True
  | Some (t, d), Some (t', d') => t = t' /\ (forall x, In x d <-> In x d')
  | _, _ => False
  end.
Definition diff_applies (pub : store) (ops : list dop) : Prop :=
  forall d, last_diff pub ops = Some d ->
  forall k, same_rrset (s_get k (apply_zdiff pub d)) (s_get k (content_after pub ops)).

(* 1. class diff_stale_after_ttl_change: IXFR 25 -> 27 deletes `mail A` (TTL 900)
      and adds the same data with TTL 1900: the diff removes the RRset and never
      adds it back *)
Lemma diff_applies_refuted_ttl_change :
  exists pub ops, ~ diff_applies pub ops.
Proof.
  exists [(0, (3600, [50])); (1, (900, [9]))],
         [DBatch; DDel 1 9 900; DSoa 54 3600; DAdd 1 9 1900; DFinish 54 3600].
  (* the history is run once; its diff and content are then looked up at key 1 *)
  unfold diff_applies, last_diff, content_after, c10_diff.
  destruct (d_run _ _) as [st ds] eqn:R. vm_compute in R. injection R as <- <-.
  intros H. specialize (H _ eq_refl 1). vm_compute in H. exact H.
Qed.

(* 2. class diff_stale_after_reorder: AXFR refresh of a zone whose NS RRset
      {ns1, ns2} is unchanged: the second AddRecord finds the data vector in a
      different order, records nothing, and the entry "ns2 removed" of the first
      AddRecord stays *)
Lemma diff_applies_refuted_reorder :
  exists pub ops, ~ diff_applies pub ops.
Proof.
  exists [(0, (3600, [50])); (1, (3600, [0; 1]))],
         [DDeleteAll; DAdd 1 0 3600; DAdd 1 1 3600; DFinish 52 3600].
  unfold diff_applies, last_diff, content_after, c10_diff.
  destruct (d_run _ _) as [st ds] eqn:R. vm_compute in R. injection R as <- <-.
  intros H. specialize (H _ eq_refl 1). vm_compute in H. destruct H as [_ H].
  specialize (H 1). destruct H as [_ H]. destruct H; [lia| |]; auto.
  discriminate.
Qed.

(* 3. class diff_misses_delete_all: remove_all does not go through the diff
      builder: an RRset of the old zone that the AXFR does not carry any more is
      missing from `removed` *)
Lemma diff_applies_refuted_delete_all :
  exists pub ops, ~ diff_applies pub ops.
Proof.
  exists [(0, (3600, [50])); (1, (900, [9])); (2, (300, [5]))],
         [DDeleteAll; DAdd 2 5 300; DFinish 52 3600].
  unfold diff_applies, last_diff, content_after, c10_diff.
  destruct (d_run _ _) as [st ds] eqn:R. vm_compute in R. injection R as <- <-.
  intros H. specialize (H _ eq_refl 1). vm_compute in H. exact H.
Qed.

Lemma memN_spec x l : memN x l = true <-> In x l.
Proof.
  unfold memN. rewrite existsb_exists. split.
  - intros [y [Hy E]]. apply N.eqb_eq in E. subst. exact Hy.
  - intros H. exists x. split; [exact H|apply N.eqb_refl].
Qed.

Lemma list_eqb_spec a : forall b, list_eqb a b = true <-> a = b.
Proof.
  induction a as [|x a IH]; intros [|y b]; cbn; try (split; [discriminate|congruence]).
  - tauto.
  - rewrite andb_true_iff, N.eqb_eq, IH. split; [intros [-> ->]; reflexivity|intros E; inversion E; auto].
Qed.

Lemma is_nil_spec {A} (l : list A) : is_nil l = true <-> l = [].
Proof. destruct l; cbn; split; congruence. Qed.

Lemma neg_memN x l : negb (memN x l) = true <-> ~ In x l.
Proof.
  destruct (memN x l) eqn:M; cbn.
  - apply memN_spec in M. split; [discriminate|contradiction].
  - split; [|reflexivity]. intros _ H. apply memN_spec in H. congruence.
Qed.

Lemma in_filter_notin x l m : In x (filter (fun y => negb (memN y m)) l) <-> In x l /\ ~ In x m.
Proof. rewrite filter_In, neg_memN. tauto. Qed.

(* what does hold: one update_rrset call on a fresh diff that changes the data
   of a published RRset as a set and keeps its TTL reports exactly the change *)
Theorem single_update_diff_applies k t old new :
  old <> [] -> new <> [] ->
  (exists x, In x old /\ ~ In x new) -> (exists x, In x new /\ ~ In x old) ->
  let st := update_rrset k (t, new) (d_start [(k, (t, old))]) in
  same_rrset (s_get k (apply_zdiff [(k, (t, old))] (ds_rem st, ds_add st))) (Some (t, new)).
Proof.
  intros Ho Hn [x [Hx1 Hx2]] [y [Hy1 Hy2]]. cbv zeta.
  unfold update_rrset, d_start. cbn [ds_pub ds_rem ds_add ds_work s_get].
  rewrite N.eqb_refl.
  assert (E : rrs_eqb (t, new) (t, old) = false).
  { unfold rrs_eqb. cbn [fst snd]. rewrite N.eqb_refl. cbn.
    destruct (list_eqb new old) eqn:L; [|reflexivity].
    apply list_eqb_spec in L. subst. contradiction. }
  rewrite E. cbn [negb andb fst snd].
  destruct old as [|o old']; [contradiction|]. destruct new as [|n new']; [contradiction|].
  cbn [is_nil negb fst snd ds_rem ds_add].
  set (old := o :: old') in *. set (new := n :: new') in *.
  set (removed := filter (fun z => negb (memN z new)) old).
  set (added := filter (fun z => negb (memN z old)) new).
  assert (Rne : is_nil removed = false).
  { assert (H : In x removed) by (apply in_filter_notin; auto). destruct removed; [contradiction|reflexivity]. }
  assert (Ane : is_nil added = false).
  { assert (H : In y added) by (apply in_filter_notin; auto). destruct added; [contradiction|reflexivity]. }
  rewrite Rne, Ane. unfold apply_zdiff, apply_removed, apply_added, s_set.
  cbn [fst snd s_remove fold_left s_get]. rewrite N.eqb_refl. unfold rrs_minus. cbn [fst snd].
  set (kept := filter (fun z => negb (memN z removed)) old).
  (* what the removal leaves under k holds [kept], as an RRset or as none *)
  set (left := match s_get k _ with Some v => snd v | None => [] end).
  assert (K : left = kept).
  { unfold left. destruct (is_nil kept) eqn:Kn; cbn [s_get].
    - symmetry. apply is_nil_spec. exact Kn.
    - rewrite N.eqb_refl. reflexivity. }
  rewrite K. split; [reflexivity|]. intros z.
  unfold kept, added, removed. rewrite in_app_iff, !in_filter_notin.
  destruct (in_dec N.eq_dec z old), (in_dec N.eq_dec z new); tauto.
Qed.

Example single_update_nonvacuous :
  let st := update_rrset 1 (300, [5; 7]) (d_start [(1, (300, [5; 6]))]) in
  (ds_rem st, ds_add st) = ([(1, (300, [6]))], [(1, (300, [7]))]).
Proof. vm_compute. reflexivity. Qed.

(* C10 proofs, part 7: the stream client's end-of-transfer detection
   (check_stream) and the interpreter agree on valid transfers. *)
From Coq Require Import NArith List.
From DV Require Import C10.Gen C10.Model C10.Proofs1 C10.Proofs2.
Import ListNotations.
Local Open Scope N_scope.

(* records one after the other, None when check_stream returns early *)
Fixpoint cfold (st : cstate) (rs : list rr) : option cstate :=
  match rs with
  | [] => Some st
  | r :: rest => match client_rec st r with inl st' => cfold st' rest | inr _ => None end
  end.

Lemma cfold_app a : forall st b,
  cfold st (a ++ b) = match cfold st a with Some st' => cfold st' b | None => None end.
Proof.
  induction a as [|r a IH]; intros st b; cbn [app cfold]; [reflexivity|].
  destruct (client_rec st r); [apply IH|reflexivity].
Qed.

(* states in which the client waits for more messages *)
Definition waiting (st : cstate) : bool :=
  match st with CAxfrFirstSoa _ | CIxfrFirstDiffSoa _ | CIxfrSecondDiffSoa _ => true | _ => false end.

Lemma waiting_facts st : waiting st = true ->
  client_items st [] = (false, st) /\ is_cerror st = false /\ forall m, client_msg st m = client_items st (m_items m).
Proof. destruct st; try discriminate; repeat split. Qed.

(* the same fold, through waiting states only *)
Fixpoint wfold (st : cstate) (rs : list rr) : option cstate :=
  match rs with
  | [] => Some st
  | r :: rest =>
      match client_rec st r with
      | inl st' => if waiting st' then wfold st' rest else None
      | inr _ => None
      end
  end.

Lemma wfold_app a : forall st b,
  wfold st (a ++ b) = match wfold st a with Some st' => wfold st' b | None => None end.
Proof.
  induction a as [|r a IH]; intros st b; cbn [app wfold]; [reflexivity|].
  destruct (client_rec st r) as [st'|]; [|reflexivity]. destruct (waiting st'); [apply IH|reflexivity].
Qed.

Lemma wfold_prefix rs : forall st st',
  wfold st rs = Some st' ->
  cfold st rs = Some st' /\
  forall a b, a ++ b = rs -> a <> [] -> exists st1, cfold st a = Some st1 /\ waiting st1 = true.
Proof.
  induction rs as [|r rs IH]; intros st st'; cbn [wfold cfold].
  - intros [= <-]. split; [reflexivity|]. intros a b E Ha. apply app_eq_nil in E as [E _]. contradiction.
  - destruct (client_rec st r) as [s1|] eqn:R; [|discriminate].
    destruct (waiting s1) eqn:W1; [|discriminate]. intros H. destruct (IH _ _ H) as [F P].
    split; [exact F|]. intros [|r' a] b E Ha; [contradiction|]. injection E as -> E.
    cbn [cfold]. rewrite R. destruct a as [|r2 a]; [exists s1; split; [reflexivity|exact W1]|].
    apply (P _ b E). discriminate.
Qed.

Lemma wfold_others st ks : waiting st = true -> wfold st (map Other ks) = Some st.
Proof.
  intros W. induction ks as [|k ks IH]; cbn [map wfold]; [reflexivity|].
  destruct st; try discriminate W; cbn [client_rec waiting]; exact IH.
Qed.

Lemma client_items_cfold rs : forall st st',
  cfold st rs = Some st' -> client_items st (map Rec rs) = client_items st' [].
Proof.
  induction rs as [|r rs IH]; intros st st'; cbn [cfold map client_items].
  - intros E; inversion E; reflexivity.
  - destruct (client_rec st r); [apply IH|discriminate].
Qed.

(* later messages: every chunk boundary falls on a waiting state, the last
   record completes the transfer *)
Lemma client_stream_later ms : forall cs st,
  packs_later ms cs -> cs <> [] -> waiting st = true ->
  cfold st (concat cs) = Some CDone ->
  (forall a b, a ++ b = concat cs -> b <> [] -> exists st', cfold st a = Some st' /\ waiting st' = true) ->
  client_stream st ms = (repeat true (length ms), true).
Proof.
  induction ms as [|m ms IH]; intros cs st Hp Hn Hw Hd Hpre.
  - inversion Hp; subst. contradiction.
  - inversion Hp as [|m0 c ms0 cs0 [_ [Hi Hne]] Hrest]; subst. cbn [concat] in *.
    cbn [client_stream length repeat]. destruct (waiting_facts _ Hw) as [_ [_ ->]]. rewrite Hi.
    destruct cs0 as [|c2 cs0].
    + inversion Hrest; subst. cbn [concat] in *. rewrite app_nil_r in Hd.
      rewrite (client_items_cfold _ _ _ Hd). reflexivity.
    + destruct (Hpre c (concat (c2 :: cs0)) eq_refl) as [st1 [F1 W1]].
      { inversion Hrest as [|? ? ? ? [_ [_ Hne2]] _]; subst. cbn [concat]. intros E.
        apply app_eq_nil in E as [E _]. contradiction. }
      rewrite (client_items_cfold _ _ _ F1). destruct (waiting_facts _ W1) as [-> [-> _]]. cbn [negb].
      rewrite (IH (c2 :: cs0) st1 Hrest ltac:(discriminate) W1).
      * reflexivity.
      * rewrite cfold_app, F1 in Hd. exact Hd.
      * intros a b E Hb. destruct (Hpre (c ++ a) b) as [st2 [F2 W2]].
        { rewrite <- app_assoc, E. reflexivity. } { exact Hb. }
        rewrite cfold_app, F1 in F2. eauto.
Qed.

Lemma prefix_snoc {A} (a b l : list A) x : a ++ b = l ++ [x] -> b <> [] -> exists m, a ++ m = l.
Proof.
  intros E Hb. destruct (prefix_cases _ _ _ _ _ E) as [H|[m ->]]; [exact H|].
  rewrite <- app_assoc in E. apply app_inv_head in E. injection E as E.
  apply app_eq_nil in E as [_ E]. contradiction.
Qed.

(* A whole stream: [r0], a middle part that keeps the client waiting, and [rn],
   which completes the transfer.  After [r0] alone the client need not be
   waiting (IXFR: just the SOA is the up-to-date answer): then [r0] must not be
   a message of its own followed by others. *)
Lemma client_stream_packs q ms cs r0 mid rn st0 st1 :
  packs q ms cs -> concat cs = r0 :: mid ++ [rn] ->
  client_rec (client_init q) r0 = inl st0 -> wfold st0 mid = Some st1 ->
  client_rec st1 rn = inl CDone ->
  (waiting st0 = true \/ ~ exists cs', cs = [r0] :: cs' /\ cs' <> []) ->
  client_stream (client_init q) ms = (repeat true (length ms), true).
Proof.
  intros Hp Hc R0 W Rn Hw0. destruct (wfold_prefix _ _ _ W) as [Fm Pm].
  destruct ms as [|m ms], cs as [|c cs]; try contradiction.
  destruct Hp as [[_ [Hi Hne]] [_ Hrest]]. cbn [concat] in Hc.
  destruct c as [|r c]; [contradiction|]. injection Hc as -> Hc.
  cbn [client_stream length repeat].
  assert (Hm : client_msg (client_init q) m = client_items st0 (map Rec c)).
  { unfold client_msg, client_init in *. rewrite Hi.
    destruct (q =? qtype_axfr); cbn [map client_items]; rewrite R0; reflexivity. }
  rewrite Hm.
  assert (Full : cfold st0 (mid ++ [rn]) = Some CDone).
  { rewrite cfold_app, Fm. cbn [cfold]. rewrite Rn. reflexivity. }
  destruct cs as [|c2 cs].
  - inversion Hrest; subst. cbn [concat] in Hc. rewrite app_nil_r in Hc. subst c.
    rewrite (client_items_cfold _ _ _ Full). reflexivity.
  - assert (Hc2 : concat (c2 :: cs) <> []).
    { inversion Hrest as [|? ? ? ? [_ [_ Hne2]] _]; subst. cbn [concat]. intros E.
      apply app_eq_nil in E as [E _]. contradiction. }
    assert (At : forall a b, a ++ b = mid ++ [rn] -> a <> [] -> b <> [] ->
              exists st', cfold st0 a = Some st' /\ waiting st' = true).
    { intros a b E Ha Hb. destruct (prefix_snoc _ _ _ _ E Hb) as [m' Em]. exact (Pm _ m' Em Ha). }
    assert (S1 : exists st', cfold st0 c = Some st' /\ waiting st' = true).
    { destruct c as [|r1 c]; [|apply (At _ _ Hc); [discriminate|exact Hc2]].
      exists st0. split; [reflexivity|]. destruct Hw0 as [Hw0|Hw0]; [exact Hw0|].
      exfalso. apply Hw0. exists (c2 :: cs). split; [reflexivity|discriminate]. }
    destruct S1 as [st' [F1 W1]].
    rewrite (client_items_cfold _ _ _ F1). destruct (waiting_facts _ W1) as [-> [-> _]]. cbn [negb].
    rewrite (client_stream_later ms (c2 :: cs) st' Hrest ltac:(discriminate) W1).
    + reflexivity.
    + rewrite <- Hc, cfold_app, F1 in Full. exact Full.
    + intros a b E Hb. destruct a as [|r1 a]; [exists st'; split; [reflexivity|exact W1]|].
      destruct (At (c ++ r1 :: a) b) as [st2 [F2 W2]].
      * rewrite <- app_assoc, E. exact Hc.
      * intros Q. apply app_eq_nil in Q as [_ Q]. discriminate.
      * exact Hb.
      * rewrite cfold_app, F1 in F2. eauto.
Qed.

(* AXFR sequences (AXFR question, or the fallback under an IXFR question) *)
Theorem client_agrees_axfr q s ks ms cs :
  (q = 252 \/ (q = 251 /\ ks <> [])) ->
  packs q ms cs -> concat cs = axfr_seq s ks -> ~ lone_soa_first (if q =? 252 then Axfr else Ixfr) cs ->
  client_stream (client_init q) ms = (repeat true (length ms), true).
Proof.
  intros Hq Hp Hc Hl. set (st := CAxfrFirstSoa (soa_serial s)).
  assert (Close : client_rec st (Soa s) = inl CDone) by (cbn; rewrite N.eqb_refl; reflexivity).
  destruct Hq as [->|[-> Hks]].
  - apply (client_stream_packs 252 ms cs (Soa s) (map Other ks) (Soa s) st st Hp Hc); auto.
    apply wfold_others. reflexivity.
  - (* IXFR question: the first record after the SOA shows the AXFR style *)
    destruct ks as [|k ks]; [contradiction|].
    apply (client_stream_packs 251 ms cs (Soa s) (map Other (k :: ks)) (Soa s)
             (CIxfrFirstSoa (soa_serial s)) st Hp Hc); auto.
    + cbn [map wfold client_rec waiting]. apply wfold_others. reflexivity.
    + right. intros [cs' [E H]]. apply Hl. split; [reflexivity|]. exists (Soa s), cs'. auto.
Qed.

(* the single-SOA reply to an IXFR question ends the stream for both: the
   client reports end of stream, the interpreter the retry-over-TCP signal *)
Theorem client_agrees_single_soa m s :
  carries true m [Soa s] -> h_qtype (m_hdr m) = Some 251 ->
  client_stream (client_init 251) [m] = ([true], true) /\
  run None [m] = ([], SErr E_SingleSoa).
Proof.
  intros [Hh [Hi _]] Hq. split.
  - cbn [client_stream]. unfold client_init, qtype_axfr, client_msg. cbn [N.eqb Pos.eqb]. rewrite Hi. reflexivity.
  - cbn [run]. unfold interpret_response. cbn [st_finished].
    apply check_response_spec in Hh. rewrite Hh, inner_new_spec, Hq, Hi. cbn. reflexivity.
Qed.

(* IXFR difference sequences: FirstDiffSoa through the deletions,
   SecondDiffSoa through the additions of each one *)
Lemma wfold_diffs s ds : forall st,
  (st = CIxfrFirstSoa s \/ st = CIxfrSecondDiffSoa s) ->
  (forall d, In d ds -> soa_serial (d_old d) <> s) ->
  wfold st (concat (map diff_seq ds)) = Some (match ds with [] => st | _ => CIxfrSecondDiffSoa s end).
Proof.
  induction ds as [|d ds IH]; intros st Hst Hne; cbn [map concat]; [reflexivity|].
  assert (E : (s =? soa_serial (d_old d)) = false).
  { apply N.eqb_neq. intros E. apply (Hne d (or_introl eq_refl)). auto. }
  assert (S1 : client_rec st (Soa (d_old d)) = inl (CIxfrFirstDiffSoa s)).
  { destruct Hst as [->| ->]; cbn; rewrite E; reflexivity. }
  rewrite wfold_app. unfold diff_seq at 1. cbn [wfold]. rewrite S1. cbn [waiting].
  rewrite wfold_app, wfold_others by reflexivity. cbn [wfold client_rec waiting].
  rewrite wfold_others by reflexivity.
  rewrite (IH (CIxfrSecondDiffSoa s) (or_intror eq_refl) (fun d' H => Hne d' (or_intror H))).
  destruct ds; reflexivity.
Qed.

Theorem client_agrees_ixfr snew ds ms cs :
  (forall d, In d ds -> soa_serial (d_old d) <> soa_serial snew) ->
  packs 251 ms cs -> concat cs = ixfr_seq snew ds -> ~ lone_soa_first Ixfr cs ->
  client_stream (client_init 251) ms = (repeat true (length ms), true).
Proof.
  intros Hne Hp Hc Hl. set (s := soa_serial snew).
  apply (client_stream_packs 251 ms cs (Soa snew) (concat (map diff_seq ds)) (Soa snew)
           (CIxfrFirstSoa s) _ Hp Hc eq_refl (wfold_diffs s ds _ (or_introl eq_refl) Hne)).
  - destruct ds; cbn; unfold s; rewrite N.eqb_refl; reflexivity.
  - right. intros [cs' [E H]]. apply Hl. split; [reflexivity|]. exists (Soa snew), cs'. auto.
Qed.

Theorem client_agrees_ixfr_one_message snew ds m :
  (forall d, In d ds -> soa_serial (d_old d) <> soa_serial snew) ->
  carries true m (ixfr_seq snew ds) -> h_qtype (m_hdr m) = Some 251 ->
  client_stream (client_init 251) [m] = ([true], true).
Proof.
  intros Hne Hm Hq. apply (client_agrees_ixfr snew ds [m] [ixfr_seq snew ds] Hne).
  - split; [exact Hm|]. split; [exact Hq|constructor].
  - apply app_nil_r.
  - intros [_ [r [cs' [[= _ E] Hn]]]]. congruence.
Qed.

(* where they differ (not on valid transfers): the client compares serials, the
   interpreter whole SOA records.  A closing SOA with the opening serial but
   other fields ends the stream for the client and not for the interpreter (the
   transfer is then incomplete and nothing is committed). *)
Lemma client_serial_only_example :
  let m := mkMsg (mkHdr true 0 0 false 1 3 0 (Some 252)) [Rec (Soa 14); Rec (Other 1); Rec (Soa 15)] in
  client_stream (client_init 252) [m] = ([true], true) /\ snd (run None [m]) = SIncomplete.
Proof. vm_compute. split; reflexivity. Qed.

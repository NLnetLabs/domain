(* C10 proofs, part 10: any sequence of good batches, each committed, with the
   diffs the zone itself reports (diff-capture model) sent as one multi-step
   IXFR: capture -> DiffFunneler -> batcher -> interpreter -> updater takes a
   receiver at the first published content to the last one. *)
From Coq Require Import NArith List.
From DV Require Import Base.Outcome C10.Gen C10.Model C10.Proofs1 C10.Proofs2 C10.Proofs3
  C10.Proofs5 C10.Proofs6 C10.Proofs8.
Import ListNotations.
Local Open Scope N_scope.

(* a batch: record operations, then Finished with the new SOA *)
Definition batch_t : Type := (list dop * N * N)%type.

Definition batch_end (b : batch_t) (pub : store) : dstate :=
  let '(body, s, t) := b in update_rrset 0 (t, [s]) (fst (d_run body (d_start pub))).

(* the diffs the zone reports along the batches, funnelled, and the content
   published at the end *)
Fixpoint run_batches (bs : list batch_t) (pub : store) : option (list diff * store) :=
  match bs with
  | [] => Some ([], pub)
  | b :: rest =>
      let st1 := batch_end b pub in
      match snd (d_commit st1) with
      | Some ra =>
          match funnel ra with
          | Some d =>
              match run_batches rest (ds_work st1) with
              | Some (ds, p') => Some (d :: ds, p')
              | None => None
              end
          | None => None
          end
      | None => None
      end
  end.

(* every record (and SOA) id lives under its own RRset key *)
Definition op_keyed (key_of : N -> N) (o : dop) : bool :=
  match o with
  | DAdd k d _ => key_of d =? k
  | DSoa s _ => key_of s =? 0
  | _ => true
  end.

Fixpoint good_batches (key_of : N -> N) (bs : list batch_t) (pub : store) : Prop :=
  match bs with
  | [] => True
  | b :: rest =>
      let '(body, s, t) := b in
      good_body body (d_start pub) = true /\ forallb (op_keyed key_of) body = true /\ key_of s = 0 /\
      good_batches key_of rest (ds_work (batch_end b pub))
  end.

Definition wf (key_of : N -> N) (pub : store) : Prop :=
  minv (d_start pub) /\ ukeys pub /\ keyed key_of pub.

Lemma keyed_set key_of k t new st :
  keyed key_of st -> (forall x, In x new -> key_of x = k) -> keyed key_of (s_set k (t, new) st).
Proof.
  intros K H k' v x E Hx. destruct (N.eq_dec k' k) as [->|Hn].
  - rewrite s_get_set_same in E. inversion E; subst. apply H. exact Hx.
  - rewrite (s_get_set_other k k' _ _ Hn) in E. exact (K k' v x E Hx).
Qed.

Lemma keyed_remove key_of k st : keyed key_of st -> keyed key_of (s_remove k st).
Proof.
  intros K k' v x E Hx. destruct (N.eq_dec k' k) as [->|Hn].
  - rewrite s_get_remove_same in E. discriminate.
  - rewrite (s_get_remove_other k k' _ Hn) in E. exact (K k' v x E Hx).
Qed.

Lemma existing_keyed key_of k st x :
  keyed key_of (ds_work st) -> In x (d_existing k st) -> key_of x = k.
Proof.
  unfold d_existing. intros K Hx. destruct (s_get k (ds_work st)) as [v|] eqn:E; [|destruct Hx].
  exact (K k v x E Hx).
Qed.

Lemma keyed_work_step key_of o st :
  keyed key_of (ds_work st) -> good_op o st = true -> op_keyed key_of o = true ->
  keyed key_of (ds_work (fst (d_step o st))).
Proof.
  intros K G Ok. destruct o as [|k d t|k d t| |s t|s t]; cbn [good_op] in G; try discriminate; cbn [d_step fst].
  - rewrite ds_work_update. apply keyed_set; [exact K|]. cbn [op_keyed] in Ok. apply N.eqb_eq in Ok.
    intros x [<-|Hx]; [exact Ok|eapply existing_keyed; eauto].
  - destruct (is_nil _).
    + unfold remove_rrset. cbn [ds_work]. apply keyed_remove. exact K.
    + rewrite ds_work_update. apply keyed_set; [exact K|]. intros x Hx. apply filter_In in Hx as [Hx _].
      eapply existing_keyed; eauto.
  - rewrite ds_work_update. apply keyed_set; [exact K|]. cbn [op_keyed] in Ok. apply N.eqb_eq in Ok.
    intros x [<-|[]]. exact Ok.
Qed.

Lemma keyed_work_body key_of ops : forall st,
  keyed key_of (ds_work st) -> good_body ops st = true -> forallb (op_keyed key_of) ops = true ->
  keyed key_of (ds_work (fst (d_run ops st))).
Proof.
  induction ops as [|o ops IH]; intros st K G Ok; cbn [d_run good_body forallb] in *; [exact K|].
  apply andb_prop in G as [G1 G2]. apply andb_prop in Ok as [O1 O2].
  pose proof (keyed_work_step key_of o st K G1 O1) as K1.
  destruct (d_step o st) as [st1 r1]. cbn [fst] in *.
  specialize (IH st1 K1 G2 O2). destruct (d_run ops st1). exact IH.
Qed.

Lemma one_batch key_of pub body s t ra d :
  wf key_of pub ->
  good_body body (d_start pub) = true -> forallb (op_keyed key_of) body = true -> key_of s = 0 ->
  snd (d_commit (batch_end (body, s, t) pub)) = Some ra -> funnel ra = Some d ->
  let pub' := ds_work (batch_end (body, s, t) pub) in
  diff_rel d (store_zone pub) (store_zone pub') /\
  store_soa pub = Some (d_old d) /\ store_soa pub' = Some (d_new d) /\
  soa_serial (d_old d) <> soa_serial (d_new d) /\ wf key_of pub'.
Proof.
  intros [M0 [Uk Ky]] G Okb Ks C F. cbv zeta.
  destruct (finish_diff_rel key_of pub body s t ra d M0 Uk Ky G C F) as [DR [So [Sn [Sne [M1 U1]]]]].
  repeat (split; [assumption|]).
  (* the new published content is well formed again *)
  split; [apply minv_committed; exact M1|]. split; [exact U1|].
  unfold batch_end. rewrite ds_work_update. apply keyed_set.
  - apply keyed_work_body; assumption.
  - intros x [<-|[]]. exact Ks.
Qed.

Lemma last_cons {A} (l : list A) : forall a d, last (a :: l) d = last l a.
Proof. induction l as [|b l IH]; intros a d; [reflexivity|]. exact (eq_trans (IH b d) (eq_sym (IH b a))). Qed.

(* all batches: the funnelled diffs chain from the first to the last published
   zone *)
Lemma batches_chain key_of bs : forall pub ds pub',
  wf key_of pub -> good_batches key_of bs pub -> run_batches bs pub = Some (ds, pub') ->
  chain_rel (store_zone pub) ds (store_zone pub') /\
  (forall so, store_soa pub = Some so -> soa_chain so ds) /\
  ukeys pub' /\
  (forall d0, store_soa pub = Some (d_new d0) -> store_soa pub' = Some (d_new (last ds d0))).
Proof.
  induction bs as [|[[body s] t] bs IH]; intros pub ds pub' W G R; cbn [run_batches good_batches] in *.
  - injection R as <- <-. split; [intros r; tauto|]. split; [intros so _; exact I|].
    split; [apply W|]. intros d0 E. exact E.
  - destruct G as [Gb [Ok [Ks Gr]]].
    destruct (snd (d_commit (batch_end (body, s, t) pub))) as [ra|] eqn:C; [|discriminate].
    destruct (funnel ra) as [d|] eqn:F; [|discriminate].
    destruct (run_batches bs (ds_work (batch_end (body, s, t) pub))) as [[ds1 p1]|] eqn:R1; [|discriminate].
    injection R as <- <-.
    destruct (one_batch key_of pub body s t ra d W Gb Ok Ks C F) as [DR [So [Sn [Sne W1]]]].
    destruct (IH _ ds1 p1 W1 Gr R1) as [CH [SC [Uk' Lst]]].
    split; [eexists; split; [exact DR|exact CH]|].
    split; [|split; [exact Uk'|]].
    + intros so E. rewrite So in E. injection E as <-. split; [reflexivity|]. apply SC. exact Sn.
    + intros d0 _. rewrite last_cons. apply Lst. exact Sn.
Qed.

(* the diff a batch contributes is exactly what the diff-capture model reports
   for `body ++ [Finished]` run from the published content *)
Lemma batch_diff_is_reported pub body s t :
  snd (d_commit (batch_end (body, s, t) pub)) = last (c10_diff pub (body ++ [DFinish s t])) None.
Proof.
  unfold c10_diff, batch_end. rewrite d_run_snoc, d_step_finish, d_step_batch. cbn [snd].
  rewrite last_last. reflexivity.
Qed.

Section EndToEnd.
Variable chk : bool.

Theorem real_diffs_transfer_identity key_of bs pub ds pub' size limit chunks :
  pub_ok pub = true -> ukeys pub -> keyed key_of pub ->
  good_batches key_of bs pub ->
  run_batches bs pub = Some (ds, pub') -> ds <> [] ->
  let snew := d_new (last ds (mkDiff 0 [] 0 [])) in
  (* the serial the zone ends at is not one it started a batch from *)
  (forall d, In d ds -> d_old d <> snew) ->
  (forall r1 r2, size r1 + size r2 <= limit) ->
  batch size limit (sender_hard false 251) (ixfr_seq snew ds) = Ok chunks ->
  exists us st, run None (sender_msgs 251 chunks) = (us, SDone) /\
    u_apply_all chk us (u_start (store_zone pub)) = Ok st /\ u_fin st = true /\
    zeq (u_visible st) (store_zone pub').
Proof.
  intros Hok Uk Ky G R Hds snew Hne Hfit Hb.
  pose proof (minv_start pub Hok) as M0.
  (* the SOA the first published content carries *)
  assert (S0 : exists so, store_soa pub = Some so).
  { destruct M0 as [_ [[t0 [s0 E]] _]]. exists s0. unfold store_soa. cbn [d_start ds_pub] in E. rewrite E. reflexivity. }
  destruct S0 as [so S0].
  destruct (batches_chain key_of bs pub ds pub' (conj M0 (conj Uk Ky)) G R) as [CH [SC [Uk' Lst]]].
  specialize (Lst (mkDiff 0 [] so []) S0).
  replace (last ds (mkDiff 0 [] so [])) with (last ds (mkDiff 0 [] 0 [])) in Lst
    by (destruct ds; [contradiction|rewrite !last_cons; reflexivity]).
  apply (ixfr_transfer chk snew ds so (store_zone pub) _ size limit chunks); auto.
  - intros s0. rewrite (in_store_zone _ (Soa s0) Uk'), Lst. fold snew. split; congruence.
  - apply first_soa_store_zone. exact S0.
Qed.

End EndToEnd.

(* non-vacuity: two batches, the second empties an RRset and re-populates another *)
Example real_diffs_example :
  let pub := [(0, (3600, [50])); (1, (300, [5; 6]))] in
  let bs : list batch_t :=
    [([DDel 1 5 300; DAdd 1 7 300; DAdd 2 9 60], 52, 3600);
     ([DDel 1 6 300; DDel 1 7 300; DAdd 3 11 30], 54, 3600)] in
  option_map (fun r => (map (fun d => (d_old d, d_dels d, d_new d, d_adds d)) (fst r)))
    (run_batches bs pub)
  = Some [(50, [5], 52, [9; 7]); (52, [7; 6], 54, [11])].
Proof. vm_compute. reflexivity. Qed.

Example real_diffs_example_good :
  let key_of := fun x => if x <? 50 then (if x =? 9 then 2 else if x =? 11 then 3 else 1) else 0 in
  good_batches key_of
    [([DDel 1 5 300; DAdd 1 7 300; DAdd 2 9 60], 52, 3600);
     ([DDel 1 6 300; DDel 1 7 300; DAdd 3 11 30], 54, 3600)]
    [(0, (3600, [50])); (1, (300, [5; 6]))].
Proof. cbv zeta. vm_compute. repeat split; reflexivity. Qed.

Example batch_diff_is_reported_example :
  let pub := [(0, (3600, [50])); (1, (300, [5; 6]))] in
  snd (d_commit (batch_end ([DDel 1 5 300; DAdd 1 7 300], 52, 3600) pub))
  = Some ([(0, (3600, [50])); (1, (300, [5]))], [(0, (3600, [52])); (1, (300, [7]))]).
Proof. vm_compute. reflexivity. Qed.

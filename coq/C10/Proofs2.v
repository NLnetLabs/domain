(* C10 proofs, part 2: the update streams of valid AXFR / IXFR / fallback
   record sequences, the updater, fidelity and the rejection theorems. *)
From Coq Require Import NArith List Bool Lia Permutation.
From DV Require Import Base.Outcome C10.Gen C10.Model C10.Proofs1.
Import ListNotations.
Local Open Scope N_scope.

Definition adds (ks : list N) : list upd := map (fun k => UAdd (Other k)) ks.
Definition dels (ks : list N) : list upd := map (fun k => UDelete (Other k)) ks.
Definition axfr_upds (s : N) (ks : list N) : list upd := UDeleteAll :: adds ks ++ [UFinished s].
Definition diff_upds (d : diff) : list upd :=
  UBeginDel (d_old d) :: dels (d_dels d) ++ UBeginAdd (d_new d) :: adds (d_adds d).
Definition ixfr_upds (snew : N) (ds : list diff) : list upd :=
  concat (map diff_upds ds) ++ [UFinished snew].

Lemma prefix_cases {A} (us1 us2 l tl : list A) x :
  us1 ++ us2 = l ++ x :: tl -> (exists m, us1 ++ m = l) \/ (exists m, us1 = l ++ x :: m).
Proof.
  intros E. apply app_eq_app in E as [m [[E1 E2]|[E1 E2]]]; [|left; eauto].
  destruct m as [|y m]; [left; exists []; rewrite E1, !app_nil_r; reflexivity|].
  injection E2 as <- _. right. eauto.
Qed.

Lemma succ_ne c n : n <= c -> (c + 1 =? n) = false.
Proof. intros. apply N.eqb_neq. lia. Qed.

(* process_record after the first record, one equation per kind of record;
   AXFR: once DeleteAllRecords is out *)
Lemma pr_axfr i cur m c r : 1 <= c ->
  process_record (mkProc Axfr i cur m c true false) r =
  if rr_eqb r (Soa i) then (mkProc Axfr i cur m (c + 1) true true, inr [UFinished i])
  else (mkProc Axfr i cur m (c + 1) true false, inr [UAdd r]).
Proof.
  intros Hc. unfold process_record, start_count. cbn [p_finished p_count p_ty p_initial].
  rewrite (succ_ne c 1 Hc). destruct r as [s|k]; cbn [is_soa rr_eqb]; [|reflexivity].
  destruct (N.eqb_spec s i) as [->|_]; reflexivity.
Qed.

Lemma pr_ixfr_other i cur m c dl k : 2 <= c ->
  process_record (mkProc Ixfr i cur m c dl false) (Other k) =
  (mkProc Ixfr i cur m (c + 1) dl false,
   inr [match m with Deleting => UDelete (Other k) | Adding => UAdd (Other k) end]).
Proof.
  intros Hc. unfold process_record, start_count, fallback_count.
  cbn [p_finished p_count p_ty p_mode is_soa]. rewrite (succ_ne c 1), (succ_ne c 2) by lia.
  destruct m; reflexivity.
Qed.

Lemma pr_ixfr_soa i cur m c dl s : 1 <= c ->
  process_record (mkProc Ixfr i cur m c dl false) (Soa s) =
  match m with
  | Deleting => (mkProc Ixfr i s Adding (c + 1) dl false, inr [UBeginAdd s])
  | Adding => if s =? i then (mkProc Ixfr i s Deleting (c + 1) dl true, inr [UFinished s])
              else (mkProc Ixfr i s Deleting (c + 1) dl false, inr [UBeginDel s])
  end.
Proof.
  intros Hc. unfold process_record, start_count, fallback_count, toggle.
  cbn [p_finished p_count p_ty p_mode p_initial is_soa negb]. rewrite (succ_ne c 1 Hc), andb_false_r.
  destruct m; [reflexivity|]. destruct (s =? i); reflexivity.
Qed.

Lemma add_succ_l c n : c + 1 + N.of_nat n = c + N.of_nat (S n).
Proof. lia. Qed.

Lemma flat_axfr_body i cur m rs : forall c, 1 <= c -> ~ In (Soa i) rs ->
  flat (mkProc Axfr i cur m c true false) rs =
  (mkProc Axfr i cur m (c + N.of_nat (length rs)) true false, map UAdd rs, None).
Proof.
  induction rs as [|r rs IH]; intros c Hc Hn; cbn [flat length map].
  - rewrite N.add_0_r. reflexivity.
  - rewrite (pr_axfr _ _ _ _ _ Hc).
    destruct (rr_eqb r (Soa i)) eqn:E.
    { exfalso. apply Hn. left. destruct r as [s|k]; [|discriminate]. apply N.eqb_eq in E. congruence. }
    rewrite IH; [rewrite add_succ_l; reflexivity|lia|intros H; apply Hn; right; exact H].
Qed.

Lemma flat_axfr_start ty s r rs :
  r <> Soa s -> (ty = Ixfr -> is_soa r = false) ->
  flat (proc_new ty s) (Soa s :: r :: rs) =
  let '(p, us, e) := flat (mkProc Axfr s s Adding 2 true false) rs in
  (p, UDeleteAll :: UAdd r :: us, e).
Proof.
  intros Hr Hty. unfold proc_new, initial_mode_adding. cbn [flat].
  unfold process_record at 1 2, start_count, fallback_count. cbn.
  destruct ty, r as [s'|k]; try (specialize (Hty eq_refl); discriminate); cbn;
  try (destruct (N.eqb_spec s' s); [congruence|]); cbn;
  destruct (flat _ rs) as [[p us] e]; reflexivity.
Qed.

(* AXFR, and the AXFR-style answer to an IXFR question with at least one record *)
Lemma flat_axfr ty s ks :
  (ty = Ixfr -> ks <> []) ->
  exists p', flat (proc_new ty s) (axfr_seq s ks) = (p', axfr_upds s ks, None)
             /\ p_finished p' = true.
Proof.
  intros Hty. unfold axfr_seq, axfr_upds, adds. destruct ks as [|k ks]; cbn [map app].
  - destruct ty; [|contradiction Hty; reflexivity].
    cbn. rewrite N.eqb_refl. cbn. eexists. split; reflexivity.
  - rewrite flat_axfr_start by (discriminate || reflexivity).
    rewrite flat_app, flat_axfr_body; [|lia|rewrite in_map_iff; intros [x [[=] _]]].
    cbn [flat]. rewrite pr_axfr by lia. cbn [rr_eqb]. rewrite N.eqb_refl, map_map.
    eexists. split; reflexivity.
Qed.

(* an AXFR-style answer that never closes *)
Definition open_upds (rs : list rr) : list upd :=
  match rs with [] => [] | _ => UDeleteAll :: map UAdd rs end.

Lemma flat_axfr_open ty s rs :
  ~ In (Soa s) rs -> (ty = Ixfr -> exists k rs', rs = Other k :: rs') ->
  exists p', flat (proc_new ty s) (Soa s :: rs) = (p', open_upds rs, None) /\
    p_finished p' = false /\ single_soa_fires p' = false.
Proof.
  intros Hn Hty. destruct rs as [|r rs].
  - destruct ty; [|destruct (Hty eq_refl) as [k [rs' [=]]]].
    eexists. split; [reflexivity|]. split; reflexivity.
  - rewrite flat_axfr_start, flat_axfr_body; try lia.
    + eexists. split; [reflexivity|]. split; reflexivity.
    + intros H. apply Hn. right. exact H.
    + intros ->. apply Hn. left. reflexivity.
    + intros E. destruct (Hty E) as [k [rs' [= -> _]]]. reflexivity.
Qed.

Lemma flat_ixfr_others i cur m dl ks : forall c, 2 <= c ->
  flat (mkProc Ixfr i cur m c dl false) (map Other ks) =
  (mkProc Ixfr i cur m (c + N.of_nat (length ks)) dl false,
   match m with Deleting => dels ks | Adding => adds ks end, None).
Proof.
  induction ks as [|k ks IH]; intros c Hc; cbn [map flat length].
  - rewrite N.add_0_r. destruct m; reflexivity.
  - rewrite pr_ixfr_other, IH, add_succ_l by lia. destruct m; reflexivity.
Qed.

Lemma flat_diff d i cur c dl : 1 <= c -> d_old d <> i ->
  exists c', c <= c' /\
  flat (mkProc Ixfr i cur Adding c dl false) (diff_seq d) =
  (mkProc Ixfr i (d_new d) Adding c' dl false, diff_upds d, None).
Proof.
  intros Hc Hne. unfold diff_seq, diff_upds. cbn [flat].
  rewrite pr_ixfr_soa by lia. destruct (N.eqb_spec (d_old d) i) as [E|_]; [contradiction|].
  rewrite flat_app, flat_ixfr_others by lia. cbn [flat].
  rewrite pr_ixfr_soa, flat_ixfr_others by lia.
  eexists. split; [|reflexivity]. lia.
Qed.

Lemma flat_diffs ds : forall i cur c dl, 1 <= c ->
  (forall d, In d ds -> d_old d <> i) ->
  exists c' cur', c <= c' /\
  flat (mkProc Ixfr i cur Adding c dl false) (concat (map diff_seq ds)) =
  (mkProc Ixfr i cur' Adding c' dl false, concat (map diff_upds ds), None).
Proof.
  induction ds as [|d ds IH]; intros i cur c dl Hc Hne; cbn [map concat].
  - exists c, cur. split; [lia|reflexivity].
  - destruct (flat_diff d i cur c dl Hc (Hne d (or_introl eq_refl))) as [c1 [Hc1 F1]].
    destruct (IH i (d_new d) c1 dl ltac:(lia) (fun d' H => Hne d' (or_intror H))) as [c2 [cur2 [Hc2 F2]]].
    rewrite flat_app, F1, F2. exists c2, cur2. split; [lia|reflexivity].
Qed.

(* the difference sequences, then any SOA: the opening one closes the transfer,
   another one opens a further batch *)
Lemma flat_ixfr_close snew s' ds :
  (forall d, In d ds -> d_old d <> snew) ->
  exists p', flat (proc_new Ixfr snew) (Soa snew :: concat (map diff_seq ds) ++ [Soa s']) =
    (p', concat (map diff_upds ds) ++ [if s' =? snew then UFinished s' else UBeginDel s'], None) /\
    p_finished p' = (s' =? snew) /\ 2 <= p_count p'.
Proof.
  intros Hne. unfold proc_new, initial_mode_adding.
  cbn [flat]. unfold process_record at 1, start_count. cbn.
  destruct (flat_diffs ds snew snew 1 false ltac:(lia) Hne) as [c' [cur' [Hc F]]].
  rewrite flat_app, F. cbn [flat]. rewrite pr_ixfr_soa by lia.
  destruct (s' =? snew); (eexists; split; [reflexivity|]; cbn; split; [reflexivity|lia]).
Qed.

Lemma flat_ixfr snew ds :
  (forall d, In d ds -> d_old d <> snew) ->
  exists p', flat (proc_new Ixfr snew) (ixfr_seq snew ds) = (p', ixfr_upds snew ds, None)
             /\ p_finished p' = true.
Proof.
  intros Hne. destruct (flat_ixfr_close snew snew ds Hne) as [p' [F [Hf _]]].
  rewrite N.eqb_refl in F, Hf. exists p'. split; assumption.
Qed.

Lemma rr_eqb_spec a b : rr_eqb a b = true <-> a = b.
Proof.
  destruct a, b; cbn; try (split; [discriminate|congruence]);
  rewrite N.eqb_eq; split; congruence.
Qed.

Section WithChk.
Variable chk : bool.
Local Notation u_apply := (Model.u_apply chk).
Local Notation u_apply_all := (Model.u_apply_all chk).
Local Notation c10_apply z us := (Model.u_apply_all chk us (u_start z)).
Local Notation c10_transfers z uss := (Model.u_transfers chk uss z).

Lemma u_apply_all_app a : forall b st,
  u_apply_all (a ++ b) st = (do st' <- u_apply_all a st; u_apply_all b st').
Proof.
  induction a as [|u a IH]; intros b st; cbn [app u_apply_all bind].
  - reflexivity.
  - destruct (u_apply u st); cbn [bind]; auto.
Qed.

Lemma u_add_all rs : forall v w,
  u_apply_all (map UAdd rs) (mkU v w true true false) = Ok (mkU v (rev rs ++ w) true true false).
Proof.
  induction rs as [|r rs IH]; intros v w; cbn [map u_apply_all rev app].
  - reflexivity.
  - unfold Model.u_apply, with_root. cbn. rewrite IH, <- app_assoc. reflexivity.
Qed.

Lemma u_adds ks v w :
  u_apply_all (adds ks) (mkU v w true true false) = Ok (mkU v (rev (map Other ks) ++ w) true true false).
Proof. unfold adds. rewrite <- (map_map Other UAdd). apply u_add_all. Qed.

Definition del_all (ks : list N) (w : zone) : zone :=
  fold_left (fun z k => z_delete (Other k) z) ks w.

Lemma u_dels ks : forall v w,
  u_apply_all (dels ks) (mkU v w true true false) = Ok (mkU v (del_all ks w) true true false).
Proof.
  induction ks as [|k ks IH]; intros v w; cbn [dels map u_apply_all del_all fold_left].
  - reflexivity.
  - unfold Model.u_apply, with_root. cbn. fold (dels ks). rewrite IH. reflexivity.
Qed.

Lemma filter_nonsoa_others ks :
  filter (fun x => negb (is_soa x)) (rev (map Other ks)) = rev (map Other ks).
Proof.
  induction ks as [|k ks IH]; cbn [map rev]; [reflexivity|].
  rewrite filter_app, IH. reflexivity.
Qed.

Lemma u_axfr s ks z0 :
  u_apply_all (axfr_upds s ks) (u_start z0) =
  Ok (mkU (Soa s :: rev (map Other ks)) (Soa s :: rev (map Other ks)) false false true).
Proof.
  unfold axfr_upds, u_start. cbn [Model.u_apply_all]. unfold Model.u_apply at 1. cbn.
  rewrite u_apply_all_app, u_adds. cbn. unfold Model.u_apply, with_root, u_commit, z_update_soa. cbn.
  rewrite app_nil_r, filter_nonsoa_others. reflexivity.
Qed.

Definition apply_diff_z (d : diff) (w : zone) : zone :=
  rev (map Other (d_adds d)) ++ z_update_soa (d_new d) (del_all (d_dels d) w).

Fixpoint chain_ok (ds : list diff) (w : zone) : Prop :=
  match ds with
  | [] => True
  | d :: ds' => batch_soa_ok chk (d_old d) w = true /\ chain_ok ds' (apply_diff_z d w)
  end.

Lemma u_diff d v w :
  batch_soa_ok chk (d_old d) w = true ->
  u_apply_all (diff_upds d) (mkU v w true true false) = Ok (mkU w (apply_diff_z d w) true true false).
Proof.
  intros B. unfold diff_upds. cbn [Model.u_apply_all]. unfold Model.u_apply at 1, u_commit.
  cbn [u_fin u_open u_working u_write u_visible]. rewrite B.
  replace (if chk then Ok tt else Ok tt) with (@Ok unit tt) by (destruct chk; reflexivity).
  cbn.
  rewrite u_apply_all_app, u_dels. cbn.
  rewrite u_adds. reflexivity.
Qed.

Lemma u_diffs ds : forall v w, chain_ok ds w ->
  exists v', u_apply_all (concat (map diff_upds ds)) (mkU v w true true false) =
  Ok (mkU v' (fold_left (fun z d => apply_diff_z d z) ds w) true true false).
Proof.
  induction ds as [|d ds IH]; intros v w C; cbn [map concat fold_left].
  - exists v. reflexivity.
  - destruct C as [B C]. rewrite u_apply_all_app, (u_diff d v w B). cbn [bind]. apply IH. exact C.
Qed.

Lemma u_ixfr snew ds old : chain_ok ds old ->
  let w := z_update_soa snew (fold_left (fun z d => apply_diff_z d z) ds old) in
  u_apply_all (ixfr_upds snew ds) (u_start old) = Ok (mkU w w false false true).
Proof.
  intros C. cbv zeta. unfold ixfr_upds, u_start. rewrite u_apply_all_app.
  destruct (u_diffs ds old old C) as [v' ->]. cbn. unfold Model.u_apply, with_root, u_commit. cbn.
  reflexivity.
Qed.

(* difference sequences that chain on SOA serials satisfy the updater's check,
   whether or not it is there *)
Fixpoint soa_chain (cur : N) (ds : list diff) : Prop :=
  match ds with
  | [] => True
  | d :: ds' => soa_serial (d_old d) = soa_serial cur /\ soa_chain (d_new d) ds'
  end.

Lemma filter_soa_others ks : filter is_soa (rev (map Other ks)) = [].
Proof.
  induction ks as [|k ks IH]; cbn [map rev]; [reflexivity|].
  rewrite filter_app, IH. reflexivity.
Qed.

Lemma first_soa_apply_diff d w : z_first_soa (apply_diff_z d w) = Some (d_new d).
Proof.
  unfold z_first_soa, apply_diff_z, z_update_soa. rewrite filter_app, filter_soa_others. reflexivity.
Qed.

Lemma soa_chain_ok ds : forall w cur,
  z_first_soa w = Some cur -> soa_chain cur ds -> chain_ok ds w.
Proof.
  induction ds as [|d ds IH]; intros w cur Hw Hc; cbn [chain_ok]; [exact I|].
  destruct Hc as [H1 H2]. split.
  - unfold batch_soa_ok. rewrite Hw. destruct chk; [|reflexivity]. apply N.eqb_eq. congruence.
  - apply (IH _ (d_new d)); [apply first_soa_apply_diff|exact H2].
Qed.

Lemma in_z_delete r x z : In r (z_delete x z) <-> In r z /\ r <> x.
Proof.
  unfold z_delete. rewrite filter_In. split; intros [H1 H2]; split; auto.
  - intros ->. assert (rr_eqb x x = true) by (apply rr_eqb_spec; reflexivity).
    rewrite H in H2. discriminate.
  - destruct (rr_eqb r x) eqn:E; [|reflexivity]. apply rr_eqb_spec in E. contradiction.
Qed.

Lemma in_del_all ks : forall w r,
  In r (del_all ks w) <-> In r w /\ (forall k, In k ks -> r <> Other k).
Proof.
  induction ks as [|k ks IH]; intros w r; cbn [del_all fold_left].
  - split; [intros H; split; [auto|intros k []]|tauto].
  - fold (del_all ks (z_delete (Other k) w)). rewrite IH, in_z_delete. split.
    + intros [[H1 H2] H3]. split; [auto|]. intros k' [<-|Hk]; auto.
    + intros [H1 H2]. split; [split; [auto|apply H2; left; reflexivity]|].
      intros k' Hk. apply H2. right. exact Hk.
Qed.

Lemma in_update_soa s z r :
  In r (z_update_soa s z) <-> r = Soa s \/ (In r z /\ is_soa r = false).
Proof.
  unfold z_update_soa. cbn [In]. rewrite filter_In. split.
  - intros [<-|[H1 H2]]; [left; reflexivity|right]. split; [auto|].
    destruct (is_soa r); [discriminate|reflexivity].
  - intros [->|[H1 H2]]; [left; reflexivity|right]. split; [auto|]. rewrite H2. reflexivity.
Qed.

(* what one difference sequence means on sets of records (RFC 1995) *)
Definition diff_rel (d : diff) (z z' : zone) : Prop :=
  forall r, In r z' <->
    match r with
    | Soa s => s = d_new d
    | Other k => In k (d_adds d) \/ (In (Other k) z /\ ~ In k (d_dels d))
    end.

Definition zeq (a b : zone) : Prop := forall r, In r a <-> In r b.

Lemma apply_diff_z_rel d z : diff_rel d z (apply_diff_z d z).
Proof.
  intros r. unfold apply_diff_z. rewrite in_app_iff, <- in_rev, in_map_iff, in_update_soa, in_del_all.
  destruct r as [s|k]; cbn [is_soa].
  - split.
    + intros [[k [E _]]|[E|[_ E]]]; try discriminate. congruence.
    + intros ->. right. left. reflexivity.
  - split.
    + intros [[k' [E Hk]]|[E|[[H1 H2] _]]]; try discriminate.
      * left. congruence.
      * right. split; [auto|]. intros Hk. apply (H2 k Hk). reflexivity.
    + intros [Hk|[H1 H2]].
      * left. exists k. auto.
      * right. right. split; [|reflexivity]. split; [auto|]. intros k' Hk' E. inversion E; subst. contradiction.
Qed.

Fixpoint chain_rel (z : zone) (ds : list diff) (z' : zone) : Prop :=
  match ds with
  | [] => zeq z z'
  | d :: ds' => exists mid, diff_rel d z mid /\ chain_rel mid ds' z'
  end.

Lemma diff_rel_zeq d z z1 m m1 : zeq z z1 -> diff_rel d z m -> diff_rel d z1 m1 -> zeq m m1.
Proof.
  intros E H H1 r. rewrite (H r), (H1 r). destruct r as [s|k]; [tauto|]. rewrite (E (Other k)). tauto.
Qed.

Lemma chain_fold ds : forall z z1 z',
  chain_rel z ds z' -> zeq z z1 -> zeq (fold_left (fun w d => apply_diff_z d w) ds z1) z'.
Proof.
  induction ds as [|d ds IH]; intros z z1 z' H E; cbn [fold_left chain_rel] in *.
  - intros r. rewrite <- (H r), (E r). tauto.
  - destruct H as [mid [Hd Hc]]. apply (IH mid); [exact Hc|].
    eapply diff_rel_zeq; [exact E|exact Hd|apply apply_diff_z_rel].
Qed.

Definition u_inv (st : ustate) : Prop := u_fin st = false -> u_open st = true /\ u_write st = true.

Lemma u_apply_inv u st : u_inv st -> no_panic (u_apply u st) /\ (forall st', u_apply u st = Ok st' -> u_inv st').
Proof.
  unfold u_inv, Model.u_apply. intros I. destruct (u_fin st) eqn:F.
  { cbn. split; [exact Logic.I|discriminate]. }
  destruct (I eq_refl) as [O W].
  destruct u; unfold with_root, u_commit; rewrite ?O, ?W; cbn; rewrite ?O, ?W; cbn;
  try (destruct chk; [destruct (batch_soa_ok _ _ _)|]; cbn; rewrite ?O, ?W; cbn);
  (split; [exact Logic.I|intros st' H; inversion H; subst; cbn; auto; discriminate]).
Qed.

Lemma u_apply_all_no_panic us : forall st, u_inv st -> no_panic (u_apply_all us st).
Proof.
  induction us as [|u us IH]; intros st I; cbn [Model.u_apply_all].
  - exact Logic.I.
  - destruct (u_apply_inv u st I) as [NP K]. destruct (u_apply u st) eqn:E; cbn in *; auto.
Qed.

(* the visible version moves only at BeginBatchDelete and Finished *)
Definition is_commit (u : upd) : bool :=
  match u with UBeginDel _ | UFinished _ => true | _ => false end.

Lemma u_apply_visible u st st' :
  u_apply u st = Ok st' -> is_commit u = false -> u_visible st' = u_visible st.
Proof.
  unfold Model.u_apply. destruct (u_fin st); [discriminate|].
  destruct u; cbn [is_commit]; try discriminate; unfold with_root;
  destruct (u_open st); intros H; inversion H; subst; reflexivity.
Qed.

Lemma u_apply_all_visible us : forall st st',
  u_apply_all us st = Ok st' -> forallb (fun u => negb (is_commit u)) us = true ->
  u_visible st' = u_visible st.
Proof.
  induction us as [|u us IH]; intros st st'; cbn [Model.u_apply_all forallb].
  - intros H _. inversion H. reflexivity.
  - destruct (u_apply u st) as [st1| | |] eqn:E; cbn [bind]; try discriminate.
    intros H Hc. apply andb_prop in Hc as [C1 C2].
    rewrite (IH _ _ H C2). apply (u_apply_visible _ _ _ E).
    destruct (is_commit u); [discriminate|reflexivity].
Qed.

(* AXFR-style answers: to an AXFR question, or to an IXFR question when there
   is at least one record between the SOAs *)
Theorem axfr_style_fidelity ty s ks ms cs z0 :
  (ty = Ixfr -> ks <> []) ->
  packs (qtype_of ty) ms cs -> concat cs = axfr_seq s ks -> ~ lone_soa_first ty cs ->
  exists us st, run None ms = (us, SDone) /\ c10_apply z0 us = Ok st /\
    u_fin st = true /\ u_visible st = Soa s :: rev (map Other ks) /\
    Permutation (u_visible st) (Soa s :: map Other ks).
Proof.
  intros Hty Hp Hc Hl. destruct (flat_axfr ty s ks Hty) as [p' [F Hf]]. rewrite <- Hc in F.
  exists (axfr_upds s ks). eexists. split.
  - rewrite (run_of_flat ty ms cs s _ p' _ Hp Hl Hc F (quiet_when_finished p' Hf)), Hf. reflexivity.
  - rewrite u_axfr. split; [reflexivity|]. cbn [u_fin u_visible]. repeat split.
    constructor. apply Permutation_sym, Permutation_rev.
Qed.

Theorem axfr_fidelity s ks ms cs z0 :
  packs 252 ms cs -> concat cs = axfr_seq s ks ->
  exists us st, run None ms = (us, SDone) /\ c10_apply z0 us = Ok st /\
    u_fin st = true /\ u_visible st = Soa s :: rev (map Other ks) /\
    Permutation (u_visible st) (Soa s :: map Other ks).
Proof.
  intros Hp Hc. apply (axfr_style_fidelity Axfr s ks ms cs z0); auto; [discriminate|].
  intros [[=] _].
Qed.

Example axfr_fidelity_nonvacuous :
  exists ms cs, packs 252 ms cs /\ concat cs = axfr_seq 7 [1; 2].
Proof.
  exists [mkMsg (mkHdr true 0 0 false 1 2 0 (Some 252)) [Rec (Soa 7); Rec (Other 1)];
          mkMsg (mkHdr true 0 0 false 0 2 0 None) [Rec (Other 2); Rec (Soa 7)]],
         [[Soa 7; Other 1]; [Other 2; Soa 7]].
  split; [|reflexivity]. cbn. repeat split; try (cbn; lia); try discriminate.
  constructor; [|constructor]. repeat split; try (cbn; lia); try discriminate.
Qed.

Theorem fallback_fidelity s k ks ms cs z0 :
  packs 251 ms cs -> concat cs = axfr_seq s (k :: ks) -> ~ lone_soa_first Ixfr cs ->
  exists us st, run None ms = (us, SDone) /\ c10_apply z0 us = Ok st /\
    u_fin st = true /\ Permutation (u_visible st) (Soa s :: map Other (k :: ks)).
Proof.
  intros Hp Hc Hl.
  destruct (axfr_style_fidelity Ixfr s (k :: ks) ms cs z0 ltac:(discriminate) Hp Hc Hl)
    as [us [st [R [A [Fi [_ P]]]]]].
  exists us, st. auto.
Qed.

Theorem ixfr_fidelity snew ds old new ms cs :
  (forall d, In d ds -> d_old d <> snew) ->
  chain_rel old ds new -> (forall s, In (Soa s) new <-> s = snew) ->
  chain_ok ds old ->
  packs 251 ms cs -> concat cs = ixfr_seq snew ds -> ~ lone_soa_first Ixfr cs ->
  exists us st, run None ms = (us, SDone) /\ c10_apply old us = Ok st /\
    u_fin st = true /\ zeq (u_visible st) new.
Proof.
  intros Hne Hch Hsoa Hck Hp Hc Hl. destruct (flat_ixfr snew ds Hne) as [p' [F Hf]]. rewrite <- Hc in F.
  exists (ixfr_upds snew ds). eexists. split.
  - rewrite (run_of_flat Ixfr ms cs snew _ p' _ Hp Hl Hc F (quiet_when_finished p' Hf)), Hf. reflexivity.
  - rewrite (u_ixfr _ _ _ Hck). split; [reflexivity|]. cbn [u_fin u_visible]. split; [reflexivity|].
    pose proof (chain_fold ds old old new Hch (fun r => iff_refl _)) as Z.
    intros r. rewrite in_update_soa, (Z r). destruct r as [s|k]; cbn [is_soa].
    + rewrite Hsoa. split; [intros [E|[_ E]]; [congruence|discriminate]|intros ->; left; reflexivity].
    + split; [intros [E|[H _]]; [discriminate|exact H]|intros H; right; auto].
Qed.

Example ixfr_fidelity_nonvacuous :
  let d := mkDiff 3 [5] 4 [6] in
  chain_rel [Soa 3; Other 5; Other 9] [d] [Soa 4; Other 9; Other 6] /\
  exists ms cs, packs 251 ms cs /\ concat cs = ixfr_seq 4 [d] /\ ~ lone_soa_first Ixfr cs.
Proof.
  cbv zeta. split.
  - exists (apply_diff_z (mkDiff 3 [5] 4 [6]) [Soa 3; Other 5; Other 9]).
    split; [apply apply_diff_z_rel|]. intros r. cbn. tauto.
  - exists [mkMsg (mkHdr true 0 0 false 1 6 0 (Some 251))
              [Rec (Soa 4); Rec (Soa 3); Rec (Other 5); Rec (Soa 4); Rec (Other 6); Rec (Soa 4)]],
           [[Soa 4; Soa 3; Other 5; Soa 4; Other 6; Soa 4]].
    split; [|split; [reflexivity|]].
    + cbn. repeat split; try (cbn; lia); try discriminate. constructor.
    + intros [_ [r [cs' [E _]]]]. discriminate.
Qed.

(* message boundaries do not matter: two packagings of the same record sequence *)
Theorem split_irrelevant ty ms1 cs1 ms2 cs2 :
  packs (qtype_of ty) ms1 cs1 -> packs (qtype_of ty) ms2 cs2 ->
  ~ lone_soa_first ty cs1 -> ~ lone_soa_first ty cs2 ->
  concat cs1 = concat cs2 ->
  fst (run None ms1) = fst (run None ms2) /\
  (snd (run None ms1) = snd (run None ms2) \/
   exists e1 e2, snd (run None ms1) = SErr e1 /\ snd (run None ms2) = SErr e2).
Proof.
  intros P1 P2 L1 L2 E.
  destruct (split_irrelevant_lemma ty ms1 cs1 P1 L1) as [A1 B1].
  destruct (split_irrelevant_lemma ty ms2 cs2 P2 L2) as [A2 B2].
  rewrite E in *. split; [congruence|].
  destruct B1 as [B1|[e1 [e1' [B1 B1']]]], B2 as [B2|[e2 [e2' [B2 B2']]]].
  - left. congruence.
  - right. exists e2'. exists e2. rewrite B1, B2'. auto.
  - right. exists e1. exists e1'. rewrite B2, B1'. auto.
  - right. eauto.
Qed.

(* An AXFR-style stream that never closes - cut short, or closed by a SOA that
   is not the opening one: any packaging, never Finished, no commit, readers
   keep the old zone. *)
Theorem reject_open_axfr ty s rs ms cs z0 :
  packs (qtype_of ty) ms cs -> concat cs = Soa s :: rs ->
  ~ In (Soa s) rs -> (ty = Ixfr -> exists k rs', rs = Other k :: rs') ->
  ~ lone_soa_first ty cs ->
  exists us st, run None ms = (us, SIncomplete) /\ c10_apply z0 us = Ok st /\
    u_fin st = false /\ u_visible st = z0.
Proof.
  intros Hp Hc Hn Hty Hl. destruct (flat_axfr_open ty s rs Hn Hty) as [p' [F [Hf Q]]].
  rewrite <- Hc in F. exists (open_upds rs).
  assert (A : exists w, c10_apply z0 (open_upds rs) = Ok (mkU z0 w true true false)).
  { destruct rs as [|r rs]; [exists z0; reflexivity|]. unfold open_upds, u_start.
    cbn [Model.u_apply_all]. unfold Model.u_apply at 1. cbn. rewrite u_add_all. eexists. reflexivity. }
  destruct A as [w A]. eexists. split; [|rewrite A; auto].
  rewrite (run_of_flat ty ms cs s _ p' _ Hp Hl Hc F Q), Hf. reflexivity.
Qed.

Theorem reject_truncated_axfr ty s ks ms cs z0 :
  packs (qtype_of ty) ms cs -> concat cs = Soa s :: map Other ks ->
  (ty = Ixfr -> ks <> []) -> ~ lone_soa_first ty cs ->
  exists us st, run None ms = (us, SIncomplete) /\ c10_apply z0 us = Ok st /\
    u_fin st = false /\ u_visible st = z0.
Proof.
  intros Hp Hc Hty. apply (reject_open_axfr ty s _ ms cs z0 Hp Hc).
  - rewrite in_map_iff. intros [k [[=] _]].
  - intros E. destruct ks as [|k ks]; [contradiction (Hty E); reflexivity|]. cbn [map]. eauto.
Qed.

Theorem reject_mismatched_close ty s s' ks ms cs z0 :
  s' <> s ->
  packs (qtype_of ty) ms cs -> concat cs = Soa s :: map Other ks ++ [Soa s'] ->
  (ty = Ixfr -> ks <> []) -> ~ lone_soa_first ty cs ->
  exists us st, run None ms = (us, SIncomplete) /\ c10_apply z0 us = Ok st /\
    u_fin st = false /\ u_visible st = z0.
Proof.
  intros Hs Hp Hc Hty. apply (reject_open_axfr ty s _ ms cs z0 Hp Hc).
  - rewrite in_app_iff, in_map_iff. intros [[k [[=] _]]|[[= E]|[]]]. congruence.
  - intros E. destruct ks as [|k ks]; [contradiction (Hty E); reflexivity|]. cbn [map app]. eauto.
Qed.

Example reject_truncated_nonvacuous :
  exists ms cs, packs 252 ms cs /\ concat cs = Soa 7 :: map Other [1; 2].
Proof.
  exists [mkMsg (mkHdr true 0 0 false 1 3 0 (Some 252)) [Rec (Soa 7); Rec (Other 1); Rec (Other 2)]],
         [[Soa 7; Other 1; Other 2]].
  split; [|reflexivity]. cbn. repeat split; try (cbn; lia); try discriminate. constructor.
Qed.

(* what the protocol cannot see (RFC 5936 has no sequence numbers): an AXFR
   with a middle message missing is a valid AXFR of a smaller zone and is
   accepted as such *)
Theorem axfr_drop_middle_undetectable s ks1 ks2 ks3 ms cs z0 :
  packs 252 ms cs -> concat cs = axfr_seq s (ks1 ++ ks3) ->
  exists us st, run None ms = (us, SDone) /\ c10_apply z0 us = Ok st /\
    Permutation (u_visible st) (Soa s :: map Other (ks1 ++ ks3)) /\
    (ks2 <> [] -> ~ Permutation (u_visible st) (Soa s :: map Other (ks1 ++ ks2 ++ ks3))).
Proof.
  intros Hp Hc. destruct (axfr_fidelity s (ks1 ++ ks3) ms cs z0 Hp Hc) as [us [st [R [A [_ [_ P]]]]]].
  exists us, st. repeat split; auto.
  intros Hne Q. apply Permutation_length in P. apply Permutation_length in Q.
  rewrite P in Q. cbn [length] in Q. rewrite !map_length, !app_length in Q.
  destruct ks2; [contradiction|]. cbn [length] in Q. lia.
Qed.

(* whatever an updater did before it was dropped without Finished, a following
   complete AXFR gives the sender's zone, and a following IXFR starts from the
   content that was visible when the first updater was dropped *)
Theorem abort_then_axfr us1 z0 st1 s ks :
  u_apply_all us1 (u_start z0) = Ok st1 ->
  c10_transfers z0 [us1; axfr_upds s ks] =
  Ok [u_visible st1; Soa s :: rev (map Other ks)].
Proof.
  intros H. cbn [Model.u_transfers]. rewrite H. cbn [bind].
  rewrite u_axfr. reflexivity.
Qed.

Theorem abort_then_ixfr us1 z0 st1 snew ds :
  u_apply_all us1 (u_start z0) = Ok st1 -> chain_ok ds (u_visible st1) ->
  c10_transfers z0 [us1; ixfr_upds snew ds] =
  Ok [u_visible st1;
      z_update_soa snew (fold_left (fun z d => apply_diff_z d z) ds (u_visible st1))].
Proof.
  intros H C. cbn [Model.u_transfers]. rewrite H. cbn [bind].
  rewrite (u_ixfr _ _ _ C). reflexivity.
Qed.

(* an aborted transfer that never reached a batch boundary is invisible *)
Theorem abort_invisible us1 z0 st1 :
  u_apply_all us1 (u_start z0) = Ok st1 ->
  forallb (fun u => negb (is_commit u)) us1 = true ->
  c10_transfers z0 [us1] = Ok [z0].
Proof.
  intros H C. cbn [Model.u_transfers]. rewrite H. cbn [bind].
  rewrite (u_apply_all_visible _ _ _ H C). reflexivity.
Qed.

Example abort_nonvacuous :
  c10_transfers [Soa 3; Other 5; Other 9]
    [[UBeginDel 3; UDelete (Other 5); UBeginAdd 4; UAdd (Other 6); UBeginDel 4; UDelete (Other 9)];
     ixfr_upds 6 [mkDiff 4 [6] 6 [7]]]
  = Ok [[Other 6; Soa 4; Other 9]; [Soa 6; Other 7; Other 9]].
Proof. destruct chk; vm_compute; reflexivity. Qed.

End WithChk.

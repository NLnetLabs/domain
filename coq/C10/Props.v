(* C10 -- property theorems only.  Proofs live in C10/Proofs1.v, Proofs2.v. *)
From Coq Require Import NArith List Permutation.
From DV Require Import Base.Outcome C10.Gen C10.Model C10.Proofs1 C10.Proofs2 C10.Proofs3 C10.Proofs4 C10.Proofs5 C10.Proofs6 C10.Proofs7 C10.Proofs8 C10.Proofs9 C10.Proofs10 C10.ProofsK.
From DV Require C09.Gen C09.Model C09.Proofs C17.Gen C17.Model.
Import ListNotations.
Local Open Scope N_scope.

Theorem C10_axfr_fidelity : forall s ks ms cs z0,
  packs 252 ms cs -> concat cs = axfr_seq s ks ->
  exists us st, run None ms = (us, SDone) /\ c10_apply z0 us = Ok st /\
    u_fin st = true /\ u_visible st = Soa s :: rev (map Other ks) /\
    Permutation (u_visible st) (Soa s :: map Other ks).
Proof. exact (axfr_fidelity updater_checks_batch_soa). Qed.
Print Assumptions C10_axfr_fidelity.

Theorem C10_ixfr_fidelity : forall snew ds old new ms cs,
  (forall d, In d ds -> d_old d <> snew) ->
  chain_rel old ds new -> (forall s, In (Soa s) new <-> s = snew) ->
  chain_ok updater_checks_batch_soa ds old ->
  packs 251 ms cs -> concat cs = ixfr_seq snew ds -> ~ lone_soa_first Ixfr cs ->
  exists us st, run None ms = (us, SDone) /\ c10_apply old us = Ok st /\
    u_fin st = true /\ zeq (u_visible st) new.
Proof. exact (ixfr_fidelity updater_checks_batch_soa). Qed.
Print Assumptions C10_ixfr_fidelity.

Theorem C10_fallback_fidelity : forall s k ks ms cs z0,
  packs 251 ms cs -> concat cs = axfr_seq s (k :: ks) -> ~ lone_soa_first Ixfr cs ->
  exists us st, run None ms = (us, SDone) /\ c10_apply z0 us = Ok st /\
    u_fin st = true /\ Permutation (u_visible st) (Soa s :: map Other (k :: ks)).
Proof. exact (fallback_fidelity updater_checks_batch_soa). Qed.
Print Assumptions C10_fallback_fidelity.

Theorem C10_split_irrelevant : forall ty ms1 cs1 ms2 cs2,
  packs (qtype_of ty) ms1 cs1 -> packs (qtype_of ty) ms2 cs2 ->
  ~ lone_soa_first ty cs1 -> ~ lone_soa_first ty cs2 ->
  concat cs1 = concat cs2 ->
  fst (run None ms1) = fst (run None ms2) /\
  (snd (run None ms1) = snd (run None ms2) \/
   exists e1 e2, snd (run None ms1) = SErr e1 /\ snd (run None ms2) = SErr e2).
Proof. exact split_irrelevant. Qed.
Print Assumptions C10_split_irrelevant.

Theorem C10_lone_soa_first_message_refuted :
  exists ms cs, packs 251 ms cs /\ lone_soa_first Ixfr cs /\
    snd (flat_run Ixfr (concat cs)) = SDone /\ snd (run None ms) = SErr E_SingleSoa.
Proof. exact lone_soa_first_message_refuted. Qed.
Print Assumptions C10_lone_soa_first_message_refuted.

Theorem C10_reject_total_interpreter : forall ms st s, snd (run st ms) <> SPanic s.
Proof. exact run_no_panic. Qed.
Print Assumptions C10_reject_total_interpreter.

Theorem C10_reject_total_updater : forall us z0, no_panic (c10_apply z0 us).
Proof. intros us z0. apply (u_apply_all_no_panic updater_checks_batch_soa). intros _. split; reflexivity. Qed.
Print Assumptions C10_reject_total_updater.

Theorem C10_reject_bad_header : forall st m,
  st_finished st = false -> ~ good_hdr (is_first st) (m_hdr m) ->
  interpret_response st m = (st, IErr E_NotValid).
Proof. exact reject_header. Qed.
Print Assumptions C10_reject_bad_header.

Theorem C10_check_response_spec : forall first h,
  check_response first h = false <-> good_hdr first h.
Proof. exact check_response_spec. Qed.
Print Assumptions C10_check_response_spec.

Theorem C10_reject_wrong_question : forall m,
  ty_of_qtype (h_qtype (m_hdr m)) = None ->
  interpret_response None m = (None, IErr E_NotValid).
Proof. exact reject_wrong_question. Qed.
Print Assumptions C10_reject_wrong_question.

Theorem C10_reject_first_not_soa : forall m k rest,
  m_items m = Rec (Other k) :: rest ->
  interpret_response None m = (None, IErr E_NotValid).
Proof. exact reject_first_not_soa. Qed.
Print Assumptions C10_reject_first_not_soa.

Theorem C10_reject_after_done : forall st m ms,
  st_finished st = true -> run st (m :: ms) = ([], SErr E_Finished).
Proof. exact run_after_done. Qed.
Print Assumptions C10_reject_after_done.

Theorem C10_no_partial_visible : forall us st st',
  u_apply_all updater_checks_batch_soa us st = Ok st' -> forallb (fun u => negb (is_commit u)) us = true ->
  u_visible st' = u_visible st.
Proof. exact (u_apply_all_visible updater_checks_batch_soa). Qed.
Print Assumptions C10_no_partial_visible.

Theorem C10_reject_truncated_axfr : forall ty s ks ms cs z0,
  packs (qtype_of ty) ms cs -> concat cs = Soa s :: map Other ks ->
  (ty = Ixfr -> ks <> []) -> ~ lone_soa_first ty cs ->
  exists us st, run None ms = (us, SIncomplete) /\ c10_apply z0 us = Ok st /\
    u_fin st = false /\ u_visible st = z0.
Proof. exact (reject_truncated_axfr updater_checks_batch_soa). Qed.
Print Assumptions C10_reject_truncated_axfr.

Theorem C10_reject_mismatched_close : forall ty s s' ks ms cs z0,
  s' <> s ->
  packs (qtype_of ty) ms cs -> concat cs = Soa s :: map Other ks ++ [Soa s'] ->
  (ty = Ixfr -> ks <> []) -> ~ lone_soa_first ty cs ->
  exists us st, run None ms = (us, SIncomplete) /\ c10_apply z0 us = Ok st /\
    u_fin st = false /\ u_visible st = z0.
Proof. exact (reject_mismatched_close updater_checks_batch_soa). Qed.
Print Assumptions C10_reject_mismatched_close.

Theorem C10_axfr_drop_middle_undetectable : forall s ks1 ks2 ks3 ms cs z0,
  packs 252 ms cs -> concat cs = axfr_seq s (ks1 ++ ks3) ->
  exists us st, run None ms = (us, SDone) /\ c10_apply z0 us = Ok st /\
    Permutation (u_visible st) (Soa s :: map Other (ks1 ++ ks3)) /\
    (ks2 <> [] -> ~ Permutation (u_visible st) (Soa s :: map Other (ks1 ++ ks2 ++ ks3))).
Proof. exact (axfr_drop_middle_undetectable updater_checks_batch_soa). Qed.
Print Assumptions C10_axfr_drop_middle_undetectable.

Theorem C10_diff_applies_refuted_ttl_change : exists pub ops, ~ diff_applies pub ops.
Proof. exact diff_applies_refuted_ttl_change. Qed.
Print Assumptions C10_diff_applies_refuted_ttl_change.

Theorem C10_diff_applies_refuted_reorder : exists pub ops, ~ diff_applies pub ops.
Proof. exact diff_applies_refuted_reorder. Qed.
Print Assumptions C10_diff_applies_refuted_reorder.

Theorem C10_diff_applies_refuted_delete_all : exists pub ops, ~ diff_applies pub ops.
Proof. exact diff_applies_refuted_delete_all. Qed.
Print Assumptions C10_diff_applies_refuted_delete_all.

Theorem C10_single_update_diff_applies : forall k t old new,
  old <> [] -> new <> [] ->
  (exists x, In x old /\ ~ In x new) -> (exists x, In x new /\ ~ In x old) ->
  let st := update_rrset k (t, new) (d_start [(k, (t, old))]) in
  same_rrset (s_get k (apply_zdiff [(k, (t, old))] (ds_rem st, ds_add st))) (Some (t, new)).
Proof. exact single_update_diff_applies. Qed.
Print Assumptions C10_single_update_diff_applies.

Theorem C10_abort_then_axfr : forall us1 z0 st1 s ks,
  u_apply_all updater_checks_batch_soa us1 (u_start z0) = Ok st1 ->
  c10_transfers z0 [us1; axfr_upds s ks] = Ok [u_visible st1; Soa s :: rev (map Other ks)].
Proof. exact (abort_then_axfr updater_checks_batch_soa). Qed.
Print Assumptions C10_abort_then_axfr.

Theorem C10_abort_then_ixfr : forall us1 z0 st1 snew ds,
  u_apply_all updater_checks_batch_soa us1 (u_start z0) = Ok st1 -> chain_ok updater_checks_batch_soa ds (u_visible st1) ->
  c10_transfers z0 [us1; ixfr_upds snew ds] =
  Ok [u_visible st1;
      z_update_soa snew (fold_left (fun z d => apply_diff_z d z) ds (u_visible st1))].
Proof. exact (abort_then_ixfr updater_checks_batch_soa). Qed.
Print Assumptions C10_abort_then_ixfr.

Theorem C10_abort_invisible : forall us1 z0 st1,
  u_apply_all updater_checks_batch_soa us1 (u_start z0) = Ok st1 ->
  forallb (fun u => negb (is_commit u)) us1 = true ->
  c10_transfers z0 [us1] = Ok [z0].
Proof. exact (abort_invisible updater_checks_batch_soa). Qed.
Print Assumptions C10_abort_invisible.

Theorem C10_ixfr_prefix_visible : forall snew ds old us1 us2,
  chain_ok updater_checks_batch_soa ds old ->
  us1 ++ us2 = ixfr_upds snew ds ->
  exists st, u_apply_all updater_checks_batch_soa us1 (u_start old) = Ok st /\
    (In (u_visible st) (scan ds old) \/ (us2 = [] /\ u_visible st = final_zone snew ds old)) /\
    (us2 <> [] -> u_fin st = false).
Proof. exact (ixfr_prefix_visible updater_checks_batch_soa). Qed.
Print Assumptions C10_ixfr_prefix_visible.

Theorem C10_reject_truncated_ixfr : forall snew ds old ms cs rest,
  (forall d, In d ds -> d_old d <> snew) -> chain_ok updater_checks_batch_soa ds old ->
  packs 251 ms cs -> concat cs ++ rest = ixfr_seq snew ds -> rest <> [] ->
  ~ lone_soa_first Ixfr cs ->
  snd (run None ms) <> SDone /\
  exists st, c10_apply old (fst (run None ms)) = Ok st /\ u_fin st = false /\
    In (u_visible st) (scan ds old).
Proof. exact (reject_truncated_ixfr updater_checks_batch_soa). Qed.
Print Assumptions C10_reject_truncated_ixfr.

Theorem C10_reject_mismatched_close_ixfr : forall snew s' ds old ms cs,
  s' <> snew -> (forall d, In d ds -> d_old d <> snew) -> chain_ok updater_checks_batch_soa ds old ->
  packs 251 ms cs -> concat cs = Soa snew :: concat (map diff_seq ds) ++ [Soa s'] ->
  ~ lone_soa_first Ixfr cs ->
  run None ms = (concat (map diff_upds ds) ++ [UBeginDel s'], SIncomplete) /\
  (exists st, c10_apply old (concat (map diff_upds ds)) = Ok st /\
     u_fin st = false /\ In (u_working st) (scan ds old)) /\
  (forall st, c10_apply old (concat (map diff_upds ds) ++ [UBeginDel s']) = Ok st ->
     u_fin st = false /\ In (u_visible st) (scan ds old)).
Proof. exact (reject_mismatched_close_ixfr updater_checks_batch_soa). Qed.
Print Assumptions C10_reject_mismatched_close_ixfr.

(* SOA serials that chain satisfy the updater's batch check, present or not *)
Theorem C10_soa_chain_ok : forall ds w cur,
  z_first_soa w = Some cur -> soa_chain cur ds -> chain_ok updater_checks_batch_soa ds w.
Proof. exact (soa_chain_ok updater_checks_batch_soa). Qed.
Print Assumptions C10_soa_chain_ok.

Theorem C10_unchained_batch_rejected : forall s w v rest,
  batch_soa_ok true s w = false ->
  u_apply_all true (UBeginDel s :: rest) (mkU v w true true false) = Err E_SoaMismatch.
Proof. exact unchained_batch_rejected. Qed.
Print Assumptions C10_unchained_batch_rejected.

(* the updater's batch check is in the code (T1) *)
Theorem C10_updater_checks_batch_soa : updater_checks_batch_soa = true.
Proof. reflexivity. Qed.
Print Assumptions C10_updater_checks_batch_soa.

Theorem C10_unchained_rejected : forall snew ds1 d ds2 old,
  chain_ok true ds1 old ->
  batch_soa_ok true (d_old d) (fold_left (fun z x => apply_diff_z x z) ds1 old) = false ->
  c10_apply old (ixfr_upds snew (ds1 ++ d :: ds2)) = Err E_SoaMismatch /\
  (forall us1 us2 st, us1 ++ us2 = ixfr_upds snew (ds1 ++ d :: ds2) ->
     c10_apply old us1 = Ok st ->
     u_fin st = false /\ In (u_visible st) (scan ds1 old)).
Proof. exact unchained_rejected. Qed.
Print Assumptions C10_unchained_rejected.

(* sender o receiver = identity on zones *)
Theorem C10_transfer_identity_axfr : forall v size limit hard rs chunks z0,
  sender_axfr (zone_of v) = Some rs ->
  batch size limit hard rs = Ok chunks ->
  exists us st, run None (sender_msgs 252 chunks) = (us, SDone) /\
    c10_apply z0 us = Ok st /\ u_fin st = true /\
    Permutation (u_visible st) (zone_of v).
Proof. exact (transfer_identity_axfr updater_checks_batch_soa). Qed.
Print Assumptions C10_transfer_identity_axfr.

Theorem C10_transfer_identity_ixfr : forall v vs size limit chunks,
  vs <> [] ->
  ~ In (fst (last (v :: vs) (0, []))) (map fst (removelast (v :: vs))) ->
  (forall r1 r2, size r1 + size r2 <= limit) ->
  forall compat, batch size limit (sender_hard compat 251) (sender_ixfr (v :: vs)) = Ok chunks ->
  exists us st, run None (sender_msgs 251 chunks) = (us, SDone) /\
    c10_apply (zone_of v) us = Ok st /\ u_fin st = true /\
    zeq (u_visible st) (zone_of (last (v :: vs) (0, []))).
Proof.
  intros v vs size limit chunks H1 H2 H3 compat.
  replace (sender_hard compat 251) with (@None N) by (destruct compat; reflexivity).
  exact (transfer_identity_ixfr updater_checks_batch_soa v vs size limit chunks H1 H2 H3).
Qed.
Print Assumptions C10_transfer_identity_ixfr.

Theorem C10_batch_is_a_split : forall size limit hard rs chunks,
  batch size limit hard rs = Ok chunks ->
  concat chunks = rs /\ Forall (fun c => c <> []) chunks.
Proof. exact batch_spec. Qed.
Print Assumptions C10_batch_is_a_split.

Theorem C10_rr_count_no_overflow : forall ty s rs p' us e,
  flat (proc_new ty s) rs = (p', us, e) ->
  N.of_nat (length rs) < 2 ^ target_pointer_width -> p_count p' < 2 ^ rr_count_bits.
Proof. exact rr_count_no_overflow. Qed.
Print Assumptions C10_rr_count_no_overflow.

(* the diff reported on commit applies for every batch outside the three known
   defect classes *)
Theorem C10_good_history_diff_applies : forall pub ops rem add,
  good_history pub ops = true ->
  last (c10_diff pub ops) None = Some (rem, add) ->
  forall k, same_rrset (applied_at k pub rem add) (s_get k (content_after pub ops)).
Proof. exact good_history_diff_applies. Qed.
Print Assumptions C10_good_history_diff_applies.

(* the stream client (check_stream) closes the stream exactly at the last
   message of a valid AXFR / AXFR-style transfer, where the interpreter is Done *)
Theorem C10_client_agrees_axfr : forall q s ks ms cs,
  (q = 252 \/ (q = 251 /\ ks <> [])) ->
  packs q ms cs -> concat cs = axfr_seq s ks -> ~ lone_soa_first (if q =? 252 then Axfr else Ixfr) cs ->
  client_stream (client_init q) ms = (repeat true (length ms), true).
Proof. exact client_agrees_axfr. Qed.
Print Assumptions C10_client_agrees_axfr.

Theorem C10_client_agrees_ixfr_one_message : forall snew ds m,
  (forall d, In d ds -> soa_serial (d_old d) <> soa_serial snew) ->
  carries true m (ixfr_seq snew ds) -> h_qtype (m_hdr m) = Some 251 ->
  client_stream (client_init 251) [m] = ([true], true).
Proof. exact client_agrees_ixfr_one_message. Qed.
Print Assumptions C10_client_agrees_ixfr_one_message.

Theorem C10_client_agrees_single_soa : forall m s,
  carries true m [Soa s] -> h_qtype (m_hdr m) = Some 251 ->
  client_stream (client_init 251) [m] = ([true], true) /\
  run None [m] = ([], SErr E_SingleSoa).
Proof. exact client_agrees_single_soa. Qed.
Print Assumptions C10_client_agrees_single_soa.

(* multi-step histories: every reported diff applies to the version published
   when its batch began *)
Theorem C10_good_multi_diff_applies : forall pub pre o post rem add,
  pub_ok pub = true -> good_multi (pre ++ o :: post) (d_start pub) = true ->
  let st := fst (d_run pre (d_start pub)) in
  snd (d_step o st) = [Some (rem, add)] ->
  forall k, same_rrset (applied_at k (ds_pub st) rem add) (s_get k (ds_work (fst (d_step o st)))).
Proof. exact good_multi_diff_applies. Qed.
Print Assumptions C10_good_multi_diff_applies.

(* the serial range check of a diff is in RFC 1982 order (C17) *)
Theorem C10_serial_range_invalid_spec : forall s e,
  s < 4294967296 -> e < 4294967296 ->
  (serial_range_invalid s e = false <->
   let d := (e + 4294967296 - s) mod 4294967296 in 0 < d /\ d <= 2147483648).
Proof. exact serial_range_invalid_spec. Qed.
Print Assumptions C10_serial_range_invalid_spec.

Theorem C10_rr_count_width : target_pointer_width <= rr_count_bits.
Proof. exact rr_count_width. Qed.
Print Assumptions C10_rr_count_width.

(* the stream client and the interpreter agree on IXFR difference sequences
   spread over any number of messages *)
Theorem C10_client_agrees_ixfr : forall snew ds ms cs,
  (forall d, In d ds -> soa_serial (d_old d) <> soa_serial snew) ->
  packs 251 ms cs -> concat cs = ixfr_seq snew ds -> ~ lone_soa_first Ixfr cs ->
  client_stream (client_init 251) ms = (repeat true (length ms), true).
Proof. exact client_agrees_ixfr. Qed.
Print Assumptions C10_client_agrees_ixfr.

(* capture -> DiffFunneler -> batcher -> interpreter -> updater: the diff the
   zone itself reports for a good batch, sent as an IXFR, takes a receiver at the
   old content to the new content *)
Theorem C10_real_diff_transfer_identity : forall key_of pub body s t rem add d size limit chunks,
  pub_ok pub = true -> ukeys pub -> keyed key_of pub ->
  good_body body (d_start pub) = true ->
  last (c10_diff pub (body ++ [DFinish s t])) None = Some (rem, add) ->
  funnel (rem, add) = Some d ->
  (forall r1 r2, size r1 + size r2 <= limit) ->
  batch size limit (sender_hard false 251) (ixfr_seq (d_new d) [d]) = Ok chunks ->
  exists us st, run None (sender_msgs 251 chunks) = (us, SDone) /\
    c10_apply (store_zone pub) us = Ok st /\ u_fin st = true /\
    zeq (u_visible st) (store_zone (content_after pub (body ++ [DFinish s t]))).
Proof. exact (real_diff_transfer_identity updater_checks_batch_soa). Qed.
Print Assumptions C10_real_diff_transfer_identity.

(* the (visible, working) pair, derived from C09's versioned store for one RRset *)
Theorem C10_cell_refines_pair : forall {T} w (b : list (C09.Model.entry T)) (os : list (@wop T)),
  C09.Proofs.desc b -> C09.Proofs.le_all (w - 1) b -> 0 < w -> w < C09.Proofs.LIM ->
  let cell := C09.Model.c_run b (map (to_cop w) os) in
  (forall r, C09.Proofs.ver_le w r = false -> C09.Model.v_get cell r = C09.Model.v_get b r) /\
  C09.Model.v_get cell w = pair_work (C09.Model.v_get b w) os /\
  C09.Model.v_rollback cell w = b.
Proof. exact @cell_refines_pair. Qed.
Print Assumptions C10_cell_refines_pair.

(* XfrMiddlewareSvc::preprocess decision table *)
Theorem C10_decide_up_to_date : forall qs zs udp n compat,
  n <> 0 -> C17.Model.serial_ge qs zs = true ->
  decide (xfr_request 251 (Some qs) udp) (PData n compat) (Some zs) = DSingleSoa.
Proof. exact decide_up_to_date. Qed.
Print Assumptions C10_decide_up_to_date.

Theorem C10_decide_behind : forall qs zs udp n compat,
  n <> 0 -> C17.Model.serial_ge qs zs = false ->
  decide (xfr_request 251 (Some qs) udp) (PData n compat) (Some zs) = DIxfr.
Proof. exact decide_behind. Qed.
Print Assumptions C10_decide_behind.

Theorem C10_decide_fallback : forall ser udp compat zs,
  decide (xfr_request 251 (Some ser) udp) (PData 0 compat) (Some zs) = DAxfr false.
Proof. exact decide_fallback. Qed.
Print Assumptions C10_decide_fallback.

Theorem C10_decide_axfr : forall compat zs,
  decide (xfr_request 252 None false) (PData 0 compat) (Some zs) = DAxfr compat /\
  decide (xfr_request 252 None true) (PData 0 compat) (Some zs) = DNotimp.
Proof. exact decide_axfr. Qed.
Print Assumptions C10_decide_axfr.

Theorem C10_decide_errors : forall q ser udp zs,
  (q = 252 \/ (q = 251 /\ ser <> None)) ->
  decide (xfr_request q ser udp) PUnknown zs = DErr 9 /\
  decide (xfr_request q ser udp) PRefused zs = DErr 5 /\
  decide (xfr_request q ser udp) PUnavailable zs = DErr 2 /\
  decide (xfr_request q ser udp) PParse zs = DErr 1 /\
  (forall n c, decide (xfr_request q ser udp) (PData n c) None = DErr 2) /\
  decide (xfr_request 251 None udp) PUnknown zs = DErr 1.
Proof. exact decide_errors. Qed.
Print Assumptions C10_decide_errors.

Theorem C10_decide_no_panic : forall rq pr zs,
  (forall n c, pr = PData n c -> rq_qtype rq = 252 -> n = 0) -> decide rq pr zs <> DPanic.
Proof. exact decide_no_panic. Qed.
Print Assumptions C10_decide_no_panic.

(* any sequence of good batches, each committed: the diffs the zone itself
   reports, funnelled into one multi-step IXFR, batched, interpreted and applied
   take a receiver at the first published content to the last one *)
Theorem C10_real_diffs_transfer_identity : forall key_of bs pub ds pub' size limit chunks,
  pub_ok pub = true -> ukeys pub -> keyed key_of pub ->
  good_batches key_of bs pub ->
  run_batches bs pub = Some (ds, pub') -> ds <> [] ->
  let snew := d_new (last ds (mkDiff 0 [] 0 [])) in
  (forall d, In d ds -> d_old d <> snew) ->
  (forall r1 r2, size r1 + size r2 <= limit) ->
  batch size limit (sender_hard false 251) (ixfr_seq snew ds) = Ok chunks ->
  exists us st, run None (sender_msgs 251 chunks) = (us, SDone) /\
    c10_apply (store_zone pub) us = Ok st /\ u_fin st = true /\
    zeq (u_visible st) (store_zone pub').
Proof. exact (real_diffs_transfer_identity updater_checks_batch_soa). Qed.
Print Assumptions C10_real_diffs_transfer_identity.

(* each of those diffs is the one the diff-capture model reports for its batch *)
Theorem C10_batch_diff_is_reported : forall pub body s t,
  good_body body (d_start pub) = true ->
  snd (d_commit (batch_end (body, s, t) pub)) = last (c10_diff pub (body ++ [DFinish s t])) None.
Proof. exact (fun pub body s t _ => batch_diff_is_reported pub body s t). Qed.
Print Assumptions C10_batch_diff_is_reported.

(* ---- single-message faults at any position of any stream (ProofsK) ---- *)
Theorem C10_corrupt_header_anywhere : forall m ms1 ms2 st,
  (forall first, check_response first (m_hdr m) = true) ->
  fst (run st (ms1 ++ m :: ms2)) = fst (run st ms1) /\
  exists e, snd (run st (ms1 ++ m :: ms2)) = SErr e.
Proof. exact corrupt_header_anywhere. Qed.
Print Assumptions C10_corrupt_header_anywhere.

Theorem C10_header_fault_both : forall m,
  existsb (fun t => check_cond t (m_hdr m)) check_tags = true ->
  forall first, check_response first (m_hdr m) = true.
Proof. exact header_fault_both. Qed.
Print Assumptions C10_header_fault_both.

Theorem C10_bad_record_anywhere : forall m pre post ms1 ms2 st,
  m_items m = pre ++ Bad :: post ->
  run st (ms1 ++ m :: ms2) = run st (ms1 ++ [m]) /\
  exists e, snd (run st (ms1 ++ m :: ms2)) = SErr e.
Proof. exact bad_record_anywhere. Qed.
Print Assumptions C10_bad_record_anywhere.

Theorem C10_rejected_message_cuts_stream : forall m, rejecting m -> forall ms1 ms2 st,
  run st (ms1 ++ m :: ms2) = run st (ms1 ++ [m]) /\
  exists e, snd (run st (ms1 ++ m :: ms2)) = SErr e.
Proof. exact run_cut_at_rejecting. Qed.
Print Assumptions C10_rejected_message_cuts_stream.

Theorem C10_rejected_message_never_done : forall m ms1 ms2 st,
  rejecting m ->
  snd (run st (ms1 ++ m :: ms2)) <> SDone /\ snd (run st (ms1 ++ m :: ms2)) <> SIncomplete.
Proof. exact rejecting_never_done. Qed.
Print Assumptions C10_rejected_message_never_done.

Theorem C10_prefix_updates_delivered : forall m ms1 ms2 st us,
  run st ms1 = (us, SIncomplete) ->
  exists us', fst (run st (ms1 ++ m :: ms2)) = us ++ us'.
Proof. exact run_prefix_updates. Qed.
Print Assumptions C10_prefix_updates_delivered.

Theorem C10_visible_is_last_commit : forall us1 us2 st st',
  u_apply_all updater_checks_batch_soa (us1 ++ us2) st = Ok st' ->
  forallb (fun u => negb (is_commit u)) us2 = true ->
  exists st1, u_apply_all updater_checks_batch_soa us1 st = Ok st1 /\ u_visible st' = u_visible st1.
Proof. exact (visible_is_last_commit updater_checks_batch_soa). Qed.
Print Assumptions C10_visible_is_last_commit.

Theorem C10_finished_is_terminal : forall u us st,
  u_fin st = true -> u_apply_all updater_checks_batch_soa (u :: us) st = Err E_Finished.
Proof. exact (finished_is_terminal updater_checks_batch_soa). Qed.
Print Assumptions C10_finished_is_terminal.

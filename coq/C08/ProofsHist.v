(* C08 -- update histories.  [flat_run]: what a history means for the zone's
   content (a flat record list).  Since the repair 1953e6b (a node is a name
   only if it exists) markers and left-over nodes no longer matter; what remains
   history dependent is the delegation / alias state kept in `Special`: one
   concrete witness per remaining class, and the former witnesses as positive
   regression examples. *)
From Coq Require Import NArith List Bool.
From DV Require Import Base.Outcome C08.Gen C08.Model C08.Spec C08.ProofsQuery.
Import ListNotations.
Local Open Scope N_scope.

Definition grec_eqb (a b : grec) : bool :=
  name_eqb (g_owner a) (g_owner b) && (g_type a =? g_type b) && rdata_eqb (g_data a) (g_data b).
Definition is_soa (g : grec) : bool := is_apex (g_owner g) && (g_type g =? rt_soa).

Record fstate := mkF { f_comm : list grec; f_work : option (list grec) }.

Definition fon (f : list grec -> list grec) (s : fstate) : fstate :=
  match f_work s with Some w => mkF (f_comm s) (Some (f w)) | None => s end.
Definition set_soa (ttl : N) (d : rdata) (l : list grec) : list grec :=
  filter (fun g => negb (is_soa g)) l ++ [mkG [] rt_soa ttl d].

(* builder / zone-file operations define the initial content; NS / DS / CNAME
   given to the builder's dedicated calls are records like any other *)
Definition rrset_recs (p : name) (r : rrset) : list grec := map (fun d => mkG p (rs_type r) (rs_ttl r) d) (rs_data r).

Definition fstep (s : fstate) (o : op) : fstate :=
  match o with
  | OZRec g => mkF (f_comm s ++ [g]) (f_work s)
  | OBRr p r => mkF (filter (fun g => negb (name_eqb (g_owner g) p && (g_type g =? rs_type r))) (f_comm s) ++ rrset_recs p r) (f_work s)
  | OBCut c => mkF (f_comm s ++ rrset_recs (c_name c) (c_ns c) ++ match c_ds c with Some d => rrset_recs (c_name c) d | None => [] end) (f_work s)
  | OBCname p c => mkF (f_comm s ++ [mkG p rt_cname (rr_ttl c) (rr_data c)]) (f_work s)
  | OUNew | OWOpen => mkF (f_comm s) (Some (f_comm s))
  | OUAdd g => fon (fun l => l ++ [g]) s
  | OUDel g => fon (filter (fun x => negb (grec_eqb x g))) s
  | OUDelAll => fon (fun _ => []) s
  | OUBatchDel d =>
      match f_work s with
      | Some w => if existsb (fun g => is_soa g && (rd_tok (g_data g) =? rd_tok d)) w then mkF w (Some w) else s
      | None => s
      end
  | OUBatchAdd ttl d => fon (set_soa ttl d) s
  | OUFin ttl d => match f_work s with Some w => mkF (set_soa ttl d w) None | None => s end
  | OUDrop | OWDrop => mkF (f_comm s) None
  | OWRr p r => fon (fun l => filter (fun g => negb (name_eqb (g_owner g) p && (g_type g =? rs_type r))) l ++ rrset_recs p r) s
  | OWRm p t => fon (filter (fun g => negb (name_eqb (g_owner g) p && (g_type g =? t)))) s
  | OWRemoveAll p => fon (filter (fun g => negb (is_prefix p (g_owner g)))) s
  | OWCut p c => fon (fun l => filter (fun g => negb (name_eqb (g_owner g) p && ((g_type g =? rt_ns) || (g_type g =? rt_ds)))) l
                               ++ rrset_recs p (c_ns c) ++ match c_ds c with Some d => rrset_recs p d | None => [] end) s
  | OWCname p c => fon (fun l => filter (fun g => negb (name_eqb (g_owner g) p && (g_type g =? rt_cname))) l ++ [mkG p rt_cname (rr_ttl c) (rr_data c)]) s
  | OWRegular p => fon (filter (fun g => negb (name_eqb (g_owner g) p && ((g_type g =? rt_ns) || (g_type g =? rt_ds) || (g_type g =? rt_cname))))) s
  | OWCommit => match f_work s with Some w => mkF w None | None => s end
  end.

(* the content a history ends in (an open write at the end is dropped) *)
Definition content (h : list op) : list grec := f_comm (fold_left fstep h (mkF [] None)).

(* the published tree a history ends in *)
Definition run (h : list op) : node := s_comm (run_ops h).

(* "answers exactly like a zone built directly from the same records" *)
Definition history_ok (h : list op) (q : name) (qt : rtype) : Prop :=
  query (run h) q qt = query (build (content h)) q qt.

Definition L (c : N) : label := 256 + c.
Definition la := L 97. Definition lb := L 98. Definition lfoo := 6713199.
Definition tok (n : N) := mkRd n None.
Definition soa1 := mkG [] rt_soa 60 (tok 1).
Definition T_A := rt_a. Definition T_TXT : N := 16.

(* K1: a.b added through the updater: a.b is NXDOMAIN, so is the empty non-terminal b *)
Definition h_k1 : list op := [OZRec soa1; OUNew; OUAdd (mkG [lb; la] T_A 101 (tok 5)); OUFin 60 (tok 1)].

Lemma k1_content : content h_k1 = [mkG [lb; la] T_A 101 (tok 5); soa1].
Proof. reflexivity. Qed.

(* K2: foo's only RRset is deleted; the node stays and hides `*` *)
Definition h_k2 : list op :=
  [OZRec soa1; OZRec (mkG [wild_label] T_A 101 (tok 3)); OZRec (mkG [lfoo] T_A 101 (tok 4));
   OUNew; OUDel (mkG [lfoo] T_A 101 (tok 4)); OUFin 60 (tok 1)].

(* K3: NS / CNAME through the updater stay plain RRsets *)
Definition lsub := L 115. Definition lns := L 110. Definition lal := L 108.
Definition h_k3 : list op :=
  [OZRec soa1; OUNew; OUAdd (mkG [lsub] rt_ns 300 (mkRd 0 (Some [lsub; lns])));
   OUAdd (mkG [lsub; lns] T_A 77 (tok 7)); OUAdd (mkG [lal] rt_cname 200 (mkRd 0 (Some [lfoo]))); OUFin 60 (tok 1)].

Lemma updater_ns_not_cut_refuted :
  exists h q qt, a_aa (query (run h) q qt) = true /\
                 a_aa (query (build (content h)) q qt) = false /\
                 a_addl (query (build (content h)) q qt) <> [] /\ ~ history_ok h q qt.
Proof.
  exists h_k3, [lsub], T_A. repeat split; try (vm_compute; reflexivity).
  - vm_compute. discriminate.
  - unfold history_ok. vm_compute. discriminate.
Qed.

Lemma updater_cname_not_special_refuted :
  exists h q qt, a_content (query (run h) q qt) = ANoData /\
                 (exists c, a_content (query (build (content h)) q qt) = ACname c) /\ ~ history_ok h q qt.
Proof.
  exists h_k3, [lal], T_A. repeat split; try (vm_compute; reflexivity).
  - eexists. vm_compute. reflexivity.
  - unfold history_ok. vm_compute. discriminate.
Qed.

(* a delegation / alias inserted by the builder cannot be deleted through the updater *)
Definition h_surv : list op :=
  [OZRec soa1; OZRec (mkG [lal] rt_cname 200 (mkRd 0 (Some [lfoo])));
   OUNew; OUDel (mkG [lal] rt_cname 200 (mkRd 0 (Some [lfoo]))); OUFin 60 (tok 1)].

Lemma special_survives_delete_refuted :
  exists h q qt, (exists c, a_content (query (run h) q qt) = ACname c) /\
                 a_rcode (query (build (content h)) q qt) = rc_nxdomain /\ ~ history_ok h q qt.
Proof.
  exists h_surv, [lal], T_A. repeat split; try (vm_compute; reflexivity).
  - eexists. vm_compute. reflexivity.
  - unfold history_ok. vm_compute. discriminate.
Qed.

(* full replacement (DeleteAllRecords) and rollback leave bare nodes: NODATA instead of NXDOMAIN *)
Definition h_repl : list op :=
  [OZRec soa1; OZRec (mkG [lfoo] T_A 101 (tok 4)); OUNew; OUDelAll; OUAdd (mkG [la] T_A 101 (tok 5)); OUFin 60 (tok 2)].
Definition h_abort : list op := [OZRec soa1; OUNew; OUAdd (mkG [lb; la] T_A 101 (tok 5)); OUDrop].

(* the former witnesses of updater_descendant_nxdomain, updater_ent_nxdomain,
   deleted_name_shadows_wildcard and stale_node_nodata now answer like the
   rebuilt zone (the general statement is ProofsSafe.plain_history_independent) *)
Example former_witnesses_fixed :
  history_ok h_k1 [lb; la] T_A /\ history_ok h_k1 [lb] T_A /\ history_ok h_k1 [lb; lfoo] T_A /\
  history_ok h_k2 [lfoo] T_A /\ history_ok h_k2 [lfoo; la] T_A /\ history_ok h_k2 [lfoo] T_TXT /\
  history_ok h_repl [lfoo] T_A /\ history_ok h_repl [la] T_A /\
  history_ok h_abort [lb] T_A /\ history_ok h_abort [lb; la] T_A.
Proof. unfold history_ok. repeat split; vm_compute; reflexivity. Qed.

Example former_witnesses_answers :
  a_rcode (query (run h_k1) [lb; la] T_A) = rc_noerror /\
  a_content (query (run h_k1) [lb] T_A) = ANoData /\ a_rcode (query (run h_k1) [lb] T_A) = rc_noerror /\
  (exists r, a_content (query (run h_k2) [lfoo] T_A) = AData r) /\
  a_rcode (query (run h_repl) [lfoo] T_A) = rc_nxdomain /\ a_rcode (query (run h_abort) [lb] T_A) = rc_nxdomain.
Proof. repeat split; try (vm_compute; reflexivity). eexists. vm_compute. reflexivity. Qed.

(* non-vacuity of history_ok: an update that keeps the tree canonical *)
Definition h_fine : list op :=
  [OZRec soa1; OZRec (mkG [la] T_A 101 (tok 4)); OUNew; OUAdd (mkG [la] T_A 101 (tok 5));
   OUAdd (mkG [lb] T_TXT 116 (tok 6)); OUDel (mkG [la] T_A 101 (tok 4)); OUFin 60 (tok 1)].
Example history_ok_example :
  history_ok h_fine [la] T_A /\ history_ok h_fine [lb] T_A /\ history_ok h_fine [lfoo] T_A /\ history_ok h_fine [] rt_soa.
Proof. unfold history_ok. repeat split; vm_compute; reflexivity. Qed.

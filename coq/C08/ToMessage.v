(* C08 -- Answer::to_message on top of C02's message-builder model: a fixed script
   of builder calls in which every push is unwrapped, so it either panics or all
   pushes succeeded; then (C02) the octets parse back to exactly the sections of the
   Answer, in order.  Record data and names are abstract in the zone model: their
   wire form is a parameter ([enc_name], [enc_rdata]) constrained only by C02's
   well-formedness of pushed items. *)
From Coq Require Import NArith List Bool.
From DV Require Import Base.Outcome.
From DV Require Base.Names.
From DV Require C02.Model C02.ProofsName C02.ProofsLayout C02.ProofsBuild C02.ProofsRun C02.ProofsTotal.
From DV Require Import C08.Gen C08.Model.
Import ListNotations.
Local Open Scope N_scope.

Notation wname := DV.Base.Names.name.

Section ToMessage.
Variable enc_name : name -> wname.                    (* owner names (absolute, wire order) *)
Variable enc_rdata : rtype -> rdata -> list C02.Model.ritem.   (* compose_rdata of the record data *)
Variable prefixed : rtype -> bool.                     (* the data type's rdlen() is None *)
Variables (qname : wname) (qtype qclass : N).         (* the sole question of the request *)
Variables (rid ropcode : N) (rrd : bool).              (* request header: id, opcode, RD *)
Variable glue_class : N.                               (* class of the stored glue records *)

Definition mk_rec (owner : wname) (cls t ttl : N) (d : rdata) : C02.Model.rrecord :=
  C02.Model.mkR owner t cls ttl (prefixed t) (enc_rdata t d).

Definition answer_records (a : answer) : list C02.Model.rrecord :=
  match a_content a with
  | AData r => map (mk_rec qname qclass (rs_type r) (rs_ttl r)) (rs_data r)
  | ACname c => [mk_rec qname qclass rt_cname (rr_ttl c) (rr_data c)]
  | ANoData => []
  end.

Definition rrset_records (owner : wname) (r : rrset) : list C02.Model.rrecord :=
  map (mk_rec owner qclass (rs_type r) (rs_ttl r)) (rs_data r).

Definition authority_records (a : answer) : list C02.Model.rrecord :=
  match a_auth a with
  | None => []
  | Some au =>
      let o := enc_name (au_owner au) in
      (match au_soa au with Some s => [mk_rec o qclass rt_soa (rr_ttl s) (rr_data s)] | None => [] end)
      ++ (match au_ns au with Some r => rrset_records o r | None => [] end)
      ++ (match au_ds au with Some r => rrset_records o r | None => [] end)
  end.

Definition additional_records (a : answer) : list C02.Model.rrecord :=
  map (fun g => mk_rec (enc_name (g_owner g)) glue_class (g_type g) (g_ttl g) (g_data g)) (a_addl a).

(* the calls to_message makes *)
Definition to_message_ops (a : answer) : list C02.Model.op :=
  [C02.Model.OpHdr [C02.Model.HId rid; C02.Model.HFlag C02.Model.FQr true; C02.Model.HOpcode ropcode; C02.Model.HFlag C02.Model.FRd rrd; C02.Model.HRcode (a_rcode a)];
   C02.Model.OpQ (C02.Model.mkQ qname qtype qclass); C02.Model.OpNext]
  ++ (if a_aa a then [C02.Model.OpHdr [C02.Model.HFlag C02.Model.FAa true]] else [])
  ++ map C02.Model.OpR (answer_records a) ++ [C02.Model.OpNext]
  ++ map C02.Model.OpR (authority_records a) ++ [C02.Model.OpNext]
  ++ map C02.Model.OpR (additional_records a).

(* the sections the message is meant to carry *)
Definition intended (a : answer) : C02.Model.acc :=
  C02.Model.mkAcc [C02.Model.mkQ qname qtype qclass] (answer_records a) (authority_records a) (additional_records a).

(* every push returned Ok (to_message unwraps each of them) *)
Definition no_push_failed (ws : list C02.Model.rword) : Prop := Forall (fun w => w = C02.Model.ROk \/ w = C02.Model.RNone) ws.

Lemma mb_push_ok c s f s' w : C02.Model.mb_push c s f = (s', w) -> w = C02.Model.ROk \/ w = C02.Model.RNone ->
  w = C02.Model.ROk /\ C02.Model.b_sec s' = C02.Model.b_sec s.
Proof.
  unfold C02.Model.mb_push, C02.Model.fail_push. intros H Hw.
  assert (Hf : forall pos x e, C02.Model.fail_push c s pos x e = (s', w) -> False).
  { unfold C02.Model.fail_push. intros pos x e E. destruct (C02.Model.truncate _ _ _); inversion E; subst; destruct Hw; discriminate. }
  destruct (f (C02.Model.b_w s)); try (inversion H; subst; destruct Hw; discriminate); try (exfalso; eapply Hf; exact H).
  repeat match type of H with (if ?b then _ else _) = _ => destruct b end; try (exfalso; eapply Hf; exact H).
  inversion H; subst. split; [reflexivity|]. unfold C02.Model.set_count, C02.Model.set_w. cbn [C02.Model.b_sec].
  destruct (C02.Model.b_sec s =? 0); [reflexivity|]. destruct (C02.Model.b_sec s =? 1); [reflexivity|]. destruct (C02.Model.b_sec s =? 2); reflexivity.
Qed.

(* one call of a run in which no push failed: the rest of the script runs on *)
Lemma run_cons c s a o r s' a' ws : C02.Model.run_acc c s a (o :: r) = (s', a', ws) -> no_push_failed ws ->
  exists s1 w ws1, C02.Model.step c s o = (s1, w) /\ (w = C02.Model.ROk \/ w = C02.Model.RNone) /\
    C02.Model.run_acc c s1 (C02.Model.acc_step (C02.Model.b_sec s) a o w) r = (s', a', ws1) /\ no_push_failed ws1.
Proof.
  cbn [C02.Model.run_acc]. destruct (C02.Model.step c s o) as [s1 w]. intros Hrun Hok.
  destruct (C02.Model.is_dead w) eqn:Ed.
  - injection Hrun as _ _ <-. apply Forall_cons_iff in Hok. destruct Hok as [[Hw|Hw] _]; subst; discriminate.
  - destruct (C02.Model.run_acc c s1 _ r) as [[s2 a2] ws2] eqn:Er. injection Hrun as <- <- <-.
    apply Forall_cons_iff in Hok. destruct Hok as [Hw Hrest]. exists s1, w, ws2. split; [reflexivity|]. split; [exact Hw|]. split; [exact Er|exact Hrest].
Qed.

Lemma run_hdr c s a l r s' a' ws : C02.Model.run_acc c s a (C02.Model.OpHdr l :: r) = (s', a', ws) -> no_push_failed ws ->
  exists s1 ws1, C02.Model.b_sec s1 = C02.Model.b_sec s /\ C02.Model.run_acc c s1 a r = (s', a', ws1) /\ no_push_failed ws1.
Proof.
  intros Hrun Hok. destruct (run_cons _ _ _ _ _ _ _ _ Hrun Hok) as (s1 & w & ws1 & Es & _ & Hr & Hk).
  injection Es as <- <-. eexists _, ws1. split; [|split; [exact Hr|exact Hk]]. reflexivity.
Qed.

Lemma run_next c s a r s' a' ws : C02.Model.b_sec s <? 3 = true ->
  C02.Model.run_acc c s a (C02.Model.OpNext :: r) = (s', a', ws) -> no_push_failed ws ->
  exists s1 ws1, C02.Model.b_sec s1 = C02.Model.b_sec s + 1 /\ C02.Model.run_acc c s1 a r = (s', a', ws1) /\ no_push_failed ws1.
Proof.
  intros Hl Hrun Hok. destruct (run_cons _ _ _ _ _ _ _ _ Hrun Hok) as (s1 & w & ws1 & Es & _ & Hr & Hk).
  unfold C02.Model.step, C02.Model.step_gen in Es. rewrite Hl in Es. injection Es as <- <-.
  eexists _, ws1. split; [|split; [exact Hr|exact Hk]]. reflexivity.
Qed.

Lemma run_q c s a q r s' a' ws : C02.Model.b_sec s = 0 ->
  C02.Model.run_acc c s a (C02.Model.OpQ q :: r) = (s', a', ws) -> no_push_failed ws ->
  exists s1 ws1, C02.Model.b_sec s1 = 0 /\ no_push_failed ws1 /\
    C02.Model.run_acc c s1 (C02.Model.mkAcc (C02.Model.a_q a ++ [q]) (C02.Model.a_an a) (C02.Model.a_ns a) (C02.Model.a_ar a)) r = (s', a', ws1).
Proof.
  intros H0 Hrun Hok. destruct (run_cons _ _ _ _ _ _ _ _ Hrun Hok) as (s1 & w & ws1 & Es & Hw & Hr & Hk).
  unfold C02.Model.step, C02.Model.step_gen in Es. rewrite H0 in Es. change (0 =? 0) with true in Es. cbv iota in Es.
  destruct (mb_push_ok _ _ _ _ _ Es Hw) as [-> Hs]. exists s1, ws1. rewrite Hs. auto.
Qed.

Lemma run_records c k r : forall rs s a s' a' ws,
  C02.Model.b_sec s = k -> k <> 0 ->
  C02.Model.run_acc c s a (map C02.Model.OpR rs ++ r) = (s', a', ws) -> no_push_failed ws ->
  exists s1 ws1, C02.Model.b_sec s1 = k /\ no_push_failed ws1 /\
    C02.Model.run_acc c s1 (fold_left (fun x r => C02.Model.acc_add_r x k r) rs a) r = (s', a', ws1).
Proof.
  induction rs as [|x rs IH]; intros s a s' a' ws Hk Hk0 Hrun Hok; [exists s, ws; auto|].
  cbn [map app] in Hrun. destruct (run_cons _ _ _ _ _ _ _ _ Hrun Hok) as (s1 & w & ws1 & Es & Hw & Hr & Hk1).
  unfold C02.Model.step, C02.Model.step_gen in Es. rewrite (proj2 (N.eqb_neq _ 0)) in Es by congruence.
  destruct (mb_push_ok _ _ _ _ _ Es Hw) as [-> Hs]. cbn [C02.Model.acc_step] in Hr. rewrite Hk in Hr.
  exact (IH s1 _ s' a' ws1 (eq_trans Hs Hk) Hk0 Hr Hk1).
Qed.

Lemma fold_add k a rs : fold_left (fun x r => C02.Model.acc_add_r x k r) rs a =
  if k =? 1 then C02.Model.mkAcc (C02.Model.a_q a) (C02.Model.a_an a ++ rs) (C02.Model.a_ns a) (C02.Model.a_ar a)
  else if k =? 2 then C02.Model.mkAcc (C02.Model.a_q a) (C02.Model.a_an a) (C02.Model.a_ns a ++ rs) (C02.Model.a_ar a)
  else C02.Model.mkAcc (C02.Model.a_q a) (C02.Model.a_an a) (C02.Model.a_ns a) (C02.Model.a_ar a ++ rs).
Proof.
  revert a. induction rs as [|r rs IH]; intro a; simpl.
  - rewrite !app_nil_r. destruct a, (k =? 1), (k =? 2); reflexivity.
  - rewrite IH. unfold C02.Model.acc_add_r. destruct (k =? 1), (k =? 2); simpl; rewrite <- app_assoc; reflexivity.
Qed.

Lemma script_accepts c s0 l1 q (aa : bool) l2 an au ad s acc ws : C02.Model.b_sec s0 = 0 ->
  C02.Model.run_acc c s0 C02.Model.acc0
    ([C02.Model.OpHdr l1; C02.Model.OpQ q; C02.Model.OpNext] ++ (if aa then [C02.Model.OpHdr l2] else [])
     ++ map C02.Model.OpR an ++ [C02.Model.OpNext] ++ map C02.Model.OpR au ++ [C02.Model.OpNext] ++ map C02.Model.OpR ad)
  = (s, acc, ws) ->
  no_push_failed ws -> acc = C02.Model.mkAcc [q] an au ad.
Proof.
  intros Hs0 Hrun Hok. cbn [app] in Hrun.
  (* header, question, .answer() *)
  destruct (run_hdr _ _ _ _ _ _ _ _ Hrun Hok) as (s1 & w1 & S1 & R1 & K1). rewrite Hs0 in S1.
  destruct (run_q _ _ _ _ _ _ _ _ S1 R1 K1) as (s2 & w2 & S2 & K2 & R2).
  destruct (run_next _ _ _ _ _ _ _ ltac:(rewrite S2; reflexivity) R2 K2) as (s3 & w3 & S3 & R3 & K3). rewrite S2 in S3.
  (* AA *)
  assert (H4 : exists s4 w4, C02.Model.b_sec s4 = 1 /\ no_push_failed w4 /\
            C02.Model.run_acc c s4 (C02.Model.mkAcc [q] [] [] [])
              (map C02.Model.OpR an ++ [C02.Model.OpNext] ++ map C02.Model.OpR au ++ [C02.Model.OpNext] ++ map C02.Model.OpR ad)
            = (s, acc, w4)).
  { destruct aa; [|exists s3, w3; auto].
    destruct (run_hdr _ _ _ _ _ _ _ _ R3 K3) as (s4 & w4 & S4 & R4 & K4). exists s4, w4. rewrite S4. auto. }
  destruct H4 as (s4 & w4 & S4 & K4 & R4).
  destruct (run_records _ 1 _ _ _ _ _ _ _ S4 ltac:(discriminate) R4 K4) as (s5 & w5 & S5 & K5 & R5).
  destruct (run_next _ _ _ _ _ _ _ ltac:(rewrite S5; reflexivity) R5 K5) as (s6 & w6 & S6 & R6 & K6). rewrite S5 in S6.
  destruct (run_records _ 2 _ _ _ _ _ _ _ S6 ltac:(discriminate) R6 K6) as (s7 & w7 & S7 & K7 & R7).
  destruct (run_next _ _ _ _ _ _ _ ltac:(rewrite S7; reflexivity) R7 K7) as (s8 & w8 & S8 & R8 & K8). rewrite S7 in S8.
  rewrite <- (app_nil_r (map _ ad)) in R8.
  destruct (run_records _ 3 _ _ _ _ _ _ _ S8 ltac:(discriminate) R8 K8) as (s9 & w9 & _ & _ & R9).
  cbn [C02.Model.run_acc] in R9. injection R9 as _ <- _. rewrite (fold_add 1), (fold_add 2), (fold_add 3). reflexivity.
Qed.

Lemma to_message_accepts c s0 a s acc ws : C02.Model.init c = Some s0 ->
  C02.Model.run_acc c s0 C02.Model.acc0 (to_message_ops a) = (s, acc, ws) -> no_push_failed ws -> acc = intended a.
Proof.
  intros Hi. apply script_accepts.
  unfold C02.Model.init in Hi. destruct (C02.Model.append_slice _ _ _); try discriminate. inversion Hi; reflexivity.
Qed.

(* The tie: if the pushed items are well formed (C02) and to_message does not
   panic (no push failed), the produced octets parse back to exactly the
   question, answer, authority and additional records of the Answer, in order. *)
Theorem to_message_parses_to_answer c s0 a s acc ws : C02.Model.init c = Some s0 ->
  Forall C02.ProofsTotal.wf_op_sized (to_message_ops a) ->
  C02.Model.run_acc c s0 C02.Model.acc0 (to_message_ops a) = (s, acc, ws) -> no_push_failed ws ->
  exists parsed, C02.Model.rd_message (C02.Model.msg_of s) (intended a) = Ok parsed /\ C02.Model.acc_eqb parsed (intended a) = true.
Proof.
  intros Hi Hwf Hrun Hok.
  destruct (C02.ProofsTotal.build_parse_total c _ s0 s acc ws Hi Hwf Hrun) as [_ (p & Hp & He)].
  rewrite (to_message_accepts c s0 a s acc ws Hi Hrun Hok) in Hp, He. eauto.
Qed.
End ToMessage.

(* non-vacuity: a positive answer with SOA-less authority, composed into an unlimited uncompressed target *)
Definition ex_cfg : C02.Model.tcfg := C02.Model.mkCfg None false C02.Model.KNone.
Definition ex_answer : answer :=
  mkAnswer rc_noerror true (AData (mkRrset rt_a 300 [mkRd 4 None; mkRd 5 None]))
           (Some (mkAuth [] None (Some (mkRrset rt_ns 60 [mkRd 9 None])) None)) [mkG [353] rt_a 77 (mkRd 7 None)].
Definition ex_ops := to_message_ops (fun p => map (fun l => [l mod 256]) (rev p) ++ [[122]]) (fun _ d => [C02.Model.RBytes [0; 0; 0; rd_tok d]])
                                    (fun _ => false) [[119]; [122]] 1 1 4660 0 true 1 ex_answer.
Example to_message_example :
  match C02.Model.init ex_cfg with
  | Some s0 => let '(s, acc, ws) := C02.Model.run_acc ex_cfg s0 C02.Model.acc0 ex_ops in
               forallb (fun w => match w with C02.Model.ROk | C02.Model.RNone => true | _ => false end) ws = true /\
               length (C02.Model.a_an acc) = 2%nat /\ length (C02.Model.a_ns acc) = 1%nat /\ length (C02.Model.a_ar acc) = 1%nat /\
               match C02.Model.rd_message (C02.Model.msg_of s) acc with Ok p => C02.Model.acc_eqb p acc = true | _ => False end
  | None => False
  end.
Proof. vm_compute. repeat split; reflexivity. Qed.

(* Executable to_message over C02's step function, for both shapes of the
   code: [trunc = false] unwraps every push (a failed push panics),
   [trunc = true] stops adding records at the first failed push and sets TC.
   T1 reads which shape the source has ([to_message_truncates]). *)
Definition P_UNWRAP : N := 30.
Inductive tm_result := TmOk (s : C02.Model.bstate) (acc : C02.Model.acc) | TmPanic (site : N).

Fixpoint push_all (trunc : bool) (c : C02.Model.tcfg) (rs : list C02.Model.rrecord) (s : C02.Model.bstate) (acc : C02.Model.acc)
  : (C02.Model.bstate * C02.Model.acc * bool) + N :=
  match rs with
  | [] => inl (s, acc, false)
  | r :: rs' =>
      let '(s1, w) := C02.Model.step c s (C02.Model.OpR r) in
      let a1 := C02.Model.acc_step (C02.Model.b_sec s) acc (C02.Model.OpR r) w in
      match w with
      | C02.Model.ROk | C02.Model.RNone => push_all trunc c rs' s1 a1
      | C02.Model.RErr _ => if trunc then inl (s1, a1, true) else inr P_UNWRAP
      | C02.Model.RPanic x => inr x
      | C02.Model.RFuel => inr 99
      end
  end.

Definition step_plain (c : C02.Model.tcfg) (s : C02.Model.bstate) (acc : C02.Model.acc) (o : C02.Model.op) : C02.Model.bstate * C02.Model.acc :=
  let '(s1, w) := C02.Model.step c s o in (s1, C02.Model.acc_step (C02.Model.b_sec s) acc o w).

Section Run.
Variables (trunc : bool) (c : C02.Model.tcfg) (pre : list C02.Model.op).
Variables (q : C02.Model.question) (rid ropcode : N) (rrd : bool) (rcode : N) (aa : bool).
Variables (an au ad : list C02.Model.rrecord).

Definition to_message_run : tm_result :=
  match C02.Model.init c with
  | None => TmPanic 98
  | Some s0 =>
      let '(s1, a1, _) := C02.Model.run_acc c s0 C02.Model.acc0 pre in
      let '(s2, a2) := step_plain c s1 a1 (C02.Model.OpHdr [C02.Model.HId rid; C02.Model.HFlag C02.Model.FQr true; C02.Model.HOpcode ropcode; C02.Model.HFlag C02.Model.FRd rrd; C02.Model.HRcode rcode]) in
      let '(s3, w) := C02.Model.step c s2 (C02.Model.OpQ q) in
      match w with
      | C02.Model.ROk =>
          let a3 := C02.Model.acc_step (C02.Model.b_sec s2) a2 (C02.Model.OpQ q) w in
          let '(s4, a4) := step_plain c s3 a3 C02.Model.OpNext in
          let '(s5, a5) := if aa then step_plain c s4 a4 (C02.Model.OpHdr [C02.Model.HFlag C02.Model.FAa true]) else (s4, a4) in
          match push_all trunc c an s5 a5 with
          | inr x => TmPanic x
          | inl (s6, a6, t1) =>
              let '(s7, a7) := step_plain c s6 a6 C02.Model.OpNext in
              match (if t1 then inl (s7, a7, true) else push_all trunc c au s7 a7) with
              | inr x => TmPanic x
              | inl (s8, a8, t2) =>
                  let '(s9, a9) := step_plain c s8 a8 C02.Model.OpNext in
                  match (if t2 then inl (s9, a9, true) else push_all trunc c ad s9 a9) with
                  | inr x => TmPanic x
                  | inl (s10, a10, t3) =>
                      if t3 then let '(s11, a11) := step_plain c s10 a10 (C02.Model.OpHdr [C02.Model.HFlag C02.Model.FTc true]) in TmOk s11 a11
                      else TmOk s10 a10
                  end
              end
          end
      | C02.Model.RPanic x => TmPanic x
      | _ => TmPanic P_UNWRAP       (* start_answer(..).unwrap(): the question does not fit *)
      end
  end.
End Run.

(* the truncating shape never panics because a record push failed *)
Lemma push_all_trunc c : forall rs s acc x, push_all true c rs s acc = inr x ->
  exists r s0, (snd (C02.Model.step c s0 (C02.Model.OpR r)) = C02.Model.RPanic x) \/ (snd (C02.Model.step c s0 (C02.Model.OpR r)) = C02.Model.RFuel /\ x = 99).
Proof.
  induction rs as [|r rs IH]; intros s acc x H; [discriminate|]. cbn [push_all] in H.
  destruct (C02.Model.step c s (C02.Model.OpR r)) as [s1 w] eqn:E. destruct w; try (eapply IH; exact H); try discriminate.
  - inversion H; subst. exists r, s. left. rewrite E. reflexivity.
  - inversion H; subst. exists r, s. right. rewrite E. auto.
Qed.

(* concrete instance for the T2 cases: n records with rdlen octets of data each, owner = question name *)
Definition tm_case (trunc : bool) (limit : option N) (stream : bool) (qname : wname) (qtype n rdlen : N) : tm_result :=
  let r := C02.Model.mkR qname qtype 1 60 false [C02.Model.RBytes (repeat 0 (N.to_nat rdlen))] in
  to_message_run trunc (C02.Model.mkCfg None stream C02.Model.KNone) (match limit with Some l => [C02.Model.OpLimit (Some l)] | None => [] end)
                 (C02.Model.mkQ qname qtype 1) 0 0 false 0 true (repeat r (N.to_nat n)) [] [].

Definition tm_obs (r : tm_result) : option (N * bool) :=
  match r with
  | TmOk s acc => Some (N.of_nat (length (C02.Model.a_an acc)), C02.Model.hf_tc (C02.Model.fields_of_octets (firstn 4 (C02.Model.b_hdr s ++ [0; 0; 0; 0]))))
  | TmPanic _ => None
  end.

Definition c08_tomsg (limit : option N) (stream : bool) (qname : wname) (qtype n rdlen : N) : option (N * bool) :=
  tm_obs (tm_case to_message_truncates limit stream qname qtype n rdlen).

(* the unwrapping shape panics for a legal answer that does not fit: 40 address records, push limit 512 *)
Definition ex_qname : wname := [[109; 97; 110; 121]; [122; 111; 110; 101]; [116; 101; 115; 116]].
Lemma to_message_panics_when_answer_does_not_fit_refuted :
  tm_case false (Some 512) false ex_qname 1 40 4 = TmPanic P_UNWRAP /\
  tm_obs (tm_case false None false ex_qname 1 40 4) = Some (40, false).
Proof. split; vm_compute; reflexivity. Qed.

(* the truncating shape keeps what fits and says so *)
Example to_message_truncates_example :
  tm_obs (tm_case true (Some 512) false ex_qname 1 40 4) = Some (15, true) /\
  tm_obs (tm_case true None false ex_qname 1 40 4) = Some (40, false).
Proof. split; vm_compute; reflexivity. Qed.

(* the code as it stands, whichever shape T1 found *)
Theorem to_message_unwrap_panics : to_message_truncates = false -> c08_tomsg (Some 512) false ex_qname 1 40 4 = None.
Proof.
  intro H. unfold c08_tomsg. rewrite H, (proj1 to_message_panics_when_answer_does_not_fit_refuted). reflexivity.
Qed.
Theorem to_message_truncating_flags : to_message_truncates = true ->
  c08_tomsg (Some 512) false ex_qname 1 40 4 = Some (15, true) /\ c08_tomsg None false ex_qname 1 40 4 = Some (40, false).
Proof. intro H. unfold c08_tomsg. rewrite H. exact to_message_truncates_example. Qed.

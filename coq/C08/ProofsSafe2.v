(* C08 -- the delegation / alias state of a zone after an update history, computed
   from the operations alone ([sstep]): DeleteAllRecords / remove_all clear it at and
   below a node, make_zone_cut / make_cname set it, make_regular clears it at the node.
   The trees of a run are related to the machine pointwise ([xinv]), so it can be
   started from any description [f0] of the state the zone file built. *)
From Coq Require Import NArith List Bool.
From DV Require Import Base.Outcome C08.Gen C08.Model C08.Spec C08.ProofsQuery C08.ProofsBuild C08.ProofsHist
  C08.ProofsPlain C08.ProofsGroup C08.ProofsSafe.
Import ListNotations.
Local Open Scope N_scope.

Definition sfun := name -> option special.
Definition feq (f g : sfun) : Prop := forall p, f p = g p.

Record sst := mkSst { ss_comm : sfun; ss_work : option sfun; ss_fin : bool }.

Definition ss_on (t : sfun -> sfun) (st : sst) : sst :=
  match ss_work st with Some g => mkSst (ss_comm st) (Some (t g)) (ss_fin st) | None => st end.
Definition ss_commit (st : sst) : sst :=
  match ss_work st with Some g => mkSst g None (ss_fin st) | None => st end.
Definition ss_drop (st : sst) : sst := mkSst (ss_comm st) None (ss_fin st).

Definition sp_set (p : name) (s : option special) (f : sfun) : sfun := fun p' => if name_eqb p' p then s else f p'.
Definition sp_clear_below (p : name) (f : sfun) : sfun := fun p' => if is_prefix p p' then None else f p'.

(* what each operation does to the delegation / alias state *)
Definition sstep (st : sst) (o : op) : sst :=
  match o with
  | OUNew => mkSst (ss_comm st) (Some (ss_comm st)) false
  | OWOpen => mkSst (ss_comm st) (Some (ss_comm st)) (ss_fin st)
  | OUDelAll => if ss_fin st then st else ss_on (sp_clear_below []) st
  | OUFin _ _ => if ss_fin st then st else mkSst (ss_comm (ss_commit st)) None true
  | OUDrop => mkSst (ss_comm st) None false
  | OWDrop => ss_drop st
  | OWCommit => ss_commit st
  | OWCut p c => if is_apex p then st else ss_on (sp_set p (Some (Cut c))) st
  | OWCname p c => if is_apex p then st else ss_on (sp_set p (Some (Cname c))) st
  | OWRegular p => if is_apex p then st else ss_on (sp_set p None) st
  | OWRemoveAll p => ss_on (sp_clear_below p) st
  | _ => st     (* RRset-level operations *)
  end.

Definition ext_safe_op (o : op) : bool :=
  match o with
  | OUBatchDel _ => false          (* whether it commits depends on the zone's SOA *)
  | OUDelAll | OWCut _ _ | OWCname _ _ | OWRegular _ | OWRemoveAll _ => true
  | _ => safe_op o
  end.

Definition sp_final (us : list op) (f0 : sfun) : sfun := ss_comm (fold_left sstep us (mkSst f0 None false)).

(* the concrete state agrees with the abstract one *)
Record xinv (st : sst) (s : state) : Prop := mkXinv {
  xi_built : s_built s = true;
  xi_comm : wfu (s_comm s) /\ feq (cspecial_at (s_comm s)) (ss_comm st);
  xi_work : match s_work s, ss_work st with
            | Some w, Some g => wfu w /\ feq (cspecial_at w) g
            | None, None => True
            | _, _ => False
            end;
  xi_fin : s_fin s = ss_fin st }.

Lemma xinv_on (t : sfun -> sfun) f st s :
  (forall z g, wfu z -> feq (cspecial_at z) g -> wfu (f z) /\ feq (cspecial_at (f z)) (t g)) ->
  xinv st s -> xinv (ss_on t st) (on_work f s).
Proof.
  intros Hf [Hb Hc Hw Hfin]. unfold ss_on, on_work.
  destruct (s_work s) as [w|] eqn:Ew, (ss_work st) as [g|] eqn:Eg; try contradiction.
  - constructor; simpl; auto. destruct Hw as [H1 H2]. apply Hf; assumption.
  - constructor; simpl; auto. rewrite Ew, Eg. exact I.
Qed.

Lemma xinv_same f st s :
  (forall z, same_state z (f z)) -> xinv st s -> xinv st (on_work f s).
Proof.
  intros Hf Hx. replace st with (ss_on (fun g => g) st).
  - apply xinv_on; auto. intros z g Hz Hg. destruct (Hf z) as [H1 H2]. split; [auto|]. intro p. rewrite H2. apply Hg.
  - unfold ss_on. destruct st as [c [w|] fi]; reflexivity.
Qed.

Lemma xinv_commit st s : xinv st s -> xinv (ss_commit st) (commit false s).
Proof.
  intros [Hb Hc Hw Hfin]. unfold ss_commit, commit.
  destruct (s_work s) as [w|] eqn:Ew, (ss_work st) as [g|] eqn:Eg; try contradiction.
  - constructor; simpl; auto.
  - constructor; simpl; auto. rewrite Ew, Eg. exact I.
Qed.

Lemma xinv_rollback st s : xinv st s -> xinv (ss_drop st) (rollback s).
Proof.
  intros [Hb [Hc1 Hc2] Hw Hfin]. unfold ss_drop, rollback.
  destruct (s_work s) as [w|] eqn:Ew.
  - constructor; simpl; auto. destruct (graft_same w (s_comm s)) as [H1 H2]. split; [auto|]. intro p. rewrite H2. apply Hc2.
  - constructor; simpl; auto. rewrite Ew. exact I.
Qed.

Lemma xinv_err i e st s : xinv st s -> xinv st (add_err i e s).
Proof. intros [Hb Hc Hw Hfin]. constructor; simpl; auto. Qed.

Lemma xinv_open st s : xinv st s -> xinv (mkSst (ss_comm st) (Some (ss_comm st)) (ss_fin st)) (set_work (Some (s_comm s)) s).
Proof. intros [Hb Hc Hw Hfin]. constructor; simpl; auto. Qed.

Lemma xinv_setfin b st s : xinv st s -> xinv (mkSst (ss_comm st) (ss_work st) b) (set_fin b s).
Proof. intros [Hb Hc Hw Hfin]. constructor; simpl; auto. Qed.

(* make_zone_cut / make_cname [mk]: refused at the apex, elsewhere the special is set *)
Lemma xinv_make_special (mk : node -> outcome node) sp p i st s :
  (forall w, mk w = if is_apex p then Err E_NotAllowed else Ok (w_node p (set_special (Some sp)) w)) ->
  clean (Some sp) = Some sp -> xinv st s ->
  xinv (if is_apex p then st else ss_on (sp_set p (Some sp)) st)
       (match s_work s with
        | Some w => match mk w with Ok w' => set_work (Some w') s | Err e => add_err i e s | _ => s end
        | None => s
        end).
Proof.
  intros Hmk Hsp Hx. destruct (is_apex p) eqn:Ea.
  - destruct (s_work s); [rewrite Hmk; apply xinv_err|]; exact Hx.
  - assert (Hx' : xinv (ss_on (sp_set p (Some sp)) st) (on_work (w_node p (set_special (Some sp))) s)).
    { apply xinv_on; auto. intros z g Hz Hg. split.
      - apply w_node_wfu; auto. intros x Hx0. apply kc_wfu; auto. apply kc_set_special.
      - intro p'. rewrite (w_set_special_state p _ (Some sp)); [|apply kc_set_special|intros [r s0 cs]; exact Hsp].
        unfold sp_set. destruct (name_eqb p' p); [reflexivity|apply Hg]. }
    unfold on_work in Hx'. destruct (s_work s); [rewrite Hmk|]; exact Hx'.
Qed.

Lemma xinv_step i st s o : ext_safe_op o = true -> xinv st s -> xinv (sstep st o) (step i s o).
Proof.
  intros Ho Hx. unfold step.
  assert (E : (if is_history o then finish_build i s else s) = s).
  { destruct (is_history o); [apply finish_built; apply (xi_built _ _ Hx)|reflexivity]. }
  rewrite E. pose proof (xi_fin _ _ Hx) as Hfin.
  destruct o; simpl in Ho; try discriminate; cbn [sstep].
  - (* OUNew *) apply (xinv_setfin false _ _ (xinv_open _ _ Hx)).
  - (* OUAdd *) rewrite Hfin. destruct (ss_fin st); [apply xinv_err; exact Hx|]. apply xinv_same; auto. intro z. apply u_add_same.
  - (* OUDel *) rewrite Hfin. destruct (ss_fin st); [apply xinv_err; exact Hx|]. apply xinv_same; auto. intro z. apply u_del_same.
  - (* OUDelAll *) rewrite Hfin. destruct (ss_fin st); [apply xinv_err; exact Hx|].
    apply xinv_on; auto. intros z g Hz Hg. destruct (w_remove_all_state [] z) as [H1 H2]. split; [auto|].
    intro p. rewrite H2. unfold sp_clear_below. destruct (is_prefix [] p); [reflexivity|apply Hg].
  - (* OUBatchAdd *) rewrite Hfin. destruct (ss_fin st); [apply xinv_err; exact Hx|]. apply xinv_same; auto. intro z. apply u_soa_same.
  - (* OUFin *) rewrite Hfin. destruct (ss_fin st) eqn:Ef; [apply xinv_err; exact Hx|].
    assert (H1 : xinv (ss_commit st) (commit false (on_work (u_soa ttl d) s))).
    { apply xinv_commit. apply xinv_same; auto. intro z. apply u_soa_same. }
    pose proof (xinv_setfin true _ _ H1) as H2.
    assert (Hw : ss_work (ss_commit st) = None) by (unfold ss_commit; destruct (ss_work st) eqn:Ew; simpl; auto).
    rewrite Hw in H2. exact H2.
  - (* OUDrop *) apply (xinv_setfin false _ _ (xinv_rollback _ _ Hx)).
  - (* OWOpen *) apply xinv_open. exact Hx.
  - (* OWRr *) apply xinv_same; auto. intro z. apply w_update_rrset_same.
  - (* OWRm *) apply xinv_same; auto. intro z. apply w_remove_rrset_same.
  - (* OWCut *) apply (xinv_make_special (w_make_zone_cut p c) (Cut c)); auto.
  - (* OWCname *) apply (xinv_make_special (w_make_cname p c) (Cname c)); auto.
  - (* OWRegular *)
    destruct (is_apex p) eqn:Ea.
    + apply xinv_same; auto. intro z. unfold w_make_regular. rewrite Ea. apply touch_same.
    + apply xinv_on; auto. intros z g Hz Hg. destruct (w_make_regular_state p z) as [H1 H2]. split; [auto|].
      intro p'. rewrite H2, Ea. unfold sp_set. destruct (name_eqb p' p); [reflexivity|apply Hg].
  - (* OWRemoveAll *)
    apply xinv_on; auto. intros z g Hz Hg. destruct (w_remove_all_state p z) as [H1 H2]. split; [auto|].
    intro p'. rewrite H2. unfold sp_clear_below. destruct (is_prefix p p'); [reflexivity|apply Hg].
  - (* OWCommit *) apply xinv_commit; auto.
  - (* OWDrop *) apply xinv_rollback. exact Hx.
Qed.

Lemma xinv_run : forall us i st s, forallb ext_safe_op us = true -> xinv st s ->
  wfu (s_comm (run_from i s us)) /\ feq (cspecial_at (s_comm (run_from i s us))) (ss_comm (fold_left sstep us st)).
Proof.
  induction us as [|o us IH]; intros i st s Hu Hx; simpl.
  - rewrite finish_built by (apply (xi_built _ _ Hx)).
    destruct (xinv_rollback _ _ Hx) as [_ Hc _ _]. exact Hc.
  - simpl in Hu. apply andb_true_iff in Hu. destruct Hu as [Ho Hu]. apply IH; auto. apply xinv_step; auto.
Qed.

Lemma ext_safe_history o : ext_safe_op o = true -> is_history o = true.
Proof. destruct o; simpl; auto; discriminate. Qed.

Lemma xinv_start sB f0 : s_built sB = true -> s_work sB = None -> s_fin sB = false ->
  wfu (s_comm sB) -> feq (cspecial_at (s_comm sB)) f0 -> xinv (mkSst f0 None false) sB.
Proof. intros Hb Hw Hf Hu H0. constructor; cbn [ss_comm ss_work ss_fin]; [exact Hb|split; assumption|rewrite Hw; exact I|exact Hf]. Qed.

(* The delegation / alias state after the history is the state the zone file
   built, transformed by the operations -- computed without looking at the tree. *)
Theorem ext_safe_state_from rs us f0 : forallb ext_safe_op us = true ->
  feq (cspecial_at (run (map OZRec rs))) f0 ->
  wfu (run (map OZRec rs ++ us)) /\ feq (cspecial_at (run (map OZRec rs ++ us))) (sp_final us f0).
Proof.
  intros Hu H0. destruct (after_zone_file rs us) as (j & sB & Hb & Hw & Hf & Hr & Hc & Hr').
  { apply (forallb_impl ext_safe_op); [exact ext_safe_history|exact Hu]. }
  rewrite Hr'. rewrite Hr in H0. apply xinv_run; [exact Hu|].
  apply xinv_start; auto. rewrite Hc. apply zf_tree_wfu.
Qed.

Theorem ext_safe_history_state zs us : zone_file_only zs = true -> forallb ext_safe_op us = true ->
  wfu (run (zs ++ us)) /\ forall p, cspecial_at (run (zs ++ us)) p = sp_final us (cspecial_at (run zs)) p.
Proof.
  intros Hz Hu. destruct (zone_file_records zs Hz) as [rs ->].
  apply ext_safe_state_from; [exact Hu|intro p; reflexivity].
Qed.

(* History independence with delegations: the history answers like any tree with
   unique labels that has the same RRsets and the delegation / alias state the
   operations prescribe. *)
Theorem ext_safe_history_from rs us f0 t : forallb ext_safe_op us = true ->
  feq (cspecial_at (run (map OZRec rs))) f0 -> wfu t ->
  (forall p, rrsets_at (run (map OZRec rs ++ us)) p = rrsets_at t p) ->
  feq (cspecial_at t) (sp_final us f0) -> cspecial_at t [] = None ->
  forall q qt, query (run (map OZRec rs ++ us)) q qt = query t q qt.
Proof.
  intros Hu Hf Ht HR HS H0. destruct (ext_safe_state_from rs us f0 Hu Hf) as [Hw Hc].
  assert (HS' : forall p, cspecial_at (run (map OZRec rs ++ us)) p = cspecial_at t p).
  { intro p. rewrite Hc, HS. reflexivity. }
  apply same_state_same_answers; auto. rewrite HS'. exact H0.
Qed.

(* delegation / alias state of a zone file, read off its (grouped) records *)
Definition zf_state (zf : zonefile) : sfun := fun p => i_special (info_at_g (zf_normal zf) zf p).

Theorem zone_file_state rs : accepted rs = true -> buildable (zf_of_records rs) = true ->
  forall p, cspecial_at (run (map OZRec rs)) p = zf_state (zf_of_records rs) p.
Proof.
  intros Ha Hb p. destruct (accepted_records_build rs Ha) as (Hwf & Hok & _).
  rewrite run_zone_file. unfold zf_tree. rewrite Hok, Hb. rewrite Hb in Hwf.
  pose proof (build_node _ Hwf p) as Hp. unfold cspecial_at, zf_state.
  destruct (node_at (fst (zf_build (zf_of_records rs))) p) as [x|].
  - destruct Hp as (_ & Hi & Hci). rewrite <- Hi, <- Hci. reflexivity.
  - rewrite (info_not_exists _ _ _ Hp). reflexivity.
Qed.

(* premises on content only: a zone file (record list [rs]) followed by
   operations that may replace everything, cut, alias, clear *)
Theorem ext_safe_history_independent rs us t :
  accepted rs = true -> buildable (zf_of_records rs) = true -> forallb ext_safe_op us = true ->
  wfu t -> (forall p, rrsets_at (run (map OZRec rs ++ us)) p = rrsets_at t p) ->
  (forall p, cspecial_at t p = sp_final us (zf_state (zf_of_records rs)) p) ->
  cspecial_at t [] = None ->
  forall q qt, query (run (map OZRec rs ++ us)) q qt = query t q qt.
Proof.
  intros Ha Hb Hu Ht HR HS H0. apply (ext_safe_history_from rs us (zf_state (zf_of_records rs))); auto.
  intro p. apply zone_file_state; assumption.
Qed.

(* non-vacuity: replace everything, re-add, cut through the write interface *)
Definition rs_ex2 : list grec := [soa1; mkG [lsub] rt_ns 300 (mkRd 0 (Some [lsub; lns])); mkG [lsub; lns] T_A 77 (tok 7); mkG [lfoo] T_A 101 (tok 4)].
Definition cut_ex2 : zcut := mkCut [lal] (mkRrset rt_ns 300 [tok 9]) None [].
Definition us_ex2 : list op :=
  [OUNew; OUDelAll; OUAdd (mkG [lfoo] T_A 101 (tok 4)); OUFin 60 (tok 2); OWOpen; OWCut [lal] cut_ex2; OWRemoveAll [lfoo]; OWCommit].
Example ext_safe_example :
  accepted rs_ex2 = true /\ buildable (zf_of_records rs_ex2) = true /\ forallb ext_safe_op us_ex2 = true /\
  sp_final us_ex2 (zf_state (zf_of_records rs_ex2)) [lsub] = None /\
  sp_final us_ex2 (zf_state (zf_of_records rs_ex2)) [lal] = Some (Cut cut_ex2) /\
  cspecial_at (run (map OZRec rs_ex2 ++ us_ex2)) [lal] = Some (Cut cut_ex2) /\
  cspecial_at (run (map OZRec rs_ex2 ++ us_ex2)) [lsub] = None /\
  zf_state (zf_of_records rs_ex2) [lsub] <> None.
Proof. repeat split; try (vm_compute; reflexivity). vm_compute. discriminate. Qed.

(* Against the zone rebuilt from the final records [rs']: every premise is about
   record lists / their grouped tables, none about trees.  The last premise says
   that the delegations (NS, DS, glue in table order) and aliases of [rs'] are
   what the operations make of those of [rs]. *)
Theorem history_vs_rebuilt rs us rs' :
  accepted rs = true -> buildable (zf_of_records rs) = true -> forallb ext_safe_op us = true ->
  accepted rs' = true -> buildable (zf_of_records rs') = true ->
  (forall p, rrsets_at (run (map OZRec rs ++ us)) p = rrsets_at (run (map OZRec rs')) p) ->
  (forall p, zf_state (zf_of_records rs') p = sp_final us (zf_state (zf_of_records rs)) p) ->
  forall q qt, query (run (map OZRec rs ++ us)) q qt = query (run (map OZRec rs')) q qt.
Proof.
  intros Ha Hb Hu Ha' Hb' HR HS.
  apply ext_safe_history_independent; auto.
  - apply zone_file_wfu.
  - intro p. rewrite zone_file_state by assumption. apply HS.
  - rewrite zone_file_state by assumption. apply apex_not_special.
    destruct (accepted_records_build rs' Ha') as (Hwf & _ & _). rewrite Hwf. exact Hb'.
Qed.

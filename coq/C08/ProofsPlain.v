(* C08 -- zones without delegation / alias records: the notions.  A tree is *plain*
   when no node carries a Cut or Cname special (markers are allowed) and the child
   labels of every node are distinct (hash-map keys); a history is plain when it has
   no NS/DS below the apex and no CNAME record.  The theorems are in ProofsSafe:
   plain trees are the trees with unique labels and empty delegation / alias state. *)
From Coq Require Import NArith List Bool.
From DV Require Import Base.Outcome C08.Gen C08.Model C08.Spec C08.ProofsQuery C08.ProofsBuild C08.ProofsHist.
Import ListNotations.
Local Open Scope N_scope.

Fixpoint node_ind' (P : node -> Prop)
  (H : forall r s cs, Forall (fun lc => P (snd lc)) cs -> P (Node r s cs)) (n : node) : P n :=
  match n with
  | Node r s cs =>
      H r s cs ((fix go (cs : list (label * node)) : Forall (fun lc => P (snd lc)) cs :=
                   match cs with
                   | [] => Forall_nil _
                   | (l, c) :: cs' => Forall_cons (l, c) (node_ind' P H c) (go cs')
                   end) cs)
  end.

Lemma all_children_Forall (P : node -> Prop) (cs : list (label * node)) :
  (fix all (cs : list (label * node)) : Prop := match cs with [] => True | (_, c) :: cs' => P c /\ all cs' end) cs
  <-> Forall (fun lc => P (snd lc)) cs.
Proof.
  induction cs as [|[l c] cs IH]; [split; auto|]. rewrite Forall_cons_iff, <- IH. reflexivity.
Qed.

Lemma remove_all_unfold r s cs :
  remove_all_node (Node r s cs) = Node [] None (map (fun lc => (fst lc, remove_all_node (snd lc))) cs).
Proof. simpl. f_equal. induction cs as [|[l c] cs IH]; simpl; [reflexivity|]. f_equal. exact IH. Qed.

Lemma remove_all_children cs :
  n_children (remove_all_node (Node [] None cs)) = map (fun lc => (fst lc, remove_all_node (snd lc))) cs.
Proof. rewrite remove_all_unfold. reflexivity. Qed.

Fixpoint wfp (n : node) : Prop :=
  let 'Node r s cs := n in
  clean s = None /\ NoDup (map fst cs) /\
  (fix all (cs : list (label * node)) : Prop := match cs with [] => True | (_, c) :: cs' => wfp c /\ all cs' end) cs.

Lemma wfp_unfold r s cs :
  wfp (Node r s cs) <-> clean s = None /\ NoDup (map fst cs) /\ Forall (fun lc => wfp (snd lc)) cs.
Proof. cbn [wfp]. rewrite (all_children_Forall wfp). reflexivity. Qed.

Definition rrsets_at (t : node) (p : name) : list rrset :=
  match node_at t p with Some x => n_rrsets x | None => [] end.

Definition special_type (p : name) (t : rtype) : bool :=
  (((t =? rt_ns) || (t =? rt_ds)) && negb (is_apex p)) || (t =? rt_cname).

Definition plain_op (o : op) : bool :=
  match o with
  | OBRr p r => negb (special_type p (rs_type r))
  | OBCut _ | OBCname _ _ | OWCut _ _ | OWCname _ _ => false
  | OZRec g | OUAdd g | OUDel g => negb (special_type (g_owner g) (g_type g))
  | OWRr p r => negb (special_type p (rs_type r))
  | _ => true
  end.

(* decidable: no NS / DS below the apex and no CNAME anywhere in the history *)
Definition no_special_records (h : list op) : bool := forallb plain_op h.

(* the former witnesses are such histories, with their rebuilt zones *)
Example plain_examples :
  no_special_records h_k1 = true /\ no_special_records h_k2 = true /\ no_special_records h_repl = true /\
  no_special_records h_abort = true /\ no_special_records h_k3 = false /\ no_special_records h_surv = false.
Proof. repeat split; reflexivity. Qed.

Definition h_k1_direct : list op := [OZRec soa1; OZRec (mkG [lb; la] T_A 101 (tok 5))].
Example k1_same_rrsets :
  no_special_records h_k1_direct = true /\
  rrsets_at (run h_k1) [] = rrsets_at (run h_k1_direct) [] /\
  rrsets_at (run h_k1) [lb] = rrsets_at (run h_k1_direct) [lb] /\
  rrsets_at (run h_k1) [lb; la] = rrsets_at (run h_k1_direct) [lb; la] /\
  query (run h_k1) [lb; la] T_A = query (run h_k1_direct) [lb; la] T_A.
Proof. repeat split; vm_compute; reflexivity. Qed.

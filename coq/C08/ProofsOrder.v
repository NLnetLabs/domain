(* C08 -- the order of the RRsets in an ordinary table entry is the order in
   which their types first appear in the record list; with it the glue list of a
   delegation, and hence the whole delegation / alias state a zone file builds,
   is a function of the record list ([rec_state]).  The comparison of an update
   history with the zone rebuilt from the final records then has premises on
   record lists only. *)
From Coq Require Import NArith List Bool.
From DV Require Import Base.Outcome C08.Gen C08.Model C08.Spec C08.ProofsQuery C08.ProofsBuild C08.ProofsHist
  C08.ProofsPlain C08.ProofsGroup C08.ProofsSafe C08.ProofsSafe2.
Import ListNotations.
Local Open Scope N_scope.

Definition nclass (o : name) (t : rtype) : bool := negb (is_cut_type o t) && negb (t =? rt_cname).

Definition ntypes_step (o : name) (acc : list rtype) (g : grec) : list rtype :=
  if name_eqb (g_owner g) o && nclass (g_owner g) (g_type g) && negb (existsb (N.eqb (g_type g)) acc)
  then acc ++ [g_type g] else acc.
Definition ntypes (rs : list grec) (o : name) : list rtype := fold_left (ntypes_step o) rs [].

Definition entry_types (zf : zonefile) (o : name) : list rtype :=
  match alookup o (zf_normal zf) with Some l => map rs_type l | None => [] end.

Lemma types_set_rrset r l :
  map rs_type (set_rrset r l) =
  if existsb (fun x => rs_type x =? rs_type r) l then map rs_type l else map rs_type l ++ [rs_type r].
Proof.
  induction l as [|x l IH]; simpl; [reflexivity|]. destruct (rs_type x =? rs_type r) eqn:E; simpl.
  - apply N.eqb_eq in E. rewrite E. reflexivity.
  - rewrite IH. destruct (existsb _ l); reflexivity.
Qed.

Lemma get_rrset_exists t l : existsb (N.eqb t) (map rs_type l) = match get_rrset t l with Some _ => true | None => false end.
Proof.
  induction l as [|x l IH]; simpl; [reflexivity|]. rewrite (N.eqb_sym t (rs_type x)).
  destruct (rs_type x =? t); simpl; [reflexivity|exact IH].
Qed.

Lemma types_normal_insert t ttl d l :
  map rs_type (normal_insert t ttl d l) =
  if existsb (N.eqb t) (map rs_type l) then map rs_type l else map rs_type l ++ [t].
Proof.
  unfold normal_insert. rewrite get_rrset_exists. destruct (get_rrset t l) as [r|] eqn:E.
  - rewrite types_set_rrset. cbn [push_record rs_type]. pose proof (get_rrset_type _ _ _ E) as Ht. rewrite Ht.
    assert (Hex : existsb (fun x => rs_type x =? t) l = true).
    { clear Ht. induction l as [|x l IH]; simpl in *; [discriminate|]. destruct (rs_type x =? t); [reflexivity|]. apply IH. exact E. }
    rewrite Hex. reflexivity.
  - rewrite map_app. reflexivity.
Qed.

Lemma insert_entry_types g zf zf' o : zf_insert g zf = Ok zf' ->
  entry_types zf' o = ntypes_step o (entry_types zf o) g.
Proof.
  intro H. unfold ntypes_step, nclass, entry_types.
  destruct (zf_insert_ok _ _ _ H) as [Ecut Ea|Ecut Ecn Ec Ea|Ecut Ecn Ea]; cbn [zf_normal].
  - rewrite Ecut, andb_false_r. reflexivity.
  - rewrite Ecn, N.eqb_refl, !andb_false_r. reflexivity.
  - rewrite Ecut, Ecn, alookup_aupsert. cbn [negb andb]. rewrite andb_true_r.
    destruct (name_eqb (g_owner g) o) eqn:Eo; [|reflexivity]. apply name_eqb_eq in Eo. subst o. cbn [andb].
    rewrite types_normal_insert.
    destruct (alookup (g_owner g) (zf_normal zf)) as [l|]; simpl; [destruct (existsb (N.eqb (g_type g)) (map rs_type l))|]; reflexivity.
Qed.

Lemma ntypes_snoc rs g o : ntypes (rs ++ [g]) o = ntypes_step o (ntypes rs o) g.
Proof. unfold ntypes. rewrite fold_left_app. reflexivity. Qed.

Theorem entry_order : forall rs, accepted rs = true -> forall o, entry_types (zf_of_records rs) o = ntypes rs o.
Proof.
  apply (accepted_ind (fun rs zf => forall o, entry_types zf o = ntypes rs o)); [reflexivity|].
  intros rs g zf' IH Hins o. rewrite (insert_entry_types _ _ _ o Hins), IH, ntypes_snoc. reflexivity.
Qed.

(* an entry with distinct types is determined by its types and the lookups *)
Lemma entry_by_types d : forall l, nodup_types l = true ->
  l = map (fun t => match get_rrset t l with Some r => r | None => d end) (map rs_type l).
Proof.
  induction l as [|x l IH]; intro H; [reflexivity|]. simpl in H. apply andb_true_iff in H. destruct H as [H1 H2].
  apply negb_true_iff in H1. cbn [map get_rrset]. rewrite N.eqb_refl. f_equal.
  rewrite (IH H2) at 1. apply map_ext_in. intros t Ht.
  destruct (rs_type x =? t) eqn:E; [|reflexivity]. exfalso. apply N.eqb_eq in E. subst t.
  apply in_map_iff in Ht. destruct Ht as (y & Hy & Hin).
  assert (Hex : existsb (fun z => rs_type z =? rs_type x) l = true).
  { apply existsb_exists. exists y. split; [exact Hin|]. apply N.eqb_eq. exact Hy. }
  congruence.
Qed.

Definition glue_of_type (rs : list grec) (t : name) (ty : rtype) : list grec :=
  if is_glue ty then match group rs t ty with Some r => map (fun x => mkG t ty (rs_ttl r) x) (rs_data r) | None => [] end else [].

Definition rec_glue (rs : list grec) (ns : rrset) : list grec :=
  flat_map (fun d => match rd_tgt d with Some t => flat_map (glue_of_type rs t) (ntypes rs t) | None => [] end) (rs_data ns).

Definition rec_state (rs : list grec) : sfun := fun p =>
  if is_apex p then None else
  match group rs p rt_ns with
  | Some ns => Some (Cut (mkCut p ns (group rs p rt_ds) (rec_glue rs ns)))
  | None => match group rs p rt_cname with
            | Some r => match rs_data r with d :: _ => Some (Cname (mkRr (rs_ttl r) d)) | [] => None end
            | None => None
            end
  end.

Lemma glue_is_nclass o ty : is_glue ty = true -> is_cut_type o ty = false /\ (ty =? rt_cname) = false.
Proof.
  unfold is_glue. change glue_types with [rt_a; rt_aaaa]. simpl. rewrite orb_false_r. intro H.
  apply orb_true_iff in H. destruct H as [H|H]; apply N.eqb_eq in H; subst ty; split; reflexivity.
Qed.

Lemma collect_glue_records rs t : accepted rs = true ->
  collect_glue (zf_normal (zf_of_records rs)) t = flat_map (glue_of_type rs t) (ntypes rs t).
Proof.
  intro Ha. pose proof (entry_order rs Ha t) as Ho. unfold entry_types in Ho. unfold collect_glue.
  pose proof (zinv_of_records rs Ha) as Hi.
  destruct (alookup t (zf_normal (zf_of_records rs))) as [l|] eqn:El; [|rewrite <- Ho; reflexivity].
  assert (Hnd : nodup_types l = true).
  { unfold zinv in Hi. apply andb_true_iff in Hi. destruct Hi as [Hi _]. apply andb_true_iff in Hi. destruct Hi as [Hi _].
    apply andb_true_iff in Hi. destruct Hi as [_ H2].
    clear - El H2. induction (zf_normal (zf_of_records rs)) as [|[k v] N IH]; simpl in *; [discriminate|].
    apply andb_true_iff in H2. destruct H2 as [Hw Hr]. destruct (name_eqb k t).
    - inversion El; subst. unfold wf_normal in Hw. simpl in Hw. apply andb_true_iff in Hw. destruct Hw as [Hw _].
      apply andb_true_iff in Hw. tauto.
    - auto. }
  rewrite <- Ho. rewrite (entry_by_types (mkRrset 0 0 []) l Hnd) at 1. rewrite !flat_map_concat_map, map_map. f_equal.
  apply map_ext_in. intros ty Hty. unfold glue_of_type. cbv beta.
  destruct (get_rrset ty l) as [r|] eqn:Eg.
  - pose proof (get_rrset_type _ _ _ Eg) as Hrt. rewrite Hrt. destruct (is_glue ty) eqn:Egl; [|reflexivity].
    destruct (glue_is_nclass t ty Egl) as [Hc Hn].
    rewrite <- (grouping rs Ha t ty). unfold zf_rrset. rewrite Hc, Hn, El, Eg. reflexivity.
  - exfalso. apply in_map_iff in Hty. destruct Hty as (y & Hy & Hin).
    assert (Hex : existsb (N.eqb ty) (map rs_type l) = true).
    { apply existsb_exists. exists (rs_type y). split; [apply in_map; exact Hin|]. apply N.eqb_eq. congruence. }
    rewrite get_rrset_exists, Eg in Hex. discriminate.
Qed.

Lemma glue_for_records rs ns : accepted rs = true -> glue_for (zf_normal (zf_of_records rs)) ns = rec_glue rs ns.
Proof.
  intro Ha. unfold glue_for, rec_glue. apply flat_map_ext. intro d. destruct (rd_tgt d); [apply collect_glue_records; exact Ha|reflexivity].
Qed.

(* the delegation / alias state of a zone file is a function of its record list *)
Theorem zf_state_records rs : accepted rs = true -> buildable (zf_of_records rs) = true ->
  forall p, zf_state (zf_of_records rs) p = rec_state rs p.
Proof.
  intros Ha Hb p. unfold rec_state. destruct p as [|l p].
  - apply apex_not_special. destruct (accepted_records_build rs Ha) as (Hwf & _ & _). rewrite Hwf. exact Hb.
  - cbn [is_apex]. rewrite <- !(grouping rs Ha). unfold zf_rrset, is_cut_type. cbn [is_apex negb]. simpl.
    unfold zf_state, info_at_g, cut_at_g. cbn [i_special].
    destruct (alookup (l :: p) (zf_cuts (zf_of_records rs))) as [[[ns|] ds]|]; cbn [fst snd].
    + rewrite (glue_for_records rs ns Ha). reflexivity.
    + destruct (alookup (l :: p) (zf_cnames (zf_of_records rs))) as [[ttl d]|]; reflexivity.
    + destruct (alookup (l :: p) (zf_cnames (zf_of_records rs))) as [[ttl d]|]; reflexivity.
Qed.

Lemma zone_file_rec_state rs : accepted rs = true -> buildable (zf_of_records rs) = true ->
  feq (cspecial_at (run (map OZRec rs))) (rec_state rs).
Proof. intros Ha Hb p. rewrite zone_file_state by assumption. apply zf_state_records; assumption. Qed.

Theorem history_vs_rebuilt_records rs us rs' :
  accepted rs = true -> buildable (zf_of_records rs) = true -> forallb ext_safe_op us = true ->
  accepted rs' = true -> buildable (zf_of_records rs') = true ->
  (forall p, rrsets_at (run (map OZRec rs ++ us)) p = rrsets_at (run (map OZRec rs')) p) ->
  (forall p, rec_state rs' p = sp_final us (rec_state rs) p) ->
  forall q qt, query (run (map OZRec rs ++ us)) q qt = query (run (map OZRec rs')) q qt.
Proof.
  intros Ha Hb Hu Ha' Hb' HR HS. pose proof (zone_file_rec_state rs' Ha' Hb') as Hs'.
  apply (ext_safe_history_from rs us (rec_state rs)); auto.
  - apply zone_file_rec_state; assumption.
  - apply zone_file_wfu.
  - intro p. rewrite Hs'. apply HS.
  - apply Hs'.
Qed.

(* non-vacuity: a delegation with glue of two types; the glue follows first appearance *)
Definition rs_ord : list grec :=
  [soa1; mkG [lsub; lns] rt_aaaa 78 (tok 8); mkG [lsub] rt_ns 300 (mkRd 0 (Some [lsub; lns])); mkG [lsub; lns] T_A 77 (tok 7);
   mkG [lsub; lns] rt_aaaa 78 (tok 9)].
Example rec_state_example :
  accepted rs_ord = true /\ buildable (zf_of_records rs_ord) = true /\ ntypes rs_ord [lsub; lns] = [rt_aaaa; T_A] /\
  rec_state rs_ord [lsub] = Some (Cut (mkCut [lsub] (mkRrset rt_ns 300 [mkRd 0 (Some [lsub; lns])]) None
     [mkG [lsub; lns] rt_aaaa 78 (tok 8); mkG [lsub; lns] rt_aaaa 78 (tok 9); mkG [lsub; lns] T_A 77 (tok 7)])) /\
  cspecial_at (run (map OZRec rs_ord)) [lsub] = rec_state rs_ord [lsub].
Proof. repeat split; vm_compute; reflexivity. Qed.

(* C08 -- ZoneTree (tree.rs): find_zone returns the closest enclosing zone, the
   zone whose apex is the longest ancestor-or-self of the query name among the
   zones in the tree; insert_zone adds exactly one apex; remove_zone, when it
   descends to the apex node, removes exactly one -- the code that removes the
   child of the first label instead removes every zone (witness). *)
From Coq Require Import NArith List Bool.
From DV Require Import Base.Outcome C08.Gen C08.Model C08.Spec C08.ProofsQuery.
Import ListNotations.
Local Open Scope N_scope.

(* the last zone found along a list of lookups *)
Definition last_some (l : list (option N)) : option N :=
  fold_left (fun acc o => match o with Some z => Some z | None => acc end) l None.

Lemma fold_last_some l acc :
  fold_left (fun acc o => match o with Some z => Some z | None => acc end) l acc =
  match last_some l with Some z => Some z | None => acc end.
Proof.
  unfold last_some. revert acc. induction l as [|o l IH]; intro acc; simpl; [reflexivity|].
  rewrite (IH (match o with Some z => Some z | None => acc end)), (IH (match o with Some z => Some z | None => None end)).
  destruct (fold_left _ l None); [reflexivity|]. destruct o; reflexivity.
Qed.

Lemma last_some_none {A} (f : A -> option N) L : (forall x, f x = None) -> last_some (map f L) = None.
Proof. intro H. unfold last_some. induction L; simpl; auto. rewrite H. exact IHL. Qed.

Lemma zt_get_cons n l p : zt_get n (l :: p) = match zfind_child l (zn_children n) with Some c => zt_get c p | None => None end.
Proof. reflexivity. Qed.

(* find_zone = the zone at the longest prefix of the query name that is an apex *)
Theorem zt_find_closest : forall q n, zt_find n q = last_some (map (zt_get n) (prefixes q)).
Proof.
  induction q as [|l q IH]; intro n.
  - unfold last_some. simpl. destruct (zn_zone n); reflexivity.
  - assert (Hp : prefixes (l :: q) = [] :: map (cons l) (prefixes q)) by reflexivity.
    rewrite Hp. cbn [zt_find map]. unfold last_some at 1. cbn [fold_left]. rewrite fold_last_some. rewrite map_map.
    destruct (zfind_child l (zn_children n)) as [c|] eqn:E.
    + rewrite IH. rewrite (map_ext (fun x => zt_get n (l :: x)) (zt_get c)) by (intro x; rewrite zt_get_cons, E; reflexivity).
      cbn [zt_get].
      assert (G : forall (X o : option N), match X with Some z => Some z | None => o end =
                    match X with Some z => Some z | None => match o with Some z => Some z | None => None end end)
        by (intros [x|] [o|]; reflexivity).
      apply G.
    + rewrite last_some_none by (intro x; rewrite zt_get_cons, E; reflexivity).
      cbn [zt_get]. destruct (zn_zone n); reflexivity.
Qed.

Lemma zfind_set k l c cs : zfind_child k (zset_child l c cs) = if k =? l then Some c else zfind_child k cs.
Proof.
  induction cs as [|[k' x] cs IH]; simpl.
  - rewrite (N.eqb_sym l k). destruct (k =? l); reflexivity.
  - destruct (k' =? l) eqn:E1; simpl.
    + apply N.eqb_eq in E1. subst k'. rewrite (N.eqb_sym l k). destruct (k =? l); reflexivity.
    + rewrite IH. destruct (k' =? k) eqn:E2; [|reflexivity]. apply N.eqb_eq in E2. subst k'. rewrite E1. reflexivity.
Qed.

(* insert_zone adds exactly the given apex, and fails exactly when it is there already *)
Theorem zt_insert_spec : forall p z n,
  match zt_insert p z n with
  | Ok n' => zt_get n p = None /\ forall p', zt_get n' p' = if name_eqb p' p then Some z else zt_get n p'
  | Err e => e = E_ZoneExists /\ zt_get n p <> None
  | _ => False
  end.
Proof.
  induction p as [|l p IH]; intros z n.
  - simpl. destruct n as [zo cs]. simpl. destruct zo; [split; [reflexivity|discriminate]|].
    split; [reflexivity|]. intros [|l' p']; reflexivity.
  - cbn [zt_insert]. set (c := match zfind_child l (zn_children n) with Some c => c | None => zempty end).
    specialize (IH z c).
    assert (Hc : forall x, zt_get c x = zt_get n (l :: x)).
    { intro x. rewrite zt_get_cons. unfold c. destruct (zfind_child l (zn_children n)); [reflexivity|]. destruct x; reflexivity. }
    destruct (zt_insert p z c) as [c'| | |]; try contradiction.
    + destruct IH as [H0 H1]. split; [rewrite <- Hc; exact H0|].
      intros [|l' p']; [reflexivity|]. rewrite zt_get_cons. cbn [zn_children]. rewrite zfind_set.
      change (name_eqb (l' :: p') (l :: p)) with ((l' =? l) && name_eqb p' p).
      destruct (l' =? l) eqn:El; cbn [andb]; [|reflexivity].
      apply N.eqb_eq in El. subst l'. rewrite H1, Hc. reflexivity.
    + destruct IH as [H0 H1]. split; [exact H0|rewrite <- Hc; exact H1].
Qed.

(* remove_zone that descends to the apex node removes exactly that apex *)
Theorem zt_remove_recursive_spec : forall p n,
  match zt_remove_gen true p n with
  | Ok n' => zt_get n p <> None /\ forall p', zt_get n' p' = if name_eqb p' p then None else zt_get n p'
  | Err e => e = E_ZoneDoesNotExist /\ zt_get n p = None
  | _ => False
  end.
Proof.
  induction p as [|l p IH]; intro n.
  - simpl. destruct n as [zo cs]. simpl. destruct zo; [|split; reflexivity].
    split; [discriminate|]. intros [|l' p']; reflexivity.
  - cbn [zt_remove_gen]. rewrite zt_get_cons.
    destruct (zfind_child l (zn_children n)) as [c|] eqn:E; [|split; reflexivity].
    specialize (IH c). destruct (zt_remove_gen true p c) as [c'| | |]; try contradiction.
    + destruct IH as [H0 H1]. split; [exact H0|].
      intros [|l' p']; [reflexivity|]. rewrite !zt_get_cons. cbn [zn_children]. rewrite zfind_set.
      change (name_eqb (l' :: p') (l :: p)) with ((l' =? l) && name_eqb p' p).
      destruct (l' =? l) eqn:El; cbn [andb]; [|reflexivity].
      apply N.eqb_eq in El. subst l'. rewrite H1, E. reflexivity.
    + exact IH.
Qed.

(* the code as it stands, for whichever shape T1 found *)
Theorem zt_remove_spec_if_recursive : zremove_recursive = true -> forall p n,
  match zt_remove p n with
  | Ok n' => zt_get n p <> None /\ forall p', zt_get n' p' = if name_eqb p' p then None else zt_get n p'
  | Err e => e = E_ZoneDoesNotExist /\ zt_get n p = None
  | _ => False
  end.
Proof. intros H p n. unfold zt_remove. rewrite H. apply zt_remove_recursive_spec. Qed.

(* witness: removing a name that is not a zone succeeds and removes another zone *)
Definition root_l : label := 1.
Definition zt_ex : znode := zr_in (fst (c08_tree_run [ZIns 1 [root_l; 353] 104])).
Lemma zonetree_remove_zone_not_recursive_refuted :
  exists t p p', zt_get t p = None /\ zt_get t p' <> None /\
    match zt_remove_gen false p t with Ok t' => zt_get t' p' = None | _ => False end.
Proof. exists zt_ex, [root_l; 355; 353], [root_l; 353]. vm_compute. repeat split; congruence. Qed.

Theorem zt_remove_refuted_if_not_recursive : zremove_recursive = false ->
  exists t p p', zt_get t p = None /\ zt_get t p' <> None /\
    match zt_remove p t with Ok t' => zt_get t' p' = None | _ => False end.
Proof. intro H. unfold zt_remove. rewrite H. exact zonetree_remove_zone_not_recursive_refuted. Qed.

Example zt_example :
  let t := zr_in (fst (c08_tree_run [ZIns 1 [root_l; 353] 1; ZIns 1 [root_l; 353; 354] 2; ZIns 1 [root_l] 3; ZIns 1 [root_l; 353] 9])) in
  zt_find t [root_l; 353; 354; 355] = Some 2 /\ zt_find t [root_l; 353; 355] = Some 1 /\ zt_find t [root_l; 356] = Some 3 /\
  zt_get t [root_l; 353] = Some 1 /\ zt_get t [root_l; 355] = None.
Proof. vm_compute. repeat split; reflexivity. Qed.

(* the class map is the same association-list code as a children map *)
Lemma cls_get_set c c' n l : cls_get c' (cls_set c n l) = if c' =? c then Some n else cls_get c' l.
Proof. exact (zfind_set c' c n l). Qed.

Lemma zr_get_set c c' n r : zr_get c' (zr_set c n r) = if c' =? c then Some n else zr_get c' r.
Proof.
  unfold zr_get, zr_set. destruct (c =? class_in) eqn:Ec; simpl.
  - apply N.eqb_eq in Ec. subst c. destruct (c' =? class_in); reflexivity.
  - destruct (c' =? class_in) eqn:Ec'.
    + apply N.eqb_eq in Ec'. subst c'. rewrite N.eqb_sym, Ec. reflexivity.
    + apply cls_get_set.
Qed.

(* zones of different classes do not see each other: inserting or removing a
   zone of class c changes no lookup in any other class, and in class c it is
   the single-class behaviour proved above *)
Theorem zonetree_classes_isolated c p z r r' c' q : c' <> c ->
  (zr_insert c p z r = Ok r' \/ zr_remove c p r = Ok r') ->
  zr_find c' q r' = zr_find c' q r /\ zr_getz c' q r' = zr_getz c' q r.
Proof.
  intros Hne H. assert (E : (c' =? c) = false) by (apply N.eqb_neq; exact Hne).
  unfold zr_find, zr_getz. destruct H as [H|H].
  - unfold zr_insert in H. destruct (zt_insert p z _); inversion H; subst. rewrite zr_get_set, E. auto.
  - unfold zr_remove in H. destruct (zr_get c r); [|discriminate]. destruct (zt_remove p z0); inversion H; subst.
    rewrite zr_get_set, E. auto.
Qed.

Theorem zonetree_find_in_class c q r :
  zr_find c q r = match zr_get c r with Some n => last_some (map (zt_get n) (prefixes q)) | None => None end.
Proof. unfold zr_find. destruct (zr_get c r); [apply zt_find_closest|reflexivity]. Qed.

Example classes_example :
  let r := fst (c08_tree_run [ZIns 1 [root_l; 353] 1; ZIns 3 [root_l; 353] 2; ZIns 3 [root_l; 353; 354] 3; ZRem 1 [root_l; 353]]) in
  zr_find 1 [root_l; 353; 354] r = None /\ zr_find 3 [root_l; 353; 354; 9] r = Some 3 /\ zr_find 3 [root_l; 353; 9] r = Some 2 /\
  zr_find 4 [root_l; 353] r = None.
Proof. vm_compute. repeat split; reflexivity. Qed.

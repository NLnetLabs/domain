(* C08 -- BeginBatchDelete inside histories that also change the delegation /
   alias state.  Whether a BeginBatchDelete commits depends on the SOA of the
   writer's working copy, so the syntactic state machine of ProofsSafe2 is
   extended by the serial (token of the first SOA record at the apex) of the
   published and of the working tree.  Operations that touch the apex SOA RRset
   other than through BeginBatchAdd / Finished / replace-all are outside. *)
From Coq Require Import NArith List Bool.
From DV Require Import Base.Outcome C08.Gen C08.Model C08.Spec C08.ProofsQuery C08.ProofsBuild C08.ProofsHist
  C08.ProofsPlain C08.ProofsGroup C08.ProofsSafe C08.ProofsSafe2 C08.ProofsOrder.
Import ListNotations.
Local Open Scope N_scope.

Definition soa_of (z : node) : option N := option_map (fun s => rd_tok (rr_data s)) (get_soa z).
Definition soa_match (so : option N) (d : rdata) : bool := match so with Some t => t =? rd_tok d | None => false end.

Lemma soa_serial_matches_of d z : soa_serial_matches d z = soa_match (soa_of z) d.
Proof. unfold soa_serial_matches, soa_match, soa_of. destruct (get_soa z); reflexivity. Qed.

Lemma soa_of_rrsets z z' : n_rrsets z' = n_rrsets z -> soa_of z' = soa_of z.
Proof. intro H. unfold soa_of, get_soa. rewrite H. reflexivity. Qed.

Lemma get_remove_rtype t' : forall l t, (t' =? t) = false -> get_rrset t (remove_rtype t' l) = get_rrset t l.
Proof.
  induction l as [|x l IH]; intros t H; simpl; [reflexivity|].
  destruct (rs_type x =? t') eqn:E; simpl.
  - apply N.eqb_eq in E. rewrite E, H. apply IH. exact H.
  - destruct (rs_type x =? t); [reflexivity|apply IH; exact H].
Qed.

Lemma get_update_rrsets r l t : (rs_type r =? t) = false -> get_rrset t (update_rrsets r l) = get_rrset t l.
Proof.
  intro H. unfold update_rrsets. change empty_rrset_update_removes with true. cbn iota.
  destruct (rs_data r); [apply get_remove_rtype; exact H|rewrite get_set_rrset, H; reflexivity].
Qed.

Lemma w_node_root_rrsets l p f z : n_rrsets (w_node (l :: p) f z) = n_rrsets z.
Proof. destruct z as [r s cs]. reflexivity. Qed.

(* an RRset-level write that is not the apex SOA keeps the serial *)
Definition apex_soa (p : name) (t : rtype) : bool := is_apex p && (t =? soa_type).

Lemma soa_w_update p r z : apex_soa p (rs_type r) = false -> soa_of (w_update_rrset p r z) = soa_of z.
Proof.
  intro H. destruct p as [|l p].
  - unfold w_update_rrset, w_node. simpl. unfold soa_of, get_soa. destruct z as [rs s cs]. simpl.
    rewrite get_update_rrsets; [reflexivity|]. unfold apex_soa in H. simpl in H. exact H.
  - apply soa_of_rrsets. apply w_node_root_rrsets.
Qed.
Lemma soa_w_remove p t z : apex_soa p t = false -> soa_of (w_remove_rrset p t z) = soa_of z.
Proof.
  intro H. destruct p as [|l p].
  - unfold w_remove_rrset, w_node. simpl. unfold soa_of, get_soa. destruct z as [rs s cs]. simpl.
    rewrite get_remove_rtype; [reflexivity|]. unfold apex_soa in H. simpl in H. exact H.
  - apply soa_of_rrsets. apply w_node_root_rrsets.
Qed.
Lemma soa_touch p z : soa_of (w_node p (fun n => n) z) = soa_of z.
Proof. destruct p; [reflexivity|apply soa_of_rrsets; apply w_node_root_rrsets]. Qed.

Lemma soa_u_add p t ttl d z : apex_soa p t = false -> soa_of (u_add p t ttl d z) = soa_of z.
Proof. intro H. unfold u_add. rewrite soa_w_update by exact H. apply soa_touch. Qed.
Lemma soa_u_del p t ttl d z : apex_soa p t = false -> soa_of (u_del p t ttl d z) = soa_of z.
Proof.
  intro H. unfold u_del. destruct (filter _ _); [rewrite soa_w_remove by exact H|rewrite soa_w_update by exact H]; apply soa_touch.
Qed.
Lemma soa_u_soa ttl d z : soa_of (u_soa ttl d z) = Some (rd_tok d).
Proof.
  unfold u_soa, w_update_rrset, w_node. simpl. destruct z as [rs s cs]. unfold soa_of, get_soa. simpl.
  unfold update_rrsets. simpl. rewrite get_set_rrset. reflexivity.
Qed.
Lemma soa_remove_all p z : soa_of (w_remove_all p z) = if is_apex p then None else soa_of z.
Proof.
  destruct p as [|l p]; simpl.
  - unfold w_remove_all, w_node. simpl. destruct z as [rs s cs]. reflexivity.
  - apply soa_of_rrsets. apply w_node_root_rrsets.
Qed.
Lemma soa_set_special p sp z : is_apex p = false -> soa_of (w_node p (set_special sp) z) = soa_of z.
Proof. destruct p; [discriminate|]. intros _. apply soa_of_rrsets. apply w_node_root_rrsets. Qed.
Lemma soa_regular p z : soa_of (w_make_regular p z) = soa_of z.
Proof. destruct p as [|l p]; [reflexivity|]. apply soa_of_rrsets. apply w_node_root_rrsets. Qed.
Lemma soa_graft w c : soa_of (graft w c) = soa_of c.
Proof. destruct w as [wr ws wcs], c as [r s cs]. reflexivity. Qed.

Record sst3 := mkS3 { s3 : sst; s3_csoa : option N; s3_wsoa : option N }.

Definition safe3_op (o : op) : bool :=
  match o with
  | OUBatchDel _ => true
  | OUAdd g | OUDel g => negb (special_type (g_owner g) (g_type g)) && negb (apex_soa (g_owner g) (g_type g))
  | OWRr p r => negb (special_type p (rs_type r)) && negb (apex_soa p (rs_type r))
  | OWRm p t => negb (special_type p t) && negb (apex_soa p t)
  | _ => ext_safe_op o
  end.

Definition sstep3 (st : sst3) (o : op) : sst3 :=
  let a := s3 st in
  match o with
  | OUBatchDel d =>
      if ss_fin a then st else
      match ss_work a with
      | Some g => if soa_match (s3_wsoa st) d then mkS3 (mkSst g (Some g) (ss_fin a)) (s3_wsoa st) (s3_wsoa st) else st
      | None => st
      end
  | OUNew | OWOpen => mkS3 (sstep a o) (s3_csoa st) (s3_csoa st)
  | OUDelAll => mkS3 (sstep a o) (s3_csoa st) (if ss_fin a then s3_wsoa st else None)
  | OUBatchAdd _ d => mkS3 (sstep a o) (s3_csoa st) (if ss_fin a then s3_wsoa st else Some (rd_tok d))
  | OUFin _ d => mkS3 (sstep a o) (if ss_fin a then s3_csoa st else match ss_work a with Some _ => Some (rd_tok d) | None => s3_csoa st end) (s3_wsoa st)
  | OWCommit => mkS3 (sstep a o) (match ss_work a with Some _ => s3_wsoa st | None => s3_csoa st end) (s3_wsoa st)
  | OWRemoveAll p => mkS3 (sstep a o) (s3_csoa st) (if is_apex p then None else s3_wsoa st)
  | _ => mkS3 (sstep a o) (s3_csoa st) (s3_wsoa st)
  end.

Definition sp_final3 (us : list op) (f0 : sfun) (soa0 : option N) : sfun :=
  ss_comm (s3 (fold_left sstep3 us (mkS3 (mkSst f0 None false) soa0 soa0))).

(* the serials of the published and of the working tree *)
Definition soa_inv (c w : option N) (s : state) : Prop :=
  soa_of (s_comm s) = c /\ forall x, s_work s = Some x -> soa_of x = w.

Definition xinv3 (st : sst3) (s : state) : Prop := xinv (s3 st) s /\ soa_inv (s3_csoa st) (s3_wsoa st) s.

Lemma soa_on f c w w' s : (forall x, soa_of x = w -> soa_of (f x) = w') -> soa_inv c w s -> soa_inv c w' (on_work f s).
Proof.
  intros Hf [Hc Hw]. unfold on_work. destruct (s_work s) as [x|] eqn:E; split; simpl; auto.
  - intros y Hy. injection Hy as <-. auto.
  - rewrite E. discriminate.
Qed.

Lemma soa_closed c w w' s : soa_inv c w s -> s_work s = None -> soa_inv c w' s.
Proof. intros [Hc _] E. split; [exact Hc|]. rewrite E. discriminate. Qed.

Lemma soa_rollback c w w' s : soa_inv c w s -> soa_inv c w' (rollback s).
Proof.
  intros [Hc Hw]. unfold rollback. destruct (s_work s) eqn:E.
  - split; simpl; [rewrite soa_graft; exact Hc|discriminate].
  - split; [exact Hc|]. rewrite E. discriminate.
Qed.

Lemma soa_open c w s : soa_inv c w s -> soa_inv c c (set_work (Some (s_comm s)) s).
Proof. intros [Hc _]. split; simpl; [exact Hc|]. intros x H. injection H as <-. exact Hc. Qed.

(* a commit that reopens (BeginBatchDelete) *)
Lemma xinv_commit_reopen st s g : xinv st s -> ss_work st = Some g ->
  xinv (mkSst g (Some g) (ss_fin st)) (commit true s).
Proof.
  intros [Hb Hc Hw Hfin] Hg. unfold commit. rewrite Hg in Hw.
  destruct (s_work s) as [w|] eqn:Ew; [|contradiction].
  constructor; simpl; auto.
Qed.

Lemma xinv3_step i st s o : safe3_op o = true -> xinv3 st s -> xinv3 (sstep3 st o) (step i s o).
Proof.
  intros Ho [Hx Hs].
  pose proof (xi_fin _ _ Hx) as Hfin. pose proof (xi_work _ _ Hx) as Hxw.
  assert (Hx' : ext_safe_op o = true -> xinv (sstep (s3 st) o) (step i s o)) by (intro H; apply xinv_step; assumption).
  assert (E : (if is_history o then finish_build i s else s) = s).
  { destruct (is_history o); [apply finish_built; apply (xi_built _ _ Hx)|reflexivity]. }
  unfold step in *. rewrite E in *. clear E.
  destruct o; simpl in Ho; try discriminate; cbn [sstep3]; rewrite <- ?Hfin;
    try (apply andb_true_iff in Ho; destruct Ho as [Ho Ho2]; apply negb_true_iff in Ho2).
  - (* OUNew *) split; [auto|]. exact (soa_open _ _ _ Hs).
  - (* OUAdd *) split; [auto|]. destruct (s_fin s); [exact Hs|].
    apply (soa_on _ _ _ _ _ (fun x H => eq_trans (soa_u_add _ _ _ _ x Ho2) H) Hs).
  - (* OUDel *) split; [auto|]. destruct (s_fin s); [exact Hs|].
    apply (soa_on _ _ _ _ _ (fun x H => eq_trans (soa_u_del _ _ _ _ x Ho2) H) Hs).
  - (* OUDelAll *) split; [auto|]. destruct (s_fin s); [exact Hs|].
    apply (soa_on _ _ _ _ _ (fun x _ => soa_remove_all [] x) Hs).
  - (* OUBatchDel *)
    destruct (s_fin s). { split; [apply xinv_err; exact Hx|exact Hs]. }
    destruct (s_work s) as [w|] eqn:Ew, (ss_work (s3 st)) as [g|] eqn:Eg; try contradiction; [|split; assumption].
    change batch_delete_checks_serial with true. cbn iota. rewrite soa_serial_matches_of, (proj2 Hs w Ew).
    destruct (soa_match (s3_wsoa st) d); [|split; [apply xinv_err; exact Hx|exact Hs]].
    split; cbn [s3 s3_csoa s3_wsoa].
    + rewrite Hfin. exact (xinv_commit_reopen (s3 st) s g Hx Eg).
    + unfold commit. rewrite Ew. split; simpl; [apply (proj2 Hs); exact Ew|].
      intros x H. inversion H; subst. apply (proj2 Hs). exact Ew.
  - (* OUBatchAdd *) split; [auto|]. destruct (s_fin s); [exact Hs|].
    apply (soa_on _ _ _ _ _ (fun x _ => soa_u_soa ttl d x) Hs).
  - (* OUFin *) split; [auto|]. destruct (s_fin s); [exact Hs|]. cbn [s3_csoa s3_wsoa].
    pose proof (soa_on _ _ _ _ _ (fun x _ => soa_u_soa ttl d x) Hs) as [Hc Hw]. unfold on_work, commit in *.
    destruct (s_work s) as [w|] eqn:Ew, (ss_work (s3 st)) as [g|] eqn:Eg; try contradiction.
    + split; simpl; [apply Hw; reflexivity|discriminate].
    + rewrite Ew. apply (soa_closed _ (s3_wsoa st)); [exact Hs|exact Ew].
  - (* OUDrop *) split; [auto|]. exact (soa_rollback _ _ _ _ Hs).
  - (* OWOpen *) split; [auto|]. exact (soa_open _ _ _ Hs).
  - (* OWRr *) split; [auto|]. apply (soa_on _ _ _ _ _ (fun x H => eq_trans (soa_w_update _ _ x Ho2) H) Hs).
  - (* OWRm *) split; [auto|]. apply (soa_on _ _ _ _ _ (fun x H => eq_trans (soa_w_remove _ _ x Ho2) H) Hs).
  - (* OWCut *) split; [auto|]. unfold w_make_zone_cut. destruct (s_work s) as [w|] eqn:Ew; [|exact Hs].
    destruct (is_apex p) eqn:Ea; [exact Hs|]. destruct Hs as [Hc Hw]. split; simpl; [exact Hc|].
    intros x H. inversion H; subst. rewrite soa_set_special by exact Ea. apply Hw. exact Ew.
  - (* OWCname *) split; [auto|]. unfold w_make_cname. destruct (s_work s) as [w|] eqn:Ew; [|exact Hs].
    destruct (is_apex p) eqn:Ea; [exact Hs|]. destruct Hs as [Hc Hw]. split; simpl; [exact Hc|].
    intros x H. inversion H; subst. rewrite soa_set_special by exact Ea. apply Hw. exact Ew.
  - (* OWRegular *) split; [auto|]. apply (soa_on _ _ _ _ _ (fun x H => eq_trans (soa_regular p x) H) Hs).
  - (* OWRemoveAll *) split; [auto|]. refine (soa_on _ _ _ _ _ _ Hs). intros x H. rewrite soa_remove_all.
    cbn [s3_wsoa]. destruct (is_apex p); [reflexivity|exact H].
  - (* OWCommit *) split; [auto|]. cbn [s3_csoa s3_wsoa]. destruct Hs as [Hc Hw]. unfold commit.
    destruct (s_work s) as [w|] eqn:Ew, (ss_work (s3 st)) as [g|] eqn:Eg; try contradiction.
    + split; simpl; [apply Hw; reflexivity|discriminate].
    + split; [exact Hc|]. rewrite Ew. discriminate.
  - (* OWDrop *) split; [auto|]. exact (soa_rollback _ _ _ _ Hs).
Qed.

Lemma xinv3_run : forall us i st s, forallb safe3_op us = true -> xinv3 st s ->
  wfu (s_comm (run_from i s us)) /\ feq (cspecial_at (s_comm (run_from i s us))) (ss_comm (s3 (fold_left sstep3 us st))).
Proof.
  induction us as [|o us IH]; intros i st s Hu Hx; simpl.
  - destruct Hx as [Hx _]. rewrite finish_built by (apply (xi_built _ _ Hx)).
    destruct (xinv_rollback _ _ Hx) as [_ Hc _ _]. exact Hc.
  - simpl in Hu. apply andb_true_iff in Hu. destruct Hu as [Ho Hu]. apply IH; auto. apply xinv3_step; auto.
Qed.

Lemma safe3_history o : safe3_op o = true -> is_history o = true.
Proof. destruct o; simpl; auto; discriminate. Qed.

(* The delegation / alias state after a history with BeginBatchDelete: computed
   from the operations, from the state [f0] and the serial [soa0] of the zone file. *)
Theorem safe3_state_from rs us f0 soa0 : forallb safe3_op us = true ->
  feq (cspecial_at (run (map OZRec rs))) f0 -> soa_of (run (map OZRec rs)) = soa0 ->
  wfu (run (map OZRec rs ++ us)) /\ feq (cspecial_at (run (map OZRec rs ++ us))) (sp_final3 us f0 soa0).
Proof.
  intros Hu H0 Hsoa. destruct (after_zone_file rs us) as (j & sB & Hb & Hw & Hf & Hr & Hc & Hr').
  { apply (forallb_impl safe3_op); [exact safe3_history|exact Hu]. }
  rewrite Hr'. rewrite Hr in H0, Hsoa. apply xinv3_run; [exact Hu|]. split; cbn [s3 s3_csoa s3_wsoa].
  - apply xinv_start; auto. rewrite Hc. apply zf_tree_wfu.
  - split; [exact Hsoa|]. rewrite Hw. discriminate.
Qed.

Theorem safe3_history_state zs us : zone_file_only zs = true -> forallb safe3_op us = true ->
  wfu (run (zs ++ us)) /\
  forall p, cspecial_at (run (zs ++ us)) p = sp_final3 us (cspecial_at (run zs)) (soa_of (run zs)) p.
Proof.
  intros Hz Hu. destruct (zone_file_records zs Hz) as [rs ->].
  apply safe3_state_from; [exact Hu|intro p; reflexivity|reflexivity].
Qed.

Definition rec_soa (rs : list grec) : option N :=
  match group rs [] rt_soa with
  | Some r => match rs_data r with d :: _ => Some (rd_tok d) | [] => None end
  | None => None
  end.

Lemma zone_file_soa rs : accepted rs = true -> buildable (zf_of_records rs) = true ->
  soa_of (run (map OZRec rs)) = rec_soa rs.
Proof.
  intros Ha Hb. destruct (accepted_records_build rs Ha) as (Hwf & Hok & _).
  rewrite run_zone_file. unfold zf_tree. rewrite Hok, Hb. rewrite Hb in Hwf.
  destruct (build_node _ Hwf []) as (_ & Hi & _).
  unfold soa_of, get_soa, rec_soa. change (n_rrsets (fst (zf_build (zf_of_records rs)))) with (i_rrsets (info_of (fst (zf_build (zf_of_records rs))))).
  rewrite Hi. unfold info_at_g. cbn [i_rrsets]. rewrite <- (grouping rs Ha [] rt_soa). unfold zf_rrset. simpl.
  change soa_type with rt_soa.
  destruct (alookup [] (zf_normal (zf_of_records rs))) as [l|]; [|reflexivity].
  destruct (get_rrset rt_soa l) as [r|]; [|reflexivity]. destruct (rs_data r); reflexivity.
Qed.

(* History (with batches) vs the zone rebuilt from the final records: premises on
   record lists and operations only. *)
Theorem history_vs_rebuilt_records3 rs us rs' :
  accepted rs = true -> buildable (zf_of_records rs) = true -> forallb safe3_op us = true ->
  accepted rs' = true -> buildable (zf_of_records rs') = true ->
  (forall p, rrsets_at (run (map OZRec rs ++ us)) p = rrsets_at (run (map OZRec rs')) p) ->
  (forall p, rec_state rs' p = sp_final3 us (rec_state rs) (rec_soa rs) p) ->
  forall q qt, query (run (map OZRec rs ++ us)) q qt = query (run (map OZRec rs')) q qt.
Proof.
  intros Ha Hb Hu Ha' Hb' HR HS. pose proof (zone_file_rec_state rs' Ha' Hb') as Hs'.
  destruct (safe3_state_from rs us (rec_state rs) (rec_soa rs) Hu) as [Hw Hc].
  { apply zone_file_rec_state; assumption. }
  { apply zone_file_soa; assumption. }
  assert (Hst : forall p, cspecial_at (run (map OZRec rs ++ us)) p = cspecial_at (run (map OZRec rs')) p).
  { intro p. rewrite Hc, Hs'. symmetry. apply HS. }
  apply same_state_same_answers; auto.
  - apply zone_file_wfu.
  - rewrite Hst. apply Hs'.
Qed.

(* non-vacuity: a batch whose SOA matches commits (and survives the dropped rest), one whose SOA does
   not match does not *)
Definition cut_ex3 : zcut := mkCut [lal] (mkRrset rt_ns 300 [tok 9]) None [].
Definition rs_ex3 : list grec := [soa1; mkG [lfoo] T_A 101 (tok 4)].
Definition us_match : list op := [OUNew; OUDelAll; OUBatchAdd 60 (tok 2); OUBatchDel (tok 2); OUAdd (mkG [lb] T_A 101 (tok 5)); OUDrop].
Definition us_mismatch : list op := [OUNew; OUDelAll; OUBatchAdd 60 (tok 2); OUBatchDel (tok 1); OUAdd (mkG [lb] T_A 101 (tok 5)); OUDrop].
Definition us_cut : list op := [OWOpen; OWCut [lal] cut_ex3; OWCommit; OUNew; OUBatchDel (tok 1); OUDelAll; OUDrop].
Example safe3_example :
  forallb safe3_op us_match = true /\ forallb safe3_op us_cut = true /\ forallb ext_safe_op us_match = false /\
  rec_soa rs_ex3 = Some 1 /\
  rrsets_at (run (map OZRec rs_ex3 ++ us_match)) [lfoo] = [] /\
  rrsets_at (run (map OZRec rs_ex3 ++ us_mismatch)) [lfoo] <> [] /\
  sp_final3 us_cut (rec_state rs_ex3) (rec_soa rs_ex3) [lal] = Some (Cut cut_ex3) /\
  cspecial_at (run (map OZRec rs_ex3 ++ us_cut)) [lal] = Some (Cut cut_ex3).
Proof. repeat split; try (vm_compute; reflexivity). vm_compute. discriminate. Qed.

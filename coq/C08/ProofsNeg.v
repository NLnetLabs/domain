(* C08 -- negative answers (SOA in the authority section for every tree, whatever its
   history), NODATA for existing names / empty non-terminals, NXDOMAIN exactly when neither the
   name nor the closest encloser's wildcard exists, wildcard synthesis, iter_zones. *)
From Coq Require Import NArith List Bool.
From DV Require Import Base.Outcome C08.Gen C08.Model C08.Spec C08.ProofsQuery C08.ProofsBuild C08.ProofsTree.
Import ListNotations.
Local Open Scope N_scope.

Inductive shape : nanswer -> Prop :=
| sh_data r : shape (NA_data r)
| sh_no_data : shape NA_no_data
| sh_cname c : shape (NA_cname c)
| sh_nx_domain : shape NA_nx_domain
| sh_authority c : shape (NA_authority c).

Lemma shape_rrsets rs qt : shape (query_rrsets rs qt).
Proof.
  unfold query_rrsets. destruct (qt =? any_type); [destruct rs|destruct (get_rrset qt rs)]; constructor.
Qed.

Lemma shape_here n qt : shape (here_but_not_below n qt).
Proof.
  unfold here_but_not_below, query_at_cut. destruct (n_special n) as [[c|c|]|].
  - destruct (qt =? cut_answers_type); [destruct (c_ds c)|]; constructor.
  - constructor.
  - destruct marker_answers_like_unmarked; [apply shape_rrsets|constructor].
  - apply shape_rrsets.
Qed.

Lemma shape_children rec cs l qt : (forall c, shape (rec c)) -> shape (query_children rec cs l qt).
Proof.
  intros H. unfold query_children. destruct (find_existing l cs); [apply H|].
  destruct children_exact_then_wildcard; [|constructor].
  destruct (find_existing wild_label cs); [apply shape_here|constructor].
Qed.

Lemma shape_node q : forall n qt, shape (query_node n q qt).
Proof.
  induction q as [|l q IH]; intros n qt; simpl; [apply shape_here|].
  destruct (n_special n) as [[c|c|]|]; [constructor|..]; apply shape_children; intro; apply IH.
Qed.

Lemma shape_apex z q qt : shape (query_apex z q qt).
Proof.
  unfold query_apex. destruct q; [apply shape_rrsets|].
  apply shape_children; intros; apply shape_node.
Qed.

(* any tree -- built, updated, rolled back, with or without markers: a negative answer
   (no data, authoritative: NODATA and NXDOMAIN) carries the zone's SOA and nothing else *)
Theorem negative_carries_soa z q qt s : get_soa z = Some s ->
  a_content (query z q qt) = ANoData -> a_aa (query z q qt) = true ->
  a_auth (query z q qt) = Some (mkAuth [] (Some s) None None) /\ a_addl (query z q qt) = [].
Proof.
  intros Hs. unfold query, into_answer. rewrite Hs.
  destruct (shape_apex z q qt); cbn; intros Hc Haa; try discriminate; auto.
Qed.

Theorem nxdomain_answer_form z q qt : a_rcode (query z q qt) = rc_nxdomain ->
  a_content (query z q qt) = ANoData /\ a_aa (query z q qt) = true /\ a_addl (query z q qt) = [] /\
  a_auth (query z q qt) = match get_soa z with Some s => Some (mkAuth [] (Some s) None None) | None => None end.
Proof.
  unfold query, into_answer.
  destruct (shape_apex z q qt); cbn; intros Hr; try discriminate. repeat split.
Qed.

(* only referrals are not authoritative; data / alias / referral answers never get the SOA *)
Theorem non_authoritative_is_referral z q qt : a_aa (query z q qt) = false ->
  exists c, a_auth (query z q qt) = Some (mkAuth (c_name c) None (Some (c_ns c)) (c_ds c)) /\
            a_addl (query z q qt) = c_glue c /\ a_content (query z q qt) = ANoData /\
            a_rcode (query z q qt) = rc_noerror.
Proof.
  unfold query, into_answer.
  destruct (shape_apex z q qt); cbn; intros Hr; try discriminate.
  exists c; repeat split; reflexivity.
Qed.

Definition ex_z : node := Node [mkRrset 6 10 [mkRd 1 None]] None [(1, Node [] None [(2, Node [mkRrset 1 5 [mkRd 7 None]] None [])])].
Example negative_carries_soa_nonvacuous :
  get_soa ex_z = Some (mkRr 10 (mkRd 1 None)) /\
  a_rcode (query ex_z [3] 1) = rc_nxdomain /\ a_aa (query ex_z [3] 1) = true /\
  a_content (query ex_z [1] 1) = ANoData /\ a_rcode (query ex_z [1] 1) = rc_noerror.
Proof. vm_compute. repeat split. Qed.

Lemma rc_at_cut c qt : na_rcode (spec_at_cut c qt) = rc_noerror.
Proof. unfold spec_at_cut. destruct (qt =? rt_ds); [destruct (c_ds c)|]; reflexivity. Qed.
Lemma rc_rrsets rs qt : na_rcode (spec_rrsets rs qt) = rc_noerror.
Proof.
  unfold spec_rrsets. destruct (qt =? rt_any); [destruct rs | destruct (get_rrset qt rs)]; reflexivity.
Qed.
Lemma rc_info G zf p qt : na_rcode (spec_at (info_at_g G zf p) qt) = rc_noerror.
Proof.
  unfold spec_at, info_at_g; cbn [i_special i_rrsets].
  destruct (cut_at_g G zf p); [apply rc_at_cut|].
  destruct (alookup p (zf_cnames zf)); [reflexivity | apply rc_rrsets].
Qed.

(* outside delegations: the name's own data if it exists, else the data of the wildcard
   below its closest encloser if that exists, else NXDOMAIN *)
Lemma answer_outside_cuts zf q qt : wf_zone zf = true -> find_cut (flat_view zf) q = None ->
  query (fst (zf_build zf)) q qt =
  finish (soa_of zf)
    (if exists_name zf q then spec_at (info_at_g (zf_normal zf) zf q) qt
     else if exists_name zf (closest_encloser (flat_view zf) q ++ [wild_label])
          then spec_at (info_at_g (zf_normal zf) zf (closest_encloser (flat_view zf) q ++ [wild_label])) qt
          else spec_nxdomain).
Proof.
  intros W Hc. rewrite (build_answers_spec zf W). unfold spec, vspec. rewrite Hc.
  unfold vrest. set (ce := closest_encloser (flat_view zf) q). unfold flat_view, flat_view_g.
  destruct (exists_name zf q); [reflexivity|]. destruct (exists_name zf (ce ++ [wild_label])); reflexivity.
Qed.

(* a name that exists (RFC 4592: owner names and their ancestors, so empty non-terminals too),
   is not at or below a delegation, is no alias and has no RRset of the type: NODATA with the SOA *)
Theorem nodata_for_existing_names zf q qt : wf_zone zf = true ->
  find_cut (flat_view zf) q = None -> exists_name zf q = true ->
  alookup q (zf_cuts zf) = None -> alookup q (zf_cnames zf) = None ->
  match alookup q (zf_normal zf) with
  | None => True
  | Some rs => qt <> rt_any /\ get_rrset qt rs = None
  end ->
  query (fst (zf_build zf)) q qt = finish (soa_of zf) spec_nodata.
Proof.
  intros W Hc He Hcu Hcn Hn. rewrite (answer_outside_cuts zf q qt W Hc), He.
  unfold spec_at, info_at_g, cut_at_g; cbn [i_special i_rrsets]. rewrite Hcu, Hcn.
  destruct (alookup q (zf_normal zf)) as [rs|]; unfold spec_rrsets.
  - destruct Hn as [Hq Hg]. apply N.eqb_neq in Hq. rewrite Hq, Hg. reflexivity.
  - destruct (qt =? rt_any); reflexivity.
Qed.

(* NXDOMAIN exactly when the name is not at or below a delegation, does not exist, and the
   wildcard child of its closest encloser does not exist either *)
Theorem nxdomain_iff zf q qt : wf_zone zf = true ->
  (a_rcode (query (fst (zf_build zf)) q qt) = rc_nxdomain <->
   find_cut (flat_view zf) q = None /\ exists_name zf q = false /\
   exists_name zf (closest_encloser (flat_view zf) q ++ [wild_label]) = false).
Proof.
  intros W. destruct (find_cut (flat_view zf) q) as [[p c]|] eqn:Hc.
  - rewrite (build_answers_spec zf W). unfold spec, finish, vspec; cbn [a_rcode]. rewrite Hc. split.
    + intros H. destruct (name_eqb p q); [rewrite rc_at_cut in H|]; discriminate.
    + intros [H _]; discriminate.
  - rewrite (answer_outside_cuts zf q qt W Hc). unfold finish; cbn [a_rcode].
    destruct (exists_name zf q).
    + rewrite rc_info. split; [intros H; discriminate | intros (_ & H & _); discriminate].
    + destruct (exists_name zf _).
      * rewrite rc_info. split; [intros H; discriminate | intros (_ & _ & H); discriminate].
      * split; auto.
Qed.

(* wildcard synthesis: a name that does not exist, outside delegations, whose closest encloser has
   an existing `*` child, gets the answer formed from the wildcard's data (data, CNAME, NODATA) *)
Theorem wildcard_synthesis zf q qt : wf_zone zf = true ->
  find_cut (flat_view zf) q = None -> exists_name zf q = false ->
  exists_name zf (closest_encloser (flat_view zf) q ++ [wild_label]) = true ->
  query (fst (zf_build zf)) q qt =
  finish (soa_of zf) (spec_at (info_at_g (zf_normal zf) zf (closest_encloser (flat_view zf) q ++ [wild_label])) qt) /\
  a_rcode (query (fst (zf_build zf)) q qt) = rc_noerror.
Proof.
  intros W Hc He Hw. rewrite (answer_outside_cuts zf q qt W Hc), He, Hw.
  split; [reflexivity|]. unfold finish; cbn [a_rcode]. apply rc_info.
Qed.

Definition ex_soa : rrset := mkRrset 6 10 [mkRd 1 None].
Definition ex_zf : zonefile :=
  mkZf [([], [ex_soa]); ([1; 2], [mkRrset 1 5 [mkRd 7 None]]); ([1; wild_label], [mkRrset 1 5 [mkRd 8 None]])] [] [].
Example nodata_nonvacuous :
  wf_zone ex_zf = true /\ find_cut (flat_view ex_zf) [1] = None /\ exists_name ex_zf [1] = true /\
  alookup [1] (zf_normal ex_zf) = None /\
  query (fst (zf_build ex_zf)) [1] 1 = finish (soa_of ex_zf) spec_nodata.
Proof. vm_compute. repeat split. Qed.
Example nxdomain_nonvacuous :
  find_cut (flat_view ex_zf) [3] = None /\ exists_name ex_zf [3] = false /\
  exists_name ex_zf (closest_encloser (flat_view ex_zf) [3] ++ [wild_label]) = false /\
  a_rcode (query (fst (zf_build ex_zf)) [3] 1) = rc_nxdomain.
Proof. vm_compute. repeat split. Qed.
Example wildcard_nonvacuous :
  find_cut (flat_view ex_zf) [1; 3] = None /\ exists_name ex_zf [1; 3] = false /\
  exists_name ex_zf (closest_encloser (flat_view ex_zf) [1; 3] ++ [wild_label]) = true /\
  a_content (query (fst (zf_build ex_zf)) [1; 3] 1) = AData (mkRrset 1 5 [mkRd 8 None]).
Proof. vm_compute. repeat split. Qed.

Lemma zfind_child_list l cs c : zfind_child l cs = Some c ->
  forall z, In z (zt_list c) ->
  In z ((fix go (cs : list (label * znode)) : list N :=
           match cs with [] => [] | (_, c) :: cs' => zt_list c ++ go cs' end) cs).
Proof.
  induction cs as [|[k x] cs IH]; simpl; [discriminate|].
  destruct (k =? l).
  - intros H z Hz. inversion H; subst. apply in_or_app; left; exact Hz.
  - intros H z Hz. apply in_or_app; right. apply IH; assumption.
Qed.

(* every zone that get_zone finds is listed by iter_zones *)
Theorem zt_get_in_list : forall p n z, zt_get n p = Some z -> In z (zt_list n).
Proof.
  induction p as [|l p IH]; intros [zo cs] z; simpl.
  - intros H. rewrite H. simpl. left; reflexivity.
  - destruct (zfind_child l cs) as [c|] eqn:E; [|discriminate].
    intros H. apply in_or_app; right. eapply zfind_child_list; eauto.
Qed.

Theorem zonetree_get_in_iter c p r z : zr_getz c p r = Some z -> In z (zr_list r).
Proof.
  unfold zr_getz, zr_get, zr_list. destruct (c =? class_in).
  - intros H. apply in_or_app; left. eapply zt_get_in_list; eauto.
  - destruct (cls_get c (zr_others r)) as [n|] eqn:E; [|discriminate].
    intros H. apply in_or_app; right. apply in_flat_map.
    revert E. induction (zr_others r) as [|[k x] l IH]; simpl; [discriminate|].
    destruct (k =? c).
    + intros E; inversion E; subst. exists (k, n); split; [left; reflexivity | simpl; eapply zt_get_in_list; eauto].
    + intros E. destruct (IH E) as [kn [Hin Hz]]. exists kn; split; [right; exact Hin | exact Hz].
Qed.

Example zt_get_in_list_nonvacuous :
  match zt_insert [1; 2] 7 zempty with Ok n => zt_get n [1; 2] = Some 7 /\ zt_list n = [7] | _ => False end.
Proof. vm_compute. split; reflexivity. Qed.

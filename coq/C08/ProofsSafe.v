(* C08 -- zones with delegations / aliases: for trees with unique child labels the
   answers are a function of the RRsets and the delegation / alias state at each
   name; what each write primitive does to that state; runs whose trees all keep
   one state: plain histories (the empty state, ProofsPlain) and a zone file
   updated by "safe" operations, which then answers like any tree with the same
   RRsets and the zone file's state, e.g. the zone rebuilt from the final records. *)
From Coq Require Import NArith List Bool.
From DV Require Import Base.Outcome C08.Gen C08.Model C08.Spec C08.ProofsQuery C08.ProofsBuild C08.ProofsHist C08.ProofsPlain.
Import ListNotations.
Local Open Scope N_scope.

Fixpoint wfu (n : node) : Prop :=
  let 'Node r s cs := n in
  NoDup (map fst cs) /\
  (fix all (cs : list (label * node)) : Prop := match cs with [] => True | (_, c) :: cs' => wfu c /\ all cs' end) cs.

Lemma wfu_unfold r s cs : wfu (Node r s cs) <-> NoDup (map fst cs) /\ Forall (fun lc => wfu (snd lc)) cs.
Proof. cbn [wfu]. rewrite (all_children_Forall wfu). reflexivity. Qed.

Lemma wfu_empty : wfu empty_node.
Proof. apply wfu_unfold. split; constructor. Qed.

Lemma wfu_at : forall p n x, wfu n -> node_at n p = Some x -> wfu x.
Proof.
  induction p as [|l p IH]; intros [r s cs] x Hn Hx; simpl in Hx.
  - inversion Hx; subst; exact Hn.
  - destruct (find_child l cs) as [d|] eqn:E; [|discriminate]. apply (IH d x); [|exact Hx].
    apply wfu_unfold in Hn. destruct Hn as [_ Hall]. rewrite Forall_forall in Hall. exact (Hall _ (find_child_In _ _ _ E)).
Qed.

Lemma exists_has_content : forall x, wfu x -> node_exists x = true ->
  exists p y, node_at x p = Some y /\ has_content y = true.
Proof.
  apply (node_ind' (fun x => wfu x -> node_exists x = true -> exists p y, node_at x p = Some y /\ has_content y = true)).
  intros r s cs IH Hw He. apply wfu_unfold in Hw. destruct Hw as (Hnd & Hall).
  rewrite node_exists_unfold in He. apply orb_true_iff in He. destruct He as [He|He].
  - exists [], (Node r s cs). split; [reflexivity|]. exact He.
  - apply existsb_exists in He. destruct He as ([l c] & Hin & Hc). simpl in Hc.
    rewrite Forall_forall in IH, Hall.
    destruct (IH _ Hin (Hall _ Hin) Hc) as (p & y & Hy & Hr).
    exists (l :: p), y. split; [|exact Hr]. simpl. rewrite (find_child_nodup l c cs Hnd Hin). exact Hy.
Qed.

Definition cspecial_at (t : node) (p : name) : option special :=
  match node_at t p with Some x => clean (n_special x) | None => None end.

Lemma cspecial_cons n l r :
  cspecial_at n (l :: r) = match find_child l (n_children n) with Some c => cspecial_at c r | None => None end.
Proof. unfold cspecial_at. simpl. destruct (find_child l (n_children n)); reflexivity. Qed.

Lemma wfp_wfu : forall n, wfp n -> wfu n.
Proof.
  apply (node_ind' (fun n => wfp n -> wfu n)). intros r s cs IH H. apply wfp_unfold in H. destruct H as (_ & Hnd & Hall).
  apply wfu_unfold. split; [exact Hnd|]. rewrite Forall_forall in *. intros lc Hin. apply IH; auto.
Qed.

Lemma wfp_cspecial : forall p n, wfp n -> cspecial_at n p = None.
Proof.
  induction p as [|l p IH]; intros [r s cs] H; apply wfp_unfold in H; destruct H as (Hs & _ & Hall).
  - exact Hs.
  - rewrite cspecial_cons. cbn [n_children]. destruct (find_child l cs) as [c|] eqn:E; [|reflexivity].
    apply IH. rewrite Forall_forall in Hall. exact (Hall _ (find_child_In _ _ _ E)).
Qed.

Lemma wfp_of_state : forall n, wfu n -> (forall p, cspecial_at n p = None) -> wfp n.
Proof.
  apply (node_ind' (fun n => wfu n -> (forall p, cspecial_at n p = None) -> wfp n)).
  intros r s cs IH Hu Hn. apply wfu_unfold in Hu. destruct Hu as [Hnd Hall]. apply wfp_unfold.
  split; [exact (Hn [])|]. split; [exact Hnd|].
  rewrite Forall_forall in *. intros [l c] Hin. apply (IH _ Hin (Hall _ Hin)).
  intro p. rewrite <- (Hn (l :: p)), cspecial_cons. cbn [n_children]. rewrite (find_child_nodup l c cs Hnd Hin). reflexivity.
Qed.

Definition live (t : node) (p : name) : bool :=
  match node_at t p with Some x => node_exists x | None => false end.
Definition is_cc (s : option special) : bool := match s with Some (Cut _) => true | Some (Cname _) => true | _ => false end.
Definition content_at (t : node) (p : name) : bool := negb (rrsets_is_empty (rrsets_at t p)) || is_cc (cspecial_at t p).

Lemma has_content_at t p y : node_at t p = Some y -> has_content y = content_at t p.
Proof.
  intro H. unfold content_at, has_content, rrsets_at, cspecial_at. rewrite H.
  destruct (n_special y) as [[c|c|]|]; reflexivity.
Qed.

Lemma live_iff t p : wfu t -> (live t p = true <-> exists r, content_at t (p ++ r) = true).
Proof.
  intro Hw. unfold live. split.
  - destruct (node_at t p) as [x|] eqn:Ex; [|discriminate]. intro He.
    destruct (exists_has_content x (wfu_at _ _ _ Hw Ex) He) as (r & y & Hy & Hr).
    exists r. rewrite <- (has_content_at t (p ++ r) y); [exact Hr|]. rewrite node_at_app, Ex. exact Hy.
  - intros [r Hr]. unfold content_at, rrsets_at, cspecial_at in Hr. rewrite node_at_app in Hr.
    destruct (node_at t p) as [x|]; [|simpl in Hr; discriminate].
    destruct (node_at x r) as [y|] eqn:Ey; [|simpl in Hr; discriminate].
    apply (exists_from_content r x y Ey). unfold has_content. destruct (n_special y) as [[c|c|]|]; exact Hr.
Qed.

Lemma lview_state t p : lview t p =
  if is_apex p || live t p then
    match node_at t p with Some _ => Some (mkInfo (rrsets_at t p) (cspecial_at t p)) | None => None end
  else None.
Proof.
  unfold lview, live, rrsets_at, cspecial_at. destruct (node_at t p) as [x|]; [reflexivity|].
  destruct (is_apex p || false); reflexivity.
Qed.

Theorem same_state_same_view t t' : wfu t -> wfu t' ->
  (forall p, rrsets_at t p = rrsets_at t' p) -> (forall p, cspecial_at t p = cspecial_at t' p) ->
  forall p, lview t p = lview t' p.
Proof.
  intros Hw Hw' HR HS p.
  assert (Hl : live t p = live t' p).
  { apply eq_true_iff_eq. rewrite (live_iff t p Hw), (live_iff t' p Hw').
    split; intros [r Hr]; exists r; unfold content_at in *; [rewrite <- HR, <- HS|rewrite HR, HS]; exact Hr. }
  rewrite !lview_state, Hl, HR, HS.
  destruct (is_apex p || live t' p) eqn:E; [|reflexivity].
  assert (Hn : forall u, is_apex p || live u p = true -> exists x, node_at u p = Some x).
  { intros u Hu. destruct p; [simpl; eauto|]. simpl in Hu. unfold live in Hu. destruct (node_at u (l :: p)); [eauto|discriminate]. }
  destruct (Hn t' E) as [x' Hx']. rewrite <- Hl in E. destruct (Hn t E) as [x Hx]. rewrite Hx, Hx'. reflexivity.
Qed.

Theorem same_state_same_answers t t' : wfu t -> wfu t' ->
  (forall p, rrsets_at t p = rrsets_at t' p) -> (forall p, cspecial_at t p = cspecial_at t' p) ->
  cspecial_at t [] = None ->
  forall q qt, query t q qt = query t' q qt.
Proof.
  intros Hw Hw' HR HS H0 q qt.
  assert (H0' : cspecial_at t' [] = None) by (rewrite <- HS; exact H0).
  rewrite !query_is_vspec by assumption.
  f_equal.
  - unfold get_soa. change (n_rrsets t) with (rrsets_at t []). change (n_rrsets t') with (rrsets_at t' []).
    rewrite HR. reflexivity.
  - apply vspec_ext. apply same_state_same_view; assumption.
Qed.

Theorem plain_same_answers t t' : wfp t -> wfp t' -> (forall p, rrsets_at t p = rrsets_at t' p) ->
  forall q qt, query t q qt = query t' q qt.
Proof.
  intros Hw Hw' HR. apply same_state_same_answers; auto using wfp_wfu, wfp_cspecial.
  intro p. rewrite !wfp_cspecial by assumption. reflexivity.
Qed.

Lemma with_path_wfu mk f : (forall x, wfu x -> wfu (mk x)) -> (forall x, wfu x -> wfu (f x)) ->
  forall p n, wfu n -> wfu (with_path mk p f n).
Proof.
  intros Hmk Hf. induction p as [|l p IH]; intros n Hn; simpl; [auto|].
  destruct n as [r s cs]. apply wfu_unfold in Hn. destruct Hn as (Hnd & Hall).
  apply wfu_unfold. split; [apply upsert_nodup; exact Hnd|].
  apply upsert_forall; auto. apply IH. apply Hmk. apply wfu_empty.
Qed.

Definition keeps_children (f : node -> node) : Prop := forall x, n_children (f x) = n_children x.
Definition keeps_cspecial (f : node -> node) : Prop := forall x, clean (n_special (f x)) = clean (n_special x).

Lemma kc_wfu f x : keeps_children f -> wfu x -> wfu (f x).
Proof.
  intros Hf H. specialize (Hf x). destruct x as [r s cs]. destruct (f (Node r s cs)) as [r' s' cs'] eqn:E.
  simpl in Hf. subst cs'. apply wfu_unfold in H. apply wfu_unfold. exact H.
Qed.

(* [z'] has the delegation / alias state of [z], and unique labels if [z] has *)
Definition same_state (z z' : node) : Prop := (wfu z -> wfu z') /\ forall p, cspecial_at z' p = cspecial_at z p.

Lemma same_state_trans a b c : same_state a b -> same_state b c -> same_state a c.
Proof. intros [H1 H2] [H3 H4]. split; [auto|]. intro p. rewrite H4, H2. reflexivity. Qed.

Lemma cspecial_view t p : cspecial_at t p = match view_of t p with Some i => clean (i_special i) | None => None end.
Proof. unfold cspecial_at, view_of. destruct (node_at t p); reflexivity. Qed.

Section WithPath.
Variable mk : node -> node.
Hypothesis mk_clean : clean (n_special (mk empty_node)) = None.
Hypothesis mk_leaf : n_children (mk empty_node) = [].

Lemma cspecial_base n p r : cspecial_at (base_mk mk (node_at n p)) r = cspecial_at n (p ++ r).
Proof.
  rewrite !cspecial_view. unfold view_of at 2. rewrite node_at_app.
  destruct (node_at n p); [reflexivity|]. simpl. rewrite (view_new mk mk_leaf). destruct r; [exact mk_clean|reflexivity].
Qed.

Lemma with_path_off f p n p' : is_prefix p p' = false ->
  cspecial_at (with_path mk p f n) p' = cspecial_at n p'.
Proof.
  intro H. rewrite !cspecial_view, (view_off mk mk_leaf) by exact H.
  destruct (is_prefix p' p); [|reflexivity]. destruct (view_of n p'); [reflexivity|exact mk_clean].
Qed.

Lemma with_path_on f p n r :
  cspecial_at (with_path mk p f n) (p ++ r) = cspecial_at (f (base_mk mk (node_at n p))) r.
Proof. unfold cspecial_at. rewrite (node_at_on mk mk_leaf). reflexivity. Qed.

Lemma with_path_same f : (forall x, wfu x -> wfu (mk x)) -> keeps_children f -> keeps_cspecial f ->
  forall p n, same_state n (with_path mk p f n).
Proof.
  intros Hmk Hc Hs p n. split.
  - apply with_path_wfu; [exact Hmk|]. intros x Hx. apply kc_wfu; assumption.
  - intro p'. destruct (is_prefix p p') eqn:E.
    + destruct (is_prefix_app _ _ E) as [r ->]. rewrite with_path_on, <- cspecial_base.
      destruct r; unfold cspecial_at; cbn [node_at]; [apply Hs|rewrite Hc; reflexivity].
    + apply with_path_off. exact E.
Qed.
End WithPath.

Lemma kc_map_rrsets g : keeps_children (map_rrsets g). Proof. intros [r s cs]; reflexivity. Qed.
Lemma ks_map_rrsets g : keeps_cspecial (map_rrsets g). Proof. intros [r s cs]; reflexivity. Qed.
Lemma kc_set_special s : keeps_children (set_special s). Proof. intros [r s0 cs]; reflexivity. Qed.
Lemma kc_check : keeps_children check_nx_domain.
Proof.
  intros x. unfold check_nx_domain. destruct (n_special x) as [[c|c|]|]; auto.
  - destruct (negb (rrsets_is_empty (n_rrsets x)) && nx_marked_clears_when_nonempty); auto. apply kc_set_special.
  - destruct (rrsets_is_empty (n_rrsets x) && nx_unmarked_sets_when_empty); auto. apply kc_set_special.
Qed.
Lemma ks_check : keeps_cspecial check_nx_domain.
Proof.
  intros [r s cs]. unfold check_nx_domain. cbn [n_special n_rrsets].
  destruct s as [[c|c|]|]; try reflexivity.
  - destruct (negb (rrsets_is_empty r) && nx_marked_clears_when_nonempty); reflexivity.
  - destruct (rrsets_is_empty r && nx_unmarked_sets_when_empty); reflexivity.
Qed.
Lemma kc_regular : keeps_children make_regular_node.
Proof. intro x. unfold make_regular_node. rewrite kc_check. apply kc_set_special. Qed.
Lemma regular_clean x : clean (n_special (make_regular_node x)) = None.
Proof. unfold make_regular_node. rewrite ks_check. destruct x; reflexivity. Qed.
Lemma regular_leaf : n_children (make_regular_node empty_node) = []. Proof. reflexivity. Qed.

Lemma regular_wfu x : wfu x -> wfu (make_regular_node x).
Proof. apply kc_wfu, kc_regular. Qed.

Lemma w_node_wfu p f z : (forall x, wfu x -> wfu (f x)) -> wfu z -> wfu (w_node p f z).
Proof. intros Hf Hz. apply with_path_wfu; auto using regular_wfu. Qed.

Lemma w_node_same p f z : keeps_children f -> keeps_cspecial f -> same_state z (w_node p f z).
Proof.
  intros Hc Hs. exact (with_path_same make_regular_node (regular_clean _) regular_leaf f regular_wfu Hc Hs p z).
Qed.

Lemma b_node_same p f z : keeps_children f -> keeps_cspecial f -> same_state z (b_node p f z).
Proof. intros Hc Hs. apply (with_path_same (fun c => c) eq_refl eq_refl f); auto. Qed.

Lemma insert_rrset_same p r z : same_state z (insert_rrset p r z).
Proof. apply b_node_same; [apply kc_map_rrsets|apply ks_map_rrsets]. Qed.

Definition upd_rr (apex : bool) (g : list rrset -> list rrset) : node -> node :=
  fun n => let n' := map_rrsets g n in if apex then n' else check_nx_domain n'.
Lemma kc_upd b g : keeps_children (upd_rr b g).
Proof. intro x. unfold upd_rr. destruct b; [apply kc_map_rrsets|rewrite kc_check; apply kc_map_rrsets]. Qed.
Lemma ks_upd b g : keeps_cspecial (upd_rr b g).
Proof. intro x. unfold upd_rr. destruct b; [apply ks_map_rrsets|rewrite ks_check; apply ks_map_rrsets]. Qed.

Lemma w_update_rrset_same p r z : same_state z (w_update_rrset p r z).
Proof. apply (w_node_same p (upd_rr (is_apex p) (update_rrsets r))); [apply kc_upd|apply ks_upd]. Qed.
Lemma w_remove_rrset_same p t z : same_state z (w_remove_rrset p t z).
Proof. apply (w_node_same p (upd_rr (is_apex p) (remove_rtype t))); [apply kc_upd|apply ks_upd]. Qed.
Lemma touch_same p z : same_state z (w_node p (fun n => n) z).
Proof. apply w_node_same; intro x; reflexivity. Qed.

Lemma u_add_same p t ttl d z : same_state z (u_add p t ttl d z).
Proof. unfold u_add. eapply same_state_trans; [apply touch_same|apply w_update_rrset_same]. Qed.
Lemma u_del_same p t ttl d z : same_state z (u_del p t ttl d z).
Proof.
  unfold u_del. eapply same_state_trans; [apply touch_same|].
  destruct (filter _ _); [apply w_remove_rrset_same|apply w_update_rrset_same].
Qed.
Lemma u_soa_same ttl d z : same_state z (u_soa ttl d z).
Proof. apply w_update_rrset_same. Qed.

Lemma w_set_special_state p f s' z :
  keeps_children f -> (forall x, clean (n_special (f x)) = s') ->
  forall p', cspecial_at (w_node p f z) p' = if name_eqb p' p then s' else cspecial_at z p'.
Proof.
  intros Hc Hs p'. unfold w_node. rewrite !cspecial_view, (view_with_path make_regular_node regular_leaf f Hc).
  destruct (name_eqb p' p); [apply Hs|]. destruct (is_prefix p' p); [|reflexivity].
  destruct (view_of z p'); [reflexivity|apply regular_clean].
Qed.

Lemma w_make_regular_state p z : (wfu z -> wfu (w_make_regular p z)) /\
  forall p', cspecial_at (w_make_regular p z) p' = if negb (is_apex p) && name_eqb p' p then None else cspecial_at z p'.
Proof.
  unfold w_make_regular. destruct (is_apex p); [apply touch_same|]. split.
  - apply w_node_wfu. exact regular_wfu.
  - intro p'. apply w_set_special_state; [apply kc_regular|apply regular_clean].
Qed.

Lemma find_child_map (g : node -> node) l cs :
  find_child l (map (fun lc => (fst lc, g (snd lc))) cs) = option_map g (find_child l cs).
Proof. induction cs as [|[k c] cs IH]; simpl; [reflexivity|]. destruct (k =? l); [reflexivity|exact IH]. Qed.

Lemma remove_all_clean : forall r x, cspecial_at (remove_all_node x) r = None.
Proof.
  induction r as [|l r IH]; intros [rs s cs]; rewrite remove_all_unfold; [reflexivity|].
  rewrite cspecial_cons. cbn [n_children]. rewrite find_child_map.
  destruct (find_child l cs) as [c|]; simpl; [apply IH|reflexivity].
Qed.

Lemma wfu_remove_all : forall x, wfu x -> wfu (remove_all_node x).
Proof.
  apply (node_ind' (fun x => wfu x -> wfu (remove_all_node x))).
  intros r s cs IH H. apply wfu_unfold in H. destruct H as (Hnd & Hall).
  rewrite remove_all_unfold. apply wfu_unfold. split.
  - rewrite map_map. simpl. exact Hnd.
  - rewrite Forall_forall in *. intros lc Hin. apply in_map_iff in Hin. destruct Hin as (lc0 & Hlc & Hin0). subst lc. simpl.
    apply (IH _ Hin0). apply (Hall _ Hin0).
Qed.

Lemma w_remove_all_state p z : (wfu z -> wfu (w_remove_all p z)) /\
  forall p', cspecial_at (w_remove_all p z) p' = if is_prefix p p' then None else cspecial_at z p'.
Proof.
  unfold w_remove_all. split; [apply w_node_wfu; exact wfu_remove_all|].
  intro p'. unfold w_node. destruct (is_prefix p p') eqn:E.
  - destruct (is_prefix_app _ _ E) as [r Hr]. subst p'.
    rewrite (with_path_on make_regular_node regular_leaf). apply remove_all_clean.
  - apply (with_path_off make_regular_node (regular_clean _) regular_leaf). exact E.
Qed.

(* rollback: committed values return, new nodes stay bare *)
Lemma graft_same : forall w c, same_state c (graft w c).
Proof.
  apply (node_ind' (fun w => forall c, same_state c (graft w c))).
  intros wr ws wcs IH c. destruct c as [r s ccs]. unfold same_state. cbn [graft]. split.
  - intro Hc. apply wfu_unfold in Hc. destruct Hc as (Hnd & Hall). apply wfu_unfold.
    revert ccs Hnd Hall. induction wcs as [|[l wc] wcs IHw]; intros ccs Hnd Hall; [split; assumption|].
    inversion IH; subst. simpl in H1. apply IHw; auto.
    + apply upsert_nodup. exact Hnd.
    + apply upsert_forall; auto.
      * apply (proj1 (H1 empty_node)). apply wfu_empty.
      * intros c0 Hc0. apply (proj1 (H1 c0)). exact Hc0.
  - intros [|l p]; [reflexivity|]. rewrite !cspecial_cons. cbn [n_children].
    revert ccs. induction wcs as [|[l' wc] wcs IHw]; intro ccs; [reflexivity|].
    inversion IH; subst. simpl in H1. rewrite IHw by assumption. rewrite find_upsert.
    destruct (l =? l') eqn:El; [|reflexivity]. apply N.eqb_eq in El. subst l'.
    destruct (find_child l ccs) as [c0|].
    + apply (proj2 (H1 c0) p).
    + change (cspecial_at (graft wc empty_node) p = None). rewrite (proj2 (H1 empty_node) p).
      unfold cspecial_at. destruct p; reflexivity.
Qed.

Lemma same_state_refl z : same_state z z.
Proof. split; auto. Qed.

Lemma normal_steps_same : forall N z ok, same_state z (fst (fold_left normal_step N (z, ok))).
Proof.
  induction N as [|[o rs] N IH]; intros z ok; [apply same_state_refl|].
  simpl. eapply same_state_trans; [|apply IH].
  revert z. induction rs as [|r rs IHr]; intro z; [apply same_state_refl|].
  simpl. eapply same_state_trans; [apply insert_rrset_same|apply IHr].
Qed.

Lemma b_node_wfu p f z : keeps_children f -> wfu z -> wfu (b_node p f z).
Proof. intros Hf H. apply with_path_wfu; auto. intros x Hx. apply kc_wfu; auto. Qed.

Lemma zf_build_wfu zf : wfu (fst (zf_build zf)).
Proof.
  rewrite zf_build_unfold.
  assert (G1 : forall G C acc, wfu (fst acc) -> wfu (fst (fold_left (cut_step G) C acc))).
  { induction C as [|[o [ns ds]] C IH]; intros [z ok] Hz; simpl in *; auto. apply IH.
    destruct ns as [ns|]; simpl; auto. destruct o; simpl; auto. apply b_node_wfu; auto. apply kc_set_special. }
  assert (G2 : forall A acc, wfu (fst acc) -> wfu (fst (fold_left cname_step A acc))).
  { induction A as [|[o c] A IH]; intros [z ok] Hz; simpl in *; auto. apply IH.
    destruct o; simpl; auto. apply b_node_wfu; auto. apply kc_set_special. }
  destruct (fold_left cname_step _ _) as [z ok] eqn:E. apply (normal_steps_same _ z ok).
  change z with (fst (z, ok)). rewrite <- E. apply G2. apply G1. apply wfu_empty.
Qed.

Definition in_state (f : name -> option special) (t : node) : Prop := wfu t /\ forall p, cspecial_at t p = f p.

Lemma same_state_in f z z' : same_state z z' -> in_state f z -> in_state f z'.
Proof. intros [H1 H2] [H3 H4]. split; [auto|]. intro p. rewrite H2. apply H4. Qed.

(* operations on RRsets and versions only *)
Definition rrset_op (o : op) : bool :=
  match o with
  | OUNew | OUAdd _ | OUDel _ | OUBatchDel _ | OUBatchAdd _ _ | OUFin _ _ | OUDrop
  | OWOpen | OWRr _ _ | OWRm _ _ | OWCommit | OWDrop => true
  | _ => false
  end.

Lemma rrset_op_history o : rrset_op o = true -> is_history o = true.
Proof. destruct o; simpl; auto. Qed.

Section RunInvariant.
Variable f : name -> option special.
(* what is asked of the builder's tree and of the zone file as long as the zone is not built *)
Variable pending : node -> option zonefile -> Prop.
Hypothesis pending_builder : forall b o, pending b o -> in_state f b.
Hypothesis pending_zf : forall b zf, pending b (Some zf) -> in_state f (fst (zf_build zf)).

Record sinv (s : state) : Prop := mkSinv {
  si_comm : in_state f (s_comm s);
  si_work : forall w, s_work s = Some w -> in_state f w;
  si_pending : s_built s = true \/ pending (s_builder s) (s_zf s) }.

Lemma sinv_finish i s : sinv s -> sinv (finish_build i s).
Proof.
  intros [Hc Hw Hp]. unfold finish_build. destruct (s_built s) eqn:Eb; [constructor; auto|].
  destruct Hp as [Hp|Hp]; [discriminate|]. pose proof (pending_builder _ _ Hp) as Hbu.
  destruct (s_zf s) as [zf|].
  - pose proof (pending_zf _ _ Hp) as Hz. destruct (zf_build zf) as [z ok].
    destruct ok; constructor; simpl; auto; intros; discriminate.
  - constructor; simpl; auto; intros; discriminate.
Qed.

Lemma sinv_on_work g s : (forall z, in_state f z -> in_state f (g z)) -> sinv s -> sinv (on_work g s).
Proof.
  intros Hg Hs. unfold on_work. destruct (s_work s) as [w|] eqn:E; [|exact Hs].
  destruct Hs as [Hc Hw Hp]. constructor; simpl; auto.
  intros w' H. inversion H; subst. apply Hg. apply Hw. exact E.
Qed.
Lemma sinv_commit b s : sinv s -> sinv (commit b s).
Proof.
  intros Hs. unfold commit. destruct (s_work s) as [w|] eqn:E; [|exact Hs].
  destruct Hs as [Hc Hw Hp]. constructor; simpl; auto. destruct b; intros w' H; inversion H; subst; auto.
Qed.
Lemma sinv_rollback s : sinv s -> sinv (rollback s).
Proof.
  intros Hs. unfold rollback. destruct (s_work s) as [w|] eqn:E; [|exact Hs].
  destruct Hs as [Hc Hw Hp]. constructor; simpl; auto.
  - exact (same_state_in f _ _ (graft_same w (s_comm s)) Hc).
  - intros; discriminate.
Qed.
Lemma sinv_misc s : sinv s ->
  (forall i e, sinv (add_err i e s)) /\ (forall b, sinv (set_fin b s)) /\ sinv (set_work (Some (s_comm s)) s).
Proof.
  intros [Hc Hw Hp]. split; [|split].
  - intros i e. constructor; simpl; auto.
  - intros b. constructor; simpl; auto.
  - constructor; simpl; auto. intros w H. inversion H; subst. exact Hc.
Qed.

Lemma sinv_step i s o : rrset_op o = true -> sinv s -> sinv (step i s o).
Proof.
  intros Ho Hs. unfold step. rewrite (rrset_op_history o Ho).
  apply (sinv_finish i) in Hs. set (s1 := finish_build i s) in *. clearbody s1.
  destruct (sinv_misc s1 Hs) as (Herr & Hfin & Hopen).
  assert (Hon : forall g, (forall z, same_state z (g z)) -> sinv (on_work g s1)).
  { intros g Hg. apply sinv_on_work; [|exact Hs]. intros z. apply same_state_in. apply Hg. }
  destruct o; try discriminate.
  - destruct (sinv_misc _ Hopen) as (_ & Hf & _). apply Hf.
  - destruct (s_fin s1); [apply Herr|]. apply Hon. intro z. apply u_add_same.
  - destruct (s_fin s1); [apply Herr|]. apply Hon. intro z. apply u_del_same.
  - destruct (s_fin s1); [apply Herr|]. destruct (s_work s1); [|exact Hs].
    destruct (if batch_delete_checks_serial then soa_serial_matches d n else true); [apply sinv_commit; exact Hs|apply Herr].
  - destruct (s_fin s1); [apply Herr|]. apply Hon. intro z. apply u_soa_same.
  - destruct (s_fin s1); [apply Herr|].
    destruct (sinv_misc _ (sinv_commit false _ (Hon _ (u_soa_same ttl d)))) as (_ & Hf & _). apply Hf.
  - destruct (sinv_misc _ (sinv_rollback s1 Hs)) as (_ & Hf & _). apply Hf.
  - exact Hopen.
  - apply Hon. intro z. apply w_update_rrset_same.
  - apply Hon. intro z. apply w_remove_rrset_same.
  - apply sinv_commit. exact Hs.
  - apply sinv_rollback. exact Hs.
Qed.

Lemma sinv_run (ok : op -> bool) : (forall i s o, ok o = true -> sinv s -> sinv (step i s o)) ->
  forall ops i s, forallb ok ops = true -> sinv s -> sinv (run_from i s ops).
Proof.
  intros Hstep. induction ops as [|o ops IH]; intros i s Hp Hs; simpl.
  - apply sinv_rollback. apply sinv_finish. exact Hs.
  - simpl in Hp. apply andb_true_iff in Hp. destruct Hp as [Ho Hp]. apply IH; auto.
Qed.
End RunInvariant.

Definition no_state : name -> option special := fun _ => None.

Lemma wfp_in_state t : wfp t <-> in_state no_state t.
Proof.
  split.
  - intro H. split; [apply wfp_wfu; exact H|]. intro p. apply wfp_cspecial. exact H.
  - intros [H1 H2]. apply wfp_of_state; assumption.
Qed.

Definition zf_plain (zf : zonefile) : Prop := zf_cuts zf = [] /\ zf_cnames zf = [].

Lemma zf_insert_plain g zf zf' : zf_plain zf -> special_type (g_owner g) (g_type g) = false ->
  zf_insert g zf = Ok zf' -> zf_plain zf'.
Proof.
  intros [Hc Ha] Hs. unfold zf_insert, special_type in *.
  apply orb_false_iff in Hs. destruct Hs as [Hs1 Hs2]. rewrite Hs1, Hs2. rewrite Hc, Ha. simpl.
  destruct (is_glue (g_type g)); intro H; inversion H; subst; split; reflexivity.
Qed.

Lemma zf_build_plain zf : zf_plain zf -> in_state no_state (fst (zf_build zf)).
Proof.
  intros [Hc Ha]. rewrite zf_build_unfold, Hc, Ha. simpl.
  apply (same_state_in _ _ _ (normal_steps_same _ _ _)). apply wfp_in_state. apply wfp_unfold. repeat split; constructor.
Qed.

Definition plain_pending (b : node) (o : option zonefile) : Prop :=
  in_state no_state b /\ forall zf, o = Some zf -> zf_plain zf.
Definition pinv : state -> Prop := sinv no_state plain_pending.

Lemma plain_pending_builder b o : plain_pending b o -> in_state no_state b.
Proof. intros [H _]. exact H. Qed.
Lemma plain_pending_zf b zf : plain_pending b (Some zf) -> in_state no_state (fst (zf_build zf)).
Proof. intros [_ H]. apply zf_build_plain. apply H. reflexivity. Qed.

(* clearing the state at some names [b] leaves the empty state empty *)
Lemma pinv_clear g (b : name -> bool) i s :
  (forall z, (wfu z -> wfu (g z)) /\ forall p, cspecial_at (g z) p = if b p then None else cspecial_at z p) ->
  pinv s -> pinv (on_work g (finish_build i s)).
Proof.
  intros Hg Hs. apply sinv_on_work; [|apply (sinv_finish _ _ plain_pending_builder plain_pending_zf); exact Hs].
  intros z [H1 H2]. destruct (Hg z) as [G1 G2]. split; [auto|].
  intro p. rewrite G2. destruct (b p); [reflexivity|apply H2].
Qed.

Lemma pinv_step i s o : plain_op o = true -> pinv s -> pinv (step i s o).
Proof.
  intros Ho Hs. destruct (rrset_op o) eqn:Er.
  { apply (sinv_step _ _ plain_pending_builder plain_pending_zf); assumption. }
  destruct o; try discriminate; unfold step; cbn [is_history].
  - destruct Hs as [Hc Hw Hp]. constructor; simpl; auto.
    destruct Hp as [Hp|[Hb Hz]]; [left; exact Hp|right]. split; [|exact Hz].
    exact (same_state_in _ _ _ (insert_rrset_same p r _) Hb).
  - destruct Hs as [Hc Hw Hp]. apply negb_true_iff in Ho.
    assert (Hzf : forall b, plain_pending b (s_zf s) -> zf_plain (match s_zf s with Some zf => zf | None => zf_empty end)).
    { intros b [_ Hz]. destruct (s_zf s); [apply Hz; reflexivity|split; reflexivity]. }
    destruct (zf_insert g _) eqn:Ei; [| |constructor; auto..].
    + constructor; simpl; auto. destruct Hp as [Hp|Hp]; [left; exact Hp|right]. split; [apply Hp|].
      intros zf H. inversion H; subst. eapply zf_insert_plain; eauto.
    + constructor; simpl; auto. destruct Hp as [Hp|Hp]; [left; exact Hp|right]. split; [apply Hp|].
      intros zf H. inversion H; subst. eauto.
  - destruct (s_fin (finish_build i s)) eqn:Ef.
    + apply sinv_misc. apply (sinv_finish _ _ plain_pending_builder plain_pending_zf). exact Hs.
    + exact (pinv_clear _ (is_prefix []) i s (w_remove_all_state []) Hs).
  - exact (pinv_clear _ (fun p' => negb (is_apex p) && name_eqb p' p) i s (w_make_regular_state p) Hs).
  - exact (pinv_clear _ (is_prefix p) i s (w_remove_all_state p) Hs).
Qed.

Theorem plain_history_tree h : no_special_records h = true -> wfp (run h).
Proof.
  intro H. apply wfp_in_state. apply (si_comm no_state plain_pending).
  apply (sinv_run _ _ plain_pending_builder plain_pending_zf plain_op pinv_step); [exact H|].
  assert (He : in_state no_state empty_node) by (apply wfp_in_state, wfp_unfold; repeat split; constructor).
  constructor; simpl; [exact He|discriminate|right; split; [exact He|discriminate]].
Qed.

(* History independence without delegation / alias records: two histories --
   e.g. an arbitrary update history and the direct build -- that end with the
   same RRsets at the same names answer every query identically. *)
Theorem plain_history_independent h h' :
  no_special_records h = true -> no_special_records h' = true ->
  (forall p, rrsets_at (run h) p = rrsets_at (run h') p) ->
  forall q qt, query (run h) q qt = query (run h') q qt.
Proof.
  intros H H' HR. apply plain_same_answers; auto; apply plain_history_tree; assumption.
Qed.

Definition zone_file_only (zs : list op) : bool := forallb (fun o => match o with OZRec _ => true | _ => false end) zs.

Lemma zone_file_only_map rs : zone_file_only (map OZRec rs) = true.
Proof. induction rs; simpl; auto. Qed.

Lemma zone_file_records zs : zone_file_only zs = true -> exists rs, zs = map OZRec rs.
Proof.
  induction zs as [|o zs IH]; intro H; [exists []; reflexivity|].
  simpl in H. apply andb_true_iff in H. destruct H as [Ho H]. destruct o; try discriminate.
  destruct (IH H) as [rs ->]. exists (g :: rs). reflexivity.
Qed.

Definition zf_of_state (s : state) : zonefile := match s_zf s with Some zf => zf | None => zf_empty end.
(* the tree the zone file publishes (the builder's tree stays empty if the conversion fails) *)
Definition zf_tree (zf : zonefile) : node := if snd (zf_build zf) then fst (zf_build zf) else empty_node.

Lemma zf_tree_wfu zf : wfu (zf_tree zf).
Proof. unfold zf_tree. destruct (snd (zf_build zf)); [apply zf_build_wfu|apply wfu_empty]. Qed.

Definition loading (s : state) : Prop :=
  s_built s = false /\ s_work s = None /\ s_fin s = false /\ s_builder s = empty_node.

Lemma load_records : forall rs i s, loading s ->
  exists j s', loading s' /\
    zf_of_state s' = fold_left (fun zf g => match zf_insert g zf with Ok zf' => zf' | _ => zf end) rs (zf_of_state s) /\
    forall us, run_from i s (map OZRec rs ++ us) = run_from j s' us.
Proof.
  induction rs as [|g rs IH]; intros i s Hs; [exists i, s; auto|].
  assert (H1 : loading (step i s (OZRec g)) /\
               zf_of_state (step i s (OZRec g)) = match zf_insert g (zf_of_state s) with Ok zf' => zf' | _ => zf_of_state s end).
  { destruct Hs as (Hb & Hw & Hf & Hbu). unfold step, zf_of_state, loading. cbn [is_history].
    destruct (zf_insert g _); simpl; auto. }
  destruct H1 as [Hl Hz]. destruct (IH (i + 1) _ Hl) as (j & s' & Hl' & Hz' & Hr).
  exists j, s'. split; [exact Hl'|]. split; [rewrite Hz', Hz; reflexivity|]. intro us. apply Hr.
Qed.

Lemma finish_built i s : s_built s = true -> finish_build i s = s.
Proof. intro H. unfold finish_build. rewrite H. reflexivity. Qed.

Lemma finish_idem i s : finish_build i (finish_build i s) = finish_build i s.
Proof.
  unfold finish_build at 2 3. destruct (s_built s) eqn:E; [apply finish_built; exact E|].
  destruct (s_zf s) as [zf|]; [destruct (zf_build zf) as [z ok]; destruct ok|]; apply finish_built; reflexivity.
Qed.

Lemma run_from_finish us i s : forallb is_history us = true -> run_from i (finish_build i s) us = run_from i s us.
Proof.
  destruct us as [|o us]; intro H; simpl.
  - rewrite finish_idem. reflexivity.
  - simpl in H. apply andb_true_iff in H. destruct H as [Ho _]. unfold step. rewrite Ho, finish_idem. reflexivity.
Qed.

Lemma after_zone_file rs us : forallb is_history us = true ->
  exists j sB, s_built sB = true /\ s_work sB = None /\ s_fin sB = false /\
    run (map OZRec rs) = s_comm sB /\ s_comm sB = zf_tree (zf_of_records rs) /\
    run (map OZRec rs ++ us) = s_comm (run_from j sB us).
Proof.
  intro Hu. destruct (load_records rs 0 init_state) as (j & s' & Hl & Hz & Hr); [repeat split|].
  destruct Hl as (Hb & _ & _ & Hbu). exists j, (finish_build j s').
  assert (H : s_built (finish_build j s') = true /\ s_work (finish_build j s') = None /\ s_fin (finish_build j s') = false /\
              s_comm (finish_build j s') = zf_tree (zf_of_records rs)).
  { change (zf_of_state s' = zf_of_records rs) in Hz. rewrite <- Hz. unfold finish_build, zf_of_state, zf_tree. rewrite Hb.
    destruct (s_zf s') as [zf|]; [destruct (zf_build zf) as [z ok]; destruct ok|]; simpl; auto. }
  destruct H as (H1 & H2 & H3 & H4). repeat split; auto; unfold run, run_ops.
  - rewrite <- (app_nil_r (map OZRec rs)), Hr. simpl. unfold rollback. rewrite H2. reflexivity.
  - rewrite Hr, <- (run_from_finish us j s' Hu). reflexivity.
Qed.

Lemma run_zone_file rs : run (map OZRec rs) = zf_tree (zf_of_records rs).
Proof. destruct (after_zone_file rs [] eq_refl) as (j & sB & _ & _ & _ & H & H' & _). rewrite H. exact H'. Qed.

Definition safe_op (o : op) : bool :=
  match o with
  | OUNew | OUBatchDel _ | OUBatchAdd _ _ | OUFin _ _ => true
  | OUAdd g | OUDel g => negb (special_type (g_owner g) (g_type g))
  | OUDrop | OWOpen | OWCommit | OWDrop => true
  | OWRr p r => negb (special_type p (rs_type r))
  | OWRm p t => negb (special_type p t)
  | _ => false
  end.

Lemma safe_rrset_op o : safe_op o = true -> rrset_op o = true.
Proof. destruct o; simpl; auto. Qed.

(* safe updater operations (including a dropped updater, handled by the final
   rollback) leave the delegation / alias state exactly as the zone file built it *)
Theorem safe_history_state zs us : zone_file_only zs = true -> forallb safe_op us = true ->
  wfu (run (zs ++ us)) /\ wfu (run zs) /\ forall p, cspecial_at (run (zs ++ us)) p = cspecial_at (run zs) p.
Proof.
  intros Hz Hu. destruct (zone_file_records zs Hz) as [rs ->].
  destruct (after_zone_file rs us) as (j & sB & Hb & Hw & _ & H0 & Hc & H1).
  { apply (forallb_impl safe_op); [|exact Hu]. intros o Ho. apply rrset_op_history, safe_rrset_op, Ho. }
  rewrite H0, H1. assert (Hwf : wfu (s_comm sB)) by (rewrite Hc; apply zf_tree_wfu).
  set (nothing := fun (_ : node) (_ : option zonefile) => False).
  assert (Hn : forall b o, nothing b o -> in_state (cspecial_at (s_comm sB)) b) by (intros b o []).
  assert (Hn' : forall b zf, nothing b (Some zf) -> in_state (cspecial_at (s_comm sB)) (fst (zf_build zf))) by (intros b zf []).
  assert (Hs : sinv (cspecial_at (s_comm sB)) nothing sB).
  { constructor; [split; [exact Hwf|reflexivity]|rewrite Hw; discriminate|left; exact Hb]. }
  assert (Hrun : sinv (cspecial_at (s_comm sB)) nothing (run_from j sB us)).
  { apply (sinv_run _ _ Hn Hn' safe_op); auto.
    intros i s o Ho. apply sinv_step; [exact Hn|exact Hn'|apply safe_rrset_op; exact Ho]. }
  destruct Hrun as [[Hc1 Hc2] _ _]. split; [exact Hc1|]. split; [exact Hwf|exact Hc2].
Qed.

(* History independence with delegations: a zone-file zone updated by safe
   operations answers like any tree [t] with unique labels that holds the same
   RRsets and has the delegation / alias state of the original zone file -- e.g.
   the zone rebuilt from the final records, when the updates did not touch
   delegation, alias or glue records. *)
Theorem safe_history_independent zs us t : zone_file_only zs = true -> forallb safe_op us = true ->
  wfu t -> (forall p, rrsets_at (run (zs ++ us)) p = rrsets_at t p) ->
  (forall p, cspecial_at (run zs) p = cspecial_at t p) -> cspecial_at t [] = None ->
  forall q qt, query (run (zs ++ us)) q qt = query t q qt.
Proof.
  intros Hz Hu Ht HR HS H0. destruct (safe_history_state zs us Hz Hu) as (Hw & _ & Hc).
  apply same_state_same_answers; auto.
  - intro p. rewrite Hc. apply HS.
  - rewrite Hc, HS. exact H0.
Qed.

Lemma zone_file_wfu rs : wfu (run (map OZRec rs)).
Proof. rewrite run_zone_file. apply zf_tree_wfu. Qed.

(* non-vacuity: a zone with a delegation (glue) and an alias, a record added
   below an empty non-terminal and one deleted, compared with the rebuilt zone *)
Definition zs_ex : list op :=
  [OZRec soa1; OZRec (mkG [lsub] rt_ns 300 (mkRd 0 (Some [lsub; lns]))); OZRec (mkG [lsub; lns] T_A 77 (tok 7));
   OZRec (mkG [lal] rt_cname 200 (mkRd 0 (Some [lfoo]))); OZRec (mkG [lfoo] T_A 101 (tok 4))].
Definition us_ex : list op :=
  [OUNew; OUAdd (mkG [lb; la] T_A 101 (tok 5)); OUDel (mkG [lfoo] T_A 101 (tok 4)); OUFin 60 (tok 1)].
Definition zs_ex' : list op :=
  [OZRec soa1; OZRec (mkG [lsub] rt_ns 300 (mkRd 0 (Some [lsub; lns]))); OZRec (mkG [lsub; lns] T_A 77 (tok 7));
   OZRec (mkG [lal] rt_cname 200 (mkRd 0 (Some [lfoo]))); OZRec (mkG [lb; la] T_A 101 (tok 5))].
Example safe_example :
  zone_file_only zs_ex = true /\ forallb safe_op us_ex = true /\ zone_file_only zs_ex' = true /\
  cspecial_at (run zs_ex) [lsub] = cspecial_at (run zs_ex') [lsub] /\ cspecial_at (run zs_ex) [lsub] <> None /\
  rrsets_at (run (zs_ex ++ us_ex)) [lb; la] = rrsets_at (run zs_ex') [lb; la] /\
  query (run (zs_ex ++ us_ex)) [lsub; lb] T_A = query (run zs_ex') [lsub; lb] T_A /\
  query (run (zs_ex ++ us_ex)) [lfoo] T_A = query (run zs_ex') [lfoo] T_A /\
  query (run (zs_ex ++ us_ex)) [lb] T_A = query (run zs_ex') [lb] T_A.
Proof. repeat split; try (vm_compute; reflexivity). vm_compute. discriminate. Qed.

(* purely syntactic: two safe update histories of the same zone file that end
   with the same RRsets answer identically (whatever nodes, markers and
   intermediate versions each of them produced) *)
Theorem safe_histories_confluent zs us us' : zone_file_only zs = true ->
  forallb safe_op us = true -> forallb safe_op us' = true ->
  (forall p, rrsets_at (run (zs ++ us)) p = rrsets_at (run (zs ++ us')) p) ->
  cspecial_at (run zs) [] = None ->
  forall q qt, query (run (zs ++ us)) q qt = query (run (zs ++ us')) q qt.
Proof.
  intros Hz Hu Hu' HR H0.
  destruct (safe_history_state zs us' Hz Hu') as (Hw' & _ & Hc').
  apply (safe_history_independent zs us (run (zs ++ us')) Hz Hu Hw' HR).
  - intro p. symmetry. apply Hc'.
  - rewrite Hc'. exact H0.
Qed.

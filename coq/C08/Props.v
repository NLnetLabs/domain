(* C08 -- property theorems only.  Proofs live in C08/Proofs*.v. *)
From Coq Require Import NArith List Bool Permutation.
From DV Require Import Base.Outcome C08.Gen C08.Model C08.Spec C08.ProofsQuery C08.ProofsBuild C08.ProofsHist C08.ProofsGood C08.ProofsPlain C08.ProofsGroup C08.ProofsSafe C08.ProofsTree C08.ProofsSafe2 C08.ToMessage C08.ProofsOrder C08.ProofsSafe3 C08.ProofsNeg.
From DV Require C02.Model C02.ProofsTotal.
Import ListNotations.
Local Open Scope N_scope.

Theorem C08_query_is_rfc_lookup : forall z q qt, clean (n_special z) = None ->
  query z q qt = finish (get_soa z) (vspec (lview z) q qt).
Proof. exact query_is_vspec. Qed.
Print Assumptions C08_query_is_rfc_lookup.

Theorem C08_build_answers_spec : forall zf, wf_zone zf = true ->
  forall q qt, query (fst (zf_build zf)) q qt = spec zf q qt.
Proof. exact build_answers_spec. Qed.
Print Assumptions C08_build_answers_spec.

(* zones given as flat record lists: Zonefile::insert groups the records into RRsets *)
Theorem C08_grouping : forall rs, accepted rs = true ->
  forall o t, zf_rrset (zf_of_records rs) o t = group rs o t.
Proof. exact grouping. Qed.
Print Assumptions C08_grouping.

Theorem C08_build_answers_spec_records : forall rs, accepted rs = true -> wf_zone (zf_of_records rs) = true ->
  forall q qt, query (build rs) q qt = spec (zf_of_records rs) q qt /\
               (forall o t, zf_rrset (zf_of_records rs) o t = group rs o t).
Proof. exact build_answers_spec_records. Qed.
Print Assumptions C08_build_answers_spec_records.

Theorem C08_accepted_records_build : forall rs, accepted rs = true ->
  wf_zone (zf_of_records rs) = buildable (zf_of_records rs) /\
  snd (zf_build (zf_of_records rs)) = buildable (zf_of_records rs) /\
  (buildable (zf_of_records rs) = true -> forall q qt, query (build rs) q qt = spec (zf_of_records rs) q qt).
Proof. exact accepted_records_build. Qed.
Print Assumptions C08_accepted_records_build.

(* ZoneTree: the set of zones *)
Theorem C08_zonetree_find_closest : forall q n, zt_find n q = last_some (map (zt_get n) (prefixes q)).
Proof. exact zt_find_closest. Qed.
Print Assumptions C08_zonetree_find_closest.

Theorem C08_zonetree_insert_spec : forall p z n,
  match zt_insert p z n with
  | Ok n' => zt_get n p = None /\ forall p', zt_get n' p' = if name_eqb p' p then Some z else zt_get n p'
  | Err e => e = E_ZoneExists /\ zt_get n p <> None
  | _ => False
  end.
Proof. exact zt_insert_spec. Qed.
Print Assumptions C08_zonetree_insert_spec.

Theorem C08_zonetree_remove_spec_if_recursive : zremove_recursive = true -> forall p n,
  match zt_remove p n with
  | Ok n' => zt_get n p <> None /\ forall p', zt_get n' p' = if name_eqb p' p then None else zt_get n p'
  | Err e => e = E_ZoneDoesNotExist /\ zt_get n p = None
  | _ => False
  end.
Proof. exact zt_remove_spec_if_recursive. Qed.
Print Assumptions C08_zonetree_remove_spec_if_recursive.

Theorem C08_zonetree_remove_zone_not_recursive_refuted : zremove_recursive = false ->
  exists t p p', zt_get t p = None /\ zt_get t p' <> None /\
    match zt_remove p t with Ok t' => zt_get t' p' = None | _ => False end.
Proof. exact zt_remove_refuted_if_not_recursive. Qed.
Print Assumptions C08_zonetree_remove_zone_not_recursive_refuted.

Theorem C08_any_answer_is_member : forall z q r, clean (n_special z) = None ->
  a_content (query z q rt_any) = AData r -> exists p x, node_at z p = Some x /\ In r (n_rrsets x).
Proof. exact any_answer_is_member. Qed.
Print Assumptions C08_any_answer_is_member.

Theorem C08_build_view : forall zf, wf_zone zf = true ->
  snd (zf_build zf) = true /\ (forall p, view_of (fst (zf_build zf)) p = flat_view zf p) /\
  (forall p, lview (fst (zf_build zf)) p = flat_view zf p).
Proof. intros zf H. destruct (build_view zf H). repeat split; auto. exact (build_lview zf H). Qed.
Print Assumptions C08_build_view.

Theorem C08_build_order_independent : forall N N' C C' A A',
  Permutation N N' -> Permutation C C' -> Permutation A A' ->
  wf_zone (mkZf N C A) = true -> wf_zone (mkZf N' C' A') = true ->
  forall q qt, query (fst (zf_build (mkZf N C A))) q qt = query (fst (zf_build (mkZf N' C' A'))) q qt.
Proof. exact build_order_independent. Qed.
Print Assumptions C08_build_order_independent.

Theorem C08_answers_depend_on_view_only : forall t zf, wf_zone zf = true -> represents t zf ->
  forall q qt, query t q qt = spec zf q qt /\ query t q qt = query (fst (zf_build zf)) q qt.
Proof. exact answers_depend_on_view_only. Qed.
Print Assumptions C08_answers_depend_on_view_only.

Theorem C08_history_independent : forall h zf, wf_zone zf = true -> represents (run h) zf ->
  forall q qt, query (run h) q qt = query (fst (zf_build zf)) q qt /\ query (run h) q qt = spec zf q qt.
Proof. exact history_independent. Qed.
Print Assumptions C08_history_independent.

(* histories without NS / DS below the apex and without CNAME: builder, zone file,
   ZoneUpdater (incl. DeleteAllRecords, dropped updaters), write interface *)
Theorem C08_plain_history_tree : forall h, no_special_records h = true -> wfp (run h).
Proof. exact plain_history_tree. Qed.
Print Assumptions C08_plain_history_tree.

Theorem C08_plain_same_answers : forall t t', wfp t -> wfp t' ->
  (forall p, rrsets_at t p = rrsets_at t' p) -> forall q qt, query t q qt = query t' q qt.
Proof. exact plain_same_answers. Qed.
Print Assumptions C08_plain_same_answers.

Theorem C08_plain_history_independent : forall h h',
  no_special_records h = true -> no_special_records h' = true ->
  (forall p, rrsets_at (run h) p = rrsets_at (run h') p) ->
  forall q qt, query (run h) q qt = query (run h') q qt.
Proof. exact plain_history_independent. Qed.
Print Assumptions C08_plain_history_independent.

(* zones with delegations / aliases built from a zone file, then RRset-level updater operations *)
Theorem C08_same_state_same_answers : forall t t', wfu t -> wfu t' ->
  (forall p, rrsets_at t p = rrsets_at t' p) -> (forall p, cspecial_at t p = cspecial_at t' p) ->
  cspecial_at t [] = None -> forall q qt, query t q qt = query t' q qt.
Proof. exact same_state_same_answers. Qed.
Print Assumptions C08_same_state_same_answers.

Theorem C08_safe_history_state : forall zs us, zone_file_only zs = true -> forallb safe_op us = true ->
  wfu (run (zs ++ us)) /\ wfu (run zs) /\ forall p, cspecial_at (run (zs ++ us)) p = cspecial_at (run zs) p.
Proof. exact safe_history_state. Qed.
Print Assumptions C08_safe_history_state.

Theorem C08_safe_history_independent : forall zs us t, zone_file_only zs = true -> forallb safe_op us = true ->
  wfu t -> (forall p, rrsets_at (run (zs ++ us)) p = rrsets_at t p) ->
  (forall p, cspecial_at (run zs) p = cspecial_at t p) -> cspecial_at t [] = None ->
  forall q qt, query (run (zs ++ us)) q qt = query t q qt.
Proof. exact safe_history_independent. Qed.
Print Assumptions C08_safe_history_independent.

Theorem C08_safe_histories_confluent : forall zs us us', zone_file_only zs = true ->
  forallb safe_op us = true -> forallb safe_op us' = true ->
  (forall p, rrsets_at (run (zs ++ us)) p = rrsets_at (run (zs ++ us')) p) ->
  cspecial_at (run zs) [] = None ->
  forall q qt, query (run (zs ++ us)) q qt = query (run (zs ++ us')) q qt.
Proof. exact safe_histories_confluent. Qed.
Print Assumptions C08_safe_histories_confluent.

(* operations that change the delegation / alias state: DeleteAllRecords, remove_all,
   make_zone_cut, make_cname, make_regular; the state after a history is computed from the operations *)
Theorem C08_ext_safe_history_state : forall zs us, zone_file_only zs = true -> forallb ext_safe_op us = true ->
  wfu (run (zs ++ us)) /\ forall p, cspecial_at (run (zs ++ us)) p = sp_final us (cspecial_at (run zs)) p.
Proof. exact ext_safe_history_state. Qed.
Print Assumptions C08_ext_safe_history_state.

Theorem C08_zone_file_state : forall rs, accepted rs = true -> buildable (zf_of_records rs) = true ->
  forall p, cspecial_at (run (map OZRec rs)) p = zf_state (zf_of_records rs) p.
Proof. exact zone_file_state. Qed.
Print Assumptions C08_zone_file_state.

Theorem C08_ext_safe_history_independent : forall rs us t,
  accepted rs = true -> buildable (zf_of_records rs) = true -> forallb ext_safe_op us = true ->
  wfu t -> (forall p, rrsets_at (run (map OZRec rs ++ us)) p = rrsets_at t p) ->
  (forall p, cspecial_at t p = sp_final us (zf_state (zf_of_records rs)) p) ->
  cspecial_at t [] = None ->
  forall q qt, query (run (map OZRec rs ++ us)) q qt = query t q qt.
Proof. exact ext_safe_history_independent. Qed.
Print Assumptions C08_ext_safe_history_independent.

Theorem C08_history_vs_rebuilt : forall rs us rs',
  accepted rs = true -> buildable (zf_of_records rs) = true -> forallb ext_safe_op us = true ->
  accepted rs' = true -> buildable (zf_of_records rs') = true ->
  (forall p, rrsets_at (run (map OZRec rs ++ us)) p = rrsets_at (run (map OZRec rs')) p) ->
  (forall p, zf_state (zf_of_records rs') p = sp_final us (zf_state (zf_of_records rs)) p) ->
  forall q qt, query (run (map OZRec rs ++ us)) q qt = query (run (map OZRec rs')) q qt.
Proof. exact history_vs_rebuilt. Qed.
Print Assumptions C08_history_vs_rebuilt.

(* premises on record lists only *)
Theorem C08_entry_order : forall rs, accepted rs = true -> forall o, entry_types (zf_of_records rs) o = ntypes rs o.
Proof. exact entry_order. Qed.
Print Assumptions C08_entry_order.

Theorem C08_zf_state_records : forall rs, accepted rs = true -> buildable (zf_of_records rs) = true ->
  forall p, zf_state (zf_of_records rs) p = rec_state rs p.
Proof. exact zf_state_records. Qed.
Print Assumptions C08_zf_state_records.

Theorem C08_history_vs_rebuilt_records : forall rs us rs',
  accepted rs = true -> buildable (zf_of_records rs) = true -> forallb ext_safe_op us = true ->
  accepted rs' = true -> buildable (zf_of_records rs') = true ->
  (forall p, rrsets_at (run (map OZRec rs ++ us)) p = rrsets_at (run (map OZRec rs')) p) ->
  (forall p, rec_state rs' p = sp_final us (rec_state rs) p) ->
  forall q qt, query (run (map OZRec rs ++ us)) q qt = query (run (map OZRec rs')) q qt.
Proof. exact history_vs_rebuilt_records. Qed.
Print Assumptions C08_history_vs_rebuilt_records.

(* BeginBatchDelete inside histories that change the delegation / alias state: the state machine also
   tracks the serial of the published and of the working tree, on which the commit depends *)
Theorem C08_safe3_history_state : forall zs us, zone_file_only zs = true -> forallb safe3_op us = true ->
  wfu (run (zs ++ us)) /\
  forall p, cspecial_at (run (zs ++ us)) p = sp_final3 us (cspecial_at (run zs)) (soa_of (run zs)) p.
Proof. exact safe3_history_state. Qed.
Print Assumptions C08_safe3_history_state.

Theorem C08_history_vs_rebuilt_records3 : forall rs us rs',
  accepted rs = true -> buildable (zf_of_records rs) = true -> forallb safe3_op us = true ->
  accepted rs' = true -> buildable (zf_of_records rs') = true ->
  (forall p, rrsets_at (run (map OZRec rs ++ us)) p = rrsets_at (run (map OZRec rs')) p) ->
  (forall p, rec_state rs' p = sp_final3 us (rec_state rs) (rec_soa rs) p) ->
  forall q qt, query (run (map OZRec rs ++ us)) q qt = query (run (map OZRec rs')) q qt.
Proof. exact history_vs_rebuilt_records3. Qed.
Print Assumptions C08_history_vs_rebuilt_records3.

Theorem C08_zonetree_classes_isolated : forall c p z r r' c' q, c' <> c ->
  (zr_insert c p z r = Ok r' \/ zr_remove c p r = Ok r') ->
  zr_find c' q r' = zr_find c' q r /\ zr_getz c' q r' = zr_getz c' q r.
Proof. exact zonetree_classes_isolated. Qed.
Print Assumptions C08_zonetree_classes_isolated.

Theorem C08_zonetree_find_in_class : forall c q r,
  zr_find c q r = match zr_get c r with Some n => last_some (map (zt_get n) (prefixes q)) | None => None end.
Proof. exact zonetree_find_in_class. Qed.
Print Assumptions C08_zonetree_find_in_class.

(* to_message when a record does not fit: the unwrapping shape panics, the truncating shape keeps the prefix and sets TC *)
Theorem C08_to_message_panics_when_answer_does_not_fit_refuted :
  to_message_truncates = false -> c08_tomsg (Some 512) false ex_qname 1 40 4 = None.
Proof. exact to_message_unwrap_panics. Qed.
Print Assumptions C08_to_message_panics_when_answer_does_not_fit_refuted.

Theorem C08_to_message_truncating_flags : to_message_truncates = true ->
  c08_tomsg (Some 512) false ex_qname 1 40 4 = Some (15, true) /\ c08_tomsg None false ex_qname 1 40 4 = Some (40, false).
Proof. exact to_message_truncating_flags. Qed.
Print Assumptions C08_to_message_truncating_flags.

Theorem C08_referral_carries_glue : forall zf q qt p c, wf_zone zf = true ->
  find_cut (flat_view zf) q = Some (p, c) -> (name_eqb p q && (qt =? rt_ds)) = false ->
  exists ns ds, alookup p (zf_cuts zf) = Some (Some ns, ds) /\
    let a := query (fst (zf_build zf)) q qt in
    a_rcode a = rc_noerror /\ a_aa a = false /\ a_content a = ANoData /\
    a_auth a = Some (mkAuth p None (Some ns) ds) /\
    forall g, In g (a_addl a) <-> is_glue_of (zf_normal zf) ns g.
Proof. exact referral_carries_glue. Qed.
Print Assumptions C08_referral_carries_glue.

Theorem C08_known_classes_break_representation : forall t zf p x, node_at t p = Some x ->
  (is_apex p || node_exists x = true -> clean (n_special x) <> i_special (info_at_g (zf_normal zf) zf p) -> ~ represents t zf) /\
  (node_exists x = true -> exists_name zf p = false -> ~ represents t zf).
Proof.
  intros t zf p x H. split.
  - exact (special_mismatch_not_represented t zf p x H).
  - exact (surviving_name_not_represented t zf p x H).
Qed.
Print Assumptions C08_known_classes_break_representation.

Theorem C08_updater_ns_not_cut_refuted :
  exists h q qt, a_aa (query (run h) q qt) = true /\
                 a_aa (query (build (content h)) q qt) = false /\
                 a_addl (query (build (content h)) q qt) <> [] /\ ~ history_ok h q qt.
Proof. exact updater_ns_not_cut_refuted. Qed.
Print Assumptions C08_updater_ns_not_cut_refuted.

Theorem C08_updater_cname_not_special_refuted :
  exists h q qt, a_content (query (run h) q qt) = ANoData /\
                 (exists c, a_content (query (build (content h)) q qt) = ACname c) /\ ~ history_ok h q qt.
Proof. exact updater_cname_not_special_refuted. Qed.
Print Assumptions C08_updater_cname_not_special_refuted.

Theorem C08_special_survives_delete_refuted :
  exists h q qt, (exists c, a_content (query (run h) q qt) = ACname c) /\
                 a_rcode (query (build (content h)) q qt) = rc_nxdomain /\ ~ history_ok h q qt.
Proof. exact special_survives_delete_refuted. Qed.
Print Assumptions C08_special_survives_delete_refuted.

(* Answer::to_message over C02's message-builder model: if the pushed items are well formed and no
   push fails (each is unwrapped), the octets parse back to exactly the Answer's sections, in order *)
Theorem C08_to_message_parses_to_answer :
  forall (enc_name : name -> DV.Base.Names.name) (enc_rdata : rtype -> rdata -> list C02.Model.ritem) (prefixed : rtype -> bool)
         (qname : DV.Base.Names.name) (qtype qclass rid ropcode : N) (rrd : bool) (glue_class : N)
         c s0 a s acc ws,
  C02.Model.init c = Some s0 ->
  Forall C02.ProofsTotal.wf_op_sized (to_message_ops enc_name enc_rdata prefixed qname qtype qclass rid ropcode rrd glue_class a) ->
  C02.Model.run_acc c s0 C02.Model.acc0 (to_message_ops enc_name enc_rdata prefixed qname qtype qclass rid ropcode rrd glue_class a) = (s, acc, ws) ->
  no_push_failed ws ->
  exists parsed, C02.Model.rd_message (C02.Model.msg_of s) (intended enc_name enc_rdata prefixed qname qtype qclass glue_class a) = Ok parsed /\
                 C02.Model.acc_eqb parsed (intended enc_name enc_rdata prefixed qname qtype qclass glue_class a) = true.
Proof. exact to_message_parses_to_answer. Qed.
Print Assumptions C08_to_message_parses_to_answer.

(* Negative answers of ANY tree (whatever its history) carry the SOA; only referrals are not authoritative *)
Theorem C08_negative_carries_soa : forall z q qt s, get_soa z = Some s ->
  a_content (query z q qt) = ANoData -> a_aa (query z q qt) = true ->
  a_auth (query z q qt) = Some (mkAuth [] (Some s) None None) /\ a_addl (query z q qt) = [].
Proof. exact negative_carries_soa. Qed.
Print Assumptions C08_negative_carries_soa.

Theorem C08_nxdomain_answer_form : forall z q qt, a_rcode (query z q qt) = rc_nxdomain ->
  a_content (query z q qt) = ANoData /\ a_aa (query z q qt) = true /\ a_addl (query z q qt) = [] /\
  a_auth (query z q qt) = match get_soa z with Some s => Some (mkAuth [] (Some s) None None) | None => None end.
Proof. exact nxdomain_answer_form. Qed.
Print Assumptions C08_nxdomain_answer_form.

Theorem C08_non_authoritative_is_referral : forall z q qt, a_aa (query z q qt) = false ->
  exists c, a_auth (query z q qt) = Some (mkAuth (c_name c) None (Some (c_ns c)) (c_ds c)) /\
            a_addl (query z q qt) = c_glue c /\ a_content (query z q qt) = ANoData /\
            a_rcode (query z q qt) = rc_noerror.
Proof. exact non_authoritative_is_referral. Qed.
Print Assumptions C08_non_authoritative_is_referral.

(* built zones: NODATA for existing names (empty non-terminals included), NXDOMAIN exactly when neither
   the name nor the closest encloser's wildcard exists, wildcard synthesis otherwise *)
Theorem C08_nodata_for_existing_names : forall zf q qt, wf_zone zf = true ->
  find_cut (flat_view zf) q = None -> exists_name zf q = true ->
  alookup q (zf_cuts zf) = None -> alookup q (zf_cnames zf) = None ->
  match alookup q (zf_normal zf) with
  | None => True
  | Some rs => qt <> rt_any /\ get_rrset qt rs = None
  end ->
  query (fst (zf_build zf)) q qt = finish (C08.Spec.soa_of zf) spec_nodata.
Proof. exact nodata_for_existing_names. Qed.
Print Assumptions C08_nodata_for_existing_names.

Theorem C08_nxdomain_iff : forall zf q qt, wf_zone zf = true ->
  (a_rcode (query (fst (zf_build zf)) q qt) = rc_nxdomain <->
   find_cut (flat_view zf) q = None /\ exists_name zf q = false /\
   exists_name zf (closest_encloser (flat_view zf) q ++ [wild_label]) = false).
Proof. exact nxdomain_iff. Qed.
Print Assumptions C08_nxdomain_iff.

Theorem C08_wildcard_synthesis : forall zf q qt, wf_zone zf = true ->
  find_cut (flat_view zf) q = None -> exists_name zf q = false ->
  exists_name zf (closest_encloser (flat_view zf) q ++ [wild_label]) = true ->
  query (fst (zf_build zf)) q qt =
  finish (C08.Spec.soa_of zf) (spec_at (info_at_g (zf_normal zf) zf (closest_encloser (flat_view zf) q ++ [wild_label])) qt) /\
  a_rcode (query (fst (zf_build zf)) q qt) = rc_noerror.
Proof. exact wildcard_synthesis. Qed.
Print Assumptions C08_wildcard_synthesis.

(* ZoneTree::iter_zones lists every zone get_zone finds, in every class *)
Theorem C08_zonetree_get_in_iter : forall c p r z, zr_getz c p r = Some z -> In z (zr_list r).
Proof. exact zonetree_get_in_iter. Qed.
Print Assumptions C08_zonetree_get_in_iter.

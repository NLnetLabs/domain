(* C08 -- the label-by-label descent of read.rs computes the closest-encloser
   lookup [vnode] / [vspec] on the reader's view of the tree ([lview]: existing
   nodes, NXDOMAIN markers ignored), for every tree. *)
From Coq Require Import NArith List Bool.
From DV Require Import Base.Outcome C08.Gen C08.Model C08.Spec.
Import ListNotations.
Local Open Scope N_scope.

(* the NodeAnswer table is the spec's *)
Lemma na_data_spec r : NA_data r = spec_positive r. Proof. reflexivity. Qed.
Lemma na_nodata_spec : NA_no_data = spec_nodata. Proof. reflexivity. Qed.
Lemma na_nx_spec : NA_nx_domain = spec_nxdomain. Proof. reflexivity. Qed.
Lemma na_cname_spec c : NA_cname c = spec_alias c. Proof. reflexivity. Qed.
Lemma na_auth_spec c : NA_authority c = spec_referral c. Proof. reflexivity. Qed.

Lemma query_rrsets_spec rs qt : query_rrsets rs qt = spec_rrsets rs qt.
Proof. reflexivity. Qed.
Lemma query_at_cut_spec c qt : query_at_cut c qt = spec_at_cut c qt.
Proof. reflexivity. Qed.

Lemma here_spec n qt : here_but_not_below n qt = spec_at (cinfo n) qt.
Proof. destruct n as [r s cs]. destruct s as [[c|c|]|]; reflexivity. Qed.

Lemma name_eqb_refl a : name_eqb a a = true.
Proof. induction a; simpl; auto. rewrite N.eqb_refl. auto. Qed.

Lemma name_eqb_eq a b : name_eqb a b = true <-> a = b.
Proof.
  revert b. induction a as [|x a IH]; destruct b as [|y b]; simpl; split; intro H; try congruence; auto.
  - apply andb_true_iff in H. destruct H as [H1 H2]. apply N.eqb_eq in H1. apply IH in H2. congruence.
  - inversion H; subst. rewrite N.eqb_refl. simpl. apply IH. reflexivity.
Qed.

Lemma name_eqb_cons l a b : name_eqb (l :: a) (l :: b) = name_eqb a b.
Proof. simpl. rewrite N.eqb_refl. reflexivity. Qed.

Lemma node_exists_unfold rs sp cs :
  node_exists (Node rs sp cs) =
  negb (rrsets_is_empty rs)
  || match sp with Some (Cut _) => true | Some (Cname _) => true | _ => false end
  || existsb (fun lc => node_exists (snd lc)) cs.
Proof.
  cbn [node_exists]. f_equal. induction cs as [|[l c] cs IH]; simpl; auto. rewrite IH. reflexivity.
Qed.

Lemma dead_child n l d : node_exists n = false -> find_child l (n_children n) = Some d -> node_exists d = false.
Proof.
  destruct n as [rs sp cs]. rewrite node_exists_unfold. intro H.
  apply orb_false_iff in H. destruct H as [_ H]. simpl.
  induction cs as [|[k c] cs IH]; simpl; [discriminate|].
  simpl in H. apply orb_false_iff in H. destruct H as [H1 H2].
  destruct (k =? l); [intro E; inversion E; subst; exact H1|auto].
Qed.

Lemma dead_below : forall p n y, node_exists n = false -> node_at n p = Some y -> node_exists y = false.
Proof.
  induction p as [|l p IH]; intros n y Hn Hy; simpl in Hy.
  - inversion Hy; subst; exact Hn.
  - destruct (find_child l (n_children n)) as [d|] eqn:E; [|discriminate].
    eapply IH; [eapply dead_child; eauto|exact Hy].
Qed.

Definition shift (V : view) (l : label) : view := fun p => V (l :: p).

Lemma lview_child n l c : find_child l (n_children n) = Some c -> node_exists c = true ->
  forall p, lview c p = shift (lview n) l p.
Proof.
  intros H He p. unfold shift, lview. cbn [node_at]. rewrite H.
  destruct p as [|l' r]; simpl; [rewrite He; reflexivity|reflexivity].
Qed.

Lemma find_existing_some l cs c : find_existing l cs = Some c -> find_child l cs = Some c /\ node_exists c = true.
Proof.
  unfold find_existing. destruct (find_child l cs) as [d|]; [|discriminate].
  change children_filtered_by_exists with true. cbn iota.
  destruct (node_exists d) eqn:E; [|discriminate]. intro H. inversion H; subst. auto.
Qed.

Lemma lview_nochild n l : find_existing l (n_children n) = None -> forall p, lview n (l :: p) = None.
Proof.
  unfold find_existing. intros H p. unfold lview. cbn [node_at].
  destruct (find_child l (n_children n)) as [d|] eqn:E; [|reflexivity].
  change children_filtered_by_exists with true in H. cbn iota in H.
  destruct (node_exists d) eqn:Ed; [discriminate|].
  destruct (node_at d p) as [y|] eqn:Ey; [|reflexivity].
  rewrite (dead_below _ _ _ Ed Ey). reflexivity.
Qed.

Lemma lview_one n l : lview n [l] = option_map cinfo (find_existing l (n_children n)).
Proof.
  unfold lview, find_existing. cbn [node_at]. destruct (find_child l (n_children n)) as [d|]; [|reflexivity].
  change children_filtered_by_exists with true. cbn iota. simpl. destruct (node_exists d); reflexivity.
Qed.

Lemma lview_root n : lview n [] = Some (cinfo n).
Proof. reflexivity. Qed.

Lemma find_map_map {A B C} (f : B -> option C) (g : A -> B) l :
  find_map f (map g l) = find_map (fun x => f (g x)) l.
Proof. induction l; simpl; auto. destruct (f (g a)); auto. Qed.

Lemma find_map_ext {A B} (f g : A -> option B) l : (forall x, f x = g x) -> find_map f l = find_map g l.
Proof. intros H. induction l; simpl; auto. rewrite H, IHl. reflexivity. Qed.

Lemma find_map_none {A B} (f : A -> option B) l : (forall x, f x = None) -> find_map f l = None.
Proof. intros H. induction l; simpl; auto. rewrite H. auto. Qed.

Definition relabel (l : label) (o : option (name * zcut)) : option (name * zcut) :=
  match o with Some (p, c) => Some (l :: p, c) | None => None end.

Lemma cut_of_shift V l p : cut_of V (l :: p) = relabel l (cut_of (shift V l) p).
Proof. unfold cut_of, shift. destruct (V (l :: p)) as [i|]; auto. destruct (i_special i) as [[c|c|]|]; auto. Qed.

Lemma find_map_relabel V l ps :
  find_map (fun p => cut_of V (l :: p)) ps = relabel l (find_map (cut_of (shift V l)) ps).
Proof.
  induction ps as [|p ps IH]; simpl; auto.
  rewrite cut_of_shift. destruct (cut_of (shift V l) p) as [[p' c]|]; simpl; auto.
Qed.

Lemma find_cut0_cons V l q : cut_of V [] = None ->
  find_cut0 V (l :: q) = relabel l (find_cut0 (shift V l) q).
Proof.
  intros H. unfold find_cut0. simpl. rewrite H. rewrite find_map_map. apply find_map_relabel.
Qed.

Lemma find_cut_cons V l q : find_cut V (l :: q) = relabel l (find_cut0 (shift V l) q).
Proof. unfold find_cut, find_cut0. simpl. rewrite find_map_map. apply find_map_relabel. Qed.

Lemma prefixes_head q : exists t, prefixes q = [] :: t.
Proof. destruct q; simpl; eauto. Qed.

Lemma filter_map_cons (V : view) l ps :
  filter (vexists V) (map (cons l) ps) = map (cons l) (filter (vexists (shift V l)) ps).
Proof.
  induction ps as [|p ps IH]; simpl; auto.
  change (vexists V (l :: p)) with (vexists (shift V l) p).
  destruct (vexists (shift V l) p); simpl; rewrite IH; reflexivity.
Qed.

Lemma last_map_cons (l : label) (F : list name) d : F <> [] -> last (map (cons l) F) d = l :: last F [].
Proof.
  induction F as [|a F IH]; intros H; [congruence|]. destruct F as [|b F]; simpl; auto.
  simpl in IH. apply IH. congruence.
Qed.

Lemma ce_cons_exists V l q : vexists V [l] = true ->
  closest_encloser V (l :: q) = l :: closest_encloser (shift V l) q.
Proof.
  intros H. unfold closest_encloser. simpl. rewrite filter_map_cons.
  destruct (prefixes_head q) as [t Ht]. rewrite Ht. simpl.
  change (vexists (shift V l) []) with (vexists V [l]). rewrite H.
  (* the filtered list below [l] is not empty, so whether [] is in front of it does not matter *)
  destruct (vexists V []); apply (last_map_cons l ([] :: filter (vexists (shift V l)) t)); discriminate.
Qed.

Lemma ce_cons_missing V l q : vexists V [] = true -> (forall p, V (l :: p) = None) ->
  closest_encloser V (l :: q) = [].
Proof.
  intros H0 H. unfold closest_encloser. simpl. rewrite H0.
  assert (E : filter (vexists V) (map (cons l) (prefixes q)) = []).
  { induction (prefixes q); simpl; auto. unfold vexists at 1. rewrite H. auto. }
  rewrite E. reflexivity.
Qed.

Lemma vnode_step V l q qt : cut_of V [] = None -> vexists V [l] = true ->
  vnode V (l :: q) qt = vnode (shift V l) q qt.
Proof.
  intros Hc He. unfold vnode. rewrite find_cut0_cons by exact Hc.
  destruct (find_cut0 (shift V l) q) as [[p c]|]; cbn [relabel].
  - rewrite name_eqb_cons. reflexivity.
  - unfold vrest. rewrite ce_cons_exists by exact He. reflexivity.
Qed.

(* the lookups see the view through its values only *)
Lemma cut_of_ext V W : (forall p, V p = W p) -> forall p, cut_of V p = cut_of W p.
Proof. intros H p. unfold cut_of. rewrite H. reflexivity. Qed.

Lemma vrest_ext V W q qt : (forall p, V p = W p) -> vrest V q qt = vrest W q qt.
Proof.
  intros H. unfold vrest, closest_encloser.
  rewrite (filter_ext (vexists V) (vexists W)) by (intro p; unfold vexists; rewrite H; reflexivity).
  rewrite !H. reflexivity.
Qed.

Lemma vnode_ext V W q qt : (forall p, V p = W p) -> vnode V q qt = vnode W q qt.
Proof.
  intros H. unfold vnode, find_cut0. rewrite (find_map_ext _ _ _ (cut_of_ext V W H)), (vrest_ext V W q qt H). reflexivity.
Qed.

Lemma vspec_ext V W q qt : (forall p, V p = W p) -> vspec V q qt = vspec W q qt.
Proof.
  intros H. unfold vspec, find_cut. rewrite (find_map_ext _ _ _ (cut_of_ext V W H)), (vrest_ext V W q qt H). reflexivity.
Qed.

Lemma children_step q
  (IH : forall n qt, query_node n q qt = vnode (lview n) q qt) l n qt :
  cut_of (lview n) [] = None ->
  query_children (fun c => query_node c q qt) (n_children n) l qt = vnode (lview n) (l :: q) qt.
Proof.
  intros Hc. unfold query_children.
  destruct (find_existing l (n_children n)) as [c|] eqn:El.
  - destruct (find_existing_some _ _ _ El) as [Hf He].
    rewrite IH. rewrite vnode_step; auto.
    + apply vnode_ext. intro p. apply lview_child; assumption.
    + unfold vexists. rewrite lview_one, El. reflexivity.
  - change children_exact_then_wildcard with true. cbn iota.
    unfold vnode. rewrite find_cut0_cons by exact Hc.
    unfold find_cut0 at 1.
    rewrite (find_map_none (cut_of (shift (lview n) l))).
    2:{ intro p. unfold cut_of, shift. rewrite lview_nochild by exact El. reflexivity. }
    cbn [relabel]. unfold vrest. rewrite lview_nochild by exact El.
    rewrite ce_cons_missing; [|reflexivity|intro p; apply lview_nochild; exact El].
    cbn [app]. rewrite lview_one.
    destruct (find_existing wild_label (n_children n)) as [w|]; simpl.
    + apply here_spec.
    + apply na_nx_spec.
Qed.

Lemma cut_of_root n : cut_of (lview n) [] = match clean (n_special n) with Some (Cut c) => Some ([], c) | _ => None end.
Proof. reflexivity. Qed.

(* read.rs's descent is the closest-encloser lookup on the reader's view, for
   every tree, whatever markers and left-over nodes it holds *)
Theorem query_node_vnode : forall q n qt, query_node n q qt = vnode (lview n) q qt.
Proof.
  induction q as [|l q IH]; intros n qt.
  - simpl. unfold vnode, find_cut0, cut_of. simpl. rewrite here_spec.
    destruct n as [r s cs]. unfold cinfo; simpl. destruct s as [[c|c|]|]; simpl; auto.
  - cbn [query_node]. change marker_descends_like_unmarked with true. cbn iota.
    destruct (n_special n) as [[c|c|]|] eqn:Es;
      [|apply (children_step q IH); rewrite cut_of_root, Es; reflexivity ..].
    unfold vnode, find_cut0. simpl. rewrite cut_of_root, Es. apply na_auth_spec.
Qed.

(* the apex: its RRsets are answered directly, below it the children are searched *)
Theorem query_apex_vspec : forall z q qt, clean (n_special z) = None ->
  query_apex z q qt = vspec (lview z) q qt.
Proof.
  intros z q qt Hs.
  assert (Hc : cut_of (lview z) [] = None) by (rewrite cut_of_root, Hs; reflexivity).
  destruct q as [|l q].
  - simpl. unfold vspec, find_cut. simpl. unfold vrest. rewrite lview_root.
    unfold spec_at, cinfo; simpl. rewrite Hs. apply query_rrsets_spec.
  - cbn [query_apex].
    rewrite (children_step q (query_node_vnode q)) by exact Hc.
    unfold vnode, vspec. rewrite find_cut0_cons by exact Hc. rewrite find_cut_cons. reflexivity.
Qed.

Lemma into_answer_finish z a : into_answer z a = finish (get_soa z) a.
Proof. unfold into_answer, finish. change soa_added_when_flag_and_present with true. rewrite andb_true_r. reflexivity. Qed.

Theorem query_is_vspec : forall z q qt, clean (n_special z) = None ->
  query z q qt = finish (get_soa z) (vspec (lview z) q qt).
Proof. intros. unfold query. rewrite into_answer_finish, query_apex_vspec; auto. Qed.

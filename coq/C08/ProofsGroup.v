(* C08 -- parsed::Zonefile::insert groups single records into RRsets: after a
   record list has been accepted, the RRset found for an (owner, type) is
   exactly the list's records of that owner and type, in order, with the
   smallest TTL -- NS / DS below the apex in the delegation table, CNAME in the
   alias table, everything else in the ordinary table.  With this,
   build_answers_spec speaks about zones given as flat record lists. *)
From Coq Require Import NArith List Bool.
From DV Require Import Base.Outcome C08.Gen C08.Model C08.Spec C08.ProofsQuery C08.ProofsBuild.
Import ListNotations.
Local Open Scope N_scope.

Definition key_eqb (o : name) (t : rtype) (g : grec) : bool := name_eqb (g_owner g) o && (g_type g =? t).
Definition recs_of (rs : list grec) (o : name) (t : rtype) : list grec := filter (key_eqb o t) rs.

(* the RRset a list of records of one owner and type forms (Rrset::from + push_record) *)
Definition group_of (t : rtype) (gs : list grec) : option rrset :=
  match gs with
  | [] => None
  | g :: gs' => Some (fold_left (fun r x => push_record (g_ttl x) (g_data x) r) gs' (mkRrset t (g_ttl g) [g_data g]))
  end.
Definition group (rs : list grec) (o : name) (t : rtype) : option rrset := group_of t (recs_of rs o t).

Definition is_cut_type (o : name) (t : rtype) : bool := ((t =? rt_ns) || (t =? rt_ds)) && negb (is_apex o).

Definition zf_rrset (zf : zonefile) (o : name) (t : rtype) : option rrset :=
  if is_cut_type o t then
    match alookup o (zf_cuts zf) with Some c => if t =? rt_ns then fst c else snd c | None => None end
  else if t =? rt_cname then
    option_map (fun c => mkRrset rt_cname (rr_ttl c) [rr_data c]) (alookup o (zf_cnames zf))
  else match alookup o (zf_normal zf) with Some l => get_rrset t l | None => None end.

(* every record accepted (no RecordError) *)
Fixpoint accepted_from (zf : zonefile) (rs : list grec) : bool :=
  match rs with
  | [] => true
  | g :: rs' => match zf_insert g zf with Ok zf' => accepted_from zf' rs' | _ => false end
  end.
Definition accepted (rs : list grec) : bool := accepted_from zf_empty rs.

Lemma group_of_snoc t gs g : group_of t (gs ++ [g]) = push_opt t (g_ttl g) (g_data g) (group_of t gs).
Proof.
  destruct gs as [|g0 gs]; simpl; [reflexivity|]. rewrite fold_left_app. reflexivity.
Qed.

Lemma group_snoc rs g o t :
  group (rs ++ [g]) o t = if key_eqb o t g then push_opt t (g_ttl g) (g_data g) (group rs o t) else group rs o t.
Proof.
  unfold group, recs_of. rewrite filter_app. simpl. destruct (key_eqb o t g).
  - apply group_of_snoc.
  - rewrite app_nil_r. reflexivity.
Qed.

Lemma alookup_aupsert {A} p k (d : A) f l :
  alookup p (aupsert k d f l) =
  if name_eqb k p then Some (f (match alookup k l with Some v => v | None => d end)) else alookup p l.
Proof.
  induction l as [|[k' v] l IH]; simpl.
  - destruct (name_eqb k p); reflexivity.
  - destruct (name_eqb k' k) eqn:E; simpl.
    + apply name_eqb_eq in E. subst k'. destruct (name_eqb k p); reflexivity.
    + rewrite IH. destruct (name_eqb k' p) eqn:E2; [|reflexivity].
      apply name_eqb_eq in E2. subst k'. rewrite name_eqb_sym, E. reflexivity.
Qed.

Lemma get_set_rrset r : forall l t, get_rrset t (set_rrset r l) = if rs_type r =? t then Some r else get_rrset t l.
Proof.
  induction l as [|x l IH]; intro t; simpl; [reflexivity|].
  destruct (rs_type x =? rs_type r) eqn:E; simpl.
  - apply N.eqb_eq in E. rewrite E. destruct (rs_type r =? t); reflexivity.
  - rewrite IH. destruct (rs_type x =? t) eqn:E2; [|reflexivity]. apply N.eqb_eq in E2. subst t.
    rewrite N.eqb_sym, E. reflexivity.
Qed.

Lemma get_rrset_type t l r : get_rrset t l = Some r -> rs_type r = t.
Proof. induction l as [|x l IH]; simpl; [discriminate|]. destruct (rs_type x =? t) eqn:E; [intro H; inversion H; subst; apply N.eqb_eq; exact E|exact IH]. Qed.

Lemma get_rrset_app_none t l r : get_rrset t l = None -> get_rrset t (l ++ [r]) = if rs_type r =? t then Some r else None.
Proof. induction l as [|x l IH]; simpl; [reflexivity|]. destruct (rs_type x =? t); [discriminate|exact IH]. Qed.
Lemma get_rrset_app_some t l r x : get_rrset t l = Some x -> get_rrset t (l ++ [r]) = Some x.
Proof. induction l as [|y l IH]; simpl; [discriminate|]. destruct (rs_type y =? t); auto. Qed.

Lemma get_normal_insert tg ttl d l t :
  get_rrset t (normal_insert tg ttl d l) = if tg =? t then push_opt tg ttl d (get_rrset tg l) else get_rrset t l.
Proof.
  unfold normal_insert. destruct (get_rrset tg l) as [r|] eqn:E.
  - pose proof (get_rrset_type _ _ _ E) as Ht.
    rewrite get_set_rrset. simpl. rewrite Ht. reflexivity.
  - destruct (tg =? t) eqn:Et.
    + apply N.eqb_eq in Et. subst t. rewrite get_rrset_app_none by exact E. simpl. rewrite N.eqb_refl. reflexivity.
    + destruct (get_rrset t l) eqn:E2.
      * erewrite get_rrset_app_some; eauto.
      * rewrite get_rrset_app_none by exact E2. simpl. rewrite Et. reflexivity.
Qed.

Lemma ns_ds : (rt_ns =? rt_ds) = false. Proof. reflexivity. Qed.
Lemma ns_cname : (rt_ns =? rt_cname) = false. Proof. reflexivity. Qed.
Lemma ds_cname : (rt_ds =? rt_cname) = false. Proof. reflexivity. Qed.

(* Zonefile::insert accepts a record in one of three ways *)
Definition cut_push (g : grec) (c : option rrset * option rrset) : option rrset * option rrset :=
  if g_type g =? rt_ns then (push_opt (g_type g) (g_ttl g) (g_data g) (fst c), snd c)
  else (fst c, push_opt (g_type g) (g_ttl g) (g_data g) (snd c)).

Inductive inserted (g : grec) (zf : zonefile) : zonefile -> Prop :=
| ins_cut : is_cut_type (g_owner g) (g_type g) = true -> alookup (g_owner g) (zf_cnames zf) = None ->
    inserted g zf (mkZf (zf_normal zf) (aupsert (g_owner g) (None, None) (cut_push g) (zf_cuts zf)) (zf_cnames zf))
| ins_cname : is_cut_type (g_owner g) (g_type g) = false -> g_type g = rt_cname ->
    alookup (g_owner g) (zf_cuts zf) = None -> alookup (g_owner g) (zf_cnames zf) = None ->
    inserted g zf (mkZf (zf_normal zf) (zf_cuts zf) (zf_cnames zf ++ [(g_owner g, mkRr (g_ttl g) (g_data g))]))
| ins_normal : is_cut_type (g_owner g) (g_type g) = false -> (g_type g =? rt_cname) = false ->
    alookup (g_owner g) (zf_cnames zf) = None ->
    inserted g zf (mkZf (aupsert (g_owner g) [] (normal_insert (g_type g) (g_ttl g) (g_data g)) (zf_normal zf)) (zf_cuts zf) (zf_cnames zf)).

Lemma zf_insert_ok g zf zf' : zf_insert g zf = Ok zf' -> inserted g zf zf'.
Proof.
  unfold zf_insert. fold (is_cut_type (g_owner g) (g_type g)). destruct (is_cut_type (g_owner g) (g_type g)) eqn:Ecut.
  - destruct (alookup (g_owner g) (zf_normal zf)) as [rsn|]; [destruct (existsb _ rsn); [discriminate|]|];
      (destruct (alookup (g_owner g) (zf_cnames zf)) eqn:Ea; [discriminate|]);
      intro H; injection H as <-; exact (ins_cut g zf Ecut Ea).
  - destruct (g_type g =? rt_cname) eqn:Ecn.
    + destruct (alookup (g_owner g) (zf_normal zf)); [discriminate|].
      destruct (alookup (g_owner g) (zf_cuts zf)) eqn:Ec; [discriminate|].
      destruct (alookup (g_owner g) (zf_cnames zf)) eqn:Ea; [discriminate|].
      intro H; injection H as <-. apply N.eqb_eq in Ecn. exact (ins_cname g zf Ecut Ecn Ec Ea).
    + destruct (if is_glue (g_type g) then None else alookup (g_owner g) (zf_cuts zf)); [discriminate|].
      destruct (alookup (g_owner g) (zf_cnames zf)) eqn:Ea; [discriminate|].
      intro H; injection H as <-. exact (ins_normal g zf Ecut Ecn Ea).
Qed.

(* one accepted record: the RRset of the record's key gets the record pushed,
   all other RRsets stay *)
Lemma zf_insert_rrset g zf zf' o t : zf_insert g zf = Ok zf' ->
  zf_rrset zf' o t =
  if key_eqb o t g then push_opt t (g_ttl g) (g_data g) (zf_rrset zf o t) else zf_rrset zf o t.
Proof.
  intro H. destruct (zf_insert_ok _ _ _ H) as [Ecut Ea|Ecut Ecn Ec Ea|Ecut Ecn Ea];
    unfold zf_rrset, key_eqb; cbn [zf_normal zf_cuts zf_cnames];
    destruct g as [og tg ttl d]; cbn [g_owner g_type g_ttl g_data] in *.
  - (* delegation table *)
    rewrite alookup_aupsert. destruct (name_eqb og o) eqn:Eo; cbn [andb]; [|reflexivity].
    apply name_eqb_eq in Eo. subst o. unfold is_cut_type in *. apply andb_true_iff in Ecut. destruct Ecut as [Ety Eap].
    rewrite Eap, andb_true_r. unfold cut_push. cbn [g_type g_ttl g_data].
    destruct (tg =? t) eqn:Et.
    + apply N.eqb_eq in Et. subst t. rewrite Ety.
      destruct (tg =? rt_ns) eqn:En; destruct (alookup og (zf_cuts zf)) as [[a b]|]; reflexivity.
    + destruct ((t =? rt_ns) || (t =? rt_ds)) eqn:Ect; [|reflexivity].
      destruct (tg =? rt_ns) eqn:En.
      * apply N.eqb_eq in En. subst tg. rewrite N.eqb_sym in Et. rewrite Et.
        destruct (alookup og (zf_cuts zf)) as [[a b]|]; reflexivity.
      * destruct (t =? rt_ns) eqn:Etn.
        -- destruct (alookup og (zf_cuts zf)) as [[a b]|]; reflexivity.
        -- exfalso. simpl in Ety, Ect. apply N.eqb_eq in Ety, Ect. subst. rewrite N.eqb_refl in Et. discriminate.
  - (* alias table *)
    subst tg. destruct (is_cut_type o t) eqn:Eict.
    + assert (Ek : (rt_cname =? t) = false).
      { unfold is_cut_type in Eict. apply andb_true_iff in Eict. destruct Eict as [E _].
        apply orb_true_iff in E. destruct E as [E|E]; apply N.eqb_eq in E; subst t; reflexivity. }
      rewrite Ek, andb_false_r. reflexivity.
    + destruct (t =? rt_cname) eqn:Et; [|rewrite (N.eqb_sym rt_cname t), Et, andb_false_r; reflexivity].
      apply N.eqb_eq in Et. subst t. rewrite N.eqb_refl, andb_true_r, alookup_app. destruct (name_eqb og o) eqn:Eo.
      * apply name_eqb_eq in Eo. subst o. rewrite Ea. reflexivity.
      * destruct (alookup o (zf_cnames zf)); reflexivity.
  - (* ordinary table *)
    rewrite alookup_aupsert. destruct (name_eqb og o) eqn:Eo; cbn [andb]; [|reflexivity].
    apply name_eqb_eq in Eo. subst o. rewrite get_normal_insert.
    destruct (tg =? t) eqn:Et.
    + apply N.eqb_eq in Et. subst t. rewrite Ecut, Ecn. destruct (alookup og (zf_normal zf)); reflexivity.
    + destruct (is_cut_type og t); [reflexivity|]. destruct (t =? rt_cname); [reflexivity|].
      destruct (alookup og (zf_normal zf)); reflexivity.
Qed.

Lemma zf_of_records_snoc rs g :
  zf_of_records (rs ++ [g]) = match zf_insert g (zf_of_records rs) with Ok zf' => zf' | _ => zf_of_records rs end.
Proof. unfold zf_of_records. rewrite fold_left_app. reflexivity. Qed.

Lemma accepted_from_app zf rs g : accepted_from zf (rs ++ [g]) = true ->
  accepted_from zf rs = true /\
  exists zf', zf_insert g (fold_left (fun zf g => match zf_insert g zf with Ok zf' => zf' | _ => zf end) rs zf) = Ok zf'.
Proof.
  revert zf. induction rs as [|x rs IH]; intros zf H; simpl in *.
  - destruct (zf_insert g zf) as [zf'| | |]; try discriminate. eauto.
  - destruct (zf_insert x zf) as [zf1| | |]; try discriminate. apply IH. exact H.
Qed.

(* induction along an accepted record list: each record is inserted into the
   zone file of those before it *)
Lemma accepted_ind (P : list grec -> zonefile -> Prop) :
  P [] zf_empty ->
  (forall rs g zf', P rs (zf_of_records rs) -> zf_insert g (zf_of_records rs) = Ok zf' -> P (rs ++ [g]) zf') ->
  forall rs, accepted rs = true -> P rs (zf_of_records rs).
Proof.
  intros H0 Hstep rs. pattern rs. apply rev_ind; clear rs; [intros _; exact H0|].
  intros g rs IH Hacc. unfold accepted in Hacc. apply accepted_from_app in Hacc. destruct Hacc as [Hacc [zf' Hins]].
  change (zf_insert g (zf_of_records rs) = Ok zf') in Hins.
  rewrite zf_of_records_snoc, Hins. exact (Hstep rs g zf' (IH Hacc) Hins).
Qed.

(* grouping: the RRsets of the zone file are the groups of the record list *)
Theorem grouping : forall rs, accepted rs = true -> forall o t, zf_rrset (zf_of_records rs) o t = group rs o t.
Proof.
  apply (accepted_ind (fun rs zf => forall o t, zf_rrset zf o t = group rs o t)).
  - intros o t. unfold zf_rrset, group. simpl. destruct (is_cut_type o t); [reflexivity|]. destruct (t =? rt_cname); reflexivity.
  - intros rs g zf' IH Hins o t. rewrite (zf_insert_rrset _ _ _ o t Hins), IH, group_snoc. reflexivity.
Qed.

(* a zone given as a flat record list answers by the spec of its grouped content *)
Theorem build_answers_spec_records rs : accepted rs = true -> wf_zone (zf_of_records rs) = true ->
  forall q qt, query (build rs) q qt = spec (zf_of_records rs) q qt /\
               (forall o t, zf_rrset (zf_of_records rs) o t = group rs o t).
Proof.
  intros Ha Hwf q qt. split; [apply build_answers_spec; exact Hwf|apply grouping; exact Ha].
Qed.

Definition ex_records : list grec :=
  [ mkG [] rt_soa 60 (mkRd 1 None); mkG [353] rt_a 300 (mkRd 4 None); mkG [371] rt_ns 300 (mkRd 0 (Some [371; 366]));
    mkG [353] rt_a 100 (mkRd 5 None); mkG [371; 366] rt_a 77 (mkRd 7 None); mkG [364] rt_cname 200 (mkRd 0 (Some [353]));
    mkG [371] rt_ds 120 (mkRd 6 None); mkG [371] rt_ns 200 (mkRd 9 None) ].
Example ex_records_ok :
  accepted ex_records = true /\ wf_zone (zf_of_records ex_records) = true /\
  group ex_records [353] rt_a = Some (mkRrset rt_a 100 [mkRd 4 None; mkRd 5 None]) /\
  group ex_records [371] rt_ns = Some (mkRrset rt_ns 200 [mkRd 0 (Some [371; 366]); mkRd 9 None]) /\
  accepted (ex_records ++ [mkG [364] rt_a 1 (mkRd 1 None)]) = false.
Proof. repeat split; vm_compute; reflexivity. Qed.

(* an ANY query is answered with one of the RRsets held at the matched name (the
   name itself or the source of synthesis) -- which one is hash order in the
   implementation, list order in the model *)
Lemma at_cut_any c : na_content (spec_at_cut c rt_any) = ANoData.
Proof. reflexivity. Qed.
Lemma referral_content c : na_content (spec_referral c) = ANoData.
Proof. reflexivity. Qed.

Lemma spec_at_any_member i r : na_content (spec_at i rt_any) = AData r -> In r (i_rrsets i).
Proof.
  unfold spec_at. destruct (i_special i) as [[c|c|]|]; intro H.
  - rewrite at_cut_any in H. discriminate.
  - discriminate.
  - discriminate.
  - unfold spec_rrsets in H. change (rt_any =? rt_any) with true in H. cbn iota in H.
    destruct (i_rrsets i); simpl in *; [discriminate|]. inversion H. auto.
Qed.

Theorem any_answer_is_member : forall z q r, clean (n_special z) = None ->
  a_content (query z q rt_any) = AData r ->
  exists p x, node_at z p = Some x /\ In r (n_rrsets x).
Proof.
  intros z q r Hs. rewrite query_is_vspec by exact Hs. unfold finish. simpl.
  assert (Hm : forall p i, lview z p = Some i -> na_content (spec_at i rt_any) = AData r ->
                           exists p x, node_at z p = Some x /\ In r (n_rrsets x)).
  { intros p i Hi Hc. unfold lview in Hi. destruct (node_at z p) as [x|] eqn:Ex; [|discriminate].
    destruct (is_apex p || node_exists x); [|discriminate]. inversion Hi; subst.
    exists p, x. split; [exact Ex|]. apply (spec_at_any_member (cinfo x)). exact Hc. }
  unfold vspec. destruct (find_cut (lview z) q) as [[p c]|].
  - destruct (name_eqb p q); [rewrite at_cut_any|rewrite referral_content]; discriminate.
  - unfold vrest. destruct (lview z q) eqn:E1; [eapply Hm; eauto|].
    destruct (lview z (closest_encloser (lview z) q ++ [wild_label])) eqn:E2; [eapply Hm; eauto|simpl; discriminate].
Qed.

(* Zonefile::insert keeps the tables well formed; what it cannot see is a
   delegation without NS (DS only) and a CNAME at the apex: exactly these make
   TryFrom<Zonefile> for ZoneBuilder fail (MissingNs, CnameAtApex). *)
Definition buildable (zf : zonefile) : bool :=
  forallb (fun e => match fst (snd e) with Some _ => true | None => false end) (zf_cuts zf)
  && forallb (fun e => negb (is_apex (fst e))) (zf_cnames zf).

Definition zinv (zf : zonefile) : bool :=
  nodupb (map fst (zf_normal zf)) && nodupb (map fst (zf_cuts zf)) && nodupb (map fst (zf_cnames zf))
  && forallb wf_normal (zf_normal zf)
  && forallb (fun e => negb (is_apex (fst e))) (zf_cuts zf)
  && forallb (fun e => negb (existsb (name_eqb (fst e)) (map fst (zf_cuts zf)))) (zf_cnames zf).

Lemma aupsert_keys {A} k (d : A) f l :
  map fst (aupsert k d f l) = if existsb (name_eqb k) (map fst l) then map fst l else map fst l ++ [k].
Proof.
  induction l as [|[k' v] l IH]; simpl; [reflexivity|]. rewrite (name_eqb_sym k k').
  destruct (name_eqb k' k) eqn:E; simpl; [reflexivity|]. rewrite IH. destruct (existsb (name_eqb k) (map fst l)); reflexivity.
Qed.

Lemma nodupb_snoc l k : nodupb (l ++ [k]) = nodupb l && negb (existsb (name_eqb k) l).
Proof.
  induction l as [|x l IH]; simpl; [reflexivity|].
  change (nodupb (x :: l ++ [k])) with (negb (existsb (name_eqb x) (l ++ [k])) && nodupb (l ++ [k])).
  change (nodupb (x :: l)) with (negb (existsb (name_eqb x) l) && nodupb l).
  rewrite IH, existsb_app. simpl. rewrite orb_false_r, (name_eqb_sym k x).
  destruct (existsb (name_eqb x) l), (name_eqb x k), (nodupb l), (existsb (name_eqb k) l); reflexivity.
Qed.

Lemma aupsert_nodup {A} k (d : A) f l : nodupb (map fst l) = true -> nodupb (map fst (aupsert k d f l)) = true.
Proof.
  intro H. rewrite aupsert_keys. destruct (existsb (name_eqb k) (map fst l)) eqn:E; [exact H|].
  rewrite nodupb_snoc, H, E. reflexivity.
Qed.

Lemma aupsert_forall {A} (P : name * A -> bool) k (d : A) f l :
  forallb P l = true -> (forall k' v, P (k', v) = true -> P (k', f v) = true) -> P (k, f d) = true ->
  forallb P (aupsert k d f l) = true.
Proof.
  intros H Hf Hd. induction l as [|[k' v] l IH]; simpl; [rewrite Hd; reflexivity|].
  simpl in H. apply andb_true_iff in H. destruct H as [H1 H2].
  destruct (name_eqb k' k) eqn:E; simpl.
  - rewrite Hf by exact H1. exact H2.
  - rewrite H1. apply IH. exact H2.
Qed.

Lemma nodup_types_snoc l r : nodup_types l = true -> existsb (fun x => rs_type x =? rs_type r) l = false ->
  nodup_types (l ++ [r]) = true.
Proof.
  induction l as [|x l IH]; simpl; [reflexivity|]. intros H Hn.
  apply andb_true_iff in H. destruct H as [A B]. apply orb_false_iff in Hn. destruct Hn as [N1 N2].
  rewrite existsb_app. simpl. rewrite (N.eqb_sym (rs_type r) (rs_type x)), N1, orb_false_r, A. apply IH; auto.
Qed.

Lemma normal_insert_wf o t ttl d l : (l = [] \/ wf_normal (o, l) = true) -> wf_normal (o, normal_insert t ttl d l) = true.
Proof.
  unfold wf_normal, normal_insert. cbn [snd]. intro H.
  destruct (get_rrset t l) as [r|] eqn:E.
  - destruct H as [H|H]; [subst; discriminate|].
    apply andb_true_iff in H. destruct H as [H H3]. apply andb_true_iff in H. destruct H as [H1 H2].
    pose proof (get_rrset_type _ _ _ E) as Ht.
    assert (G : forall l0, get_rrset t l0 = Some r -> nodup_types l0 = true -> forallb wf_rrset l0 = true ->
              nodup_types (set_rrset (push_record ttl d r) l0) = true /\ forallb wf_rrset (set_rrset (push_record ttl d r) l0) = true /\
              set_rrset (push_record ttl d r) l0 <> [] /\
              forall y, existsb (fun x => rs_type x =? rs_type y) (set_rrset (push_record ttl d r) l0) = existsb (fun x => rs_type x =? rs_type y) l0).
    { induction l0 as [|x l0 IH0]; simpl; [discriminate|]. intros Hg Hn Hw.
      apply andb_true_iff in Hn. destruct Hn as [Hn1 Hn2]. apply andb_true_iff in Hw. destruct Hw as [Hw1 Hw2].
      destruct (rs_type x =? t) eqn:Ex.
      - inversion Hg; subst x. cbn [push_record rs_type]. rewrite N.eqb_refl. simpl. rewrite Hn1, Hn2, Hw2.
        repeat split; try congruence. unfold wf_rrset. simpl. destruct (rs_data r); reflexivity.
      - cbn [push_record rs_type]. rewrite Ht, Ex. destruct (IH0 Hg Hn2 Hw2) as (A1 & A2 & A3 & A4).
        simpl. rewrite A1, A2, Hw1, (A4 x), Hn1. repeat split; try congruence. intro y. rewrite A4. reflexivity. }
    destruct (G l E H1 H3) as (A1 & A2 & A3 & _). rewrite A1, A2. destruct (set_rrset _ l); [congruence|reflexivity].
  - assert (Hnew : existsb (fun x => rs_type x =? t) l = false).
    { clear H. induction l as [|x l IH0]; simpl in *; [reflexivity|]. destruct (rs_type x =? t); [discriminate|]. apply IH0. exact E. }
    assert (Hl : nodup_types l = true /\ forallb wf_rrset l = true).
    { destruct H as [H|H]; [subst; auto|]. apply andb_true_iff in H. destruct H as [H H3]. apply andb_true_iff in H. tauto. }
    destruct Hl as [H1 H3].
    assert (G : nodup_types (l ++ [mkRrset t ttl [d]]) = true) by (apply nodup_types_snoc; auto).
    rewrite G, forallb_app, H3. simpl. destruct l; reflexivity.
Qed.

Lemma zinv_insert g zf zf' : zinv zf = true -> zf_insert g zf = Ok zf' -> zinv zf' = true.
Proof.
  unfold zinv. intros H Hins. repeat (apply andb_true_iff in H; destruct H as [H ?]).
  rename H into HN, H4 into HC, H3 into HA, H2 into HwN, H1 into HwC, H0 into HwA.
  destruct (zf_insert_ok _ _ _ Hins) as [Ecut Ea|Ecut Ecn Ec Ea|Ecut Ecn Ea]; cbn [zf_normal zf_cuts zf_cnames].
  - (* a new or extended delegation: no alias has its owner *)
    apply andb_true_iff in Ecut. destruct Ecut as [_ Eap].
    rewrite HN, HA, HwN, (aupsert_nodup _ _ (cut_push g) _ HC). simpl. apply andb_true_iff. split.
    + apply aupsert_forall; auto.
    + rewrite aupsert_keys. apply alookup_none_iff in Ea.
      rewrite forallb_forall in *. intros e He. specialize (HwA e He). apply negb_true_iff in HwA. apply negb_true_iff.
      destruct (existsb (name_eqb (g_owner g)) (map fst (zf_cuts zf))); [exact HwA|].
      rewrite existsb_app, HwA. simpl. rewrite orb_false_r.
      destruct (name_eqb (fst e) (g_owner g)) eqn:E; [|reflexivity]. apply name_eqb_eq in E.
      assert (Hin : existsb (name_eqb (g_owner g)) (map fst (zf_cnames zf)) = true).
      { apply existsb_exists. exists (fst e). split; [apply in_map; exact He|rewrite E; apply name_eqb_refl]. }
      congruence.
  - rewrite HN, HC, HwN, HwC. simpl.
    rewrite map_app. cbn [map fst]. rewrite nodupb_snoc, HA. apply alookup_none_iff in Ea. rewrite Ea. cbn [negb andb].
    rewrite forallb_app, HwA. simpl. apply alookup_none_iff in Ec. rewrite Ec. reflexivity.
  - rewrite HC, HA, HwC, HwA, (aupsert_nodup _ _ _ _ HN). simpl.
    rewrite !andb_true_r. apply aupsert_forall; [exact HwN| |].
    + intros k' v Hv. apply normal_insert_wf. right. exact Hv.
    + apply normal_insert_wf. left. reflexivity.
Qed.

Lemma zinv_of_records : forall rs, accepted rs = true -> zinv (zf_of_records rs) = true.
Proof.
  apply (accepted_ind (fun _ zf => zinv zf = true)); [reflexivity|].
  intros rs g zf' IH Hins. exact (zinv_insert _ _ _ IH Hins).
Qed.

Lemma forallb_and {A} (a b : A -> bool) l : forallb (fun e => a e && b e) l = forallb a l && forallb b l.
Proof. induction l; simpl; auto. rewrite IHl. destruct (a a0), (b a0), (forallb a l), (forallb b l); reflexivity. Qed.

Lemma zinv_wf zf : zinv zf = true -> wf_zone zf = buildable zf.
Proof.
  unfold zinv, wf_zone, buildable. intro H. repeat (apply andb_true_iff in H; destruct H as [H ?]).
  rewrite H, H4, H3. change (forallb _ (zf_normal zf)) with (forallb wf_normal (zf_normal zf)). rewrite H2.
  rewrite !forallb_and, H1, H0. simpl. rewrite andb_true_r. reflexivity.
Qed.

(* the conversion to a ZoneBuilder fails exactly for unbuildable tables *)
Lemma zf_build_ok zf : forallb (fun e => negb (is_apex (fst e))) (zf_cuts zf) = true -> snd (zf_build zf) = buildable zf.
Proof.
  intro Hc. rewrite zf_build_unfold. unfold buildable.
  assert (G3 : forall N acc, snd (fold_left normal_step N acc) = snd acc).
  { induction N as [|e N IH]; intros [z ok]; simpl; auto. rewrite IH. reflexivity. }
  assert (G2 : forall A acc, snd (fold_left cname_step A acc) = snd acc && forallb (fun e => negb (is_apex (fst e))) A).
  { induction A as [|[o c] A IH]; intros [z ok]; simpl; [rewrite andb_true_r; reflexivity|].
    destruct o; simpl; rewrite IH; simpl; [rewrite andb_false_r; reflexivity|reflexivity]. }
  assert (G1 : forall G C acc, forallb (fun e => negb (is_apex (fst e))) C = true ->
             snd (fold_left (cut_step G) C acc) = snd acc && forallb (fun e => match fst (snd e) with Some _ => true | None => false end) C).
  { induction C as [|[o [ns ds]] C IH]; intros [z ok] H; simpl; [rewrite andb_true_r; reflexivity|].
    simpl in H. apply andb_true_iff in H. destruct H as [Ho H].
    destruct ns as [ns|]; simpl.
    - destruct o; [discriminate|]. simpl. rewrite IH by exact H. reflexivity.
    - rewrite IH by exact H. simpl. rewrite andb_false_r. reflexivity. }
  rewrite G3, G2, G1 by exact Hc. reflexivity.
Qed.

(* an accepted record list: well formed content iff buildable, the builder
   conversion succeeds iff buildable, and then the zone answers by the spec of
   its grouped records *)
Theorem accepted_records_build rs : accepted rs = true ->
  wf_zone (zf_of_records rs) = buildable (zf_of_records rs) /\
  snd (zf_build (zf_of_records rs)) = buildable (zf_of_records rs) /\
  (buildable (zf_of_records rs) = true ->
     forall q qt, query (build rs) q qt = spec (zf_of_records rs) q qt).
Proof.
  intro Ha. pose proof (zinv_of_records rs Ha) as Hi.
  split; [apply zinv_wf; exact Hi|]. split.
  - apply zf_build_ok. unfold zinv in Hi. repeat (apply andb_true_iff in Hi; destruct Hi as [Hi ?]). assumption.
  - intros Hb q qt. apply build_answers_spec. rewrite zinv_wf by exact Hi. exact Hb.
Qed.

(* the two ways an accepted list fails at build *)
Example unbuildable_examples :
  accepted [mkG [371] rt_ds 120 (mkRd 6 None)] = true /\ buildable (zf_of_records [mkG [371] rt_ds 120 (mkRd 6 None)]) = false /\
  accepted [mkG [] rt_cname 5 (mkRd 1 None)] = true /\ buildable (zf_of_records [mkG [] rt_cname 5 (mkRd 1 None)]) = false /\
  buildable (zf_of_records ex_records) = true.
Proof. repeat split; reflexivity. Qed.

(* T1 constants that the flat side relies on *)
Lemma glue_types_are_addresses : glue_types = [rt_a; rt_aaaa]. Proof. reflexivity. Qed.
Lemma wildcard_is_asterisk : wild_label = 256 + 42. Proof. reflexivity. Qed.

(* The glue of a delegation, as a set: the address records (A / AAAA) found in
   the zone's ordinary tables at the names its NS records point to -- wherever
   those names are, also below this or another delegation. *)
Definition is_glue_of (N : list (name * list rrset)) (ns : rrset) (g : grec) : Prop :=
  exists d t rs r x, In d (rs_data ns) /\ rd_tgt d = Some t /\ alookup t N = Some rs /\ In r rs /\
    is_glue (rs_type r) = true /\ In x (rs_data r) /\ g = mkG t (rs_type r) (rs_ttl r) x.

Lemma glue_for_spec N ns g : In g (glue_for N ns) <-> is_glue_of N ns g.
Proof.
  unfold glue_for, is_glue_of, collect_glue. rewrite in_flat_map. split.
  - intros (d & Hd & Hg). destruct (rd_tgt d) as [t|] eqn:Et; [|contradiction].
    destruct (alookup t N) as [rs|] eqn:Ea; [|contradiction].
    apply in_flat_map in Hg. destruct Hg as (r & Hr & Hg).
    destruct (is_glue (rs_type r)) eqn:Eg; [|contradiction].
    apply in_map_iff in Hg. destruct Hg as (x & Hx & Hin).
    exists d, t, rs, r, x. repeat split; auto.
  - intros (d & t & rs & r & x & Hd & Et & Ea & Hr & Eg & Hx & Hg).
    exists d. split; [exact Hd|]. rewrite Et, Ea. apply in_flat_map. exists r. split; [exact Hr|].
    rewrite Eg. apply in_map_iff. exists x. split; auto.
Qed.

Lemma find_map_some {A B} (f : A -> option B) l b : find_map f l = Some b -> exists x, In x l /\ f x = Some b.
Proof.
  induction l as [|a l IH]; simpl; [discriminate|]. destruct (f a) eqn:E.
  - intro H. inversion H; subst. exists a. auto.
  - intro H. destruct (IH H) as (x & Hx & Hf). exists x. auto.
Qed.

(* At and below a delegation point the built zone answers with a referral (not
   authoritative, no SOA): NS and DS of the delegation in the authority
   section, and exactly the glue of the delegation in the additional section --
   whatever the order in which delegations and addresses were inserted.  Only a
   DS query exactly at the delegation point is answered from the parent side. *)
Theorem referral_carries_glue zf q qt p c : wf_zone zf = true ->
  find_cut (flat_view zf) q = Some (p, c) -> (name_eqb p q && (qt =? rt_ds)) = false ->
  exists ns ds, alookup p (zf_cuts zf) = Some (Some ns, ds) /\
    let a := query (fst (zf_build zf)) q qt in
    a_rcode a = rc_noerror /\ a_aa a = false /\ a_content a = ANoData /\
    a_auth a = Some (mkAuth p None (Some ns) ds) /\
    forall g, In g (a_addl a) <-> is_glue_of (zf_normal zf) ns g.
Proof.
  intros Hwf Hc Hq. rewrite build_answers_spec by exact Hwf.
  unfold find_cut in Hc. pose proof (find_map_some _ _ _ Hc) as (p' & _ & Hp').
  unfold cut_of, flat_view, flat_view_g in Hp'. destruct (exists_name zf p'); [|discriminate].
  unfold info_at_g in Hp'. cbn [i_special] in Hp'.
  destruct (cut_at_g (zf_normal zf) zf p') as [c'|] eqn:Ecut.
  2:{ destruct (alookup p' (zf_cnames zf)); discriminate. }
  inversion Hp'; subst p' c'. clear Hp'.
  unfold cut_at_g in Ecut. destruct (alookup p (zf_cuts zf)) as [[[ns|] ds]|] eqn:Ea; try discriminate.
  inversion Ecut; subst c. clear Ecut.
  exists ns, ds. split; [reflexivity|].
  unfold spec, vspec. unfold find_cut. rewrite Hc.
  assert (E : (if name_eqb p q then spec_at_cut (mkCut p ns ds (glue_for (zf_normal zf) ns)) qt
               else spec_referral (mkCut p ns ds (glue_for (zf_normal zf) ns)))
              = spec_referral (mkCut p ns ds (glue_for (zf_normal zf) ns))).
  { destruct (name_eqb p q); [|reflexivity]. simpl in Hq. unfold spec_at_cut. rewrite Hq. reflexivity. }
  rewrite E. cbn. repeat split; try reflexivity.
  - intro H. apply glue_for_spec. exact H.
  - intro H. apply glue_for_spec. exact H.
Qed.

(* two delegations sharing a name server below one of them *)
Example shared_ns_example :
  let zf := mkZf [ ([], [mkRrset rt_soa 60 [mkRd 1 None]]); ([371; 366], [mkRrset rt_a 77 [mkRd 7 None]; mkRrset rt_aaaa 78 [mkRd 8 None]]) ]
                 [ ([371], (Some (mkRrset rt_ns 300 [mkRd 0 (Some [371; 366])]), None));
                   ([372], (Some (mkRrset rt_ns 300 [mkRd 0 (Some [371; 366]); mkRd 5 None]), None)) ] [] in
  wf_zone zf = true /\
  a_addl (query (fst (zf_build zf)) [372; 9] rt_a) = [mkG [371; 366] rt_a 77 (mkRd 7 None); mkG [371; 366] rt_aaaa 78 (mkRd 8 None)] /\
  a_addl (query (fst (zf_build zf)) [371; 366] rt_a) = [mkG [371; 366] rt_a 77 (mkRd 7 None); mkG [371; 366] rt_aaaa 78 (mkRd 8 None)] /\
  a_aa (query (fst (zf_build zf)) [371; 366] rt_a) = false.
Proof. vm_compute. repeat split; reflexivity. Qed.

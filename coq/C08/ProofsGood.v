(* C08 -- answers depend on the view only: any tree, however it was reached,
   whose nodes are exactly the existing names of a well-formed content [zf]
   and carry [zf]'s data answers like the zone built directly from [zf].
   The remaining known update-history classes are exactly the ways in which
   ZoneUpdater breaks that correspondence: a delegation or alias kept as /
   instead of a plain RRset. *)
From Coq Require Import NArith List Bool Permutation.
From DV Require Import Base.Outcome C08.Gen C08.Model C08.Spec C08.ProofsQuery C08.ProofsBuild C08.ProofsHist.
Import ListNotations.
Local Open Scope N_scope.

(* [t] represents content [zf]: the reader's view of the tree (existing nodes,
   markers ignored) is the flat view of [zf] *)
Definition represents (t : node) (zf : zonefile) : Prop := forall p, lview t p = flat_view zf p.

(* names = existing names: the apex and the ancestors-or-selves of owner names *)
Lemma represents_names t zf : represents t zf -> forall p, vexists (lview t) p = exists_name zf p.
Proof.
  intros H p. unfold vexists. rewrite H. unfold flat_view, flat_view_g. destruct (exists_name zf p); reflexivity.
Qed.

Theorem answers_depend_on_view_only t zf : wf_zone zf = true -> represents t zf ->
  forall q qt, query t q qt = spec zf q qt /\ query t q qt = query (fst (zf_build zf)) q qt.
Proof.
  intros Hwf H q qt.
  assert (E : query t q qt = spec zf q qt) by (apply lview_answers_spec; assumption).
  split; [exact E|]. rewrite E. symmetry. apply build_answers_spec. exact Hwf.
Qed.

(* update histories.  A history is in a known class for content [zf] when the
   reader's view of the published tree differs from the flat view of [zf] at
   some name; outside, the zone answers like the directly built one. *)
Definition KnownHistory (h : list op) (zf : zonefile) : Prop :=
  exists p, lview (run h) p <> flat_view zf p.

Lemma known_history_not_represented h zf : KnownHistory h zf -> ~ represents (run h) zf.
Proof. intros [p Hp] R. apply Hp. apply R. Qed.

Theorem history_independent h zf : wf_zone zf = true -> represents (run h) zf ->
  forall q qt, query (run h) q qt = query (fst (zf_build zf)) q qt /\ query (run h) q qt = spec zf q qt.
Proof.
  intros Hwf R q qt. destruct (answers_depend_on_view_only _ _ Hwf R q qt). auto.
Qed.

(* the builder itself establishes the correspondence (non-vacuity of [represents]) *)
Lemma build_represents zf : wf_zone zf = true -> represents (fst (zf_build zf)) zf.
Proof. intro H. exact (build_lview zf H). Qed.

(* the remaining known classes are breaches of [represents]: the delegation /
   alias state of a node differs from what the content says (K3 and its
   converse; a surviving special also keeps a deleted name alive) *)
Lemma special_mismatch_not_represented t zf p x :
  node_at t p = Some x -> is_apex p || node_exists x = true ->
  clean (n_special x) <> i_special (info_at_g (zf_normal zf) zf p) -> ~ represents t zf.
Proof.
  intros Hp He Hs R. specialize (R p). unfold lview in R. rewrite Hp, He in R.
  unfold flat_view, flat_view_g in R. destruct (exists_name zf p); [|discriminate].
  apply Hs. assert (Hi : cinfo x = info_at_g (zf_normal zf) zf p) by congruence.
  rewrite <- Hi. reflexivity.
Qed.

Lemma surviving_name_not_represented t zf p x :
  node_at t p = Some x -> node_exists x = true -> exists_name zf p = false -> ~ represents t zf.
Proof.
  intros Hp He Hn R. pose proof (represents_names t zf R p) as E. unfold vexists, lview in E.
  rewrite Hp, He, orb_true_r in E. congruence.
Qed.

(* markers and left-over nodes are invisible to the reader *)
Example k1_marker_harmless :
  (exists x, node_at (run h_k1) [lb] = Some x /\ n_special x = Some NxDomain) /\ history_ok h_k1 [lb; la] T_A.
Proof. split; [eexists; split; vm_compute; reflexivity|unfold history_ok; vm_compute; reflexivity]. Qed.
Example abort_leftover_harmless :
  (exists x, node_at (run h_abort) [lb] = Some x /\ node_exists x = false) /\ lview (run h_abort) [lb] = None.
Proof. split; [eexists; split; vm_compute; reflexivity|vm_compute; reflexivity]. Qed.

Lemma existsb_perm {A} (f : A -> bool) l l' : Permutation l l' -> existsb f l = existsb f l'.
Proof.
  induction 1; simpl; auto.
  - rewrite IHPermutation. reflexivity.
  - destruct (f x), (f y); reflexivity.
  - congruence.
Qed.

Lemma nodupb_perm l l' : Permutation l l' -> nodupb l = nodupb l'.
Proof.
  induction 1; auto.
  - rewrite !nodupb_cons. rewrite IHPermutation, (existsb_perm _ _ _ H). reflexivity.
  - rewrite !nodupb_cons. simpl. rewrite (name_eqb_sym y x).
    destruct (name_eqb x y), (existsb (name_eqb x) l), (existsb (name_eqb y) l), (nodupb l); reflexivity.
  - congruence.
Qed.

Lemma alookup_perm {A} p (L L' : list (name * A)) : Permutation L L' -> nodupb (map fst L) = true ->
  alookup p L = alookup p L'.
Proof.
  induction 1; intro Hnd; auto.
  - destruct x as [k v]. cbn [map fst] in Hnd. rewrite nodupb_cons in Hnd. apply andb_true_iff in Hnd. destruct Hnd as [_ Hnd].
    cbn [alookup]. rewrite IHPermutation by exact Hnd. reflexivity.
  - destruct x as [k1 v1], y as [k2 v2]. cbn [map fst] in Hnd. cbn [alookup].
    destruct (name_eqb k2 p) eqn:E2, (name_eqb k1 p) eqn:E1; auto.
    apply name_eqb_eq in E1. apply name_eqb_eq in E2. subst k1 k2.
    rewrite nodupb_cons in Hnd. cbn [existsb] in Hnd. rewrite name_eqb_refl in Hnd. discriminate.
  - rewrite IHPermutation1 by exact Hnd. apply IHPermutation2.
    rewrite <- (nodupb_perm _ _ (Permutation_map fst H)). exact Hnd.
Qed.

(* the order in which owners are inserted into the builder does not matter *)
Theorem build_order_independent N N' C C' A A' :
  Permutation N N' -> Permutation C C' -> Permutation A A' ->
  wf_zone (mkZf N C A) = true -> wf_zone (mkZf N' C' A') = true ->
  forall q qt, query (fst (zf_build (mkZf N C A))) q qt = query (fst (zf_build (mkZf N' C' A'))) q qt.
Proof.
  intros PN PC PA Hwf Hwf' q qt.
  rewrite !build_answers_spec by assumption.
  destruct (wf_zone_parts _ Hwf) as (HN & HC & HA & _). simpl in HN, HC, HA.
  assert (HG : forall ns, glue_for N ns = glue_for N' ns).
  { intro ns. unfold glue_for. apply flat_map_ext. intro d. destruct (rd_tgt d); auto.
    unfold collect_glue. rewrite (alookup_perm n N N') by assumption. reflexivity. }
  assert (HV : forall p, flat_view (mkZf N C A) p = flat_view (mkZf N' C' A') p).
  { intro p. unfold flat_view, flat_view_g. simpl zf_normal.
    assert (He : exists_name (mkZf N C A) p = exists_name (mkZf N' C' A') p).
    { rewrite !exists_name_unfold.
      rewrite (existsb_perm _ _ _ (Permutation_map fst PN)), (existsb_perm _ _ _ (Permutation_map fst PC)),
              (existsb_perm _ _ _ (Permutation_map fst PA)). reflexivity. }
    rewrite He. destruct (exists_name (mkZf N' C' A') p); auto. f_equal.
    unfold info_at_g, cut_at_g. simpl.
    rewrite (alookup_perm p N N'), (alookup_perm p C C'), (alookup_perm p A A') by assumption.
    destruct (alookup p C') as [[[ns|] ds]|]; auto. rewrite HG. reflexivity. }
  unfold spec. f_equal.
  - unfold soa_of. simpl. rewrite (alookup_perm [] N N') by assumption. reflexivity.
  - apply vspec_ext. exact HV.
Qed.

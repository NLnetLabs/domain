(* C08 -- the tree built by ZoneBuilder from well-formed content has exactly
   the flat view of that content: a node exists iff its name is an
   ancestor-or-self of an owner, and carries the owner's RRsets / delegation /
   alias.  Together with ProofsQuery this gives build_answers_spec. *)
From Coq Require Import NArith List Bool.
From DV Require Import Base.Outcome C08.Gen C08.Model C08.Spec C08.ProofsQuery.
Import ListNotations.
Local Open Scope N_scope.

Lemma find_upsert k l f cs :
  find_child k (upsert_child l f cs) =
  if k =? l then Some (match find_child l cs with Some c => f false c | None => f true empty_node end)
  else find_child k cs.
Proof.
  induction cs as [|[k' c] cs IH]; simpl.
  - rewrite (N.eqb_sym l k). destruct (k =? l); reflexivity.
  - destruct (k' =? l) eqn:E1; simpl.
    + apply N.eqb_eq in E1. subst k'. rewrite (N.eqb_sym l k). destruct (k =? l) eqn:E2; auto.
    + rewrite IH. destruct (k' =? k) eqn:E3; auto.
      apply N.eqb_eq in E3. subst k'. rewrite E1. reflexivity.
Qed.

Lemma find_child_In l cs d : find_child l cs = Some d -> In (l, d) cs.
Proof.
  induction cs as [|[k c] cs IH]; simpl; [discriminate|].
  destruct (k =? l) eqn:E; [apply N.eqb_eq in E; intro H; inversion H; subst; auto|auto].
Qed.

(* children maps whose labels are distinct (they are hash-map keys) *)
Lemma find_child_nodup l c cs : NoDup (map fst cs) -> In (l, c) cs -> find_child l cs = Some c.
Proof.
  induction cs as [|[k d] cs IH]; simpl; [tauto|]. intros Hnd Hin. inversion Hnd; subst.
  destruct Hin as [E|Hin].
  - inversion E; subst. rewrite N.eqb_refl. reflexivity.
  - destruct (k =? l) eqn:Ek; [|auto]. apply N.eqb_eq in Ek. subst. exfalso. apply H1.
    apply in_map_iff. exists (l, c). auto.
Qed.

Lemma upsert_keys l f cs : forall k, In k (map fst (upsert_child l f cs)) <-> k = l \/ In k (map fst cs).
Proof.
  induction cs as [|[k' c] cs IH]; intro k; simpl.
  - split; intros [H|H]; auto.
  - destruct (k' =? l) eqn:E; simpl; [|rewrite IH; tauto].
    apply N.eqb_eq in E. subst. split; [intros [H|H]|intros [H|[H|H]]]; auto.
Qed.

Lemma upsert_nodup l f cs : NoDup (map fst cs) -> NoDup (map fst (upsert_child l f cs)).
Proof.
  induction cs as [|[k c] cs IH]; simpl; intro H.
  - constructor; [simpl; tauto|constructor].
  - inversion H; subst. destruct (k =? l) eqn:E; simpl.
    + constructor; assumption.
    + constructor; [|auto]. rewrite upsert_keys. intros [Hk|Hk]; [subst; rewrite N.eqb_refl in E; discriminate|contradiction].
Qed.

Lemma upsert_forall (P : node -> Prop) l f cs :
  Forall (fun lc => P (snd lc)) cs -> P (f true empty_node) -> (forall c, P c -> P (f false c)) ->
  Forall (fun lc => P (snd lc)) (upsert_child l f cs).
Proof.
  intros H Hn Hf. induction cs as [|[k c] cs IH]; simpl.
  - constructor; [exact Hn|constructor].
  - inversion H; subst. destruct (k =? l); constructor; simpl in *; auto.
Qed.

Lemma is_prefix_refl p : is_prefix p p = true.
Proof. induction p; simpl; auto. rewrite N.eqb_refl. auto. Qed.

Lemma name_eqb_prefix p o : name_eqb p o = true -> is_prefix p o = true.
Proof. intro H. apply name_eqb_eq in H. subst. apply is_prefix_refl. Qed.

Lemma name_eqb_sym a b : name_eqb a b = name_eqb b a.
Proof.
  revert b. induction a as [|x a IH]; destruct b as [|y b]; simpl; auto.
  rewrite (N.eqb_sym x y), IH. reflexivity.
Qed.

Lemma is_prefix_app : forall p o, is_prefix p o = true -> exists r, o = p ++ r.
Proof.
  induction p as [|x p IH]; intros o H; simpl in *; [exists o; reflexivity|].
  destruct o as [|y o]; [discriminate|]. apply andb_true_iff in H. destruct H as [H1 H2].
  apply N.eqb_eq in H1. subst. destruct (IH _ H2) as [r Hr]. exists r. simpl. congruence.
Qed.

Lemma below_neq p x r : name_eqb (p ++ x :: r) p = false /\ is_prefix (p ++ x :: r) p = false.
Proof. induction p; simpl; [auto|]. rewrite N.eqb_refl. exact IHp. Qed.

Lemma node_at_app : forall p r x, node_at x (p ++ r) = match node_at x p with Some y => node_at y r | None => None end.
Proof.
  induction p as [|l p IH]; intros r x; simpl; auto.
  destruct (find_child l (n_children x)); auto.
Qed.

(* [mk] is what update_child applies to the nodes it creates *)
Section WithPath.
Variable mk : node -> node.
Hypothesis mk_leaf : n_children (mk empty_node) = [].

Definition base_mk (o : option node) : node := match o with Some x => x | None => mk empty_node end.

Lemma with_path_cons f l p rs s cs :
  with_path mk (l :: p) f (Node rs s cs) =
  Node rs s (upsert_child l (fun created c => with_path mk p f (if created then mk c else c)) cs).
Proof. reflexivity. Qed.

Lemma view_new r : view_of (mk empty_node) r = if is_apex r then Some (info_of (mk empty_node)) else None.
Proof. unfold view_of. destruct r; simpl; [reflexivity|rewrite mk_leaf; reflexivity]. Qed.

Lemma node_at_on f : forall p n r,
  node_at (with_path mk p f n) (p ++ r) = node_at (f (base_mk (node_at n p))) r.
Proof.
  induction p as [|l p IH]; intros n r; [reflexivity|].
  destruct n as [rs s cs]. rewrite with_path_cons. cbn [app node_at n_children].
  rewrite find_upsert, N.eqb_refl.
  destruct (find_child l cs) as [c|]; rewrite IH; [reflexivity|].
  destruct p as [|x p]; [reflexivity|]. simpl. rewrite mk_leaf. reflexivity.
Qed.

Lemma view_off f : forall p n p', is_prefix p p' = false ->
  view_of (with_path mk p f n) p' =
  if is_prefix p' p then Some (match view_of n p' with Some i => i | None => info_of (mk empty_node) end)
  else view_of n p'.
Proof.
  induction p as [|l p IH]; intros n p' H; [discriminate|].
  destruct n as [r s cs]. rewrite with_path_cons. destruct p' as [|l' r']; [reflexivity|].
  unfold view_of. cbn [node_at n_children]. rewrite find_upsert.
  simpl in H. cbn [is_prefix]. rewrite (N.eqb_sym l' l). destruct (l =? l') eqn:El; cbn [andb]; [|reflexivity].
  apply N.eqb_eq in El. subst l'. simpl in H.
  destruct (find_child l cs) as [c|]; [exact (IH c r' H)|].
  fold (view_of (with_path mk p f (mk empty_node)) r'). rewrite IH by exact H. rewrite view_new.
  destruct (is_prefix r' p) eqn:E; destruct r'; try reflexivity. discriminate.
Qed.
(* a rewrite of the target that keeps its children, name by name *)
Lemma view_with_path f (Hf : forall x, n_children (f x) = n_children x) p n p' :
  view_of (with_path mk p f n) p' =
  if name_eqb p' p then Some (info_of (f (base_mk (node_at n p))))
  else if is_prefix p' p then Some (match view_of n p' with Some i => i | None => info_of (mk empty_node) end)
  else view_of n p'.
Proof.
  destruct (is_prefix p p') eqn:E.
  - destruct (is_prefix_app _ _ E) as [r ->]. unfold view_of at 1. rewrite node_at_on.
    destruct r as [|x r]; [rewrite app_nil_r, name_eqb_refl; reflexivity|].
    destruct (below_neq p x r) as [E1 E2]. rewrite E1, E2. unfold view_of. cbn [node_at]. rewrite Hf, node_at_app.
    unfold base_mk. destruct (node_at n p); [reflexivity|]. cbn [node_at]. rewrite mk_leaf. reflexivity.
  - rewrite view_off by exact E. destruct (name_eqb p' p) eqn:E1; [|reflexivity].
    apply name_eqb_eq in E1. subst. rewrite is_prefix_refl in E. discriminate.
Qed.
End WithPath.

(* A builder call seen on views: get_node at [fst c] makes every name above it a
   node, the mutation [snd c] rewrites what the node at [fst c] holds. *)
Definition call := (name * (ninfo -> ninfo))%type.
Definition empty_info := mkInfo [] None.
Definition dflt (o : option ninfo) : ninfo := match o with Some i => i | None => empty_info end.
Definition vtouch (V : view) (c : call) : view :=
  fun p => if name_eqb p (fst c) then Some (snd c (dflt (V (fst c))))
           else if is_prefix p (fst c) then Some (dflt (V p)) else V p.

Lemma view_b_node f fi (Hf : forall x, n_children (f x) = n_children x) (Hfi : forall x, info_of (f x) = fi (info_of x)) o n p :
  view_of (b_node o f n) p = vtouch (view_of n) (o, fi) p.
Proof.
  unfold vtouch, b_node. cbn [fst snd]. rewrite (view_with_path (fun c => c) eq_refl f Hf), Hfi.
  unfold view_of, base_mk. destruct (node_at n o); reflexivity.
Qed.

(* after a list of calls: which names are nodes, and what the calls at a name make of what it held *)
Definition touched (p : name) (cs : list call) : bool := existsb (fun c => is_prefix p (fst c)) cs.
Definition at_name (p : name) (cs : list call) (i : ninfo) : ninfo :=
  fold_left (fun i c => if name_eqb p (fst c) then snd c i else i) cs i.

Lemma calls_view cs : forall V p,
  fold_left vtouch cs V p =
  if touched p cs || match V p with Some _ => true | None => false end then Some (at_name p cs (dflt (V p))) else None.
Proof.
  induction cs as [|[o fi] cs IH]; intros V p; simpl; [destruct (V p); reflexivity|].
  rewrite IH. unfold vtouch. cbn [fst snd]. destruct (name_eqb p o) eqn:E.
  - rewrite (name_eqb_prefix _ _ E). apply name_eqb_eq in E. subst o. simpl. rewrite orb_true_r. reflexivity.
  - destruct (is_prefix p o); simpl; [rewrite orb_true_r; destruct (V p); reflexivity|reflexivity].
Qed.

Lemma calls_ext cs V W : (forall p, V p = W p) -> forall p, fold_left vtouch cs V p = fold_left vtouch cs W p.
Proof. intros H p. rewrite !calls_view, H. reflexivity. Qed.

Lemma touched_app p l1 l2 : touched p (l1 ++ l2) = touched p l1 || touched p l2.
Proof. apply existsb_app. Qed.
Lemma at_name_app p l1 l2 i : at_name p (l1 ++ l2) i = at_name p l2 (at_name p l1 i).
Proof. apply fold_left_app. Qed.

(* a table of the zone file as calls: the entry of key [k] makes the mutations [muts (k, v)] at [k] *)
Definition table_calls {A} (muts : name * A -> list (ninfo -> ninfo)) (L : list (name * A)) : list call :=
  flat_map (fun e => map (pair (fst e)) (muts e)) L.

Lemma table_calls_cons {A} (muts : name * A -> list (ninfo -> ninfo)) e L :
  table_calls muts (e :: L) = map (pair (fst e)) (muts e) ++ table_calls muts L.
Proof. reflexivity. Qed.

Lemma at_entry p k ms : forall i,
  at_name p (map (pair k) ms) i = if name_eqb p k then fold_left (fun i m => m i) ms i else i.
Proof.
  unfold at_name. induction ms as [|m ms IH]; intro i; simpl; [destruct (name_eqb p k); reflexivity|].
  rewrite IH. destruct (name_eqb p k); reflexivity.
Qed.

Lemma alookup_app {A} p (L : list (name * A)) o v :
  alookup p (L ++ [(o, v)]) = match alookup p L with Some x => Some x | None => if name_eqb o p then Some v else None end.
Proof. induction L as [|[k x] L IH]; simpl; auto. destruct (name_eqb k p); auto. Qed.

Lemma alookup_none_iff {A} p (L : list (name * A)) : alookup p L = None <-> existsb (name_eqb p) (map fst L) = false.
Proof.
  induction L as [|[k v] L IH]; simpl; [tauto|]. rewrite (name_eqb_sym p k).
  destruct (name_eqb k p); simpl; [split; discriminate|exact IH].
Qed.

Lemma alookup_not_prefix {A} p (L : list (name * A)) : existsb (is_prefix p) (map fst L) = false -> alookup p L = None.
Proof.
  intro H. apply alookup_none_iff. induction (map fst L) as [|k ks IH]; simpl in *; [reflexivity|].
  apply orb_false_iff in H. destruct H as [H1 H2]. rewrite (IH H2).
  destruct (name_eqb p k) eqn:E; [|reflexivity]. apply name_eqb_prefix in E. congruence.
Qed.

Lemma info_not_exists G zf p : exists_name zf p = false -> info_at_g G zf p = empty_info.
Proof.
  unfold exists_name, owners. intro H. apply orb_false_iff in H. destruct H as [_ H].
  rewrite !existsb_app in H. apply orb_false_iff in H. destruct H as [H1 H]. apply orb_false_iff in H. destruct H as [H2 H3].
  unfold info_at_g, cut_at_g.
  rewrite (alookup_not_prefix p _ H1), (alookup_not_prefix p _ H2), (alookup_not_prefix p _ H3). reflexivity.
Qed.

Lemma nodupb_cons x l : nodupb (x :: l) = negb (existsb (name_eqb x) l) && nodupb l.
Proof. reflexivity. Qed.

Lemma set_rrset_append r rs : existsb (fun x => rs_type x =? rs_type r) rs = false -> set_rrset r rs = rs ++ [r].
Proof.
  induction rs as [|x rs IH]; simpl; auto. intro H. apply orb_false_iff in H. destruct H as [H1 H2].
  rewrite H1, IH by exact H2. reflexivity.
Qed.

Lemma nodup_types_app_notin rs1 r rs2 : nodup_types (rs1 ++ r :: rs2) = true ->
  existsb (fun x => rs_type x =? rs_type r) rs1 = false.
Proof.
  induction rs1 as [|x rs1 IH]; simpl; auto. intro H. apply andb_true_iff in H. destruct H as [H1 H2].
  apply negb_true_iff in H1. rewrite existsb_app in H1. apply orb_false_iff in H1. destruct H1 as [_ H1]. simpl in H1.
  apply orb_false_iff in H1. destruct H1 as [H1 _]. rewrite N.eqb_sym in H1. rewrite H1. simpl. apply IH. exact H2.
Qed.

Lemma exists_name_unfold N C A p :
  exists_name (mkZf N C A) p = is_apex p || (existsb (is_prefix p) (map fst N) || (existsb (is_prefix p) (map fst C) || existsb (is_prefix p) (map fst A))).
Proof. unfold exists_name, owners. simpl. rewrite !existsb_app. reflexivity. Qed.

Definition cut_step (G : list (name * list rrset)) (acc : node * bool) (e : name * (option rrset * option rrset)) : node * bool :=
  let '(z, ok) := acc in
  match fst (snd e) with
  | None => (z, false)
  | Some ns => match insert_zone_cut (fst e) ns (snd (snd e)) (glue_for G ns) z with
               | Ok z' => (z', ok) | _ => (z, false) end
  end.
Definition cname_step (acc : node * bool) (e : name * rr) : node * bool :=
  let '(z, ok) := acc in
  match insert_cname (fst e) (snd e) z with Ok z' => (z', ok) | _ => (z, false) end.
Definition normal_step (acc : node * bool) (e : name * list rrset) : node * bool :=
  let '(z, ok) := acc in (fold_left (fun z r => insert_rrset (fst e) r z) (snd e) z, ok).

Lemma zf_build_unfold zf :
  zf_build zf = fold_left normal_step (zf_normal zf) (fold_left cname_step (zf_cnames zf) (fold_left (cut_step (zf_normal zf)) (zf_cuts zf) (empty_node, true))).
Proof. reflexivity. Qed.

Definition wf_cut (e : name * (option rrset * option rrset)) : bool :=
  negb (is_apex (fst e)) && match fst (snd e) with Some _ => true | None => false end.
Definition wf_cname (C : list (name * (option rrset * option rrset))) (e : name * rr) : bool :=
  negb (is_apex (fst e)) && negb (existsb (name_eqb (fst e)) (map fst C)).
Definition wf_rrset (r : rrset) : bool := match rs_data r with [] => false | _ => true end.
Definition wf_normal (e : name * list rrset) : bool :=
  nodup_types (snd e) && negb (rrsets_is_empty (snd e)) && forallb wf_rrset (snd e).

Lemma wf_zone_parts zf : wf_zone zf = true ->
  nodupb (map fst (zf_normal zf)) = true /\ nodupb (map fst (zf_cuts zf)) = true /\ nodupb (map fst (zf_cnames zf)) = true /\
  forallb wf_normal (zf_normal zf) = true /\ forallb wf_cut (zf_cuts zf) = true /\ forallb (wf_cname (zf_cuts zf)) (zf_cnames zf) = true.
Proof.
  unfold wf_zone. intro H. repeat (apply andb_true_iff in H; destruct H as [H ?]).
  repeat split; auto.
Qed.

Lemma alookup_forallb {A} (P : name * A -> bool) p (L : list (name * A)) v :
  forallb P L = true -> alookup p L = Some v -> P (p, v) = true.
Proof.
  induction L as [|[k x] L IH]; simpl; [discriminate|]. intros H. apply andb_true_iff in H. destruct H as [H1 H2].
  destruct (name_eqb k p) eqn:E; [|exact (IH H2)]. apply name_eqb_eq in E. subst k. intro Hv. inversion Hv; subst. exact H1.
Qed.

Lemma forallb_impl {A} (a b : A -> bool) l : (forall x, a x = true -> b x = true) -> forallb a l = true -> forallb b l = true.
Proof. intros H Ha. rewrite forallb_forall in *. auto. Qed.

Lemma at_table {A} (muts : name * A -> list (ninfo -> ninfo)) p : forall L i, nodupb (map fst L) = true ->
  at_name p (table_calls muts L) i = match alookup p L with Some v => fold_left (fun i m => m i) (muts (p, v)) i | None => i end.
Proof.
  assert (Hother : forall L i, existsb (name_eqb p) (map fst L) = false -> at_name p (table_calls muts L) i = i).
  { induction L as [|[k v] L IH]; intros i H; [reflexivity|]. simpl in H. apply orb_false_iff in H. destruct H as [H1 H2].
    rewrite table_calls_cons, at_name_app, at_entry. cbn [fst]. rewrite H1. apply IH. exact H2. }
  induction L as [|[k v] L IH]; intros i Hnd; [reflexivity|].
  cbn [map fst] in Hnd. rewrite nodupb_cons in Hnd. apply andb_true_iff in Hnd. destruct Hnd as [Hk Hnd]. apply negb_true_iff in Hk.
  rewrite table_calls_cons, at_name_app, at_entry. cbn [fst alookup]. rewrite (name_eqb_sym p k). destruct (name_eqb k p) eqn:E.
  - apply name_eqb_eq in E. subst k. apply Hother. exact Hk.
  - apply IH. exact Hnd.
Qed.

Lemma touched_table {A} (muts : name * A -> list (ninfo -> ninfo)) p (L : list (name * A)) :
  forallb (fun e => match muts e with [] => false | _ => true end) L = true ->
  touched p (table_calls muts L) = existsb (is_prefix p) (map fst L).
Proof.
  induction L as [|e L IH]; intro H; [reflexivity|].
  simpl in H. apply andb_true_iff in H. destruct H as [He H]. rewrite table_calls_cons, touched_app, (IH H). cbn [map existsb]. f_equal.
  unfold touched. destruct (muts e) as [|m ms]; [discriminate|]. simpl. induction ms as [|m' ms IHm]; simpl; [apply orb_false_r|].
  rewrite IHm. apply orb_diag.
Qed.

(* the mutations of the three phases of the conversion *)
Definition cut_muts G (e : name * (option rrset * option rrset)) : list (ninfo -> ninfo) :=
  match fst (snd e) with
  | Some ns => [fun i => mkInfo (i_rrsets i) (Some (Cut (mkCut (fst e) ns (snd (snd e)) (glue_for G ns))))]
  | None => []
  end.
Definition cname_muts (e : name * rr) : list (ninfo -> ninfo) := [fun i => mkInfo (i_rrsets i) (Some (Cname (snd e)))].
Definition rrset_mut (r : rrset) : ninfo -> ninfo := fun i => mkInfo (update_rrsets r (i_rrsets i)) (i_special i).
Definition normal_muts (e : name * list rrset) : list (ninfo -> ninfo) := map rrset_mut (snd e).

Lemma fold_calls {A} (F : node * bool -> name * A -> node * bool) (muts : name * A -> list (ninfo -> ninfo)) (good : name * A -> bool) :
  (forall z ok e, good e = true ->
     snd (F (z, ok) e) = ok /\ forall p, view_of (fst (F (z, ok) e)) p = fold_left vtouch (map (pair (fst e)) (muts e)) (view_of z) p) ->
  forall L z ok, forallb good L = true ->
  snd (fold_left F L (z, ok)) = ok /\
  forall p, view_of (fst (fold_left F L (z, ok))) p = fold_left vtouch (table_calls muts L) (view_of z) p.
Proof.
  intros HF. induction L as [|e L IH]; intros z ok Hg; [split; reflexivity|].
  simpl in Hg. apply andb_true_iff in Hg. destruct Hg as [He Hg]. rewrite table_calls_cons.
  destruct (HF z ok e He) as [H1 H2]. cbn [fold_left]. destruct (F (z, ok) e) as [z1 ok1]. simpl in H1, H2. subst ok1.
  destruct (IH z1 ok Hg) as [H3 H4]. split; [exact H3|]. intro p. rewrite H4, fold_left_app. apply calls_ext. exact H2.
Qed.

Lemma insert_rrsets_view o : forall rs z p,
  view_of (fold_left (fun z r => insert_rrset o r z) rs z) p = fold_left vtouch (map (pair o) (map rrset_mut rs)) (view_of z) p.
Proof.
  induction rs as [|r rs IH]; intros z p; [reflexivity|]. cbn [fold_left map]. rewrite IH. apply calls_ext.
  intro q. apply view_b_node; intros [x s c]; reflexivity.
Qed.

(* the RRsets of an entry, inserted one by one into an empty node, are the entry *)
Lemma fold_rrset_muts s : forall rs2 rs1, nodup_types (rs1 ++ rs2) = true -> forallb wf_rrset rs2 = true ->
  fold_left (fun i m => m i) (map rrset_mut rs2) (mkInfo rs1 s) = mkInfo (rs1 ++ rs2) s.
Proof.
  induction rs2 as [|r rs2 IH]; intros rs1 Hnd Hwf; [rewrite app_nil_r; reflexivity|].
  simpl in Hwf. apply andb_true_iff in Hwf. destruct Hwf as [Hr Hwf]. cbn [map fold_left]. unfold rrset_mut at 2. cbn [i_rrsets i_special].
  assert (Hu : update_rrsets r rs1 = rs1 ++ [r]).
  { unfold update_rrsets. unfold wf_rrset in Hr. destruct (rs_data r); [discriminate|].
    apply set_rrset_append. exact (nodup_types_app_notin _ _ _ Hnd). }
  rewrite Hu, IH, <- app_assoc; [reflexivity| |exact Hwf]. rewrite <- app_assoc. exact Hnd.
Qed.

Lemma normal_entry N p i : forallb wf_normal N = true -> i_rrsets i = [] ->
  match alookup p N with Some v => fold_left (fun i m => m i) (normal_muts (p, v)) i | None => i end
  = mkInfo (match alookup p N with Some rs => rs | None => [] end) (i_special i).
Proof.
  intros HwN Hi. destruct i as [r s]. simpl in Hi. subst r. destruct (alookup p N) as [rs|] eqn:EN; [|reflexivity].
  pose proof (alookup_forallb _ _ _ _ HwN EN) as Hn. unfold wf_normal in Hn. cbn [snd] in Hn.
  apply andb_true_iff in Hn. destruct Hn as [Hn H3]. apply andb_true_iff in Hn. destruct Hn as [H1 _].
  exact (fold_rrset_muts s rs [] H1 H3).
Qed.

Definition zf_calls (zf : zonefile) : list call :=
  table_calls (cut_muts (zf_normal zf)) (zf_cuts zf) ++ table_calls cname_muts (zf_cnames zf) ++ table_calls normal_muts (zf_normal zf).

Lemma build_calls zf : wf_zone zf = true ->
  snd (zf_build zf) = true /\ forall p, view_of (fst (zf_build zf)) p = fold_left vtouch (zf_calls zf) (view_of empty_node) p.
Proof.
  intro Hwf. destruct (wf_zone_parts zf Hwf) as (_ & _ & _ & HwN & HwC & HwA). rewrite zf_build_unfold.
  destruct (fold_calls (cut_step (zf_normal zf)) (cut_muts (zf_normal zf)) wf_cut) with (L := zf_cuts zf) (z := empty_node) (ok := true)
    as [O1 V1]; [|exact HwC|].
  { intros z ok [o [ns ds]] Hw. unfold wf_cut in Hw. cbn [fst snd] in Hw. destruct o as [|l o]; [discriminate|]. destruct ns as [ns|]; [|discriminate].
    split; [reflexivity|]. intro p. apply view_b_node; intros [x s c]; reflexivity. }
  destruct (fold_left (cut_step _) (zf_cuts zf) _) as [z1 ok1]. cbn [fst snd] in O1, V1. subst ok1.
  destruct (fold_calls cname_step cname_muts (wf_cname (zf_cuts zf))) with (L := zf_cnames zf) (z := z1) (ok := true) as [O2 V2]; [|exact HwA|].
  { intros z ok [o c] Hw. unfold wf_cname in Hw. cbn [fst] in Hw. destruct o as [|l o]; [discriminate|].
    split; [reflexivity|]. intro p. apply view_b_node; intros [x s c0]; reflexivity. }
  destruct (fold_left cname_step (zf_cnames zf) _) as [z2 ok2]. cbn [fst snd] in O2, V2. subst ok2.
  destruct (fold_calls normal_step normal_muts wf_normal) with (L := zf_normal zf) (z := z2) (ok := true) as [O3 V3]; [|exact HwN|].
  { intros z ok e _. split; [reflexivity|]. intro p. apply insert_rrsets_view. }
  split; [exact O3|]. intro p. unfold zf_calls.
  rewrite V3, (calls_ext _ _ _ V2), (calls_ext _ _ _ (calls_ext _ _ _ V1)), <- !fold_left_app. reflexivity.
Qed.

Theorem build_view zf : wf_zone zf = true ->
  snd (zf_build zf) = true /\ forall p, view_of (fst (zf_build zf)) p = flat_view zf p.
Proof.
  intro Hwf. destruct (build_calls zf Hwf) as [Hok Hv]. split; [exact Hok|]. intro p. rewrite Hv, calls_view.
  destruct (wf_zone_parts zf Hwf) as (HN & HC & HA & HwN & HwC & HwA). unfold zf_calls.
  rewrite (view_new (fun c => c) eq_refl). cbv beta. unfold flat_view, flat_view_g.
  rewrite !touched_app, !at_name_app, (at_table _ p _ _ HC), (at_table _ p _ _ HA), (at_table _ p _ _ HN), !touched_table.
  2:{ apply (forallb_impl wf_normal); [|exact HwN]. intros [o [|r rs]] H; [discriminate|reflexivity]. }
  2:{ apply forallb_forall. intros; reflexivity. }
  2:{ apply (forallb_impl wf_cut); [|exact HwC].
      intros [o [[ns|] ds]] H; [reflexivity|unfold wf_cut in H; rewrite andb_false_r in H; discriminate]. }
  (* the names: the apex and whatever is at or above an owner *)
  replace (_ || _) with (exists_name zf p).
  2:{ unfold exists_name, owners. rewrite !existsb_app.
      destruct (is_apex p), (existsb (is_prefix p) (map fst (zf_normal zf))), (existsb (is_prefix p) (map fst (zf_cuts zf))),
        (existsb (is_prefix p) (map fst (zf_cnames zf))); reflexivity. }
  destruct (exists_name zf p); [|reflexivity]. f_equal.
  (* what a name holds: starting from nothing, the entry of each table for it *)
  replace (dflt (if is_apex p then Some (info_of empty_node) else None)) with empty_info by (destruct (is_apex p); reflexivity).
  unfold info_at_g, cut_at_g.
  destruct (alookup p (zf_cnames zf)) as [c|] eqn:EA.
  - (* an alias: no delegation has its owner *)
    pose proof (alookup_forallb _ _ _ _ HwA EA) as Hw. unfold wf_cname in Hw. cbn [fst] in Hw.
    apply andb_true_iff in Hw. destruct Hw as [_ Hw]. apply negb_true_iff in Hw. rewrite (proj2 (alookup_none_iff p (zf_cuts zf)) Hw).
    cbn [cname_muts fold_left snd]. rewrite (normal_entry _ p _ HwN) by reflexivity. reflexivity.
  - destruct (alookup p (zf_cuts zf)) as [[[ns|] ds]|] eqn:EC.
    2:{ pose proof (alookup_forallb _ _ _ _ HwC EC) as Hw. unfold wf_cut in Hw. rewrite andb_false_r in Hw. discriminate. }
    all: cbn [cut_muts fold_left fst snd]; rewrite (normal_entry _ p _ HwN) by reflexivity; reflexivity.
Qed.

Lemma flat_special_not_marker G zf p : i_special (info_at_g G zf p) <> Some NxDomain.
Proof.
  unfold info_at_g. simpl. destruct (cut_at_g G zf p); [discriminate|].
  destruct (alookup p (zf_cnames zf)); discriminate.
Qed.

Lemma build_node zf : wf_zone zf = true -> forall p,
  match node_at (fst (zf_build zf)) p with
  | Some x => exists_name zf p = true /\ info_of x = info_at_g (zf_normal zf) zf p /\ cinfo x = info_of x
  | None => exists_name zf p = false
  end.
Proof.
  intros Hwf p. destruct (build_view zf Hwf) as [_ Hv]. specialize (Hv p).
  unfold view_of, flat_view, flat_view_g in Hv.
  destruct (node_at (fst (zf_build zf)) p) as [x|]; simpl in Hv; destruct (exists_name zf p); try discriminate; [|reflexivity].
  assert (Hi : info_of x = info_at_g (zf_normal zf) zf p) by congruence. split; [reflexivity|]. split; [exact Hi|].
  unfold cinfo, info_of. f_equal. destruct (n_special x) as [[c|c|]|] eqn:Es; auto.
  exfalso. apply (flat_special_not_marker (zf_normal zf) zf p). rewrite <- Hi. exact Es.
Qed.

Definition has_content (y : node) : bool :=
  negb (rrsets_is_empty (n_rrsets y)) || match n_special y with Some (Cut _) => true | Some (Cname _) => true | _ => false end.

Lemma exists_from_content : forall p x y, node_at x p = Some y -> has_content y = true -> node_exists x = true.
Proof.
  induction p as [|l p IH]; intros x y Hy Hc; simpl in Hy.
  - inversion Hy; subst. destruct y as [rs sp cs]. rewrite node_exists_unfold. unfold has_content in Hc. simpl in Hc.
    rewrite Hc. reflexivity.
  - destruct (find_child l (n_children x)) as [d|] eqn:E; [|discriminate].
    pose proof (IH d y Hy Hc) as Hd.
    destruct x as [rs sp cs]. rewrite node_exists_unfold. simpl in E.
    assert (Hex : existsb (fun lc => node_exists (snd lc)) cs = true).
    { apply existsb_exists. exists (l, d). split; [exact (find_child_In _ _ _ E)|exact Hd]. }
    rewrite Hex. apply orb_true_r.
Qed.

Lemma alookup_in {A} o (L : list (name * A)) : In o (map fst L) -> exists v, alookup o L = Some v.
Proof.
  induction L as [|[k v] L IH]; simpl; [tauto|]. intros Hin. destruct (name_eqb k o) eqn:E; [exists v; reflexivity|].
  destruct Hin as [Hin|Hin]; [subst; rewrite name_eqb_refl in E; discriminate|auto].
Qed.

Lemma owner_has_content zf o : wf_zone zf = true -> In o (owners zf) ->
  forall y, info_of y = info_at_g (zf_normal zf) zf o -> has_content y = true.
Proof.
  intros Hwf Hin y Hy. destruct (wf_zone_parts zf Hwf) as (_ & _ & _ & HwN & HwC & HwA).
  unfold has_content. change (n_rrsets y) with (i_rrsets (info_of y)). change (n_special y) with (i_special (info_of y)).
  rewrite Hy. unfold info_at_g, cut_at_g. simpl.
  unfold owners in Hin. apply in_app_or in Hin. destruct Hin as [Hin|Hin].
  - destruct (alookup_in _ _ Hin) as [[|r rs] E]; [discriminate (alookup_forallb _ _ _ _ HwN E)|]. rewrite E. reflexivity.
  - apply in_app_or in Hin. destruct Hin as [Hin|Hin].
    + destruct (alookup_in _ _ Hin) as [[[ns|] ds] E].
      * rewrite E. apply orb_true_r.
      * pose proof (alookup_forallb _ _ _ _ HwC E) as Hv. unfold wf_cut in Hv. rewrite andb_false_r in Hv. discriminate.
    + destruct (alookup_in _ _ Hin) as [c E]. rewrite E.
      destruct (alookup o (zf_cuts zf)) as [[[ns|] ds]|]; apply orb_true_r.
Qed.

Theorem build_lview zf : wf_zone zf = true -> forall p, lview (fst (zf_build zf)) p = flat_view zf p.
Proof.
  intros Hwf p. pose proof (build_node zf Hwf) as Hn. set (z := fst (zf_build zf)) in *.
  pose proof (Hn p) as Hp. unfold lview, flat_view, flat_view_g.
  destruct (node_at z p) as [x|] eqn:Ex; [|rewrite Hp; reflexivity].
  destruct Hp as (Ee & Hi & Hci). rewrite Ee, Hci, Hi.
  assert (Hl : is_apex p || node_exists x = true).
  { destruct p as [|l p']; [reflexivity|]. simpl.
    unfold exists_name in Ee. cbn [is_apex orb] in Ee. apply existsb_exists in Ee. destruct Ee as (o & Ho & Hpre).
    destruct (is_prefix_app (l :: p') o Hpre) as [r Hr].
    assert (Heo : exists_name zf o = true).
    { unfold exists_name. apply orb_true_iff. right. apply existsb_exists. exists o. split; auto. apply is_prefix_refl. }
    pose proof (Hn o) as Hno. destruct (node_at z o) as [y|] eqn:Ey; [|congruence]. destruct Hno as (_ & Hyi & _).
    rewrite Hr, node_at_app, Ex in Ey.
    apply (exists_from_content r x y Ey). exact (owner_has_content zf o Hwf Ho y Hyi). }
  rewrite Hl. reflexivity.
Qed.

Lemma alookup_apex {A} (P : name * A -> bool) (L : list (name * A)) :
  (forall e, P e = true -> is_apex (fst e) = false) -> forallb P L = true -> alookup [] L = None.
Proof.
  intros HP. induction L as [|[k v] L IH]; simpl; auto. intro H. apply andb_true_iff in H. destruct H as [H1 H2].
  apply HP in H1. destruct k; [discriminate|auto].
Qed.

Lemma apex_not_special G zf : wf_zone zf = true -> i_special (info_at_g G zf []) = None.
Proof.
  intro Hwf. destruct (wf_zone_parts zf Hwf) as (_ & _ & _ & _ & HwC & HwA).
  assert (Hb : forall a b, negb a && b = true -> a = false) by (intros [|] b H; [discriminate|reflexivity]).
  unfold info_at_g, cut_at_g. simpl.
  rewrite (alookup_apex wf_cut _ (fun e => Hb _ _) HwC), (alookup_apex (wf_cname _) _ (fun e => Hb _ _) HwA). reflexivity.
Qed.

Lemma lview_answers_spec t zf : wf_zone zf = true -> (forall p, lview t p = flat_view zf p) ->
  forall q qt, query t q qt = spec zf q qt.
Proof.
  intros Hwf H q qt.
  assert (Hroot : cinfo t = info_at_g (zf_normal zf) zf []).
  { specialize (H []). unfold lview, flat_view, flat_view_g in H. simpl in H. congruence. }
  assert (Hs : clean (n_special t) = None).
  { change (i_special (cinfo t) = None). rewrite Hroot. apply apex_not_special. exact Hwf. }
  rewrite query_is_vspec by assumption. unfold spec. f_equal.
  - assert (Hr : n_rrsets t = match alookup [] (zf_normal zf) with Some rs => rs | None => [] end).
    { change (n_rrsets t) with (i_rrsets (cinfo t)). rewrite Hroot. reflexivity. }
    unfold get_soa, soa_of. change soa_type with rt_soa. rewrite Hr.
    destruct (alookup [] (zf_normal zf)); reflexivity.
  - apply vspec_ext. exact H.
Qed.

Theorem build_answers_spec zf : wf_zone zf = true ->
  forall q qt, query (fst (zf_build zf)) q qt = spec zf q qt.
Proof. intros Hwf. apply lview_answers_spec; auto. apply build_lview. exact Hwf. Qed.

(* ANY: the answer is one of the RRsets at the matched name (hash order in the
   implementation, list order here) *)
Lemma spec_rrsets_any_member rs : 
  match na_content (spec_rrsets rs rt_any) with AData r => In r rs | ANoData => rs = [] | _ => False end.
Proof. unfold spec_rrsets. rewrite N.eqb_refl. destruct rs; simpl; auto. Qed.

(* non-vacuity: a zone with a wildcard, an empty non-terminal, a delegation with glue and an alias *)
Definition ex_zone : zonefile :=
  mkZf [ ([], [mkRrset rt_soa 60 [mkRd 1 None]; mkRrset rt_ns 300 [mkRd 2 None]]);
         ([wild_label], [mkRrset rt_a 101 [mkRd 3 None]]);
         ([354; 353], [mkRrset rt_a 101 [mkRd 5 None]]);
         ([371; 366], [mkRrset rt_a 77 [mkRd 7 None]]) ]
       [ ([371], (Some (mkRrset rt_ns 300 [mkRd 0 (Some [371; 366])]), Some (mkRrset rt_ds 120 [mkRd 6 None]))) ]
       [ ([364], mkRr 200 (mkRd 0 (Some [400]))) ].

Example ex_zone_wf : wf_zone ex_zone = true. Proof. reflexivity. Qed.
Example ex_zone_answers :
  let z := fst (zf_build ex_zone) in
  a_rcode (query z [999] rt_a) = rc_noerror /\ a_content (query z [999] rt_a) = AData (mkRrset rt_a 101 [mkRd 3 None]) /\
  a_rcode (query z [354] rt_a) = rc_noerror /\ a_content (query z [354] rt_a) = ANoData /\
  a_rcode (query z [354; 999] rt_a) = rc_nxdomain /\
  a_aa (query z [371; 5] rt_a) = false /\ a_addl (query z [371; 5] rt_a) = [mkG [371; 366] rt_a 77 (mkRd 7 None)] /\
  a_content (query z [364] rt_a) = ACname (mkRr 200 (mkRd 0 (Some [400]))) /\
  query z [354; 999] rt_a = spec ex_zone [354; 999] rt_a.
Proof. vm_compute. repeat split; reflexivity. Qed.

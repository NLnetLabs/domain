(* C06: per-type presentation schemas.  Gen.type_schemas (T1) lists, for every
   regular record type, the writer calls of its ZonefileFmt impl and the scanner
   calls of its scan function.  Writer and reader agree field by field for every
   type (finite check), and scan_show_record is instantiated for every type. *)
From Coq Require Import NArith ZArith List Bool Lia ZifyBool.
From DV Require Import Base.Outcome C06.Gen C06.Model C06.Proofs C06.Proofs3.
Import ListNotations.
Local Open Scope N_scope.

Lemma type_schemas_ok : forallb schema_ok type_schemas = true.
Proof. vm_compute. reflexivity. Qed.

Lemma compat_all_length ws : forall rs, compat_all ws rs = true -> length ws = length rs.
Proof.
  induction ws as [|w ws IH]; intros [|r rs] H; cbn [compat_all] in H; try discriminate; [reflexivity|].
  apply andb_true_iff in H as [H _]. apply andb_true_iff in H as [_ H]. cbn [length]. f_equal. apply IH, H.
Qed.

Lemma opt_map_length {A B} (f : A -> option B) l : forall ys, opt_map f l = Some ys -> length ys = length l.
Proof.
  induction l as [|x l IH]; intros ys H; cbn [opt_map] in H.
  - injection H as <-. reflexivity.
  - destruct (f x); [|discriminate]. destruct (opt_map f l) as [zs|]; [|discriminate].
    injection H as <-. cbn [length]. f_equal. apply IH. reflexivity.
Qed.

Lemma wf_fields_length ks : forall vs, wf_fields ks vs -> length ks = length vs.
Proof.
  induction ks as [|k ks IH]; intros [|v vs] W; cbn [wf_fields] in W; try contradiction; [reflexivity|].
  destruct W as (_ & _ & W). cbn [length]. f_equal. apply IH, W.
Qed.

Lemma with_comments_fst ws : forall vs, length ws = length vs -> map fst (with_comments ws vs) = vs.
Proof.
  induction ws as [|w ws IH]; intros [|v vs] L; cbn [length] in L; try discriminate; [reflexivity|].
  cbn [with_comments map fst]. f_equal. apply IH. lia.
Qed.

Lemma with_comments_ok ws : forall vs,
  forallb (fun w => negb (mem ch_lf (snd (snd w)))) ws = true -> comments_ok (with_comments ws vs).
Proof.
  induction ws as [|w ws IH]; intros vs H; [constructor|]. destruct vs as [|v vs]; [constructor|].
  cbn [forallb] in H. apply andb_true_iff in H as [H1 H2]. cbn [with_comments]. constructor; [|apply IH, H2].
  cbn [snd].
  assert (T : ~ In ch_lf (snd (snd w))) by (intros K; apply mem_In in K; rewrite K in H1; discriminate).
  assert (Z : ~ In ch_lf (@nil N)) by (intros []).
  destruct (fst (snd w)) as [|p]; [constructor|].
  destruct p as [p|p|]; try destruct p; repeat constructor; assumption.
Qed.

(* scan_show_record for any schema whose writer and reader sides agree *)
Lemma scan_show_record_schema e : schema_ok e = true ->
  exists ks, schema_kinds e = Some ks /\
  forall k owner ttl cl vs, wf_name owner -> ttl <= 4294967295 -> cl < 65536 -> wf_fields ks vs ->
  exists t, show_record k (typed_record e owner ttl cl vs) = Ok t /\
            read_record ks t = Ok (owner, ttl, cl, s_code e, vs).
Proof.
  intros A.
  unfold schema_ok in A. apply andb_true_iff in A as [A A4]. apply andb_true_iff in A as [A A3].
  apply andb_true_iff in A as [A1 A2].
  destruct (schema_kinds e) as [ks|] eqn:K; [|discriminate]. exists ks. split; [reflexivity|].
  intros k owner ttl cl vs Wo Wt Wc Wf.
  assert (L : length (s_wfields e) = length vs).
  { pose proof (compat_all_length _ _ A1) as L1. unfold schema_kinds in K.
    pose proof (opt_map_length _ _ _ K) as L2. rewrite combine_length, map_length in L2.
    pose proof (wf_fields_length _ _ Wf) as L3. lia. }
  assert (W : wf_record ks (typed_record e owner ttl cl vs)).
  { unfold wf_record, typed_record. cbn [r_owner r_ttl r_class r_type r_fields].
    rewrite with_comments_fst by exact L.
    split; [exact Wo|]. split; [exact Wt|]. split; [exact Wc|]. split; [lia|].
    split; [exact Wf | apply with_comments_ok, A3]. }
  destruct (scan_show_record k ks _ W) as (t & S & R). exists t. split; [exact S|].
  rewrite R. unfold typed_record. cbn [r_owner r_ttl r_class r_type r_fields]. rewrite with_comments_fst by exact L.
  reflexivity.
Qed.

(* ... for every regular record type, with the schema read off the code *)
Theorem scan_show_record_typed e : In e type_schemas ->
  exists ks, schema_kinds e = Some ks /\
  forall k owner ttl cl vs, wf_name owner -> ttl <= 4294967295 -> cl < 65536 -> wf_fields ks vs ->
  exists t, show_record k (typed_record e owner ttl cl vs) = Ok t /\
            read_record ks t = Ok (owner, ttl, cl, s_code e, vs).
Proof.
  intros Hin. pose proof type_schemas_ok as A. rewrite forallb_forall in A. apply scan_show_record_schema, A, Hin.
Qed.

(* ... and for IPSECKEY with each of the gateway forms (none ".", IPv4, IPv6, name) *)
Lemma ipseckey_schemas_ok : forallb (fun g => schema_ok (resolve_gateway ipseckey_schema g)) ipseckey_gateways = true.
Proof. vm_compute. reflexivity. Qed.

Theorem scan_show_record_ipseckey g : In g ipseckey_gateways ->
  let e := resolve_gateway ipseckey_schema g in
  exists ks, schema_kinds e = Some ks /\
  forall k owner ttl cl vs, wf_name owner -> ttl <= 4294967295 -> cl < 65536 -> wf_fields ks vs ->
  exists t, show_record k (typed_record e owner ttl cl vs) = Ok t /\
            read_record ks t = Ok (owner, ttl, cl, s_code e, vs).
Proof.
  intros Hin e. pose proof ipseckey_schemas_ok as A. rewrite forallb_forall in A. apply scan_show_record_schema, (A g Hin).
Qed.

Example ex_ipseckey_kinds : map (fun g => schema_kinds (resolve_gateway ipseckey_schema g)) ipseckey_gateways
  = [Some [FUint 255; FUint 255; FUint 255; FDot; FRest]; Some [FUint 255; FUint 255; FUint 255; FIp4; FRest];
     Some [FUint 255; FUint 255; FUint 255; FWord; FRest]; Some [FUint 255; FUint 255; FUint 255; FName; FRest]].
Proof. vm_compute. reflexivity. Qed.

(* non-vacuity: MX, DS *)
Example ex_typed_mx : c06_rec 2 15 [[97]] 300 1 [VUint 10; VName [[109]; [120]]]
  = Ok ([97; 46; 32; 51; 48; 48; 32; 73; 78; 32; 77; 88; 32; 40; 32; 49; 48; 9; 59; 32; 112; 114; 101; 102; 101; 114; 101; 110; 99; 101; 10;
         32; 32; 32; 32; 32; 32; 32; 32; 32; 32; 32; 32; 32; 32; 32; 109; 46; 120; 46; 32; 41; 10],
        Ok ([[97]], 300, 1, 15, [VUint 10; VName [[109]; [120]]])).
Proof. vm_compute. reflexivity. Qed.
Example ex_typed_ds_schema : option_map (fun e => (s_block e, schema_kinds e)) (find_schema type_schemas 43)
  = Some (true, Some [FUint 65535; FUint 255; FUint 255; FRest]).
Proof. vm_compute. reflexivity. Qed.

(* nesting: the writer's block depth exceeds 1 for NSEC3 / NSEC3PARAM (the salt is a block
   inside the record's block), so the reader's parenthesis state must be a counter *)
Fixpoint max_depth (d m : N) (ops : list op) : N :=
  match ops with
  | [] => m
  | OBegin :: r => max_depth (d + 1) (N.max m (d + 1)) r
  | OEnd :: r => max_depth (d - 1) m r
  | _ :: r => max_depth d m r
  end.

Definition nsec3_example : option record :=
  option_map (fun e => typed_record e [[97]] 0 1 [VUint 1; VUint 0; VUint 10; VSalt []; VB32 [0]; VTypes [1; 46]])
             (find_schema type_schemas 50).

Lemma nsec3_nests_two_deep :
  option_map (fun r => max_depth 0 0 (record_ops r)) nsec3_example = Some 2.
Proof. vm_compute. reflexivity. Qed.

(* its multi-line text (line feeds at depth 1 and 2, two closing parentheses) is read as the
   eleven tokens *)
Lemma nsec3_multiline_tokens :
  option_map (fun r => do t <- show_record KMulti r; do ts <- tokenize t; Ok (length ts)) nsec3_example
  = Some (Ok 11%nat).
Proof. vm_compute. reflexivity. Qed.

(* a reader that only remembers WHETHER it is inside parentheses ends the group at the inner
   ')' and rejects the outer one *)
Lemma paren_depth_must_count :
  run (Ok (2, [], MSkip false)) [41; 32; 41; 10] = Ok (0, [], MDone) /\
  run (Ok (1, [], MSkip false)) [41; 32; 41; 10] = Err E_parens.
Proof. split; vm_compute; reflexivity. Qed.

(* IPv6 address text: the run that "::" replaces lies inside the address and consists of zero groups *)
Definition run_sound (l : list bool) : bool :=
  let '(st, ln) := zero_run l 0 (0, 0) (0, 0) in
  (N.to_nat (st + ln) <=? length l)%nat &&
  forallb (fun b => b) (firstn (N.to_nat ln) (skipn (N.to_nat st) l)) &&
  Nat.eqb (length (firstn (N.to_nat ln) (skipn (N.to_nat st) l))) (N.to_nat ln).

Fixpoint bool_lists (n : nat) : list (list bool) :=
  match n with O => [[]] | S n => flat_map (fun l => [true :: l; false :: l]) (bool_lists n) end.

Lemma bool_lists_all n : forall l, length l = n -> In l (bool_lists n).
Proof.
  induction n as [|n IH]; intros [|b l] L; try discriminate; [left; reflexivity|].
  cbn [bool_lists]. apply in_flat_map. exists l. split; [apply IH; injection L as L; exact L|].
  destruct b; cbn [In]; tauto.
Qed.

Lemma zero_run_sound : forall l, length l = 8%nat -> run_sound l = true.
Proof.
  intros l L. assert (H : forallb run_sound (bool_lists 8) = true) by (vm_compute; reflexivity).
  rewrite forallb_forall in H. apply H, bool_lists_all, L.
Qed.

Example ex_ip6_roundtrip :
  forallb (fun g => match parse_ip6 (show_ip6 g) with Some g' => (Nat.eqb (length g) (length g') && forallb (fun p => fst p =? snd p) (combine g g')) | None => false end)
    [[0;0;0;0;0;0;0;0]; [0;0;0;0;0;0;0;1]; [8193;3512;0;0;0;0;0;1]; [1;0;0;2;0;0;0;3]; [1;0;0;0;2;0;0;0]; [0;0;0;0;0;65535;258;772];
     [0;0;0;0;0;0;258;772]; [1;2;3;4;5;6;7;8]; [1;0;3;0;5;0;7;0]; [0;1;0;0;1;0;0;0]; [65535;65535;65535;65535;65535;65535;65535;0]] = true.
Proof. vm_compute. reflexivity. Qed.

(* known finding empty_field_NSEC3: an empty next-owner hash is written as an empty token in
   mid-record and the record does not read back (wf_field FB32 requires a non-empty hash) *)
Lemma nsec3_empty_next_owner_refuted :
  c06_rec 0 50 [] 0 1 [VUint 1; VUint 0; VUint 10; VSalt []; VB32 []; VTypes [1]]
  = Ok ([46; 32; 48; 32; 73; 78; 32; 78; 83; 69; 67; 51; 32; 49; 32; 48; 32; 49; 48; 32; 45; 32; 32; 65; 10], Err 2).
Proof. vm_compute. reflexivity. Qed.

(* the structural T1 anchors (each is `true` exactly when its source pattern still matches; a
   changed source makes the extractor fail and this file does not build) *)
Lemma t1_structural_anchors :
  sym_display_checked && parens_is_counter && scan_name_rejects_empty_label && scan_name_at_is_origin &&
  charstr_entry_requires_token && record_order_owner_ttl_class_type && generic_lower_hex_with_spaces &&
  svcb_key_charset_inclusive && uint_scan_add_checked && svcb_values_escaped_with_parens = true.
Proof. reflexivity. Qed.

(* C06 tables: plain words, decimal numbers through the integer scanners, and tables of
   mnemonics with a PREFIXn form for the values that have none (classes, record types, SVCB
   keys): the text of every 16-bit value parses back. *)
From Coq Require Import NArith PeanoNat List Bool Lia ZifyBool.
From DV Require Import Base.Outcome C06.Gen C06.Model C06.Proofs.
Import ListNotations.
Local Open Scope N_scope.

Definition plain_char (c : N) : bool := (33 <=? c) && (c <=? 126) && negb (mem c [34; 40; 41; 59; 92]).
Definition plain_word (t : text) : bool :=
  negb (match t with [] => true | _ => false end) && forallb plain_char t.

Lemma plain_word_spec t : plain_word t = true <-> t <> [] /\ forallb plain_char t = true.
Proof.
  unfold plain_word. destruct t as [|c t]; cbn [negb andb].
  - split; [discriminate | intros [NE _]; congruence].
  - split; [intros H; split; [discriminate | exact H] | intros [_ H]; exact H].
Qed.

Lemma plain_char_facts c : plain_char c = true ->
  safe_sym false (SChar c) = true /\ into_ascii (SChar c) = Ok c /\ into_octet (SChar c) = Ok c.
Proof.
  unfold plain_char, mem. cbn [existsb]. intros H.
  assert (R : 33 <= c <= 126 /\ c <> 34 /\ c <> 40 /\ c <> 41 /\ c <> 59 /\ c <> 92) by lia.
  destruct R as (R1 & R2 & R3 & R4 & R5 & R6).
  split; [|split].
  - cbn [safe_sym]. unfold mem, word_excl, ascii_limit. cbn [existsb]. lia.
  - cbn [into_ascii]. destruct ((32 <=? c) && (c <=? 126)) eqn:E; [reflexivity|lia].
  - cbn [into_octet]. unfold octet_lo, octet_hi. destruct ((32 <=? c) && (c <=? 126)) eqn:E; [reflexivity|lia].
Qed.

Lemma plain_syms_safe t : forallb plain_char t = true -> forallb (safe_sym false) (map SChar t) = true.
Proof.
  induction t as [|c t IH]; intros H; [reflexivity|]. cbn [forallb map] in *.
  apply andb_true_iff in H as [H1 H2]. destruct (plain_char_facts c H1) as (S & _). rewrite S. apply IH, H2.
Qed.

Lemma plain_syms_read f t : (forall c, plain_char c = true -> f (SChar c) = Ok c) ->
  forallb plain_char t = true -> map_o f (map SChar t) = Ok t.
Proof.
  intros F. induction t as [|c t IH]; intros H; [reflexivity|].
  cbn [forallb map map_o] in *. apply andb_true_iff in H as [H1 H2].
  rewrite (F c H1), IH by exact H2. reflexivity.
Qed.

Lemma plain_read_ascii sp t : forallb plain_char t = true -> read_ascii (shape_tok sp (TWord (map SChar t))) = Ok t.
Proof. apply plain_syms_read. intros c H. apply plain_char_facts, H. Qed.

Lemma plain_read_octets sp t : forallb plain_char t = true -> read_octets (shape_tok sp (TWord (map SChar t))) = Ok t.
Proof. apply plain_syms_read. intros c H. apply plain_char_facts, H. Qed.

Lemma plain_word_good t : plain_word t = true -> good_shape (TWord (map SChar t)) = true.
Proof.
  intros H. apply plain_word_spec in H as [NE P]. cbn [good_shape].
  rewrite plain_syms_safe by exact P. destruct t; [congruence | reflexivity].
Qed.

Lemma plain_word_text t : word_text (map SChar t) = Ok t.
Proof. induction t as [|c t IH]; [reflexivity|]. cbn [map word_text]. rewrite IH. reflexivity. Qed.

Lemma digit_plain c : is_digit c = true -> plain_char c = true.
Proof. unfold is_digit, plain_char, mem. cbn [existsb]. lia. Qed.

Lemma show_dec_chars (P : N -> bool) n : (forall c, is_digit c = true -> P c = true) -> forallb P (show_dec n) = true.
Proof.
  intros H. pose proof (show_dec_digits n) as D. induction (show_dec n) as [|c t IH]; [reflexivity|].
  cbn [all_digits forallb] in *. apply andb_true_iff in D as [D1 D2]. rewrite (H c D1), IH by exact D2. reflexivity.
Qed.

Lemma show_dec_plain n : plain_word (show_dec n) = true.
Proof. apply plain_word_spec. split; [apply show_dec_nonempty | apply show_dec_chars, digit_plain]. Qed.

Lemma parse_show_dec max n : n <= max -> parse_uint_str max (show_dec n) = Some n.
Proof.
  intros H. unfold parse_uint_str.
  pose proof (show_dec_digits n) as D. pose proof (show_dec_nonempty n) as NE. pose proof (show_dec_value n) as V.
  destruct (show_dec n) as [|c t] eqn:E; [congruence|].
  assert (C : c <> 43). { cbn [all_digits] in D. apply andb_true_iff in D as [D _]. unfold is_digit in D. lia. }
  assert (M : forall (A : Type) (x y : A), match c with 43 => x | _ => y end = y).
  { intros A x y. destruct c as [|p]; [reflexivity|]. repeat (destruct p as [p|p|]; try reflexivity). congruence. }
  rewrite M, D, V. destruct (n <=? max) eqn:E2; [reflexivity|lia].
Qed.

Lemma dec_value_ge t : forall a, a <= fold_left (fun a c => a * 10 + (c - 48)) t a.
Proof. induction t as [|c t IH]; intros a; [cbn; lia|]. cbn [fold_left]. specialize (IH (a * 10 + (c - 48))). lia. Qed.

Lemma uint_fold_err max t : fold_left (uint_step max) t (Err E_number) = Err E_number.
Proof. induction t as [|x t IH]; [reflexivity|]. cbn [fold_left]. exact IH. Qed.

(* impl_scan_unsigned! on decimal digits: their value if it is at most [max], an error
   (checked_mul / checked_add, no wrapping) above *)
Lemma uint_fold max t : forall acc, all_digits t = true -> acc <= max ->
  fold_left (uint_step max) (map SChar t) (Ok acc)
  = if fold_left (fun a c => a * 10 + (c - 48)) t acc <=? max
    then Ok (fold_left (fun a c => a * 10 + (c - 48)) t acc) else Err E_number.
Proof.
  induction t as [|c t IH]; intros acc D A.
  - cbn [map fold_left]. destruct (acc <=? max) eqn:E; [reflexivity | lia].
  - cbn [all_digits] in D. apply andb_true_iff in D as [D1 D2]. cbn [map fold_left].
    pose proof (dec_value_ge t (acc * 10 + (c - 48))) as M. unfold uint_step at 2. cbn [bind].
    destruct (max <? acc * 10) eqn:E1;
      [|rewrite D1; destruct (max <? acc * 10 + (c - 48)) eqn:E2; [|apply IH; [exact D2 | lia]]];
      (rewrite uint_fold_err; destruct (_ <=? max) eqn:E; [lia | reflexivity]).
Qed.

Lemma read_uint_dec max n sp : read_uint max (shape_tok sp (TWord (digit_syms (show_dec n))))
  = if n <=? max then Ok n else Err E_number.
Proof.
  unfold read_uint, digit_syms. cbn [shape_tok t_syms]. rewrite uint_fold by (apply show_dec_digits || lia).
  fold (dec_value (show_dec n)). rewrite show_dec_value. reflexivity.
Qed.

(* scan_show_int: u8 / u16 / u32 written in decimal read back *)
Theorem scan_show_int max n sp : n <= max ->
  good_shape (TWord (digit_syms (show_dec n))) = true /\
  shape_text (TWord (digit_syms (show_dec n))) = show_dec n /\
  read_uint max (shape_tok sp (TWord (digit_syms (show_dec n)))) = Ok n.
Proof.
  intros H. split; [apply plain_word_good, show_dec_plain | split; [apply schar_text|]].
  rewrite read_uint_dec. destruct (n <=? max) eqn:E; [reflexivity | lia].
Qed.

(* every decimal number above the maximum is rejected, not wrapped *)
Theorem scan_int_rejects_above max n sp : max < n ->
  read_uint max (shape_tok sp (TWord (digit_syms (show_dec n)))) = Err E_number.
Proof. intros H. rewrite read_uint_dec. destruct (n <=? max) eqn:E; [lia | reflexivity]. Qed.

Definition opt_is (a : option N) (v : N) : bool := match a with Some x => x =? v | None => false end.
Definition opt_none (a : option N) : bool := match a with None => true | Some _ => false end.

Lemma eq_nocase_refl a : eq_nocase a a = true.
Proof. induction a as [|x a IH]; [reflexivity|]. cbn [eq_nocase]. rewrite N.eqb_refl. exact IH. Qed.

Lemma eq_nocase_app a : forall m b, eq_nocase m (a ++ b) = true ->
  eq_nocase (firstn (length a) m) a = true /\ eq_nocase (skipn (length a) m) b = true.
Proof.
  induction a as [|x a IH]; intros m b H.
  - cbn. split; [reflexivity | exact H].
  - destruct m as [|y m]; [discriminate|]. cbn [app eq_nocase] in H.
    destruct (upper y =? upper x) eqn:E; [|discriminate].
    destruct (IH m b H) as [H1 H2]. cbn [length firstn skipn eq_nocase]. rewrite E. split; assumption.
Qed.

Lemma eq_nocase_digits x : forall ds, eq_nocase x ds = true -> all_digits ds = true -> all_digits x = true.
Proof.
  induction x as [|c x IH]; intros [|d ds] H D; try discriminate; [reflexivity|].
  cbn [eq_nocase] in H. destruct (upper c =? upper d) eqn:E; [|discriminate].
  cbn [all_digits] in *. apply andb_true_iff in D as [D1 D2]. rewrite (IH ds H D2), andb_true_r.
  unfold upper, is_digit in *. destruct ((97 <=? c) && (c <=? 122)) eqn:E1; destruct ((97 <=? d) && (d <=? 122)) eqn:E2; lia.
Qed.

(* no mnemonic of the table reads as [pre] followed by digits *)
Definition tbl_free (pre : text) (tbl : list (N * text)) : bool :=
  forallb (fun e => negb (eq_nocase (firstn (length pre) (snd e)) pre && all_digits (skipn (length pre) (snd e)))) tbl.

Lemma no_mnemonic pre ds tbl : tbl_free pre tbl = true -> all_digits ds = true ->
  find_mnemonic tbl (pre ++ ds) = None.
Proof.
  intros F D. induction tbl as [|[v m] tbl IH]; [reflexivity|].
  cbn [tbl_free forallb snd] in F. apply andb_true_iff in F as [F1 F2]. cbn [find_mnemonic].
  destruct (eq_nocase m (pre ++ ds)) eqn:E; [|apply IH, F2].
  destruct (eq_nocase_app pre m ds E) as [E1 E2]. rewrite E1 in F1.
  rewrite (eq_nocase_digits _ _ E2 D) in F1. discriminate.
Qed.

Lemma find_value_in tbl v m : find_value tbl v = Some m -> In (v, m) tbl.
Proof.
  induction tbl as [|[x y] tbl IH]; [discriminate|]. cbn [find_value].
  destruct (x =? v) eqn:E; [|intros H; right; apply IH, H].
  intros [= ->]. apply N.eqb_eq in E. subst x. left. reflexivity.
Qed.

(* a mnemonic finds the value of its own row, is not empty and consists of characters [P] *)
Definition row_ok (P : N -> bool) (tbl : list (N * text)) (e : N * text) : bool :=
  opt_is (find_mnemonic tbl (snd e)) (fst e) && negb (match snd e with [] => true | _ => false end) && forallb P (snd e).

(* The text of a value reads back and consists of characters [P].  Values with a mnemonic: by
   the check of their row; all others are written as the prefix and a decimal number, which no
   mnemonic matches. *)
Theorem prefixed_roundtrip (P : N -> bool) tbl pre v :
  forallb (row_ok P tbl) tbl = true -> tbl_free pre tbl = true ->
  forallb P pre = true -> (forall c, is_digit c = true -> P c = true) -> v <= 65535 ->
  parse_prefixed tbl pre (show_prefixed tbl pre v) = Some v /\
  show_prefixed tbl pre v <> [] /\ forallb P (show_prefixed tbl pre v) = true.
Proof.
  intros R F Pp Pd V. unfold show_prefixed. destruct (find_value tbl v) as [m|] eqn:E.
  - rewrite forallb_forall in R. specialize (R _ (find_value_in _ _ _ E)). unfold row_ok in R. cbn [fst snd] in R.
    apply andb_true_iff in R as [R R3]. apply andb_true_iff in R as [R1 R2].
    unfold parse_prefixed. destruct (find_mnemonic tbl m) as [x|]; [|discriminate].
    apply N.eqb_eq in R1. subst x. split; [reflexivity|]. split; [|exact R3]. intros ->. discriminate.
  - pose proof (show_dec_nonempty v) as NE. split; [|split].
    + unfold parse_prefixed. rewrite no_mnemonic by (exact F || apply show_dec_digits).
      rewrite firstn_app, Nat.sub_diag, firstn_all, skipn_app, Nat.sub_diag, skipn_all. cbn [firstn skipn app].
      rewrite app_nil_r, eq_nocase_refl, app_length.
      assert (L : Nat.ltb (length pre) (length pre + length (show_dec v)) = true).
      { apply Nat.ltb_lt. destruct (show_dec v); [congruence | cbn [length]; lia]. }
      rewrite L. apply parse_show_dec, V.
    + intros H. apply app_eq_nil in H as [_ H]. contradiction.
    + rewrite forallb_app, Pp. apply show_dec_chars, Pd.
Qed.

Lemma rtype_text t : t < 65536 -> plain_word (show_rtype t) = true /\ parse_rtype (show_rtype t) = Some t.
Proof.
  intros H. destruct (prefixed_roundtrip plain_char rtype_mnemonics rtype_prefix t) as (R & NE & P);
    [vm_compute; reflexivity | reflexivity | reflexivity | exact digit_plain | lia |].
  split; [apply plain_word_spec; split; assumption | exact R].
Qed.

Lemma class_text c : c < 65536 ->
  plain_word (show_class c) = true /\ parse_rtype (show_class c) = None /\ parse_class (show_class c) = Some c.
Proof.
  intros H. destruct (prefixed_roundtrip plain_char class_mnemonics class_prefix c) as (R & NE & P);
    [reflexivity | reflexivity | reflexivity | exact digit_plain | lia |].
  split; [apply plain_word_spec; split; assumption | split; [|exact R]].
  unfold show_class, show_prefixed. destruct (find_value class_mnemonics c) as [m|] eqn:E.
  - (* no class mnemonic is a type mnemonic or TYPEn *)
    assert (A : forallb (fun e => opt_none (parse_rtype (snd e))) class_mnemonics = true) by reflexivity.
    rewrite forallb_forall in A. specialize (A _ (find_value_in _ _ _ E)). cbn [snd] in A.
    destruct (parse_rtype m); [discriminate | reflexivity].
  - (* CLASSn is no type mnemonic and does not start with TYPE *)
    unfold parse_rtype, parse_prefixed. rewrite no_mnemonic by (reflexivity || apply show_dec_digits).
    unfold rtype_prefix, class_prefix. cbn [length app firstn].
    replace (eq_nocase [67; 76; 65; 83] [84; 89; 80; 69]) with false by reflexivity.
    rewrite andb_false_r. reflexivity.
Qed.

(* class tokens are never taken for a type; class and type mnemonics / CLASSn / TYPEn read back *)
Definition class_ok (c : N) : bool :=
  let s := show_class c in plain_word s && opt_none (parse_rtype s) && opt_is (parse_class s) c.
Definition rtype_ok (t : N) : bool :=
  let s := show_rtype t in plain_word s && opt_is (parse_rtype s) t.

Lemma class_table : forall c, c < 65536 -> class_ok c = true.
Proof.
  intros c H. destruct (class_text c H) as (P & R & C). unfold class_ok. cbv zeta. rewrite P, R, C.
  apply N.eqb_refl.
Qed.

Lemma rtype_table : forall t, t < 65536 -> rtype_ok t = true.
Proof.
  intros t H. destruct (rtype_text t H) as (P & R). unfold rtype_ok. cbv zeta. rewrite P, R.
  apply N.eqb_refl.
Qed.

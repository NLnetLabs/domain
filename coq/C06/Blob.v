(* C06: Base16 / Base64 fields through the C18 models.  A binary field at the end
   of a record (DS, DNSKEY, RRSIG, ...) is written as the C18 encoder's text -- a
   word-safe token, or an empty token for no octets -- and convert_entry hands the
   word texts of the remaining tokens to the C18 SymbolConverter. *)
From Coq Require Import NArith List Bool Lia ZifyBool.
From DV Require Import Base.Outcome Base.Bytes C06.Gen C06.Model C06.Proofs C06.Tables C06.B32 C06.Proofs3.
From DV Require C18.Model C18.Props.
Import ListNotations.
Local Open Scope N_scope.

Lemma alpha_plain : forallb plain_char M18.alpha64 = true /\ forallb plain_char M18.alpha16 = true /\ plain_char 61 = true.
Proof. vm_compute. repeat split. Qed.

Lemma val64_plain c : c = 61 \/ M18.val64 c <> None -> plain_char c = true.
Proof.
  intros [->|H]; [apply alpha_plain|]. apply index_of_in in H.
  destruct alpha_plain as [A _]. rewrite forallb_forall in A. apply A, H.
Qed.

Lemma val16_plain c : M18.val16 c <> None -> plain_char c = true.
Proof.
  intros H. apply index_of_in in H. unfold M18.upper in H.
  destruct ((97 <=? c) && (c <=? 122)) eqn:E.
  - unfold plain_char, mem. cbn [existsb]. lia.
  - destruct alpha_plain as (_ & A & _). rewrite forallb_forall in A. apply A, H.
Qed.

(* the tokens the reader sees for a rest-of-entry word, and their word texts *)
Lemma rest_tokens_words w :
  map_o (fun t => word_text (t_syms t)) (map (shape_tok true) (field_shapes (VRest w)))
  = Ok (match w with [] => [] | _ => [w] end).
Proof.
  destruct w as [|c w]; [reflexivity|]. cbn [field_shapes]. remember (c :: w) as x.
  cbn [map map_o shape_tok t_syms]. rewrite plain_word_text. reflexivity.
Qed.

Theorem blob16_roundtrip bs : wf_bytes bs ->
  exists w, M18.b16_display bs = Ok w /\ wf_field FRest (VRest w) /\
    M18.b16_convert (match w with [] => [] | _ => [w] end) = Ok bs.
Proof.
  intros W. destruct (DV.C18.Props.C18_b16_decode_encode bs W) as (w & D & R). exists w. split; [exact D|]. split.
  - cbn [wf_field]. destruct (DV.C18.Props.C18_accepts_only_alphabet w bs) as (_ & _ & A). destruct (A R) as [F _].
    eapply forall_plain; [|exact F]. exact val16_plain.
  - destruct w as [|c w].
    + vm_compute in R. injection R as <-. vm_compute. reflexivity.
    + destruct (DV.C18.Props.C18_converter_agrees_with_decoder [c :: w]) as (_ & _ & S).
      cbn [concat] in S. rewrite app_nil_r, R in S. unfold DV.C18.ProofsConv.same_result in S.
      destruct (M18.b16_convert [c :: w]); try contradiction. subst. reflexivity.
Qed.

Theorem blob64_roundtrip bs : wf_bytes bs ->
  exists w, M18.b64_display bs = Ok w /\ wf_field FRest (VRest w) /\
    M18.b64_convert (match w with [] => [] | _ => [w] end) = Ok bs.
Proof.
  intros W. destruct (DV.C18.Props.C18_b64_decode_encode bs W) as (w & D & R). exists w. split; [exact D|]. split.
  - cbn [wf_field]. destruct (DV.C18.Props.C18_accepts_only_alphabet w bs) as (A & _). destruct (A R) as [_ F].
    eapply forall_plain; [|exact F]. exact val64_plain.
  - destruct w as [|c w].
    + vm_compute in R. injection R as <-. vm_compute. reflexivity.
    + destruct (DV.C18.Props.C18_converter_agrees_with_decoder [c :: w]) as (S & _).
      cbn [concat] in S. rewrite app_nil_r, R in S. unfold DV.C18.ProofsConv.same_result in S.
      destruct (M18.b64_convert [c :: w]); try contradiction. subst. reflexivity.
Qed.

Example ex_blob16 : M18.b16_display [222; 173] = Ok [68; 69; 65; 68].
Proof. vm_compute. reflexivity. Qed.

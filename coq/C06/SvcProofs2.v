(* C06: SVCB / HTTPS parameters, part 2: port, ohttp, ech (through C18), and the comma lists
   (tls-supported-groups, ipv4hint, mandatory, ipv6hint) read back *)
From Coq Require Import NArith List Bool Lia ZifyBool.
From DV Require Import Base.Outcome Base.Bytes C06.Gen C06.Model C06.Proofs C06.Tables C06.Proofs3 C06.Blob C06.Svc C06.SvcProofs.
From DV Require C18.Model.
Import ListNotations.
Local Open Scope N_scope.

(* a key followed by a value of plain characters *)
Lemma key_chars_read k v sp : k < 65536 -> forallb plain_char v = true ->
  good_shape (TWord (key_eq k (chars v))) = true /\
  read_param (shape_tok sp (TWord (key_eq k (chars v)))) = parse_value k v.
Proof.
  intros Hk P. apply key_value_read; [exact Hk | apply plain_syms_safe, P | exact (plain_read_octets true v P)].
Qed.

Theorem svc_port_roundtrip n sp : n <= 65535 ->
  good_shape (TWord (show_param (PPort n))) = true /\
  read_param (shape_tok sp (TWord (show_param (PPort n)))) = Ok (PPort n).
Proof.
  intros Hn. cbn [show_param].
  destruct (key_chars_read 3 (show_dec n) sp ltac:(lia) (show_dec_chars _ n digit_plain)) as [G R].
  split; [exact G|]. rewrite R. unfold parse_value. cbn [N.eqb Pos.eqb].
  rewrite parse_show_dec by exact Hn. pose proof (show_dec_nonempty n). destruct (show_dec n); [congruence | reflexivity].
Qed.

Theorem svc_ohttp_roundtrip sp :
  good_shape (TWord (show_param POhttp)) = true /\ read_param (shape_tok sp (TWord (show_param POhttp))) = Ok POhttp.
Proof. destruct sp; split; vm_compute; reflexivity. Qed.

(* ech: the Base64 text of C18's encoder, read by C18's converter *)
Theorem svc_ech_roundtrip b sp : wf_bytes b -> b <> [] ->
  good_shape (TWord (show_param (PEch b))) = true /\
  read_param (shape_tok sp (TWord (show_param (PEch b)))) = Ok (PEch b).
Proof.
  intros W NEb. destruct (blob64_roundtrip b W) as (w & D & Pw & C). cbn [wf_field] in Pw.
  cbn [show_param]. rewrite D.
  destruct (key_chars_read 5 w sp ltac:(lia) Pw) as [G R].
  split; [exact G|]. rewrite R. unfold parse_value. cbn [N.eqb Pos.eqb].
  destruct w as [|c w]; [vm_compute in C; congruence|]. remember (c :: w) as v.
  assert (F : forallb (fun c => (33 <=? c) && (c <? 127) && negb (mem c [34; 59; 92])) v = true).
  { clear - Pw. induction v as [|x v IH]; [reflexivity|]. cbn [forallb] in *. apply andb_true_iff in Pw as [P1 P2].
    rewrite IH by exact P2. rewrite andb_true_r. unfold plain_char, mem in *. cbn [existsb] in *. lia. }
  subst v. rewrite F.
  cbv iota in C. unfold text, bytes in *. rewrite C. reflexivity.
Qed.

Definition item_ok (w : text) : Prop := w <> [] /\ ~ In 44 w /\ ~ In 92 w.

Lemma split_items_word w : forall cur rest, ~ In 44 w -> ~ In 92 w ->
  split_items cur (w ++ rest) = split_items (rev w ++ cur) rest.
Proof.
  induction w as [|c w IH]; intros cur rest H1 H2; [reflexivity|].
  cbn [app split_items].
  destruct (c =? 44) eqn:E1; [exfalso; apply H1; left; apply N.eqb_eq in E1; congruence|].
  destruct (c =? 92) eqn:E2; [exfalso; apply H2; left; apply N.eqb_eq in E2; congruence|].
  rewrite IH; [| intros K; apply H1; right; exact K | intros K; apply H2; right; exact K]. cbn [rev]. rewrite <- app_assoc. reflexivity.
Qed.

Lemma join_comma_nonempty w ws : w <> [] -> join_comma (w :: ws) <> [].
Proof. intros NE. destruct ws; cbn [join_comma]; [exact NE | destruct w; [congruence | discriminate]]. Qed.

Lemma split_items_join ws : ws <> [] -> Forall item_ok ws -> split_items [] (join_comma ws) = Ok ws.
Proof.
  induction ws as [|w ws IH]; intros NE F; [congruence|].
  inversion F as [|? ? (Wn & W1 & W2) F']; subst.
  destruct ws as [|w2 ws].
  - cbn [join_comma]. rewrite <- (app_nil_r w) at 1. rewrite split_items_word by assumption.
    cbn [split_items]. rewrite app_nil_r, rev_involutive. reflexivity.
  - change (join_comma (w :: w2 :: ws)) with (w ++ 44 :: join_comma (w2 :: ws)).
    rewrite split_items_word by assumption. cbn [split_items N.eqb Pos.eqb]. rewrite app_nil_r, rev_involutive.
    specialize (IH ltac:(discriminate) F'). inversion F' as [|? ? (W2n & _) _]; subst.
    pose proof (join_comma_nonempty w2 ws W2n) as J. destruct (join_comma (w2 :: ws)) eqn:E; [destruct (J E)|].
    rewrite IH. reflexivity.
Qed.

Lemma plain_join ws : Forall (fun w => forallb plain_char w = true) ws -> forallb plain_char (join_comma ws) = true.
Proof.
  induction ws as [|w ws IH]; intros F; [reflexivity|]. inversion F as [|? ? Pw F']; subst.
  destruct ws as [|w2 ws]; [exact Pw|].
  change (join_comma (w :: w2 :: ws)) with (w ++ 44 :: join_comma (w2 :: ws)).
  rewrite forallb_app, Pw. cbn [forallb]. rewrite IH by exact F'. reflexivity.
Qed.

(* the common part of the list-valued keys: items whose text reads back, has neither comma nor
   backslash and is plain *)
Lemma svc_list_read {A} (show : A -> text) (parse : text -> option A) k l sp : k < 65536 -> l <> [] ->
  Forall (fun x => parse (show x) = Some x /\ item_ok (show x) /\ forallb plain_char (show x) = true) l ->
  good_shape (TWord (key_eq k (chars (join_comma (map show l))))) = true /\
  read_param (shape_tok sp (TWord (key_eq k (chars (join_comma (map show l)))))) = parse_value k (join_comma (map show l)) /\
  value_items (join_comma (map show l)) = Ok (map show l) /\ opt_list (map parse (map show l)) = Some l.
Proof.
  intros Hk NE F.
  assert (Fi : Forall item_ok (map show l)) by (rewrite Forall_map; eapply Forall_impl; [|exact F]; intros x Hx; apply Hx).
  assert (Fp : Forall (fun w => forallb plain_char w = true) (map show l))
    by (rewrite Forall_map; eapply Forall_impl; [|exact F]; intros x Hx; apply Hx).
  destruct (key_chars_read k _ sp Hk (plain_join _ Fp)) as [G R].
  split; [exact G|]. split; [exact R|]. split.
  - destruct l as [|x l]; [congruence|]. cbn [map] in *. unfold value_items.
    inversion Fi as [|? ? (Wn & _) _]; subst. pose proof (join_comma_nonempty _ (map show l) Wn) as J.
    rewrite <- (split_items_join (show x :: map show l) ltac:(discriminate) Fi). destruct (join_comma (show x :: map show l)) eqn:E; [destruct (J E) | reflexivity].
  - clear - F. induction F as [|x l (Hx & _) _ IH]; [reflexivity|]. cbn [map opt_list fold_right].
    fold (opt_list (map parse (map show l))). rewrite IH, Hx. reflexivity.
Qed.

Lemma digits_item n : item_ok (show_dec n).
Proof.
  pose proof (show_dec_chars is_digit n (fun c H => H)) as D.
  split; [apply show_dec_nonempty | split; apply (forallb_notin _ _ _ D); reflexivity].
Qed.

Theorem svc_groups_roundtrip l sp : l <> [] -> Forall (fun n => n <= 65535) l -> no_dups l = true ->
  good_shape (TWord (show_param (PGroups l))) = true /\
  read_param (shape_tok sp (TWord (show_param (PGroups l)))) = Ok (PGroups l).
Proof.
  intros NE B ND.
  destruct (svc_list_read show_dec (parse_uint_str 65535) 9 l sp ltac:(lia) NE) as (G & R & V & O).
  { eapply Forall_impl; [|exact B]. intros n Hn. split; [apply parse_show_dec, Hn|].
    split; [apply digits_item | apply show_dec_chars, digit_plain]. }
  destruct l; [congruence|]. cbn [show_param]. split; [exact G|].
  rewrite R. unfold parse_value. cbn [N.eqb Pos.eqb]. rewrite V. cbn [bind]. rewrite O, ND. reflexivity.
Qed.

Lemma ip4_item a : wf_ip4 a -> item_ok (show_ip4 a) /\ forallb plain_char (show_ip4 a) = true.
Proof.
  intros W. pose proof (show_ip4_plain a W) as P. apply plain_word_spec in P as [NE P].
  pose proof (show_ip4_chars (fun c => is_digit c || (c =? 46)) a ltac:(intros c H; cbv beta; rewrite H; reflexivity) eq_refl) as D.
  split; [|exact P]. split; [exact NE | split; apply (forallb_notin _ _ _ D); reflexivity].
Qed.

Theorem svc_ipv4hint_roundtrip l sp : l <> [] -> Forall wf_ip4 l ->
  good_shape (TWord (show_param (PIp4hint l))) = true /\
  read_param (shape_tok sp (TWord (show_param (PIp4hint l)))) = Ok (PIp4hint l).
Proof.
  intros NE W.
  destruct (svc_list_read show_ip4 parse_ip4 4 l sp ltac:(lia) NE) as (G & R & V & O).
  { eapply Forall_impl; [|exact W]. intros a Wa. split; [apply parse_show_ip4, Wa | apply ip4_item, Wa]. }
  destruct l; [congruence|]. cbn [show_param]. split; [exact G|].
  rewrite R. unfold parse_value. cbn [N.eqb Pos.eqb]. rewrite V. cbn [bind]. rewrite O. reflexivity.
Qed.

(* mandatory: key names in ascending order (the reader collects them in a BTreeSet) *)
Fixpoint asc (l : list N) : bool :=
  match l with x :: (y :: _) as r => (x <? y) && asc r | _ => true end.

Lemma asc_tail x l : asc (x :: l) = true -> asc l = true /\ Forall (fun y => x < y) l.
Proof.
  revert x. induction l as [|y l IH]; intros x H; [split; [reflexivity | constructor]|].
  cbn [asc] in H. apply andb_true_iff in H as [H1 H2]. split; [exact H2|]. constructor; [lia|].
  eapply Forall_impl; [|apply IH, H2]. intros z Hz. cbv beta in Hz. lia.
Qed.

Lemma asc_sort l : asc l = true -> sort_keys l = l.
Proof.
  induction l as [|x l IH]; intros H; [reflexivity|]. destruct (asc_tail x l H) as [Hl F].
  unfold sort_keys. cbn [fold_right]. fold (sort_keys l). rewrite IH by exact Hl.
  destruct F as [|y l Hy _]; [reflexivity|]. cbn [insert_sorted]. destruct (x <=? y) eqn:E; [reflexivity|lia].
Qed.

Lemma asc_no_dups l : asc l = true -> no_dups l = true.
Proof.
  induction l as [|x l IH]; intros H; [reflexivity|]. destruct (asc_tail x l H) as [Hl F]. cbn [no_dups].
  rewrite IH by exact Hl. rewrite andb_true_r. apply negb_true_iff, not_mem. intros K.
  rewrite Forall_forall in F. specialize (F x K). lia.
Qed.

Theorem svc_mandatory_roundtrip ks sp : ks <> [] -> Forall (fun k => 1 <= k < 65536) ks -> asc ks = true ->
  good_shape (TWord (show_param (PMandatory ks))) = true /\
  read_param (shape_tok sp (TWord (show_param (PMandatory ks)))) = Ok (PMandatory ks).
Proof.
  intros NE B A.
  destruct (svc_list_read svc_key_name parse_svc_key 0 ks sp ltac:(lia) NE) as (G & R & V & O).
  { eapply Forall_impl; [|exact B]. intros k Hk. cbv beta in Hk.
    destruct (svc_key_text k ltac:(lia)) as (P & Nk & Ak & Pl). split; [exact P|]. split; [|exact Pl].
    rewrite forallb_forall in Ak. split; [exact Nk|]. split; intros K; apply Ak in K; discriminate K. }
  assert (M0 : mem 0 ks = false).
  { apply not_mem. intros K. rewrite Forall_forall in B. specialize (B 0 K). lia. }
  destruct ks; [congruence|]. cbn [show_param]. split; [exact G|].
  rewrite R. unfold parse_value. cbn [N.eqb]. rewrite V. cbn [bind].
  rewrite O, M0, (asc_no_dups _ A), (asc_sort _ A). reflexivity.
Qed.

Example ex_mandatory : read_param (mk_tok false true (show_param (PMandatory [1; 3; 700]))) = Ok (PMandatory [1; 3; 700]).
Proof. vm_compute. reflexivity. Qed.

(* ipv6hint, for addresses whose text reads back and is a list item (ProofsW: every address) *)
Definition ip6_text_ok (g : list N) : Prop :=
  parse_ip6 (show_ip6 g) = Some g /\ item_ok (show_ip6 g) /\ forallb plain_char (show_ip6 g) = true.

Theorem svc_ipv6hint_roundtrip l sp : l <> [] -> Forall ip6_text_ok l ->
  good_shape (TWord (show_param (PIp6hint l))) = true /\
  read_param (shape_tok sp (TWord (show_param (PIp6hint l)))) = Ok (PIp6hint l).
Proof.
  intros NE W.
  destruct (svc_list_read show_ip6 parse_ip6 6 l sp ltac:(lia) NE W) as (G & R & V & O).
  destruct l; [congruence|]. cbn [show_param]. split; [exact G|].
  rewrite R. unfold parse_value. cbn [N.eqb Pos.eqb]. rewrite V. cbn [bind]. rewrite O. reflexivity.
Qed.

Example ex_ip6_text_ok : ip6_text_ok [8193; 3512; 0; 0; 0; 0; 0; 1].
Proof. split; [vm_compute; reflexivity|]. split; [|vm_compute; reflexivity].
  split; [vm_compute; discriminate|]. split; vm_compute; intuition discriminate. Qed.

Example ex_port : read_param (mk_tok false true (show_param (PPort 65535))) = Ok (PPort 65535).
Proof. vm_compute. reflexivity. Qed.
Example ex_groups : read_param (mk_tok false true (show_param (PGroups [29; 23; 65535]))) = Ok (PGroups [29; 23; 65535]).
Proof. vm_compute. reflexivity. Qed.
Example ex_ech : read_param (mk_tok false true (show_param (PEch [0; 255; 7]))) = Ok (PEch [0; 255; 7]).
Proof. vm_compute. reflexivity. Qed.
Example ex_ip4hint : read_param (mk_tok false true (show_param (PIp4hint [[1; 2; 3; 4]; [0; 0; 0; 0]]))) = Ok (PIp4hint [[1; 2; 3; 4]; [0; 0; 0; 0]]).
Proof. vm_compute. reflexivity. Qed.

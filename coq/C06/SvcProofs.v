(* C06: SVCB / HTTPS parameters: key names, a key with its value as one token, dohpath and
   unknown keys read back, and the witnesses of the known findings *)
From Coq Require Import NArith List Bool Lia ZifyBool.
From DV Require Import Base.Outcome Base.Bytes C06.Gen C06.Model C06.Proofs C06.Tables C06.Svc.
Import ListNotations.
Local Open Scope N_scope.

Lemma svc_sym_table : forall b, b < 256 -> enc_ok false svc_sym b = true.
Proof. apply forall_octets. vm_compute. reflexivity. Qed.

Lemma svc_key_text k : k < 65536 ->
  parse_svc_key (svc_key_name k) = Some k /\ svc_key_name k <> [] /\
  forallb allowed_key_char (svc_key_name k) = true /\ forallb plain_char (svc_key_name k) = true.
Proof.
  intros H.
  destruct (prefixed_roundtrip allowed_key_char svc_mnemonics svc_prefix k) as (R & NE & A);
    [reflexivity | reflexivity | reflexivity | unfold is_digit, allowed_key_char; lia | lia |].
  destruct (prefixed_roundtrip plain_char svc_mnemonics svc_prefix k) as (_ & _ & P);
    [reflexivity | reflexivity | reflexivity | exact digit_plain | lia |].
  repeat split; assumption.
Qed.

Lemma split_key_name name : forall acc rest, forallb allowed_key_char name = true ->
  split_key acc (name ++ 61 :: rest) = Ok (rev acc ++ name, rest) /\ split_key acc name = Ok (rev acc ++ name, []).
Proof.
  induction name as [|c name IH]; intros acc rest H.
  - cbn. rewrite app_nil_r. split; reflexivity.
  - cbn [forallb] in H. apply andb_true_iff in H as [H1 H2]. cbn [app split_key]. rewrite H1.
    destruct (IH (c :: acc) rest H2) as [I1 I2]. rewrite I1, I2. cbn [rev]. rewrite <- app_assoc. split; reflexivity.
Qed.

(* a key followed by a value whose symbols denote the octets [b]: the token is a legal word and
   the reader hands the key and [b] to value_from_scan_octets *)
Lemma key_value_read k v b sp : k < 65536 -> forallb (safe_sym false) v = true -> map_o into_octet v = Ok b ->
  good_shape (TWord (key_eq k v)) = true /\
  read_param (shape_tok sp (TWord (key_eq k v))) = parse_value k b.
Proof.
  intros Hk Sv Ov. destruct (svc_key_text k Hk) as (P & NE & A & Pl).
  unfold key_eq. set (name := svc_key_name k) in *.
  pose proof (plain_read_octets true name Pl : map_o into_octet (chars name) = Ok name) as On.
  destruct (split_key_name name [] b A) as [K1 K2]. cbn [rev app] in K1, K2.
  split.
  - cbn [good_shape]. rewrite forallb_app. unfold chars. rewrite plain_syms_safe by exact Pl.
    destruct name; [congruence|]. destruct v; [reflexivity|]. cbn [forallb] in *. rewrite Sv. reflexivity.
  - unfold read_param, read_octets. cbn [shape_tok t_syms].
    assert (O : map_o into_octet (chars name ++ match v with [] => [] | _ => SChar 61 :: v end)
                = Ok (name ++ match v with [] => [] | _ => 61 :: b end)).
    { apply map_o_app; [exact On|]. destruct v; [reflexivity|]. cbn [map_o] in *.
      change (into_octet (SChar 61)) with (Ok 61 : outcome N). cbn [bind]. rewrite Ov. reflexivity. }
    rewrite O. cbn [bind]. unfold parse_param.
    destruct v as [|s v].
    + injection Ov as <-. rewrite app_nil_r. destruct name; [congruence|]. rewrite K2. cbn [bind fst snd].
      rewrite P. reflexivity.
    + destruct name; [congruence|]. cbn [app] in *. rewrite K1. cbn [bind fst snd]. rewrite P. reflexivity.
Qed.

Theorem svc_unknown_roundtrip k b sp : 9 < k < 65536 -> wf_bytes b ->
  good_shape (TWord (show_param (PUnknown k b))) = true /\
  read_param (shape_tok sp (TWord (show_param (PUnknown k b)))) = Ok (PUnknown k b).
Proof.
  intros Hk W. cbn [show_param].
  destruct (key_value_read k (map svc_sym b) b sp ltac:(lia) (enc_safe _ _ _ W svc_sym_table) (enc_octets _ _ _ W svc_sym_table)) as [G R].
  split; [exact G|]. rewrite R. unfold parse_value.
  repeat match goal with |- context [k =? ?c] => let E := fresh in destruct (k =? c) eqn:E; [lia|] end. reflexivity.
Qed.

Theorem svc_dohpath_roundtrip b sp : wf_bytes b -> utf8_ok (S (length b)) b = true ->
  good_shape (TWord (show_param (PDohpath b))) = true /\
  read_param (shape_tok sp (TWord (show_param (PDohpath b)))) = Ok (PDohpath b).
Proof.
  intros W U. cbn [show_param].
  destruct (key_value_read 7 (map svc_sym b) b sp ltac:(lia) (enc_safe _ _ _ W svc_sym_table) (enc_octets _ _ _ W svc_sym_table)) as [G R].
  split; [exact G|]. rewrite R. unfold parse_value. cbn [N.eqb Pos.eqb]. rewrite U. reflexivity.
Qed.

(* the known findings, in the model *)
Lemma svc_nodefaultalpn_refuted : read_param (mk_tok false true (show_param PNoDefaultAlpn)) = Err E_symbol.
Proof. vm_compute. reflexivity. Qed.

Lemma svc_alpn_escaping_refuted :
  read_param (mk_tok false true (show_param (PAlpn [[97; 44; 98]]))) = Ok (PAlpn [[97]; [98]]) /\
  tokenize ([46; 32] ++ flat_map sym_text (show_param (PAlpn [[97; 32; 98]])) ++ [10])
    = Ok [mk_tok false false [SChar 46]; mk_tok false true (chars [97; 108; 112; 110; 61; 97]); mk_tok false true [SChar 98]].
Proof. split; vm_compute; reflexivity. Qed.

Lemma svc_empty_value_refuted :
  show_param (PIp4hint []) = [] /\ show_param (PMandatory []) = [] /\ show_param (PAlpn []) = [] /\
  read_param (mk_tok false true (show_param (PEch []))) = Err E_symbol.
Proof. repeat split; vm_compute; reflexivity. Qed.

Lemma svc_dohpath_not_utf8_refuted : read_param (mk_tok false true (show_param (PDohpath [247]))) = Err E_symbol.
Proof. vm_compute. reflexivity. Qed.

Example ex_svc_port : read_param (mk_tok false true (show_param (PPort 443))) = Ok (PPort 443).
Proof. vm_compute. reflexivity. Qed.
Example ex_svc_lists :
  map (fun p => read_param (mk_tok false true (show_param p)))
      [PIp4hint [[1; 2; 3; 4]; [10; 0; 0; 1]]; PGroups [29; 23]; PIp6hint [[8193; 3512; 0; 0; 0; 0; 0; 1]]; PEch [1; 2; 3]; POhttp; PAlpn [[104; 50]; [104; 51]]]
  = map Ok [PIp4hint [[1; 2; 3; 4]; [10; 0; 0; 1]]; PGroups [29; 23]; PIp6hint [[8193; 3512; 0; 0; 0; 0; 0; 1]]; PEch [1; 2; 3]; POhttp; PAlpn [[104; 50]; [104; 51]]].
Proof. vm_compute. reflexivity. Qed.

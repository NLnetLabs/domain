(* C06: the reader on raw token text.  [lex] (repeated next_symbol) agrees with
   the character-driven state machine, and scan_octets with its next_ascii_symbol
   fast path agrees with the plain symbol-by-symbol reading -- except for an
   unescaped DEL (0x7F), which only the fast path accepts and no writer emits. *)
From Coq Require Import NArith List Bool Lia ZifyBool.
From DV Require Import Base.Outcome Base.Bytes C06.Gen C06.Model C06.Proofs.
Import ListNotations.
Local Open Scope N_scope.

Lemma lex_run t : forall q e acc p ts sp syms rest,
  lex q e t = Ok (syms, rest) ->
  run (Ok (p, ts, MTok q sp acc e)) t = run (Ok (p, mk_tok q sp (rev acc ++ syms) :: ts, MSkip false)) rest.
Proof.
  induction t as [|c r IH]; intros q e acc p ts sp syms rest H; [discriminate|].
  cbn [lex] in H. rewrite run_cons. cbn [bind step].
  destruct e as [| |d1|d1 d2].
  - destruct (c =? 92) eqn:E92; [apply IH, H|].
    destruct q.
    + destruct (c =? ch_quote) eqn:EQ.
      * injection H as <- <-. rewrite app_nil_r. reflexivity.
      * destruct (ascii_limit <=? c); [discriminate|].
        destruct (lex true E0 r) as [[s' r']| | |] eqn:L; try discriminate. cbn [bind fst snd] in H. injection H as <- <-.
        rewrite (IH true E0 (SChar c :: acc) p ts sp s' r' L). cbn [rev]. rewrite <- app_assoc. reflexivity.
    + destruct (ascii_limit <=? c); [discriminate|].
      destruct (mem c word_excl) eqn:EW.
      * injection H as <- <-. rewrite app_nil_r. rewrite run_cons. reflexivity.
      * destruct (lex false E0 r) as [[s' r']| | |] eqn:L; try discriminate. cbn [bind fst snd] in H. injection H as <- <-.
        rewrite (IH false E0 (SChar c :: acc) p ts sp s' r' L). cbn [rev]. rewrite <- app_assoc. reflexivity.
  - destruct (is_control c); [discriminate|]. destruct (is_digit c); cbn [negb] in *.
    + apply IH, H.
    + destruct (lex q E0 r) as [[s' r']| | |] eqn:L; try discriminate. cbn [bind fst snd] in H. injection H as <- <-.
      rewrite (IH q E0 (SEsc c :: acc) p ts sp s' r' L). cbn [rev]. rewrite <- app_assoc. reflexivity.
  - destruct (is_digit c); [apply IH, H | discriminate].
  - destruct (is_digit c); [|discriminate].
    set (v := (d1 - 48) * 100 + (d2 - 48) * 10 + (c - 48)) in *.
    destruct (v <=? 255); [|discriminate].
    destruct (lex q E0 r) as [[s' r']| | |] eqn:L; try discriminate. cbn [bind fst snd] in H. injection H as <- <-.
    rewrite (IH q E0 (SDec v :: acc) p ts sp s' r' L). cbn [rev]. rewrite <- app_assoc. reflexivity.
Qed.

(* reading a token symbol by symbol *)
Definition slow_octets (q : bool) (t : text) : outcome (bytes * text) :=
  do x <- lex q E0 t; do o <- map_o into_octet (fst x); Ok (o, snd x).

Definition cons_result (c : N) (z : outcome (bytes * text)) : outcome (bytes * text) :=
  do y <- z; Ok (c :: fst y, snd y).

Lemma scan_octets_cons q c r :
  (q && (c =? ch_quote) = false) ->
  ((c <? fast_lo) || (fast_hi <? c) || (if q then c =? 92 else mem c fast_unquoted_excl) = false) ->
  scan_octets_text q (c :: r) = cons_result c (scan_octets_text q r).
Proof.
  intros H1 H2. unfold scan_octets_text. cbn [fast_take]. rewrite H1, H2.
  destruct (fast_take q r) as [[o rest] cl]. destruct cl; [reflexivity|].
  unfold cons_result. destruct (lex q E0 rest) as [[s' r']| | |]; try reflexivity. cbn [bind fst snd].
  destruct (map_o into_octet s'); reflexivity.
Qed.

Lemma slow_octets_cons q c r :
  c <> 92 -> c < ascii_limit -> (q = true -> c <> ch_quote) -> (q = false -> mem c word_excl = false) ->
  octet_lo <= c <= octet_hi ->
  slow_octets q (c :: r) = cons_result c (slow_octets q r).
Proof.
  intros N92 NA NQ NW R. unfold slow_octets, cons_result.
  assert (O : into_octet (SChar c) = Ok c).
  { cbn [into_octet]. destruct ((octet_lo <=? c) && (c <=? octet_hi)) eqn:E4; [reflexivity|lia]. }
  destruct q; cbn [lex]; (destruct (c =? 92) eqn:E; [lia|]).
  - destruct (c =? ch_quote) eqn:E3; [specialize (NQ eq_refl); lia|].
    destruct (ascii_limit <=? c) eqn:E2; [lia|].
    destruct (lex true E0 r) as [[s' r']| | |]; try reflexivity. cbn [bind fst snd map_o]. rewrite O. cbn [bind].
    destruct (map_o into_octet s'); reflexivity.
  - destruct (ascii_limit <=? c) eqn:E2; [lia|]. rewrite (NW eq_refl).
    destruct (lex false E0 r) as [[s' r']| | |]; try reflexivity. cbn [bind fst snd map_o]. rewrite O. cbn [bind].
    destruct (map_o into_octet s'); reflexivity.
Qed.

(* the fast path changes nothing unless it swallows an unescaped DEL *)
Theorem fast_path_agrees q t : ~ In 127 (fst (fst (fast_take q t))) -> scan_octets_text q t = slow_octets q t.
Proof.
  induction t as [|c r IH]; intros H; [reflexivity|].
  cbn [fast_take] in H.
  destruct (q && (c =? ch_quote)) eqn:H1.
  - (* closing quote *)
    unfold scan_octets_text, slow_octets. cbn [fast_take lex]. rewrite H1.
    apply andb_true_iff in H1 as [-> H1]. apply N.eqb_eq in H1. subst c. reflexivity.
  - destruct ((c <? fast_lo) || (fast_hi <? c) || (if q then c =? 92 else mem c fast_unquoted_excl)) eqn:H2.
    + unfold scan_octets_text. cbn [fast_take]. rewrite H1, H2. unfold slow_octets.
      destruct (lex q E0 (c :: r)) as [[s' r']| | |]; reflexivity.
    + rewrite scan_octets_cons by assumption.
      destruct (fast_take q r) as [[o rest] cl] eqn:F. cbn [fst] in H.
      assert (C : c <> 127) by (intros ->; apply H; left; reflexivity).
      rewrite IH by (cbn [fst]; intros K; apply H; right; exact K).
      symmetry. apply orb_false_iff in H2 as [H2 H3]. apply orb_false_iff in H2 as [H2 H4].
      unfold fast_lo, fast_hi in *.
      apply slow_octets_cons.
      * destruct q; [lia|]. intros ->. vm_compute in H3. discriminate.
      * unfold ascii_limit. lia.
      * intros ->. cbn [andb] in H1. unfold ch_quote in *. lia.
      * intros ->. unfold mem, fast_unquoted_excl, word_excl in *. cbn [existsb] in *. lia.
      * unfold octet_lo, octet_hi. lia.
Qed.

Theorem fast_path_agrees_refuted : exists q t,
  scan_octets_text q t = Ok ([127], [32]) /\ slow_octets q t = Err E_symbol.
Proof. exists false, [127; 32]. split; vm_compute; reflexivity. Qed.

(* what the writers emit never contains an unescaped DEL (all symbols come from the tables) *)
Lemma symbols_no_del f l : (forall b, f b = enc label_esc label_plain_lo label_plain_hi b \/ f b = from_octet b \/
                                      f b = quoted_from_octet b \/ f b = display_from_octet b) ->
  wf_bytes l -> ~ In (SChar 127) (map f l).
Proof.
  intros Hf _ K. apply in_map_iff in K as (b & E & _).
  assert (B : 127 = b) by (destruct (Hf b) as [X|[X|[X|X]]]; rewrite X in E; exact (enc_char _ _ _ _ _ E)).
  subst b. destruct del_escaped as (D1 & D2 & D3 & D4). unfold label_sym in D1.
  destruct (Hf 127) as [X|[X|[X|X]]]; rewrite X in E; congruence.
Qed.

(* scan_octets is exactly: the symbols as the fast path sees them, then into_octet *)
Theorem scan_octets_is_lex_fast q t :
  scan_octets_text q t = do x <- lex_fast q t; do o <- map_o into_octet (fst x); Ok (o, snd x).
Proof.
  induction t as [|c r IH]; [reflexivity|].
  cbn [lex_fast]. destruct (q && (c =? ch_quote)) eqn:H1.
  - unfold scan_octets_text. cbn [fast_take]. rewrite H1. reflexivity.
  - destruct ((c <? fast_lo) || (fast_hi <? c) || (if q then c =? 92 else mem c fast_unquoted_excl)) eqn:H2.
    + unfold scan_octets_text. cbn [fast_take]. rewrite H1, H2.
      destruct (lex q E0 (c :: r)) as [[s' r']| | |]; reflexivity.
    + rewrite scan_octets_cons by assumption. rewrite IH. unfold cons_result.
      destruct (lex_fast q r) as [[s' r']| | |]; try reflexivity. cbn [bind fst snd map_o].
      assert (O : into_octet (if c =? 127 then SDec 127 else SChar c) = Ok c).
      { apply orb_false_iff in H2 as [H2 _]. apply orb_false_iff in H2 as [H2 H4]. unfold fast_lo, fast_hi in *.
        destruct (c =? 127) eqn:E; [apply N.eqb_eq in E; subst; reflexivity|].
        cbn [into_octet]. unfold octet_lo, octet_hi. destruct ((32 <=? c) && (c <=? 126)) eqn:E2; [reflexivity|lia]. }
      rewrite O. cbn [bind]. destruct (map_o into_octet s'); reflexivity.
Qed.

Example ex_nstext : c06_nstext [97; 127; 46; 92; 46; 98; 46] = Ok [[97; 127]; [46; 98]].
Proof. vm_compute. reflexivity. Qed.
Example ex_nstext_empty_label : c06_nstext [97; 46; 46; 98; 46] = Err E_name.
Proof. vm_compute. reflexivity. Qed.

Example ex_fast : scan_octets_text true [97; 32; 92; 34; 98; 34; 32] = Ok ([97; 32; 34; 98], [32]).
Proof. vm_compute. reflexivity. Qed.
Example ex_hinfo : c06_hinfo 0 false [127; 97; 92; 48; 48; 55] = Ok [127; 97; 7].
Proof. vm_compute. reflexivity. Qed.

(* C06: escape tables (T1 obligations), one symbol through the reader's state
   machine, tokens, labels / character strings / names read back, the decimal
   writer. *)
From Coq Require Import NArith List Bool Lia ZifyBool.
From DV Require Import Base.Outcome Base.Bytes C06.Gen C06.Model.
Import ListNotations.
Local Open Scope N_scope.

(* [P] on every number below 2^k, enumerated by binary digits *)
Fixpoint forall_bits (k : nat) (P : N -> bool) : bool :=
  match k with
  | O => P 0
  | S k => forall_bits k (fun n => P (N.double n)) && forall_bits k (fun n => P (N.succ_double n))
  end.

Lemma forall_bits_spec k : forall P, forall_bits k P = true -> forall n, n < 2 ^ N.of_nat k -> P n = true.
Proof.
  induction k as [|k IH]; intros P H n Hn.
  - assert (n = 0) by (cbn in Hn; lia). subst n. exact H.
  - cbn [forall_bits] in H. apply andb_true_iff in H as [H0 H1].
    rewrite Nat2N.inj_succ, N.pow_succ_r' in Hn.
    destruct n as [|[p|p|]]; [apply (IH _ H0 0) | apply (IH _ H1 (N.pos p)) | apply (IH _ H0 (N.pos p)) | apply (IH _ H1 0)]; lia.
Qed.

Lemma forall_octets (P : N -> bool) : forall_bits 8 P = true -> forall b, b < 256 -> P b = true.
Proof. exact (forall_bits_spec 8 P). Qed.

Lemma mem_In c l : mem c l = true <-> In c l.
Proof.
  unfold mem. rewrite existsb_exists. split.
  - intros (x & H & E). apply N.eqb_eq in E. subst x. exact H.
  - intros H. exists c. split; [exact H | apply N.eqb_refl].
Qed.

Lemma not_mem c l : ~ In c l -> mem c l = false.
Proof. intros H. destruct (mem c l) eqn:E; [apply mem_In in E; contradiction | reflexivity]. Qed.

Lemma forallb_notin {A} (P : A -> bool) c l : forallb P l = true -> P c = false -> ~ In c l.
Proof. intros H F K. rewrite forallb_forall in H. apply H in K. congruence. Qed.

(* a symbol whose text can stand inside an unquoted / quoted token *)
Definition safe_sym (q : bool) (s : sym) : bool :=
  match s with
  | SChar c => negb (c =? 92) && (c <? ascii_limit) &&
               (if q then negb (c =? ch_quote) else negb (mem c word_excl))
  | SEsc c => negb (is_control c) && negb (is_digit c)
  | SDec c => c <? 256
  end.

(* what the writer tables must satisfy for every octet: the symbol denotes the
   octet, is safe, and (plain characters) is accepted by into_octet *)
Definition enc_ok (q : bool) (f : N -> sym) (b : N) : bool :=
  safe_sym q (f b) &&
  match f b with
  | SChar c => (c =? b) && (octet_lo <=? c) && (c <=? octet_hi)
  | SEsc c => c =? b
  | SDec c => c =? b
  end.

Lemma enc_ok_octet q f b : enc_ok q f b = true -> safe_sym q (f b) = true /\ into_octet (f b) = Ok b.
Proof.
  unfold enc_ok. intros H. apply andb_true_iff in H as [S H]. split; [exact S|].
  destruct (f b) as [c|c|c]; cbn [into_octet].
  - apply andb_true_iff in H as [H H3]. apply andb_true_iff in H as [H1 H2]. rewrite H2, H3.
    apply N.eqb_eq in H1. subst c. reflexivity.
  - apply N.eqb_eq in H. subst c. reflexivity.
  - apply N.eqb_eq in H. subst c. reflexivity.
Qed.

Lemma enc_char esc lo hi b c : enc esc lo hi b = SChar c -> c = b.
Proof. unfold enc. destruct (mem b esc); [discriminate|]. destruct (negb _); [discriminate|]. congruence. Qed.

Lemma label_table : forall b, b < 256 ->
  enc_ok false label_sym b = true /\ label_sym b <> SChar ch_dot.
Proof.
  intros b Hb.
  assert (H : forall_bits 8 (fun b => enc_ok false label_sym b &&
     match label_sym b with SChar c => negb (c =? ch_dot) | _ => true end) = true) by (vm_compute; reflexivity).
  pose proof (forall_octets _ H b Hb) as H1. cbv beta in H1. apply andb_true_iff in H1 as [H1 H2]. split; [exact H1|].
  intros E. rewrite E, N.eqb_refl in H2. discriminate.
Qed.

Lemma quoted_table : forall b, b < 256 -> enc_ok true quoted_from_octet b = true.
Proof. apply forall_octets. vm_compute. reflexivity. Qed.

(* Symbol::from_octet (display_unquoted) is NOT safe for unquoted tokens:
   parentheses are written verbatim.  Its callers in the record writer (the values of
   unknown SVCB parameters and of dohpath) escape the parentheses themselves (T1:
   svcb_values_escaped_with_parens). *)
Lemma from_octet_table_refuted : exists b, b < 256 /\ enc_ok false from_octet b = false.
Proof. exists 40. split; [lia | vm_compute; reflexivity]. Qed.

Definition from_octet_known (b : N) : Prop := b = 40 \/ b = 41.
Lemma from_octet_table : forall b, b < 256 -> ~ from_octet_known b -> enc_ok false from_octet b = true.
Proof.
  intros b Hb Hk.
  assert (H : forall_bits 8 (fun b => enc_ok false from_octet b || (b =? 40) || (b =? 41)) = true) by (vm_compute; reflexivity).
  pose proof (forall_octets _ H b Hb) as H1. cbv beta in H1. unfold from_octet_known in Hk.
  destruct (enc_ok false from_octet b); [reflexivity | lia].
Qed.

(* every octet outside printable ASCII -- in particular DEL (0x7F), which the reader's
   next_ascii_symbol fast path would take verbatim -- is written as a decimal escape by
   Display for Label and by all three Symbol constructors: it lies outside the plain range
   of [enc], and every escaped character lies inside *)
Lemma nonprintable_escaped : forall b, b < 256 -> (b < 32 \/ 127 <= b) ->
  label_sym b = SDec b /\ from_octet b = SDec b /\ quoted_from_octet b = SDec b /\ display_from_octet b = SDec b.
Proof.
  intros b _ Hr.
  assert (E : forall esc, forallb (fun c => (32 <=? c) && (c <? 127)) esc = true -> enc esc 32 127 b = SDec b).
  { intros esc H. unfold enc. rewrite not_mem.
    - destruct (negb ((32 <=? b) && (b <? 127))) eqn:E; [reflexivity | lia].
    - intros K. rewrite forallb_forall in H. apply H in K. lia. }
  split; [apply (E label_esc) | split; [apply (E from_octet_esc) | split; [apply (E quoted_esc) | apply (E display_esc)]]];
    reflexivity.
Qed.

Lemma del_escaped : label_sym 127 = SDec 127 /\ from_octet 127 = SDec 127 /\
  quoted_from_octet 127 = SDec 127 /\ display_from_octet 127 = SDec 127.
Proof. apply nonprintable_escaped; lia. Qed.

Lemma digit3_ok : forall c, c < 256 ->
  is_digit (48 + c / 100) = true /\ is_digit (48 + (c / 10) mod 10) = true /\ is_digit (48 + c mod 10) = true /\
  (48 + c / 100 - 48) * 100 + (48 + (c / 10) mod 10 - 48) * 10 + (48 + c mod 10 - 48) = c.
Proof.
  intros c Hc.
  assert (H : forall_bits 8 (fun c => is_digit (48 + c / 100) && is_digit (48 + (c / 10) mod 10) && is_digit (48 + c mod 10) &&
     ((48 + c / 100 - 48) * 100 + (48 + (c / 10) mod 10 - 48) * 10 + (48 + c mod 10 - 48) =? c)) = true) by (vm_compute; reflexivity).
  pose proof (forall_octets _ H c Hc) as H1. cbv beta in H1.
  apply andb_true_iff in H1 as [H1 H4]. apply andb_true_iff in H1 as [H1 H3]. apply andb_true_iff in H1 as [H1 H2].
  apply N.eqb_eq in H4. repeat split; assumption.
Qed.

Lemma run_app s a b : run s (a ++ b) = run (run s a) b.
Proof. unfold run. apply fold_left_app. Qed.

Lemma run_cons s c t : run s (c :: t) = run (do x <- s; step x c) t.
Proof. reflexivity. Qed.

Lemma run_nil s : run s [] = s.
Proof. reflexivity. Qed.

Lemma run_err {t} e : run (Err e) t = Err e.
Proof. induction t; [reflexivity | rewrite run_cons; exact IHt]. Qed.

Lemma run_dec q sp p ts acc d1 d2 d3 rest :
  is_digit d1 = true -> is_digit d2 = true -> is_digit d3 = true ->
  (d1 - 48) * 100 + (d2 - 48) * 10 + (d3 - 48) <= 255 ->
  run (Ok (p, ts, MTok q sp acc E1)) (d1 :: d2 :: d3 :: rest)
  = run (Ok (p, ts, MTok q sp (SDec ((d1 - 48) * 100 + (d2 - 48) * 10 + (d3 - 48)) :: acc) E0)) rest.
Proof.
  intros D1 D2 D3 V. rewrite !run_cons. cbn [bind step].
  assert (C1 : is_control d1 = false) by (unfold is_control, is_digit in *; lia).
  rewrite C1, D1. cbn [negb bind step]. rewrite D2. cbn [bind step]. rewrite D3.
  apply N.leb_le in V. rewrite V. reflexivity.
Qed.

Lemma run_escape q sp p ts acc s t rest : sym_text s = 92 :: t -> safe_sym q s = true ->
  run (Ok (p, ts, MTok q sp acc E1)) (t ++ rest) = run (Ok (p, ts, MTok q sp (s :: acc) E0)) rest.
Proof.
  intros T H. destruct s as [c|c|c]; cbn [sym_text safe_sym] in *.
  - injection T as -> _. discriminate.
  - injection T as <-. apply andb_true_iff in H as [H1 H2]. cbn [app]. rewrite run_cons. cbn [bind step].
    destruct (is_control c); [discriminate|]. destruct (is_digit c); [discriminate|]. reflexivity.
  - injection T as <-. apply N.ltb_lt in H. destruct (digit3_ok c H) as (D1 & D2 & D3 & D4).
    unfold digit3. cbn [app]. rewrite run_dec by (assumption || (rewrite D4; lia)). rewrite D4. reflexivity.
Qed.

(* one symbol inside a token *)
Lemma run_sym q sp p ts acc s rest : safe_sym q s = true ->
  run (Ok (p, ts, MTok q sp acc E0)) (sym_text s ++ rest) = run (Ok (p, ts, MTok q sp (s :: acc) E0)) rest.
Proof.
  intros H. destruct s as [c|c|c]; cycle 1.
  - rewrite <- (run_escape q sp p ts acc (SEsc c) [c]) by (reflexivity || exact H). reflexivity.
  - rewrite <- (run_escape q sp p ts acc (SDec c) (digit3 c)) by (reflexivity || exact H). reflexivity.
  - cbn [sym_text app safe_sym] in *. apply andb_true_iff in H as [H H3]. apply andb_true_iff in H as [H1 H2].
    rewrite run_cons. cbn [bind step].
    destruct (c =? 92) eqn:E1; [discriminate|].
    destruct (ascii_limit <=? c) eqn:E2; [lia|].
    destruct q.
    + destruct (c =? ch_quote) eqn:E3; [discriminate|]. reflexivity.
    + destruct (mem c word_excl) eqn:E3; [discriminate|]. reflexivity.
Qed.

Lemma run_syms q sp p ts acc l rest : forallb (safe_sym q) l = true ->
  run (Ok (p, ts, MTok q sp acc E0)) (flat_map sym_text l ++ rest)
  = run (Ok (p, ts, MTok q sp (rev l ++ acc) E0)) rest.
Proof.
  revert acc. induction l as [|s l IH]; intros acc H; [reflexivity|].
  cbn [forallb] in H. apply andb_true_iff in H as [H1 H2].
  cbn [flat_map]. rewrite <- app_assoc, run_sym by exact H1. rewrite IH by exact H2.
  cbn [rev]. rewrite <- app_assoc. reflexivity.
Qed.

Inductive tshape := TWord (l : list sym) | TQuoted (l : list sym).

Definition shape_text (sh : tshape) : text :=
  match sh with
  | TWord l => flat_map sym_text l
  | TQuoted l => ch_quote :: flat_map sym_text l ++ [ch_quote]
  end.
Definition shape_tok (sp : bool) (sh : tshape) : tok :=
  match sh with TWord l => mk_tok false sp l | TQuoted l => mk_tok true sp l end.
Definition good_shape (sh : tshape) : bool :=
  match sh with
  | TWord l => forallb (safe_sym false) l && negb (match l with [] => true | _ => false end)
  | TQuoted l => forallb (safe_sym true) l
  end.
(* the character after an unquoted token must end it *)
Definition starts_delim (t : text) : bool :=
  match t with c :: _ => mem c word_excl && (c <? ascii_limit) | [] => false end.
Definition follow_ok (sh : tshape) (rest : text) : bool :=
  match sh with TWord _ => starts_delim rest | TQuoted _ => true end.

(* first symbol of an unquoted token, from next_item: a backslash opens an escape, any other
   character that is no delimiter starts the token *)
Lemma run_first_sym sp p ts s rest : safe_sym false s = true ->
  run (Ok (p, ts, MSkip sp)) (sym_text s ++ rest) = run (Ok (p, ts, MTok false sp [s] E0)) rest.
Proof.
  intros H. destruct s as [c|c|c]; cycle 1.
  - rewrite <- (run_escape false sp p ts [] (SEsc c) [c]) by (reflexivity || exact H). reflexivity.
  - rewrite <- (run_escape false sp p ts [] (SDec c) (digit3 c)) by (reflexivity || exact H). reflexivity.
  - cbn [sym_text app]. rewrite run_cons. cbn [bind step]. unfold step_skip.
    cbn [safe_sym] in H. unfold mem, word_excl, ascii_limit in H. cbn [existsb] in H.
    unfold mem, ws_chars, ch_open, ch_close, ch_comment, ch_lf, ch_quote, ascii_limit. cbn [existsb].
    repeat match goal with |- context [if ?b then _ else _] => let E := fresh in destruct b eqn:E; [lia|] end.
    reflexivity.
Qed.

(* a delimiter ends an unquoted token and is then handled by next_item *)
Lemma run_word_end p ts sp acc c rest : mem c word_excl = true -> c <? ascii_limit = true ->
  run (Ok (p, ts, MTok false sp acc E0)) (c :: rest)
  = run (Ok (p, mk_tok false sp (rev acc) :: ts, MSkip false)) (c :: rest).
Proof.
  intros H1 H2. rewrite !run_cons. cbn [bind step].
  assert (E : c =? 92 = false) by (unfold mem, word_excl in H1; cbn [existsb] in H1; lia).
  rewrite E. destruct (ascii_limit <=? c) eqn:E2; [lia|]. rewrite H1. reflexivity.
Qed.

(* tokens_reassemble, one token: the reader recovers exactly the symbols *)
Lemma run_token sh p ts sp rest : good_shape sh = true -> follow_ok sh rest = true ->
  run (Ok (p, ts, MSkip sp)) (shape_text sh ++ rest) = run (Ok (p, shape_tok sp sh :: ts, MSkip false)) rest.
Proof.
  intros G F. destruct sh as [l|l]; cbn [shape_text shape_tok good_shape follow_ok] in *.
  - apply andb_true_iff in G as [G1 G2]. destruct l as [|s l]; [discriminate|].
    cbn [forallb] in G1. apply andb_true_iff in G1 as [G1 G3].
    cbn [flat_map]. rewrite <- !app_assoc, run_first_sym by exact G1.
    rewrite run_syms by exact G3.
    destruct rest as [|c rest]; [discriminate|]. cbn [starts_delim] in F. apply andb_true_iff in F as [F1 F2].
    rewrite run_word_end by assumption. rewrite rev_app_distr, rev_involutive. reflexivity.
  - cbn [app]. rewrite run_cons.
    change (do x <- Ok (p, ts, MSkip sp); step x ch_quote) with (Ok (p, ts, MTok true sp [] E0) : outcome st).
    rewrite <- app_assoc, run_syms by exact G.
    cbn [app]. rewrite run_cons. cbn [bind step].
    replace (ch_quote =? 92) with false by reflexivity. rewrite N.eqb_refl, app_nil_r, rev_involutive. reflexivity.
Qed.

Definition label_shape_syms (l : bytes) : list sym := map label_sym l.

Lemma show_with_map f l : show_with f l = flat_map sym_text (map f l).
Proof. unfold show_with. induction l as [|c l IH]; [reflexivity|]. cbn [flat_map map]. rewrite IH. reflexivity. Qed.

Lemma map_o_all {A B} (f : A -> outcome B) (P : B -> Prop) (g : B -> A) l :
  Forall P l -> (forall x, P x -> f (g x) = Ok x) -> map_o f (map g l) = Ok l.
Proof.
  intros F H. induction F as [|x l Hx _ IH]; [reflexivity|]. cbn [map map_o]. rewrite (H x Hx), IH. reflexivity.
Qed.

Lemma map_o_app {A B} (f : A -> outcome B) l1 l2 x1 x2 :
  map_o f l1 = Ok x1 -> map_o f l2 = Ok x2 -> map_o f (l1 ++ l2) = Ok (x1 ++ x2).
Proof.
  revert x1. induction l1 as [|a l1 IH]; intros x1 H1 H2; cbn [map_o app] in *.
  - injection H1 as <-. exact H2.
  - destruct (f a); try discriminate. cbn [bind] in *. destruct (map_o f l1) eqn:E; try discriminate.
    cbn [bind] in H1. injection H1 as <-. rewrite (IH _ eq_refl H2). reflexivity.
Qed.

Lemma enc_syms q f (P : N -> Prop) l : Forall P l -> (forall b, P b -> enc_ok q f b = true) ->
  forallb (safe_sym q) (map f l) = true /\ map_o into_octet (map f l) = Ok l.
Proof.
  intros W H. induction W as [|b l Hb W [IH1 IH2]]; [split; reflexivity|].
  destruct (enc_ok_octet q f b (H b Hb)) as [S O]. cbn [map forallb map_o]. rewrite S, O, IH1, IH2. split; reflexivity.
Qed.

Lemma enc_safe q f l : wf_bytes l -> (forall b, b < 256 -> enc_ok q f b = true) ->
  forallb (safe_sym q) (map f l) = true.
Proof. intros W H. apply (enc_syms q f _ l W H). Qed.

Lemma enc_octets q f l : wf_bytes l -> (forall b, b < 256 -> enc_ok q f b = true) ->
  map_o into_octet (map f l) = Ok l.
Proof. intros W H. apply (enc_syms q f _ l W H). Qed.

Definition wf_charstr (b : bytes) : Prop := wf_bytes b /\ (length b <= 255)%nat.

Lemma cstr_quoted_shape b : show_cstr_quoted b = shape_text (TQuoted (map quoted_from_octet b)).
Proof. unfold show_cstr_quoted. rewrite show_with_map. reflexivity. Qed.

Lemma cstr_quoted_good b : wf_bytes b -> good_shape (TQuoted (map quoted_from_octet b)) = true.
Proof. intros W. cbn [good_shape]. apply enc_safe; [exact W | exact quoted_table]. Qed.

Lemma read_charstr_syms q sp l b : map_o into_octet l = Ok b -> (length b <= 255)%nat ->
  read_charstr (mk_tok q sp l) = Ok b.
Proof.
  intros O L. unfold read_charstr, read_octets. cbn [t_syms]. rewrite O. cbn [bind].
  unfold len, charstr_latest. destruct (255 <? N.of_nat (length b)) eqn:E; [lia | reflexivity].
Qed.

Lemma read_charstr_quoted sp b : wf_charstr b ->
  read_charstr (shape_tok sp (TQuoted (map quoted_from_octet b))) = Ok b.
Proof. intros [W L]. apply (read_charstr_syms true sp); [apply (enc_octets true); [exact W | exact quoted_table] | exact L]. Qed.

(* scan_show_charstr (quoted form): the text of a character string, followed by anything *)
Theorem scan_show_charstr_quoted b p ts sp rest : wf_charstr b ->
  exists t, run (Ok (p, ts, MSkip sp)) (show_cstr_quoted b ++ rest) = run (Ok (p, t :: ts, MSkip false)) rest
            /\ t_quoted t = true /\ read_charstr t = Ok b.
Proof.
  intros W. exists (shape_tok sp (TQuoted (map quoted_from_octet b))). split; [|split].
  - rewrite cstr_quoted_shape. apply run_token; [apply cstr_quoted_good, W | reflexivity].
  - reflexivity.
  - apply read_charstr_quoted, W.
Qed.

(* unquoted form (Symbol::from_octet, CharStr::display_unquoted): only without parentheses *)
Theorem scan_show_charstr_unquoted b p ts sp rest : wf_charstr b -> b <> [] ->
  Forall (fun c => ~ from_octet_known c) b -> starts_delim rest = true ->
  exists t, run (Ok (p, ts, MSkip sp)) (show_cstr_unquoted b ++ rest) = run (Ok (p, t :: ts, MSkip false)) rest
            /\ read_charstr t = Ok b.
Proof.
  intros [W L] NE K D.
  destruct (enc_syms false from_octet _ b (Forall_and W K)) as [S O].
  { intros c [Hc Kc]. apply from_octet_table; assumption. }
  exists (shape_tok sp (TWord (map from_octet b))). split.
  - unfold show_cstr_unquoted. rewrite show_with_map.
    change (flat_map sym_text (map from_octet b)) with (shape_text (TWord (map from_octet b))).
    apply run_token; [|exact D]. cbn [good_shape]. rewrite S. destruct b; [congruence | reflexivity].
  - apply (read_charstr_syms false sp); assumption.
Qed.

Lemma scan_show_charstr_unquoted_refuted :
  exists b, wf_charstr b /\ tokenize (show_cstr_unquoted b ++ [ch_lf]) <> Ok [mk_tok false false (map from_octet b)].
Proof. exists [97; 40; 98]. split; [split; [repeat constructor; lia | cbn; lia] | vm_compute; discriminate]. Qed.

Definition wf_label (l : bytes) : Prop := wf_bytes l /\ (1 <= length l <= 63)%nat.

Lemma label_syms_safe l : wf_bytes l -> forallb (safe_sym false) (map label_sym l) = true.
Proof. intros W. apply enc_safe; [exact W|]. intros b Hb. apply label_table, Hb. Qed.

(* show_is_word_safe: the text of a label is a sequence of symbols none of which ends a
   token, starts a comment, a parenthesis or a quote; and no symbol is an unescaped dot *)
Theorem show_is_word_safe l : wf_bytes l ->
  show_label l = flat_map sym_text (map label_sym l) /\
  forallb (safe_sym false) (map label_sym l) = true /\
  ~ In (SChar ch_dot) (map label_sym l).
Proof.
  intros W. split; [apply show_with_map | split; [apply label_syms_safe, W|]].
  intros H. apply in_map_iff in H as (b & Hb & Hin).
  unfold wf_bytes in W. rewrite Forall_forall in W. destruct (label_table b (W b Hin)) as [_ N]. contradiction.
Qed.

Lemma name_syms_octet b r cur k done w : b < 256 -> k + 1 < label_latest ->
  name_syms (label_sym b :: r) cur k done w = name_syms r (b :: cur) (k + 1) done w.
Proof.
  intros Hb K. destruct (label_table b Hb) as [T ND]. apply enc_ok_octet in T as [_ O].
  assert (L : (label_latest <=? k + 1) = false) by lia.
  cbn [name_syms]. destruct (label_sym b) as [c|c|c]; try (rewrite O; cbn [bind]; rewrite L; reflexivity).
  assert (G : forall A (x y : A), match c with 46 => x | _ => y end = y).
  { intros A x y. destruct c as [|c]; [reflexivity|].
    repeat (destruct c as [c|c|]; try reflexivity). exfalso. apply ND. reflexivity. }
  rewrite G, O. cbn [bind]. rewrite L. reflexivity.
Qed.

(* name_syms on the symbols of one label: accumulates its octets *)
Lemma name_syms_label l : forall cur k done w r,
  wf_bytes l -> k + len l < label_latest ->
  name_syms (map label_sym l ++ r) cur k done w = name_syms r (rev l ++ cur) (k + len l) done w.
Proof.
  induction l as [|b l IH]; intros cur k done w r W K.
  - cbn. unfold len. cbn. rewrite N.add_0_r. reflexivity.
  - inversion W as [|? ? Hb W']; subst.
    assert (L : len (b :: l) = 1 + len l) by (unfold len; cbn [length]; lia).
    cbn [map app]. rewrite name_syms_octet by (exact Hb || lia). rewrite IH by (assumption || lia).
    cbn [rev]. rewrite <- app_assoc. cbn [app]. f_equal. lia.
Qed.

Definition name_shape_syms (n : list bytes) : list sym :=
  match n with
  | [] => [SChar ch_dot]
  | l :: r => map label_sym l ++ flat_map (fun x => SChar ch_dot :: map label_sym x) r ++ [SChar ch_dot]
  end.

Lemma show_name_shape n : show_name n = shape_text (TWord (name_shape_syms n)).
Proof.
  destruct n as [|l r]; [reflexivity|].
  cbn [show_name name_shape_syms shape_text]. unfold show_label.
  rewrite flat_map_app, <- show_with_map. f_equal. rewrite flat_map_app. f_equal.
  induction r as [|x r IH]; [reflexivity|].
  cbn [flat_map]. rewrite flat_map_app, <- IH.
  change (flat_map sym_text (SChar ch_dot :: map label_sym x))
    with (ch_dot :: flat_map sym_text (map label_sym x)).
  rewrite <- show_with_map. reflexivity.
Qed.

Definition wf_name (n : list bytes) : Prop := Forall wf_label n /\ wire_len n <= 254.

Lemma dot_safe : safe_sym false (SChar ch_dot) = true.
Proof. reflexivity. Qed.

Lemma name_shape_good n : Forall wf_label n -> good_shape (TWord (name_shape_syms n)) = true.
Proof.
  intros W. cbn [good_shape]. apply andb_true_iff. split.
  - destruct n as [|l r]; [reflexivity|]. cbn [name_shape_syms]. inversion W as [|? ? [Wl _] Wr]; subst.
    rewrite forallb_app, label_syms_safe by exact Wl. cbn [andb]. rewrite forallb_app. cbn [forallb]. rewrite dot_safe.
    rewrite andb_true_r. clear - Wr. induction Wr as [|x r [Wx _] _ IH]; [reflexivity|].
    cbn [flat_map]. rewrite forallb_app. cbn [forallb]. rewrite dot_safe, label_syms_safe, IH by exact Wx. reflexivity.
  - destruct n as [|l r]; [reflexivity|]. cbn [name_shape_syms]. inversion W as [|? ? [Wl [L1 _]] _]; subst.
    destruct l; [cbn in L1; lia | reflexivity].
Qed.

(* the dot that ends a non-empty label *)
Lemma name_syms_dot r cur k done w : 1 <= k -> w + 1 + k <= name_write_max ->
  name_syms (SChar ch_dot :: r) cur k done w = name_syms r [] 0 (rev cur :: done) (w + 1 + k).
Proof.
  intros K W. cbn [name_syms]. destruct (w + 1 + k =? 1) eqn:E1; [lia|].
  destruct (k =? 0) eqn:E0; [lia|]. destruct (name_write_max <? w + 1 + k) eqn:E2; [lia | reflexivity].
Qed.

(* general statement: in the middle of a name, current label [cur] complete *)
Lemma name_syms_tail r : forall cur done w,
  Forall wf_label r -> wf_label (rev cur) ->
  w + 1 + len cur + wire_len r <= name_write_max ->
  name_syms (flat_map (fun x => SChar ch_dot :: map label_sym x) r ++ [SChar ch_dot]) cur (len cur) done w
  = Ok (NAbs (rev done ++ rev cur :: r)).
Proof.
  induction r as [|x r IH]; intros cur done w Wr Wc Hw; cbn [flat_map wire_len] in *;
    assert (Lc : 1 <= len cur) by (destruct Wc as [_ [L _]]; rewrite rev_length in L; unfold len; lia).
  - cbn [app]. rewrite name_syms_dot by lia. cbn [name_syms N.eqb].
    destruct (w + 1 + len cur =? 0) eqn:E3; [lia | reflexivity].
  - inversion Wr as [|? ? [Wxb [Lx1 Lx2]] Wr']; subst. rewrite <- app_assoc. cbn [app].
    rewrite name_syms_dot by lia.
    rewrite name_syms_label by (try exact Wxb; unfold len, label_latest; lia).
    rewrite app_nil_r, N.add_0_l.
    replace (len x) with (len (rev x)) by (unfold len; rewrite rev_length; reflexivity).
    rewrite IH.
    + cbn [rev]. rewrite <- app_assoc. cbn [app]. rewrite rev_involutive. reflexivity.
    + exact Wr'.
    + rewrite rev_involutive. split; [exact Wxb | lia].
    + unfold len in *. rewrite rev_length. lia.
Qed.

Lemma is_at_long a rest : rest <> [] -> is_at (a :: rest) = false.
Proof. intros H. destruct a; destruct rest; try congruence; reflexivity. Qed.

(* what fmt_with_dot writes is never the free standing `@` *)
Lemma name_shape_not_at n : Forall wf_label n -> is_at (name_shape_syms n) = false.
Proof.
  intros W. destruct n as [|l r]; [reflexivity|]. cbn [name_shape_syms].
  inversion W as [|? ? [_ [L1 _]] _]; subst. destruct l as [|b l]; [cbn in L1; lia|].
  cbn [map app]. apply is_at_long. intros H. apply app_eq_nil in H as [_ H]. apply app_eq_nil in H as [_ H]. discriminate.
Qed.

(* scan_name on the symbols of fmt_with_dot: the labels come back, octet for octet *)
Lemma read_name_shape sp n origin : wf_name n ->
  read_name origin (shape_tok sp (TWord (name_shape_syms n))) = Ok n.
Proof.
  intros [W L]. unfold read_name. cbn [shape_tok t_syms]. rewrite name_shape_not_at by exact W.
  destruct n as [|l r].
  - cbn. reflexivity.
  - cbn [name_shape_syms]. inversion W as [|? ? Wl Wr]; subst. destruct Wl as [Wlb [L1 L2]].
    rewrite name_syms_label by (try exact Wlb; unfold len, label_latest; lia).
    rewrite app_nil_r, N.add_0_l.
    replace (len l) with (len (rev l)) by (unfold len; rewrite rev_length; reflexivity).
    cbn [wire_len] in L.
    rewrite name_syms_tail.
    + cbn [bind rev app]. rewrite rev_involutive. reflexivity.
    + exact Wr.
    + rewrite rev_involutive. split; [exact Wlb | lia].
    + unfold len in *. rewrite rev_length. unfold name_write_max. lia.
Qed.

(* scan_show_label / scan_show_name: a name written by fmt_with_dot and followed by a
   delimiter is one unquoted token from which scan_name reads the same labels *)
Theorem scan_show_name n p ts sp rest origin : wf_name n -> starts_delim rest = true ->
  exists t, run (Ok (p, ts, MSkip sp)) (show_name n ++ rest) = run (Ok (p, t :: ts, MSkip false)) rest
            /\ t = shape_tok sp (TWord (name_shape_syms n)) /\ read_name origin t = Ok n.
Proof.
  intros W D. exists (shape_tok sp (TWord (name_shape_syms n))). split; [|split; [reflexivity|]].
  - rewrite show_name_shape. apply run_token; [apply name_shape_good, W | exact D].
  - apply read_name_shape, W.
Qed.

(* a single label, read as a relative name in front of an origin: octets preserved --
   unless the label is exactly "@", which the reader takes for the origin *)
Theorem scan_show_label l o : wf_label l -> l <> [ch_at] -> wire_len [l] + wire_len o <= 254 ->
  tokenize (show_label l ++ [ch_lf]) = Ok [mk_tok false false (map label_sym l)] /\
  read_name (Some o) (mk_tok false false (map label_sym l)) = Ok (l :: o).
Proof.
  intros [W [L1 L2]] NA Hw. split.
  - unfold tokenize. unfold show_label. rewrite show_with_map.
    change (flat_map sym_text (map label_sym l)) with (shape_text (TWord (map label_sym l))).
    unfold st0. rewrite run_token.
    + reflexivity.
    + cbn [good_shape]. rewrite label_syms_safe by exact W. destruct l; [cbn in L1; lia | reflexivity].
    + reflexivity.
  - unfold read_name. cbn [t_syms].
    assert (A : is_at (map label_sym l) = false).
    { destruct l as [|b [|b2 l]]; [reflexivity | | apply is_at_long; discriminate].
      cbn [map is_at]. destruct (label_sym b) as [c|c|c] eqn:E; try reflexivity.
      apply enc_char in E. subst c. apply N.eqb_neq. congruence. }
    rewrite A.
    rewrite <- (app_nil_r (map label_sym l)).
    rewrite name_syms_label by (try exact W; unfold len, label_latest; lia).
    cbn [name_syms app]. rewrite N.add_0_l.
    destruct (len l =? 0) eqn:E; [unfold len in E; lia|].
    cbn [bind rev app]. rewrite app_nil_r, rev_involutive.
    match goal with |- context [if ?c then _ else _] => destruct c eqn:E2 end; [exfalso|reflexivity].
    cbn [wire_len] in *. lia.
Qed.

Lemma dec_fuel_digits fuel : forall n, all_digits (dec_fuel fuel n) = true.
Proof.
  induction fuel as [|f IH]; intros n; [reflexivity|]. cbn [dec_fuel].
  destruct (n <? 10) eqn:E.
  - cbn [all_digits]. unfold is_digit. lia.
  - assert (A : forall a b, all_digits a = true -> all_digits b = true -> all_digits (a ++ b) = true).
    { induction a as [|x a IHa]; intros b Ha Hb; [exact Hb|]. cbn in *. apply andb_true_iff in Ha as [H1 H2].
      rewrite H1, IHa by assumption. reflexivity. }
    apply A; [apply IH|]. cbn [all_digits]. unfold is_digit. lia.
Qed.

Lemma dec_value_app a b : dec_value (a ++ b) = fold_left (fun a c => a * 10 + (c - 48)) b (dec_value a).
Proof. unfold dec_value. apply fold_left_app. Qed.

Lemma dec_fuel_value fuel : forall n, n < 2 ^ N.of_nat fuel -> fuel <> O -> dec_value (dec_fuel fuel n) = n.
Proof.
  induction fuel as [|f IH]; intros n Hn Hf; [congruence|]. cbn [dec_fuel].
  destruct (n <? 10) eqn:E.
  - unfold dec_value. cbn [fold_left]. lia.
  - rewrite dec_value_app. cbn [fold_left].
    destruct f as [|f'].
    + cbn in Hn. lia.
    + rewrite IH; [lia| |congruence].
      rewrite Nat2N.inj_succ, N.pow_succ_r' in Hn. lia.
Qed.

Lemma pos_size_gt p : N.pos p < 2 ^ N.of_nat (Pos.size_nat p).
Proof.
  induction p as [p IH|p IH|]; cbn [Pos.size_nat]; rewrite ?Nat2N.inj_succ, ?N.pow_succ_r'; lia.
Qed.

Lemma show_dec_value n : dec_value (show_dec n) = n.
Proof.
  unfold show_dec. apply dec_fuel_value; [|congruence].
  rewrite Nat2N.inj_succ, N.pow_succ_r'.
  destruct n as [|p]; [cbn; lia|].
  pose proof (pos_size_gt p). cbn [N.size_nat]. lia.
Qed.

Lemma show_dec_digits n : all_digits (show_dec n) = true.
Proof. apply dec_fuel_digits. Qed.

Lemma show_dec_nonempty n : show_dec n <> [].
Proof.
  unfold show_dec. cbn [dec_fuel]. destruct (n <? 10); [discriminate|].
  intros H. apply app_eq_nil in H as [_ H]. discriminate.
Qed.

(* a decimal number is a word of plain digit symbols *)
Definition digit_syms (t : text) : list sym := map SChar t.

Lemma schar_text t : flat_map sym_text (map SChar t) = t.
Proof. induction t as [|c t IH]; [reflexivity|]. cbn [map flat_map sym_text app]. rewrite IH. reflexivity. Qed.

(* a lone "@" label is written verbatim and read back as the origin *)
Lemma scan_show_label_refuted : exists l o, wf_label l /\ wire_len [l] + wire_len o <= 254 /\
  read_name (Some o) (mk_tok false false (map label_sym l)) <> Ok (l :: o).
Proof.
  exists [ch_at], []. split; [split; [repeat constructor; unfold ch_at; lia | cbn; lia]|].
  split; [vm_compute; discriminate | vm_compute; discriminate].
Qed.

(* overflow of the last digit is an error (checked_add), e.g. "256" for a u8 *)
Lemma read_uint_overflow_is_error :
  read_uint 255 (mk_tok false true (digit_syms [50; 53; 54])) = Err E_number.
Proof. vm_compute. reflexivity. Qed.

Example ex_label : show_label [97; 59; 98; 34; 99; 40; 100; 41] = [97; 92; 59; 98; 92; 34; 99; 92; 40; 100; 92; 41].
Proof. vm_compute. reflexivity. Qed.
Example ex_label_read : tokenize (show_label [97; 59; 0; 46] ++ [10]) = Ok [mk_tok false false [SChar 97; SEsc 59; SDec 0; SEsc 46]].
Proof. vm_compute. reflexivity. Qed.
Example ex_name : c06_rdname ([46; 32; 48; 32; 73; 78; 32; 78; 83; 32] ++ show_name [[64]; [36; 32]] ++ [10]) = Ok [[64]; [36; 32]].
Proof. vm_compute. reflexivity. Qed.
Example ex_cstr : show_cstr_quoted [34; 0; 97] = [34; 92; 34; 92; 48; 48; 48; 97; 34].
Proof. vm_compute. reflexivity. Qed.
Example ex_dec : show_dec 4294967295 = [52; 50; 57; 52; 57; 54; 55; 50; 57; 53].
Proof. vm_compute. reflexivity. Qed.
Example ex_wf_label : wf_label [97; 59].
Proof. split; [repeat constructor; lia | cbn; lia]. Qed.

(* C06: the record layer.  TTL / class / type tokens are told apart by scan_ctr,
   regular field kinds read back, the owner at the start of an entry is read as
   an owner whatever its first label starts with, whole records written by the
   three writers read back (scan_show_record), and the RFC 3597 generic form. *)
From Coq Require Import NArith ZArith List Bool Lia ZifyBool.
From DV Require Import Base.Outcome Base.Bytes C06.Gen C06.Model C06.Proofs C06.Proofs2 C06.Tables C06.B32.
Import ListNotations.
Local Open Scope N_scope.

Definition word_tok (t : text) : tok := shape_tok true (TWord (map SChar t)).

Lemma scan_ctr_ok ttl cl rt rest : ttl <= 4294967295 -> cl < 65536 -> rt < 65536 ->
  scan_ctr (word_tok (show_dec ttl) :: word_tok (show_class cl) :: word_tok (show_rtype rt) :: rest)
  = Ok (Some cl, Some ttl, rt, rest).
Proof.
  intros H1 H2 H3. unfold scan_ctr, word_tok.
  destruct (class_text cl H2) as (Pc & Cr & Cc). apply plain_word_spec in Pc as [_ Pc].
  destruct (rtype_text rt H3) as (Pt & Tr). apply plain_word_spec in Pt as [_ Pt].
  rewrite !plain_read_ascii by (exact Pc || exact Pt || apply show_dec_chars, digit_plain). cbn [bind].
  rewrite parse_show_dec by exact H1. rewrite Cr, Cc, Tr. reflexivity.
Qed.

Lemma dec_fuel_len fuel : forall n k, n < 10 ^ N.of_nat k -> (1 <= k)%nat -> (length (dec_fuel fuel n) <= k)%nat.
Proof.
  induction fuel as [|f IH]; intros n k H K; [cbn; lia|]. cbn [dec_fuel].
  destruct (n <? 10) eqn:E; [cbn [length]; lia|].
  rewrite app_length. cbn [length].
  destruct k as [|k]; [lia|]. destruct k as [|k].
  - cbn in H. lia.
  - rewrite Nat2N.inj_succ, N.pow_succ_r' in H.
    specialize (IH (n / 10) (S k)). assert (n / 10 < 10 ^ N.of_nat (S k)) by lia. specialize (IH H0). lia.
Qed.

Lemma read_timestamp_dec sp n : n <= 4294967295 ->
  read_timestamp (shape_tok sp (TWord (map SChar (show_dec n)))) = Ok n.
Proof.
  intros H. unfold read_timestamp.
  rewrite plain_read_ascii by (apply show_dec_chars, digit_plain). cbn [bind].
  assert (L : (length (show_dec n) <= 10)%nat).
  { unfold show_dec. apply dec_fuel_len; [|lia]. change (10 ^ N.of_nat 10) with 10000000000. lia. }
  destruct (Nat.leb (length (show_dec n)) 10) eqn:E; [|apply Nat.leb_gt in E; lia].
  rewrite parse_show_dec by exact H. reflexivity.
Qed.

Lemma split_dots_digits ds : forall cur rest, all_digits ds = true ->
  split_dots cur (ds ++ rest) = split_dots (rev ds ++ cur) rest.
Proof.
  induction ds as [|c ds IH]; intros cur rest D; [reflexivity|].
  cbn [all_digits] in D. apply andb_true_iff in D as [D1 D2]. cbn [app split_dots].
  destruct (c =? 46) eqn:E; [unfold is_digit in D1; lia|]. rewrite IH by exact D2. cbn [rev]. rewrite <- app_assoc. reflexivity.
Qed.

Lemma ip4_octet_table : forall n, n < 256 -> parse_ip4_octet (show_dec n) = Some n.
Proof.
  intros n Hn.
  assert (H : forall_bits 8 (fun n => opt_is (parse_ip4_octet (show_dec n)) n) = true) by (vm_compute; reflexivity).
  pose proof (forall_octets _ H n Hn) as H1. cbv beta in H1.
  destruct (parse_ip4_octet (show_dec n)); [apply N.eqb_eq in H1; subst; reflexivity | discriminate].
Qed.

Definition wf_ip4 (a : bytes) : Prop := wf_bytes a /\ length a = 4%nat.

Lemma parse_show_ip4 a : wf_ip4 a -> parse_ip4 (show_ip4 a) = Some a.
Proof.
  intros [W L]. destruct a as [|a1 [|a2 [|a3 [|a4 [|]]]]]; try discriminate.
  inversion W as [|? ? H1 W1]; subst. inversion W1 as [|? ? H2 W2]; subst.
  inversion W2 as [|? ? H3 W3]; subst. inversion W3 as [|? ? H4 _]; subst.
  unfold parse_ip4, show_ip4.
  rewrite split_dots_digits by apply show_dec_digits. cbn [split_dots N.eqb Pos.eqb app]. rewrite app_nil_r, rev_involutive.
  rewrite split_dots_digits by apply show_dec_digits. cbn [split_dots N.eqb Pos.eqb app]. rewrite app_nil_r, rev_involutive.
  rewrite split_dots_digits by apply show_dec_digits. cbn [split_dots N.eqb Pos.eqb app]. rewrite app_nil_r, rev_involutive.
  rewrite <- (app_nil_r (show_dec a4)). rewrite split_dots_digits by apply show_dec_digits.
  cbn [split_dots]. rewrite app_nil_r, rev_involutive.
  rewrite !ip4_octet_table by assumption. reflexivity.
Qed.

Lemma show_ip4_chars (P : N -> bool) a : (forall c, is_digit c = true -> P c = true) -> P 46 = true ->
  forallb P (show_ip4 a) = true.
Proof.
  intros Pd P46. destruct a as [|a1 [|a2 [|a3 [|a4 [|]]]]]; try reflexivity. unfold show_ip4.
  repeat (rewrite forallb_app; cbn [forallb]). rewrite !(show_dec_chars P _ Pd), P46. reflexivity.
Qed.

Lemma show_ip4_plain a : wf_ip4 a -> plain_word (show_ip4 a) = true.
Proof.
  intros [W L]. apply plain_word_spec. split; [|apply show_ip4_chars; [exact digit_plain | reflexivity]].
  destruct a as [|a1 [|a2 [|a3 [|a4 [|]]]]]; try discriminate. unfold show_ip4.
  pose proof (show_dec_nonempty a1). destruct (show_dec a1); [congruence | discriminate].
Qed.

Definition salt_text (w : text) : text := match w with [] => [45] | _ => w end.

Definition field_shapes (v : fval) : list tshape :=
  match v with
  | VUint n => [TWord (map SChar (show_dec n))]
  | VName n => [TWord (name_shape_syms n)]
  | VCharstr b => [TQuoted (map quoted_from_octet b)]
  | VWord w => [TWord (map SChar w)]
  | VCharstrs l => map (fun b => TQuoted (map quoted_from_octet b)) l
  | VRest w => match w with [] => [] | _ => [TWord (map SChar w)] end
  | VRtype n => [TWord (map SChar (show_rtype n))]
  | VTypes l => map (fun n => TWord (map SChar (show_rtype n))) l
  | VSalt w => [TWord (map SChar (salt_text w))]
  | VQuoted b => [TQuoted (map quoted_from_octet b)]
  | VIp4 a => [TWord (map SChar (show_ip4 a))]
  | VDot => [TWord [SChar ch_dot]]
  | VB32 b => [TWord (map SChar (b32_text b))]
  end.

(* the write_token / begin_block calls of a field: an empty rest-of-entry word is an empty
   token, the NSEC3 salt opens a block of its own (closed after its comment) *)
Definition val_sops (v : fval) : list sop :=
  match v with
  | VRest [] => [SEmpty]
  | VSalt _ => SBegin :: map (fun sh => STok sh) (field_shapes v)
  | _ => map (fun sh => STok sh) (field_shapes v)
  end.

Definition wf_field (k : fkind) (v : fval) : Prop :=
  match k, v with
  | FUint max, VUint n => n <= max
  | FName, VName n => wf_name n
  | FCharstr, VCharstr b => wf_charstr b
  | FWord, VWord w => plain_word w = true
  | FCharstrs, VCharstrs l => l <> [] /\ Forall wf_charstr l
  | FRest, VRest w => forallb plain_char w = true
  | FRtype, VRtype n => n < 65536
  | FTimestamp, VUint n => n <= 4294967295
  | FTypes, VTypes l => Forall (fun n => n < 65536) l
  | FSalt, VSalt w => forallb plain_char w = true /\ w <> [45] /\ len w <= 2 * nsec3_salt_max
  | FQuoted, VQuoted b => wf_bytes b
  | FIp4, VIp4 a => wf_ip4 a
  | FDot, VDot => True
  | FB32, VB32 b => wf_bytes b /\ b <> [] /\ len b <= nsec3_hash_max
  | _, _ => False
  end.

Definition reads_to_end (k : fkind) : Prop := k = FCharstrs \/ k = FRest \/ k = FTypes.

Fixpoint wf_fields (ks : list fkind) (vs : list fval) : Prop :=
  match ks, vs with
  | [], [] => True
  | k :: kr, v :: vr => wf_field k v /\ (reads_to_end k -> kr = []) /\ wf_fields kr vr
  | _, _ => False
  end.

Lemma stoks_text l : map erase (map (fun sh => STok sh) l) = map (fun sh => OTok (shape_text sh)) l.
Proof. rewrite map_map. apply map_ext. intros sh. reflexivity. Qed.

Lemma val_sops_text v : map erase (val_sops v) = show_field v.
Proof.
  destruct v as [n|n|b|w|l|w|n|l|w|b|a| |b2]; cbn [val_sops show_field]; try rewrite stoks_text;
    cbn [field_shapes map erase join]; rewrite <- ?show_name_shape, <- ?cstr_quoted_shape;
    cbn [shape_text]; rewrite ?schar_text; try reflexivity.
  - rewrite map_map. apply map_ext. intros b. rewrite <- cstr_quoted_shape. reflexivity.
  - destruct w as [|c w]; [reflexivity|]. cbv iota. remember (c :: w) as x.
    cbn [map erase join shape_text]. rewrite schar_text. reflexivity.
  - rewrite map_map. apply map_ext. intros n. cbn [shape_text]. rewrite schar_text. reflexivity.
Qed.

Lemma salt_text_plain w : forallb plain_char w = true -> plain_word (salt_text w) = true.
Proof. intros H. destruct w as [|c w]; [reflexivity|]. unfold salt_text, plain_word. rewrite H. reflexivity. Qed.

Lemma val_sops_good k v : wf_field k v -> Forall good_sop (val_sops v).
Proof.
  assert (S : forall sh, good_shape sh = true -> good_sop (STok sh)) by (intros sh G; split; [exact G | constructor]).
  assert (S1 : forall sh, good_shape sh = true -> Forall good_sop [STok sh]) by (intros sh G; repeat constructor; exact G).
  destruct k, v; cbn [wf_field val_sops field_shapes map]; intros W; try contradiction.
  - apply S1, plain_word_good, show_dec_plain.
  - apply S1, name_shape_good, W.
  - apply S1, cstr_quoted_good, W.
  - apply S1, plain_word_good, W.
  - destruct W as [_ W]. rewrite !Forall_map. eapply Forall_impl; [|exact W]. intros b Hb. apply S, cstr_quoted_good, Hb.
  - apply S1, plain_word_good, rtype_text, W.
  - rewrite !Forall_map. eapply Forall_impl; [|exact W]. intros n Hn. apply S, plain_word_good, rtype_text, Hn.
  - constructor; [exact I|]. apply S1, plain_word_good, salt_text_plain, (proj1 W).
  - apply S1, plain_word_good, show_dec_plain.
  - apply S1, plain_word_good, show_ip4_plain, W.
  - apply S1, plain_word_good. destruct W as (W1 & W2 & _).
    destruct (blob32_roundtrip b W1 W2) as (w & D & P & _). unfold b32_text. rewrite D. exact P.
  - apply S1. reflexivity.
  - apply S1, cstr_quoted_good, W.
  - destruct w as [|c w]; [repeat constructor|]. apply S1, plain_word_good, plain_word_spec. split; [discriminate | exact W].
Qed.

Lemma read_rtype_ok sp n : n < 65536 -> read_rtype (shape_tok sp (TWord (map SChar (show_rtype n)))) = Ok n.
Proof.
  intros H. destruct (rtype_text n H) as (P & R). apply plain_word_spec in P as [_ P].
  unfold read_rtype. rewrite plain_read_ascii by exact P. cbn [bind]. rewrite R. reflexivity.
Qed.

Lemma salt_back w : w <> [45] -> match salt_text w with [45] => [] | _ => salt_text w end = w.
Proof.
  intros H. destruct w as [|c w]; [reflexivity|]. unfold salt_text.
  destruct c as [|p]; try reflexivity.
  destruct w as [|d w]; [|repeat (destruct p as [p|p|]; try reflexivity)].
  repeat (destruct p as [p|p|]; try reflexivity). congruence.
Qed.

Lemma read_octets_quoted sp b : wf_bytes b -> read_octets (shape_tok sp (TQuoted (map quoted_from_octet b))) = Ok b.
Proof. intros W. unfold read_octets. cbn [shape_tok t_syms]. apply (enc_octets true); [exact W | exact quoted_table]. Qed.

Lemma read_field_ok k v rest : wf_field k v -> (reads_to_end k -> rest = []) ->
  read_field k (map (shape_tok true) (field_shapes v) ++ rest) = Ok (v, rest).
Proof.
  intros Wv Last.
  destruct k, v; cbn [wf_field] in Wv; try contradiction; cbn [field_shapes map app read_field].
  - destruct (scan_show_int max n true Wv) as (_ & _ & R). unfold digit_syms in R. rewrite R. reflexivity.
  - rewrite read_name_shape by exact Wv. reflexivity.
  - rewrite read_charstr_quoted by exact Wv. reflexivity.
  - cbn [shape_tok t_syms]. rewrite plain_word_text. reflexivity.
  - destruct Wv as [NE Wc]. rewrite (Last (or_introl eq_refl)), app_nil_r.
    assert (M : map_o read_charstr (map (shape_tok true) (map (fun b => TQuoted (map quoted_from_octet b)) l)) = Ok l)
      by (rewrite map_map; apply (map_o_all read_charstr wf_charstr); [exact Wc | apply read_charstr_quoted]).
    destruct l as [|b l]; [congruence|]. cbn [map] in M |- *. rewrite M. reflexivity.
  - rewrite read_rtype_ok by exact Wv. reflexivity.
  - rewrite (Last (or_intror (or_intror eq_refl))), app_nil_r.
    rewrite map_map, (map_o_all read_rtype (fun n => n < 65536)) by (exact Wv || apply read_rtype_ok).
    reflexivity.
  - destruct Wv as (Wp & Wn & Wlen). cbn [shape_tok t_syms]. rewrite plain_word_text. cbn [bind].
    assert (L : (2 * nsec3_salt_max <? len (salt_text w)) = false).
    { destruct w as [|c w]; [reflexivity|]. unfold salt_text. lia. }
    rewrite L. cbv iota. rewrite salt_back by exact Wn. reflexivity.
  - rewrite read_timestamp_dec by exact Wv. reflexivity.
  - pose proof (show_ip4_plain _ Wv) as P. apply plain_word_spec in P as [_ P].
    rewrite plain_read_octets by exact P. cbn [bind]. rewrite parse_show_ip4 by exact Wv. reflexivity.
  - destruct Wv as (W1 & W2 & W3). destruct (blob32_roundtrip b W1 W2) as (w & D & P & C).
    unfold b32_text. rewrite D. cbv iota. cbn [shape_tok t_syms]. rewrite plain_word_text. cbn [bind]. rewrite C. cbn [bind].
    destruct (nsec3_hash_max <? len b) eqn:E; [lia | reflexivity].
  - reflexivity.
  - rewrite read_octets_quoted by exact Wv. reflexivity.
  - rewrite (Last (or_intror (or_introl eq_refl))), app_nil_r.
    destruct w as [|c w]; [reflexivity|]. cbv iota. remember (c :: w) as x.
    cbn [map map_o shape_tok t_syms]. rewrite plain_word_text. cbn [bind concat]. rewrite app_nil_r. reflexivity.
Qed.

Lemma read_fields_ok ks : forall vs, wf_fields ks vs ->
  read_fields ks (map (shape_tok true) (flat_map field_shapes vs)) = Ok vs.
Proof.
  induction ks as [|k kr IH]; intros [|v vr] W; cbn [wf_fields] in W; try contradiction; [reflexivity|].
  destruct W as (Wv & Wl & Wr). cbn [read_fields flat_map]. rewrite map_app, (read_field_ok k v _ Wv).
  - cbn [bind]. rewrite IH by exact Wr. reflexivity.
  - intros E. rewrite (Wl E) in Wr. destruct vr; [reflexivity | contradiction].
Qed.

(* the four leading tokens of every entry *)
Definition head_sops (owner : list bytes) (ttl cl rt : N) : list sop :=
  [STok (TWord (name_shape_syms owner)); STok (TWord (map SChar (show_dec ttl)));
   STok (TWord (map SChar (show_class cl))); STok (TWord (map SChar (show_rtype rt)))].

Lemma erase_head owner ttl cl rt : map erase (head_sops owner ttl cl rt)
  = [OTok (show_name owner); OTok (show_dec ttl); OTok (show_class cl); OTok (show_rtype rt)].
Proof. unfold head_sops. cbn [map erase join]. rewrite <- show_name_shape. cbn [shape_text]. rewrite !schar_text. reflexivity. Qed.

Lemma head_sops_good owner ttl cl rt : wf_name owner -> cl < 65536 -> rt < 65536 ->
  Forall good_sop (head_sops owner ttl cl rt).
Proof.
  intros Wo Wc Wy. destruct (class_text _ Wc) as (C & _). destruct (rtype_text _ Wy) as (T & _).
  repeat constructor; [apply name_shape_good, Wo | apply plain_word_good ..]; [apply show_dec_plain | exact C | exact T].
Qed.

Definition field_sops (fc : fval * list text) : list sop :=
  val_sops (fst fc) ++ map SComment (snd fc)
  ++ match fst fc with VSalt _ => [SEnd] | _ => [] end.
Definition data_sops (block : bool) (fs : list (fval * list text)) : list sop :=
  if block then SBegin :: flat_map field_sops fs ++ [SEnd] else flat_map field_sops fs.
Definition record_sops (r : record) : list sop :=
  head_sops (r_owner r) (r_ttl r) (r_class r) (r_type r) ++ data_sops (r_block r) (r_fields r).


Lemma erase_field_sops fc : map erase (field_sops fc) = field_ops fc.
Proof.
  unfold field_sops, field_ops. rewrite !map_app. f_equal; [apply val_sops_text|]. f_equal.
  - rewrite map_map. reflexivity.
  - destruct (fst fc); reflexivity.
Qed.

Lemma erase_flat fs : map erase (flat_map field_sops fs) = flat_map field_ops fs.
Proof. induction fs as [|f fs IH]; [reflexivity|]. cbn [flat_map]. rewrite map_app, erase_field_sops, IH. reflexivity. Qed.

Lemma erase_record r : map erase (record_sops r) = record_ops r.
Proof.
  unfold record_sops, record_ops. rewrite map_app, erase_head. cbn [app]. do 4 f_equal.
  unfold data_sops, Model.data_ops. destruct (r_block r).
  - cbn [map erase]. rewrite map_app, erase_flat. reflexivity.
  - apply erase_flat.
Qed.

Definition comments_ok (fs : list (fval * list text)) : Prop :=
  Forall (fun fc => Forall (fun c => ~ In ch_lf c) (snd fc)) fs.

Definition wf_record (schema : list fkind) (r : record) : Prop :=
  wf_name (r_owner r) /\ r_ttl r <= 4294967295 /\ r_class r < 65536 /\ r_type r < 65536 /\
  wf_fields schema (map fst (r_fields r)) /\ comments_ok (r_fields r).

Lemma wf_fields_each ks : forall vs, wf_fields ks vs -> Forall (fun v => exists k, wf_field k v) vs.
Proof.
  induction ks as [|k kr IH]; intros [|v vr] W; cbn [wf_fields] in W; try contradiction; [constructor|].
  destruct W as (Wv & _ & Wr). constructor; [exists k; exact Wv | apply IH, Wr].
Qed.

Lemma good_flat fs : Forall (fun v => exists k, wf_field k v) (map fst fs) -> comments_ok fs ->
  Forall good_sop (flat_map field_sops fs).
Proof.
  induction fs as [|f fs IH]; intros W C; [constructor|]. destruct f as [v oc].
  cbn [map fst] in W. inversion W as [|? ? [k Wk] Wr]; subst. inversion C as [|? ? C1 C2]; subst.
  cbn [flat_map]. cbn [snd] in C1. apply Forall_app. split; [|apply IH; assumption].
  unfold field_sops. cbn [fst snd]. apply Forall_app. split.
  - exact (val_sops_good k _ Wk).
  - apply Forall_app. split.
    + rewrite Forall_map. exact C1.
    + destruct v; repeat constructor.
Qed.

Lemma balanced_stoks l d rest : balanced d (map (fun sh => STok sh) l ++ rest) = balanced d rest.
Proof. induction l as [|sh l IH]; [reflexivity|]. cbn [map app balanced]. exact IH. Qed.

Lemma expect_stoks multi l rest :
  expect multi true (map (fun sh => STok sh) l ++ rest) = map (shape_tok true) l ++ expect multi true rest.
Proof. induction l as [|sh l IH]; [reflexivity|]. cbn [map app expect]. f_equal. exact IH. Qed.

Lemma balanced_field fc d rest : balanced d (field_sops fc ++ rest) = balanced d rest.
Proof.
  destruct fc as [v oc]. unfold field_sops. cbn [fst snd]. rewrite <- !app_assoc.
  assert (C : forall d r, balanced d (map SComment oc ++ r) = balanced d r).
  { intros d0 r. induction oc as [|c oc IHc]; [reflexivity | exact IHc]. }
  destruct v as [n|n|b|w|l|w|n|l|w|b|a| |b2]; cbn [val_sops];
    try (rewrite balanced_stoks, C; reflexivity).
  - destruct w as [|c w]; [cbn [app balanced]; rewrite C; reflexivity | rewrite balanced_stoks, C; reflexivity].
  - cbn [app balanced]. rewrite balanced_stoks, C. cbn [app balanced].
    replace (d + 1 - 1) with d by lia. destruct (0 <? d + 1) eqn:E; [reflexivity|lia].
Qed.

Lemma expect_field multi fc rest :
  expect multi true (field_sops fc ++ rest) = map (shape_tok true) (field_shapes (fst fc)) ++ expect multi true rest.
Proof.
  destruct fc as [v oc]. unfold field_sops. cbn [fst snd]. rewrite <- !app_assoc.
  assert (C : forall r, expect multi true (map SComment oc ++ r) = expect multi true r).
  { intros r. induction oc as [|c oc IHc]; [reflexivity | exact IHc]. }
  destruct v as [n|n|b|w|l|w|n|l|w|b|a| |b2]; cbn [val_sops];
    try (rewrite expect_stoks, C; reflexivity).
  - destruct w as [|c w]; [cbn [app expect]; rewrite C; reflexivity | rewrite expect_stoks, C; reflexivity].
  - cbn [app expect orb]. rewrite expect_stoks, C. reflexivity.
Qed.

Lemma balanced_flat fs d rest : balanced d (flat_map field_sops fs ++ rest) = balanced d rest.
Proof.
  induction fs as [|f fs IH]; [reflexivity|]. cbn [flat_map]. rewrite <- app_assoc, balanced_field. exact IH.
Qed.

Lemma expect_flat multi fs rest :
  expect multi true (flat_map field_sops fs ++ rest)
  = map (shape_tok true) (flat_map field_shapes (map fst fs)) ++ expect multi true rest.
Proof.
  induction fs as [|f fs IH]; [reflexivity|]. cbn [flat_map map]. rewrite <- app_assoc, map_app, <- app_assoc.
  rewrite expect_field. f_equal. exact IH.
Qed.

Lemma record_sops_facts multi schema r : wf_record schema r ->
  Forall good_sop (record_sops r) /\ balanced 0 (record_sops r) = true /\
  expect multi false (record_sops r)
  = shape_tok false (TWord (name_shape_syms (r_owner r))) :: word_tok (show_dec (r_ttl r))
    :: word_tok (show_class (r_class r)) :: word_tok (show_rtype (r_type r))
    :: map (shape_tok true) (flat_map field_shapes (map fst (r_fields r))).
Proof.
  intros (Wo & Wt & Wc & Wy & Wf & Wm).
  pose proof (good_flat _ (wf_fields_each _ _ Wf) Wm) as GF.
  unfold record_sops, head_sops, word_tok, data_sops. cbn [app balanced expect map]. split; [|split].
  - apply (Forall_app good_sop (head_sops _ _ _ _)). split; [apply head_sops_good; assumption|].
    destruct (r_block r); [|exact GF].
    constructor; [exact I|]. apply Forall_app. split; [exact GF | repeat constructor].
  - destruct (r_block r).
    + cbn [balanced]. rewrite balanced_flat. reflexivity.
    + rewrite <- (app_nil_r (flat_map field_sops (r_fields r))). rewrite balanced_flat. reflexivity.
  - do 4 f_equal. destruct (r_block r).
    + cbn [expect orb]. rewrite expect_flat. cbn [expect]. rewrite app_nil_r. reflexivity.
    + rewrite <- (app_nil_r (flat_map field_sops (r_fields r))). rewrite expect_flat. cbn [expect]. rewrite app_nil_r. reflexivity.
Qed.

(* the owner: Display for Label escapes '$', so the first symbol of an owner is never an
   unescaped '$' (control entry), and a name is never the free standing '@' *)
Lemma read_owner_ok n : wf_name n ->
  read_owner None (shape_tok false (TWord (name_shape_syms n))) = Ok n.
Proof.
  intros W. pose proof (read_name_shape false n None W) as RN.
  unfold read_owner. cbn [shape_tok t_spaced t_syms] in *.
  destruct n as [|l r]; [exact RN|].
  destruct W as [Wl _]. inversion Wl as [|? ? [Wb [L1 _]] _]; subst.
  destruct l as [|b l]; [cbn in L1; lia|]. cbn [name_shape_syms map app] in *.
  destruct (label_sym b) as [c|c|c] eqn:E; try exact RN.
  pose proof (enc_char _ _ _ _ _ E). subst c.
  destruct (b =? ch_dollar) eqn:E1; [apply N.eqb_eq in E1; subst b; discriminate E|].
  destruct (map label_sym l ++ flat_map (fun x => SChar ch_dot :: map label_sym x) r ++ [SChar ch_dot]) eqn:E2;
    [apply app_eq_nil in E2 as [_ E2]; apply app_eq_nil in E2 as [_ E2]; discriminate|].
  rewrite andb_false_r. exact RN.
Qed.

(* owner names at entry level: whatever the first label starts with ('$', '@', '\', '(', ';',
   a blank ...), the text written by fmt_with_dot at the start of a line is one unspaced token
   that _scan_entry takes for an owner name -- not for a control entry, the origin or an
   indented entry -- and reads back octet for octet *)
Theorem owner_roundtrip n rest : wf_name n -> starts_delim rest = true ->
  exists t, run (Ok st0) (show_name n ++ rest) = run (Ok (0, [t], MSkip false)) rest /\
            t_spaced t = false /\ read_owner None t = Ok n.
Proof.
  intros W D. destruct (scan_show_name n 0 [] false rest None W D) as (t & R & E & _).
  exists t. split; [exact R|]. subst t. split; [reflexivity | apply read_owner_ok, W].
Qed.

Example ex_owner_specials :
  map (fun c => c06_owner (show_name [[c; 97]] ++ [32; 48; 32; 73; 78; 32; 78; 83; 32; 46; 10])) [36; 64; 92; 40; 59; 32; 34; 46]
  = map (fun c => Ok [[c; 97]]) [36; 64; 92; 40; 59; 32; 34; 46].
Proof. vm_compute. reflexivity. Qed.

(* scan_show_record: every record over regular field kinds, written by any of the three
   writers, reads back equal *)
Theorem scan_show_record k schema r : wf_record schema r ->
  exists t, show_record k r = Ok t /\
    read_record schema t = Ok (r_owner r, r_ttl r, r_class r, r_type r, map fst (r_fields r)).
Proof.
  intros W. destruct (record_sops_facts (is_multi k) schema r W) as (G & B & X).
  destruct (tokens_reassemble k (record_sops r) G B) as (t & R & T).
  rewrite erase_record in R. exists (t ++ [ch_lf]). split.
  - unfold show_record. rewrite R. reflexivity.
  - unfold read_record. rewrite T, X. cbn [bind].
    destruct W as (Wo & Wt & Wc & Wy & Wf & _).
    rewrite read_owner_ok by assumption. cbn [bind].
    rewrite scan_ctr_ok by assumption. cbn [bind].
    rewrite read_fields_ok by exact Wf. reflexivity.
Qed.

(* known finding txt_no_strings: a character-string list field must not be empty
   (wf_field FCharstrs); an empty TXT is written as no token at all and cannot be read *)
Theorem scan_show_record_txt_no_strings_refuted : exists k r,
  exists t, show_record k r = Ok t /\ read_record [FCharstrs] t = Err E_tokens.
Proof.
  exists KSimple, (mk_record [[97]] 0 1 16 true [(VCharstrs [], [])]).
  eexists. split; [vm_compute; reflexivity|]. vm_compute. reflexivity.
Qed.

Example ex_dollar_owner : exists t,
  show_record KSimple (mk_record [[36]] 3600 1 15 true [(VUint 10, [[112]]); (VName [[97]], [])]) = Ok t /\
  read_record [FUint 65535; FName] t = Ok ([[36]], 3600, 1, 15, [VUint 10; VName [[97]]]).
Proof. eexists. split; [vm_compute; reflexivity|]. vm_compute. reflexivity. Qed.

Definition hex_shape (b : N) : tshape := TWord (map SChar (show_hex2 b)).
Definition generic_sops (owner : list bytes) (ttl cl rt : N) (data : bytes) : list sop :=
  head_sops owner ttl cl rt ++
  [SToks (TWord [SEsc ch_hash]) (TWord (map SChar (show_dec (len data))) :: map hex_shape data)].

Lemma join_flat a l : join 32 (a :: l) = a ++ flat_map (fun x => 32 :: x) l.
Proof.
  revert a. induction l as [|b l IH]; intros a; [cbn; rewrite app_nil_r; reflexivity|].
  change (join 32 (a :: b :: l)) with (a ++ 32 :: join 32 (b :: l)). rewrite IH. reflexivity.
Qed.

Lemma erase_generic owner ttl cl rt data :
  map erase (generic_sops owner ttl cl rt data) = generic_ops owner ttl cl rt data.
Proof.
  unfold generic_sops, generic_ops. rewrite map_app, erase_head. cbn [app map erase]. do 5 f_equal.
  unfold generic_text. rewrite join_flat. cbn [map flat_map shape_text sym_text app].
  rewrite schar_text. unfold ch_hash. cbn [app]. do 5 f_equal.
  induction data as [|b d IH]; [reflexivity|]. cbn [map flat_map]. rewrite IH. unfold hex_shape. cbn [shape_text].
  rewrite schar_text. reflexivity.
Qed.

Lemma hexdig_facts d : d < 16 ->
  hexval (hexdig d) = Some d /\ plain_char (hexdig d) = true /\ ~ In (hexdig d) [44; 46; 58].
Proof.
  intros H. unfold hexdig, hexval, is_digit, plain_char, mem. cbn [existsb In].
  destruct (d <? 10) eqn:E.
  - split; [|lia]. destruct ((48 <=? 48 + d) && (48 + d <=? 57)) eqn:E2; [f_equal; lia | lia].
  - split; [|lia]. destruct ((48 <=? 87 + d) && (87 + d <=? 57)) eqn:E2; [lia|].
    destruct ((97 <=? 87 + d) && (87 + d <=? 102)) eqn:E3; [f_equal; lia | lia].
Qed.

Lemma hex_syms_data data : wf_bytes data ->
  hex_syms (flat_map t_syms (map (shape_tok true) (map hex_shape data))) None = Ok data.
Proof.
  induction 1 as [|b d Hb _ IH]; [reflexivity|].
  cbn [map flat_map shape_tok hex_shape t_syms show_hex2 app hex_syms].
  destruct (hexdig_facts (b / 16) ltac:(lia)) as [H1 _]. destruct (hexdig_facts (b mod 16) ltac:(lia)) as [H2 _].
  rewrite H1, H2. change (flat_map t_syms (map (shape_tok true) (map hex_shape d))) with
    (flat_map t_syms (map (shape_tok true) (map hex_shape d))) in IH. rewrite IH. cbn [bind]. f_equal. f_equal. lia.
Qed.

Theorem generic_form_roundtrip k owner ttl cl rt data :
  wf_name owner -> ttl <= 4294967295 -> cl < 65536 -> rt < 65536 ->
  wf_bytes data -> len data <= 65535 ->
  exists t, render k (generic_ops owner ttl cl rt data) = Ok t /\
    read_generic_record (t ++ [ch_lf]) = Ok (owner, ttl, cl, rt, data).
Proof.
  intros Wo Wt Wc Wy Wd Wl.
  assert (G : Forall good_sop (generic_sops owner ttl cl rt data)).
  { apply Forall_app. split; [apply head_sops_good; assumption|]. repeat constructor.
    - apply plain_word_good, show_dec_plain.
    - rewrite Forall_map. unfold wf_bytes in Wd. eapply Forall_impl; [|exact Wd]. intros b Hb. cbv beta in Hb. unfold hex_shape.
      apply plain_word_good. unfold plain_word, show_hex2. cbn [forallb negb andb].
      destruct (hexdig_facts (b / 16) ltac:(lia)) as (_ & P1 & _). destruct (hexdig_facts (b mod 16) ltac:(lia)) as (_ & P2 & _).
      rewrite P1, P2. reflexivity. }
  destruct (tokens_reassemble k (generic_sops owner ttl cl rt data) G eq_refl) as (t & R & Tk).
  rewrite erase_generic in R. exists t. split; [exact R|].
  unfold read_generic_record. rewrite Tk. unfold generic_sops, head_sops. cbn [expect map app bind].
  rewrite read_owner_ok by assumption. cbn [bind].
  change (shape_tok true (TWord (map SChar (show_dec ttl)))) with (word_tok (show_dec ttl)).
  change (shape_tok true (TWord (map SChar (show_class cl)))) with (word_tok (show_class cl)).
  change (shape_tok true (TWord (map SChar (show_rtype rt)))) with (word_tok (show_rtype rt)).
  rewrite scan_ctr_ok by assumption. cbn [bind]. rewrite app_nil_r.
  unfold read_generic. cbn [is_marker shape_tok t_quoted t_syms negb andb]. rewrite N.eqb_refl.
  destruct (scan_show_int 65535 (len data) true Wl) as (_ & _ & RU). unfold digit_syms in RU. cbn [shape_tok] in RU.
  rewrite RU. cbn [bind]. rewrite hex_syms_data by exact Wd. cbn [bind]. rewrite N.eqb_refl. reflexivity.
Qed.

Example ex_record :
  show_record KMulti (mk_record [[97; 59]] 3600 1 15 true [(VUint 10, [[112]]); (VName [[109]], [])])
  = Ok [97; 92; 59; 46; 32; 51; 54; 48; 48; 32; 73; 78; 32; 77; 88; 32; 40; 32; 49; 48; 9; 59; 32; 112; 10;
        32; 32; 32; 32; 32; 32; 32; 32; 32; 32; 32; 32; 32; 32; 32; 32; 32; 32; 109; 46; 32; 41; 10].
Proof. vm_compute. reflexivity. Qed.
Example ex_generic : read_generic_record ([46; 32; 48; 32; 73; 78; 32] ++ show_rtype 65280 ++ 32 :: generic_text [222; 173] ++ [10])
  = Ok ([], 0, 1, 65280, [222; 173]).
Proof. vm_compute. reflexivity. Qed.

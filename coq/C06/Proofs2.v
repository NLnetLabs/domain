(* C06: the three writers.  Whatever sequence of tokens, blocks and comments a
   ZonefileFmt implementation emits, the reader's tokenizer recovers exactly the
   tokens (tokens_reassemble for SimpleWriter, TabbedWriter and MultiLineWriter). *)
From Coq Require Import NArith List Bool Lia ZifyBool.
From DV Require Import Base.Outcome C06.Gen C06.Model C06.Proofs.
Import ListNotations.
Local Open Scope N_scope.

(* tokens joined by single blanks *)
Fixpoint join (sep : N) (ts : list text) : text :=
  match ts with [] => [] | [t] => t | t :: r => t ++ sep :: join sep r end.

(* SToks: ONE write_token call whose text consists of several reader tokens
   separated by single blanks (the RFC 3597 generic form is written like that);
   the usual case is a single token *)
(* SEmpty: a write_token call with an empty text (e.g. Base16 of no octets) *)
Inductive sop := SToks (sh : tshape) (more : list tshape) | SBegin | SEnd | SComment (c : text) | SEmpty.
Notation STok sh := (SToks sh []).

Definition erase (o : sop) : op :=
  match o with
  | SToks sh more => OTok (join 32 (map shape_text (sh :: more)))
  | SBegin => OBegin
  | SEnd => OEnd
  | SComment c => OComment c
  | SEmpty => OTok []
  end.

Definition good_sop (o : sop) : Prop :=
  match o with
  | SToks sh more => good_shape sh = true /\ Forall (fun s => good_shape s = true) more
  | SComment c => ~ In ch_lf c
  | _ => True
  end.

Fixpoint balanced (d : N) (l : list sop) : bool :=
  match l with
  | [] => d =? 0
  | SBegin :: r => balanced (d + 1) r
  | SEnd :: r => (0 <? d) && balanced (d - 1) r
  | _ :: r => balanced d r
  end.

(* the tokens the reader is expected to see; [sp]: is the next token preceded by space *)
Fixpoint expect (multi sp : bool) (l : list sop) : list tok :=
  match l with
  | [] => []
  | SToks sh more :: r => shape_tok sp sh :: map (shape_tok true) more ++ expect multi true r
  | SBegin :: r | SEnd :: r => expect multi (sp || multi) r
  | SComment _ :: r => expect multi sp r
  | SEmpty :: r => expect multi true r
  end.

(* reader state after the text written so far.  When the writer is not at the
   start of a line / of the output ([first] = false) the last token may still be
   open: the equation holds for every continuation that starts with a delimiter. *)
Definition rel (first : bool) (out : text) (p : N) (ts : list tok) (b : bool) : Prop :=
  forall rest, first = true \/ starts_delim rest = true ->
    run (Ok st0) (out ++ rest) = run (Ok (p, ts, MSkip b)) rest.

Lemma rel_start : rel true [] 0 [] false.
Proof. intros rest _. reflexivity. Qed.

Lemma delim_cons c rest : mem c word_excl = true -> c <? ascii_limit = true -> starts_delim (c :: rest) = true.
Proof. intros H1 H2. cbn [starts_delim]. rewrite H1, H2. reflexivity. Qed.

(* a white space character in next_item *)
Lemma run_ws c p ts b rest : mem c ws_chars = true ->
  run (Ok (p, ts, MSkip b)) (c :: rest) = run (Ok (p, ts, MSkip true)) rest.
Proof. intros H. rewrite run_cons. cbn [bind step]. unfold step_skip. rewrite H. reflexivity. Qed.

Lemma ws_delim c rest : c = 32 \/ c = 9 -> starts_delim (c :: rest) = true /\ mem c ws_chars = true.
Proof. intros [->| ->]; split; reflexivity. Qed.

(* appending a token, with separator [c] unless first *)
Lemma rel_tok first out p ts b sh c :
  rel first out p ts b -> good_shape sh = true -> c = 32 \/ c = 9 ->
  rel false (out ++ (if first then [] else [c]) ++ shape_text sh) p
      (shape_tok (if first then b else true) sh :: ts) false.
Proof.
  intros R G C rest [F|D]; [discriminate|].
  assert (FO : follow_ok sh rest = true) by (destruct sh; [exact D | reflexivity]).
  destruct (ws_delim c (shape_text sh ++ rest) C) as [D1 W1].
  destruct first.
  - cbn [app]. rewrite <- app_assoc. rewrite R by (left; reflexivity).
    apply run_token; assumption.
  - rewrite <- !app_assoc. cbn [app]. rewrite R by (right; exact D1).
    rewrite run_ws by exact W1. apply run_token; assumption.
Qed.

Lemma rel_toks more : forall first out p ts b sh c,
  rel first out p ts b -> good_shape sh = true -> Forall (fun s => good_shape s = true) more -> c = 32 \/ c = 9 ->
  rel false (out ++ (if first then [] else [c]) ++ join 32 (map shape_text (sh :: more))) p
      (rev (map (shape_tok true) more) ++ shape_tok (if first then b else true) sh :: ts) false.
Proof.
  induction more as [|m r IH]; intros first out p ts b sh c R G Gm C.
  - cbn [map join rev app]. apply rel_tok; assumption.
  - inversion Gm as [|? ? G1 G2]; subst.
    pose proof (rel_tok first out p ts b sh c R G C) as R1.
    pose proof (IH false _ p _ false m 32 R1 G1 G2 (or_introl eq_refl)) as R2.
    cbn [map rev]. rewrite <- app_assoc. cbn [app].
    replace (out ++ (if first then [] else [c]) ++ join 32 (shape_text sh :: shape_text m :: map shape_text r))
      with ((out ++ (if first then [] else [c]) ++ shape_text sh) ++ [32] ++ join 32 (map shape_text (m :: r))).
    + exact R2.
    + cbn [map]. change (join 32 (shape_text sh :: shape_text m :: map shape_text r))
        with (shape_text sh ++ 32 :: join 32 (shape_text m :: map shape_text r)).
      rewrite <- !app_assoc. reflexivity.
Qed.

(* an empty token: only its separator is written *)
Lemma rel_empty first out p ts b c : rel first out p ts b -> c = 32 \/ c = 9 ->
  rel false (out ++ (if first then [] else [c]) ++ []) p ts (if first then b else true).
Proof.
  intros R C rest [F|D]; [discriminate|]. rewrite app_nil_r. destruct first.
  - rewrite app_nil_r. apply R. left. reflexivity.
  - rewrite <- app_assoc. cbn [app]. destruct (ws_delim c rest C) as [D1 W1].
    rewrite R by (right; exact D1). apply run_ws, W1.
Qed.

Lemma rev_toks_app {A} (X : list A) t ts rest : rev (rev X ++ t :: ts) ++ rest = rev ts ++ t :: X ++ rest.
Proof. rewrite rev_app_distr, rev_involutive. cbn [rev]. rewrite <- !app_assoc. reflexivity. Qed.

Lemma rel_final first out ts b : rel first out 0 ts b -> tokenize (out ++ [ch_lf]) = Ok (rev ts).
Proof. intros R. unfold tokenize. rewrite R by (right; reflexivity). reflexivity. Qed.

Lemma simple_inv l : forall first out ts b,
  Forall good_sop l -> rel first out 0 ts b ->
  tokenize (snd (fold_left simple_step (map erase l) (first, out)) ++ [ch_lf])
  = Ok (rev ts ++ expect false (if first then b else true) l).
Proof.
  induction l as [|o l IH]; intros first out ts b G R.
  - cbn [map fold_left snd expect]. rewrite app_nil_r. eapply rel_final, R.
  - inversion G as [|? ? Go Gl]; subst. cbn [map fold_left].
    destruct o as [sh more| | |c|]; cbn [erase simple_step expect orb].
    + destruct Go as [Go Gm].
      rewrite (IH false _ (rev (map (shape_tok true) more) ++ shape_tok (if first then b else true) sh :: ts) false Gl).
      * apply f_equal. apply rev_toks_app.
      * unfold simple_sep. apply rel_toks; [exact R | exact Go | exact Gm | left; reflexivity].
    + rewrite orb_false_r. apply IH; assumption.
    + rewrite orb_false_r. apply IH; assumption.
    + apply IH; assumption.
    + pose proof (IH false _ ts (if first then b else true) Gl (rel_empty first out 0 ts b simple_sep R (or_introl eq_refl))) as X.
      exact X.
Qed.

Theorem simple_tokens l : Forall good_sop l ->
  tokenize (render_simple (map erase l) ++ [ch_lf]) = Ok (expect false false l).
Proof. intros G. unfold render_simple. exact (simple_inv l true [] [] false G rel_start). Qed.

(* whatever the block state, the separator is a blank or a tab *)
Lemma tab_sep_ws (first fb : bool) d : exists c, (c = 32 \/ c = 9) /\
  (if first then [] else if d =? 0 then [tab_sep_outer] else if fb then [tab_sep_first] else [tab_sep_inner])
  = (if first then [] else [c]).
Proof.
  exists (if d =? 0 then tab_sep_outer else if fb then tab_sep_first else tab_sep_inner). split.
  - destruct (d =? 0); [right; reflexivity|]. destruct fb; [right | left]; reflexivity.
  - destruct first; [reflexivity|]. destruct (d =? 0); [reflexivity|]. destruct fb; reflexivity.
Qed.

Lemma tabbed_inv l : forall first fb d out ts b,
  Forall good_sop l -> balanced d l = true -> rel first out 0 ts b ->
  exists st, fold_left tab_step (map erase l) (Ok (first, fb, d, out)) = Ok st /\
    tokenize (snd st ++ [ch_lf]) = Ok (rev ts ++ expect false (if first then b else true) l).
Proof.
  induction l as [|o l IH]; intros first fb d out ts b G B R.
  - cbn [map fold_left expect]. eexists. split; [reflexivity|]. cbn [snd]. rewrite app_nil_r. eapply rel_final, R.
  - inversion G as [|? ? Go Gl]; subst. cbn [map fold_left]. destruct (tab_sep_ws first fb d) as (c & C & E).
    destruct o as [sh more| | |cm|]; cbn [erase expect orb balanced] in *; unfold tab_step at 2; cbn [bind].
    + destruct Go as [Go Gm]. rewrite E.
      destruct (IH false false d (out ++ (if first then [] else [c]) ++ join 32 (map shape_text (sh :: more)))
                  (rev (map (shape_tok true) more) ++ shape_tok (if first then b else true) sh :: ts) false Gl B) as (st & F & T).
      * apply rel_toks; assumption.
      * exists st. split; [exact F|]. rewrite T. apply f_equal. apply rev_toks_app.
    + rewrite orb_false_r. apply IH; assumption.
    + rewrite orb_false_r. apply andb_true_iff in B as [B1 B2].
      destruct (d =? 0) eqn:E0; [lia|]. apply IH; assumption.
    + apply IH; assumption.
    + rewrite E. exact (IH false false d _ ts (if first then b else true) Gl B (rel_empty first out 0 ts b c R C)).
Qed.

Theorem tabbed_tokens l : Forall good_sop l -> balanced 0 l = true ->
  exists t, render_tabbed (map erase l) = Ok t /\ tokenize (t ++ [ch_lf]) = Ok (expect false false l).
Proof.
  intros G B. destruct (tabbed_inv l true true 0 [] [] false G B rel_start) as (st & F & T).
  exists (snd st). split; [|exact T]. unfold render_tabbed, tab_state, text in *. rewrite F. reflexivity.
Qed.

(* a comment inside parentheses, from the semicolon to its line feed *)
Lemma run_comment c : forall p ts b rest, ~ In ch_lf c -> 0 < p ->
  run (Ok (p, ts, MComment b)) (c ++ ch_lf :: rest) = run (Ok (p, ts, MSkip b)) rest.
Proof.
  induction c as [|x c IH]; intros p ts b rest H Hp; cbn [app]; rewrite run_cons; cbn [bind step].
  - change (step_skip p ts b ch_lf) with (if p =? 0 then Ok (p, ts, MDone) else Ok (p, ts, MSkip b)).
    destruct (p =? 0) eqn:E; [lia | reflexivity].
  - destruct (x =? ch_lf) eqn:E; [exfalso; apply H; left; apply N.eqb_eq in E; exact E|].
    apply IH; [intros K; apply H; right; exact K | exact Hp].
Qed.

Lemma run_spaces n : forall p ts rest,
  run (Ok (p, ts, MSkip true)) (repeat 32 n ++ rest) = run (Ok (p, ts, MSkip true)) rest.
Proof. induction n as [|n IH]; intros p ts rest; [reflexivity|]. cbn [repeat app]. rewrite run_ws by reflexivity. apply IH. Qed.

Lemma run_open p ts b rest : run (Ok (p, ts, MSkip b)) (ch_open :: rest) = run (Ok (p + 1, ts, MSkip b)) rest.
Proof. reflexivity. Qed.

Lemma run_close p ts b rest : 0 < p -> run (Ok (p, ts, MSkip b)) (ch_close :: rest) = run (Ok (p - 1, ts, MSkip b)) rest.
Proof.
  intros H. rewrite run_cons. cbn [bind step].
  change (step_skip p ts b ch_close) with (if 0 <? p then Ok (p - 1, ts, MSkip b) else Err E_parens).
  destruct (0 <? p) eqn:E; [reflexivity | lia].
Qed.

(* a parenthesis written like a token *)
Lemma rel_paren first out p ts b c p' :
  rel first out p ts b ->
  (forall ts b rest, run (Ok (p, ts, MSkip b)) (c :: rest) = run (Ok (p', ts, MSkip b)) rest) ->
  starts_delim [c] = true ->
  rel false (out ++ (if first then [] else ml_sep) ++ [c]) p' ts (if first then b else true).
Proof.
  intros R H D rest _.
  destruct first.
  - cbn [app]. rewrite <- app_assoc. cbn [app]. rewrite R by (left; reflexivity). apply H.
  - unfold ml_sep. rewrite <- !app_assoc. cbn [app]. rewrite R by (right; reflexivity).
    rewrite run_ws by reflexivity. apply H.
Qed.

Lemma multi_inv l : forall col ind first out ts b d,
  Forall good_sop l -> balanced d l = true -> rel first out d ts b ->
  (ind <> None -> 0 < d /\ (if first then b else true) = true) ->
  tokenize (snd (fold_left ml_step (map erase l) (col, ind, first, out)) ++ [ch_lf])
  = Ok (rev ts ++ expect true (if first then b else true) l).
Proof.
  induction l as [|o l IH]; intros col ind first out ts b d G B R I.
  - cbn [map fold_left snd expect balanced] in *. rewrite app_nil_r. apply N.eqb_eq in B. subst d. eapply rel_final, R.
  - inversion G as [|? ? Go Gl]; subst. cbn [map fold_left].
    destruct o as [sh more| | |c|]; cbn [erase expect orb balanced] in *.
    + destruct Go as [Go Gm]. unfold ml_step at 2. unfold ml_token.
      rewrite (IH _ ind false _ (rev (map (shape_tok true) more) ++ shape_tok (if first then b else true) sh :: ts) false d Gl B).
      * apply f_equal. apply rev_toks_app.
      * unfold ml_sep. apply rel_toks; [exact R | exact Go | exact Gm | left; reflexivity].
      * intros N. destruct (I N) as [I1 _]. split; [exact I1 | reflexivity].
    + rewrite orb_true_r. unfold ml_step at 2. unfold ml_token.
      rewrite (IH _ (Some (col + len (if first then [] else ml_sep) + len ml_open + ml_indent_extra)) false
                  (out ++ (if first then [] else ml_sep) ++ ml_open) ts (if first then b else true) (d + 1) Gl B).
      * reflexivity.
      * apply (rel_paren first out d ts b ch_open (d + 1) R); [intros; apply run_open | reflexivity].
      * intros _. split; [lia | reflexivity].
    + rewrite orb_true_r. apply andb_true_iff in B as [B1 B2].
      unfold ml_step at 2. unfold ml_token.
      rewrite (IH _ None false (out ++ (if first then [] else ml_sep) ++ ml_close) ts (if first then b else true) (d - 1) Gl B2).
      * reflexivity.
      * apply (rel_paren first out d ts b ch_close (d - 1) R); [intros; apply run_close; lia | reflexivity].
      * intros N. congruence.
    + unfold ml_step at 2. destruct ind as [x|].
      * destruct (I ltac:(discriminate)) as [I1 I2].
        rewrite (IH x (Some x) true _ ts true d Gl B).
        -- rewrite I2. reflexivity.
        -- intros rest _. unfold ml_comment_pre. rewrite <- !app_assoc. cbn [app].
           rewrite R by (destruct first; [left; reflexivity | right; reflexivity]).
           rewrite run_ws by reflexivity.
           change (run (Ok (d, ts, MSkip true)) (59 :: 32 :: c ++ ch_lf :: repeat 32 (N.to_nat x) ++ rest))
             with (run (Ok (d, ts, MComment true)) ((32 :: c) ++ ch_lf :: repeat 32 (N.to_nat x) ++ rest)).
           rewrite run_comment; [apply run_spaces | intros [K|K]; [discriminate | apply Go, K] | exact I1].
        -- intros _. split; [exact I1 | reflexivity].
      * apply (IH col None first out ts b d Gl B R). intros N. congruence.
    + unfold ml_step at 2. unfold ml_token.
      apply (IH _ ind false _ ts (if first then b else true) d Gl B).
      * unfold ml_sep. apply rel_empty; [exact R | left; reflexivity].
      * intros N. destruct (I N) as [I1 I2]. split; [exact I1 | reflexivity].
Qed.

Theorem multi_tokens l : Forall good_sop l -> balanced 0 l = true ->
  tokenize (render_multi (map erase l) ++ [ch_lf]) = Ok (expect true false l).
Proof.
  intros G B. unfold render_multi.
  apply (multi_inv l 0 None true [] [] false 0 G B rel_start). intros N. congruence.
Qed.

Definition is_multi (k : kind) : bool := match k with KMulti => true | _ => false end.

(* tokens_reassemble: any balanced sequence of good tokens, blocks and comments,
   written by any of the three writers and followed by a line feed, is read
   back as exactly those tokens *)
Theorem tokens_reassemble k l : Forall good_sop l -> balanced 0 l = true ->
  exists t, render k (map erase l) = Ok t /\ tokenize (t ++ [ch_lf]) = Ok (expect (is_multi k) false l).
Proof.
  intros G B. destruct k; cbn [render is_multi].
  - eexists. split; [reflexivity|]. apply simple_tokens, G.
  - apply tabbed_tokens; assumption.
  - eexists. split; [reflexivity|]. apply multi_tokens; assumption.
Qed.

(* the plain statement for the one-line writer: tokens joined by single blanks *)

Lemma good_text_nonempty sh : good_shape sh = true -> shape_text sh <> [].
Proof.
  destruct sh as [l|l]; cbn [good_shape shape_text]; intros G; [|discriminate].
  apply andb_true_iff in G as [_ G]. destruct l as [|s l]; [discriminate|].
  cbn [flat_map]. destruct s; discriminate.
Qed.

Lemma render_simple_join shs : Forall (fun sh => good_shape sh = true) shs ->
  render_simple (map (fun sh => OTok (shape_text sh)) shs) = join 32 (map shape_text shs).
Proof.
  intros G. unfold render_simple.
  assert (H : forall l out, out <> [] ->
     snd (fold_left simple_step (map (fun sh => OTok (shape_text sh)) l) (false, out))
     = out ++ flat_map (fun sh => 32 :: shape_text sh) l).
  { induction l as [|sh l IH]; intros out Ho; [cbn; rewrite app_nil_r; reflexivity|].
    cbn [map fold_left simple_step flat_map]. rewrite IH.
    - unfold simple_sep. rewrite <- !app_assoc. reflexivity.
    - intros K. apply app_eq_nil in K as [K _]. contradiction. }
  destruct shs as [|sh l]; [reflexivity|]. cbn [map fold_left simple_step app].
  inversion G as [|? ? Gs Gl]; subst.
  rewrite H by (apply good_text_nonempty, Gs). clear.
  revert sh. induction l as [|y l IH]; intros sh; [cbn; rewrite app_nil_r; reflexivity|].
  change (shape_text sh ++ (32 :: shape_text y) ++ flat_map (fun sh0 => 32 :: shape_text sh0) l
          = shape_text sh ++ 32 :: join 32 (shape_text y :: map shape_text l)).
  rewrite <- IH. reflexivity.
Qed.

Theorem tokens_reassemble_join shs : Forall (fun sh => good_shape sh = true) shs ->
  tokenize (join 32 (map shape_text shs) ++ [ch_lf]) = Ok (expect false false (map (fun sh => STok sh) shs)).
Proof.
  intros G. rewrite <- render_simple_join by exact G.
  replace (map (fun sh => OTok (shape_text sh)) shs) with (map erase (map (fun sh => STok sh) shs)) by (rewrite map_map; reflexivity).
  apply simple_tokens. rewrite Forall_map. eapply Forall_impl; [|exact G]. intros a Ha. split; [exact Ha | constructor].
Qed.

Example ex_multi :
  render_multi (map erase [STok (TWord [SChar 97]); SBegin; STok (TWord [SChar 49]); SComment [107]; STok (TQuoted [SChar 32]); SEnd])
  = [97; 32; 40; 32; 49; 9; 59; 32; 107; 10; 32; 32; 32; 32; 34; 32; 34; 32; 41].
Proof. vm_compute. reflexivity. Qed.
Example ex_tabbed :
  render_tabbed (map erase [STok (TWord [SChar 97]); STok (TWord [SChar 98]); SBegin; STok (TWord [SChar 49]); STok (TWord [SChar 50]); SEnd])
  = Ok [97; 9; 98; 9; 49; 32; 50].
Proof. vm_compute. reflexivity. Qed.
Example ex_reassemble :
  tokenize ([97; 32; 40; 32; 49; 9; 59; 32; 107; 10; 32; 32; 32; 32; 34; 32; 34; 32; 41] ++ [10])
  = Ok [mk_tok false false [SChar 97]; mk_tok false true [SChar 49]; mk_tok true true [SChar 32]].
Proof. vm_compute. reflexivity. Qed.

(* C06: the IPv6 address text reads back for EVERY address: show_ip6 is identified
   with its two branches (IPv4-mapped "::ffff:a.b.c.d" / general), and the mapped
   branch is read back *)
From Coq Require Import NArith List Bool Lia ZifyBool.
From DV Require Import Base.Outcome Base.Bytes C06.Gen C06.Model C06.Proofs C06.Tables C06.Proofs3 C06.Svc C06.SvcProofs2 C06.Ip6Proofs.
Import ListNotations.
Local Open Scope N_scope.

Definition ip6_mapped (g : list N) : bool :=
  match g with
  | [a; b; c; d; e; f; _; _] => (a =? 0) && (b =? 0) && (c =? 0) && (d =? 0) && (e =? 0) && (f =? 65535)
  | _ => false
  end.
Definition show_ip6_mapped (g : list N) : text :=
  match g with
  | [_; _; _; _; _; _; g6; g7] =>
      [58; 58; 102; 102; 102; 102; 58] ++ show_ip4 [g6 / 256; g6 mod 256; g7 / 256; g7 mod 256]
  | _ => []
  end.

(* show_ip6 is the general writer except on one pattern.  Stated on a variable, so that comparing
   the copies of the default branch that the compiled match holds costs nothing (on a list of
   eight unknown groups each copy of zero_run would be unfolded into its 2^8 cases). *)
Lemma show_ip6_cases g : show_ip6 g =
  match g with
  | [0; 0; 0; 0; 0; 65535; g6; g7] => show_ip6_mapped [0; 0; 0; 0; 0; 65535; g6; g7]
  | _ => show_ip6_general g
  end.
Proof. reflexivity. Qed.

(* the compiled pattern is the boolean test *)
Lemma mapped_match {A} (X Y : A) a b c d e f :
  match a, b, c, d, e, f with 0, 0, 0, 0, 0, 65535 => X | _, _, _, _, _, _ => Y end
  = if (a =? 0) && (b =? 0) && (c =? 0) && (d =? 0) && (e =? 0) && (f =? 65535) then X else Y.
Proof.
  destruct a; [|reflexivity]. destruct b; [|reflexivity]. destruct c; [|reflexivity].
  destruct d; [|reflexivity]. destruct e; [|reflexivity]. destruct f as [|p]; [reflexivity|].
  do 15 (destruct p as [p|p|]; [|reflexivity|reflexivity]). destruct p; reflexivity.
Qed.

Lemma show_ip6_branches g : length g = 8%nat ->
  show_ip6 g = if ip6_mapped g then show_ip6_mapped g else show_ip6_general g.
Proof.
  intros L. rewrite show_ip6_cases. destruct g as [|a [|b [|c [|d [|e [|f [|g6 [|g7 [|]]]]]]]]]; try discriminate.
  exact (mapped_match (show_ip6_mapped [a; b; c; d; e; f; g6; g7]) (show_ip6_general [a; b; c; d; e; f; g6; g7]) a b c d e f).
Qed.

Lemma ip6_mapped_roundtrip g6 g7 : g6 < 65536 -> g7 < 65536 ->
  parse_ip6 ([58; 58; 102; 102; 102; 102; 58] ++ show_ip4 [g6 / 256; g6 mod 256; g7 / 256; g7 mod 256])
  = Some [0; 0; 0; 0; 0; 65535; g6; g7].
Proof.
  intros H6 H7.
  assert (W : wf_ip4 [g6 / 256; g6 mod 256; g7 / 256; g7 mod 256]).
  { split; [|reflexivity]. apply (wf_bytes_app (be16 g6) (be16 g7)). split; apply be16_wf; assumption. }
  pose proof (parse_show_ip4 _ W) as P. destruct (ip4_item _ W) as [(NE & _) _].
  assert (NC : ~ In 58 (show_ip4 [g6 / 256; g6 mod 256; g7 / 256; g7 mod 256])).
  { apply (forallb_notin (fun c => is_digit c || (c =? 46))); [|reflexivity].
    apply show_ip4_chars; [|reflexivity]. intros c H. cbv beta. rewrite H. reflexivity. }
  assert (M : mem 46 (show_ip4 [g6 / 256; g6 mod 256; g7 / 256; g7 mod 256]) = true).
  { apply mem_In. unfold show_ip4. apply in_or_app. right. left. reflexivity. }
  remember (show_ip4 [g6 / 256; g6 mod 256; g7 / 256; g7 mod 256]) as t eqn:Et. clear Et.
  unfold text in *. rewrite parse_ip6_interp. cbn [app split_on N.eqb Pos.eqb rev].
  rewrite <- (app_nil_r t). rewrite split_word by exact NC. cbn [split_on]. rewrite app_nil_r, rev_involutive.
  assert (E : existsb (fun w : list N => match w with [] => true | _ => false end) [[102; 102; 102; 102]; t] = false).
  { cbn [existsb]. destruct t; [congruence | reflexivity]. }
  assert (PG : parse_groups [[102; 102; 102; 102]; t] = Some [65535; g6; g7]).
  { cbn [parse_groups]. rewrite M, P.
    change (parse_hex16 [102; 102; 102; 102]) with (Some 65535). cbv beta iota.
    pose proof (be16_roundtrip g6 H6) as R6. pose proof (be16_roundtrip g7 H7) as R7. unfold of_be16 in R6, R7.
    rewrite R6, R7. reflexivity. }
  unfold interp. cbn [fgap rev app].
  unfold text in *. rewrite E, PG. reflexivity.
Qed.

Theorem ip6_roundtrip g : wf_ip6 g -> parse_ip6 (show_ip6 g) = Some g.
Proof.
  intros [L F]. rewrite show_ip6_branches by exact L.
  destruct (ip6_mapped g) eqn:Mp; [|apply ip6_general_roundtrip; split; assumption].
  destruct g as [|a [|b [|c [|d [|e [|f [|g6 [|g7 [|]]]]]]]]]; try discriminate.
  cbn [ip6_mapped] in Mp. repeat (apply andb_true_iff in Mp as [Mp ?]).
  repeat match goal with H : (_ =? _) = true |- _ => apply N.eqb_eq in H end. subst.
  rewrite Forall_forall in F. unfold show_ip6_mapped.
  apply ip6_mapped_roundtrip; apply F; cbn [In]; tauto.
Qed.

Theorem ip6_mapped_text g6 g7 :
  show_ip6 [0; 0; 0; 0; 0; 65535; g6; g7] =
  [58; 58; 102; 102; 102; 102; 58] ++ show_ip4 [g6 / 256; g6 mod 256; g7 / 256; g7 mod 256].
Proof. reflexivity. Qed.

Example ex_ip6_mapped : parse_ip6 (show_ip6 [0; 0; 0; 0; 0; 65535; 49320; 513]) = Some [0; 0; 0; 0; 0; 65535; 49320; 513]
  /\ show_ip6 [0; 0; 0; 0; 0; 65535; 49320; 513] = [58; 58; 102; 102; 102; 102; 58; 49; 57; 50; 46; 49; 54; 56; 46; 50; 46; 49].
Proof. vm_compute. split; reflexivity. Qed.
Example ex_ip6_not_mapped : ip6_mapped [0; 0; 0; 0; 0; 65534; 1; 2] = false /\
  parse_ip6 (show_ip6 [0; 0; 0; 0; 0; 65534; 1; 2]) = Some [0; 0; 0; 0; 0; 65534; 1; 2].
Proof. vm_compute. split; reflexivity. Qed.

Lemma join_colon_chars (P : N -> bool) ws : P 58 = true -> Forall (fun w => forallb P w = true) ws ->
  forallb P (join_colon ws) = true.
Proof.
  intros P58 F. destruct F as [|w r Hw Fr]; [reflexivity|]. cbn [join_colon]. rewrite forallb_app, Hw.
  induction Fr as [|x r Hx _ IH]; [reflexivity|]. cbn [flat_map app forallb]. rewrite P58, forallb_app, Hx. exact IH.
Qed.

Lemma Forall_firstn_skipn {A} (P : A -> Prop) n l : Forall P l -> Forall P (firstn n l) /\ Forall P (skipn n l).
Proof. intros F. apply Forall_app. rewrite firstn_skipn. exact F. Qed.

Lemma show_ip6_chars (P : N -> bool) g : wf_ip6 g ->
  (forall d, d < 16 -> P (hexdig d) = true) -> P 58 = true -> P 46 = true ->
  show_ip6 g <> [] /\ forallb P (show_ip6 g) = true.
Proof.
  intros [L F] Ph P58 P46. rewrite show_ip6_branches by exact L.
  assert (J : forall l, Forall (fun x => x < 65536) l -> forallb P (join_colon (map show_hex16 l)) = true).
  { intros l Fl. apply join_colon_chars; [exact P58|]. rewrite Forall_map. eapply Forall_impl; [|exact Fl].
    intros x Hx. apply hex16_chars; assumption. }
  destruct (ip6_mapped g).
  - destruct g as [|a [|b [|c [|d [|e [|f [|g6 [|g7 [|]]]]]]]]]; try discriminate. unfold show_ip6_mapped.
    split; [discriminate|]. cbn [app forallb]. change 102 with (hexdig 15). rewrite P58, (Ph 15) by lia.
    apply show_ip4_chars; [|exact P46]. intros x Hx. unfold is_digit in Hx.
    replace x with (hexdig (x - 48)) by (unfold hexdig; destruct (x - 48 <? 10) eqn:E; lia). apply Ph. lia.
  - unfold show_ip6_general. destruct (zero_run _ _ _ _) as [st ln]. destruct (1 <? ln).
    + split; [destruct (join_colon (map show_hex16 (firstn (N.to_nat st) g))); discriminate|].
      rewrite forallb_app, J by apply (Forall_firstn_skipn _ _ _ F). cbn [app forallb]. rewrite P58.
      apply J, (Forall_firstn_skipn _ _ _ F).
    + split; [|apply J, F]. destruct g as [|x g]; [discriminate|]. cbn [map join_colon].
      inversion F as [|? ? Hx _]; subst. destruct (hex_word x Hx) as [[NE _] _].
      destruct (show_hex16 x); [congruence | discriminate].
Qed.

(* the text of every address consists of hexadecimal digits, ':' and '.', so it is a legal
   list item of the SVCB value syntax *)
Theorem ip6_text_ok_all g : wf_ip6 g -> ip6_text_ok g.
Proof.
  intros W. split; [apply ip6_roundtrip, W|].
  destruct (show_ip6_chars (fun c => plain_char c && negb (c =? 44)) g W) as [NE C]; [|reflexivity|reflexivity|].
  { intros d Hd. destruct (hexdig_facts d Hd) as (_ & P & S). rewrite P. apply negb_true_iff, N.eqb_neq.
    cbn [In] in S. lia. }
  split; [split; [exact NE | split; apply (forallb_notin _ _ _ C); reflexivity]|].
  apply (show_ip6_chars plain_char g W); [|reflexivity|reflexivity]. intros d Hd. apply hexdig_facts, Hd.
Qed.

Theorem svc_ipv6hint_roundtrip_all l sp : l <> [] -> Forall wf_ip6 l ->
  good_shape (TWord (show_param (PIp6hint l))) = true /\
  read_param (shape_tok sp (TWord (show_param (PIp6hint l)))) = Ok (PIp6hint l).
Proof.
  intros NE W. apply svc_ipv6hint_roundtrip; [exact NE|]. eapply Forall_impl; [|exact W]. apply ip6_text_ok_all.
Qed.

Example ex_ipv6hint_all : read_param (mk_tok false true (show_param (PIp6hint [[0; 0; 0; 0; 0; 65535; 49320; 513]; [8193; 3512; 0; 0; 0; 0; 0; 1]])))
  = Ok (PIp6hint [[0; 0; 0; 0; 0; 65535; 49320; 513]; [8193; 3512; 0; 0; 0; 0; 0; 1]]).
Proof. vm_compute. reflexivity. Qed.

(* C06: IPv6 address text: a hex group reads back, and so does the general branch of show_ip6
   (groups, "::" for the first longest zero run) for every address *)
From Coq Require Import NArith ZArith List Bool Lia ZifyBool.
From DV Require Import Base.Outcome C06.Gen C06.Model C06.Proofs C06.Tables C06.Proofs3 C06.Proofs4.
Import ListNotations.
Local Open Scope N_scope.

Definition wf_ip6 (g : list N) : Prop := length g = 8%nat /\ Forall (fun x => x < 65536) g.

(* the interpretation of the segments, with find_gap as a function of its own *)
Fixpoint fgap (pre : list text) (l : list text) : option (list text * list text) :=
  match l with
  | [] => None
  | [] :: r => Some (rev pre, r)
  | w :: r => fgap (w :: pre) r
  end.
Definition interp (segs : list text) : option (list N) :=
  match fgap [] segs with
  | None => match parse_groups segs with Some g => if Nat.eqb (length g) 8 then Some g else None | None => None end
  | Some (pre, post) =>
      let post' := match pre, post with [], [] :: r => r | _, _ => post end in
      let post'' := match post' with [[]] => [] | _ => post' end in
      if existsb (fun w => match w with [] => true | _ => false end) (pre ++ post'') then None else
      match parse_groups pre, parse_groups post'' with
      | Some a, Some b => if Nat.leb (length a + length b) 7 then Some (a ++ repeat 0 (8 - length a - length b) ++ b) else None
      | _, _ => None
      end
  end.
Lemma parse_ip6_interp s : parse_ip6 s = interp (split_on 58 [] s).
Proof. reflexivity. Qed.

Definition word_ok (w : text) : Prop := w <> [] /\ ~ In 58 w.

Lemma split_word w : forall cur rest, ~ In 58 w -> split_on 58 cur (w ++ rest) = split_on 58 (rev w ++ cur) rest.
Proof.
  induction w as [|c w IH]; intros cur rest H; [reflexivity|]. cbn [app split_on].
  destruct (c =? 58) eqn:E; [exfalso; apply H; left; apply N.eqb_eq in E; congruence|].
  rewrite IH by (intros K; apply H; right; exact K). cbn [rev]. rewrite <- app_assoc. reflexivity.
Qed.

Lemma split_words r : forall w, Forall word_ok (w :: r) ->
  split_on 58 [] (w ++ flat_map (fun x => 58 :: x) r) = w :: r /\
  forall Z, split_on 58 [] (w ++ flat_map (fun x => 58 :: x) r ++ 58 :: Z) = (w :: r) ++ split_on 58 [] Z.
Proof.
  induction r as [|x r IH]; intros w F; inversion F as [|? ? [_ Hw] F']; subst.
  - cbn [flat_map app]. split.
    + replace (split_on 58 [] (w ++ [])) with (split_on 58 (rev w ++ []) []) by (symmetry; apply split_word, Hw).
      cbn [split_on]. rewrite app_nil_r, rev_involutive. reflexivity.
    + intros Z. rewrite split_word by exact Hw. cbn [split_on N.eqb Pos.eqb]. rewrite app_nil_r, rev_involutive. reflexivity.
  - destruct (IH x F') as [I1 I2]. cbn [flat_map]. split.
    + rewrite split_word by exact Hw. cbn [app split_on N.eqb Pos.eqb]. rewrite app_nil_r, rev_involutive, I1. reflexivity.
    + intros Z. rewrite split_word by exact Hw. rewrite <- app_assoc. cbn [app split_on N.eqb Pos.eqb].
      rewrite app_nil_r, rev_involutive, I2. reflexivity.
Qed.

Lemma fgap_words ws : forall pre, Forall word_ok ws ->
  fgap pre ws = None /\ forall rest, fgap pre (ws ++ [] :: rest) = Some (rev pre ++ ws, rest).
Proof.
  induction ws as [|w ws IH]; intros pre F.
  - split; [reflexivity|]. intros rest. cbn. rewrite app_nil_r. reflexivity.
  - inversion F as [|? ? [Hn _] F']; subst. destruct (IH (w :: pre) F') as [I1 I2].
    destruct w as [|c w]; [congruence|]. cbn [fgap app]. split; [exact I1|].
    intros rest. rewrite I2. cbn [rev]. rewrite <- app_assoc. reflexivity.
Qed.

Definition digits4 (n : N) : list N := [n / 4096; (n / 256) mod 16; (n / 16) mod 16; n mod 16].
Fixpoint drop0 (l : list N) : list N := match l with 0 :: (_ :: _) as r => drop0 r | _ => l end.

Lemma drop0_spec l : l <> [] -> drop0 l <> [] /\ exists z, l = repeat 0 z ++ drop0 l.
Proof.
  induction l as [|d l IH]; [congruence|]. intros _.
  destruct d as [|p]; [|split; [discriminate | exists 0%nat; reflexivity]].
  destruct l as [|e l]; [split; [discriminate | exists 0%nat; reflexivity]|].
  destruct (IH ltac:(discriminate)) as (NE & z & E). split; [exact NE|].
  exists (S z). cbn [repeat app]. f_equal. exact E.
Qed.

Lemma hex16_digits n : n < 65536 ->
  exists ds, show_hex16 n = map hexdig ds /\ ds <> [] /\ (length ds <= 4)%nat /\
             Forall (fun d => d < 16) ds /\ fold_left (fun x d => x * 16 + d) ds 0 = n.
Proof.
  intros H. exists (drop0 (digits4 n)). split; [reflexivity|].
  destruct (drop0_spec (digits4 n)) as (NE & z & E); [discriminate|]. split; [exact NE|].
  set (ds := drop0 (digits4 n)) in *.
  assert (F : Forall (fun d => d < 16) (digits4 n)).
  { repeat constructor; try (apply N.mod_lt; discriminate). apply N.div_lt_upper_bound; [discriminate | exact H]. }
  assert (V : fold_left (fun x d => x * 16 + d) (digits4 n) 0 = n).
  { (* three divisions by 16; the quotients and remainders are then just numbers *)
    pose proof (N.div_mod n 16 ltac:(discriminate)) as E0.
    pose proof (N.div_mod (n / 16) 16 ltac:(discriminate)) as E1.
    pose proof (N.div_mod (n / 256) 16 ltac:(discriminate)) as E2.
    rewrite N.div_div in E1, E2 by discriminate. change (16 * 16) with 256 in E1. change (256 * 16) with 4096 in E2.
    cbn [digits4 fold_left]. revert E0 E1 E2.
    generalize (n / 4096) (n / 256) (n / 16) ((n / 256) mod 16) ((n / 16) mod 16) (n mod 16). lia. }
  rewrite E in F, V. apply Forall_app in F as [_ F]. rewrite fold_left_app in V.
  replace (fold_left (fun x d => x * 16 + d) (repeat 0 z) 0) with 0 in V
    by (clear; induction z as [|z IH]; [reflexivity | exact IH]).
  apply (f_equal (@length N)) in E. rewrite app_length, repeat_length in E. cbn [digits4 length] in E.
  split; [lia|]. split; assumption.
Qed.

Lemma hex16_chars (P : N -> bool) n : (forall d, d < 16 -> P (hexdig d) = true) -> n < 65536 ->
  forallb P (show_hex16 n) = true.
Proof.
  intros Pd H. destruct (hex16_digits n H) as (ds & -> & _ & _ & F & _).
  induction F as [|d ds Hd _ IH]; [reflexivity|]. cbn [map forallb]. rewrite (Pd d Hd). exact IH.
Qed.

Lemma hex16_no_sep n c : n < 65536 -> In c [44; 46; 58] -> ~ In c (show_hex16 n).
Proof.
  intros H S. apply (forallb_notin (fun x => negb (mem x [44; 46; 58]))).
  - apply hex16_chars; [|exact H]. intros d Hd. rewrite not_mem; [reflexivity | apply hexdig_facts, Hd].
  - apply mem_In in S. rewrite S. reflexivity.
Qed.

Lemma hex16_roundtrip : forall n, n < 65536 ->
  parse_hex16 (show_hex16 n) = Some n /\ mem 58 (show_hex16 n) = false /\ mem 46 (show_hex16 n) = false /\
  forallb plain_char (show_hex16 n) = true.
Proof.
  intros n H. split; [|split; [|split]].
  - destruct (hex16_digits n H) as (ds & -> & NE & L & F & V). unfold parse_hex16. rewrite map_length.
    destruct ds as [|d0 ds]; [congruence|]. cbn [map]. apply Nat.leb_le in L. rewrite L. rewrite <- V.
    change (hexdig d0 :: map hexdig ds) with (map hexdig (d0 :: ds)). generalize (d0 :: ds) 0 F. clear.
    intros ds a F. revert a. induction F as [|d ds Hd _ IH]; intros a; [reflexivity|].
    cbn [map fold_left]. destruct (hexdig_facts d Hd) as (Vd & _). rewrite Vd. apply IH.
  - apply not_mem, hex16_no_sep; [exact H | cbn [In]; tauto].
  - apply not_mem, hex16_no_sep; [exact H | cbn [In]; tauto].
  - apply hex16_chars; [|exact H]. intros d Hd. apply hexdig_facts, Hd.
Qed.

Lemma hex_word x : x < 65536 -> word_ok (show_hex16 x) /\ parse_hex16 (show_hex16 x) = Some x /\ mem 46 (show_hex16 x) = false.
Proof.
  intros H. destruct (hex16_roundtrip x H) as (P & _ & D & _). split; [|split; assumption].
  split; [intros E; rewrite E in P; discriminate | apply hex16_no_sep; [exact H | cbn [In]; tauto]].
Qed.

Lemma hex_words l : Forall (fun x => x < 65536) l -> Forall word_ok (map show_hex16 l).
Proof. intros F. rewrite Forall_map. eapply Forall_impl; [|exact F]. intros x Hx. apply hex_word, Hx. Qed.

Lemma parse_groups_hex l : Forall (fun x => x < 65536) l -> parse_groups (map show_hex16 l) = Some l.
Proof.
  induction l as [|x l IH]; intros F; [reflexivity|]. inversion F as [|? ? Hx F']; subst.
  destruct (hex_word x Hx) as (_ & P & D). destruct l as [|y l].
  - cbn [map parse_groups]. rewrite D, P. reflexivity.
  - specialize (IH F'). cbn [map] in *.
    change (parse_groups (show_hex16 x :: show_hex16 y :: map show_hex16 l))
      with (match parse_hex16 (show_hex16 x), parse_groups (show_hex16 y :: map show_hex16 l) with
            | Some a, Some xs => Some (a :: xs) | _, _ => None end).
    rewrite P, IH. reflexivity.
Qed.

Lemma no_empty ws : Forall word_ok ws -> existsb (fun w : list N => match w with [] => true | _ => false end) ws = false.
Proof.
  induction 1 as [|w ws [Hn _] _ IH]; [reflexivity|]. cbn [existsb]. rewrite IH. destruct w; [congruence | reflexivity].
Qed.

(* a list of words is not the lone empty segment that a trailing "::" leaves *)
Lemma trailing_kept ws : Forall word_ok ws -> match ws with [[]] => [] | _ => ws end = ws.
Proof.
  intros F. destruct F as [|w r [Hn _] _]; [reflexivity|]. destruct w; [congruence | reflexivity].
Qed.

Lemma gap_roundtrip A B : Forall (fun x => x < 65536) A -> Forall (fun x => x < 65536) B ->
  (length A + length B <= 6)%nat ->
  parse_ip6 (join_colon (map show_hex16 A) ++ [58; 58] ++ join_colon (map show_hex16 B))
  = Some (A ++ repeat 0 (8 - length A - length B) ++ B).
Proof.
  intros FA FB L. rewrite parse_ip6_interp.
  pose proof (hex_words A FA) as WA. pose proof (hex_words B FB) as WB.
  pose proof (parse_groups_hex A FA) as PA. pose proof (parse_groups_hex B FB) as PB.
  assert (Len : Nat.leb (length A + length B) 7 = true) by (apply Nat.leb_le; lia).
  destruct A as [|a A]; destruct B as [|b B]; cbn [map] in WA, WB, PA, PB.
  - vm_compute. reflexivity.
  - cbn [map join_colon app split_on N.eqb Pos.eqb rev].
    destruct (split_words (map show_hex16 B) (show_hex16 b) WB) as [S1 _]. rewrite S1.
    unfold interp. cbv zeta. cbn [fgap rev]. cbn [app].
    rewrite (trailing_kept _ WB), (no_empty _ WB). rewrite PB. cbn [parse_groups length Nat.add] in *. rewrite Len. reflexivity.
  - cbn [map join_colon]. destruct (split_words (map show_hex16 A) (show_hex16 a) WA) as [_ S2].
    rewrite <- app_assoc. cbn [app]. rewrite (S2 [58]).
    change (split_on 58 [] [58]) with [@nil N; @nil N].
    unfold interp. cbv zeta. destruct (fgap_words (show_hex16 a :: map show_hex16 A) [] WA) as [_ G]. rewrite (G [[]]). cbn [rev app].
    cbv iota. rewrite app_nil_r. rewrite (no_empty _ WA). rewrite PA. cbn [parse_groups]. change (length (@nil N)) with 0%nat. rewrite Nat.add_0_r in *. rewrite Len.
    rewrite Nat.sub_0_r, app_nil_r. reflexivity.
  - cbn [map join_colon]. destruct (split_words (map show_hex16 A) (show_hex16 a) WA) as [_ S2].
    rewrite <- app_assoc. cbn [app]. rewrite S2. cbn [split_on N.eqb Pos.eqb rev].
    destruct (split_words (map show_hex16 B) (show_hex16 b) WB) as [S1 _]. rewrite S1.
    unfold interp. cbv zeta. destruct (fgap_words (show_hex16 a :: map show_hex16 A) [] WA) as [_ G]. rewrite G. cbn [rev app].
    cbv iota.
    rewrite (trailing_kept _ WB).
    assert (NE : existsb (fun w : list N => match w with [] => true | _ => false end)
                   ((show_hex16 a :: map show_hex16 A) ++ show_hex16 b :: map show_hex16 B) = false).
    { apply no_empty. apply Forall_app. split; assumption. }
    cbn [app] in NE. rewrite NE. rewrite PA, PB. rewrite Len. reflexivity.
Qed.

Lemma plain_roundtrip g : wf_ip6 g -> parse_ip6 (join_colon (map show_hex16 g)) = Some g.
Proof.
  intros [L F]. rewrite parse_ip6_interp. pose proof (hex_words g F) as W. pose proof (parse_groups_hex g F) as P.
  destruct g as [|x g]; [discriminate|]. cbn [map] in *. cbn [join_colon].
  destruct (split_words (map show_hex16 g) (show_hex16 x) W) as [S1 _]. rewrite S1.
  unfold interp. destruct (fgap_words _ [] W) as [G _]. rewrite G, P.
  rewrite L. reflexivity.
Qed.

Lemma zeros_of_pattern n : forall l, forallb (fun b : bool => b) (firstn n (map (N.eqb 0) l)) = true ->
  length (firstn n (map (N.eqb 0) l)) = n -> firstn n l = repeat 0 n.
Proof.
  induction n as [|n IH]; intros l H1 H2; [reflexivity|].
  destruct l as [|x l]; [discriminate|]. cbn [map firstn forallb length repeat] in *.
  apply andb_true_iff in H1 as [E H1]. apply N.eqb_eq in E. subst x. f_equal. apply IH; [exact H1 | lia].
Qed.

Definition show_ip6_general (g : list N) : text :=
  let '(st, ln) := zero_run (map (N.eqb 0) g) 0 (0, 0) (0, 0) in
  if 1 <? ln then
    join_colon (map show_hex16 (firstn (N.to_nat st) g)) ++ [58; 58] ++
    join_colon (map show_hex16 (skipn (N.to_nat (st + ln)) g))
  else join_colon (map show_hex16 g).

Lemma skipn_twice {A} b : forall a (l : list A), skipn a (skipn b l) = skipn (b + a) l.
Proof. induction b as [|b IH]; intros a l; [reflexivity|]. destruct l; [destruct a; reflexivity|]. cbn [skipn Nat.add]. apply IH. Qed.

Theorem ip6_general_roundtrip g : wf_ip6 g -> parse_ip6 (show_ip6_general g) = Some g.
Proof.
  intros [L F]. unfold show_ip6_general.
  pose proof (zero_run_sound (map (N.eqb 0) g) ltac:(rewrite map_length; exact L)) as S. unfold run_sound in S.
  destruct (zero_run (map (N.eqb 0) g) 0 (0, 0) (0, 0)) as [st ln].
  destruct (1 <? ln) eqn:E; [|apply plain_roundtrip; split; assumption].
  apply andb_true_iff in S as [S S3]. apply andb_true_iff in S as [S1 S2].
  apply Nat.leb_le in S1. rewrite map_length in S1. apply Nat.eqb_eq in S3.
  rewrite skipn_map in S2, S3.
  pose proof (zeros_of_pattern _ _ S2 S3) as Z.
  set (s := N.to_nat st) in *. set (n := N.to_nat ln) in *.
  assert (Hn : (2 <= n)%nat) by (subst n; lia).
  assert (Hs : N.to_nat (st + ln) = (s + n)%nat) by (subst s n; lia).
  rewrite Hs in *.
  assert (D : g = firstn s g ++ repeat 0 n ++ skipn (s + n) g).
  { rewrite <- (firstn_skipn s g) at 1. f_equal. rewrite <- (firstn_skipn n (skipn s g)) at 1. rewrite Z, skipn_twice. reflexivity. }
  assert (LA : length (firstn s g) = s) by (apply firstn_length_le; lia).
  assert (LB : length (skipn (s + n) g) = (8 - (s + n))%nat) by (rewrite skipn_length; lia).
  rewrite gap_roundtrip.
  - rewrite LA, LB. replace (8 - s - (8 - (s + n)))%nat with n by lia. rewrite <- D. reflexivity.
  - pose proof F as F'. rewrite D in F'. apply Forall_app in F' as [F1 _]. exact F1.
  - pose proof F as F'. rewrite D in F'. apply Forall_app in F' as [_ F2]. apply Forall_app in F2 as [_ F3]. exact F3.
  - rewrite LA, LB. lia.
Qed.

Example ex_ip6_general : parse_ip6 (show_ip6_general [8193; 3512; 0; 0; 0; 0; 0; 1]) = Some [8193; 3512; 0; 0; 0; 0; 0; 1].
Proof. vm_compute. reflexivity. Qed.

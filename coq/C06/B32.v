(* C06: Base32hex text of the NSEC3 next-owner hash through the C18 models *)
From Coq Require Import NArith List Bool Lia ZifyBool.
From DV Require Import Base.Outcome Base.Bytes C06.Gen C06.Model C06.Tables.
From DV Require C18.Model C18.Props.
Import ListNotations.
Local Open Scope N_scope.

Module M18 := DV.C18.Model.

Definition b32_text (b : bytes) : text := match M18.b32_display b with Ok t => t | _ => [] end.

Lemma index_of_in x l : forall i, M18.index_of x l i <> None -> In x l.
Proof.
  induction l as [|a l IH]; intros i H; cbn [M18.index_of] in H; [congruence|].
  destruct (a =? x) eqn:E; [left; apply N.eqb_eq, E | right; eapply IH, H].
Qed.

Lemma forall_plain (P : N -> Prop) w : (forall c, P c -> plain_char c = true) -> Forall P w -> forallb plain_char w = true.
Proof. intros H F. induction F as [|c w Hc _ IH]; [reflexivity|]. cbn [forallb]. rewrite (H c Hc), IH. reflexivity. Qed.

Lemma val32_plain c : M18.val32 c <> None -> plain_char c = true.
Proof.
  intros H. apply index_of_in in H. unfold M18.upper in H.
  destruct ((97 <=? c) && (c <=? 122)) eqn:E.
  - unfold plain_char, mem. cbn [existsb]. lia.
  - assert (A : forallb plain_char M18.alpha32hex = true) by (vm_compute; reflexivity).
    rewrite forallb_forall in A. apply A, H.
Qed.

Theorem blob32_roundtrip b : wf_bytes b -> b <> [] ->
  exists w : text, M18.b32_display b = Ok w /\ plain_word w = true /\ M18.b32_convert (@cons text w (@nil text)) = Ok b.
Proof.
  intros W NE. destruct (DV.C18.Props.C18_b32_decode_encode b W) as (w & D & R). exists w. split; [exact D|].
  assert (Wn : w <> []).
  { intros E0. subst w. vm_compute in R. apply NE. inversion R. reflexivity. }
  split.
  - destruct (DV.C18.Props.C18_accepts_only_alphabet w b) as (_ & A & _).
    apply plain_word_spec. split; [exact Wn | apply (forall_plain _ w val32_plain (A R))].
  - destruct (DV.C18.Props.C18_converter_agrees_with_decoder [w]) as (_ & S & _).
    cbn [concat] in S. rewrite app_nil_r, R in S. unfold DV.C18.ProofsConv.same_result in S.
    change (M18.b32_convert (@cons text w (@nil text))) with (M18.b32_convert [w]).
    destruct (M18.b32_convert [w]); try contradiction. subst. reflexivity.
Qed.

(* The NEW reader (NameBuf::split_message_bytes) is sound and complete for
   dpath R_new over m = header ++ contents. *)
From Coq Require Import NArith List Lia.
From DV Require Import Base.Outcome Base.Bytes Base.Names Base.PName C19.Gen C19.Model C19.ProofsOld.
Import ListNotations.
Local Open Scope N_scope.

(* the step equations with the T1 literals substituted *)
Lemma nb_segment_nil f buf : nb_segment (S f) [] buf = Err E_PARSE.
Proof. reflexivity. Qed.

Lemma nb_segment_cons f b rest buf :
  nb_segment (S f) (b :: rest) buf =
    if b =? 0 then do buf' <- nb_append buf [0]; Ok (None, rest, buf')
    else if b <? 64 then
      if len (b :: rest) <? 1 + b then Err E_PARSE
      else if 255 <? len buf then Panic PN_CAP
      else if 255 - len buf <? 2 + b then Err E_PARSE
      else do buf' <- nb_append buf (firstn (N.to_nat (1 + b)) (b :: rest));
           nb_segment f (skipn (N.to_nat (1 + b)) (b :: rest)) buf'
    else match rest with
         | lo :: rest' => if 192 <=? b then Ok (Some (N.land (b * 256 + lo) 16383), rest', buf) else Err E_PARSE
         | [] => Err E_PARSE
         end.
Proof. reflexivity. Qed.

Lemma nb_follow_some f hdr ge c p old_start buf :
  nb_follow (S f) hdr ge c (Some p) old_start buf =
    if p <? hdr then Err E_PARSE else
    if cmp_ge ge (p - hdr) old_start then Err E_PARSE else
    match get_from c (p - hdr) with
    | None => Err E_PARSE
    | Some bs => do r <- nb_segment (S (length bs)) bs buf;
                 let '(ptr', _, buf') := r in nb_follow f hdr ge c ptr' (p - hdr) buf'
    end.
Proof. reflexivity. Qed.

Lemma mask_ptr b c : b < 256 -> c < 256 -> N.land (b * 256 + c) 16383 = ptr_val b c.
Proof.
  intros Hb Hc. change 16383 with (N.ones 14). rewrite N.land_ones. unfold ptr_val.
  change (2 ^ 14) with 16384. lia.
Qed.

Lemma skipn_nth_cons {A} (l : list A) k x : nth_error l k = Some x -> skipn k l = x :: skipn (S k) l.
Proof.
  revert k; induction l as [|y l IH]; intros [|k] H; simpl in *; try discriminate.
  - inversion H; reflexivity.
  - apply IH in H. rewrite H. reflexivity.
Qed.

Lemma skipn_nth_nil {A} (l : list A) k : nth_error l k = None -> skipn k l = [].
Proof. intros H. apply nth_error_None in H. apply skipn_all2. exact H. Qed.

Lemma dpath_e_gt R m cur seg nl n e : dpath R m cur seg nl n e -> cur < e.
Proof. induction 1; lia. Qed.

Section NEW.
Variables (h c : bytes).
Hypothesis Hh : length h = 12%nat.
Hypothesis Hwf : wf_bytes c.
Let m := h ++ c.

Lemma mlen_m : mlen m = 12 + len c.
Proof. unfold mlen, m, len. rewrite app_length, Hh. lia. Qed.

Lemma get_m i : get m (12 + i) = nth_error c (N.to_nat i).
Proof.
  unfold get, m. rewrite nth_error_app2 by lia. f_equal. lia.
Qed.

Lemma get_m' p : 12 <= p -> get m p = nth_error c (N.to_nat (p - 12)).
Proof. intros H. replace p with (12 + (p - 12)) at 1 by lia. apply get_m. Qed.

Lemma nth_wf k b : nth_error c k = Some b -> b < 256.
Proof. intros H. apply nth_error_In in H. unfold wf_bytes in Hwf. rewrite Forall_forall in Hwf. auto. Qed.

Lemma slice_m i b : slice m (12 + i + 1) (12 + i + 1 + b) = firstn (N.to_nat b) (skipn (N.to_nat (i + 1)) c).
Proof.
  unfold slice, m. replace (12 + i + 1 + b - (12 + i + 1)) with b by lia.
  rewrite skipn_app. rewrite skipn_all2 by lia. cbn [app]. do 2 f_equal. lia.
Qed.

Lemma get_from_some start : start <= len c -> get_from c start = Some (skipn (N.to_nat start) c).
Proof. intros H. unfold get_from. destruct (N.ltb_spec (len c) start); [lia|reflexivity]. Qed.

Lemma len_skipn k : (k <= length c)%nat -> len (skipn k c) = len c - N.of_nat k.
Proof. intros H. unfold len. rewrite skipn_length. lia. Qed.

(* one label step of nb_segment at offset i of the contents *)
Lemma label_step i b :
  nth_error c (N.to_nat i) = Some b -> i + 1 + b <= len c ->
  firstn (N.to_nat (1 + b)) (skipn (N.to_nat i) c) = wire_label (slice m (12 + i + 1) (12 + i + 1 + b)) /\
  skipn (N.to_nat (1 + b)) (skipn (N.to_nat i) c) = skipn (N.to_nat (i + 1 + b)) c /\
  length (slice m (12 + i + 1) (12 + i + 1 + b)) = N.to_nat b.
Proof.
  intros G Hl. rewrite slice_m.
  assert (Hlen : length (firstn (N.to_nat b) (skipn (N.to_nat (i + 1)) c)) = N.to_nat b).
  { rewrite firstn_length, skipn_length. unfold len in Hl. lia. }
  split; [|split; [|exact Hlen]].
  - unfold wire_label. rewrite Hlen, N2Nat.id.
    rewrite (skipn_nth_cons _ _ _ G). replace (N.to_nat (1 + b)) with (S (N.to_nat b)) by lia.
    cbn [firstn]. do 3 f_equal. lia.
  - rewrite skipn_add. f_equal. lia.
Qed.

(* nb_segment at a label octet b of the contents, the buffer not yet full *)
Lemma seg_at_label i b f buf :
  nth_error c (N.to_nat i) = Some b -> b <> 0 -> b < 64 -> len buf <= 255 ->
  nb_segment (S f) (skipn (N.to_nat i) c) buf =
    if len c - i <? 1 + b then Err E_PARSE
    else if 255 - len buf <? 2 + b then Err E_PARSE
    else nb_segment f (skipn (N.to_nat (i + 1 + b)) c) (buf ++ wire_label (slice m (12 + i + 1) (12 + i + 1 + b))).
Proof.
  intros G Hb0 Hb Hbuf.
  assert (Hlt : i < len c).
  { assert (N.to_nat i < length c)%nat by (apply nth_error_Some; congruence). unfold len. lia. }
  assert (Hbs : len (skipn (N.to_nat i) c) = len c - i) by (rewrite len_skipn by (unfold len in *; lia); lia).
  pose proof (skipn_nth_cons _ _ _ G) as Ebs. rewrite Ebs in Hbs |- *. rewrite nb_segment_cons, Hbs.
  destruct (N.eqb_spec b 0); [contradiction|]. destruct (N.ltb_spec b 64); [|lia].
  destruct (N.ltb_spec (len c - i) (1 + b)); [reflexivity|].
  destruct (N.ltb_spec 255 (len buf)); [lia|].
  destruct (N.ltb_spec (255 - len buf) (2 + b)); [reflexivity|].
  destruct (label_step i b G ltac:(lia)) as (F1 & F2 & F3). rewrite Ebs in F1, F2. rewrite F1, F2.
  unfold nb_append.
  assert (Hwl : len (wire_label (slice m (12 + i + 1) (12 + i + 1 + b))) = 1 + b).
  { unfold len, wire_label. cbn [length]. rewrite F3. lia. }
  rewrite Hwl. destruct (N.ltb_spec 255 (len buf + (1 + b))); [lia|]. reflexivity.
Qed.

Lemma wire_abs_cons' l n : wire_abs (l :: n) = wire_label l ++ wire_abs n.
Proof. unfold wire_abs, wire_rel. cbn [map concat]. rewrite <- app_assoc. reflexivity. Qed.

Lemma get_wf p b : 12 <= p -> get m p = Some b -> b < 256.
Proof. intros Hp G. rewrite get_m' in G by exact Hp. eapply nth_wf, G. Qed.

(* the segment at a compression pointer ends at once *)
Lemma seg_at_ptr p b c1 f buf :
  12 <= p -> get m p = Some b -> 192 <= b -> get m (p + 1) = Some c1 ->
  nb_segment (S f) (skipn (N.to_nat (p - 12)) c) buf =
    Ok (Some (ptr_val b c1), skipn (N.to_nat (p + 2 - 12)) c, buf).
Proof.
  intros Hp G Hb G1. rewrite <- (mask_ptr b c1) by (eapply get_wf; [|eassumption]; lia).
  rewrite get_m' in G, G1 by lia.
  replace (N.to_nat (p + 1 - 12)) with (S (N.to_nat (p - 12))) in G1 by lia.
  rewrite (skipn_nth_cons _ _ _ G), (skipn_nth_cons _ _ _ G1), nb_segment_cons.
  destruct (N.eqb_spec b 0); [lia|]. destruct (N.ltb_spec b 64); [lia|]. destruct (N.leb_spec 192 b); [|lia].
  replace (N.to_nat (p + 2 - 12)) with (S (S (N.to_nat (p - 12)))) by lia. reflexivity.
Qed.

(* following a pointer that the new rule admits: the segment at its target is read next *)
Lemma follow_step ff pv old buf :
  12 <= pv -> pv - 12 < old -> pv <= 12 + len c ->
  nb_follow (S ff) 12 true c (Some pv) old buf =
    (do r <- nb_segment (S (length (skipn (N.to_nat (pv - 12)) c))) (skipn (N.to_nat (pv - 12)) c) buf;
     let '(p', _, buf') := r in nb_follow ff 12 true c p' (pv - 12) buf').
Proof.
  intros H12 Hlt Hle. rewrite nb_follow_some.
  destruct (N.ltb_spec pv 12); [lia|]. unfold cmp_ge. destruct (N.leb_spec old (pv - 12)); [lia|].
  rewrite get_from_some by lia. reflexivity.
Qed.

Lemma follow_chain seg cur t : pchain R_new m seg cur t -> 12 <= seg -> seg <= cur ->
  forall b c0, get m cur = Some b -> get m (cur + 1) = Some c0 ->
  forall ffuel buf, (N.to_nat (seg - 12) < ffuel)%nat ->
  exists ffuel', (N.to_nat (t - 12) < ffuel')%nat /\ 12 <= t /\ t < mlen m /\
    nb_follow ffuel 12 true c (Some (ptr_val b c0)) (seg - 12) buf =
      (do r <- nb_segment (S (length (skipn (N.to_nat (t - 12)) c))) (skipn (N.to_nat (t - 12)) c) buf;
       let '(p', _, buf') := r in nb_follow ffuel' 12 true c p' (t - 12) buf').
Proof.
  induction 1 as [seg cur b c1 b' G Hb G1 HR G2 Hb'|seg cur b c1 t' G Hb G1 HR PC IH];
    intros Hseg Hsc b0 c0 G0 G01 ffuel buf Hf; rewrite G in G0; rewrite G1 in G01;
    inversion G0; inversion G01; subst b0 c0; destruct HR as [HR1 HR2];
    (destruct ffuel as [|ffuel]; [lia|]).
  - pose proof (get_lt _ _ _ G2) as Ht. rewrite mlen_m in Ht.
    exists ffuel. split; [lia|]. split; [lia|]. split; [rewrite mlen_m; lia|]. apply follow_step; lia.
  - destruct (pchain_first _ _ _ _ _ PC) as (b2 & c2 & G2 & Hb2 & G3 & _).
    pose proof (get_lt _ _ _ G2) as Ht. rewrite mlen_m in Ht.
    destruct (IH ltac:(lia) ltac:(lia) b2 c2 G2 G3 ffuel buf ltac:(lia)) as (ff' & Hff & H12 & Hlt & E).
    exists ff'. split; [exact Hff|]. split; [exact H12|]. split; [exact Hlt|].
    rewrite follow_step by lia. rewrite (seg_at_ptr _ _ _ _ _ HR1 G2 Hb2 G3). exact E.
Qed.

Lemma new_complete cur seg nl n e : dpath R_new m cur seg nl n e -> 12 <= seg -> seg <= cur ->
  forall buf fuel ffuel, len buf = nl -> nl < 255 ->
    (length (skipn (N.to_nat (cur - 12)) c) < fuel)%nat -> (N.to_nat (seg - 12) < ffuel)%nat ->
    exists ptr rest buf',
      nb_segment fuel (skipn (N.to_nat (cur - 12)) c) buf = Ok (ptr, rest, buf') /\
      12 + len c = e + len rest /\
      nb_follow ffuel 12 true c ptr (seg - 12) buf' = Ok (buf ++ wire_abs n).
Proof.
  induction 1 as [cur seg nl G|cur seg nl b rest e G Hb1 Hb2 Hlen Hcap D IH|cur seg nl t rest e' PC D IH];
    intros Hseg Hsc buf fuel ffuel Hbuf Hnl Hfuel Hff.
  - pose proof (get_lt _ _ _ G) as Hlt. rewrite mlen_m in Hlt. rewrite get_m' in G by lia.
    rewrite (skipn_nth_cons _ _ _ G) in Hfuel |- *.
    destruct fuel as [|fuel]; [lia|]. rewrite nb_segment_cons. cbn [N.eqb].
    unfold nb_append. change (len [0]) with 1.
    destruct (N.ltb_spec 255 (len buf + 1)); [lia|]. cbn [bind].
    do 3 eexists. split; [reflexivity|]. split.
    + rewrite len_skipn by (unfold len in *; lia). lia.
    + destruct ffuel; reflexivity.
  - pose proof (get_lt _ _ _ G) as Hlt. rewrite mlen_m in Hlt, Hlen. rewrite get_m' in G by lia.
    destruct fuel as [|fuel]; [lia|]. rewrite (seg_at_label (cur - 12) b fuel buf G) by lia.
    destruct (N.ltb_spec (len c - (cur - 12)) (1 + b)); [lia|].
    destruct (N.ltb_spec (255 - len buf) (2 + b)); [lia|].
    replace (12 + (cur - 12) + 1) with (cur + 1) by lia. replace (cur - 12 + 1 + b) with (cur + 1 + b - 12) by lia.
    assert (F3 : length (slice m (cur + 1) (cur + 1 + b)) = N.to_nat b).
    { rewrite slice_length by (rewrite ?mlen_m; lia). f_equal. lia. }
    destruct (IH Hseg ltac:(lia) (buf ++ wire_label (slice m (cur + 1) (cur + 1 + b))) fuel ffuel)
      as (ptr & rest' & buf' & S1 & S2 & S3).
    { unfold len in *. unfold wire_label. rewrite app_length. cbn [length]. rewrite F3. lia. }
    { lia. }
    { rewrite skipn_length in *. unfold len in *. lia. }
    { exact Hff. }
    exists ptr, rest', buf'. split; [exact S1|]. split; [exact S2|].
    rewrite S3. rewrite wire_abs_cons', app_assoc. reflexivity.
  - destruct (pchain_first _ _ _ _ _ PC) as (b & c0 & G & Hb & G1 & [HR1 HR2]).
    pose proof (get_lt _ _ _ G1) as Hlt. rewrite mlen_m in Hlt.
    destruct fuel as [|fuel]; [lia|]. rewrite (seg_at_ptr cur b c0 fuel buf ltac:(lia) G Hb G1).
    do 3 eexists. split; [reflexivity|]. split.
    + rewrite len_skipn by (unfold len in *; lia). lia.
    + destruct (follow_chain _ _ _ PC Hseg Hsc b c0 G G1 ffuel buf Hff) as (ff' & Hff' & H12 & Hlt' & E).
      rewrite E.
      destruct (IH ltac:(lia) ltac:(lia) buf (S (length (skipn (N.to_nat (t - 12)) c))) ff' Hbuf Hnl ltac:(lia) Hff')
        as (ptr & rest' & buf' & S1 & S2 & S3).
      rewrite S1. cbn [bind]. exact S3.
Qed.

Lemma wire_abs_app ls tail : wire_abs (ls ++ tail) = wire_rel ls ++ wire_abs tail.
Proof. unfold wire_abs. rewrite wire_rel_app, app_assoc. reflexivity. Qed.

Definition term_bytes (ptr : option N) : bytes := match ptr with None => [0] | Some _ => [] end.
Definition term_len (ptr : option N) : N := match ptr with None => 1 | Some _ => 2 end.

Lemma seg_sound fuel : forall i buf ptr rest buf' nl,
  i <= len c -> len buf = nl -> nl < 255 ->
  nb_segment fuel (skipn (N.to_nat i) c) buf = Ok (ptr, rest, buf') ->
  exists ls j, i <= j /\ buf' = buf ++ wire_rel ls ++ term_bytes ptr /\
    12 + len c = 12 + j + term_len ptr + len rest /\
    nl + N.of_nat (wire_len ls) < 255 /\
    (forall R seg tail e, dpath R m (12 + j) seg (nl + N.of_nat (wire_len ls)) tail e ->
                          dpath R m (12 + i) seg nl (ls ++ tail) e) /\
    match ptr with
    | None => get m (12 + j) = Some 0
    | Some pv => exists b c0, get m (12 + j) = Some b /\ 192 <= b /\ get m (12 + j + 1) = Some c0 /\ pv = ptr_val b c0
    end.
Proof.
  induction fuel as [|fuel IH]; intros i buf ptr rest buf' nl Hi Hbuf Hnl H; [discriminate|].
  destruct (nth_error c (N.to_nat i)) as [b|] eqn:G.
  2:{ rewrite (skipn_nth_nil _ _ G) in H. discriminate. }
  assert (Hlt : i < len c).
  { assert (N.to_nat i < length c)%nat by (apply nth_error_Some; congruence). unfold len. lia. }
  destruct (N.eq_dec b 0) as [Hb0|Hb0]; [|destruct (N.ltb_spec b 64) as [Hb|Hb]].
  - rewrite (skipn_nth_cons _ _ _ G), nb_segment_cons in H. rewrite Hb0 in G, H. clear Hb0. cbn [N.eqb] in H.
    unfold nb_append in H. change (len [0]) with 1 in H.
    remember (skipn (S (N.to_nat i)) c) as tl eqn:Etl in H.
    destruct (N.ltb_spec 255 (len buf + 1)); [discriminate|]. cbn [bind] in H.
    injection H as Ep Er Eb'; subst ptr rest buf' tl. exists [], i.
    split; [lia|]. split; [reflexivity|]. split.
    { cbn [term_len]. rewrite len_skipn by (unfold len in *; lia). lia. }
    split; [cbn; lia|]. split.
    { intros R seg tail e D. cbn [wire_len app] in *. replace (nl + N.of_nat 0) with nl in D by lia. exact D. }
    rewrite get_m. exact G.
  - rewrite (seg_at_label i b fuel buf G) in H by lia.
    destruct (N.ltb_spec (len c - i) (1 + b)) as [Hs|Hs]; [discriminate|].
    destruct (N.ltb_spec (255 - len buf) (2 + b)) as [Hc|Hc]; [discriminate|].
    assert (F3 : length (slice m (12 + i + 1) (12 + i + 1 + b)) = N.to_nat b).
    { rewrite slice_length by (rewrite ?mlen_m; lia). f_equal. lia. }
    apply IH with (nl := nl + b + 1) in H;
      [|lia|unfold len in *; unfold wire_label; rewrite app_length; cbn [length]; rewrite F3; lia|lia].
    destruct H as (ls & j & Hij & Eb & El & Hw & P & T).
    exists (slice m (12 + i + 1) (12 + i + 1 + b) :: ls), j.
    split; [lia|]. split.
    { rewrite Eb. unfold wire_rel at 2. cbn [map concat]. fold (wire_rel ls). rewrite <- !app_assoc. reflexivity. }
    split; [exact El|]. split; [cbn [wire_len]; rewrite F3; lia|]. split; [|exact T].
    intros R seg tail e D. cbn [app].
    eapply dp_label; [rewrite get_m; exact G|lia|lia|rewrite mlen_m; lia|lia|].
    replace (12 + i + 1 + b) with (12 + (i + 1 + b)) by lia. apply P.
    cbn [wire_len] in D. rewrite F3 in D.
    replace (nl + b + 1 + N.of_nat (wire_len ls)) with (nl + N.of_nat (S (N.to_nat b) + wire_len ls)) by lia. exact D.
  - rewrite (skipn_nth_cons _ _ _ G), nb_segment_cons in H.
    destruct (N.eqb_spec b 0); [contradiction|]. destruct (N.ltb_spec b 64); [lia|].
    destruct (nth_error c (S (N.to_nat i))) as [lo|] eqn:G1.
    2:{ rewrite (skipn_nth_nil _ _ G1) in H. discriminate. }
    rewrite (skipn_nth_cons _ _ _ G1) in H.
    remember (skipn (S (S (N.to_nat i))) c) as tl eqn:Etl in H.
    destruct (N.leb_spec 192 b) as [Hb2|Hb2]; [|discriminate].
    injection H as Ep Er Eb'; subst ptr rest buf' tl. exists [], i.
    assert (Hlt1 : i + 1 < len c).
    { assert (S (N.to_nat i) < length c)%nat by (apply nth_error_Some; congruence). unfold len. lia. }
    split; [lia|]. split; [cbn; rewrite app_nil_r; reflexivity|]. split.
    { cbn [term_len]. rewrite len_skipn by (unfold len in *; lia). lia. }
    split; [cbn; lia|]. split.
    { intros R seg tail e D. cbn [wire_len app] in *. replace (nl + N.of_nat 0) with nl in D by lia. exact D. }
    exists b, lo. rewrite get_m. replace (12 + i + 1) with (12 + (i + 1)) by lia. rewrite get_m.
    replace (N.to_nat (i + 1)) with (S (N.to_nat i)) by lia.
    split; [exact G|]. split; [exact Hb2|]. split; [exact G1|].
    apply mask_ptr; eauto using nth_wf.
Qed.

Lemma follow_sound ffuel : forall pv old_start buf w nl j b c0,
  nb_follow ffuel 12 true c (Some pv) old_start buf = Ok w ->
  get m (12 + j) = Some b -> 192 <= b -> get m (12 + j + 1) = Some c0 -> pv = ptr_val b c0 ->
  old_start <= j -> len buf = nl -> nl < 255 ->
  exists tail, w = buf ++ wire_abs tail /\ dpath R_new m (12 + j) (12 + old_start) nl tail (12 + j + 2).
Proof.
  induction ffuel as [|ffuel IH]; intros pv old_start buf w nl j b c0 H G Hb G1 Hpv Hoj Hbuf Hnl; [discriminate|].
  rewrite nb_follow_some in H.
  destruct (N.ltb_spec pv 12) as [|H12]; [discriminate|].
  unfold cmp_ge in H. destruct (N.leb_spec old_start (pv - 12)) as [|Hlt]; [discriminate|].
  pose proof (get_lt _ _ _ G) as Hjl. rewrite mlen_m in Hjl.
  rewrite get_from_some in H by lia.
  destruct (nb_segment (S (length (skipn (N.to_nat (pv - 12)) c))) (skipn (N.to_nat (pv - 12)) c) buf)
    as [[[ptr' rest'] buf']| | |] eqn:ES; cbn [bind] in H; try discriminate.
  destruct (seg_sound _ (pv - 12) buf ptr' rest' buf' nl ltac:(lia) Hbuf Hnl ES) as (ls & j' & Hij & Eb & El & Hw & P & T).
  replace (12 + (pv - 12)) with pv in * by lia.
  assert (HR : R_new (12 + old_start) (12 + j) pv) by (unfold R_new; lia).
  subst pv. destruct ptr' as [pv2|].
  - destruct T as (b2 & c2 & G2 & Hb2 & G3 & Hpv2).
    destruct (IH _ _ _ _ (nl + N.of_nat (wire_len ls)) j' b2 c2 H G2 Hb2 G3 Hpv2 Hij) as (tail2 & Ew & D2).
    { rewrite Eb. cbn [term_bytes]. rewrite app_nil_r. unfold len in *. rewrite app_length, wire_rel_length. lia. }
    { lia. }
    exists (ls ++ tail2). split.
    { rewrite Ew, Eb. cbn [term_bytes]. rewrite app_nil_r, wire_abs_app, app_assoc. reflexivity. }
    eapply dp_ptr_to; eauto. apply P.
    replace (12 + (ptr_val b c0 - 12)) with (ptr_val b c0) in D2 by lia. exact D2.
  - assert (Ew : w = buf') by (destruct ffuel; cbn [nb_follow] in H; congruence). subst w. exists ls. split.
    { rewrite Eb. cbn [term_bytes]. unfold wire_abs. reflexivity. }
    eapply dp_ptr_to; eauto. rewrite <- (app_nil_r ls). apply P. constructor. exact T.
Qed.

Theorem new_split_sound start w e : new_split c start = Ok (w, e) ->
  exists n, w = wire_abs n /\ dpath R_new m (12 + start) (12 + start) 0 n (12 + e).
Proof.
  unfold new_split. intros H.
  unfold get_from in H. destruct (N.ltb_spec (len c) start) as [|Hs]; [discriminate|].
  destruct (nb_segment (S (length (skipn (N.to_nat start) c))) (skipn (N.to_nat start) c) [])
    as [[[ptr rest] buf]| | |] eqn:ES; cbn [bind] in H; try discriminate.
  destruct (N.ltb_spec (len c) (len rest)); [discriminate|].
  destruct (seg_sound _ start [] ptr rest buf 0 Hs eq_refl ltac:(lia) ES) as (ls & j & Hij & Eb & El & Hw & P & T).
  change nb_split_hdr with 12 in H. change nb_split_rule_ge with true in H.
  destruct ptr as [pv|].
  - destruct T as (b & c0 & G & Hb & G1 & Hpv).
    destruct (nb_follow (follow_fuel start) 12 true c (Some pv) start buf) as [w'| | |] eqn:EF; cbn [bind] in H; try discriminate.
    inversion H; subst w' e.
    destruct (follow_sound _ _ _ _ _ (0 + N.of_nat (wire_len ls)) j b c0 EF G Hb G1 Hpv Hij) as (tail & Ew & D).
    { rewrite Eb. cbn [term_bytes app]. rewrite app_nil_r. unfold len. rewrite wire_rel_length. lia. }
    { lia. }
    exists (ls ++ tail). split.
    { rewrite Ew, Eb. cbn [term_bytes app]. rewrite app_nil_r. apply eq_sym, wire_abs_app. }
    cbn [term_len] in El. replace (12 + (len c - len rest)) with (12 + j + 2) by lia.
    apply P. exact D.
  - cbn [nb_follow bind] in H. inversion H; subst w e. exists ls. split.
    { rewrite Eb. reflexivity. }
    cbn [term_len] in El. replace (12 + (len c - len rest)) with (12 + j + 1) by lia.
    rewrite <- (app_nil_r ls). apply P. constructor. exact T.
Qed.

Theorem new_split_complete start n e : dpath R_new m (12 + start) (12 + start) 0 n e ->
  new_split c start = Ok (wire_abs n, e - 12) /\ 12 <= e.
Proof.
  intros D. unfold new_split.
  assert (Hs : start <= len c).
  { assert (exists b, get m (12 + start) = Some b) as (b & G).
    { inversion D; subst; eauto. destruct (pchain_first _ _ _ _ _ H) as (b & ? & G & _). eauto. }
    apply get_lt in G. rewrite mlen_m in G. lia. }
  rewrite get_from_some by exact Hs.
  destruct (new_complete _ _ _ _ _ D ltac:(lia) ltac:(lia) [] (S (length (skipn (N.to_nat start) c))) (follow_fuel start) eq_refl ltac:(lia))
    as (ptr & rest & buf' & S1 & S2 & S3).
  { replace (12 + start - 12) with start by lia. lia. }
  { unfold follow_fuel. lia. }
  replace (12 + start - 12) with start in * by lia.
  pose proof (dpath_e_gt _ _ _ _ _ _ _ D) as Hegt.
  rewrite S1. cbn [bind]. destruct (N.ltb_spec (len c) (len rest)); [lia|].
  change nb_split_hdr with 12. change nb_split_rule_ge with true. rewrite S3. cbn [bind app].
  split; [|lia]. do 2 f_equal. lia.
Qed.
End NEW.

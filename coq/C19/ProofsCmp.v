(* The new name compressor: regression vectors of the repaired defects, the
   crate's own test vectors, and the pointer-range theorem of the repaired loop. *)
From Coq Require Import NArith List Lia.
From DV Require Import Base.Outcome Base.Bytes C19.Gen C19.Model C19.ModelCmp.
Import ListNotations.
Local Open Scope N_scope.

(* names in wire form *)
Definition n_b_c : bytes := [1;98;1;99;0].
Definition n_a_c : bytes := [1;97;1;99;0].
Definition n_x_a_b_c : bytes := [1;120;1;97;1;98;1;99;0].

(* regression vectors of the three repaired defects (fix: commits 78b30ee,
   4f7eebf, 0ad71c9 in /repo): the inputs that used to give a wrong pointer, a
   u16 overflow and unreachable!() now build messages that read back *)
Example compressor_regressions :
  (exists c, c19_build 0 [n_b_c; n_a_c; n_x_a_b_c] = Ok c /\ new_split c 9 = Ok (n_x_a_b_c, len c)) /\
  (exists c, c19_build 16370 [[1;97;7;101;120;97;109;112;108;101;0]; [1;98;7;101;120;97;109;112;108;101;0]] = Ok c /\
             new_split c 16381 = Ok ([1;98;7;101;120;97;109;112;108;101;0], len c)) /\
  (exists c, c19_build 0 [[1;97;2;97;98;0]; [2;1;97;2;97;98;0]] = Ok c /\
             new_split c 6 = Ok ([2;1;97;2;97;98;0], len c)).
Proof.
  split; [|split].
  - exists [1;98;1;99;0; 1;97;192;14; 1;120;1;97;192;12]. vm_compute. auto.
  - (* the matching suffix lies at 16372, and 16372 + 12 = 0x4000 is no 14-bit offset: written in full *)
    exists (repeat 0 (N.to_nat 16370) ++ [1;97;7;101;120;97;109;112;108;101;0; 1;98;7;101;120;97;109;112;108;101;0]).
    vm_compute. auto.
  - exists [1;97;2;97;98;0; 2;1;97;192;14]. vm_compute. auto.
Qed.

(* regression vector of the repaired defect new_compressor_unused_slot_debug_assert
   (unused slots carry hash 0 and parent 0, both also a possible label hash and a
   possible parent index): a.com, then 1rr.com - `com` hits slot 0, the rest `1rr`
   hashes to 0 and is looked up under parent 0; the unused slots are now skipped *)
Example compressor_unused_slot_regression :
  exists c, c19_build 0 [[1;97;3;99;111;109;0]; [3;49;114;114;3;99;111;109;0]] = Ok c /\
            new_split c 7 = Ok ([3;49;114;114;3;99;111;109;0], len c).
Proof. eexists. split; vm_compute; reflexivity. Qed.

(* the hash (SEED1, SEED2, M, >> 48 from T1): the label `1rr` hashes to 0; the
   harness confirms this on the real code through the unused-slot case *)
Example hash_zero_label : hash_label [3;49;114;114] = 0 /\ hash_label [3;99;111;109] <> 0.
Proof. vm_compute. split; [reflexivity|discriminate]. Qed.

(* non-vacuity of the model: the crate's own test vectors (compressor.rs tests) *)
Example compressor_examples :
  let ex_org := [7;101;120;97;109;112;108;101;3;111;114;103;0] in
  let ex_com := [7;101;120;97;109;112;108;101;3;99;111;109;0] in
  let un_org := [7;117;110;101;113;117;97;108;3;111;114;103;0] in
  let un_ORG := [7;117;110;101;113;117;97;108;3;79;82;71;0] in
  c19_build 0 [ex_org; ex_com] = Ok (ex_org ++ ex_com) /\
  c19_build 0 [ex_org; un_org] = Ok (ex_org ++ [7;117;110;101;113;117;97;108;192;20]) /\
  c19_build 0 [ex_org; un_ORG] = Ok (ex_org ++ [7;117;110;101;113;117;97;108;192;20]).
Proof. vm_compute. repeat split; reflexivity. Qed.

Definition range_fixed : Prop :=
  cn_range_check = true /\ cn_range_ge = true /\ cn_range_add = 12 /\ cn_range_bound = 16384.

Lemma compress_loop_range (Hfix : range_fixed) fuel : forall st c name parent poff hash st' name' parent' poff' hash',
  (forall o, poff = Some o -> o + 12 < 16384) ->
  compress_loop fuel st c name parent poff hash = Ok (st', name', parent', poff', hash') ->
  forall o, poff' = Some o -> o + 12 < 16384.
Proof.
  destruct Hfix as (F1 & F2 & F3 & F4).
  induction fuel as [|fuel IH]; intros st c name parent poff hash st' name' parent' poff' hash' Hp H; [discriminate H|].
  cbn [compress_loop] in H. destruct name as [|x name].
  - inversion H; subst. exact Hp.
  - destruct (lookup_from 32 0 st c (x :: name) parent poff hash) as [|i rest h pos|s].
    + inversion H; subst. exact Hp.
    + rewrite F1, F2, F3, F4 in H. unfold cmp_ge in H. cbn [andb] in H.
      destruct (N.leb_spec 16384 (pos + 12)) as [Hr|Hr].
      * inversion H; subst. exact Hp.
      * eapply IH; [|exact H]. intros o Ho. inversion Ho; subst. exact Hr.
    + discriminate H.
Qed.

Local Opaque compress_loop lookup_from last_label hash_label.

(* with the range check of pending/C19-compressor-pointer-range.diff in place,
   every offset compress_name hands out fits a 14-bit pointer together with the
   12-octet header, and `addr + 0xC00C` cannot overflow *)
Theorem compress_name_pointer_range (Hfix : range_fixed) st c wire rest o st' :
  compress_name st c wire = Ok (Some (rest, o), st') -> o + 12 < 16384 /\ o + 49164 <= 65535.
Proof.
  unfold compress_name. intros H.
  destruct (firstn (length wire - 1) wire) as [|x name]; [discriminate H|].
  destruct (last_label (x :: name)) as [lab|e|s|]; cbn [bind] in H; try discriminate H.
  destruct (compress_loop (S (length (x :: name))) st c (x :: name) cn_no_parent None (hash_label lab))
    as [[[[[st1 name'] parent] poff] hash]|e|s|] eqn:Ec; cbn [bind] in H; try discriminate H.
  assert (R : forall o0, poff = Some o0 -> o0 + 12 < 16384).
  { eapply compress_loop_range; [exact Hfix| |exact Ec]. intros o0 Q. discriminate Q. }
  destruct poff as [o0|]; [|discriminate H].
  assert (o0 = o) by (inversion H; reflexivity). subst o0.
  specialize (R o eq_refl). lia.
Qed.

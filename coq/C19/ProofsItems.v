(* Question / Record split_message_bytes of the new API
   against C01's model of the old Question::parse / ParsedRecord::parse. *)
From Coq Require Import NArith PeanoNat List Lia.
From DV Require Import Base.Outcome Base.Bytes Base.Names Base.PName C19.Model C19.ProofsOld C19.ProofsNew
  C19.ProofsAgree C01.Model.
Import ListNotations.
Local Open Scope N_scope.

(* parse_ref alone determines the labels the iterator will produce *)
Lemma labels_core m F p pn : (256 <= F)%nat ->
  parse_labels F m (mlen m) p 0 p false None = Ok pn ->
  exists n, iter_labels F m (pn_pos pn) (pn_len pn) [] = Ok (n, true).
Proof.
  intros HF P.
  destruct (parse_labels_sound m F p 0 p false None pn p ltac:(lia) ltac:(auto) P) as (n & e & D & Hl & He & _ & Hp).
  destruct (Hp eq_refl) as (e' & D').
  destruct (dpath_len _ _ _ _ _ _ _ D ltac:(lia)) as [L1 L2].
  exists n. rewrite Hl.
  replace (0 + N.of_nat (wire_len n) + 1) with (N.of_nat (wire_len n) + 1) by lia.
  apply (iter_labels_complete _ _ _ _ _ _ D'). lia.
Qed.

Lemma parse_ref_labels m p pn : parse_ref m p (mlen m) = Ok pn ->
  exists n, pname_labels m pn = Ok (n, true) /\ decode_name m p (mlen m) = Ok (n, pn_end pn).
Proof.
  unfold decode_name, parse_ref, pname_labels.
  generalize parse_fuel_ge. generalize PARSE_FUEL. intros F HF P.
  destruct (labels_core m F p pn HF P) as (n & L). exists n. rewrite P. cbn [bind]. rewrite L. cbn [bind fst]. auto.
Qed.

Lemma decode_parse_ref m p n e : decode_name m p (mlen m) = Ok (n, e) ->
  exists pn, parse_ref m p (mlen m) = Ok pn /\ pname_labels m pn = Ok (n, true) /\ pn_end pn = e.
Proof.
  unfold decode_name, parse_ref, pname_labels.
  generalize parse_fuel_ge. generalize PARSE_FUEL. intros F HF H.
  destruct (parse_labels F m (mlen m) p 0 p false None) as [pn|x|x|] eqn:P; cbn [bind] in H; try discriminate H.
  destruct (labels_core m F p pn HF P) as (n' & L). rewrite L in H. cbn [bind fst] in H.
  exists pn. split; [reflexivity|]. split; congruence.
Qed.

Local Opaque parse_ref pname_labels decode_name.

Section ITEMS.
Variables (h c : bytes).
Hypothesis Hh : length h = 12%nat.
Hypothesis Hwf : wf_bytes c.
Let m := h ++ c.

Lemma nth_c i : nth_error c i = get m (12 + N.of_nat i).
Proof. unfold m. rewrite (get_m h c Hh). rewrite Nat2N.id. reflexivity. Qed.

Lemma firstn_skipn_nth k : forall e, (e + k <= length c)%nat ->
  firstn k (skipn e c) = map (fun j => nth (e + j) c 0) (seq 0 k).
Proof.
  induction k as [|k IH]; intros e H; [reflexivity|].
  rewrite (skipn_nth_cons c e (nth e c 0)) by (apply nth_error_nth'; lia).
  cbn [firstn seq map]. rewrite Nat.add_0_r, IH, <- seq_shift, map_map by lia.
  f_equal. apply map_ext. intros j. f_equal. lia.
Qed.

Lemma get_c e j : (N.to_nat e + j < length c)%nat -> get m (12 + e + N.of_nat j) = Some (nth (N.to_nat e + j) c 0).
Proof.
  intros H. unfold m. rewrite <- N.add_assoc, (get_m h c Hh).
  replace (N.to_nat (e + N.of_nat j)) with (N.to_nat e + j)%nat by lia. apply nth_error_nth'. exact H.
Qed.

Lemma nfield_eq k e : e <= len c ->
  nfield k c e = if len c - e <? N.of_nat k then Err E_PARSE
                 else Ok (firstn k (skipn (N.to_nat e) c), e + N.of_nat k).
Proof.
  intros He. unfold nfield. destruct (N.ltb_spec (len c) e); [lia|]. rewrite firstn_length, skipn_length.
  destruct (N.ltb_spec (len c - e) (N.of_nat k)); destruct (Nat.ltb_spec (Nat.min k (length c - N.to_nat e)) k);
    unfold len in *; try lia; reflexivity.
Qed.

Lemma u16_at_eq e : e <= len c ->
  u16_at m (12 + e) (mlen m) = if len c - e <? 2 then Err E_SHORT
                               else Ok (be_val (firstn 2 (skipn (N.to_nat e) c))).
Proof.
  intros He. unfold u16_at, m. rewrite (mlen_m h c Hh). fold m. replace (12 + len c - (12 + e)) with (len c - e) by lia.
  destruct (N.ltb_spec (len c - e) 2); [reflexivity|].
  rewrite (firstn_skipn_nth 2) by (unfold len in *; lia). cbn [seq map be_val fold_left].
  pose proof (get_c e 0) as G0. pose proof (get_c e 1) as G1. cbn [N.of_nat Pos.of_succ_nat] in G0, G1.
  rewrite N.add_0_r in G0. rewrite G0, G1 by (unfold len in *; lia). reflexivity.
Qed.

Lemma u32_at_eq e : e <= len c ->
  u32_at m (12 + e) (mlen m) = if len c - e <? 4 then Err E_SHORT
                               else Ok (be_val (firstn 4 (skipn (N.to_nat e) c))).
Proof.
  intros He. unfold u32_at, m. rewrite (mlen_m h c Hh). fold m. replace (12 + len c - (12 + e)) with (len c - e) by lia.
  destruct (N.ltb_spec (len c - e) 4); [reflexivity|].
  rewrite (firstn_skipn_nth 4) by (unfold len in *; lia). cbn [seq map be_val fold_left].
  pose proof (get_c e 0) as G0. pose proof (get_c e 1) as G1. pose proof (get_c e 2) as G2. pose proof (get_c e 3) as G3.
  cbn [N.of_nat Pos.of_succ_nat Pos.succ] in G0, G1, G2, G3.
  rewrite N.add_0_r in G0. rewrite G0, G1, G2, G3 by (unfold len in *; lia). reflexivity.
Qed.

(* a 16-bit field of well-formed contents *)
Lemma be_val_2 e : e + 2 <= len c -> be_val (firstn 2 (skipn (N.to_nat e) c)) < 65536.
Proof.
  intros H. rewrite (firstn_skipn_nth 2) by (unfold len in *; lia). cbn [seq map be_val fold_left].
  assert (B : forall i, (i < length c)%nat -> nth i c 0 < 256).
  { intros i Hi. apply (nth_wf c Hwf i). apply nth_error_nth'. exact Hi. }
  pose proof (B (N.to_nat e + 0)%nat). pose proof (B (N.to_nat e + 1)%nat). unfold len in *. lia.
Qed.

(* end positions the new name reader returns lie inside the contents *)
Lemma new_split_end start w e : new_split c start = Ok (w, e) -> e <= len c.
Proof.
  intros H. destruct (new_split_sound h c Hh Hwf _ _ _ H) as (n & _ & D).
  clear H. assert (Q : forall R mm cur seg nl nn ee, dpath R mm cur seg nl nn ee -> ee <= mlen mm).
  { induction 1; auto.
    - apply get_lt in H. lia.
    - destruct (pchain_first _ _ _ _ _ H) as (? & ? & _ & _ & G & _). apply get_lt in G. lia. }
  apply Q in D. rewrite (mlen_m h c Hh) in D. lia.
Qed.

Lemma nu16_eq e : e <= len c ->
  nu16 c e = if len c - e <? 2 then Err E_PARSE else Ok (be_val (firstn 2 (skipn (N.to_nat e) c)), e + 2).
Proof. intros He. unfold nu16. rewrite (nfield_eq 2 e He). change (N.of_nat 2) with 2. destruct (len c - e <? 2); reflexivity. Qed.

Lemma nu32_eq e : e <= len c ->
  nu32 c e = if len c - e <? 4 then Err E_PARSE else Ok (be_val (firstn 4 (skipn (N.to_nat e) c)), e + 4).
Proof. intros He. unfold nu32. rewrite (nfield_eq 4 e He). change (N.of_nat 4) with 4. destruct (len c - e <? 4); reflexivity. Qed.

Lemma question_tail (w0 : bytes) pn e0 : e0 <= len c -> pn_end pn = 12 + e0 ->
  match (do ty <- nu16 c e0; do cl <- nu16 c (snd ty); Ok (w0, fst ty, fst cl, snd cl)),
        (do ty <- u16_at m (pn_end pn) (mlen m); do cl <- u16_at m (pn_end pn + 2) (mlen m);
         Ok (mkQ pn ty cl (pn_end pn + 4))) with
  | Ok r, Ok q => r = (w0, q_type q, q_class q, q_end q - 12) /\ q_name q = pn /\ 16 <= q_end q
  | Err _, Err _ => True
  | _, _ => False
  end.
Proof.
  intros He ->. rewrite nu16_eq, u16_at_eq by exact He.
  destruct (N.ltb_spec (len c - e0) 2); [exact I|]. cbn [bind fst snd].
  rewrite <- N.add_assoc, nu16_eq, u16_at_eq by lia.
  destruct (N.ltb_spec (len c - (e0 + 2)) 2); [exact I|]. cbn [bind fst snd q_name q_type q_class q_end].
  split; [f_equal; lia|]. split; [reflexivity|lia].
Qed.

Lemma record_tail (w0 : bytes) pn e0 : e0 <= len c -> pn_end pn = 12 + e0 ->
  match (do ty <- nu16 c e0; do cl <- nu16 c (snd ty); do ttl <- nu32 c (snd cl); do sz <- nu16 c (snd ttl);
         if len c <? snd sz + fst sz then Err E_PARSE else if 65535 <? fst sz then Err E_PARSE
         else Ok (w0, fst ty, fst cl, fst ttl, snd sz, snd sz + fst sz)),
        (do ty <- u16_at m (pn_end pn) (mlen m); do cl <- u16_at m (pn_end pn + 2) (mlen m);
         do ttl <- u32_at m (pn_end pn + 4) (mlen m); do rdlen <- u16_at m (pn_end pn + 8) (mlen m);
         if mlen m - (pn_end pn + 10) <? rdlen then Err E_SHORT
         else Ok (mkRR pn ty cl ttl rdlen (pn_end pn + 10) (pn_end pn + 10 + rdlen))) with
  | Ok x, Ok r => x = (w0, rr_type r, rr_class r, rr_ttl r, rr_data r - 12, rr_end r - 12) /\ rr_owner r = pn /\
                  22 <= rr_data r /\ rr_data r <= rr_end r /\ rr_rdlen r = rr_end r - rr_data r
  | Err _, Err _ => True
  | _, _ => False
  end.
Proof.
  intros He ->. rewrite nu16_eq, u16_at_eq by exact He.
  destruct (N.ltb_spec (len c - e0) 2); [exact I|]. cbn [bind fst snd].
  replace (12 + e0 + 2) with (12 + (e0 + 2)) by lia. rewrite nu16_eq, u16_at_eq by lia.
  destruct (N.ltb_spec (len c - (e0 + 2)) 2); [exact I|]. cbn [bind fst snd].
  replace (12 + e0 + 4) with (12 + (e0 + 2 + 2)) by lia. rewrite nu32_eq, u32_at_eq by lia.
  destruct (N.ltb_spec (len c - (e0 + 2 + 2)) 4); [exact I|]. cbn [bind fst snd].
  replace (12 + e0 + 8) with (12 + (e0 + 2 + 2 + 4)) by lia. rewrite nu16_eq, u16_at_eq by lia.
  destruct (N.ltb_spec (len c - (e0 + 2 + 2 + 4)) 2); [exact I|]. cbn [bind fst snd].
  pose proof (be_val_2 (e0 + 2 + 2 + 4) ltac:(lia)) as Hsz. set (sz := be_val _) in *.
  unfold m. rewrite (mlen_m h c Hh).
  destruct (N.ltb_spec (len c) (e0 + 2 + 2 + 4 + 2 + sz)); destruct (N.ltb_spec (12 + len c - (12 + e0 + 10)) sz); try lia; try exact I.
  destruct (N.ltb_spec 65535 sz); [lia|]. cbn [rr_owner rr_type rr_class rr_ttl rr_rdlen rr_data rr_end].
  split; [f_equal; [f_equal|]; lia|]. split; [reflexivity|lia].
Qed.

Theorem question_new_to_old start w ty cl e : new_question c start = Ok (w, ty, cl, e) ->
  exists q n, question_parse m (12 + start) (mlen m) = Ok q /\ pname_labels m (q_name q) = Ok (n, true) /\
    w = wire_abs n /\ q_type q = ty /\ q_class q = cl /\ q_end q = 12 + e.
Proof.
  unfold new_question. intros H.
  destruct (new_split c start) as [[w0 e0]| | |] eqn:S; cbn [bind fst snd] in H; try discriminate H.
  destruct (new_refines_old h c Hh Hwf _ _ _ S) as (n & D & Ew). fold m in D.
  destruct (decode_parse_ref _ _ _ _ D) as (pn & P & L & Pe).
  pose proof (question_tail w0 pn e0 (new_split_end _ _ _ S) Pe) as T. rewrite H in T.
  unfold question_parse. rewrite P. cbn [bind].
  destruct (do ty0 <- u16_at m (pn_end pn) (mlen m); _) as [q| | |]; try contradiction.
  destruct T as (E & Hq & He). injection E as -> -> -> ->. exists q, n. rewrite Hq. repeat split; auto. lia.
Qed.

Theorem question_old_to_new start q : kclass m (12 + start) = KNone ->
  question_parse m (12 + start) (mlen m) = Ok q ->
  exists n, pname_labels m (q_name q) = Ok (n, true) /\ 16 <= q_end q /\
    new_question c start = Ok (wire_abs n, q_type q, q_class q, q_end q - 12).
Proof.
  intros K H. unfold question_parse in H.
  destruct (parse_ref m (12 + start) (mlen m)) as [pn| | |] eqn:P; cbn [bind] in H; try discriminate H.
  destruct (parse_ref_labels _ _ _ P) as (n & L & D).
  destruct (old_refines_new_outside_known h c Hh Hwf _ _ _ K D) as [He S].
  pose proof (question_tail (wire_abs n) pn (pn_end pn - 12) (new_split_end _ _ _ S) ltac:(lia)) as T. rewrite H in T.
  unfold new_question. rewrite S. cbn [bind fst snd].
  destruct (do ty <- nu16 c (pn_end pn - 12); _) as [r| | |]; try contradiction.
  destruct T as (-> & Hq & He'). exists n. rewrite Hq. auto.
Qed.

Theorem record_new_to_old start w ty cl ttl d e : new_record c start = Ok (w, ty, cl, ttl, d, e) ->
  exists r n, record_parse m (12 + start) (mlen m) = Ok r /\ pname_labels m (rr_owner r) = Ok (n, true) /\
    w = wire_abs n /\ rr_type r = ty /\ rr_class r = cl /\ rr_ttl r = ttl /\
    rr_data r = 12 + d /\ rr_end r = 12 + e /\ rr_rdlen r = e - d.
Proof.
  unfold new_record. intros H.
  destruct (new_split c start) as [[w0 e0]| | |] eqn:S; cbn [bind fst snd] in H; try discriminate H.
  destruct (new_refines_old h c Hh Hwf _ _ _ S) as (n & D & Ew). fold m in D.
  destruct (decode_parse_ref _ _ _ _ D) as (pn & P & L & Pe).
  pose proof (record_tail w0 pn e0 (new_split_end _ _ _ S) Pe) as T. rewrite H in T.
  unfold record_parse. rewrite P. cbn [bind]. cbv zeta.
  destruct (do ty0 <- u16_at m (pn_end pn) (mlen m); _) as [r| | |]; try contradiction.
  destruct T as (E & Hr & Hd & Hde & Hl). injection E as -> -> -> -> -> ->. exists r, n. rewrite Hr. repeat split; auto; lia.
Qed.

Theorem record_old_to_new start r : kclass m (12 + start) = KNone ->
  record_parse m (12 + start) (mlen m) = Ok r ->
  exists n, pname_labels m (rr_owner r) = Ok (n, true) /\ 22 <= rr_data r /\
    new_record c start = Ok (wire_abs n, rr_type r, rr_class r, rr_ttl r, rr_data r - 12, rr_end r - 12).
Proof.
  intros K H. unfold record_parse in H.
  destruct (parse_ref m (12 + start) (mlen m)) as [pn| | |] eqn:P; cbn [bind] in H; try discriminate H. cbv zeta in H.
  destruct (parse_ref_labels _ _ _ P) as (n & L & D).
  destruct (old_refines_new_outside_known h c Hh Hwf _ _ _ K D) as [He S].
  pose proof (record_tail (wire_abs n) pn (pn_end pn - 12) (new_split_end _ _ _ S) ltac:(lia)) as T. rewrite H in T.
  unfold new_record. rewrite S. cbn [bind fst snd]. cbv zeta.
  destruct (do ty <- nu16 c (pn_end pn - 12); _) as [x| | |]; try contradiction.
  destruct T as (-> & Hr & Hd & _). exists n. rewrite Hr. auto.
Qed.
Lemma new_question_total start : no_panic (new_question c start).
Proof.
  unfold new_question. pose proof (new_split_total c start) as T.
  destruct (new_split c start) as [[w e]| | |] eqn:S; try exact T. cbn [bind fst snd].
  pose proof (new_split_end _ _ _ S). rewrite nu16_eq by lia.
  destruct (N.ltb_spec (len c - e) 2); [exact I|]. cbn [bind fst snd]. rewrite nu16_eq by lia.
  destruct (len c - (e + 2) <? 2); exact I.
Qed.

Lemma new_record_total start : no_panic (new_record c start).
Proof.
  unfold new_record. pose proof (new_split_total c start) as T.
  destruct (new_split c start) as [[w e]| | |] eqn:S; try exact T. cbn [bind fst snd].
  pose proof (new_split_end _ _ _ S). rewrite nu16_eq by lia.
  destruct (N.ltb_spec (len c - e) 2); [exact I|]. cbn [bind fst snd]. rewrite nu16_eq by lia.
  destruct (N.ltb_spec (len c - (e + 2)) 2); [exact I|]. cbn [bind fst snd]. rewrite nu32_eq by lia.
  destruct (N.ltb_spec (len c - (e + 2 + 2)) 4); [exact I|]. cbn [bind fst snd]. rewrite nu16_eq by lia.
  destruct (len c - (e + 2 + 2 + 4) <? 2); [exact I|]. cbn [bind fst snd].
  destruct (len c <? _); [exact I|]. destruct (65535 <? _); exact I.
Qed.
End ITEMS.

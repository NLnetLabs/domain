(* MessageParser enforces the header counts, and every item
   it yields is an item the old codec (C01's question_parse / record_parse)
   reads at the same position with the same fields. *)
From Coq Require Import NArith List Bool Lia.
From DV Require Import Base.Outcome Base.Bytes Base.Names Base.PName C19.Gen C19.Model C19.ModelEdns
  C19.ModelMsg C19.ProofsItems C01.Model.
Import ListNotations.
Local Open Scope N_scope.

Lemma mp_section_count n : forall c sec off acc acc' off' ok,
  mp_section n c sec off acc = Ok (acc', off', ok) ->
  (ok = true -> length acc' = (length acc + n)%nat) /\ (length acc' <= length acc + n)%nat /\
  (ok = false -> (length acc' < length acc + n)%nat).
Proof.
  induction n as [|n IH]; intros c sec off acc acc' off' ok H; cbn [mp_section] in H.
  - inversion H; subst. repeat split; intros; try lia; discriminate.
  - destruct (mp_item c sec off) as [[it o1]| | |]; try discriminate H.
    + apply IH in H. cbn [length] in H. destruct H as (A & B & C).
      split; [intros Q; rewrite (A Q); lia|]. split; [lia|]. intros Q. specialize (C Q). lia.
    + inversion H; subst. repeat split; intros; try lia; discriminate.
Qed.

Lemma mp_sections_count secs : forall c off acc items off' ok,
  mp_sections secs c off acc = Ok (items, off', ok) ->
  let total := fold_right (fun s a => (N.to_nat (snd s) + a)%nat) 0%nat secs in
  (ok = true -> length items = (length acc + total)%nat) /\
  (ok = false -> (length items < length acc + total)%nat).
Proof.
  induction secs as [|[sec cnt] t IH]; intros c off acc items off' ok H; cbn [mp_sections] in H.
  - inversion H; subst. cbn. rewrite rev_length. split; intros; [lia|discriminate].
  - destruct (mp_section (N.to_nat cnt) c sec off acc) as [[[acc1 off1] ok1]| | |] eqn:S; cbn [bind] in H; try discriminate H.
    apply mp_section_count in S. destruct S as (A & B & C). cbn [fold_right snd].
    destruct ok1.
    + apply IH in H. cbv zeta in H. destruct H as [H1 H2]. rewrite (A eq_refl) in H1, H2.
      split; intros Q; [rewrite (H1 Q)|specialize (H2 Q)]; lia.
    + inversion H; subst. rewrite rev_length. specialize (C eq_refl).
      split; intros Q; [discriminate Q|]. lia.
Qed.

Lemma some_inj {A} (x y : A) : Some x = Some y -> x = y.
Proof. congruence. Qed.

(* MessageParser runs to completion without an error item exactly when it has
   yielded as many items as the four header counts announce: a message that
   announces more than it holds is never read to completion, also when its
   octets end on an item boundary (seeded change C19-r3-1) *)
Theorem mp_counts_enforced m items off ok : mp_run m = Some (Ok (items, off, ok)) ->
  let announced := (N.to_nat (u16_of m 4) + N.to_nat (u16_of m 6) + N.to_nat (u16_of m 8) + N.to_nat (u16_of m 10))%nat in
  (ok = true <-> length items = announced) /\ (length items <= announced)%nat.
Proof.
  unfold mp_run. destruct (Nat.ltb (length m) 12); [discriminate|]. intros H. apply some_inj in H.
  apply mp_sections_count in H. cbn [fold_right snd length] in H. destruct H as [H1 H2]. cbv zeta.
  destruct ok.
  - specialize (H1 eq_refl). split; [split; intros; [lia|reflexivity]|lia].
  - specialize (H2 eq_refl). split; [split; intros Q; [discriminate Q|lia]|lia].
Qed.

Example counts_example :
  (* header QD=1 AN=2, one question and ONE record of type 65280, cut on the item boundary *)
  let m := [0;42;129;128; 0;1; 0;2; 0;0; 0;0] ++ [3;119;119;119;0; 0;1;0;1] ++ [192;12; 255;0; 0;1; 0;0;14;16; 0;4; 127;0;0;1] in
  exists items, mp_run m = Some (Ok (items, 25, false)) /\ length items = 2%nat.
Proof. eexists. split; vm_compute; reflexivity. Qed.

(* every question / record item MessageParser yields is what the old codec
   reads at the same position (C01's question_parse / record_parse) *)
Definition old_reads (m : bytes) (pos : N) (it : mitem) (e : N) : Prop :=
  match it with
  | MQ w ty cl => exists q n, question_parse m pos (mlen m) = Ok q /\ pname_labels m (q_name q) = Ok (n, true) /\
                    w = wire_abs n /\ q_type q = ty /\ q_class q = cl /\ q_end q = e
  | MR _ w ty cl ttl rdlen => exists r n, record_parse m pos (mlen m) = Ok r /\ pname_labels m (rr_owner r) = Ok (n, true) /\
                    w = wire_abs n /\ rr_type r = ty /\ rr_class r = cl /\ rr_ttl r = ttl /\ rr_rdlen r = rdlen /\ rr_end r = e
  | ME _ => True
  end.

Theorem mp_item_new_to_old (h c : bytes) : length h = 12%nat -> wf_bytes c ->
  forall sec off it off', mp_item c sec off = Ok (it, off') -> old_reads (h ++ c) (12 + off) it (12 + off').
Proof.
  intros Hh Hwf sec off it off' H. unfold mp_item in H.
  destruct (sec =? 0).
  - destruct (new_question c off) as [[[[w ty] cl] e]| | |] eqn:Q; cbn [bind] in H; try discriminate H.
    inversion H; subst. cbn [old_reads].
    destruct (question_new_to_old h c Hh Hwf _ _ _ _ _ Q) as (q & n & A). exists q, n. tauto.
  - destruct ((sec =? mp_edns_section) && starts_with (skipn (N.to_nat off) c) edns_prefix).
    + destruct (nedns_split (skipn (N.to_nat off) c)) as [[e rest]| | |]; cbn [bind] in H; try discriminate H.
      inversion H; subst. exact I.
    + destruct (new_record c off) as [[[[[[w ty] cl] ttl] d] e]| | |] eqn:R; cbn [bind] in H; try discriminate H.
      destruct ((ty =? 41) && negb (nopt_ok (firstn (N.to_nat (e - d)) (skipn (N.to_nat d) c)))); [discriminate H|].
      inversion H; subst. cbn [old_reads].
      destruct (record_new_to_old h c Hh Hwf _ _ _ _ _ _ _ R) as (r & n & A1 & A2 & A3 & A4 & A5 & A6 & A7 & A8 & A9).
      exists r, n. repeat split; auto.
Qed.

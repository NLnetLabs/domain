(* RevNameBuf::{split,parse}_message_bytes run in lockstep
   with the NameBuf versions: same accept/reject, same end, and the reversed
   buffer holds the same labels in reverse order behind the root label.  Hence
   the reversed-name reader refines the same path semantics (dpath R_new). *)
From Coq Require Import NArith List Lia.
From DV Require Import Base.Outcome Base.Bytes Base.Names Base.PName C19.Gen C19.Model
  C19.ProofsOld C19.ProofsNew C19.ProofsAgree.
Import ListNotations.
Local Open Scope N_scope.

(* the labels last-to-first, each in wire form *)
Definition rwire (ls : name) : bytes := concat (map wire_label (rev ls)).
Definition rev_wire (ls : name) : bytes := 0 :: rwire ls.

Lemma rwire_cons l ls : rwire (l :: ls) = rwire ls ++ wire_label l.
Proof. unfold rwire. cbn [rev]. rewrite map_app, concat_app. cbn [map concat]. rewrite app_nil_r. reflexivity. Qed.

Lemma rwire_app a b : rwire (a ++ b) = rwire b ++ rwire a.
Proof. unfold rwire. rewrite rev_app_distr, map_app, concat_app. reflexivity. Qed.

Lemma rwire_length ls : length (rwire ls) = length (wire_rel ls).
Proof.
  induction ls as [|l ls IH]; [reflexivity|].
  rewrite rwire_cons. change (wire_rel (l :: ls)) with (wire_label l ++ wire_rel ls). rewrite !app_length, IH. lia.
Qed.

Lemma rb_segment_cons f b rest buf :
  rb_segment (S f) (b :: rest) buf =
    if b =? 0 then do buf' <- rb_prepend buf [0]; Ok (None, rest, buf')
    else if b <? 64 then
      if len (b :: rest) <? 1 + b then Err E_PARSE
      else if 255 - len buf <? 2 + b then Err E_PARSE
      else do buf' <- rb_prepend buf (firstn (N.to_nat (1 + b)) (b :: rest));
           rb_segment f (skipn (N.to_nat (1 + b)) (b :: rest)) buf'
    else match rest with
         | lo :: rest' => if 192 <=? b then Ok (Some (N.land (b * 256 + lo) 16383), rest', buf) else Err E_PARSE
         | [] => Err E_PARSE
         end.
Proof. reflexivity. Qed.

Lemma rb_follow_some f hdr ge c p old_start buf :
  rb_follow (S f) hdr ge c (Some p) old_start buf =
    if p <? hdr then Err E_PARSE else
    if cmp_ge ge (p - hdr) old_start then Err E_PARSE else
    match get_from c (p - hdr) with
    | None => Err E_PARSE
    | Some bs => do r <- rb_segment (S (length bs)) bs buf;
                 let '(ptr', _, buf') := r in rb_follow f hdr ge c ptr' (p - hdr) buf'
    end.
Proof. reflexivity. Qed.

(* both computations end the same way; where they succeed, P relates the results *)
Definition lockstep {A B} (P : A -> B -> Prop) (x : outcome A) (y : outcome B) : Prop :=
  match x, y with
  | Ok a, Ok b => P a b
  | Err _, Err _ | OutOfFuel, OutOfFuel => True
  | _, _ => False
  end.

(* one segment: same pointer, same rest, the labels ls appended to nb and
   prepended, one by one, to rb (behind the root label if the segment ends the name) *)
Lemma seg_lockstep fuel : forall bs nb rb, len nb = len rb -> len nb < 255 ->
  lockstep (fun '(p1, r1, b1) '(p2, r2, b2) => p1 = p2 /\ r1 = r2 /\
              exists ls, b1 = nb ++ wire_rel ls ++ term_bytes p1 /\ b2 = term_bytes p1 ++ rwire ls ++ rb /\
                         (p1 <> None -> len b1 < 255))
           (nb_segment fuel bs nb) (rb_segment fuel bs rb).
Proof.
  induction fuel as [|fuel IH]; intros bs nb rb Hl Hb; [exact I|].
  destruct bs as [|b rest]; [exact I|].
  rewrite nb_segment_cons, rb_segment_cons.
  destruct (N.eqb_spec b 0).
  - unfold nb_append, rb_prepend. change rb_empty_offset with 255. change (len [0]) with 1.
    destruct (N.ltb_spec 255 (len nb + 1)); [lia|]. destruct (N.ltb_spec (255 - len rb) 1); [lia|].
    cbn [bind lockstep]. split; [reflexivity|]. split; [reflexivity|]. exists [].
    split; [reflexivity|]. split; [reflexivity|]. intros Q; contradiction.
  - destruct (N.ltb_spec b 64).
    + destruct (N.ltb_spec (len (b :: rest)) (1 + b)) as [|Hs]; [exact I|].
      destruct (N.ltb_spec 255 (len nb)); [lia|]. rewrite <- Hl.
      destruct (N.ltb_spec (255 - len nb) (2 + b)) as [|Hc]; [exact I|].
      unfold nb_append, rb_prepend. change rb_empty_offset with 255.
      set (k := N.to_nat (1 + b)).
      (* the octets taken are the wire form of a label *)
      assert (Hwl : firstn k (b :: rest) = wire_label (firstn (N.to_nat b) rest)).
      { unfold k, wire_label. replace (N.to_nat (1 + b)) with (S (N.to_nat b)) by lia. cbn [firstn].
        rewrite firstn_length. unfold len in Hs. cbn [length] in Hs.
        replace (Init.Nat.min (N.to_nat b) (length rest)) with (N.to_nat b) by lia. rewrite N2Nat.id. reflexivity. }
      rewrite Hwl. set (l := firstn (N.to_nat b) rest) in *.
      assert (Hlab : len (wire_label l) = 1 + b) by (rewrite <- Hwl; unfold k, len in *; rewrite firstn_length; lia).
      rewrite Hlab, <- Hl.
      destruct (N.ltb_spec 255 (len nb + (1 + b))); [lia|]. destruct (N.ltb_spec (255 - len nb) (1 + b)); [lia|].
      cbn [bind].
      specialize (IH (skipn k (b :: rest)) (nb ++ wire_label l) (wire_label l ++ rb)
                    ltac:(unfold len in *; rewrite !app_length; lia) ltac:(unfold len in *; rewrite app_length; lia)).
      unfold lockstep in *.
      destruct (nb_segment fuel (skipn k (b :: rest)) (nb ++ wire_label l)) as [[[p1 r1] b1]| | |];
        destruct (rb_segment fuel (skipn k (b :: rest)) (wire_label l ++ rb)) as [[[p2 r2] b2]| | |]; try exact IH.
      destruct IH as (E1 & E2 & ls & Eb1 & Eb2 & Hlt).
      split; [exact E1|]. split; [exact E2|]. exists (l :: ls).
      change (wire_rel (l :: ls)) with (wire_label l ++ wire_rel ls).
      rewrite rwire_cons, Eb2, <- !app_assoc, app_assoc, <- Eb1. auto.
    + destruct rest as [|lo rest']; [exact I|]. destruct (N.leb_spec 192 b); [|exact I].
      cbn [lockstep]. split; [reflexivity|]. split; [reflexivity|]. exists []. cbn [wire_rel map concat term_bytes rwire rev app].
      rewrite app_nil_r. auto.
Qed.

(* a whole name: the segment at bs and the pointers that follow it *)
Lemma read_lockstep c ffuel : forall fuel bs start nb rb, len nb = len rb -> len nb < 255 ->
  lockstep (fun '(p1, r1, b1) '(p2, r2, b2) => p1 = p2 /\ r1 = r2 /\
              lockstep (fun w rw => exists ls, w = nb ++ wire_abs ls /\ rw = rev_wire ls ++ rb)
                       (nb_follow ffuel 12 true c p1 start b1) (rb_follow ffuel 12 true c p1 start b2))
           (nb_segment fuel bs nb) (rb_segment fuel bs rb).
Proof.
  induction ffuel as [|ffuel IH]; intros fuel bs start nb rb Hl Hb;
    pose proof (seg_lockstep fuel bs nb rb Hl Hb) as SL; unfold lockstep at 1 in SL; unfold lockstep at 1;
    (destruct (nb_segment fuel bs nb) as [[[p1 r1] b1]| | |]; destruct (rb_segment fuel bs rb) as [[[p2 r2] b2]| | |]; try exact SL);
    destruct SL as (<- & <- & ls & -> & -> & Hlt); (split; [reflexivity|]); (split; [reflexivity|]);
    (destruct p1 as [p|]; [|exists ls; split; reflexivity]).
  - exact I.
  - rewrite nb_follow_some, rb_follow_some.
    destruct (N.ltb_spec p 12); [exact I|]. destruct (cmp_ge true (p - 12) start); [exact I|].
    destruct (get_from c (p - 12)) as [bs'|]; [|exact I].
    cbn [term_bytes app] in *. rewrite app_nil_r in *.
    assert (Hl' : len (nb ++ wire_rel ls) = len (rwire ls ++ rb)).
    { unfold len in *. rewrite !app_length, rwire_length. lia. }
    specialize (IH (S (length bs')) bs' (p - 12) _ _ Hl' (Hlt ltac:(discriminate))). unfold lockstep at 1 in IH.
    destruct (nb_segment _ bs' _) as [[[q1 s1] c1]| | |]; destruct (rb_segment _ bs' _) as [[[q2 s2] c2]| | |];
      try contradiction; try exact I.
    destruct IH as (<- & _ & IH). cbn [bind]. unfold lockstep in *.
    destruct (nb_follow ffuel 12 true c q1 (p - 12) c1) as [w| | |]; destruct (rb_follow ffuel 12 true c q1 (p - 12) c2) as [rw| | |];
      try exact IH.
    destruct IH as (ls2 & -> & ->). exists (ls ++ ls2).
    unfold wire_abs, rev_wire. rewrite wire_rel_app, rwire_app. cbn [app]. rewrite <- !app_assoc. split; reflexivity.
Qed.

Definition top_rel (x y : outcome (bytes * N)) : Prop :=
  match x, y with
  | Ok (w, e), Ok (rw, e') => e = e' /\ exists ls, w = wire_abs ls /\ rw = rev_wire ls
  | Err _, Err _ => True
  | _, _ => False
  end.

Theorem rev_split_lockstep c start : top_rel (new_split c start) (rev_split c start).
Proof.
  pose proof (new_split_total c start) as T.
  unfold new_split, rev_split in *. destruct (get_from c start) as [bs|]; [|exact I].
  pose proof (read_lockstep c (follow_fuel start) (S (length bs)) bs start [] [] eq_refl ltac:(cbn; lia)) as RL.
  change nb_split_hdr with 12 in *. change nb_split_rule_ge with true in *.
  change rb_split_hdr with 12. change rb_split_rule_ge with true. unfold lockstep in RL.
  destruct (nb_segment (S (length bs)) bs []) as [[[p1 r1] b1]| | |];
    destruct (rb_segment (S (length bs)) bs []) as [[[p2 r2] b2]| | |]; try contradiction; try exact I.
  destruct RL as (<- & <- & RL). cbn [bind] in *.
  destruct (N.ltb_spec (len c) (len r1)); [exact T|].
  destruct (nb_follow (follow_fuel start) 12 true c p1 start b1) as [w| | |];
    destruct (rb_follow (follow_fuel start) 12 true c p1 start b2) as [rw| | |]; try contradiction; try exact I.
  destruct RL as (ls & -> & ->). rewrite app_nil_r. cbn [bind top_rel]. split; [reflexivity|]. exists ls. split; reflexivity.
Qed.

Lemma rev_wire_inj a b : rev_wire a = rev_wire b -> a = b.
Proof.
  intros H. injection H as H. apply (wire_rel_inj (rev a)) in H.
  rewrite <- (rev_involutive a), H. apply rev_involutive.
Qed.

Theorem rev_split_total c start : no_panic (rev_split c start).
Proof.
  pose proof (rev_split_lockstep c start) as L. unfold top_rel in L.
  destruct (new_split c start) as [[w e]| | |]; destruct (rev_split c start) as [[rw e']| | |]; try contradiction; exact I.
Qed.

Theorem rev_split_is_path h c : length h = 12%nat -> wf_bytes c -> forall start,
  (forall rw e, rev_split c start = Ok (rw, e) ->
     exists n, rw = rev_wire n /\ dpath R_new (h ++ c) (12 + start) (12 + start) 0 n (12 + e)) /\
  (forall n e, dpath R_new (h ++ c) (12 + start) (12 + start) 0 n e ->
     rev_split c start = Ok (rev_wire n, e - 12)).
Proof.
  intros Hh Hwf start. pose proof (rev_split_lockstep c start) as L. unfold top_rel in L. split.
  - intros rw e H. rewrite H in L.
    destruct (new_split c start) as [[w e0]| | |] eqn:S; try contradiction.
    destruct L as (-> & ls & -> & ->).
    destruct (new_split_sound h c Hh Hwf _ _ _ S) as (n & E & D). apply wire_abs_inj in E. subst ls. eauto.
  - intros n e D. destruct (new_split_complete h c Hh Hwf _ _ _ D) as [S _]. rewrite S in L.
    destruct (rev_split c start) as [[rw e']| | |]; try contradiction.
    destruct L as (<- & ls & E & ->). apply wire_abs_inj in E. subst ls. reflexivity.
Qed.

(* hence all three readers return what a path of the message spells *)
Lemma path_readers h c : length h = 12%nat -> wf_bytes c -> forall start n e,
  dpath R_new (h ++ c) (12 + start) (12 + start) 0 n (12 + e) ->
  new_split c start = Ok (wire_abs n, e) /\ rev_split c start = Ok (rev_wire n, e) /\
  decode_name (h ++ c) (12 + start) (mlen (h ++ c)) = Ok (n, 12 + e).
Proof.
  intros Hh Hwf start n e D. replace e with (12 + e - 12) at 1 2 by lia.
  split; [apply (new_split_complete h c Hh Hwf), D|].
  split; [apply (rev_split_is_path h c Hh Hwf), D|].
  apply old_complete, dpath_new_old; [lia|exact D].
Qed.

Example rev_example :
  rev_split [1;97;0;1;98;192;12] 3 = Ok (rev_wire [[98];[97]], 7) /\ rev_wire [[98];[97]] = [0;1;97;1;98].
Proof. vm_compute. auto. Qed.

Definition top_rel_p (x y : outcome bytes) : Prop :=
  match x, y with
  | Ok w, Ok rw => exists ls, w = wire_abs ls /\ rw = rev_wire ls
  | Err _, Err _ => True
  | _, _ => False
  end.

Theorem rev_parse_lockstep c start : top_rel_p (new_parse c start) (rev_parse c start).
Proof.
  pose proof (new_parse_total c start) as T.
  unfold new_parse, rev_parse in *. destruct (get_from c start) as [bs|]; [|exact I].
  pose proof (read_lockstep c (follow_fuel start) (S (length bs)) bs start [] [] eq_refl ltac:(cbn; lia)) as RL.
  change nb_parse_hdr with 12 in *. change nb_parse_rule_ge with true in *.
  change rb_parse_hdr with 12. change rb_parse_rule_ge with true. unfold lockstep in RL.
  destruct (nb_segment (S (length bs)) bs []) as [[[p1 r1] b1]| | |];
    destruct (rb_segment (S (length bs)) bs []) as [[[p2 r2] b2]| | |]; try contradiction; try exact I.
  destruct RL as (<- & <- & RL). cbn [bind] in *.
  destruct r1; [|exact I].
  destruct (nb_follow (follow_fuel start) 12 true c p1 start b1) as [w| | |];
    destruct (rb_follow (follow_fuel start) 12 true c p1 start b2) as [rw| | |]; try contradiction; try exact I.
  destruct RL as (ls & -> & ->). rewrite app_nil_r. exists ls. split; reflexivity.
Qed.

Theorem rev_parse_total c start : no_panic (rev_parse c start).
Proof.
  pose proof (rev_parse_lockstep c start) as L. unfold top_rel_p in L.
  destruct (new_parse c start); destruct (rev_parse c start); try contradiction; exact I.
Qed.

(* all four readers decode the same paths: the exact parse of either name type
   succeeds iff the split reader of that type succeeds and ends at the end of
   the range, with the same labels *)
Theorem four_readers c start ls :
  (new_parse c start = Ok (wire_abs ls) <-> new_split c start = Ok (wire_abs ls, len c)) /\
  (rev_parse c start = Ok (rev_wire ls) <-> new_split c start = Ok (wire_abs ls, len c)) /\
  (rev_split c start = Ok (rev_wire ls, len c) <-> new_split c start = Ok (wire_abs ls, len c)).
Proof.
  split; [apply new_parse_is_split|]. split.
  - rewrite <- new_parse_is_split. pose proof (rev_parse_lockstep c start) as L. unfold top_rel_p in L.
    split; intros H; rewrite H in L.
    + destruct (new_parse c start) as [w| | |]; try contradiction.
      destruct L as (ls' & -> & E). apply rev_wire_inj in E. subst. reflexivity.
    + destruct (rev_parse c start) as [rw| | |]; try contradiction.
      destruct L as (ls' & E & ->). apply wire_abs_inj in E. subst. reflexivity.
  - pose proof (rev_split_lockstep c start) as L. unfold top_rel in L. split; intros H; rewrite H in L.
    + destruct (new_split c start) as [[w e]| | |]; try contradiction.
      destruct L as (-> & ls' & -> & E). apply rev_wire_inj in E. subst. reflexivity.
    + destruct (rev_split c start) as [[rw e']| | |]; try contradiction.
      destruct L as (<- & ls' & E & ->). apply wire_abs_inj in E. subst. reflexivity.
Qed.

(* termination and rejection on the shapes of seeded change C19-r3-2 *)
Example chain_examples :
  rev_parse [192;12;1;120;192;12] 2 = Err E_PARSE /\ new_parse [192;12;1;120;192;12] 2 = Err E_PARSE /\
  rev_parse [1;97;192;18;0;0;3;111;114;103;0;3;119;119;119;192;12] 11 = Err E_PARSE /\
  rev_parse [3;111;114;103;0;1;97;192;12;3;119;119;119;192;17] 9 = Ok (rev_wire [[119;119;119];[97];[111;114;103]]).
Proof. vm_compute. repeat split; reflexivity. Qed.

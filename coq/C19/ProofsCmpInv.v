(* Soundness of the new name compressor (Name path) for ANY
   number of pushed names, including reuse (eviction) of slots.
   Invariant between two pushes: every used slot's octets are in the contents
   and are followed there by the root label (no parent) or by a compression
   pointer to an earlier offset.  Which slot is evicted, and whether a parent
   index still names the entry it named when it was stored, is irrelevant: the
   attach test of the lookup compares the pointer octets in the contents. *)
From Coq Require Import NArith PeanoNat List Bool Lia.
From DV Require Import Base.Outcome Base.Bytes Base.Names Base.PName C19.Gen C19.Model C19.ModelCmp
  C19.ProofsOld C19.ProofsNew C19.ProofsRev C19.ProofsCmpSound.
Import ListNotations.
Local Open Scope N_scope.

Lemma nth_set_nth l : forall i j v, nth j (set_nth l i v) 0 = if (Nat.eqb j i) && (Nat.ltb i (length l)) then v else nth j l 0.
Proof.
  induction l as [|x l IH]; intros i j v.
  - cbn. rewrite andb_false_r. reflexivity.
  - destruct i as [|i], j as [|j]; cbn [set_nth nth length Nat.eqb]; try reflexivity.
    rewrite IH. destruct (Nat.eqb j i); cbn [andb]; [|reflexivity].
    change (S i <? S (length l))%nat with (i <? length l)%nat. reflexivity.
Qed.

Lemma set_nth_length l : forall i v, length (set_nth l i v) = length l.
Proof. induction l as [|x l IH]; intros [|i] v; cbn; auto. Qed.

Definition byte_at (c : bytes) (i : N) : option N := nth_error c (N.to_nat i).

Lemma byte_at_app c x i b : byte_at c i = Some b -> byte_at (c ++ x) i = Some b.
Proof.
  unfold byte_at. intros H. rewrite nth_error_app1; [exact H|]. apply nth_error_Some. congruence.
Qed.

Lemma byte_at_mid a x r : byte_at (a ++ x :: r) (len a) = Some x.
Proof. unfold byte_at, len. rewrite Nat2N.id. apply nth_error_mid. Qed.

Lemma byte_at_pair a x y r :
  byte_at (a ++ x :: y :: r) (len a) = Some x /\ byte_at (a ++ x :: y :: r) (len a + 1) = Some y.
Proof.
  split; [apply byte_at_mid|].
  replace (len a + 1) with (len (a ++ [x])) by (rewrite len_app; reflexivity).
  replace (a ++ x :: y :: r) with ((a ++ [x]) ++ y :: r) by (rewrite <- app_assoc; reflexivity).
  apply byte_at_mid.
Qed.

Lemma get_app_l m x i b : get m i = Some b -> get (m ++ x) i = Some b.
Proof. apply byte_at_app. Qed.

Lemma slice_app_l m x a b : b <= mlen m -> slice (m ++ x) a b = slice m a b.
Proof.
  intros H. unfold slice, mlen in *. destruct (N.leb_spec a b) as [Hab|Hab].
  - rewrite skipn_app, firstn_app. rewrite skipn_length.
    replace (N.to_nat (b - a) - (length m - N.to_nat a))%nat with 0%nat by lia.
    cbn [firstn]. rewrite app_nil_r. reflexivity.
  - replace (b - a) with 0 by lia. reflexivity.
Qed.

Lemma pchain_extend R m x seg cur t : pchain R m seg cur t -> pchain R (m ++ x) seg cur t.
Proof. induction 1; [eapply pc_last|eapply pc_more]; eauto using get_app_l. Qed.

Lemma dpath_extend R m x cur seg nl n e : dpath R m cur seg nl n e -> dpath R (m ++ x) cur seg nl n e.
Proof.
  induction 1.
  - constructor. apply get_app_l. assumption.
  - rewrite <- (slice_app_l m x (cur + 1) (cur + 1 + b)) by lia. econstructor; eauto using get_app_l.
    unfold mlen in *. rewrite app_length. lia.
  - econstructor; eauto using pchain_extend.
Qed.

Definition slot_ok (st : cstate) (c : bytes) (i : nat) : Prop :=
  let pos := nth i (cs_pos st) 0 in
  let ln := nth i (cs_len st) 0 in
  ln <> 0 ->
  (nth i (cs_par st) 0 = 64 -> byte_at c (pos + ln) = Some 0) /\
  (nth i (cs_par st) 0 <> 64 ->
     exists hi lo, byte_at c (pos + ln) = Some hi /\ byte_at c (pos + ln + 1) = Some lo /\
                   192 <= hi /\ 12 <= ptr_val hi lo /\ ptr_val hi lo - 12 < pos).
Definition Inv (st : cstate) (c : bytes) : Prop :=
  (length (cs_pos st) = length (cs_len st) /\ length (cs_len st) = length (cs_par st)) /\
  forall i, slot_ok st c i.

Lemma Inv_new c : Inv cs_new c.
Proof.
  split; [split; reflexivity|]. intros i. unfold slot_ok. cbn [cs_len cs_new]. rewrite nth_zeros. intros H; contradiction.
Qed.

Lemma Inv_app st c x : Inv st c -> Inv st (c ++ x).
Proof.
  intros [W H]. split; [exact W|]. intros i Hln. destruct (H i Hln) as [H1 H2]. split.
  - intros Q. apply byte_at_app. auto.
  - intros Q. destruct (H2 Q) as (hi & lo & A & B & C). exists hi, lo. split; [apply byte_at_app; exact A|].
    split; [apply byte_at_app; exact B|exact C].
Qed.

Lemma Inv_same st st1 c : cs_pos st1 = cs_pos st -> cs_len st1 = cs_len st -> cs_par st1 = cs_par st ->
  Inv st c -> Inv st1 c.
Proof. intros E1 E2 E3 [W H]. split; [rewrite E1, E2, E3; exact W|]. intros i. unfold slot_ok. rewrite E1, E2, E3. apply H. Qed.

Lemma Inv_register st c use' hash' idx P L Q :
  Inv st c ->
  (L <> 0 -> (Q = 64 -> byte_at c (P + L) = Some 0) /\
             (Q <> 64 -> exists hi lo, byte_at c (P + L) = Some hi /\ byte_at c (P + L + 1) = Some lo /\
                                        192 <= hi /\ 12 <= ptr_val hi lo /\ ptr_val hi lo - 12 < P)) ->
  Inv (mkC use' (set_nth (cs_pos st) idx P) (set_nth (cs_len st) idx L) (set_nth (cs_par st) idx Q) hash') c.
Proof.
  intros [[W1 W2] H] Hnew. split; [cbn [cs_pos cs_len cs_par]; rewrite !set_nth_length; auto|].
  intros i. unfold slot_ok. cbn [cs_pos cs_len cs_par]. rewrite !nth_set_nth. rewrite <- W2, <- W1.
  destruct ((i =? idx)%nat && (idx <? length (cs_pos st))%nat); [exact Hnew|apply H].
Qed.

Section SEQ.
Variable h : bytes.
Hypothesis Hh : length h = 12%nat.

(* reading at contents offset p yields M (up to case), whatever was collected before *)
Definition reads (c : bytes) (p : N) (M : name) : Prop :=
  exists M', canon M' = canon M /\
    forall nl, nl + N.of_nat (wire_len M) < 255 -> exists e, dpath R_new (h ++ c) (12 + p) (12 + p) nl M' e.

(* the state of the loop of compress_name: nothing has matched yet, or the labels
   M have, and read back at offset p1 *)
Definition LI (c : bytes) (parent : N) (poff : option N) (M : name) : Prop :=
  (parent = 64 /\ poff = None /\ M = []) \/
  (parent <> 64 /\ exists p1, poff = Some p1 /\ p1 + 12 < 16384 /\ p1 < len c /\ reads c p1 M).

Lemma get_byte_at c i : get (h ++ c) (12 + i) = byte_at c i.
Proof. apply get_m. exact Hh. Qed.

Lemma attach_some c pos ln o : attach_ok c pos ln (Some o) = true -> o + 12 < 16384 ->
  exists hi lo, byte_at c (pos + ln) = Some hi /\ byte_at c (pos + ln + 1) = Some lo /\
                192 <= hi /\ ptr_val hi lo = o + 12.
Proof.
  unfold attach_ok. change cmp_attach_add with 49164. intros H Ho.
  destruct (slice_opt c (pos + ln) 2) as [[|hi [|lo [|? ?]]]|] eqn:S; try discriminate H.
  apply andb_true_iff in H as [H1 H2]. apply N.eqb_eq in H1, H2.
  apply slice_opt_split in S as (pre & post & -> & <- & _).
  exists hi, lo. split; [apply byte_at_pair|]. split; [apply byte_at_pair|].
  rewrite (N.mod_small (o + 49164) 65536) in H1, H2 by lia. subst hi lo.
  apply (ptr_val_of (o + 49164) o eq_refl Ho).
Qed.

Lemma hit_extends st c n_r parent poff i rest p2 M :
  Inv st c -> Forall valid_label n_r ->
  hit_ok st c n_r parent i rest p2 ->
  attach_ok c (nth (N.to_nat i) (cs_pos st) 0) (nth (N.to_nat i) (cs_len st) 0) poff = true ->
  LI c parent poff M ->
  exists n_pre n_suf, n_r = n_pre ++ n_suf /\ n_suf <> [] /\ rest = wire_rel n_pre /\
    reads c p2 (n_suf ++ M) /\ p2 < len c.
Proof.
  intros HI Hv HK HA HL.
  destruct HK as (n_pre & n_suf & entry & Hsplit & Hsuf & Hrest & Hpar & Hslice & Hel & Hle & Hp & Hci).
  exists n_pre, n_suf. split; [exact Hsplit|]. split; [exact Hsuf|]. split; [exact Hrest|].
  set (pos := nth (N.to_nat i) (cs_pos st) 0) in *. set (ln := nth (N.to_nat i) (cs_len st) 0) in *.
  assert (Hvs : Forall valid_label n_suf) by (rewrite Hsplit in Hv; apply Forall_app in Hv; tauto).
  destruct (slice_opt_split _ _ _ _ Hslice) as (pre & post & Hc & Hpre & _).
  set (k := length (wire_rel n_suf)) in *.
  set (A := firstn (length entry - k) entry). set (B := lastn k entry) in *.
  assert (HAB : entry = A ++ B) by (unfold A, B, lastn; symmetry; apply firstn_skipn).
  assert (HBlen : length B = k) by (unfold B; apply lastn_length; exact Hle).
  assert (HAlen : (length A + k = length entry)%nat).
  { pose proof (f_equal (@length N) HAB) as Q. rewrite app_length in Q. lia. }
  assert (Hkpos : (0 < k)%nat).
  { unfold k. destruct n_suf as [|l0 ?]; [contradiction|]. rewrite wire_rel_cons. unfold wire_label. cbn [app length]. lia. }
  assert (Hc2 : c = (pre ++ A) ++ B ++ post) by (rewrite Hc, HAB; rewrite <- !app_assoc; reflexivity).
  assert (Hp2 : len (pre ++ A) = p2) by (unfold len in *; rewrite app_length; lia).
  destruct (path_ci h c Hh n_suf Hvs (pre ++ A) B post Hc2 Hci) as (ns' & Hcan_s & Ps).
  rewrite Hp2 in Ps.
  assert (Hend : p2 + len B = pos + ln) by (unfold len in *; lia).
  assert (Hlnz : ln <> 0) by (unfold len in *; lia).
  assert (Hplt : p2 < len c).
  { rewrite Hc2. unfold len in *. rewrite !app_length. lia. }
  split; [|exact Hplt].
  pose proof (proj2 HI (N.to_nat i)) as HS. unfold slot_ok in HS. fold pos ln in HS. specialize (HS Hlnz).
  destruct HS as [HS64 HSptr].
  destruct HL as [(-> & -> & ->)|(Hp64 & p1 & -> & Hp1 & _ & (M1 & Hcan1 & D1))].
  - (* the entry is followed by the root label *)
    specialize (HS64 Hpar). exists ns'. rewrite app_nil_r. split; [exact Hcan_s|].
    intros nl Hnl. exists (12 + p2 + len B + 1). rewrite <- (app_nil_r ns').
    apply (Ps nl Hnl). constructor. rewrite <- N.add_assoc, Hend, get_byte_at. exact HS64.
  - (* the entry is followed by the pointer the attach test has compared *)
    destruct (attach_some _ _ _ _ HA Hp1) as (hi & lo & Ghi & Glo & Hhi & Hpv).
    rewrite Hpar in HSptr. destruct (HSptr Hp64) as (hi' & lo' & Ghi' & Glo' & _ & _ & Hlt).
    assert (hi' = hi) by congruence. assert (lo' = lo) by congruence. subst hi' lo'.
    rewrite Hpv in Hlt.
    exists (ns' ++ M1). split.
    { unfold canon in *. rewrite !map_app. f_equal; assumption. }
    intros nl Hnl. rewrite wire_len_app in Hnl.
    destruct (D1 (nl + N.of_nat (wire_len n_suf)) ltac:(lia)) as (e1 & Dt).
    exists (12 + p2 + len B + 2). apply (Ps nl ltac:(lia)).
    eapply dp_ptr_to with (b := hi) (c := lo).
    + rewrite <- N.add_assoc, Hend, get_byte_at. exact Ghi.
    + exact Hhi.
    + replace (12 + p2 + len B + 1) with (12 + (pos + ln + 1)) by lia. rewrite get_byte_at. exact Glo.
    + unfold R_new. unfold len in *. lia.
    + replace (ptr_val hi lo) with (12 + p1) by lia. exact Dt.
Qed.

Lemma compress_loop_sound fuel : forall st c n_r parent poff hash M st' name' parent' poff' hash',
  Inv st c -> Forall valid_label n_r -> LI c parent poff M ->
  compress_loop fuel st c (wire_rel n_r) parent poff hash = Ok (st', name', parent', poff', hash') ->
  exists n_pre n_suf, n_r = n_pre ++ n_suf /\ name' = wire_rel n_pre /\ LI c parent' poff' (n_suf ++ M) /\
    cs_pos st' = cs_pos st /\ cs_len st' = cs_len st /\ cs_par st' = cs_par st.
Proof.
  induction fuel as [|fuel IH]; intros st c n_r parent poff hash M st' name' parent' poff' hash' HI Hv HL H; [discriminate H|].
  cbn [compress_loop] in H.
  destruct n_r as [|l0 n0].
  { cbn in H. inversion H; subst. exists [], []. auto 8. }
  assert (Hn : l0 :: n0 <> []) by discriminate.
  destruct (wire_rel (l0 :: n0)) as [|x nm] eqn:En; [exfalso; eapply wire_rel_nonnil; eauto|]. rewrite <- En in *.
  destruct (lookup_from 32 0 st c (wire_rel (l0 :: n0)) parent poff hash) as [|i rest hh p|s] eqn:L.
  - inversion H; subst. exists (l0 :: n0), []. rewrite app_nil_r. auto 8.
  - destruct (lookup_hit _ _ _ _ _ _ _ _ _ _ _ _ Hn L) as (HK & HA & Hidx).
    destruct (hit_extends st c (l0 :: n0) parent poff i rest p M HI Hv HK HA HL)
      as (n_pre & n_suf & Hsplit & Hsuf & Hrest & Hreads & Hplt).
    change cn_range_check with true in H. change cn_range_ge with true in H.
    change cn_range_add with 12 in H. change cn_range_bound with 16384 in H.
    unfold cmp_ge in H. cbn [andb] in H.
    destruct (N.leb_spec 16384 (p + 12)) as [Hr|Hr].
    + inversion H; subst. exists (l0 :: n0), []. rewrite app_nil_r. auto 8.
    + set (st1 := if cmp_lt cn_use_strict (N.max (len c + len rest) cn_use_floor) cn_use_bound
                  then mkC (set_nth (cs_use st) (N.to_nat i) (N.max (len c + len rest) cn_use_floor)) (cs_pos st) (cs_len st) (cs_par st) (cs_hash st)
                  else st) in H.
      assert (S1 : cs_pos st1 = cs_pos st /\ cs_len st1 = cs_len st /\ cs_par st1 = cs_par st).
      { unfold st1. destruct (cmp_lt _ _ _); auto. }
      destruct S1 as (S1a & S1b & S1c).
      rewrite Hrest in H.
      assert (Hvp : Forall valid_label n_pre) by (rewrite Hsplit in Hv; apply Forall_app in Hv; tauto).
      destruct (IH st1 c n_pre i (Some p) hh (n_suf ++ M) st' name' parent' poff' hash') as (np2 & ns2 & E2 & En2 & L2 & Q1 & Q2 & Q3); auto.
      { apply (Inv_same st); auto. }
      { right. split; [lia|]. exists p. auto. }
      exists np2, (ns2 ++ n_suf). split; [rewrite Hsplit, E2, app_assoc; reflexivity|].
      split; [exact En2|]. split; [rewrite <- app_assoc; exact L2|].
      rewrite Q1, Q2, Q3. auto.
  - discriminate H.
Qed.

(* what a push writes once its loop has stopped (the part n_pre of the name that
   matched nothing, then the root label or a pointer to where n_suf reads back)
   reads back as the whole name; registering n_pre at the end of the contents
   keeps the invariant *)
Lemma finish_sound st1 c n n_pre n_suf parent' poff' st2 bs :
  Inv st1 c -> Forall valid_label n -> (wire_len n <= 254)%nat -> n = n_pre ++ n_suf ->
  LI c parent' poff' n_suf ->
  (st2 = st1 \/ exists use' hash' idx,
      st2 = mkC use' (set_nth (cs_pos st1) idx (len c)) (set_nth (cs_len st1) idx (len (wire_rel n_pre)))
                (set_nth (cs_par st1) idx parent') hash') ->
  bs = match poff' with
       | None => wire_abs n
       | Some p => wire_rel n_pre ++ [(p + 49164) / 256; (p + 49164) mod 256]
       end ->
  Inv st2 (c ++ bs) /\ wf_bytes bs /\
  exists n', canon n' = canon n /\
    dpath R_new (h ++ c ++ bs) (12 + len c) (12 + len c) 0 n' (12 + len c + len bs).
Proof.
  intros HI1 Hv Hl Hsplit HL Hreg Hbs.
  assert (Hvp : Forall valid_label n_pre /\ Forall valid_label n_suf) by (rewrite Hsplit in Hv; apply Forall_app; exact Hv).
  destruct Hvp as [Hvp Hvs].
  assert (Hwl : wire_len n = (wire_len n_pre + wire_len n_suf)%nat) by (rewrite Hsplit; apply wire_len_app).
  destruct HL as [(-> & -> & Hs0)|(Hp64 & p & -> & Hp12 & Hplt & (M' & HcanM & DM))].
  - (* nothing matched: the name is written out, followed by the root label *)
    subst n_suf. rewrite app_nil_r in Hsplit. subst n_pre bs.
    split.
    { destruct Hreg as [->|(use' & hash' & idx & ->)]; [apply Inv_app; exact HI1|].
      apply Inv_register; [apply Inv_app; exact HI1|].
      intros _. split; [|intros Q; contradiction].
      intros _. unfold wire_abs. rewrite app_assoc, <- len_app. apply byte_at_mid. }
    split; [apply wf_wire_abs; exact Hv|].
    destruct (verbatim_reads h Hh c n [] (c ++ wire_abs n)) as (n' & Hcan & D); auto.
    { rewrite app_nil_r. reflexivity. }
    exists n'. split; [exact Hcan|]. apply D.
  - (* n_pre, then a pointer to p *)
    set (v := p + 49164) in *. subst bs.
    destruct (ptr_val_of v p eq_refl Hp12) as [Hhi Hpv].
    set (name' := wire_rel n_pre) in *.
    destruct (byte_at_pair (c ++ name') (v / 256) (v mod 256) []) as [Bhi Blo].
    rewrite <- app_assoc, len_app in Bhi, Blo.
    split.
    { destruct Hreg as [->|(use' & hash' & idx & ->)]; [apply Inv_app; exact HI1|].
      apply Inv_register; [apply Inv_app; exact HI1|].
      intros _. split; [intros Q; contradiction|].
      intros _. exists (v / 256), (v mod 256). repeat split; auto; lia. }
    split.
    { apply wf_bytes_app. split; [apply wf_wire_rel; exact Hvp|]. repeat constructor; lia. }
    set (c' := c ++ name' ++ [v / 256; v mod 256]) in *.
    destruct (DM (N.of_nat (wire_len n_pre)) ltac:(lia)) as (e1 & Dt0).
    assert (Dt : dpath R_new (h ++ c') (12 + p) (12 + p) (N.of_nat (wire_len n_pre)) M' e1).
    { unfold c'. rewrite app_assoc. apply dpath_extend. exact Dt0. }
    destruct (path_ci h c' Hh n_pre Hvp c name' [v / 256; v mod 256] eq_refl eq_refl) as (np' & Hcan_p & Pp).
    exists (np' ++ M'). split.
    { rewrite Hsplit. unfold canon in *. rewrite !map_app. f_equal; assumption. }
    replace (12 + len c + len (name' ++ [v / 256; v mod 256])) with (12 + len c + len name' + 2)
      by (rewrite len_app; change (len [v / 256; v mod 256]) with 2; lia).
    apply (Pp 0 ltac:(lia)). replace (0 + N.of_nat (wire_len n_pre)) with (N.of_nat (wire_len n_pre)) by lia.
    eapply dp_ptr_to with (b := v / 256) (c := v mod 256).
    + rewrite <- N.add_assoc, get_byte_at. exact Bhi.
    + exact Hhi.
    + rewrite <- !N.add_assoc, get_byte_at, N.add_assoc. exact Blo.
    + unfold R_new. lia.
    + replace (ptr_val (v / 256) (v mod 256)) with (12 + p) by lia. exact Dt.
Qed.

Local Opaque compress_loop lookup_from last_label hash_label.

Lemma build_name_sound st c n bs st' :
  Inv st c -> Forall valid_label n -> (wire_len n <= 254)%nat ->
  build_name st c (wire_abs n) = Ok (bs, st') ->
  Inv st' (c ++ bs) /\ wf_bytes bs /\
  exists n', canon n' = canon n /\
    dpath R_new (h ++ c ++ bs) (12 + len c) (12 + len c) 0 n' (12 + len c + len bs).
Proof.
  intros HI Hv Hl H. unfold build_name in H.
  destruct (compress_name st c (wire_abs n)) as [[res st2]| | |] eqn:EC; cbn [bind] in H; try discriminate H.
  unfold compress_name in EC. rewrite firstn_wire_abs in EC.
  destruct (wire_rel n) as [|x nm] eqn:En.
  { destruct n; [|exfalso; eapply wire_rel_nonnil; [|exact En]; discriminate].
    inversion EC; subst res st2. inversion H; subst bs st'.
    apply (finish_sound st c [] [] [] 64 None st); auto. left. auto. }
  cbv beta iota in EC.
  destruct (last_label (x :: nm)) as [lab| | |]; cbn [bind] in EC; try discriminate EC.
  destruct (compress_loop (S (length (x :: nm))) st c (x :: nm) cn_no_parent None (hash_label lab))
    as [[[[[st1 name'] parent'] poff'] hash']| | |] eqn:EL; cbn [bind] in EC; try discriminate EC.
  rewrite <- En in EL.
  destruct (compress_loop_sound (S (length (wire_rel n))) st c n cn_no_parent None (hash_label lab) [] st1 name' parent' poff' hash' HI Hv) as
    (n_pre & n_suf & Hsplit & Hname' & HL & Q1 & Q2 & Q3); [left; auto| exact EL |].
  rewrite app_nil_r in HL. cbv zeta in EC. injection EC as <- Est2.
  assert (Hbs : st' = st2 /\ bs = match poff' with
                                   | None => wire_abs n
                                   | Some p => wire_rel n_pre ++ [(p + 49164) / 256; (p + 49164) mod 256]
                                   end).
  { destruct poff' as [p|]; [|inversion H; auto]. change bim_ptr_add with 49164 in H.
    assert (Hp : p + 12 < 16384).
    { destruct HL as [(_ & Q & _)|(_ & p1 & Q & Hp1 & _)]; [discriminate Q|]. inversion Q; subst. exact Hp1. }
    destruct (N.ltb_spec 65535 (p + 49164)); [lia|]. inversion H; subst. auto. }
  destruct Hbs as [-> Hbs].
  apply (finish_sound st1 c n n_pre n_suf parent' poff'); auto.
  - apply (Inv_same st); auto.
  - (* registration: position and length fit their fields *)
    rewrite <- Est2, Hname'. destruct (wire_rel n_pre) eqn:En'; [left; reflexivity|]. rewrite <- En'.
    change cn_reg_strict with true. change cn_reg_add with 12. change cn_reg_bound with 16384. unfold cmp_lt.
    destruct (N.ltb_spec (len c + 12) 16384) as [Hr|Hr]; [right|left; reflexivity].
    rewrite (N.mod_small (len c) 65536), (N.mod_small (len (wire_rel n_pre)) 256); [eauto|..]; [|lia].
    unfold len. rewrite wire_rel_length. rewrite Hsplit, wire_len_app in Hl. lia.
Qed.

(* a path in the contents written so far is what the three readers return in
   the finished message *)
Lemma pushed_readers c bs tail c' n' : c' = (c ++ bs) ++ tail -> wf_bytes c' ->
  dpath R_new (h ++ c ++ bs) (12 + len c) (12 + len c) 0 n' (12 + len c + len bs) ->
  new_split c' (len c) = Ok (wire_abs n', len (c ++ bs)) /\ rev_split c' (len c) = Ok (rev_wire n', len (c ++ bs)) /\
  decode_name (h ++ c') (12 + len c) (mlen (h ++ c')) = Ok (n', 12 + len (c ++ bs)).
Proof.
  intros -> Hwf D. apply (path_readers h _ Hh Hwf).
  replace (h ++ (c ++ bs) ++ tail) with ((h ++ c ++ bs) ++ tail) by (rewrite <- !app_assoc; reflexivity).
  apply dpath_extend. rewrite len_app, N.add_assoc. exact D.
Qed.
End SEQ.

Inductive item := IName (n : name) | IRaw (b : bytes).

Fixpoint build_items (st : cstate) (c : bytes) (l : list item) : outcome bytes :=
  match l with
  | [] => Ok c
  | IRaw b :: t => build_items st (c ++ b) t
  | IName n :: t => do r <- build_name st c (wire_abs n); let '(bs, st') := r in build_items st' (c ++ bs) t
  end.

Definition item_ok (i : item) : Prop :=
  match i with IName n => valid_abs n | IRaw b => wf_bytes b end.

(* every name item reads back; raw items are skipped over *)
Fixpoint items_read_back (h c' : bytes) (start : N) (l : list item) : Prop :=
  match l with
  | [] => start = len c'
  | IRaw b :: t => items_read_back h c' (start + len b) t
  | IName n :: t => exists n' e, canon n' = canon n /\
                      new_split c' start = Ok (wire_abs n', e) /\
                      decode_name (h ++ c') (12 + start) (mlen (h ++ c')) = Ok (n', 12 + e) /\
                      items_read_back h c' e t
  end.

Theorem new_compressor_sound_items (h : bytes) (Hh : length h = 12%nat) : forall l st c c',
  Inv st c -> wf_bytes c -> Forall item_ok l ->
  build_items st c l = Ok c' ->
  (exists tail, c' = c ++ tail) /\ wf_bytes c' /\ (wf_bytes c' -> items_read_back h c' (len c) l).
Proof.
  induction l as [|[n|b] t IH]; intros st c c' HI Hwf Hv H; cbn [build_items] in H.
  - inversion H; subst. split; [exists []; rewrite app_nil_r; reflexivity|]. split; [exact Hwf|reflexivity].
  - destruct (build_name st c (wire_abs n)) as [[bs st1]| | |] eqn:B; cbn [bind] in H; try discriminate H.
    pose proof (Forall_inv Hv) as [Hvn Hln].
    destruct (build_name_sound h Hh st c n bs st1 HI Hvn Hln B) as (HI1 & Hwfb & n' & Hcan & D).
    destruct (IH st1 (c ++ bs) c' HI1 ltac:(apply wf_bytes_app; auto) (Forall_inv_tail Hv) H) as ((tail & Hc') & Hwf' & Hchain).
    split; [exists (bs ++ tail); rewrite Hc', app_assoc; reflexivity|]. split; [exact Hwf'|].
    intros _. destruct (pushed_readers h Hh c bs tail c' n' Hc' Hwf' D) as (S & _ & O).
    exists n', (len (c ++ bs)). auto.
  - destruct (IH st (c ++ b) c' (Inv_app _ _ _ HI) ltac:(apply wf_bytes_app; split; [auto|apply (Forall_inv Hv)]) (Forall_inv_tail Hv) H)
      as ((tail & Hc') & Hwf' & Hchain).
    split; [exists (b ++ tail); rewrite Hc', app_assoc; reflexivity|]. split; [exact Hwf'|].
    cbn [items_read_back]. rewrite <- len_app. exact Hchain.
Qed.

Fixpoint reads_back (h c' : bytes) (start : N) (ns : list name) : Prop :=
  match ns with
  | [] => start = len c'
  | n :: t => exists n' e, canon n' = canon n /\
                new_split c' start = Ok (wire_abs n', e) /\
                decode_name (h ++ c') (12 + start) (mlen (h ++ c')) = Ok (n', 12 + e) /\
                reads_back h c' e t
  end.

(* new_compressor_sound: a fresh compressor, any earlier contents, ANY list of
   valid names (no bound on their number: slots are reused): every name reads
   back equal up to case, through both readers, each starting where the
   previous one ended, the last ending at the end of the contents.
   A list of names is a list of items without raw octets. *)
Theorem new_compressor_sound (h c0 : bytes) (ns : list name) (c : bytes) :
  length h = 12%nat -> wf_bytes c0 -> Forall valid_abs ns ->
  build_names cs_new c0 (map wire_abs ns) = Ok c ->
  reads_back h c (len c0) ns.
Proof.
  intros Hh Hwf0 Hv H.
  assert (B : forall l st c1, build_names st c1 (map wire_abs l) = build_items st c1 (map IName l)).
  { induction l as [|n t IH]; intros st c1; cbn [map build_names build_items]; [reflexivity|].
    destruct (build_name st c1 (wire_abs n)) as [[bs st1]| | |]; cbn [bind]; auto. }
  assert (R : forall l start, items_read_back h c start (map IName l) -> reads_back h c start l).
  { induction l as [|n t IH]; intros start; cbn [map items_read_back reads_back]; [auto|].
    intros (n' & e & A1 & A2 & A3 & A4). eauto 8. }
  rewrite B in H. apply R.
  apply (new_compressor_sound_items h Hh _ cs_new c0 c (Inv_new c0) Hwf0) in H.
  - destruct H as (_ & Hwf & H). exact (H Hwf).
  - rewrite Forall_map. exact Hv.
Qed.

(* new_compressor_sound, single entry / no eviction: a fresh compressor writes
   the first name in full, so the second one starts at a known offset *)
Theorem compressor_two_names_sound (h c0 : bytes) (n1 n2 : name) (c : bytes) :
  length h = 12%nat -> wf_bytes c0 -> valid_abs n1 -> valid_abs n2 ->
  build_names cs_new c0 [wire_abs n1; wire_abs n2] = Ok c ->
  (exists n1', canon n1' = canon n1 /\
     new_split c (len c0) = Ok (wire_abs n1', len c0 + len (wire_abs n1)) /\
     decode_name (h ++ c) (12 + len c0) (mlen (h ++ c)) = Ok (n1', 12 + (len c0 + len (wire_abs n1)))) /\
  (exists n2', canon n2' = canon n2 /\
     new_split c (len c0 + len (wire_abs n1)) = Ok (wire_abs n2', len c) /\
     decode_name (h ++ c) (12 + (len c0 + len (wire_abs n1))) (mlen (h ++ c)) = Ok (n2', 12 + len c)).
Proof.
  intros Hh Hwf0 [Hv1 Hl1] [Hv2 Hl2] H. cbn [build_names] in H.
  destruct (build_name cs_new c0 (wire_abs n1)) as [[bs1 st1]| | |] eqn:B1; cbn [bind] in H; try discriminate H.
  destruct (build_name st1 (c0 ++ bs1) (wire_abs n2)) as [[bs2 st2]| | |] eqn:B2; cbn [bind] in H; try discriminate H.
  injection H as <-.
  destruct (build_name_sound h Hh _ _ _ _ _ (Inv_new c0) Hv1 Hl1 B1) as (HI1 & Hw1 & n1' & C1 & D1).
  destruct (build_name_sound h Hh _ _ _ _ _ HI1 Hv2 Hl2 B2) as (_ & Hw2 & n2' & C2 & D2).
  apply build_name_fresh in B1. subst bs1.
  assert (Hwf : wf_bytes ((c0 ++ wire_abs n1) ++ bs2)) by (rewrite !wf_bytes_app; auto).
  rewrite <- !len_app. split.
  - destruct (pushed_readers h Hh c0 _ bs2 _ n1' eq_refl Hwf D1) as (S & _ & O). eauto.
  - destruct (pushed_readers h Hh _ bs2 [] _ n2' (eq_sym (app_nil_r _)) Hwf D2) as (S & _ & O). eauto.
Qed.

(* non-vacuity: more names than slots, with reuse of suffixes of evicted entries *)
Example many_names_example :
  let lab (k : N) : label := [107; 48 + k / 10; 48 + k mod 10] in
  let ns := map (fun k => [lab k; [122; 111; 110; 101]]) (map N.of_nat (seq 0 40)) ++ [[lab 3; [122; 111; 110; 101]]] in
  exists c, build_names cs_new [] (map wire_abs ns) = Ok c /\ len c < 16384 /\
    new_split c (len c - 6) = Ok (wire_abs [lab 3; [122; 111; 110; 101]], len c).
Proof. eexists. split; [vm_compute; reflexivity|]. split; vm_compute; reflexivity. Qed.

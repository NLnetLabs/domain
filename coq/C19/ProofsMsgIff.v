(* Old -> new per item, and the section-level iff between
   MessageParser (mp_section) and C01's section iterators (drain over
   q_next / r_next), outside the known pointer classes and for records that are
   not OPT. *)
From Coq Require Import NArith List Bool Lia.
From DV Require Import Base.Outcome Base.Bytes Base.PName C19.Gen C19.Model C19.ModelMsg C19.ProofsItems
  C19.ProofsMsg C01.Model C01.Model3.
Import ListNotations.
Local Open Scope N_scope.

(* C01's drain over sec_next = "parse count items, stop at the first error" *)
Section DRAIN.
Context {A : Type} (parse : N -> outcome A) (endof : A -> N).

Fixpoint iter_items (n : nat) (pos : N) : list A * N * bool :=
  match n with
  | O => ([], pos, true)
  | S n' => match parse pos with
            | Ok a => let '(l, p, ok) := iter_items n' (endof a) in (a :: l, p, ok)
            | _ => ([], pos, false)
            end
  end.

Hypothesis parse_total : forall p, no_panic (parse p).

Lemma has_err_app (l1 l2 : list (item A * sect)) : has_err (l1 ++ l2) = has_err l1 || has_err l2.
Proof. unfold has_err. apply existsb_app. Qed.

Lemma drain_count n : forall pos k fuel acc, (n + 2 <= fuel)%nat ->
  exists tr s', drain (sec_next parse endof) fuel (mkSect pos (N.of_nat n) None k) acc = Ok (rev acc ++ tr, s') /\
    let '(l, p, ok) := iter_items n pos in
    (ok = true -> s_err s' = None /\ s_pos s' = p /\ has_err tr = false /\ length tr = n) /\
    (ok = false -> has_err tr = true /\ s_err s' <> None).
Proof.
  induction n as [|n IH]; intros pos k fuel acc Hf.
  - destruct fuel as [|fuel]; [lia|]. cbn [drain]. unfold sec_next. cbn [s_err s_cnt]. cbn [N.of_nat N.ltb N.compare bind].
    exists [], (mkSect pos 0 None k). rewrite app_nil_r. split; [reflexivity|]. cbn. split; [auto|discriminate].
  - destruct fuel as [|fuel]; [lia|]. cbn [drain]. unfold sec_next at 1. cbn [s_err s_cnt s_pos s_kind].
    destruct (N.ltb_spec 0 (N.of_nat (S n))) as [_|]; [|lia]. cbn [iter_items].
    pose proof (parse_total pos) as T.
    destruct (parse pos) as [a|e| |] eqn:P; try contradiction.
    + cbn [bind]. replace (N.of_nat (S n) - 1) with (N.of_nat n) by lia.
      destruct (IH (endof a) k fuel ((IOk a, mkSect (endof a) (N.of_nat n) None k) :: acc) ltac:(lia)) as (tr & s' & D & HP).
      exists ((IOk a, mkSect (endof a) (N.of_nat n) None k) :: tr), s'. split.
      { rewrite D. cbn [rev]. rewrite <- app_assoc. reflexivity. }
      destruct (iter_items n (endof a)) as [[l p] ok]. destruct HP as [H1 H2]. split.
      * intros Q. destruct (H1 Q) as (E1 & E2 & E3 & E4). repeat split; auto. cbn [length]. lia.
      * intros Q. destruct (H2 Q) as (E1 & E2). split; [|exact E2].
        change ((IOk a, mkSect (endof a) (N.of_nat n) None k) :: tr) with ([(IOk a, mkSect (endof a) (N.of_nat n) None k)] ++ tr).
        rewrite has_err_app, E1. apply orb_true_r.
    + cbn [bind].
      (* the iterator holds the error; the next call yields None *)
      destruct fuel as [|fuel]; [lia|]. cbn [drain]. unfold sec_next at 1. cbn [s_err bind].
      exists [(IErr e, mkSect pos (N.of_nat (S n)) (Some e) k)], (mkSect pos (N.of_nat (S n)) (Some e) k).
      split; [cbn [rev]; reflexivity|]. split; [discriminate|]. intros _. split; [reflexivity|discriminate].
Qed.
End DRAIN.

From DV Require Import C01.Proofs2 C01.Proofs3.

Lemma sat_no_panic {A} (x : outcome A) P : sat x P -> no_panic x.
Proof. destruct x; cbn; auto. Qed.

Section SECTIONS.
Variables (h c : bytes).
Hypothesis Hh : length h = 12%nat.
Hypothesis Hwf : wf_bytes c.
Let m := h ++ c.

(* the premises of the old -> new direction *)
Hypothesis Hk : forall p, kclass m p = KNone.                               (* no pointer of a known class anywhere *)
Hypothesis Hno_edns : forall off, starts_with (skipn (N.to_nat off) c) edns_prefix = false.   (* no `0 0 41` *)
Hypothesis Hno_opt : forall pos r, record_parse m pos (mlen m) = Ok r -> rr_type r <> 41.

Lemma old_q_total p : no_panic (question_parse m p (mlen m)).
Proof. eapply sat_no_panic. apply question_parse_sat. lia. Qed.
Lemma old_r_total p : no_panic (record_parse m p (mlen m)).
Proof. eapply sat_no_panic. apply record_parse_sat. lia. Qed.

(* new item parser: never a panic *)
Lemma mp_item_total sec off : no_panic (mp_item c sec off).
Proof.
  unfold mp_item. destruct (sec =? 0).
  - pose proof (new_question_total h c Hh Hwf off) as T.
    destruct (new_question c off) as [[[[w ty] cl] e]| | |]; exact T.
  - rewrite Hno_edns, andb_false_r. pose proof (new_record_total h c Hh Hwf off) as T.
    destruct (new_record c off) as [[[[[[w ty] cl] ttl] d] e]| | |]; try exact T. cbn [bind].
    destruct ((ty =? 41) && _); exact I.
Qed.

(* old -> new, per item *)
Lemma mp_item_old_to_new_q off q : question_parse m (12 + off) (mlen m) = Ok q ->
  exists it, mp_item c 0 off = Ok (it, q_end q - 12) /\ 12 <= q_end q.
Proof.
  intros H. destruct (question_old_to_new h c Hh Hwf off q (Hk _) H) as (n & _ & He & Q).
  unfold mp_item. cbn [N.eqb]. rewrite Q. cbn [bind]. eexists. split; [reflexivity|]. clear - He. lia.
Qed.

Lemma mp_item_old_to_new_r sec off r : sec <> 0 -> record_parse m (12 + off) (mlen m) = Ok r ->
  exists it, mp_item c sec off = Ok (it, rr_end r - 12) /\ 12 <= rr_end r.
Proof.
  intros Hs H. destruct (record_old_to_new h c Hh Hwf off r (Hk _) H) as (n & _ & He & Q).
  pose proof (record_extent_within m (12 + off) (mlen m) r (N.le_refl _) H) as (E1 & E2 & E3).
  unfold mp_item. destruct (N.eqb_spec sec 0); [contradiction|]. rewrite Hno_edns, andb_false_r.
  rewrite Q. cbn [bind]. destruct (N.eqb_spec (rr_type r) 41) as [E|E]; [exfalso; eapply Hno_opt; eauto|].
  cbn [andb]. eexists. split; [reflexivity|]. clear - E1 He. lia.
Qed.

(* one section: MessageParser's loop against C01's iteration of the old item parser *)
Definition old_parse (sec : N) (p : N) : outcome N :=
  if sec =? 0 then (do q <- question_parse m p (mlen m); Ok (q_end q))
  else (do r <- record_parse m p (mlen m); Ok (rr_end r)).

Lemma item_iff sec off :
  match old_parse sec (12 + off), mp_item c sec off with
  | Ok e, Ok (_, off') => e = 12 + off'
  | Err _, Err _ => True
  | _, _ => False
  end.
Proof.
  unfold old_parse. pose proof (mp_item_total sec off) as TN.
  destruct (N.eqb_spec sec 0) as [->|Hs].
  - pose proof (old_q_total (12 + off)) as TO.
    destruct (question_parse m (12 + off) (mlen m)) as [q| | |] eqn:Q; try contradiction; cbn [bind].
    + destruct (mp_item_old_to_new_q _ _ Q) as (it & E & He). rewrite E. clear - He. lia.
    + destruct (mp_item c 0 off) as [[it off']| | |] eqn:E; try contradiction; [|exact I].
      pose proof (mp_item_new_to_old h c Hh Hwf _ _ _ _ E) as O. unfold mp_item in E. cbn [N.eqb] in E.
      destruct (new_question c off) as [[[[w ty] cl] e0]| | |]; cbn [bind] in E; try discriminate E. inversion E; subst.
      cbn [old_reads] in O. destruct O as (q & n & Q' & _). fold m in Q'. rewrite Q in Q'. discriminate Q'.
  - pose proof (old_r_total (12 + off)) as TO.
    destruct (record_parse m (12 + off) (mlen m)) as [r| | |] eqn:R; try contradiction; cbn [bind].
    + destruct (mp_item_old_to_new_r sec _ _ Hs R) as (it & E & He). rewrite E. clear - He. lia.
    + destruct (mp_item c sec off) as [[it off']| | |] eqn:E; try contradiction; [|exact I].
      pose proof (mp_item_new_to_old h c Hh Hwf _ _ _ _ E) as O. unfold mp_item in E.
      destruct (N.eqb_spec sec 0); [contradiction|]. rewrite Hno_edns, andb_false_r in E.
      destruct (new_record c off) as [[[[[[w ty] cl] ttl] d] e0]| | |]; cbn [bind] in E; try discriminate E.
      destruct ((ty =? 41) && _); [discriminate E|]. inversion E; subst.
      cbn [old_reads] in O. destruct O as (r0 & n0 & R' & _). fold m in R'. rewrite R in R'. discriminate R'.
Qed.

(* MessageParser reads a section of n announced items completely iff the old
   iteration does, with the same number of items and the same end *)
Theorem section_iff n : forall sec off acc,
  exists acc' off' ok, mp_section n c sec off acc = Ok (acc', off', ok) /\
    let '(l, p, ok_old) := iter_items (old_parse sec) (fun e => e) n (12 + off) in
    ok = ok_old /\ length acc' = (length acc + length l)%nat /\ (ok = true -> p = 12 + off').
Proof.
  induction n as [|n IH]; intros sec off acc; cbn [mp_section iter_items].
  - exists acc, off, true. split; [reflexivity|]. cbn. repeat split; lia.
  - pose proof (item_iff sec off) as I1.
    destruct (old_parse sec (12 + off)) as [e| | |]; destruct (mp_item c sec off) as [[it off1]| | |]; try contradiction.
    + subst e. destruct (IH sec off1 (it :: acc)) as (acc' & off' & ok & E & HP). exists acc', off', ok. split; [exact E|].
      destruct (iter_items (old_parse sec) (fun e => e) n (12 + off1)) as [[l p] ok_old]. destruct HP as (A & B & C).
      cbn [length] in *. repeat split; auto; lia.
    + exists acc, off, false. split; [reflexivity|]. cbn. repeat split; try lia; try discriminate.
Qed.
End SECTIONS.

Lemma iter_items_ends {A} (parse : N -> outcome A) (endof : A -> N) (parse2 : N -> outcome N) :
  (forall p, parse2 p = (do a <- parse p; Ok (endof a))) ->
  forall n pos, let '(l, p, ok) := iter_items parse endof n pos in
                let '(l2, p2, ok2) := iter_items parse2 (fun e => e) n pos in
                length l = length l2 /\ p = p2 /\ ok = ok2.
Proof.
  intros H n. induction n as [|n IH]; intros pos; cbn [iter_items]; [auto|].
  rewrite H. destruct (parse pos) as [a| | |]; cbn [bind]; auto.
  specialize (IH (endof a)).
  destruct (iter_items parse endof n (endof a)) as [[l p] ok].
  destruct (iter_items parse2 (fun e => e) n (endof a)) as [[l2 p2] ok2].
  destruct IH as (A1 & A2 & A3). cbn [length]. auto.
Qed.

Lemma iter_items_len {A} (parse : N -> outcome A) (endof : A -> N) n : forall pos,
  let '(l, p, ok) := iter_items parse endof n pos in ok = true -> length l = n.
Proof.
  induction n as [|n IH]; intros pos; cbn [iter_items]; [auto|].
  destruct (parse pos) as [a| | |]; try discriminate.
  specialize (IH (endof a)). destruct (iter_items parse endof n (endof a)) as [[l p] ok].
  intros Q. cbn [length]. rewrite (IH Q). reflexivity.
Qed.

Section C01LINK.
Variables (h c : bytes).
Hypothesis Hh : length h = 12%nat.
Hypothesis Hwf : wf_bytes c.
Let m := h ++ c.
Hypothesis Hk : forall p, kclass m p = KNone.
Hypothesis Hno_edns : forall off, starts_with (skipn (N.to_nat off) c) edns_prefix = false.
Hypothesis Hno_opt : forall pos r, record_parse m pos (mlen m) = Ok r -> rr_type r <> 41.

(* C01's iteration of a section of n announced items (drain over sec_next) and
   MessageParser's: complete together, same number of items, same end *)
Lemma section_agrees {A} (parse : N -> outcome A) (endof : A -> N) sec :
  (forall p, no_panic (parse p)) ->
  (forall p, old_parse h c sec p = (do a <- parse p; Ok (endof a))) ->
  forall n off acc,
  let s := mkSect (12 + off) (N.of_nat n) None sec in
  exists tr s' acc' off' ok,
    drain (sec_next parse endof) (sec_fuel s) s [] = Ok (tr, s') /\
    mp_section n c sec off acc = Ok (acc', off', ok) /\
    (ok = true <-> has_err tr = false) /\
    (ok = true -> s_err s' = None /\ s_pos s' = 12 + off' /\ length acc' = (length acc + length tr)%nat /\
       exists l, iter_items parse endof n (12 + off) = (l, 12 + off', true)).
Proof.
  intros Htot Hold n off acc. cbv zeta.
  destruct (drain_count parse endof Htot n (12 + off) sec (sec_fuel (mkSect (12 + off) (N.of_nat n) None sec)) [])
    as (tr & s' & D & HP).
  { unfold sec_fuel. cbn [s_cnt]. lia. }
  destruct (section_iff h c Hh Hwf Hk Hno_edns Hno_opt n sec off acc) as (acc' & off' & ok & E & HS).
  pose proof (iter_items_ends parse endof (old_parse h c sec) Hold n (12 + off)) as HI.
  pose proof (iter_items_len parse endof n (12 + off)) as HL.
  destruct (iter_items parse endof n (12 + off)) as [[l p] okq].
  destruct (iter_items (old_parse h c sec) (fun e => e) n (12 + off)) as [[l2 p2] ok2].
  destruct HI as (L1 & L2 & L3). destruct HS as (S1 & S2 & S3). destruct HP as (P1 & P2).
  exists tr, s', acc', off', ok. split; [exact D|]. split; [exact E|]. subst.
  destruct ok2.
  - destruct (P1 eq_refl) as (A1 & A2 & A3 & A4). split; [tauto|]. intros _.
    rewrite (S3 eq_refl) in *. split; [exact A1|]. split; [exact A2|].
    split; [rewrite (HL eq_refl) in L1; lia|eauto].
  - destruct (P2 eq_refl) as (A1 & A2). split; [split; intros Q; [discriminate Q|congruence]|]. intros Q; discriminate Q.
Qed.

Theorem question_section_agrees n off :
  let s := mkSect (12 + off) (N.of_nat n) None 0 in
  exists tr s' acc' off' ok,
    drain (q_next m) (sec_fuel s) s [] = Ok (tr, s') /\
    mp_section n c 0 off [] = Ok (acc', off', ok) /\
    (ok = true <-> has_err tr = false) /\
    (ok = true -> s_err s' = None /\ s_pos s' = 12 + off' /\ length tr = length acc').
Proof.
  destruct (section_agrees (fun pos => question_parse m pos (mlen m)) q_end 0
              ltac:(intros p0; eapply old_q_total; eassumption) ltac:(reflexivity) n off [])
    as (tr & s' & acc' & off' & ok & D & E & I1 & C1).
  exists tr, s', acc', off', ok. repeat split; try tauto. destruct (C1 H) as (_ & _ & Q & _). exact (eq_sym Q).
Qed.

(* ... and C01's RecordSection iteration (answer, authority, additional) *)
Lemma old_parse_record sec p : sec <> 0 -> old_parse h c sec p = (do a <- record_parse m p (mlen m); Ok (rr_end a)).
Proof. intros Hs. unfold old_parse. destruct (N.eqb_spec sec 0); [contradiction|reflexivity]. Qed.

Theorem record_section_agrees sec n off : sec <> 0 ->
  let s := mkSect (12 + off) (N.of_nat n) None sec in
  exists tr s' acc' off' ok,
    drain (r_next m) (sec_fuel s) s [] = Ok (tr, s') /\
    mp_section n c sec off [] = Ok (acc', off', ok) /\
    (ok = true <-> has_err tr = false) /\
    (ok = true -> s_err s' = None /\ s_pos s' = 12 + off' /\ length tr = length acc').
Proof.
  intros Hs.
  destruct (section_agrees (fun pos => record_parse m pos (mlen m)) rr_end sec
              ltac:(intros p0; eapply old_r_total; eassumption) ltac:(intros p0; apply old_parse_record, Hs) n off [])
    as (tr & s' & acc' & off' & ok & D & E & I1 & C1).
  exists tr, s', acc', off', ok. repeat split; try tauto. destruct (C1 H) as (_ & _ & Q & _). exact (eq_sym Q).
Qed.
End C01LINK.

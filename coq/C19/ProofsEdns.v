(* The EDNS record of the new API: build/split round trip,
   the old codec's view of the same octets (class = UDP size, TTL = ext rcode,
   version, flags), and the option framing against C05's model of the old
   Opt::from_octets + iteration. *)
From Coq Require Import NArith PeanoNat List Lia.
From DV Require Import Base.Outcome Base.Bytes Base.PName C19.Gen C19.Model C19.ModelEdns C05.Schema C05.OptModel.
Import ListNotations.
Local Open Scope N_scope.

Lemma take_k_app k a r : length a = k -> take_k k (a ++ r) = Some (a, r).
Proof.
  intros <-. unfold take_k. destruct (Nat.ltb_spec (length (a ++ r)) (length a)) as [H|H].
  - rewrite app_length in H. lia.
  - change (firstn (length a) (a ++ r)) with (take (length a) (a ++ r)).
    change (skipn (length a) (a ++ r)) with (drop (length a) (a ++ r)).
    rewrite take_app_length, drop_app_length. reflexivity.
Qed.

Lemma take_k_1 {a} r : take_k 1 (a :: r) = Some ([a], r).
Proof. reflexivity. Qed.
Lemma take_k_2 {a b} r : take_k 2 (a :: b :: r) = Some ([a; b], r).
Proof. reflexivity. Qed.
Lemma take_k_3 {a b c} r : take_k 3 (a :: b :: c :: r) = Some ([a; b; c], r).
Proof. reflexivity. Qed.

Definition edns_ok (e : edns) : Prop :=
  e_udp e < 65536 /\ e_ext e < 256 /\ e_ver e < 256 /\ e_flags e < 65536 /\ nopt_ok (e_data e) = true.

(* what is built is read back, whatever follows *)
Theorem edns_roundtrip e b rest : edns_ok e -> nedns_build e = Some b ->
  nedns_split (b ++ rest) = Ok (e, rest).
Proof.
  intros (H1 & H2 & H3 & H4 & H5) B. unfold nedns_build in B.
  destruct (N.ltb_spec 65535 (len (e_data e))) as [|Hl]; [discriminate B|]. injection B as Eb. subst b.
  change edns_prefix with [0; 0; 41]. change edns_ext_before_version with true. cbv iota.
  unfold nedns_split. change edns_prefix with [0; 0; 41]. change edns_ext_before_version with true.
  cbn [app]. rewrite take_k_3.
  cbn [combine forallb fst snd N.eqb Pos.eqb andb negb].
  unfold edns_fields. rewrite take_k_2, take_k_1, take_k_1, take_k_2, take_k_2.
  assert (Hsz : be_val [len (e_data e) / 256; len (e_data e) mod 256] = len (e_data e)) by (cbn; lia).
  rewrite Hsz. rewrite (take_k_app (N.to_nat (len (e_data e))) (e_data e)) by (unfold len; lia).
  rewrite H5. destruct e as [u x v f d]; cbn [e_udp e_ext e_ver e_flags e_data] in *.
  do 2 f_equal. f_equal; cbn; lia.
Qed.

(* the old codec reads the same octets as an ordinary record: CLASS = UDP size,
   TTL = ext_rcode << 24 | version << 16 | flags (OptRecord::from_record) *)
Theorem edns_old_view e b : edns_ok e -> nedns_build e = Some b ->
  firstn 3 b = [0; 0; 41] /\
  be_val (firstn 2 (skipn 3 b)) = e_udp e /\
  let ttl := be_val (firstn 4 (skipn 5 b)) in
  N.shiftr ttl old_opt_ext_shift mod 256 = e_ext e /\
  N.shiftr ttl old_opt_ver_shift mod 256 = e_ver e /\
  ttl mod 65536 = e_flags e /\
  be_val (firstn 2 (skipn 9 b)) = len (e_data e) /\ skipn 11 b = e_data e.
Proof.
  intros (H1 & H2 & H3 & H4 & H5) B. unfold nedns_build in B.
  destruct (N.ltb_spec 65535 (len (e_data e))) as [|Hl]; [discriminate B|]. injection B as Eb. subst b.
  change edns_prefix with [0; 0; 41]. change edns_ext_before_version with true. cbv iota.
  change old_opt_ext_shift with 24. change old_opt_ver_shift with 16.
  cbn [app firstn skipn be_val fold_left]. rewrite !N.shiftr_div_pow2.
  change (2 ^ 24) with 16777216. change (2 ^ 16) with 65536.
  repeat split; lia.
Qed.

(* option framing: new Opt::parse_bytes_by_ref = old Opt::from_octets + iteration *)
Lemma framing_step fuel : forall b pos acc, pos <= len b ->
  nopt_walk fuel b pos = is_ok (opt_iter fuel b pos (len b) acc).
Proof.
  induction fuel as [|fuel IH]; intros b pos acc Hp; [reflexivity|].
  cbn [nopt_walk opt_iter].
  destruct (N.leb_spec (len b) pos) as [H0|H0].
  - replace (len b - pos) with 0 by lia. reflexivity.
  - destruct (N.eqb_spec (len b - pos) 0); [lia|].
    unfold rd at 1. destruct (N.ltb_spec (len b - pos) 2) as [H1|H1].
    + cbn [bind is_ok]. destruct (N.ltb_spec (len b) (pos + 2 + 2)); [reflexivity|lia].
    + cbn [bind snd fst]. unfold rd at 1. destruct (N.ltb_spec (len b - (pos + 2)) 2) as [H2|H2].
      * cbn [bind is_ok]. destruct (N.ltb_spec (len b) (pos + 2 + 2)); [reflexivity|lia].
      * cbn [bind snd fst]. destruct (N.ltb_spec (len b) (pos + 2 + 2)); [lia|].
        assert (Es : of_be (slice b (pos + 2) (pos + 2 + 2)) = be_val (firstn 2 (skipn (N.to_nat (pos + 2)) b))).
        { unfold of_be, be_val, slice. replace (N.to_nat (pos + 2 + 2 - (pos + 2))) with 2%nat by lia. reflexivity. }
        rewrite Es. set (size := be_val (firstn 2 (skipn (N.to_nat (pos + 2)) b))).
        unfold rd. destruct (N.ltb_spec (len b - (pos + 2 + 2)) size) as [H3|H3].
        -- cbn [bind is_ok]. destruct (N.ltb_spec (len b) (pos + 2 + 2 + size)); [reflexivity|lia].
        -- cbn [bind snd fst]. destruct (N.ltb_spec (len b) (pos + 2 + 2 + size)); [lia|].
           apply IH. lia.
Qed.

Theorem edns_framing_agrees b : nopt_ok b = is_ok (opt_parse b).
Proof.
  unfold nopt_ok, opt_parse. change edns_opt_max with 65535.
  destruct (N.ltb_spec 65535 (len b)); [reflexivity|]. apply framing_step. lia.
Qed.

Example edns_example :
  let e := mkE 1232 1 0 32768 [0;10;0;8;6;148;57;104;176;18;234;57] in
  edns_ok e /\ nedns_build e = Some ([0;0;41;4;208;1;0;128;0;0;12] ++ e_data e) /\
  nedns_split [0;0;41;4;208;1;0;128;0;0;3;0;10;0] = Err E_PARSE.
Proof. vm_compute. repeat split. Qed.

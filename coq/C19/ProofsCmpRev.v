(* Soundness of the reversed-name path of the compressor
   (compress_revname / lookup_entry_for_revname / RevName::build_in_message),
   on top of the invariant of ProofsCmpInv, and the theorem for messages that
   mix Name, RevName and other octets. *)
From Coq Require Import NArith List Bool Lia.
From DV Require Import Base.Outcome Base.Bytes Base.Names Base.PName C19.Gen C19.Model C19.ModelCmp
  C19.ProofsOld C19.ProofsCmpSound C19.ProofsCmpInv C19.ProofsRev.
Import ListNotations.
Local Open Scope N_scope.

(* labels in the order given *)
Definition rw (r : list label) : bytes := concat (map wire_label r).

Lemma rw_cons l r : rw (l :: r) = wire_label l ++ rw r.
Proof. reflexivity. Qed.
Lemma rw_wire_rel r : rw r = wire_rel r.
Proof. reflexivity. Qed.
Lemma rwire_rw n : rwire n = rw (rev n).
Proof. reflexivity. Qed.
Lemma rw_length_ge r : (length r <= length (rw r))%nat.
Proof. induction r as [|l r IH]; [cbn; lia|]. rewrite rw_cons, app_length. unfold wire_label. cbn [length]. lia. Qed.

Lemma next_label_rw l r : next_label (rw (l :: r)) = Some (wire_label l, rw r).
Proof. rewrite rw_cons. apply (next_label_wire l r). Qed.

Lemma next_label_nil : next_label [] = None.
Proof. reflexivity. Qed.

Lemma split_labels_rw r : forall fuel, (length r < fuel)%nat -> split_labels fuel (rw r) = map wire_label r.
Proof.
  induction r as [|l r IH]; intros [|fuel] Hf; try (cbn in Hf; lia); [reflexivity|].
  cbn [split_labels]. rewrite next_label_rw. cbn [map]. f_equal. apply IH. cbn in Hf. lia.
Qed.

Lemma unreverse_rw r : unreverse (rw r) = rw (rev r).
Proof.
  unfold unreverse. rewrite split_labels_rw by (pose proof (rw_length_ge r); lia).
  unfold rw. rewrite map_rev. reflexivity.
Qed.

Lemma unreverse_rwire n : unreverse (rwire n) = wire_rel n.
Proof. rewrite rwire_rw, unreverse_rw, rev_involutive. reflexivity. Qed.

Lemma to_rev_wire_abs n : to_rev (wire_abs n) = rev_wire n.
Proof.
  unfold to_rev. rewrite firstn_wire_abs. change (wire_rel n) with (rw n). rewrite unreverse_rw. reflexivity.
Qed.

Lemma ends_with_split entry lab : ends_with_ci entry lab = true ->
  exists E1 B, entry = E1 ++ B /\ length B = length lab /\ lowers B = lowers lab /\
    firstn (length entry - length lab) entry = E1.
Proof.
  unfold ends_with_ci. intros H. apply andb_true_iff in H as [H1 H2]. apply N.leb_le in H1.
  apply eq_ci_spec in H2.
  exists (firstn (length entry - length lab) entry), (skipn (length entry - length lab) entry).
  split; [symmetry; apply firstn_skipn|]. split; [|split; [exact H2|reflexivity]].
  rewrite skipn_length. unfold len in H1. lia.
Qed.

Lemma rev_match_sound fuel : forall r entry rest entry2,
  rev_match fuel (rw r) entry = (rest, entry2) ->
  exists r_m r_rest B, r = r_m ++ r_rest /\ rest = rw r_rest /\ entry = entry2 ++ B /\
    lowers B = lowers (wire_rel (rev r_m)).
Proof.
  induction fuel as [|fuel IH]; intros r entry rest entry2 H.
  - cbn in H. inversion H; subst. exists [], r, []. repeat split; rewrite ?app_nil_r; auto.
  - cbn [rev_match] in H. destruct r as [|l r].
    + cbn in H. inversion H; subst. exists [], [], []. repeat split; rewrite ?app_nil_r; auto.
    + rewrite next_label_rw in H.
      destruct (ends_with_ci entry (wire_label l)) eqn:EW.
      * destruct (ends_with_split _ _ EW) as (E1 & Bl & He & Hl & Hci & Hf). rewrite Hf in H.
        destruct (IH _ _ _ _ H) as (r_m & r_rest & B & Hr & Hrest & HE1 & HB).
        exists (l :: r_m), r_rest, (B ++ Bl). split; [rewrite Hr; reflexivity|]. split; [exact Hrest|].
        split; [rewrite He, HE1, app_assoc; reflexivity|].
        cbn [rev]. rewrite wire_rel_app, !lowers_app, HB, Hci. unfold wire_rel. cbn [map concat]. rewrite app_nil_r. reflexivity.
      * inversion H; subst. exists [], (l :: r), []. repeat split; rewrite ?app_nil_r; auto.
Qed.

Lemma rev_lookup_from_sound k : forall i0 st c name parent poff l r hash i rest p,
  rev_lookup_from k i0 st c name parent poff (wire_label l) (rw r) hash = LrHit i rest p ->
  exists n_pre, rest = rwire n_pre /\
    hit_ok st c (rev (l :: r)) parent i (wire_rel n_pre) p /\
    attach_ok c (nth (N.to_nat i) (cs_pos st) 0) (nth (N.to_nat i) (cs_len st) 0) poff = true /\
    (i0 <= N.to_nat i < i0 + k)%nat.
Proof.
  induction k as [|k IH]; intros i0 st c name parent poff l r hash i rest p H; [discriminate H|].
  cbn [rev_lookup_from] in H.
  assert (Hnext : rev_lookup_from k (S i0) st c name parent poff (wire_label l) (rw r) hash = LrHit i rest p ->
     exists n_pre, rest = rwire n_pre /\ hit_ok st c (rev (l :: r)) parent i (wire_rel n_pre) p /\
       attach_ok c (nth (N.to_nat i) (cs_pos st) 0) (nth (N.to_nat i) (cs_len st) 0) poff = true /\ (i0 <= N.to_nat i < i0 + S k)%nat).
  { intros Q. destruct (IH _ _ _ _ _ _ _ _ _ _ _ _ Q) as (np & A & B & C & D). exists np. repeat split; auto; lia. }
  destruct (negb (nth i0 (cs_hash st) 0 =? hash) || negb (nth i0 (cs_par st) 0 =? parent)) eqn:F; [auto|].
  apply orb_false_iff in F as [_ F]. apply negb_false_iff, N.eqb_eq in F.
  destruct (nth i0 (cs_len st) 0 =? 0); [destruct cmp_skips_unused; [auto|discriminate H]|].
  destruct (slice_opt c (nth i0 (cs_pos st) 0) (nth i0 (cs_len st) 0)) as [entry|] eqn:Sl; [|discriminate H].
  change cmp_checks_attach with true in H. cbv iota in H.
  fold (attach_ok c (nth i0 (cs_pos st) 0) (nth i0 (cs_len st) 0) poff) in H.
  destruct (attach_ok c (nth i0 (cs_pos st) 0) (nth i0 (cs_len st) 0) poff) eqn:A; cbn [negb] in H; [|auto].
  destruct (ends_with_ci entry (wire_label l)) eqn:EW; cbn [negb] in H; [|auto].
  destruct (ends_with_split _ _ EW) as (E1 & Bl & He & Hl & Hci & Hf). rewrite Hf in H.
  destruct (rev_match (S (length (rw r))) (rw r) E1) as [rest0 entry2] eqn:RM.
  injection H as Hi Hr Hp. subst i rest0 p.
  destruct (rev_match_sound _ _ _ _ _ RM) as (r_m & r_rest & B & Hrr & Hrest & HE1 & HB).
  destruct (slice_opt_split _ _ _ _ Sl) as (_ & _ & _ & _ & Hlen).
  exists (rev r_rest). split; [rewrite rwire_rw, rev_involutive; exact Hrest|]. rewrite Nat2N.id.
  split; [|split; [exact A|lia]].
  (* the matched forward suffix *)
  set (n_suf := rev (l :: r_m)).
  assert (HS : lowers (B ++ Bl) = lowers (wire_rel n_suf)).
  { unfold n_suf. cbn [rev]. rewrite wire_rel_app, !lowers_app, HB, Hci. unfold wire_rel. cbn [map concat]. rewrite app_nil_r. reflexivity. }
  assert (HSlen : length (B ++ Bl) = length (wire_rel n_suf)).
  { rewrite <- (lowers_length (B ++ Bl)), HS, lowers_length. reflexivity. }
  assert (Hentry : entry = entry2 ++ (B ++ Bl)) by (rewrite He, HE1, app_assoc; reflexivity).
  unfold hit_ok. rewrite !Nat2N.id. exists (rev r_rest), n_suf, entry.
  split. { unfold n_suf. cbn [rev]. rewrite Hrr, rev_app_distr, app_assoc. reflexivity. }
  split. { unfold n_suf. cbn [rev]. intros Q. apply app_eq_nil in Q as [_ Q]. discriminate Q. }
  split; [reflexivity|]. split; [exact F|]. split; [exact Sl|]. split; [exact Hlen|].
  split. { rewrite Hentry, app_length. lia. }
  split. { rewrite Hentry. unfold len. rewrite app_length, <- HSlen. lia. }
  rewrite <- HSlen, Hentry, lastn_app by reflexivity. exact HS.
Qed.

Lemma rwire_last n l : rwire (n ++ [l]) = rw (l :: rev n).
Proof. rewrite rwire_rw, rev_app_distr. reflexivity. Qed.

Lemma rw_nonnil r : r <> [] -> rw r <> [].
Proof. destruct r; [contradiction|]. intros _. rewrite rw_cons. discriminate. Qed.

Section REVSEQ.
Variable h : bytes.
Hypothesis Hh : length h = 12%nat.

Lemma rev_compress_loop_sound fuel : forall st c n_r parent poff M st' name' parent' poff',
  Inv st c -> Forall valid_label n_r -> LI h c parent poff M ->
  rev_compress_loop fuel st c (rwire n_r) parent poff = Ok (st', name', parent', poff') ->
  exists n_pre n_suf, n_r = n_pre ++ n_suf /\ name' = rwire n_pre /\ LI h c parent' poff' (n_suf ++ M) /\
    cs_pos st' = cs_pos st /\ cs_len st' = cs_len st /\ cs_par st' = cs_par st.
Proof.
  induction fuel as [|fuel IH]; intros st c n_r parent poff M st' name' parent' poff' HI Hv HL H; [discriminate H|].
  cbn [rev_compress_loop] in H.
  destruct n_r as [|l n0 _] using rev_ind.
  { cbn in H. inversion H; subst. exists [], []. auto 8. }
  rewrite rwire_last in H.
  destruct (rw (l :: rev n0)) as [|x nm] eqn:En; [exfalso; eapply (rw_nonnil (l :: rev n0)); [discriminate|exact En]|].
  rewrite <- En in *. clear En x nm.
  unfold rev_lookup in H. rewrite next_label_rw in H.
  destruct (rev_lookup_from 32 0 st c (rw (l :: rev n0)) parent poff (wire_label l) (rw (rev n0)) (hash_label (wire_label l)))
    as [|i rest p|s] eqn:L.
  - inversion H; subst. exists (n0 ++ [l]), []. rewrite app_nil_r, rwire_last. auto 8.
  - destruct (rev_lookup_from_sound _ _ _ _ _ _ _ _ _ _ _ _ _ L) as (np0 & Hrest & HK & HA & Hidx).
    assert (Erev : rev (l :: rev n0) = n0 ++ [l]) by (cbn [rev]; rewrite rev_involutive; reflexivity).
    rewrite Erev in HK.
    destruct (hit_extends h Hh st c (n0 ++ [l]) parent poff i (wire_rel np0) p M HI Hv HK HA HL)
      as (n_pre & n_suf & Hsplit & Hsuf & Hrest' & Hreads & Hplt).
    apply wire_rel_inj in Hrest'. subst np0.
    change cr_range_check with true in H. change cr_range_ge with true in H.
    change cr_range_add with 12 in H. change cr_range_bound with 16384 in H.
    unfold cmp_ge in H. cbn [andb] in H.
    destruct (N.leb_spec 16384 (p + 12)) as [Hr|Hr].
    + inversion H; subst. exists (n0 ++ [l]), []. rewrite app_nil_r, rwire_last. auto 8.
    + set (st1 := if cmp_lt cr_use_strict (N.max (len c + len rest) cr_use_floor) cr_use_bound
                  then mkC (set_nth (cs_use st) (N.to_nat i) (N.max (len c + len rest) cr_use_floor)) (cs_pos st) (cs_len st) (cs_par st) (cs_hash st)
                  else st) in H.
      assert (S1 : cs_pos st1 = cs_pos st /\ cs_len st1 = cs_len st /\ cs_par st1 = cs_par st).
      { unfold st1. destruct (cmp_lt _ _ _); auto. }
      destruct S1 as (S1a & S1b & S1c).
      rewrite Hrest in H.
      assert (Hvp : Forall valid_label n_pre) by (rewrite Hsplit in Hv; apply Forall_app in Hv; tauto).
      destruct (IH st1 c n_pre i (Some p) (n_suf ++ M) st' name' parent' poff') as (np2 & ns2 & E2 & En2 & L2 & Q1 & Q2 & Q3); auto.
      { apply (Inv_same st); auto. }
      { right. split; [lia|]. exists p. auto. }
      exists np2, (ns2 ++ n_suf). split; [rewrite Hsplit, E2, app_assoc; reflexivity|].
      split; [exact En2|]. split; [rewrite <- app_assoc; exact L2|].
      rewrite Q1, Q2, Q3. auto.
  - discriminate H.
Qed.
End REVSEQ.

Local Opaque compress_loop lookup_from last_label hash_label rev_compress_loop rev_lookup_from.

Section REVSEQ2.
Variable h : bytes.
Hypothesis Hh : length h = 12%nat.

(* one push through the reversed-name path *)
Lemma build_revname_sound st c n bs st' :
  Inv st c -> Forall valid_label n -> (wire_len n <= 254)%nat ->
  build_revname st c (to_rev (wire_abs n)) = Ok (bs, st') ->
  Inv st' (c ++ bs) /\ wf_bytes bs /\
  exists n', canon n' = canon n /\
    dpath R_new (h ++ c ++ bs) (12 + len c) (12 + len c) 0 n' (12 + len c + len bs).
Proof.
  intros HI Hv Hl H. rewrite to_rev_wire_abs in H. unfold build_revname in H.
  destruct (compress_revname st c (rev_wire n)) as [[res st2]| | |] eqn:EC; cbn [bind] in H; try discriminate H.
  unfold compress_revname, rev_wire in EC. cbn [skipn] in EC.
  destruct n as [|l0 n0].
  { cbn in EC. inversion EC; subst. cbn in H. inversion H; subst.
    apply (finish_sound h Hh st' c [] [] [] 64 None st'); auto. left. auto. }
  set (n := l0 :: n0) in *.
  assert (Hn : n <> []) by discriminate.
  destruct (rwire n) as [|x nm] eqn:En.
  { exfalso. rewrite rwire_rw in En. eapply rw_nonnil; [|exact En]. unfold n. cbn [rev]. intros Q. apply app_eq_nil in Q as [_ Q]. discriminate Q. }
  cbv beta iota in EC.
  destruct (rev_compress_loop (S (length (x :: nm))) st c (x :: nm) cr_no_parent None)
    as [[[[st1 name'] parent'] poff']| | |] eqn:EL; cbn [bind] in EC; try discriminate EC.
  rewrite <- En in EL.
  destruct (rev_compress_loop_sound h Hh _ st c n cr_no_parent None [] st1 name' parent' poff' HI Hv ltac:(left; auto) EL) as
    (n_pre & n_suf & Hsplit & Hname' & HL & Q1 & Q2 & Q3).
  rewrite app_nil_r in HL.
  assert (HI1 : Inv st1 c) by (apply (Inv_same st); auto).
  assert (Hvp : Forall valid_label n_pre) by (rewrite Hsplit in Hv; apply Forall_app in Hv; tauto).
  assert (Hnl : len (wire_rel n_pre) mod 256 = len (wire_rel n_pre)).
  { apply N.mod_small. unfold len. rewrite wire_rel_length. rewrite Hsplit, wire_len_app in Hl. lia. }
  assert (Hlenr : len name' = len (wire_rel n_pre)).
  { rewrite Hname'. unfold len. rewrite rwire_length. reflexivity. }
  change cr_reg_strict with true in EC. change cr_reg_add with 12 in EC. change cr_reg_bound with 16384 in EC.
  unfold cmp_lt in EC.
  assert (Hreg : exists st2', (match name' with
                 | [] => Ok st1
                 | _ :: _ => if len c + 12 <? 16384 then
                     match next_label name' with
                     | Some (first, _) => Ok (mkC (set_nth (cs_use st1) (first_min (cs_use st1)) (len c mod 65536))
                           (set_nth (cs_pos st1) (first_min (cs_use st1)) (len c mod 65536))
                           (set_nth (cs_len st1) (first_min (cs_use st1)) (len name' mod 256))
                           (set_nth (cs_par st1) (first_min (cs_use st1)) parent')
                           (set_nth (cs_hash st1) (first_min (cs_use st1)) (hash_label first)))
                     | None => Panic PC_UNCHECKED
                     end else Ok st1
                 end) = Ok st2' /\ st2' = st2 /\ res = match poff' with Some o => Some (name', o) | None => None end).
  { destruct (match name' with [] => Ok st1 | _ :: _ => _ end) as [s2| | |] eqn:ER; cbn [bind] in EC; try discriminate EC.
    exists s2. inversion EC. auto. }
  destruct Hreg as (st2' & ER & -> & Eres).
  assert (Hst2 : st2 = st1 \/ exists use' hash' idx,
      st2 = mkC use' (set_nth (cs_pos st1) idx (len c)) (set_nth (cs_len st1) idx (len (wire_rel n_pre)))
                (set_nth (cs_par st1) idx parent') hash').
  { destruct name' as [|y nm'] eqn:En'; [inversion ER; auto|]. rewrite <- En' in *.
    destruct (N.ltb_spec (len c + 12) 16384) as [Hr|Hr]; [|inversion ER; auto].
    destruct (next_label name') as [[first rem]|]; [|discriminate ER].
    inversion ER. right. rewrite (N.mod_small (len c) 65536) by lia. rewrite Hlenr, Hnl. eauto. }
  subst res.
  assert (Hbs : st' = st2 /\ bs = match poff' with
       | None => wire_abs n
       | Some p => wire_rel n_pre ++ [(p + 49164) / 256; (p + 49164) mod 256]
       end).
  { destruct poff' as [p|].
    - change bim_ptr_add with 49164 in H.
      assert (Hp : p + 12 < 16384).
      { destruct HL as [(_ & Q & _)|(_ & p1 & Q & Hp1 & _)]; [discriminate Q|]. inversion Q; subst. exact Hp1. }
      destruct (N.ltb_spec 65535 (p + 49164)); [lia|]. inversion H; subst.
      rewrite unreverse_rwire. auto.
    - inversion H; subst. unfold rev_wire. cbn [skipn]. rewrite unreverse_rwire. auto. }
  destruct Hbs as [-> Hbs].
  eapply (finish_sound h Hh st1 c n n_pre n_suf parent' poff' st2); eauto.
Qed.

Inductive mitem := MName (n : name) | MRev (n : name) | MRaw (b : bytes).

Fixpoint build_mixed (st : cstate) (c : bytes) (l : list mitem) : outcome bytes :=
  match l with
  | [] => Ok c
  | MRaw b :: t => build_mixed st (c ++ b) t
  | MName n :: t => do r <- build_name st c (wire_abs n); let '(bs, st') := r in build_mixed st' (c ++ bs) t
  | MRev n :: t => do r <- build_revname st c (to_rev (wire_abs n)); let '(bs, st') := r in build_mixed st' (c ++ bs) t
  end.

Definition mitem_ok (i : mitem) : Prop :=
  match i with MName n | MRev n => valid_abs n | MRaw b => wf_bytes b end.

Fixpoint mixed_read_back (c' : bytes) (start : N) (l : list mitem) : Prop :=
  match l with
  | [] => start = len c'
  | MRaw b :: t => mixed_read_back c' (start + len b) t
  | MName n :: t | MRev n :: t =>
      exists n' e, canon n' = canon n /\
        new_split c' start = Ok (wire_abs n', e) /\ rev_split c' start = Ok (rev_wire n', e) /\
        decode_name (h ++ c') (12 + start) (mlen (h ++ c')) = Ok (n', 12 + e) /\
        mixed_read_back c' e t
  end.

(* a name pushed through either path, in front of items that read back *)
Lemma pushed_mixed n t c c' bs :
  (exists tail, c' = (c ++ bs) ++ tail) /\ wf_bytes c' /\ (wf_bytes c' -> mixed_read_back c' (len (c ++ bs)) t) ->
  (exists n', canon n' = canon n /\
     dpath R_new (h ++ c ++ bs) (12 + len c) (12 + len c) 0 n' (12 + len c + len bs)) ->
  (exists tail, c' = c ++ tail) /\ wf_bytes c' /\ (wf_bytes c' -> mixed_read_back c' (len c) (MName n :: t)).
Proof.
  intros ((tail & Hc') & Hwf' & Hchain) (n' & Hcan & D).
  split; [exists (bs ++ tail); rewrite Hc', app_assoc; reflexivity|]. split; [exact Hwf'|].
  intros _. destruct (pushed_readers h Hh c bs tail c' n' Hc' Hwf' D) as (S & Rv & O).
  exists n', (len (c ++ bs)). auto 6.
Qed.

Theorem new_compressor_sound_mixed : forall l st c c',
  Inv st c -> wf_bytes c -> Forall mitem_ok l ->
  build_mixed st c l = Ok c' ->
  (exists tail, c' = c ++ tail) /\ wf_bytes c' /\ (wf_bytes c' -> mixed_read_back c' (len c) l).
Proof.
  induction l as [|[n|n|b] t IH]; intros st c c' HI Hwf Hv H; cbn [build_mixed] in H.
  - inversion H; subst. split; [exists []; rewrite app_nil_r; reflexivity|]. split; [exact Hwf|reflexivity].
  - destruct (build_name st c (wire_abs n)) as [[bs st1]| | |] eqn:B; cbn [bind] in H; try discriminate H.
    pose proof (Forall_inv Hv) as [Hvn Hln].
    destruct (build_name_sound h Hh st c n bs st1 HI Hvn Hln B) as (HI1 & Hwfb & D).
    apply (pushed_mixed n t c c' bs); [|exact D].
    apply (IH st1); [exact HI1|apply wf_bytes_app; auto|exact (Forall_inv_tail Hv)|exact H].
  - destruct (build_revname st c (to_rev (wire_abs n))) as [[bs st1]| | |] eqn:B; cbn [bind] in H; try discriminate H.
    pose proof (Forall_inv Hv) as [Hvn Hln].
    destruct (build_revname_sound st c n bs st1 HI Hvn Hln B) as (HI1 & Hwfb & D).
    apply (pushed_mixed n t c c' bs); [|exact D].
    apply (IH st1); [exact HI1|apply wf_bytes_app; auto|exact (Forall_inv_tail Hv)|exact H].
  - destruct (IH st (c ++ b) c' (Inv_app _ _ _ HI) ltac:(apply wf_bytes_app; split; [auto|apply (Forall_inv Hv)]) (Forall_inv_tail Hv) H)
      as ((tail & Hc') & Hwf' & Hchain).
    split; [exists (b ++ tail); rewrite Hc', app_assoc; reflexivity|]. split; [exact Hwf'|].
    cbn [mixed_read_back]. rewrite <- len_app. exact Hchain.
Qed.
End REVSEQ2.

Example mixed_example :
  let a := [[97];[99;111;109]] in let b := [[98];[97];[99;111;109]] in
  exists c, build_mixed cs_new [] [MRev a; MRaw [0;1;0;1]; MName b; MRev b] = Ok c /\
            c = wire_abs a ++ [0;1;0;1] ++ [1;98;192;12] ++ [192;23].
Proof. eexists. split; vm_compute; reflexivity. Qed.

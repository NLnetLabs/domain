(* Decoding paths and the OLD reader (Base/PName.v).
   [dpath R m cur seg nl n e]: starting at offset cur (inside the segment that
   starts at seg, with nl octets of name already collected) the labels n can
   be read off the message m, following compression pointers admitted by the
   rule R seg (position of pointer) target; e is the offset just behind the
   first terminator (root label or pointer).  The old reader is sound and
   complete for dpath R_old. *)
From Coq Require Import NArith PeanoNat List Lia.
From DV Require Import Base.Outcome Base.Bytes Base.Names Base.PName.
Import ListNotations.
Local Open Scope N_scope.

Definition ptr_val (b c : N) : N := c + 256 * (b mod 64).
Definition R_old (seg cur t : N) : Prop := t < cur.
Definition R_new (seg cur t : N) : Prop := 12 <= t /\ t < seg.

Inductive pchain (R : N -> N -> N -> Prop) (m : bytes) : N -> N -> N -> Prop :=
| pc_last seg cur b c b' :
    get m cur = Some b -> 192 <= b -> get m (cur + 1) = Some c ->
    R seg cur (ptr_val b c) -> get m (ptr_val b c) = Some b' -> b' <= 63 ->
    pchain R m seg cur (ptr_val b c)
| pc_more seg cur b c t' :
    get m cur = Some b -> 192 <= b -> get m (cur + 1) = Some c ->
    R seg cur (ptr_val b c) -> pchain R m (ptr_val b c) (ptr_val b c) t' ->
    pchain R m seg cur t'.

Inductive dpath (R : N -> N -> N -> Prop) (m : bytes) : N -> N -> N -> name -> N -> Prop :=
| dp_root cur seg nl : get m cur = Some 0 -> dpath R m cur seg nl [] (cur + 1)
| dp_label cur seg nl b rest e :
    get m cur = Some b -> 1 <= b -> b <= 63 -> cur + 1 + b <= mlen m -> nl + b + 1 < 255 ->
    dpath R m (cur + 1 + b) seg (nl + b + 1) rest e ->
    dpath R m cur seg nl (slice m (cur + 1) (cur + 1 + b) :: rest) e
| dp_ptr cur seg nl t rest e' :
    pchain R m seg cur t -> dpath R m t t nl rest e' -> dpath R m cur seg nl rest (cur + 2).

Lemma get_lt m i b : get m i = Some b -> i < mlen m.
Proof.
  unfold get, mlen. intros H.
  assert (Hn : (N.to_nat i < length m)%nat) by (apply nth_error_Some; congruence). lia.
Qed.

Lemma slice_length m a b : b <= mlen m -> a <= b -> length (slice m a b) = N.to_nat (b - a).
Proof.
  unfold slice, mlen. intros Hb Ha. rewrite firstn_length, skipn_length. lia.
Qed.

Lemma ltp_normal_inv m pos lim l p' :
  label_type_parse m pos lim = Ok (LNormal l, p') ->
  get m pos = Some l /\ l <= 63 /\ p' = pos + 1 /\ pos < lim.
Proof.
  unfold label_type_parse. destruct (N.leb_spec lim pos) as [H|H]; [discriminate|].
  destruct (get m pos) as [b|]; [|discriminate].
  destruct (N.leb_spec b 63) as [H1|H1].
  - intros E; inversion E; subst. auto.
  - destruct (N.leb_spec 192 b); [|discriminate].
    destruct (N.leb_spec lim (pos + 1)); [discriminate|].
    destruct (get m (pos + 1)); discriminate.
Qed.

Lemma ltp_comp_inv m pos lim p p' :
  label_type_parse m pos lim = Ok (LCompressed p, p') ->
  exists b c, get m pos = Some b /\ 192 <= b /\ get m (pos + 1) = Some c /\
              p = ptr_val b c /\ p' = pos + 2 /\ pos + 1 < lim.
Proof.
  unfold label_type_parse. destruct (N.leb_spec lim pos) as [H|H]; [discriminate|].
  destruct (get m pos) as [b|]; [|discriminate].
  destruct (N.leb_spec b 63) as [H1|H1]; [discriminate|].
  destruct (N.leb_spec 192 b) as [H2|H2]; [|discriminate].
  destruct (N.leb_spec lim (pos + 1)) as [H3|H3]; [discriminate|].
  destruct (get m (pos + 1)) as [c|] eqn:Ec; [|discriminate].
  intros E; inversion E; subst. exists b, c. unfold ptr_val. repeat split; auto.
Qed.

Lemma ltp_normal m pos b :
  get m pos = Some b -> b <= 63 -> label_type_parse m pos (mlen m) = Ok (LNormal b, pos + 1).
Proof.
  intros G Hb. unfold label_type_parse. pose proof (get_lt _ _ _ G).
  destruct (N.leb_spec (mlen m) pos); [lia|]. rewrite G.
  destruct (N.leb_spec b 63); [reflexivity|lia].
Qed.

Lemma ltp_comp m pos b c :
  get m pos = Some b -> 192 <= b -> get m (pos + 1) = Some c ->
  label_type_parse m pos (mlen m) = Ok (LCompressed (ptr_val b c), pos + 2).
Proof.
  intros G Hb G1. unfold label_type_parse. pose proof (get_lt _ _ _ G). pose proof (get_lt _ _ _ G1).
  destruct (N.leb_spec (mlen m) pos); [lia|]. rewrite G.
  destruct (N.leb_spec b 63); [lia|]. destruct (N.leb_spec 192 b); [|lia].
  destruct (N.leb_spec (mlen m) (pos + 1)); [lia|]. rewrite G1. reflexivity.
Qed.

Lemma pchain_first R m seg cur t : pchain R m seg cur t ->
  exists b c, get m cur = Some b /\ 192 <= b /\ get m (cur + 1) = Some c /\ R seg cur (ptr_val b c).
Proof. intros H; inversion H; subst; eauto 8. Qed.

Lemma pchain_end R m seg cur t : pchain R m seg cur t -> exists b', get m t = Some b' /\ b' <= 63.
Proof. induction 1; eauto. Qed.

(* a pointer to where a path starts is a step of a path, whatever stands at the target *)
Lemma dp_ptr_to (R : N -> N -> N -> Prop) m cur seg nl b c n e' :
  get m cur = Some b -> 192 <= b -> get m (cur + 1) = Some c -> R seg cur (ptr_val b c) ->
  dpath R m (ptr_val b c) (ptr_val b c) nl n e' -> dpath R m cur seg nl n (cur + 2).
Proof.
  intros G Hb G1 HR D.
  inversion D as [? ? ? G2|? ? ? b2 ? ? G2 H1 H2 ? ? ?|? ? ? t ? ? PC D2]; subst.
  - eapply dp_ptr; [|exact D]. eapply pc_last; eauto. lia.
  - eapply dp_ptr; [|exact D]. eapply pc_last; eauto.
  - eapply dp_ptr; [|exact D2]. eapply pc_more; eauto.
Qed.

Lemma pchain_mono (R R' : N -> N -> N -> Prop) m seg cur t :
  (forall s c x, s <= c -> R s c x -> x <= c /\ R' s c x) -> seg <= cur ->
  pchain R m seg cur t -> pchain R' m seg cur t.
Proof.
  intros HR Hs H. revert Hs. induction H; intros Hs.
  - destruct (HR _ _ _ Hs H2). eapply pc_last; eauto.
  - destruct (HR _ _ _ Hs H2). eapply pc_more; eauto. apply IHpchain. lia.
Qed.

Lemma dpath_mono (R R' : N -> N -> N -> Prop) m cur seg nl n e :
  (forall s c x, s <= c -> R s c x -> x <= c /\ R' s c x) -> seg <= cur ->
  dpath R m cur seg nl n e -> dpath R' m cur seg nl n e.
Proof.
  intros HR Hs H. revert Hs. induction H; intros Hs.
  - constructor; auto.
  - econstructor; eauto. apply IHdpath. lia.
  - econstructor; [eapply pchain_mono; eauto|]. apply IHdpath. lia.
Qed.

(* the new rule is the stricter one *)
Lemma dpath_new_old m cur seg nl n e : seg <= cur -> dpath R_new m cur seg nl n e -> dpath R_old m cur seg nl n e.
Proof. intros Hs. apply dpath_mono; [|exact Hs]. unfold R_new, R_old. intros; lia. Qed.

(* R_old ignores the segment *)
Lemma pchain_old_seg m seg seg' cur t : pchain R_old m seg cur t -> pchain R_old m seg' cur t.
Proof. intros H. revert seg'. induction H; intros; [eapply pc_last|eapply pc_more]; eauto. Qed.

Lemma dpath_old_seg m cur seg seg' nl n e : dpath R_old m cur seg nl n e -> dpath R_old m cur seg' nl n e.
Proof.
  intros H. revert seg'. induction H; intros.
  - constructor; auto.
  - econstructor; eauto.
  - econstructor; eauto using pchain_old_seg.
Qed.

Lemma dpath_len R m cur seg nl n e : dpath R m cur seg nl n e -> nl < 255 ->
  nl + N.of_nat (wire_len n) < 255 /\ (2 * length n <= wire_len n)%nat.
Proof.
  induction 1; intros Hn.
  - simpl. lia.
  - destruct (IHdpath ltac:(lia)) as [A B]. cbn [wire_len length].
    rewrite slice_length by lia. lia.
  - auto.
Qed.

Lemma hops_sound m fuel : forall seg cur b c t,
  get m cur = Some b -> 192 <= b -> get m (cur + 1) = Some c ->
  hops fuel m (mlen m) (ptr_val b c) (cur + 2) = Ok t -> pchain R_old m seg cur t.
Proof.
  induction fuel as [|fuel IH]; intros seg cur b c t G Hb G1 H; [discriminate|].
  cbn [hops] in H.
  destruct (N.leb_spec (cur + 2 - 2) (ptr_val b c)) as [H0|H0]; [discriminate|].
  destruct (N.ltb_spec (mlen m) (ptr_val b c)) as [H1|H1]; [discriminate|].
  destruct (label_type_parse m (ptr_val b c) (mlen m)) as [[[l|p2] a2]| | |] eqn:E; try discriminate.
  - inversion H; subst t. apply ltp_normal_inv in E as (G2 & Hl & _ & _).
    eapply pc_last; eauto. unfold R_old. lia.
  - apply ltp_comp_inv in E as (b2 & c2 & G2 & Hb2 & G3 & -> & -> & _).
    eapply pc_more; eauto. unfold R_old; lia.
Qed.

Definition endsel (endp : option N) (e : N) : N := match endp with None => e | Some x => x end.

Lemma parse_labels_sound m fuel : forall cur nl start cf endp pn seg,
  nl < 255 -> (nl = 0 -> start = cur) ->
  parse_labels fuel m (mlen m) cur nl start cf endp = Ok pn ->
  exists n e, dpath R_old m cur seg nl n e /\
    pn_len pn = nl + N.of_nat (wire_len n) + 1 /\ pn_end pn = endsel endp e /\
    (nl <> 0 -> pn_pos pn = start) /\
    (nl = 0 -> exists e', dpath R_old m (pn_pos pn) (pn_pos pn) 0 n e').
Proof.
  induction fuel as [|fuel IH]; intros cur nl start cf endp pn seg Hnl Hst H; [discriminate|].
  cbn [parse_labels] in H.
  destruct (label_type_parse m cur (mlen m)) as [[[l|p] cur']| | |] eqn:E; try discriminate.
  - apply ltp_normal_inv in E as (G & Hl & -> & Hlt).
    destruct (N.eqb_spec l 0) as [->|Hl0].
    + inversion H; subst pn. cbn [pn_len pn_end pn_pos]. exists [], (cur + 1).
      split; [constructor; auto|]. split; [cbn; lia|]. split; [destruct endp; reflexivity|].
      split; [reflexivity|].
      intros Hz. rewrite (Hst Hz). exists (cur + 1). constructor; auto.
    + destruct (N.ltb_spec (mlen m - (cur + 1)) l) as [Hs|Hs]; [discriminate|].
      destruct (N.leb_spec 255 (nl + l + 1)) as [Hc|Hc]; [discriminate|].
      apply IH with (seg := seg) in H; [|lia|lia].
      destruct H as (n & e & D & Hlen & Hend & Hpos & _).
      assert (Hsl : length (slice m (cur + 1) (cur + 1 + l)) = N.to_nat l).
      { rewrite slice_length by lia. f_equal. lia. }
      exists (slice m (cur + 1) (cur + 1 + l) :: n), e.
      assert (DD : forall s, dpath R_old m cur s nl (slice m (cur + 1) (cur + 1 + l) :: n) e).
      { intros s. econstructor; eauto; try lia. eapply dpath_old_seg; eauto. }
      repeat split; auto.
      * cbn [wire_len]. rewrite Hsl. lia.
      * intros _. rewrite Hpos by lia. reflexivity.
      * intros Hz. rewrite Hpos by lia. rewrite (Hst Hz). subst nl. eauto.
  - apply ltp_comp_inv in E as (b & c & G & Hb & G1 & -> & -> & Hlt).
    destruct (hops (S (S (N.to_nat (ptr_val b c)))) m (mlen m) (ptr_val b c) (cur + 2)) as [t| | |] eqn:Eh;
      cbn [bind] in H; try discriminate.
    pose proof (hops_sound _ _ seg _ _ _ _ G Hb G1 Eh) as PC.
    destruct (N.eqb_spec nl 0) as [Hz|Hz].
    + apply IH with (seg := t) in H; auto.
      destruct H as (n & e & D & Hlen & Hend & _ & Hpos).
      exists n, (cur + 2). repeat split; auto.
      * econstructor; eauto.
      * rewrite Hend. destruct endp; reflexivity.
      * intros; contradiction.
    + apply IH with (seg := t) in H; auto; [|intros; contradiction].
      destruct H as (n & e & D & Hlen & Hend & Hpos & _).
      exists n, (cur + 2). repeat split; auto.
      * econstructor; eauto.
      * rewrite Hend. destruct endp; reflexivity.
      * intros; contradiction.
Qed.

Lemma hops_complete m seg cur t : pchain R_old m seg cur t ->
  exists b c, get m cur = Some b /\ 192 <= b /\ get m (cur + 1) = Some c /\ ptr_val b c < cur /\
    forall fuel, (N.to_nat (ptr_val b c) < fuel)%nat ->
      hops fuel m (mlen m) (ptr_val b c) (cur + 2) = Ok t.
Proof.
  induction 1 as [seg cur b c b' G Hb G1 HR G2 Hb'|seg cur b c t' G Hb G1 HR PC IH].
  - exists b, c. unfold R_old in HR. repeat split; auto. intros fuel Hf.
    destruct fuel as [|fuel]; [lia|]. cbn [hops].
    pose proof (get_lt _ _ _ G).
    destruct (N.leb_spec (cur + 2 - 2) (ptr_val b c)); [lia|].
    destruct (N.ltb_spec (mlen m) (ptr_val b c)); [lia|].
    rewrite (ltp_normal _ _ _ G2 Hb'). reflexivity.
  - destruct IH as (b2 & c2 & G2 & Hb2 & G3 & Hlt & IH).
    exists b, c. unfold R_old in HR. repeat split; auto. intros fuel Hf.
    destruct fuel as [|fuel]; [lia|]. cbn [hops].
    pose proof (get_lt _ _ _ G).
    destruct (N.leb_spec (cur + 2 - 2) (ptr_val b c)); [lia|].
    destruct (N.ltb_spec (mlen m) (ptr_val b c)); [lia|].
    rewrite (ltp_comp _ _ _ _ G2 Hb2 G3). apply IH. lia.
Qed.

Definition normal_at (m : bytes) (cur : N) : nat :=
  match get m cur with Some b => if b <=? 63 then 1%nat else 0%nat | None => 0%nat end.

Lemma parse_labels_complete m cur seg nl n e : dpath R_old m cur seg nl n e -> nl < 255 ->
  forall fuel start cf endp, (2 * length n + 2 <= fuel + normal_at m cur)%nat ->
    (nl = 0 -> start = cur) ->
    exists pn, parse_labels fuel m (mlen m) cur nl start cf endp = Ok pn /\
      pn_len pn = nl + N.of_nat (wire_len n) + 1 /\ pn_end pn = endsel endp e /\
      (nl <> 0 -> pn_pos pn = start) /\
      (nl = 0 -> exists e', dpath R_old m (pn_pos pn) (pn_pos pn) 0 n e').
Proof.
  induction 1 as [cur seg nl G|cur seg nl b rest e G Hb1 Hb2 Hlen Hcap D IH|cur seg nl t rest e' PC D IH];
    intros Hnl fuel start cf endp Hf Hst.
  - unfold normal_at in Hf. rewrite G in Hf. cbn in Hf.
    destruct fuel as [|fuel]; [lia|]. cbn [parse_labels].
    rewrite (ltp_normal _ _ _ G ltac:(lia)). cbn.
    eexists. split; [reflexivity|]. cbn [pn_len pn_end pn_pos].
    split; [lia|]. split; [destruct endp; reflexivity|]. split; [reflexivity|].
    intros Hz. rewrite (Hst Hz). exists (cur + 1). constructor; auto.
  - unfold normal_at in Hf. rewrite G in Hf. destruct (N.leb_spec b 63); [|lia].
    destruct fuel as [|fuel]; [lia|]. cbn [parse_labels].
    rewrite (ltp_normal _ _ _ G Hb2).
    destruct (N.eqb_spec b 0); [lia|].
    destruct (N.ltb_spec (mlen m - (cur + 1)) b); [lia|].
    destruct (N.leb_spec 255 (nl + b + 1)); [lia|].
    assert (Hsl : length (slice m (cur + 1) (cur + 1 + b)) = N.to_nat b).
    { rewrite slice_length by lia. f_equal. lia. }
    destruct (IH ltac:(lia) fuel start cf endp) as (pn & P & Hl & He & Hp & _).
    { cbn [length] in Hf. lia. }
    { lia. }
    exists pn. split; [exact P|]. split; [cbn [wire_len]; rewrite Hsl; lia|].
    split; [exact He|]. split; [intros _; apply Hp; lia|].
    intros Hz. rewrite Hp by lia. rewrite (Hst Hz). exists e. subst nl.
    eapply dp_label; [exact G|lia|lia|lia|lia|eapply dpath_old_seg; exact D].
  - destruct (hops_complete _ _ _ _ PC) as (b & c & G & Hb & G1 & Hlt & HH).
    destruct (pchain_end _ _ _ _ _ PC) as (b' & G' & Hb').
    unfold normal_at in Hf. rewrite G in Hf. destruct (N.leb_spec b 63); [lia|].
    destruct fuel as [|fuel]; [lia|]. cbn [parse_labels].
    rewrite (ltp_comp _ _ _ _ G Hb G1).
    rewrite (HH (S (S (N.to_nat (ptr_val b c)))) ltac:(lia)). cbn [bind].
    assert (Hf' : (2 * length rest + 2 <= fuel + normal_at m t)%nat).
    { unfold normal_at. rewrite G'. destruct (N.leb_spec b' 63); lia. }
    destruct (N.eqb_spec nl 0) as [Hz|Hz].
    + destruct (IH Hnl fuel t false (match endp with None => Some (cur + 2) | Some e0 => Some e0 end) Hf' ltac:(auto))
        as (pn & P & Hl & He & _ & Hp).
      exists pn. split; [exact P|]. split; [exact Hl|].
      split; [rewrite He; destruct endp; reflexivity|]. split; [intros; contradiction|]. auto.
    + destruct (IH Hnl fuel start true (match endp with None => Some (cur + 2) | Some e0 => Some e0 end) Hf' ltac:(intros; contradiction))
        as (pn & P & Hl & He & Hp & _).
      exists pn. split; [exact P|]. split; [exact Hl|].
      split; [rewrite He; destruct endp; reflexivity|]. split; [auto|]. intros; contradiction.
Qed.

(* ParsedNameIter: the unchecked re-walk yields the labels of the path *)
Lemma get_label_chain m seg cur t : pchain R_old m seg cur t ->
  forall f f2, (N.to_nat cur < f)%nat -> (0 < f2)%nat -> get_label f m cur = get_label f2 m t.
Proof.
  induction 1 as [seg cur b c b' G Hb G1 HR G2 Hb'|seg cur b c t' G Hb G1 HR PC IH]; intros f f2 Hf Hf2;
    unfold R_old in HR.
  - destruct f as [|f]; [lia|]. cbn [get_label]. rewrite G.
    destruct (N.leb_spec b 63); [lia|]. destruct (N.leb_spec 192 b); [|lia]. rewrite G1.
    fold (ptr_val b c).
    destruct f as [|f]; [lia|]. destruct f2 as [|f2]; [lia|].
    cbn [get_label]. rewrite G2. destruct (N.leb_spec b' 63); [reflexivity|lia].
  - destruct f as [|f]; [lia|]. cbn [get_label]. rewrite G.
    destruct (N.leb_spec b 63); [lia|]. destruct (N.leb_spec 192 b); [|lia]. rewrite G1.
    fold (ptr_val b c). apply IH; lia.
Qed.

Lemma get_label_normal m cur b f : get m cur = Some b -> b <= 63 -> cur + 1 + b <= mlen m ->
  get_label (S f) m cur = Ok (slice m (cur + 1) (cur + 1 + b), cur + 1 + b).
Proof.
  intros G Hb Hl. cbn [get_label]. rewrite G. destruct (N.leb_spec b 63); [|lia].
  cbv zeta. destruct (N.ltb_spec (mlen m) (cur + 1 + b)); [lia|]. reflexivity.
Qed.

Lemma iter_labels_complete m cur seg nl n e : dpath R_old m cur seg nl n e ->
  forall fuel acc, (length n < fuel)%nat ->
    iter_labels fuel m cur (N.of_nat (wire_len n) + 1) acc = Ok (rev acc ++ n, true).
Proof.
  induction 1 as [cur seg nl G|cur seg nl b rest e G Hb1 Hb2 Hlen Hcap D IH|cur seg nl t rest e' PC D IH];
    intros fuel acc Hf.
  - destruct fuel as [|fuel]; [lia|]. cbn [iter_labels wire_len].
    pose proof (get_lt _ _ _ G).
    rewrite (get_label_normal _ _ 0 _ G) by lia. cbn [bind].
    replace (slice m (cur + 1) (cur + 1 + 0)) with (@nil N)
      by (unfold slice; replace (cur + 1 + 0 - (cur + 1)) with 0 by lia; reflexivity).
    cbn. rewrite app_nil_r. reflexivity.
  - destruct fuel as [|fuel]; [cbn in Hf; lia|]. cbn [iter_labels].
    assert (Hsl : length (slice m (cur + 1) (cur + 1 + b)) = N.to_nat b).
    { rewrite slice_length by lia. f_equal. lia. }
    cbn [wire_len]. rewrite Hsl.
    destruct (N.eqb_spec (N.of_nat (S (N.to_nat b) + wire_len rest) + 1) 0); [lia|].
    rewrite (get_label_normal _ _ b _ G) by lia. cbn [bind]. rewrite Hsl.
    destruct (N.ltb_spec (N.of_nat (S (N.to_nat b) + wire_len rest) + 1) (N.of_nat (N.to_nat b) + 1)); [lia|].
    destruct (Nat.eqb_spec (N.to_nat b) 0); [lia|].
    replace (N.of_nat (S (N.to_nat b) + wire_len rest) + 1 - (N.of_nat (N.to_nat b) + 1))
      with (N.of_nat (wire_len rest) + 1) by lia.
    rewrite IH by (cbn in Hf; lia). cbn [rev]. rewrite <- app_assoc. reflexivity.
  - destruct fuel as [|fuel]; [lia|].
    pose proof (IH (S fuel) acc Hf) as IH'. cbn [iter_labels] in IH' |- *.
    destruct (N.eqb_spec (N.of_nat (wire_len rest) + 1) 0); [lia|].
    destruct (pchain_first _ _ _ _ _ PC) as (b & c & G & _).
    pose proof (get_lt _ _ _ G).
    rewrite (get_label_chain _ _ _ _ PC (S (length m)) (S (length m))) by (unfold mlen in *; lia).
    exact IH'.
Qed.

Lemma parse_fuel_ge : (256 <= PARSE_FUEL)%nat.
Proof. unfold PARSE_FUEL. lia. Qed.

Theorem old_complete m p n e : dpath R_old m p p 0 n e -> decode_name m p (mlen m) = Ok (n, e).
Proof.
  intros D. destruct (dpath_len _ _ _ _ _ _ _ D ltac:(lia)) as [L1 L2].
  unfold decode_name, parse_ref, pname_labels.
  generalize parse_fuel_ge. generalize PARSE_FUEL. intros F HF.
  destruct (parse_labels_complete _ _ _ _ _ _ D ltac:(lia) F p false None) as (pn & P & Hl & He & _ & Hp).
  { lia. } { auto. }
  rewrite P. cbn [bind]. destruct (Hp eq_refl) as (e' & D').
  rewrite Hl. replace (0 + N.of_nat (wire_len n) + 1) with (N.of_nat (wire_len n) + 1) by lia.
  rewrite (iter_labels_complete _ _ _ _ _ _ D') by lia. cbn [bind fst]. rewrite He. reflexivity.
Qed.

Theorem old_sound m p n e : decode_name m p (mlen m) = Ok (n, e) -> dpath R_old m p p 0 n e.
Proof.
  unfold decode_name, parse_ref, pname_labels.
  generalize parse_fuel_ge. generalize PARSE_FUEL. intros F HF H.
  destruct (parse_labels F m (mlen m) p 0 p false None) as [pn| | |] eqn:P; try discriminate.
  cbn [bind] in H.
  destruct (parse_labels_sound m F p 0 p false None pn p ltac:(lia) ltac:(auto) P) as (n' & e' & D & Hl & He & _ & Hp).
  destruct (Hp eq_refl) as (e'' & D').
  destruct (dpath_len _ _ _ _ _ _ _ D ltac:(lia)) as [L1 L2].
  rewrite Hl in H.
  replace (0 + N.of_nat (wire_len n') + 1) with (N.of_nat (wire_len n') + 1) in H by lia.
  rewrite (iter_labels_complete _ _ _ _ _ _ D') in H by lia. cbn [bind fst] in H.
  inversion H; subst. rewrite He. exact D.
Qed.

(* The record builder of the new API writes the owner name,
   the fixed fields, RESERVES the two octets of the RDATA size, builds the RDATA
   through the compressor and only then fills in the size
   (Record::build_in_message, SizePrefixed::build_in_message).  The reserved
   octets never meet a compressor entry or the two octets behind one, so the
   message with the size filled in is octet for octet the message that would have
   been built had the size been there from the start - to which the soundness
   theorems of ProofsCmpInv apply. *)
From Coq Require Import NArith PeanoNat List Bool Lia.
From DV Require Import Base.Outcome Base.Bytes Base.Names C19.Gen C19.Model C19.ModelCmp C19.ProofsCmpInv
  C19.ProofsCmpRegions.
Import ListNotations.
Local Open Scope N_scope.

(* no used slot, with the two octets behind it, meets [a, a + k) *)
Definition Dis (st : cstate) (a k : N) : Prop :=
  length (cs_pos st) = length (cs_len st) /\
  forall i, nth i (cs_len st) 0 <> 0 ->
    nth i (cs_pos st) 0 + nth i (cs_len st) 0 + 2 <= a \/ a + k <= nth i (cs_pos st) 0.

Lemma compress_loop_slots fuel : forall st c name parent poff hash r,
  compress_loop fuel st c name parent poff hash = Ok r ->
  cs_pos (fst (fst (fst (fst r)))) = cs_pos st /\ cs_len (fst (fst (fst (fst r)))) = cs_len st.
Proof.
  induction fuel as [|fuel IH]; intros st c name parent poff hash r H; [discriminate H|].
  cbn [compress_loop] in H. destruct name as [|x nm]; [inversion H; auto|].
  destruct (lookup_from 32 0 st c (x :: nm) parent poff hash) as [|i rest h p|s]; [inversion H; auto| |discriminate H].
  destruct (cn_range_check && cmp_ge cn_range_ge (p + cn_range_add) cn_range_bound); [inversion H; auto|].
  apply IH in H. destruct H as [H1 H2]. rewrite H1, H2. destruct (cmp_lt _ _ _); auto.
Qed.

Local Opaque compress_loop lookup_from last_label hash_label first_min.

(* a push keeps the reserved range free: a new slot starts at the end of the contents *)
Lemma build_name_dis st c w bs st' a k : Dis st a k -> a + k <= len c ->
  build_name st c w = Ok (bs, st') -> Dis st' a k.
Proof.
  intros [W D] Hc H. unfold build_name in H.
  destruct (compress_name st c w) as [[res st2]| | |] eqn:EC; cbn [bind] in H; try discriminate H.
  assert (st' = st2) by (destruct res as [[rest addr]|]; [destruct (65535 <? addr + bim_ptr_add); [discriminate H|]|]; inversion H; reflexivity).
  subst st'. clear H. unfold compress_name in EC.
  destruct (firstn (length w - 1) w) as [|x nm]; [inversion EC; subst; split; assumption|].
  destruct (last_label (x :: nm)) as [lab| | |]; cbn [bind] in EC; try discriminate EC.
  destruct (compress_loop (S (length (x :: nm))) st c (x :: nm) cn_no_parent None (hash_label lab)) as [r| | |] eqn:EL; cbn [bind] in EC; try discriminate EC.
  destruct (compress_loop_slots _ _ _ _ _ _ _ _ EL) as [P1 P2].
  destruct r as [[[[st1 name'] parent] poff] hash]. cbn [fst] in P1, P2.
  assert (D1 : Dis st1 a k) by (split; [rewrite P1, P2; exact W|intros i; rewrite P1, P2; apply D]).
  change cn_reg_strict with true in EC. change cn_reg_add with 12 in EC. change cn_reg_bound with 16384 in EC. unfold cmp_lt in EC.
  destruct name' as [|y nm']; [inversion EC; subst; exact D1|].
  destruct (N.ltb_spec (len c + 12) 16384) as [Hr|Hr]; [|inversion EC; subst; exact D1].
  inversion EC; subst st2. clear EC. destruct D1 as [W1 D1].
  split; [cbn [cs_pos cs_len]; rewrite !set_nth_length; exact W1|].
  intros i. cbn [cs_pos cs_len]. rewrite !nth_set_nth, <- W1.
  destruct ((i =? first_min (cs_use st1))%nat && (first_min (cs_use st1) <? length (cs_pos st1))%nat).
  - intros _. right. rewrite N.mod_small by lia. exact Hc.
  - apply D1.
Qed.

Lemma build_name_patch st A X Y B w : length X = length Y -> Dis st (len A) (len X) ->
  build_name st (A ++ X ++ B) w = build_name st (A ++ Y ++ B) w.
Proof.
  intros HXY [_ D]. unfold build_name. rewrite (patch_invariant st A X Y B w HXY D). reflexivity.
Qed.

(* everything built behind the reserved octets X is the same whatever X holds *)
Lemma build_items_patch l : forall st A X Y B r, length X = length Y -> Dis st (len A) (len X) ->
  build_items st (A ++ X ++ B) l = Ok r ->
  exists B', r = A ++ X ++ B' /\ build_items st (A ++ Y ++ B) l = Ok (A ++ Y ++ B').
Proof.
  induction l as [|[n|b] t IH]; intros st A X Y B r HXY HD H; cbn [build_items] in *.
  - inversion H; subst. eauto.
  - rewrite <- (build_name_patch st A X Y B _ HXY HD).
    destruct (build_name st (A ++ X ++ B) (wire_abs n)) as [[bs st1]| | |] eqn:BN; cbn [bind] in *; try discriminate H.
    assert (HD1 : Dis st1 (len A) (len X)).
    { eapply build_name_dis; [exact HD| |exact BN]. unfold len. rewrite !app_length. lia. }
    replace ((A ++ X ++ B) ++ bs) with (A ++ X ++ (B ++ bs)) in H by (rewrite <- !app_assoc; reflexivity).
    replace ((A ++ Y ++ B) ++ bs) with (A ++ Y ++ (B ++ bs)) by (rewrite <- !app_assoc; reflexivity).
    eapply IH; eauto.
  - replace ((A ++ X ++ B) ++ b) with (A ++ X ++ (B ++ b)) in H by (rewrite <- !app_assoc; reflexivity).
    replace ((A ++ Y ++ B) ++ b) with (A ++ Y ++ (B ++ b)) by (rewrite <- !app_assoc; reflexivity).
    eapply IH; eauto.
Qed.

(* Record::build_in_message: owner name through the compressor, the fixed
   octets (type, class, TTL), then SizePrefixed: the two octets at data_start - 2
   are left as they are in the buffer (`stale`), the RDATA items are built behind
   them, and the size is written over them at the end; a size that does not fit
   16 bits is a TruncationError. *)
Definition E_TRUNC : N := 1.
Definition patch_size (m : bytes) (q size : N) : bytes :=
  firstn (N.to_nat q) m ++ [size / 256; size mod 256] ++ skipn (N.to_nat q + 2) m.

Definition build_record (st : cstate) (c : bytes) (owner : name) (fixed stale : bytes) (rd : list item)
  : outcome bytes :=
  do r <- build_name st c (wire_abs owner);
  let '(bs, st1) := r in
  let A := c ++ bs ++ fixed in
  do m <- build_items st1 (A ++ stale) rd;
  let size := len m - (len A + 2) in
  if 65535 <? size then Err E_TRUNC else Ok (patch_size m (len A) size).

(* the hypothesis of patch_invariant, derived: when the size field is reserved,
   every compressor entry and the two octets behind it lie in front of it *)
Theorem record_reserve_disjoint (h : bytes) (Hh : length h = 12%nat) st c owner bs st1 fixed :
  Inv st c -> valid_abs owner -> fixed <> [] ->
  build_name st c (wire_abs owner) = Ok (bs, st1) ->
  Dis st1 (len (c ++ bs ++ fixed)) 2.
Proof.
  intros HI [Hv Hl] Hf BN.
  destruct (build_name_sound h Hh st c owner bs st1 HI Hv Hl BN) as (HI1 & _ & _).
  split; [apply HI1|]. intros i Hi. left.
  pose proof (Inv_extent st1 (c ++ bs) i HI1 Hi) as HE. unfold ext_end in HE.
  assert (1 <= len fixed) by (destruct fixed; [congruence|unfold len; cbn [length]; lia]).
  rewrite app_assoc. unfold len in *. rewrite (app_length (c ++ bs)).
  destruct (nth i (cs_par st1) 0 =? 64); lia.
Qed.

Lemma patch_size_at A X B s : length X = 2%nat ->
  patch_size (A ++ X ++ B) (len A) s = A ++ [s / 256; s mod 256] ++ B.
Proof.
  intros HX. unfold patch_size, len. rewrite Nat2N.id.
  rewrite firstn_app, firstn_all, Nat.sub_diag, firstn_O, app_nil_r.
  replace (length A + 2)%nat with (length (A ++ X)) by (rewrite app_length; lia).
  replace (A ++ X ++ B) with ((A ++ X) ++ B) by (rewrite <- app_assoc; reflexivity).
  rewrite skipn_app, skipn_all, Nat.sub_diag, skipn_O. reflexivity.
Qed.

(* the record with the size filled in is the message built with the size octets
   in place from the start; every name in it reads back *)
Theorem record_patched_sound (h : bytes) (Hh : length h = 12%nat) st c owner fixed stale rd m :
  Inv st c -> wf_bytes c -> valid_abs owner -> wf_bytes fixed -> fixed <> [] -> length stale = 2%nat ->
  Forall item_ok rd ->
  build_record st c owner fixed stale rd = Ok m ->
  exists hi lo,
    build_items st c (IName owner :: IRaw fixed :: IRaw [hi; lo] :: rd) = Ok m /\
    (exists bs B, m = c ++ bs ++ fixed ++ [hi; lo] ++ B /\ hi * 256 + lo = len B /\ hi < 256 /\ lo < 256) /\
    wf_bytes m /\
    items_read_back h m (len c) (IName owner :: IRaw fixed :: IRaw [hi; lo] :: rd).
Proof.
  intros HI Hwc Hvo Hwf Hf Hs Hrd H. unfold build_record in H.
  destruct (build_name st c (wire_abs owner)) as [[bs st1]| | |] eqn:BN; cbn [bind] in H; try discriminate H.
  pose proof (record_reserve_disjoint h Hh st c owner bs st1 fixed HI Hvo Hf BN) as HD.
  set (A := c ++ bs ++ fixed) in *.
  destruct (build_items st1 (A ++ stale) rd) as [m0| | |] eqn:BI; cbn [bind] in H; try discriminate H.
  set (size := len m0 - (len A + 2)) in *.
  destruct (N.ltb_spec 65535 size) as [Hsz|Hsz]; [discriminate H|]. inversion H; subst m. clear H.
  assert (HD' : Dis st1 (len A) (len stale)) by (unfold len at 2; rewrite Hs; exact HD).
  replace (A ++ stale) with (A ++ stale ++ []) in BI by (rewrite app_nil_r; reflexivity).
  destruct (build_items_patch rd st1 A stale [size / 256; size mod 256] [] m0 Hs HD' BI) as (B' & -> & BI').
  rewrite (patch_size_at A stale B' size Hs).
  assert (Esz : size = len B').
  { unfold size, len. rewrite !app_length, Hs. lia. }
  exists (size / 256), (size mod 256).
  assert (Hhi : size / 256 < 256) by lia. assert (Hlo : size mod 256 < 256) by lia.
  assert (BIf : build_items st c (IName owner :: IRaw fixed :: IRaw [size / 256; size mod 256] :: rd)
                = Ok (A ++ [size / 256; size mod 256] ++ B')).
  { cbn [build_items]. rewrite BN. cbn [bind]. rewrite <- BI'. unfold A. f_equal.
    rewrite <- !app_assoc. cbn [app]. reflexivity. }
  split; [exact BIf|].
  split. { exists bs, B'. split; [unfold A; rewrite <- !app_assoc; reflexivity|]. rewrite <- Esz. lia. }
  assert (Hok : Forall item_ok (IName owner :: IRaw fixed :: IRaw [size / 256; size mod 256] :: rd)).
  { constructor; [exact Hvo|]. constructor; [exact Hwf|]. constructor; [|exact Hrd].
    constructor; [exact Hhi|]. constructor; [exact Hlo|constructor]. }
  destruct (new_compressor_sound_items h Hh _ st c _ HI Hwc Hok BIf) as (_ & Hw & Hrb).
  split; [exact Hw|exact (Hrb Hw)].
Qed.

(* and every later push sees the patched message exactly as it saw the stale one *)
Theorem record_patch_invisible st A X Y B w bs st' : length X = length Y ->
  Dis st (len A) (len X) ->
  build_name st (A ++ X ++ B) w = Ok (bs, st') ->
  build_name st (A ++ Y ++ B) w = Ok (bs, st') /\ Dis st' (len A) (len X).
Proof.
  intros HXY HD H. split; [rewrite <- (build_name_patch st A X Y B w HXY HD); exact H|].
  eapply build_name_dis; [exact HD| |exact H]. unfold len. rewrite !app_length. lia.
Qed.

(* non-vacuity: "a.b" IN MX 5 a.b - the exchange compresses to a pointer at the
   owner, the stale octets 7 7 become the size 0 4 *)
Definition ex_owner : name := [[97]; [98]].
Definition ex_fixed : bytes := [0; 15; 0; 1; 0; 0; 0; 60].
Example record_example :
  build_record cs_new [] ex_owner ex_fixed [7; 7] [IRaw [0; 5]; IName ex_owner]
  = Ok ([1; 97; 1; 98; 0] ++ ex_fixed ++ [0; 4] ++ [0; 5; 192; 12]).
Proof. vm_compute. reflexivity. Qed.

Lemma ex_owner_valid : valid_abs ex_owner.
Proof. apply valid_relb_spec. reflexivity. Qed.

Example record_example_reads_back : exists hi lo,
  items_read_back (repeat 0 12) ([1; 97; 1; 98; 0] ++ ex_fixed ++ [0; 4] ++ [0; 5; 192; 12]) 0
    [IName ex_owner; IRaw ex_fixed; IRaw [hi; lo]; IRaw [0; 5]; IName ex_owner].
Proof.
  assert (Hrd : Forall item_ok [IRaw [0; 5]; IName ex_owner]).
  { constructor; [apply bytesb_spec; reflexivity|]. constructor; [exact ex_owner_valid|constructor]. }
  destruct (record_patched_sound (repeat 0 12) eq_refl cs_new [] ex_owner ex_fixed [7; 7] _ _
              (Inv_new []) (Forall_nil _) ex_owner_valid ltac:(apply bytesb_spec; reflexivity)
              ltac:(discriminate) eq_refl Hrd record_example) as (hi & lo & _ & _ & _ & R).
  exists hi, lo. exact R.
Qed.

Example record_example_disjoint : exists bs st1,
  build_name cs_new [] (wire_abs ex_owner) = Ok (bs, st1) /\ Dis st1 (len ([] ++ bs ++ ex_fixed)) 2 /\
  exists i, nth i (cs_len st1) 0 <> 0.
Proof.
  destruct (build_name cs_new [] (wire_abs ex_owner)) as [[bs st1]| | |] eqn:E; try (vm_compute in E; discriminate E).
  exists bs, st1. split; [reflexivity|].
  split; [exact (record_reserve_disjoint (repeat 0 12) eq_refl cs_new [] ex_owner bs st1 ex_fixed (Inv_new []) ex_owner_valid ltac:(discriminate) E)|].
  vm_compute in E. inversion E; subst. exists (first_min (cs_use cs_new)). vm_compute. discriminate.
Qed.

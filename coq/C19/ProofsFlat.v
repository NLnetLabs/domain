(* The uncompressed name parser Name::split_bytes_by_ref
   accepts every valid name up to and including 255 octets, whatever follows. *)
From Coq Require Import NArith List Lia.
From DV Require Import Base.Outcome Base.Bytes Base.Names C19.Gen C19.Model.
Import ListNotations.
Local Open Scope N_scope.

Lemma get_from_app pre x : get_from (pre ++ x) (len pre) = Some x.
Proof.
  unfold get_from. destruct (N.ltb_spec (len (pre ++ x)) (len pre)) as [Q|_].
  { unfold len in Q. rewrite app_length in Q. lia. }
  unfold len. rewrite Nat2N.id. change (skipn (length pre) (pre ++ x)) with (drop (length pre) (pre ++ x)).
  rewrite drop_app_length. reflexivity.
Qed.

Lemma flat_walk_complete n : forall pre rest fuel, Forall valid_label n ->
  len pre + N.of_nat (wire_len n) + 1 <= 255 -> (length n < fuel)%nat ->
  flat_walk fuel (pre ++ wire_abs n ++ rest) (len pre) = Ok (pre ++ wire_abs n, rest).
Proof.
  induction n as [|l ls IH]; intros pre rest fuel Hv Hl Hf; (destruct fuel as [|fuel]; [cbn in Hf; lia|]); cbn [flat_walk].
  - change name_flat_strict with true. change name_flat_bound with 255. unfold cmp_lt.
    destruct (N.ltb_spec (len pre) 255); [|cbn in Hl; lia].
    rewrite get_from_app. change (wire_abs [] ++ rest) with (0 :: rest). cbn [N.eqb]. unfold len.
    replace (N.to_nat (N.of_nat (length pre) + 1)) with (length (pre ++ [0])) by (rewrite app_length; cbn [length]; lia).
    replace (pre ++ 0 :: rest) with ((pre ++ [0]) ++ rest) by (rewrite <- app_assoc; reflexivity).
    change (firstn (length (pre ++ [0])) ((pre ++ [0]) ++ rest)) with (take (length (pre ++ [0])) ((pre ++ [0]) ++ rest)).
    change (skipn (length (pre ++ [0])) ((pre ++ [0]) ++ rest)) with (drop (length (pre ++ [0])) ((pre ++ [0]) ++ rest)).
    rewrite take_app_length, drop_app_length. reflexivity.
  - pose proof (Forall_inv Hv) as [Hl1 Hl2]. pose proof (Forall_inv_tail Hv) as Hv'.
    cbn [wire_len] in Hl.
    change name_flat_strict with true. change name_flat_bound with 255. unfold cmp_lt.
    destruct (N.ltb_spec (len pre) 255); [|lia].
    rewrite get_from_app. rewrite wire_abs_cons.
    destruct (N.eqb_spec (N.of_nat (length l)) 0); [lia|].
    destruct (N.leb_spec (N.of_nat (length l)) 63); [|lia].
    destruct (N.leb_spec (N.of_nat (length l)) (len (l ++ wire_abs ls ++ rest))) as [_|Q]; [|unfold len in Q; rewrite app_length in Q; lia].
    cbn [andb].
    specialize (IH (pre ++ wire_label l) rest fuel Hv').
    replace (len pre + 1 + N.of_nat (length l)) with (len (pre ++ wire_label l)) by (unfold len, wire_label; rewrite app_length; cbn [length]; lia).
    replace (pre ++ N.of_nat (length l) :: l ++ wire_abs ls ++ rest) with ((pre ++ wire_label l) ++ wire_abs ls ++ rest)
      by (unfold wire_label; rewrite <- !app_assoc; reflexivity).
    rewrite IH.
    + f_equal. f_equal. unfold wire_abs, wire_rel. cbn [map concat]. rewrite <- !app_assoc. reflexivity.
    + unfold len, wire_label in *. rewrite app_length. cbn [length]. lia.
    + cbn in Hf. lia.
Qed.

Theorem flat_split_complete n rest : valid_abs n -> flat_split (wire_abs n ++ rest) = Ok (wire_abs n, rest).
Proof.
  intros [Hv Hl]. unfold flat_split.
  assert (Hn : (length n < 256)%nat).
  { assert (length n <= wire_len n)%nat by (clear; induction n; cbn; lia). lia. }
  exact (flat_walk_complete n [] rest 256 Hv ltac:(cbn; lia) Hn).
Qed.

(* 255 octets are accepted, 256 are not (seeded change C19-r4-1 moved this bound) *)
Example flat_boundary :
  let l63 := 63 :: repeat 120 63 in
  let n255 := l63 ++ l63 ++ l63 ++ (61 :: repeat 120 61) ++ [0] in
  let n256 := l63 ++ l63 ++ l63 ++ (62 :: repeat 120 62) ++ [0] in
  len n255 = 255 /\ flat_split n255 = Ok (n255, []) /\ len n256 = 256 /\ flat_split n256 = Err E_PARSE.
Proof. vm_compute. repeat split; reflexivity. Qed.

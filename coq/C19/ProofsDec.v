(* The T1 literals the name readers use, and the witnesses of the two known
   disagreements between the old and the new reader. *)
From Coq Require Import NArith List.
From DV Require Import Base.Outcome Base.Bytes C19.Gen C19.Model.
Import ListNotations.
Local Open Scope N_scope.

Lemma t1_consts :
  nb_label_bound = 64 /\ nb_label_bound_strict = true /\ nb_short_strict = true /\ nb_short_add = 1 /\
  nb_cap_strict = true /\ nb_cap_slack = 2 /\ nb_cap_total = 255 /\ nb_ptr_tag = 192 /\
  nb_ptr_tag_ge = true /\ nb_ptr_mask = 16383 /\ nb_split_hdr = 12 /\ nb_split_rule_ge = true /\
  nb_parse_hdr = 12 /\ nb_parse_rule_ge = true /\
  old_cap = 255 /\ old_cap_ge = true /\ old_ptr_ge = true /\ old_ptr_back = 2.
Proof. repeat split; reflexivity. Qed.

Definition hdr0 : bytes := [0;0;0;0;0;0;0;0;0;0;0;0].

(* DESIGN section 7 #17 *)
Lemma agree_refuted_own_segment :
  let c := [3;1;122;0;192;13] in
  c19_old (hdr0 ++ c) 12 = Ok ([[1;122;0]; [122]], 18) /\ new_split c 0 = Err E_PARSE /\
  PtrIntoOwnSegment (hdr0 ++ c) 12.
Proof. vm_compute. auto. Qed.

Lemma agree_refuted_header :
  let c := [192;11] in
  c19_old (hdr0 ++ c) 12 = Ok ([], 14) /\ new_split c 0 = Err E_PARSE /\
  PtrIntoHeader (hdr0 ++ c) 12.
Proof. vm_compute. auto. Qed.

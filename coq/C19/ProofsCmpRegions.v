(* The octets a message builder writes between names (fixed
   fields, the RDATA size prefix that SizePrefixed::build_in_message reserves
   first and fills in AFTER the RDATA has been built, opaque RDATA) never overlap
   a compressor entry or the root label / pointer behind it; and the compressor
   reads the contents only inside such extents.  Hence patching those octets
   later cannot change what the compressor does. *)
From Coq Require Import NArith List Bool Lia.
From DV Require Import Base.Outcome Base.Bytes C19.Gen C19.Model C19.ModelCmp C19.ProofsCmpSound C19.ProofsCmpInv.
Import ListNotations.
Local Open Scope N_scope.

(* the extent of a used slot: its octets and what follows them (root: 1, pointer: 2) *)
Definition ext_end (st : cstate) (i : nat) : N :=
  nth i (cs_pos st) 0 + nth i (cs_len st) 0 + (if nth i (cs_par st) 0 =? 64 then 1 else 2).

(* when the builder reserves the size prefix at the end of the contents written
   so far, every used slot already ends in front of it (exact extents); slots
   registered later start behind it (registration writes pos = len contents) *)
Lemma Inv_extent st c i : Inv st c -> nth i (cs_len st) 0 <> 0 -> ext_end st i <= len c.
Proof.
  intros [_ H] Hl. specialize (H i). unfold slot_ok in H. cbv zeta in H. destruct (H Hl) as [H1 H2]. unfold ext_end.
  destruct (N.eqb_spec (nth i (cs_par st) 0) 64) as [E|E].
  - specialize (H1 E). unfold byte_at in H1.
    assert (N.to_nat (nth i (cs_pos st) 0%N + nth i (cs_len st) 0%N)%N < length c)%nat by (apply nth_error_Some; congruence).
    unfold len. lia.
  - destruct (H2 E) as (hi & lo & _ & G & _). unfold byte_at in G.
    assert (N.to_nat (nth i (cs_pos st) 0%N + nth i (cs_len st) 0%N + 1)%N < length c)%nat by (apply nth_error_Some; congruence).
    unfold len. lia.
Qed.

Definition agree (st : cstate) (c c' : bytes) : Prop :=
  len c = len c' /\
  forall i, nth i (cs_len st) 0 <> 0 ->
    slice_opt c (nth i (cs_pos st) 0) (nth i (cs_len st) 0) = slice_opt c' (nth i (cs_pos st) 0) (nth i (cs_len st) 0) /\
    slice_opt c (nth i (cs_pos st) 0 + nth i (cs_len st) 0) 2 = slice_opt c' (nth i (cs_pos st) 0 + nth i (cs_len st) 0) 2.

Lemma lookup_agree k : forall i0 st c c' name parent poff hash, agree st c c' ->
  lookup_from k i0 st c name parent poff hash = lookup_from k i0 st c' name parent poff hash.
Proof.
  induction k as [|k IH]; intros i0 st c c' name parent poff hash A; [reflexivity|].
  rewrite !lookup_step. cbv zeta. rewrite (IH (S i0) st c c' name parent poff hash A).
  destruct (negb (nth i0 (cs_hash st) 0 =? hash) || negb (nth i0 (cs_par st) 0 =? parent)); [reflexivity|].
  destruct (N.eqb_spec (nth i0 (cs_len st) 0) 0) as [|Hz]; [reflexivity|].
  destruct A as [_ A]. destruct (A i0 Hz) as [A1 A2]. rewrite A1. unfold attach_ok. rewrite A2. reflexivity.
Qed.

Lemma compress_loop_agree fuel : forall st c c' name parent poff hash, agree st c c' ->
  compress_loop fuel st c name parent poff hash = compress_loop fuel st c' name parent poff hash.
Proof.
  induction fuel as [|fuel IH]; intros st c c' name parent poff hash A; [reflexivity|].
  cbn [compress_loop]. destruct name as [|x nm]; [reflexivity|].
  rewrite (lookup_agree 32 0 st c c' _ _ _ _ A). pose proof A as [AL A'].
  destruct (lookup_from 32 0 st c' (x :: nm) parent poff hash) as [|i rest h p|s]; try reflexivity.
  destruct (cn_range_check && cmp_ge cn_range_ge (p + cn_range_add) cn_range_bound); [reflexivity|].
  rewrite AL. apply IH. split; [exact AL|]. destruct (cmp_lt _ _ _); exact A'.
Qed.

Theorem compress_name_agree st c c' w : agree st c c' -> compress_name st c w = compress_name st c' w.
Proof.
  intros A. unfold compress_name. destruct (firstn (length w - 1) w) as [|x nm]; [reflexivity|].
  destruct (last_label (x :: nm)); cbn [bind]; try reflexivity.
  rewrite (compress_loop_agree _ st c c' _ _ _ _ A). destruct A as [AL _]. rewrite AL. reflexivity.
Qed.

Lemma slice_opt_before A X Y B a k : length X = length Y -> a + k <= len A ->
  slice_opt (A ++ X ++ B) a k = slice_opt (A ++ Y ++ B) a k.
Proof.
  intros HXY H. unfold slice_opt.
  replace (len (A ++ Y ++ B)) with (len (A ++ X ++ B)) by (unfold len; rewrite !app_length; lia).
  destruct (N.ltb_spec (len (A ++ X ++ B)) (a + k)); [reflexivity|]. f_equal.
  rewrite !skipn_app, !firstn_app, !skipn_length. unfold len in H.
  replace (N.to_nat k - (length A - N.to_nat a))%nat with 0%nat by lia. reflexivity.
Qed.

Lemma skipn_past {T} (P Q : list T) n : (length P <= n)%nat -> skipn n (P ++ Q) = skipn (n - length P) Q.
Proof. intros H. rewrite skipn_app, skipn_all2 by exact H. reflexivity. Qed.

Lemma slice_opt_after A X Y B a k : length X = length Y -> len A + len X <= a ->
  slice_opt (A ++ X ++ B) a k = slice_opt (A ++ Y ++ B) a k.
Proof.
  intros HXY H. unfold slice_opt.
  replace (len (A ++ Y ++ B)) with (len (A ++ X ++ B)) by (unfold len; rewrite !app_length; lia).
  destruct (N.ltb_spec (len (A ++ X ++ B)) (a + k)); [reflexivity|]. do 2 f_equal.
  unfold len in H. rewrite !skipn_past by lia. rewrite HXY. reflexivity.
Qed.

(* the size prefix (or any other octets) X at [|A|, |A|+|X|) is replaced by Y:
   if no used slot (its octets and the two octets behind them) meets that
   range, compress_name returns the same result and the same state *)
Theorem patch_invariant st A X Y B w : length X = length Y ->
  (forall i, nth i (cs_len st) 0 <> 0 ->
     nth i (cs_pos st) 0 + nth i (cs_len st) 0 + 2 <= len A \/ len A + len X <= nth i (cs_pos st) 0) ->
  compress_name st (A ++ X ++ B) w = compress_name st (A ++ Y ++ B) w.
Proof.
  intros HXY HD. apply compress_name_agree. split; [unfold len; rewrite !app_length; lia|].
  intros i Hz. destruct (HD i Hz) as [H|H].
  - split; apply slice_opt_before; auto; lia.
  - split; apply slice_opt_after; auto; lia.
Qed.

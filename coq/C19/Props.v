(* C19 -- property theorems only.  Proofs live in C19/Proofs*.v. *)
From Coq Require Import NArith List.
From DV Require Import Base.Outcome Base.Bytes Base.Names Base.PName C19.Gen C19.Model
  C19.ModelCmp C19.ProofsDec C19.ProofsOld C19.ProofsNew C19.ProofsAgree C19.ProofsCmp C19.ProofsCmpSound C19.ProofsCmpInv C19.ProofsRev C19.ModelEdns C19.ModelMsg C19.ProofsItems C19.ProofsEdns C19.ProofsCmpRev C19.ProofsCmpRegions C19.ProofsMsg C19.ProofsMsgIff C19.ProofsFlat C19.ProofsMsgWhole C19.ProofsCmpPatch C19.ProofsFlatSound C01.Model C01.Model3 C05.OptModel.
Import ListNotations.
Local Open Scope N_scope.

(* NameBuf::{split,parse}_message_bytes never panic and never loop, for every
   contents and every start offset *)
Theorem C19_new_split_total : forall c start, no_panic (new_split c start).
Proof. exact new_split_total. Qed.
Print Assumptions C19_new_split_total.

Theorem C19_new_parse_total : forall c start, no_panic (new_parse c start).
Proof. exact new_parse_total. Qed.
Print Assumptions C19_new_parse_total.

Theorem C19_new_parse_is_split : forall c start w,
  new_parse c start = Ok w <-> new_split c start = Ok (w, len c).
Proof. exact new_parse_is_split. Qed.
Print Assumptions C19_new_parse_is_split.

(* both readers decode exactly the paths of the message: same abstract meaning,
   they differ only in the pointer rule (R_old: target < pointer position;
   R_new: 12 <= target < start of the current segment) *)
Theorem C19_old_reader_is_path : forall m p n e,
  decode_name m p (mlen m) = Ok (n, e) <-> dpath R_old m p p 0 n e.
Proof. intros; split; [apply old_sound|apply old_complete]. Qed.
Print Assumptions C19_old_reader_is_path.

Theorem C19_new_reader_is_path : forall h c, length h = 12%nat -> wf_bytes c ->
  forall start,
  (forall w e, new_split c start = Ok (w, e) ->
     exists n, w = wire_abs n /\ dpath R_new (h ++ c) (12 + start) (12 + start) 0 n (12 + e)) /\
  (forall n e, dpath R_new (h ++ c) (12 + start) (12 + start) 0 n e ->
     new_split c start = Ok (wire_abs n, e - 12) /\ 12 <= e).
Proof. intros h c Hh Hwf start. split; [apply new_split_sound|apply new_split_complete]; assumption. Qed.
Print Assumptions C19_new_reader_is_path.

(* whatever the new reader accepts the old reader accepts, with the same
   labels and the same end position: no exception *)
Theorem C19_new_refines_old : forall h c, length h = 12%nat -> wf_bytes c ->
  forall start w e, new_split c start = Ok (w, e) ->
  exists n, decode_name (h ++ c) (12 + start) (mlen (h ++ c)) = Ok (n, 12 + e) /\ w = wire_abs n.
Proof. exact new_refines_old. Qed.
Print Assumptions C19_new_refines_old.

(* C19 for names, outside the two known classes: both accept or both reject,
   and when they accept they reconstruct the same labels and end position *)
Theorem C19_agree_outside_known : forall h c, length h = 12%nat -> wf_bytes c ->
  forall start,
  ~ PtrIntoOwnSegment (h ++ c) (12 + start) -> ~ PtrIntoHeader (h ++ c) (12 + start) ->
  is_ok (new_split c start) = is_ok (decode_name (h ++ c) (12 + start) (mlen (h ++ c))) /\
  (forall w e, new_split c start = Ok (w, e) ->
     exists n, decode_name (h ++ c) (12 + start) (mlen (h ++ c)) = Ok (n, 12 + e) /\ w = wire_abs n) /\
  (forall n e, decode_name (h ++ c) (12 + start) (mlen (h ++ c)) = Ok (n, e) ->
     12 <= e /\ new_split c start = Ok (wire_abs n, e - 12)).
Proof. exact agree_outside_known. Qed.
Print Assumptions C19_agree_outside_known.

(* ... and the full statement is false: known finding ptr_into_own_segment *)
Theorem C19_agree_refuted_own_segment :
  exists c n e, c19_old (hdr0 ++ c) 12 = Ok (n, e) /\ new_split c 0 = Err E_PARSE /\
    PtrIntoOwnSegment (hdr0 ++ c) 12.
Proof. exists [3;1;122;0;192;13]. eexists. eexists. exact agree_refuted_own_segment. Qed.
Print Assumptions C19_agree_refuted_own_segment.

(* finding ptr_into_header: the old reader follows pointers into the 12-octet header *)
Theorem C19_agree_refuted_header :
  exists c n e, c19_old (hdr0 ++ c) 12 = Ok (n, e) /\ new_split c 0 = Err E_PARSE /\
    PtrIntoHeader (hdr0 ++ c) 12.
Proof. exists [192;11]. eexists. eexists. exact agree_refuted_header. Qed.
Print Assumptions C19_agree_refuted_header.

(* ---- the new name compressor (model: C19/ModelCmp.v, T2 kind `bim`) *)
(* with the range check in place every offset handed out fits a 14-bit pointer
   (header included) and `addr + 0xC00C` cannot overflow, for all states,
   contents and names *)
Theorem C19_compress_name_pointer_range : range_fixed ->
  forall st c wire rest o st', compress_name st c wire = Ok (Some (rest, o), st') ->
    o + 12 < 16384 /\ o + 49164 <= 65535.
Proof. exact compress_name_pointer_range. Qed.
Print Assumptions C19_compress_name_pointer_range.

(* what a lookup hit means, for EVERY compressor state, contents and name: the
   name is cut on a label boundary and the octets at the returned offset equal
   the cut-off labels up to u8::to_ascii_lowercase, length octets included *)
Theorem C19_lookup_hit_sound : forall k i0 st c n parent poff hash i rest h p, n <> [] ->
  lookup_from k i0 st c (wire_rel n) parent poff hash = LkHit i rest h p ->
  hit_ok st c n parent i rest p.
Proof. exact lookup_hit_sound. Qed.
Print Assumptions C19_lookup_hit_sound.

(* new_compressor_sound, single entry / no eviction: a fresh compressor, any
   contents written before, any two valid names: whatever Name::build_in_message
   writes (verbatim or rest + pointer), both names read back equal up to case,
   through the new AND the old reader, ending exactly at the end of the name *)
Theorem C19_new_compressor_sound_two_names : forall (h c0 : bytes) (n1 n2 : name) (c : bytes),
  length h = 12%nat -> wf_bytes c0 -> valid_abs n1 -> valid_abs n2 ->
  build_names cs_new c0 [wire_abs n1; wire_abs n2] = Ok c ->
  (exists n1', canon n1' = canon n1 /\
     new_split c (len c0) = Ok (wire_abs n1', len c0 + len (wire_abs n1)) /\
     decode_name (h ++ c) (12 + len c0) (mlen (h ++ c)) = Ok (n1', 12 + (len c0 + len (wire_abs n1)))) /\
  (exists n2', canon n2' = canon n2 /\
     new_split c (len c0 + len (wire_abs n1)) = Ok (wire_abs n2', len c) /\
     decode_name (h ++ c) (12 + (len c0 + len (wire_abs n1))) (mlen (h ++ c)) = Ok (n2', 12 + len c)).
Proof. exact compressor_two_names_sound. Qed.
Print Assumptions C19_new_compressor_sound_two_names.

(* new_compressor_sound in full for the Name path: a fresh compressor, any
   earlier contents, ANY list of valid names - more than the 32 slots, so slots
   are evicted and reused - : every name reads back equal up to case through the
   new and the old reader, each starting where the previous one ended *)
Theorem C19_new_compressor_sound : forall (h c0 : bytes) (ns : list name) (c : bytes),
  length h = 12%nat -> wf_bytes c0 -> Forall valid_abs ns ->
  build_names cs_new c0 (map wire_abs ns) = Ok c ->
  reads_back h c (len c0) ns.
Proof. exact new_compressor_sound. Qed.
Print Assumptions C19_new_compressor_sound.

(* ... and with arbitrary other octets written between the names, from any
   state that satisfies the invariant *)
Theorem C19_new_compressor_sound_items : forall (h : bytes), length h = 12%nat ->
  forall l st c c', Inv st c -> wf_bytes c -> Forall item_ok l ->
  build_items st c l = Ok c' ->
  (exists tail, c' = c ++ tail) /\ wf_bytes c' /\ (wf_bytes c' -> items_read_back h c' (len c) l).
Proof. exact new_compressor_sound_items. Qed.
Print Assumptions C19_new_compressor_sound_items.

(* RevNameBuf::split_message_bytes runs in lockstep with the NameBuf version:
   same accept/reject, same end, same labels (reversed behind the root label) *)
Theorem C19_rev_split_lockstep : forall c start, top_rel (new_split c start) (rev_split c start).
Proof. exact rev_split_lockstep. Qed.
Print Assumptions C19_rev_split_lockstep.

Theorem C19_rev_split_total : forall c start, no_panic (rev_split c start).
Proof. exact rev_split_total. Qed.
Print Assumptions C19_rev_split_total.

(* hence the reversed-name reader decodes exactly the same paths *)
Theorem C19_rev_reader_is_path : forall h c, length h = 12%nat -> wf_bytes c -> forall start,
  (forall rw e, rev_split c start = Ok (rw, e) ->
     exists n, rw = rev_wire n /\ dpath R_new (h ++ c) (12 + start) (12 + start) 0 n (12 + e)) /\
  (forall n e, dpath R_new (h ++ c) (12 + start) (12 + start) 0 n e ->
     rev_split c start = Ok (rev_wire n, e - 12)).
Proof. exact rev_split_is_path. Qed.
Print Assumptions C19_rev_reader_is_path.

(* Question / Record of the new API against C01's model of the old
   Question::parse / ParsedRecord::parse: whatever the new reader returns the old
   one returns (same owner labels, fields, RDATA extent, end), and outside the
   known classes of the owner name the converse holds *)
Theorem C19_question_new_to_old : forall h c, length h = 12%nat -> wf_bytes c ->
  forall start w ty cl e, new_question c start = Ok (w, ty, cl, e) ->
  exists q n, question_parse (h ++ c) (12 + start) (mlen (h ++ c)) = Ok q /\
    pname_labels (h ++ c) (q_name q) = Ok (n, true) /\
    w = wire_abs n /\ q_type q = ty /\ q_class q = cl /\ q_end q = 12 + e.
Proof. exact question_new_to_old. Qed.
Print Assumptions C19_question_new_to_old.

Theorem C19_question_old_to_new : forall h c, length h = 12%nat -> wf_bytes c ->
  forall start q, kclass (h ++ c) (12 + start) = KNone ->
  question_parse (h ++ c) (12 + start) (mlen (h ++ c)) = Ok q ->
  exists n, pname_labels (h ++ c) (q_name q) = Ok (n, true) /\ 16 <= q_end q /\
    new_question c start = Ok (wire_abs n, q_type q, q_class q, q_end q - 12).
Proof. exact question_old_to_new. Qed.
Print Assumptions C19_question_old_to_new.

Theorem C19_record_new_to_old : forall h c, length h = 12%nat -> wf_bytes c ->
  forall start w ty cl ttl d e, new_record c start = Ok (w, ty, cl, ttl, d, e) ->
  exists r n, record_parse (h ++ c) (12 + start) (mlen (h ++ c)) = Ok r /\
    pname_labels (h ++ c) (rr_owner r) = Ok (n, true) /\
    w = wire_abs n /\ rr_type r = ty /\ rr_class r = cl /\ rr_ttl r = ttl /\
    rr_data r = 12 + d /\ rr_end r = 12 + e /\ rr_rdlen r = e - d.
Proof. exact record_new_to_old. Qed.
Print Assumptions C19_record_new_to_old.

Theorem C19_record_old_to_new : forall h c, length h = 12%nat -> wf_bytes c ->
  forall start r, kclass (h ++ c) (12 + start) = KNone ->
  record_parse (h ++ c) (12 + start) (mlen (h ++ c)) = Ok r ->
  exists n, pname_labels (h ++ c) (rr_owner r) = Ok (n, true) /\ 22 <= rr_data r /\
    new_record c start = Ok (wire_abs n, rr_type r, rr_class r, rr_ttl r, rr_data r - 12, rr_end r - 12).
Proof. exact record_old_to_new. Qed.
Print Assumptions C19_record_old_to_new.

(* the EDNS record of the new API *)
Theorem C19_edns_roundtrip : forall e b rest, edns_ok e -> nedns_build e = Some b ->
  nedns_split (b ++ rest) = Ok (e, rest).
Proof. exact edns_roundtrip. Qed.
Print Assumptions C19_edns_roundtrip.

Theorem C19_edns_old_view : forall e b, edns_ok e -> nedns_build e = Some b ->
  firstn 3 b = [0; 0; 41] /\
  be_val (firstn 2 (skipn 3 b)) = e_udp e /\
  let ttl := be_val (firstn 4 (skipn 5 b)) in
  N.shiftr ttl old_opt_ext_shift mod 256 = e_ext e /\
  N.shiftr ttl old_opt_ver_shift mod 256 = e_ver e /\
  ttl mod 65536 = e_flags e /\
  be_val (firstn 2 (skipn 9 b)) = len (e_data e) /\ skipn 11 b = e_data e.
Proof. exact edns_old_view. Qed.
Print Assumptions C19_edns_old_view.

(* option framing: the new Opt accepts exactly what C05's model of the old
   Opt::from_octets + iteration accepts *)
Theorem C19_edns_framing_agrees : forall b, nopt_ok b = is_ok (opt_parse b).
Proof. exact edns_framing_agrees. Qed.
Print Assumptions C19_edns_framing_agrees.

(* the exact-parse entry point of RevNameBuf runs in lockstep with NameBuf's;
   all four name readers decode the same paths *)
Theorem C19_rev_parse_lockstep : forall c start, top_rel_p (new_parse c start) (rev_parse c start).
Proof. exact rev_parse_lockstep. Qed.
Print Assumptions C19_rev_parse_lockstep.

Theorem C19_four_readers : forall c start ls,
  (new_parse c start = Ok (wire_abs ls) <-> new_split c start = Ok (wire_abs ls, len c)) /\
  (rev_parse c start = Ok (rev_wire ls) <-> new_split c start = Ok (wire_abs ls, len c)) /\
  (rev_split c start = Ok (rev_wire ls, len c) <-> new_split c start = Ok (wire_abs ls, len c)).
Proof. exact four_readers. Qed.
Print Assumptions C19_four_readers.

(* new_compressor_sound for messages mixing Name::build_in_message,
   RevName::build_in_message and any other octets, any number, with eviction *)
Theorem C19_new_compressor_sound_mixed : forall h, length h = 12%nat -> forall l st c c',
  Inv st c -> wf_bytes c -> Forall mitem_ok l ->
  build_mixed st c l = Ok c' ->
  (exists tail, c' = c ++ tail) /\ wf_bytes c' /\ (wf_bytes c' -> mixed_read_back h c' (len c) l).
Proof. exact new_compressor_sound_mixed. Qed.
Print Assumptions C19_new_compressor_sound_mixed.

(* octets outside the compressor's entries may be rewritten later (the RDATA
   size prefix): the compressor reads the contents only inside entry extents *)
Theorem C19_patch_invariant : forall st A X Y B w, length X = length Y ->
  (forall i, nth i (cs_len st) 0 <> 0 ->
     nth i (cs_pos st) 0 + nth i (cs_len st) 0 + 2 <= len A \/ len A + len X <= nth i (cs_pos st) 0) ->
  compress_name st (A ++ X ++ B) w = compress_name st (A ++ Y ++ B) w.
Proof. exact patch_invariant. Qed.
Print Assumptions C19_patch_invariant.

Theorem C19_reserved_after_extents : forall st c i, Inv st c -> nth i (cs_len st) 0 <> 0 -> ext_end st i <= len c.
Proof. exact Inv_extent. Qed.
Print Assumptions C19_reserved_after_extents.

(* MessageParser enforces the header counts *)
Theorem C19_mp_counts_enforced : forall m items off ok, mp_run m = Some (Ok (items, off, ok)) ->
  let announced := (N.to_nat (u16_of m 4) + N.to_nat (u16_of m 6) + N.to_nat (u16_of m 8) + N.to_nat (u16_of m 10))%nat in
  (ok = true <-> length items = announced) /\ (length items <= announced)%nat.
Proof. exact mp_counts_enforced. Qed.
Print Assumptions C19_mp_counts_enforced.

Theorem C19_mp_item_new_to_old : forall (h c : bytes), length h = 12%nat -> wf_bytes c ->
  forall sec off it off', mp_item c sec off = Ok (it, off') -> old_reads (h ++ c) (12 + off) it (12 + off').
Proof. exact mp_item_new_to_old. Qed.
Print Assumptions C19_mp_item_new_to_old.

(* MessageParser against C01's section iterators *)
(* per item, both directions: the old item parser (C01 question_parse /
   record_parse) and MessageParser's item parser accept together, with the same
   end; premises of old -> new: no pointer of a known class, no `0 0 41` item,
   no OPT record *)
Theorem C19_mp_item_iff : forall h c, length h = 12%nat -> wf_bytes c ->
  (forall p, kclass (h ++ c) p = KNone) ->
  (forall off, starts_with (skipn (N.to_nat off) c) edns_prefix = false) ->
  (forall pos r, record_parse (h ++ c) pos (mlen (h ++ c)) = Ok r -> rr_type r <> 41) ->
  forall sec off,
  match old_parse h c sec (12 + off), mp_item c sec off with
  | Ok e, Ok (_, off') => e = 12 + off'
  | Err _, Err _ => True
  | _, _ => False
  end.
Proof. exact item_iff. Qed.
Print Assumptions C19_mp_item_iff.

(* C01's QuestionSection / RecordSection iteration (drain over q_next / r_next)
   and MessageParser's loop over a section of n announced items are complete
   together, yield the same number of items and end at the same offset *)
Theorem C19_question_section_agrees : forall h c, length h = 12%nat -> wf_bytes c ->
  (forall p, kclass (h ++ c) p = KNone) ->
  (forall off, starts_with (skipn (N.to_nat off) c) edns_prefix = false) ->
  (forall pos r, record_parse (h ++ c) pos (mlen (h ++ c)) = Ok r -> rr_type r <> 41) ->
  forall n off,
  let s := mkSect (12 + off) (N.of_nat n) None 0 in
  exists tr s' acc' off' ok,
    drain (q_next (h ++ c)) (sec_fuel s) s [] = Ok (tr, s') /\
    mp_section n c 0 off [] = Ok (acc', off', ok) /\
    (ok = true <-> has_err tr = false) /\
    (ok = true -> s_err s' = None /\ s_pos s' = 12 + off' /\ length tr = length acc').
Proof. exact question_section_agrees. Qed.
Print Assumptions C19_question_section_agrees.

Theorem C19_record_section_agrees : forall h c, length h = 12%nat -> wf_bytes c ->
  (forall p, kclass (h ++ c) p = KNone) ->
  (forall off, starts_with (skipn (N.to_nat off) c) edns_prefix = false) ->
  (forall pos r, record_parse (h ++ c) pos (mlen (h ++ c)) = Ok r -> rr_type r <> 41) ->
  forall sec n off, sec <> 0 ->
  let s := mkSect (12 + off) (N.of_nat n) None sec in
  exists tr s' acc' off' ok,
    drain (r_next (h ++ c)) (sec_fuel s) s [] = Ok (tr, s') /\
    mp_section n c sec off [] = Ok (acc', off', ok) /\
    (ok = true <-> has_err tr = false) /\
    (ok = true -> s_err s' = None /\ s_pos s' = 12 + off' /\ length tr = length acc').
Proof. exact record_section_agrees. Qed.
Print Assumptions C19_record_section_agrees.

(* the uncompressed parser Name::split_bytes_by_ref (behind <&Name>::parse_bytes,
   NameBuf::parse_bytes, the names of SRV / DNAME ... RDATA) accepts every valid
   name - up to and including 255 octets - and returns exactly the octets behind it *)
Theorem C19_flat_split_complete : forall n rest, valid_abs n ->
  flat_split (wire_abs n ++ rest) = Ok (wire_abs n, rest).
Proof. exact flat_split_complete. Qed.
Print Assumptions C19_flat_split_complete.

(* ---- final round: the whole message *)
(* MessageParser reads a message to completion (no error item, all four header
   counts satisfied) iff C01's model of the old codec does: the question section
   iterates clean, answer() and both next_section() - which re-walk a section
   with record_skip - reach the record sections, and each iterates clean.
   Premises: no pointer of a known class, no `0 0 41` item, no OPT record. *)
Theorem C19_whole_message_iff : forall h c, length h = 12%nat -> wf_bytes c ->
  (forall p, kclass (h ++ c) p = KNone) ->
  (forall off, starts_with (skipn (N.to_nat off) c) edns_prefix = false) ->
  (forall pos r, record_parse (h ++ c) pos (mlen (h ++ c)) = Ok r -> rr_type r <> 41) ->
  ((exists items off, mp_run (h ++ c) = Some (Ok (items, off, true))) <-> old_msg_ok (h ++ c)).
Proof. exact whole_message_iff. Qed.
Print Assumptions C19_whole_message_iff.

(* Record building of the new MessageBuilder (owner name, fixed octets, two
   RESERVED octets for the RDATA size, RDATA items, size written last): when the
   size field is reserved, every compressor entry together with the two octets
   behind it lies in front of it - the hypothesis of C19_patch_invariant, derived *)
Theorem C19_record_reserve_disjoint : forall (h : bytes), length h = 12%nat ->
  forall st c owner bs st1 fixed,
  Inv st c -> valid_abs owner -> fixed <> [] ->
  build_name st c (wire_abs owner) = Ok (bs, st1) ->
  Dis st1 (len (c ++ bs ++ fixed)) 2.
Proof. exact record_reserve_disjoint. Qed.
Print Assumptions C19_record_reserve_disjoint.

(* ... every later push keeps it so (a new entry starts at the end of the
   contents) and returns the same octets and the same state whatever the
   reserved octets hold *)
Theorem C19_record_patch_invisible : forall st A X Y B w bs st', length X = length Y ->
  Dis st (len A) (len X) ->
  build_name st (A ++ X ++ B) w = Ok (bs, st') ->
  build_name st (A ++ Y ++ B) w = Ok (bs, st') /\ Dis st' (len A) (len X).
Proof. exact record_patch_invisible. Qed.
Print Assumptions C19_record_patch_invisible.

(* ... hence the record with the size patched in is octet for octet the message
   built with the size octets in place from the start, its size field holds the
   RDATA length, and every name in it - owner and RDATA - reads back *)
Theorem C19_record_patched_sound : forall (h : bytes), length h = 12%nat ->
  forall st c owner fixed stale rd m,
  Inv st c -> wf_bytes c -> valid_abs owner -> wf_bytes fixed -> fixed <> [] -> length stale = 2%nat ->
  Forall item_ok rd ->
  build_record st c owner fixed stale rd = Ok m ->
  exists hi lo,
    build_items st c (IName owner :: IRaw fixed :: IRaw [hi; lo] :: rd) = Ok m /\
    (exists bs B, m = c ++ bs ++ fixed ++ [hi; lo] ++ B /\ hi * 256 + lo = len B /\ hi < 256 /\ lo < 256) /\
    wf_bytes m /\
    items_read_back h m (len c) (IName owner :: IRaw fixed :: IRaw [hi; lo] :: rd).
Proof. exact record_patched_sound. Qed.
Print Assumptions C19_record_patched_sound.

(* the uncompressed parser, both directions *)
(* Name::split_bytes_by_ref never panics and never runs out of fuel *)
Theorem C19_flat_split_total : forall b, no_panic (flat_split b).
Proof. exact flat_split_total. Qed.
Print Assumptions C19_flat_split_total.

(* whatever it accepts is the wire form of a valid absolute name (labels of
   1..63 octets, at most 255 octets in all) followed by the octets it returns *)
Theorem C19_flat_split_sound : forall b w rest, wf_bytes b -> flat_split b = Ok (w, rest) ->
  exists n, valid_abs n /\ w = wire_abs n /\ b = wire_abs n ++ rest.
Proof. exact flat_split_sound. Qed.
Print Assumptions C19_flat_split_sound.

(* hence it accepts exactly the octet strings that start with a valid name ... *)
Theorem C19_flat_split_iff : forall b, wf_bytes b -> forall w rest,
  flat_split b = Ok (w, rest) <-> exists n, valid_abs n /\ w = wire_abs n /\ b = wire_abs n ++ rest.
Proof. exact flat_split_iff. Qed.
Print Assumptions C19_flat_split_iff.

(* ... and answers ParseError - no panic, no other error - to every other one *)
Theorem C19_flat_split_reject : forall b, wf_bytes b ->
  (~ exists n rest, valid_abs n /\ b = wire_abs n ++ rest) -> flat_split b = Err E_PARSE.
Proof. exact flat_split_reject. Qed.
Print Assumptions C19_flat_split_reject.

(* it consumes exactly the name: the split does not depend on what follows *)
Theorem C19_flat_split_suffix : forall b w rest more, wf_bytes b -> flat_split b = Ok (w, rest) ->
  flat_split (b ++ more) = Ok (w, rest ++ more).
Proof. exact flat_split_suffix. Qed.
Print Assumptions C19_flat_split_suffix.

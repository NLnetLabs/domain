(* Totality of the new reader, the known classes, and the
   agreement theorems between the two readers. *)
From Coq Require Import NArith List Lia.
From DV Require Import Base.Outcome Base.Bytes Base.Names Base.PName C19.Gen C19.Model
  C19.ProofsDec C19.ProofsOld C19.ProofsNew.
Import ListNotations.
Local Open Scope N_scope.

Lemma seg_total fuel : forall bs buf, (length bs < fuel)%nat -> len buf < 255 ->
  match nb_segment fuel bs buf with
  | Ok (Some _, rest, buf') => len buf' < 255 /\ (length rest <= length bs)%nat
  | Ok (None, rest, _) => (length rest <= length bs)%nat
  | Err _ => True
  | _ => False
  end.
Proof.
  induction fuel as [|fuel IH]; intros bs buf Hf Hb; [lia|].
  destruct bs as [|b rest]; [exact I|]. rewrite nb_segment_cons.
  destruct (N.eqb_spec b 0).
  - unfold nb_append. change (len [0]) with 1. destruct (N.ltb_spec 255 (len buf + 1)); [lia|].
    cbn [bind length]. lia.
  - destruct (N.ltb_spec b 64).
    + destruct (N.ltb_spec (len (b :: rest)) (1 + b)) as [|Hs]; [exact I|].
      destruct (N.ltb_spec 255 (len buf)); [lia|].
      destruct (N.ltb_spec (255 - len buf) (2 + b)) as [|Hc]; [exact I|].
      unfold nb_append.
      assert (Hl : len (firstn (N.to_nat (1 + b)) (b :: rest)) = 1 + b).
      { unfold len in *. rewrite firstn_length. lia. }
      rewrite Hl. destruct (N.ltb_spec 255 (len buf + (1 + b))); [lia|]. cbn [bind].
      assert (Hsk : (length (skipn (N.to_nat (1 + b)) (b :: rest)) < length (b :: rest))%nat).
      { rewrite skipn_length. cbn [length]. lia. }
      specialize (IH (skipn (N.to_nat (1 + b)) (b :: rest)) (buf ++ firstn (N.to_nat (1 + b)) (b :: rest))).
      assert (Hb' : len (buf ++ firstn (N.to_nat (1 + b)) (b :: rest)) < 255).
      { unfold len in *. rewrite app_length. lia. }
      specialize (IH ltac:(lia) Hb').
      destruct (nb_segment fuel _ _) as [[[[pv|] r] bf]| | |]; auto; try lia.
    + destruct rest as [|lo rest']; [exact I|].
      destruct (N.leb_spec 192 b); [|exact I]. cbn [length]. split; [exact Hb|lia].
Qed.

Lemma follow_total c ffuel : forall ptr old_start buf,
  (N.to_nat old_start < ffuel)%nat -> len buf < 255 ->
  no_panic (nb_follow ffuel 12 true c (Some ptr) old_start buf).
Proof.
  induction ffuel as [|ffuel IH]; intros ptr old_start buf Hf Hb; [lia|].
  rewrite nb_follow_some.
  destruct (N.ltb_spec ptr 12); [exact I|]. unfold cmp_ge.
  destruct (N.leb_spec old_start (ptr - 12)); [exact I|].
  destruct (get_from c (ptr - 12)) as [bs|]; [|exact I].
  pose proof (seg_total (S (length bs)) bs buf ltac:(lia) Hb) as T.
  destruct (nb_segment (S (length bs)) bs buf) as [[[[pv|] r] bf]| | |]; cbn [bind]; try exact I; try contradiction.
  - apply IH; [lia|tauto].
  - destruct ffuel; exact I.
Qed.

Theorem new_split_total c start : no_panic (new_split c start).
Proof.
  unfold new_split. unfold get_from. destruct (N.ltb_spec (len c) start); [exact I|].
  set (bs := skipn (N.to_nat start) c).
  pose proof (seg_total (S (length bs)) bs [] ltac:(lia) ltac:(cbn; lia)) as T.
  assert (Hbs : (length bs <= length c)%nat) by (unfold bs; rewrite skipn_length; lia).
  destruct (nb_segment (S (length bs)) bs []) as [[[[pv|] r] bf]| | |]; cbn [bind]; try exact I; try contradiction.
  - destruct T as [T1 T2]. destruct (N.ltb_spec (len c) (len r)); [unfold len in *; lia|].
    change nb_split_hdr with 12. change nb_split_rule_ge with true.
    pose proof (follow_total c (follow_fuel start) pv start bf ltac:(unfold follow_fuel; lia) T1) as F.
    destruct (nb_follow (follow_fuel start) 12 true c (Some pv) start bf); cbn [bind]; auto.
  - destruct (N.ltb_spec (len c) (len r)); [unfold len in *; lia|]. cbn. exact I.
Qed.

Theorem new_parse_total c start : no_panic (new_parse c start).
Proof.
  unfold new_parse. unfold get_from. destruct (N.ltb_spec (len c) start); [exact I|].
  set (bs := skipn (N.to_nat start) c).
  pose proof (seg_total (S (length bs)) bs [] ltac:(lia) ltac:(cbn; lia)) as T.
  destruct (nb_segment (S (length bs)) bs []) as [[[[pv|] r] bf]| | |]; cbn [bind]; try exact I; try contradiction.
  - destruct r; [|exact I]. change nb_parse_hdr with 12. change nb_parse_rule_ge with true.
    apply follow_total; [unfold follow_fuel; lia|tauto].
  - destruct r; exact I.
Qed.

(* parse_message_bytes = split_message_bytes that must end at the end of the range *)
Theorem new_parse_is_split c start w :
  new_parse c start = Ok w <-> new_split c start = Ok (w, len c).
Proof.
  unfold new_parse, new_split. destruct (get_from c start) as [bs|] eqn:E; [|split; discriminate].
  assert (Hbs : (length bs <= length c)%nat).
  { unfold get_from in E. destruct (N.ltb_spec (len c) start); [discriminate|]. inversion E. rewrite skipn_length. lia. }
  pose proof (seg_total (S (length bs)) bs [] ltac:(lia) ltac:(cbn; lia)) as T.
  destruct (nb_segment (S (length bs)) bs []) as [[[ptr r] bf]| | |]; cbn [bind]; try (split; discriminate).
  assert (Hr : (length r <= length bs)%nat) by (destruct ptr; tauto).
  change nb_parse_hdr with nb_split_hdr. change nb_parse_rule_ge with nb_split_rule_ge.
  destruct (N.ltb_spec (len c) (len r)); [unfold len in *; lia|].
  destruct r as [|x r].
  - change (len []) with 0. replace (len c - 0) with (len c) by lia.
    destruct (nb_follow (follow_fuel start) nb_split_hdr nb_split_rule_ge c ptr start bf); cbn [bind];
      split; intros Q; inversion Q; reflexivity.
  - split; [discriminate|]. intros Q.
    destruct (nb_follow (follow_fuel start) nb_split_hdr nb_split_rule_ge c ptr start bf); cbn [bind] in Q; try discriminate.
    inversion Q. unfold len in *. cbn [length] in *. lia.
Qed.

Section KNOWN.
Variable m : bytes.

Lemma k_hops_sound fuel : forall seg cur b c t,
  get m cur = Some b -> 192 <= b -> get m (cur + 1) = Some c ->
  hops fuel m (mlen m) (ptr_val b c) (cur + 2) = Ok t ->
  k_hops fuel m (mlen m) seg (ptr_val b c) (cur + 2) = KNone ->
  12 <= seg -> seg <= cur -> pchain R_new m seg cur t /\ 12 <= t.
Proof.
  induction fuel as [|fuel IH]; intros seg cur b c t G Hb G1 H K Hs Hsc; [discriminate|].
  cbn [hops] in H. cbn [k_hops] in K.
  destruct (N.leb_spec (cur + 2 - 2) (ptr_val b c)) as [H0|H0]; [discriminate|].
  unfold HDR in K. destruct (N.ltb_spec (ptr_val b c) 12) as [|H12]; [discriminate|].
  destruct (N.leb_spec seg (ptr_val b c)) as [|Hseg]; [discriminate|].
  destruct (N.ltb_spec (mlen m) (ptr_val b c)) as [H1|H1]; [discriminate|].
  destruct (label_type_parse m (ptr_val b c) (mlen m)) as [[[l|p2] a2]| | |] eqn:E; try discriminate.
  - inversion H; subst t. apply ltp_normal_inv in E as (G2 & Hl & _ & _).
    split; [|lia]. eapply pc_last; eauto. unfold R_new. lia.
  - apply ltp_comp_inv in E as (b2 & c2 & G2 & Hb2 & G3 & -> & -> & _).
    destruct (IH (ptr_val b c) (ptr_val b c) b2 c2 t G2 Hb2 G3 H K ltac:(lia) ltac:(lia)) as [PC Ht].
    split; [|exact Ht]. eapply pc_more; eauto. unfold R_new; lia.
Qed.

Lemma k_labels_sound fuel : forall cur nl start cf endp pn seg,
  nl < 255 -> 12 <= seg -> seg <= cur ->
  parse_labels fuel m (mlen m) cur nl start cf endp = Ok pn ->
  k_labels fuel m (mlen m) cur seg nl = KNone ->
  exists n e, dpath R_new m cur seg nl n e.
Proof.
  induction fuel as [|fuel IH]; intros cur nl start cf endp pn seg Hnl Hs Hsc H K; [discriminate|].
  cbn [parse_labels] in H. cbn [k_labels] in K.
  destruct (label_type_parse m cur (mlen m)) as [[[l|p] cur']| | |] eqn:E; try discriminate.
  - apply ltp_normal_inv in E as (G & Hl & -> & Hlt).
    destruct (N.eqb_spec l 0) as [->|Hl0].
    + exists [], (cur + 1). constructor; auto.
    + destruct (N.ltb_spec (mlen m - (cur + 1)) l) as [|Hsh]; [discriminate|].
      destruct (N.leb_spec 255 (nl + l + 1)) as [|Hc]; [discriminate|].
      destruct (IH (cur + 1 + l) (nl + l + 1) start cf endp pn seg ltac:(lia) Hs ltac:(lia) H K) as (n & e & D).
      exists (slice m (cur + 1) (cur + 1 + l) :: n), e. econstructor; eauto; lia.
  - apply ltp_comp_inv in E as (b & c & G & Hb & G1 & -> & -> & Hlt).
    destruct (hops (S (S (N.to_nat (ptr_val b c)))) m (mlen m) (ptr_val b c) (cur + 2)) as [t| | |] eqn:Eh;
      cbn [bind] in H; try discriminate.
    destruct (k_hops (S (S (N.to_nat (ptr_val b c)))) m (mlen m) seg (ptr_val b c) (cur + 2)) eqn:Ek; try discriminate.
    destruct (k_hops_sound _ _ _ _ _ _ G Hb G1 Eh Ek Hs Hsc) as [PC Ht].
    destruct (N.eqb_spec nl 0) as [Hz|Hz].
    + destruct (IH t nl _ _ _ pn t Hnl Ht (N.le_refl t) H K) as (n & e & D).
      exists n, (cur + 2). econstructor; eauto.
    + destruct (IH t nl _ _ _ pn t Hnl Ht (N.le_refl t) H K) as (n & e & D).
      exists n, (cur + 2). econstructor; eauto.
Qed.
End KNOWN.

Section AGREE.
Variables (h c : bytes).
Hypothesis Hh : length h = 12%nat.
Hypothesis Hwf : wf_bytes c.
Let m := h ++ c.

(* whatever the new reader accepts, the old reader accepts with the same
   labels and the same end position *)
Theorem new_refines_old start w e : new_split c start = Ok (w, e) ->
  exists n, decode_name m (12 + start) (mlen m) = Ok (n, 12 + e) /\ w = wire_abs n.
Proof.
  intros H. destruct (new_split_sound h c Hh Hwf _ _ _ H) as (n & Ew & D).
  exists n. split; [|exact Ew]. apply old_complete, dpath_new_old; [lia|exact D].
Qed.

(* outside the known classes the new reader accepts whatever the old one accepts *)
Lemma decode_ok_parse_ok p n e : decode_name m p (mlen m) = Ok (n, e) ->
  exists pn, parse_labels PARSE_FUEL m (mlen m) p 0 p false None = Ok pn.
Proof.
  unfold decode_name, parse_ref. generalize PARSE_FUEL. intros F H.
  destruct (parse_labels F m (mlen m) p 0 p false None) as [pn|x|x|];
    [eauto|cbn [bind] in H; discriminate..].
Qed.

Lemma known_none_path start pn :
  kclass m (12 + start) = KNone ->
  parse_labels PARSE_FUEL m (mlen m) (12 + start) 0 (12 + start) false None = Ok pn ->
  exists n e, dpath R_new m (12 + start) (12 + start) 0 n e.
Proof.
  unfold kclass. generalize PARSE_FUEL. intros F K P.
  exact (k_labels_sound m F (12 + start) 0 (12 + start) false None pn (12 + start) ltac:(lia) ltac:(lia) ltac:(lia) P K).
Qed.

Theorem old_refines_new_outside_known start n e :
  kclass m (12 + start) = KNone ->
  decode_name m (12 + start) (mlen m) = Ok (n, e) ->
  12 <= e /\ new_split c start = Ok (wire_abs n, e - 12).
Proof.
  intros K H.
  destruct (decode_ok_parse_ok _ _ _ H) as (pn & P).
  destruct (known_none_path _ _ K P) as (n' & e' & D).
  destruct (new_split_complete h c Hh Hwf _ _ _ D) as [S He'].
  destruct (new_refines_old _ _ _ S) as (n'' & H'' & Ew).
  assert (EE : Ok (n, e) = Ok (n'', 12 + (e' - 12))) by (rewrite <- H, <- H''; reflexivity).
  assert (En : n'' = n) by congruence. assert (Ee : 12 + (e' - 12) = e) by congruence. subst n''.
  split; [lia|]. rewrite <- Ew. replace (e - 12) with (e' - 12) by lia. exact S.
Qed.

Theorem agree_outside_known start :
  ~ PtrIntoOwnSegment m (12 + start) -> ~ PtrIntoHeader m (12 + start) ->
  is_ok (new_split c start) = is_ok (decode_name m (12 + start) (mlen m)) /\
  (forall w e, new_split c start = Ok (w, e) ->
     exists n, decode_name m (12 + start) (mlen m) = Ok (n, 12 + e) /\ w = wire_abs n) /\
  (forall n e, decode_name m (12 + start) (mlen m) = Ok (n, e) ->
     12 <= e /\ new_split c start = Ok (wire_abs n, e - 12)).
Proof.
  unfold PtrIntoOwnSegment, PtrIntoHeader. intros K1 K2.
  assert (K : kclass m (12 + start) = KNone) by (destruct (kclass m (12 + start)); congruence).
  assert (B : forall n e, decode_name m (12 + start) (mlen m) = Ok (n, e) ->
              12 <= e /\ new_split c start = Ok (wire_abs n, e - 12)).
  { intros n e. apply old_refines_new_outside_known. exact K. }
  split; [|split; [apply new_refines_old|exact B]].
  destruct (new_split c start) as [[w e]| | |] eqn:S.
  - destruct (new_refines_old _ _ _ S) as (n & H & _). fold m. rewrite H. reflexivity.
  - destruct (decode_name m (12 + start) (mlen m)) as [[n e2]| | |] eqn:H; try reflexivity.
    destruct (B _ _ eq_refl) as [_ S']. discriminate.
  - pose proof (new_split_total c start) as T. rewrite S in T. contradiction.
  - pose proof (new_split_total c start) as T. rewrite S in T. contradiction.
Qed.
End AGREE.

(* a compressed name both readers accept: contents  01 61 00 | 01 62 c0 0c *)
Example agree_example :
  let c := [1;97;0;1;98;192;12] in
  new_split c 3 = Ok ([1;98;1;97;0], 7) /\
  decode_name (hdr0 ++ c) 15 (mlen (hdr0 ++ c)) = Ok ([[98];[97]], 19) /\
  kclass (hdr0 ++ c) 15 = KNone /\ new_parse c 3 = Ok [1;98;1;97;0].
Proof. vm_compute. auto. Qed.

Example total_example : new_split [192;12] 0 = Err E_PARSE /\ new_split [64] 0 = Err E_PARSE /\
  new_split [1;97;0] 7 = Err E_PARSE /\ new_parse [0;0] 0 = Err E_PARSE.
Proof. vm_compute. auto. Qed.

Example path_example : dpath R_new (hdr0 ++ [1;97;0;1;98;192;12]) 15 15 0 [[98];[97]] 19.
Proof.
  change [[98];[97]] with (slice (hdr0 ++ [1;97;0;1;98;192;12]) (15 + 1) (15 + 1 + 1) :: [[97]]).
  eapply dp_label with (b := 1); [reflexivity|lia|lia|cbn; lia|lia|].
  change 19 with (17 + 2).
  eapply dp_ptr with (t := 12).
  - change 12 with (ptr_val 192 12). eapply pc_last with (b' := 1); try reflexivity; try lia.
    unfold R_new, ptr_val. cbn. lia.
  - change [[97]] with (slice (hdr0 ++ [1;97;0;1;98;192;12]) (12 + 1) (12 + 1 + 1) :: []).
    eapply dp_label with (b := 1); [reflexivity|lia|lia|cbn; lia|lia|].
    apply dp_root. reflexivity.
Qed.

(* the cap: 255 octets are accepted, 256 rejected, by both readers *)
Definition lbl63 : bytes := 63 :: repeat 120 63.
Example cap_example :
  let n255 := lbl63 ++ lbl63 ++ lbl63 ++ (61 :: repeat 120 61) ++ [0] in
  let n256 := lbl63 ++ lbl63 ++ lbl63 ++ (62 :: repeat 120 62) ++ [0] in
  len n255 = 255 /\ is_ok (new_split n255 0) = true /\ is_ok (decode_name (hdr0 ++ n255) 12 267) = true /\
  len n256 = 256 /\ is_ok (new_split n256 0) = false /\ is_ok (decode_name (hdr0 ++ n256) 12 268) = false.
Proof. vm_compute. repeat split; reflexivity. Qed.

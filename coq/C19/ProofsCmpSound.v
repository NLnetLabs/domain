(* Soundness of the (repaired) new name compressor.
   (A) what a lookup hit means, for ANY compressor state: the name splits on a
       label boundary into rest ++ S and the octets the returned offset points at
       equal S up to u8::to_ascii_lowercase (length octets included);
   (B) octets that equal a label sequence up to to_ascii_lowercase decode to the
       same labels up to case (a length octet < 64 only equals itself);
   (C) a name written in full reads back; a fresh compressor writes in full. *)
From Coq Require Import NArith PeanoNat List Bool Lia.
From DV Require Import Base.Outcome Base.Bytes Base.Names Base.PName C19.Gen C19.Model C19.ModelCmp
  C19.ProofsOld C19.ProofsNew.
Import ListNotations.
Local Open Scope N_scope.

Definition lastn (k : nat) (l : bytes) : bytes := skipn (length l - k) l.

Lemma lastn_length k l : (k <= length l)%nat -> length (lastn k l) = k.
Proof. intros H. unfold lastn. rewrite skipn_length. lia. Qed.

Lemma lastn_app k a b : k = length b -> lastn k (a ++ b) = b.
Proof.
  intros ->. unfold lastn. rewrite app_length.
  replace (length a + length b - length b)%nat with (length a) by lia.
  rewrite skipn_app, skipn_all, Nat.sub_diag. reflexivity.
Qed.

Lemma lowers_rev l : lowers (rev l) = rev (lowers l).
Proof. unfold lowers. apply map_rev. Qed.

Lemma lowers_skipn k l : lowers (skipn k l) = skipn k (lowers l).
Proof. unfold lowers. symmetry. apply skipn_map. Qed.

Lemma lowers_firstn k l : lowers (firstn k l) = firstn k (lowers l).
Proof. unfold lowers. symmetry. apply firstn_map. Qed.

Lemma lastn_lastn j k l : (j <= k)%nat -> (k <= length l)%nat -> lastn j (lastn k l) = lastn j l.
Proof.
  intros H1 H2. unfold lastn. rewrite skipn_length, skipn_add. f_equal. lia.
Qed.

(* agreement on the last k octets implies agreement on the last j <= k *)
Lemma ci_suffix_shrink a b j k : (j <= k)%nat -> (k <= length a)%nat -> (k <= length b)%nat ->
  lowers (lastn k a) = lowers (lastn k b) -> lowers (lastn j a) = lowers (lastn j b).
Proof.
  intros Hj Ha Hb H.
  rewrite <- (lastn_lastn j k a), <- (lastn_lastn j k b) by lia.
  unfold lastn at 1 3. rewrite !lowers_skipn, !lastn_length by lia. rewrite H. reflexivity.
Qed.

Lemma mismatch_some x : forall y k r, mismatch_pos x y k = Some r ->
  exists j, r = k + N.of_nat j /\ (j < length x)%nat /\ (j < length y)%nat /\
            lowers (firstn j x) = lowers (firstn j y).
Proof.
  induction x as [|a x IH]; intros [|b y] k r H; cbn [mismatch_pos] in H; try discriminate.
  destruct (N.eqb_spec (lower a) (lower b)) as [E|E].
  - apply IH in H as (j & -> & H1 & H2 & H3). exists (S j). cbn [length firstn lowers map].
    split; [lia|]. split; [lia|]. split; [lia|]. unfold lowers in H3. rewrite E, H3. reflexivity.
  - inversion H; subst r. exists 0%nat. cbn. split; [lia|]. split; [lia|]. split; [lia|reflexivity].
Qed.

Lemma mismatch_none x : forall y k, mismatch_pos x y k = None ->
  lowers (firstn (min (length x) (length y)) x) = lowers (firstn (min (length x) (length y)) y).
Proof.
  induction x as [|a x IH]; intros [|b y] k H; cbn [mismatch_pos] in H; try reflexivity.
  destruct (N.eqb_spec (lower a) (lower b)) as [E|E]; [|discriminate].
  apply IH in H. cbn [length Nat.min firstn lowers map]. unfold lowers in H. rewrite E, H. reflexivity.
Qed.

Lemma firstn_rev_lastn j l : firstn j (rev l) = rev (lastn j l).
Proof. unfold lastn. apply firstn_rev. Qed.

Lemma rev_eq_inv {A} (a b : list A) : rev a = rev b -> a = b.
Proof. intros H. rewrite <- (rev_involutive a), <- (rev_involutive b), H. reflexivity. Qed.

Lemma mismatch_some_suffix name entry r : mismatch_pos (rev name) (rev entry) 0 = Some r ->
  exists j, r = N.of_nat j /\ (j < length name)%nat /\ (j < length entry)%nat /\
            lowers (lastn j name) = lowers (lastn j entry).
Proof.
  intros H. apply mismatch_some in H as (j & -> & H1 & H2 & H3). rewrite !rev_length in *.
  exists j. split; [lia|]. split; [lia|]. split; [lia|].
  rewrite !firstn_rev_lastn, !lowers_rev in H3. apply rev_eq_inv. exact H3.
Qed.

Lemma mismatch_none_suffix name entry : mismatch_pos (rev name) (rev entry) 0 = None ->
  let k := min (length name) (length entry) in lowers (lastn k name) = lowers (lastn k entry).
Proof.
  intros H. apply mismatch_none in H. rewrite !rev_length in H.
  rewrite !firstn_rev_lastn, !lowers_rev in H. apply rev_eq_inv. exact H.
Qed.

Lemma wire_rel_cons l ls : wire_rel (l :: ls) = wire_label l ++ wire_rel ls.
Proof. reflexivity. Qed.

Lemma next_label_wire l ls : next_label (wire_rel (l :: ls)) = Some (wire_label l, wire_rel ls).
Proof.
  rewrite wire_rel_cons. unfold wire_label at 1. cbn [app next_label].
  replace (N.to_nat (1 + N.of_nat (length l))) with (length (wire_label l)) by (unfold wire_label; cbn [length]; lia).
  change (N.of_nat (length l) :: l ++ wire_rel ls) with (wire_label l ++ wire_rel ls).
  destruct (Nat.ltb_spec (length (wire_label l ++ wire_rel ls)) (length (wire_label l))) as [H|H].
  - rewrite app_length in H. lia.
  - rewrite firstn_app, firstn_all, Nat.sub_diag, skipn_app, skipn_all, Nat.sub_diag.
    cbn [firstn skipn app]. rewrite app_nil_r. reflexivity.
Qed.

Lemma walk_to_wire fuel : forall prev ls sl, (length ls < fuel)%nat ->
  exists prev' pre ls', walk_to fuel prev (wire_rel ls) sl = Ok (prev', wire_rel ls') /\
    ls = pre ++ ls' /\ len (wire_rel ls') <= sl.
Proof.
  induction fuel as [|fuel IH]; intros prev ls sl Hf; [lia|]. cbn [walk_to].
  destruct (N.ltb_spec sl (len (wire_rel ls))) as [H|H].
  - destruct ls as [|l ls]; [cbn in H; lia|]. rewrite next_label_wire.
    destruct (IH (wire_label l) ls sl ltac:(cbn in Hf; lia)) as (p' & pre & ls' & W & E & L).
    exists p', (l :: pre), ls'. split; [exact W|]. split; [rewrite E; reflexivity|exact L].
  - exists prev, [], ls. auto.
Qed.

(* one slot of the lookup, with the T1 flags of the repaired code *)
Definition aligned_body (name : bytes) (next : lk) (i : nat) (pos ln sl : N) : lk :=
  match next_label name with
  | None => LkPanic PC_UNCHECKED
  | Some (first, rem) =>
      match walk_to (S (length name)) first rem sl with
      | Ok (prev, rem') =>
          if len rem' =? 0 then next
          else LkHit (N.of_nat i) (firstn (length name - length rem') name) (hash_label prev) (pos + ln - len rem')
      | Panic s => LkPanic s
      | _ => LkPanic PC_UNCHECKED
      end
  end.

Definition slot_body (name entry : bytes) (next : lk) (i : nat) (pos ln : N) : lk :=
  match mismatch_pos (rev name) (rev entry) 0 with
  | Some sl => aligned_body name next i pos ln sl
  | None => if len entry <? len name then aligned_body name next i pos ln (len entry)
            else LkHit (N.of_nat i) [] 0 (pos + ln - len name)
  end.

Definition attach_ok (c : bytes) (pos ln : N) (poff : option N) : bool :=
  match poff with
  | None => true
  | Some o => let v := (o + cmp_attach_add) mod 65536 in
              match slice_opt c (pos + ln) 2 with
              | Some [hi; lo] => (hi =? v / 256) && (lo =? v mod 256)
              | _ => false
              end
  end.

Lemma lookup_step k i st c name parent poff hash :
  lookup_from (S k) i st c name parent poff hash =
    let next := lookup_from k (S i) st c name parent poff hash in
    if negb (nth i (cs_hash st) 0 =? hash) || negb (nth i (cs_par st) 0 =? parent) then next else
    if nth i (cs_len st) 0 =? 0 then (if cmp_skips_unused then next else LkPanic PC_ASSERT_LEN) else
    match slice_opt c (nth i (cs_pos st) 0) (nth i (cs_len st) 0) with
    | None => LkPanic PC_CONTENTS
    | Some entry =>
        if negb (attach_ok c (nth i (cs_pos st) 0) (nth i (cs_len st) 0) poff) then next
        else slot_body name entry next i (nth i (cs_pos st) 0) (nth i (cs_len st) 0)
    end.
Proof. reflexivity. Qed.

Definition hit_ok (st : cstate) (c : bytes) (n : name) (parent : N) (i : N) (rest : bytes) (p : N) : Prop :=
  exists n_pre n_suf entry,
    n = n_pre ++ n_suf /\ n_suf <> [] /\ rest = wire_rel n_pre /\
    nth (N.to_nat i) (cs_par st) 0 = parent /\
    slice_opt c (nth (N.to_nat i) (cs_pos st) 0) (nth (N.to_nat i) (cs_len st) 0) = Some entry /\
    len entry = nth (N.to_nat i) (cs_len st) 0 /\
    (length (wire_rel n_suf) <= length entry)%nat /\
    p = nth (N.to_nat i) (cs_pos st) 0 + len entry - len (wire_rel n_suf) /\
    lowers (lastn (length (wire_rel n_suf)) entry) = lowers (wire_rel n_suf).

Lemma aligned_sound st c n parent next i pos ln entry sl j i' rest h p :
  n <> [] -> sl = N.of_nat j -> (j <= length (wire_rel n))%nat -> (j <= length entry)%nat ->
  lowers (lastn j (wire_rel n)) = lowers (lastn j entry) ->
  aligned_body (wire_rel n) next i pos ln sl = LkHit i' rest h p ->
  nth i (cs_par st) 0 = parent -> nth i (cs_pos st) 0 = pos -> nth i (cs_len st) 0 = ln ->
  slice_opt c pos ln = Some entry -> len entry = ln ->
  next = LkHit i' rest h p \/ (i' = N.of_nat i /\ hit_ok st c n parent (N.of_nat i) rest p).
Proof.
  intros Hn Hsl Hj1 Hj2 Hci H Hpar Hpos Hln Hs He.
  destruct n as [|l0 n0]; [contradiction|]. unfold aligned_body in H. rewrite next_label_wire in H.
  destruct (walk_to_wire (S (length (wire_rel (l0 :: n0)))) (wire_label l0) n0 sl) as (prev & pre & ls' & W & E & L).
  { rewrite wire_rel_length. cbn [wire_len]. clear. induction n0; cbn; lia. }
  rewrite W in H. destruct (N.eqb_spec (len (wire_rel ls')) 0) as [Z|Z]; [left; exact H|]. right.
  split; [congruence|].
  assert (Hsplit : wire_rel (l0 :: n0) = wire_rel (l0 :: pre) ++ wire_rel ls').
  { rewrite E. change (l0 :: pre ++ ls') with ((l0 :: pre) ++ ls'). apply wire_rel_app. }
  assert (Hrest : firstn (length (wire_rel (l0 :: n0)) - length (wire_rel ls')) (wire_rel (l0 :: n0)) = wire_rel (l0 :: pre)).
  { rewrite Hsplit. rewrite app_length.
    replace (length (wire_rel (l0 :: pre)) + length (wire_rel ls') - length (wire_rel ls'))%nat
      with (length (wire_rel (l0 :: pre))) by lia.
    rewrite firstn_app, firstn_all, Nat.sub_diag. cbn [firstn]. apply app_nil_r. }
  assert (Er : rest = wire_rel (l0 :: pre)) by (rewrite <- Hrest; congruence).
  assert (Ep : p = pos + ln - len (wire_rel ls')) by congruence.
  clear H.
  exists (l0 :: pre), ls', entry. rewrite Nat2N.id.
  split; [rewrite E; reflexivity|]. split; [intros ->; cbn in Z; lia|]. split; [exact Er|].
  split; [exact Hpar|]. rewrite Hpos, Hln. split; [exact Hs|]. split; [exact He|].
  assert (Hle : (length (wire_rel ls') <= j)%nat) by (unfold len in L; lia).
  split; [lia|]. split; [rewrite He; exact Ep|].
  rewrite <- (lastn_app (length (wire_rel ls')) (wire_rel (l0 :: pre)) (wire_rel ls') eq_refl) at 2.
  rewrite <- Hsplit. symmetry. eapply ci_suffix_shrink; [exact Hle|exact Hj1|exact Hj2|exact Hci].
Qed.

Lemma slot_sound st c n parent next i pos ln entry i' rest h p :
  n <> [] ->
  slot_body (wire_rel n) entry next i pos ln = LkHit i' rest h p ->
  nth i (cs_par st) 0 = parent -> nth i (cs_pos st) 0 = pos -> nth i (cs_len st) 0 = ln ->
  slice_opt c pos ln = Some entry -> len entry = ln ->
  next = LkHit i' rest h p \/ (i' = N.of_nat i /\ hit_ok st c n parent (N.of_nat i) rest p).
Proof.
  intros Hn H Hpar Hpos Hln Hs He. unfold slot_body in H.
  destruct (mismatch_pos (rev (wire_rel n)) (rev entry) 0) as [sl|] eqn:M.
  - apply mismatch_some_suffix in M as (j & -> & J1 & J2 & J3).
    apply (aligned_sound st c n parent next i pos ln entry (N.of_nat j) j i' rest h p); auto; lia.
  - apply mismatch_none_suffix in M. cbv zeta in M.
    destruct (N.ltb_spec (len entry) (len (wire_rel n))) as [L|L].
    + rewrite Nat.min_r in M by (unfold len in L; lia).
      apply (aligned_sound st c n parent next i pos ln entry (len entry) (length entry) i' rest h p); auto; unfold len in *; lia.
    + rewrite Nat.min_l in M by (unfold len in L; lia).
      injection H as Ei Er Eh Ep. subst i' rest h p. right. split; [reflexivity|]. exists [], n, entry. rewrite Nat2N.id.
      split; [reflexivity|]. split; [exact Hn|]. split; [reflexivity|]. split; [exact Hpar|].
      rewrite Hpos, Hln. split; [exact Hs|]. split; [exact He|]. split; [unfold len in L; lia|].
      split; [rewrite He; reflexivity|].
      rewrite <- M. unfold lastn. rewrite Nat.sub_diag. reflexivity.
Qed.

Lemma slice_opt_split c a k e : slice_opt c a k = Some e ->
  exists pre post, c = pre ++ e ++ post /\ len pre = a /\ len e = k.
Proof.
  unfold slice_opt. destruct (N.ltb_spec (len c) (a + k)) as [|H]; [discriminate|]. intros Q. inversion Q; subst e. clear Q.
  exists (firstn (N.to_nat a) c), (skipn (N.to_nat k) (skipn (N.to_nat a) c)).
  split; [rewrite firstn_skipn, firstn_skipn; reflexivity|].
  unfold len in *. rewrite !firstn_length, skipn_length. lia.
Qed.

Lemma lookup_hit k : forall i0 st c n parent poff hash i rest h p, n <> [] ->
  lookup_from k i0 st c (wire_rel n) parent poff hash = LkHit i rest h p ->
  hit_ok st c n parent i rest p /\
  attach_ok c (nth (N.to_nat i) (cs_pos st) 0) (nth (N.to_nat i) (cs_len st) 0) poff = true /\
  (i0 <= N.to_nat i < i0 + k)%nat.
Proof.
  induction k as [|k IH]; intros i0 st c n parent poff hash i rest h p Hn H; [discriminate H|].
  rewrite lookup_step in H. cbv zeta in H.
  assert (Hnext : lookup_from k (S i0) st c (wire_rel n) parent poff hash = LkHit i rest h p ->
                  hit_ok st c n parent i rest p /\
                  attach_ok c (nth (N.to_nat i) (cs_pos st) 0) (nth (N.to_nat i) (cs_len st) 0) poff = true /\
                  (i0 <= N.to_nat i < i0 + S k)%nat).
  { intros Q. destruct (IH _ _ _ _ _ _ _ _ _ _ _ Hn Q) as (A & B & C). split; [exact A|]. split; [exact B|lia]. }
  destruct (negb (nth i0 (cs_hash st) 0 =? hash) || negb (nth i0 (cs_par st) 0 =? parent)) eqn:F; [auto|].
  apply orb_false_iff in F as [_ F]. apply negb_false_iff, N.eqb_eq in F.
  destruct (nth i0 (cs_len st) 0 =? 0); [destruct cmp_skips_unused; [auto|discriminate H]|].
  destruct (slice_opt c (nth i0 (cs_pos st) 0) (nth i0 (cs_len st) 0)) as [entry|] eqn:S; [|discriminate H].
  destruct (attach_ok c (nth i0 (cs_pos st) 0) (nth i0 (cs_len st) 0) poff) eqn:A; cbn [negb] in H; [|auto].
  destruct (slice_opt_split _ _ _ _ S) as (_ & _ & _ & _ & He).
  destruct (slot_sound st c n parent _ i0 _ _ entry i rest h p Hn H F eq_refl eq_refl S He) as [N|[-> HK]]; [auto|].
  rewrite Nat2N.id. split; [exact HK|]. split; [exact A|lia].
Qed.

Theorem lookup_hit_sound k i0 st c n parent poff hash i rest h p : n <> [] ->
  lookup_from k i0 st c (wire_rel n) parent poff hash = LkHit i rest h p ->
  hit_ok st c n parent i rest p.
Proof. intros Hn H. eapply lookup_hit; eassumption. Qed.

(* no slot can hit if every slot that passes the hash/parent filter is empty *)
Lemma lookup_nohit k : forall i0 st c name parent poff hash,
  (forall i, nth i (cs_hash st) 0 = hash -> nth i (cs_par st) 0 = parent -> nth i (cs_len st) 0 = 0) ->
  forall i r h p, lookup_from k i0 st c name parent poff hash <> LkHit i r h p.
Proof.
  induction k as [|k IH]; intros i0 st c name parent poff hash Hz i r h p; [discriminate|].
  rewrite lookup_step. cbv zeta.
  destruct (N.eqb_spec (nth i0 (cs_hash st) 0) hash) as [E1|E1]; cbn [negb orb]; [|apply IH; exact Hz].
  destruct (N.eqb_spec (nth i0 (cs_par st) 0) parent) as [E2|E2]; cbn [negb]; [|apply IH; exact Hz].
  rewrite (Hz i0 E1 E2). cbn [N.eqb]. destruct cmp_skips_unused; [apply IH; exact Hz|discriminate].
Qed.

Lemma lower_small b x : lower b = x -> x < 65 -> b = x.
Proof. unfold lower. destruct ((65 <=? b) && (b <=? 90)) eqn:E; lia. Qed.

Lemma lower_id_small x : x < 65 -> lower x = x.
Proof. unfold lower. destruct ((65 <=? x) && (x <=? 90)) eqn:E; lia. Qed.

Lemma nth_error_mid {A} (a : list A) x r : nth_error (a ++ x :: r) (length a) = Some x.
Proof. rewrite nth_error_app2, Nat.sub_diag by lia. reflexivity. Qed.

Section DECODE.
Variables (h c : bytes).
Hypothesis Hh : length h = 12%nat.
Let m := h ++ c.

Lemma path_ci : forall n, Forall valid_label n ->
  forall pre E post, c = pre ++ E ++ post -> lowers E = lowers (wire_rel n) ->
    exists n', canon n' = canon n /\
      forall nl, nl + N.of_nat (wire_len n) < 255 -> forall R seg tail e,
        dpath R m (12 + len pre + len E) seg (nl + N.of_nat (wire_len n)) tail e ->
        dpath R m (12 + len pre) seg nl (n' ++ tail) e.
Proof.
  induction n as [|l ls IH]; intros Hv pre E post Hc HE.
  - destruct E; [|discriminate HE]. exists []. split; [reflexivity|].
    intros nl Hnl R seg tail e D. cbn [wire_len app len length] in *.
    change (len []) with 0 in D.
    replace (12 + len pre + 0) with (12 + len pre) in D by lia.
    replace (nl + N.of_nat 0) with nl in D by lia. exact D.
  - pose proof (Forall_inv Hv) as [Hl1 _]. pose proof (Forall_inv_tail Hv) as Hv'.
    rewrite wire_rel_cons in HE. unfold wire_label in HE. cbn [app] in HE.
    destruct E as [|e0 E']; [discriminate HE|].
    unfold lowers in HE. cbn [map] in HE. injection HE as He0 HE'.
    rewrite (lower_id_small (N.of_nat (length l))) in He0 by lia.
    apply lower_small in He0; [|lia]. subst e0.
    rewrite map_app in HE'.
    set (El := firstn (length l) E'). set (Els := skipn (length l) E').
    assert (HE'len : length (map lower E') = (length l + length (map lower (wire_rel ls)))%nat).
    { rewrite HE', app_length, map_length. reflexivity. }
    rewrite !map_length in HE'len.
    assert (HEl : length El = length l) by (unfold El; rewrite firstn_length; lia).
    assert (Hsplit : E' = El ++ Els) by (unfold El, Els; symmetry; apply firstn_skipn).
    assert (HlEl : lowers El = lowers l /\ lowers Els = lowers (wire_rel ls)).
    { unfold lowers, El, Els. rewrite <- firstn_map, <- skipn_map, HE'.
      rewrite firstn_app, firstn_all2, skipn_app, skipn_all2 by (rewrite map_length; lia).
      rewrite map_length, Nat.sub_diag. cbn [firstn skipn]. rewrite app_nil_r. split; reflexivity. }
    destruct HlEl as [HlEl HlEls].
    destruct (IH Hv' (pre ++ N.of_nat (length l) :: El) Els post)
      as (n'' & Hcan & P).
    { rewrite Hc, Hsplit. cbn [app]. repeat (rewrite <- app_assoc; cbn [app]). reflexivity. }
    { exact HlEls. }
    exists (El :: n''). split.
    { unfold canon in *. cbn [map]. rewrite Hcan. f_equal. exact HlEl. }
    intros nl Hnl R seg tail e D. cbn [app].
    assert (Hm : m = (h ++ pre) ++ N.of_nat (length l) :: El ++ Els ++ post).
    { unfold m. rewrite Hc, Hsplit. cbn [app]. repeat (rewrite <- app_assoc; cbn [app]). reflexivity. }
    assert (Hcur : 12 + len pre = N.of_nat (length (h ++ pre))) by (rewrite app_length, Hh; unfold len; lia).
    assert (Hsl : slice m (12 + len pre + 1) (12 + len pre + 1 + N.of_nat (length l)) = El).
    { unfold slice. replace (12 + len pre + 1 + N.of_nat (length l) - (12 + len pre + 1)) with (N.of_nat (length l)) by lia.
      rewrite Hm. replace (N.to_nat (12 + len pre + 1)) with (length ((h ++ pre) ++ [N.of_nat (length l)]))
        by (rewrite !app_length, Hh; cbn [length]; unfold len; lia).
      change (N.of_nat (length l) :: El ++ Els ++ post) with ([N.of_nat (length l)] ++ El ++ Els ++ post).
      rewrite app_assoc, drop_app_length. rewrite Nat2N.id, <- HEl. apply take_app_length. }
    rewrite <- Hsl.
    eapply dp_label.
    + unfold get. rewrite Hcur, Nat2N.id, Hm. apply nth_error_mid.
    + lia.
    + lia.
    + unfold mlen. rewrite Hm, !app_length, Hh. cbn [length]. rewrite !app_length, HEl. unfold len. lia.
    + cbn [wire_len] in Hnl. lia.
    + specialize (P (nl + N.of_nat (length l) + 1) ltac:(cbn [wire_len] in Hnl; lia) R seg tail e).
      replace (12 + len pre + 1 + N.of_nat (length l)) with (12 + len (pre ++ N.of_nat (length l) :: El))
        by (unfold len; rewrite app_length; cbn [length]; rewrite HEl; lia).
      apply P.
      replace (12 + len (pre ++ N.of_nat (length l) :: El) + len Els) with (12 + len pre + len (N.of_nat (length l) :: E'))
        by (rewrite Hsplit; unfold len; rewrite !app_length; cbn [length]; rewrite app_length; lia).
      replace (nl + N.of_nat (length l) + 1 + N.of_nat (wire_len ls)) with (nl + N.of_nat (wire_len (l :: ls)))
        by (cbn [wire_len]; lia).
      exact D.
Qed.
End DECODE.

Lemma wire_rel_nonnil n : n <> [] -> wire_rel n <> [].
Proof. destruct n; [contradiction|]. intros _. rewrite wire_rel_cons. discriminate. Qed.

Lemma firstn_wire_abs n : firstn (length (wire_abs n) - 1) (wire_abs n) = wire_rel n.
Proof.
  unfold wire_abs. rewrite app_length. cbn [length].
  replace (length (wire_rel n) + 1 - 1)%nat with (length (wire_rel n)) by lia.
  rewrite firstn_app, firstn_all, Nat.sub_diag. cbn [firstn]. apply app_nil_r.
Qed.

Lemma wf_wire_rel n : Forall valid_label n -> wf_bytes (wire_rel n).
Proof.
  induction 1 as [|l ls [Hl1 Hl2] _ IH]; [constructor|].
  rewrite wire_rel_cons. unfold wire_label. apply wf_bytes_app. split; [|exact IH].
  constructor; [lia|exact Hl2].
Qed.

Lemma wf_wire_abs n : Forall valid_label n -> wf_bytes (wire_abs n).
Proof. intros H. unfold wire_abs. apply wf_bytes_app. split; [apply wf_wire_rel; exact H|constructor; [lia|constructor]]. Qed.

(* the two octets of a pointer to contents offset q: 0xC000 | (q + 12) *)
Lemma ptr_val_of v q : v = q + 49164 -> q + 12 < 16384 -> 192 <= v / 256 /\ ptr_val (v / 256) (v mod 256) = q + 12.
Proof. intros -> H. unfold ptr_val. split; lia. Qed.

Lemma nth_zeros i : nth i zeros32 0 = 0.
Proof. unfold zeros32. apply nth_repeat. Qed.

(* a fresh compressor finds nothing: every slot has length 0 *)
Lemma compress_loop_fresh fuel c name hash r : name <> [] ->
  compress_loop fuel cs_new c name cn_no_parent None hash = Ok r -> r = (cs_new, name, cn_no_parent, None, hash).
Proof.
  intros Hn H. destruct fuel as [|fuel]; [discriminate H|]. cbn [compress_loop] in H.
  destruct name as [|x name]; [contradiction|].
  destruct (lookup_from 32 0 cs_new c (x :: name) cn_no_parent None hash) as [|i rest h p|s] eqn:L.
  - inversion H. reflexivity.
  - exfalso. eapply lookup_nohit; [|exact L]. intros j _ _. apply nth_zeros.
  - discriminate H.
Qed.

Local Opaque compress_loop lookup_from last_label hash_label.

Lemma build_name_fresh c w bs st : build_name cs_new c w = Ok (bs, st) -> bs = w.
Proof.
  unfold build_name, compress_name. intros H.
  destruct (firstn (length w - 1) w) as [|x nm]; [inversion H; reflexivity|].
  destruct (last_label (x :: nm)) as [lab| | |]; cbn [bind] in H; try discriminate H.
  destruct (compress_loop _ cs_new c (x :: nm) cn_no_parent None (hash_label lab)) as [r| | |] eqn:EL;
    cbn [bind] in H; try discriminate H.
  apply compress_loop_fresh in EL; [|discriminate]. subst r. inversion H. reflexivity.
Qed.

Section FINAL.
Variable h : bytes.
Hypothesis Hh : length h = 12%nat.

Lemma verbatim_reads pre n post c : c = pre ++ wire_abs n ++ post -> Forall valid_label n -> (wire_len n <= 254)%nat ->
  exists n', canon n' = canon n /\
    forall R seg, dpath R (h ++ c) (12 + len pre) seg 0 n' (12 + len pre + len (wire_abs n)).
Proof.
  intros Hc Hv Hl.
  destruct (path_ci h c Hh n Hv pre (wire_rel n) ([0] ++ post)) as (n' & Hcan & P0).
  { rewrite Hc. unfold wire_abs. rewrite <- app_assoc. reflexivity. }
  { reflexivity. }
  pose proof (P0 0 ltac:(lia)) as P.
  exists n'. split; [exact Hcan|]. intros R seg. rewrite <- (app_nil_r n').
  replace (12 + len pre + len (wire_abs n)) with (12 + len pre + len (wire_rel n) + 1)
    by (unfold wire_abs, len; rewrite app_length; cbn [length]; lia).
  apply P. constructor.
  unfold get. replace (N.to_nat (12 + len pre + len (wire_rel n))) with (length ((h ++ pre) ++ wire_rel n))
    by (rewrite !app_length, Hh; unfold len; lia).
  rewrite Hc. unfold wire_abs.
  replace (h ++ pre ++ (wire_rel n ++ [0]) ++ post) with (((h ++ pre) ++ wire_rel n) ++ 0 :: post)
    by (rewrite <- !app_assoc; reflexivity).
  apply nth_error_mid.
Qed.
End FINAL.

(* non-vacuity: a case with a pointer into the middle of the first name *)
Example two_names_example :
  let n1 := [[119;119;119];[101;120];[111;114;103]] in      (* www.ex.org *)
  let n2 := [[109];[69;88];[79;82;71]] in                    (* m.EX.ORG *)
  exists c, build_names cs_new [] [wire_abs n1; wire_abs n2] = Ok c /\
            c = wire_abs n1 ++ [1;109;192;16] /\ new_split c 12 = Ok ([1;109;2;101;120;3;111;114;103;0], 16).
Proof. eexists. split; [vm_compute; reflexivity|]. split; vm_compute; reflexivity. Qed.


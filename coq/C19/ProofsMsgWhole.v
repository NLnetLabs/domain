(* The whole message.  MessageParser (mp_run) reads a
   message to completion iff C01's model of the old codec does: the question
   section iterated clean, answer() / next_section() / next_section() reach
   the three record sections and each of them iterates clean.  Premises: no
   pointer of a known class, no `0 0 41` item, no OPT record. *)
From Coq Require Import NArith PeanoNat List Lia.
From DV Require Import Base.Outcome Base.Bytes Base.PName C19.Gen C19.Model C19.ModelMsg C19.ProofsMsg
  C19.ProofsMsgIff C01.Gen C01.Model C01.Model3 C01.Proofs2 C01.Proofs3.
Import ListNotations.
Local Open Scope N_scope.

(* what record_parse accepts record_skip accepts, item after item *)
Lemma skip_follows m n : forall pos,
  let '(l, p, ok) := iter_items (fun q => record_parse m q (mlen m)) rr_end n pos in
  ok = true -> exists l2, iter_items (fun q => record_skip m q (mlen m)) (fun e => e) n pos = (l2, p, true).
Proof.
  induction n as [|n IH]; intros pos; cbn [iter_items]; [intros _; eauto|].
  destruct (record_parse m pos (mlen m)) as [r| | |] eqn:R; try (intros Q; discriminate Q).
  rewrite (parse_accepts_skip_accepts _ _ _ _ R).
  specialize (IH (rr_end r)).
  destruct (iter_items (fun q => record_parse m q (mlen m)) rr_end n (rr_end r)) as [[l p] ok].
  intros Q. destruct (IH Q) as (l2 & E). rewrite E. eauto.
Qed.

Lemma count_at_u16 (m : bytes) (i : nat) : (S i < length m)%nat ->
  count_at m (N.of_nat i) = Ok (u16_of m i).
Proof.
  intros H. unfold count_at, get, u16_of. rewrite Nat2N.id.
  replace (N.to_nat (N.of_nat i + 1)) with (S i) by lia.
  rewrite (nth_error_nth' m 0) by lia. rewrite (nth_error_nth' m 0) by lia. reflexivity.
Qed.

(* the old codec reads the whole message: questions clean, answer() and the two
   next_section() succeed, every record section iterates clean *)
Definition old_msg_ok (m : bytes) : Prop :=
  exists qs trq qs' a tra a' nsec trn ns' asec tra2 ar',
    question_section m = Ok qs /\ drain (q_next m) (sec_fuel qs) qs [] = Ok (trq, qs') /\ has_err trq = false /\
    q_to_answer m qs = Ok a /\ drain (r_next m) (sec_fuel a) a [] = Ok (tra, a') /\ has_err tra = false /\
    r_next_section m a = Ok (Some nsec) /\ drain (r_next m) (sec_fuel nsec) nsec [] = Ok (trn, ns') /\ has_err trn = false /\
    r_next_section m nsec = Ok (Some asec) /\ drain (r_next m) (sec_fuel asec) asec [] = Ok (tra2, ar') /\ has_err tra2 = false.

Section WHOLE.
Variables (h c : bytes).
Hypothesis Hh : length h = 12%nat.
Hypothesis Hwf : wf_bytes c.
Let m := h ++ c.
Hypothesis Hk : forall p, kclass m p = KNone.
Hypothesis Hno_edns : forall off, starts_with (skipn (N.to_nat off) c) edns_prefix = false.
Hypothesis Hno_opt : forall pos r, record_parse m pos (mlen m) = Ok r -> rr_type r <> 41.

Lemma skip_total p : no_panic (record_skip m p (mlen m)).
Proof. eapply sat_no_panic. apply record_skip_sat. lia. Qed.

(* one record section: iteration with parse, the re-walk with skip that
   next_section() does, and MessageParser's loop *)
Lemma rsec_all sec n off acc : sec <> 0 ->
  let s := mkSect (12 + off) (N.of_nat n) None sec in
  exists tr s' tr2 s2 acc' off' ok,
    drain (r_next m) (sec_fuel s) s [] = Ok (tr, s') /\
    drain (r_skip_next m) (sec_fuel s) s [] = Ok (tr2, s2) /\
    mp_section n c sec off acc = Ok (acc', off', ok) /\
    (ok = true <-> has_err tr = false) /\
    (ok = true -> s_err s' = None /\ s_pos s' = 12 + off' /\ s_err s2 = None /\ s_pos s2 = 12 + off').
Proof.
  intros Hs. cbv zeta.
  destruct (section_agrees h c Hh Hwf Hk Hno_edns Hno_opt (fun pos => record_parse m pos (mlen m)) rr_end sec
              ltac:(intros p0; eapply old_r_total; eassumption)
              ltac:(intros p0; apply old_parse_record, Hs) n off acc)
    as (tr & s' & acc' & off' & ok & D & E & I1 & C1).
  destruct (drain_count (fun pos => record_skip m pos (mlen m)) (fun e => e) skip_total n (12 + off) sec (sec_fuel (mkSect (12 + off) (N.of_nat n) None sec)) [])
    as (tr2 & s2 & D2 & HP2).
  { unfold sec_fuel. cbn [s_cnt]. lia. }
  exists tr, s', tr2, s2, acc', off', ok. split; [exact D|]. split; [exact D2|]. split; [exact E|]. split; [exact I1|].
  intros Q. destruct (C1 Q) as (A1 & A2 & _ & l & EI).
  pose proof (skip_follows m n (12 + off)) as HF. rewrite EI in HF. destruct (HF eq_refl) as (l3 & E3).
  rewrite E3 in HP2. destruct HP2 as [Q1 _]. destruct (Q1 eq_refl) as (B1 & B2 & _). auto.
Qed.

Lemma len_m : (12 <= length m)%nat.
Proof. unfold m. rewrite app_length. lia. Qed.

Lemma counts_m : count_at m qd_off = Ok (u16_of m 4) /\ count_at m an_off = Ok (u16_of m 6) /\
  count_at m ns_off = Ok (u16_of m 8) /\ count_at m ar_off = Ok (u16_of m 10).
Proof.
  pose proof len_m. repeat split.
  - apply (count_at_u16 m 4). lia.
  - apply (count_at_u16 m 6). lia.
  - apply (count_at_u16 m 8). lia.
  - apply (count_at_u16 m 10). lia.
Qed.

Lemma skipn_m : skipn 12 m = c.
Proof. unfold m. rewrite <- Hh. apply (drop_app_length h c). Qed.

(* all four sections at once: both sides, chained *)
Lemma chain :
  exists trq qs' acc1 off1 ok1,
    let qs := mkSect 12 (u16_of m 4) None 0 in
    drain (q_next m) (sec_fuel qs) qs [] = Ok (trq, qs') /\
    mp_section (N.to_nat (u16_of m 4)) c 0 0 [] = Ok (acc1, off1, ok1) /\
    (ok1 = true <-> has_err trq = false) /\
    (ok1 = true -> s_err qs' = None /\ s_pos qs' = 12 + off1 /\
      exists tra a' ta2 a2 acc2 off2 ok2,
        let a := mkSect (12 + off1) (u16_of m 6) None 1 in
        drain (r_next m) (sec_fuel a) a [] = Ok (tra, a') /\ drain (r_skip_next m) (sec_fuel a) a [] = Ok (ta2, a2) /\
        mp_section (N.to_nat (u16_of m 6)) c 1 off1 acc1 = Ok (acc2, off2, ok2) /\
        (ok2 = true <-> has_err tra = false) /\
        (ok2 = true -> s_err a2 = None /\ s_pos a2 = 12 + off2 /\
          exists trn n' tn2 n2 acc3 off3 ok3,
            let nsec := mkSect (12 + off2) (u16_of m 8) None 2 in
            drain (r_next m) (sec_fuel nsec) nsec [] = Ok (trn, n') /\ drain (r_skip_next m) (sec_fuel nsec) nsec [] = Ok (tn2, n2) /\
            mp_section (N.to_nat (u16_of m 8)) c 2 off2 acc2 = Ok (acc3, off3, ok3) /\
            (ok3 = true <-> has_err trn = false) /\
            (ok3 = true -> s_err n2 = None /\ s_pos n2 = 12 + off3 /\
              exists trr r' acc4 off4 ok4,
                let asec := mkSect (12 + off3) (u16_of m 10) None 3 in
                drain (r_next m) (sec_fuel asec) asec [] = Ok (trr, r') /\
                mp_section (N.to_nat (u16_of m 10)) c 3 off3 acc3 = Ok (acc4, off4, ok4) /\
                (ok4 = true <-> has_err trr = false)))).
Proof.
  destruct (section_agrees h c Hh Hwf Hk Hno_edns Hno_opt (fun pos => question_parse m pos (mlen m)) q_end 0
              ltac:(intros p0; eapply old_q_total; eassumption) ltac:(reflexivity) (N.to_nat (u16_of m 4)) 0 [])
    as (trq & qs' & acc1 & off1 & ok1 & D1 & E1 & I1 & C1).
  rewrite N2Nat.id in D1. replace (12 + 0) with 12 in D1 by lia.
  exists trq, qs', acc1, off1, ok1. cbv zeta. split; [exact D1|]. split; [exact E1|]. split; [exact I1|].
  intros Q1. destruct (C1 Q1) as (Z1 & Z2 & _). split; [exact Z1|]. split; [exact Z2|].
  destruct (rsec_all 1 (N.to_nat (u16_of m 6)) off1 acc1 ltac:(lia)) as (tra & a' & ta2 & a2 & acc2 & off2 & ok2 & D2 & K2 & E2 & I2 & C2).
  rewrite N2Nat.id in D2, K2.
  exists tra, a', ta2, a2, acc2, off2, ok2. split; [exact D2|]. split; [exact K2|]. split; [exact E2|]. split; [exact I2|].
  intros Q2. destruct (C2 Q2) as (_ & _ & Y1 & Y2). split; [exact Y1|]. split; [exact Y2|].
  destruct (rsec_all 2 (N.to_nat (u16_of m 8)) off2 acc2 ltac:(lia)) as (trn & n' & tn2 & n2 & acc3 & off3 & ok3 & D3 & K3 & E3 & I3 & C3).
  rewrite N2Nat.id in D3, K3.
  exists trn, n', tn2, n2, acc3, off3, ok3. split; [exact D3|]. split; [exact K3|]. split; [exact E3|]. split; [exact I3|].
  intros Q3. destruct (C3 Q3) as (_ & _ & X1 & X2). split; [exact X1|]. split; [exact X2|].
  destruct (rsec_all 3 (N.to_nat (u16_of m 10)) off3 acc3 ltac:(lia)) as (trr & r' & tr2 & r2 & acc4 & off4 & ok4 & D4 & _ & E4 & I4 & _).
  rewrite N2Nat.id in D4.
  exists trr, r', acc4, off4, ok4. auto.
Qed.

Lemma question_section_m : question_section m = Ok (mkSect 12 (u16_of m 4) None 0).
Proof. unfold question_section. destruct counts_m as (-> & _). reflexivity. Qed.

Lemma record_section_m pos k : k = 1 \/ k = 2 \/ k = 3 ->
  record_section m pos k = Ok (mkSect pos (u16_of m (if k =? 1 then 6 else if k =? 2 then 8 else 10)) None k).
Proof.
  destruct counts_m as (_ & C1 & C2 & C3).
  intros [ -> | [ -> | -> ] ]; unfold record_section, kind_off; cbn [N.eqb Pos.eqb]; rewrite ?C1, ?C2, ?C3; reflexivity.
Qed.

Theorem whole_message_iff :
  (exists items off, mp_run m = Some (Ok (items, off, true))) <-> old_msg_ok m.
Proof.
  destruct chain as (trq & qs' & acc1 & off1 & ok1 & D1 & E1 & I1 & C1). cbv zeta in D1.
  assert (Hrun : mp_run m = Some (mp_sections [(0, u16_of m 4); (1, u16_of m 6); (2, u16_of m 8); (3, u16_of m 10)] c 0 [])).
  { unfold mp_run. pose proof len_m. destruct (Nat.ltb_spec (length m) 12); [lia|]. rewrite skipn_m. reflexivity. }
  rewrite Hrun. cbn [mp_sections]. rewrite E1. cbn [bind].
  split.
  - intros (items & off & H). apply some_inj in H.
    destruct ok1; [|discriminate H].
    destruct (C1 eq_refl) as (Z1 & Z2 & tra & a' & ta2 & a2 & acc2 & off2 & ok2 & D2 & K2 & E2 & I2 & C2). cbv zeta in D2, K2.
    rewrite E2 in H. cbn [bind] in H. destruct ok2; [|discriminate H].
    destruct (C2 eq_refl) as (Y1 & Y2 & trn & n' & tn2 & n2 & acc3 & off3 & ok3 & D3 & K3 & E3 & I3 & C3). cbv zeta in D3, K3.
    rewrite E3 in H. cbn [bind] in H. destruct ok3; [|discriminate H].
    destruct (C3 eq_refl) as (X1 & X2 & trr & r' & acc4 & off4 & ok4 & D4 & E4 & I4). cbv zeta in D4.
    rewrite E4 in H. cbn [bind] in H. destruct ok4; [|discriminate H].
    exists (mkSect 12 (u16_of m 4) None 0), trq, qs', (mkSect (12 + off1) (u16_of m 6) None 1), tra, a',
           (mkSect (12 + off2) (u16_of m 8) None 2), trn, n', (mkSect (12 + off3) (u16_of m 10) None 3), trr, r'.
    split; [apply question_section_m|]. split; [exact D1|]. split; [apply I1; reflexivity|].
    split. { unfold q_to_answer. rewrite D1. cbn [bind snd]. rewrite Z1, Z2. apply (record_section_m _ 1). auto. }
    split; [exact D2|]. split; [apply I2; reflexivity|].
    split. { unfold r_next_section. cbn [s_kind N.leb N.compare Pos.compare Pos.compare_cont]. rewrite K2. cbn [bind snd]. rewrite Y1, Y2.
             change (1 + 1) with 2. rewrite (record_section_m _ 2) by auto. reflexivity. }
    split; [exact D3|]. split; [apply I3; reflexivity|].
    split. { unfold r_next_section. cbn [s_kind N.leb N.compare Pos.compare Pos.compare_cont]. rewrite K3. cbn [bind snd]. rewrite X1, X2.
             change (2 + 1) with 3. rewrite (record_section_m _ 3) by auto. reflexivity. }
    split; [exact D4|]. apply I4. reflexivity.
  - intros (qs & trq0 & qs0 & a & tra0 & a0 & nsec & trn0 & ns0 & asec & trr0 & ar0 &
            G1 & G2 & G3 & G4 & G5 & G6 & G7 & G8 & G9 & G10 & G11 & G12).
    rewrite question_section_m in G1. injection G1 as <-. rewrite D1 in G2. injection G2 as <- <-.
    assert (Q1 : ok1 = true) by (apply I1; exact G3). subst ok1.
    destruct (C1 eq_refl) as (Z1 & Z2 & tra & a' & ta2 & a2 & acc2 & off2 & ok2 & D2 & K2 & E2 & I2 & C2). cbv zeta in D2, K2.
    unfold q_to_answer in G4. rewrite D1 in G4. cbn [bind snd] in G4. rewrite Z1, Z2, (record_section_m _ 1) in G4 by auto.
    change (1 =? 1) with true in G4. cbv iota in G4. assert (Ea : a = mkSect (12 + off1) (u16_of m 6) None 1) by congruence. subst a. rewrite D2 in G5. injection G5 as <- <-.
    assert (Q2 : ok2 = true) by (apply I2; exact G6). subst ok2.
    destruct (C2 eq_refl) as (Y1 & Y2 & trn & n' & tn2 & n2 & acc3 & off3 & ok3 & D3 & K3 & E3 & I3 & C3). cbv zeta in D3, K3.
    unfold r_next_section in G7. cbn [s_kind N.leb N.compare Pos.compare Pos.compare_cont N.eqb Pos.eqb] in G7. rewrite K2 in G7. cbn [bind snd] in G7.
    rewrite Y1, Y2 in G7. change (1 + 1) with 2 in G7. rewrite (record_section_m _ 2) in G7 by auto.
    change (2 =? 1) with false in G7. change (2 =? 2) with true in G7. cbn [bind] in G7. assert (En : nsec = mkSect (12 + off2) (u16_of m 8) None 2) by congruence. subst nsec. rewrite D3 in G8. injection G8 as <- <-.
    assert (Q3 : ok3 = true) by (apply I3; exact G9). subst ok3.
    destruct (C3 eq_refl) as (X1 & X2 & trr & r' & acc4 & off4 & ok4 & D4 & E4 & I4). cbv zeta in D4.
    unfold r_next_section in G10. cbn [s_kind N.leb N.compare Pos.compare Pos.compare_cont N.eqb Pos.eqb] in G10. rewrite K3 in G10. cbn [bind snd] in G10.
    rewrite X1, X2 in G10. change (2 + 1) with 3 in G10. rewrite (record_section_m _ 3) in G10 by auto.
    change (3 =? 1) with false in G10. change (3 =? 2) with false in G10. cbn [bind] in G10. assert (Er : asec = mkSect (12 + off3) (u16_of m 10) None 3) by congruence. subst asec. rewrite D4 in G11. injection G11 as <- <-.
    assert (Q4 : ok4 = true) by (apply I4; exact G12). subst ok4.
    rewrite E2. cbn [bind]. rewrite E3. cbn [bind]. rewrite E4. cbn [bind]. eauto.
Qed.
End WHOLE.

(* non-vacuity: one question and one answer whose owner is a pointer to the
   question name; both sides of the equivalence hold *)
Example whole_example :
  let m := [0;1;129;128; 0;1; 0;1; 0;0; 0;0] ++ [1;97;0; 0;1;0;1] ++ [192;12; 255;0; 0;1; 0;0;0;5; 0;1; 7] in
  (exists items off, mp_run m = Some (Ok (items, off, true)) /\ length items = 2%nat) /\ old_msg_ok m.
Proof.
  split.
  - eexists. eexists. split; vm_compute; reflexivity.
  - unfold old_msg_ok. do 12 eexists. repeat (split; [vm_compute; reflexivity|]). vm_compute; reflexivity.
Qed.

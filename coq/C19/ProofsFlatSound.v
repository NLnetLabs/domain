(* The uncompressed name parser Name::split_bytes_by_ref,
   the converse of ProofsFlat.v: it never panics or runs out of fuel, whatever
   it accepts is the wire form of a valid absolute name followed by the octets
   it returns, hence it accepts exactly the octet strings that start with a
   valid name (of at most 255 octets). *)
From Coq Require Import NArith List Bool Lia.
From DV Require Import Base.Outcome Base.Bytes Base.Names C19.Gen C19.Model C19.ProofsFlat.
Import ListNotations.
Local Open Scope N_scope.

(* the offset grows by at least 2 per label and stays < 255 *)
Lemma flat_walk_total : forall fuel b off, (1 <= fuel)%nat -> 256 <= off + N.of_nat fuel ->
  no_panic (flat_walk fuel b off).
Proof.
  induction fuel as [|f IH]; intros b off H1 H2; [lia|]. cbn [flat_walk].
  change name_flat_strict with true. change name_flat_bound with 255. unfold cmp_lt.
  destruct (N.ltb_spec off 255) as [Ho|Ho]; [|exact I].
  destruct (get_from b off) as [[|l rest]|]; try exact I.
  destruct (N.eqb_spec l 0) as [|Hl]; [exact I|].
  destruct ((l <=? 63) && (l <=? len rest)); [|exact I].
  apply IH; lia.
Qed.

Theorem flat_split_total b : no_panic (flat_split b).
Proof. unfold flat_split. apply flat_walk_total; lia. Qed.

Lemma skipn_split {A} (a k : nat) (b x y : list A) : (a <= length b)%nat ->
  skipn a b = x ++ y -> length x = k ->
  skipn (a + k) b = y /\ firstn (a + k) b = firstn a b ++ x /\ (a + k <= length b)%nat.
Proof.
  intros Ha Hs Hk.
  assert (Hb : b = (firstn a b ++ x) ++ y).
  { rewrite <- app_assoc, <- Hs. symmetry. apply firstn_skipn. }
  assert (Hl : length (firstn a b ++ x) = (a + k)%nat).
  { rewrite app_length, firstn_length, Hk. lia. }
  remember (firstn a b ++ x) as P eqn:HP. clear HP Hs. rewrite <- Hl. subst b. split; [|split].
  - apply (drop_app_length P y).
  - apply (take_app_length P y).
  - rewrite app_length. lia.
Qed.

Lemma get_from_some c start bs : get_from c start = Some bs ->
  (N.to_nat start <= length c)%nat /\ bs = skipn (N.to_nat start) c.
Proof.
  unfold get_from. destruct (N.ltb_spec (len c) start) as [|H]; [discriminate|].
  intros Q; inversion Q. unfold len in H. split; [lia|reflexivity].
Qed.

Lemma flat_walk_sound : forall fuel b off w rest, wf_bytes b ->
  flat_walk fuel b off = Ok (w, rest) ->
  exists n, Forall valid_label n /\
    skipn (N.to_nat off) b = wire_abs n ++ rest /\
    w = firstn (N.to_nat off) b ++ wire_abs n /\
    off + N.of_nat (wire_len n) + 1 <= 255.
Proof.
  induction fuel as [|f IH]; intros b off w rest Hwf H; [discriminate|]. cbn [flat_walk] in H.
  change name_flat_strict with true in H. change name_flat_bound with 255 in H. unfold cmp_lt in H.
  destruct (N.ltb_spec off 255) as [Ho|Ho]; [|discriminate].
  destruct (get_from b off) as [[|l r]|] eqn:G; try discriminate.
  apply get_from_some in G. destruct G as [Ga Gs]. symmetry in Gs.
  destruct (N.eqb_spec l 0) as [Hl|Hl].
  - subst l. inversion H; subst w rest; clear H.
    destruct (skipn_split (N.to_nat off) 1 b [0] r Ga Gs eq_refl) as (S1 & S2 & _).
    replace (N.to_nat (off + 1)) with (N.to_nat off + 1)%nat by lia.
    exists []. split; [constructor|]. change (wire_abs []) with [0].
    rewrite S1, S2. cbn [wire_len]. repeat split; try assumption; lia.
  - destruct (N.leb_spec l 63) as [H63|]; [|discriminate].
    destruct (N.leb_spec l (len r)) as [Hr|]; [|discriminate]. cbn [andb] in H.
    apply IH in H; [|exact Hwf]. destruct H as (n' & Hv & Hs & Hw & Hlen).
    set (lab := firstn (N.to_nat l) r).
    assert (Hlab : length lab = N.to_nat l).
    { unfold lab. rewrite firstn_length. unfold len in Hr. lia. }
    assert (Gs' : skipn (N.to_nat off) b = (l :: lab) ++ skipn (N.to_nat l) r).
    { rewrite Gs. cbn [app]. f_equal. unfold lab. symmetry. apply firstn_skipn. }
    destruct (skipn_split (N.to_nat off) (1 + N.to_nat l) b (l :: lab) _ Ga Gs') as (S1 & S2 & _).
    { cbn [length]. lia. }
    replace (N.to_nat (off + 1 + l)) with (N.to_nat off + (1 + N.to_nat l))%nat in Hs, Hw by lia.
    assert (Hwl : wf_bytes lab).
    { rewrite <- (firstn_skipn (N.to_nat off) b) in Hwf. apply wf_bytes_app in Hwf. destruct Hwf as [_ Hwf].
      rewrite Gs' in Hwf. apply wf_bytes_app in Hwf. destruct Hwf as [Hwf _].
      exact (Forall_inv_tail Hwf). }
    exists (lab :: n'). split; [|split; [|split]].
    + constructor; [|exact Hv]. split; [lia|exact Hwl].
    + rewrite wire_abs_cons, Hlab, N2Nat.id, Gs', <- S1, Hs. reflexivity.
    + rewrite Hw, S2. rewrite <- app_assoc. f_equal.
      rewrite <- (app_nil_r (wire_abs (lab :: n'))). rewrite wire_abs_cons. rewrite Hlab, N2Nat.id.
      rewrite app_nil_r. cbn [app]. reflexivity.
    + cbn [wire_len]. lia.
Qed.

Theorem flat_split_sound b w rest : wf_bytes b -> flat_split b = Ok (w, rest) ->
  exists n, valid_abs n /\ w = wire_abs n /\ b = wire_abs n ++ rest.
Proof.
  intros Hwf H. unfold flat_split in H. apply flat_walk_sound in H; [|exact Hwf].
  destruct H as (n & Hv & Hs & Hw & Hl). cbn [N.to_nat skipn firstn app] in Hs, Hw.
  exists n. split; [split; [exact Hv|lia]|]. split; assumption.
Qed.

(* the accepted octet strings, exactly; the result is determined by the name *)
Theorem flat_split_iff b : wf_bytes b -> forall w rest,
  flat_split b = Ok (w, rest) <-> exists n, valid_abs n /\ w = wire_abs n /\ b = wire_abs n ++ rest.
Proof.
  intros Hwf w rest. split; [apply flat_split_sound; exact Hwf|].
  intros (n & Hv & -> & ->). apply flat_split_complete. exact Hv.
Qed.

(* everything else is a ParseError: never a panic, never a different error *)
Theorem flat_split_reject b : wf_bytes b ->
  (~ exists n rest, valid_abs n /\ b = wire_abs n ++ rest) -> flat_split b = Err E_PARSE.
Proof.
  intros Hwf Hn. pose proof (flat_split_total b) as T.
  destruct (flat_split b) as [[w rest]|e| |] eqn:E; try contradiction.
  - exfalso. apply Hn. destruct (flat_split_sound b w rest Hwf E) as (n & Hv & _ & Hb). eauto.
  - f_equal. revert E. unfold flat_split. generalize 256%nat, 0.
    intros fuel. induction fuel as [|f IH]; intros off; [discriminate|]. cbn [flat_walk].
    destruct (cmp_lt name_flat_strict off name_flat_bound); [|intros Q; inversion Q; reflexivity].
    destruct (get_from b off) as [[|l r]|]; try (intros Q; inversion Q; reflexivity).
    destruct (l =? 0); [discriminate|].
    destruct ((l <=? 63) && (l <=? len r)); [apply IH|intros Q; inversion Q; reflexivity].
Qed.

(* the parser consumes exactly the name: splitting is stable under any suffix *)
Theorem flat_split_suffix b w rest more : wf_bytes b -> flat_split b = Ok (w, rest) ->
  flat_split (b ++ more) = Ok (w, rest ++ more).
Proof.
  intros Hwf H. destruct (flat_split_sound b w rest Hwf H) as (n & Hv & -> & ->).
  rewrite <- app_assoc. apply flat_split_complete. exact Hv.
Qed.

(* non-vacuity: a name with trailing octets; a label running past the end; a
   pointer octet (no decompression in this parser) *)
Example flat_sound_ex :
  flat_split [1; 97; 0; 7; 7] = Ok ([1; 97; 0], [7; 7]) /\
  flat_split [3; 97; 98] = Err E_PARSE /\ flat_split [192; 12] = Err E_PARSE /\ flat_split [] = Err E_PARSE.
Proof. vm_compute. repeat split; reflexivity. Qed.

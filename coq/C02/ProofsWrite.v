(* C02 -- what compose_question / compose_record / the OPT push
   leave in the buffer, together with the compressor invariant; and that none
   of them panics, unless record data is longer than 65535 octets. *)
From Coq Require Import NArith PeanoNat List Bool Lia.
From Coq Require Import ZifyN ZifyNat.
From DV Require Import Base.Outcome Base.Bytes Base.Names Base.PName C02.Gen C02.Model
  C02.ProofsBasic C02.ProofsClone C02.ProofsName C02.ProofsComp C02.ProofsHash C02.ProofsTop
  C02.ProofsLayout.
Import ListNotations.
Local Open Scope N_scope.

Definition WG (c : tcfg) (ok : N -> Prop) (w : ws) : Prop := TBound w /\ SInv c w /\ CInv ok w.

(* Q holds after a successful write, a failed write owes nothing; D says
   whether the write may panic *)
Definition wpost (D : Prop) (r : wres) (Q : ws -> Prop) : Prop :=
  match r with WOk w' => Q w' | WErr _ => True | _ => D end.

Lemma wpost_bind D r g (Q R : ws -> Prop) :
  wpost D r Q -> (forall w1, Q w1 -> wpost D (g w1) R) -> wpost D (wbind r g) R.
Proof. destruct r; cbn [wbind wpost]; auto. Qed.
Lemma wpost_ok D r (Q : ws -> Prop) w' : wpost D r Q -> r = WOk w' -> Q w'.
Proof. intros H ->. exact H. Qed.
Lemma wpost_nodead r (Q : ws -> Prop) : wpost False r Q -> NoDead r.
Proof. destruct r; cbn; auto. Qed.
Lemma wpost_impl D r (Q Q' : ws -> Prop) : (forall w, Q w -> Q' w) -> wpost D r Q -> wpost D r Q'.
Proof. destruct r; cbn; auto. Qed.

Lemma WG_grown c ok w s : WG c ok w -> fits c (mlen (w_buf w) + mlen s) = true -> WG c ok (grown c w s).
Proof.
  intros (TB & SI & CI) F. destruct (grown_spec c 0 w s TB F) as (_ & TB' & SI').
  split; [exact TB'|split; [exact SI'|]]. apply (CInv_app ok w _ s); [reflexivity|repeat split|exact CI].
Qed.

Lemma wpost_append c D ok s k w (R : ws -> Prop) : WG c ok w ->
  (WG c ok (grown c w s) -> wpost D (k (grown c w s)) R) -> wpost D (wbind (append_slice c s w) k) R.
Proof.
  intros HW H. pose proof (append_slice_cases c s w) as C. destruct (fits c _) eqn:F.
  - rewrite C. apply H, WG_grown; assumption.
  - destruct C as (x & -> & _). exact I.
Qed.

Lemma wpost_appends_then c D ok l s k w (R : ws -> Prop) : WG c ok w ->
  (WG c ok (grown c w (s ++ concat l)) -> wpost D (k (grown c w (s ++ concat l))) R) ->
  wpost D (appends_then c (s :: l) k w) R.
Proof.
  intros HW H. pose proof (appends_then_cases c l s k w) as C. destruct (fits c _) eqn:F.
  - rewrite C. apply H, WG_grown; assumption.
  - destruct C as (x & -> & _). exact I.
Qed.

Lemma wpost_appends c D ok l s w (R : ws -> Prop) : WG c ok w ->
  (WG c ok (grown c w (s ++ concat l)) -> R (grown c w (s ++ concat l))) -> wpost D (appends c (s :: l) w) R.
Proof.
  intros HW H. pose proof (appends_cons_cases c l s w) as C. destruct (fits c _) eqn:F.
  - rewrite C. apply H, WG_grown; assumption.
  - destruct C as (x & -> & _). exact I.
Qed.

Lemma acn_post c D (ok : N -> Prop) n w :
  WG c ok w -> (forall i, mlen (w_buf w) <= i -> ok i) -> name_ok n ->
  wpost D (acn c n w) (fun w' =>
    WG c ok w' /\ NameAtO (w_buf w') ok (mlen (w_buf w)) n (mlen (w_buf w')) /\
    exists sfx, w_buf w' = w_buf w ++ sfx).
Proof.
  intros (TB & SI & CI) Ho Hn. pose proof (acn_nodead c ok n w CI) as ND. pose proof (acn_spec c n w TB SI) as HS.
  destruct (acn c n w) as [w'|w'| |] eqn:H; try exact I; try contradiction.
  destruct HS as ([[sfx B] _ _ _ _] & TB' & SI').
  destruct (acn_ok c ok n w w' (proj1 Hn) TB SI CI Ho H) as (CI' & n' & Hc & HN).
  split; [exact (conj TB' (conj SI' CI'))|]. split; [exists n'; auto|exists sfx; exact B].
Qed.

Lemma BytesAtO_end b (ok : N -> Prop) s x : (forall i, mlen b <= i -> ok i) -> BytesAtO (b ++ s ++ x) ok (mlen b) s.
Proof.
  intros Ho. split; [apply bytes_at_app|split].
  - intros i Hi. apply Ho. lia.
  - rewrite !mlen_app. lia.
Qed.

Lemma compose_items_post c D (ok : N -> Prop) : forall items w,
  WG c ok w -> (forall i, mlen (w_buf w) <= i -> ok i) -> Forall wf_item items ->
  wpost D (compose_items c items w) (fun w' =>
    WG c ok w' /\ ItemsIn (w_buf w') ok (mlen (w_buf w)) items (mlen (w_buf w')) /\
    exists sfx, w_buf w' = w_buf w ++ sfx).
Proof.
  induction items as [|it r IH]; intros w HW Ho Hwf; cbn [compose_items].
  - split; [exact HW|]. split; [constructor|exists []; symmetry; apply app_nil_r].
  - inversion Hwf as [|? ? Hit Hwf']; subst.
    (* an item written as plain octets b *)
    assert (Plain : forall b, (forall e sfx, ItemsIn (w_buf w ++ b ++ sfx) ok (mlen (w_buf w) + mlen b) r e ->
                                ItemsIn (w_buf w ++ b ++ sfx) ok (mlen (w_buf w)) (it :: r) e) ->
              wpost D (wbind (append_slice c b w) (compose_items c r)) (fun w' =>
                WG c ok w' /\ ItemsIn (w_buf w') ok (mlen (w_buf w)) (it :: r) (mlen (w_buf w')) /\
                exists sfx, w_buf w' = w_buf w ++ sfx)).
    { intros b Hit'. apply (wpost_append c D ok); [exact HW|]. intros HW1.
      eapply wpost_impl; [|apply (IH _ HW1); [intros i Hi; apply Ho; cbn [grown w_buf] in Hi; rewrite mlen_app in Hi; lia|exact Hwf']].
      cbn [grown w_buf]. intros w' (HW' & HI & sfx & B'). rewrite <- app_assoc in B'.
      split; [exact HW'|]. split; [|exists (b ++ sfx); exact B'].
      rewrite B' in *. rewrite mlen_app in HI. apply Hit', HI. }
    destruct it as [b|n|n].
    + apply Plain. intros e sfx HI. apply II_bytes; [apply BytesAtO_end; exact Ho|exact HI].
    + eapply wpost_bind; [apply (acn_post c D ok n w HW Ho Hit)|]. intros w1 (HW1 & HN & sfx1 & B1).
      assert (L1 : mlen (w_buf w) <= mlen (w_buf w1)) by (rewrite B1, mlen_app; lia).
      eapply wpost_impl; [|apply (IH _ HW1); [intros; apply Ho; lia|exact Hwf']].
      intros w' (HW' & HI & sfx & B'). split; [exact HW'|].
      split; [|exists (sfx1 ++ sfx); rewrite B', B1, <- app_assoc; reflexivity].
      eapply II_name; [|exact HI]. apply (NameAtO_agree (w_buf w1) (w_buf w')); [rewrite B'; apply agree_on_app|exact HN].
    + apply Plain. intros e sfx HI. eapply II_nameu; [|exact HI].
      exists n. split; [|split; [reflexivity|exact Hit]]. apply NameIn_wire; [exact (proj1 Hit)|exact Ho|lia].
Qed.

(* lengths: without compression the record data has its declared length,
   and compression never lengthens it *)

Lemma acn_len c n w w' : acn c n w = WOk w' -> mlen (w_buf w') <= mlen (w_buf w) + mlen (wire_abs n).
Proof.
  assert (E : mlen (wire_abs n) = mlen (wire_rel n) + 1) by (unfold wire_abs; rewrite mlen_app; reflexivity).
  assert (Ptr : forall tag pos x x', write_ptr c tag pos x = WOk x' -> mlen (w_buf x') = mlen (w_buf x) + 2).
  { intros tag pos x x' H. apply append_slice_mlen in H. exact H. }
  (* the common shape of the Static and Tree loops *)
  assert (Fallback : forall ls x x', wbind (write_labels c ls x) (write_root c) = WOk x' ->
            mlen (w_buf x') = mlen (w_buf x) + mlen (wire_rel ls) + 1).
  { intros ls x x' H. destruct (write_labels c ls x) as [x1| | |] eqn:EW; cbn [wbind] in H; try discriminate.
    apply write_labels_ok in EW as [B1 _]. apply append_slice_mlen in H. rewrite H, B1, mlen_app. reflexivity. }
  assert (Step : forall l rest x0 x x' (f : ws -> wres), w_buf x0 = w_buf x ->
            (forall y, f y = WOk x' -> mlen (w_buf x') <= mlen (w_buf y) + mlen (wire_rel rest) + 1) ->
            wbind (label_compose c l x0) f = WOk x' -> mlen (w_buf x') <= mlen (w_buf x) + mlen (wire_rel (l :: rest)) + 1).
  { intros l rest x0 x x' f Hb Hf H. destruct (label_compose c l x0) as [x1| | |] eqn:EL; cbn [wbind] in H; try discriminate.
    apply label_compose_ok in EL as [B1 _]. apply Hf in H. rewrite B1, Hb, mlen_app, mlen_cons in H.
    rewrite mlen_wire_rel_cons. lia. }
  unfold acn. destruct (t_kind c); intros H.
  - apply append_slice_mlen in H. lia.
  - enough (mlen (w_buf w') <= mlen (w_buf w) + mlen (wire_rel n) + 1) by lia.
    clear E. revert w H. induction n as [|l rest IH]; intros w H; cbn [static_acn] in H.
    + apply append_slice_mlen in H. rewrite H. change (mlen [0]) with 1. change (mlen (wire_rel [])) with 0. lia.
    + destruct (static_get _ _ _ _) as [[pos|]|]; [apply Ptr in H; rewrite mlen_wire_rel_cons; lia| |discriminate].
      destruct (static_insert _ _) as [es|]; [|apply Fallback in H; lia].
      apply (Step l rest (set_static w es) w w' _ eq_refl) in H; [exact H|]. intros y. apply IH.
  - enough (mlen (w_buf w') <= mlen (w_buf w) + mlen (wire_rel n) + 1) by lia.
    clear E. revert w H. induction n as [|l rest IH]; intros w H; cbn [tree_acn] in H.
    + apply append_slice_mlen in H. rewrite H. change (mlen [0]) with 1. change (mlen (wire_rel [])) with 0. lia.
    + destruct (tree_get _ _); [apply Ptr in H; rewrite mlen_wire_rel_cons; lia|].
      destruct (tree_insert _ _ _) as [t|]; [|apply Fallback in H; lia].
      apply (Step l rest (set_tree w t) w w' _ eq_refl) in H; [exact H|]. intros y. apply IH.
  - unfold hash_acn in H.
    destruct (hash_walk _ _ _ _ _) as [[position rest]| | |] eqn:EW; try discriminate.
    assert (Hs : exists cs, rev n = cs ++ rest /\ (cs = [] -> position = hash_root_pos)).
    { revert EW. generalize hash_root_pos. induction (rev n) as [|l rl IH]; intros pos EW; cbn [hash_walk] in EW.
      - injection EW as <- <-. exists []. auto.
      - destruct (hash_find _ _ _ l pos) as [[h|]| | |]; try discriminate.
        + destruct (IH _ EW) as (cs & -> & _). exists (l :: cs). split; [reflexivity|discriminate].
        + injection EW as <- <-. exists []. auto. }
    destruct Hs as (cs & Erl & Hcs).
    match type of H with wbind ?x _ = _ => destruct x as [w1|w1| |] eqn:EH end; cbn [wbind] in H; try discriminate.
    apply hash_write_ok in EH as (B1 & _).
    assert (En : n = rev rest ++ rev cs) by (rewrite <- (rev_involutive n), Erl, rev_app_distr; reflexivity).
    rewrite E, En, wire_rel_app, mlen_app.
    destruct (N.eqb_spec position hash_root_pos) as [X|X].
    + apply append_slice_mlen in H. rewrite H, B1, mlen_app. change (mlen [0]) with 1. lia.
    + apply Ptr in H. rewrite H, B1, mlen_app.
      destruct cs as [|x cs]; [specialize (Hcs eq_refl); congruence|].
      cbn [rev]. rewrite wire_rel_app, mlen_app, mlen_wire_rel_cons. lia.
Qed.

Lemma compose_items_len_le c : forall items w w',
  compose_items c items w = WOk w' -> mlen (w_buf w') <= mlen (w_buf w) + rdata_ulen items.
Proof.
  induction items as [|it r IH]; intros w w' H; cbn [compose_items] in H.
  - injection H as <-. cbn. lia.
  - cbn [rdata_ulen fold_right]. fold (rdata_ulen r).
    destruct it as [b|n|n];
      match type of H with wbind ?x _ = _ => destruct x as [w1|w1| |] eqn:E1 end; cbn [wbind] in H; try discriminate;
      apply IH in H; [apply append_slice_mlen in E1|apply acn_len in E1|apply append_slice_mlen in E1]; cbn [item_ulen]; lia.
Qed.

Lemma compose_items_len c : forall items w w',
  (can_compress c = false \/ existsb is_rname items = false) ->
  compose_items c items w = WOk w' -> mlen (w_buf w') = mlen (w_buf w) + rdata_ulen items.
Proof.
  induction items as [|it r IH]; intros w w' K H; cbn [compose_items] in H.
  - injection H as <-. cbn. lia.
  - assert (K' : can_compress c = false \/ existsb is_rname r = false).
    { destruct K as [K|K]; [left; exact K|right]. cbn [existsb] in K. apply orb_false_iff in K. tauto. }
    cbn [rdata_ulen fold_right]. fold (rdata_ulen r).
    assert (Hn : forall n, it = RName n -> acn c n w = append_slice c (wire_abs n) w).
    { intros n ->. destruct K as [K|K]; [|cbn [existsb is_rname orb] in K; discriminate].
      unfold acn. unfold can_compress in K. destruct (t_kind c); [reflexivity|discriminate..]. }
    destruct it as [b|n|n]; [|rewrite (Hn n eq_refl) in H|];
      match type of H with wbind ?x _ = _ => destruct x as [w1|w1| |] eqn:E1 end; cbn [wbind] in H; try discriminate;
      apply append_slice_mlen in E1; rewrite (IH w1 w' K' H), E1; cbn [item_ulen]; lia.
Qed.

Lemma nth_error_mid {A} (a x y c : list A) k :
  length x = length y -> (k < length a \/ length a + length x <= k)%nat ->
  nth_error (a ++ x ++ c) k = nth_error (a ++ y ++ c) k.
Proof.
  intros L [H|H].
  - rewrite !nth_error_app1; auto.
  - rewrite !(nth_error_app2 a) by lia. rewrite !nth_error_app2 by lia. rewrite L. reflexivity.
Qed.

Lemma patch16_get pos v b i : pos + 2 <= mlen b -> (i < pos \/ pos + 2 <= i) ->
  get (patch16 pos v b) i = get b i.
Proof.
  intros L H. unfold patch16, get, mlen in *.
  set (n := N.to_nat pos). set (k := N.to_nat i).
  assert (Hb : b = firstn n b ++ firstn 2 (skipn n b) ++ skipn (n + 2) b).
  { rewrite <- (firstn_skipn n b) at 1. f_equal. rewrite <- (firstn_skipn 2 (skipn n b)) at 1. f_equal.
    rewrite skipn_add. reflexivity. }
  transitivity (nth_error (firstn n b ++ firstn 2 (skipn n b) ++ skipn (n + 2) b) k); [|rewrite <- Hb; reflexivity].
  apply nth_error_mid.
  - rewrite firstn_length, skipn_length. cbn [be16 length]. subst n. lia.
  - rewrite firstn_length. cbn [be16 length]. subst n k. lia.
Qed.

Definition ok12 : N -> Prop := fun i => 12 <= i.

Lemma below_to_okb (P : N -> Prop) e i : (ok12 i /\ i < e) -> okb e i.
Proof. unfold ok12, okb. tauto. Qed.

Lemma NameAtO_okb m p n e1 : NameAtO m ok12 p n e1 -> NameAtO m (okb (mlen m)) p n e1.
Proof. intros H. eapply NameAtO_weaken; [apply (below_to_okb ok12)|apply NameAtO_below, H]. Qed.
Lemma BytesAtO_okb m p b : BytesAtO m ok12 p b -> BytesAtO m (okb (mlen m)) p b.
Proof. intros H. eapply BytesAtO_weaken; [apply (below_to_okb ok12)|apply BytesAtO_below, H]. Qed.
Lemma ItemsIn_okb m p items e : ItemsIn m ok12 p items e -> ItemsIn m (okb (mlen m)) p items e.
Proof. intros H. eapply ItemsIn_weaken; [apply (below_to_okb ok12)|apply ItemsIn_below, H]. Qed.

Lemma compose_question_post c D q w :
  WG c ok12 w -> 12 <= mlen (w_buf w) -> wf_q q ->
  wpost D (compose_question c q w) (fun w' =>
    WG c ok12 w' /\ QAt (w_buf w') (mlen (w_buf w)) q (mlen (w_buf w')) /\ exists sfx, w_buf w' = w_buf w ++ sfx).
Proof.
  intros HW L (Hn & Ht & Hc). unfold compose_question.
  assert (Ho : forall p, 12 <= p -> forall i, p <= i -> ok12 i) by (unfold ok12; intros; lia).
  eapply wpost_bind; [apply (acn_post c D ok12 _ w HW (Ho _ L) Hn)|]. intros w1 (HW1 & HN & sfx1 & B1).
  change (wpost D (appends_then c [be16 (q_type q)] (append_slice c (be16 (q_class q))) w1)
            (fun w' => WG c ok12 w' /\ QAt (w_buf w') (mlen (w_buf w)) q (mlen (w_buf w')) /\ exists sfx, w_buf w' = w_buf w ++ sfx)).
  rewrite appends_snoc. apply (wpost_appends c D ok12 [be16 (q_class q)] (be16 (q_type q))); [exact HW1|]. intros HW'.
  cbn [concat]. rewrite app_nil_r. pose proof (NameAtO_end _ _ _ _ _ HN) as [Le1 _].
  split; [rewrite <- (app_nil_r (be16 (q_class q))); exact HW'|]. cbn [grown w_buf].
  split; [|exists (sfx1 ++ be16 (q_type q) ++ be16 (q_class q)); rewrite B1, <- app_assoc; reflexivity].
  exists (mlen (w_buf w1)). split; [|split; [|split; [rewrite mlen_app; reflexivity|split; [exact (conj Hn (conj Ht Hc))|exact L]]]].
  - apply NameAtO_okb. eapply NameAtO_agree; [apply agree_on_app|exact HN].
  - apply BytesAtO_okb. rewrite <- (app_nil_r (be16 _ ++ _)). apply BytesAtO_end. apply Ho. lia.
Qed.

(* positions other than the two RDLENGTH octets at ph *)
Definition okph (ph : N) : N -> Prop := fun i => 12 <= i /\ ~ (ph <= i < ph + 2).

Lemma WG_patch c (ok : N -> Prop) w pos v :
  WG c ok w -> pos + 2 <= mlen (w_buf w) -> (forall i, ok i -> i < pos \/ pos + 2 <= i) ->
  WG c ok (set_buf w (patch16 pos v (w_buf w))) /\ agree_on ok (w_buf w) (patch16 pos v (w_buf w)).
Proof.
  intros (TB & SI & CI) L Hok.
  assert (Lm : mlen (patch16 pos v (w_buf w)) = mlen (w_buf w)) by (apply patch16_mlen; exact L).
  assert (Ag : agree_on ok (w_buf w) (patch16 pos v (w_buf w))).
  { intros i x Hi Hg. rewrite patch16_get; auto. }
  split; [|exact Ag]. split; [|split].
  - apply (TBound_same w); [exact TB|repeat split|]. cbn [set_buf w_buf]. rewrite Lm. apply N.le_refl.
  - intros St. cbn [set_buf w_buf w_shim]. rewrite Lm. apply SI; exact St.
  - eapply CInv_agree; [exact Ag|repeat split|exact CI].
Qed.

Lemma compose_len_rdata_post c (D : Prop) r w :
  WG c ok12 w -> 12 <= mlen (w_buf w) -> Forall wf_item (r_data r) -> (rdata_ulen (r_data r) <= 65535 \/ D) ->
  wpost D (compose_len_rdata c r w) (fun w' =>
    WG c ok12 w' /\
    exists len sfx, w_buf w' = w_buf w ++ be16 len ++ sfx /\ len = mlen sfx /\ len <= 65535 /\
      ItemsIn (w_buf w') ok12 (mlen (w_buf w) + 2) (r_data r) (mlen (w_buf w'))).
Proof.
  intros HW L Hwf Hlen. unfold compose_len_rdata.
  assert (Ho : forall p, 12 <= p -> forall i, p <= i -> ok12 i) by (unfold ok12; intros; lia).
  destruct (uses_prefix c r) eqn:UP.
  - apply (wpost_append c D ok12); [exact HW|]. intros HW1.
    set (ph := mlen (w_buf w)) in *. set (w1 := grown c w [0; 0]) in *.
    assert (L1 : mlen (w_buf w1) = ph + 2) by (subst w1; cbn [grown w_buf]; rewrite mlen_app; reflexivity).
    (* while the items are written nothing reads the placeholder *)
    assert (HWp : WG c (okph ph) w1).
    { destruct HW1 as (TB1 & SI1 & _). split; [exact TB1|]. split; [exact SI1|].
      destruct HW as (_ & _ & CI). apply CInv_below in CI.
      apply (CInv_app _ w w1 [0; 0]); [reflexivity|repeat split|].
      eapply CInv_weaken; [|exact CI]. cbv beta. unfold ok12, okph. fold ph. intros; lia. }
    pose proof (compose_items_post c D (okph ph) (r_data r) w1 HWp ltac:(unfold okph; intros; lia) Hwf) as P.
    pose proof HW1 as (TB1 & SI1 & _). pose proof (compose_items_spec c (r_data r) w1 TB1 SI1) as HS.
    destruct (compose_items c (r_data r) w1) as [w2|w2| |] eqn:E2; cbn [wpost] in P |- *; try exact P.
    + destruct P as (HW2 & HI & sfx & B2). pose proof (compose_items_len_le c _ _ _ E2) as Lle.
      assert (Lm2 : mlen (w_buf w2) = ph + 2 + mlen sfx) by (rewrite B2, mlen_app; lia).
      destruct (N.leb_spec (mlen (w_buf w2) - mlen (w_buf w1)) rdlen_max) as [LL|LL];
        [|unfold rdlen_max in LL; destruct Hlen as [Hlen|Hd]; [lia|exact Hd]].
      unfold rdlen_max in LL. replace (mlen (w_buf w1) - 2) with ph by lia.
      replace (mlen (w_buf w2) - mlen (w_buf w1)) with (mlen sfx) in * by lia.
      destruct (WG_patch c (okph ph) w2 ph (mlen sfx) HW2 ltac:(lia)) as ((T3 & S3 & C3) & Ag).
      { unfold okph. intros; lia. }
      split; [split; [exact T3|split; [exact S3|]]; eapply CInv_weaken; [|exact C3]; unfold okph, ok12; cbv beta; tauto|].
      exists (mlen sfx), sfx. cbn [set_buf w_buf]. rewrite patch16_mlen by lia.
      split; [|split; [reflexivity|split; [lia|]]].
      * rewrite B2. subst w1. cbn [grown w_buf]. rewrite <- app_assoc.
        rewrite <- (N.add_0_r ph) at 1. unfold ph. rewrite patch16_tail. reflexivity.
      * eapply ItemsIn_weaken; [|eapply ItemsIn_agree; [exact Ag|rewrite patch16_mlen by lia; lia|rewrite <- L1; exact HI]].
        unfold okph, ok12. cbv beta. tauto.
    + rewrite (truncate_back c w1 w2 TB1 SI1 HS). exact I.
  - unfold uses_prefix in UP. apply orb_false_iff in UP as [UP1 UP2]. apply andb_false_iff in UP2.
    destruct (N.ltb_spec rdlen_max (rdata_ulen (r_data r))) as [LL|LL];
      [unfold rdlen_max in LL; destruct Hlen as [Hlen|Hd]; [lia|exact Hd]|]. unfold rdlen_max in LL.
    apply (wpost_append c D ok12); [exact HW|]. intros HW1.
    set (w1 := grown c w (be16 (rdata_ulen (r_data r)))) in *.
    assert (L1 : mlen (w_buf w1) = mlen (w_buf w) + 2) by (subst w1; cbn [grown w_buf]; rewrite mlen_app; reflexivity).
    assert (H12 : 12 <= mlen (w_buf w1)) by lia.
    pose proof (compose_items_post c D ok12 (r_data r) w1 HW1 (Ho _ H12) Hwf) as P.
    destruct (compose_items c (r_data r) w1) as [w'|w'| |] eqn:E2; cbn [wpost] in P |- *; try exact P.
    destruct P as (HW2 & HI & sfx & B2). pose proof (compose_items_len c _ _ _ UP2 E2) as Ll.
    split; [exact HW2|]. exists (rdata_ulen (r_data r)), sfx. subst w1. cbn [grown w_buf] in B2, L1, Ll, HI. rewrite <- app_assoc in B2.
    split; [exact B2|]. split; [rewrite B2, L1, !mlen_app in Ll; rewrite mlen_app in L1; lia|].
    split; [exact LL|]. rewrite <- L1. exact HI.
Qed.

Lemma compose_record_post c (D : Prop) r w :
  WG c ok12 w -> 12 <= mlen (w_buf w) -> wf_r r -> (rdata_ulen (r_data r) <= 65535 \/ D) ->
  wpost D (compose_record c r w) (fun w' =>
    WG c ok12 w' /\ RAt (w_buf w') (mlen (w_buf w)) r (mlen (w_buf w')) /\ exists sfx, w_buf w' = w_buf w ++ sfx).
Proof.
  intros HW L Hr Hlen. pose proof Hr as (Hn & Ht & Hc & Hl & Hwf). unfold compose_record.
  eapply wpost_bind; [apply (acn_post c D ok12 _ w HW ltac:(unfold ok12; intros; lia) Hn)|]. intros w1 (HW1 & HN & sfx1 & B1).
  pose proof (NameAtO_end _ _ _ _ _ HN) as [Le1 _]. set (e1 := mlen (w_buf w1)) in *.
  apply (wpost_appends_then c D ok12 [be16 (r_class r); be32 (r_ttl r)] (be16 (r_type r)) (compose_len_rdata c r)); [exact HW1|].
  cbn [concat]. rewrite app_nil_r. set (hd := be16 (r_type r) ++ be16 (r_class r) ++ be32 (r_ttl r)). intros HW4.
  assert (L4 : mlen (w_buf (grown c w1 hd)) = e1 + 8) by (cbn [grown w_buf]; rewrite mlen_app; reflexivity).
  eapply wpost_impl; [|apply (compose_len_rdata_post c D r _ HW4); [lia|exact Hwf|exact Hlen]].
  intros w' (HW' & len & sfx & B5 & El & Ll & HI). rewrite L4 in HI. cbn [grown w_buf] in B5.
  set (fx := be16 (r_type r) ++ be16 (r_class r) ++ be32 (r_ttl r) ++ be16 len).
  assert (Bf : w_buf w' = w_buf w1 ++ fx ++ sfx) by (rewrite B5; unfold hd, fx; rewrite <- !app_assoc; reflexivity).
  assert (Le : mlen (w_buf w') = e1 + 10 + len).
  { rewrite Bf, !mlen_app. change (mlen fx) with 10. fold e1. lia. }
  split; [exact HW'|]. split; [|exists (sfx1 ++ fx ++ sfx); rewrite Bf, B1, <- app_assoc; reflexivity].
  exists e1. replace (mlen (w_buf w') - (e1 + 10)) with len by lia.
  split; [|split; [|split; [|split; [lia|split; [lia|split; [exact Hr|exact L]]]]]].
  - apply NameAtO_okb. eapply NameAtO_agree; [rewrite Bf; apply agree_on_app|exact HN].
  - apply BytesAtO_okb. rewrite Bf. apply BytesAtO_end. unfold ok12. fold e1. intros; lia.
  - apply ItemsIn_okb. replace (e1 + 10) with (e1 + 8 + 2) by lia. exact HI.
Qed.

Lemma name_ok_root : name_ok [].
Proof. split; [constructor|cbn; lia]. Qed.

Definition wf_oh (oh : opt_hdr) : Prop := oh_udp oh < 65536 /\ oh_ver oh < 256 /\ oh_flags oh < 65536.

(* the OPT record as the reader sees it: root owner, type 41, class = UDP
   size, TTL = extended rcode, version and flags, the options as record data *)
Lemma RAt_opt_rec b oh opts : 12 <= mlen b -> wf_oh oh -> mlen (opts_bytes opts) <= 65535 ->
  RAt (b ++ opt_rec oh opts) (mlen b) (opt_record oh opts) (mlen (b ++ opt_rec oh opts)).
Proof.
  intros L (Hu & Hver & Hfl) Ld. set (st := mlen b). set (data := opts_bytes opts) in *.
  assert (Hext : oh_ext oh < 256) by (unfold oh_ext; destruct (oh_rc oh); lia).
  assert (Ho : forall p, 12 <= p -> forall i, p <= i -> ok12 i) by (unfold ok12; intros; lia).
  set (fx := be16 41 ++ be16 (oh_udp oh) ++ (be16 (oh_ext oh * 256 + oh_ver oh) ++ be16 (oh_flags oh)) ++ be16 (mlen data)).
  assert (Em : b ++ opt_rec oh opts = (b ++ [0]) ++ fx ++ data) by (unfold opt_rec, fx; rewrite <- !app_assoc; reflexivity).
  assert (Lm : mlen (b ++ opt_rec oh opts) = st + 11 + mlen data) by (rewrite mlen_app, opt_rec_mlen; fold st data; lia).
  assert (L1 : mlen (b ++ [0]) = st + 1) by (rewrite mlen_app; reflexivity).
  exists (st + 1). cbn [opt_record r_owner r_type r_class r_ttl r_data]. fold data.
  rewrite (be32_opt_ttl _ _ _ Hext Hver Hfl), Lm. replace (st + 11 + mlen data - (st + 1 + 10)) with (mlen data) by lia.
  rewrite <- Lm. split; [|split; [|split; [|split; [lia|split; [lia|split; [|exact L]]]]]].
  - apply NameAtO_okb. exists []. split; [|split; [reflexivity|exact name_ok_root]].
    constructor; [exact L|]. rewrite get_app_r by lia. fold st. replace (st - st) with 0 by lia. reflexivity.
  - apply BytesAtO_okb. rewrite Em, <- L1. apply BytesAtO_end. apply Ho. lia.
  - apply ItemsIn_okb. replace (st + 1 + 10) with (mlen ((b ++ [0]) ++ fx)) by (rewrite mlen_app, L1; reflexivity).
    apply II_bytes; [|replace (mlen ((b ++ [0]) ++ fx) + mlen data) with (mlen (b ++ opt_rec oh opts)); [constructor|]].
    + rewrite Em, app_assoc, <- (app_nil_r data) at 1. apply BytesAtO_end. apply Ho. rewrite mlen_app, L1. lia.
    + rewrite Lm, mlen_app, L1. change (mlen fx) with 10. lia.
  - split; [exact name_ok_root|]. cbn [opt_record r_type r_class r_ttl r_data]. split; [lia|]. split; [exact Hu|]. split; [lia|].
    constructor; [exact I|constructor].
Qed.

Lemma opt_writer_post c (D : Prop) oh opts w :
  WG c ok12 w -> 12 <= mlen (w_buf w) -> wf_oh oh ->
  ((oh_hdr oh = false -> mlen (opts_bytes opts) <= 65535) \/ D) ->
  wpost D (opt_writer c oh opts w) (fun w' =>
    WG c ok12 w' /\ RAt (w_buf w') (mlen (w_buf w)) (opt_record oh opts) (mlen (w_buf w')) /\
    w' = grown c w (opt_rec oh opts)).
Proof.
  intros HW L Hoh Hd. pose proof HW as (TB & SI & CI). pose proof Hoh as (_ & Hv & Hf).
  pose proof (opt_writer_spec c oh opts w TB SI) as S.
  destruct (opt_writer c oh opts w) as [w'|w'| |] eqn:H; cbn [wpost]; try exact I.
  - destruct (opt_writer_ok c oh opts w w' TB SI Hv Hf H) as (-> & Ld). destruct S as (_ & TB' & SI').
    split; [|split; [apply RAt_opt_rec; assumption|reflexivity]].
    split; [exact TB'|split; [exact SI'|]]. apply (CInv_app _ w _ (opt_rec oh opts)); [reflexivity|repeat split|exact CI].
  - destruct Hd as [Hd|Hd]; [|exact Hd]. pose proof (opt_writer_nodead c oh opts w TB SI Hd) as ND. rewrite H in ND. contradiction.
  - destruct Hd as [Hd|Hd]; [|exact Hd]. pose proof (opt_writer_nodead c oh opts w TB SI Hd) as ND. rewrite H in ND. contradiction.
Qed.

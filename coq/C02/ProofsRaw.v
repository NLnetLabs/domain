(* C02 -- HashCompressor's lookups over a hashbrown RawTable.

   Transcribed here is what HashCompressor relies on in hashbrown:
   - the table is an array of buckets, a full bucket holds an element and a
     control tag derived from the element's hash (h2);
   - HashTable::find(hash, eq) walks a probe sequence of bucket indices (which
     one depends on the hash, the capacity and the group layout), looks only at
     full buckets whose tag equals the tag of `hash`, and returns the first of
     them whose element satisfies eq;
   - the table invariant: the probe sequence of a hash visits every full bucket
     whose element hashes to that hash (insert_unique puts an element on its own
     probe sequence before the first empty bucket; a resize re-inserts every
     element with the rehash closure |e| e.hash(message, hasher));
   - the stored tag of a bucket is the tag of its element's hash.
   From these, every lookup of HashCompressor::append_compressed_name (the
   single find and the whole right-to-left walk) returns what the model's walk
   over the insertion-ordered list returns, in every reachable state. *)
From Coq Require Import NArith List Bool Lia ZArith.
From Coq Require Import ZifyN ZifyNat.
From DV Require Import Base.Outcome Base.Bytes Base.Names Base.PName C02.Gen C02.Model
  C02.ProofsBasic C02.ProofsClone C02.ProofsRun C02.ProofsName C02.ProofsComp C02.ProofsHash C02.ProofsTop
  C02.ProofsLayout C02.ProofsWrite C02.ProofsBuild C02.ProofsTotal C02.ProofsGrow.
Import ListNotations.
Local Open Scope N_scope.

(* a bucket: empty (or deleted), or full with its control tag and element *)
Definition slot := option (N * (N * N)).

(* HashEntry::eq(message, (label, position)); head()'s expect is the panic *)
Definition eq_entry (m : bytes) (ml : N) (l : label) (pos : N) (e : N * N) : outcome bool :=
  match label_at m ml (fst e) with
  | None => Panic P_HASH_HEAD
  | Some hl => Ok (label_eq hl l && (snd e =? pos))
  end.

(* RawTable::find: the buckets in probe order; only full buckets with the
   query's tag are compared *)
Fixpoint raw_find (slots : list slot) (order : list nat) (tag : N) (eq : N * N -> outcome bool)
  : outcome (option (N * N)) :=
  match order with
  | [] => Ok None
  | i :: r =>
      match nth_error slots i with
      | Some (Some (t, e)) =>
          if t =? tag then
            match eq e with
            | Ok true => Ok (Some e)
            | Ok false => raw_find slots r tag eq
            | Err x => Err x | Panic s => Panic s | OutOfFuel => OutOfFuel
            end
          else raw_find slots r tag eq
      | _ => raw_find slots r tag eq
      end
  end.

Definition res_head (r : outcome (option (N * N))) : outcome (option N) :=
  match r with
  | Ok (Some e) => Ok (Some (fst e)) | Ok None => Ok None
  | Err x => Err x | Panic s => Panic s | OutOfFuel => OutOfFuel
  end.

(* the elements find compares, in the order it compares them *)
Definition visited (slots : list slot) (order : list nat) (tag : N) : list (N * N) :=
  flat_map (fun i => match nth_error slots i with
                     | Some (Some (t, e)) => if t =? tag then [e] else []
                     | _ => [] end) order.

Lemma raw_find_visited m ml l pos slots tag : forall order,
  res_head (raw_find slots order tag (eq_entry m ml l pos)) = hash_find m ml (visited slots order tag) l pos.
Proof.
  induction order as [|i r IH]; [reflexivity|]. cbn [raw_find visited flat_map]. fold (visited slots r tag).
  destruct (nth_error slots i) as [[[t [h tl]]|]|]; cbn [app]; try exact IH.
  destruct (t =? tag); cbn [app]; [|exact IH].
  cbn [hash_find]. unfold eq_entry. cbn [fst snd].
  destruct (label_at m ml h) as [hl|]; [|reflexivity].
  destruct (label_eq hl l && (tl =? pos)); [reflexivity|exact IH].
Qed.

Section Raw.
Variable H : bytes -> N -> N.      (* the keyed hasher over Label::hash's feed and the tail *)
Variable tagf : N -> N.            (* h2: the control tag of a hash *)
Variable m : bytes.
Variable ml : N.

(* the hash of an element: |e| e.hash(message, hasher) *)
Definition ehash (e : N * N) : N :=
  match label_at m ml (fst e) with Some hl => key_hash H hl (snd e) | None => 0 end.

Definition TableOf (slots : list slot) (es : list (N * N)) : Prop :=
  forall e, In e es <-> exists i t, nth_error slots i = Some (Some (t, e)).
Definition TagsOK (slots : list slot) : Prop :=
  forall i t e, nth_error slots i = Some (Some (t, e)) -> t = tagf (ehash e).
Definition ProbeVisits (slots : list slot) (order : list nat) (qh : N) : Prop :=
  forall i t e, nth_error slots i = Some (Some (t, e)) -> ehash e = qh -> In i order.

Lemma visited_probes slots es order l pos :
  TableOf slots es -> TagsOK slots -> ProbeVisits slots order (key_hash H l pos) ->
  probes H m ml es (visited slots order (tagf (key_hash H l pos))) l pos.
Proof.
  intros HT HG HP. split.
  - intros e He. unfold visited in He. apply in_flat_map in He as (i & _ & Hi).
    destruct (nth_error slots i) as [[[t e']|]|] eqn:E; try contradiction.
    destruct (t =? _); [|contradiction]. destruct Hi as [<-|[]]. apply HT. eauto.
  - intros e hl Ie A K. apply HT in Ie as (i & t & E).
    assert (Eh : ehash e = key_hash H l pos) by (unfold ehash; rewrite A; exact K).
    unfold visited. apply in_flat_map. exists i. split; [eapply HP; eauto|].
    rewrite E. rewrite (HG i t e E), Eh, N.eqb_refl. left. reflexivity.
Qed.

(* scanning every bucket is one admissible probe order *)
Lemma full_scan_visits slots qh : ProbeVisits slots (seq 0 (length slots)) qh.
Proof.
  intros i t e E _. apply in_seq. split; [lia|]. cbn. apply nth_error_Some. rewrite E. discriminate.
Qed.

(* the right-to-left walk of append_compressed_name over the RawTable;
   order_of gives the probe sequence of a hash in the table's current layout *)
Fixpoint raw_walk (slots : list slot) (order_of : N -> list nat) (rl : list label) (pos : N)
  : outcome (N * list label) :=
  match rl with
  | [] => Ok (pos, [])
  | l :: rl' =>
      let qh := key_hash H l pos in
      match raw_find slots (order_of qh) (tagf qh) (eq_entry m ml l pos) with
      | Ok (Some e) => raw_walk slots order_of rl' (fst e)
      | Ok None => Ok (pos, rl)
      | Err x => Err x | Panic s => Panic s | OutOfFuel => OutOfFuel
      end
  end.
End Raw.

Theorem raw_find_reachable c ops s0 s a ws H tagf slots order l pos :
  init c = Some s0 -> Forall wf_op ops -> run_acc c s0 acc0 ops = (s, a, ws) -> all_alive ws ->
  let m := w_buf (b_w s) in let ml := mlen (w_buf (b_w s)) in
  TableOf slots (w_hash (b_w s)) -> TagsOK H tagf m ml slots ->
  ProbeVisits H m ml slots order (key_hash H l pos) ->
  res_head (raw_find slots order (tagf (key_hash H l pos)) (eq_entry m ml l pos)) =
  hash_find m ml (w_hash (b_w s)) l pos.
Proof.
  intros HI Hwf HR AL m ml HT HG HP. rewrite raw_find_visited.
  apply (hash_growth_unobservable c ops s0 s a ws H l pos _ HI Hwf HR AL).
  apply (visited_probes H tagf); assumption.
Qed.

Theorem raw_walk_reachable c ops s0 s a ws H tagf slots order_of :
  init c = Some s0 -> Forall wf_op ops -> run_acc c s0 acc0 ops = (s, a, ws) -> all_alive ws ->
  let m := w_buf (b_w s) in let ml := mlen (w_buf (b_w s)) in
  TableOf slots (w_hash (b_w s)) -> TagsOK H tagf m ml slots ->
  (forall qh, ProbeVisits H m ml slots (order_of qh) qh) ->
  forall rl pos, raw_walk H tagf m ml slots order_of rl pos = hash_walk m ml (w_hash (b_w s)) rl pos.
Proof.
  intros HI Hwf HR AL m ml HT HG HP. subst m ml. induction rl as [|l rl IH]; intros pos; [reflexivity|].
  cbn [raw_walk hash_walk].
  pose proof (raw_find_reachable c ops s0 s a ws H tagf slots (order_of (key_hash H l pos)) l pos HI Hwf HR AL HT HG (HP _)) as E.
  cbv zeta in E. rewrite <- E.
  destruct (raw_find slots _ _ _) as [[e|]| | |]; cbn [res_head]; auto.
Qed.

(* hence the whole of append_compressed_name: the lookups decide which labels
   are written and which pointer follows *)
Corollary raw_acn_reachable c ops s0 s a ws H tagf slots order_of n :
  init c = Some s0 -> Forall wf_op ops -> run_acc c s0 acc0 ops = (s, a, ws) -> all_alive ws ->
  let w := b_w s in
  TableOf slots (w_hash w) -> TagsOK H tagf (w_buf w) (mlen (w_buf w)) slots ->
  (forall qh, ProbeVisits H (w_buf w) (mlen (w_buf w)) slots (order_of qh) qh) ->
  hash_acn c n w =
  match raw_walk H tagf (w_buf w) (mlen (w_buf w)) slots order_of (rev n) hash_root_pos with
  | Ok (position, rest) =>
      wbind (hash_write c (rev rest) position w) (fun w1 =>
        if position =? hash_root_pos then write_root c w1 else write_ptr c hash_ptr_tag position w1)
  | Panic site => WPanic site
  | _ => WFuel
  end.
Proof.
  intros HI Hwf HR AL w HT HG HP. unfold hash_acn.
  rewrite (raw_walk_reachable c ops s0 s a ws H tagf slots order_of HI Hwf HR AL HT HG HP). reflexivity.
Qed.

(* the premises can be met: a reachable table of three entries (names a.b
   and c.B pushed as questions) laid out in eight buckets, tags from a concrete
   hasher, probe order = one full scan *)
Definition ex_c : tcfg := mkCfg None false KHash.
Definition ex_ops : list op := [OpQ (mkQ [[97]; [98]] 1 1); OpQ (mkQ [[99]; [66]] 1 1)].
Definition ex_H : bytes -> N -> N := fun feed t => fold_left N.add feed t.
Definition ex_tagf : N -> N := fun h => h mod 128.
Definition ex_state : option (bstate * acc * list rword) :=
  match init ex_c with Some s0 => Some (run_acc ex_c s0 acc0 ex_ops) | None => None end.
Definition ex_m : bytes :=
  [0; 0; 0; 0; 0; 0; 0; 0; 0; 0; 0; 0; 1; 97; 1; 98; 0; 0; 1; 0; 1; 1; 99; 192; 14; 0; 1; 0; 1].
Definition ex_tg (e : N * N) : N := ex_tagf (ehash ex_H ex_m (mlen ex_m) e).
Definition ex_slots : list slot :=
  [None; Some (ex_tg (21, 14), (21, 14)); None; None; Some (ex_tg (12, 14), (12, 14)); None;
   Some (ex_tg (14, 65535), (14, 65535)); None].

Example raw_table_example :
  match ex_state with
  | Some (s, a, ws) =>
      w_buf (b_w s) = ex_m /\ w_hash (b_w s) = [(12, 14); (14, 65535); (21, 14)] /\
      TableOf ex_slots (w_hash (b_w s)) /\
      TagsOK ex_H ex_tagf ex_m (mlen ex_m) ex_slots /\
      (forall qh, ProbeVisits ex_H ex_m (mlen ex_m) ex_slots (seq 0 (length ex_slots)) qh) /\
      (* a.B is found whole, through the bucket array, whatever its ASCII case *)
      raw_walk ex_H ex_tagf ex_m (mlen ex_m) ex_slots (fun _ => seq 0 (length ex_slots)) (rev [[97]; [66]]) hash_root_pos = Ok (12, []) /\
      (* the tags really discriminate: the three entries have three different tags *)
      (ex_tg (12, 14), ex_tg (14, 65535), ex_tg (21, 14)) = (112, 98, 114)
  | None => False
  end.
Proof.
  (* the run is evaluated once, and kept out of the hypotheses *)
  remember ex_state as st eqn:ES. vm_compute in ES. subst st. cbv beta iota. cbn [w_buf b_w w_hash].
  split; [reflexivity|]. split; [reflexivity|]. split; [|split; [|split; [|split]]].
  - intros e. split.
    + intros [<-|[<-|[<-|[]]]]; [exists 4%nat|exists 6%nat|exists 1%nat]; eexists; reflexivity.
    + intros (i & t & Hi). apply nth_error_In in Hi. cbn [In ex_slots] in Hi.
      repeat destruct Hi as [Hi|Hi]; try discriminate; try contradiction; injection Hi as _ <-; cbn [In]; tauto.
  - intros i t e Hi. apply nth_error_In in Hi. cbn [In ex_slots] in Hi.
    repeat destruct Hi as [Hi|Hi]; try discriminate; try contradiction; injection Hi as <- <-; reflexivity.
  - intros qh. apply (full_scan_visits ex_H ex_tagf).
  - vm_compute. reflexivity.
  - vm_compute. reflexivity.
Qed.

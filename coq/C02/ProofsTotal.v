(* C02 -- no operation of a reachable builder panics or runs out
   of fuel, provided record data is at most 65535 octets long (what the typed
   record data constructors of the library guarantee).  Also here: the hash
   lookup does not depend on the order of the entries, the header setters
   realise the RFC 1035 layout, the StreamTarget coordinates. *)
From Coq Require Import NArith List Bool Lia ZArith.
From Coq Require Import ZifyN ZifyNat.
From DV Require Import Base.Outcome Base.Bytes Base.Names Base.PName C02.Gen C02.Model
  C02.ProofsBasic C02.ProofsClone C02.ProofsRun C02.ProofsName C02.ProofsComp C02.ProofsHash C02.ProofsTop
  C02.ProofsLayout C02.ProofsWrite C02.ProofsBuild.
Import ListNotations.
Local Open Scope N_scope.

Definition wf_op_sized (o : op) : Prop :=
  wf_op o /\ match o with
            | OpR r => rdata_ulen (r_data r) <= 65535
            | OpOpt oh opts => oh_hdr oh = false -> mlen (opts_bytes opts) <= 65535
            | _ => True end.

Lemma mb_push_alive c s f : BW c s -> WSpec c f -> NoDead (f (b_w s)) -> alive (snd (mb_push c s f)).
Proof.
  intros HB Hf ND. pose proof HB as (TB & SI & _). specialize (Hf (b_w s) TB SI). unfold mb_push.
  destruct (f (b_w s)) as [w|w| |]; try contradiction.
  - destruct Hf as (E & _). destruct (limit_hit _ _); [rewrite fail_push_back; auto; reflexivity|].
    destruct (count_max <=? count_of s); [rewrite fail_push_back; auto; reflexivity|reflexivity].
  - rewrite fail_push_back; auto. reflexivity.
Qed.

Lemma step_alive c s a bs o :
  BW c s -> CountInv s a -> Layout s a bs -> wf_op_sized o -> alive (snd (step c s o)).
Proof.
  intros HB HCt HL (Hwf & Hsz). pose proof HB as (TB & SI & L12 & _).
  pose proof HL as (_ & HC & _).
  assert (HW : WG c ok12 (b_w s)) by (split; [exact TB|split; [exact SI|exact HC]]).
  unfold step. destruct o as [q|rr|oh opts| | | |l|h]; cbn [step_gen]; cbn [wf_op] in Hwf.
  - destruct (b_sec s =? 0); [|reflexivity].
    apply mb_push_alive; auto; [apply compose_question_spec|].
    apply (wpost_nodead _ _ (compose_question_post c False q (b_w s) HW L12 Hwf)).
  - destruct (b_sec s =? 0); [reflexivity|].
    apply mb_push_alive; auto; [apply compose_record_spec|].
    apply (wpost_nodead _ _ (compose_record_post c False rr (b_w s) HW L12 Hwf (or_introl Hsz))).
  - destruct (b_sec s =? 3); [|reflexivity]. cbn [snd].
    apply mb_push_alive; auto; [apply opt_writer_spec|].
    apply opt_writer_nodead; auto.
  - destruct (b_sec s <? 3); reflexivity.
  - destruct (b_sec s =? 0); [reflexivity|].
    destruct (rewind_inv c s HB) as (w & _ & ER & _). rewrite ER. reflexivity.
  - destruct (rewind_inv c s HB) as (w & _ & ER & _). rewrite ER. reflexivity.
  - reflexivity.
  - reflexivity.
Qed.

(* no operation sequence makes the builder panic or loop *)
Lemma run_acc_total c ops : forall s a bs s' a' ws,
  BW c s -> CountInv s a -> Layout s a bs -> Forall wf_op_sized ops ->
  run_acc c s a ops = (s', a', ws) -> all_alive ws.
Proof.
  induction ops as [|o r IH]; intros s a bs s' a' ws HB HC HL Hwf H; cbn [run_acc] in H.
  - injection H as <- <- <-. constructor.
  - inversion Hwf as [|? ? Ho Hr]; subst.
    pose proof (step_alive c s a bs o HB HC HL Ho) as AL.
    destruct (step c s o) as [s1 w] eqn:ES. cbn [snd] in AL.
    unfold alive in AL. rewrite AL in H.
    destruct (run_acc c s1 (acc_step (b_sec s) a o w) r) as [[s2 a2] ws2] eqn:ER.
    injection H as <- <- <-.
    destruct (step_inv c s a o s1 w HB HC ES AL) as (HB1 & HC1).
    destruct (step_layout c s a bs o s1 w HB HC HL (proj1 Ho) ES AL) as (bs1 & HL1).
    constructor; [exact AL|]. eapply IH; eauto.
Qed.

Theorem run_total c ops s0 s a ws :
  init c = Some s0 -> Forall wf_op_sized ops -> run_acc c s0 acc0 ops = (s, a, ws) -> all_alive ws.
Proof.
  intros HI Hwf HR. destruct (init_inv c s0 HI) as (HB0 & HC0).
  eapply (run_acc_total c ops s0 acc0 [12]); eauto. apply (init_layout c); exact HI.
Qed.

Lemma Forall_sized_wf ops : Forall wf_op_sized ops -> Forall wf_op ops.
Proof. intros H. eapply Forall_impl; [|exact H]. intros o [Ho _]. exact Ho. Qed.

(* the property without side conditions other than well-formed input *)
Theorem build_parse_total c ops s0 s a ws :
  init c = Some s0 -> Forall wf_op_sized ops -> run_acc c s0 acc0 ops = (s, a, ws) ->
  all_alive ws /\ exists a', rd_message (msg_of s) a = Ok a' /\ acc_eqb a' a = true.
Proof.
  intros HI Hwf HR. pose proof (run_total c ops s0 s a ws HI Hwf HR) as AL.
  split; [exact AL|]. apply (build_parse c ops s0 s a ws HI (Forall_sized_wf ops Hwf) HR AL).
Qed.

Definition hmatch (m : bytes) (ml : N) (l : label) (pos : N) (e : N * N) : Prop :=
  exists hl, label_at m ml (fst e) = Some hl /\ label_eq hl l = true /\ snd e = pos.

Lemma hash_find_spec m ml l pos : forall es,
  Forall (fun e => label_at m ml (fst e) <> None) es ->
  match hash_find m ml es l pos with
  | Ok (Some h) => exists e, In e es /\ fst e = h /\ hmatch m ml l pos e
  | Ok None => forall e, In e es -> ~ hmatch m ml l pos e
  | _ => False
  end.
Proof.
  induction es as [|[h t] es IH]; intros HR; cbn [hash_find]; [intros e []|].
  inversion HR as [|? ? Hh HR']; subst. cbn [fst] in Hh.
  destruct (label_at m ml h) as [hl|] eqn:EL; [|contradiction].
  destruct (label_eq hl l && (t =? pos)) eqn:E.
  - apply andb_true_iff in E as [E1 E2]. apply N.eqb_eq in E2.
    exists (h, t). split; [left; reflexivity|]. split; [reflexivity|]. exists hl. auto.
  - specialize (IH HR'). destruct (hash_find m ml es l pos) as [[h'|]| | |]; try contradiction.
    + destruct IH as (e & Hin & Hf & Hm). exists e. split; [right; exact Hin|auto].
    + intros e [<-|Hin]; [|apply IH; exact Hin].
      intros (hl' & A & B & C). cbn [fst snd] in *. rewrite EL in A. injection A as <-.
      rewrite B in E. cbn [andb] in E. apply N.eqb_neq in E. contradiction.
Qed.

(* HashTable::find may test any part of the entries that contains every entry
   matching the query: when at most one entry matches (the uniqueness the
   insertion discipline maintains), the result is that of the full list *)
Lemma hash_find_sub m ml l pos es es' :
  Forall (fun e => label_at m ml (fst e) <> None) es ->
  (forall e1 e2, In e1 es -> In e2 es -> hmatch m ml l pos e1 -> hmatch m ml l pos e2 -> fst e1 = fst e2) ->
  (forall e, In e es' -> In e es) -> (forall e, In e es -> hmatch m ml l pos e -> In e es') ->
  hash_find m ml es' l pos = hash_find m ml es l pos.
Proof.
  intros HR Hu Hsub Hall.
  assert (HR' : Forall (fun e => label_at m ml (fst e) <> None) es').
  { rewrite Forall_forall in *. intros e He. apply HR, Hsub, He. }
  pose proof (hash_find_spec m ml l pos es HR) as S1. pose proof (hash_find_spec m ml l pos es' HR') as S2.
  destruct (hash_find m ml es l pos) as [[h|]| | |]; try contradiction;
    destruct (hash_find m ml es' l pos) as [[h'|]| | |]; try contradiction.
  - destruct S1 as (e1 & I1 & F1 & M1). destruct S2 as (e2 & I2 & F2 & M2).
    rewrite <- F1, <- F2. f_equal. f_equal. apply Hu; auto.
  - destruct S1 as (e1 & I1 & F1 & M1). exfalso. apply (S2 e1); auto.
  - destruct S2 as (e2 & I2 & F2 & M2). exfalso. apply (S1 e2); auto.
  - reflexivity.
Qed.

Theorem hash_find_order_irrelevant m ml l pos es es' :
  (forall e, In e es <-> In e es') ->
  Forall (fun e => label_at m ml (fst e) <> None) es ->
  (forall e1 e2, In e1 es -> In e2 es -> hmatch m ml l pos e1 -> hmatch m ml l pos e2 -> fst e1 = fst e2) ->
  hash_find m ml es' l pos = hash_find m ml es l pos.
Proof. intros Hset HR Hu. apply hash_find_sub; auto; intros e He; [|intros _]; apply Hset; exact He. Qed.

(* the size premise of run_total is needed: 65536 octets of record data whose
   length the type does not announce make compose_prefixed panic ("long data") *)
Example long_data_panics :
  let c := mkCfg None false KNone in
  match init c with
  | Some s0 => snd (step c (fst (step c s0 OpNext)) (OpR (mkR [] 16 1 0 true [RBytes (repeat 0 (N.to_nat 65536))])))
               = RPanic P_LONG_DATA
  | None => False
  end.
Proof. vm_compute. reflexivity. Qed.

(* the push limit as coded (`new_pos >= self.limit` fails): an accepted push
   leaves the message strictly shorter than the limit *)
Theorem push_ok_below_limit c ops s0 s a ws o s' l :
  init c = Some s0 -> run_acc c s0 acc0 ops = (s, a, ws) -> all_alive ws ->
  step c s o = (s', ROk) -> b_limit s = Some l -> mlen (w_buf (b_w s')) < l.
Proof.
  intros HI HR AL HS Hl. destruct (init_inv c s0 HI) as (HB0 & HC0).
  destruct (run_acc_inv c ops s0 acc0 s a ws HB0 HC0 HR AL) as (HB & _).
  destruct (step_ok_inv c s o s' HB HS) as (_ & LH & _).
  rewrite Hl in LH. unfold limit_hit, limit_cmp_ge in LH. apply N.leb_gt in LH. exact LH.
Qed.

(* non-vacuity of build_parse_total: a script over the hash compressor on a
   stream target with a case variant, a failed push, a rewind and an OPT *)
Definition ex_name1 : name := [[119;119;119]; [69;120]; [99;111;109]].   (* www.Ex.com. *)
Definition ex_name2 : name := [[109]; [101;88]; [99;111;109]].           (* m.eX.com. *)
Definition ex_ops : list op :=
  [OpQ (mkQ ex_name1 1 1); OpNext;
   OpR (mkR ex_name2 15 1 300 false [RBytes [0;10]; RName ex_name1]);
   OpLimit (Some 50); OpR (mkR ex_name1 1 1 5 false [RBytes [1;2;3;4]]); OpLimit None;
   OpNext; OpR (mkR ex_name1 2 1 5 false [RName ex_name2]); OpRewind;
   OpR (mkR [] 6 1 5 true [RName ex_name2; RNameU ex_name1; RBytes [0;0;0;1]]);
   OpHdr (sets_of_fields (fields_of_octets [171; 205; 129; 128]));
   OpNext; OpOpt (mkOH 1232 (Some 4083) 200 32768 true) [(10, 8, [1;2;3;4;5;6;7;8])]].

Lemma ex_ops_wf : Forall wf_op_sized ex_ops.
Proof.
  assert (V : forall l, (1 <=? length l)%nat && (length l <=? 63)%nat && forallb (fun b => b <? 256) l = true -> valid_label l).
  { intros l H. apply andb_true_iff in H as [H H3]. apply andb_true_iff in H as [H1 H2].
    apply Nat.leb_le in H1, H2. split; [lia|]. unfold wf_bytes. apply Forall_forall. intros x Hx.
    rewrite forallb_forall in H3. apply N.ltb_lt, H3, Hx. }
  assert (N1 : name_ok ex_name1) by (split; [repeat constructor; apply V; reflexivity|cbn; lia]).
  assert (N2 : name_ok ex_name2) by (split; [repeat constructor; apply V; reflexivity|cbn; lia]).
  assert (N0 : name_ok []) by (split; [constructor|cbn; lia]).
  unfold ex_ops, wf_op_sized, wf_op, wf_q, wf_r, wf_oh.
  repeat (exact N1 || exact N2 || exact N0 || exact I || apply Forall_cons || apply Forall_nil || split);
    cbn [q_name q_type q_class r_owner r_type r_class r_ttl r_data wf_item oh_udp oh_ver oh_flags oh_hdr];
    try reflexivity; discriminate.
Qed.

Example build_parse_example :
  let c := mkCfg None true KHash in
  match c02_run c ex_ops with
  | Some (s, a, ws) =>
      ws = [ROk; RNone; ROk; RNone; RErr E_LIMIT; RNone; RNone; ROk; RNone; ROk; RNone; RNone; ROk] /\
      firstn 4 (msg_of s) = [171; 205; 129; 131] /\
      length (a_q a) = 1%nat /\ length (a_an a) = 1%nat /\ length (a_ns a) = 1%nat /\ length (a_ar a) = 1%nat /\
      c02_reread s a = true /\ mlen (stream_of s) = mlen (msg_of s) + 2
  | None => False
  end.
Proof. vm_compute. repeat split; reflexivity. Qed.

(* were AdditionalBuilder::opt not to put the header RCODE back (the code
   before the fix), a failed OPT push would leave header octet 3 changed:
   additional section, push limit 20, opt(|o| o.set_rcode(0xABC)) *)
Example failed_opt_push_refuted :
  let c := mkCfg None false KNone in
  match init c with
  | Some s0 =>
      let s1 := fst (step_gen false c s0 OpNext) in
      let s2 := fst (step_gen false c s1 OpNext) in
      let s3 := fst (step_gen false c (fst (step_gen false c s2 OpNext)) (OpLimit (Some 20))) in
      let r := step_gen false c s3 (OpOpt (mkOH 1232 (Some 2748) 0 0 true) []) in
      snd r = RErr E_LIMIT /\ firstn 4 (msg_of s3) = [0; 0; 0; 0] /\ firstn 4 (msg_of (fst r)) = [0; 0; 0; 12] /\
      snd (step_gen true c s3 (OpOpt (mkOH 1232 (Some 2748) 0 0 true) [])) = RErr E_LIMIT /\
      fst (step_gen true c s3 (OpOpt (mkOH 1232 (Some 2748) 0 0 true) [])) = s3
  | None => False
  end.
Proof. vm_compute. repeat split; reflexivity. Qed.

(* in every reachable state the heads of the hash entries are readable and at
   most one entry matches a query *)
Lemma reachable_hash_unique c ops s0 s a ws l pos :
  init c = Some s0 -> Forall wf_op ops -> run_acc c s0 acc0 ops = (s, a, ws) -> all_alive ws ->
  let m := w_buf (b_w s) in
  Forall (fun e => label_at m (mlen m) (fst e) <> None) (w_hash (b_w s)) /\
  (forall e1 e2, In e1 (w_hash (b_w s)) -> In e2 (w_hash (b_w s)) ->
     hmatch m (mlen m) l pos e1 -> hmatch m (mlen m) l pos e2 -> fst e1 = fst e2).
Proof.
  intros HI Hwf HR AL m. subst m. destruct (init_inv c s0 HI) as (HB0 & HC0).
  destruct (run_acc_layout c ops s0 acc0 [12] s a ws HB0 HC0 (init_layout c s0 HI) Hwf HR AL) as (_ & _ & bs & HL).
  destruct HL as (_ & (_ & _ & CH & CU) & _). split.
  - eapply Forall_impl; [|exact CH]. intros [h t] (l0 & ls0 & e0 & (V & _ & B & _) & _). cbn [fst] in *.
    rewrite (label_at_here _ _ _ V B). discriminate.
  - intros [h1 t1] [h2 t2] I1 I2 (hl1 & A1 & B1 & C1) (hl2 & A2 & B2 & C2). cbn [fst snd] in *. subst t1 t2.
    apply (CU h1 h2 pos hl1 hl2); auto.
    apply label_eq_spec in B1, B2. congruence.
Qed.

(* so the lookup of the HashCompressor gives the same answer for every
   arrangement (probe order) of its entries *)
Theorem hash_lookup_order_irrelevant_reachable c ops s0 s a ws l pos es' :
  init c = Some s0 -> Forall wf_op ops -> run_acc c s0 acc0 ops = (s, a, ws) -> all_alive ws ->
  (forall e, In e (w_hash (b_w s)) <-> In e es') ->
  hash_find (w_buf (b_w s)) (mlen (w_buf (b_w s))) es' l pos =
  hash_find (w_buf (b_w s)) (mlen (w_buf (b_w s))) (w_hash (b_w s)) l pos.
Proof.
  intros HI Hwf HR AL Hset. destruct (reachable_hash_unique c ops s0 s a ws l pos HI Hwf HR AL) as (R & U).
  apply hash_find_order_irrelevant; assumption.
Qed.

Lemma octet_high b n : b < 256 -> 8 <= n -> N.testbit b n = false.
Proof. intros H Hn. rewrite <- (N.mod_small b (2 ^ 8) H). apply N.mod_pow2_bits_high, Hn. Qed.

Lemma octet_of_high b : (forall n, 8 <= n -> N.testbit b n = false) -> b < 256.
Proof.
  intros H. replace b with (b mod 2 ^ 8); [apply N.mod_lt; discriminate|].
  apply N.bits_inj. intros n. destruct (N.lt_ge_cases n 8) as [L|L].
  - apply N.mod_pow2_bits_low, L.
  - rewrite N.mod_pow2_bits_high, H; auto.
Qed.

Lemma octet_eq a b : a < 256 -> b < 256 ->
  (forall n, n < 8 -> N.testbit a n = N.testbit b n) -> a = b.
Proof.
  intros Ha Hb H. apply N.bits_inj. intros n. destruct (N.lt_ge_cases n 8) as [L|L]; [auto|].
  rewrite !octet_high; auto.
Qed.

Lemma forall_lt8 (P : N -> Prop) : P 0 -> P 1 -> P 2 -> P 3 -> P 4 -> P 5 -> P 6 -> P 7 -> forall n, n < 8 -> P n.
Proof.
  intros ? ? ? ? ? ? ? ? n Hn.
  assert (C : n = 0 \/ n = 1 \/ n = 2 \/ n = 3 \/ n = 4 \/ n = 5 \/ n = 6 \/ n = 7) by lia.
  destruct C as [->|[->|[->|[->|[->|[->|[->| ->]]]]]]]; assumption.
Qed.

Definition set_bit8 (k : N) (v : bool) (b : N) : N := if v then N.lor b (2 ^ k) else N.land b (255 - 2 ^ k).

(* 255 - 2^k is 0xFF without bit k: the subtraction borrows nothing *)
Lemma clear_mask_bits k n : k < 8 -> N.testbit (255 - 2 ^ k) n = (n <? 8) && negb (k =? n).
Proof.
  intros Hk. change 255 with (N.ones 8). rewrite N.sub_nocarry_ldiff.
  - rewrite N.ldiff_spec, N.pow2_bits_eqb. f_equal.
    destruct (N.ltb_spec n 8); [apply N.ones_spec_low|apply N.ones_spec_high]; assumption.
  - apply N.bits_inj. intros m. rewrite N.ldiff_spec, N.pow2_bits_eqb, N.bits_0.
    destruct (N.eqb_spec k m) as [<-|]; [|reflexivity]. rewrite N.ones_spec_low by exact Hk. reflexivity.
Qed.

Lemma set_bit8_low k v b n : k < 8 -> n < 8 ->
  N.testbit (set_bit8 k v b) n = if k =? n then v else N.testbit b n.
Proof.
  intros Hk Hn. unfold set_bit8. destruct v.
  - rewrite N.lor_spec, N.pow2_bits_eqb. destruct (k =? n); [apply orb_true_r|apply orb_false_r].
  - rewrite N.land_spec, clear_mask_bits by exact Hk. apply N.ltb_lt in Hn. rewrite Hn.
    destruct (k =? n); [apply andb_false_r|apply andb_true_r].
Qed.

Lemma set_bit8_octet k v b : k < 8 -> b < 256 -> set_bit8 k v b < 256.
Proof.
  intros Hk Hb. apply octet_of_high. intros n Hn. pose proof (octet_high b n Hb Hn) as Hh. unfold set_bit8. destruct v.
  - rewrite N.lor_spec, N.pow2_bits_eqb, Hh. apply N.eqb_neq. lia.
  - rewrite N.land_spec, Hh. reflexivity.
Qed.

Lemma lor_land_octet b k v m : k < 256 -> m < 256 -> N.lor (N.land b k) (N.land v m) < 256.
Proof.
  intros Hk Hm. apply octet_of_high. intros n Hn.
  rewrite N.lor_spec, !N.land_spec, (octet_high k), (octet_high m), !andb_false_r by assumption. reflexivity.
Qed.

Lemma land_bit0 b k n : N.testbit k n = false -> N.testbit (N.land b k) n = false.
Proof. intros H. rewrite N.land_spec, H. apply andb_false_r. Qed.
Lemma land_bit1 b k n : N.testbit k n = true -> N.testbit (N.land b k) n = N.testbit b n.
Proof. intros H. rewrite N.land_spec, H. apply andb_true_r. Qed.

Lemma hdr_apply_octets p0 p1 p2 p3 f :
  hdr_apply [p0; p1; p2; p3] f =
  [ (hf_id f / 256) mod 256; hf_id f mod 256;
    set_bit8 0 (hf_rd f) (set_bit8 1 (hf_tc f) (set_bit8 2 (hf_aa f)
      (N.lor (N.land (set_bit8 7 (hf_qr f) p2) 135) (N.land (N.shiftl (hf_opcode f) 3) 255))));
    N.lor (N.land (set_bit8 4 (hf_cd f) (set_bit8 5 (hf_ad f) (set_bit8 6 (hf_z f) (set_bit8 7 (hf_ra f) p3)))) 240)
          (N.land (hf_rcode f) 15) ].
Proof. reflexivity. Qed.

Lemma opcode_field_bits w n : N.testbit (N.shiftl ((w / 8) mod 16) 3) n = (3 <=? n) && (n <? 7) && N.testbit w n.
Proof.
  change 16 with (2 ^ 4). change 8 with (2 ^ 3).
  destruct (N.leb_spec 3 n) as [L|L]; [|apply N.shiftl_spec_low, L].
  rewrite N.shiftl_spec_high' by exact L.
  destruct (N.ltb_spec n 7) as [H|H]; cbn [andb].
  - rewrite N.mod_pow2_bits_low, N.div_pow2_bits by lia. f_equal. lia.
  - apply N.mod_pow2_bits_high. lia.
Qed.

(* Every bit of the octet is written by exactly one setter, with that bit of
   w: bits 0, 1, 2 and 7 by a flag, bits 3..6 by the opcode; the previous
   octet p only shows through the keep mask 135, whose bits are the flags'. *)
Lemma octet2_layout p w : p < 256 -> w < 256 ->
  set_bit8 0 (N.testbit w 0) (set_bit8 1 (N.testbit w 1) (set_bit8 2 (N.testbit w 2)
    (N.lor (N.land (set_bit8 7 (N.testbit w 7) p) 135) (N.land (N.shiftl ((w / 8) mod 16) 3) 255)))) = w.
Proof.
  intros Hp Hw. apply octet_eq; [repeat apply set_bit8_octet; try apply lor_land_octet; reflexivity|exact Hw|].
  apply forall_lt8; rewrite !set_bit8_low by reflexivity; try reflexivity.
  1-4: rewrite N.lor_spec, land_bit0, land_bit1, opcode_field_bits by reflexivity; reflexivity.
  rewrite N.lor_spec, land_bit1, set_bit8_low, land_bit1, opcode_field_bits by reflexivity. apply orb_false_r.
Qed.

Lemma octet3_layout p w : p < 256 -> w < 256 ->
  N.lor (N.land (set_bit8 4 (N.testbit w 4) (set_bit8 5 (N.testbit w 5) (set_bit8 6 (N.testbit w 6) (set_bit8 7 (N.testbit w 7) p)))) 240)
        (N.land (w mod 16) 15) = w.
Proof.
  intros Hp Hw. apply octet_eq; [apply lor_land_octet; reflexivity|exact Hw|].
  change 16 with (2 ^ 4). apply forall_lt8; rewrite N.lor_spec.
  1-4: rewrite land_bit0, land_bit1, N.mod_pow2_bits_low by reflexivity; reflexivity.
  all: rewrite land_bit1, !set_bit8_low, land_bit0 by reflexivity; apply orb_false_r.
Qed.

(* the setters of base/header.rs (offsets, bit positions, masks and the shift
   are read from the source) realise the RFC 1035 header layout: called with
   the fields of any four octets they produce those octets, whatever the
   header held before *)
Theorem header_setters_layout p0 p1 p2 p3 i0 i1 w2 w3 :
  p2 < 256 -> p3 < 256 -> i0 < 256 -> i1 < 256 -> w2 < 256 -> w3 < 256 ->
  hdr_apply [p0; p1; p2; p3] (fields_of_octets [i0; i1; w2; w3]) = [i0; i1; w2; w3].
Proof.
  intros P2 P3 I0 I1 W2 W3. rewrite hdr_apply_octets.
  cbn [fields_of_octets hf_id hf_qr hf_opcode hf_aa hf_tc hf_rd hf_ra hf_z hf_ad hf_cd hf_rcode].
  rewrite octet2_layout, octet3_layout by assumption. f_equal; [|f_equal].
  - rewrite N.div_add_l, (N.div_small i1), N.add_0_r by lia. apply N.mod_small, I0.
  - rewrite N.add_comm, N.mod_add by discriminate. apply N.mod_small, I1.
Qed.

(* StreamTarget coordinates: the inner buffer is the two length octets followed
   by the message; truncating the inner buffer to len + prefix (what
   StreamTarget::truncate does) is truncating the message to len, and the
   as_ref() view drops exactly the prefix *)
Theorem stream_coordinates x (buf : bytes) len :
  length (be16 x) = N.to_nat stream_prefix_len /\
  skipn (N.to_nat stream_prefix_len) (be16 x ++ buf) = buf /\
  skipn (N.to_nat stream_prefix_len) (firstn (N.to_nat (len + stream_prefix_len)) (be16 x ++ buf)) = firstn (N.to_nat len) buf.
Proof.
  unfold stream_prefix_len. split; [reflexivity|]. split; [reflexivity|].
  replace (N.to_nat (len + 2)) with (S (S (N.to_nat len))) by lia. reflexivity.
Qed.

(* the StaticCompressor never remembers more than its 24 slots, and only
   positions a compression pointer can express *)
Lemma static_insert_bound pos es es' :
  (length es <= 24)%nat -> static_insert pos es = Some es' ->
  (length es' <= 24)%nat /\ pos < 16384 /\ es' = es ++ [pos].
Proof.
  unfold static_insert, static_ptr_limit, static_cap_lt, static_capacity. intros L H.
  destruct (N.ltb_spec pos 16384) as [P|P]; [|discriminate].
  destruct (N.ltb_spec (N.of_nat (length es)) 24) as [Q|Q]; [|discriminate].
  injection H as <-. rewrite app_length. cbn [length]. repeat split; auto; lia.
Qed.

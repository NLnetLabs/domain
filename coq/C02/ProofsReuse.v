(* C02 -- the statement other developments import.

   Whoever assembles a message with this builder - questions, then the
   answer, authority and additional records, each section entered with the
   builder's own conversion - and sees every push accepted, has a message
   that reads back as exactly those questions and records in those sections
   (names up to ASCII case), whatever the target and the compressor. *)
From Coq Require Import NArith List Bool Lia ZArith.
From Coq Require Import ZifyN ZifyNat.
From DV Require Import Base.Outcome Base.Bytes Base.Names Base.PName C02.Gen C02.Model
  C02.ProofsBasic C02.ProofsClone C02.ProofsRun C02.ProofsName C02.ProofsComp C02.ProofsHash C02.ProofsTop
  C02.ProofsLayout C02.ProofsWrite C02.ProofsBuild C02.ProofsTotal C02.ProofsX.
Import ListNotations.
Local Open Scope N_scope.

Definition ops_of_sections (qs : list question) (an ns ar : list rrecord) : list op :=
  map OpQ qs ++ OpNext :: map OpR an ++ OpNext :: map OpR ns ++ OpNext :: map OpR ar.

(* a result word of an accepted push or of a conversion *)
Definition accepted (w : rword) : Prop := w = ROk \/ w = RNone.

Lemma set_count_sec s v : b_sec (set_count s v) = b_sec s.
Proof. unfold set_count. destruct (b_sec s =? 0); [|destruct (b_sec s =? 1); [|destruct (b_sec s =? 2)]]; reflexivity. Qed.

Lemma mb_push_sec c s f : b_sec (fst (mb_push c s f)) = b_sec s.
Proof.
  unfold mb_push, fail_push. destruct (f (b_w s)) as [w|w| |]; try reflexivity.
  - destruct (limit_hit _ _); [destruct (truncate c _ w); reflexivity|].
    destruct (count_max <=? count_of s); [destruct (truncate c _ w); reflexivity|].
    cbn [fst]. rewrite set_count_sec. reflexivity.
  - destruct (truncate c _ w); reflexivity.
Qed.

Lemma mb_push_word c s f : snd (mb_push c s f) <> RNone.
Proof.
  unfold mb_push, fail_push. destruct (f (b_w s)) as [w|w| |]; try discriminate.
  - destruct (limit_hit _ _); [destruct (truncate c _ w); discriminate|].
    destruct (count_max <=? count_of s); [destruct (truncate c _ w); discriminate|discriminate].
  - destruct (truncate c _ w); discriminate.
Qed.

Lemma accepted_alive w : accepted w -> is_dead w = false.
Proof. intros [->| ->]; reflexivity. Qed.

(* the questions, in the question section *)
Lemma run_questions c : forall qs s a s' a' ws,
  b_sec s = 0 -> run_acc c s a (map OpQ qs) = (s', a', ws) -> Forall accepted ws ->
  b_sec s' = 0 /\ a' = mkAcc (a_q a ++ qs) (a_an a) (a_ns a) (a_ar a).
Proof.
  induction qs as [|q qs IH]; intros s a s' a' ws E0 H F; cbn [map run_acc] in H.
  - injection H as <- <- <-. rewrite app_nil_r. destruct a; auto.
  - destruct (step c s (OpQ q)) as [s1 w] eqn:ES.
    assert (X : b_sec s1 = 0 /\ w <> RNone).
    { unfold step in ES. cbn [step_gen] in ES. rewrite E0 in ES. cbn [N.eqb] in ES.
      pose proof (mb_push_sec c s (compose_question c q)) as A. pose proof (mb_push_word c s (compose_question c q)) as B.
      rewrite ES in A, B. cbn [fst snd] in A, B. split; [congruence|exact B]. }
    destruct X as (E1 & Wn).
    destruct (is_dead w) eqn:D.
    + injection H as <- <- <-. inversion F as [|? ? Fw _]; subst. apply accepted_alive in Fw. congruence.
    + destruct (run_acc c s1 (acc_step (b_sec s) a (OpQ q) w) (map OpQ qs)) as [[s2 a2] ws2] eqn:ER.
      injection H as <- <- <-. inversion F as [|? ? Fw Fr]; subst.
      destruct Fw as [-> | ->]; [|contradiction].
      destruct (IH _ _ _ _ _ E1 ER Fr) as (E2 & ->). split; [exact E2|]. cbn [acc_step a_q a_an a_ns a_ar].
      rewrite <- app_assoc. reflexivity.
Qed.

(* records, in the section the builder is in *)
Lemma run_records c : forall rs s a s' a' ws,
  b_sec s <> 0 -> run_acc c s a (map OpR rs) = (s', a', ws) -> Forall accepted ws ->
  b_sec s' = b_sec s /\ a' = fold_left (fun x r => acc_add_r x (b_sec s) r) rs a.
Proof.
  induction rs as [|r rs IH]; intros s a s' a' ws E0 H F; cbn [map run_acc] in H.
  - injection H as <- <- <-. auto.
  - destruct (step c s (OpR r)) as [s1 w] eqn:ES.
    assert (X : b_sec s1 = b_sec s /\ w <> RNone).
    { unfold step in ES. cbn [step_gen] in ES. destruct (N.eqb_spec (b_sec s) 0) as [Z|_]; [contradiction|].
      pose proof (mb_push_sec c s (compose_record c r)) as A. pose proof (mb_push_word c s (compose_record c r)) as B.
      rewrite ES in A, B. cbn [fst snd] in A, B. split; [congruence|exact B]. }
    destruct X as (E1 & Wn).
    destruct (is_dead w) eqn:D.
    + injection H as <- <- <-. inversion F as [|? ? Fw _]; subst. apply accepted_alive in Fw. congruence.
    + destruct (run_acc c s1 (acc_step (b_sec s) a (OpR r) w) (map OpR rs)) as [[s2 a2] ws2] eqn:ER.
      injection H as <- <- <-. inversion F as [|? ? Fw Fr]; subst.
      destruct Fw as [-> | ->]; [|contradiction].
      assert (E1' : b_sec s1 <> 0) by congruence.
      destruct (IH _ _ _ _ _ E1' ER Fr) as (E2 & ->). split; [congruence|].
      cbn [fold_left acc_step]. rewrite E1. reflexivity.
Qed.

(* one conversion to the next section *)
Lemma run_next c s a rest s' a' ws :
  b_sec s < 3 -> run_acc c s a (OpNext :: rest) = (s', a', ws) ->
  exists s1 ws1, b_sec s1 = b_sec s + 1 /\ run_acc c s1 a rest = (s', a', ws1) /\ ws = RNone :: ws1.
Proof.
  intros L H. cbn [run_acc] in H. unfold step in H. cbn [step_gen] in H.
  destruct (N.ltb_spec (b_sec s) 3) as [_|X]; [|lia]. cbn [is_dead acc_step] in H.
  set (s1 := set_sec (set_start s (b_sec s + 1) (mlen (w_buf (b_w s)))) (b_sec s + 1)) in *.
  exists s1. destruct (run_acc c s1 a rest) as [[s2 a2] ws2]. injection H as <- <- <-.
  exists ws2. split; [reflexivity|]. split; reflexivity.
Qed.

Lemma run_acc_app_ok c l1 l2 s a s' a' ws :
  run_acc c s a (l1 ++ l2) = (s', a', ws) -> Forall accepted ws ->
  exists s1 a1 w1 w2, run_acc c s a l1 = (s1, a1, w1) /\ run_acc c s1 a1 l2 = (s', a', w2) /\
                      Forall accepted w1 /\ Forall accepted w2.
Proof.
  intros H F. rewrite run_acc_app in H. destruct (run_acc c s a l1) as [[s1 a1] w1].
  assert (D : existsb is_dead w1 = false -> exists w2, run_acc c s1 a1 l2 = (s', a', w2) /\ ws = w1 ++ w2).
  { intros D. rewrite D in H. destruct (run_acc c s1 a1 l2) as [[s2 a2] w2]. injection H as <- <- <-. eauto. }
  assert (Dead : forall l, Forall accepted l -> existsb is_dead l = false).
  { induction 1 as [|w l [->| ->] _ IH]; cbn [existsb is_dead]; auto. }
  destruct (existsb is_dead w1) eqn:E.
  - injection H as <- <- <-. rewrite (Dead _ F) in E. discriminate.
  - destruct (D eq_refl) as (w2 & R2 & ->). apply Forall_app in F as [F1 F2]. exists s1, a1, w1, w2. auto.
Qed.

Lemma run_section c rs rest s a s' a' ws :
  b_sec s < 3 -> run_acc c s a (OpNext :: map OpR rs ++ rest) = (s', a', ws) -> Forall accepted ws ->
  exists s1 ws1, b_sec s1 = b_sec s + 1 /\ Forall accepted ws1 /\
    run_acc c s1 (fold_left (fun x r => acc_add_r x (b_sec s + 1) r) rs a) rest = (s', a', ws1).
Proof.
  intros L H F. destruct (run_next c s a _ s' a' ws L H) as (t & v & T & R & ->). inversion F as [|? ? _ F']; subst.
  destruct (run_acc_app_ok c _ _ _ _ _ _ _ R F') as (s1 & a1 & w1 & w2 & R1 & R2 & F1 & F2).
  destruct (run_records c rs t a s1 a1 w1 ltac:(lia) R1 F1) as (S1 & ->).
  exists s1, w2. rewrite S1, T in *. auto.
Qed.

(* what the run has accumulated when every word is an accepted one *)
Lemma sections_acc c qs an ns ar s0 s a ws :
  b_sec s0 = 0 -> run_acc c s0 acc0 (ops_of_sections qs an ns ar) = (s, a, ws) -> Forall accepted ws ->
  a = mkAcc qs an ns ar.
Proof.
  assert (Add : forall k rs x, fold_left (fun x r => acc_add_r x k r) rs x =
            mkAcc (a_q x) (if k =? 1 then a_an x ++ rs else a_an x)
                  (if k =? 1 then a_ns x else if k =? 2 then a_ns x ++ rs else a_ns x)
                  (if k =? 1 then a_ar x else if k =? 2 then a_ar x else a_ar x ++ rs)).
  { intros k rs. induction rs as [|r rs IH]; intros x; cbn [fold_left].
    - rewrite !app_nil_r. destruct x, (k =? 1), (k =? 2); reflexivity.
    - rewrite IH. unfold acc_add_r. destruct (k =? 1), (k =? 2); cbn [a_q a_an a_ns a_ar]; rewrite <- ?app_assoc; reflexivity. }
  intros E0 H F. unfold ops_of_sections in H.
  destruct (run_acc_app_ok c _ _ _ _ _ _ _ H F) as (s1 & a1 & w1 & w2 & R1 & R2 & F1 & F2).
  destruct (run_questions c qs s0 acc0 s1 a1 w1 E0 R1 F1) as (S1 & ->).
  destruct (run_section c an _ s1 _ s a w2 ltac:(lia) R2 F2) as (s2 & w3 & S2 & F3 & R3).
  destruct (run_section c ns _ s2 _ s a w3 ltac:(lia) R3 F3) as (s3 & w4 & S3 & F4 & R4).
  rewrite <- (app_nil_r (map OpR ar)) in R4.
  destruct (run_section c ar [] s3 _ s a w4 ltac:(lia) R4 F4) as (s4 & w5 & _ & _ & R5).
  injection R5 as _ <- _. rewrite !Add, S3, S2, S1. reflexivity.
Qed.

Definition wf_r_sized (r : rrecord) : Prop := wf_r r /\ rdata_ulen (r_data r) <= 65535.

Lemma sections_wf qs an ns ar :
  Forall wf_q qs -> Forall wf_r_sized an -> Forall wf_r_sized ns -> Forall wf_r_sized ar ->
  Forall wf_op_sized (ops_of_sections qs an ns ar).
Proof.
  intros Hq Ha Hn Hr. unfold ops_of_sections.
  assert (Q : Forall wf_op_sized (map OpQ qs)).
  { apply Forall_forall. intros o Ho. apply in_map_iff in Ho as (q & <- & Hin). rewrite Forall_forall in Hq. split; [apply Hq, Hin|exact I]. }
  assert (R : forall rs, Forall wf_r_sized rs -> Forall wf_op_sized (map OpR rs)).
  { intros rs Hrs. apply Forall_forall. intros o Ho. apply in_map_iff in Ho as (r & <- & Hin). rewrite Forall_forall in Hrs.
    destruct (Hrs r Hin) as (A & B). split; [exact A|exact B]. }
  assert (Nx : wf_op_sized OpNext) by (split; exact I).
  apply Forall_app. split; [exact Q|]. constructor; [exact Nx|].
  apply Forall_app. split; [apply R; exact Ha|]. constructor; [exact Nx|].
  apply Forall_app. split; [apply R; exact Hn|]. constructor; [exact Nx|]. apply R. exact Hr.
Qed.

Lemma init_sec c s0 : init c = Some s0 -> b_sec s0 = 0.
Proof. unfold init. destruct (append_slice c _ empty_ws); try discriminate. intros H. injection H as <-. reflexivity. Qed.

Theorem pushes_reread c qs an ns ar s0 s a ws :
  init c = Some s0 ->
  Forall wf_q qs -> Forall wf_r_sized an -> Forall wf_r_sized ns -> Forall wf_r_sized ar ->
  run_acc c s0 acc0 (ops_of_sections qs an ns ar) = (s, a, ws) ->
  Forall accepted ws ->
  a = mkAcc qs an ns ar /\
  exists a', rd_message (msg_of s) (mkAcc qs an ns ar) = Ok a' /\ acc_eqb a' (mkAcc qs an ns ar) = true.
Proof.
  intros HI Hq Ha Hn Hr HR F.
  pose proof (sections_acc c qs an ns ar s0 s a ws (init_sec c s0 HI) HR F) as Ea.
  split; [exact Ea|]. rewrite <- Ea.
  apply (build_parse_total c _ s0 s a ws HI (sections_wf qs an ns ar Hq Ha Hn Hr) HR).
Qed.

(* without the premise that every push was accepted: the message reads back as
   the accepted pushes, and nothing panics *)
Theorem pushes_reread_partial c qs an ns ar s0 s a ws :
  init c = Some s0 ->
  Forall wf_q qs -> Forall wf_r_sized an -> Forall wf_r_sized ns -> Forall wf_r_sized ar ->
  run_acc c s0 acc0 (ops_of_sections qs an ns ar) = (s, a, ws) ->
  all_alive ws /\ exists a', rd_message (msg_of s) a = Ok a' /\ acc_eqb a' a = true.
Proof.
  intros HI Hq Ha Hn Hr HR.
  apply (build_parse_total c _ s0 s a ws HI (sections_wf qs an ns ar Hq Ha Hn Hr) HR).
Qed.

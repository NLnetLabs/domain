(* C02 -- the composite operations (conversions, builder(),
   start_answer / start_error / request_axfr) only ever perform sequences of
   primitive operations, so every state they reach is covered by the theorems
   over arbitrary primitive operation sequences. *)
From Coq Require Import NArith List Bool Lia ZArith.
From Coq Require Import ZifyN ZifyNat.
From DV Require Import Base.Outcome Base.Bytes Base.Names Base.PName C02.Gen C02.Model
  C02.ProofsBasic C02.ProofsClone C02.ProofsRun C02.ProofsName C02.ProofsComp C02.ProofsHash C02.ProofsTop
  C02.ProofsLayout C02.ProofsWrite C02.ProofsBuild C02.ProofsTotal.
Import ListNotations.
Local Open Scope N_scope.

Lemma run_acc_app c l1 : forall s a l2,
  run_acc c s a (l1 ++ l2) =
  let '(s1, a1, w1) := run_acc c s a l1 in
  if existsb is_dead w1 then (s1, a1, w1)
  else let '(s2, a2, w2) := run_acc c s1 a1 l2 in (s2, a2, w1 ++ w2).
Proof.
  induction l1 as [|o r IH]; intros s a l2; cbn [app run_acc].
  - cbn [existsb]. destruct (run_acc c s a l2) as [[s2 a2] w2]. reflexivity.
  - destruct (step c s o) as [s1 w]. destruct (is_dead w) eqn:D.
    + cbn [existsb]. rewrite D. reflexivity.
    + rewrite IH. destruct (run_acc c s1 (acc_step (b_sec s) a o w) r) as [[s2 a2] w2].
      cbn [existsb]. rewrite D. cbn [orb].
      destruct (existsb is_dead w2); [reflexivity|].
      destruct (run_acc c s2 a2 l2) as [[s3 a3] w3]. reflexivity.
Qed.

Definition wf_xop (x : xop) : Prop :=
  match x with
  | XPrim o => wf_op_sized o
  | XStart _ _ _ _ _ qs => Forall wf_q qs
  | _ => True
  end.

Lemma Forall_repeat {A} (P : A -> Prop) x n : P x -> Forall P (repeat x n).
Proof. intros H. induction n; cbn [repeat]; constructor; auto. Qed.

Lemma wf_simple o : wf_op o -> (match o with OpR _ | OpOpt _ _ => False | _ => True end) -> wf_op_sized o.
Proof. intros H K. split; [exact H|]. destruct o; auto; contradiction. Qed.

Lemma conv_ops_wf sec k : Forall wf_op_sized (conv_ops sec k).
Proof. unfold conv_ops. destruct (sec <=? k); apply Forall_repeat; apply wf_simple; exact I. Qed.
Lemma builder_ops_wf sec : Forall wf_op_sized (builder_ops sec).
Proof.
  unfold builder_ops. apply Forall_app. split; [apply Forall_repeat; apply wf_simple; exact I|].
  constructor; [apply wf_simple; exact I|constructor].
Qed.

Lemma start_qs_wf c : forall qs s l e, Forall wf_q qs -> start_qs c s qs = (l, e) -> Forall wf_op_sized l.
Proof.
  induction qs as [|q r IH]; intros s l e Hwf H; cbn [start_qs] in H.
  - injection H as <- <-. constructor.
  - inversion Hwf as [|? ? Hq Hr]; subst.
    assert (Wq : wf_op_sized (OpQ q)) by (apply wf_simple; [exact Hq|exact I]).
    destruct (step c s (OpQ q)) as [s' w]. destruct w.
    + injection H as <- <-. constructor; [exact Wq|constructor].
    + destruct (start_qs c s' r) as [l' e'] eqn:E. injection H as <- <-. constructor; [exact Wq|eapply IH; eauto].
    + injection H as <- <-. constructor; [exact Wq|constructor].
    + injection H as <- <-. constructor; [exact Wq|constructor].
    + injection H as <- <-. constructor; [exact Wq|constructor].
Qed.

Lemma expand_wf c s x : wf_xop x -> Forall wf_op_sized (fst (expand c s x)).
Proof.
  destruct x as [o|k| |kind id opcode rd rcode qs]; cbn [wf_xop expand fst]; intros H.
  - constructor; [exact H|constructor].
  - apply conv_ops_wf.
  - apply builder_ops_wf.
  - set (sets := if kind =? 2 then _ else _).
    set (pre := builder_ops (b_sec s) ++ [OpHdr sets]).
    assert (Wpre : Forall wf_op_sized pre).
    { apply Forall_app. split; [apply builder_ops_wf|]. constructor; [apply wf_simple; exact I|constructor]. }
    set (qs' := if kind =? 2 then _ else qs).
    assert (Hq' : Forall wf_q qs').
    { subst qs'. destruct (kind =? 2); [|exact H]. constructor; [|constructor].
      split; [|cbn; lia]. destruct qs as [|q0 r0]; [exact name_ok_root|]. inversion H as [|? ? (Hn & _) _]. exact Hn. }
    destruct (start_qs c (fst (run c s pre)) qs') as [lq e] eqn:E.
    pose proof (start_qs_wf c qs' _ lq e Hq' E) as Wq.
    destruct e as [e|]; [destruct (kind =? 1)|]; cbn [fst].
    + apply Forall_app. split; [exact Wpre|]. apply Forall_app. split; [exact Wq|].
      constructor; [apply wf_simple; exact I|]. constructor; [apply wf_simple; exact I|constructor].
    + apply Forall_app. split; [exact Wpre|exact Wq].
    + apply Forall_app. split; [exact Wpre|]. apply Forall_app. split; [exact Wq|].
      constructor; [apply wf_simple; exact I|constructor].
Qed.

Lemma collapse_alive x ws : is_dead (collapse x ws) = false -> existsb is_dead ws = false.
Proof.
  unfold collapse. destruct (find is_dead ws) as [w|] eqn:F.
  - apply find_some in F as [_ D]. congruence.
  - intros _. destruct (existsb is_dead ws) eqn:E; [|reflexivity].
    apply existsb_exists in E as (w & Hin & D). pose proof (find_none _ _ F w Hin). congruence.
Qed.

(* what the composite operations reach, a sequence of primitive operations reaches *)
Theorem xrun_is_run c xs : forall s a s' a' ws lost,
  xrun c s a xs = (s', a', ws, lost) -> Forall wf_xop xs ->
  exists ops ws', run_acc c s a ops = (s', a', ws') /\ Forall wf_op_sized ops.
Proof.
  induction xs as [|x r IH]; intros s a s' a' ws lost H Hwf; cbn [xrun] in H.
  - injection H as <- <- <- <-. exists [], []. split; [reflexivity|constructor].
  - inversion Hwf as [|? ? Hx Hr]; subst.
    pose proof (expand_wf c s x Hx) as We.
    destruct (expand c s x) as [ops l0]. cbn [fst] in We.
    destruct (run_acc c s a ops) as [[s1 a1] ws1] eqn:E1.
    destruct (is_dead (collapse x ws1) || l0) eqn:D.
    + injection H as <- <- <- <-. exists ops, ws1. split; [exact E1|exact We].
    + apply orb_false_iff in D as [D _].
      destruct (xrun c s1 a1 r) as [[[s2 a2] ws2] l2] eqn:E2. injection H as <- <- <- <-.
      destruct (IH s1 a1 s2 a2 ws2 l2 E2 Hr) as (ops2 & ws2' & R2 & W2).
      exists (ops ++ ops2), (ws1 ++ ws2'). split; [|apply Forall_app; split; assumption].
      rewrite run_acc_app, E1, (collapse_alive _ _ D), R2. reflexivity.
Qed.

(* hence: whatever mix of pushes, conversions, rewinds, header setters, OPT
   records and start_answer / start_error / request_axfr calls built the
   message, no panic occurred and it reads back as the accepted pushes *)
Theorem xbuild_parse c xs s0 s a ws lost :
  init c = Some s0 -> Forall wf_xop xs -> xrun c s0 acc0 xs = (s, a, ws, lost) ->
  exists a', rd_message (msg_of s) a = Ok a' /\ acc_eqb a' a = true.
Proof.
  intros HI Hwf HR. destruct (xrun_is_run c xs s0 acc0 s a ws lost HR Hwf) as (ops & ws' & R & W).
  destruct (build_parse_total c ops s0 s a ws' HI W R) as (_ & X). exact X.
Qed.

(* non-vacuity: start_error with a question that does not fit sets SERVFAIL,
   keeps the first question and hands out the answer builder *)
Example start_error_example :
  let c := mkCfg (Some 38) false KStatic in
  let q1 := mkQ [[101;120]; [99;111;109]] 1 1 in
  let q2 := mkQ [[119;119;119]; [101;120]; [99;111;109]] 28 1 in
  match c02_xrun c [XPrim (OpHdr (sets_of_fields (fields_of_octets [0; 0; 4; 160]))); XStart 1 4660 2 true 3 [q1; q2; q1];
                    XPrim (OpR (mkR [[101;120]; [99;111;109]] 1 1 5 false [RBytes [1;2;3;4]]))] with
  | Some (s, a, ws, lost) =>
      ws = [RNone; RNone; RErr E_SHORTBUF] /\ lost = false /\ b_sec s = 1 /\ length (a_q a) = 2%nat /\
      firstn 4 (msg_of s) = [18; 52; 149; 162] /\ c02_reread s a = true
  | None => False
  end.
Proof. vm_compute. repeat split; reflexivity. Qed.

(* C02 -- what it means that a (possibly compressed) name is
   stored at a position of a message, and that the reader model
   (PName.decode_name = ParsedName::parse + label iteration) reconstructs
   exactly that name. *)
From Coq Require Import NArith List Bool Lia ZArith.
From Coq Require Import ZifyN ZifyNat.
From DV Require Import Base.Outcome Base.Bytes Base.Names Base.PName C02.Gen C02.Model C02.ProofsBasic.
Import ListNotations.
Local Open Scope N_scope.

Definition bytes_at (m : bytes) (p : N) (b : bytes) : Prop :=
  forall k, (k < length b)%nat -> get m (p + N.of_nat k) = nth_error b k.

Lemma get_app_l a b i : i < mlen a -> get (a ++ b) i = get a i.
Proof. unfold get, mlen. intros H. apply nth_error_app1. lia. Qed.
Lemma get_app_r a b i : mlen a <= i -> get (a ++ b) i = get b (i - mlen a).
Proof. unfold get, mlen. intros H. rewrite nth_error_app2 by lia. f_equal. lia. Qed.
Lemma get_some_lt m i v : get m i = Some v -> i < mlen m.
Proof. unfold get, mlen. intros H. assert (nth_error m (N.to_nat i) <> None) by congruence. apply nth_error_Some in H0. lia. Qed.
Lemma get_lt_some m i : i < mlen m -> exists v, get m i = Some v.
Proof.
  unfold get, mlen. intros H. destruct (nth_error m (N.to_nat i)) eqn:E; [eauto|].
  apply nth_error_None in E. lia.
Qed.

Lemma bytes_at_app a b c : bytes_at (a ++ b ++ c) (mlen a) b.
Proof.
  intros k Hk. rewrite get_app_r by lia. replace (mlen a + N.of_nat k - mlen a) with (N.of_nat k) by lia.
  unfold get. rewrite Nat2N.id. apply nth_error_app1. exact Hk.
Qed.

Lemma bytes_at_cons m p x b : bytes_at m p (x :: b) <-> get m p = Some x /\ bytes_at m (p + 1) b.
Proof.
  split.
  - intros H. split.
    + specialize (H 0%nat). cbn [length nth_error] in H. rewrite N.add_0_r in H. apply H. lia.
    + intros k Hk. specialize (H (S k)). cbn [length nth_error] in H.
      replace (p + 1 + N.of_nat k) with (p + N.of_nat (S k)) by lia. apply H. lia.
  - intros [H0 H] k Hk. destruct k as [|k]; cbn [nth_error].
    + rewrite N.add_0_r. exact H0.
    + replace (p + N.of_nat (S k)) with (p + 1 + N.of_nat k) by lia. apply H. cbn [length] in Hk. lia.
Qed.

Lemma skipn_get m p x : get m p = Some x -> skipn (N.to_nat p) m = x :: skipn (N.to_nat p + 1) m.
Proof.
  unfold get. generalize (N.to_nat p) as n. intros n. revert m.
  induction n as [|n IH]; intros [|y m] H; cbn [nth_error] in H; try discriminate.
  - injection H as ->. reflexivity.
  - cbn [skipn Nat.add]. apply IH. exact H.
Qed.

Lemma slice_bytes_at m p b : bytes_at m p b -> slice m p (p + mlen b) = b.
Proof.
  unfold slice. replace (N.to_nat (p + mlen b - p)) with (length b) by (unfold mlen; lia).
  revert p. induction b as [|x b IH]; intros p H; [reflexivity|].
  apply bytes_at_cons in H as [H0 H]. rewrite (skipn_get _ _ _ H0). cbn [length firstn]. f_equal.
  replace (N.to_nat p + 1)%nat with (N.to_nat (p + 1)) by lia. apply IH. exact H.
Qed.

Lemma bytes_at_end m p b : b <> [] -> bytes_at m p b -> p + mlen b <= mlen m.
Proof.
  intros Hn H. assert (Hl : (length b - 1 < length b)%nat) by (destruct b; [congruence|cbn [length]; lia]).
  specialize (H _ Hl). destruct (nth_error b (length b - 1)) eqn:E.
  - apply get_some_lt in H. unfold mlen in *. lia.
  - apply nth_error_None in E. lia.
Qed.

(* NameIn m ok seg p ls e: the name with labels ls is stored at p; every octet
   read satisfies ok; e is the position behind the first segment (behind the
   root octet or behind the first compression pointer); a pointer targets a
   position below seg (SliceLabelsIter's rule; seg <= the pointer's position)
   and below 0x4000, and its target is a real label, never a pointer *)
Inductive NameIn (m : bytes) (ok : N -> Prop) : N -> N -> name -> N -> Prop :=
| NI_root seg p : ok p -> get m p = Some 0 -> NameIn m ok seg p [] (p + 1)
| NI_label seg p l ls e :
    valid_label l ->
    (forall i, p <= i < p + 1 + mlen l -> ok i) ->
    bytes_at m p (mlen l :: l) ->
    NameIn m ok seg (p + 1 + mlen l) ls e ->
    NameIn m ok seg p (l :: ls) e
| NI_ptr seg p q l ls e' :
    ok p -> ok (p + 1) ->
    get m p = Some (192 + q / 256) -> get m (p + 1) = Some (q mod 256) ->
    q < seg -> seg <= p -> q < 16384 ->
    valid_label l ->
    (forall i, q <= i < q + 1 + mlen l -> ok i) ->
    bytes_at m q (mlen l :: l) ->
    NameIn m ok q (q + 1 + mlen l) ls e' ->
    NameIn m ok seg p (l :: ls) (p + 2).

Lemma NameIn_agree m m' (ok : N -> Prop) seg p ls e :
  (forall i v, ok i -> get m i = Some v -> get m' i = Some v) ->
  NameIn m ok seg p ls e -> NameIn m' ok seg p ls e.
Proof.
  intros A H. induction H as [seg p Ho Hg | seg p l ls e Hv Ho Hb _ IH | seg p q l ls e' Ho0 Ho1 Hg0 Hg1 Hq Hs Hq2 Hv Ho Hb _ IH].
  - constructor; auto.
  - apply NI_label; auto. intros k Hk. specialize (Hb k Hk).
    destruct (nth_error (mlen l :: l) k) eqn:E; [|apply nth_error_None in E; lia].
    apply A; auto. apply Ho. cbn [length] in Hk. unfold mlen. lia.
  - eapply NI_ptr; eauto. intros k Hk. specialize (Hb k Hk).
    destruct (nth_error (mlen l :: l) k) eqn:E; [|apply nth_error_None in E; lia].
    apply A; auto. apply Ho. cbn [length] in Hk. unfold mlen. lia.
Qed.

Lemma NameIn_weaken m (ok ok' : N -> Prop) seg p ls e :
  (forall i, ok i -> ok' i) -> NameIn m ok seg p ls e -> NameIn m ok' seg p ls e.
Proof.
  intros A H. induction H; [constructor; auto|apply NI_label; auto|eapply NI_ptr; eauto].
Qed.

Lemma NameIn_seg m (ok : N -> Prop) seg seg' p ls e :
  NameIn m ok seg p ls e -> seg <= seg' -> seg' <= p -> NameIn m ok seg' p ls e.
Proof.
  intros H. revert seg'. induction H as [seg p Ho Hg | seg p l ls e Hv Ho Hb _ IH | seg p q l ls e' Ho0 Ho1 Hg0 Hg1 Hq Hs Hq2 Hv Ho Hb Hn IH];
    intros seg' H1 H2.
  - constructor; auto.
  - apply NI_label; auto. apply IH; lia.
  - eapply NI_ptr; eauto; lia.
Qed.

Lemma NameIn_app m x (ok : N -> Prop) seg p ls e : NameIn m ok seg p ls e -> NameIn (m ++ x) ok seg p ls e.
Proof.
  apply NameIn_agree. intros i v _ H. rewrite get_app_l; [exact H|]. eapply get_some_lt; eauto.
Qed.

Lemma NameIn_below m (ok : N -> Prop) seg p ls e :
  NameIn m ok seg p ls e -> NameIn m (fun i => ok i /\ i < mlen m) seg p ls e.
Proof.
  intros H. induction H as [seg p Ho Hg | seg p l ls e Hv Ho Hb _ IH | seg p q l ls e' Ho0 Ho1 Hg0 Hg1 Hq Hs Hq2 Hv Ho Hb Hn IH].
  - constructor; auto. split; auto. eapply get_some_lt; eauto.
  - apply NI_label; auto. intros i Hi. split; [apply Ho; exact Hi|].
    pose proof (bytes_at_end m p (mlen l :: l) ltac:(discriminate) Hb) as He. rewrite mlen_cons in He. lia.
  - eapply NI_ptr; eauto.
    + split; auto. eapply get_some_lt; eauto.
    + split; auto. eapply get_some_lt; eauto.
    + intros i Hi. split; [apply Ho; exact Hi|].
      pose proof (bytes_at_end m q (mlen l :: l) ltac:(discriminate) Hb) as He. rewrite mlen_cons in He. lia.
Qed.

Lemma NameIn_end_le m (ok : N -> Prop) seg p ls e : NameIn m ok seg p ls e -> p < e /\ e <= mlen m.
Proof.
  intros H. induction H as [seg p Ho Hg | seg p l ls e Hv Ho Hb _ IH | seg p q l ls e' Ho0 Ho1 Hg0 Hg1 Hq Hs Hq2 Hv Ho Hb Hn IH].
  - apply get_some_lt in Hg. lia.
  - lia.
  - apply get_some_lt in Hg1. lia.
Qed.

Lemma some_inj {A} (a b : A) : Some a = Some b -> a = b.
Proof. congruence. Qed.

Lemma NameIn_fun m (ok ok' : N -> Prop) seg seg' p ls ls' e e' :
  NameIn m ok seg p ls e -> NameIn m ok' seg' p ls' e' -> ls = ls' /\ e = e'.
Proof.
  intros H. revert ok' seg' ls' e'.
  induction H as [seg p Ho Hg | seg p l ls e Hv Ho Hb _ IH | seg p q l ls e1 Ho0 Ho1 Hg0 Hg1 Hq Hs Hq2 Hv Ho Hb Hn IH];
    intros ok' seg' ls' e' H'.
  - inversion H' as [? ? _ Hg' | ? ? l' ? ? Hv' _ Hb' _ | ? ? q' l' ? ? _ _ Hg0' _ _ _ Hq' _ _ _ _]; subst.
    + auto.
    + apply bytes_at_cons in Hb' as [Hg' _]. destruct Hv' as [Hl _]. unfold mlen in Hg'. rewrite Hg in Hg'. apply some_inj in Hg'. exfalso; lia.
    + rewrite Hg in Hg0'. apply some_inj in Hg0'; rename Hg0' into X. exfalso; lia.
  - pose proof Hb as Hb0. apply bytes_at_cons in Hb0 as [Hg _]. destruct Hv as [Hl Hw].
    inversion H' as [? ? _ Hg' | ? ? l' ls2 ? Hv' _ Hb' Hn' | ? ? q' l' ? ? _ _ Hg0' _ _ _ Hq' _ _ _ _]; subst.
    + rewrite Hg in Hg'. apply some_inj in Hg'; rename Hg' into X. unfold mlen in X. exfalso; lia.
    + pose proof Hb' as Hb0'. apply bytes_at_cons in Hb0' as [Hg' _]. rewrite Hg in Hg'. apply some_inj in Hg'; rename Hg' into X.
      assert (El : l = l').
      { pose proof (slice_bytes_at _ _ _ Hb) as S1. pose proof (slice_bytes_at _ _ _ Hb') as S2.
        rewrite !mlen_cons in S1, S2. rewrite <- X in S2. rewrite S1 in S2. injection S2 as S2. exact S2. }
      subst l'. destruct (IH _ _ _ _ Hn') as [-> ->]. auto.
    + rewrite Hg in Hg0'. apply some_inj in Hg0'; rename Hg0' into X. unfold mlen in X. exfalso; lia.
  - inversion H' as [? ? _ Hg' | ? ? l' ? ? Hv' _ Hb' _ | ? ? q' l' ls2 e2 _ _ Hg0' Hg1' _ _ Hq' Hv' _ Hb' Hn']; subst.
    + rewrite Hg0 in Hg'. apply some_inj in Hg'; rename Hg' into X. exfalso; lia.
    + apply bytes_at_cons in Hb' as [Hg' _]. destruct Hv' as [Hl _]. rewrite Hg0 in Hg'. apply some_inj in Hg'; rename Hg' into X. unfold mlen in X. exfalso; lia.
    + rewrite Hg0 in Hg0'. rewrite Hg1 in Hg1'. apply some_inj in Hg0'; rename Hg0' into X0. apply some_inj in Hg1'; rename Hg1' into X1.
      assert (q = q') by lia. subst q'.
      pose proof Hb as Hb0. apply bytes_at_cons in Hb0 as [Hg _].
      pose proof Hb' as Hb0'. apply bytes_at_cons in Hb0' as [Hg' _]. rewrite Hg in Hg'. apply some_inj in Hg'; rename Hg' into X.
      assert (El : l = l').
      { pose proof (slice_bytes_at _ _ _ Hb) as S1. pose proof (slice_bytes_at _ _ _ Hb') as S2.
        rewrite !mlen_cons in S1, S2. rewrite <- X in S2. rewrite S1 in S2. injection S2 as S2. exact S2. }
      subst l'. destruct (IH _ _ _ _ Hn') as [-> _]. auto.
Qed.

Definition name_ok (ls : name) : Prop := Forall valid_label ls /\ (wire_len ls <= 254)%nat.

Lemma wire_len_ge ls : (2 * length ls <= wire_len ls)%nat \/ False -> True.
Proof. auto. Qed.

Lemma wire_len_labels ls : Forall valid_label ls -> (2 * length ls <= wire_len ls)%nat.
Proof.
  induction 1 as [|l ls [Hl _] _ IH]; cbn [length wire_len]; lia.
Qed.

(* where label iteration starts: behind a leading pointer *)
Definition skip_ptr (m : bytes) (p : N) : N :=
  match get m p, get m (p + 1) with
  | Some b, Some c => if 192 <=? b then c + 256 * (b mod 64) else p
  | _, _ => p
  end.

Lemma ptr_decode q : q < 16384 -> (q mod 256) + 256 * ((192 + q / 256) mod 64) = q.
Proof. intros. lia. Qed.

Lemma label_type_normal m p lim b : p < lim -> get m p = Some b -> b <= 63 ->
  label_type_parse m p lim = Ok (LNormal b, p + 1).
Proof.
  intros H1 H2 H3. unfold label_type_parse.
  destruct (N.leb_spec lim p); [lia|]. rewrite H2. destruct (N.leb_spec b 63); [reflexivity|lia].
Qed.

Lemma label_type_ptr m p lim q : p + 1 < lim -> q < 16384 ->
  get m p = Some (192 + q / 256) -> get m (p + 1) = Some (q mod 256) ->
  label_type_parse m p lim = Ok (LCompressed q, p + 2).
Proof.
  intros H1 Hq H2 H3. unfold label_type_parse.
  destruct (N.leb_spec lim p); [lia|]. rewrite H2.
  destruct (N.leb_spec (192 + q / 256) 63); [lia|].
  destruct (N.leb_spec 192 (192 + q / 256)); [|lia].
  destruct (N.leb_spec lim (p + 1)); [lia|]. rewrite H3. rewrite (ptr_decode q Hq). reflexivity.
Qed.

Section Reader.
Variable m : bytes.
Variable ok : N -> Prop.
Variable lim : N.
Hypothesis ok_lim : forall i, ok i -> i < lim.

Lemma parse_labels_ok seg cur ls e :
  NameIn m ok seg cur ls e ->
  forall fuel name_len start compressed endp,
    name_len + N.of_nat (wire_len ls) + 1 <= 255 -> (2 * length ls + 1 <= fuel)%nat ->
    (name_len = 0 -> start = cur) ->
    exists pn, parse_labels fuel m lim cur name_len start compressed endp = Ok pn /\
      pn_len pn = name_len + N.of_nat (wire_len ls) + 1 /\
      pn_end pn = match endp with Some x => x | None => e end /\
      pn_pos pn = if name_len =? 0 then skip_ptr m cur else start.
Proof.
  intros H.
  induction H as [seg p Ho Hg | seg p l ls e Hv Ho Hb Hn IH | seg p q l ls e' Ho0 Ho1 Hg0 Hg1 Hq Hs Hq2 Hv Ho Hb Hn IH];
    intros fuel name_len start compressed endp HL HF HS.
  - destruct fuel as [|fuel]; [cbn [length] in HF; lia|]. cbn [parse_labels].
    rewrite (label_type_normal m p lim 0); [|apply ok_lim; exact Ho|exact Hg|lia].
    cbn [N.eqb]. eexists; split; [reflexivity|]. cbn [pn_len pn_end pn_pos wire_len].
    split; [lia|]. split; [destruct endp; reflexivity|].
    destruct (N.eqb_spec name_len 0) as [E|E]; [|reflexivity].
    unfold skip_ptr. rewrite Hg. destruct (get m (p + 1)); [cbn; auto|auto]; symmetry; auto.
  - destruct fuel as [|fuel]; [cbn [length] in HF; lia|]. cbn [parse_labels].
    pose proof Hb as Hb0. apply bytes_at_cons in Hb0 as [Hg _]. destruct Hv as [Hl Hw].
    assert (Hlast : p + mlen l < lim) by (apply ok_lim, Ho; unfold mlen; lia).
    rewrite (label_type_normal m p lim (mlen l)); [|apply ok_lim, Ho; unfold mlen; lia|exact Hg|unfold mlen; lia].
    destruct (N.eqb_spec (mlen l) 0) as [E|E]; [unfold mlen in E; lia|].
    destruct (N.ltb_spec (lim - (p + 1)) (mlen l)) as [L|L]; [lia|].
    cbn [wire_len] in HL.
    destruct (N.leb_spec 255 (name_len + mlen l + 1)) as [L2|L2]; [unfold mlen in L2; lia|].
    replace (p + 1 + mlen l) with (p + 1 + mlen l) in * by reflexivity.
    destruct (IH fuel (name_len + mlen l + 1) start compressed endp) as (pn & E1 & E2 & E3 & E4).
    + unfold mlen. lia.
    + cbn [length] in HF. lia.
    + unfold mlen. lia.
    + exists pn. split; [exact E1|]. split; [rewrite E2; cbn [wire_len]; unfold mlen; lia|]. split; [exact E3|].
      rewrite E4. destruct (N.eqb_spec (name_len + mlen l + 1) 0) as [X|X]; [lia|].
      destruct (N.eqb_spec name_len 0) as [Y|Y]; [|reflexivity].
      rewrite (HS Y). unfold skip_ptr. rewrite Hg.
      destruct (get m (p + 1)); [|reflexivity]. destruct (N.leb_spec 192 (mlen l)); [unfold mlen in *; lia|reflexivity].
  - destruct fuel as [|fuel]; [cbn [length] in HF; lia|]. cbn [parse_labels].
    assert (Hp1 : p + 1 < lim) by (apply ok_lim; exact Ho1).
    rewrite (label_type_ptr m p lim q Hp1 Hq2 Hg0 Hg1).
    pose proof Hb as Hb0. apply bytes_at_cons in Hb0 as [Hg _]. destruct Hv as [Hl Hw].
    assert (Hhops : hops (S (S (N.to_nat q))) m lim q (p + 2) = Ok q).
    { cbn [hops]. destruct (N.leb_spec (p + 2 - 2) q); [lia|]. destruct (N.ltb_spec lim q); [lia|].
      rewrite (label_type_normal m q lim (mlen l)); [reflexivity| |exact Hg|unfold mlen; lia].
      apply ok_lim, Ho. unfold mlen. lia. }
    rewrite Hhops. cbn [bind].
    assert (Hstep : NameIn m ok q q (l :: ls) e').
    { apply NI_label; auto. split; auto. }
    (* continue at the target, which starts with a label *)
    destruct fuel as [|fuel]; [cbn [length] in HF; lia|].
    assert (Hlast : q + mlen l < lim) by (apply ok_lim, Ho; unfold mlen; lia).
    assert (HLT : label_type_parse m q lim = Ok (LNormal (mlen l), q + 1)).
    { apply label_type_normal; [apply ok_lim, Ho; unfold mlen; lia|exact Hg|unfold mlen; lia]. }
    cbn [wire_len] in HL.
    set (endp' := match endp with Some x => Some x | None => Some (p + 2) end).
    assert (Hcont : forall st cp, exists pn,
               parse_labels (S fuel) m lim q name_len st cp endp' = Ok pn /\
               pn_len pn = name_len + N.of_nat (wire_len (l :: ls)) + 1 /\
               pn_end pn = match endp with Some x => x | None => p + 2 end /\
               pn_pos pn = st).
    { intros st cp. cbn [parse_labels]. rewrite HLT.
      destruct (N.eqb_spec (mlen l) 0) as [E|E]; [unfold mlen in E; lia|].
      destruct (N.ltb_spec (lim - (q + 1)) (mlen l)) as [L|L]; [lia|].
      destruct (N.leb_spec 255 (name_len + mlen l + 1)) as [L2|L2]; [unfold mlen in L2; lia|].
      destruct (IH fuel (name_len + mlen l + 1) st cp endp') as (pn & E1 & E2 & E3 & E4).
      - unfold mlen. lia.
      - cbn [length] in HF. lia.
      - unfold mlen. lia.
      - exists pn. split; [exact E1|]. split; [rewrite E2; cbn [wire_len]; unfold mlen; lia|].
        split; [rewrite E3; subst endp'; destruct endp; reflexivity|].
        rewrite E4. destruct (N.eqb_spec (name_len + mlen l + 1) 0); [lia|reflexivity]. }
    destruct (N.eqb_spec name_len 0) as [Y|Y].
    + destruct (Hcont q false) as (pn & E1 & E2 & E3 & E4). exists pn.
      split; [exact E1|]. split; [exact E2|]. split; [exact E3|]. rewrite E4.
      unfold skip_ptr. rewrite Hg0, Hg1. destruct (N.leb_spec 192 (192 + q / 256)); [|lia].
      symmetry. apply ptr_decode. exact Hq2.
    + destruct (Hcont start true) as (pn & E1 & E2 & E3 & E4). exists pn. auto.
Qed.

Lemma get_label_here fuel p l :
  valid_label l -> bytes_at m p (mlen l :: l) -> (1 <= fuel)%nat ->
  get_label fuel m p = Ok (l, p + 1 + mlen l).
Proof.
  intros [Hl Hw] Hb HF. destruct fuel as [|fuel]; [lia|]. cbn [get_label].
  pose proof Hb as Hb0. apply bytes_at_cons in Hb0 as [Hg Hb1]. rewrite Hg.
  destruct (N.leb_spec (mlen l) 63) as [L|L]; [|unfold mlen in L; lia].
  pose proof (bytes_at_end m p (mlen l :: l) ltac:(discriminate) Hb) as He. rewrite mlen_cons in He.
  destruct (N.ltb_spec (PName.mlen m) (p + 1 + mlen l)) as [X|X]; [lia|].
  rewrite (slice_bytes_at m (p + 1) l Hb1). reflexivity.
Qed.

Lemma iter_labels_ok seg p ls e :
  NameIn m ok seg p ls e ->
  forall fuel acc, (length ls + 1 <= fuel)%nat ->
    iter_labels fuel m p (N.of_nat (wire_len ls) + 1) acc = Ok (rev acc ++ ls, true).
Proof.
  intros H.
  induction H as [seg p Ho Hg | seg p l ls e Hv Ho Hb Hn IH | seg p q l ls e' Ho0 Ho1 Hg0 Hg1 Hq Hs Hq2 Hv Ho Hb Hn IH];
    intros fuel acc HF.
  - destruct fuel as [|fuel]; [lia|]. cbn [iter_labels wire_len]. cbn [N.of_nat N.add N.eqb Pos.eqb].
    assert (GL : get_label (S (length m)) m p = Ok ([], p + 1)).
    { cbn [get_label]. rewrite Hg. cbn [N.leb N.compare]. pose proof (get_some_lt _ _ _ Hg) as X.
      destruct (N.ltb_spec (PName.mlen m) (p + 1 + 0)) as [Y|Y]; [lia|].
      unfold slice. replace (N.to_nat (p + 1 + 0 - (p + 1))) with 0%nat by lia. rewrite N.add_0_r. reflexivity. }
    rewrite GL. cbn [bind length]. cbn. rewrite app_nil_r. reflexivity.
  - destruct fuel as [|fuel]; [lia|]. cbn [iter_labels].
    destruct (N.eqb_spec (N.of_nat (wire_len (l :: ls)) + 1) 0); [lia|].
    rewrite (get_label_here (S (length m)) p l Hv Hb); [|lia]. cbn [bind].
    destruct Hv as [Hl Hw]. cbn [wire_len].
    destruct (N.ltb_spec (N.of_nat (S (length l) + wire_len ls) + 1) (N.of_nat (length l) + 1)); [lia|].
    destruct (Nat.eqb_spec (length l) 0); [lia|].
    replace (N.of_nat (S (length l) + wire_len ls) + 1 - (N.of_nat (length l) + 1)) with (N.of_nat (wire_len ls) + 1) by lia.
    rewrite IH by (cbn [length] in HF; lia). cbn [rev]. rewrite <- app_assoc. reflexivity.
  - destruct fuel as [|fuel]; [lia|]. cbn [iter_labels].
    destruct (N.eqb_spec (N.of_nat (wire_len (l :: ls)) + 1) 0); [lia|].
    assert (GL : get_label (S (length m)) m p = Ok (l, q + 1 + mlen l)).
    { cbn [get_label]. rewrite Hg0.
      destruct (N.leb_spec (192 + q / 256) 63); [lia|]. destruct (N.leb_spec 192 (192 + q / 256)); [|lia].
      rewrite Hg1. rewrite (ptr_decode q Hq2). apply get_label_here; auto.
      pose proof (get_some_lt _ _ _ Hg1). unfold PName.mlen in *. lia. }
    rewrite GL. cbn [bind]. destruct Hv as [Hl Hw]. cbn [wire_len].
    destruct (N.ltb_spec (N.of_nat (S (length l) + wire_len ls) + 1) (N.of_nat (length l) + 1)); [lia|].
    destruct (Nat.eqb_spec (length l) 0); [lia|].
    replace (N.of_nat (S (length l) + wire_len ls) + 1 - (N.of_nat (length l) + 1)) with (N.of_nat (wire_len ls) + 1) by lia.
    rewrite IH by (cbn [length] in HF; lia). cbn [rev]. rewrite <- app_assoc. reflexivity.
Qed.

(* the name stored behind a leading pointer *)
Lemma NameIn_skip seg p ls e :
  NameIn m ok seg p ls e -> exists seg' e', NameIn m ok seg' (skip_ptr m p) ls e'.
Proof.
  intros H. destruct H as [seg p Ho Hg | seg p l ls e Hv Ho Hb Hn | seg p q l ls e' Ho0 Ho1 Hg0 Hg1 Hq Hs Hq2 Hv Ho Hb Hn].
  - exists seg, (p + 1). unfold skip_ptr. rewrite Hg.
    replace (match get m (p + 1) with Some _ => if 192 <=? 0 then _ else p | None => p end) with p
      by (destruct (get m (p + 1)); reflexivity).
    constructor; auto.
  - exists seg, e. pose proof Hb as Hb0. apply bytes_at_cons in Hb0 as [Hg _]. destruct Hv as [Hl Hw].
    unfold skip_ptr. rewrite Hg.
    replace (match get m (p + 1) with Some c => if 192 <=? mlen l then c + 256 * (mlen l mod 64) else p | None => p end) with p.
    + apply NI_label; auto. split; auto.
    + destruct (get m (p + 1)); [|reflexivity]. destruct (N.leb_spec 192 (mlen l)); [unfold mlen in *; lia|reflexivity].
  - exists q, e'. unfold skip_ptr. rewrite Hg0, Hg1.
    destruct (N.leb_spec 192 (192 + q / 256)); [|lia]. rewrite (ptr_decode q Hq2).
    apply NI_label; auto.
Qed.

Theorem decode_name_ok seg p ls e :
  NameIn m ok seg p ls e -> name_ok ls ->
  decode_name m p lim = Ok (ls, e).
Proof.
  intros H [Hv Hw]. unfold decode_name, parse_ref.
  pose proof (wire_len_labels ls Hv) as Hlen.
  destruct (parse_labels_ok seg p ls e H PARSE_FUEL 0 p false None) as (pn & E1 & E2 & E3 & E4).
  - lia.
  - unfold PARSE_FUEL. lia.
  - auto.
  - rewrite E1. cbn [bind]. unfold pname_labels.
    destruct (NameIn_skip seg p ls e H) as (seg' & e2 & H2).
    cbn [N.eqb] in E4. rewrite E4, E2. replace (0 + N.of_nat (wire_len ls) + 1) with (N.of_nat (wire_len ls) + 1) by lia.
    rewrite (iter_labels_ok seg' (skip_ptr m p) ls e2 H2) by (unfold PARSE_FUEL; lia).
    cbn [bind fst rev app]. rewrite E3. reflexivity.
Qed.

End Reader.

(* non-vacuity: a compressed name and what the reader makes of it *)
Example decode_example :
  let m := repeat 0 12 ++ [3;119;119;119;1;97;0] ++ [1;98;192;16] in
  NameIn m (fun i => i < 23) 19 19 [[98]; [97]] 23 /\
  decode_name m 19 (mlen m) = Ok ([[98]; [97]], 23).
Proof.
  assert (V : forall x, x < 256 -> valid_label [x]).
  { intros x Hx. split; [cbn; lia|]. constructor; [exact Hx|constructor]. }
  assert (H : NameIn (repeat 0 12 ++ [3;119;119;119;1;97;0] ++ [1;98;192;16]) (fun i => i < 23) 19 19 [[98]; [97]] 23).
  { apply NI_label; [apply V; lia| | |].
    - change (mlen [98]) with 1. intros; lia.
    - intros k Hk. do 2 (destruct k as [|k]; [reflexivity|]). cbn [length] in Hk. lia.
    - change (19 + 1 + mlen [98]) with 21. change 23 with (21 + 2).
      apply (NI_ptr _ _ 19 21 16 [97] [] 19); try reflexivity; try lia; [apply V; lia| | |].
      + change (mlen [97]) with 1. intros; lia.
      + intros k Hk. do 2 (destruct k as [|k]; [reflexivity|]). cbn [length] in Hk. lia.
      + change (16 + 1 + mlen [97]) with 18. apply (NI_root _ _ 16 18); [lia|reflexivity]. }
  split; [exact H|].
  eapply (decode_name_ok _ (fun i => i < 23)); [|exact H|].
  - intros i Hi. change (mlen (repeat 0 12 ++ [3;119;119;119;1;97;0] ++ [1;98;192;16])) with 23. exact Hi.
  - split; [repeat constructor; cbn; lia|cbn; lia].
Qed.

(* C02 -- the OPT record.  What AdditionalBuilder::opt does with
   the setter closure (Model.compose_opt) and with OptBuilder::clone_from
   transcribed step by step (Model.compose_opt_clone), exactly: both append
   the same record when it fits and fail without a trace otherwise, so a push
   through either is the same push. *)
From Coq Require Import NArith List Bool Lia.
From Coq Require Import ZifyN ZifyNat.
From DV Require Import Base.Outcome Base.Bytes Base.Names Base.PName C02.Gen C02.Model C02.ProofsBasic.
Import ListNotations.
Local Open Scope N_scope.

(* compose_opts is a chain of appends *)
Fixpoint opts_chunks (opts : list (N * N * bytes)) : list bytes :=
  match opts with [] => [] | (code, dlen, data) :: r => be16 code :: be16 dlen :: data :: opts_chunks r end.
Lemma opts_chunks_concat opts : concat (opts_chunks opts) = opts_bytes opts.
Proof. induction opts as [|[[code dlen] data] r IH]; [reflexivity|]. cbn [opts_chunks concat opts_bytes]. rewrite IH. reflexivity. Qed.
Lemma compose_opts_appends c opts : forall w, compose_opts c opts w = appends c (opts_chunks opts) w.
Proof.
  induction opts as [|[[code dlen] data] r IH]; intros w; [reflexivity|]. cbn [compose_opts opts_chunks appends].
  destruct (append_slice c (be16 code) w) as [w1| | |]; cbn [wbind]; auto.
  destruct (append_slice c (be16 dlen) w1) as [w2| | |]; cbn [wbind]; auto.
  destruct (append_slice c data w2) as [w3| | |]; cbn [wbind]; auto.
Qed.

(* the record an OPT push writes *)
Definition opt_rec (oh : opt_hdr) (opts : list (N * N * bytes)) : bytes :=
  [0] ++ be16 41 ++ be16 (oh_udp oh) ++ (be16 (oh_ext oh * 256 + oh_ver oh) ++ be16 (oh_flags oh)) ++
  be16 (mlen (opts_bytes opts)) ++ opts_bytes opts.

Lemma opt_rec_mlen oh opts : mlen (opt_rec oh opts) = 11 + mlen (opts_bytes opts).
Proof. unfold opt_rec. rewrite !mlen_app. unfold be16, mlen at 1 2 3 4 5 6. cbn [length]. lia. Qed.

(* overwriting octets of the appended part *)
Lemma set_buf_grown c w r r' : mlen r' = mlen r -> set_buf (grown c w r) (w_buf w ++ r') = grown c w r'.
Proof. intros L. unfold set_buf, grown; cbn [w_buf w_shim w_static w_tree w_hash]. rewrite !mlen_app, L. reflexivity. Qed.

(* the setter closure: OptBuilder::new, the three header patches, the
   options, the closing length patch *)
Theorem compose_opt_cases c oh opts w : TBound w -> SInv c w ->
  if fits c (mlen (w_buf w) + mlen (opt_rec oh opts)) && (mlen (opts_bytes opts) <=? rdlen_max)
  then compose_opt c oh opts w = WOk (grown c w (opt_rec oh opts))
  else exists x, compose_opt c oh opts w = WErr x /\ Ext c (mlen (w_buf w)) w x.
Proof.
  intros TB SI. rewrite opt_rec_mlen, N.add_assoc. set (st := mlen (w_buf w)). set (data := opts_bytes opts).
  evar (k : ws -> wres).
  assert (E : compose_opt c oh opts w = appends_then c [opt_header_default; [0; 0]] k w) by (subst k; reflexivity).
  rewrite E. clear E. pose proof (appends_then_cases c [[0; 0]] opt_header_default k w) as C.
  change (mlen (opt_header_default ++ concat [[0; 0]])) with 11 in C. fold st in C.
  destruct (fits c (st + 11)) eqn:F11.
  2:{ destruct C as (x & -> & G). replace (fits c (st + 11 + mlen data)) with false.
      - exists x. split; [reflexivity|apply Grew_Ext, G].
      - destruct (fits c (st + 11 + mlen data)) eqn:F; [|reflexivity]. apply (fits_mono c _ (st + 11)) in F; [congruence|lia]. }
  rewrite C. clear C. subst k. cbv beta zeta. fold st.
  set (x := oh_udp oh). set (y := oh_ext oh * 256 + oh_ver oh). set (z := oh_flags oh).
  set (w2 := grown c w (opt_header_default ++ concat [[0; 0]])).
  assert (L2 : mlen (w_buf w2) = st + 11) by (subst w2; cbn [grown w_buf]; rewrite mlen_app; reflexivity).
  set (r3 := [0; 0; 41; x / 256; x mod 256; y / 256; y mod 256; z / 256; z mod 256; 0; 0]).
  assert (E3 : set_buf w2 (patch16 (st + 7) z (patch16 (st + 5) y (patch16 (st + 3) x (w_buf w2)))) = grown c w r3).
  { change (w_buf w2) with (w_buf w ++ [0; 0; 41; 0; 0; 0; 0; 0; 0; 0; 0]). unfold st.
    rewrite !patch16_tail. apply set_buf_grown. reflexivity. }
  rewrite E3, L2. clear E3 L2.
  destruct (grown_spec c st w r3 TB F11) as (X3 & TB3 & SI3).
  assert (L3 : mlen (w_buf (grown c w r3)) = st + 11) by (cbn [grown w_buf]; rewrite mlen_app; reflexivity).
  assert (Back : forall w4, Ext c (mlen (w_buf (grown c w r3))) (grown c w r3) w4 ->
            exists x0, match truncate c (st + 11) w4 with WOk w5 => WErr w5 | other => other end = WErr x0 /\ Ext c st w x0).
  { intros w4 X4. rewrite <- L3, (truncate_back c _ w4 TB3 SI3 X4). eauto. }
  rewrite compose_opts_appends.
  pose proof (appends_cases c (opts_chunks opts) _ SI3) as C. rewrite opts_chunks_concat, L3 in C. fold data in C.
  destruct (fits c (st + 11 + mlen data)); cbn [andb].
  - rewrite (C F11), grown_grown. clear C. cbn [grown w_buf]. rewrite mlen_app.
    replace (mlen (w_buf w) + mlen (r3 ++ data) - (st + 11)) with (mlen data) by (rewrite mlen_app; change (mlen r3) with 11; lia).
    destruct (mlen data <=? rdlen_max).
    + f_equal. replace (st + 11 - 2) with (st + 9) by lia. unfold st.
      rewrite patch16_tail.
      apply (set_buf_grown c w (r3 ++ data)). reflexivity.
    + apply (Back (grown c w (r3 ++ data))). rewrite <- grown_grown. apply Grew_Ext, Grew_grown.
  - destruct (C F11) as (x0 & -> & G). apply Back, Grew_Ext, G.
Qed.

(* acn of the root name is one octet, whatever the compressor *)
Lemma acn_root c w : acn c [] w = append_slice c [0] w.
Proof. unfold acn. destruct (t_kind c); reflexivity. Qed.

(* the source record's own compose: owner, type, class = UDP size, the TTL
   word, RDLENGTH and the options *)
Definition clone_chain (oh : opt_hdr) (opts : list (N * N * bytes)) : list bytes :=
  [[0]; be16 41; be16 (oh_udp oh); be32 (oh_ttl oh); be16 (mlen (opts_bytes opts)); opts_bytes opts].

Lemma be32_opt_ttl e v d : e < 256 -> v < 256 -> d < 65536 ->
  be32 (e * 16777216 + v * 65536 + d) = be16 (e * 256 + v) ++ be16 d.
Proof. intros. unfold be32, be16. cbn [app]. f_equal; [|f_equal; [|f_equal; [|f_equal]]]; lia. Qed.

Lemma clone_chain_rec oh opts : oh_ver oh < 256 -> oh_flags oh < 65536 -> concat (clone_chain oh opts) = opt_rec oh opts.
Proof.
  intros Hv Hf. assert (He : oh_ext oh < 256) by (unfold oh_ext; destruct (oh_rc oh); lia).
  unfold clone_chain, opt_rec, oh_ttl. cbn [concat]. rewrite app_nil_r, (be32_opt_ttl _ _ _ He Hv Hf). reflexivity.
Qed.

(* truncate(pos) of a state that grew from w, pos at or behind the end of w's buffer *)
Lemma truncate_after c w x pos :
  TBound w -> mlen (w_buf w) <= pos -> Grew c w x -> (t_stream c = true -> pos <= 65535) ->
  exists w9, truncate c pos x = WOk w9 /\ Grew c w w9.
Proof.
  intros (TS & TT & TH) Lp ((sfx & B) & (a1 & a2 & a3) & Sh) Lmax. unfold truncate.
  set (b := firstn (N.to_nat pos) (w_buf x)).
  assert (Hb : exists sfx', b = w_buf w ++ sfx' /\ mlen b <= pos).
  { subst b. rewrite B, firstn_app. rewrite firstn_all2 by (unfold mlen in Lp; lia).
    eexists. split; [reflexivity|]. unfold mlen in *. rewrite app_length, firstn_length. lia. }
  destruct Hb as (sfx' & Eb & Lb).
  assert (W : forall A (f : A -> N) l, Forall (fun e => f e < mlen (w_buf w) /\ f e < 16384) l -> Forall (fun e => f e < pos /\ f e < 16384) l).
  { intros A f l. apply Forall_impl. intros; lia. }
  assert (TB : forall y, w_static y = w_static x -> w_tree y = w_tree x -> w_hash y = w_hash x ->
               trunc_tables pos y = mkWs (w_buf y) (w_shim y) (w_static w) (w_tree w) (w_hash w)).
  { intros y e1 e2 e3. apply trunc_tables_back; [apply (W _ (fun e => e)), TS|apply (W _ snd), TT|apply (W _ fst), TH| | |];
      exists []; rewrite ?app_nil_r; cbn [app]; (split; [congruence|constructor]). }
  destruct (t_stream c) eqn:St.
  - destruct (N.leb_spec (mlen b) shim_max) as [L|L]; [|unfold shim_max in L; specialize (Lmax eq_refl); lia].
    eexists. split; [reflexivity|]. rewrite TB by reflexivity.
    split; [exists sfx'; exact Eb|]. split; [repeat split|]. congruence.
  - eexists. split; [reflexivity|]. rewrite TB by reflexivity.
    split; [exists sfx'; exact Eb|]. split; [repeat split|]. intros _. apply Sh. reflexivity.
Qed.

Theorem compose_opt_clone_cases c oh opts w : TBound w -> SInv c w ->
  if fits c (mlen (w_buf w) + 11) && negb (mlen (opts_bytes opts) <=? rdlen_max)
  then compose_opt_clone c oh opts w = WPanic P_LONG_RDATA
  else if fits c (mlen (w_buf w) + mlen (concat (clone_chain oh opts)))
       then compose_opt_clone c oh opts w = WOk (grown c w (concat (clone_chain oh opts)))
       else exists x, compose_opt_clone c oh opts w = WErr x /\ Ext c (mlen (w_buf w)) w x.
Proof.
  intros TB SI. set (st := mlen (w_buf w)). set (data := opts_bytes opts). set (rec := concat (clone_chain oh opts)).
  assert (Lr : mlen rec = 11 + mlen data).
  { subst rec data. unfold clone_chain. cbn [concat]. rewrite app_nil_r, !mlen_app. unfold be16, be32, mlen at 1 2 3 4 5. cbn [length]. lia. }
  evar (k : ws -> wres).
  assert (E : compose_opt_clone c oh opts w = appends_then c [opt_header_default; [0; 0]] k w) by (subst k; reflexivity).
  rewrite E. clear E. pose proof (appends_then_cases c [[0; 0]] opt_header_default k w) as C.
  change (mlen (opt_header_default ++ concat [[0; 0]])) with 11 in C. fold st in C.
  destruct (fits c (st + 11)) eqn:F11; cbn [andb].
  2:{ destruct C as (x & -> & G). replace (fits c (st + mlen rec)) with false.
      - exists x. split; [reflexivity|apply Grew_Ext, G].
      - destruct (fits c (st + mlen rec)) eqn:F; [|reflexivity]. apply (fits_mono c _ (st + 11)) in F; [congruence|lia]. }
  rewrite C. clear C. subst k. cbv beta zeta. fold st data.
  set (w2 := grown c w (opt_header_default ++ concat [[0; 0]])).
  assert (L2 : mlen (w_buf w2) = st + 11) by (subst w2; cbn [grown w_buf]; rewrite mlen_app; reflexivity).
  pose proof (truncate_back c w w2 TB SI (Grew_Ext c _ _ _ (Grew_grown c w _))) as T. fold st in T. rewrite L2, T. clear T.
  destruct (N.leb_spec (mlen data) rdlen_max) as [Ld|Ld]; cbn [negb];
    [destruct (N.ltb_spec rdlen_max (mlen data)) as [X|_]; [lia|]|destruct (N.ltb_spec rdlen_max (mlen data)) as [_|X]; [reflexivity|lia]].
  rewrite acn_root.
  match goal with |- context [wbind (append_slice c [0] w) ?f] =>
    assert (E : wbind (append_slice c [0] w) f = appends c (clone_chain oh opts) w)
      by (rewrite <- (appends_snoc c (opts_bytes opts) [[0]; be16 41; be16 (oh_udp oh); be32 (oh_ttl oh); be16 (mlen (opts_bytes opts))]); reflexivity) end.
  rewrite E. clear E.
  pose proof (appends_cons_cases c (tl (clone_chain oh opts)) [0] w) as C.
  change ([0] ++ concat (tl (clone_chain oh opts))) with rec in C. change (appends c ([0] :: tl (clone_chain oh opts)) w) with (appends c (clone_chain oh opts) w) in C.
  fold st in C. destruct (fits c (st + mlen rec)).
  - rewrite C. cbn [grown w_buf]. rewrite mlen_app, Lr. fold st.
    destruct (N.ltb_spec (st + (11 + mlen data)) (st + 11)); [lia|].
    replace (st + (11 + mlen data) - (st + 11)) with (mlen data) by lia.
    destruct (N.leb_spec (mlen data) rdlen_max); [|lia]. f_equal.
    replace (st + 11 - 2) with (st + 9) by lia. unfold st. rewrite patch16_tail.
    apply (set_buf_grown c w rec). reflexivity.
  - destruct C as (x & -> & G).
    destruct (truncate_after c w x (st + 11) TB ltac:(lia) G (fits_shim c _ F11)) as (w9 & -> & G9).
    exists w9. split; [reflexivity|apply Grew_Ext, G9].
Qed.

Lemma compose_opt_spec c oh opts : WSpec c (compose_opt c oh opts).
Proof.
  intros w TB SI. pose proof (compose_opt_cases c oh opts w TB SI) as C. destruct (fits c _ && _) eqn:F.
  - rewrite C. apply andb_true_iff in F as [F _]. apply grown_spec; assumption.
  - destruct C as (x & -> & E). exact E.
Qed.

(* clone_from keeps the writer invariants, whatever the field values *)
Lemma compose_opt_clone_spec c oh opts : WSpec c (compose_opt_clone c oh opts).
Proof.
  intros w TB SI. pose proof (compose_opt_clone_cases c oh opts w TB SI) as C.
  destruct (_ && _); [rewrite C; exact I|]. destruct (fits c _) eqn:F.
  - rewrite C. apply grown_spec; assumption.
  - destruct C as (x & -> & E). exact E.
Qed.

Lemma opt_writer_spec c oh opts : WSpec c (opt_writer c oh opts).
Proof. unfold opt_writer. destruct (oh_hdr oh); [apply compose_opt_spec|apply compose_opt_clone_spec]. Qed.

(* the two closures do the same to a push *)
Theorem opt_push_eq c s oh opts :
  BW c s -> mlen (opts_bytes opts) <= 65535 ->
  oh_udp oh < 65536 -> oh_ver oh < 256 -> oh_flags oh < 65536 ->
  mb_push c s (compose_opt_clone c oh opts) = mb_push c s (compose_opt c oh opts).
Proof.
  intros HB Ld _ Hv Hf. pose proof HB as (TB & SI & _).
  pose proof (compose_opt_cases c oh opts (b_w s) TB SI) as A.
  pose proof (compose_opt_clone_cases c oh opts (b_w s) TB SI) as B.
  rewrite (clone_chain_rec oh opts Hv Hf) in B. apply N.leb_le in Ld. fold rdlen_max in Ld.
  rewrite Ld, andb_true_r in A. rewrite Ld, andb_false_r in B.
  unfold mb_push. destruct (fits c _).
  - rewrite A, B. reflexivity.
  - destruct A as (x & -> & Ea). destruct B as (y & -> & Eb). rewrite !fail_push_back by assumption. reflexivity.
Qed.

(* both closures as the writer of the step *)
Lemma opt_writer_push c s oh opts :
  BW c s -> mlen (opts_bytes opts) <= 65535 -> oh_udp oh < 65536 -> oh_ver oh < 256 -> oh_flags oh < 65536 ->
  mb_push c s (opt_writer c oh opts) = mb_push c s (compose_opt c oh opts).
Proof. intros. unfold opt_writer. destruct (oh_hdr oh); [reflexivity|apply opt_push_eq; auto]. Qed.

Lemma opt_writer_ok c oh opts w w' :
  TBound w -> SInv c w -> oh_ver oh < 256 -> oh_flags oh < 65536 ->
  opt_writer c oh opts w = WOk w' -> w' = grown c w (opt_rec oh opts) /\ mlen (opts_bytes opts) <= 65535.
Proof.
  intros TB SI Hv Hf H. unfold opt_writer in H. destruct (oh_hdr oh).
  - pose proof (compose_opt_cases c oh opts w TB SI) as C. destruct (fits c _ && _) eqn:F.
    + rewrite H in C. injection C as ->. apply andb_true_iff in F as [_ F]. apply N.leb_le in F. auto.
    + destruct C as (x & C & _). congruence.
  - pose proof (compose_opt_clone_cases c oh opts w TB SI) as C. rewrite (clone_chain_rec oh opts Hv Hf) in C.
    destruct (N.leb_spec (mlen (opts_bytes opts)) rdlen_max) as [L|L]; cbn [negb] in C.
    + rewrite andb_false_r in C. destruct (fits c _); [|destruct C as (x & C & _); congruence].
      rewrite H in C. injection C as ->. auto.
    + rewrite andb_true_r in C. destruct (fits c (mlen (w_buf w) + 11)) eqn:F11; [congruence|].
      destruct (fits c (mlen (w_buf w) + mlen (opt_rec oh opts))) eqn:F; [|destruct C as (x & C & _); congruence].
      apply (fits_mono c _ (mlen (w_buf w) + 11)) in F; [congruence|]. rewrite opt_rec_mlen. lia.
Qed.

Lemma opt_writer_nodead c oh opts w :
  TBound w -> SInv c w -> (oh_hdr oh = false -> mlen (opts_bytes opts) <= 65535) -> NoDead (opt_writer c oh opts w).
Proof.
  intros TB SI Hd. unfold opt_writer. destruct (oh_hdr oh).
  - pose proof (compose_opt_cases c oh opts w TB SI) as C.
    destruct (_ && _); [rewrite C; exact I|destruct C as (x & -> & _); exact I].
  - pose proof (compose_opt_clone_cases c oh opts w TB SI) as C.
    specialize (Hd eq_refl). apply N.leb_le in Hd. fold rdlen_max in Hd. rewrite Hd, andb_false_r in C.
    destruct (fits c _); [rewrite C; exact I|destruct C as (x & -> & _); exact I].
Qed.

Lemma restore_flag : opt_restores_rcode_on_err = true.
Proof. reflexivity. Qed.

Lemma set_hdr_eta s : set_hdr s (b_hdr s) = s.
Proof. destruct s; reflexivity. Qed.

(* a failed push leaves the whole builder state as it was (for the OPT push:
   because AdditionalBuilder::opt puts the header RCODE back, restore_flag) *)
Lemma step_err_unchanged c s o s' e :
  BW c s -> step c s o = (s', RErr e) -> s' = s.
Proof.
  intros HB H. unfold step in H. destruct o as [q|r|oh opts| | | |l|h]; cbn [step_gen] in H.
  - destruct (b_sec s =? 0); [|discriminate].
    destruct (mb_push_cases c s (compose_question c q) HB (compose_question_spec c q)) as [(w' & _ & E & _)|[(e' & E)|(x & E & D)]];
      rewrite E in H; try discriminate; injection H as <- _; reflexivity || (rewrite <- H in D; discriminate).
  - destruct (b_sec s =? 0); [discriminate|].
    destruct (mb_push_cases c s (compose_record c r) HB (compose_record_spec c r)) as [(w' & _ & E & _)|[(e' & E)|(x & E & D)]];
      rewrite E in H; try discriminate; injection H as <- _; reflexivity || (rewrite <- H in D; discriminate).
  - destruct (b_sec s =? 3); [|discriminate]. rewrite restore_flag in H.
    destruct (mb_push_cases c s (opt_writer c oh opts) HB (opt_writer_spec c oh opts)) as [(w' & _ & E & _)|[(e' & E)|(x & E & D)]];
      rewrite E in H; cbn [fst snd] in H.
    + injection H as _ X. discriminate.
    + injection H as <- _. apply set_hdr_eta.
    + injection H as _ X. rewrite X in D. discriminate.
  - destruct (b_sec s <? 3); discriminate.
  - destruct (b_sec s =? 0); [discriminate|]. destruct (rewind c s); discriminate.
  - destruct (rewind c s); discriminate.
  - discriminate.
  - discriminate.
Qed.

Lemma step_ok_inv c s o s' :
  BW c s -> step c s o = (s', ROk) ->
  Ext c (mlen (w_buf (b_w s))) (b_w s) (b_w s') /\
  limit_hit (mlen (w_buf (b_w s'))) (b_limit s) = false /\ count_of s < count_max.
Proof.
  intros HB HS.
  assert (X : forall f s1, WSpec c f -> mb_push c s f = (s1, ROk) ->
            Ext c (mlen (w_buf (b_w s))) (b_w s) (b_w s1) /\
            limit_hit (mlen (w_buf (b_w s1))) (b_limit s) = false /\ count_of s < count_max).
  { intros f s1 Hf E. destruct (mb_push_cases c s f HB Hf) as [(w' & _ & E' & EX & _ & _ & LH & Lc)|[(e' & E')|(x & E' & D)]];
      rewrite E' in E; try discriminate.
    - injection E as <-. destruct (upd_proj s w' (count_of s + 1)) as (-> & _). auto.
    - injection E as _ Ex. subst x. discriminate D. }
  unfold step in HS. destruct o as [q|rr|oh opts| | | |l0|h]; cbn [step_gen] in HS.
  - destruct (b_sec s =? 0); [|discriminate]. eapply X; [apply compose_question_spec|exact HS].
  - destruct (b_sec s =? 0); [discriminate|]. eapply X; [apply compose_record_spec|exact HS].
  - destruct (b_sec s =? 3); [|discriminate].
    destruct (mb_push c s (opt_writer c oh opts)) as [s1 r1] eqn:EM. cbn [fst snd] in HS.
    injection HS as <- ->. cbn [set_hdr b_w]. eapply X; [apply opt_writer_spec|exact EM].
  - destruct (b_sec s <? 3); discriminate.
  - destruct (b_sec s =? 0); [discriminate|]. destruct (rewind c s); discriminate.
  - destruct (rewind c s); discriminate.
  - discriminate.
  - discriminate.
Qed.

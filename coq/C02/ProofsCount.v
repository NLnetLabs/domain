(* C02 -- the counter ceiling.  Pushing n root questions into an
   unbounded target without compressor, through the step model, gives the
   numbers SchemaModel.c02_count computes by arithmetic: the count saturates at
   count_max (65535), push number count_max + 1 and every later one fails with
   CountOverflow and leaves the state as it was. *)
From Coq Require Import NArith List Bool Lia ZArith.
From Coq Require Import ZifyN ZifyNat.
From DV Require Import Base.Outcome Base.Bytes Base.Names Base.PName C02.Gen C02.Model C02.SchemaModel
  C02.ProofsBasic C02.ProofsClone C02.ProofsRun C02.ProofsName C02.ProofsComp C02.ProofsHash C02.ProofsTop
  C02.ProofsLayout C02.ProofsWrite C02.ProofsBuild C02.ProofsTotal C02.ProofsX C02.ProofsReuse.
Import ListNotations.
Local Open Scope N_scope.

Definition cfg_vec : tcfg := mkCfg None false KNone.
Definition rootq : question := mkQ [] 1 1.

Lemma cq_vec w : compose_question cfg_vec rootq w = WOk (set_buf w (w_buf w ++ [0; 0; 1; 0; 1])).
Proof.
  unfold compose_question, acn, append_slice, cfg_vec, rootq; cbn [t_kind t_cap t_stream q_name q_type q_class negb wbind].
  unfold set_buf; cbn [w_buf w_shim w_static w_tree w_hash]. rewrite <- !app_assoc. reflexivity.
Qed.

Definition CInvS (s : bstate) (a : acc) (k : N) : Prop :=
  BW cfg_vec s /\ CountInv s a /\ b_sec s = 0 /\ b_limit s = None /\ b_qd s = k /\
  mlen (w_buf (b_w s)) = 12 + 5 * k /\ k <= 65535.

Lemma set_count_limit s v : b_limit (set_count s v) = b_limit s.
Proof. unfold set_count. destruct (b_sec s =? 0); [|destruct (b_sec s =? 1); [|destruct (b_sec s =? 2)]]; reflexivity. Qed.
Lemma set_count_qd s v : b_sec s = 0 -> b_qd (set_count s v) = v.
Proof. intros E. unfold set_count. rewrite E. reflexivity. Qed.

Lemma step_count s a k : CInvS s a k ->
  exists s' w, step cfg_vec s (OpQ rootq) = (s', w) /\
    (if k <? 65535 then w = ROk /\ CInvS s' (acc_step 0 a (OpQ rootq) ROk) (k + 1)
     else w = RErr E_COUNT /\ s' = s).
Proof.
  intros (HB & HC & Hs & Hl & Hq & Hm & Hk).
  destruct (step cfg_vec s (OpQ rootq)) as [s' w] eqn:ES. exists s', w. split; [reflexivity|].
  pose proof ES as ES0.
  unfold step in ES. cbn [step_gen] in ES. rewrite Hs in ES. cbn [N.eqb] in ES.
  unfold mb_push in ES. rewrite cq_vec, Hl in ES. cbn [limit_hit] in ES.
  assert (Cn : count_of s = k) by (unfold count_of; rewrite Hs; exact Hq). rewrite Cn in ES.
  unfold count_max in ES.
  destruct (N.ltb_spec k 65535) as [L|L].
  - destruct (N.leb_spec 65535 k) as [X|_]; [lia|]. injection ES as <- <-. split; [reflexivity|].
    destruct (step_inv cfg_vec s a (OpQ rootq) _ _ HB HC ES0 eq_refl) as (HB' & HC'). rewrite Hs in HC'.
    destruct (upd_proj s (set_buf (b_w s) (w_buf (b_w s) ++ [0; 0; 1; 0; 1])) (k + 1)) as (P0 & P1 & _).
    split; [exact HB'|]. split; [exact HC'|]. split; [rewrite P1; exact Hs|].
    split; [rewrite set_count_limit; exact Hl|]. split; [apply set_count_qd; exact Hs|].
    split; [|lia]. rewrite P0. unfold set_buf; cbn [w_buf]. rewrite mlen_app, Hm. change (mlen [0; 0; 1; 0; 1]) with 5. lia.
  - destruct (N.leb_spec 65535 k) as [_|X]; [|lia].
    pose proof HB as (TB & SI & _). pose proof (compose_question_spec cfg_vec rootq (b_w s) TB SI) as S. rewrite cq_vec in S.
    destruct S as (E & _). rewrite (fail_push_back cfg_vec s _ E_COUNT HB E) in ES. injection ES as <- <-. auto.
Qed.

Lemma run_count : forall n s a k, CInvS s a k ->
  exists s' a' ws, run_acc cfg_vec s a (repeat (OpQ rootq) n) = (s', a', ws) /\
    CInvS s' a' (N.min (k + N.of_nat n) 65535) /\
    (n <> O -> last ws RNone = if 65535 <? k + N.of_nat n then RErr E_COUNT else ROk).
Proof.
  induction n as [|n IH]; intros s a k HI.
  - exists s, a, []. split; [reflexivity|]. pose proof HI as (_ & _ & _ & _ & _ & _ & Hk).
    replace (N.min (k + N.of_nat 0) 65535) with k by lia. split; [exact HI|]. congruence.
  - pose proof HI as (_ & _ & Hs & _ & _ & _ & Hk).
    destruct (step_count s a k HI) as (s1 & w & ES & Hw). cbn [repeat run_acc]. rewrite ES.
    destruct (N.ltb_spec k 65535) as [L|L].
    + destruct Hw as (-> & HI1). cbn [is_dead]. rewrite Hs.
      destruct (IH s1 _ (k + 1) HI1) as (s2 & a2 & ws & ER & HI2 & HL). rewrite ER.
      exists s2, a2, (ROk :: ws). split; [reflexivity|].
      replace (N.min (k + N.of_nat (S n)) 65535) with (N.min (k + 1 + N.of_nat n) 65535) by lia.
      split; [exact HI2|]. intros _. destruct n as [|n'].
      * cbn [repeat run_acc] in ER. injection ER as _ _ <-. cbn [last].
        destruct (N.ltb_spec 65535 (k + N.of_nat 1)); [lia|reflexivity].
      * specialize (HL ltac:(discriminate)). destruct ws as [|x ws']; [cbn [repeat run_acc] in ER; destruct (step cfg_vec s1 (OpQ rootq)) as [? ?]; destruct (is_dead _); [|destruct (run_acc _ _ _ _) as [[? ?] ?]]; discriminate|].
        change (last (ROk :: x :: ws') RNone) with (last (x :: ws') RNone). rewrite HL.
        replace (k + 1 + N.of_nat (S n')) with (k + N.of_nat (S (S n'))) by lia. reflexivity.
    + destruct Hw as (-> & ->). cbn [is_dead].
      assert (HI1 : CInvS s (acc_step (b_sec s) a (OpQ rootq) (RErr E_COUNT)) k) by exact HI.
      destruct (IH s _ k HI1) as (s2 & a2 & ws & ER & HI2 & HL). rewrite ER.
      exists s2, a2, (RErr E_COUNT :: ws). split; [reflexivity|].
      replace (N.min (k + N.of_nat (S n)) 65535) with (N.min (k + N.of_nat n) 65535) by lia.
      split; [exact HI2|]. intros _. destruct (N.ltb_spec 65535 (k + N.of_nat (S n))) as [_|X]; [|lia].
      destruct n as [|n'].
      * cbn [repeat run_acc] in ER. injection ER as _ _ <-. reflexivity.
      * specialize (HL ltac:(discriminate)). destruct ws as [|x ws']; [cbn [repeat run_acc] in ER; destruct (step cfg_vec s (OpQ rootq)) as [? ?]; destruct (is_dead _); [|destruct (run_acc _ _ _ _) as [[? ?] ?]]; discriminate|].
        change (last (RErr E_COUNT :: x :: ws') RNone) with (last (x :: ws') RNone). rewrite HL.
        destruct (N.ltb_spec 65535 (k + N.of_nat (S n'))); [reflexivity|lia].
Qed.

Lemma init_count s0 : init cfg_vec = Some s0 -> CInvS s0 acc0 0.
Proof.
  intros HI. destruct (init_inv cfg_vec s0 HI) as (HB & HC). split; [exact HB|]. split; [exact HC|].
  unfold init in HI. cbn in HI. injection HI as <-. cbn. repeat split; try reflexivity; lia.
Qed.

(* the arithmetic path of the driver is the step model *)
Theorem count_run_is_arith n s0 s a ws :
  init cfg_vec = Some s0 -> n <> O ->
  run_acc cfg_vec s0 acc0 (repeat (OpQ rootq) n) = (s, a, ws) ->
  c02_count (N.of_nat n) =
  (b_qd s, mlen (w_buf (b_w s)), match last ws RNone with RErr e => e =? E_COUNT | _ => false end).
Proof.
  intros HI Hn HR. destruct (run_count n s0 acc0 0 (init_count s0 HI)) as (s' & a' & ws' & ER & HI' & HL).
  rewrite HR in ER. injection ER as <- <- <-. specialize (HL Hn).
  destruct HI' as (_ & _ & _ & _ & Hq & Hm & _). rewrite N.add_0_l in *.
  unfold c02_count, count_max, header_len. rewrite Hq, Hm, HL.
  destruct (N.ltb_spec 65535 (N.of_nat n)); reflexivity.
Qed.

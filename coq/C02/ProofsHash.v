(* C02 -- the HashCompressor.  Entries are (head, tail) pairs; the
   right-to-left walk reaches a position at which the consumed labels are
   stored (up to ASCII case); the labels then written and their new entries
   are completed by the terminator.  At the end: none of the
   four compressors panics or runs out of fuel. *)
From Coq Require Import NArith List Bool Lia ZArith.
From Coq Require Import ZifyN ZifyNat.
From DV Require Import Base.Outcome Base.Bytes Base.Names Base.PName C02.Gen C02.Model
  C02.ProofsBasic C02.ProofsName C02.ProofsComp.
Import ListNotations.
Local Open Scope N_scope.

Lemma hash_find_some m ml es l pos h :
  hash_find m ml es l pos = Ok (Some h) ->
  exists hl, In (h, pos) es /\ label_at m ml h = Some hl /\ label_eq hl l = true.
Proof.
  induction es as [|[h0 t0] es IH]; cbn [hash_find]; [discriminate|].
  destruct (label_at m ml h0) as [hl|] eqn:EL; [|discriminate].
  destruct (label_eq hl l && (t0 =? pos)) eqn:E; intros H.
  - injection H as <-. apply andb_true_iff in E as [E1 E2]. apply N.eqb_eq in E2. subst t0.
    exists hl. split; [left; reflexivity|]. split; [exact EL|exact E1].
  - destruct (IH H) as (hl' & A & B & C). exists hl'. split; [right; exact A|]. split; [exact B|exact C].
Qed.

(* the position reached by the walk holds the consumed labels *)
Definition Reach (m : bytes) (ok : N -> Prop) (bound : N) (pos : N) (s : name) : Prop :=
  (pos = hash_root_pos /\ s = []) \/
  (pos <> hash_root_pos /\ pos < bound /\ pos < 16384 /\
   exists l0 r0 e, LabelAt m ok pos l0 r0 e /\ canon (l0 :: r0) = canon s).

Lemma hash_walk_ok m (ok : N -> Prop) bound es :
  Forall (fun e => fst e < bound /\ fst e < 16384) es ->
  Forall (fun e => HashOK m ok (fst e) (snd e)) es ->
  forall rl pos s pos' rest,
    Reach m ok bound pos s -> hash_walk m (mlen m) es rl pos = Ok (pos', rest) ->
    exists consumed, rl = consumed ++ rest /\ Reach m ok bound pos' (rev consumed ++ s).
Proof.
  intros HB HO. induction rl as [|l rl IH]; intros pos s pos' rest HR H; cbn [hash_walk] in H.
  - injection H as <- <-. exists []. split; [reflexivity|exact HR].
  - destruct (hash_find m (mlen m) es l pos) as [[h|]| | |] eqn:EF; try discriminate.
    + destruct (hash_find_some _ _ _ _ _ _ EF) as (hl & Hin & HLa & HEq).
      rewrite Forall_forall in HB, HO. pose proof (HB _ Hin) as [Hb1 Hb2]. pose proof (HO _ Hin) as (l0 & ls0 & e & HL & HT).
      cbn [fst snd] in *.
      pose proof HL as (Hv0 & _ & Hbt & _). rewrite (label_at_here _ _ _ Hv0 Hbt) in HLa. injection HLa as <-.
      assert (HR' : Reach m ok bound h (l :: s)).
      { right. unfold hash_root_pos. split; [lia|]. split; [exact Hb1|]. split; [exact Hb2|].
        exists l0, ls0, e. split; [exact HL|]. unfold canon. cbn [map]. f_equal; [apply label_eq_spec; exact HEq|].
        destruct HR as [[Hp ->]|(Hp & _ & _ & l1 & r1 & e1 & HL1 & Hc1)].
        - destruct HT as [[_ ->]|[Hne _]]; [reflexivity|congruence].
        - destruct HT as [[Ht _]|(_ & seg & e' & HN)]; [congruence|].
          destruct (NameIn_fun _ _ _ _ _ _ _ _ _ _ HN (LabelAt_name _ _ _ _ _ _ HL1)) as [-> _]. exact Hc1. }
      destruct (IH h (l :: s) pos' rest HR' H) as (consumed & -> & HR'').
      exists (l :: consumed). split; [reflexivity|]. cbn [rev]. rewrite <- app_assoc. exact HR''.
    + injection H as <- <-. exists []. split; [reflexivity|exact HR].
Qed.

(* the entries hash_write adds *)
Fixpoint hentries (head : N) (ls : list label) (position : N) : list (N * N) :=
  match ls with
  | [] => []
  | l :: ls' =>
      (if head <? hash_ptr_limit
       then [(head, match ls' with [] => position | _ => head + (N.of_nat (length l) + 1) end)] else [])
      ++ hentries (head + 1 + mlen l) ls' position
  end.

Lemma hash_write_ok c position : forall ls w w',
  hash_write c ls position w = WOk w' ->
  w_buf w' = w_buf w ++ wire_rel ls /\ w_hash w' = w_hash w ++ hentries (mlen (w_buf w)) ls position /\
  w_static w' = w_static w /\ w_tree w' = w_tree w.
Proof.
  induction ls as [|l ls' IH]; intros w w' H; cbn [hash_write] in H.
  - injection H as <-. cbn [hentries wire_rel map concat]. rewrite !app_nil_r. auto.
  - destruct (label_compose c l w) as [w1|w1| |] eqn:EL; cbn [wbind] in H; try discriminate.
    apply label_compose_ok in EL as [B1 (a1 & a2 & a3)].
    apply IH in H as (B2 & H2 & S2 & T2).
    assert (L1 : mlen (w_buf w1) = mlen (w_buf w) + 1 + mlen l) by (rewrite B1, mlen_app, mlen_cons; lia).
    cbn [hentries]. destruct (mlen (w_buf w) <? hash_ptr_limit);
      unfold set_hash in B2, H2, S2, T2; cbn [w_buf w_hash w_static w_tree] in B2, H2, S2, T2.
    + split; [rewrite B2, B1, <- app_assoc; unfold wire_rel; cbn [map concat]; reflexivity|].
      split; [rewrite H2, a3, L1, <- app_assoc; reflexivity|]. split; congruence.
    + split; [rewrite B2, B1, <- app_assoc; unfold wire_rel; cbn [map concat]; reflexivity|].
      split; [rewrite H2, a3, L1; reflexivity|]. split; congruence.
Qed.

(* once the terminator is in place every new entry is complete *)
Lemma hentries_ok m (ok : N -> Prop) bound position tail e :
  (position = hash_root_pos /\ tail = [] \/
   position <> hash_root_pos /\ exists seg e', NameIn m ok seg position tail e') ->
  forall ls p,
    Forall valid_label ls -> bytes_at m p (wire_rel ls) ->
    (forall i, p <= i < p + mlen (wire_rel ls) -> ok i) ->
    Term m ok bound (p + mlen (wire_rel ls)) tail e -> bound <= p ->
    Forall (fun x => HashOK m ok (fst x) (snd x)) (hentries p ls position).
Proof.
  intros HP. induction ls as [|l ls' IH]; intros p Hv Hb Ho Ht Hbd; cbn [hentries]; [constructor|].
  inversion Hv as [|? ? Hl Hv']; subst.
  rewrite mlen_wire_rel_cons in Ht, Ho.
  unfold wire_rel in Hb. cbn [map concat] in Hb. fold (wire_rel ls') in Hb.
  apply bytes_at_split in Hb as [Hb1 Hb2]. change (wire_label l) with (mlen l :: l) in Hb1.
  replace (mlen (wire_label l)) with (1 + mlen l) in Hb2 by (unfold wire_label; rewrite mlen_cons; reflexivity).
  assert (HN : forall seg, bound <= seg -> seg <= p + 1 + mlen l -> NameIn m ok seg (p + 1 + mlen l) (ls' ++ tail) e).
  { intros seg H1 H2. apply (NameIn_complete m ok bound tail e ls'); auto.
    - replace (p + 1 + mlen l) with (p + (1 + mlen l)) by lia. exact Hb2.
    - intros i Hi. apply Ho. lia.
    - replace (p + 1 + mlen l + mlen (wire_rel ls')) with (p + (1 + mlen l + mlen (wire_rel ls'))) by lia. exact Ht. }
  apply Forall_app. split.
  - destruct (N.ltb_spec p hash_ptr_limit) as [G|G]; [|constructor]. unfold hash_ptr_limit in G.
    constructor; [|constructor]. cbn [fst snd].
    exists l, (ls' ++ tail), e. split.
    + split; [exact Hl|]. split; [intros i Hi; apply Ho; lia|]. split; [exact Hb1|]. apply HN; lia.
    + destruct ls' as [|l2 ls2].
      * cbn [app]. destruct HP as [[-> ->]|[Hne HNm]]; [left; auto|right; auto].
      * right. destruct Hl as [Hl _]. unfold hash_root_pos. split; [lia|].
        exists p, e. replace (p + (N.of_nat (length l) + 1)) with (p + 1 + mlen l) by (unfold mlen; lia). apply HN; lia.
  - apply IH; auto.
    + replace (p + 1 + mlen l) with (p + (1 + mlen l)) by lia. exact Hb2.
    + intros i Hi. apply Ho. lia.
    + replace (p + 1 + mlen l + mlen (wire_rel ls')) with (p + (1 + mlen l + mlen (wire_rel ls'))) by lia. exact Ht.
    + lia.
Qed.

(* a failed lookup: no entry matches *)
Lemma hash_find_none m ml l pos : forall es,
  hash_find m ml es l pos = Ok None ->
  forall h hl, In (h, pos) es -> label_at m ml h = Some hl -> label_eq hl l = true -> False.
Proof.
  induction es as [|[h0 t0] es IH]; cbn [hash_find]; intros H h hl Hin HL HE; [destruct Hin|].
  destruct (label_at m ml h0) as [hl0|] eqn:EL; [|discriminate].
  destruct (label_eq hl0 l && (t0 =? pos)) eqn:E; [discriminate|].
  destruct Hin as [Hin|Hin]; [|eapply IH; eauto].
  injection Hin as -> ->. rewrite EL in HL. injection HL as ->. rewrite HE, N.eqb_refl in E. discriminate.
Qed.

(* the walk stops at a label that is not in the table *)
Lemma hash_walk_stop m ml es : forall rl pos pos' rest,
  hash_walk m ml es rl pos = Ok (pos', rest) ->
  match rest with [] => True | l :: _ => hash_find m ml es l pos' = Ok None end.
Proof.
  induction rl as [|l rl IH]; intros pos pos' rest H; cbn [hash_walk] in H.
  - injection H as <- <-. exact I.
  - destruct (hash_find m ml es l pos) as [[h|]| | |] eqn:EF; try discriminate.
    + eapply IH; eauto.
    + injection H as <- <-. exact EF.
Qed.

(* heads and tails of the new entries *)
Lemma hentries_facts m position : forall ls p,
  Forall valid_label ls -> bytes_at m p (wire_rel ls) ->
  (position < p \/ position = 65535) ->
  (forall h t, In (h, t) (hentries p ls position) ->
     p <= h /\ h < 16384 /\ (t = position \/ (h < t /\ t < 65535)) /\
     (t = position -> label_at m (mlen m) h = Some (last ls []))) /\
  (forall h1 h2 t, In (h1, t) (hentries p ls position) -> In (h2, t) (hentries p ls position) -> h1 = h2).
Proof.
  induction ls as [|l ls' IH]; intros p Hv Hb Hp; cbn [hentries]; [split; intros; contradiction|].
  inversion Hv as [|? ? Hl Hv']; subst. pose proof Hl as [Hl1 _].
  unfold wire_rel in Hb. cbn [map concat] in Hb. fold (wire_rel ls') in Hb.
  apply bytes_at_split in Hb as [Hb1 Hb2]. change (wire_label l) with (mlen l :: l) in Hb1.
  replace (mlen (wire_label l)) with (1 + mlen l) in Hb2 by (unfold wire_label; rewrite mlen_cons; reflexivity).
  replace (p + (1 + mlen l)) with (p + 1 + mlen l) in Hb2 by lia.
  destruct (IH (p + 1 + mlen l) Hv' Hb2 ltac:(lia)) as (F1 & F2).
  assert (G : forall h t, In (h, t) (if p <? hash_ptr_limit then [(p, match ls' with [] => position | _ :: _ => p + (N.of_nat (length l) + 1) end)] else []) ->
              h = p /\ p < 16384 /\ t = match ls' with [] => position | _ :: _ => p + 1 + mlen l end).
  { intros h t Hin. destruct (N.ltb_spec p hash_ptr_limit) as [G|G]; [|destruct Hin]. unfold hash_ptr_limit in G.
    destruct Hin as [Hin|[]]. injection Hin as <- <-. split; [reflexivity|]. split; [exact G|].
    destruct ls'; [reflexivity|unfold mlen; lia]. }
  split.
  - intros h t Hin. apply in_app_iff in Hin as [Hin|Hin].
    + destruct (G _ _ Hin) as (-> & Gp & Et). split; [lia|]. split; [exact Gp|].
      destruct ls' as [|l2 ls2].
      * split; [left; exact Et|]. intros _. cbn [last]. apply label_at_here; auto.
      * split; [right; unfold mlen in *; lia|]. intros Ep. exfalso. unfold mlen in *. lia.
    + destruct (F1 _ _ Hin) as (A & B & C & D). split; [lia|]. split; [exact B|]. split; [exact C|].
      intros Ep. rewrite (D Ep). destruct ls'; [destruct Hin|reflexivity].
  - intros h1 h2 t I1 I2. apply in_app_iff in I1, I2.
    destruct I1 as [I1|I1], I2 as [I2|I2].
    + destruct (G _ _ I1) as (-> & _). destruct (G _ _ I2) as (-> & _). reflexivity.
    + destruct (G _ _ I1) as (-> & Gp & Et). destruct (F1 _ _ I2) as (A & B & C & _).
      destruct ls' as [|l2 ls2]; [destruct I2|]. exfalso. unfold mlen in *. destruct C as [C|C]; lia.
    + destruct (G _ _ I2) as (-> & Gp & Et). destruct (F1 _ _ I1) as (A & B & C & _).
      destruct ls' as [|l2 ls2]; [destruct I1|]. exfalso. unfold mlen in *. destruct C as [C|C]; lia.
    + eapply F2; eauto.
Qed.

Lemma last_rev_hd (l : label) (r : list label) : last (rev (l :: r)) [] = l.
Proof. cbn [rev]. apply last_last. Qed.

Lemma label_at_app m x h l : label_at m (mlen m) h = Some l -> label_at (m ++ x) (mlen (m ++ x)) h = Some l.
Proof.
  unfold label_at. destruct (get m h) as [b|] eqn:Eg; [|discriminate].
  destruct ((b <=? 63) && (h + 1 + b <=? mlen m)) eqn:E; [|discriminate]. intros H.
  apply andb_true_iff in E as [E1 E2]. apply N.leb_le in E2.
  rewrite (get_app_l m x h) by (eapply get_some_lt; eauto). rewrite Eg, E1. rewrite mlen_app.
  destruct (N.leb_spec (h + 1 + b) (mlen m + mlen x)); [|lia]. cbn [andb].
  injection H as <-. f_equal. unfold slice. rewrite skipn_app, firstn_app.
  replace (N.to_nat (h + 1 + b - (h + 1)) - length (skipn (N.to_nat (h + 1)) m))%nat with 0%nat
    by (rewrite skipn_length; unfold mlen in *; lia).
  cbn [firstn]. rewrite app_nil_r. reflexivity.
Qed.

Lemma Forall_valid_rev (ls : name) : Forall valid_label ls -> Forall valid_label (rev ls).
Proof. intros H. apply Forall_forall. intros x Hx. apply in_rev in Hx. rewrite Forall_forall in H. auto. Qed.

Lemma canon_app a b : canon (a ++ b) = canon a ++ canon b.
Proof. unfold canon. apply map_app. Qed.
Lemma canon_rev a : canon (rev a) = rev (canon a).
Proof. unfold canon. apply map_rev. Qed.

Lemma hash_acn_ok c : AcnSpec c (hash_acn c).
Proof.
  intros ok n w w' Hv TB SI (CS & CT & CH & CU) Ho H. unfold hash_acn in H.
  destruct (hash_walk (w_buf w) (mlen (w_buf w)) (w_hash w) (rev n) hash_root_pos) as [[position rest]| | |] eqn:EW; try discriminate.
  set (b := w_buf w) in *. set (p := mlen b) in *.
  assert (HB : Forall (fun e => fst e < p /\ fst e < 16384) (w_hash w)) by (destruct TB as (_ & _ & X); exact X).
  destruct (hash_walk_ok b ok p (w_hash w) HB CH (rev n) hash_root_pos [] position rest) as (consumed & Erl & HR);
    [left; auto|exact EW|]. rewrite app_nil_r in HR.
  assert (En : n = rev rest ++ rev consumed).
  { rewrite <- (rev_involutive n), Erl, rev_app_distr. reflexivity. }
  assert (Hvw : Forall valid_label (rev rest)).
  { apply Forall_valid_rev in Hv. rewrite Erl in Hv. apply Forall_app in Hv as [_ Hv]. apply Forall_valid_rev. exact Hv. }
  match type of H with wbind ?x _ = _ => destruct x as [w1|w1| |] eqn:EH end; cbn [wbind] in H; try discriminate.
  apply hash_write_ok in EH as (B1 & H1 & S1 & T1). fold b p in B1, H1.
  set (t := p + mlen (wire_rel (rev rest))).
  assert (Lt : mlen (w_buf w1) = t) by (rewrite B1, mlen_app; reflexivity).
  assert (Okr : forall i, p <= i -> ok i) by exact Ho.
  (* the terminator *)
  assert (HT : exists tail e x, w_buf w' = w_buf w1 ++ x /\ w_hash w' = w_hash w1 /\ w_static w' = w_static w1 /\ w_tree w' = w_tree w1 /\
             e = mlen (w_buf w') /\ canon tail = canon (rev consumed) /\
             Term (w_buf w') ok p t tail e /\
             (position = hash_root_pos /\ tail = [] \/
              position <> hash_root_pos /\ exists seg e', NameIn (w_buf w') ok seg position tail e')).
  { destruct HR as [[Hp Hc]|(Hp & Hpb & Hp2 & l0 & r0 & e0 & HL & Hc)].
    - rewrite Hp in H. rewrite N.eqb_refl in H. apply append_slice_ok in H as [B2 (a1 & a2 & a3)].
      exists [], (mlen (w_buf w')), [0]. split; [exact B2|]. split; [exact a3|]. split; [exact a1|]. split; [exact a2|].
      split; [reflexivity|]. split; [rewrite Hc; reflexivity|].
      split; [|left; auto]. rewrite B2, mlen_app, Lt. rewrite <- Lt. apply Term_root_end. intros; apply Okr; lia.
    - destruct (N.eqb_spec position hash_root_pos) as [X|X]; [contradiction|].
      apply write_ptr_ok in H as [B2 (a1 & a2 & a3)]; [|exact Hp2|reflexivity].
      exists (l0 :: r0), (mlen (w_buf w')), [192 + position / 256; position mod 256].
      split; [exact B2|]. split; [exact a3|]. split; [exact a1|]. split; [exact a2|].
      split; [reflexivity|]. split; [exact Hc|].
      assert (HL1 : LabelAt (w_buf w1) ok position l0 r0 e0) by (rewrite B1; apply LabelAt_app; exact HL).
      split.
      + rewrite B2, mlen_app, Lt. rewrite <- Lt. eapply Term_ptr_end; eauto. intros; apply Okr; lia.
      + right. split; [exact X|]. exists position, e0. rewrite B2. apply NameIn_app. apply LabelAt_name. exact HL1. }
  destruct HT as (tail & e & x & B2 & a3 & a1 & a2 & -> & Hc & HTm & HP).
  assert (Bfull : w_buf w' = b ++ wire_rel (rev rest) ++ x) by (rewrite B2, B1, <- app_assoc; reflexivity).
  assert (Hbytes : bytes_at (w_buf w') p (wire_rel (rev rest))) by (rewrite Bfull; apply bytes_at_app).
  assert (Hokr : forall i, p <= i < p + mlen (wire_rel (rev rest)) -> ok i) by (intros; apply Okr; lia).
  split; [|exists (rev rest ++ tail); split; [rewrite En, !canon_app; f_equal; exact Hc
                                              |apply (NameIn_complete (w_buf w') ok p tail _ (rev rest) p p); auto; lia]].
  pose proof (hentries_ok (w_buf w') ok p position tail _ HP (rev rest) p Hvw Hbytes Hokr HTm (N.le_refl _)) as HE.
  rewrite Forall_forall in HE.
  apply (CInv_grow ok w w' _ Bfull (conj CS (conj CT (conj CH CU)))); rewrite ?a1, ?a2, ?a3, ?S1, ?T1, ?H1; auto.
  - intros h t0 Hin. apply in_app_iff in Hin as [Hin|Hin]; [left; exact Hin|right; exact (HE _ Hin)].
  - (* at most one entry per (label, tail) *)
    assert (Hpos : position < p \/ position = 65535).
    { destruct HR as [[Hp _]|(_ & Hpb & _)]; [right; exact Hp|left; exact Hpb]. }
    destruct (hentries_facts (w_buf w') position (rev rest) p Hvw Hbytes Hpos) as (F1 & F2).
    assert (Hold : forall h tt, In (h, tt) (w_hash w) -> h < p /\ (tt < p \/ tt = 65535) /\
                   forall lx, label_at (w_buf w') (mlen (w_buf w')) h = Some lx -> label_at b (mlen b) h = Some lx).
    { intros h tt Hin. rewrite Forall_forall in HB, CH. destruct (HB _ Hin) as [Hh _]. cbn [fst] in Hh.
      destruct (CH _ Hin) as (l0 & ls0 & e0 & HL0 & HT0). cbn [fst snd] in HL0, HT0.
      split; [exact Hh|]. split.
      - destruct HT0 as [[-> _]|(_ & seg & e' & HN)]; [right; reflexivity|left].
        apply NameIn_end_le in HN. fold b in HN. fold p in HN. lia.
      - intros lx Hl. destruct HL0 as (V & _ & Bt & _). pose proof (label_at_here _ _ _ V Bt) as X0. fold b in X0.
        rewrite Bfull in Hl. rewrite (label_at_app b _ h l0 X0) in Hl. rewrite X0. exact Hl. }
    (* an old and a new entry with the same tail: the new one ends the labels
       written, and the walk stopped because no old entry matched that label *)
    assert (Mixed : forall h1 h2 tt la lb, In (h1, tt) (w_hash w) -> In (h2, tt) (hentries p (rev rest) position) ->
              label_at (w_buf w') (mlen (w_buf w')) h1 = Some la -> label_at (w_buf w') (mlen (w_buf w')) h2 = Some lb ->
              lowers la = lowers lb -> False).
    { intros h1 h2 tt la lb I1 I2 L1 L2 E.
      destruct (Hold _ _ I1) as (Hh1 & Ht1 & X1). destruct (F1 _ _ I2) as (A & Bh & C & D).
      destruct C as [C|C]; [|lia]. subst tt. specialize (D eq_refl).
      destruct rest as [|lf rest']; [destruct I2|].
      rewrite last_rev_hd in D. rewrite D in L2. injection L2 as <-.
      pose proof (hash_walk_stop _ _ _ _ _ _ _ EW) as HS. cbn in HS.
      eapply (hash_find_none b (mlen b) lf position (w_hash w) HS h1 la); eauto.
      apply label_eq_spec. exact E. }
    intros h1 h2 tt la lb I1 I2 L1 L2 E.
    apply in_app_iff in I1, I2. destruct I1 as [I1|I1], I2 as [I2|I2].
    + destruct (Hold _ _ I1) as (_ & _ & X1). destruct (Hold _ _ I2) as (_ & _ & X2).
      apply (CU h1 h2 tt la lb); auto.
    + exfalso. eapply Mixed; eauto.
    + exfalso. eapply (Mixed h2 h1); eauto.
    + eapply F2; eauto.
Qed.

Theorem acn_ok c : AcnSpec c (acn c).
Proof.
  intros ok n w w' Hv TB SI CI Ho H. unfold acn in H. destruct (t_kind c).
  - eapply (none_acn_ok c); eauto.
  - eapply static_acn_ok; eauto.
  - eapply tree_acn_ok; eauto.
  - eapply hash_acn_ok; eauto.
Qed.

(* SliceLabelsIter terminates: a pointer must go below its segment *)
Lemma sli_loop_fuel m ml : forall f start seg, (N.to_nat seg < f)%nat -> sli_loop f m ml start seg <> SliFuel.
Proof.
  induction f as [|f IH]; intros start seg Hf; [lia|]. cbn [sli_loop].
  destruct (get m start) as [h|]; [|discriminate].
  destruct (h <=? 63); [destruct (ml <? start + h + 1); discriminate|].
  destruct (192 <=? h); [|discriminate].
  destruct (get m (start + 1)) as [c|]; [|discriminate].
  unfold sli_ptr_ge_segment. destruct (N.leb_spec seg (c + 256 * (h mod 64))); [discriminate|].
  apply IH. lia.
Qed.

Lemma labels_eq_sli_fuel m ml : forall a st, labels_eq_sli a m ml st <> None.
Proof.
  assert (F : forall st, sli_next m ml st <> SliFuel).
  { intros [[start seg]|]; [|discriminate]. unfold sli_next.
    destruct (ml <=? start); [discriminate|]. apply sli_loop_fuel. lia. }
  induction a as [|x a IH]; intros st; cbn [labels_eq_sli]; specialize (F st);
    destruct (sli_next m ml st) as [|y st'|]; try discriminate; try contradiction.
  destruct (label_eq x y); [apply IH|discriminate].
Qed.

Lemma static_acn_nodead c ls : forall w, NoDead (static_acn c ls w).
Proof.
  induction ls as [|l rest IH]; intros w; cbn [static_acn]; [apply append_slice_nodead|].
  assert (F : forall es, static_get (w_buf w) (mlen (w_buf w)) es (l :: rest) <> None).
  { induction es as [|e es IHe]; cbn [static_get]; [discriminate|].
    pose proof (labels_eq_sli_fuel (w_buf w) (mlen (w_buf w)) ((l :: rest) ++ [[]]) (Some (e, e))) as F.
    destruct (labels_eq_sli _ _ _ _) as [[|]|]; [discriminate|exact IHe|contradiction]. }
  specialize (F (w_static w)).
  destruct (static_get _ _ _ _) as [[pos|]|]; [apply append_slice_nodead| |contradiction].
  destruct (static_insert _ _).
  - apply NoDead_bind; [apply label_compose_nodead|intros; apply IH].
  - apply NoDead_bind; [apply write_labels_nodead|intros; apply append_slice_nodead].
Qed.

Lemma tree_acn_nodead c ls : forall w, NoDead (tree_acn c ls w).
Proof.
  induction ls as [|l rest IH]; intros w; cbn [tree_acn]; [apply append_slice_nodead|].
  destruct (tree_get _ _); [apply append_slice_nodead|].
  destruct (tree_insert _ _ _).
  - apply NoDead_bind; [apply label_compose_nodead|intros; apply IH].
  - apply NoDead_bind; [apply write_labels_nodead|intros; apply append_slice_nodead].
Qed.

(* the heads of the hash entries are readable *)
Lemma hash_walk_nopanic m (ok : N -> Prop) es :
  Forall (fun e => HashOK m ok (fst e) (snd e)) es ->
  forall rl pos, exists r, hash_walk m (mlen m) es rl pos = Ok r.
Proof.
  intros H.
  assert (F : forall l pos, exists r, hash_find m (mlen m) es l pos = Ok r).
  { intros l pos. induction H as [|[h t] es (l0 & ls0 & e & HL & _) _ IH]; cbn [hash_find]; [eauto|].
    cbn [fst] in HL. destruct HL as (Hv & _ & Hb & _). rewrite (label_at_here _ _ _ Hv Hb).
    destruct (label_eq l0 l && (t =? pos)); [eauto|exact IH]. }
  induction rl as [|l rl IH]; intros pos; cbn [hash_walk]; [eauto|].
  destruct (F l pos) as ([h|] & E); rewrite E; [apply IH|eauto].
Qed.

Lemma hash_write_nodead c position : forall ls w, NoDead (hash_write c ls position w).
Proof.
  induction ls as [|l r IH]; intros w; cbn [hash_write]; [exact I|].
  apply NoDead_bind; [apply label_compose_nodead|]. intros w1 _. destruct (_ <? hash_ptr_limit); apply IH.
Qed.

Lemma acn_nodead c (ok : N -> Prop) n w : CInv ok w -> NoDead (acn c n w).
Proof.
  intros (_ & _ & CH & _). unfold acn. destruct (t_kind c);
    [apply append_slice_nodead|apply static_acn_nodead|apply tree_acn_nodead|].
  unfold hash_acn. destruct (hash_walk_nopanic (w_buf w) ok (w_hash w) CH (rev n) hash_root_pos) as ([position rest] & E).
  rewrite E. apply NoDead_bind; [apply hash_write_nodead|].
  intros w1 _. destruct (position =? hash_root_pos); apply append_slice_nodead.
Qed.

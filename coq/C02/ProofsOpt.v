(* C02 -- typed EDNS options through C05's option table.
   An OPT record pushed with typed options (OptBuilder::push: code,
   compose_len, composed data) is stored so that C05's option iterator finds
   exactly these options in the record data, and C05's row for each code parses
   each option's data back to the value pushed. *)
From Coq Require Import NArith List Bool Lia ZArith.
From Coq Require Import ZifyN ZifyNat.
From DV Require Import C05.Schema C05.ProofsA C05.ProofsB C05.OptModel C05.ProofsE.
From DV Require C05.Model C05.ProofsF.
From DV Require Import Base.Outcome Base.Bytes Base.Names Base.PName C02.Gen C02.Model C02.SchemaModel
  C02.ProofsBasic C02.ProofsClone C02.ProofsRun C02.ProofsName C02.ProofsComp C02.ProofsHash C02.ProofsTop
  C02.ProofsLayout C02.ProofsWrite.
Import ListNotations.
Local Open Scope N_scope.

Definition wf_typed (o : N * value) : Prop :=
  fst o < 65536 /\ wf_value (C05.Model.option_schema (fst o)) (snd o) = true.

Definition plain_of (o : N * value) : edns_option := (fst o, opt_data o).

Lemma be2_be16 x : x < 65536 -> be 2 x = be16 x.
Proof. intros H. unfold be16. cbn [be app]. f_equal. lia. Qed.

Lemma opt_data_len o : wf_typed o -> len (opt_data o) <= 65535.
Proof.
  intros (_ & Hv). unfold wf_value in Hv. apply andb_true_iff in Hv as [Hv _]. apply andb_true_iff in Hv as [Hvv Ht].
  apply N.leb_le in Ht. unfold total_len in Ht. unfold opt_data, compose.
  rewrite <- (wf_fvals_any _ _ _ Hvv false). exact Ht.
Qed.

Lemma opts_bytes_frame l : Forall wf_typed l -> opts_bytes (typed_opts l) = opt_frame (map plain_of l).
Proof.
  induction 1 as [|o l Ho _ IH]; [reflexivity|].
  cbn [typed_opts map opts_bytes]. unfold opt_frame. cbn [map concat]. fold (opt_frame (map plain_of l)).
  unfold typed_opts in IH. rewrite IH. unfold raw_of_typed, frame1, plain_of. cbn [fst snd].
  rewrite be2_be16 by apply Ho. rewrite be2_be16 by (pose proof (opt_data_len o Ho); lia).
  rewrite <- !app_assoc. reflexivity.
Qed.

Lemma plain_wf l : Forall wf_typed l -> Forall wf_option (map plain_of l).
Proof.
  intros H. apply Forall_forall. intros x Hx. apply in_map_iff in Hx as (o & <- & Hin).
  rewrite Forall_forall in H. specialize (H o Hin). split; [apply H|]. cbn [plain_of snd]. apply opt_data_len. exact H.
Qed.

Theorem typed_options_reread c oh l w w' :
  WG c ok12 w -> 12 <= mlen (w_buf w) -> wf_oh oh -> Forall wf_typed l ->
  opt_writer c oh (typed_opts l) w = WOk w' ->
  WG c ok12 w' /\
  RAt (w_buf w') (mlen (w_buf w)) (opt_record oh (typed_opts l)) (mlen (w_buf w')) /\
  opt_iter (S (length l)) (w_buf w') (mlen (w_buf w) + 11) (mlen (w_buf w')) [] = Ok (map plain_of l) /\
  Forall (fun o => C05.Model.c05_optdata (fst o) (opt_data o) = Ok (snd o)) l.
Proof.
  intros HW L12 Hoh Hl H.
  destruct (wpost_ok _ _ _ _ (opt_writer_post c True oh _ w HW L12 Hoh (or_intror I)) H) as (HW' & HR & E).
  split; [exact HW'|]. split; [exact HR|]. split.
  - (* the framing *)
    rewrite E. cbn [grown w_buf].
    unfold opt_rec. rewrite (opts_bytes_frame l Hl).
    set (hd := [0] ++ be16 41 ++ be16 (oh_udp oh) ++ (be16 (oh_ext oh * 256 + oh_ver oh) ++ be16 (oh_flags oh)) ++ be16 (mlen (opt_frame (map plain_of l)))).
    replace (w_buf w ++ [0] ++ be16 41 ++ be16 (oh_udp oh) ++ (be16 (oh_ext oh * 256 + oh_ver oh) ++ be16 (oh_flags oh)) ++
             be16 (mlen (opt_frame (map plain_of l))) ++ opt_frame (map plain_of l))
      with ((w_buf w ++ hd) ++ opt_frame (map plain_of l) ++ []).
    2:{ unfold hd. rewrite app_nil_r, <- !app_assoc. reflexivity. }
    assert (Lh : len (w_buf w ++ hd) = mlen (w_buf w) + 11).
    { rewrite len_app. unfold hd, be16, len, mlen. rewrite !app_length. cbn [length]. lia. }
    rewrite <- Lh.
    pose proof (opt_iter_frame (map plain_of l) (S (length l)) (w_buf w ++ hd) [] [] (len (w_buf w ++ hd) + len (opt_frame (map plain_of l)))
                  (plain_wf l Hl) ltac:(rewrite map_length; lia) eq_refl) as P.
    cbn [rev app] in P.
    replace (mlen ((w_buf w ++ hd) ++ opt_frame (map plain_of l) ++ [])) with (len (w_buf w ++ hd) + len (opt_frame (map plain_of l))).
    + exact P.
    + rewrite app_nil_r. unfold mlen. fold (len ((w_buf w ++ hd) ++ opt_frame (map plain_of l))). rewrite !len_app. reflexivity.
  - (* every option's data, by C05's row for its code *)
    apply Forall_forall. intros o Hin. rewrite Forall_forall in Hl. destruct (Hl o Hin) as (_ & Hv).
    destruct (C05.ProofsF.option_parse_compose (fst o) (snd o) [] [] Hv) as (P & _).
    cbn [app] in P. rewrite app_nil_r in P. change (len []) with 0 in P. rewrite N.add_0_l in P.
    unfold C05.Model.c05_optdata, opt_data. exact P.
Qed.

(* the driver's entry point is the identity on typed options *)
Theorem typed_option_fixpoint o : wf_typed o -> c02_typed_option (raw_of_typed o) = (raw_of_typed o, true).
Proof.
  intros (_ & Hv). unfold c02_typed_option. destruct o as [code v]. unfold raw_of_typed at 1. cbn [fst snd].
  destruct (C05.ProofsF.option_parse_compose code v [] [] Hv) as (P & _).
  cbn [app] in P. rewrite app_nil_r in P. change (len []) with 0 in P. rewrite N.add_0_l in P.
  unfold C05.Model.c05_optdata, opt_data. cbn [fst snd]. rewrite P. reflexivity.
Qed.

(* the rows the harness still pushes with push_raw_option: edns-client-subnet
   (with its cross-field check), Extended DNS Error, CHAIN, DAU, EXPIRE.
   Their typed values satisfy the premises of typed_options_reread, and the
   theorem applied to a concrete push returns them. *)
Definition ex_opts : list (N * value) :=
  [ (8,  [VNum 1; VNum 24; VNum 0; VBytes [192; 0; 2]])      (* 192.0.2.0/24 *)
  ; (15, [VNum 15; VBytes [99; 97; 102; 233]])                (* EDE 15 with extra text *)
  ; (13, [VName [[101; 120]; [99; 111; 109]]])                (* CHAIN ex.com. *)
  ; (5,  [VBytes [8; 13]])                                    (* DAU *)
  ; (9,  [VBytes [0; 0; 14; 16]]) ].                          (* EXPIRE 3600 *)

Example ex_opts_wf : Forall wf_typed ex_opts.
Proof. unfold ex_opts. repeat constructor; cbn [fst]; try lia; vm_compute; reflexivity. Qed.

(* a value that breaks the cross-field check of edns-client-subnet (a bit set
   beyond the prefix) is not a typed option *)
Example ex_subnet_bad : ~ wf_typed (8, [VNum 1; VNum 23; VNum 0; VBytes [192; 0; 3]]).
Proof. intros (_ & H). vm_compute in H. discriminate. Qed.

(* the theorem applied to a concrete push into a fresh message (hash compressor):
   its premises hold, the push succeeds, and C05's iterator and rows return ex_opts *)
Example typed_options_example :
  let c := mkCfg None false KHash in
  let oh := mkOH 1232 None 0 32768 true in
  match init c with
  | Some s0 =>
      exists w', opt_writer c oh (typed_opts ex_opts) (b_w s0) = WOk w' /\
        opt_iter (S (length ex_opts)) (w_buf w') (mlen (w_buf (b_w s0)) + 11) (mlen (w_buf w')) [] = Ok (map plain_of ex_opts) /\
        Forall (fun o => C05.Model.c05_optdata (fst o) (opt_data o) = Ok (snd o)) ex_opts /\
        mlen (w_buf w') = 12 + 11 + 47
  | None => False
  end.
Proof.
  intros c oh. destruct (init c) as [s0|] eqn:HI; [|vm_compute in HI; discriminate].
  destruct (init_good c s0 HI) as (TB & SI & CI & L).
  assert (HW : WG c ok12 (b_w s0)) by (split; [exact TB|split; [exact SI|exact CI]]).
  destruct (opt_writer c oh (typed_opts ex_opts) (b_w s0)) as [w'| | |] eqn:E.
  2-4: (vm_compute in HI; injection HI as <-; vm_compute in E; discriminate).
  exists w'. split; [reflexivity|].
  assert (Hoh : wf_oh oh) by (unfold wf_oh, oh; cbn; lia).
  destruct (typed_options_reread c oh ex_opts (b_w s0) w' HW ltac:(lia) Hoh ex_opts_wf E) as (_ & _ & It & Fa).
  split; [exact It|]. split; [exact Fa|].
  vm_compute in HI. injection HI as <-. vm_compute in E. injection E as <-. reflexivity.
Qed.

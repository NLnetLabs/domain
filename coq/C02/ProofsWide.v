(* C02 -- the state theorems (failed push unchanged,
   table / count / stream-length invariants, push limit) without the "no
   panic" premise and for states reached through the composite operations
   (conversions, builder(), start_answer / start_error / request_axfr); an
   accepted push only appends octets; the four count fields of the message
   octets are the numbers of accepted pushes. *)
From Coq Require Import NArith List Bool Lia ZArith.
From Coq Require Import ZifyN ZifyNat.
From DV Require Import Base.Outcome Base.Bytes Base.Names Base.PName C02.Gen C02.Model
  C02.ProofsBasic C02.ProofsClone C02.ProofsRun C02.ProofsName C02.ProofsComp C02.ProofsHash C02.ProofsTop
  C02.ProofsLayout C02.ProofsWrite C02.ProofsBuild C02.ProofsTotal C02.ProofsX.
Import ListNotations.
Local Open Scope N_scope.

Theorem reachable_inv_total c ops s0 s a ws :
  init c = Some s0 -> Forall wf_op_sized ops -> run_acc c s0 acc0 ops = (s, a, ws) ->
  TBound (b_w s) /\ CountInv s a /\
  (t_stream c = true ->
     stream_of s = be16 (mlen (msg_of s)) ++ msg_of s /\ mlen (msg_of s) <= 65535).
Proof.
  intros HI Hwf HR. exact (reachable_inv c ops s0 s a ws HI HR (run_total c ops s0 s a ws HI Hwf HR)).
Qed.

Theorem failed_push_unchanged_total c ops s0 s a ws o s' e :
  init c = Some s0 -> Forall wf_op_sized ops -> run_acc c s0 acc0 ops = (s, a, ws) ->
  step c s o = (s', RErr e) -> s' = s.
Proof.
  intros HI Hwf HR. exact (failed_push_unchanged c ops s0 s a ws o s' e HI HR (run_total c ops s0 s a ws HI Hwf HR)).
Qed.

Theorem push_ok_below_limit_total c ops s0 s a ws o s' l :
  init c = Some s0 -> Forall wf_op_sized ops -> run_acc c s0 acc0 ops = (s, a, ws) ->
  step c s o = (s', ROk) -> b_limit s = Some l -> mlen (w_buf (b_w s')) < l.
Proof.
  intros HI Hwf HR. exact (push_ok_below_limit c ops s0 s a ws o s' l HI HR (run_total c ops s0 s a ws HI Hwf HR)).
Qed.

Theorem xreachable_inv c xs s0 s a ws lost :
  init c = Some s0 -> Forall wf_xop xs -> xrun c s0 acc0 xs = (s, a, ws, lost) ->
  TBound (b_w s) /\ CountInv s a /\
  (t_stream c = true ->
     stream_of s = be16 (mlen (msg_of s)) ++ msg_of s /\ mlen (msg_of s) <= 65535).
Proof.
  intros HI Hwf HR. destruct (xrun_is_run c xs s0 acc0 s a ws lost HR Hwf) as (ops & ws' & R & W).
  exact (reachable_inv_total c ops s0 s a ws' HI W R).
Qed.

Theorem xfailed_push_unchanged c xs s0 s a ws lost o s' e :
  init c = Some s0 -> Forall wf_xop xs -> xrun c s0 acc0 xs = (s, a, ws, lost) ->
  step c s o = (s', RErr e) -> s' = s.
Proof.
  intros HI Hwf HR. destruct (xrun_is_run c xs s0 acc0 s a ws lost HR Hwf) as (ops & ws' & R & W).
  exact (failed_push_unchanged_total c ops s0 s a ws' o s' e HI W R).
Qed.

Theorem xpush_ok_below_limit c xs s0 s a ws lost o s' l :
  init c = Some s0 -> Forall wf_xop xs -> xrun c s0 acc0 xs = (s, a, ws, lost) ->
  step c s o = (s', ROk) -> b_limit s = Some l -> mlen (w_buf (b_w s')) < l.
Proof.
  intros HI Hwf HR. destruct (xrun_is_run c xs s0 acc0 s a ws lost HR Hwf) as (ops & ws' & R & W).
  exact (push_ok_below_limit_total c ops s0 s a ws' o s' l HI W R).
Qed.

(* in every state an operation sequence reaches, an accepted push leaves all
   octets written so far where they are and only appends (the counts live in
   the first 12 octets, which msg_of overlays) *)
Theorem push_ok_appends c ops s0 s a ws o s' :
  init c = Some s0 -> Forall wf_op_sized ops -> run_acc c s0 acc0 ops = (s, a, ws) ->
  step c s o = (s', ROk) -> exists sfx, w_buf (b_w s') = w_buf (b_w s) ++ sfx.
Proof.
  intros HI Hwf HR HS. destruct (init_inv c s0 HI) as (HB0 & HC0).
  destruct (run_acc_inv c ops s0 acc0 s a ws HB0 HC0 HR (run_total c ops s0 s a ws HI Hwf HR)) as (HB & _).
  destruct (step_ok_inv c s o s' HB HS) as ([B _ _ _ _] & _). exact B.
Qed.

Lemma msg_count_octets s :
  firstn 8 (skipn 4 (msg_of s)) = be16 (b_qd s) ++ be16 (b_an s) ++ be16 (b_ns s) ++ be16 (b_ar s).
Proof.
  unfold msg_of. set (A := firstn 4 (b_hdr s ++ [0; 0; 0; 0])).
  assert (LA : length A = 4%nat).
  { unfold A. rewrite firstn_length, app_length. cbn [length]. lia. }
  rewrite skipn_app, LA, (skipn_all2 A) by lia. rewrite Nat.sub_diag, skipn_O.
  unfold be16. cbn [app firstn]. reflexivity.
Qed.

(* octets 4..11 of the finished message (QDCOUNT, ANCOUNT, NSCOUNT, ARCOUNT)
   are the numbers of accepted pushes of each section, whatever mix of
   primitive and composite operations built the message *)
Theorem xmsg_counts_are_accepted c xs s0 s a ws lost :
  init c = Some s0 -> Forall wf_xop xs -> xrun c s0 acc0 xs = (s, a, ws, lost) ->
  firstn 8 (skipn 4 (msg_of s)) =
  be16 (N.of_nat (length (a_q a))) ++ be16 (N.of_nat (length (a_an a))) ++
  be16 (N.of_nat (length (a_ns a))) ++ be16 (N.of_nat (length (a_ar a))).
Proof.
  intros HI Hwf HR. destruct (xreachable_inv c xs s0 s a ws lost HI Hwf HR) as (_ & (Q & A1 & A2 & A3 & _) & _).
  rewrite msg_count_octets, Q, A1, A2, A3. reflexivity.
Qed.

Theorem msg_counts_are_accepted c ops s0 s a ws :
  init c = Some s0 -> Forall wf_op_sized ops -> run_acc c s0 acc0 ops = (s, a, ws) ->
  firstn 8 (skipn 4 (msg_of s)) =
  be16 (N.of_nat (length (a_q a))) ++ be16 (N.of_nat (length (a_an a))) ++
  be16 (N.of_nat (length (a_ns a))) ++ be16 (N.of_nat (length (a_ar a))).
Proof.
  intros HI Hwf HR. destruct (reachable_inv_total c ops s0 s a ws HI Hwf HR) as (_ & (Q & A1 & A2 & A3 & _) & _).
  rewrite msg_count_octets, Q, A1, A2, A3. reflexivity.
Qed.

(* the first four operations of ex_ops (well formed: ex_ops_wf) on a stream
   target with the hash compressor: the next push fails on the limit, succeeds
   (appending 14 octets) once the limit is cleared; the count octets say one
   question, one answer *)
Lemma ex_prefix_wf : Forall wf_op_sized (firstn 4 ex_ops).
Proof.
  pose proof ex_ops_wf as H. rewrite <- (firstn_skipn 4 ex_ops) in H. apply Forall_app in H as [H _]. exact H.
Qed.

Example wide_example :
  let c := mkCfg None true KHash in
  let r := OpR (mkR ex_name1 1 1 5 false [RBytes [1;2;3;4]]) in
  match c02_run c (firstn 4 ex_ops) with
  | Some (s, a, ws) =>
      b_limit s = Some 50 /\ step c s r = (s, RErr E_LIMIT) /\
      (let s1 := fst (step c s (OpLimit None)) in
       snd (step c s1 r) = ROk /\
       w_buf (b_w (fst (step c s1 r))) = w_buf (b_w s1) ++ skipn (length (w_buf (b_w s1))) (w_buf (b_w (fst (step c s1 r)))) /\
       mlen (w_buf (b_w (fst (step c s1 r)))) = mlen (w_buf (b_w s1)) + 16) /\
      firstn 8 (skipn 4 (msg_of s)) = [0; 1; 0; 1; 0; 0; 0; 0]
  | None => False
  end.
Proof. vm_compute. repeat split; reflexivity. Qed.

(* a state reached through start_error (start_error_example of ProofsX.v): the
   record that does not fit fails and changes nothing, a push limit is obeyed,
   the count octets say two questions *)
Example xwide_example :
  let c := mkCfg (Some 38) false KStatic in
  let q1 := mkQ [[101;120]; [99;111;109]] 1 1 in
  let q2 := mkQ [[119;119;119]; [101;120]; [99;111;109]] 28 1 in
  let r := OpR (mkR [[101;120]; [99;111;109]] 1 1 5 false [RBytes [1;2;3;4]]) in
  match c02_xrun c [XPrim (OpHdr (sets_of_fields (fields_of_octets [0; 0; 4; 160]))); XStart 1 4660 2 true 3 [q1; q2; q1]] with
  | Some (s, a, ws, lost) =>
      step c s r = (s, RErr E_SHORTBUF) /\
      firstn 8 (skipn 4 (msg_of s)) = [0; 2; 0; 0; 0; 0; 0; 0] /\ length (a_q a) = 2%nat
  | None => False
  end.
Proof. vm_compute. repeat split; reflexivity. Qed.

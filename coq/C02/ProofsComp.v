(* C02 -- completion of a name from its labels and its
   terminator, the compressor invariant, and what append_compressed_name
   stores for the "no compressor", Tree and Static cases.  The Static lookup
   re-reads the buffer with SliceLabelsIter; a match means the stored name
   equals the wanted one up to ASCII case, and the labels of the name being
   written can never match (they are not yet terminated by a root label). *)
From Coq Require Import NArith PeanoNat List Bool Lia.
From Coq Require Import ZifyN ZifyNat.
From DV Require Import Base.Outcome Base.Bytes Base.Names Base.PName C02.Gen C02.Model
  C02.ProofsBasic C02.ProofsName.
Import ListNotations.
Local Open Scope N_scope.

(* a label with the rest of its name behind it *)
Definition LabelAt (m : bytes) (ok : N -> Prop) (p : N) (l : label) (ls : name) (e : N) : Prop :=
  valid_label l /\ (forall i, p <= i < p + 1 + mlen l -> ok i) /\
  bytes_at m p (mlen l :: l) /\ NameIn m ok p (p + 1 + mlen l) ls e.

Lemma LabelAt_name m ok p l ls e : LabelAt m ok p l ls e -> NameIn m ok p p (l :: ls) e.
Proof. intros (A & B & C & D). apply NI_label; auto. Qed.

Lemma LabelAt_weaken m (ok ok' : N -> Prop) p l ls e :
  (forall i, ok i -> ok' i) -> LabelAt m ok p l ls e -> LabelAt m ok' p l ls e.
Proof.
  intros W (A & B & C & D). split; [exact A|]. split; [intros; apply W, B; auto|]. split; [exact C|].
  eapply NameIn_weaken; eauto.
Qed.

Lemma bytes_at_agree m m' (ok : N -> Prop) p b :
  (forall i v, ok i -> get m i = Some v -> get m' i = Some v) ->
  (forall i, p <= i < p + mlen b -> ok i) -> bytes_at m p b -> bytes_at m' p b.
Proof.
  intros A O H k Hk. specialize (H k Hk). destruct (nth_error b k) eqn:E; [|apply nth_error_None in E; lia].
  apply A; auto. apply O. unfold mlen. lia.
Qed.

Lemma LabelAt_agree m m' (ok : N -> Prop) p l ls e :
  (forall i v, ok i -> get m i = Some v -> get m' i = Some v) ->
  LabelAt m ok p l ls e -> LabelAt m' ok p l ls e.
Proof.
  intros Ag (A & B & C & D). split; [exact A|]. split; [exact B|]. split.
  - eapply bytes_at_agree; eauto. intros i Hi. apply B. rewrite mlen_cons in Hi. lia.
  - eapply NameIn_agree; eauto.
Qed.

Lemma agree_app (ok : N -> Prop) m x : forall i v, ok i -> get m i = Some v -> get (m ++ x) i = Some v.
Proof. intros i v _ H. rewrite get_app_l; [exact H|]. eapply get_some_lt; eauto. Qed.

Lemma LabelAt_app m x (ok : N -> Prop) p l ls e : LabelAt m ok p l ls e -> LabelAt (m ++ x) ok p l ls e.
Proof. apply LabelAt_agree, agree_app. Qed.

Lemma bytes_at_app_l m x p b : bytes_at m p b -> bytes_at (m ++ x) p b.
Proof.
  apply (bytes_at_agree m _ (fun _ => True)); [apply agree_app|auto].
Qed.

(* what ends a name: the root octet, or a pointer to a stored label *)
Inductive Term (m : bytes) (ok : N -> Prop) (bound : N) (t : N) : name -> N -> Prop :=
| T_root : ok t -> get m t = Some 0 -> Term m ok bound t [] (t + 1)
| T_ptr q l ls e' :
    ok t -> ok (t + 1) -> get m t = Some (192 + q / 256) -> get m (t + 1) = Some (q mod 256) ->
    q < bound -> q < 16384 -> LabelAt m ok q l ls e' ->
    Term m ok bound t (l :: ls) (t + 2).

Lemma mlen_wire_rel_cons l r : mlen (wire_rel (l :: r)) = 1 + mlen l + mlen (wire_rel r).
Proof. unfold wire_rel. cbn [map concat]. unfold wire_label. rewrite mlen_app, mlen_cons. unfold mlen. lia. Qed.

Lemma bytes_at_split m p a b : bytes_at m p (a ++ b) <-> bytes_at m p a /\ bytes_at m (p + mlen a) b.
Proof.
  split.
  - intros H. split.
    + intros k Hk. rewrite (H k) by (rewrite app_length; lia). apply nth_error_app1. exact Hk.
    + intros k Hk. replace (p + mlen a + N.of_nat k) with (p + N.of_nat (length a + k)) by (unfold mlen; lia).
      rewrite (H (length a + k)%nat) by (rewrite app_length; lia).
      rewrite nth_error_app2 by lia. f_equal. lia.
  - intros [Ha Hb] k Hk. destruct (Nat.lt_ge_cases k (length a)) as [L|L].
    + rewrite (Ha k L). symmetry. apply nth_error_app1. exact L.
    + rewrite nth_error_app2 by exact L. rewrite app_length in Hk.
      specialize (Hb (k - length a)%nat ltac:(lia)). rewrite <- Hb. f_equal. unfold mlen. lia.
Qed.

Lemma bytes_at_wire_rel_cons m p l r :
  bytes_at m p (wire_rel (l :: r)) <-> bytes_at m p (mlen l :: l) /\ bytes_at m (p + 1 + mlen l) (wire_rel r).
Proof.
  unfold wire_rel. cbn [map concat]. rewrite bytes_at_split. unfold wire_label at 1 2. rewrite mlen_cons.
  replace (p + (1 + mlen l)) with (p + 1 + mlen l) by lia. reflexivity.
Qed.

(* labels followed by a terminator form a name, for every admissible segment start *)
Lemma NameIn_complete m (ok : N -> Prop) bound tail e : forall pre p seg,
  Forall valid_label pre -> bytes_at m p (wire_rel pre) ->
  (forall i, p <= i < p + mlen (wire_rel pre) -> ok i) ->
  Term m ok bound (p + mlen (wire_rel pre)) tail e -> bound <= seg -> seg <= p ->
  NameIn m ok seg p (pre ++ tail) e.
Proof.
  induction pre as [|l pre IH]; intros p seg Hv Hb Ho Ht Hs1 Hs2.
  - cbn [app]. change (mlen (wire_rel [])) with 0 in Ht. rewrite N.add_0_r in Ht.
    destruct Ht as [Ho' Hg | q l ls e' O0 O1 G0 G1 Hq Hq2 HL].
    + constructor; auto.
    + destruct HL as (A & B & C & D). eapply NI_ptr; eauto; lia.
  - inversion Hv as [|? ? Hl Hv']; subst. cbn [app].
    rewrite mlen_wire_rel_cons in Ht, Ho. apply bytes_at_wire_rel_cons in Hb as [Hb1 Hb2].
    apply NI_label; auto.
    + intros i Hi. apply Ho. lia.
    + apply IH; auto; try lia.
      * intros i Hi. apply Ho. lia.
      * replace (p + 1 + mlen l + mlen (wire_rel pre)) with (p + (1 + mlen l + mlen (wire_rel pre))) by lia. exact Ht.
Qed.

(* an uncompressed name *)
Lemma NameIn_wire a ls x (ok : N -> Prop) seg :
  Forall valid_label ls -> (forall i, mlen a <= i -> ok i) -> seg <= mlen a ->
  NameIn (a ++ wire_abs ls ++ x) ok seg (mlen a) ls (mlen a + mlen (wire_abs ls)).
Proof.
  intros Hv Ho Hs. rewrite <- (app_nil_r ls) at 2.
  assert (E : mlen (wire_abs ls) = mlen (wire_rel ls) + 1).
  { unfold wire_abs. rewrite mlen_app. reflexivity. }
  rewrite E. replace (mlen a + (mlen (wire_rel ls) + 1)) with (mlen a + mlen (wire_rel ls) + 1) by lia.
  apply (NameIn_complete _ ok 0 [] _ ls (mlen a) seg); auto; try lia.
  - unfold wire_abs. rewrite <- app_assoc. apply bytes_at_app.
  - intros i Hi. apply Ho. lia.
  - constructor; [apply Ho; lia|].
    unfold wire_abs. rewrite get_app_r by lia. rewrite <- app_assoc. rewrite get_app_r by (unfold mlen; lia).
    replace (mlen a + mlen (wire_rel ls) - mlen a - mlen (wire_rel ls)) with 0 by lia. reflexivity.
Qed.

(* labels written at the end of the buffer, then the root octet *)
Lemma NameIn_labels_root b (ok : N -> Prop) ls seg :
  Forall valid_label ls -> (forall i, mlen b <= i -> ok i) -> seg <= mlen b ->
  NameIn (b ++ wire_rel ls ++ [0]) ok seg (mlen b) ls (mlen (b ++ wire_rel ls ++ [0])).
Proof.
  intros Hv Ho Hs. pose proof (NameIn_wire b ls [] ok seg Hv Ho Hs) as H.
  unfold wire_abs in H. rewrite app_nil_r in H. rewrite !mlen_app. rewrite mlen_app in H. exact H.
Qed.

Definition StaticOK (m : bytes) (ok : N -> Prop) (v : N) : Prop :=
  exists l ls e, LabelAt m ok v l ls e.
Definition TreeOK (m : bytes) (ok : N -> Prop) (k : name) (v : N) : Prop :=
  exists l ls e, k = l :: ls /\ LabelAt m ok v l ls e.
(* a hash entry: the label at head, and tail = position of the rest of the
   name (0xFFFF for the root) *)
Definition HashOK (m : bytes) (ok : N -> Prop) (h t : N) : Prop :=
  exists l ls e, LabelAt m ok h l ls e /\
    ((t = hash_root_pos /\ ls = []) \/
     (t <> hash_root_pos /\ exists seg e', NameIn m ok seg t ls e')).

Lemma label_at_here m p l :
  valid_label l -> bytes_at m p (mlen l :: l) -> label_at m (mlen m) p = Some l.
Proof.
  intros [Hl Hw] Hb. unfold label_at.
  pose proof Hb as Hb0. apply bytes_at_cons in Hb0 as [Hg Hb1]. rewrite Hg.
  pose proof (bytes_at_end m p (mlen l :: l) ltac:(discriminate) Hb) as He. rewrite mlen_cons in He.
  destruct (N.leb_spec (mlen l) 63); [|unfold mlen in *; lia].
  destruct (N.leb_spec (p + 1 + mlen l) (PName.mlen m)); [|lia]. cbn [andb].
  rewrite (slice_bytes_at m (p + 1) l Hb1). reflexivity.
Qed.

(* at most one hash entry per (label up to ASCII case, tail): what makes
   HashTable::find's answer independent of the probe order *)
Definition HU (m : bytes) (es : list (N * N)) : Prop :=
  forall h1 h2 t la lb, In (h1, t) es -> In (h2, t) es ->
    label_at m (mlen m) h1 = Some la -> label_at m (mlen m) h2 = Some lb -> lowers la = lowers lb -> h1 = h2.

Definition CInv (ok : N -> Prop) (w : ws) : Prop :=
  Forall (StaticOK (w_buf w) ok) (w_static w) /\
  Forall (fun kv => TreeOK (w_buf w) ok (fst kv) (snd kv)) (w_tree w) /\
  Forall (fun e => HashOK (w_buf w) ok (fst e) (snd e)) (w_hash w) /\
  HU (w_buf w) (w_hash w).

Section Transfer.
Variables (m m' : bytes) (ok ok' : N -> Prop).
Hypothesis HL : forall p l ls e, LabelAt m ok p l ls e -> LabelAt m' ok' p l ls e.
Hypothesis HN : forall seg p ls e, NameIn m ok seg p ls e -> NameIn m' ok' seg p ls e.

Lemma StaticOK_transfer v : StaticOK m ok v -> StaticOK m' ok' v.
Proof. intros (l & ls & e & H). exists l, ls, e. auto. Qed.
Lemma TreeOK_transfer k v : TreeOK m ok k v -> TreeOK m' ok' k v.
Proof. intros (l & ls & e & K & H). exists l, ls, e. auto. Qed.
Lemma HashOK_transfer h t : HashOK m ok h t -> HashOK m' ok' h t.
Proof.
  intros (l & ls & e & H & T). exists l, ls, e. split; [auto|].
  destruct T as [T|(T1 & seg & e' & T2)]; [left; exact T|right]. split; auto. exists seg, e'. auto.
Qed.

(* uniqueness carries over when the entries read the same labels *)
Lemma HU_transfer es es' :
  incl es' es -> Forall (fun e => HashOK m ok (fst e) (snd e)) es' -> HU m es -> HU m' es'.
Proof.
  intros I F U h1 h2 t la lb I1 I2 L1 L2 E.
  rewrite Forall_forall in F.
  assert (X : forall h lx, In (h, t) es' -> label_at m' (mlen m') h = Some lx -> label_at m (mlen m) h = Some lx).
  { intros h lx Hin Hl. destruct (F (h, t) Hin) as (l & ls & e & HLa & _). cbn [fst] in HLa.
    pose proof (HL _ _ _ _ HLa) as HLb.
    destruct HLa as (V & _ & B & _). destruct HLb as (_ & _ & B' & _).
    rewrite (label_at_here _ _ _ V B') in Hl. rewrite (label_at_here _ _ _ V B). exact Hl. }
  apply (U h1 h2 t la lb); auto.
Qed.
End Transfer.

Lemma CInv_map ok ok' w w' :
  (forall p l ls e, LabelAt (w_buf w) ok p l ls e -> LabelAt (w_buf w') ok' p l ls e) ->
  (forall seg p ls e, NameIn (w_buf w) ok seg p ls e -> NameIn (w_buf w') ok' seg p ls e) ->
  same_tables w w' -> CInv ok w -> CInv ok' w'.
Proof.
  intros HL HN (a1 & a2 & a3) (A & B & C & U). unfold CInv. rewrite a1, a2, a3. split; [|split; [|split]].
  - eapply Forall_impl; [|exact A]. apply StaticOK_transfer, HL.
  - eapply Forall_impl; [|exact B]. intros [k v]. apply TreeOK_transfer, HL.
  - eapply Forall_impl; [|exact C]. intros [h t]. apply HashOK_transfer; assumption.
  - eapply HU_transfer; [exact HL|apply incl_refl|exact C|exact U].
Qed.

Lemma CInv_agree (ok : N -> Prop) w w' :
  (forall i v, ok i -> get (w_buf w) i = Some v -> get (w_buf w') i = Some v) ->
  same_tables w w' -> CInv ok w -> CInv ok w'.
Proof.
  intros Ag. apply CInv_map; intros.
  - eapply LabelAt_agree; eauto.
  - eapply NameIn_agree; eauto.
Qed.

Lemma CInv_app ok w w' x : w_buf w' = w_buf w ++ x -> same_tables w w' -> CInv ok w -> CInv ok w'.
Proof. intros B. apply CInv_agree. rewrite B. apply agree_app. Qed.

Lemma CInv_weaken (ok ok' : N -> Prop) w : (forall i, ok i -> ok' i) -> CInv ok w -> CInv ok' w.
Proof.
  intros W. apply CInv_map; [| |repeat split]; intros.
  - eapply LabelAt_weaken; eauto.
  - eapply NameIn_weaken; eauto.
Qed.

(* everything read lies below the end of the buffer *)
Lemma CInv_below (ok : N -> Prop) w : CInv ok w -> CInv (fun i => ok i /\ i < mlen (w_buf w)) w.
Proof.
  apply CInv_map; [| |repeat split]; [|intros; apply NameIn_below; assumption].
  intros p l ls e (A & B & C & D). split; [exact A|]. split; [|split; [exact C|apply NameIn_below; exact D]].
  intros i Hi. split; [apply B; exact Hi|].
  pose proof (bytes_at_end _ p (mlen l :: l) ltac:(discriminate) C) as He. rewrite mlen_cons in He. lia.
Qed.

(* after a write that only appended octets: old entries stay what they were,
   so it is enough that the new ones are described *)
Lemma CInv_grow ok w w' sfx :
  w_buf w' = w_buf w ++ sfx -> CInv ok w ->
  (forall v, In v (w_static w') -> In v (w_static w) \/ StaticOK (w_buf w') ok v) ->
  (forall k v, In (k, v) (w_tree w') -> In (k, v) (w_tree w) \/ TreeOK (w_buf w') ok k v) ->
  (forall h t, In (h, t) (w_hash w') -> In (h, t) (w_hash w) \/ HashOK (w_buf w') ok h t) ->
  HU (w_buf w') (w_hash w') -> CInv ok w'.
Proof.
  intros B CI Hs Ht Hh U.
  destruct (CInv_app ok w (set_buf w (w_buf w')) sfx B ltac:(repeat split) CI) as (A1 & A2 & A3 & _).
  cbn [set_buf w_buf w_static w_tree w_hash] in A1, A2, A3. rewrite Forall_forall in A1, A2, A3.
  split; [|split; [|split; [|exact U]]]; apply Forall_forall.
  - intros v Hv. destruct (Hs v Hv); auto.
  - intros [k v] Hv. destruct (Ht k v Hv) as [X|X]; [exact (A2 _ X)|exact X].
  - intros [h t] Hv. destruct (Hh h t Hv) as [X|X]; [exact (A3 _ X)|exact X].
Qed.

(* what Composer::append_compressed_name must guarantee *)
Definition AcnSpec (c : tcfg) (f : name -> ws -> wres) : Prop :=
  forall (ok : N -> Prop) n w w',
    Forall valid_label n -> TBound w -> SInv c w -> CInv ok w ->
    (forall i, mlen (w_buf w) <= i -> ok i) ->
    f n w = WOk w' ->
    CInv ok w' /\ exists n', canon n' = canon n /\
      NameIn (w_buf w') ok (mlen (w_buf w)) (mlen (w_buf w)) n' (mlen (w_buf w')).

Lemma none_acn_ok c : AcnSpec c (fun n w => append_slice c (wire_abs n) w).
Proof.
  intros ok n w w' Hv TB SI CI Ho H. apply append_slice_ok in H as [B T].
  split; [eapply CInv_app; eauto|]. exists n. split; [reflexivity|].
  rewrite B, mlen_app. rewrite <- (app_nil_r (wire_abs n)) at 1. apply NameIn_wire; auto. lia.
Qed.

(* pos | 0xC000 for a 14 bit pos: the operands have no bit in common *)
Lemma lor_ptr_tag q : q < 16384 -> N.lor q 49152 = q + 49152.
Proof.
  intros Hq. assert (H : N.land q 49152 = 0).
  { apply N.bits_inj. intros n. rewrite N.land_spec, N.bits_0.
    destruct (N.lt_ge_cases n 14) as [L|L].
    - change 49152 with (3 * 2 ^ 14). rewrite (N.mul_pow2_bits_low 3 14 n L). apply andb_false_r.
    - rewrite <- (N.mod_small q (2 ^ 14)) by exact Hq.
      rewrite N.mod_pow2_bits_high by exact L. reflexivity. }
  rewrite <- (N.lxor_lor _ _ H). symmetry. apply N.add_nocarry_lxor. exact H.
Qed.

Lemma write_ptr_ok c tag q w w' : q < 16384 -> tag = 49152 ->
  write_ptr c tag q w = WOk w' ->
  w_buf w' = w_buf w ++ [192 + q / 256; q mod 256] /\ same_tables w w'.
Proof.
  intros Hq -> H. unfold write_ptr in H. apply append_slice_ok in H as [B T]. split; [|exact T].
  rewrite B, (lor_ptr_tag q Hq). unfold be16. f_equal. f_equal; [|f_equal]; lia.
Qed.

(* a pointer written at the end of the buffer terminates a name *)
Lemma Term_ptr_end b (ok : N -> Prop) bound q l ls e' :
  (forall i, mlen b <= i -> ok i) -> q < bound -> q < 16384 -> LabelAt b ok q l ls e' ->
  Term (b ++ [192 + q / 256; q mod 256]) ok bound (mlen b) (l :: ls) (mlen b + 2).
Proof.
  intros Ho Hq Hq2 HL. eapply T_ptr; eauto; try (apply Ho; lia).
  - rewrite get_app_r by lia. replace (mlen b - mlen b) with 0 by lia. reflexivity.
  - rewrite get_app_r by lia. replace (mlen b + 1 - mlen b) with 1 by lia. reflexivity.
  - apply LabelAt_app. exact HL.
Qed.

Lemma Term_root_end b (ok : N -> Prop) bound :
  (forall i, mlen b <= i -> ok i) -> Term (b ++ [0]) ok bound (mlen b) [] (mlen b + 1).
Proof.
  intros Ho. constructor; [apply Ho; lia|]. rewrite get_app_r by lia. replace (mlen b - mlen b) with 0 by lia. reflexivity.
Qed.

(* the Static and Tree loops write the name label by label.  While they
   run, entries at or above b0 (where the name started) point into the name
   being written. *)

(* from w to w' the name ls was written, readable with every segment start
   from b0 to where it begins *)
Definition Wrote (ok : N -> Prop) (b0 : N) (w w' : ws) (ls : name) : Prop :=
  (forall seg, b0 <= seg <= mlen (w_buf w) ->
     NameIn (w_buf w') ok seg (mlen (w_buf w)) ls (mlen (w_buf w'))) /\
  exists sfx, w_buf w' = w_buf w ++ sfx.

Section Wrote.
Variables (ok : N -> Prop) (b0 : N) (w w' : ws).
Hypothesis Ho : forall i, b0 <= i -> ok i.
Hypothesis Hb0 : b0 <= mlen (w_buf w).

Lemma Wrote_labels_root ls : Forall valid_label ls -> w_buf w' = w_buf w ++ wire_rel ls ++ [0] -> Wrote ok b0 w w' ls.
Proof.
  intros Hv B. split; [|eexists; exact B]. intros seg Hs. rewrite B.
  apply NameIn_labels_root; auto; [intros; apply Ho; lia|lia].
Qed.

Lemma Wrote_root : w_buf w' = w_buf w ++ [0] -> Wrote ok b0 w w' [].
Proof. apply (Wrote_labels_root []). constructor. Qed.

Lemma Wrote_ptr pos l ls e : LabelAt (w_buf w) ok pos l ls e -> pos < b0 -> pos < 16384 ->
  w_buf w' = w_buf w ++ [192 + pos / 256; pos mod 256] -> Wrote ok b0 w w' (l :: ls).
Proof.
  intros HL Hp Hp2 B. split; [|eexists; exact B]. intros seg Hs.
  rewrite B, mlen_app. change (mlen [192 + pos / 256; pos mod 256]) with 2.
  apply (NameIn_complete _ ok b0 (l :: ls) _ [] (mlen (w_buf w)) seg); try lia.
  - constructor.
  - intros k Hk. cbn in Hk. lia.
  - change (mlen (wire_rel [])) with 0. intros; lia.
  - change (mlen (wire_rel [])) with 0. rewrite N.add_0_r. eapply Term_ptr_end; eauto. intros; apply Ho; lia.
Qed.

Lemma Wrote_cons w1 l rest : valid_label l -> w_buf w1 = w_buf w ++ (mlen l :: l) -> Wrote ok b0 w1 w' rest ->
  Wrote ok b0 w w' (l :: rest) /\ LabelAt (w_buf w') ok (mlen (w_buf w)) l rest (mlen (w_buf w')).
Proof.
  intros Hl B1 (N1 & sfx & X1).
  assert (L1 : mlen (w_buf w1) = mlen (w_buf w) + 1 + mlen l) by (rewrite B1, mlen_app, mlen_cons; lia).
  assert (Hb : bytes_at (w_buf w') (mlen (w_buf w)) (mlen l :: l)) by (rewrite X1, B1, <- app_assoc; apply bytes_at_app).
  assert (Hok : forall i, mlen (w_buf w) <= i < mlen (w_buf w) + 1 + mlen l -> ok i) by (intros; apply Ho; lia).
  split; [split|].
  - intros seg Hs. apply NI_label; auto. rewrite <- L1. apply N1. lia.
  - exists ((mlen l :: l) ++ sfx). rewrite X1, B1, <- app_assoc. reflexivity.
  - split; [exact Hl|]. split; [exact Hok|]. split; [exact Hb|]. rewrite <- L1. apply N1. lia.
Qed.
End Wrote.

Lemma tree_get_some t k v : tree_get t k = Some v -> In (k, v) t.
Proof.
  induction t as [|[k' v'] t IH]; cbn [tree_get]; [discriminate|].
  destruct (labels_eqb k' k) eqn:E; intros H.
  - injection H as <-. apply labels_eqb_eq in E. subst. left. reflexivity.
  - right. auto.
Qed.

Lemma TreeOK_app m x (ok : N -> Prop) k v : TreeOK m ok k v -> TreeOK (m ++ x) ok k v.
Proof. apply TreeOK_transfer. intros. apply LabelAt_app. assumption. Qed.
Lemma StaticOK_app m x (ok : N -> Prop) v : StaticOK m ok v -> StaticOK (m ++ x) ok v.
Proof. apply StaticOK_transfer. intros. apply LabelAt_app. assumption. Qed.

(* the Tree loop: entries at or above b0 have keys longer than what is still
   to be written, so a lookup never finds them *)
Lemma tree_acn_name c (ok : N -> Prop) b0 : forall ls w w',
  Forall valid_label ls -> b0 <= mlen (w_buf w) -> (forall i, b0 <= i -> ok i) ->
  Forall (fun kv => snd kv < 16384) (w_tree w) ->
  (forall k v, In (k, v) (w_tree w) -> v < b0 -> TreeOK (w_buf w) ok k v) ->
  (forall k v, In (k, v) (w_tree w) -> b0 <= v -> (length ls < length k)%nat) ->
  tree_acn c ls w = WOk w' ->
  Wrote ok b0 w w' ls /\ w_static w' = w_static w /\ w_hash w' = w_hash w /\
  (forall k v, In (k, v) (w_tree w') -> In (k, v) (w_tree w) \/ TreeOK (w_buf w') ok k v).
Proof.
  induction ls as [|l rest IH]; intros w w' Hv Hb0 Ho H16 Hold Hpend H; cbn [tree_acn] in H.
  - apply append_slice_ok in H as [B (a1 & a2 & a3)].
    split; [apply Wrote_root; auto|]. rewrite a2. auto.
  - inversion Hv as [|? ? Hl Hv']; subst.
    destruct (tree_get (w_tree w) (l :: rest)) as [pos|] eqn:EG.
    + apply tree_get_some in EG.
      assert (Hlt : pos < b0).
      { destruct (N.lt_ge_cases pos b0) as [L|L]; [exact L|]. specialize (Hpend _ _ EG L). lia. }
      destruct (Hold _ _ EG Hlt) as (l0 & ls0 & e0 & K & HL). injection K as <- <-.
      rewrite Forall_forall in H16. specialize (H16 _ EG). cbn [snd] in H16.
      apply write_ptr_ok in H as [B (a1 & a2 & a3)]; [|exact H16|reflexivity].
      split; [eapply Wrote_ptr; eauto|]. rewrite a2. auto.
    + destruct (tree_insert (l :: rest) (mlen (w_buf w)) (w_tree w)) as [t'|] eqn:EI.
      * unfold tree_insert in EI.
        destruct (N.leb_spec tree_ptr_limit (mlen (w_buf w))) as [G|G]; [discriminate|]. injection EI as <-.
        unfold tree_ptr_limit in G. rewrite (tree_get_none_filter _ _ EG) in H.
        match type of H with wbind ?x _ = _ => destruct x as [w1|w1| |] eqn:EL end; cbn [wbind] in H; try discriminate.
        apply label_compose_ok in EL as [B1 (a1 & a2 & a3)]. cbn [set_tree w_buf w_static w_tree w_hash] in B1, a1, a2, a3.
        destruct (IH w1 w' Hv') as (W1 & S1 & H1 & E1); auto.
        -- rewrite B1, mlen_app. lia.
        -- rewrite a2. constructor; [exact G|exact H16].
        -- intros k v Hin Hvlt. rewrite a2 in Hin. destruct Hin as [Hin|Hin]; [injection Hin as <- <-; lia|].
           rewrite B1. apply TreeOK_app. apply Hold; auto.
        -- intros k v Hin Hge. rewrite a2 in Hin. destruct Hin as [Hin|Hin]; [injection Hin as <- <-; cbn [length]; lia|].
           specialize (Hpend _ _ Hin Hge). cbn [length] in Hpend. lia.
        -- destruct (Wrote_cons ok b0 w w' Ho Hb0 w1 l rest Hl B1 W1) as (W & HL).
           split; [exact W|]. split; [congruence|]. split; [congruence|].
           intros k v Hin. destruct (E1 _ _ Hin) as [Hin1|Hok]; [|right; exact Hok].
           rewrite a2 in Hin1. destruct Hin1 as [Hin1|Hin1]; [|left; exact Hin1].
           injection Hin1 as <- <-. right. exists l, rest, (mlen (w_buf w')). auto.
      * destruct (write_labels c (l :: rest) w) as [w1|w1| |] eqn:EW; cbn [wbind] in H; try discriminate.
        apply write_labels_ok in EW as [B1 (a1 & a2 & a3)].
        apply append_slice_ok in H as [B2 (b1 & b2 & b3)].
        split; [apply Wrote_labels_root; auto; rewrite B2, B1, <- app_assoc; reflexivity|].
        rewrite b2, a2. split; [congruence|]. split; [congruence|auto].
Qed.

Lemma HU_app m x (ok : N -> Prop) es : Forall (fun e => HashOK m ok (fst e) (snd e)) es -> HU m es -> HU (m ++ x) es.
Proof. intros F. apply (HU_transfer m _ ok ok); [intros; apply LabelAt_app; assumption|apply incl_refl|exact F]. Qed.

Lemma tree_acn_exact c (ok : N -> Prop) n w w' :
  Forall valid_label n -> TBound w -> CInv ok w -> (forall i, mlen (w_buf w) <= i -> ok i) ->
  tree_acn c n w = WOk w' ->
  CInv ok w' /\ NameIn (w_buf w') ok (mlen (w_buf w)) (mlen (w_buf w)) n (mlen (w_buf w')).
Proof.
  intros Hv (_ & TT & _) CI Ho H. pose proof CI as (_ & CT & CH & CU). rewrite Forall_forall in CT, TT.
  destruct (tree_acn_name c ok (mlen (w_buf w)) n w w' Hv (N.le_refl _) Ho) as ((N1 & sfx & X) & S1 & H1 & E1); auto.
  - apply Forall_forall. intros kv Hin. apply (TT kv Hin).
  - intros k v Hin _. apply (CT (k, v) Hin).
  - intros k v Hin Hge. specialize (TT _ Hin). cbn [snd] in TT. lia.
  - split; [|apply N1; lia].
    apply (CInv_grow ok w w' sfx X CI); rewrite ?S1, ?H1; auto. rewrite X. apply (HU_app _ _ ok); assumption.
Qed.

Lemma tree_acn_ok c : AcnSpec c (tree_acn c).
Proof.
  intros ok n w w' Hv TB SI CI Ho H. destruct (tree_acn_exact c ok n w w' Hv TB CI Ho H) as (CI' & HN).
  split; [exact CI'|]. exists n. auto.
Qed.

Lemma label_eq_spec a b : label_eq a b = true <-> lowers a = lowers b.
Proof. unfold label_eq, label_eq_ignores_case. apply eq_ci_spec. Qed.

(* one step of the iterator on a stored label *)
Lemma sli_loop_label fuel m p sseg l :
  valid_label l -> bytes_at m p (mlen l :: l) ->
  sli_loop (S fuel) m (mlen m) p sseg = SliLabel l (Some (p + 1 + mlen l, sseg)).
Proof.
  intros [Hl Hw] Hb. cbn [sli_loop].
  pose proof Hb as Hb0. apply bytes_at_cons in Hb0 as [Hg Hb1]. rewrite Hg.
  destruct (N.leb_spec (mlen l) 63) as [L|L]; [|unfold mlen in L; lia].
  pose proof (bytes_at_end m p (mlen l :: l) ltac:(discriminate) Hb) as He. rewrite mlen_cons in He.
  destruct (N.ltb_spec (PName.mlen m) (p + mlen l + 1)) as [X|X]; [lia|].
  destruct (N.eqb_spec (mlen l) 0) as [E|E]; [unfold mlen in E; lia|].
  rewrite (slice_bytes_at m (p + 1) l Hb1). do 3 f_equal. lia.
Qed.

Lemma sli_next_label m p sseg l :
  valid_label l -> bytes_at m p (mlen l :: l) ->
  sli_next m (mlen m) (Some (p, sseg)) = SliLabel l (Some (p + 1 + mlen l, sseg)).
Proof.
  intros Hl Hb. unfold sli_next. pose proof Hb as Hb0. apply bytes_at_cons in Hb0 as [Hg _].
  apply get_some_lt in Hg. destruct (N.leb_spec (PName.mlen m) p); [lia|]. apply sli_loop_label; auto.
Qed.

Lemma labels_eq_sli_label a m st l st' :
  sli_next m (mlen m) st = SliLabel l st' -> labels_eq_sli a m (mlen m) st = Some true ->
  exists x a', a = x :: a' /\ label_eq x l = true /\ labels_eq_sli a' m (mlen m) st' = Some true.
Proof.
  intros SN H. destruct a as [|x a']; cbn [labels_eq_sli] in H; rewrite SN in H; [discriminate|].
  destruct (label_eq x l) eqn:EX; [|discriminate]. eauto.
Qed.

(* a match against a completely stored name *)
Lemma sli_sound m (ok : N -> Prop) seg p ls e :
  NameIn m ok seg p ls e -> forall sseg a, seg <= sseg ->
  labels_eq_sli a m (mlen m) (Some (p, sseg)) = Some true ->
  exists q, a = q ++ [[]] /\ canon q = canon ls.
Proof.
  intros H. induction H as [seg p Ho Hg | seg p l ls e Hv Ho Hb _ IH | seg p q l ls e' Ho0 Ho1 Hg0 Hg1 Hq Hs Hq2 Hv Ho Hb Hn IH];
    intros sseg a Hss HE.
  - assert (SN : sli_next m (mlen m) (Some (p, sseg)) = SliLabel [] None).
    { unfold sli_next. pose proof (get_some_lt _ _ _ Hg) as X.
      destruct (N.leb_spec (PName.mlen m) p); [lia|]. cbn [sli_loop]. rewrite Hg. cbn [N.leb N.compare].
      destruct (N.ltb_spec (PName.mlen m) (p + 0 + 1)); [lia|]. cbn [N.eqb].
      unfold slice. replace (N.to_nat (p + 1 + 0 - (p + 1))) with 0%nat by lia. reflexivity. }
    destruct (labels_eq_sli_label _ _ _ _ _ SN HE) as (x & a' & -> & EX & HE').
    apply label_eq_spec in EX. destruct x; [|discriminate].
    destruct a' as [|y a'']; cbn [labels_eq_sli sli_next] in HE'; [|discriminate].
    exists []. split; reflexivity.
  - destruct (labels_eq_sli_label _ _ _ _ _ (sli_next_label m p sseg l Hv Hb) HE) as (x & a' & -> & EX & HE').
    destruct (IH sseg a' Hss HE') as (q' & -> & Hc). exists (x :: q'). split; [reflexivity|].
    unfold canon in *. cbn [map]. f_equal; [apply label_eq_spec; exact EX|exact Hc].
  - assert (SN : sli_next m (mlen m) (Some (p, sseg)) = SliLabel l (Some (q + 1 + mlen l, q))).
    { unfold sli_next. pose proof (get_some_lt _ _ _ Hg0) as X.
      destruct (N.leb_spec (PName.mlen m) p); [lia|].
      destruct (N.to_nat sseg) as [|f] eqn:EF; [lia|].
      cbn [sli_loop]. rewrite Hg0.
      destruct (N.leb_spec (192 + q / 256) 63); [lia|]. destruct (N.leb_spec 192 (192 + q / 256)); [|lia].
      rewrite Hg1. rewrite (ptr_decode q Hq2). unfold sli_ptr_ge_segment.
      destruct (N.leb_spec sseg q); [lia|]. apply sli_loop_label; auto. }
    destruct (labels_eq_sli_label _ _ _ _ _ SN HE) as (x & a' & -> & EX & HE').
    destruct (IH q a' ltac:(lia) HE') as (q' & -> & Hc). exists (x :: q'). split; [reflexivity|].
    unfold canon in *. cbn [map]. f_equal; [apply label_eq_spec; exact EX|exact Hc].
Qed.

(* labels stored up to the very end of the buffer: the name being written *)
Definition Pending (m : bytes) (v : N) : Prop :=
  exists labs, Forall valid_label labs /\ bytes_at m v (wire_rel labs) /\ v + mlen (wire_rel labs) = mlen m.

(* such labels never compare equal to a name: the iterator runs into the end
   of the buffer before it sees a root label *)
Lemma sli_pending m : forall labs v sseg q,
  Forall valid_label labs -> bytes_at m v (wire_rel labs) -> v + mlen (wire_rel labs) = mlen m ->
  labels_eq_sli (q ++ [[]]) m (mlen m) (Some (v, sseg)) = Some false.
Proof.
  induction labs as [|l labs IH]; intros v sseg q Hv Hb He.
  - change (mlen (wire_rel [])) with 0 in He.
    assert (SN : sli_next m (mlen m) (Some (v, sseg)) = SliEnd).
    { unfold sli_next. destruct (N.leb_spec (PName.mlen m) v); [reflexivity|]. unfold PName.mlen, mlen in *. lia. }
    destruct q as [|x q']; cbn [app labels_eq_sli]; rewrite SN; reflexivity.
  - inversion Hv as [|? ? Hl Hv']; subst.
    rewrite mlen_wire_rel_cons in He. apply bytes_at_wire_rel_cons in Hb as [Hb1 Hb2].
    destruct q as [|x q']; cbn [app labels_eq_sli]; rewrite (sli_next_label m v sseg l Hl Hb1).
    + unfold label_eq, label_eq_ignores_case. destruct l as [|y l']; [destruct Hl as [Hl _]; cbn in Hl; lia|reflexivity].
    + destruct (label_eq x l); [|reflexivity]. apply IH; auto. lia.
Qed.

Lemma static_get_some m ml es q pos :
  static_get m ml es q = Some (Some pos) ->
  In pos es /\ labels_eq_sli (q ++ [[]]) m ml (Some (pos, pos)) = Some true.
Proof.
  induction es as [|e es IH]; cbn [static_get]; [discriminate|].
  destruct (labels_eq_sli (q ++ [[]]) m ml (Some (e, e))) as [[|]|] eqn:E; intros H; try discriminate.
  - injection H as <-. split; [left; reflexivity|exact E].
  - destruct (IH H) as [A B]. split; [right; exact A|exact B].
Qed.

Lemma Pending_grow m v l : Pending m v -> valid_label l -> Pending (m ++ mlen l :: l) v.
Proof.
  intros (labs & Hv & Hb & He) Hl. exists (labs ++ [l]). split; [apply Forall_app; split; auto|].
  rewrite wire_rel_app, mlen_app, mlen_app.
  replace (wire_rel [l]) with (mlen l :: l) by (unfold wire_rel, wire_label; cbn; rewrite app_nil_r; reflexivity).
  split; [|lia]. apply bytes_at_split. split; [apply bytes_at_app_l; exact Hb|].
  rewrite He. pose proof (bytes_at_app m (mlen l :: l) []) as X. rewrite app_nil_r in X. exact X.
Qed.

Lemma Pending_new m l : valid_label l -> Pending (m ++ mlen l :: l) (mlen m).
Proof.
  intros Hl. exists [l]. split; [constructor; auto|].
  replace (wire_rel [l]) with (mlen l :: l) by (unfold wire_rel, wire_label; cbn; rewrite app_nil_r; reflexivity).
  split; [|rewrite mlen_app; reflexivity].
  pose proof (bytes_at_app m (mlen l :: l) []) as X. rewrite app_nil_r in X. exact X.
Qed.

(* the Static loop: entries at or above b0 are the labels written so far *)
Lemma static_acn_name c (ok : N -> Prop) b0 : forall ls w w',
  Forall valid_label ls -> b0 <= mlen (w_buf w) -> (forall i, b0 <= i -> ok i) ->
  Forall (fun v => v < 16384) (w_static w) ->
  (forall v, In v (w_static w) -> v < b0 -> StaticOK (w_buf w) ok v) ->
  (forall v, In v (w_static w) -> b0 <= v -> Pending (w_buf w) v) ->
  static_acn c ls w = WOk w' ->
  exists ls', canon ls' = canon ls /\ Wrote ok b0 w w' ls' /\
  w_tree w' = w_tree w /\ w_hash w' = w_hash w /\
  (forall v, In v (w_static w') -> In v (w_static w) \/ StaticOK (w_buf w') ok v).
Proof.
  induction ls as [|l rest IH]; intros w w' Hv Hb0 Ho H16 Hold Hpend H; cbn [static_acn] in H.
  - apply append_slice_ok in H as [B (a1 & a2 & a3)]. exists []. split; [reflexivity|].
    split; [apply Wrote_root; auto|]. rewrite a1. auto.
  - inversion Hv as [|? ? Hl Hv']; subst.
    destruct (static_get (w_buf w) (mlen (w_buf w)) (w_static w) (l :: rest)) as [[pos|]|] eqn:EG; [| |discriminate].
    + apply static_get_some in EG as [Hin HE].
      assert (Hlt : pos < b0).
      { destruct (N.lt_ge_cases pos b0) as [L|L]; [exact L|].
        destruct (Hpend _ Hin L) as (labs & P1 & P2 & P3).
        pose proof (eq_trans (eq_sym HE) (sli_pending (w_buf w) labs pos pos (l :: rest) P1 P2 P3)). discriminate. }
      destruct (Hold _ Hin Hlt) as (l0 & ls0 & e0 & HL).
      destruct (sli_sound _ _ _ _ _ _ (LabelAt_name _ _ _ _ _ _ HL) pos _ (N.le_refl _) HE) as (q & Eq & Hc).
      apply app_inj_tail in Eq as [<- _].
      rewrite Forall_forall in H16. specialize (H16 _ Hin).
      apply write_ptr_ok in H as [B (a1 & a2 & a3)]; [|exact H16|reflexivity].
      exists (l0 :: ls0). split; [symmetry; exact Hc|].
      split; [eapply Wrote_ptr; eauto|]. rewrite a1. auto.
    + destruct (static_insert (mlen (w_buf w)) (w_static w)) as [es'|] eqn:EI.
      * unfold static_insert in EI.
        destruct (N.ltb_spec (mlen (w_buf w)) static_ptr_limit) as [G|G]; [|discriminate].
        destruct (if static_cap_lt then _ else _); [|discriminate]. cbn [andb] in EI. injection EI as <-.
        unfold static_ptr_limit in G.
        match type of H with wbind ?x _ = _ => destruct x as [w1|w1| |] eqn:EL end; cbn [wbind] in H; try discriminate.
        apply label_compose_ok in EL as [B1 (a1 & a2 & a3)]. cbn [set_static w_buf w_static w_tree w_hash] in B1, a1, a2, a3.
        destruct (IH w1 w' Hv') as (rest' & Hc & W1 & T1 & H1 & E1); auto.
        -- rewrite B1, mlen_app. lia.
        -- rewrite a1. apply Forall_app. split; [exact H16|]. constructor; [exact G|constructor].
        -- intros v Hin Hvlt. rewrite a1 in Hin. apply in_app_iff in Hin as [Hin|[Hin|[]]]; [|lia].
           rewrite B1. apply StaticOK_app. apply Hold; auto.
        -- intros v Hin Hge. rewrite a1 in Hin. rewrite B1. apply in_app_iff in Hin as [Hin|[Hin|[]]].
           ++ apply Pending_grow; auto.
           ++ subst v. apply Pending_new; auto.
        -- destruct (Wrote_cons ok b0 w w' Ho Hb0 w1 l rest' Hl B1 W1) as (W & HL).
           exists (l :: rest'). split; [unfold canon in *; cbn [map]; f_equal; exact Hc|].
           split; [exact W|]. split; [congruence|]. split; [congruence|].
           intros v Hin. destruct (E1 _ Hin) as [Hin1|Hok]; [|right; exact Hok].
           rewrite a1 in Hin1. apply in_app_iff in Hin1 as [Hin1|[Hin1|[]]]; [left; exact Hin1|].
           subst v. right. exists l, rest', (mlen (w_buf w')). exact HL.
      * destruct (write_labels c (l :: rest) w) as [w1|w1| |] eqn:EW; cbn [wbind] in H; try discriminate.
        apply write_labels_ok in EW as [B1 (a1 & a2 & a3)].
        apply append_slice_ok in H as [B2 (b1 & b2 & b3)].
        exists (l :: rest). split; [reflexivity|].
        split; [apply Wrote_labels_root; auto; rewrite B2, B1, <- app_assoc; reflexivity|].
        rewrite b1, a1. split; [congruence|]. split; [congruence|auto].
Qed.

Lemma static_acn_ok c : AcnSpec c (static_acn c).
Proof.
  intros ok n w w' Hv (TS & _) SI CI Ho H. pose proof CI as (CS & _ & CH & CU). rewrite Forall_forall in CS, TS.
  destruct (static_acn_name c ok (mlen (w_buf w)) n w w' Hv (N.le_refl _) Ho) as (n' & Hc & (N1 & sfx & X) & T1 & H1 & E1); auto.
  - apply Forall_forall. intros v Hin. apply (TS v Hin).
  - intros v Hin Hge. specialize (TS _ Hin). lia.
  - split; [|exists n'; split; [exact Hc|apply N1; lia]].
    apply (CInv_grow ok w w' sfx X CI); rewrite ?T1, ?H1; auto. rewrite X. apply (HU_app _ _ ok); assumption.
Qed.

(* C02 -- property theorems only.  Proofs live in C02/Proofs*.v. *)
From Coq Require Import NArith List.
From DV Require Import Base.Outcome Base.Bytes Base.Names Base.PName C02.Gen C02.Model
  C02.ProofsBasic C02.ProofsClone C02.ProofsRun C02.ProofsName C02.ProofsComp C02.ProofsHash C02.ProofsTop
  C02.ProofsLayout C02.ProofsWrite C02.ProofsBuild C02.ProofsTotal C02.ProofsX C02.SchemaModel C02.ProofsSchema C02.ProofsGrow C02.ProofsReuse C02.ProofsOpt C02.ProofsCount C02.ProofsRaw C02.ProofsWide.
From DV Require C05.Schema C05.ProofsB C05.Model C05.OptModel.
Import ListNotations.
Local Open Scope N_scope.

(* Any message assembled by any finite sequence of builder operations
   (question / record / OPT pushes with well-formed names and field values,
   section conversions in both directions, rewinds, push limits; pushes that
   fail for lack of space, because of the limit or a full counter), on every
   target (unbounded, fixed capacity, stream) and with every compressor (none,
   static, tree, hash), reads back as exactly the items whose push succeeded,
   in order and in the right sections, with header counts equal to the numbers
   of successful pushes and nothing left over (names up to ASCII case, which
   is DNS name equality). *)
Theorem C02_build_parse : forall c ops s0 s a ws,
  init c = Some s0 -> Forall wf_op ops ->
  run_acc c s0 acc0 ops = (s, a, ws) -> all_alive ws ->
  exists a', rd_message (msg_of s) a = Ok a' /\ acc_eqb a' a = true.
Proof. exact build_parse. Qed.
Print Assumptions C02_build_parse.

(* No reachable builder panics or loops, and the message reads back as the
   accepted pushes: the statement above without the "no panic" premise, for
   record data of at most 65535 octets (which the typed record data of the
   library guarantee; compose_prefixed's expect("long data") is otherwise
   reachable, see long_data_panics in ProofsTotal.v). *)
Theorem C02_build_parse_total : forall c ops s0 s a ws,
  init c = Some s0 -> Forall wf_op_sized ops -> run_acc c s0 acc0 ops = (s, a, ws) ->
  all_alive ws /\ exists a', rd_message (msg_of s) a = Ok a' /\ acc_eqb a' a = true.
Proof. exact build_parse_total. Qed.
Print Assumptions C02_build_parse_total.

(* A failed push (target full, push limit, count overflow) leaves the whole
   builder state - octets, counts, stream length octets, compressor tables,
   section bookkeeping - exactly as it was, in every state an arbitrary
   operation sequence can reach, for every target and compressor. *)
Theorem C02_failed_push_unchanged : forall c ops s0 s a ws o s' e,
  init c = Some s0 -> run_acc c s0 acc0 ops = (s, a, ws) -> all_alive ws ->
  step c s o = (s', RErr e) -> s' = s.
Proof. exact failed_push_unchanged. Qed.
Print Assumptions C02_failed_push_unchanged.

(* In every reachable state: all remembered offsets of all three compressors
   lie inside the buffer and below 0x4000; header counts equal the numbers of
   accepted pushes per section; with a stream target the two length octets
   equal the message length, which is at most 65535. *)
Theorem C02_reachable_tables_counts_shim : forall c ops s0 s a ws,
  init c = Some s0 -> run_acc c s0 acc0 ops = (s, a, ws) -> all_alive ws ->
  TBound (b_w s) /\ CountInv s a /\
  (t_stream c = true ->
     stream_of s = be16 (mlen (msg_of s)) ++ msg_of s /\ mlen (msg_of s) <= 65535).
Proof. exact reachable_inv. Qed.
Print Assumptions C02_reachable_tables_counts_shim.

(* The reader model (ParsedName::parse + label iteration) returns exactly the
   name stored at a position, following compression pointers. *)
Theorem C02_reader_reconstructs_stored_name : forall m (ok : N -> Prop) lim,
  (forall i, ok i -> i < lim) ->
  forall seg p ls e, NameIn m ok seg p ls e -> name_ok ls -> decode_name m p lim = Ok (ls, e).
Proof. exact decode_name_ok. Qed.
Print Assumptions C02_reader_reconstructs_stored_name.

(* append_compressed_name of every compressor keeps the compressor invariant
   (every remembered offset is the start of a stored name: static, tree keyed
   by the exact labels, hash entries with head label and tail position) and
   stores, where it wrote, a name equal to the pushed one up to ASCII case. *)
Theorem C02_compressors_keep_invariant : forall c, AcnSpec c (acn c).
Proof. exact acn_ok. Qed.
Print Assumptions C02_compressors_keep_invariant.

(* Name compression never changes which name a reader reconstructs (all four
   compressor choices, DNS name equality). *)
Theorem C02_compression_transparent : forall c n w w',
  WGood c w -> name_ok n -> acn c n w = WOk w' ->
  WGood c w' /\
  exists n', decode_name (w_buf w') (mlen (w_buf w)) (mlen (w_buf w')) = Ok (n', mlen (w_buf w')) /\
             name_eqb n' n = true.
Proof. exact compression_transparent. Qed.
Print Assumptions C02_compression_transparent.

(* Without a compressor and with the tree compressor the reader gets back the
   very octets of the name (no case change). *)
Theorem C02_compression_exact_none_tree : forall c n w w',
  (t_kind c = KNone \/ t_kind c = KTree) ->
  WGood c w -> name_ok n -> acn c n w = WOk w' ->
  decode_name (w_buf w') (mlen (w_buf w)) (mlen (w_buf w')) = Ok (n, mlen (w_buf w')).
Proof. exact compression_exact. Qed.
Print Assumptions C02_compression_exact_none_tree.

(* In every reachable state at most one hash entry matches a query (proved:
   the insertion discipline of HashCompressor::append_compressed_name keeps
   (label up to case, tail) unique, truncation and appends preserve it), so
   HashTable::find gives the same answer whatever order it meets the entries in. *)
Theorem C02_hash_lookup_order_irrelevant : forall c ops s0 s a ws l pos es',
  init c = Some s0 -> Forall wf_op ops -> run_acc c s0 acc0 ops = (s, a, ws) -> all_alive ws ->
  (forall e, In e (w_hash (b_w s)) <-> In e es') ->
  hash_find (w_buf (b_w s)) (mlen (w_buf (b_w s))) es' l pos =
  hash_find (w_buf (b_w s)) (mlen (w_buf (b_w s))) (w_hash (b_w s)) l pos.
Proof. exact hash_lookup_order_irrelevant_reachable. Qed.
Print Assumptions C02_hash_lookup_order_irrelevant.

(* the general fact behind it, for any table with unique keys *)
Theorem C02_hash_find_order_irrelevant : forall m ml l pos es es',
  (forall e, In e es <-> In e es') ->
  Forall (fun e => label_at m ml (fst e) <> None) es ->
  (forall e1 e2, In e1 es -> In e2 es -> hmatch m ml l pos e1 -> hmatch m ml l pos e2 -> fst e1 = fst e2) ->
  hash_find m ml es' l pos = hash_find m ml es l pos.
Proof. exact hash_find_order_irrelevant. Qed.
Print Assumptions C02_hash_find_order_irrelevant.

(* The push limit as coded (`new_pos >= self.limit`): an accepted push leaves
   the message strictly shorter than the limit. *)
Theorem C02_push_ok_below_limit : forall c ops s0 s a ws o s' l,
  init c = Some s0 -> run_acc c s0 acc0 ops = (s, a, ws) -> all_alive ws ->
  step c s o = (s', ROk) -> b_limit s = Some l -> mlen (w_buf (b_w s')) < l.
Proof. exact push_ok_below_limit. Qed.
Print Assumptions C02_push_ok_below_limit.

(* AdditionalBuilder::opt puts the header RCODE back when the push fails (T1:
   read from the source); without it C02_failed_push_unchanged is false, see
   failed_opt_push_refuted in ProofsTotal.v. *)
Theorem C02_opt_restores_header_rcode : opt_restores_rcode_on_err = true.
Proof. exact restore_flag. Qed.
Print Assumptions C02_opt_restores_header_rcode.

(* Every builder conversion, from every section to every section (the code's
   shortcuts are compositions of single steps, T1 conversions_anchored), ends
   in the wanted section, keeps the accepted items and counters of the
   sections up to it and empties exactly those above it. *)
Theorem C02_conversions_zero_the_right_counters : forall c s a k s' a' ws,
  BW c s -> CountInv s a -> k <= 3 ->
  run_acc c s a (conv_ops (b_sec s) k) = (s', a', ws) ->
  b_sec s' = k /\ Forall (fun w => w = RNone) ws /\ CountInv s' a' /\ acc_upto a a' k.
Proof. exact conv_counts. Qed.
Print Assumptions C02_conversions_zero_the_right_counters.

(* Conversions, builder(), start_answer, start_error and request_axfr are
   compositions of the primitive operations (the model computes the list they
   perform from the current state): whatever mix of them built the message,
   it reads back as the accepted pushes. *)
Theorem C02_build_parse_composite : forall c xs s0 s a ws lost,
  init c = Some s0 -> Forall wf_xop xs -> xrun c s0 acc0 xs = (s, a, ws, lost) ->
  exists a', rd_message (msg_of s) a = Ok a' /\ acc_eqb a' a = true.
Proof. exact xbuild_parse. Qed.
Print Assumptions C02_build_parse_composite.

(* The header setters (offsets, bit positions, masks, shift: T1) realise the
   RFC 1035 header layout. *)
Theorem C02_header_setters_layout : forall p0 p1 p2 p3 i0 i1 w2 w3,
  p2 < 256 -> p3 < 256 -> i0 < 256 -> i1 < 256 -> w2 < 256 -> w3 < 256 ->
  hdr_apply [p0; p1; p2; p3] (fields_of_octets [i0; i1; w2; w3]) = [i0; i1; w2; w3].
Proof. exact header_setters_layout. Qed.
Print Assumptions C02_header_setters_layout.

(* StreamTarget: message coordinates = inner buffer coordinates minus the prefix (T1). *)
Theorem C02_stream_coordinates : forall x (buf : bytes) len,
  length (be16 x) = N.to_nat stream_prefix_len /\
  skipn (N.to_nat stream_prefix_len) (be16 x ++ buf) = buf /\
  skipn (N.to_nat stream_prefix_len) (firstn (N.to_nat (len + stream_prefix_len)) (be16 x ++ buf)) = firstn (N.to_nat len) buf.
Proof. exact stream_coordinates. Qed.
Print Assumptions C02_stream_coordinates.

(* StaticCompressor::insert: at most 24 entries, positions below 0x4000 (T1). *)
Theorem C02_static_insert_bound : forall pos es es',
  (length es <= 24)%nat -> static_insert pos es = Some es' ->
  (length es' <= 24)%nat /\ pos < 16384 /\ es' = es ++ [pos].
Proof. exact static_insert_bound. Qed.
Print Assumptions C02_static_insert_bound.

(* OptBuilder::clone_from transcribed call by call (truncate back to the start
   of the record, then the source record's own compose: root owner name through
   the compressor, type, class, the 32 bit TTL word, length, option octets,
   and the closing length patch of AdditionalBuilder::opt) does to a push
   exactly what the setter closure with the same field values does: the same
   builder state and the same outcome, on every target and compressor. *)
Theorem C02_clone_from_push_is_setter_push : forall c s oh opts,
  BW c s -> mlen (opts_bytes opts) <= 65535 ->
  oh_udp oh < 65536 -> oh_ver oh < 256 -> oh_flags oh < 65536 ->
  mb_push c s (compose_opt_clone c oh opts) = mb_push c s (compose_opt c oh opts).
Proof. exact opt_push_eq. Qed.
Print Assumptions C02_clone_from_push_is_setter_push.

(* ... and, whatever the field values, it keeps the writer invariants: tables
   bounded by the buffer, stream length octets in step, old octets and old
   table entries untouched. *)
Theorem C02_clone_from_keeps_writer_invariants : forall c oh opts,
  WSpec c (compose_opt_clone c oh opts).
Proof. exact compose_opt_clone_spec. Qed.
Print Assumptions C02_clone_from_keeps_writer_invariants.

(* Typed record data, through the record-data schemas of C05: a value of any
   C05 schema (with or without a cross-field check: the checks do not look at
   name octets, post_check_fval_eq) pushed as a record - its compressible names through the
   compressor, its other names in full, every other field in its C05 wire
   form - on any target with any compressor, is read back by the record
   reader, and C05's own parse_rdata (with the message reader as name decoder)
   returns the same value from the octets in the message, names up to ASCII
   case.  The length prefix is patched in afterwards exactly when C05's rdlen
   answers None. *)
Theorem C02_schema_record_reread : forall c owner ty cls ttl s v w w',
  WG c ok12 w -> 12 <= mlen (w_buf w) ->
  C05.ProofsB.wf_schema_full s = true -> C05.Schema.wf_value s v = true ->
  name_ok owner -> ty < 65536 -> cls < 65536 -> ttl < 4294967296 ->
  compose_record c (schema_record owner ty cls ttl s v) w = WOk w' ->
  WG c ok12 w' /\
  exists r' e1 v',
    rd_record (w_buf w') (mlen (w_buf w)) (map shape_of (items_of (C05.Schema.s_fields s) v)) = Ok (r', mlen (w_buf w')) /\
    record_eqb r' (schema_record owner ty cls ttl s v) = true /\
    (exists n', decode_name (w_buf w') (mlen (w_buf w)) (mlen (w_buf w')) = Ok (n', e1) /\ name_eqb n' owner = true) /\
    C05.Schema.parse_rdata C05.Schema.pname_dec s (w_buf w') (e1 + 10) (mlen (w_buf w')) = Ok v' /\ Forall2 fval_eq v' v.
Proof. exact schema_record_reread_post. Qed.
Print Assumptions C02_schema_record_reread.

Theorem C02_schema_prefix_is_rdlen_none : forall c owner ty cls ttl s v,
  C05.Schema.wf_value s v = true ->
  uses_prefix c (schema_record owner ty cls ttl s v) =
  match C05.Schema.rdlen s (can_compress c) v with Ok None => true | _ => false end.
Proof. exact uses_prefix_is_rdlen_none. Qed.
Print Assumptions C02_schema_prefix_is_rdlen_none.

(* ... and such records are admissible operations of C02_build_parse_total. *)
Theorem C02_schema_record_admissible : forall owner ty cls ttl s v,
  C05.Schema.wf_value s v = true -> name_ok owner -> ty < 65536 -> cls < 65536 -> ttl < 4294967296 ->
  wf_op_sized (OpR (schema_record owner ty cls ttl s v)).
Proof. exact schema_record_wf_op. Qed.
Print Assumptions C02_schema_record_admissible.

(* The driver's entry point for typed records re-derives exactly the schema
   record (C05 parse after compose). *)
Theorem C02_typed_record_fixpoint : forall owner t cls ttl s v,
  C05.Model.schema_of t = Some s -> C05.Schema.wf_value s v = true ->
  c02_typed_record (schema_record owner t cls ttl s v) = (schema_record owner t cls ttl s v, true).
Proof. exact typed_record_fixpoint. Qed.
Print Assumptions C02_typed_record_fixpoint.

(* The hashbrown table behind HashCompressor: the entry hash and the query
   hash are hash_one((label, tail)) with Label::hash feeding the length and
   the lower-cased octets (T1: hash_key_anchored), so whatever entries
   HashTable::find probes - any capacity, after any number of growth rehashes,
   with any hasher keys H - as long as they are entries of the table and
   include every entry hashing like the query, the lookup returns what the
   model's walk over the insertion-ordered list returns, in every reachable
   state. *)
Theorem C02_hash_growth_unobservable : forall c ops s0 s a ws H l pos probe,
  init c = Some s0 -> Forall wf_op ops -> run_acc c s0 acc0 ops = (s, a, ws) -> all_alive ws ->
  probes H (w_buf (b_w s)) (mlen (w_buf (b_w s))) (w_hash (b_w s)) probe l pos ->
  hash_find (w_buf (b_w s)) (mlen (w_buf (b_w s))) probe l pos =
  hash_find (w_buf (b_w s)) (mlen (w_buf (b_w s))) (w_hash (b_w s)) l pos.
Proof. exact hash_growth_unobservable. Qed.
Print Assumptions C02_hash_growth_unobservable.

(* the chained-bucket instance: nb buckets, the bucket of the query's hash in any order *)
Theorem C02_hash_buckets_unobservable : forall c ops s0 s a ws H nb l pos bucket,
  init c = Some s0 -> Forall wf_op ops -> run_acc c s0 acc0 ops = (s, a, ws) -> all_alive ws ->
  (forall e, In e bucket <-> In e (w_hash (b_w s)) /\
             bucket_of H (w_buf (b_w s)) (mlen (w_buf (b_w s))) nb e = key_hash H l pos mod nb) ->
  hash_find (w_buf (b_w s)) (mlen (w_buf (b_w s))) bucket l pos =
  hash_find (w_buf (b_w s)) (mlen (w_buf (b_w s))) (w_hash (b_w s)) l pos.
Proof. exact hash_buckets_unobservable. Qed.
Print Assumptions C02_hash_buckets_unobservable.

Theorem C02_hash_key_anchored : hash_key_anchored = true.
Proof. reflexivity. Qed.
Print Assumptions C02_hash_key_anchored.

(* For import by other developments (Answer::to_message, copy_records, TSIG):
   questions, answers, authority and additional records pushed in this order
   through the builder's own section conversions, every push accepted: the
   message reads back as exactly these four lists (names up to ASCII case), on
   every target, with every compressor. *)
Theorem C02_pushes_reread : forall c qs an ns ar s0 s a ws,
  init c = Some s0 ->
  Forall wf_q qs -> Forall wf_r_sized an -> Forall wf_r_sized ns -> Forall wf_r_sized ar ->
  run_acc c s0 acc0 (ops_of_sections qs an ns ar) = (s, a, ws) ->
  Forall accepted ws ->
  a = mkAcc qs an ns ar /\
  exists a', rd_message (msg_of s) (mkAcc qs an ns ar) = Ok a' /\ acc_eqb a' (mkAcc qs an ns ar) = true.
Proof. exact pushes_reread. Qed.
Print Assumptions C02_pushes_reread.

(* Schemas without compressible names (IPSECKEY, the option rows, SRV, ...):
   the record data is in the message octet for octet, so every complete name
   decoder - the strict no-compression decoder of IPSECKEY included - reads
   the value back exactly, cross-field check included. *)
Theorem C02_schema_record_reread_flat : forall c owner ty cls ttl s v w w',
  WG c ok12 w -> 12 <= mlen (w_buf w) ->
  C05.ProofsB.wf_schema_full s = true -> C05.Schema.wf_value s v = true -> C05.Schema.has_compressible s = false ->
  name_ok owner -> ty < 65536 -> cls < 65536 -> ttl < 4294967296 ->
  compose_record c (schema_record owner ty cls ttl s v) w = WOk w' ->
  exists e1 pre,
    (exists n', decode_name (w_buf w') (mlen (w_buf w)) (mlen (w_buf w')) = Ok (n', e1) /\ name_eqb n' owner = true) /\
    w_buf w' = pre ++ C05.Schema.compose s v /\ len pre = e1 + 10 /\ mlen (w_buf w') = e1 + 10 + len (C05.Schema.compose s v) /\
    forall dec, C05.ProofsB.dec_complete dec -> C05.Schema.parse_rdata dec s (w_buf w') (e1 + 10) (mlen (w_buf w')) = Ok v.
Proof. exact schema_record_reread_flat. Qed.
Print Assumptions C02_schema_record_reread_flat.

(* IPSECKEY as the library parses it: the row is picked by the gateway type
   octet found in the message, the gateway name must be uncompressed. *)
Theorem C02_ipseckey_record_reread : forall c owner cls ttl g v w w',
  WG c ok12 w -> 12 <= mlen (w_buf w) -> g <= 3 ->
  C05.Schema.wf_value (C05.Model.ipseckey_schema g) v = true ->
  name_ok owner -> cls < 65536 -> ttl < 4294967296 ->
  compose_record c (schema_record owner 45 cls ttl (C05.Model.ipseckey_schema g) v) w = WOk w' ->
  exists e1, (exists n', decode_name (w_buf w') (mlen (w_buf w)) (mlen (w_buf w')) = Ok (n', e1) /\ name_eqb n' owner = true) /\
             C05.Model.ipseckey_parse (w_buf w') (e1 + 10) (mlen (w_buf w')) = Ok v.
Proof. exact ipseckey_record_reread. Qed.
Print Assumptions C02_ipseckey_record_reread.

(* Typed EDNS options, as rows of C05's option table (edns-client-subnet with
   its cross-field check included): an OPT record pushed with typed options
   (code, compose_len, composed data - OptBuilder::push), by the setter closure
   or by clone_from, is stored as the OPT record; C05's option iterator finds
   exactly these options in its record data, and C05's row for each code parses
   each option's data back to the value pushed. *)
Theorem C02_typed_options_reread : forall c oh l w w',
  WG c ok12 w -> 12 <= mlen (w_buf w) -> wf_oh oh -> Forall wf_typed l ->
  opt_writer c oh (typed_opts l) w = WOk w' ->
  WG c ok12 w' /\
  RAt (w_buf w') (mlen (w_buf w)) (opt_record oh (typed_opts l)) (mlen (w_buf w')) /\
  C05.OptModel.opt_iter (S (length l)) (w_buf w') (mlen (w_buf w) + 11) (mlen (w_buf w')) [] = Ok (map plain_of l) /\
  Forall (fun o => C05.Model.c05_optdata (fst o) (opt_data o) = Ok (snd o)) l.
Proof. exact typed_options_reread. Qed.
Print Assumptions C02_typed_options_reread.

Theorem C02_typed_option_fixpoint : forall o, wf_typed o -> c02_typed_option (raw_of_typed o) = (raw_of_typed o, true).
Proof. exact typed_option_fixpoint. Qed.
Print Assumptions C02_typed_option_fixpoint.

(* The counter ceiling: n root questions through the step model give what the
   driver's arithmetic path (c02_count) computes - the count saturates at
   count_max, push count_max + 1 and all later ones fail with CountOverflow
   and change nothing. *)
Theorem C02_count_run_is_arith : forall n s0 s a ws,
  init cfg_vec = Some s0 -> n <> O ->
  run_acc cfg_vec s0 acc0 (repeat (OpQ rootq) n) = (s, a, ws) ->
  c02_count (N.of_nat n) =
  (b_qd s, mlen (w_buf (b_w s)), match last ws RNone with RErr e => e =? E_COUNT | _ => false end).
Proof. exact count_run_is_arith. Qed.
Print Assumptions C02_count_run_is_arith.

(* The section-generic entry (trait RecordSectionBuilder) of every record
   section is that section's own push (T1 reads the three impl bodies), so the
   model's record push covers it; the harness routes half of all record pushes
   through the trait. *)
Theorem C02_section_trait_push_is_own_push : section_trait_push_is_own_push = true.
Proof. reflexivity. Qed.
Print Assumptions C02_section_trait_push_is_own_push.

(* HashCompressor over a hashbrown RawTable, from what the crate guarantees:
   buckets with control tags (TagsOK: the tag of a full bucket is the tag of
   its element's hash, the hash being |e| e.hash(message, hasher)), holding
   exactly the entries (TableOf), and a probe sequence that visits every full
   bucket whose element hashes like the query (ProbeVisits) - for any hasher H,
   any tag function, any bucket layout and probe order.  Then RawTable::find
   (raw_find: tag filter, then HashEntry::eq, first match) returns what the
   model's list walk returns, in every reachable state ... *)
Theorem C02_raw_find_reachable : forall c ops s0 s a ws H tagf slots order l pos,
  init c = Some s0 -> Forall wf_op ops -> run_acc c s0 acc0 ops = (s, a, ws) -> all_alive ws ->
  let m := w_buf (b_w s) in let ml := mlen (w_buf (b_w s)) in
  TableOf slots (w_hash (b_w s)) -> TagsOK H tagf m ml slots ->
  ProbeVisits H m ml slots order (key_hash H l pos) ->
  res_head (raw_find slots order (tagf (key_hash H l pos)) (eq_entry m ml l pos)) =
  hash_find m ml (w_hash (b_w s)) l pos.
Proof. exact raw_find_reachable. Qed.
Print Assumptions C02_raw_find_reachable.

(* ... and so does the whole right-to-left walk, hence append_compressed_name
   writes the same labels and the same pointer. *)
Theorem C02_raw_walk_reachable : forall c ops s0 s a ws H tagf slots order_of,
  init c = Some s0 -> Forall wf_op ops -> run_acc c s0 acc0 ops = (s, a, ws) -> all_alive ws ->
  let m := w_buf (b_w s) in let ml := mlen (w_buf (b_w s)) in
  TableOf slots (w_hash (b_w s)) -> TagsOK H tagf m ml slots ->
  (forall qh, ProbeVisits H m ml slots (order_of qh) qh) ->
  forall rl pos, raw_walk H tagf m ml slots order_of rl pos = hash_walk m ml (w_hash (b_w s)) rl pos.
Proof. exact raw_walk_reachable. Qed.
Print Assumptions C02_raw_walk_reachable.

Theorem C02_raw_acn_reachable : forall c ops s0 s a ws H tagf slots order_of n,
  init c = Some s0 -> Forall wf_op ops -> run_acc c s0 acc0 ops = (s, a, ws) -> all_alive ws ->
  let w := b_w s in
  TableOf slots (w_hash w) -> TagsOK H tagf (w_buf w) (mlen (w_buf w)) slots ->
  (forall qh, ProbeVisits H (w_buf w) (mlen (w_buf w)) slots (order_of qh) qh) ->
  hash_acn c n w =
  match raw_walk H tagf (w_buf w) (mlen (w_buf w)) slots order_of (rev n) hash_root_pos with
  | Ok (position, rest) =>
      wbind (hash_write c (rev rest) position w) (fun w1 =>
        if position =? hash_root_pos then write_root c w1 else write_ptr c hash_ptr_tag position w1)
  | Panic site => WPanic site
  | _ => WFuel
  end.
Proof. exact raw_acn_reachable. Qed.
Print Assumptions C02_raw_acn_reachable.

(* The state theorems without the "no panic" premise: for
   well-formed operations with record data of at most 65535 octets no panic
   is reachable (C02_build_parse_total), so in every state such a sequence
   reaches the invariants hold, a failed push changes nothing and an accepted
   push ends below the push limit. *)
Theorem C02_reachable_tables_counts_shim_total : forall c ops s0 s a ws,
  init c = Some s0 -> Forall wf_op_sized ops -> run_acc c s0 acc0 ops = (s, a, ws) ->
  TBound (b_w s) /\ CountInv s a /\
  (t_stream c = true ->
     stream_of s = be16 (mlen (msg_of s)) ++ msg_of s /\ mlen (msg_of s) <= 65535).
Proof. exact reachable_inv_total. Qed.
Print Assumptions C02_reachable_tables_counts_shim_total.

Theorem C02_failed_push_unchanged_total : forall c ops s0 s a ws o s' e,
  init c = Some s0 -> Forall wf_op_sized ops -> run_acc c s0 acc0 ops = (s, a, ws) ->
  step c s o = (s', RErr e) -> s' = s.
Proof. exact failed_push_unchanged_total. Qed.
Print Assumptions C02_failed_push_unchanged_total.

Theorem C02_push_ok_below_limit_total : forall c ops s0 s a ws o s' l,
  init c = Some s0 -> Forall wf_op_sized ops -> run_acc c s0 acc0 ops = (s, a, ws) ->
  step c s o = (s', ROk) -> b_limit s = Some l -> mlen (w_buf (b_w s')) < l.
Proof. exact push_ok_below_limit_total. Qed.
Print Assumptions C02_push_ok_below_limit_total.

(* The same three in states reached through any mix of primitive and
   composite operations (conversions, builder(), start_answer / start_error /
   request_axfr): with a stream target the two length octets equal the
   message length there too. *)
Theorem C02_composite_tables_counts_shim : forall c xs s0 s a ws lost,
  init c = Some s0 -> Forall wf_xop xs -> xrun c s0 acc0 xs = (s, a, ws, lost) ->
  TBound (b_w s) /\ CountInv s a /\
  (t_stream c = true ->
     stream_of s = be16 (mlen (msg_of s)) ++ msg_of s /\ mlen (msg_of s) <= 65535).
Proof. exact xreachable_inv. Qed.
Print Assumptions C02_composite_tables_counts_shim.

Theorem C02_composite_failed_push_unchanged : forall c xs s0 s a ws lost o s' e,
  init c = Some s0 -> Forall wf_xop xs -> xrun c s0 acc0 xs = (s, a, ws, lost) ->
  step c s o = (s', RErr e) -> s' = s.
Proof. exact xfailed_push_unchanged. Qed.
Print Assumptions C02_composite_failed_push_unchanged.

Theorem C02_composite_push_ok_below_limit : forall c xs s0 s a ws lost o s' l,
  init c = Some s0 -> Forall wf_xop xs -> xrun c s0 acc0 xs = (s, a, ws, lost) ->
  step c s o = (s', ROk) -> b_limit s = Some l -> mlen (w_buf (b_w s')) < l.
Proof. exact xpush_ok_below_limit. Qed.
Print Assumptions C02_composite_push_ok_below_limit.

(* push = append: an accepted push leaves every octet written so far where it
   is and only appends (the counters are kept beside the buffer and overlaid
   by msg_of). *)
Theorem C02_push_ok_appends : forall c ops s0 s a ws o s',
  init c = Some s0 -> Forall wf_op_sized ops -> run_acc c s0 acc0 ops = (s, a, ws) ->
  step c s o = (s', ROk) -> exists sfx, w_buf (b_w s') = w_buf (b_w s) ++ sfx.
Proof. exact push_ok_appends. Qed.
Print Assumptions C02_push_ok_appends.

(* Header counts in the octets: octets 4..11 of the message (QDCOUNT, ANCOUNT,
   NSCOUNT, ARCOUNT, big endian) are the numbers of accepted pushes of the
   four sections, for primitive and for composite operation sequences. *)
Theorem C02_count_octets_are_accepted_pushes : forall c ops s0 s a ws,
  init c = Some s0 -> Forall wf_op_sized ops -> run_acc c s0 acc0 ops = (s, a, ws) ->
  firstn 8 (skipn 4 (msg_of s)) =
  be16 (N.of_nat (length (a_q a))) ++ be16 (N.of_nat (length (a_an a))) ++
  be16 (N.of_nat (length (a_ns a))) ++ be16 (N.of_nat (length (a_ar a))).
Proof. exact msg_counts_are_accepted. Qed.
Print Assumptions C02_count_octets_are_accepted_pushes.

Theorem C02_composite_count_octets_are_accepted_pushes : forall c xs s0 s a ws lost,
  init c = Some s0 -> Forall wf_xop xs -> xrun c s0 acc0 xs = (s, a, ws, lost) ->
  firstn 8 (skipn 4 (msg_of s)) =
  be16 (N.of_nat (length (a_q a))) ++ be16 (N.of_nat (length (a_an a))) ++
  be16 (N.of_nat (length (a_ns a))) ++ be16 (N.of_nat (length (a_ar a))).
Proof. exact xmsg_counts_are_accepted. Qed.
Print Assumptions C02_composite_count_octets_are_accepted_pushes.

(* non-vacuity: a reachable three-entry table in eight buckets with concrete
   hasher and tags meets all premises, and a.B is found through the buckets *)
Example C02_raw_table_nonvacuous :
  match ex_state with
  | Some (s, a, ws) =>
      w_buf (b_w s) = ex_m /\ w_hash (b_w s) = [(12, 14); (14, 65535); (21, 14)] /\
      TableOf ex_slots (w_hash (b_w s)) /\
      TagsOK ex_H ex_tagf ex_m (mlen ex_m) ex_slots /\
      (forall qh, ProbeVisits ex_H ex_m (mlen ex_m) ex_slots (seq 0 (length ex_slots)) qh) /\
      raw_walk ex_H ex_tagf ex_m (mlen ex_m) ex_slots (fun _ => seq 0 (length ex_slots)) (rev [[97]; [66]]) hash_root_pos = Ok (12, []) /\
      (ex_tg (12, 14), ex_tg (14, 65535), ex_tg (21, 14)) = (112, 98, 114)
  | None => False
  end.
Proof. exact raw_table_example. Qed.

(* non-vacuity of C02_typed_options_reread for the option rows the harness
   pushes raw (edns-client-subnet, Extended DNS Error, CHAIN, DAU, EXPIRE) *)
Example C02_typed_options_nonvacuous : Forall wf_typed ex_opts /\ ~ wf_typed (8, [C05.Schema.VNum 1; C05.Schema.VNum 23; C05.Schema.VNum 0; C05.Schema.VBytes [192; 0; 3]]).
Proof. split; [exact ex_opts_wf|exact ex_subnet_bad]. Qed.

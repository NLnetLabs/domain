(* C02 -- the layout of a built message - which item is stored
   where - and that the reader returns the stored items. *)
From Coq Require Import NArith List Bool Lia ZArith.
From Coq Require Import ZifyN ZifyNat.
From DV Require Import Base.Outcome Base.Bytes Base.Names Base.PName C02.Gen C02.Model
  C02.ProofsBasic C02.ProofsRun C02.ProofsName C02.ProofsComp C02.ProofsHash C02.ProofsTop.
Import ListNotations.
Local Open Scope N_scope.

(* positions of the message body below b *)
Definition okb (b : N) : N -> Prop := fun i => 12 <= i /\ i < b.

(* the pushed name n is stored at p (possibly with another ASCII case) *)
Definition NameAtO (m : bytes) (ok : N -> Prop) (p : N) (n : name) (e1 : N) : Prop :=
  exists n', NameIn m ok p p n' e1 /\ canon n' = canon n /\ name_ok n.

(* octets b at p, all of them at admissible positions *)
Definition BytesAtO (m : bytes) (ok : N -> Prop) (p : N) (b : bytes) : Prop :=
  bytes_at m p b /\ (forall i, p <= i < p + mlen b -> ok i) /\ p + mlen b <= mlen m.

Inductive ItemsIn (m : bytes) (ok : N -> Prop) : N -> list ritem -> N -> Prop :=
| II_nil p : ItemsIn m ok p [] p
| II_bytes p bs r e : BytesAtO m ok p bs -> ItemsIn m ok (p + mlen bs) r e -> ItemsIn m ok p (RBytes bs :: r) e
| II_name p n e1 r e : NameAtO m ok p n e1 -> ItemsIn m ok e1 r e -> ItemsIn m ok p (RName n :: r) e
| II_nameu p n e1 r e : NameAtO m ok p n e1 -> ItemsIn m ok e1 r e -> ItemsIn m ok p (RNameU n :: r) e.

Definition agree_on (ok : N -> Prop) (m m' : bytes) : Prop :=
  forall i v, ok i -> get m i = Some v -> get m' i = Some v.

Lemma NameAtO_agree m m' (ok : N -> Prop) p n e1 : agree_on ok m m' -> NameAtO m ok p n e1 -> NameAtO m' ok p n e1.
Proof. intros A (n' & H & C & V). exists n'. split; [eapply NameIn_agree; eauto|auto]. Qed.
Lemma NameAtO_weaken m (ok ok' : N -> Prop) p n e1 : (forall i, ok i -> ok' i) -> NameAtO m ok p n e1 -> NameAtO m ok' p n e1.
Proof. intros W (n' & H & C & V). exists n'. split; [eapply NameIn_weaken; eauto|auto]. Qed.
Lemma NameAtO_below m (ok : N -> Prop) p n e1 : NameAtO m ok p n e1 -> NameAtO m (fun i => ok i /\ i < mlen m) p n e1.
Proof. intros (n' & H & C & V). exists n'. split; [apply NameIn_below; exact H|auto]. Qed.
Lemma NameAtO_end m (ok : N -> Prop) p n e1 : NameAtO m ok p n e1 -> p < e1 /\ e1 <= mlen m.
Proof. intros (n' & H & _). eapply NameIn_end_le; eauto. Qed.

Lemma BytesAtO_agree m m' (ok : N -> Prop) p b :
  agree_on ok m m' -> p + mlen b <= mlen m' -> BytesAtO m ok p b -> BytesAtO m' ok p b.
Proof.
  intros A L (H & O & E). split; [|split; [exact O|exact L]].
  eapply bytes_at_agree; eauto.
Qed.
Lemma BytesAtO_weaken m (ok ok' : N -> Prop) p b : (forall i, ok i -> ok' i) -> BytesAtO m ok p b -> BytesAtO m ok' p b.
Proof. intros W (H & O & E). split; [exact H|split; [intros; apply W, O; auto|exact E]]. Qed.
Lemma BytesAtO_below m (ok : N -> Prop) p b : BytesAtO m ok p b -> BytesAtO m (fun i => ok i /\ i < mlen m) p b.
Proof. intros (H & O & E). split; [exact H|split; [|exact E]]. intros i Hi. split; [apply O; exact Hi|lia]. Qed.

Lemma ItemsIn_mono m (ok : N -> Prop) p items e : ItemsIn m ok p items e -> p <= e.
Proof.
  intros H. induction H as [p | p bs r e _ _ IH | p n e1 r e Hn _ IH | p n e1 r e Hn _ IH]; try lia.
  - apply NameAtO_end in Hn. lia.
  - apply NameAtO_end in Hn. lia.
Qed.

Lemma ItemsIn_agree m m' (ok : N -> Prop) p items e :
  agree_on ok m m' -> e <= mlen m' -> ItemsIn m ok p items e -> ItemsIn m' ok p items e.
Proof.
  intros A L H. induction H as [p | p bs r e Hb Hr IH | p n e1 r e Hn Hr IH | p n e1 r e Hn Hr IH]; [constructor| | |].
  - apply II_bytes; auto. eapply BytesAtO_agree; eauto. apply ItemsIn_mono in Hr. lia.
  - eapply II_name; eauto. eapply NameAtO_agree; eauto.
  - eapply II_nameu; eauto. eapply NameAtO_agree; eauto.
Qed.
Lemma ItemsIn_weaken m (ok ok' : N -> Prop) p items e : (forall i, ok i -> ok' i) -> ItemsIn m ok p items e -> ItemsIn m ok' p items e.
Proof.
  intros W H. induction H; [constructor| | |].
  - apply II_bytes; auto. eapply BytesAtO_weaken; eauto.
  - eapply II_name; eauto. eapply NameAtO_weaken; eauto.
  - eapply II_nameu; eauto. eapply NameAtO_weaken; eauto.
Qed.
Lemma ItemsIn_below m (ok : N -> Prop) p items e : ItemsIn m ok p items e -> ItemsIn m (fun i => ok i /\ i < mlen m) p items e.
Proof.
  intros H. induction H; [constructor| | |].
  - apply II_bytes; auto. apply BytesAtO_below; auto.
  - eapply II_name; eauto. apply NameAtO_below; auto.
  - eapply II_nameu; eauto. apply NameAtO_below; auto.
Qed.
Lemma ItemsIn_end m (ok : N -> Prop) p items e : ItemsIn m ok p items e -> p <= mlen m -> p <= e /\ e <= mlen m.
Proof.
  intros H. induction H as [p | p bs r e (Hb & Ho & He) _ IH | p n e1 r e Hn _ IH | p n e1 r e Hn _ IH]; intros L.
  - lia.
  - specialize (IH He). lia.
  - apply NameAtO_end in Hn. specialize (IH ltac:(lia)). lia.
  - apply NameAtO_end in Hn. specialize (IH ltac:(lia)). lia.
Qed.

Lemma agree_on_app (ok : N -> Prop) m x : agree_on ok m (m ++ x).
Proof. exact (agree_app ok m x). Qed.

Definition wf_q (q : question) : Prop := name_ok (q_name q) /\ q_type q < 65536 /\ q_class q < 65536.
Definition wf_item (it : ritem) : Prop :=
  match it with RBytes b => True | RName n => name_ok n | RNameU n => name_ok n end.
Definition wf_r (r : rrecord) : Prop :=
  name_ok (r_owner r) /\ r_type r < 65536 /\ r_class r < 65536 /\ r_ttl r < 4294967296 /\
  Forall wf_item (r_data r).

(* a question stored in [p, e); everything read lies in [12, e) *)
Definition QAt (m : bytes) (p : N) (q : question) (e : N) : Prop :=
  exists e1, NameAtO m (okb e) p (q_name q) e1 /\
             BytesAtO m (okb e) e1 (be16 (q_type q) ++ be16 (q_class q)) /\ e = e1 + 4 /\ wf_q q /\ 12 <= p.

(* a record stored in [p, e) *)
Definition RAt (m : bytes) (p : N) (r : rrecord) (e : N) : Prop :=
  exists e1, NameAtO m (okb e) p (r_owner r) e1 /\
             BytesAtO m (okb e) e1 (be16 (r_type r) ++ be16 (r_class r) ++ be32 (r_ttl r) ++ be16 (e - (e1 + 10))) /\
             ItemsIn m (okb e) (e1 + 10) (r_data r) e /\
             e1 + 10 <= e /\ e - (e1 + 10) <= 65535 /\ wf_r r /\ 12 <= p.

Inductive QsAt (m : bytes) : N -> list question -> N -> Prop :=
| QA_nil p : QsAt m p [] p
| QA_cons p q e1 qs e : QAt m p q e1 -> QsAt m e1 qs e -> QsAt m p (q :: qs) e.
Inductive RsAt (m : bytes) : N -> list rrecord -> N -> Prop :=
| RA_nil p : RsAt m p [] p
| RA_cons p r e1 rs e : RAt m p r e1 -> RsAt m e1 rs e -> RsAt m p (r :: rs) e.

Lemma okb_mono a b i : a <= b -> okb a i -> okb b i.
Proof. unfold okb. lia. Qed.

Lemma agree_on_okb_mono a b m m' : a <= b -> agree_on (okb b) m m' -> agree_on (okb a) m m'.
Proof. intros L A i v Hi. apply A. eapply okb_mono; eauto. Qed.

Lemma QAt_agree m m' p q e : agree_on (okb e) m m' -> e <= mlen m' -> QAt m p q e -> QAt m' p q e.
Proof.
  intros A Le (e1 & Hn & Hb & E & W & L). exists e1. split; [eapply NameAtO_agree; eauto|].
  split; [eapply BytesAtO_agree; eauto|auto].
  rewrite !mlen_app. change (mlen (be16 (q_type q))) with 2. change (mlen (be16 (q_class q))) with 2. lia.
Qed.
Lemma RAt_agree m m' p r e : agree_on (okb e) m m' -> e <= mlen m' -> RAt m p r e -> RAt m' p r e.
Proof.
  intros A Le (e1 & Hn & Hb & Hi & X). exists e1. split; [eapply NameAtO_agree; eauto|].
  split; [eapply BytesAtO_agree; eauto|split; [eapply ItemsIn_agree; eauto|exact X]].
  rewrite !mlen_app. change (mlen (be16 (r_type r))) with 2. change (mlen (be16 (r_class r))) with 2.
  change (mlen (be32 (r_ttl r))) with 4. change (mlen (be16 (e - (e1 + 10)))) with 2. lia.
Qed.
Lemma QAt_end m p q e : QAt m p q e -> p < e /\ e <= mlen m.
Proof.
  intros (e1 & Hn & (Hb & _ & He) & E & _). apply NameAtO_end in Hn. rewrite !mlen_app in He.
  change (mlen (be16 (q_type q))) with 2 in He. change (mlen (be16 (q_class q))) with 2 in He. lia.
Qed.
Lemma RAt_end m p r e : RAt m p r e -> p < e /\ e <= mlen m.
Proof.
  intros (e1 & Hn & (Hb & _ & He) & Hi & L1 & _). apply NameAtO_end in Hn.
  apply ItemsIn_end in Hi; [lia|]. rewrite !mlen_app in He.
  change (mlen (be16 (r_type r))) with 2 in He. change (mlen (be16 (r_class r))) with 2 in He.
  change (mlen (be32 (r_ttl r))) with 4 in He. change (mlen (be16 (e - (e1 + 10)))) with 2 in He. lia.
Qed.

Lemma QsAt_end m p qs e : QsAt m p qs e -> p <= e /\ (p <= mlen m -> e <= mlen m).
Proof.
  induction 1 as [p|p q e1 qs e Hq _ IH]; [lia|]. apply QAt_end in Hq. lia.
Qed.
Lemma RsAt_end m p rs e : RsAt m p rs e -> p <= e /\ (p <= mlen m -> e <= mlen m).
Proof.
  induction 1 as [p|p r e1 rs e Hr _ IH]; [lia|]. apply RAt_end in Hr. lia.
Qed.

Lemma QsAt_agree m m' p qs e : agree_on (okb e) m m' -> e <= mlen m' -> QsAt m p qs e -> QsAt m' p qs e.
Proof.
  intros A Le H. induction H as [p|p q e1 qs e Hq Hs IH]; [constructor|].
  pose proof (QsAt_end _ _ _ _ Hs) as [L _].
  econstructor; [eapply QAt_agree; [eapply agree_on_okb_mono; eauto|lia|exact Hq]|apply IH; auto].
Qed.
Lemma RsAt_agree m m' p rs e : agree_on (okb e) m m' -> e <= mlen m' -> RsAt m p rs e -> RsAt m' p rs e.
Proof.
  intros A Le H. induction H as [p|p r e1 rs e Hr Hs IH]; [constructor|].
  pose proof (RsAt_end _ _ _ _ Hs) as [L _].
  econstructor; [eapply RAt_agree; [eapply agree_on_okb_mono; eauto|lia|exact Hr]|apply IH; auto].
Qed.

Lemma QsAt_snoc m p qs e q e' : QsAt m p qs e -> QAt m e q e' -> QsAt m p (qs ++ [q]) e'.
Proof. induction 1; intros Hq; cbn [app]; [econstructor; [exact Hq|constructor]|econstructor; eauto]. Qed.
Lemma RsAt_snoc m p rs e r e' : RsAt m p rs e -> RAt m e r e' -> RsAt m p (rs ++ [r]) e'.
Proof. induction 1; intros Hr; cbn [app]; [econstructor; [exact Hr|constructor]|econstructor; eauto]. Qed.
Lemma RsAt_nil_inv m p e : RsAt m p [] e -> e = p.
Proof. inversion 1; reflexivity. Qed.

Lemma rd_u16_ok m p lim v : bytes_at m p (be16 v) -> v < 65536 -> p + 2 <= lim -> rd_u16 m p lim = Ok (v, p + 2).
Proof.
  intros Hb Hv Hl. unfold rd_u16. destruct (N.ltb_spec lim (p + 2)); [lia|].
  unfold be16 in Hb. apply bytes_at_cons in Hb as [H0 Hb]. apply bytes_at_cons in Hb as [H1 _].
  rewrite H0, H1. f_equal. f_equal. apply be16_roundtrip. exact Hv.
Qed.
Lemma rd_u32_ok m p lim v : bytes_at m p (be32 v) -> v < 4294967296 -> p + 4 <= lim -> rd_u32 m p lim = Ok (v, p + 4).
Proof.
  intros Hb Hv Hl. unfold rd_u32. destruct (N.ltb_spec lim (p + 4)); [lia|].
  unfold be32 in Hb. apply bytes_at_cons in Hb as [H0 Hb]. apply bytes_at_cons in Hb as [H1 Hb].
  apply bytes_at_cons in Hb as [H2 Hb]. apply bytes_at_cons in Hb as [H3 _].
  replace (p + 1 + 1) with (p + 2) in * by lia. replace (p + 2 + 1) with (p + 3) in * by lia.
  rewrite H0, H1, H2, H3. f_equal. f_equal. apply be32_roundtrip. exact Hv.
Qed.

Lemma NameAtO_decode m (ok : N -> Prop) lim p n e1 :
  (forall i, ok i -> i < lim) -> NameAtO m ok p n e1 ->
  exists n', decode_name m p lim = Ok (n', e1) /\ name_eqb n' n = true.
Proof.
  intros OL (n' & H & C & [Hv Hw]). exists n'. split; [|apply name_eqb_spec; exact C].
  eapply decode_name_ok; eauto. split; [eapply NameIn_valid; eauto|]. rewrite (canon_wire_len _ _ C). exact Hw.
Qed.

Lemma rd_items_ok m (ok : N -> Prop) lim : (forall i, ok i -> i < lim) ->
  forall p items e, ItemsIn m ok p items e -> e <= lim -> p <= mlen m ->
  exists items', rd_items m p lim (map shape_of items) = Ok (items', e) /\ all2 item_eqb items' items = true.
Proof.
  intros OL p items e H.
  induction H as [p | p bs r e (Hb & Ho & He) Hr IH | p n e1 r e Hn Hr IH | p n e1 r e Hn Hr IH]; intros Le Lp.
  - exists []. split; reflexivity.
  - destruct (IH Le He) as (r' & E & A). pose proof (ItemsIn_end _ _ _ _ _ Hr He) as [X _].
    exists (RBytes bs :: r'). cbn [map shape_of rd_items].
    destruct (N.ltb_spec lim (p + mlen bs)); [lia|]. rewrite E. cbn [bind fst snd].
    rewrite (slice_bytes_at m p bs Hb). split; [reflexivity|].
    cbn [all2]. unfold item_eqb at 1. cbn [norm_item]. rewrite labels_eqb_refl_bytes, A. reflexivity.
  - pose proof (NameAtO_end _ _ _ _ _ Hn) as [X Y].
    destruct (IH Le Y) as (r' & E & A). destruct (NameAtO_decode m ok lim p n e1 OL Hn) as (n' & D & Q).
    exists (RName n' :: r'). cbn [map shape_of rd_items]. rewrite D. cbn [bind fst snd]. rewrite E. cbn [bind fst snd].
    split; [reflexivity|]. cbn [all2]. unfold item_eqb at 1. cbn [norm_item]. rewrite Q, A. reflexivity.
  - pose proof (NameAtO_end _ _ _ _ _ Hn) as [X Y].
    destruct (IH Le Y) as (r' & E & A). destruct (NameAtO_decode m ok lim p n e1 OL Hn) as (n' & D & Q).
    exists (RName n' :: r'). cbn [map shape_of rd_items]. rewrite D. cbn [bind fst snd]. rewrite E. cbn [bind fst snd].
    split; [reflexivity|]. cbn [all2]. unfold item_eqb at 1. cbn [norm_item]. rewrite Q, A. reflexivity.
Qed.

Lemma okb_lt e i : okb e i -> i < e.
Proof. unfold okb. lia. Qed.

Lemma rd_question_ok m p q e : QAt m p q e ->
  exists q', rd_question m p = Ok (q', e) /\ question_eqb q' q = true.
Proof.
  intros (e1 & Hn & (Hb & _ & He) & -> & (_ & Ht & Hc) & _).
  rewrite !mlen_app in He. change (mlen (be16 (q_type q))) with 2 in He. change (mlen (be16 (q_class q))) with 2 in He.
  destruct (NameAtO_decode m (okb (e1 + 4)) (mlen m) p (q_name q) e1) as (n' & D & Q); auto.
  { intros i Hi. apply okb_lt in Hi. lia. }
  apply bytes_at_split in Hb as [Hb1 Hb2]. change (mlen (be16 (q_type q))) with 2 in Hb2.
  exists (mkQ n' (q_type q) (q_class q)). unfold rd_question. rewrite D. cbn [bind fst snd].
  rewrite (rd_u16_ok m e1 (mlen m) (q_type q) Hb1 Ht) by lia. cbn [bind fst snd].
  rewrite (rd_u16_ok m (e1 + 2) (mlen m) (q_class q) Hb2 Hc) by lia. cbn [bind fst snd].
  split; [f_equal; f_equal; lia|]. unfold question_eqb; cbn [q_name q_type q_class]. rewrite Q, !N.eqb_refl. reflexivity.
Qed.

Lemma rd_record_ok m p r e : RAt m p r e ->
  exists r', rd_record m p (map shape_of (r_data r)) = Ok (r', e) /\ record_eqb r' r = true.
Proof.
  intros (e1 & Hn & (Hb & _ & He) & Hi & L1 & L2 & (_ & Ht & Hc & Hl & _) & _).
  rewrite !mlen_app in He. change (mlen (be16 (r_type r))) with 2 in He. change (mlen (be16 (r_class r))) with 2 in He.
  change (mlen (be32 (r_ttl r))) with 4 in He. change (mlen (be16 (e - (e1 + 10)))) with 2 in He.
  pose proof (ItemsIn_end _ _ _ _ _ Hi ltac:(lia)) as [X Y].
  destruct (NameAtO_decode m (okb e) (mlen m) p (r_owner r) e1) as (n' & D & Q); auto.
  { intros i Hi'. apply okb_lt in Hi'. lia. }
  apply bytes_at_split in Hb as [Hb1 Hb]. change (mlen (be16 (r_type r))) with 2 in Hb.
  apply bytes_at_split in Hb as [Hb2 Hb]. change (mlen (be16 (r_class r))) with 2 in Hb.
  apply bytes_at_split in Hb as [Hb3 Hb4]. change (mlen (be32 (r_ttl r))) with 4 in Hb4.
  destruct (rd_items_ok m (okb e) e (okb_lt e) (e1 + 10) (r_data r) e Hi ltac:(lia) ltac:(lia)) as (items' & EI & A).
  exists (mkR n' (r_type r) (r_class r) (r_ttl r) false items'). unfold rd_record. rewrite D. cbn [bind fst snd].
  rewrite (rd_u16_ok m e1 (mlen m) (r_type r) Hb1 Ht) by lia. cbn [bind fst snd].
  rewrite (rd_u16_ok m (e1 + 2) (mlen m) (r_class r) Hb2 Hc) by lia. cbn [bind fst snd].
  rewrite (rd_u32_ok m (e1 + 2 + 2) (mlen m) (r_ttl r) Hb3 Hl) by lia. cbn [bind fst snd].
  rewrite (rd_u16_ok m (e1 + 2 + 2 + 4) (mlen m) (e - (e1 + 10)) Hb4 ltac:(lia)) by lia. cbn [bind fst snd].
  replace (e1 + 2 + 2 + 4 + 2 + (e - (e1 + 10))) with e by lia.
  replace (e1 + 2 + 2 + 4 + 2) with (e1 + 10) by lia.
  destruct (N.ltb_spec (mlen m) e); [lia|]. rewrite EI. cbn [bind fst snd]. rewrite N.eqb_refl.
  split; [reflexivity|]. unfold record_eqb; cbn [r_owner r_type r_class r_ttl r_data]. rewrite Q, !N.eqb_refl, A. reflexivity.
Qed.

Lemma rd_questions_ok m p qs e : QsAt m p qs e ->
  exists qs', rd_questions m p (length qs) = Ok (qs', e) /\ all2 question_eqb qs' qs = true.
Proof.
  induction 1 as [p|p q e1 qs e Hq _ (qs' & E & A)]; [exists []; split; reflexivity|].
  destruct (rd_question_ok m p q e1 Hq) as (q' & EQ & AQ).
  exists (q' :: qs'). cbn [length rd_questions]. rewrite EQ. cbn [bind fst snd]. rewrite E. cbn [bind fst snd].
  split; [reflexivity|]. cbn [all2]. rewrite AQ, A. reflexivity.
Qed.

Lemma rd_records_ok m p rs e : RsAt m p rs e ->
  exists rs', rd_records m p (shapes_of rs) = Ok (rs', e) /\ all2 record_eqb rs' rs = true.
Proof.
  induction 1 as [p|p r e1 rs e Hr _ (rs' & E & A)]; [exists []; split; reflexivity|].
  destruct (rd_record_ok m p r e1 Hr) as (r' & ER & AR).
  exists (r' :: rs'). unfold shapes_of. cbn [map rd_records]. rewrite ER. cbn [bind fst snd].
  fold (shapes_of rs). rewrite E. cbn [bind fst snd].
  split; [reflexivity|]. cbn [all2]. rewrite AR, A. reflexivity.
Qed.

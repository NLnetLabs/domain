(* C02 -- the layout invariant holds in every state an
   arbitrary operation sequence reaches; hence reading the built message back
   yields exactly the accepted pushes. *)
From Coq Require Import NArith List Bool Lia ZArith.
From Coq Require Import ZifyN ZifyNat.
From DV Require Import Base.Outcome Base.Bytes Base.Names Base.PName C02.Gen C02.Model
  C02.ProofsBasic C02.ProofsClone C02.ProofsRun C02.ProofsName C02.ProofsComp C02.ProofsHash C02.ProofsTop
  C02.ProofsLayout C02.ProofsWrite.
Import ListNotations.
Local Open Scope N_scope.

(* the table entries below boundary b are described by octets below b alone *)
Definition CUpTo (b : N) (w : ws) : Prop :=
  Forall (fun v => v < b -> StaticOK (w_buf w) (okb b) v) (w_static w) /\
  Forall (fun kv => snd kv < b -> TreeOK (w_buf w) (okb b) (fst kv) (snd kv)) (w_tree w) /\
  Forall (fun e => fst e < b -> HashOK (w_buf w) (okb b) (fst e) (snd e)) (w_hash w).

Lemma CUpTo_of_CInv w : CInv ok12 w -> CUpTo (mlen (w_buf w)) w.
Proof.
  intros CI. apply CInv_below in CI.
  apply (CInv_weaken _ (okb (mlen (w_buf w)))) in CI; [|unfold okb, ok12; cbv beta; tauto].
  destruct CI as (A & B & C & _). split; [|split]; (eapply Forall_impl; [|eassumption]); cbv beta; auto.
Qed.

Lemma CUpTo_mono b w w' :
  agree_on (okb b) (w_buf w) (w_buf w') ->
  (forall v, In v (w_static w') -> v < b -> In v (w_static w)) ->
  (forall kv, In kv (w_tree w') -> snd kv < b -> In kv (w_tree w)) ->
  (forall e, In e (w_hash w') -> fst e < b -> In e (w_hash w)) ->
  CUpTo b w -> CUpTo b w'.
Proof.
  intros Ag I1 I2 I3 (A1 & A2 & A3). rewrite Forall_forall in A1, A2, A3.
  assert (HL : forall p l ls e, LabelAt (w_buf w) (okb b) p l ls e -> LabelAt (w_buf w') (okb b) p l ls e)
    by (intros; eapply LabelAt_agree; eauto).
  assert (HN : forall seg p ls e, NameIn (w_buf w) (okb b) seg p ls e -> NameIn (w_buf w') (okb b) seg p ls e)
    by (intros; eapply NameIn_agree; eauto).
  split; [|split]; apply Forall_forall; intros x Hx L.
  - eapply StaticOK_transfer; [exact HL|]. apply A1; auto.
  - eapply TreeOK_transfer; [exact HL|]. apply A2; auto.
  - eapply HashOK_transfer; [exact HL|exact HN|]. apply A3; auto.
Qed.

(* a write that started at p >= b does not disturb what lies below b *)
Lemma CUpTo_ext c b p w w' : Ext c p w w' -> b <= p -> CUpTo b w -> CUpTo b w'.
Proof.
  intros [[sfx B] [ns [S FS]] [nt [T FT]] [nh [H FH]] _] Hb. rewrite Forall_forall in FS, FT, FH.
  apply CUpTo_mono; [rewrite B; apply agree_on_app| | |]; intros x Hx L;
    [rewrite S in Hx|rewrite T in Hx|rewrite H in Hx]; apply in_app_iff in Hx as [Hx|Hx]; auto.
  - specialize (FS x Hx). lia.
  - specialize (FT x Hx). lia.
  - specialize (FH x Hx). lia.
Qed.

Lemma agree_on_firstn b len m : b <= len -> agree_on (okb b) m (firstn (N.to_nat len) m).
Proof.
  intros L i v [_ Hi] H. pose proof (get_some_lt _ _ _ H) as Hl.
  rewrite <- (firstn_skipn (N.to_nat len) m) in H. rewrite get_app_l in H; [exact H|].
  unfold mlen in *. rewrite firstn_length. lia.
Qed.

Lemma CUpTo_trunc b len w w' :
  w_buf w' = firstn (N.to_nat len) (w_buf w) -> incl (w_static w') (w_static w) ->
  incl (w_tree w') (w_tree w) -> incl (w_hash w') (w_hash w) -> b <= len -> CUpTo b w -> CUpTo b w'.
Proof. intros B I1 I2 I3 L. apply CUpTo_mono; auto. rewrite B. apply agree_on_firstn, L. Qed.

(* truncated to a boundary, the state satisfies the plain invariant again *)
Lemma CInv_trunc b w w' :
  w_buf w' = firstn (N.to_nat b) (w_buf w) -> incl (w_static w') (w_static w) ->
  incl (w_tree w') (w_tree w) -> incl (w_hash w') (w_hash w) -> b <= mlen (w_buf w) ->
  TBound w' -> CUpTo b w -> HU (w_buf w) (w_hash w) -> CInv ok12 w'.
Proof.
  intros B I1 I2 I3 Lb (T1 & T2 & T3) CU U.
  assert (Lw : mlen (w_buf w') = b) by (rewrite B; unfold mlen in *; rewrite firstn_length; lia).
  destruct (CUpTo_trunc b b w w' B I1 I2 I3 (N.le_refl _) CU) as (A1 & A2 & A3).
  assert (W : forall i, okb b i -> ok12 i) by (unfold okb, ok12; intros; lia).
  assert (HL : forall p l ls e, LabelAt (w_buf w') (okb b) p l ls e -> LabelAt (w_buf w') ok12 p l ls e)
    by (intros; eapply LabelAt_weaken; eauto).
  assert (HN : forall seg p ls e, NameIn (w_buf w') (okb b) seg p ls e -> NameIn (w_buf w') ok12 seg p ls e)
    by (intros; eapply NameIn_weaken; eauto).
  rewrite Lw in T1, T2, T3. rewrite Forall_forall in A1, A2, A3, T1, T2, T3.
  assert (A3' : Forall (fun e => HashOK (w_buf w') (okb b) (fst e) (snd e)) (w_hash w')).
  { apply Forall_forall. intros e He. apply A3; [exact He|apply T3, He]. }
  split; [|split; [|split]]; try apply Forall_forall.
  - intros v Hv. eapply StaticOK_transfer; [exact HL|]. apply A1; [exact Hv|apply T1, Hv].
  - intros kv Hv. eapply TreeOK_transfer; [exact HL|]. apply A2; [exact Hv|apply T2, Hv].
  - intros e He. eapply HashOK_transfer; [exact HL|exact HN|]. rewrite Forall_forall in A3'. apply A3', He.
  - destruct CU as (_ & _ & C3). rewrite Forall_forall in C3.
    apply (HU_transfer (w_buf w) (w_buf w') (okb b) (okb b) ) with (es := w_hash w); [|exact I3| |exact U].
    + intros p l ls e. apply LabelAt_agree. rewrite B. apply agree_on_firstn, N.le_refl.
    + apply Forall_forall. intros e He. apply C3; [apply I3, He|apply T3, He].
Qed.

Definition buf_of (s : bstate) : bytes := w_buf (b_w s).

Definition Sections (s : bstate) (a : acc) : Prop :=
  exists e0 e1 e2,
    QsAt (buf_of s) 12 (a_q a) e0 /\ RsAt (buf_of s) e0 (a_an a) e1 /\
    RsAt (buf_of s) e1 (a_ns a) e2 /\ RsAt (buf_of s) e2 (a_ar a) (mlen (buf_of s)) /\
    (1 <= b_sec s -> b_s1 s = e0) /\ (2 <= b_sec s -> b_s2 s = e1) /\ (3 <= b_sec s -> b_s3 s = e2).

Definition StartsIn (s : bstate) (bs : list N) : Prop :=
  In 12 bs /\ (1 <= b_sec s -> In (b_s1 s) bs) /\ (2 <= b_sec s -> In (b_s2 s) bs) /\
  (3 <= b_sec s -> In (b_s3 s) bs) /\ In (mlen (buf_of s)) bs.

Definition CMax (s : bstate) : Prop := b_qd s <= 65535 /\ b_an s <= 65535 /\ b_ns s <= 65535 /\ b_ar s <= 65535.

Definition Layout (s : bstate) (a : acc) (bs : list N) : Prop :=
  Sections s a /\ CInv ok12 (b_w s) /\
  Forall (fun b => 12 <= b <= mlen (buf_of s) /\ CUpTo b (b_w s)) bs /\
  StartsIn s bs /\ CMax s.

Definition wf_op (o : op) : Prop :=
  match o with
  | OpQ q => wf_q q
  | OpR r => wf_r r
  | OpOpt oh _ => wf_oh oh
  | _ => True
  end.

Lemma CMax_set_count s w v : CMax s -> v <= 65535 -> CMax (set_count (set_w s w) v).
Proof.
  intros (A & B & C & D) L. unfold CMax, set_count, set_w; cbn [b_sec].
  destruct (b_sec s =? 0); [|destruct (b_sec s =? 1); [|destruct (b_sec s =? 2)]]; cbn; auto.
Qed.

Lemma Sections_ext s a (s' : bstate) :
  b_sec s' = b_sec s -> b_s1 s' = b_s1 s -> b_s2 s' = b_s2 s -> b_s3 s' = b_s3 s -> buf_of s' = buf_of s ->
  Sections s a -> Sections s' a.
Proof.
  intros E0 E1 E2 E3 Eb (e0 & e1 & e2 & H). exists e0, e1, e2. rewrite Eb, E0, E1, E2, E3. exact H.
Qed.

(* bookkeeping common to all successful pushes *)
Lemma Layout_after_push c s a bs w' a' :
  BW c s -> Layout s a bs -> Ext c (mlen (buf_of s)) (b_w s) w' -> CInv ok12 w' ->
  count_of s < count_max ->
  Sections (set_count (set_w s w') (count_of s + 1)) a' ->
  Layout (set_count (set_w s w') (count_of s + 1)) a' (mlen (w_buf w') :: bs).
Proof.
  intros HB (HS & HC & HF & (I12 & I1 & I2 & I3 & Im) & HM) E CI Lc HS'.
  destruct (upd_proj s w' (count_of s + 1)) as (P0 & P1 & P2 & P3 & P4).
  pose proof (Ext_mlen _ _ _ _ E) as Lm. destruct HB as (_ & _ & L12 & _).
  unfold Layout, StartsIn, buf_of. rewrite P0, P1, P2, P3, P4.
  split; [exact HS'|]. split; [exact CI|]. split; [|split].
  - constructor.
    + split; [fold (buf_of s) in *; unfold buf_of in *; lia|apply CUpTo_of_CInv; exact CI].
    + eapply Forall_impl; [|exact HF]. cbv beta. intros b [[Lb1 Lb2] Cb]. unfold buf_of in *.
      split; [lia|]. eapply CUpTo_ext; eauto.
  - split; [right; exact I12|]. split; [intros; right; auto|]. split; [intros; right; auto|].
    split; [intros; right; auto|left; reflexivity].
  - apply CMax_set_count; auto. unfold count_max in Lc. lia.
Qed.

Lemma agree_buf_ext c p w w' e : Ext c p w w' -> agree_on (okb e) (w_buf w) (w_buf w').
Proof. intros [[sfx B] _ _ _ _]. rewrite B. apply agree_on_app. Qed.

Lemma Layout_push_q c s a bs w' q :
  BW c s -> CountInv s a -> Layout s a bs -> b_sec s = 0 ->
  Ext c (mlen (buf_of s)) (b_w s) w' -> CInv ok12 w' -> count_of s < count_max ->
  QAt (w_buf w') (mlen (buf_of s)) q (mlen (w_buf w')) ->
  Layout (set_count (set_w s w') (count_of s + 1)) (mkAcc (a_q a ++ [q]) (a_an a) (a_ns a) (a_ar a)) (mlen (w_buf w') :: bs).
Proof.
  intros HB HCt HL E0 E CI Lc HQ. eapply Layout_after_push; eauto.
  destruct HL as ((e0 & e1 & e2 & Q0 & R1 & R2 & R3 & _) & _).
  destruct HCt as (_ & _ & _ & _ & z1 & z2 & z3). rewrite E0 in z1, z2, z3.
  rewrite (z1 ltac:(lia)) in *. rewrite (z2 ltac:(lia)) in *. rewrite (z3 ltac:(lia)) in *.
  apply RsAt_nil_inv in R1, R2, R3. subst e1 e2.
  destruct (upd_proj s w' (count_of s + 1)) as (P0 & P1 & P2 & P3 & P4).
  pose proof (Ext_mlen _ _ _ _ E) as Lm. unfold buf_of in *.
  exists (mlen (w_buf w')), (mlen (w_buf w')), (mlen (w_buf w')). unfold buf_of. rewrite P0, P1, E0. cbn [a_q a_an a_ns a_ar].
  split.
  - rewrite <- R3 in Q0. eapply QsAt_snoc; [|exact HQ]. eapply QsAt_agree; [eapply agree_buf_ext; eauto|lia|exact Q0].
  - repeat split; try constructor; intros; lia.
Qed.

Lemma Layout_push_r c s a bs w' r :
  BW c s -> CountInv s a -> Layout s a bs -> b_sec s <> 0 ->
  Ext c (mlen (buf_of s)) (b_w s) w' -> CInv ok12 w' -> count_of s < count_max ->
  RAt (w_buf w') (mlen (buf_of s)) r (mlen (w_buf w')) ->
  Layout (set_count (set_w s w') (count_of s + 1)) (acc_add_r a (b_sec s) r) (mlen (w_buf w') :: bs).
Proof.
  intros HB HCt HL E0 E CI Lc HR. eapply Layout_after_push; eauto.
  destruct HL as ((e0 & e1 & e2 & Q0 & R1 & R2 & R3 & S1 & S2 & S3) & _).
  destruct HCt as (_ & _ & _ & _ & z1 & z2 & z3).
  destruct (upd_proj s w' (count_of s + 1)) as (P0 & P1 & P2 & P3 & P4).
  pose proof (Ext_mlen _ _ _ _ E) as Lm. pose proof HB as (_ & _ & _ & Ls & _). unfold buf_of in *.
  pose proof (agree_buf_ext c _ _ _ e0 E) as Ag0. pose proof (agree_buf_ext c _ _ _ e1 E) as Ag1.
  pose proof (agree_buf_ext c _ _ _ e2 E) as Ag2.
  pose proof (QsAt_end _ _ _ _ Q0) as [q1 _]. pose proof (RsAt_end _ _ _ _ R1) as [r1 _].
  pose proof (RsAt_end _ _ _ _ R2) as [r2 _]. pose proof (RsAt_end _ _ _ _ R3) as [r3 _].
  set (e' := mlen (w_buf w')) in *.
  assert (Hc : b_sec s = 1 \/ b_sec s = 2 \/ b_sec s = 3) by lia.
  unfold Sections, buf_of. rewrite P0, P1, P2, P3, P4. unfold acc_add_r.
  destruct Hc as [K|[K|K]]; rewrite K in *; cbn [N.eqb Pos.eqb a_q a_an a_ns a_ar].
  - rewrite (z2 ltac:(lia)) in *. rewrite (z3 ltac:(lia)) in *. apply RsAt_nil_inv in R2, R3.
    assert (Em : mlen (w_buf (b_w s)) = e1) by lia. rewrite Em in HR.
    exists e0, e', e'. split; [eapply QsAt_agree; [exact Ag0|lia|exact Q0]|].
    split; [eapply RsAt_snoc; [eapply RsAt_agree; [exact Ag1|lia|exact R1]|exact HR]|].
    split; [constructor|]. split; [constructor|]. split; [intros; apply S1; lia|split; intros; lia].
  - rewrite (z3 ltac:(lia)) in *. apply RsAt_nil_inv in R3.
    assert (Em : mlen (w_buf (b_w s)) = e2) by lia. rewrite Em in HR.
    exists e0, e1, e'. split; [eapply QsAt_agree; [exact Ag0|lia|exact Q0]|].
    split; [eapply RsAt_agree; [exact Ag1|lia|exact R1]|].
    split; [eapply RsAt_snoc; [eapply RsAt_agree; [exact Ag2|lia|exact R2]|exact HR]|].
    split; [constructor|]. split; [intros; apply S1; lia|split; [intros; apply S2; lia|intros; lia]].
  - exists e0, e1, e2. split; [eapply QsAt_agree; [exact Ag0|lia|exact Q0]|].
    split; [eapply RsAt_agree; [exact Ag1|lia|exact R1]|].
    split; [eapply RsAt_agree; [exact Ag2|lia|exact R2]|].
    split; [eapply RsAt_snoc; [apply (RsAt_agree (w_buf (b_w s)) (w_buf w') e2 (a_ar a) (mlen (w_buf (b_w s)))); [eapply agree_buf_ext; exact E|lia|exact R3]|exact HR]|].
    split; [intros; apply S1; lia|split; [intros; apply S2; lia|intros; apply S3; lia]].
Qed.

Lemma in_filter_le (x len : N) bs : In x bs -> x <= len -> In x (filter (fun b => b <=? len) bs).
Proof. intros H L. apply filter_In. split; [exact H|]. apply N.leb_le. exact L. Qed.

Lemma mlen_firstn_le len (m : bytes) : len <= mlen m -> mlen (firstn (N.to_nat len) m) = len.
Proof. unfold mlen. rewrite firstn_length. lia. Qed.

Lemma start_of_cases s : b_sec s <= 3 ->
  (b_sec s = 0 /\ start_of s = 12) \/ (b_sec s = 1 /\ start_of s = b_s1 s) \/
  (b_sec s = 2 /\ start_of s = b_s2 s) \/ (b_sec s = 3 /\ start_of s = b_s3 s).
Proof.
  intros L. unfold start_of, header_len.
  assert (H : b_sec s = 0 \/ b_sec s = 1 \/ b_sec s = 2 \/ b_sec s = 3) by lia.
  destruct H as [K|[K|[K|K]]]; rewrite K; cbn [N.eqb Pos.eqb]; auto.
Qed.

Lemma Layout_rewind c s a bs w :
  BW c s -> CountInv s a -> Layout s a bs ->
  w_buf w = firstn (N.to_nat (start_of s)) (w_buf (b_w s)) /\
  incl (w_static w) (w_static (b_w s)) /\ incl (w_tree w) (w_tree (b_w s)) /\ incl (w_hash w) (w_hash (b_w s)) ->
  TBound w ->
  Layout (set_count (set_w s w) 0) (acc_clear_sec a (b_sec s)) (filter (fun b => b <=? start_of s) bs).
Proof.
  intros HB HCt ((e0 & e1 & e2 & Q0 & R1 & R2 & R3 & S1 & S2 & S3) & HC & HF & (I12 & I1 & I2 & I3 & Im) & HM) HT TBw.
  pose proof HB as (_ & _ & L12 & Ls & _). destruct HCt as (_ & _ & _ & _ & z1 & z2 & z3).
  set (len := start_of s) in *. unfold buf_of in *.
  pose proof (QsAt_end _ _ _ _ Q0) as [q1 _]. pose proof (RsAt_end _ _ _ _ R1) as [r1 _].
  pose proof (RsAt_end _ _ _ _ R2) as [r2 _]. pose proof (RsAt_end _ _ _ _ R3) as [r3 _].
  assert (Hlen : In len bs /\ 12 <= len /\ len <= mlen (w_buf (b_w s)) /\
                 (b_sec s = 0 /\ len = 12 \/ b_sec s = 1 /\ len = e0 \/ b_sec s = 2 /\ len = e1 \/ b_sec s = 3 /\ len = e2)).
  { destruct (start_of_cases s Ls) as [[K E]|[[K E]|[[K E]|[K E]]]]; fold len in E; rewrite E.
    - split; [exact I12|split; [lia|split; [lia|left; auto]]].
    - split; [apply I1; lia|]. rewrite (S1 ltac:(lia)). split; [lia|split; [lia|right; left; auto]].
    - split; [apply I2; lia|]. rewrite (S2 ltac:(lia)). split; [lia|split; [lia|right; right; left; auto]].
    - split; [apply I3; lia|]. rewrite (S3 ltac:(lia)). split; [lia|split; [lia|right; right; right; auto]]. }
  destruct Hlen as (Iin & Ll1 & Ll2 & Hcase).
  destruct HT as (Bw & Is & It & Ih).
  assert (Lw : mlen (w_buf w) = len) by (rewrite Bw; apply mlen_firstn_le; exact Ll2).
  destruct (upd_proj s w 0) as (P0 & P1 & P2 & P3 & P4).
  assert (Ag : forall b, b <= len -> agree_on (okb b) (w_buf (b_w s)) (w_buf w)).
  { intros b Hb. rewrite Bw. apply agree_on_firstn. exact Hb. }
  rewrite Forall_forall in HF.
  unfold Layout, Sections, StartsIn, buf_of. rewrite P0, P1, P2, P3, P4, Lw.
  split; [|split; [|split; [|split]]].
  - unfold acc_clear_sec.
    destruct Hcase as [[K E]|[[K E]|[[K E]|[K E]]]]; rewrite K in *; cbn [N.eqb Pos.eqb a_q a_an a_ns a_ar].
    + rewrite (z1 ltac:(lia)), (z2 ltac:(lia)), (z3 ltac:(lia)). exists len, len, len. rewrite E.
      repeat split; try constructor; intros; lia.
    + rewrite (z2 ltac:(lia)), (z3 ltac:(lia)). exists e0, e0, e0. rewrite E.
      split; [eapply QsAt_agree; [apply Ag; lia|lia|exact Q0]|]. repeat split; try constructor; auto; intros; lia.
    + rewrite (z3 ltac:(lia)). exists e0, e1, e1. rewrite E.
      split; [eapply QsAt_agree; [apply Ag; lia|lia|exact Q0]|].
      split; [eapply RsAt_agree; [apply Ag; lia|lia|exact R1]|]. repeat split; try constructor; auto; intros; lia.
    + exists e0, e1, e2. rewrite E.
      split; [eapply QsAt_agree; [apply Ag; lia|lia|exact Q0]|].
      split; [eapply RsAt_agree; [apply Ag; lia|lia|exact R1]|].
      split; [eapply RsAt_agree; [apply Ag; lia|lia|exact R2]|]. repeat split; try constructor; auto.
  - destruct HC as (_ & _ & _ & CU). apply (CInv_trunc len (b_w s)); auto. apply (HF len Iin).
  - rewrite Forall_forall. intros b Hb. apply filter_In in Hb as [Hb Hle]. apply N.leb_le in Hle.
    destruct (HF b Hb) as [[Lb1 Lb2] Cb]. split; [lia|]. apply (CUpTo_trunc b len (b_w s)); auto.
  - (* the starts of the sections entered are at most len *)
    assert (Hs : (1 <= b_sec s -> b_s1 s <= len) /\ (2 <= b_sec s -> b_s2 s <= len) /\ (3 <= b_sec s -> b_s3 s <= len)) by lia.
    destruct Hs as (H1 & H2 & H3).
    split; [apply in_filter_le; auto|]. split; [intros; apply in_filter_le; auto|].
    split; [intros; apply in_filter_le; auto|]. split; [intros; apply in_filter_le; auto|].
    apply in_filter_le; [exact Iin|apply N.le_refl].
  - apply CMax_set_count; auto. lia.
Qed.

Lemma Layout_sections_only s a bs (s' : bstate) :
  b_w s' = b_w s -> b_qd s' = b_qd s -> b_an s' = b_an s -> b_ns s' = b_ns s -> b_ar s' = b_ar s ->
  Sections s' a -> StartsIn s' bs -> Layout s a bs -> Layout s' a bs.
Proof.
  intros Ew E1 E2 E3 E4 HS HSt (_ & HC & HF & _ & HM).
  unfold Layout, buf_of, CMax in *. rewrite Ew, E1, E2, E3, E4. auto.
Qed.

Lemma Layout_set_hdr s a bs h : Layout s a bs -> Layout (set_hdr s h) a bs.
Proof.
  unfold Layout, Sections, StartsIn, CMax, buf_of, set_hdr; cbn [b_w b_sec b_s1 b_s2 b_s3 b_qd b_an b_ns b_ar]. auto.
Qed.

Lemma step_layout c s a bs o s' r :
  BW c s -> CountInv s a -> Layout s a bs -> wf_op o -> step c s o = (s', r) -> alive r ->
  exists bs', Layout s' (acc_step (b_sec s) a o r) bs'.
Proof.
  intros HB HCt HL Hwf H AL. pose proof HB as (TB & SI & L12 & Lsec & R).
  pose proof HL as (HS & HC & HF & HSt & HM).
  assert (HW : WG c ok12 (b_w s)) by (split; [exact TB|split; [exact SI|exact HC]]).
  unfold step in H. destruct o as [q|rr|oh opts| | | |l|h]; cbn [step_gen] in H; cbn [wf_op] in Hwf.
  - destruct (N.eqb_spec (b_sec s) 0) as [E0|E0]; [|injection H as <- <-; exists bs; exact HL].
    destruct (mb_push_cases c s (compose_question c q) HB (compose_question_spec c q))
      as [(w' & Ef & E & X & TB' & SI' & _ & Lc)|[(e' & E)|(x & E & D)]]; rewrite E in H; injection H as <- <-.
    + destruct (wpost_ok _ _ _ _ (compose_question_post c True q (b_w s) HW L12 Hwf) Ef) as ((_ & _ & CI') & HQ & _).
      eexists. cbn [acc_step]. eapply Layout_push_q; eauto.
    + exists bs. exact HL.
    + unfold alive in AL. congruence.
  - destruct (N.eqb_spec (b_sec s) 0) as [E0|E0]; [injection H as <- <-; exists bs; exact HL|].
    destruct (mb_push_cases c s (compose_record c rr) HB (compose_record_spec c rr))
      as [(w' & Ef & E & X & TB' & SI' & _ & Lc)|[(e' & E)|(x & E & D)]]; rewrite E in H; injection H as <- <-.
    + destruct (wpost_ok _ _ _ _ (compose_record_post c True rr (b_w s) HW L12 Hwf (or_intror I)) Ef) as ((_ & _ & CI') & HR & _).
      eexists. cbn [acc_step]. eapply Layout_push_r; eauto.
    + exists bs. exact HL.
    + unfold alive in AL. congruence.
  - destruct (N.eqb_spec (b_sec s) 3) as [E0|E0]; [|injection H as <- <-; exists bs; exact HL].
    destruct (mb_push_cases c s (opt_writer c oh opts) HB (opt_writer_spec c oh opts))
      as [(w' & Ef & E & X & TB' & SI' & _ & Lc)|[(e' & E)|(x & E & D)]]; rewrite E in H; cbn [fst snd] in H; injection H as <- <-.
    + destruct (wpost_ok _ _ _ _ (opt_writer_post c True oh opts (b_w s) HW L12 Hwf (or_intror I)) Ef) as ((_ & _ & CI') & HR & _).
      eexists. cbn [acc_step]. apply Layout_set_hdr. eapply Layout_push_r; eauto. lia.
    + exists bs. apply Layout_set_hdr. exact HL.
    + unfold alive in AL. congruence.
  - (* OpNext *)
    destruct (N.ltb_spec (b_sec s) 3) as [L3|L3]; injection H as <- <-; [|exists bs; exact HL].
    exists bs. cbn [acc_step].
    destruct HS as (e0 & e1 & e2 & Q0 & R1 & R2 & R3 & S1 & S2 & S3).
    destruct HCt as (_ & _ & _ & _ & z1 & z2 & z3). destruct HSt as (I12 & I1 & I2 & I3 & Im).
    unfold buf_of in *.
    assert (Hc : b_sec s = 0 \/ b_sec s = 1 \/ b_sec s = 2) by lia.
    apply (Layout_sections_only s a bs); auto;
      try (unfold set_sec, set_start; destruct (b_sec s + 1 =? 1); [|destruct (b_sec s + 1 =? 2)]; reflexivity).
    + unfold Sections, buf_of, set_sec, set_start.
      destruct Hc as [K|[K|K]]; rewrite K in *; cbn [N.add N.eqb Pos.eqb Pos.add Pos.succ b_w b_sec b_s1 b_s2 b_s3];
        exists e0, e1, e2; (split; [exact Q0|split; [exact R1|split; [exact R2|split; [exact R3|]]]]).
      * rewrite (z1 ltac:(lia)) in R1. rewrite (z2 ltac:(lia)) in R2. rewrite (z3 ltac:(lia)) in R3.
        apply RsAt_nil_inv in R1, R2, R3. repeat split; intros; lia.
      * rewrite (z2 ltac:(lia)) in R2. rewrite (z3 ltac:(lia)) in R3.
        apply RsAt_nil_inv in R2, R3. split; [intros; apply S1; lia|]. split; intros; lia.
      * rewrite (z3 ltac:(lia)) in R3. apply RsAt_nil_inv in R3.
        split; [intros; apply S1; lia|]. split; [intros; apply S2; lia|intros; lia].
    + unfold StartsIn, buf_of, set_sec, set_start.
      destruct Hc as [K|[K|K]]; rewrite K in *; cbn [N.add N.eqb Pos.eqb Pos.add Pos.succ b_w b_sec b_s1 b_s2 b_s3];
        (split; [exact I12|]); repeat split; intros; auto; try lia; try (apply I1; lia); try (apply I2; lia).
  - (* OpBack *)
    cbn [acc_step].
    destruct (N.eqb_spec (b_sec s) 0) as [E0|E0]; [injection H as <- <-; exists bs; exact HL|].
    destruct (rewind_inv c s HB) as (w & _ & ER & HB' & ET). rewrite ER in H. injection H as <- <-.
    pose proof HB' as (TBw & _). destruct (upd_proj s w 0) as (P0 & P1 & P2 & P3 & P4). rewrite P0 in TBw.
    pose proof (Layout_rewind c s a bs w HB HCt HL ET TBw) as HL'.
    eexists. set (s1 := set_count (set_w s w) 0) in *.
    destruct HL' as (HS' & HC' & HF' & (J12 & J1 & J2 & J3 & Jm) & HM').
    assert (Es : b_sec s1 = b_sec s) by exact P1.
    apply (Layout_sections_only s1 _ _ (set_sec s1 (b_sec s - 1))); try reflexivity.
    + destruct HS' as (e0 & e1 & e2 & Q0 & R1 & R2 & R3 & S1 & S2 & S3).
      exists e0, e1, e2. unfold buf_of, set_sec in *; cbn [b_w b_sec b_s1 b_s2 b_s3].
      split; [exact Q0|split; [exact R1|split; [exact R2|split; [exact R3|]]]].
      split; [intros; apply S1; lia|split; [intros; apply S2; lia|intros; apply S3; lia]].
    + unfold StartsIn, buf_of, set_sec in *; cbn [b_w b_sec b_s1 b_s2 b_s3].
      split; [exact J12|]. split; [intros; apply J1; lia|]. split; [intros; apply J2; lia|]. split; [intros; apply J3; lia|exact Jm].
    + split; [exact HS'|split; [exact HC'|split; [exact HF'|split; [split; [exact J12|split; [exact J1|split; [exact J2|split; [exact J3|exact Jm]]]]|exact HM']]]].
  - (* OpRewind *)
    destruct (rewind_inv c s HB) as (w & _ & ER & HB' & ET). rewrite ER in H. injection H as <- <-.
    pose proof HB' as (TBw & _). destruct (upd_proj s w 0) as (P0 & _). rewrite P0 in TBw.
    eexists. cbn [acc_step]. eapply Layout_rewind; eauto.
  - injection H as <- <-. exists bs. cbn [acc_step].
    apply (Layout_sections_only s a bs); auto.
  - injection H as <- <-. exists bs. cbn [acc_step]. apply Layout_set_hdr. exact HL.
Qed.

Lemma init_layout c s0 : init c = Some s0 -> Layout s0 acc0 [12].
Proof.
  intros H. pose proof (init_good c s0 H) as (TB & SI & CI & L).
  pose proof (init_inv c s0 H) as (HB & _).
  unfold init in H. destruct (append_slice c _ empty_ws) as [w| | |] eqn:E; try discriminate. injection H as <-.
  pose proof (append_slice_mlen _ _ _ _ E) as Lm. change (mlen (w_buf empty_ws)) with 0 in Lm.
  change (mlen (repeat 0 (N.to_nat header_len))) with 12 in Lm.
  apply append_slice_ok in E as [_ (a1 & a2 & a3)].
  unfold Layout, Sections, StartsIn, CMax, buf_of; cbn [b_w b_sec b_s1 b_s2 b_s3 b_qd b_an b_ns b_ar acc0 a_q a_an a_ns a_ar].
  rewrite Lm. split; [|split; [exact CI|split; [|split]]].
  - exists 12, 12, 12. repeat split; try constructor; intros; lia.
  - constructor; [|constructor]. split; [lia|]. unfold CUpTo. rewrite a1, a2, a3. cbn. auto.
  - repeat split; try (left; reflexivity); intros; lia.
  - lia.
Qed.

Lemma run_acc_layout c ops : forall s a bs s' a' ws,
  BW c s -> CountInv s a -> Layout s a bs -> Forall wf_op ops ->
  run_acc c s a ops = (s', a', ws) -> all_alive ws ->
  BW c s' /\ CountInv s' a' /\ exists bs', Layout s' a' bs'.
Proof.
  induction ops as [|o r IH]; intros s a bs s' a' ws HB HC HL Hwf H AL; cbn [run_acc] in H.
  - injection H as <- <- <-. eauto.
  - inversion Hwf as [|? ? Ho Hr]; subst.
    destruct (step c s o) as [s1 w] eqn:ES.
    destruct (is_dead w) eqn:D.
    + injection H as <- <- <-. inversion AL; subst. unfold alive in *. congruence.
    + destruct (run_acc c s1 (acc_step (b_sec s) a o w) r) as [[s2 a2] ws2] eqn:ER.
      injection H as <- <- <-. inversion AL; subst.
      destruct (step_inv c s a o s1 w HB HC ES D) as (HB1 & HC1).
      destruct (step_layout c s a bs o s1 w HB HC HL Ho ES D) as (bs1 & HL1).
      eapply IH; eauto.
Qed.

Lemma msg_of_split s : 12 <= mlen (buf_of s) ->
  exists h, mlen h = 12 /\ msg_of s = h ++ skipn 12 (buf_of s) /\
            bytes_at (msg_of s) 4 (be16 (b_qd s) ++ be16 (b_an s) ++ be16 (b_ns s) ++ be16 (b_ar s)).
Proof.
  intros L. unfold buf_of in *.
  set (hd := firstn 4 (b_hdr s ++ [0; 0; 0; 0])).
  exists (hd ++ be16 (b_qd s) ++ be16 (b_an s) ++ be16 (b_ns s) ++ be16 (b_ar s)).
  assert (L4 : mlen hd = 4) by (subst hd; unfold mlen; rewrite firstn_length, app_length; cbn [length]; lia).
  split; [rewrite !mlen_app, L4; reflexivity|]. split; [unfold msg_of; fold hd; rewrite <- !app_assoc; reflexivity|].
  unfold msg_of. fold hd. rewrite <- L4.
  replace (hd ++ be16 (b_qd s) ++ be16 (b_an s) ++ be16 (b_ns s) ++ be16 (b_ar s) ++ skipn 12 (w_buf (b_w s)))
    with (hd ++ (be16 (b_qd s) ++ be16 (b_an s) ++ be16 (b_ns s) ++ be16 (b_ar s)) ++ skipn 12 (w_buf (b_w s)))
    by (rewrite <- !app_assoc; reflexivity).
  apply bytes_at_app.
Qed.

Lemma agree_msg_of s e : 12 <= mlen (buf_of s) -> agree_on (okb e) (buf_of s) (msg_of s).
Proof.
  intros L i v [Hi _] Hg. destruct (msg_of_split s L) as (h & Lh & E & _). rewrite E.
  rewrite get_app_r by lia. rewrite Lh.
  rewrite <- (firstn_skipn 12 (buf_of s)) in Hg. rewrite get_app_r in Hg.
  - replace (mlen (firstn 12 (buf_of s))) with 12 in Hg; [exact Hg|]. unfold mlen in *. rewrite firstn_length. lia.
  - unfold mlen in *. rewrite firstn_length. lia.
Qed.

Theorem layout_read s a bs :
  12 <= mlen (buf_of s) -> CountInv s a -> Layout s a bs ->
  exists a', rd_message (msg_of s) a = Ok a' /\ acc_eqb a' a = true.
Proof.
  intros L (c1 & c2 & c3 & c4 & _) ((e0 & e1 & e2 & Q0 & R1 & R2 & R3 & _) & _ & _ & _ & (m1 & m2 & m3 & m4)).
  destruct (msg_of_split s L) as (h & Lh & E & Hb).
  assert (Lm : mlen (msg_of s) = mlen (buf_of s)) by (apply msg_of_mlen; exact L).
  pose proof (QsAt_end _ _ _ _ Q0) as [q1 q2]. pose proof (RsAt_end _ _ _ _ R1) as [r1 r1'].
  pose proof (RsAt_end _ _ _ _ R2) as [r2 r2']. pose proof (RsAt_end _ _ _ _ R3) as [r3 r3'].
  assert (Q0' : QsAt (msg_of s) 12 (a_q a) e0) by (eapply QsAt_agree; [apply agree_msg_of; exact L|lia|exact Q0]).
  assert (R1' : RsAt (msg_of s) e0 (a_an a) e1) by (eapply RsAt_agree; [apply agree_msg_of; exact L|lia|exact R1]).
  assert (R2' : RsAt (msg_of s) e1 (a_ns a) e2) by (eapply RsAt_agree; [apply agree_msg_of; exact L|lia|exact R2]).
  assert (R3' : RsAt (msg_of s) e2 (a_ar a) (mlen (buf_of s))) by (eapply RsAt_agree; [apply agree_msg_of; exact L|lia|exact R3]).
  apply bytes_at_split in Hb as [H1 Hb]. change (mlen (be16 (b_qd s))) with 2 in Hb.
  apply bytes_at_split in Hb as [H2 Hb]. change (mlen (be16 (b_an s))) with 2 in Hb.
  apply bytes_at_split in Hb as [H3 H4]. change (mlen (be16 (b_ns s))) with 2 in H4.
  destruct (rd_questions_ok _ _ _ _ Q0') as (qs' & EQ & AQ).
  destruct (rd_records_ok _ _ _ _ R1') as (r1s & E1 & A1).
  destruct (rd_records_ok _ _ _ _ R2') as (r2s & E2 & A2).
  destruct (rd_records_ok _ _ _ _ R3') as (r3s & E3 & A3).
  exists (mkAcc qs' r1s r2s r3s). unfold rd_message.
  rewrite (rd_u16_ok _ 4 _ (b_qd s) H1) by lia. cbn [bind fst snd].
  change (4 + 2) with 6 in *. rewrite (rd_u16_ok _ 6 _ (b_an s) H2) by lia. cbn [bind fst snd].
  change (6 + 2) with 8 in *. rewrite (rd_u16_ok _ 8 _ (b_ns s) H3) by lia. cbn [bind fst snd].
  change (8 + 2) with 10 in *. rewrite (rd_u16_ok _ 10 _ (b_ar s) H4) by lia. cbn [bind fst snd].
  rewrite c1, c2, c3, c4, !N.eqb_refl. cbn [andb negb].
  rewrite EQ. cbn [bind fst snd]. rewrite E1. cbn [bind fst snd]. rewrite E2. cbn [bind fst snd].
  rewrite E3. cbn [bind fst snd]. rewrite Lm, N.eqb_refl.
  split; [reflexivity|]. unfold acc_eqb; cbn [a_q a_an a_ns a_ar]. rewrite AQ, A1, A2, A3. reflexivity.
Qed.

(* Any message assembled by any finite operation sequence parses back to
   exactly the items whose push succeeded, in order and in the right sections,
   with header counts equal to the numbers of successful pushes. *)
Theorem build_parse c ops s0 s a ws :
  init c = Some s0 -> Forall wf_op ops ->
  run_acc c s0 acc0 ops = (s, a, ws) -> all_alive ws ->
  exists a', rd_message (msg_of s) a = Ok a' /\ acc_eqb a' a = true.
Proof.
  intros HI Hwf HR AL. destruct (init_inv c s0 HI) as (HB0 & HC0).
  destruct (run_acc_layout c ops s0 acc0 [12] s a ws HB0 HC0 (init_layout c s0 HI) Hwf HR AL) as (HB & HC & bs & HL).
  destruct HB as (_ & _ & L & _). eapply layout_read; eauto.
Qed.

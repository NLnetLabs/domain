(* C02 -- the hashbrown table behind HashCompressor.

   The model keeps the entries as a list in insertion order and hash_find
   tests every entry.  The real HashTable::find(hash, eq) tests only the
   entries its probe sequence meets: all entries whose stored hash equals the
   query's hash are among them, plus whatever else shares their groups, in an
   order that depends on the capacity, on every rehash that happened while the
   table grew (insert_unique with the rehash closure |e| e.hash(message,
   hasher)) and on the random keys of the hasher.

   The hash of an entry and of a query is hasher.hash_one((label, tail)), and
   Label::hash feeds the length and the lower-cased octets (Names.
   label_hash_feed), so entries equal to the query hash like the query.
   Hence: for ANY function H standing for the keyed hasher and ANY list of
   probed entries that lies inside the table and contains every entry hashing
   like the query, the lookup answers what the model's list walk answers - in
   every reachable state.  Growth, rehashing and the hasher keys are
   unobservable. *)
From Coq Require Import NArith List Bool Lia ZArith.
From Coq Require Import ZifyN ZifyNat.
From DV Require Import Base.Outcome Base.Bytes Base.Names Base.PName C02.Gen C02.Model
  C02.ProofsBasic C02.ProofsClone C02.ProofsRun C02.ProofsName C02.ProofsComp C02.ProofsHash C02.ProofsTop
  C02.ProofsLayout C02.ProofsWrite C02.ProofsBuild C02.ProofsTotal.
Import ListNotations.
Local Open Scope N_scope.

Lemma label_eq_feed a b : label_eq a b = true -> label_hash_feed a = label_hash_feed b.
Proof. unfold label_eq. destruct label_eq_ignores_case; [apply label_eq_hash|discriminate]. Qed.

Section Probe.
(* the keyed hasher: any function of what Label::hash feeds it and of the tail *)
Variable H : bytes -> N -> N.
Variable m : bytes.
Variable ml : N.

Definition key_hash (l : label) (t : N) : N := H (label_hash_feed l) t.

(* what a probe sequence guarantees, whatever the capacity and history *)
Definition probes (es probe : list (N * N)) (l : label) (pos : N) : Prop :=
  (forall e, In e probe -> In e es) /\
  (forall e hl, In e es -> label_at m ml (fst e) = Some hl -> key_hash hl (snd e) = key_hash l pos -> In e probe).

Theorem probe_find es probe l pos :
  Forall (fun e => label_at m ml (fst e) <> None) es ->
  (forall e1 e2, In e1 es -> In e2 es -> hmatch m ml l pos e1 -> hmatch m ml l pos e2 -> fst e1 = fst e2) ->
  probes es probe l pos ->
  hash_find m ml probe l pos = hash_find m ml es l pos.
Proof.
  intros HR Hu (Hsub & Hall). apply hash_find_sub; auto.
  intros e Ie (hl & A & B & C). apply (Hall e hl Ie A). unfold key_hash. rewrite (label_eq_feed _ _ B), C. reflexivity.
Qed.

(* a chained table with nb buckets is one instance: the probed entries are
   those of the bucket of the query's hash, in any order *)
Definition bucket_of (nb : N) (e : N * N) : N :=
  match label_at m ml (fst e) with Some hl => key_hash hl (snd e) mod nb | None => 0 end.

Lemma bucket_probes nb es bucket l pos :
  (forall e, In e bucket <-> In e es /\ bucket_of nb e = key_hash l pos mod nb) ->
  probes es bucket l pos.
Proof.
  intros Hb. split.
  - intros e He. apply Hb in He. tauto.
  - intros e hl Ie A K. apply Hb. split; [exact Ie|]. unfold bucket_of. rewrite A, K. reflexivity.
Qed.
End Probe.

(* in every state an operation sequence can reach *)
Theorem hash_growth_unobservable c ops s0 s a ws H l pos probe :
  init c = Some s0 -> Forall wf_op ops -> run_acc c s0 acc0 ops = (s, a, ws) -> all_alive ws ->
  probes H (w_buf (b_w s)) (mlen (w_buf (b_w s))) (w_hash (b_w s)) probe l pos ->
  hash_find (w_buf (b_w s)) (mlen (w_buf (b_w s))) probe l pos =
  hash_find (w_buf (b_w s)) (mlen (w_buf (b_w s))) (w_hash (b_w s)) l pos.
Proof.
  intros HI Hwf HR AL HP. destruct (reachable_hash_unique c ops s0 s a ws l pos HI Hwf HR AL) as (R & U).
  apply (probe_find H); assumption.
Qed.

Corollary hash_buckets_unobservable c ops s0 s a ws H nb l pos bucket :
  init c = Some s0 -> Forall wf_op ops -> run_acc c s0 acc0 ops = (s, a, ws) -> all_alive ws ->
  (forall e, In e bucket <-> In e (w_hash (b_w s)) /\
             bucket_of H (w_buf (b_w s)) (mlen (w_buf (b_w s))) nb e = key_hash H l pos mod nb) ->
  hash_find (w_buf (b_w s)) (mlen (w_buf (b_w s))) bucket l pos =
  hash_find (w_buf (b_w s)) (mlen (w_buf (b_w s))) (w_hash (b_w s)) l pos.
Proof.
  intros HI Hwf HR AL Hb. eapply hash_growth_unobservable; eauto. eapply bucket_probes; eauto.
Qed.

(* C02 -- every writer only extends the buffer and the compressor
   tables (new table entries lie at or above the position where the write
   started and below 0x4000); truncating back to that position restores the
   writer state exactly.  Consequences: a failed push leaves the whole builder
   state unchanged; table entries are always inside the buffer and below
   0x4000; the stream length octets equal the message length (<= 65535). *)
From Coq Require Import NArith List Bool Lia.
From Coq Require Import ZifyN ZifyNat.
From DV Require Import Base.Outcome Base.Bytes Base.Names Base.PName C02.Gen C02.Model.
Import ListNotations.
Local Open Scope N_scope.

Lemma mlen_app a b : mlen (a ++ b) = mlen a + mlen b.
Proof. unfold mlen. rewrite app_length. lia. Qed.
Lemma mlen_cons x a : mlen (x :: a) = 1 + mlen a.
Proof. unfold mlen. cbn [length]. lia. Qed.

Lemma ws_eta w : mkWs (w_buf w) (w_shim w) (w_static w) (w_tree w) (w_hash w) = w.
Proof. destruct w; reflexivity. Qed.

(* every table entry is inside the buffer and expressible in 14 bits *)
Definition TBound (w : ws) : Prop :=
  Forall (fun e => e < mlen (w_buf w) /\ e < 16384) (w_static w) /\
  Forall (fun kv => snd kv < mlen (w_buf w) /\ snd kv < 16384) (w_tree w) /\
  Forall (fun e => fst e < mlen (w_buf w) /\ fst e < 16384) (w_hash w).

(* StreamTarget: the two length octets hold the message length *)
Definition SInv (c : tcfg) (w : ws) : Prop :=
  t_stream c = true -> w_shim w = mlen (w_buf w) /\ mlen (w_buf w) <= 65535.

Record Ext (c : tcfg) (p : N) (w w' : ws) : Prop := mkExt {
  ext_buf : exists sfx, w_buf w' = w_buf w ++ sfx;
  ext_static : exists nw, w_static w' = w_static w ++ nw /\ Forall (fun e => p <= e < 16384) nw;
  ext_tree : exists nw, w_tree w' = nw ++ w_tree w /\ Forall (fun kv => p <= snd kv < 16384) nw;
  ext_hash : exists nw, w_hash w' = w_hash w ++ nw /\ Forall (fun e => p <= fst e < 16384) nw;
  ext_shim : t_stream c = false -> w_shim w' = w_shim w }.

Definition same_tables (w w' : ws) : Prop :=
  w_static w' = w_static w /\ w_tree w' = w_tree w /\ w_hash w' = w_hash w.

(* x is w with octets appended and nothing else changed (behind a StreamTarget
   the length octets may differ): what appends leave, also when they fail *)
Definition Grew (c : tcfg) (w x : ws) : Prop :=
  (exists sfx, w_buf x = w_buf w ++ sfx) /\ same_tables w x /\ (t_stream c = false -> w_shim x = w_shim w).

Lemma Grew_refl c w : Grew c w w.
Proof. split; [exists []; symmetry; apply app_nil_r|]. repeat split. Qed.

Lemma Grew_trans c w x y : Grew c w x -> Grew c x y -> Grew c w y.
Proof.
  intros ((s1 & B1) & (a1 & a2 & a3) & S1) ((s2 & B2) & (b1 & b2 & b3) & S2).
  split; [exists (s1 ++ s2); rewrite B2, B1, app_assoc; reflexivity|].
  split; [repeat split; congruence|]. intros St. rewrite S2, S1; auto.
Qed.

Lemma Grew_Ext c p w x : Grew c w x -> Ext c p w x.
Proof.
  intros (B & (a1 & a2 & a3) & Sh). split; [exact B| | | |exact Sh]; exists []; rewrite ?app_nil_r; auto.
Qed.

(* the table bound looks at the tables and at the length of the buffer only *)
Lemma TBound_same w w' : TBound w -> same_tables w w' -> mlen (w_buf w) <= mlen (w_buf w') -> TBound w'.
Proof.
  intros (A & B & C) (a1 & a2 & a3) L. unfold TBound. rewrite a1, a2, a3.
  repeat split; (eapply Forall_impl; [|eassumption]); cbv beta; intros; lia.
Qed.

Lemma Ext_refl c p w : Ext c p w w.
Proof. apply Grew_Ext, Grew_refl. Qed.

Lemma Ext_trans c p p1 w w1 w2 :
  Ext c p w w1 -> Ext c p1 w1 w2 -> p <= p1 -> Ext c p w w2.
Proof.
  intros [[s1 B1] [n1 [S1 F1]] [t1 [T1 G1]] [h1 [H1 K1]] Sh1]
         [[s2 B2] [n2 [S2 F2]] [t2 [T2 G2]] [h2 [H2 K2]] Sh2] Hp.
  assert (W : forall A (f : A -> N) l, Forall (fun x => p1 <= f x < 16384) l -> Forall (fun x => p <= f x < 16384) l).
  { intros A f l. apply Forall_impl. intros; lia. }
  split.
  - exists (s1 ++ s2). rewrite B2, B1, app_assoc. reflexivity.
  - exists (n1 ++ n2). split; [rewrite S2, S1, app_assoc; reflexivity|].
    apply Forall_app; split; [exact F1|apply (W _ (fun e => e)), F2].
  - exists (t2 ++ t1). split; [rewrite T2, T1, app_assoc; reflexivity|].
    apply Forall_app; split; [apply (W _ snd), G2|exact G1].
  - exists (h1 ++ h2). split; [rewrite H2, H1, app_assoc; reflexivity|].
    apply Forall_app; split; [exact K1|apply (W _ fst), K2].
  - intros E. rewrite Sh2, Sh1; auto.
Qed.

Lemma Ext_mlen c p w w' : Ext c p w w' -> mlen (w_buf w) <= mlen (w_buf w').
Proof. intros [[s B] _ _ _ _]. rewrite B, mlen_app. lia. Qed.

(* what a writer guarantees *)
Definition WSpec (c : tcfg) (f : ws -> wres) : Prop :=
  forall w, TBound w -> SInv c w ->
    match f w with
    | WOk w' => Ext c (mlen (w_buf w)) w w' /\ TBound w' /\ SInv c w'
    | WErr w' => Ext c (mlen (w_buf w)) w w'
    | _ => True
    end.

Definition NoDead (r : wres) : Prop := match r with WPanic _ | WFuel => False | _ => True end.

Lemma WSpec_step c w w1 g :
  Ext c (mlen (w_buf w)) w w1 -> TBound w1 -> SInv c w1 -> WSpec c g ->
  match g w1 with
  | WOk w' => Ext c (mlen (w_buf w)) w w' /\ TBound w' /\ SInv c w'
  | WErr w' => Ext c (mlen (w_buf w)) w w'
  | _ => True
  end.
Proof.
  intros E1 TB1 SI1 Hg. specialize (Hg w1 TB1 SI1). pose proof (Ext_mlen _ _ _ _ E1) as Hm.
  destruct (g w1) as [w2|w2| |]; auto.
  - destruct Hg as (E2 & TB2 & SI2). split; [|split]; auto. eapply Ext_trans; eauto.
  - eapply Ext_trans; eauto.
Qed.

Lemma WSpec_bind c f g : WSpec c f -> WSpec c g -> WSpec c (fun w => wbind (f w) g).
Proof.
  intros Hf Hg w TB SI. specialize (Hf w TB SI). cbv beta.
  destruct (f w) as [w1|w1| |]; cbn [wbind]; auto.
  destruct Hf as (E1 & TB1 & SI1). apply WSpec_step; assumption.
Qed.

Lemma WSpec_ok c : WSpec c WOk.
Proof. intros w TB SI. split; [apply Ext_refl|]. split; auto. Qed.

(* does a buffer of n message octets fit the target *)
Definition fits (c : tcfg) (n : N) : bool :=
  match t_cap c with
  | Some k => n + (if t_stream c then stream_prefix_len else 0) <=? k
  | None => true
  end && (if t_stream c then n <=? shim_max else true).

Lemma fits_mono c n m : m <= n -> fits c n = true -> fits c m = true.
Proof.
  unfold fits. intros L H. apply andb_true_iff in H as [H1 H2]. apply andb_true_iff. split.
  - destruct (t_cap c); [|reflexivity]. apply N.leb_le in H1. apply N.leb_le. lia.
  - destruct (t_stream c); [|reflexivity]. apply N.leb_le in H2. apply N.leb_le. lia.
Qed.

Lemma fits_shim c n : fits c n = true -> t_stream c = true -> n <= 65535.
Proof. unfold fits. intros F St. rewrite St in F. apply andb_true_iff in F as [_ F]. apply N.leb_le in F. exact F. Qed.

(* w with s appended and the stream length octets brought up to date *)
Definition grown (c : tcfg) (w : ws) (s : bytes) : ws :=
  mkWs (w_buf w ++ s) (if t_stream c then mlen (w_buf w ++ s) else w_shim w) (w_static w) (w_tree w) (w_hash w).

Lemma grown_grown c w r s : grown c (grown c w r) s = grown c w (r ++ s).
Proof. unfold grown; cbn [w_buf w_shim w_static w_tree w_hash]. rewrite <- app_assoc. destruct (t_stream c); reflexivity. Qed.

Lemma grown_nil c w : SInv c w -> grown c w [] = w.
Proof.
  intros SI. unfold grown. rewrite app_nil_r. destruct (t_stream c) eqn:St; [|apply ws_eta].
  destruct (SI St) as [<- _]. apply ws_eta.
Qed.

Lemma Grew_grown c w s : Grew c w (grown c w s).
Proof. split; [exists s; reflexivity|]. split; [repeat split|]. unfold grown; cbn [w_shim]. intros ->. reflexivity. Qed.

Lemma grown_SInv c w s : fits c (mlen (w_buf w) + mlen s) = true -> SInv c (grown c w s).
Proof.
  intros F St. unfold grown; cbn [w_buf w_shim]. rewrite St, mlen_app. split; [reflexivity|exact (fits_shim c _ F St)].
Qed.

Lemma grown_spec c p w s : TBound w -> fits c (mlen (w_buf w) + mlen s) = true ->
  Ext c p w (grown c w s) /\ TBound (grown c w s) /\ SInv c (grown c w s).
Proof.
  intros TB F. split; [apply Grew_Ext, Grew_grown|]. split; [|apply grown_SInv, F].
  apply (TBound_same w); [exact TB|repeat split|]. cbn [grown w_buf]. rewrite mlen_app. lia.
Qed.

(* OctetsBuilder::append_slice, exactly *)
Lemma append_slice_cases c s w :
  if fits c (mlen (w_buf w) + mlen s) then append_slice c s w = WOk (grown c w s)
  else exists x, append_slice c s w = WErr x /\ Grew c w x.
Proof.
  unfold append_slice, fits, inner_len, grown.
  replace (mlen (w_buf w) + (if t_stream c then stream_prefix_len else 0) + mlen s)
    with (mlen (w_buf w) + mlen s + (if t_stream c then stream_prefix_len else 0)) by lia.
  destruct (match t_cap c with Some k => _ <=? k | None => true end); cbn [negb andb];
    [|exists w; split; [reflexivity|apply Grew_refl]].
  unfold set_shim, set_buf; cbn [w_buf w_shim w_static w_tree w_hash]. rewrite mlen_app.
  destruct (t_stream c) eqn:St; [|reflexivity].
  destruct (_ <=? shim_max); [reflexivity|]. eexists. split; [reflexivity|].
  split; [exists s; reflexivity|]. split; [repeat split|]. congruence.
Qed.

Lemma append_slice_inv c s w w' : append_slice c s w = WOk w' ->
  w' = grown c w s /\ fits c (mlen (w_buf w) + mlen s) = true.
Proof.
  intros H. pose proof (append_slice_cases c s w) as C. destruct (fits c _).
  - rewrite H in C. injection C as ->. auto.
  - destruct C as (x & C & _). congruence.
Qed.

Lemma append_slice_ok c s w w' :
  append_slice c s w = WOk w' -> w_buf w' = w_buf w ++ s /\ same_tables w w'.
Proof. intros H. apply append_slice_inv in H as [-> _]. repeat split. Qed.

Lemma append_slice_mlen c s w w' : append_slice c s w = WOk w' -> mlen (w_buf w') = mlen (w_buf w) + mlen s.
Proof. intros H. apply append_slice_ok in H as [-> _]. apply mlen_app. Qed.

Lemma WSpec_grown c f s :
  (forall w, if fits c (mlen (w_buf w) + mlen s) then f w = WOk (grown c w s)
             else exists x, f w = WErr x /\ Grew c w x) -> WSpec c f.
Proof.
  intros H w TB SI. specialize (H w). destruct (fits c _) eqn:F.
  - rewrite H. apply grown_spec; assumption.
  - destruct H as (x & -> & G). apply Grew_Ext, G.
Qed.

Lemma append_slice_spec c s : WSpec c (append_slice c s).
Proof. apply (WSpec_grown c _ s), append_slice_cases. Qed.

(* a chain of appends succeeds, with the concatenation appended, iff the total fits *)
Fixpoint appends (c : tcfg) (l : list bytes) (w : ws) : wres :=
  match l with [] => WOk w | s :: r => wbind (append_slice c s w) (appends c r) end.

Lemma appends_cons_cases c : forall l s w,
  if fits c (mlen (w_buf w) + mlen (s ++ concat l)) then appends c (s :: l) w = WOk (grown c w (s ++ concat l))
  else exists x, appends c (s :: l) w = WErr x /\ Grew c w x.
Proof.
  induction l as [|s2 l IH]; intros s w; cbn [appends concat];
    pose proof (append_slice_cases c s w) as C.
  - rewrite app_nil_r. destruct (fits c _); [rewrite C; reflexivity|].
    destruct C as (x & -> & G). exists x. auto.
  - destruct (fits c (mlen (w_buf w) + mlen s)) eqn:F1.
    + rewrite C. cbn [wbind]. specialize (IH s2 (grown c w s)). cbn [appends] in IH.
      unfold grown at 1 in IH; cbn [w_buf] in IH.
      replace (mlen (w_buf w ++ s) + mlen (s2 ++ concat l)) with (mlen (w_buf w) + mlen (s ++ s2 ++ concat l)) in IH
        by (rewrite !mlen_app; lia).
      destruct (fits c (mlen (w_buf w) + mlen (s ++ s2 ++ concat l))).
      * rewrite IH. rewrite grown_grown. reflexivity.
      * destruct IH as (x & -> & G). exists x. split; [reflexivity|]. eapply Grew_trans; [apply Grew_grown|exact G].
    + destruct (fits c (mlen (w_buf w) + mlen (s ++ s2 ++ concat l))) eqn:F2.
      * apply (fits_mono c _ (mlen (w_buf w) + mlen s)) in F2; [congruence|]. rewrite mlen_app. lia.
      * destruct C as (x & -> & G). exists x. auto.
Qed.

Lemma appends_cases c l w : SInv c w -> fits c (mlen (w_buf w)) = true ->
  if fits c (mlen (w_buf w) + mlen (concat l)) then appends c l w = WOk (grown c w (concat l))
  else exists x, appends c l w = WErr x /\ Grew c w x.
Proof.
  intros SI F. destruct l as [|s l]; [|apply appends_cons_cases].
  cbn [appends concat]. change (mlen []) with 0. rewrite N.add_0_r, F, grown_nil by exact SI. reflexivity.
Qed.

Lemma appends_spec c l : WSpec c (appends c l).
Proof.
  induction l as [|s r IH]; [apply WSpec_ok|].
  exact (WSpec_bind c (append_slice c s) (appends c r) (append_slice_spec c s) IH).
Qed.

Fixpoint appends_then (c : tcfg) (l : list bytes) (k : ws -> wres) (w : ws) : wres :=
  match l with [] => k w | s :: r => wbind (append_slice c s w) (appends_then c r k) end.

Lemma appends_then_eq c k : forall l w, appends_then c l k w = wbind (appends c l w) k.
Proof.
  induction l as [|s r IH]; intros w; cbn [appends_then appends]; [reflexivity|].
  destruct (append_slice c s w); cbn [wbind]; [apply IH|reflexivity..].
Qed.

Lemma appends_then_cases c l s k w :
  if fits c (mlen (w_buf w) + mlen (s ++ concat l)) then appends_then c (s :: l) k w = k (grown c w (s ++ concat l))
  else exists x, appends_then c (s :: l) k w = WErr x /\ Grew c w x.
Proof.
  rewrite appends_then_eq. pose proof (appends_cons_cases c l s w) as C. destruct (fits c _).
  - rewrite C. reflexivity.
  - destruct C as (x & -> & G). exists x. auto.
Qed.

Lemma appends_snoc c s : forall l w, appends_then c l (append_slice c s) w = appends c (l ++ [s]) w.
Proof.
  induction l as [|a l IH]; intros w; cbn [appends_then appends app].
  - destruct (append_slice c s w); reflexivity.
  - destruct (append_slice c a w); cbn [wbind]; [apply IH|reflexivity..].
Qed.

Lemma label_compose_cases c l w :
  if fits c (mlen (w_buf w) + mlen (mlen l :: l)) then label_compose c l w = WOk (grown c w (mlen l :: l))
  else exists x, label_compose c l w = WErr x /\ Grew c w x.
Proof.
  assert (E : label_compose c l w = appends c [[mlen l]; l] w).
  { unfold label_compose. cbn [appends]. destruct (append_slice c _ w) as [w1| | |]; cbn [wbind]; try reflexivity.
    destruct (append_slice c l w1); reflexivity. }
  rewrite E. pose proof (appends_cons_cases c [l] [mlen l] w) as C. cbn [concat app] in C.
  rewrite app_nil_r in C. exact C.
Qed.

Lemma label_compose_ok c l w w' :
  label_compose c l w = WOk w' -> w_buf w' = w_buf w ++ (mlen l :: l) /\ same_tables w w'.
Proof.
  intros H. pose proof (label_compose_cases c l w) as C. destruct (fits c _).
  - rewrite H in C. injection C as ->. repeat split.
  - destruct C as (x & C & _). congruence.
Qed.

Lemma label_compose_spec c l : WSpec c (label_compose c l).
Proof. apply (WSpec_grown c _ (mlen l :: l)), label_compose_cases. Qed.

Lemma write_labels_spec c ls : WSpec c (write_labels c ls).
Proof.
  induction ls as [|l r IH]; [apply WSpec_ok|].
  exact (WSpec_bind c (label_compose c l) (write_labels c r) (label_compose_spec c l) IH).
Qed.

Lemma write_labels_ok c ls : forall w w',
  write_labels c ls w = WOk w' -> w_buf w' = w_buf w ++ wire_rel ls /\ same_tables w w'.
Proof.
  induction ls as [|l r IH]; intros w w' H; cbn [write_labels] in H.
  - injection H as <-. rewrite app_nil_r. repeat split.
  - destruct (label_compose c l w) as [w1|w1| |] eqn:E1; cbn [wbind] in H; try discriminate.
    apply label_compose_ok in E1 as [B1 (a1 & a2 & a3)]. apply IH in H as [B2 (b1 & b2 & b3)].
    split; [|repeat split; congruence].
    rewrite B2, B1, <- app_assoc. reflexivity.
Qed.

Lemma write_root_spec c : WSpec c (write_root c).
Proof. apply append_slice_spec. Qed.
Lemma write_ptr_spec c tag pos : WSpec c (write_ptr c tag pos).
Proof. apply append_slice_spec. Qed.

Lemma NoDead_bind r g : NoDead r -> (forall w1, r = WOk w1 -> NoDead (g w1)) -> NoDead (wbind r g).
Proof. destruct r; cbn [wbind NoDead]; auto. Qed.

Lemma append_slice_nodead c s w : NoDead (append_slice c s w).
Proof. pose proof (append_slice_cases c s w) as C. destruct (fits c _); [rewrite C|destruct C as (x & -> & _)]; exact I. Qed.
Lemma label_compose_nodead c l w : NoDead (label_compose c l w).
Proof. pose proof (label_compose_cases c l w) as C. destruct (fits c _); [rewrite C|destruct C as (x & -> & _)]; exact I. Qed.
Lemma write_labels_nodead c ls : forall w, NoDead (write_labels c ls w).
Proof.
  induction ls as [|l r IH]; intros w; cbn [write_labels]; [exact I|].
  apply NoDead_bind; [apply label_compose_nodead|intros; apply IH].
Qed.

Lemma take_while_app_old (f : N -> bool) old nw :
  Forall (fun e => f e = true) old -> Forall (fun e => f e = false) nw ->
  take_while f (old ++ nw) = old.
Proof.
  intros Fo Fn. induction Fo as [|x old Hx _ IH]; cbn [app take_while].
  - destruct Fn as [|y nw Hy _]; [reflexivity|]. cbn [take_while]. rewrite Hy. reflexivity.
  - rewrite Hx, IH. reflexivity.
Qed.

Lemma filter_all {A} (f : A -> bool) l : Forall (fun e => f e = true) l -> filter f l = l.
Proof. induction 1 as [|x l Hx _ IH]; cbn [filter]; [reflexivity|]. rewrite Hx, IH. reflexivity. Qed.
Lemma filter_none {A} (f : A -> bool) l : Forall (fun e => f e = false) l -> filter f l = [].
Proof. induction 1 as [|x l Hx _ IH]; cbn [filter]; [reflexivity|]. rewrite Hx, IH. reflexivity. Qed.

(* trimming the tables at the position where a write started removes exactly
   the entries the write added; from 0xC000 on the code does not trim, but no
   entry is that high *)
Lemma trunc_tables_back p w x :
  Forall (fun e => e < p /\ e < 16384) (w_static w) ->
  Forall (fun kv => snd kv < p /\ snd kv < 16384) (w_tree w) ->
  Forall (fun e => fst e < p /\ fst e < 16384) (w_hash w) ->
  (exists nw, w_static x = w_static w ++ nw /\ Forall (fun e => p <= e < 16384) nw) ->
  (exists nw, w_tree x = nw ++ w_tree w /\ Forall (fun kv => p <= snd kv < 16384) nw) ->
  (exists nw, w_hash x = w_hash w ++ nw /\ Forall (fun e => p <= fst e < 16384) nw) ->
  trunc_tables p x = mkWs (w_buf x) (w_shim x) (w_static w) (w_tree w) (w_hash w).
Proof.
  intros TS TT TH [ns [S FS]] [nt [T FT]] [nh [H FH]].
  assert (Old : forall A (f : A -> N) l, Forall (fun e => f e < p /\ f e < 16384) l -> Forall (fun e => (f e <? p) = true) l).
  { intros A f l. apply Forall_impl. intros e [He _]. apply N.ltb_lt, He. }
  assert (New : forall A (f : A -> N) l, Forall (fun e => p <= f e < 16384) l ->
                  Forall (fun e => (f e <? p) = false) l /\ (49152 <= p -> l = [])).
  { intros A f l F. split; [eapply Forall_impl; [|exact F]; intros e He; apply N.ltb_ge, He|].
    destruct F as [|e l He _]; [reflexivity|lia]. }
  destruct (New _ (fun e => e) _ FS) as [Ns Es]. destruct (New _ snd _ FT) as [Nt Et]. destruct (New _ fst _ FH) as [Nh Eh].
  unfold trunc_tables, static_trunc_guard, tree_trunc_guard, hash_trunc_guard.
  destruct x as [xb xsh xs xt xh]. cbn [w_buf w_shim w_static w_tree w_hash] in *. subst xs xt xh.
  destruct (N.ltb_spec p 49152) as [L|L]; unfold set_static, set_tree, set_hash; cbn [w_buf w_shim w_static w_tree w_hash].
  - rewrite (take_while_app_old _ _ _ (Old _ (fun e => e) _ TS) Ns), !filter_app.
    rewrite (filter_none _ _ Nt), (filter_all _ _ (Old _ snd _ TT)), (filter_all _ _ (Old _ fst _ TH)), (filter_none _ _ Nh), app_nil_r.
    reflexivity.
  - rewrite (Es L), (Et L), (Eh L), !app_nil_r. reflexivity.
Qed.

(* truncating back to where a write started undoes it *)
Lemma truncate_back c w w' :
  TBound w -> SInv c w -> Ext c (mlen (w_buf w)) w w' ->
  truncate c (mlen (w_buf w)) w' = WOk w.
Proof.
  intros (TS & TT & TH) SI [[sfx B] ES ET EH Sh].
  assert (Hb : firstn (N.to_nat (mlen (w_buf w))) (w_buf w') = w_buf w).
  { rewrite B. unfold mlen. rewrite Nat2N.id. apply take_app_length. }
  unfold truncate. rewrite Hb. destruct (t_stream c) eqn:St.
  - destruct (SI St) as [Hs Hl]. destruct (N.leb_spec (mlen (w_buf w)) shim_max) as [L|L]; [|unfold shim_max in L; lia].
    rewrite (trunc_tables_back (mlen (w_buf w)) w) by assumption. cbn [set_shim set_buf w_buf w_shim].
    rewrite <- Hs, ws_eta. reflexivity.
  - rewrite (trunc_tables_back (mlen (w_buf w)) w) by assumption. cbn [set_buf w_buf w_shim].
    rewrite (Sh eq_refl), ws_eta. reflexivity.
Qed.

(* one round of the Static/Tree loop: an entry for the current position is
   added to one table (w0), then the label is written: only then does the new
   entry lie inside the buffer *)
Lemma insert_then_label c l w w0 (rest : ws -> wres) :
  TBound w -> SInv c w -> w_buf w0 = w_buf w ->
  Ext c (mlen (w_buf w)) w w0 ->
  (forall b, mlen (w_buf w) < mlen b -> TBound (set_buf w0 b)) ->
  WSpec c rest ->
  match wbind (label_compose c l w0) rest with
  | WOk w' => Ext c (mlen (w_buf w)) w w' /\ TBound w' /\ SInv c w'
  | WErr w' => Ext c (mlen (w_buf w)) w w'
  | _ => True
  end.
Proof.
  intros TB SI Hb E0 TB0 Hrest.
  pose proof (label_compose_cases c l w0) as C. destruct (fits c _) eqn:F.
  - rewrite C. cbn [wbind]. apply WSpec_step; [| |apply grown_SInv, F|exact Hrest].
    + eapply Ext_trans; [exact E0|apply Grew_Ext, Grew_grown|apply N.le_refl].
    + apply (TBound_same (set_buf w0 (w_buf w0 ++ mlen l :: l))); [apply TB0|repeat split|apply N.le_refl].
      rewrite Hb, mlen_app, mlen_cons. lia.
  - destruct C as (x & -> & G). eapply Ext_trans; [exact E0|apply Grew_Ext, G|apply N.le_refl].
Qed.

Lemma static_acn_spec c ls : WSpec c (static_acn c ls).
Proof.
  induction ls as [|l rest IH]; intros w TB SI; cbn [static_acn].
  - apply write_root_spec; auto.
  - destruct (static_get (w_buf w) (mlen (w_buf w)) (w_static w) (l :: rest)) as [[pos|]|]; [apply write_ptr_spec; auto| |exact I].
    destruct (static_insert (mlen (w_buf w)) (w_static w)) as [es'|] eqn:EI.
    + unfold static_insert in EI.
      destruct ((mlen (w_buf w) <? static_ptr_limit) && _) eqn:G; [|discriminate]. injection EI as <-.
      apply andb_true_iff in G as [G _]. apply N.ltb_lt in G. unfold static_ptr_limit in G.
      apply insert_then_label; auto.
      * split; cbn [set_static w_buf w_static w_tree w_hash w_shim]; auto;
          [exists []; symmetry; apply app_nil_r | | exists []; auto | exists []; rewrite app_nil_r; auto].
        exists [mlen (w_buf w)]. split; [reflexivity|]. constructor; [lia|constructor].
      * intros b Hb. destruct (TBound_same w (set_buf w b) TB) as (A & B & C); [repeat split|cbn; lia|].
        split; [|split; [exact B|exact C]]. cbn [set_buf set_static w_buf w_static] in *.
        apply Forall_app; split; [exact A|]. constructor; [lia|constructor].
    + apply (WSpec_bind c (write_labels c (l :: rest)) (write_root c)); auto using write_labels_spec, write_root_spec.
Qed.

Lemma bytes_eqb_eq a b : bytes_eqb a b = true <-> a = b.
Proof.
  revert b; induction a as [|x a IH]; intros [|y b]; cbn [bytes_eqb]; split; intros H; try reflexivity; try discriminate.
  - apply andb_true_iff in H as [H1 H2]. apply N.eqb_eq in H1. apply IH in H2. congruence.
  - injection H as -> ->. rewrite N.eqb_refl. apply IH. reflexivity.
Qed.
Lemma labels_eqb_refl_bytes a : bytes_eqb a a = true.
Proof. apply bytes_eqb_eq. reflexivity. Qed.
Lemma labels_eqb_eq a b : labels_eqb a b = true <-> a = b.
Proof.
  revert b; induction a as [|x a IH]; intros [|y b]; cbn [labels_eqb]; split; intros H; try reflexivity; try discriminate.
  - apply andb_true_iff in H as [H1 H2]. apply bytes_eqb_eq in H1. apply IH in H2. congruence.
  - injection H as -> ->. rewrite labels_eqb_refl_bytes. apply IH. reflexivity.
Qed.

(* a key that is not bound is not removed by the filter of tree_insert *)
Lemma tree_get_none_filter t k :
  tree_get t k = None -> filter (fun e => negb (labels_eqb (fst e) k)) t = t.
Proof.
  induction t as [|[k' v] t IH]; cbn [tree_get filter fst]; [reflexivity|].
  destruct (labels_eqb k' k); [discriminate|]. intros H. cbn [negb]. f_equal. apply IH. exact H.
Qed.

Lemma tree_acn_spec c ls : WSpec c (tree_acn c ls).
Proof.
  induction ls as [|l rest IH]; intros w TB SI; cbn [tree_acn].
  - apply write_root_spec; auto.
  - destruct (tree_get (w_tree w) (l :: rest)) as [pos|] eqn:EG; [apply write_ptr_spec; auto|].
    destruct (tree_insert (l :: rest) (mlen (w_buf w)) (w_tree w)) as [t'|] eqn:EI.
    + unfold tree_insert in EI.
      destruct (N.leb_spec tree_ptr_limit (mlen (w_buf w))) as [G|G]; [discriminate|]. injection EI as <-.
      unfold tree_ptr_limit in G. rewrite (tree_get_none_filter _ _ EG).
      apply insert_then_label; auto.
      * split; cbn [set_tree w_buf w_static w_tree w_hash w_shim]; auto;
          [exists []; symmetry; apply app_nil_r | exists []; rewrite app_nil_r; auto | | exists []; rewrite app_nil_r; auto].
        exists [(l :: rest, mlen (w_buf w))]. split; [reflexivity|]. constructor; [cbn [snd]; lia|constructor].
      * intros b Hb. destruct (TBound_same w (set_buf w b) TB) as (A & B & C); [repeat split|cbn; lia|].
        split; [exact A|split; [|exact C]]. cbn [set_buf set_tree w_buf w_tree] in *. constructor; [cbn [snd]; lia|exact B].
    + apply (WSpec_bind c (write_labels c (l :: rest)) (write_root c)); auto using write_labels_spec, write_root_spec.
Qed.

Lemma hash_write_spec c ls position : WSpec c (hash_write c ls position).
Proof.
  induction ls as [|l rest IH]; intros w TB SI; cbn [hash_write]; [apply WSpec_ok; auto|].
  pose proof (label_compose_spec c l w TB SI) as HL.
  destruct (label_compose c l w) as [w1|w1| |] eqn:EL; cbn [wbind]; auto.
  destruct HL as (E1 & TB1 & SI1). apply label_compose_ok in EL as [B _].
  destruct (N.ltb_spec (mlen (w_buf w)) hash_ptr_limit) as [G|G]; [|apply WSpec_step; assumption].
  unfold hash_ptr_limit in G.
  match goal with |- context [set_hash w1 (_ ++ [?e])] => set (ent := e) end.
  apply WSpec_step; [| |exact SI1|exact IH].
  - eapply Ext_trans; [exact E1| |apply N.le_refl].
    split; cbn [set_hash w_buf w_static w_tree w_hash w_shim]; auto;
      [exists []; symmetry; apply app_nil_r | exists []; rewrite app_nil_r; auto | exists []; auto |].
    exists [ent]. split; [reflexivity|]. constructor; [cbn [ent fst]; lia|constructor].
  - destruct TB1 as (A & Bt & C). split; [exact A|split; [exact Bt|]]. cbn [set_hash w_buf w_hash].
    apply Forall_app; split; [exact C|]. constructor; [|constructor].
    cbn [ent fst]. rewrite B, mlen_app, mlen_cons. lia.
Qed.

Lemma hash_acn_spec c ls : WSpec c (hash_acn c ls).
Proof.
  intros w TB SI. unfold hash_acn.
  destruct (hash_walk (w_buf w) (mlen (w_buf w)) (w_hash w) (rev ls) hash_root_pos) as [[position rest]| | |]; auto.
  apply (WSpec_bind c (hash_write c (rev rest) position)
           (fun w1 => if position =? hash_root_pos then write_root c w1 else write_ptr c hash_ptr_tag position w1)); auto.
  - apply hash_write_spec.
  - destruct (position =? hash_root_pos); [apply write_root_spec|apply write_ptr_spec].
Qed.

Lemma acn_spec c n : WSpec c (acn c n).
Proof.
  unfold acn. destruct (t_kind c);
    [apply append_slice_spec|apply static_acn_spec|apply tree_acn_spec|apply hash_acn_spec].
Qed.

Lemma compose_question_spec c q : WSpec c (compose_question c q).
Proof.
  unfold compose_question.
  apply (WSpec_bind c (acn c (q_name q))); [apply acn_spec|].
  apply (WSpec_bind c (append_slice c _) (append_slice c _)); apply append_slice_spec.
Qed.

Lemma compose_items_spec c items : WSpec c (compose_items c items).
Proof.
  induction items as [|[b|n|n] r IH]; cbn [compose_items]; [apply WSpec_ok| | |].
  - apply (WSpec_bind c (append_slice c b) (compose_items c r)); auto using append_slice_spec.
  - apply (WSpec_bind c (acn c n) (compose_items c r)); auto using acn_spec.
  - apply (WSpec_bind c (append_slice c _) (compose_items c r)); auto using append_slice_spec.
Qed.

Lemma patch16_tail a r k v : patch16 (mlen a + k) v (a ++ r) = a ++ patch16 k v r.
Proof.
  unfold patch16, mlen. rewrite firstn_app, skipn_app.
  replace (N.to_nat (N.of_nat (length a) + k)) with (length a + N.to_nat k)%nat by lia.
  rewrite (firstn_all2 a), (skipn_all2 a) by lia.
  replace (length a + N.to_nat k - length a)%nat with (N.to_nat k) by lia.
  replace (length a + N.to_nat k + 2 - length a)%nat with (N.to_nat k + 2)%nat by lia.
  rewrite <- app_assoc. reflexivity.
Qed.

Lemma patch16_mlen pos v b : pos + 2 <= mlen b -> mlen (patch16 pos v b) = mlen b.
Proof.
  intros H. unfold patch16, mlen in *. rewrite !app_length, firstn_length, skipn_length. cbn [be16 length]. lia.
Qed.

(* overwriting two octets that were written after position p *)
Lemma patch_spec c w w2 pos v :
  TBound w2 -> SInv c w2 -> Ext c (mlen (w_buf w)) w w2 ->
  mlen (w_buf w) <= pos -> pos + 2 <= mlen (w_buf w2) ->
  let w3 := set_buf w2 (patch16 pos v (w_buf w2)) in
  Ext c (mlen (w_buf w)) w w3 /\ TBound w3 /\ SInv c w3.
Proof.
  intros TB2 SI2 [[sfx B] ES ET EH Sh] H1 H2 w3. subst w3.
  assert (L : mlen (patch16 pos v (w_buf w2)) = mlen (w_buf w2)) by (apply patch16_mlen; exact H2).
  split; [|split].
  - split; cbn [set_buf w_buf w_static w_tree w_hash w_shim]; auto.
    rewrite B. replace pos with (mlen (w_buf w) + (pos - mlen (w_buf w))) by lia. rewrite patch16_tail. eexists; reflexivity.
  - apply (TBound_same w2); [exact TB2|repeat split|]. cbn [set_buf w_buf]. rewrite L. apply N.le_refl.
  - intros St. cbn [set_buf w_buf w_shim]. rewrite L. apply SI2; exact St.
Qed.

Lemma compose_len_rdata_spec c r : WSpec c (compose_len_rdata c r).
Proof.
  intros w TB SI. unfold compose_len_rdata.
  destruct (uses_prefix c r).
  - pose proof (append_slice_spec c [0; 0] w TB SI) as H1.
    destruct (append_slice c [0; 0] w) as [w1|w1| |] eqn:EA; cbn [wbind]; auto.
    destruct H1 as (E1 & TB1 & SI1). apply append_slice_mlen in EA. change (mlen [0; 0]) with 2 in EA.
    pose proof (compose_items_spec c (r_data r) w1 TB1 SI1) as H2.
    destruct (compose_items c (r_data r) w1) as [w2|w2| |]; auto.
    + destruct H2 as (E2 & TB2 & SI2).
      destruct (_ <=? rdlen_max); [|exact I].
      pose proof (Ext_mlen _ _ _ _ E2) as Hm.
      apply patch_spec; auto; try lia. eapply Ext_trans; eauto. lia.
    + rewrite (truncate_back c w1 w2); auto.
  - destruct (rdlen_max <? _); [exact I|].
    apply (WSpec_bind c (append_slice c _) (compose_items c (r_data r))); auto using append_slice_spec, compose_items_spec.
Qed.

Lemma compose_record_spec c r : WSpec c (compose_record c r).
Proof.
  unfold compose_record.
  apply (WSpec_bind c (acn c (r_owner r))); [apply acn_spec|].
  apply (WSpec_bind c (append_slice c _)); [apply append_slice_spec|].
  apply (WSpec_bind c (append_slice c _)); [apply append_slice_spec|].
  apply (WSpec_bind c (append_slice c _)); [apply append_slice_spec|].
  apply compose_len_rdata_spec.
Qed.

(* what Truncate keeps of a table: entries below the new length (from 0xC000
   on nothing is trimmed, but no entry is that high) *)
Lemma trunc_kept {A} (f : A -> N) (g : list A -> list A) len l :
  (forall l, Forall (fun e => In e l /\ f e < len) (g l)) ->
  Forall (fun e => f e < 16384) l ->
  Forall (fun e => In e l /\ f e < len) (if len <? 49152 then g l else l).
Proof.
  intros Hg F. destruct (N.ltb_spec len 49152) as [L|L]; [apply Hg|].
  apply Forall_forall. intros e He. rewrite Forall_forall in F. specialize (F e He). split; [exact He|lia].
Qed.

Lemma truncate_inv c len w :
  TBound w -> SInv c w ->
  exists w', truncate c len w = WOk w' /\ w_buf w' = firstn (N.to_nat len) (w_buf w) /\
             TBound w' /\ SInv c w' /\
             incl (w_static w') (w_static w) /\ incl (w_tree w') (w_tree w) /\ incl (w_hash w') (w_hash w).
Proof.
  intros (A & B & C) SI.
  set (b := firstn (N.to_nat len) (w_buf w)).
  assert (Lb : mlen b = N.min len (mlen (w_buf w))) by (subst b; unfold mlen; rewrite firstn_length; lia).
  assert (Ff : forall X (f : X -> N) l, Forall (fun e => In e l /\ f e < len) (filter (fun e => f e <? len) l)).
  { intros X f l. apply Forall_forall. intros e He. apply filter_In in He as [He Hl]. apply N.ltb_lt in Hl. auto. }
  assert (Ft : forall l, Forall (fun e => In e l /\ e < len) (take_while (fun e => e <? len) l)).
  { induction l as [|e l IH]; cbn [take_while]; [constructor|]. destruct (N.ltb_spec e len); [|constructor].
    constructor; [split; [left; reflexivity|assumption]|]. eapply Forall_impl; [|exact IH]. cbv beta. intros x [Hx Hl]. split; [right; exact Hx|exact Hl]. }
  assert (TT : forall sh, let y := trunc_tables len (mkWs b sh (w_static w) (w_tree w) (w_hash w)) in
            w_buf y = b /\ w_shim y = sh /\ TBound y /\
            incl (w_static y) (w_static w) /\ incl (w_tree y) (w_tree w) /\ incl (w_hash y) (w_hash w)).
  { intros sh y.
    pose proof (trunc_kept (fun e => e) _ len _ Ft (Forall_impl _ (fun e H => proj2 H) A)) as K1.
    pose proof (trunc_kept snd _ len _ (Ff _ snd) (Forall_impl _ (fun e H => proj2 H) B)) as K2.
    pose proof (trunc_kept fst _ len _ (Ff _ fst) (Forall_impl _ (fun e H => proj2 H) C)) as K3.
    assert (Fin : forall s t h,
              Forall (fun e => In e (w_static w) /\ e < len) s -> Forall (fun kv => In kv (w_tree w) /\ snd kv < len) t ->
              Forall (fun e => In e (w_hash w) /\ fst e < len) h ->
              TBound (mkWs b sh s t h) /\ incl s (w_static w) /\ incl t (w_tree w) /\ incl h (w_hash w)).
    { intros s t h Fs Ft' Fh. rewrite Forall_forall in A, B, C, Fs, Ft', Fh. split.
      - unfold TBound; cbn [w_buf w_static w_tree w_hash]. split; [|split]; apply Forall_forall; intros e He.
        + destruct (Fs e He) as [I1 L1]. destruct (A e I1). lia.
        + destruct (Ft' e He) as [I2 L2]. destruct (B e I2). lia.
        + destruct (Fh e He) as [I3 L3]. destruct (C e I3). lia.
      - split; [|split]; intros e He; [apply (Fs e He)|apply (Ft' e He)|apply (Fh e He)]. }
    subst y. unfold trunc_tables, static_trunc_guard, tree_trunc_guard, hash_trunc_guard, set_static, set_tree, set_hash.
    destruct (len <? 49152); cbn [w_buf w_shim w_static w_tree w_hash];
      (split; [reflexivity|split; [reflexivity|apply Fin; assumption]]). }
  unfold truncate. fold b. unfold set_shim, set_buf; cbn [w_buf w_shim w_static w_tree w_hash].
  destruct (t_stream c) eqn:St.
  - destruct (SI St) as [Hs Hl].
    destruct (N.leb_spec (mlen b) shim_max) as [L|L]; [|unfold shim_max in L; lia].
    destruct (TT (mlen b)) as (T1 & T2 & T3 & T4). eexists; split; [reflexivity|].
    split; [exact T1|]. split; [exact T3|]. split; [|exact T4]. intros _. rewrite T1, T2. split; [reflexivity|lia].
  - destruct (TT (w_shim w)) as (T1 & T2 & T3 & T4). eexists; split; [reflexivity|].
    split; [exact T1|]. split; [exact T3|]. split; [intros E; congruence|exact T4].
Qed.

(* builder invariant (without the reading part) *)
Definition BW (c : tcfg) (s : bstate) : Prop :=
  TBound (b_w s) /\ SInv c (b_w s) /\ 12 <= mlen (w_buf (b_w s)) /\
  b_sec s <= 3 /\ 12 <= b_s1 s /\ 12 <= b_s2 s /\ 12 <= b_s3 s.

Lemma bstate_eta s : set_w s (b_w s) = s.
Proof. destruct s; reflexivity. Qed.

Lemma fail_push_back c s w e :
  BW c s -> Ext c (mlen (w_buf (b_w s))) (b_w s) w ->
  fail_push c s (mlen (w_buf (b_w s))) w e = (s, RErr e).
Proof.
  intros (TB & SI & _) E. unfold fail_push. rewrite (truncate_back c (b_w s) w); auto.
  rewrite bstate_eta. reflexivity.
Qed.

Lemma mb_push_cases c s f :
  BW c s -> WSpec c f ->
  (exists w', f (b_w s) = WOk w' /\ mb_push c s f = (set_count (set_w s w') (count_of s + 1), ROk) /\
              Ext c (mlen (w_buf (b_w s))) (b_w s) w' /\ TBound w' /\ SInv c w' /\
              limit_hit (mlen (w_buf w')) (b_limit s) = false /\ count_of s < count_max) \/
  (exists e, mb_push c s f = (s, RErr e)) \/
  (exists x, mb_push c s f = (s, x) /\ is_dead x = true).
Proof.
  intros HB Hf. pose proof HB as (TB & SI & _).
  specialize (Hf (b_w s) TB SI). unfold mb_push.
  destruct (f (b_w s)) as [w|w| |].
  - destruct Hf as (E & TB' & SI').
    destruct (limit_hit _ _) eqn:LH; [right; left; eexists; apply fail_push_back; auto|].
    destruct (N.leb_spec count_max (count_of s)) as [L|L]; [right; left; eexists; apply fail_push_back; auto|].
    left. exists w. auto 10.
  - right; left. eexists. apply fail_push_back; auto.
  - right; right. eexists; split; reflexivity.
  - right; right. eexists; split; reflexivity.
Qed.

Lemma BW_set_count c s v : BW c s -> BW c (set_count s v).
Proof.
  unfold BW, set_count. intros H.
  destruct (b_sec s =? 0); [|destruct (b_sec s =? 1); [|destruct (b_sec s =? 2)]]; exact H.
Qed.

Lemma upd_proj s w v :
  b_w (set_count (set_w s w) v) = w /\ b_sec (set_count (set_w s w) v) = b_sec s /\
  b_s1 (set_count (set_w s w) v) = b_s1 s /\ b_s2 (set_count (set_w s w) v) = b_s2 s /\
  b_s3 (set_count (set_w s w) v) = b_s3 s.
Proof.
  unfold set_count, set_w; cbn [b_sec].
  destruct (b_sec s =? 0); [|destruct (b_sec s =? 1); [|destruct (b_sec s =? 2)]]; cbn; auto.
Qed.

Lemma rewind_inv c s : BW c s ->
  exists w, truncate c (start_of s) (b_w s) = WOk w /\ rewind c s = Ok (set_count (set_w s w) 0) /\
            BW c (set_count (set_w s w) 0) /\
            w_buf w = firstn (N.to_nat (start_of s)) (w_buf (b_w s)) /\
            incl (w_static w) (w_static (b_w s)) /\ incl (w_tree w) (w_tree (b_w s)) /\ incl (w_hash w) (w_hash (b_w s)).
Proof.
  intros (TB & SI & L & Hsec & H1 & H2 & H3).
  destruct (truncate_inv c (start_of s) (b_w s) TB SI) as (w & ET & Eb & TB' & SI' & In).
  exists w. split; [exact ET|]. unfold rewind. rewrite ET. split; [reflexivity|]. split; [|exact (conj Eb In)].
  apply BW_set_count. split; [exact TB'|]. split; [exact SI'|]. split; [|repeat split; assumption].
  cbn [set_w b_w]. rewrite Eb. unfold mlen in *. rewrite firstn_length.
  assert (12 <= start_of s).
  { unfold start_of, header_len. destruct (b_sec s =? 0); [lia|]. destruct (b_sec s =? 1); [lia|].
    destruct (b_sec s =? 2); lia. }
  lia.
Qed.

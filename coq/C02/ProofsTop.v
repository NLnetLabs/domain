(* C02 -- statements in the property's words. *)
From Coq Require Import NArith List Bool Lia ZArith.
From Coq Require Import ZifyN ZifyNat.
From DV Require Import Base.Outcome Base.Bytes Base.Names Base.PName C02.Gen C02.Model
  C02.ProofsBasic C02.ProofsRun C02.ProofsName C02.ProofsComp C02.ProofsHash.
Import ListNotations.
Local Open Scope N_scope.

Lemma NameIn_valid m (ok : N -> Prop) seg p ls e : NameIn m ok seg p ls e -> Forall valid_label ls.
Proof. induction 1; constructor; auto. Qed.

Lemma canon_wire_len a b : canon a = canon b -> wire_len a = wire_len b.
Proof. intros H. rewrite <- (Names.canon_wire_len a), H. apply Names.canon_wire_len. Qed.

(* a builder state whose compressor tables describe the buffer *)
Definition WGood (c : tcfg) (w : ws) : Prop :=
  TBound w /\ SInv c w /\ CInv (fun i => 12 <= i) w /\ 12 <= mlen (w_buf w).

(* name compression never changes which name a reader reconstructs: after
   append_compressed_name (any of the four kinds) the reader model, started
   where the name was written, returns a name equal to the pushed one under
   DNS name equality and stops exactly at the end of what was written *)
Theorem compression_transparent c n w w' :
  WGood c w -> name_ok n -> acn c n w = WOk w' ->
  WGood c w' /\
  exists n', decode_name (w_buf w') (mlen (w_buf w)) (mlen (w_buf w')) = Ok (n', mlen (w_buf w')) /\
             name_eqb n' n = true.
Proof.
  intros (TB & SI & CI & L) [Hv Hw] H.
  destruct (acn_ok c (fun i => 12 <= i) n w w' Hv TB SI CI ltac:(cbv beta; intros; lia) H) as (CI' & n' & Hc & HN).
  pose proof (acn_spec c n w TB SI) as HS. rewrite H in HS. destruct HS as (E & TB' & SI').
  split; [split; [exact TB'|split; [exact SI'|split; [exact CI'|pose proof (Ext_mlen _ _ _ _ E); lia]]]|].
  exists n'. split; [|apply name_eqb_spec; exact Hc].
  apply NameIn_below in HN.
  eapply (decode_name_ok (w_buf w') _ (mlen (w_buf w'))); [|exact HN|].
  - cbv beta. intros i [_ Hi]. exact Hi.
  - split; [eapply NameIn_valid; eauto|]. rewrite (canon_wire_len _ _ Hc). exact Hw.
Qed.

(* the tree compressor and the absence of a compressor reproduce the octets
   of the name exactly (labels are compared / copied octet by octet) *)
Theorem compression_exact c n w w' :
  (t_kind c = KNone \/ t_kind c = KTree) ->
  WGood c w -> name_ok n -> acn c n w = WOk w' ->
  decode_name (w_buf w') (mlen (w_buf w)) (mlen (w_buf w')) = Ok (n, mlen (w_buf w')).
Proof.
  intros K (TB & SI & CI & L) [Hv Hw] H.
  assert (HN : NameIn (w_buf w') (fun i => 12 <= i) (mlen (w_buf w)) (mlen (w_buf w)) n (mlen (w_buf w'))).
  { unfold acn in H. destruct K as [K|K]; rewrite K in H.
    - apply append_slice_ok in H as [B _]. rewrite B, mlen_app.
      rewrite <- (app_nil_r (wire_abs n)) at 1. apply NameIn_wire; auto; cbv beta; intros; lia.
    - apply (tree_acn_exact c (fun i => 12 <= i) n w w' Hv TB CI); [cbv beta; intros; lia|exact H]. }
  apply NameIn_below in HN.
  eapply (decode_name_ok (w_buf w') _ (mlen (w_buf w'))); [|exact HN|split; auto].
  cbv beta. intros i [_ Hi]. exact Hi.
Qed.

(* the initial state is good *)
Lemma init_good c s0 : init c = Some s0 -> WGood c (b_w s0).
Proof.
  intros H. destruct (init_inv c s0 H) as ((TB & SI & L & _) & _).
  split; [exact TB|]. split; [exact SI|]. split; [|exact L].
  unfold init in H. destruct (append_slice c _ empty_ws) as [w| | |] eqn:E; try discriminate. injection H as <-.
  apply append_slice_ok in E as [_ (a1 & a2 & a3)]. cbn [b_w]. unfold CInv, HU. rewrite a1, a2, a3. cbn. repeat split; auto. intros; contradiction.
Qed.

(* non-vacuity: a case-folding reuse under the static compressor *)
Example transparent_example :
  let c := mkCfg None false KStatic in
  match init c with
  | Some s0 =>
      match acn c [[119;119]; [65]] (b_w s0) with
      | WOk w1 =>
          match acn c [[120]; [97]] w1 with
          | WOk w2 =>
              skipn 12 (w_buf w2) = [2;119;119;1;65;0; 1;120;192;15] /\
              decode_name (w_buf w2) 18 (mlen (w_buf w2)) = Ok ([[120]; [65]], 22)
          | _ => False
          end
      | _ => False
      end
  | None => False
  end.
Proof. vm_compute. split; reflexivity. Qed.

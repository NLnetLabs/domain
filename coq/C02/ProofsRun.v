(* C02 -- the invariants of ProofsBasic hold in every state reached by
   an arbitrary operation sequence; header counts equal the numbers of
   accepted pushes; the stream length octets equal the message length. *)
From Coq Require Import NArith List Bool Lia ZArith.
From Coq Require Import ZifyN ZifyNat.
From DV Require Import Base.Outcome Base.Bytes Base.Names Base.PName C02.Gen C02.Model C02.ProofsBasic C02.ProofsClone.
Import ListNotations.
Local Open Scope N_scope.

(* counts = numbers of accepted items; sections above the current one are empty *)
Definition CountInv (s : bstate) (a : acc) : Prop :=
  b_qd s = N.of_nat (length (a_q a)) /\ b_an s = N.of_nat (length (a_an a)) /\
  b_ns s = N.of_nat (length (a_ns a)) /\ b_ar s = N.of_nat (length (a_ar a)) /\
  (b_sec s < 1 -> a_an a = []) /\ (b_sec s < 2 -> a_ns a = []) /\ (b_sec s < 3 -> a_ar a = []).

Lemma sec_cases s : b_sec s <= 3 -> b_sec s = 0 \/ b_sec s = 1 \/ b_sec s = 2 \/ b_sec s = 3.
Proof. lia. Qed.

Lemma BW_push_ok c s w' :
  BW c s -> Ext c (mlen (w_buf (b_w s))) (b_w s) w' -> TBound w' -> SInv c w' ->
  BW c (set_count (set_w s w') (count_of s + 1)).
Proof.
  intros (TB & SI & L & R) E TB' SI'. apply BW_set_count.
  unfold BW, set_w; cbn [b_w b_sec b_s1 b_s2 b_s3].
  split; [exact TB'|]. split; [exact SI'|]. split; [|exact R].
  pose proof (Ext_mlen _ _ _ _ E). lia.
Qed.

Lemma app_length1 {A} (l : list A) x : N.of_nat (length (l ++ [x])) = N.of_nat (length l) + 1.
Proof. rewrite app_length. cbn [length]. lia. Qed.

Lemma CountInv_push_q s a w' q :
  b_sec s = 0 -> CountInv s a ->
  CountInv (set_count (set_w s w') (count_of s + 1)) (mkAcc (a_q a ++ [q]) (a_an a) (a_ns a) (a_ar a)).
Proof.
  intros E (c1 & c2 & c3 & c4 & e1 & e2 & e3).
  unfold set_count, count_of, set_w; cbn [b_sec]. rewrite E. cbn [N.eqb].
  unfold CountInv; cbn [b_qd b_an b_ns b_ar b_sec a_q a_an a_ns a_ar]. rewrite app_length1, ?E.
  rewrite E in e1, e2, e3. repeat split; auto; lia.
Qed.

Lemma CountInv_push_r s a w' r :
  b_sec s <= 3 -> b_sec s <> 0 -> CountInv s a ->
  CountInv (set_count (set_w s w') (count_of s + 1)) (acc_add_r a (b_sec s) r).
Proof.
  intros L N0 (c1 & c2 & c3 & c4 & e1 & e2 & e3).
  destruct (sec_cases s L) as [E|[E|[E|E]]]; [contradiction| | |];
    unfold set_count, count_of, set_w, acc_add_r; cbn [b_sec]; rewrite E; cbn [N.eqb Pos.eqb];
    unfold CountInv; cbn [b_qd b_an b_ns b_ar b_sec a_q a_an a_ns a_ar]; rewrite ?app_length1, ?E;
    repeat split; intros; auto; try lia; try (apply e1; lia); try (apply e2; lia); try (apply e3; lia).
Qed.

Lemma CountInv_clear s a w :
  b_sec s <= 3 -> CountInv s a ->
  CountInv (set_count (set_w s w) 0) (acc_clear_sec a (b_sec s)).
Proof.
  intros L (c1 & c2 & c3 & c4 & e1 & e2 & e3).
  destruct (sec_cases s L) as [E|[E|[E|E]]];
    unfold set_count, set_w, acc_clear_sec; cbn [b_sec]; rewrite E; cbn [N.eqb Pos.eqb];
    unfold CountInv; cbn [b_qd b_an b_ns b_ar b_sec a_q a_an a_ns a_ar length]; rewrite ?E;
    repeat split; intros; auto; try lia; try (apply e1; lia); try (apply e2; lia); try (apply e3; lia).
Qed.

Definition alive (r : rword) : Prop := is_dead r = false.

Lemma BW_set_hdr c s h : BW c s -> BW c (set_hdr s h).
Proof. unfold BW, set_hdr; cbn [b_w b_sec b_s1 b_s2 b_s3]. auto. Qed.
Lemma CountInv_set_hdr s a h : CountInv s a -> CountInv (set_hdr s h) a.
Proof. unfold CountInv, set_hdr; cbn [b_qd b_an b_ns b_ar b_sec]. auto. Qed.

(* one operation preserves the invariants (unless it panics) *)
Lemma step_inv c s a o s' r :
  BW c s -> CountInv s a -> step c s o = (s', r) -> alive r ->
  BW c s' /\ CountInv s' (acc_step (b_sec s) a o r).
Proof.
  intros HB HC H AL. pose proof HB as (TB & SI & L12 & Lsec & R).
  unfold step in H. destruct o as [q|rr|oh opts| | | |l|h]; cbn [step_gen] in H.
  - destruct (N.eqb_spec (b_sec s) 0) as [E0|E0]; [|injection H as <- <-; split; auto].
    destruct (mb_push_cases c s (compose_question c q) HB (compose_question_spec c q))
      as [(w' & _ & E & X & TB' & SI' & _)|[(e' & E)|(x & E & D)]]; rewrite E in H; injection H as <- <-.
    + split; [apply BW_push_ok; auto|]. cbn [acc_step]. apply CountInv_push_q; auto.
    + split; auto.
    + unfold alive in AL. congruence.
  - destruct (N.eqb_spec (b_sec s) 0) as [E0|E0]; [injection H as <- <-; split; auto|].
    destruct (mb_push_cases c s (compose_record c rr) HB (compose_record_spec c rr))
      as [(w' & _ & E & X & TB' & SI' & _)|[(e' & E)|(x & E & D)]]; rewrite E in H; injection H as <- <-.
    + split; [apply BW_push_ok; auto|]. cbn [acc_step]. apply CountInv_push_r; auto.
    + split; auto.
    + unfold alive in AL. congruence.
  - destruct (N.eqb_spec (b_sec s) 3) as [E0|E0]; [|injection H as <- <-; split; auto].
    destruct (mb_push_cases c s (opt_writer c oh opts) HB (opt_writer_spec c oh opts))
      as [(w' & _ & E & X & TB' & SI' & _)|[(e' & E)|(x & E & D)]]; rewrite E in H; cbn [fst snd] in H; injection H as <- <-.
    + split; [apply BW_set_hdr; apply BW_push_ok; auto|]. cbn [acc_step]. apply CountInv_set_hdr. apply CountInv_push_r; auto. lia.
    + split; [apply BW_set_hdr; auto|apply CountInv_set_hdr; auto].
    + unfold alive in AL. congruence.
  - (* OpNext *)
    destruct (N.ltb_spec (b_sec s) 3) as [L3|L3]; injection H as <- <-; [|split; auto].
    cbn [acc_step]. destruct HC as (c1 & c2 & c3 & c4 & e1 & e2 & e3). destruct R as (r1 & r2 & r3).
    split.
    + unfold BW, set_sec, set_start.
      destruct (b_sec s + 1 =? 1); [|destruct (b_sec s + 1 =? 2)]; cbn [b_w b_sec b_s1 b_s2 b_s3];
        (split; [exact TB|split; [exact SI|]]); repeat split; try lia; auto.
    + unfold CountInv, set_sec, set_start.
      destruct (b_sec s + 1 =? 1); [|destruct (b_sec s + 1 =? 2)]; cbn [b_qd b_an b_ns b_ar b_sec];
        repeat split; intros; auto; try (apply e1; lia); try (apply e2; lia); try (apply e3; lia).
  - (* OpBack *)
    cbn [acc_step].
    destruct (N.eqb_spec (b_sec s) 0) as [E0|E0]; [injection H as <- <-; split; auto|].
    destruct (rewind_inv c s HB) as (w & _ & ER & HB' & _). rewrite ER in H. injection H as <- <-.
    cbn [acc_step].
    pose proof (CountInv_clear s a w Lsec HC) as HC'.
    set (s1 := set_count (set_w s w) 0) in *.
    assert (Es : b_sec s1 = b_sec s).
    { subst s1. unfold set_count, set_w; cbn [b_sec].
      destruct (b_sec s =? 0); [reflexivity|]. destruct (b_sec s =? 1); [reflexivity|]. destruct (b_sec s =? 2); reflexivity. }
    destruct HB' as (t1 & t2 & t3 & t4 & t5). destruct HC' as (c1 & c2 & c3 & c4 & e1 & e2 & e3).
    split.
    + unfold BW, set_sec; cbn [b_w b_sec b_s1 b_s2 b_s3].
      split; [exact t1|split; [exact t2|]]. repeat split; try tauto; lia.
    + unfold CountInv, set_sec; cbn [b_qd b_an b_ns b_ar b_sec]. rewrite Es in *.
      repeat split; auto; intros.
      * destruct (N.eq_dec (b_sec s) 1) as [K|K]; [|apply e1; lia].
        unfold acc_clear_sec. rewrite K. reflexivity.
      * destruct (N.eq_dec (b_sec s) 2) as [K|K]; [|apply e2; lia].
        unfold acc_clear_sec. rewrite K. reflexivity.
      * destruct (N.eq_dec (b_sec s) 3) as [K|K]; [|apply e3; lia].
        unfold acc_clear_sec. rewrite K. reflexivity.
  - (* OpRewind *)
    destruct (rewind_inv c s HB) as (w & _ & ER & HB' & _). rewrite ER in H. injection H as <- <-.
    cbn [acc_step]. split; [exact HB'|]. apply CountInv_clear; auto.
  - injection H as <- <-. split; [exact HB|exact HC].
  - injection H as <- <-. split; [apply BW_set_hdr; exact HB|apply CountInv_set_hdr; exact HC].
Qed.

Lemma init_inv c s0 : init c = Some s0 -> BW c s0 /\ CountInv s0 acc0.
Proof.
  unfold init. intros H.
  destruct (append_slice c (repeat 0 (N.to_nat header_len)) empty_ws) as [w| | |] eqn:E; try discriminate.
  injection H as <-.
  assert (TB0 : TBound empty_ws) by (unfold TBound, empty_ws; cbn; auto).
  assert (SI0 : SInv c empty_ws) by (intros _; unfold empty_ws; cbn; split; [reflexivity|lia]).
  pose proof (append_slice_spec c (repeat 0 (N.to_nat header_len)) empty_ws TB0 SI0) as HS. rewrite E in HS.
  destruct HS as (_ & TB & SI). pose proof (append_slice_mlen _ _ _ _ E) as Lm.
  change (mlen (w_buf empty_ws)) with 0 in Lm. change (mlen (repeat 0 (N.to_nat header_len))) with 12 in Lm.
  split.
  - unfold BW; cbn [b_w b_sec b_s1 b_s2 b_s3]. unfold header_len.
    split; [exact TB|split; [exact SI|]]. repeat split; lia.
  - unfold CountInv, acc0; cbn. repeat split; auto.
Qed.

(* last word of a run *)
Definition all_alive (ws : list rword) : Prop := Forall alive ws.

Lemma run_acc_inv c ops : forall s a s' a' ws,
  BW c s -> CountInv s a -> run_acc c s a ops = (s', a', ws) -> all_alive ws ->
  BW c s' /\ CountInv s' a'.
Proof.
  induction ops as [|o r IH]; intros s a s' a' ws HB HC H AL; cbn [run_acc] in H.
  - injection H as <- <- <-. auto.
  - destruct (step c s o) as [s1 w] eqn:ES.
    destruct (is_dead w) eqn:D.
    + injection H as <- <- <-. inversion AL; subst. unfold alive in *. congruence.
    + destruct (run_acc c s1 (acc_step (b_sec s) a o w) r) as [[s2 a2] ws2] eqn:ER.
      injection H as <- <- <-. inversion AL; subst.
      destruct (step_inv c s a o s1 w HB HC ES D) as (HB1 & HC1).
      eapply IH; eauto.
Qed.

(* run and run_acc agree on states and words *)
Lemma run_acc_run c ops : forall s a,
  let '(s', _, ws) := run_acc c s a ops in run c s ops = (s', ws).
Proof.
  induction ops as [|o r IH]; intros s a; cbn [run_acc run]; [reflexivity|].
  destruct (step c s o) as [s1 w]. destruct (is_dead w); [reflexivity|].
  specialize (IH s1 (acc_step (b_sec s) a o w)).
  destruct (run_acc c s1 (acc_step (b_sec s) a o w) r) as [[s2 a2] ws2]. rewrite IH. reflexivity.
Qed.

Lemma be16_mlen v : mlen (be16 v) = 2.
Proof. reflexivity. Qed.

Lemma msg_of_mlen s : 12 <= mlen (w_buf (b_w s)) -> mlen (msg_of s) = mlen (w_buf (b_w s)).
Proof.
  intros L. unfold msg_of. rewrite !mlen_app, !be16_mlen. unfold mlen in *.
  rewrite firstn_length, skipn_length, app_length. cbn [length]. lia.
Qed.

(* every reachable state: tables inside the buffer and below 0x4000, stream
   length octets = message length <= 65535, counts = accepted pushes *)
Theorem reachable_inv c ops s0 s a ws :
  init c = Some s0 -> run_acc c s0 acc0 ops = (s, a, ws) -> all_alive ws ->
  TBound (b_w s) /\ CountInv s a /\
  (t_stream c = true ->
     stream_of s = be16 (mlen (msg_of s)) ++ msg_of s /\ mlen (msg_of s) <= 65535).
Proof.
  intros HI HR AL. destruct (init_inv c s0 HI) as (HB0 & HC0).
  destruct (run_acc_inv c ops s0 acc0 s a ws HB0 HC0 HR AL) as (HB & HC).
  destruct HB as (TB & SI & L & _). split; [exact TB|]. split; [exact HC|].
  intros St. destruct (SI St) as [Hs Hl]. rewrite (msg_of_mlen s L). unfold stream_of. rewrite Hs. split; [reflexivity|exact Hl].
Qed.

Theorem failed_push_unchanged c ops s0 s a ws o s' e :
  init c = Some s0 -> run_acc c s0 acc0 ops = (s, a, ws) -> all_alive ws ->
  step c s o = (s', RErr e) -> s' = s.
Proof.
  intros HI HR AL HS. destruct (init_inv c s0 HI) as (HB0 & HC0).
  destruct (run_acc_inv c ops s0 acc0 s a ws HB0 HC0 HR AL) as (HB & _).
  eapply step_err_unchanged; eauto.
Qed.

(* non-vacuity: a script with a failing push in the middle *)
Example run_example :
  let c := mkCfg (Some 64) false KStatic in
  let nm := [[119;119;119]; [97]] in
  exists s a, c02_run c [OpQ (mkQ nm 1 1); OpNext; OpR (mkR nm 1 1 5 false [RBytes [1;2;3;4]]);
                        OpR (mkR nm 16 1 5 false [RBytes (repeat 7 30)]); OpLimit (Some 45);
                        OpR (mkR [] 1 1 5 false [])]
              = Some (s, a, [ROk; RNone; ROk; RErr E_SHORTBUF; RNone; RErr E_LIMIT]) /\
             b_an s = 1 /\ length (a_an a) = 1%nat /\ w_static (b_w s) = [12; 16].
Proof. vm_compute. eexists; eexists; repeat split. Qed.

(* the accepted items after moving to another section: sections above it are empty *)
Definition acc_upto (a a' : acc) (k : N) : Prop :=
  a_q a' = a_q a /\ a_an a' = (if k <? 1 then [] else a_an a) /\
  a_ns a' = (if k <? 2 then [] else a_ns a) /\ a_ar a' = (if k <? 3 then [] else a_ar a).

Lemma run_next c : forall n s a s' a' ws,
  BW c s -> CountInv s a -> b_sec s + N.of_nat n <= 3 ->
  run_acc c s a (repeat OpNext n) = (s', a', ws) ->
  b_sec s' = b_sec s + N.of_nat n /\ Forall (fun w => w = RNone) ws /\ a' = a /\ b_w s' = b_w s.
Proof.
  induction n as [|n IH]; intros s a s' a' ws HB HC L H; cbn [repeat run_acc] in H.
  - injection H as <- <- <-. repeat split; auto. lia.
  - destruct (step c s OpNext) as [s1 w] eqn:ES.
    pose proof ES as ES'. unfold step in ES'. cbn [step_gen] in ES'.
    destruct (N.ltb_spec (b_sec s) 3) as [L3|L3]; [|lia]. injection ES' as <- <-.
    cbn [is_dead acc_step] in H.
    match type of H with context [run_acc c ?x a (repeat OpNext n)] => set (s1 := x) in * end.
    destruct (run_acc c s1 a (repeat OpNext n)) as [[s2 a2] ws2] eqn:ER. injection H as <- <- <-.
    destruct (step_inv c s a OpNext s1 RNone HB HC ES eq_refl) as (HB1 & HC1). cbn [acc_step] in HC1.
    assert (E1 : b_sec s1 = b_sec s + 1 /\ b_w s1 = b_w s).
    { subst s1. unfold set_sec, set_start. destruct (b_sec s + 1 =? 1); [|destruct (b_sec s + 1 =? 2)]; cbn; auto. }
    destruct E1 as (E1 & E2).
    destruct (IH s1 a s2 a2 ws2 HB1 HC1 ltac:(lia) ER) as (A & B & C & D).
    split; [lia|]. split; [constructor; auto|]. split; [exact C|congruence].
Qed.

Lemma run_back c : forall n s a s' a' ws,
  BW c s -> CountInv s a -> N.of_nat n <= b_sec s ->
  run_acc c s a (repeat OpBack n) = (s', a', ws) ->
  b_sec s' = b_sec s - N.of_nat n /\ Forall (fun w => w = RNone) ws /\
  BW c s' /\ CountInv s' a' /\ acc_upto a a' (b_sec s').
Proof.
  induction n as [|n IH]; intros s a s' a' ws HB HC L H; cbn [repeat run_acc] in H.
  - injection H as <- <- <-. split; [lia|]. split; [constructor|]. split; [exact HB|]. split; [exact HC|].
    destruct HC as (_ & _ & _ & _ & e1 & e2 & e3). unfold acc_upto.
    split; [reflexivity|]. split; [destruct (N.ltb_spec (b_sec s) 1); auto|].
    split; [destruct (N.ltb_spec (b_sec s) 2); auto|destruct (N.ltb_spec (b_sec s) 3); auto].
  - destruct (step c s OpBack) as [s1 w] eqn:ES.
    pose proof ES as ES'. unfold step in ES'. cbn [step_gen] in ES'.
    destruct (N.eqb_spec (b_sec s) 0) as [E0|E0]; [lia|].
    destruct (rewind_inv c s HB) as (w0 & _ & ERw & _). rewrite ERw in ES'. injection ES' as <- <-.
    cbn [is_dead] in H.
    match type of H with context [run_acc c ?x ?y (repeat OpBack n)] => set (s1 := x) in *; set (a1 := y) in * end.
    destruct (run_acc c s1 a1 (repeat OpBack n)) as [[s2 a2] ws2] eqn:ER. injection H as <- <- <-.
    destruct (step_inv c s a OpBack s1 RNone HB HC ES eq_refl) as (HB1 & HC1). fold a1 in HC1.
    assert (E1 : b_sec s1 = b_sec s - 1) by (subst s1; reflexivity).
    destruct (IH s1 a1 s2 a2 ws2 HB1 HC1 ltac:(lia) ER) as (A & B & C & D & (u0 & u1 & u2 & u3)).
    split; [lia|]. split; [constructor; auto|]. split; [exact C|]. split; [exact D|].
    assert (K : b_sec s2 < b_sec s) by lia.
    subst a1. cbn [acc_step] in u0, u1, u2, u3. destruct (N.eqb_spec (b_sec s) 0); [lia|].
    unfold acc_clear_sec in u0, u1, u2, u3. cbn [a_q a_an a_ns a_ar] in u0, u1, u2, u3.
    destruct (N.eqb_spec (b_sec s) 0); [lia|].
    unfold acc_upto. split; [exact u0|].
    split; [rewrite u1; destruct (N.ltb_spec (b_sec s2) 1); [reflexivity|destruct (N.eqb_spec (b_sec s) 1); [lia|reflexivity]]|].
    split; [rewrite u2; destruct (N.ltb_spec (b_sec s2) 2); [reflexivity|destruct (N.eqb_spec (b_sec s) 2); [lia|reflexivity]]|].
    rewrite u3; destruct (N.ltb_spec (b_sec s2) 3); [reflexivity|destruct (N.eqb_spec (b_sec s) 3); [lia|reflexivity]].
Qed.

(* every conversion, from every section to every section, ends in the wanted
   section, answers nothing but "-", keeps the accepted items (and hence the
   counters, CountInv) of the sections up to the destination and empties
   (zeroes) exactly the ones above it *)
Theorem conv_counts c s a k s' a' ws :
  BW c s -> CountInv s a -> k <= 3 ->
  run_acc c s a (conv_ops (b_sec s) k) = (s', a', ws) ->
  b_sec s' = k /\ Forall (fun w => w = RNone) ws /\ CountInv s' a' /\ acc_upto a a' k.
Proof.
  intros HB HC Lk H. pose proof HB as (_ & _ & _ & Ls & _). unfold conv_ops in H.
  destruct (N.leb_spec (b_sec s) k) as [L|L].
  - destruct (run_next c (N.to_nat (k - b_sec s)) s a s' a' ws HB HC ltac:(lia) H) as (A & B & Ea & D).
    split; [lia|]. split; [exact B|].
    assert (HC' : CountInv s' a').
    { eapply (run_acc_inv c _ s a s' a' ws HB HC H). eapply Forall_impl; [|exact B]. intros w ->. reflexivity. }
    split; [exact HC'|]. subst a'. destruct HC as (_ & _ & _ & _ & e1 & e2 & e3). unfold acc_upto.
    split; [reflexivity|]. split; [destruct (N.ltb_spec k 1); auto; apply e1; lia|].
    split; [destruct (N.ltb_spec k 2); auto; apply e2; lia|destruct (N.ltb_spec k 3); auto; apply e3; lia].
  - destruct (run_back c (N.to_nat (b_sec s - k)) s a s' a' ws HB HC ltac:(lia) H) as (A & B & _ & D & U).
    assert (E : b_sec s' = k) by lia. rewrite E in U. auto.
Qed.

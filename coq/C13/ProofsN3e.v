(* The NSEC3 ring denies every absent (name, type); generate_nsec3s does not
   panic on a sorted zone; examples. *)
From Coq Require Import ZArith List Bool Lia Sorted Permutation.
From DV Require Import Base.Outcome Base.Bytes Base.Lex Base.Names C11.Sha C13.Gen C13.Model C13.ProofsNames C13.ProofsNsec2 C13.ProofsDeny C13.ProofsN3a C13.ProofsN3c C13.ProofsN3d.
Import ListNotations.
Local Open Scope N_scope.

(* RFC 5155 8.3 / 7.2.8: the hash lies between owner and next, or the record
   is the last one of the ring *)
Definition h3_covers (r : nsec3) (h : bytes) : Prop :=
  (lex_cmp (h_owner r) (h_next r) = Lt /\ lex_cmp (h_owner r) h = Lt /\ lex_cmp h (h_next r) = Lt) \/
  (lex_cmp (h_owner r) (h_next r) <> Lt /\ (lex_cmp (h_owner r) h = Lt \/ lex_cmp h (h_next r) = Lt)).

Lemma ring_cover (out : list nsec3) h : StronglySorted h3lt out -> out <> [] ->
  map h_next out = tl (map h_owner out) ++ [hd [] (map h_owner out)] ->
  (forall r, In r out -> h_owner r <> h) -> exists r, In r out /\ h3_covers r h.
Proof.
  intros Hs Hne Hring Hno. destruct out as [|f rest]; [congruence|]. cbn [map hd] in Hring.
  assert (Hge : forall r, In r (f :: rest) -> lex_cmp (h_owner r) (h_owner f) <> Lt).
  { intros r [<-|Hr]; [rewrite lex_cmp_refl; discriminate|].
    apply StronglySorted_inv in Hs as [_ Hf]. rewrite Forall_forall in Hf. specialize (Hf r Hr).
    unfold h3lt in Hf. rewrite lex_cmp_antisym, Hf. discriminate. }
  destruct (lex_cmp (h_owner f) h) eqn:C.
  - apply lex_cmp_eq in C. exfalso. apply (Hno f); [left; reflexivity|exact C].
  - (* after the first: search *)
    destruct (chain_search h_owner lex_cmp lex_cmp_antisym h (f :: rest)) as (pre & r & post & E & Hle & Hpost); [rewrite C; discriminate|].
    assert (Hr : In r (f :: rest)) by (rewrite E; apply in_or_app; right; left; reflexivity).
    exists r. split; [exact Hr|].
    assert (Hlt : lex_cmp (h_owner r) h = Lt).
    { destruct (lex_cmp (h_owner r) h) eqn:F; try congruence. apply lex_cmp_eq in F. exfalso. apply (Hno r Hr F). }
    pose proof (next_of_split h_owner h_next _ pre (f :: rest) r post Hring E) as Hn.
    destruct post as [|r' post].
    + right. rewrite Hn. split; [apply Hge; exact Hr|left; exact Hlt].
    + left. rewrite Hn. split; [|split; [exact Hlt|exact Hpost]].
      rewrite E in Hs. apply sorted_app_r in Hs. apply StronglySorted_inv in Hs as [_ Hs].
      apply Forall_inv in Hs. exact Hs.
  - (* before the first: the last record wraps around *)
    destruct (exists_last Hne) as (pre & rl & E).
    assert (Hr : In rl (f :: rest)) by (rewrite E; apply in_or_app; right; left; reflexivity).
    exists rl. split; [exact Hr|]. right.
    pose proof (next_of_split h_owner h_next _ pre (f :: rest) rl [] Hring E) as Hn. rewrite Hn.
    split; [apply Hge; exact Hr|]. right. rewrite lex_cmp_antisym, C. reflexivity.
Qed.

Lemma owner_dec (out : list nsec3) h :
  (exists r, In r out /\ h_owner r = h) \/ (forall r, In r out -> h_owner r <> h).
Proof.
  induction out as [|r0 out IH]; [right; intros r []|].
  destruct (bytes_eqb (h_owner r0) h) eqn:E.
  - left. exists r0. split; [left; reflexivity|apply bytes_eqb_eq; exact E].
  - destruct IH as [(r & Hr & Er)|Hn]; [left; exists r; split; [right; exact Hr|exact Er]|].
    right. intros r [<-|Hr]; [|apply Hn; exact Hr]. intros F. apply bytes_eqb_eq in F. congruence.
Qed.

Lemma bm_contains_empty t : bm_contains [] t = Ok false.
Proof. unfold bm_contains. destruct (split_rtype t) as [[w o] m]. reflexivity. Qed.

Definition optout_excl (c : n3cfg) : bool := opt_out_flag c && c_excl c.

(* the collision premise is what the proof needs: no included name of THIS zone
   collides with the probed name (injectivity over all names, the premise of
   nsec3_denies below, cannot hold for a digest with a bounded output) *)
Theorem nsec3_denies_local H apex c z out :
  zone_sorted z -> types_ok z -> generate_nsec3s H apex c z = Ok out ->
  forall n,
  (forall a, included apex z (optout_excl c) a -> hashn H c a = hashn H c n -> name_eqb a n = true) ->
  forall t, ~ has_type z n t -> t <> 46 ->
    ~ (name_eqb n apex = true /\ (t = 51 \/ (c_dnskey c = true /\ t = 48))) ->
    exists r, In r out /\
      ((h_owner r = hashn H c n /\ bm_contains (h_types r) t = Ok false) \/ h3_covers r (hashn H c n)).
Proof.
  intros Hs Ht Hout n Hinj t Hno H46 Hapex.
  destruct (nsec3_sorted_closed H apex c z out Hout) as (S1 & S2 & S3).
  destruct (owner_dec out (hashn H c n)) as [(r & Hr & Er)|Hnone].
  - exists r. split; [exact Hr|]. left. split; [exact Er|].
    destruct (nsec3_bitmap_exact H apex c z Hs out Hout Ht r Hr) as (m & Em & [[Hinc Hb]|[_ He]]).
    + assert (Emn : name_eqb m n = true) by (apply Hinj; [exact Hinc|unfold hashn in *; congruence]).
      destruct (Hb t) as (b & Hc & Hiff). rewrite Hc. f_equal. destruct b; [|reflexivity]. exfalso.
      destruct Hiff as [Hiff _]. destruct (Hiff eq_refl) as [[X _]|[[X1 X2]|[X _]]].
      * contradiction.
      * apply Hapex. split; [|exact X2]. rewrite name_eqb_sym in Emn. eapply name_eqb_trans; eassumption.
      * apply Hno. apply (has_type_eq_name z m n t Emn). exact X.
    + rewrite He. apply bm_contains_empty.
  - destruct (ring_cover out (hashn H c n) S1 S2 S3 Hnone) as (r & Hr & Hc).
    exists r. split; [exact Hr|right; exact Hc].
Qed.

Theorem nsec3_denies H apex c z out :
  zone_sorted z -> types_ok z -> generate_nsec3s H apex c z = Ok out ->
  (* idealised hash: no collision between the probed name and the zone *)
  (forall a b, hashn H c a = hashn H c b -> name_eqb a b = true) ->
  forall n t, ~ has_type z n t -> t <> 46 ->
    ~ (name_eqb n apex = true /\ (t = 51 \/ (c_dnskey c = true /\ t = 48))) ->
    exists r, In r out /\
      ((h_owner r = hashn H c n /\ bm_contains (h_types r) t = Ok false) \/ h3_covers r (hashn H c n)).
Proof.
  intros Hs Ht Hout Hinj n. apply (nsec3_denies_local H apex c z out Hs Ht Hout n).
  intros a _. apply Hinj.
Qed.

(* generate_nsec3s does not panic on a sorted zone, for any digest function: the
   usize subtractions do not underflow, the NSEC3 vector is not empty when a SOA
   was seen, and the `unreachable!()` of the linking loop is unreachable (two
   records with the same original owner name never meet: the names up to
   case, the keys below, stay distinct through sort and dedup). *)
Definition key (p : n3pre) : name := canon (p_name p).

Lemma canon_eq_iff a b : canon a = canon b <-> name_eqb a b = true.
Proof. symmetry. apply name_eqb_spec. Qed.

Lemma exact_eq_key a b : name_exact_eqb (p_name a) (p_name b) = true -> key a = key b.
Proof.
  unfold name_exact_eqb. intros E. apply bytes_eqb_eq in E. apply wire_rel_inj in E.
  unfold key. rewrite E. reflexivity.
Qed.

Lemma dedup_nodup l : NoDup (map key l) -> NoDup (map key (dedup l)).
Proof.
  induction l as [|a r IH]; cbn [dedup map]; intros Hn; [constructor|].
  inversion Hn as [|? ? Ha Hr]; subst. specialize (IH Hr).
  destruct (dedup r) as [|b r'] eqn:E; [cbn [map]; constructor; [intros []|constructor]|].
  destruct (pre_eqb a b); [exact IH|].
  cbn [map]. constructor; [|exact IH]. intros Hin. apply Ha.
  change (key b :: map key r') with (map key (b :: r')) in Hin.
  apply in_map_iff in Hin as (x & Ex & Hx). apply in_map_iff. exists x. split; [exact Ex|].
  apply dedup_in. rewrite E. exact Hx.
Qed.

Lemma link3_np_tail oo first : forall l, NoDup (map key l) -> ~ In (key first) (map key l) ->
  no_panic (link3 oo first l).
Proof.
  induction l as [|a r IH]; intros Hn Hf; cbn [link3]; [exact I|].
  cbn [map] in Hn, Hf. inversion Hn as [|? ? Ha Hr]; subst.
  set (nxt := match r with b :: _ => b | [] => first end).
  assert (Hk : key a <> key nxt).
  { unfold nxt. destruct r as [|b r']; [intros E; apply Hf; left; exact E|].
    intros E. apply Ha. left. symmetry. exact E. }
  assert (Hrec : no_panic (link3 oo first r)) by (apply IH; [exact Hr|intros X; apply Hf; right; exact X]).
  destruct (negb oo && bytes_eqb (p_hash a) (p_hash nxt)).
  - destruct (name_exact_eqb (p_name a) (p_name nxt)) eqn:E; [|exact I].
    exfalso. apply Hk. apply exact_eq_key. exact E.
  - destruct (link3 oo first r); cbn [bind]; try exact I; exact Hrec.
Qed.

Lemma link3_np first rest : NoDup (map key (first :: rest)) ->
  no_panic (link3 (length (first :: rest) =? 1)%nat first (first :: rest)).
Proof.
  intros Hn. cbn [map] in Hn. inversion Hn as [|? ? Ha Hr]; subst.
  destruct rest as [|b r].
  - cbn. exact I.
  - replace (length (first :: b :: r) =? 1)%nat with false by reflexivity.
    pose proof (link3_np_tail false first (b :: r) Hr Ha) as Hrec.
    remember (b :: r) as tl eqn:Etl.
    cbn [link3 negb andb].
    replace (match tl with [] => first | b0 :: _ => b0 end) with b by (rewrite Etl; reflexivity).
    destruct (bytes_eqb (p_hash first) (p_hash b)).
    + destruct (name_exact_eqb (p_name first) (p_name b)) eqn:E; [|exact I].
      exfalso. apply Ha. rewrite Etl. left. symmetry. apply exact_eq_key. exact E.
    + destruct (link3 false first tl); cbn [bind]; try exact I; exact Hrec.
Qed.

Lemma finish3_no_panic l : l <> [] -> NoDup (map key l) -> no_panic (finish3 l).
Proof.
  intros Hne Hn. unfold finish3.
  assert (Hn' : NoDup (map key (dedup (sort_by_hash l)))).
  { apply dedup_nodup. eapply Permutation_NoDup; [|exact Hn].
    apply Permutation_map. apply Permutation_sym. apply sort_perm. }
  destruct (dedup (sort_by_hash l)) as [|first rest] eqn:E.
  - exfalso. destruct l as [|x l]; [congruence|].
    assert (Hx : In x (sort_by_hash (x :: l))) by (apply sort_in; left; reflexivity).
    apply dedup_complete in Hx as (y & Hy & _). rewrite E in Hy. destruct Hy.
  - apply link3_np. exact Hn'.
Qed.

Lemma ents_insert_sorted ents n : StronglySorted name_lt ents -> StronglySorted name_lt (ents_insert ents n).
Proof.
  induction 1 as [|x r Hs IH Hx]; cbn [ents_insert]; [repeat constructor|].
  destruct (name_cmp x n) eqn:C.
  - constructor; assumption.
  - constructor; [exact IH|]. rewrite Forall_forall in *. intros y Hy.
    assert (Hy' : ent_mem y (ents_insert r n)) by (exists y; split; [exact Hy|apply name_eqb_refl]).
    apply ents_insert_mem in Hy' as [(y' & Hy' & E)|E].
    + unfold name_lt. rewrite <- (name_cmp_eq_r _ _ x E). apply Hx. exact Hy'.
    + unfold name_lt. rewrite <- (name_cmp_eq_r _ _ x E). exact C.
  - constructor; [constructor; assumption|]. constructor.
    + unfold name_lt. rewrite name_cmp_antisym, C. reflexivity.
    + rewrite Forall_forall in *. intros y Hy. unfold name_lt in *.
      eapply name_cmp_trans; [|apply Hx; exact Hy]. rewrite name_cmp_antisym, C. reflexivity.
Qed.

Lemma ent_loop_sorted apex nm dta : forall k ents, StronglySorted name_lt ents ->
  StronglySorted name_lt (ent_loop apex nm dta k ents).
Proof. induction k as [|k IH]; intros ents Hs; cbn [ent_loop]; [exact Hs|]. apply IH. apply ents_insert_sorted. exact Hs. Qed.

Lemma ent_step_sorted apex st nm : StronglySorted name_lt (snd st) ->
  StronglySorted name_lt (snd (ent_step apex st nm)).
Proof.
  destruct st as [stack ents]. unfold ent_step. destruct (pop_until nm stack) as [last stack'].
  cbn [snd]. intros Hs. match goal with |- context [if ?b then _ else _] => destruct b end;
    [apply ent_loop_sorted; exact Hs|exact Hs].
Qed.

Lemma ent_fold_sorted apex names : forall st, StronglySorted name_lt (snd st) ->
  StronglySorted name_lt (snd (fold_left (ent_step apex) names st)).
Proof.
  induction names as [|n names IH]; intros st Hs; cbn [fold_left]; [exact Hs|].
  apply IH. apply ent_step_sorted. exact Hs.
Qed.

Lemma sorted_nodup_canon (l : list name) : StronglySorted name_lt l -> NoDup (map canon l).
Proof.
  induction 1 as [|x r Hs IH Hx]; cbn [map]; constructor; [|exact IH].
  intros Hin. apply in_map_iff in Hin as (y & Ey & Hy). rewrite Forall_forall in Hx.
  specialize (Hx y Hy). apply lt_not_eqb in Hx. symmetry in Ey. apply canon_eq_iff in Ey. congruence.
Qed.

Lemma nodup_app {A} (a b : list A) : NoDup a -> NoDup b -> (forall x, In x a -> In x b -> False) ->
  NoDup (a ++ b).
Proof.
  induction a as [|x a IH]; cbn [app]; intros Ha Hb Hd; [exact Hb|].
  inversion Ha as [|? ? Hx Ha']; subst. constructor.
  - intros Hin. apply in_app_or in Hin as [Hin|Hin]; [contradiction|]. apply (Hd x); [left; reflexivity|exact Hin].
  - apply IH; [exact Ha'|exact Hb|]. intros y Hy1 Hy2. apply (Hd y); [right; exact Hy1|exact Hy2].
Qed.

Section NP.
Variable H : bytes -> bytes.
Variable apex : name.
Variable c : n3cfg.

Lemma nsec3_bitmap_np at_cut has_ds at_apex ts ttl : no_panic (nsec3_bitmap c at_cut has_ds at_apex ts ttl).
Proof.
  unfold nsec3_bitmap.
  match goal with |- context [rrset_loop ?a ?b ?d ?e ?f] =>
    destruct (rrset_loop_cases a b d e f) as [(bm' & ttl' & E & _)|E]; rewrite E end; cbn [bind]; [|exact I].
  destruct ttl'; exact I.
Qed.

Lemma mk_pre_np n bm : no_panic (mk_pre H c n bm).
Proof. unfold mk_pre. destruct (c_alg c =? nsec3_alg_sha1); exact I. Qed.

Lemma pop_until_sub nm stack : forall s,
  In s (match fst (pop_until nm stack) with Some x => x :: snd (pop_until nm stack) | None => snd (pop_until nm stack) end) ->
  In s stack.
Proof.
  induction stack as [|x r IH]; cbn [pop_until]; [intros s []|].
  destruct (ends_with nm x); cbn [fst snd]; [intros s Hs; exact Hs|].
  intros s Hs. right. apply IH. exact Hs.
Qed.

Lemma n3_loop_np excl : forall gs cut stack ents ttl acc,
  Forall (fun s => (length apex <= length s)%nat) stack ->
  no_panic (n3_loop H apex c excl gs cut stack ents ttl acc).
Proof.
  induction gs as [|g gs IH]; intros cut stack ents ttl acc Hst; cbn [n3_loop]; [exact I|].
  destruct (is_in_zone apex g) eqn:Ez; cbn [negb]; [|exact I].
  destruct (below_cut cut (fst g)); [apply IH; exact Hst|].
  destruct (excl && is_zone_cut apex g && negb (memN rt_DS (snd g))); [apply IH; exact Hst|].
  pose proof (pop_until_sub (fst g) stack) as Hsub.
  destruct (pop_until (fst g) stack) as [last stack']. cbn [fst snd] in Hsub.
  assert (Hnm : (length apex <= length (fst g))%nat) by (apply ends_with_length; exact Ez).
  rewrite Forall_forall in Hst.
  assert (Hld : exists d, match last with Some s => label_dist s apex | None => Ok 0%nat end = Ok d).
  { destruct last as [s|]; [|eauto]. unfold label_dist.
    assert (L : (length apex <= length s)%nat) by (apply Hst; apply Hsub; left; reflexivity).
    destruct (Nat.ltb_spec (length s) (length apex)); [lia|eauto]. }
  destruct Hld as (d & Hd). rewrite Hd. cbn [bind].
  unfold label_dist at 1. destruct (Nat.ltb_spec (length (fst g)) (length apex)); [lia|]. cbn [bind].
  apply bind_no_panic; [apply nsec3_bitmap_np|]. intros [bm ttl1] _.
  apply bind_no_panic; [apply mk_pre_np|]. intros p _.
  apply IH. apply Forall_forall. intros s [<-|Hs]; [exact Hnm|]. apply Hst. apply Hsub.
  destruct last as [x|]; [exact Hs|exact Hs].
Qed.

Lemma n3_loop_ttl excl : forall gs cut stack ents ttl acc acc' ents' ttl',
  n3_loop H apex c excl gs cut stack ents ttl acc = Ok (acc', ents', ttl') ->
  ttl' = true -> ttl = true \/ acc' <> [].
Proof.
  induction gs as [|g gs IH]; intros cut stack ents ttl acc acc' ents' ttl' E Ht; cbn [n3_loop] in E.
  - injection E as <- <- <-. left. exact Ht.
  - destruct (negb (is_in_zone apex g)); [injection E as <- <- <-; left; exact Ht|].
    destruct (below_cut cut (fst g)); [eapply IH; eassumption|].
    destruct (excl && is_zone_cut apex g && negb (memN rt_DS (snd g))); [eapply IH; eassumption|].
    destruct (pop_until (fst g) stack) as [last stack'].
    apply bind_ok in E as (ld & _ & E). apply bind_ok in E as (dta & _ & E).
    apply bind_ok in E as ([bm ttl1] & _ & E). apply bind_ok in E as (p & _ & E).
    right. apply n3_loop_spec in E as (l & _ & -> & _). destruct (rev l); discriminate.
Qed.

Lemma ent_recs_np es : no_panic (ent_recs H c es).
Proof.
  induction es as [|e es IH]; cbn [ent_recs]; [exact I|].
  apply bind_no_panic; [apply mk_pre_np|]. intros p _. apply bind_no_panic; [exact IH|]. intros ps _. exact I.
Qed.

Lemma ent_recs_names es : forall ps, ent_recs H c es = Ok ps -> map p_name ps = es.
Proof.
  induction es as [|e es IH]; intros ps E; cbn [ent_recs] in E.
  - injection E as <-. reflexivity.
  - apply bind_ok in E as (p & Hp & E). apply bind_ok in E as (ps' & Hps & E). injection E as <-.
    apply mk_pre_ok in Hp as (P1 & _). cbn [map]. rewrite P1, (IH _ Hps). reflexivity.
Qed.

Theorem nsec3_no_panic z : zone_sorted z -> no_panic (generate_nsec3s H apex c z).
Proof.
  intros Hs. rewrite generate_nsec3s_eq.
  set (excl := opt_out_flag c && c_excl c). set (gs := groups (skip_before apex z)).
  apply bind_no_panic; [apply n3_loop_np, Forall_nil|]. intros [[acc ents] ttl] E.
  destruct ttl; cbn [negb]; [|exact I].
  pose proof (n3_loop_ttl _ _ _ _ _ _ _ _ _ _ E eq_refl) as [X|Hacc]; [discriminate|].
  pose proof E as E'. apply n3_loop_spec in E' as (l & Hl & Hacc' & Hents). rewrite app_nil_r in Hacc'.
  apply bind_no_panic; [apply ent_recs_np|]. intros er Eer.
  rewrite Hacc', rev_involutive.
  assert (Hl0 : l <> []) by (intros ->; apply Hacc; rewrite Hacc'; reflexivity).
  apply finish3_no_panic; [destruct l; [congruence|discriminate]|].
  (* distinct names *)
  fold excl gs in Hl.
  set (v3 := visited3 apex excl gs None) in *. set (names3 := map gname v3) in *.
  assert (Nl : map p_name l = names3).
  { unfold names3. clear -Hl. induction Hl as [|gc p v l [Hn _] _ IH]; cbn [map]; [reflexivity|]. rewrite Hn, IH. reflexivity. }
  pose proof (ent_recs_names _ _ Eer) as Ner.
  pose proof (names3_sorted apex c z Hs) as S3. fold excl gs v3 names3 in S3.
  pose proof (names3_in_zone apex c z) as Z3. fold excl gs v3 names3 in Z3.
  assert (Sents : StronglySorted name_lt ents).
  { rewrite Hents. apply ent_fold_sorted. constructor. }
  pose proof (ent_fold_spec apex names3 S3 Z3) as Hspec.
  unfold key. rewrite map_app, <- !(map_map p_name canon), Nl, Ner.
  apply nodup_app; [apply sorted_nodup_canon; exact S3|apply sorted_nodup_canon; exact Sents|].
  intros k Ha Hb. apply in_map_iff in Ha as (x & Ex & Hx). apply in_map_iff in Hb as (e & Ee & He).
  assert (Exe : name_eqb x e = true) by (apply canon_eq_iff; congruence).
  assert (Hm : ent_mem e (snd (fold_left (ent_step apex) names3 ([], [])))).
  { exists e. split; [rewrite <- Hents; exact He|apply name_eqb_refl]. }
  apply Hspec in Hm as (_ & _ & Hno). apply Hno. exists x. split; assumption.
Qed.

End NP.

Theorem nsec3_sorted_closed' H apex c z out : generate_nsec3s H apex c z = Ok out ->
  StronglySorted (fun a b => lex_cmp (h_owner a) (h_owner b) = Lt) out /\ out <> [] /\
  map h_next out = tl (map h_owner out) ++ [hd [] (map h_owner out)].
Proof. exact (nsec3_sorted_closed H apex c z out). Qed.

Theorem nsec3_owners' H apex c z out : zone_sorted z -> generate_nsec3s H apex c z = Ok out ->
  forall x, (exists r, In r out /\ h_owner r = x) <->
    (exists n, (included apex z (optout_excl c) n \/ ent3 apex z (optout_excl c) n) /\
               x = nsec3_hash H n (c_iters c) (c_salt c)).
Proof. intros Hs Ho. exact (nsec3_owners H apex c z Hs out Ho). Qed.

(* non-vacuity: the example zone of ProofsDeny with opt-out: the insecure
   delegation z.ex. is left out, s.ex. (DS) stays, no ENT; and a zone with a
   shared ENT *)
Definition ex_cfg (flags : N) : n3cfg := mk_n3cfg true 1 flags 1 [171] true.

Example ex_zone_nsec3_optout :
  match generate_nsec3s sha1 ex_apex (ex_cfg 1) ex_zone, generate_nsec3s sha1 ex_apex (ex_cfg 0) ex_zone with
  | Ok a, Ok b => (length a, length b) = (3%nat, 4%nat)
  | _, _ => False
  end.
Proof. vm_compute. reflexivity. Qed.

Definition ent_zone : list rec :=
  [ ([[101; 120]], 6);                                        (* ex. SOA *)
    ([[97]; [69]; [101; 120]], 1);                            (* a.E.ex. A *)
    ([[98]; [120]; [101]; [101; 120]], 1) ].                  (* b.x.e.ex. A *)

Example ent_zone_nsec3 :
  (* apex, a.E.ex, b.x.e.ex and the ENTs e.ex (shared) and x.e.ex *)
  match generate_nsec3s sha1 ex_apex (ex_cfg 0) ent_zone with
  | Ok a => length a = 5%nat /\
            In (nsec3_hash sha1 [[101]; [101; 120]] 1 [171]) (map h_owner a) /\
            In (nsec3_hash sha1 [[120]; [101]; [101; 120]] 1 [171]) (map h_owner a)
  | _ => False
  end.
Proof. vm_compute. intuition. Qed.

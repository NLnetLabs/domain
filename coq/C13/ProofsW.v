(* The NSEC chain starts at the apex and is a closed cycle over its own owners; the
   NSEC3 next-hash fields are a rotation (permutation) of the distinct hashed owners;
   generate_nsec3s and denial after SortedRecords::from_iter on records in any order. *)
From Coq Require Import NArith List Sorted Permutation.
From DV Require Import Base.Outcome Base.Bytes Base.Lex Base.Names C11.Sha C13.Gen C13.Model C13.ProofsNames C13.ProofsNsec2 C13.ProofsDeny C13.ProofsN3c C13.ProofsN3d C13.ProofsN3e C13.ProofsDedup.
Import ListNotations.
Local Open Scope N_scope.

Lemma in_tl {A} (x : A) l : In x (tl l) -> In x l.
Proof. destruct l as [|a l]; [intros []|intros H; right; exact H]. Qed.

Lemma last_map_f {A B} (f : A -> B) l d : last (map f l) (f d) = f (last l d).
Proof.
  induction l as [|a l IH]; [reflexivity|]. destruct l as [|b l]; [reflexivity|].
  cbn [map last] in *. exact IH.
Qed.

Lemma rot_perm {A} (d : A) l : l <> [] -> Permutation (tl l ++ [hd d l]) l.
Proof.
  destruct l as [|a l]; [intros E; contradiction E; reflexivity|].
  intros _. cbn [tl hd]. apply Permutation_sym. apply Permutation_cons_append.
Qed.

Lemma sorted_lt_nodup (l : list bytes) :
  StronglySorted (fun a b => lex_cmp a b = Lt) l -> NoDup l.
Proof.
  induction 1 as [|a l _ IH F]; constructor; [|exact IH].
  intros Hin. rewrite Forall_forall in F. specialize (F a Hin).
  rewrite lex_cmp_refl in F. discriminate.
Qed.

Theorem nsec_apex_first_cycle apex z dk out :
  zone_sorted z -> owner_in z apex -> generate_nsecs apex dk z = Ok out ->
  (exists r rest, out = r :: rest /\ name_eqb (n_owner r) apex = true /\
                  n_next (last out r) = apex) /\
  (forall r, In r out -> exists r', In r' out /\ name_eqb (n_owner r') (n_next r) = true).
Proof.
  intros Hs Ho Hg.
  destruct (nsec_one_per_auth_name apex z dk out Hs Hg) as (Hiff & _).
  destruct (proj1 (Hiff apex) (apex_auth apex z Ho)) as (r0 & Hin0 & He0).
  assert (Hne : out <> []) by (intros E; rewrite E in Hin0; exact Hin0).
  pose proof (nsec_closed apex z dk out Hg Hne) as Hcl.
  split.
  - destruct out as [|r rest]; [contradiction Hne; reflexivity|].
    exists r, rest. split; [reflexivity|]. split; [exact (nsec_head_apex apex z dk r rest Hs Ho Hg)|].
    rewrite <- (last_map_f n_next). rewrite Hcl. apply last_last.
  - intros r Hr. apply (in_map n_next) in Hr. rewrite Hcl in Hr.
    apply in_app_or in Hr. destruct Hr as [Hr|[Hr|[]]].
    + apply in_tl in Hr. apply in_map_iff in Hr. destruct Hr as (r' & E & Hr').
      exists r'. split; [exact Hr'|]. rewrite E. apply name_eqb_refl.
    + exists r0. split; [exact Hin0|]. rewrite <- Hr. exact He0.
Qed.

Example ex_nsec_apex_first :
  zone_sorted ex_zone /\ owner_in ex_zone ex_apex /\ exists out, generate_nsecs ex_apex true ex_zone = Ok out.
Proof.
  split; [exact ex_zone_sorted|]. split.
  - exists rt_SOA. exact (proj2 ex_zone_total).
  - eexists. exact ex_zone_nsec.
Qed.

Theorem nsec3_ring_permutation H apex c z out : generate_nsec3s H apex c z = Ok out ->
  NoDup (map h_owner out) /\ Permutation (map h_next out) (map h_owner out) /\
  (forall r, In r out -> exists r', In r' out /\ h_owner r' = h_next r) /\
  (forall r, In r out -> exists r', In r' out /\ h_next r' = h_owner r).
Proof.
  intros Hg. destruct (nsec3_sorted_closed' H apex c z out Hg) as (Hs & Hne & Hcl).
  assert (Hne' : map h_owner out <> []).
  { intros E. apply map_eq_nil in E. exact (Hne E). }
  assert (P : Permutation (map h_next out) (map h_owner out)).
  { rewrite Hcl. apply rot_perm. exact Hne'. }
  split; [apply sorted_lt_nodup, (sorted_map_iff _ h_owner), Hs|].
  split; [exact P|]. split.
  - intros r Hr. apply (in_map h_next) in Hr. apply (Permutation_in _ P) in Hr.
    apply in_map_iff in Hr. destruct Hr as (r' & E & Hr'). exists r'. split; assumption.
  - intros r Hr. apply (in_map h_owner) in Hr. apply (Permutation_in _ (Permutation_sym P)) in Hr.
    apply in_map_iff in Hr. destruct Hr as (r' & E & Hr'). exists r'. split; assumption.
Qed.

Example ex_nsec3_ring : exists out, generate_nsec3s sha1 ex_apex (ex_cfg 0) ex_zone = Ok out /\ length out = 4%nat.
Proof. eexists. split; [vm_compute; reflexivity|reflexivity]. Qed.

Lemma included_ext apex z1 z2 excl : (forall o x, has_type z1 o x <-> has_type z2 o x) ->
  forall n, included apex z1 excl n <-> included apex z2 excl n.
Proof.
  intros Hx n. unfold included.
  rewrite (auth_name_ext apex z1 z2 Hx n), (deleg_ext apex z1 z2 Hx n), (Hx n rt_DS). reflexivity.
Qed.

Lemma ent3_ext apex z1 z2 excl : (forall o x, has_type z1 o x <-> has_type z2 o x) ->
  forall n, ent3 apex z1 excl n <-> ent3 apex z2 excl n.
Proof.
  intros Hx n. unfold ent3. rewrite (owner_in_ext z1 z2 Hx n).
  setoid_rewrite (included_ext apex z1 z2 excl Hx). reflexivity.
Qed.

Theorem sorted_records_nsec3_end_to_end H l apex c out :
  generate_nsec3s H apex c (strip (sorted_records l)) = Ok out ->
  (forall x, (exists r, In r out /\ h_owner r = x) <->
     (exists n, (included apex (strip l) (optout_excl c) n \/ ent3 apex (strip l) (optout_excl c) n) /\
                x = nsec3_hash H n (c_iters c) (c_salt c))) /\
  StronglySorted (fun a b => lex_cmp (h_owner a) (h_owner b) = Lt) out /\
  map h_next out = tl (map h_owner out) ++ [hd [] (map h_owner out)] /\
  no_panic (generate_nsec3s H apex c (strip (sorted_records l))).
Proof.
  intros Hg. pose proof (sorted_records_sorted l) as Hs.
  pose proof (sorted_records_types l) as Hx.
  destruct (nsec3_sorted_closed' H apex c _ out Hg) as (S1 & _ & S2).
  split; [|split; [exact S1|split; [exact S2|apply nsec3_no_panic; exact Hs]]].
  intros x. rewrite (nsec3_owners' H apex c _ out Hs Hg x).
  setoid_rewrite (included_ext apex _ _ (optout_excl c) Hx). setoid_rewrite (ent3_ext apex _ _ (optout_excl c) Hx).
  reflexivity.
Qed.

Example ex_sorted_records_nsec3 :
  exists out, generate_nsec3s sha1 [[101; 120]] (ex_cfg 0)
    (strip (sorted_records [([[97]; [98]; [101; 120]], 1, (false, [1])); ([[101; 120]], 6, (false, [2]))])) = Ok out
    /\ length out = 3%nat.
Proof. eexists. split; [vm_compute; reflexivity|reflexivity]. Qed.

Lemma nsec3_denies_local_weaker H apex c z :
  (forall a b, hashn H c a = hashn H c b -> name_eqb a b = true) ->
  forall n a, included apex z (optout_excl c) a -> hashn H c a = hashn H c n -> name_eqb a n = true.
Proof. intros G n a _ E. apply G. exact E. Qed.

Example ex_nsec3_denies_local :
  exists out r, generate_nsec3s sha1 ex_apex (ex_cfg 0) ex_zone = Ok out /\ nth_error out 1 = Some r /\
    h3_covers r (hashn sha1 (ex_cfg 0) [[103]; [122]; [101; 120]]).
Proof.
  eexists. eexists. split; [vm_compute; reflexivity|]. split; [reflexivity|].
  left. vm_compute. repeat split.
Qed.

Lemma types_ok_ext z1 z2 : (forall o x, has_type z1 o x <-> has_type z2 o x) -> types_ok z2 -> types_ok z1.
Proof.
  intros Hx T. unfold types_ok in *. rewrite Forall_forall in *. intros [m t] Hin.
  assert (Ht : has_type z1 m t) by (exists m; split; [exact Hin|apply name_eqb_refl]).
  apply Hx in Ht. destruct Ht as (m' & Hin' & _). exact (T _ Hin').
Qed.

Theorem sorted_records_denies H l apex dk c :
  types_ok (strip l) ->
  (forall out, generate_nsecs apex dk (strip (sorted_records l)) = Ok out -> owner_in (strip l) apex ->
     forall n t, in_zone apex n -> ~ has_type (strip l) n t -> t <> 46 -> t <> 47 ->
       ~ (dk = true /\ name_eqb n apex = true /\ t = 48) ->
       exists r, In r out /\
         ((name_eqb (n_owner r) n = true /\ bm_contains (n_types r) t = Ok false) \/ nsec_covers r n)) /\
  (forall out, generate_nsec3s H apex c (strip (sorted_records l)) = Ok out ->
     forall n,
     (forall a, included apex (strip l) (optout_excl c) a -> hashn H c a = hashn H c n -> name_eqb a n = true) ->
     forall t, ~ has_type (strip l) n t -> t <> 46 ->
       ~ (name_eqb n apex = true /\ (t = 51 \/ (c_dnskey c = true /\ t = 48))) ->
       exists r, In r out /\
         ((h_owner r = hashn H c n /\ bm_contains (h_types r) t = Ok false) \/ h3_covers r (hashn H c n))).
Proof.
  intros T. pose proof (sorted_records_sorted l) as Hs. pose proof (sorted_records_types l) as Hx.
  pose proof (types_ok_ext _ _ Hx T) as T'.
  split.
  - intros out Hg Ho n t Hz Hno H46 H47 Hdk.
    apply (nsec_denies apex _ dk out Hs T' Hg); try assumption.
    + apply (owner_in_ext _ _ Hx apex). exact Ho.
    + intros X. apply Hno. apply Hx. exact X.
  - intros out Hg n Hinj t Hno H46 Hap.
    apply (nsec3_denies_local H apex c _ out Hs T' Hg n); try assumption.
    + intros a Ia. apply Hinj. apply (included_ext apex _ _ (optout_excl c) Hx a). exact Ia.
    + intros X. apply Hno. apply Hx. exact X.
Qed.

Example ex_sorted_records_denies :
  types_ok (strip [([[97]; [98]; [101; 120]], 1, (false, [1])); ([[101; 120]], 6, (false, [2]))]) /\
  exists out, generate_nsecs [[101; 120]] true
    (strip (sorted_records [([[97]; [98]; [101; 120]], 1, (false, [1])); ([[101; 120]], 6, (false, [2]))])) = Ok out
    /\ length out = 2%nat.
Proof.
  split; [repeat constructor|]. eexists. split; [vm_compute; reflexivity|reflexivity].
Qed.

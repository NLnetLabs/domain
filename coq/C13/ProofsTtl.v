(* The generators over records with class and TTL --
   erasure to the plain model, the TTL/class rule, and Rrset::new's expect. *)
From Coq Require Import ZArith List Bool.
From DV Require Import Base.Outcome Base.Names C13.Gen C13.Model C13.ProofsNames.
Import ListNotations.
Local Open Scope N_scope.

Definition omap {A B} (f : A -> B) (o : outcome A) : outcome B :=
  match o with Ok a => Ok (f a) | Err e => Err e | Panic s => Panic s | OutOfFuel => OutOfFuel end.

Lemma tskip_erase apex l : map trec_strip (tskip_before apex l) = skip_before apex (map trec_strip l).
Proof.
  induction l as [|r l IH]; [reflexivity|]. cbn [tskip_before map skip_before]. unfold trec_strip at 2.
  destruct (name_eqb apex (t_name r) || ends_with (t_name r) apex); [reflexivity|exact IH].
Qed.

Lemma tgroups_from_erase l : forall first,
  groups_from first (map trec_strip l) =
  (map t_type (fst (tgroups_from first l)), map tgroup_strip (snd (tgroups_from first l))).
Proof.
  induction l as [|r l IH]; intros first; [reflexivity|].
  cbn [map tgroups_from groups_from]. unfold trec_strip at 1.
  destruct (name_eqb (t_name r) first).
  - rewrite IH. destruct (tgroups_from first l) as [ts gs]. reflexivity.
  - rewrite IH. destruct (tgroups_from (t_name r) l) as [ts gs]. reflexivity.
Qed.

Lemma tgroups_erase l : map tgroup_strip (tgroups l) = groups (map trec_strip l).
Proof.
  destruct l as [|r l]; [reflexivity|]. cbn [tgroups map groups]. unfold trec_strip at 1.
  rewrite tgroups_from_erase. destruct (tgroups_from (t_name r) l) as [ts gs]. reflexivity.
Qed.

Definition run_erase (run : list trec) : N * nat :=
  (match run with f :: _ => t_type f | [] => 0 end, length run).

Lemma truns_erase l : map run_erase (truns l) = rrsets (map t_type l) /\ Forall (fun run => run <> []) (truns l).
Proof.
  induction l as [|r l [IH1 IH2]]; [split; [reflexivity|constructor]|].
  cbn [truns map rrsets]. rewrite <- IH1.
  destruct (truns l) as [|[|r' run] rest]; cbn [map run_erase].
  - split; [reflexivity|repeat constructor; discriminate].
  - exfalso. inversion IH2 as [|? ? X]; subst. congruence.
  - unfold run_erase at 1. cbn [length].
    destruct (t_type r' =? t_type r); (split; [reflexivity|]); inversion IH2; subst;
      repeat constructor; try discriminate; assumption.
Qed.

Definition st_erase {A S} (r : A * option S) : A * bool := (fst r, is_some (snd r)).

Lemma trrset_loop_erase {S} (upd : trec -> S) at_cut cts : forall runs bm st,
  Forall (fun run => run <> []) runs ->
  trrset_loop upd at_cut cts runs bm st = Panic 7 \/
  omap st_erase (trrset_loop upd at_cut cts runs bm st) =
    rrset_loop at_cut cts (map run_erase runs) bm (is_some st).
Proof.
  induction runs as [|run runs IH]; intros bm st Hne; [right; reflexivity|].
  inversion Hne as [|? ? Hr Hne']; subst. destruct run as [|f run]; [congruence|].
  cbn [trrset_loop map run_erase rrset_loop].
  destruct (ttl_check f (f :: run)); [left; reflexivity|].
  destruct (t_type f =? rt_SOA).
  - destruct (soa_max_len <? length (f :: run))%nat; [right; reflexivity|].
    apply (IH _ (Some (upd f)) Hne').
  - apply IH. exact Hne'.
Qed.

(* the loop over the RRsets of one owner followed by the test that a SOA was seen, as both
   generators have it; [k] is what is done with the bitmap afterwards *)
Lemma trrset_then_erase {S B} (upd : trec -> S) (k : list block -> B) at_cut cts recs bm st :
  let t := do r <- trrset_loop upd at_cut cts (truns recs) bm st;
           let '(bm', st') := r in if is_some st' then Ok (k bm', st') else Err 1 in
  t = Panic 7 \/
  omap st_erase t =
    (do r <- rrset_loop at_cut cts (rrsets (map t_type recs)) bm (is_some st);
     let '(bm', ttl') := r in if ttl' then Ok (k bm', ttl') else Err 1).
Proof.
  cbn zeta. destruct (truns_erase recs) as [E1 E2]. rewrite <- E1.
  destruct (trrset_loop_erase upd at_cut cts (truns recs) bm st E2) as [P|E]; [left; rewrite P; reflexivity|].
  rewrite <- E. right.
  destruct (trrset_loop upd at_cut cts (truns recs) bm st) as [[bm' st']| | |]; cbn [omap bind st_erase fst snd]; try reflexivity.
  unfold st_erase. destruct (is_some st') eqn:Es; cbn [omap fst snd]; rewrite ?Es; reflexivity.
Qed.

Lemma tnsec_visit_erase apex dk at_cut g st :
  tnsec_visit apex dk at_cut g st = Panic 7 \/
  omap st_erase (tnsec_visit apex dk at_cut g st) = nsec_visit apex dk at_cut (tgroup_strip g) (is_some st).
Proof. apply (trrset_then_erase nsec_upd bm_finalize). Qed.

Definition acc_erase (acc : list tnsec) : list nsec := map tn_rec acc.

Lemma tnsec_push_erase site prev next st acc acc' :
  tnsec_push site prev next st acc = Ok acc' ->
  match prev with
  | Some (pn, bm) => is_some st = true /\ acc_erase acc' = mk_nsec pn next bm :: acc_erase acc
  | None => acc' = acc
  end.
Proof.
  unfold tnsec_push. destruct prev as [[pn bm]|]; [|intros E; injection E as <-; reflexivity].
  destruct st as [[ttl cls]|]; [|discriminate]. intros E. injection E as <-. split; reflexivity.
Qed.

Lemma tnsec_finish_erase apex prev st acc out :
  (do acc' <- tnsec_push 2 prev apex st acc; Ok (rev acc')) = Ok out ->
  nsec_finish apex prev (is_some st) (acc_erase acc) = Ok (acc_erase out).
Proof.
  intros E. apply bind_ok in E as (acc' & Hp & E). injection E as <-.
  apply tnsec_push_erase in Hp. unfold nsec_finish, acc_erase in *.
  destruct prev as [[pn bm]|].
  - destruct Hp as [-> Hp]. rewrite map_rev, Hp. reflexivity.
  - subst acc'. rewrite map_rev. reflexivity.
Qed.

Lemma tnsec_loop_erase apex dk : forall gs cut prev st acc out,
  tnsec_loop apex dk gs cut prev st acc = Ok out ->
  nsec_loop apex dk (map tgroup_strip gs) cut prev (is_some st) (acc_erase acc) = Ok (acc_erase out).
Proof.
  induction gs as [|g gs IH]; intros cut prev st acc out E; cbn [tnsec_loop map nsec_loop] in *.
  - apply tnsec_finish_erase. exact E.
  - destruct (negb (is_in_zone apex (tgroup_strip g))); [apply tnsec_finish_erase; exact E|].
    change (fst (tgroup_strip g)) with (fst g).
    destruct (below_cut cut (fst g)); [apply IH; exact E|].
    apply bind_ok in E as (acc' & Hp & E). apply bind_ok in E as ([bm st'] & Hv & E).
    apply IH in E. apply tnsec_push_erase in Hp.
    destruct (tnsec_visit_erase apex dk (is_zone_cut apex (tgroup_strip g)) g st) as [P|Ev]; [congruence|].
    rewrite Hv in Ev. cbn [omap st_erase fst snd] in Ev. rewrite <- Ev. cbn [bind].
    destruct prev as [[pn pbm]|].
    + destruct Hp as [-> Hp]. cbn [bind]. rewrite <- Hp. exact E.
    + subst acc'. cbn [bind]. exact E.
Qed.

Theorem nsec_t_erasure apex dk z out : generate_nsecs_t apex dk z = Ok out ->
  generate_nsecs apex dk (map trec_strip z) = Ok (map tn_rec out).
Proof.
  unfold generate_nsecs_t, generate_nsecs. intros E. apply tnsec_loop_erase in E.
  rewrite tgroups_erase, tskip_erase in E. exact E.
Qed.

Lemma tskip_in apex l r : In r (tskip_before apex l) -> In r l.
Proof.
  induction l as [|x l IH]; cbn [tskip_before]; [intros []|].
  destruct (name_eqb apex (t_name x) || ends_with (t_name x) apex); [intros H; exact H|].
  intros H. right. apply IH. exact H.
Qed.

Lemma tgroups_from_in l : forall first,
  (forall r, In r (fst (tgroups_from first l)) -> In r l /\ name_eqb (t_name r) first = true) /\
  (forall g r, In g (snd (tgroups_from first l)) -> In r (snd g) -> In r l /\ name_eqb (t_name r) (fst g) = true).
Proof.
  induction l as [|x l IH]; intros first; cbn [tgroups_from]; [split; [intros r []|intros g r []]|].
  destruct (name_eqb (t_name x) first) eqn:E.
  - destruct (IH first) as [A B]. destruct (tgroups_from first l) as [ts gs]. cbn [fst snd] in *. split.
    + intros r [<-|Hr]; [split; [left; reflexivity|exact E]|]. destruct (A r Hr). split; [right|]; assumption.
    + intros g r Hg Hr. destruct (B g r Hg Hr). split; [right|]; assumption.
  - destruct (IH (t_name x)) as [A B]. destruct (tgroups_from (t_name x) l) as [ts gs]. cbn [fst snd] in *. split.
    + intros r [].
    + intros g r [<-|Hg] Hr.
      * cbn [fst snd] in *. destruct Hr as [<-|Hr]; [split; [left; reflexivity|apply name_eqb_refl]|].
        destruct (A r Hr). split; [right|]; assumption.
      * destruct (B g r Hg Hr). split; [right|]; assumption.
Qed.

Lemma tgroups_cons x l :
  tgroups (x :: l) = (t_name x, fst (tgroups_from (t_name x) (x :: l))) :: snd (tgroups_from (t_name x) (x :: l)).
Proof. cbn [tgroups tgroups_from]. rewrite name_eqb_refl. destruct (tgroups_from (t_name x) l). reflexivity. Qed.

Lemma tgroups_in l g r : In g (tgroups l) -> In r (snd g) -> In r l /\ name_eqb (t_name r) (fst g) = true.
Proof.
  destruct l as [|x l]; [intros []|]. rewrite tgroups_cons.
  destruct (tgroups_from_in (x :: l) (t_name x)) as [A B].
  intros [<-|Hg] Hr; [apply A; exact Hr|apply (B g r Hg Hr)].
Qed.

Lemma truns_in l : forall run r, In run (truns l) -> In r run ->
  In r l /\ (match run with f :: _ => t_type r = t_type f | [] => True end).
Proof.
  induction l as [|x l IH]; cbn [truns]; [intros run r []|].
  intros run r Hrun Hr.
  destruct (truns l) as [|[|r' run'] rest] eqn:E.
  - destruct Hrun as [<-|[]]. destruct Hr as [<-|[]]. split; [left; reflexivity|reflexivity].
  - destruct Hrun as [<-|Hrun].
    + destruct Hr as [<-|[]]. split; [left; reflexivity|reflexivity].
    + destruct (IH run r (or_intror Hrun) Hr) as [A B]. split; [right; exact A|exact B].
  - destruct (N.eqb_spec (t_type r') (t_type x)) as [Et|Et].
    + destruct Hrun as [<-|Hrun].
      * destruct Hr as [<-|Hr]; [split; [left; reflexivity|reflexivity]|].
        destruct (IH (r' :: run') r (or_introl eq_refl) Hr) as [A B]. split; [right; exact A|congruence].
      * destruct (IH run r (or_intror Hrun) Hr) as [A B]. split; [right; exact A|exact B].
    + destruct Hrun as [<-|Hrun].
      * destruct Hr as [<-|[]]. split; [left; reflexivity|reflexivity].
      * destruct (IH run r Hrun Hr) as [A B]. split; [right; exact A|exact B].
Qed.

(* a property of the state that every SOA record establishes is kept by the loop *)
Lemma trrset_loop_state {S} (upd : trec -> S) (P : option S -> Prop) at_cut cts : forall runs bm st bm' st',
  (forall run f, In run runs -> In f run -> t_type f = rt_SOA -> P (Some (upd f))) ->
  P st -> trrset_loop upd at_cut cts runs bm st = Ok (bm', st') -> P st'.
Proof.
  induction runs as [|run runs IH]; intros bm st bm' st' Hin Hst E; cbn [trrset_loop] in E.
  - injection E as <- <-. exact Hst.
  - assert (Hin' : forall run0 f, In run0 runs -> In f run0 -> t_type f = rt_SOA -> P (Some (upd f)))
      by (intros ? ? X; apply Hin; right; exact X).
    destruct run as [|f run]; [eapply IH; eassumption|].
    destruct (ttl_check f (f :: run)); [discriminate|].
    destruct (N.eqb_spec (t_type f) rt_SOA) as [Es|Es]; [|eapply IH; eassumption].
    destruct (soa_max_len <? length (f :: run))%nat; [discriminate|].
    eapply IH; [exact Hin'| |exact E]. apply (Hin (f :: run) f); [left; reflexivity|left; reflexivity|exact Es].
Qed.

Definition soa_state {S} (upd : trec -> S) (z : list trec) (st : option S) : Prop :=
  match st with Some x => exists s, In s z /\ t_type s = 6 /\ x = upd s | None => True end.

Lemma trrset_loop_soa {S} (upd : trec -> S) z at_cut cts recs bm st bm' st' :
  (forall r, In r recs -> In r z) -> soa_state upd z st ->
  trrset_loop upd at_cut cts (truns recs) bm st = Ok (bm', st') -> soa_state upd z st'.
Proof.
  intros Hin. apply trrset_loop_state. intros run f Hrun Hf Es. exists f.
  split; [apply Hin; eapply truns_in; eassumption|]. split; [exact Es|reflexivity].
Qed.

Lemma tnsec_loop_from_soa apex dk z : forall gs cut prev st acc out,
  (forall g r, In g gs -> In r (snd g) -> In r z) ->
  soa_state nsec_upd z st -> (forall x, In x acc -> soa_state nsec_upd z (Some (tn_ttl x, tn_class x))) ->
  tnsec_loop apex dk gs cut prev st acc = Ok out ->
  forall x, In x out -> soa_state nsec_upd z (Some (tn_ttl x, tn_class x)).
Proof.
  assert (Push : forall site prev next st acc acc', soa_state nsec_upd z st ->
            (forall x, In x acc -> soa_state nsec_upd z (Some (tn_ttl x, tn_class x))) ->
            tnsec_push site prev next st acc = Ok acc' ->
            forall x, In x acc' -> soa_state nsec_upd z (Some (tn_ttl x, tn_class x))).
  { intros site prev next st acc acc' Hst Hacc E. unfold tnsec_push in E.
    destruct prev as [[pn bm]|]; [|injection E as <-; exact Hacc].
    destruct st as [[ttl cls]|]; [|discriminate]. injection E as <-.
    intros x [<-|Hx]; [exact Hst|apply Hacc; exact Hx]. }
  assert (Fin : forall prev st acc out, soa_state nsec_upd z st ->
            (forall x, In x acc -> soa_state nsec_upd z (Some (tn_ttl x, tn_class x))) ->
            (do acc' <- tnsec_push 2 prev apex st acc; Ok (rev acc')) = Ok out ->
            forall x, In x out -> soa_state nsec_upd z (Some (tn_ttl x, tn_class x))).
  { intros prev st acc out Hst Hacc E. apply bind_ok in E as (acc' & Hp & E). injection E as <-.
    intros x Hx. apply in_rev in Hx. eapply Push; eassumption. }
  induction gs as [|g gs IH]; intros cut prev st acc out Hin Hst Hacc E; cbn [tnsec_loop] in E.
  - eapply Fin; eassumption.
  - assert (Hin' : forall g0 r, In g0 gs -> In r (snd g0) -> In r z) by (intros ? ? X Y; eapply Hin; [right; exact X|exact Y]).
    destruct (negb (is_in_zone apex (tgroup_strip g))); [eapply Fin; eassumption|].
    destruct (below_cut cut (fst g)); [eapply IH; eassumption|].
    apply bind_ok in E as (acc' & Hp & E). apply bind_ok in E as ([bm st'] & Hv & E).
    eapply IH; [exact Hin'| |eapply Push; eassumption|exact E].
    unfold tnsec_visit in Hv. apply bind_ok in Hv as ([bm1 st1] & Hr & Hv).
    destruct (is_some st1); [|discriminate]. injection Hv as _ <-.
    exact (trrset_loop_soa nsec_upd z _ _ (snd g) _ _ _ _ (fun r => Hin g r (or_introl eq_refl)) Hst Hr).
Qed.

Theorem nsec_t_ttl_class apex dk z out : generate_nsecs_t apex dk z = Ok out ->
  forall x, In x out ->
  exists s, In s z /\ t_type s = 6 /\ tn_ttl x = N.min (t_min s) (t_ttl s) /\ tn_class x = t_class s.
Proof.
  unfold generate_nsecs_t. intros E x Hx.
  apply (tnsec_loop_from_soa apex dk z _ _ _ _ _ _ ) with (x := x) in E; [|intros g r Hg Hr|exact I|intros ? []|exact Hx].
  - destruct E as (s & A & B & C). unfold nsec_upd, soa_ttl in C. cbv [ttl_is_min] in C. injection C as C1 C2.
    exists s. auto.
  - apply (tskip_in apex). eapply tgroups_in; eassumption.
Qed.

(* Rrset::new's expect: reachable exactly through an RRset with mixed TTLs *)
Definition rrset_ttls_uniform (z : list trec) : Prop :=
  forall a b, In a z -> In b z -> name_eqb (t_name a) (t_name b) = true -> t_type a = t_type b ->
    t_type a <> 46 -> t_ttl a = t_ttl b.

Definition runs_uniform (runs : list (list trec)) : Prop :=
  forall run f r, In run runs -> (exists tl, run = f :: tl) -> In r run -> t_type f <> 46 -> t_ttl r = t_ttl f.

Lemma uniform_runs apex z g : rrset_ttls_uniform z -> In g (tgroups (tskip_before apex z)) ->
  runs_uniform (truns (snd g)).
Proof.
  intros Hu Hg run f r Hrun (tl & ->) Hr Hf.
  assert (HG : forall x, In x (snd g) -> In x z /\ name_eqb (t_name x) (fst g) = true).
  { intros x Hx. destruct (tgroups_in _ g x Hg Hx) as [A B]. split; [apply (tskip_in apex); exact A|exact B]. }
  destruct (truns_in (snd g) _ r Hrun Hr) as [A B]. destruct (truns_in (snd g) _ f Hrun (or_introl eq_refl)) as [A' _].
  destruct (HG r A) as [Z1 N1]. destruct (HG f A') as [Z2 N2].
  symmetry. apply (Hu f r Z2 Z1); [|congruence|exact Hf].
  rewrite name_eqb_sym in N1. eapply name_eqb_trans; eassumption.
Qed.

Lemma trrset_loop_cases {S} (upd : trec -> S) at_cut cts : forall runs bm st, runs_uniform runs ->
  (exists bm' st', trrset_loop upd at_cut cts runs bm st = Ok (bm', st') /\ (is_some st = true -> is_some st' = true)) \/
  trrset_loop upd at_cut cts runs bm st = Err 1.
Proof.
  induction runs as [|run runs IH]; intros bm st Hu; cbn [trrset_loop]; [left; eauto|].
  assert (Hu' : runs_uniform runs) by (intros ? ? ? X; apply Hu; right; exact X).
  destruct run as [|f run]; [apply IH; exact Hu'|].
  assert (Hok : ttls_ok f (f :: run) = true).
  { unfold ttls_ok. cbv [rrsig_ttl_exempt]. destruct (N.eqb_spec (t_type f) 46) as [E|E]; [reflexivity|].
    cbn [orb]. apply forallb_forall. intros r Hr. apply N.eqb_eq.
    apply (Hu (f :: run) f r); [left; reflexivity|eauto|exact Hr|exact E]. }
  unfold ttl_check. rewrite Hok. cbn [negb]. rewrite andb_false_r.
  destruct (t_type f =? rt_SOA).
  - destruct (soa_max_len <? length (f :: run))%nat; [right; reflexivity|].
    destruct (IH (if negb at_cut || memN (t_type f) cts then bm_add bm (t_type f) else bm) (Some (upd f)) Hu')
      as [(bm' & st' & E & Hm)|E]; [left|right; exact E].
    exists bm', st'. split; [exact E|]. intros _. apply Hm. reflexivity.
  - apply IH. exact Hu'.
Qed.

Lemma tnsec_loop_no_panic apex dk : forall gs cut prev st acc,
  (forall g, In g gs -> runs_uniform (truns (snd g))) -> (prev <> None -> is_some st = true) ->
  no_panic (tnsec_loop apex dk gs cut prev st acc).
Proof.
  assert (F : forall prev st acc, (prev <> None -> is_some st = true) ->
            no_panic (do acc' <- tnsec_push 2 prev apex st acc; Ok (rev acc'))).
  { intros prev st acc H. unfold tnsec_push. destruct prev as [[pn bm]|]; [|exact I].
    destruct st as [[ttl cls]|]; [exact I|]. specialize (H ltac:(discriminate)). discriminate. }
  induction gs as [|g gs IH]; intros cut prev st acc Hg H; cbn [tnsec_loop]; [apply F; exact H|].
  assert (Hg' : forall g0, In g0 gs -> runs_uniform (truns (snd g0))) by (intros ? X; apply Hg; right; exact X).
  destruct (negb (is_in_zone apex (tgroup_strip g))); [apply F; exact H|].
  destruct (below_cut cut (fst g)); [apply IH; assumption|].
  assert (Hpush : exists acc', tnsec_push 1 prev (fst g) st acc = Ok acc').
  { unfold tnsec_push. destruct prev as [[pn bm]|]; [|eauto].
    destruct st as [[ttl cls]|]; [eauto|]. specialize (H ltac:(discriminate)). discriminate. }
  destruct Hpush as (acc' & ->). cbn [bind].
  unfold tnsec_visit.
  match goal with |- context [trrset_loop ?u ?a ?b ?r ?bm ?s] =>
    destruct (trrset_loop_cases u a b r bm s (Hg g (or_introl eq_refl))) as [(bm' & st' & E & _)|E] end; rewrite E; [|exact I].
  cbn [bind]. destruct (is_some st') eqn:Es; cbn [bind]; [|exact I].
  apply IH; [exact Hg'|intros _; exact Es].
Qed.

Theorem nsec_t_no_panic apex dk z : rrset_ttls_uniform z -> no_panic (generate_nsecs_t apex dk z).
Proof.
  intros Hu. apply tnsec_loop_no_panic; [intros g Hg; exact (uniform_runs apex z g Hu Hg)|congruence].
Qed.

(* the witness: an A RRset with two TTLs at the apex *)
Definition mixed_ttl_zone : list trec :=
  [ mk_trec [[101; 120]] 1 1 300 0; mk_trec [[101; 120]] 1 1 600 0; mk_trec [[101; 120]] 6 1 3600 300 ].

Lemma nsec_mixed_ttl_panics : rrset_new_expects_ttls = true ->
  generate_nsecs_t [[101; 120]] true mixed_ttl_zone = Panic 7.
Proof.
  (* whichever value the generated flag has *)
  intros U. first [discriminate U|vm_compute; reflexivity].
Qed.

Example nsec_t_example :
  generate_nsecs_t [[101; 120]] false
    [ mk_trec [[101; 120]] 6 3 3600 300; mk_trec [[97]; [101; 120]] 46 3 1 0; mk_trec [[97]; [101; 120]] 46 3 2 0 ]
  = Ok [ mk_tnsec (mk_nsec [[101; 120]] [[97]; [101; 120]] [0; 6; 2; 0; 0; 0; 0; 3]) 300 3;
         mk_tnsec (mk_nsec [[97]; [101; 120]] [[101; 120]] [0; 6; 0; 0; 0; 0; 0; 3]) 300 3 ].
Proof. vm_compute. reflexivity. Qed.

Theorem nsec_mixed_ttl_rrset_panics : rrset_new_expects_ttls = true ->
  exists apex dk z, zone_sorted (map trec_strip z) /\ ~ rrset_ttls_uniform z /\ generate_nsecs_t apex dk z = Panic 7.
Proof.
  intros U. exists [[101; 120]], true, mixed_ttl_zone.
  split; [|split; [|exact (nsec_mixed_ttl_panics U)]].
  - unfold zone_sorted, mixed_ttl_zone. cbn [map trec_strip t_name t_type].
    repeat (constructor; [|repeat (constructor; [vm_compute; discriminate|]); constructor]). constructor.
  - intros Hu. specialize (Hu (mk_trec [[101; 120]] 1 1 300 0) (mk_trec [[101; 120]] 1 1 600 0)).
    cbn [t_name t_type t_ttl] in Hu. assert (X : 300 = 600); [|discriminate X].
    apply Hu; [left; reflexivity|right; left; reflexivity|reflexivity|reflexivity|discriminate].
Qed.

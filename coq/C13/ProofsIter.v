(* RtypeBitmapIter over a finalized bitmap yields exactly the types that were added, in
   ascending order.  A state of the iterator stands for a suffix of the list of all bit
   positions of the bitmap, (type number, bit set?) in order. *)
From Coq Require Import ZArith List Bool Lia Sorted.
From DV Require Import Base.Outcome Base.Bytes C13.Gen C13.Model C13.ProofsBitmap.
Import ListNotations.
Local Open Scope N_scope.

Definition bitset (win : list N) (k : nat) : bool :=
  negb (N.land (nth (k / 8) win 0) (N.shiftr 128 (N.of_nat (k mod 8))) =? 0).
Definition blk_len (b : block) : nat := N.to_nat (fst (snd b)).
Definition blk_win (b : block) : list N := firstn (blk_len b) (snd (snd b)).
Definition pos_at (b : block) (k : nat) : N * bool := (fst b * 256 + N.of_nat k, bitset (blk_win b) k).
Definition pos_list (b : block) : list (N * bool) := map (pos_at b) (seq 0 (8 * blk_len b)).
Definition all_pos (bs : list block) : list (N * bool) := flat_map pos_list bs.

Definition st (b : block) (k : nat) (rest : list block) : bmit :=
  mk_bmit (blk_win b ++ bm_finalize rest) (N.shiftl (fst b) 8) (blk_len b) (k / 8) (N.of_nat (k mod 8)).

Definition wfb (b : block) : Prop := blk_wf b /\ blk_ne b.

Lemma wfb_facts b : wfb b -> (1 <= blk_len b <= 32)%nat /\ length (blk_win b) = blk_len b /\ fst b < 256.
Proof.
  destruct b as [w [len data]]. intros [(Hw & Hl & Hlen & _) Hne]. unfold blk_ne in Hne.
  unfold blk_len, blk_win. cbn [fst snd] in *. repeat split; try lia.
  rewrite firstn_length. unfold blk_len. cbn [fst snd]. lia.
Qed.

Lemma finalize_cons b rest : bm_finalize (b :: rest) = fst b :: fst (snd b) :: blk_win b ++ bm_finalize rest.
Proof. unfold bm_finalize. cbn [flat_map]. rewrite block_wire_eq. reflexivity. Qed.

Lemma skipn_map_seq {A} (f : nat -> A) : forall n k s, (k < n)%nat ->
  skipn k (map f (seq s n)) = f (s + k)%nat :: skipn (S k) (map f (seq s n)).
Proof.
  induction n as [|n IH]; intros k s Hk; [lia|]. cbn [seq map]. destruct k as [|k].
  - cbn [skipn]. rewrite Nat.add_0_r. reflexivity.
  - cbn [skipn]. rewrite (IH k (S s)) by lia. replace (S s + k)%nat with (s + S k)%nat by lia. reflexivity.
Qed.

Lemma pos_list_length b : length (pos_list b) = (8 * blk_len b)%nat.
Proof. unfold pos_list. rewrite map_length, seq_length. reflexivity. Qed.

Lemma skipn_pos b k : (k < 8 * blk_len b)%nat -> skipn k (pos_list b) = pos_at b k :: skipn (S k) (pos_list b).
Proof. intros H. unfold pos_list. rewrite (skipn_map_seq _ _ k 0 H). reflexivity. Qed.

Inductive Rep : bmit -> list (N * bool) -> Prop :=
| rep_nil s : i_data s = [] -> Rep s []
| rep_pos b k rest : wfb b -> Forall wfb rest -> (k < 8 * blk_len b)%nat ->
    Rep (st b k rest) (skipn k (pos_list b) ++ all_pos rest).

Lemma rep_nil_data s : Rep s [] -> i_data s = [].
Proof.
  intros H. inversion H as [? Hd|b k rest Hb Hr Hk Es E]; [exact Hd|]. exfalso.
  apply (f_equal (@length _)) in E. rewrite app_length, skipn_length, pos_list_length in E. cbn [length] in E. lia.
Qed.

Lemma rep_cons_inv s p q : Rep s (p :: q) ->
  exists b k rest, wfb b /\ Forall wfb rest /\ (k < 8 * blk_len b)%nat /\ s = st b k rest /\
    p = pos_at b k /\ q = skipn (S k) (pos_list b) ++ all_pos rest.
Proof.
  intros H. remember (p :: q) as pq eqn:E. destruct H as [s Hd|b k rest Hb Hr Hk]; [discriminate|].
  rewrite skipn_pos in E by exact Hk. cbn [app] in E. injection E as E1 E2. subst p q.
  exists b, k, rest. split; [exact Hb|]. split; [exact Hr|]. split; [exact Hk|]. repeat split.
Qed.

Lemma rep_start b rest : wfb b -> Forall wfb rest -> Rep (st b 0 rest) (all_pos (b :: rest)).
Proof.
  intros Hb Hr. unfold all_pos. cbn [flat_map]. change (pos_list b) with (skipn 0 (pos_list b)) at 1.
  apply rep_pos; [exact Hb|exact Hr|]. destruct (wfb_facts b Hb) as [? _]. lia.
Qed.

Lemma step_sim s p q : Rep s (p :: q) -> exists s1, it_step s = Ok s1 /\ Rep s1 q.
Proof.
  intros H. destruct (rep_cons_inv _ _ _ H) as (b & k & rest & Hb & Hr & Hk & -> & _ & ->).
  destruct (wfb_facts b Hb) as (Hlen & Hwl & _).
  unfold it_step, st. cbn [i_bit i_octet i_len i_data i_block].
  destruct (N.eqb_spec (N.of_nat (k mod 8) + 1) 8) as [E8|E8].
  - destruct (Nat.eqb_spec (S (k / 8)) (blk_len b)) as [El|El].
    + (* end of the window *)
      assert (Hend : S k = (8 * blk_len b)%nat) by lia.
      rewrite app_length, Hwl.
      destruct (Nat.ltb_spec (blk_len b + length (bm_finalize rest)) (blk_len b)); [lia|].
      assert (Sk : skipn (blk_len b) (blk_win b ++ bm_finalize rest) = bm_finalize rest)
        by (rewrite <- Hwl; apply (drop_app_length (blk_win b) (bm_finalize rest))).
      rewrite Sk.
      rewrite skipn_all2 by (rewrite pos_list_length; lia). cbn [app].
      destruct rest as [|b' rest'].
      * cbn. eexists. split; [reflexivity|]. apply rep_nil. reflexivity.
      * rewrite finalize_cons. inversion Hr as [|? ? Hb' Hr']; subst.
        eexists. split; [reflexivity|]. apply (rep_start b' rest' Hb' Hr').
    + eexists. split; [reflexivity|].
      replace (mk_bmit (blk_win b ++ bm_finalize rest) (N.shiftl (fst b) 8) (blk_len b) (S (k / 8)) 0)
        with (st b (S k) rest).
      * apply rep_pos; [exact Hb|exact Hr|lia].
      * unfold st. f_equal; [|f_equal]; lia.
  - eexists. split; [reflexivity|].
    replace (mk_bmit (blk_win b ++ bm_finalize rest) (N.shiftl (fst b) 8) (blk_len b) (k / 8) (N.of_nat (k mod 8) + 1))
      with (st b (S k) rest).
    + apply rep_pos; [exact Hb|exact Hr|lia].
    + unfold st. f_equal; [|f_equal]; lia.
Qed.

Lemma lor_type w k : (k < 256)%nat ->
  N.lor (N.lor (N.shiftl w 8) (N.shiftl (N.of_nat (k / 8)) 3)) (N.of_nat (k mod 8)) = w * 256 + N.of_nat k.
Proof.
  intros Hk. pose proof (Nat.div_mod k 8 ltac:(discriminate)) as E. pose proof (Nat.mod_upper_bound k 8 ltac:(discriminate)) as B.
  rewrite !N.shiftl_mul_pow2, <- N.lor_assoc. change (2 ^ 3) with 8. change (2 ^ 8) with 256.
  rewrite (lor_mul_pow2_add _ _ 3 : forall H, N.lor (N.of_nat (k / 8) * 8) (N.of_nat (k mod 8)) = _) by (change (2 ^ 3) with 8; lia).
  rewrite (lor_mul_pow2_add w _ 8) by (change (2 ^ 8) with 256; lia). lia.
Qed.

Definition it_type (s : bmit) : N :=
  N.lor (N.lor (i_block s) (N.shiftl (N.of_nat (i_octet s)) 3)) (i_bit s).

Lemma bit_sim s p q : Rep s (p :: q) -> i_data s <> [] /\ it_bit_set s = Ok (snd p) /\ it_type s = fst p.
Proof.
  intros H. destruct (rep_cons_inv _ _ _ H) as (b & k & rest & Hb & Hr & Hk & -> & -> & _).
  destruct (wfb_facts b Hb) as (Hlen & Hwl & Hw).
  unfold st, it_bit_set, it_type, pos_at. cbn [i_data i_octet i_bit i_block fst snd].
  split; [|split].
  - destruct (blk_win b) as [|x l]; [cbn in Hwl; lia|discriminate].
  - assert (Ho : (k / 8 < length (blk_win b))%nat) by lia.
    rewrite nth_error_app1 by exact Ho. rewrite (nth_error_nth' _ 0 Ho). reflexivity.
  - apply lor_type. lia.
Qed.

Fixpoint dropnot (q : list (N * bool)) : list (N * bool) :=
  match q with [] => [] | p :: r => if snd p then q else dropnot r end.

Lemma dropnot_filter q : filter snd (dropnot q) = filter snd q.
Proof. induction q as [|p r IH]; [reflexivity|]. cbn [dropnot filter]. destruct (snd p) eqn:E; [cbn [filter]; rewrite E; reflexivity|exact IH]. Qed.
Lemma dropnot_length q : (length (dropnot q) <= length q)%nat.
Proof. induction q as [|p r IH]; cbn [dropnot length]; [lia|]. destruct (snd p); cbn [length]; lia. Qed.
Lemma dropnot_head q : match dropnot q with [] => True | p :: _ => snd p = true end.
Proof. induction q as [|p r IH]; cbn [dropnot]; [exact I|]. destruct (snd p) eqn:E; [exact E|exact IH]. Qed.

Lemma advance_sim : forall q s p fuel, Rep s (p :: q) -> (length q < fuel)%nat ->
  exists s', it_advance fuel s = Ok s' /\ Rep s' (dropnot q).
Proof.
  induction q as [|p' q' IH]; intros s p fuel HR Hf; (destruct fuel as [|fuel]; [lia|]); cbn [it_advance];
    destruct (step_sim _ _ _ HR) as (s1 & E1 & R1); rewrite E1; cbn [bind].
  - rewrite (rep_nil_data _ R1). exists s1. split; [reflexivity|exact R1].
  - destruct (bit_sim _ _ _ R1) as (Hne & Hb & _).
    destruct (i_data s1) eqn:Ed; [congruence|]. rewrite Hb. cbn [bind dropnot].
    destruct (snd p'); [exists s1; split; [reflexivity|exact R1]|].
    apply (IH s1 p' fuel R1). cbn [length] in Hf. lia.
Qed.

Lemma collect_sim : forall fuel suf s adv, Rep s suf ->
  (match suf with [] => True | p :: _ => snd p = true end) ->
  (length suf < fuel)%nat -> (length suf <= adv)%nat ->
  it_collect fuel adv s = Ok (map fst (filter snd suf)).
Proof.
  induction fuel as [|fuel IH]; intros suf s adv HR Hh Hf Ha; [lia|]. cbn [it_collect].
  destruct suf as [|p q].
  - rewrite (rep_nil_data _ HR). reflexivity.
  - destruct (bit_sim _ _ _ HR) as (Hne & _ & Ht).
    destruct (i_data s) eqn:Ed; [congruence|].
    cbn [length] in Hf, Ha.
    destruct (advance_sim q s p adv HR ltac:(lia)) as (s' & Ea & Ra). rewrite Ea. cbn [bind].
    rewrite (IH (dropnot q) s' adv Ra (dropnot_head q)); [|pose proof (dropnot_length q); lia|pose proof (dropnot_length q); lia].
    cbn [bind filter]. rewrite Hh. cbn [map]. rewrite dropnot_filter. unfold it_type in Ht. rewrite Ht. reflexivity.
Qed.

Lemma all_pos_length bs : Forall wfb bs -> (length (all_pos bs) <= 8 * length (bm_finalize bs))%nat.
Proof.
  induction 1 as [|b r Hb Hr IH]; [cbn; lia|].
  unfold all_pos in *. cbn [flat_map]. rewrite app_length, pos_list_length, finalize_cons.
  cbn [length]. rewrite app_length. destruct (wfb_facts b Hb) as (_ & Hwl & _). lia.
Qed.

Theorem bm_iter_positions bs : bs_inv bs ->
  bm_iter (bm_finalize bs) = Ok (map fst (filter snd (all_pos bs))).
Proof.
  intros [Hall _]. assert (Hw : Forall wfb bs) by exact Hall.
  pose proof (all_pos_length bs Hw) as HL.
  unfold bm_iter. destruct bs as [|b rest].
  - cbn. reflexivity.
  - inversion Hw as [|? ? Hb Hr]; subst. destruct (wfb_facts b Hb) as (Hlen & Hwl & _).
    rewrite finalize_cons in *. cbn [it_new].
    destruct (blk_win b ++ bm_finalize rest) as [|b0 tl0] eqn:Ed.
    { exfalso. destruct (blk_win b); [cbn in Hwl; lia|discriminate]. }
    rewrite <- Ed in HL |- *.
    assert (R0 : Rep (st b 0 rest) (all_pos (b :: rest))) by (apply rep_start; assumption).
    assert (Est : mk_bmit (blk_win b ++ bm_finalize rest) (N.shiftl (fst b) 8) (N.to_nat (fst (snd b))) 0 0 = st b 0 rest) by reflexivity.
    rewrite Est.
    assert (Hhd : all_pos (b :: rest) = pos_at b 0 :: skipn 1 (pos_list b) ++ all_pos rest).
    { unfold all_pos. cbn [flat_map]. change (pos_list b) with (skipn 0 (pos_list b)) at 1.
      rewrite skipn_pos by lia. reflexivity. }
    assert (Hb0 : snd (pos_at b 0) = negb (N.land b0 bm_top_bit =? 0)).
    { unfold pos_at, bitset. cbn [snd]. cbv [bm_top_bit]. change (0 / 8)%nat with 0%nat. change (0 mod 8)%nat with 0%nat.
      change (N.shiftr 128 (N.of_nat 0)) with 128.
      destruct (blk_win b) as [|x l] eqn:Ew; [cbn in Hwl; lia|]. cbn [app] in Ed. injection Ed as -> _. reflexivity. }
    set (n := (8 * length (fst b :: fst (snd b) :: blk_win b ++ bm_finalize rest))%nat) in *.
    rewrite Hhd in R0, HL.
    destruct (N.land b0 bm_top_bit =? 0) eqn:E0.
    + cbn [negb] in Hb0.
      destruct (advance_sim _ _ _ n R0) as (s' & Ea & Ra); [cbn [length] in HL; lia|].
      rewrite Ea. cbn [bind].
      rewrite (collect_sim (S n) _ s' n Ra (dropnot_head _)).
      * rewrite dropnot_filter, Hhd. cbn [filter]. rewrite Hb0. reflexivity.
      * pose proof (dropnot_length (skipn 1 (pos_list b) ++ all_pos rest)). cbn [length] in HL. lia.
      * pose proof (dropnot_length (skipn 1 (pos_list b) ++ all_pos rest)). cbn [length] in HL. lia.
    + cbn [negb] in Hb0. cbn [bind].
      rewrite (collect_sim (S n) _ _ n R0); [rewrite Hhd; reflexivity|exact Hb0|lia|lia].
Qed.

Lemma bitset_testbit win k : bitset win k = N.testbit (nth (k / 8) win 0) (7 - N.of_nat (k mod 8)).
Proof.
  unfold bitset. rewrite N.shiftr_div_pow2, shr128 by lia. rewrite land_pow2_testbit, negb_involutive. reflexivity.
Qed.

Lemma pos_has b k : wfb b -> (k < 8 * blk_len b)%nat ->
  snd (pos_at b k) = N.testbit (nth (toct (fst (pos_at b k))) (snd (snd b)) 0) (tbit (fst (pos_at b k))) /\
  twin (fst (pos_at b k)) = fst b.
Proof.
  intros Hb Hk. destruct (wfb_facts b Hb) as (Hlen & Hwl & Hw).
  unfold pos_at. cbn [fst snd]. rewrite bitset_testbit.
  assert (Hk' : (k < 256)%nat) by lia.
  assert (T1 : twin (fst b * 256 + N.of_nat k) = fst b) by (unfold twin; lia).
  assert (T2 : toct (fst b * 256 + N.of_nat k) = (k / 8)%nat) by (unfold toct; lia).
  assert (T3 : tbit (fst b * 256 + N.of_nat k) = 7 - N.of_nat (k mod 8)) by (unfold tbit; lia).
  rewrite T1, T2, T3. split; [|reflexivity]. f_equal.
  unfold blk_win. rewrite <- (firstn_skipn (blk_len b) (snd (snd b))) at 2.
  rewrite app_nth1 by (fold (blk_win b); lia). reflexivity.
Qed.

Lemma in_all_pos bs p : In p (all_pos bs) <-> exists b k, In b bs /\ (k < 8 * blk_len b)%nat /\ p = pos_at b k.
Proof.
  unfold all_pos. rewrite in_flat_map. split.
  - intros (b & Hb & Hp). unfold pos_list in Hp. apply in_map_iff in Hp as (k & <- & Hk). apply in_seq in Hk.
    exists b, k. repeat split; [exact Hb|lia].
  - intros (b & k & Hb & Hk & ->). exists b. split; [exact Hb|]. unfold pos_list. apply in_map. apply in_seq. lia.
Qed.

Lemma bs_has_in bs w o j : StronglySorted (fun a b => fst a < fst b) bs ->
  (bs_has bs w o j = true <-> exists b, In b bs /\ fst b = w /\ N.testbit (nth o (snd (snd b)) 0) j = true).
Proof.
  induction 1 as [|b r Hs IH Hb]; cbn [bs_has]; [split; [discriminate|intros (b & [] & _)]|].
  destruct (N.eqb_spec (fst b) w) as [E|E].
  - split; [intros H; exists b; repeat split; [left; reflexivity|exact E|exact H]|].
    intros (b' & [<-|Hin] & E' & H'); [exact H'|]. rewrite Forall_forall in Hb. specialize (Hb b' Hin). lia.
  - rewrite IH. split; intros (b' & Hin & E' & H').
    + exists b'. repeat split; [right; exact Hin|exact E'|exact H'].
    + destruct Hin as [<-|Hin]; [congruence|]. exists b'. repeat split; assumption.
Qed.

Theorem all_pos_types bs t : bs_inv bs -> t < 65536 ->
  (In t (map fst (filter snd (all_pos bs))) <-> bs_has_type bs t = true).
Proof.
  intros [Hall Hs] Ht. unfold bs_has_type. rewrite (bs_has_in bs _ _ _ Hs). rewrite in_map_iff. split.
  - intros ([t' s] & Et & Hin). cbn [fst] in Et. subst t'. apply filter_In in Hin as [Hin Hset]. cbn [snd] in Hset. subst s.
    apply in_all_pos in Hin as (b & k & Hb & Hk & E). rewrite Forall_forall in Hall.
    destruct (pos_has b k (Hall b Hb) Hk) as [P1 P2]. rewrite <- E in P1, P2. cbn [fst snd] in P1, P2.
    exists b. repeat split; [exact Hb|symmetry; exact P2|symmetry; exact P1].
  - intros (b & Hb & Ew & Hbit). rewrite Forall_forall in Hall. pose proof (Hall b Hb) as Hwf.
    destruct (wfb_facts b Hwf) as (Hlen & Hwl & Hw).
    set (k := N.to_nat (t mod 256)).
    assert (Ho : (toct t < blk_len b)%nat).
    { destruct (Nat.lt_ge_cases (toct t) (blk_len b)) as [L|L]; [exact L|exfalso].
      destruct b as [w [len data]]. destruct Hwf as [(_ & _ & _ & _ & Hz & _) _]. unfold blk_len in L. cbn [fst snd] in *.
      rewrite (Hz (toct t) L), N.bits_0 in Hbit. discriminate. }
    assert (Hk : (k < 8 * blk_len b)%nat) by (unfold k, toct in *; lia).
    assert (Et : fst (pos_at b k) = t) by (unfold pos_at, twin, k in *; cbn [fst]; lia).
    exists (pos_at b k). split; [exact Et|]. apply filter_In. split; [apply in_all_pos; exists b, k; repeat split; assumption|].
    destruct (pos_has b k Hwf Hk) as [P1 _]. rewrite Et in P1. rewrite P1. exact Hbit.
Qed.

Lemma all_pos_sorted bs : bs_inv bs -> StronglySorted N.lt (map fst (all_pos bs)).
Proof.
  intros [Hall Hs]. induction Hs as [|b r Hs IH Hb]; [constructor|].
  inversion Hall as [|? ? Hwf Hall']; subst. specialize (IH Hall').
  destruct (wfb_facts b Hwf) as (Hlen & _ & _).
  unfold all_pos in *. cbn [flat_map]. rewrite map_app.
  assert (Hlow : forall x, In x (map fst (flat_map pos_list r)) -> (fst b + 1) * 256 <= x).
  { intros x Hx. apply in_map_iff in Hx as (p & <- & Hp). apply (in_all_pos r p) in Hp as (b' & k & Hb' & _ & ->).
    rewrite Forall_forall in Hb. specialize (Hb b' Hb'). unfold pos_at. cbn [fst]. lia. }
  unfold pos_list. rewrite map_map. cbn [pos_at fst].
  assert (G : forall n s, (s + n <= 256)%nat ->
            StronglySorted N.lt (map (fun k => fst b * 256 + N.of_nat k) (seq s n) ++ map fst (flat_map pos_list r))).
  { induction n as [|n IHn]; intros s Hsn; cbn [seq map app]; [exact IH|].
    constructor; [apply IHn; lia|]. apply Forall_forall. intros x Hx. apply in_app_or in Hx as [Hx|Hx].
    - apply in_map_iff in Hx as (k & <- & Hk). apply in_seq in Hk. lia.
    - specialize (Hlow x Hx). lia. }
  apply G. lia.
Qed.

Theorem bitmap_iter_exact ts : Forall (fun x => x < 65536) ts ->
  exists l, bm_iter (bm_finalize (bm_adds [] ts)) = Ok l /\ StronglySorted N.lt l /\
    forall t, t < 65536 -> (In t l <-> In t ts).
Proof.
  intros Hts. assert (Hinv : bs_inv (bm_adds [] ts)) by (apply bm_adds_inv; [apply bs_inv_nil|exact Hts]).
  eexists. split; [apply bm_iter_positions; exact Hinv|]. split.
  - apply sorted_map_filter, all_pos_sorted, Hinv.
  - intros t Ht. rewrite (all_pos_types _ t Hinv Ht). rewrite bm_adds_has by (auto using bs_inv_nil).
    rewrite bs_has_type_nil. cbn [orb]. apply existsb_eqb_In.
Qed.

Example bitmap_iter_example : c13_bm_iter [46; 47; 1; 257; 65535; 0; 255; 256] = Ok [0; 1; 46; 47; 255; 256; 257; 65535].
Proof. vm_compute. reflexivity. Qed.

(* SortedRecords: the dedup never loses an (owner, type) pair -- provided
   UnknownRecordData::eq compares the type; what is put in (also by extend / insert, with
   classes, by any sort_by that sorts) comes out in canonical owner order, nothing added:
   the precondition of the generators' theorems, instantiated for generate_nsecs. *)
From Coq Require Import NArith List Bool Lia Sorted Permutation.
From DV Require Import Base.Outcome Base.Names C13.Gen C13.Model C13.ProofsNames C13.ProofsN3a
  C13.ProofsNsec2 C13.ProofsDeny.
Import ListNotations.
Local Open Scope N_scope.

Lemma srec_eqb_type a b : unknown_eq_checks_rtype = true -> srec_eqb a b = true ->
  name_eqb (sr_name a) (sr_name b) = true /\ sr_type a = sr_type b.
Proof.
  intros U E. unfold srec_eqb in E. apply andb_true_iff in E as [E1 E2]. split; [exact E1|].
  destruct a as [[na ta] [ua da]], b as [[nb tb] [ub db]]. unfold data_eqb in E2. cbn [sr_type fst snd].
  rewrite U in E2. destruct ua, ub; cbn [andb orb] in E2; try discriminate;
    apply andb_true_iff in E2 as [E2 _]; apply N.eqb_eq; exact E2.
Qed.

Lemma has_type_dup n t l o x : (exists m, In (m, t) l /\ name_eqb n m = true) ->
  (has_type ((n, t) :: l) o x <-> has_type l o x).
Proof.
  intros (m & Hm & Em). rewrite has_type_cons. split; [|intros H; right; exact H].
  intros [[En ->]|H]; [|exact H]. exists m. split; [exact Hm|].
  rewrite name_eqb_sym in Em. eapply name_eqb_trans; eassumption.
Qed.

Lemma sr_dedup_from_keeps (U : unknown_eq_checks_rtype = true) o x : forall l prev,
  has_type (strip (prev :: sr_dedup_from prev l)) o x <-> has_type (strip (prev :: l)) o x.
Proof.
  induction l as [|y r IH]; intros prev; cbn [sr_dedup_from]; [reflexivity|].
  destruct (srec_eqb y prev) eqn:E.
  - (* dropped: [y] repeats owner and type of [prev] *)
    rewrite IH. destruct (srec_eqb_type _ _ U E) as [E1 E2].
    destruct prev as [[np tp] dp], y as [[ny ty] dy]. cbn [sr_name sr_type fst snd] in *. subst ty.
    unfold strip. cbn [map fst]. rewrite !has_type_cons.
    assert (En : name_eqb ny o = true -> name_eqb np o = true).
    { intros H. rewrite name_eqb_sym in E1. eapply name_eqb_trans; eassumption. }
    revert En. clear. tauto.
  - specialize (IH y). unfold strip in *. cbn [map] in *.
    destruct prev as [[np tp] dp], y as [[ny ty] dy]. cbn [fst] in *. rewrite !has_type_cons in *.
    rewrite IH. reflexivity.
Qed.

Theorem sr_dedup_keeps_types : unknown_eq_checks_rtype = true ->
  forall l o x, has_type (strip (sr_dedup l)) o x <-> has_type (strip l) o x.
Proof.
  intros U [|a l] o x; [reflexivity|]. cbn [sr_dedup]. apply sr_dedup_from_keeps. exact U.
Qed.

(* the defect that was repaired in /repo (fix: 7060593): with an equality that
   ignores the type, a record of another unknown type with the same octets
   disappears from the zone *)
Lemma sr_dedup_type_blind_refuted : unknown_eq_checks_rtype = false ->
  exists l o x, has_type (strip l) o x /\ ~ has_type (strip (sr_dedup l)) o x.
Proof.
  intros U. exists [([[97]], 65280, (true, [1])); ([[97]], 65281, (true, [1]))], [[97]], 65281.
  split.
  - exists [[97]]. split; [right; left; reflexivity|reflexivity].
  - unfold sr_dedup, sr_dedup_from, srec_eqb, data_eqb. rewrite U. cbn.
    intros (m & [Hm|[]] & _). discriminate.
Qed.

Example sr_dedup_example :
  c13_dedup [([[97]], 1, (true, [1])); ([[65]], 1, (true, [1])); ([[97]], 16, (true, [1]));
             ([[97]], 2, (false, [1; 110; 0])); ([[97]], 2, (true, [1; 110; 0]))] =
  [([[97]], 1); ([[97]], 16); ([[97]], 2); ([[97]], 2)].
Proof. vm_compute. reflexivity. Qed.

(* the form exported by Props.v: it type-checks only while the T1 item
   unknown_eq_checks_rtype is true *)
Theorem sorted_records_keep_types : forall l o x,
  has_type (strip (sr_dedup l)) o x <-> has_type (strip l) o x.
Proof. exact (sr_dedup_keeps_types eq_refl). Qed.

Lemma sr_cmp_name x y : sr_cmp x y <> Gt -> name_cmp (sr_name x) (sr_name y) <> Gt.
Proof. unfold sr_cmp. destruct (name_cmp (sr_name x) (sr_name y)); congruence. Qed.
Lemma sr_cmp_name_gt x y : sr_cmp x y = Gt -> name_cmp (sr_name y) (sr_name x) <> Gt.
Proof.
  unfold sr_cmp. rewrite (name_cmp_antisym (sr_name x) (sr_name y)).
  destruct (name_cmp (sr_name x) (sr_name y)); cbn [CompOpp]; congruence.
Qed.

Definition names_le (a b : srec) : Prop := name_cmp (sr_name a) (sr_name b) <> Gt.

Lemma sr_insert_perm x l : Permutation (sr_insert x l) (x :: l).
Proof. exact (ins_perm sr_cmp x l). Qed.

Lemma sr_sort_perm l : Permutation (sr_sort l) l.
Proof. exact (isort_perm sr_cmp l). Qed.

Lemma sr_insert_sorted x l : StronglySorted names_le l -> StronglySorted names_le (sr_insert x l).
Proof.
  apply (ins_sorted sr_cmp names_le sr_cmp_name sr_cmp_name_gt).
  intros a b c. apply name_cmp_le_trans.
Qed.

Lemma sr_sort_sorted l : StronglySorted names_le (sr_sort l).
Proof.
  apply (isort_sorted sr_cmp names_le sr_cmp_name sr_cmp_name_gt).
  intros a b c. apply name_cmp_le_trans.
Qed.

Lemma sr_dedup_from_sub prev : forall l x, In x (sr_dedup_from prev l) -> In x l.
Proof.
  intros l; revert prev; induction l as [|y r IH]; intros prev x; cbn [sr_dedup_from]; [intros []|].
  destruct (srec_eqb y prev); [intros H; right; eapply IH; exact H|].
  intros [<-|H]; [left; reflexivity|right; eapply IH; exact H].
Qed.

Lemma sr_dedup_from_sorted prev : forall l, StronglySorted names_le l -> StronglySorted names_le (sr_dedup_from prev l).
Proof.
  intros l; revert prev; induction l as [|y r IH]; intros prev Hs; cbn [sr_dedup_from]; [constructor|].
  apply StronglySorted_inv in Hs as [Hs Hy].
  destruct (srec_eqb y prev); [apply IH; exact Hs|].
  constructor; [apply IH; exact Hs|]. apply Forall_forall. intros z Hz.
  rewrite Forall_forall in Hy. apply Hy. eapply sr_dedup_from_sub. exact Hz.
Qed.

Lemma sr_dedup_sorted v : StronglySorted names_le v -> StronglySorted names_le (sr_dedup v).
Proof.
  unfold sr_dedup. intros Hs. destruct v as [|x r]; [constructor|].
  apply StronglySorted_inv in Hs as [Hs Hx]. constructor; [apply sr_dedup_from_sorted; exact Hs|].
  apply Forall_forall. intros z Hz. rewrite Forall_forall in Hx. apply Hx. eapply sr_dedup_from_sub. exact Hz.
Qed.

Lemma has_type_perm v l o x : Permutation v l -> (has_type (strip v) o x <-> has_type (strip l) o x).
Proof.
  intros Hp. unfold has_type, strip.
  split; intros (m & Hin & Em); exists m; (split; [|exact Em]); revert Hin;
    apply Permutation_in, Permutation_map; [exact Hp|apply Permutation_sym; exact Hp].
Qed.

Lemma names_le_zone_sorted l : StronglySorted names_le l -> zone_sorted (strip l).
Proof.
  unfold zone_sorted, strip. induction 1 as [|a l Hs IH Ha]; cbn [map]; constructor; [exact IH|].
  apply Forall_forall. intros y Hy. apply in_map_iff in Hy as (b & <- & Hb).
  rewrite Forall_forall in Ha. apply (Ha b Hb).
Qed.

Lemma sorted_records_names_le l : StronglySorted names_le (sorted_records l).
Proof. apply sr_dedup_sorted, sr_sort_sorted. Qed.

Theorem sorted_records_sorted l : zone_sorted (strip (sorted_records l)).
Proof. apply names_le_zone_sorted, sorted_records_names_le. Qed.

Theorem sorted_records_types l o x :
  has_type (strip (sorted_records l)) o x <-> has_type (strip l) o x.
Proof. unfold sorted_records. rewrite sorted_records_keep_types. apply has_type_perm, sr_sort_perm. Qed.

Example sorted_records_example :
  strip (sorted_records [([[98]; [97]], 1, (true, [1])); ([[97]], 16, (true, [2])); ([[65]], 1, (true, [9]));
                         ([[97]], 16, (true, [2])); ([[97]], 1, (true, [3]))]) =
  [([[97]], 1); ([[65]], 1); ([[97]], 16); ([[98]; [97]], 1)].
Proof. vm_compute. reflexivity. Qed.

(* the zone predicates see a zone only through has_type *)
Lemma owner_in_ext z1 z2 : (forall o x, has_type z1 o x <-> has_type z2 o x) ->
  forall n, owner_in z1 n <-> owner_in z2 n.
Proof. intros Hx n. unfold owner_in. setoid_rewrite Hx. reflexivity. Qed.

Lemma deleg_ext apex z1 z2 : (forall o x, has_type z1 o x <-> has_type z2 o x) ->
  forall n, deleg apex z1 n <-> deleg apex z2 n.
Proof. intros Hx n. unfold deleg. rewrite Hx. reflexivity. Qed.

Lemma auth_name_ext apex z1 z2 : (forall o x, has_type z1 o x <-> has_type z2 o x) ->
  forall n, auth_name apex z1 n <-> auth_name apex z2 n.
Proof.
  intros Hx n. unfold auth_name, occluded. rewrite (owner_in_ext z1 z2 Hx n).
  setoid_rewrite (deleg_ext apex z1 z2 Hx). reflexivity.
Qed.

Lemma nsec_zone_ext apex dk z z' out :
  zone_sorted z' -> (forall o x, has_type z' o x <-> has_type z o x) -> generate_nsecs apex dk z' = Ok out ->
  (forall n, auth_name apex z n <-> exists r, In r out /\ name_eqb (n_owner r) n = true) /\
  StronglySorted (fun a b => name_cmp (n_owner a) (n_owner b) = Lt) out.
Proof.
  intros Hs Hx Ho. split; [|apply (nsec_sorted apex _ Hs dk out Ho)].
  intros n. rewrite <- (auth_name_ext apex _ _ Hx n). apply (nsec_owners apex _ Hs dk out Ho).
Qed.

Theorem sorted_records_nsec_owners l apex dk out :
  generate_nsecs apex dk (strip (sorted_records l)) = Ok out ->
  (forall n, auth_name apex (strip l) n <-> exists r, In r out /\ name_eqb (n_owner r) n = true) /\
  StronglySorted (fun a b => name_cmp (n_owner a) (n_owner b) = Lt) out /\
  (out <> [] -> map n_next out = tl (map n_owner out) ++ [apex]).
Proof.
  intros Ho. destruct (nsec_zone_ext apex dk (strip l) _ out (sorted_records_sorted l) (sorted_records_types l) Ho) as [A B].
  split; [exact A|]. split; [exact B|apply (nsec_closed apex _ dk out Ho)].
Qed.

(* with the class: the vector is ordered by class first; for records of
   one class (a zone) the class plays no role *)
Definition one_class (k : N) (l : list crec) : Prop := Forall (fun x => fst x = k) l.

Lemma cr_cmp_one_class k x y : fst x = k -> fst y = k -> cr_cmp x y = sr_cmp (snd x) (snd y).
Proof. intros Hx Hy. unfold cr_cmp. cbv [record_cmp_class_first]. rewrite Hx, Hy, N.compare_refl. reflexivity. Qed.

Lemma cr_insert_erase k x l : fst x = k -> one_class k l ->
  map snd (cr_insert x l) = sr_insert (snd x) (map snd l) /\ one_class k (cr_insert x l).
Proof.
  intros Hx Hl. induction Hl as [|y r Hy Hr IH]; cbn [cr_insert map sr_insert].
  - split; [reflexivity|repeat constructor; exact Hx].
  - rewrite (cr_cmp_one_class k x y Hx Hy). destruct IH as [I1 I2].
    destruct (sr_cmp (snd x) (snd y)); cbn [map].
    + split; [reflexivity|]. constructor; [exact Hx|constructor; assumption].
    + split; [reflexivity|]. constructor; [exact Hx|constructor; assumption].
    + split; [rewrite I1; reflexivity|constructor; assumption].
Qed.

Lemma cr_sort_erase k l : one_class k l -> map snd (cr_sort l) = sr_sort (map snd l) /\ one_class k (cr_sort l).
Proof.
  unfold cr_sort, sr_sort. induction 1 as [|x r Hx Hr [I1 I2]]; cbn [fold_right map]; [split; [reflexivity|constructor]|].
  destruct (cr_insert_erase k x _ Hx I2) as [J1 J2]. rewrite J1, I1. split; [reflexivity|exact J2].
Qed.

Lemma cr_eqb_one_class k x y : fst x = k -> fst y = k -> cr_eqb x y = srec_eqb (snd x) (snd y).
Proof. intros Hx Hy. unfold cr_eqb. rewrite Hx, Hy, N.eqb_refl. reflexivity. Qed.

Lemma cr_dedup_from_erase k : forall l prev, fst prev = k -> one_class k l ->
  map snd (cr_dedup_from prev l) = sr_dedup_from (snd prev) (map snd l).
Proof.
  induction l as [|x r IH]; intros prev Hp Hl; [reflexivity|].
  pose proof (Forall_inv Hl) as Hx. pose proof (Forall_inv_tail Hl) as Hr. cbn beta in Hx.
  cbn [cr_dedup_from map sr_dedup_from]. rewrite (cr_eqb_one_class _ x prev Hx Hp).
  destruct (srec_eqb (snd x) (snd prev)); [apply IH; assumption|]. cbn [map]. rewrite IH by assumption. reflexivity.
Qed.

Theorem sorted_records_one_class k l : one_class k l ->
  map snd (sorted_records_c l) = sorted_records (map snd l).
Proof.
  intros Hl. unfold sorted_records_c, sorted_records. destruct (cr_sort_erase k l Hl) as [E1 E2]. rewrite <- E1.
  destruct (cr_sort l) as [|x r]; [reflexivity|].
  pose proof (Forall_inv E2) as Hx. pose proof (Forall_inv_tail E2) as Hr. cbn beta in Hx.
  cbn [cr_dedup map sr_dedup]. rewrite (cr_dedup_from_erase k) by assumption. reflexivity.
Qed.

Definition class_le (a b : crec) : Prop := fst a <= fst b.

Theorem cr_sort_class_sorted l : StronglySorted class_le (cr_sort l).
Proof.
  apply (isort_sorted cr_cmp class_le); unfold class_le, cr_cmp; cbv [record_cmp_class_first].
  - intros x y. destruct (N.compare_spec (fst x) (fst y)); intros; try lia. congruence.
  - intros x y. destruct (N.compare_spec (fst x) (fst y)); intros; try lia. discriminate.
  - intros x y z. apply N.le_trans.
Qed.

Lemma sr_apply_sorted v op : StronglySorted names_le v -> StronglySorted names_le (sr_apply v op).
Proof.
  intros Hv. destruct op as [l|l|x]; cbn [sr_apply]; try apply sorted_records_names_le.
  unfold sr_add. destruct (sr_has_eq x v); [exact Hv|apply sr_insert_sorted; exact Hv].
Qed.

Lemma sr_run_names_le ops : forall v, StronglySorted names_le v -> StronglySorted names_le (fold_left sr_apply ops v).
Proof. induction ops as [|op ops IH]; intros v Hv; cbn [fold_left]; [exact Hv|]. apply IH. apply sr_apply_sorted. exact Hv. Qed.

Theorem sr_run_sorted ops : zone_sorted (strip (sr_run ops)).
Proof. apply names_le_zone_sorted. apply sr_run_names_le. constructor. Qed.

Lemma has_type_app a b o x : has_type (a ++ b) o x <-> has_type a o x \/ has_type b o x.
Proof.
  unfold has_type. split.
  - intros (m & Hin & E). apply in_app_or in Hin as [H|H]; [left|right]; exists m; split; assumption.
  - intros [(m & H & E)|(m & H & E)]; exists m; (split; [apply in_or_app|exact E]); [left|right]; exact H.
Qed.

Lemma strip_app a b : strip (a ++ b) = strip a ++ strip b.
Proof. apply map_app. Qed.

Lemma sr_cmp_eq_type y x : sr_cmp y x = Eq -> name_eqb (sr_name y) (sr_name x) = true /\ sr_type y = sr_type x.
Proof.
  unfold sr_cmp. destruct (name_cmp (sr_name y) (sr_name x)) eqn:E1; try discriminate.
  destruct (N.compare_spec (sr_type y) (sr_type x)); try discriminate. intros _. split; [apply name_eqb_cmp; exact E1|assumption].
Qed.

Lemma sr_add_types v x o t : has_type (strip (sr_add v x)) o t <-> has_type (strip (v ++ [x])) o t.
Proof.
  unfold sr_add. destruct (sr_has_eq x v) eqn:E.
  - rewrite strip_app, has_type_app. split; [intros H; left; exact H|]. intros [H|H]; [exact H|].
    unfold sr_has_eq in E. apply existsb_exists in E as (y & Hy & Ey).
    destruct (sr_cmp y x) eqn:C; try discriminate. destruct (sr_cmp_eq_type _ _ C) as [En Et].
    destruct H as (m & [Hm|[]] & Em). destruct x as [[nx tx] dx], y as [[ny ty] dy]. cbn [fst snd sr_name sr_type strip map] in *.
    injection Hm as <- <-. exists ny. split; [|eapply name_eqb_trans; eassumption].
    apply in_map_iff. exists (ny, ty, dy). split; [cbn [fst]; congruence|exact Hy].
  - apply has_type_perm. eapply Permutation_trans; [apply sr_insert_perm|apply Permutation_cons_append].
Qed.

Theorem sr_run_types ops o t : has_type (strip (sr_run ops)) o t <-> has_type (strip (sr_input ops)) o t.
Proof.
  unfold sr_run, sr_input.
  assert (G : forall v acc, (forall o t, has_type (strip v) o t <-> has_type (strip acc) o t) ->
            (has_type (strip (fold_left sr_apply ops v)) o t <-> has_type (strip (fold_left sr_input_step ops acc)) o t)).
  { induction ops as [|op ops IH]; intros v acc Hva; cbn [fold_left]; [apply Hva|]. apply IH. intros o' t'.
    destruct op as [l|l|x]; cbn [sr_apply sr_input_step].
    - apply sorted_records_types.
    - rewrite sorted_records_types, !strip_app, !has_type_app, Hva. reflexivity.
    - rewrite sr_add_types, !strip_app, !has_type_app, Hva. reflexivity. }
  apply G. intros; reflexivity.
Qed.

Example sr_run_example :
  strip (sr_run [OpExtend [([[110]], 1, (true, [1])); ([[119]], 1, (true, [1]))];
                 OpExtend [([[97]], 1, (true, [1]))]; OpInsert ([[109]], 15, (true, [1]));
                 OpInsert ([[97]], 1, (true, [1]))]) =
  [([[97]], 1); ([[109]], 15); ([[110]], 1); ([[119]], 1)].
Proof. vm_compute. reflexivity. Qed.

(* any sorting algorithm: whatever slice::sort_by does, if its result is a
   permutation of the input and ordered by canonical_cmp, the collection is in
   canonical owner order and complete (stability is not needed for that) *)
Definition cmp_sorted (v : list srec) : Prop := StronglySorted (fun a b => sr_cmp a b <> Gt) v.

Lemma cmp_sorted_names_le v : cmp_sorted v -> StronglySorted names_le v.
Proof. apply sorted_weaken. intros a b. apply sr_cmp_name. Qed.

Theorem any_sort_spec l v : Permutation v l -> cmp_sorted v ->
  zone_sorted (strip (sr_dedup v)) /\
  (unknown_eq_checks_rtype = true -> forall o x, has_type (strip (sr_dedup v)) o x <-> has_type (strip l) o x).
Proof.
  intros Hp Hs. split.
  - apply names_le_zone_sorted, sr_dedup_sorted, cmp_sorted_names_le, Hs.
  - intros U o x. rewrite (sr_dedup_keeps_types U). apply has_type_perm, Hp.
Qed.

Theorem any_sort_nsec_end_to_end l v apex dk out : Permutation v l -> cmp_sorted v ->
  generate_nsecs apex dk (strip (sr_dedup v)) = Ok out ->
  (forall n, auth_name apex (strip l) n <-> exists r, In r out /\ name_eqb (n_owner r) n = true) /\
  StronglySorted (fun a b => name_cmp (n_owner a) (n_owner b) = Lt) out.
Proof.
  intros Hp Hs Ho. destruct (any_sort_spec l v Hp Hs) as [Z T].
  exact (nsec_zone_ext apex dk (strip l) _ out Z (T eq_refl) Ho).
Qed.

Example any_sort_example :
  let l := [([[98]], 1, (true, [1])); ([[97]], 16, (true, [2])); ([[97]], 1, (true, [3]))] in
  Permutation (sr_sort l) l /\ cmp_sorted (sr_sort l).
Proof.
  cbn zeta. split; [apply sr_sort_perm|]. vm_compute sr_sort. unfold cmp_sorted.
  repeat (constructor; [|repeat (constructor; [vm_compute; discriminate|]); constructor]). constructor.
Qed.

Theorem sorted_records_entry_points ops :
  zone_sorted (strip (sr_run ops)) /\
  forall o t, has_type (strip (sr_run ops)) o t <-> has_type (strip (sr_input ops)) o t.
Proof. split; [apply sr_run_sorted|apply sr_run_types]. Qed.

Theorem sorted_records_sorted_and_complete l :
  zone_sorted (strip (sorted_records l)) /\
  forall o x, has_type (strip (sorted_records l)) o x <-> has_type (strip l) o x.
Proof. split; [apply sorted_records_sorted|apply sorted_records_types]. Qed.

Theorem sorted_records_class l :
  StronglySorted (fun a b => fst a <= fst b) (cr_sort l) /\
  (forall k, Forall (fun x => fst x = k) l -> map snd (sorted_records_c l) = sorted_records (map snd l)).
Proof. split; [exact (cr_sort_class_sorted l)|intros k; exact (sorted_records_one_class k l)]. Qed.

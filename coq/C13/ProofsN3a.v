(* NSEC3 -- sorting by hash, dedup, linking: the result is
   strictly ascending in hash order and a closed ring. *)
From Coq Require Import ZArith List Bool Sorted Permutation.
From DV Require Import Base.Outcome Base.Lex C13.Model.
Import ListNotations.
Local Open Scope N_scope.

(* the model's sort_by functions are all this insertion sort, for their comparison *)
Section InsertionSort.
Context {A : Type} (cmp : A -> A -> comparison).

Fixpoint ins (x : A) (l : list A) : list A :=
  match l with
  | [] => [x]
  | y :: r => match cmp x y with Gt => y :: ins x r | _ => x :: l end
  end.
Definition isort (l : list A) : list A := fold_right ins [] l.

Lemma ins_perm x l : Permutation (ins x l) (x :: l).
Proof.
  induction l as [|y r IH]; cbn [ins]; [apply Permutation_refl|].
  destruct (cmp x y); try apply Permutation_refl.
  eapply Permutation_trans; [apply perm_skip; exact IH|apply perm_swap].
Qed.

Lemma isort_perm l : Permutation (isort l) l.
Proof.
  unfold isort. induction l as [|a l IH]; cbn [fold_right]; [apply Permutation_refl|].
  eapply Permutation_trans; [apply ins_perm|apply perm_skip; exact IH].
Qed.

Variable R : A -> A -> Prop.
Hypothesis cmp_le : forall x y, cmp x y <> Gt -> R x y.
Hypothesis cmp_gt : forall x y, cmp x y = Gt -> R y x.
Hypothesis R_trans : forall x y z, R x y -> R y z -> R x z.

Lemma ins_sorted x l : StronglySorted R l -> StronglySorted R (ins x l).
Proof.
  induction 1 as [|y r Hs IH Hy]; cbn [ins]; [repeat constructor|].
  assert (Keep : cmp x y <> Gt -> StronglySorted R (x :: y :: r)).
  { intros Hxy%cmp_le. constructor; [constructor; assumption|]. constructor; [exact Hxy|].
    eapply Forall_impl; [|exact Hy]. intros z Hz. eapply R_trans; eassumption. }
  destruct (cmp x y) eqn:E; [apply Keep; discriminate|apply Keep; discriminate|].
  constructor; [exact IH|]. apply Forall_forall. intros z Hz.
  apply (Permutation_in _ (ins_perm x r)) in Hz as [<-|Hz]; [apply cmp_gt; exact E|].
  rewrite Forall_forall in Hy. apply Hy. exact Hz.
Qed.

Lemma isort_sorted l : StronglySorted R (isort l).
Proof. unfold isort. induction l as [|a l IH]; cbn [fold_right]; [constructor|]. apply ins_sorted. exact IH. Qed.
End InsertionSort.

Lemma isort_map {A B} (f : A -> B) cmpA cmpB : (forall x y, cmpA x y = cmpB (f x) (f y)) ->
  forall l, map f (isort cmpA l) = isort cmpB (map f l).
Proof.
  intros H. assert (I : forall x l, map f (ins cmpA x l) = ins cmpB (f x) (map f l)).
  { intros x l. induction l as [|y r IH]; [reflexivity|]. cbn [ins map]. rewrite <- H.
    destruct (cmpA x y); cbn [map]; try reflexivity. rewrite IH. reflexivity. }
  unfold isort. induction l as [|a l IH]; [reflexivity|]. cbn [fold_right map]. rewrite I, IH. reflexivity.
Qed.

Definition hle (a b : n3pre) : Prop := lex_cmp (p_hash a) (p_hash b) <> Gt.
Definition hlt (a b : n3pre) : Prop := lex_cmp (p_hash a) (p_hash b) = Lt.

Lemma lex_le_trans a b c : lex_cmp a b <> Gt -> lex_cmp b c <> Gt -> lex_cmp a c <> Gt.
Proof.
  intros H1 H2. destruct (lex_cmp a b) eqn:E1; try congruence.
  - apply lex_cmp_eq in E1. subst. exact H2.
  - destruct (lex_cmp b c) eqn:E2; try congruence.
    + apply lex_cmp_eq in E2. subst. rewrite E1. discriminate.
    + rewrite (lex_cmp_trans _ _ _ _ E1 E2). discriminate.
Qed.

Lemma lex_lt_le_trans a b c : lex_cmp a b = Lt -> lex_cmp b c <> Gt -> lex_cmp a c = Lt.
Proof.
  intros H1 H2. destruct (lex_cmp b c) eqn:E2; try congruence.
  - apply lex_cmp_eq in E2. subst. exact H1.
  - eapply lex_cmp_trans; eassumption.
Qed.

Lemma bytes_eqb_eq a b : bytes_eqb a b = true <-> a = b.
Proof.
  unfold bytes_eqb. rewrite <- lex_cmp_eq. destruct (lex_cmp a b); split; congruence.
Qed.

Lemma sort_perm l : Permutation (sort_by_hash l) l.
Proof. exact (isort_perm (fun p q => lex_cmp (p_hash p) (p_hash q)) l). Qed.

Lemma sort_in l x : In x (sort_by_hash l) <-> In x l.
Proof. split; apply Permutation_in; [|apply Permutation_sym]; apply sort_perm. Qed.

Lemma sort_sorted l : StronglySorted hle (sort_by_hash l).
Proof.
  apply (isort_sorted (fun p q => lex_cmp (p_hash p) (p_hash q)) hle).
  - intros x y H. exact H.
  - intros x y H. unfold hle. rewrite lex_cmp_antisym, H. discriminate.
  - intros x y z. apply lex_le_trans.
Qed.

Lemma pre_eqb_hash a b : pre_eqb a b = true -> p_hash a = p_hash b /\ p_types a = p_types b.
Proof.
  unfold pre_eqb. rewrite !andb_true_iff, !bytes_eqb_eq. intuition.
Qed.

Lemma dedup_in l x : In x (dedup l) -> In x l.
Proof.
  revert x; induction l as [|a r IH]; intros x; cbn [dedup]; [intros []|].
  destruct (dedup r) as [|b r'] eqn:E.
  - intros [<-|[]]. left. reflexivity.
  - destruct (pre_eqb a b).
    + intros H. right. apply IH. exact H.
    + intros [<-|H]; [left; reflexivity|right; apply IH; exact H].
Qed.

Lemma dedup_complete l x : In x l ->
  exists y, In y (dedup l) /\ p_hash y = p_hash x /\ p_types y = p_types x.
Proof.
  induction l as [|a r IH]; [intros []|]. cbn [dedup]. intros [<-|Hx].
  - destruct (dedup r) as [|b r'] eqn:E.
    + exists a. split; [left; reflexivity|split; reflexivity].
    + destruct (pre_eqb a b) eqn:F.
      * apply pre_eqb_hash in F as [F1 F2]. exists b. split; [left; reflexivity|split; congruence].
      * exists a. split; [left; reflexivity|split; reflexivity].
  - destruct (IH Hx) as (y & Hy & Ey). destruct (dedup r) as [|b r'] eqn:E; [destruct Hy|].
    destruct (pre_eqb a b); exists y; (split; [|exact Ey]); [exact Hy|right; exact Hy].
Qed.

Lemma dedup_sorted (R : n3pre -> n3pre -> Prop) l : StronglySorted R l -> StronglySorted R (dedup l).
Proof.
  induction 1 as [|a r Hs IH Ha]; cbn [dedup]; [constructor|].
  destruct (dedup r) as [|b r'] eqn:E; [repeat constructor|].
  destruct (pre_eqb a b); [exact IH|].
  constructor; [exact IH|]. apply Forall_forall. intros x Hx.
  rewrite Forall_forall in Ha. apply Ha. apply dedup_in. rewrite E. exact Hx.
Qed.

Fixpoint adj_ok (first : n3pre) (l : list n3pre) : Prop :=
  match l with
  | [] => True
  | a :: r => p_hash a <> p_hash (match r with b :: _ => b | [] => first end) /\ adj_ok first r
  end.

Lemma link3_spec oo first : forall l out, link3 oo first l = Ok out ->
  map h_owner out = map p_hash l /\ map h_types out = map p_types l /\
  map h_next out = match l with [] => [] | _ :: r => map p_hash r ++ [p_hash first] end /\
  (oo = false -> adj_ok first l).
Proof.
  induction l as [|a r IH]; intros out H; cbn [link3] in H.
  - injection H as <-. repeat split.
  - set (nxt := match r with b :: _ => b | [] => first end) in *.
    destruct (negb oo && bytes_eqb (p_hash a) (p_hash nxt)) eqn:C.
    + destruct (negb (name_exact_eqb (p_name a) (p_name nxt))); discriminate.
    + apply bind_ok in H as (rest & Hr & H). injection H as <-.
      destruct (IH rest Hr) as (A & B & D & F). cbn [map h_owner h_types h_next].
      split; [f_equal; exact A|]. split; [f_equal; exact B|]. split.
      * rewrite D. unfold nxt. destruct r as [|b r']; reflexivity.
      * intros ->. cbn [negb andb] in C. cbn [adj_ok]. split; [|apply F; reflexivity].
        fold nxt. intros E. apply bytes_eqb_eq in E. congruence.
Qed.

Lemma sorted_strict first l : StronglySorted hle l -> adj_ok first l -> StronglySorted hlt l.
Proof.
  induction 1 as [|a r Hs IH Ha]; intros Hadj; [constructor|].
  cbn [adj_ok] in Hadj. destruct Hadj as [Hne Hadj]. specialize (IH Hadj).
  constructor; [exact IH|].
  destruct r as [|b r']; [constructor|].
  assert (Hab : hlt a b).
  { apply Forall_inv in Ha. unfold hle, hlt in *.
    destruct (lex_cmp (p_hash a) (p_hash b)) eqn:E; try congruence.
    apply lex_cmp_eq in E. congruence. }
  constructor; [exact Hab|].
  apply StronglySorted_inv in IH as [_ Hb].
  eapply Forall_impl; [|exact Hb]. intros x Hx. unfold hlt in *. eapply lex_cmp_trans; eassumption.
Qed.

Definition h3lt (a b : nsec3) : Prop := lex_cmp (h_owner a) (h_owner b) = Lt.

Lemma sorted_via_map (l : list n3pre) (out : list nsec3) :
  map h_owner out = map p_hash l -> StronglySorted hlt l -> StronglySorted h3lt out.
Proof.
  revert out; induction l as [|a r IH]; intros out E Hs; destruct out as [|o out]; try discriminate; [constructor|].
  cbn [map] in E. injection E as E1 E2. apply StronglySorted_inv in Hs as [Hs Ha].
  constructor; [apply IH; assumption|].
  apply Forall_forall. intros x Hx. unfold h3lt. rewrite E1.
  apply (in_map h_owner) in Hx. rewrite E2 in Hx. apply in_map_iff in Hx as (y & <- & Hy).
  rewrite Forall_forall in Ha. apply Ha. exact Hy.
Qed.

(* the tail of the pipeline: from the collected records to the result *)
Definition finish3 (l : list n3pre) : outcome (list nsec3) :=
  let all := dedup (sort_by_hash l) in
  match all with
  | [] => Panic 5
  | first :: _ => link3 (length all =? 1)%nat first all
  end.

Lemma finish3_spec l out : finish3 l = Ok out ->
  StronglySorted h3lt out /\ out <> [] /\
  map h_next out = tl (map h_owner out) ++ [hd [] (map h_owner out)] /\
  (forall x, In x l -> exists r, In r out /\ h_owner r = p_hash x /\ h_types r = p_types x) /\
  (forall r, In r out -> exists x, In x l /\ h_owner r = p_hash x /\ h_types r = p_types x).
Proof.
  unfold finish3. set (all := dedup (sort_by_hash l)).
  assert (Hsorted : StronglySorted hle all) by (apply dedup_sorted; apply sort_sorted).
  destruct all as [|first rest] eqn:Eall; [discriminate|]. intros H.
  destruct (link3_spec _ _ _ _ H) as (A & B & C & D).
  assert (Hstrict : StronglySorted hlt (first :: rest)).
  { destruct rest as [|b rest'].
    - repeat constructor.
    - apply (sorted_strict first); [exact Hsorted|]. apply D. reflexivity. }
  split; [apply (sorted_via_map (first :: rest)); assumption|].
  split; [intros ->; discriminate|].
  split; [rewrite C, A; reflexivity|].
  assert (Zip : forall (l1 : list n3pre) (o1 : list nsec3), map h_owner o1 = map p_hash l1 ->
            map h_types o1 = map p_types l1 ->
            (forall y, In y l1 -> exists r, In r o1 /\ h_owner r = p_hash y /\ h_types r = p_types y) /\
            (forall r, In r o1 -> exists y, In y l1 /\ h_owner r = p_hash y /\ h_types r = p_types y)).
  { induction l1 as [|y1 l1 IH]; intros [|r1 o1] E1 E2; try discriminate.
    - split; intros ? [].
    - cbn [map] in E1, E2. injection E1 as E1 E1'. injection E2 as E2 E2'.
      destruct (IH o1 E1' E2') as [I1 I2]. split.
      + intros y [<-|Hy]; [exists r1; split; [left; reflexivity|split; assumption]|].
        destruct (I1 y Hy) as (r & Hr & Er). exists r. split; [right; exact Hr|exact Er].
      + intros r [<-|Hr]; [exists y1; split; [left; reflexivity|split; assumption]|].
        destruct (I2 r Hr) as (y & Hy & Ey). exists y. split; [right; exact Hy|exact Ey]. }
  destruct (Zip _ _ A B) as [Z1 Z2]. split.
  - intros x Hx. apply (sort_in l x) in Hx. apply dedup_complete in Hx as (y & Hy & E1 & E2).
    fold all in Hy. rewrite Eall in Hy. destruct (Z1 y Hy) as (r & Hr & F1 & F2).
    exists r. split; [exact Hr|split; congruence].
  - intros r Hr. destruct (Z2 r Hr) as (y & Hy & Ey). exists y. split; [|exact Ey].
    apply (sort_in l y). apply dedup_in. fold all. rewrite Eall. exact Hy.
Qed.

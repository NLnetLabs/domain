(* generate_nsec3s with TTLs -- erasure to the plain model, the TTL / class rule of the
   NSEC3 and NSEC3PARAM records, no panic under uniform RRset TTLs. *)
From Coq Require Import ZArith List Bool Permutation.
From DV Require Import Base.Outcome Base.Lex Base.Names C13.Gen C13.Model C13.ProofsN3a C13.ProofsN3c C13.ProofsTtl.
Import ListNotations.
Local Open Scope N_scope.

Section CarryProofs.
Variable A : Type.
Variable pr : A -> n3pre.

Lemma gsort_erase l : map pr (gsort A pr l) = sort_by_hash (map pr l).
Proof. exact (isort_map pr _ (fun p q => lex_cmp (p_hash p) (p_hash q)) (fun _ _ => eq_refl) l). Qed.

Lemma gdedup_erase l : map pr (gdedup A pr l) = dedup (map pr l).
Proof.
  induction l as [|a r IH]; [reflexivity|]. cbn [gdedup map dedup]. rewrite <- IH.
  destruct (gdedup A pr r) as [|b r']; [reflexivity|]. cbn [map].
  destruct (pre_eqb (pr a) (pr b)); reflexivity.
Qed.

Lemma glink_erase oo first : forall l,
  omap (map fst) (glink A pr oo first l) = link3 oo (pr first) (map pr l).
Proof.
  induction l as [|a r IH]; [reflexivity|]. cbn [glink map link3].
  assert (E : pr (match r with b :: _ => b | [] => first end) = match map pr r with b :: _ => b | [] => pr first end)
    by (destruct r; reflexivity).
  rewrite <- E.
  destruct (negb oo && bytes_eqb (p_hash (pr a)) (p_hash (pr (match r with b :: _ => b | [] => first end)))).
  - destruct (negb (name_exact_eqb (p_name (pr a)) (p_name (pr (match r with b :: _ => b | [] => first end))))); reflexivity.
  - rewrite <- IH. destruct (glink A pr oo first r); reflexivity.
Qed.

Lemma gfinish_erase l : omap (map fst) (gfinish A pr l) = finish3 (map pr l).
Proof.
  unfold gfinish, finish3. rewrite <- gsort_erase, <- gdedup_erase.
  destruct (gdedup A pr (gsort A pr l)) as [|first rest] eqn:E; [reflexivity|].
  rewrite glink_erase. cbn [map length]. rewrite map_length. reflexivity.
Qed.

Lemma gsort_in l y : In y (gsort A pr l) -> In y l.
Proof. apply Permutation_in. exact (isort_perm (fun p q => lex_cmp (p_hash (pr p)) (p_hash (pr q))) l). Qed.
Lemma gdedup_in l y : In y (gdedup A pr l) -> In y l.
Proof.
  revert y; induction l as [|a r IH]; intros y; cbn [gdedup]; [intros []|].
  destruct (gdedup A pr r) as [|b r']; [intros [<-|[]]; left; reflexivity|].
  destruct (pre_eqb (pr a) (pr b)); [intros H; right; apply IH; exact H|].
  intros [<-|H]; [left; reflexivity|right; apply IH; exact H].
Qed.
Lemma glink_in oo first : forall l out x, glink A pr oo first l = Ok out -> In x out -> In (snd x) l.
Proof.
  induction l as [|a r IH]; intros out x E Hx; cbn [glink] in E; [injection E as <-; destruct Hx|].
  match type of E with (if ?c then _ else _) = _ => destruct c end.
  - match type of E with (if ?c then _ else _) = _ => destruct c end; discriminate.
  - apply bind_ok in E as (rest & Hr & E). injection E as <-.
    destruct Hx as [<-|Hx]; [left; reflexivity|right; eapply IH; eassumption].
Qed.
Lemma gfinish_in l out x : gfinish A pr l = Ok out -> In x out -> In (snd x) l.
Proof.
  unfold gfinish. destruct (gdedup A pr (gsort A pr l)) as [|first rest] eqn:E; [discriminate|].
  intros Hl Hx. apply gsort_in. apply gdedup_in. rewrite E. eapply glink_in; eassumption.
Qed.
End CarryProofs.

Lemma tnsec3_bitmap_erase c m at_cut has_ds at_apex recs st :
  tnsec3_bitmap c m at_cut has_ds at_apex recs st = Panic 7 \/
  omap st_erase (tnsec3_bitmap c m at_cut has_ds at_apex recs st) =
    nsec3_bitmap c at_cut has_ds at_apex (map t_type recs) (is_some st).
Proof. apply (trrset_then_erase (n3_upd m)). Qed.

Lemma n3_loop_t_erase H apex c m excl : forall gs cut stack ents st acc acc' ents' st',
  n3_loop_t H apex c m excl gs cut stack ents st acc = Ok (acc', ents', st') ->
  n3_loop H apex c excl (map tgroup_strip gs) cut stack ents (is_some st) (map fst acc)
    = Ok (map fst acc', ents', is_some st').
Proof.
  induction gs as [|g gs IH]; intros cut stack ents st acc acc' ents' st' E; cbn [n3_loop_t map n3_loop] in *.
  - injection E as <- <- <-. reflexivity.
  - destruct (negb (is_in_zone apex (tgroup_strip g))); [injection E as <- <- <-; reflexivity|].
    change (fst (tgroup_strip g)) with (fst g). change (snd (tgroup_strip g)) with (map t_type (snd g)).
    destruct (below_cut cut (fst g)); [apply IH; exact E|].
    destruct (excl && is_zone_cut apex (tgroup_strip g) && negb (memN rt_DS (map t_type (snd g)))); [apply IH; exact E|].
    destruct (pop_until (fst g) stack) as [last stack'].
    apply bind_ok in E as (ld & Hld & E). rewrite Hld. cbn [bind].
    apply bind_ok in E as (dta & Hdta & E). rewrite Hdta. cbn [bind].
    apply bind_ok in E as ([bm st1] & Hbm & E).
    apply bind_ok in E as (p & Hp & E). apply bind_ok in E as (ttl & Httl & E).
    match type of Hbm with tnsec3_bitmap ?a ?b ?d ?e ?f ?g0 ?h = _ =>
      destruct (tnsec3_bitmap_erase a b d e f g0 h) as [P|Eb] end; [congruence|].
    rewrite Hbm in Eb. unfold st_erase in Eb. cbn [omap fst snd] in Eb. rewrite <- Eb. cbn [bind]. rewrite Hp. cbn [bind].
    apply IH in E. exact E.
Qed.

Lemma ent_recs_t_erase H c ttl : forall es l, ent_recs_t H c ttl es = Ok l ->
  ent_recs H c es = Ok (map fst l) /\ Forall (fun x => snd x = ttl) l.
Proof.
  induction es as [|e es IH]; intros l E; cbn [ent_recs_t ent_recs] in *.
  - injection E as <-. split; [reflexivity|constructor].
  - apply bind_ok in E as (p & Hp & E). apply bind_ok in E as (ps & Hps & E). injection E as <-.
    destruct (IH ps Hps) as [I1 I2]. rewrite Hp. cbn [bind]. rewrite I1. cbn [bind map fst]. split; [reflexivity|].
    constructor; [reflexivity|exact I2].
Qed.

Theorem nsec3_t_erasure H apex c m z o : generate_nsec3s_t H apex c m z = Ok o ->
  generate_nsec3s H apex c (map trec_strip z) = Ok (map fst (o_recs o)).
Proof.
  unfold generate_nsec3s_t. intros E.
  apply bind_ok in E as ([[acc ents] st] & Hloop & E).
  destruct st as [[ttl [pttl cls]]|]; [|discriminate].
  apply bind_ok in E as (er & Her & E). apply bind_ok in E as (out & Hout & E). injection E as <-.
  apply n3_loop_t_erase in Hloop. rewrite tgroups_erase, tskip_erase in Hloop.
  destruct (ent_recs_t_erase H c ttl ents er Her) as [Her' _].
  rewrite generate_nsec3s_eq. cbn [map is_some] in Hloop. rewrite Hloop. cbn [bind negb].
  rewrite Her'. cbn [bind o_recs].
  rewrite <- map_rev, <- map_app, <- (gfinish_erase (n3pre * N) fst), Hout. cbn [omap o_recs].
  rewrite map_map. reflexivity.
Qed.

Definition ttl_from_soa (z : list trec) (ttl : N) : Prop :=
  exists s, In s z /\ t_type s = 6 /\ ttl = N.min (t_min s) (t_ttl s).

Lemma from_soa3_ttl m z ttl pc : soa_state (n3_upd m) z (Some (ttl, pc)) -> ttl_from_soa z ttl.
Proof.
  intros (s & A & B & C). unfold n3_upd, soa_ttl in C. cbv [ttl_is_min] in C. injection C as -> _.
  exists s. auto.
Qed.

Lemma n3_loop_t_from_soa H apex c m excl z : forall gs cut stack ents st acc acc' ents' st',
  (forall g r, In g gs -> In r (snd g) -> In r z) ->
  soa_state (n3_upd m) z st -> Forall (fun x => ttl_from_soa z (snd x)) acc ->
  n3_loop_t H apex c m excl gs cut stack ents st acc = Ok (acc', ents', st') ->
  soa_state (n3_upd m) z st' /\ Forall (fun x => ttl_from_soa z (snd x)) acc'.
Proof.
  induction gs as [|g gs IH]; intros cut stack ents st acc acc' ents' st' Hin Hst Hacc E; cbn [n3_loop_t] in E.
  - injection E as <- <- <-. split; assumption.
  - assert (Hin' : forall g0 r, In g0 gs -> In r (snd g0) -> In r z) by (intros ? ? X Y; eapply Hin; [right; exact X|exact Y]).
    destruct (negb (is_in_zone apex (tgroup_strip g))); [injection E as <- <- <-; split; assumption|].
    destruct (below_cut cut (fst g)); [eapply IH; eassumption|].
    destruct (excl && is_zone_cut apex (tgroup_strip g) && negb (memN rt_DS (map t_type (snd g)))); [eapply IH; eassumption|].
    destruct (pop_until (fst g) stack) as [last stack'].
    apply bind_ok in E as (ld & _ & E). apply bind_ok in E as (dta & _ & E).
    apply bind_ok in E as ([bm st1] & Hbm & E). apply bind_ok in E as (p & _ & E). apply bind_ok in E as (ttl & Httl & E).
    assert (Hst1 : soa_state (n3_upd m) z st1).
    { unfold tnsec3_bitmap in Hbm. apply bind_ok in Hbm as ([bm1 st2] & Hr & Hbm).
      destruct (is_some st2); [|discriminate]. injection Hbm as _ <-.
      exact (trrset_loop_soa (n3_upd m) z _ _ (snd g) _ _ _ _ (fun r => Hin g r (or_introl eq_refl)) Hst Hr). }
    eapply IH; [exact Hin'|exact Hst1| |exact E].
    constructor; [|exact Hacc]. cbn [snd]. destruct st1 as [[t1 p1]|]; [|discriminate].
    injection Httl as <-. eapply from_soa3_ttl. exact Hst1.
Qed.

Theorem nsec3_t_ttl_class H apex c m z o : generate_nsec3s_t H apex c m z = Ok o ->
  (forall x, In x (o_recs o) -> exists s, In s z /\ t_type s = 6 /\ snd x = N.min (t_min s) (t_ttl s)) /\
  (exists s, In s z /\ t_type s = 6 /\
     o_param_ttl o = match m with PFixed t => t | PSoa => t_ttl s | PSoaMin => t_min s end /\
     o_class o = if nsec3_class_fixed then 1 else t_class s).
Proof.
  unfold generate_nsec3s_t. intros E.
  apply bind_ok in E as ([[acc ents] st] & Hloop & E).
  destruct st as [[ttl [pttl cls]]|] eqn:Est; [|discriminate].
  apply bind_ok in E as (er & Her & E). apply bind_ok in E as (out & Hout & E). injection E as <-.
  cbn [o_class o_recs o_param_ttl].
  assert (HIN : forall g r, In g (tgroups (tskip_before apex z)) -> In r (snd g) -> In r z).
  { intros g r Hg Hr. apply (tskip_in apex). eapply tgroups_in; eassumption. }
  destruct (n3_loop_t_from_soa H apex c m _ z _ None [] [] None [] _ _ _ HIN I (Forall_nil _) Hloop) as [Hst Hacc].
  split.
  - intros x Hx. apply in_map_iff in Hx as ([r [p t]] & <- & Hin). cbn [fst snd].
    apply (gfinish_in _ _ _ _ _ Hout) in Hin. cbn [snd] in Hin.
    apply in_app_or in Hin as [Hin|Hin].
    + apply in_rev in Hin. rewrite Forall_forall in Hacc. apply (Hacc (p, t) Hin).
    + destruct (ent_recs_t_erase H c ttl ents er Her) as [_ Ht]. rewrite Forall_forall in Ht.
      pose proof (Ht (p, t) Hin) as Et. cbn [snd] in Et. subst t. eapply from_soa3_ttl. exact Hst.
  - destruct Hst as (s & A & B & C). unfold n3_upd in C. injection C as _ -> ->.
    exists s. split; [exact A|]. split; [exact B|]. split; reflexivity.
Qed.

Example nsec3_t_example :
  match generate_nsec3s_t (fun x => x) [[101; 120]] (mk_n3cfg false 1 0 0 [] true) PSoaMin
          [ mk_trec [[101; 120]] 6 1 3600 300; mk_trec [[97]; [101; 120]] 1 1 5 0 ] with
  | Ok o => o_param_ttl o = 300 /\ map snd (o_recs o) = [300; 300]
  | _ => False
  end.
Proof. vm_compute. auto. Qed.

(* no panic for the TTL model: under uniform RRset TTLs it is step for
   step the plain model, which does not panic on a sorted zone *)
From DV Require Import C13.ProofsN3e.
Lemma tnsec3_bitmap_sim c m at_cut has_ds at_apex recs st : runs_uniform (truns recs) ->
  omap st_erase (tnsec3_bitmap c m at_cut has_ds at_apex recs st) =
    nsec3_bitmap c at_cut has_ds at_apex (map t_type recs) (is_some st).
Proof.
  intros Hu. destruct (tnsec3_bitmap_erase c m at_cut has_ds at_apex recs st) as [P|E]; [|exact E].
  exfalso. unfold tnsec3_bitmap in P.
  match type of P with context [trrset_loop ?u ?a ?b ?r ?bm ?s] =>
    destruct (trrset_loop_cases u a b r bm s Hu) as [(bm' & st' & E & _)|E]; rewrite E in P end; cbn [bind] in P.
  - destruct (is_some st'); discriminate.
  - discriminate.
Qed.

Lemma tnsec3_bitmap_some c m at_cut has_ds at_apex recs st bm st' :
  tnsec3_bitmap c m at_cut has_ds at_apex recs st = Ok (bm, st') -> is_some st' = true.
Proof.
  unfold tnsec3_bitmap. intros E. apply bind_ok in E as ([bm1 st1] & _ & E).
  destruct (is_some st1) eqn:Es; [|discriminate]. injection E as _ <-. exact Es.
Qed.

Definition e3 (r : list (n3pre * N) * list name * option (N * (N * N))) : list n3pre * list name * bool :=
  (map fst (fst (fst r)), snd (fst r), is_some (snd r)).

Lemma n3_loop_t_sim H apex c m excl : forall gs cut stack ents st acc,
  (forall g, In g gs -> runs_uniform (truns (snd g))) ->
  omap e3 (n3_loop_t H apex c m excl gs cut stack ents st acc) =
  n3_loop H apex c excl (map tgroup_strip gs) cut stack ents (is_some st) (map fst acc).
Proof.
  induction gs as [|g gs IH]; intros cut stack ents st acc Hu; cbn [n3_loop_t map n3_loop]; [reflexivity|].
  assert (Hu' : forall g0, In g0 gs -> runs_uniform (truns (snd g0))) by (intros g0 X; apply Hu; right; exact X).
  destruct (negb (is_in_zone apex (tgroup_strip g))); [reflexivity|].
  change (fst (tgroup_strip g)) with (fst g). change (snd (tgroup_strip g)) with (map t_type (snd g)).
  destruct (below_cut cut (fst g)); [apply IH; exact Hu'|].
  destruct (excl && is_zone_cut apex (tgroup_strip g) && negb (memN rt_DS (map t_type (snd g)))); [apply IH; exact Hu'|].
  destruct (pop_until (fst g) stack) as [last stack'].
  destruct (match last with Some s => label_dist s apex | None => Ok 0%nat end) as [ld| | |]; cbn [bind omap]; try reflexivity.
  destruct (label_dist (fst g) apex) as [dta| | |]; cbn [bind omap]; try reflexivity.
  rewrite <- (tnsec3_bitmap_sim c m _ _ _ (snd g) st (Hu g (or_introl eq_refl))).
  destruct (tnsec3_bitmap c m (is_zone_cut apex (tgroup_strip g)) (memN rt_DS (map t_type (snd g))) (dta =? 0)%nat (snd g) st)
    as [[bm st1]| | |] eqn:Eb; cbn [bind omap]; try reflexivity.
  unfold st_erase. cbn [fst snd bind].
  destruct (mk_pre H c (fst g) bm) as [p| | |]; cbn [bind omap]; try reflexivity.
  pose proof (tnsec3_bitmap_some _ _ _ _ _ _ _ _ _ Eb) as Es.
  destruct st1 as [[t1 p1]|]; [|discriminate]. cbn [bind].
  apply (IH _ _ _ (Some (t1, p1)) ((p, t1) :: acc) Hu').
Qed.

Lemma ent_recs_t_sim H c ttl es : omap (map fst) (ent_recs_t H c ttl es) = ent_recs H c es.
Proof.
  induction es as [|e es IH]; [reflexivity|]. cbn [ent_recs_t ent_recs].
  destruct (mk_pre H c e []); cbn [bind omap]; try reflexivity.
  rewrite <- IH. destruct (ent_recs_t H c ttl es); reflexivity.
Qed.

Lemma no_panic_omap {A B} (f : A -> B) o : no_panic (omap f o) <-> no_panic o.
Proof. destruct o; reflexivity. Qed.

Theorem nsec3_t_no_panic H apex c m z : zone_sorted (map trec_strip z) -> rrset_ttls_uniform z ->
  no_panic (generate_nsec3s_t H apex c m z).
Proof.
  intros Hs Hu.
  assert (Sim : omap (fun o => map fst (o_recs o)) (generate_nsec3s_t H apex c m z) =
                generate_nsec3s H apex c (map trec_strip z)).
  { unfold generate_nsec3s_t. rewrite generate_nsec3s_eq.
    pose proof (n3_loop_t_sim H apex c m (opt_out_flag c && c_excl c) (tgroups (tskip_before apex z)) None [] [] None []
                  (fun g Hg => uniform_runs apex z g Hu Hg)) as L.
    rewrite tgroups_erase, tskip_erase in L. cbn [map is_some] in L. rewrite <- L.
    destruct (n3_loop_t H apex c m (opt_out_flag c && c_excl c) (tgroups (tskip_before apex z)) None [] [] None [])
      as [[[acc ents] st]| | |]; cbn [omap bind e3 fst snd]; try reflexivity.
    destruct st as [[ttl [pttl cls]]|]; cbn [is_some negb]; [|reflexivity].
    rewrite <- (ent_recs_t_sim H c ttl ents).
    destruct (ent_recs_t H c ttl ents) as [er| | |]; cbn [omap bind]; try reflexivity.
    rewrite <- map_rev, <- map_app, <- (gfinish_erase (n3pre * N) fst).
    destruct (gfinish (n3pre * N) fst (rev acc ++ er)); cbn [omap bind o_recs]; try reflexivity.
    rewrite map_map. reflexivity. }
  apply (no_panic_omap (fun o => map fst (o_recs o))). rewrite Sim. apply nsec3_no_panic. exact Hs.
Qed.

Theorem nsec3param_record_spec H apex c m z o : generate_nsec3s_t H apex c m z = Ok o ->
  exists s, In s z /\ t_type s = 6 /\
    nsec3param_record apex c o =
      (apex, (if nsec3_class_fixed then 1 else t_class s),
       match m with PFixed t => t | PSoa => t_ttl s | PSoaMin => t_min s end,
       (c_alg c, c_flags c, c_iters c, c_salt c)).
Proof.
  intros E. destruct (nsec3_t_ttl_class H apex c m z o E) as (_ & s & Hs & Ht & Hp & Hc).
  exists s. split; [exact Hs|]. split; [exact Ht|]. unfold nsec3param_record, n3_params. rewrite Hc, Hp. reflexivity.
Qed.

(* pins of T1 items that only steer executable behaviour *)
Example alg_and_optout_pins :
  mk_pre (fun x => x) (mk_n3cfg true 2 0 0 [] true) [] [] = Err 3 /\
  is_ok (mk_pre (fun x => x) (mk_n3cfg true 1 0 0 [] true) [] []) = true /\
  opt_out_flag (mk_n3cfg true 1 1 0 [] true) = true /\ opt_out_flag (mk_n3cfg true 1 129 0 [] true) = true /\
  opt_out_flag (mk_n3cfg true 1 2 0 [] true) = false /\ nsec3_class = 1.
Proof. vm_compute. repeat split. Qed.

(* generate_nsec3s: the empty non-terminal computation (last_nent_stack / ents)
   as a fold over the sequence of visited owner names, and the loop as "select,
   filter by opt-out, hash"; the type bitmap of a visited name. *)
From Coq Require Import ZArith List Bool Lia Sorted.
From DV Require Import Base.Outcome Base.Bytes Base.Names C13.Gen C13.Model C13.ProofsNames C13.ProofsBitmap C13.ProofsNsec C13.ProofsNsec2 C13.ProofsN3a.
Import ListNotations.
Local Open Scope nat_scope.

Lemma ewr_length x y : ends_with_rev x y = true -> length y <= length x.
Proof.
  revert x; induction y as [|b y IH]; intros x H; cbn [length]; [lia|].
  destruct x as [|a x]; cbn [ends_with_rev] in H; [discriminate|].
  destruct (label_eqb a b); [|discriminate]. apply IH in H. cbn [length]. lia.
Qed.

Lemma ewr_ss x a b : ends_with_rev x a = true -> ends_with_rev x b = true ->
  length b <= length a -> ends_with_rev a b = true.
Proof.
  revert x a; induction b as [|bl b IH]; intros x a Ha Hb Hl; cbn [ends_with_rev]; [reflexivity|].
  destruct a as [|al a]; [cbn in Hl; lia|].
  destruct x as [|xl x]; cbn [ends_with_rev] in Ha, Hb; [discriminate|].
  destruct (label_eqb xl al) eqn:E1; [|discriminate].
  destruct (label_eqb xl bl) eqn:E2; [|discriminate].
  rewrite label_eqb_sym in E1. rewrite (label_eqb_trans _ _ _ E1 E2).
  eapply IH; [exact Ha|exact Hb|cbn [length] in Hl; lia].
Qed.

Lemma ends_with_length n a : ends_with n a = true -> length a <= length n.
Proof. intros H. apply ewr_length in H. rewrite !rev_length in H. exact H. Qed.

Lemma ends_with_ss n a b : ends_with n a = true -> ends_with n b = true ->
  length b <= length a -> ends_with a b = true.
Proof. intros Ha Hb Hl. eapply ewr_ss; [exact Ha|exact Hb|rewrite !rev_length; exact Hl]. Qed.

Lemma name_eqb_length a b : name_eqb a b = true -> length a = length b.
Proof. unfold name_eqb. intros H. apply andb_true_iff in H as [H _]. apply Nat.eqb_eq. exact H. Qed.

Lemma ends_with_same_length n a : ends_with n a = true -> length a = length n -> name_eqb n a = true.
Proof.
  intros H L. apply ends_with_both; [exact H|].
  apply (ends_with_ss n a n); [exact H|apply ends_with_refl|lia].
Qed.

Lemma strictly_below_length n a : strictly_below n a -> length a < length n.
Proof.
  intros [H1 H2]. pose proof (ends_with_length _ _ H1) as L.
  destruct (Nat.eq_dec (length a) (length n)) as [E|E]; [|lia].
  rewrite (ends_with_same_length _ _ H1 E) in H2. discriminate.
Qed.

Lemma shorter_strictly_below n a : ends_with n a = true -> length a < length n -> strictly_below n a.
Proof.
  intros H L. split; [exact H|]. destruct (name_eqb n a) eqn:E; [|reflexivity].
  apply name_eqb_length in E. lia.
Qed.

Lemma ancestors_same_length n a b : ends_with n a = true -> ends_with n b = true ->
  length a = length b -> name_eqb a b = true.
Proof.
  intros Ha Hb L. apply ends_with_both; eapply ends_with_ss; eauto; lia.
Qed.

Lemma ancestors_lt_length n a b : ends_with n a = true -> ends_with n b = true ->
  name_cmp a b = Lt -> length a < length b.
Proof.
  intros Ha Hb C. destruct (Nat.lt_ge_cases (length a) (length b)) as [L|L]; [exact L|exfalso].
  pose proof (ends_with_ss n a b Ha Hb L) as H. apply ends_with_le in H.
  rewrite name_cmp_antisym, C in H. cbn in H. congruence.
Qed.

Lemma ewr_dec x y : ends_with_rev x y = true ->
  exists s r, x = s ++ r /\ length s = length y /\ labels_cmp s y = Eq.
Proof.
  revert x; induction y as [|b y IH]; intros x H.
  - exists [], x. repeat split.
  - destruct x as [|a x]; cbn [ends_with_rev] in H; [discriminate|].
    destruct (label_eqb a b) eqn:E; [|discriminate].
    destruct (IH x H) as (s & r & -> & L & C). exists (a :: s), r. repeat split.
    + cbn [length]. lia.
    + cbn [labels_cmp]. apply label_eqb_cmp in E. rewrite E. exact C.
Qed.

Lemma ewr_app_l s y r : labels_cmp s y = Eq -> ends_with_rev (s ++ r) y = true.
Proof.
  revert s; induction y as [|b y IH]; intros s C; [reflexivity|].
  destruct s as [|a s]; cbn [labels_cmp] in C; [discriminate|].
  destruct (label_cmp a b) eqn:E; try discriminate.
  cbn [app ends_with_rev]. apply label_eqb_cmp in E. rewrite E. apply IH. exact C.
Qed.

Lemma ends_with_dec n a : ends_with n a = true ->
  exists p s, n = p ++ s /\ length s = length a /\ name_eqb s a = true.
Proof.
  intros H. apply ewr_dec in H as (s & r & E & L & C).
  exists (rev r), (rev s). repeat split.
  - rewrite <- rev_app_distr, <- E, rev_involutive. reflexivity.
  - rewrite rev_length, L, rev_length. reflexivity.
  - apply name_eqb_cmp. unfold name_cmp. rewrite rev_involutive. exact C.
Qed.

Lemma ends_with_app p s a : name_eqb s a = true -> ends_with (p ++ s) a = true.
Proof.
  intros H. unfold ends_with. rewrite rev_app_distr. apply ewr_app_l.
  apply name_eqb_cmp in H. exact H.
Qed.

Lemma name_eqb_app_l p a b : name_eqb a b = true -> name_eqb (p ++ a) (p ++ b) = true.
Proof.
  intros H. apply name_eqb_spec in H. apply name_eqb_spec. unfold canon in *. rewrite !map_app. f_equal. exact H.
Qed.

(* the ENT name built by the loop is the ancestor of [nm] that is [j] labels shorter *)
Lemma ent_name_spec apex nm j : ends_with nm apex = true -> j <= length nm - length apex ->
  let e := firstn (length nm - length apex - j) (skipn j nm) ++ apex in
  ends_with nm e = true /\ length e = length nm - j.
Proof.
  intros H Hj. destruct (ends_with_dec _ _ H) as (rel & ap & -> & L & E).
  rewrite app_length, L in *. replace (length rel + length apex - length apex) with (length rel) in * by lia.
  cbn zeta.
  assert (S1 : skipn j (rel ++ ap) = skipn j rel ++ ap).
  { rewrite skipn_app. replace (j - length rel) with 0 by lia. reflexivity. }
  rewrite S1.
  assert (S2 : firstn (length rel - j) (skipn j rel ++ ap) = skipn j rel).
  { rewrite firstn_app, skipn_length, Nat.sub_diag. cbn [firstn]. rewrite app_nil_r.
    apply firstn_all2. rewrite skipn_length. lia. }
  rewrite S2. split.
  - rewrite <- (firstn_skipn j rel) at 1. rewrite <- app_assoc. apply ends_with_app.
    apply name_eqb_app_l. exact E.
  - rewrite app_length, skipn_length. lia.
Qed.

Definition ent_mem (e : name) (ents : list name) : Prop := exists x, In x ents /\ name_eqb x e = true.

Lemma ents_insert_mem ents n e : ent_mem e (ents_insert ents n) <-> ent_mem e ents \/ name_eqb n e = true.
Proof.
  induction ents as [|x r IH]; cbn [ents_insert].
  - unfold ent_mem. cbn [In]. split.
    + intros (y & [Hy|[]] & E). subst y. right. exact E.
    + intros [(y & [] & _)|E]. exists n. split; [left; reflexivity|exact E].
  - destruct (name_cmp x n) eqn:C.
    + (* already there *)
      split; [intros H; left; exact H|]. intros [H|E]; [exact H|].
      exists x. split; [left; reflexivity|]. apply name_eqb_cmp in C. eapply name_eqb_trans; eassumption.
    + unfold ent_mem in *. cbn [In]. split.
      * intros (y & [Hy|Hy] & E).
        -- subst y. left. exists x. split; [left; reflexivity|exact E].
        -- destruct IH as [IH _]. destruct (IH (ex_intro _ y (conj Hy E))) as [(y' & Hy' & E')|E'].
           ++ left. exists y'. split; [right; exact Hy'|exact E'].
           ++ right. exact E'.
      * intros [(y & [Hy|Hy] & E)|E].
        -- subst y. exists x. split; [left; reflexivity|exact E].
        -- destruct IH as [_ IH]. destruct (IH (or_introl (ex_intro _ y (conj Hy E)))) as (y' & Hy' & E').
           exists y'. split; [right; exact Hy'|exact E'].
        -- destruct IH as [_ IH]. destruct (IH (or_intror E)) as (y' & Hy' & E').
           exists y'. split; [right; exact Hy'|exact E'].
    + unfold ent_mem. cbn [In]. split.
      * intros (y & [Hy|Hy] & E); [subst y; right; exact E|left; exists y; split; assumption].
      * intros [(y & Hy & E)|E]; [exists y; split; [right; exact Hy|exact E]|].
        exists n. split; [left; reflexivity|exact E].
Qed.

Lemma ent_loop_mem apex nm dta : forall k ents e, ends_with nm apex = true ->
  dta = length nm - length apex -> k <= dta ->
  (ent_mem e (ent_loop apex nm dta k ents) <->
   ent_mem e ents \/ (ends_with nm e = true /\ length nm - k <= length e < length nm)).
Proof.
  induction k as [|k IH]; intros ents e H Hd Hk; cbn [ent_loop].
  - split; [intros X; left; exact X|]. intros [X|[_ X]]; [exact X|lia].
  - rewrite IH by (auto; lia). rewrite ents_insert_mem. subst dta.
    destruct (ent_name_spec apex nm (S k) H Hk) as [A B]. cbn zeta in A, B.
    set (en := firstn (length nm - length apex - S k) (skipn (S k) nm) ++ apex) in *.
    split.
    + intros [[X|X]|X]; [left; exact X| |right].
      * right. split; [rewrite <- (ends_with_eq_r _ _ _ X); exact A|].
        apply name_eqb_length in X. pose proof (ends_with_length _ _ H). lia.
      * destruct X as [X1 X2]. split; [exact X1|lia].
    + intros [X|[X1 X2]]; [left; left; exact X|].
      destruct (Nat.eq_dec (length e) (length nm - S k)) as [E|E].
      * left. right. apply (ancestors_same_length nm); [exact A|exact X1|lia].
      * right. split; [exact X1|lia].
Qed.

(* one step of the ENT bookkeeping, as a function of the visited name *)
Definition ent_step (apex : name) (st : list name * list name) (nm : name) : list name * list name :=
  let '(stack, ents) := st in
  let '(last, stack') := pop_until nm stack in
  let last_dist := match last with Some s => length s - length apex | None => 0 end in
  let dta := length nm - length apex in
  (nm :: match last with Some s => s :: stack' | None => stack' end,
   if last_dist <? dta then ent_loop apex nm dta (dta - last_dist - 1) ents else ents).

(* pop_until keeps the longest suffix of the stack whose head is an ancestor of [nm] *)
Lemma pop_until_split nm stack : exists popped kept,
  stack = popped ++ kept /\ (forall p, In p popped -> ends_with nm p = false) /\
  match kept with s :: _ => ends_with nm s = true | [] => True end /\
  pop_until nm stack = (hd_error kept, tl kept).
Proof.
  induction stack as [|s r IH]; cbn [pop_until].
  - exists [], []. repeat split. intros p [].
  - destruct (ends_with nm s) eqn:E.
    + exists [], (s :: r). repeat split; [intros p []|exact E].
    + destruct IH as (popped & kept & -> & H1 & H2 & H3). exists (s :: popped), kept.
      repeat split; [|exact H2|exact H3]. intros p [<-|Hp]; [exact E|apply H1; exact Hp].
Qed.

Lemma ent_step_split apex stack ents nm kept : pop_until nm stack = (hd_error kept, tl kept) ->
  ends_with nm apex = true ->
  let L := match kept with s :: _ => length s | [] => length apex end in
  length apex <= L ->
  fst (ent_step apex (stack, ents) nm) = nm :: kept /\
  forall e, ent_mem e (snd (ent_step apex (stack, ents) nm)) <->
            ent_mem e ents \/ (ends_with nm e = true /\ L < length e < length nm).
Proof.
  intros P Hz L HL. unfold ent_step. rewrite P.
  assert (Ed : match hd_error kept with Some s => length s - length apex | None => 0 end = L - length apex)
    by (unfold L; destruct kept; cbn [hd_error]; lia).
  rewrite Ed. cbn [fst snd]. split; [destruct kept; reflexivity|]. intros e.
  destruct (Nat.ltb_spec (L - length apex) (length nm - length apex)) as [Hlt|Hge].
  - rewrite ent_loop_mem by (auto; lia).
    replace (length nm - (length nm - length apex - (L - length apex) - 1)) with (S L) by lia.
    split; (intros [X|[X1 X2]]; [left; exact X|right; split; [exact X1|lia]]).
  - pose proof (ends_with_length _ _ Hz). split; [intros X; left; exact X|]. intros [X|[X1 X2]]; [exact X|lia].
Qed.

Definition desc (a b : name) : Prop := name_cmp b a = Lt.

(* the specification of the ENT set after the names in [done] *)
Definition ent_spec (apex : name) (done : list name) (e : name) : Prop :=
  (exists o, In o done /\ strictly_below o e) /\ strictly_below e apex /\
  ~ (exists x, In x done /\ name_eqb x e = true).

Record ent_inv (apex : name) (done : list name) (st : list name * list name) : Prop := {
  ei_stack_in : forall s, In s (fst st) -> In s done;
  ei_stack_desc : StronglySorted desc (fst st);
  ei_keep : forall a x, In a done -> (forall d, In d done -> name_cmp d x = Lt) ->
              ends_with x a = true -> In a (fst st);
  ei_ents : forall e, ent_mem e (snd st) <-> ent_spec apex done e
}.

Lemma ent_inv_nil apex : ent_inv apex [] ([], []).
Proof.
  constructor; cbn [fst snd].
  - intros s [].
  - constructor.
  - intros a x [].
  - intros e. split; [intros (x & [] & _)|intros ((o & [] & _) & _)].
Qed.

Lemma ent_step_inv apex done st nm : ent_inv apex done st ->
  (forall d, In d done -> name_cmp d nm = Lt) -> ends_with nm apex = true ->
  (forall d, In d done -> ends_with d apex = true) ->
  ent_inv apex (done ++ [nm]) (ent_step apex st nm).
Proof.
  intros [I1 I2 I3 I4] Hgt Hz Hdz. destruct st as [stack ents]. cbn [fst snd] in *.
  destruct (pop_until_split nm stack) as (popped & kept & Est & Hpop & Hhd & P).
  assert (Hsub : forall s, In s kept -> In s done) by (intros s Hs; apply I1; rewrite Est; apply in_or_app; right; exact Hs).
  assert (Hmatch : forall a, In a stack -> ends_with nm a = true -> In a kept).
  { intros a Ha Ea. rewrite Est in Ha. apply in_app_or in Ha as [Ha|Ha]; [|exact Ha].
    rewrite (Hpop a Ha) in Ea. discriminate. }
  assert (Hkept : StronglySorted desc kept) by (rewrite Est in I2; eapply sorted_app_r; exact I2).
  set (L := match kept with s :: _ => length s | [] => length apex end).
  assert (HLa : length apex <= L).
  { unfold L. destruct kept as [|s r]; [lia|]. apply ends_with_length, Hdz, Hsub. left. reflexivity. }
  (* every ancestor of nm among the processed names is on the stack and not longer than L *)
  assert (Hdeep : forall a, In a done -> ends_with nm a = true -> length a <= L).
  { intros a Ha Ea. pose proof (Hmatch a (I3 a nm Ha Hgt Ea) Ea) as Hin.
    unfold L. destruct kept as [|s r]; [destruct Hin|]. destruct Hin as [<-|Hin]; [lia|].
    apply StronglySorted_inv in Hkept as [_ Hs]. rewrite Forall_forall in Hs.
    pose proof (ancestors_lt_length nm a s Ea Hhd (Hs a Hin)). lia. }
  destruct (ent_step_split apex stack ents nm kept P Hz HLa) as [Efst Hents]. fold L in Hents.
  constructor; rewrite ?Efst.
  - intros s [<-|Hs]; apply in_or_app; [right; left; reflexivity|left; apply Hsub; exact Hs].
  - constructor; [exact Hkept|]. apply Forall_forall. intros x Hx. apply Hgt, Hsub, Hx.
  - intros a x Ha Hx Ea. apply in_app_or in Ha as [Ha|[<-|[]]]; [|left; reflexivity].
    right. apply Hmatch.
    + apply (I3 a x Ha); [|exact Ea]. intros d Hd. apply Hx. apply in_or_app. left. exact Hd.
    + apply ends_with_between with (x := x); [| |exact Ea].
      * rewrite (Hgt a Ha). discriminate.
      * rewrite (Hx nm); [discriminate|apply in_or_app; right; left; reflexivity].
  - intros e. rewrite Hents, I4. unfold ent_spec. split.
    + intros [((o & Ho & Hso) & Hea & Hno)|[He Hlen]].
      * split; [exists o; split; [apply in_or_app; left; exact Ho|exact Hso]|]. split; [exact Hea|].
        intros (x & Hx & Ex). apply in_app_or in Hx as [Hx|[<-|[]]]; [apply Hno; exists x; split; assumption|].
        (* nm ~ e is impossible: e < o < nm *)
        apply (strictly_below_eq_r o e nm) in Hso; [|rewrite name_eqb_sym; exact Ex].
        apply strictly_below_lt in Hso. apply (lt_asym _ _ Hso). apply Hgt. exact Ho.
      * split; [exists nm; split; [apply in_or_app; right; left; reflexivity|]|split].
        -- apply shorter_strictly_below; [exact He|lia].
        -- apply shorter_strictly_below; [|lia]. apply (ends_with_ss nm); [exact He|exact Hz|lia].
        -- intros (x & Hx & Ex). apply in_app_or in Hx as [Hx|[<-|[]]].
           ++ assert (Ea : ends_with nm x = true) by (rewrite (ends_with_eq_r _ _ _ Ex); exact He).
              pose proof (Hdeep x Hx Ea). apply name_eqb_length in Ex. lia.
           ++ apply name_eqb_length in Ex. lia.
    + intros ((o & Ho & Hso) & Hea & Hno).
      assert (Hno' : ~ (exists x, In x done /\ name_eqb x e = true)).
      { intros (x & Hx & Ex). apply Hno. exists x. split; [apply in_or_app; left; exact Hx|exact Ex]. }
      apply in_app_or in Ho as [Ho|[<-|[]]].
      * left. split; [exists o; split; assumption|]. split; assumption.
      * (* e is a proper ancestor of nm *)
        pose proof (strictly_below_length _ _ Hso) as Hl1.
        pose proof (strictly_below_length _ _ Hea) as Hl2.
        destruct Hso as [He _].
        destruct (Nat.lt_ge_cases L (length e)) as [Hlt|Hge]; [right; split; [exact He|lia]|].
        left. unfold L in Hge. destruct kept as [|s r]; [lia|].
        assert (Hs : In s done) by (apply Hsub; left; reflexivity).
        split; [|split; assumption]. exists s. split; [exact Hs|].
        split; [apply (ends_with_ss nm); [exact Hhd|exact He|exact Hge]|].
        destruct (name_eqb s e) eqn:F; [|reflexivity]. exfalso. apply Hno'. exists s. split; assumption.
Qed.

Lemma ent_fold_inv apex : forall todo done st, ent_inv apex done st ->
  StronglySorted (fun a b => name_cmp a b = Lt) (done ++ todo) ->
  (forall d, In d (done ++ todo) -> ends_with d apex = true) ->
  ent_inv apex (done ++ todo) (fold_left (ent_step apex) todo st).
Proof.
  induction todo as [|nm todo IH]; intros done st Hinv Hs Hz; cbn [fold_left].
  - rewrite app_nil_r. exact Hinv.
  - replace (done ++ nm :: todo) with ((done ++ [nm]) ++ todo) in * by (rewrite <- app_assoc; reflexivity).
    apply IH; [|exact Hs|exact Hz].
    apply ent_step_inv; [exact Hinv| | |].
    + intros d Hd. clear -Hs Hd. rewrite <- app_assoc in Hs. cbn [app] in Hs.
      induction done as [|d0 done IHd]; [destruct Hd|]. cbn [app] in Hs.
      apply StronglySorted_inv in Hs as [Hs H0]. destruct Hd as [<-|Hd]; [|apply IHd; assumption].
      rewrite Forall_forall in H0. apply H0. apply in_or_app. right. left. reflexivity.
    + apply Hz. apply in_or_app. left. apply in_or_app. right. left. reflexivity.
    + intros d Hd. apply Hz. apply in_or_app. left. apply in_or_app. left. exact Hd.
Qed.

Theorem ent_fold_spec apex names : StronglySorted (fun a b => name_cmp a b = Lt) names ->
  (forall d, In d names -> ends_with d apex = true) ->
  forall e, ent_mem e (snd (fold_left (ent_step apex) names ([], []))) <-> ent_spec apex names e.
Proof.
  intros Hs Hz. apply (ent_fold_inv apex names [] ([], []) (ent_inv_nil apex) Hs Hz).
Qed.

Local Open Scope N_scope.

Section N3.
Variable H : bytes -> bytes.
Variable apex : name.
Variable c : n3cfg.

Definition hashn (n : name) : bytes := nsec3_hash H n (c_iters c) (c_salt c).

Lemma hashn_eq a b : name_eqb a b = true -> hashn a = hashn b.
Proof. intros E. unfold hashn. apply nsec3_hash_case_insensitive. exact E. Qed.

Definition incl3 (excl : bool) (gc : group * bool) : bool :=
  negb (excl && snd gc && negb (memN rt_DS (snd (fst gc)))).
Definition visited3 (excl : bool) (gs : list group) (cut : option name) : list (group * bool) :=
  filter (incl3 excl) (select apex gs cut).
Definition gname (gc : group * bool) : name := fst (fst gc).

Definition pre_of (gc : group * bool) (p : n3pre) : Prop :=
  p_name p = gname gc /\ p_hash p = hashn (gname gc) /\
  exists bm ttl ttl',
    nsec3_bitmap c (snd gc) (memN rt_DS (snd (fst gc)))
      (length (gname gc) - length apex =? 0)%nat (snd (fst gc)) ttl = Ok (bm, ttl') /\
    p_types p = bm_finalize bm.

Lemma label_dist_ok n d : label_dist n apex = Ok d -> d = (length n - length apex)%nat.
Proof. unfold label_dist. destruct (length n <? length apex)%nat; [discriminate|]. intros E. injection E as <-. reflexivity. Qed.

Lemma mk_pre_ok n bm p : mk_pre H c n bm = Ok p ->
  p_name p = n /\ p_hash p = hashn n /\ p_types p = bm_finalize bm.
Proof. unfold mk_pre. destruct (c_alg c =? nsec3_alg_sha1); [|discriminate]. intros E. injection E as <-. repeat split. Qed.

Lemma n3_loop_spec excl : forall gs cut stack ents ttl acc acc' ents' ttl',
  n3_loop H apex c excl gs cut stack ents ttl acc = Ok (acc', ents', ttl') ->
  exists l, Forall2 pre_of (visited3 excl gs cut) l /\ acc' = rev l ++ acc /\
    ents' = snd (fold_left (ent_step apex) (map gname (visited3 excl gs cut)) (stack, ents)).
Proof.
  unfold visited3.
  induction gs as [|g gs IH]; intros cut stack ents ttl acc acc' ents' ttl' E; cbn [n3_loop select] in *.
  - injection E as <- <- <-. exists []. repeat split. constructor.
  - destruct (negb (is_in_zone apex g)).
    + injection E as <- <- <-. exists []. repeat split. constructor.
    + destruct (below_cut cut (fst g)); [eapply IH; exact E|].
      cbn [filter].
      assert (Ei : incl3 excl (g, is_zone_cut apex g) = negb (excl && is_zone_cut apex g && negb (memN rt_DS (snd g)))) by reflexivity.
      rewrite Ei. clear Ei.
      destruct (excl && is_zone_cut apex g && negb (memN rt_DS (snd g))) eqn:X; cbn [negb].
      * eapply IH. exact E.
      * destruct (pop_until (fst g) stack) as [last stack'] eqn:P.
        apply bind_ok in E as (last_dist & Hld & E).
        apply bind_ok in E as (dta & Hdta & E). apply label_dist_ok in Hdta.
        apply bind_ok in E as ([bm ttl1] & Hbm & E).
        apply bind_ok in E as (p & Hp & E).
        apply IH in E as (l & Hl & Hacc & Hents).
        exists (p :: l). split; [|split].
        -- constructor; [|exact Hl]. apply mk_pre_ok in Hp as (P1 & P2 & P3).
           unfold pre_of, gname. cbn [fst snd]. split; [exact P1|]. split; [exact P2|].
           exists bm, ttl, ttl1. split; [|exact P3]. rewrite <- Hdta. exact Hbm.
        -- rewrite Hacc. cbn [rev]. rewrite <- app_assoc. reflexivity.
        -- rewrite Hents. cbn [map fold_left]. f_equal. f_equal.
           unfold ent_step, gname. cbn [fst snd]. rewrite P.
           assert (Eld : last_dist = match last with Some s => (length s - length apex)%nat | None => O end).
           { destruct last as [s|]; [apply label_dist_ok; exact Hld|injection Hld as <-; reflexivity]. }
           rewrite <- Eld, <- Hdta. reflexivity.
Qed.

Fixpoint ent_recs (es : list name) : outcome (list n3pre) :=
  match es with
  | [] => Ok []
  | e :: es' => do p <- mk_pre H c e []; do ps <- ent_recs es'; Ok (p :: ps)
  end.

Lemma ent_recs_spec es : forall ps, ent_recs es = Ok ps ->
  Forall2 (fun e p => p_hash p = hashn e /\ p_types p = []) es ps.
Proof.
  induction es as [|e es IH]; intros ps E; cbn [ent_recs] in E.
  - injection E as <-. constructor.
  - apply bind_ok in E as (p & Hp & E). apply bind_ok in E as (ps' & Hps & E). injection E as <-.
    constructor; [|apply IH; exact Hps]. apply mk_pre_ok in Hp as (_ & P2 & P3). split; [exact P2|exact P3].
Qed.

Lemma generate_nsec3s_eq z : generate_nsec3s H apex c z =
  do r <- n3_loop H apex c (opt_out_flag c && c_excl c) (groups (skip_before apex z)) None [] [] false [];
  let '(acc, ents, ttl) := r in
  if negb ttl then Err 1 else do entrecs <- ent_recs ents; finish3 (rev acc ++ entrecs).
Proof. reflexivity. Qed.

Lemma generate_nsec3s_unfold z out : generate_nsec3s H apex c z = Ok out ->
  let excl := opt_out_flag c && c_excl c in
  let gs := groups (skip_before apex z) in
  exists l entrecs,
    Forall2 pre_of (visited3 excl gs None) l /\
    Forall2 (fun e p => p_hash p = hashn e /\ p_types p = [])
      (snd (fold_left (ent_step apex) (map gname (visited3 excl gs None)) ([], []))) entrecs /\
    finish3 (l ++ entrecs) = Ok out.
Proof.
  rewrite generate_nsec3s_eq. intros E. cbn zeta.
  apply bind_ok in E as ([[acc ents] ttl] & Hloop & E).
  destruct (negb ttl); [discriminate|].
  apply bind_ok in E as (entrecs & Hent & E).
  apply n3_loop_spec in Hloop as (l & Hl & Hacc & Hents).
  exists l, entrecs. split; [exact Hl|]. split.
  - rewrite <- Hents. apply ent_recs_spec. exact Hent.
  - rewrite Hacc, app_nil_r, rev_involutive in E. exact E.
Qed.

Definition n3_type_set (at_cut has_ds at_apex : bool) (ts : list N) (t : N) : bool :=
  ((negb at_cut || has_ds) && (t =? 46))
  || (memN t ts && (negb at_cut || memN t [2; 43]))
  || (at_apex && ((t =? 51) || (c_dnskey c && (t =? 48)))).

Lemma nsec3_bitmap_inv at_cut has_ds at_apex ts ttl bm ttl' :
  nsec3_bitmap c at_cut has_ds at_apex ts ttl = Ok (bm, ttl') -> Forall (fun t => t < 65536) ts ->
  bs_inv bm /\ forall t, bs_has_type bm t = n3_type_set at_cut has_ds at_apex ts t.
Proof.
  unfold nsec3_bitmap. intros E Hb.
  apply bind_ok in E as ([bm1 ttl1] & Hr & E). destruct ttl1; [|discriminate]. injection E as <- <-.
  cbv [nsec3_auth_type nsec3_cut_types nsec3_apex_always nsec3_apex_cfg] in *.
  set (b0 := if negb at_cut || has_ds then bm_add [] 46 else []) in *.
  assert (I0 : bs_inv b0) by (unfold b0; destruct (negb at_cut || has_ds); [apply bm_add_inv; [apply bs_inv_nil|reflexivity]|apply bs_inv_nil]).
  destruct (rrset_loop_spec _ _ _ _ _ _ _ Hr I0 (rrsets_bound _ Hb)) as (A & B).
  assert (E0 : forall t, bs_has_type b0 t = (negb at_cut || has_ds) && (t =? 46)).
  { intros t. unfold b0. destruct (negb at_cut || has_ds); cbn [andb]; [|reflexivity].
    rewrite bs_has_type_add by apply bs_inv_nil. rewrite bs_has_type_nil. cbn [orb]. apply N.eqb_sym. }
  assert (I51 : bs_inv (bm_add bm1 51)) by (apply bm_add_inv; [exact A|reflexivity]).
  unfold n3_type_set. destruct at_apex; cbn [andb]; [destruct (c_dnskey c); cbn [andb]|].
  - split; [apply bm_add_inv; [exact I51|reflexivity]|]. intros t.
    rewrite bs_has_type_add by exact I51. rewrite bs_has_type_add by exact A. rewrite B, rrsets_fst, E0.
    rewrite (N.eqb_sym 51 t), (N.eqb_sym 48 t). rewrite <- !orb_assoc. reflexivity.
  - split; [exact I51|]. intros t. rewrite bs_has_type_add by exact A. rewrite B, rrsets_fst, E0.
    rewrite (N.eqb_sym 51 t). rewrite orb_false_r. reflexivity.
  - split; [exact A|]. intros t. rewrite B, rrsets_fst, E0. rewrite orb_false_r. reflexivity.
Qed.

End N3.

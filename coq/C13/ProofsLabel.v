(* The hashed owner label decodes back to the hash; the canonical order of the owners
   <base32hex(hash)>.<apex> is the octet order of the hashes (of 5n octets), which is why
   sorting the NSEC3 records by owner is modelled as sorting by hash; SHA-1 (C11) gives the
   RFC 5155 recurrence and 20 octets, so no premise is left. *)
From Coq Require Import NArith ZArith List Bool Lia.
From DV Require Import Base.Outcome Base.Bytes Base.Lex Base.Names C13.ModelLabel C13.ProofsBitmap.
From DV Require C18.Gen C18.Model C18.Proofs C18.ProofsDec32.
Import ListNotations.
Local Open Scope N_scope.

Lemma upper_lower c : C18.Model.upper (lower c) = C18.Model.upper c.
Proof.
  unfold C18.Model.upper, lower.
  destruct ((65 <=? c) && (c <=? 90)) eqn:E1.
  - destruct ((97 <=? c + 32) && (c + 32 <=? 122)) eqn:E2; destruct ((97 <=? c) && (c <=? 122)) eqn:E3; lia.
  - reflexivity.
Qed.

Lemma val32_lower c : C18.Model.val32 (lower c) = C18.Model.val32 c.
Proof. unfold C18.Model.val32. rewrite upper_lower. reflexivity. Qed.

Lemma values_lowers s : C18.Model.values C18.Model.val32 (lowers s) = C18.Model.values C18.Model.val32 s.
Proof.
  induction s as [|c s IH]; [reflexivity|]. unfold lowers in *. cbn [map C18.Model.values].
  rewrite val32_lower, IH. reflexivity.
Qed.

Lemma spec_dec32_lowers s : C18.Model.spec_dec32 (lowers s) = C18.Model.spec_dec32 s.
Proof. unfold C18.Model.spec_dec32, C18.Model.spec_dec_unpadded. rewrite values_lowers. reflexivity. Qed.

Theorem nsec3_label_roundtrip h apex : Forall (fun b => b < 256) h ->
  exists l, nsec3_owner_label h = Ok l /\ c13_label h apex = Ok (l :: apex, h).
Proof.
  intros Hh. destruct (C18.ProofsDec32.b32_decode_encode h Hh) as (t & Hd & Hdec).
  exists (lowers t). unfold c13_label, nsec3_owner_name, nsec3_owner_label, nsec3_hash_of_owner.
  rewrite Hd. cbn [bind]. split; [reflexivity|].
  assert (E : C18.Model.b32_decode (lowers t) = Ok h).
  { apply C18.ProofsDec32.b32_accepts_iff_wellformed. rewrite spec_dec32_lowers.
    apply C18.ProofsDec32.b32_accepts_iff_wellformed. exact Hdec. }
  rewrite E. reflexivity.
Qed.

Example nsec3_label_example :
  (* RFC 5155 appendix A: the hash of example. is 0p9mhaveqvm6t7vbl5lop2u3t2rp3tom *)
  nsec3_owner_label [6;83;104;171;238;215;236;110;159;235;169;107;140;139;195;232;183;145;247;22] =
  Ok [48;112;57;109;104;97;118;101;113;118;109;54;116;55;118;98;108;53;108;111;112;50;117;51;116;50;114;112;51;116;111;109].
Proof. vm_compute. reflexivity. Qed.

(* a digit made of the [n] low bits of [x] and the [p] high bits of the next octet [y] *)
Lemma straddle n p x y : n + p = 5 -> y < 256 ->
  N.lor (N.land (N.shiftl (N.land x (N.ones n)) p) 255) (N.shiftr y (8 - p))
  = (x mod 2 ^ n) * 2 ^ p + y / 2 ^ (8 - p).
Proof.
  intros Hn Hy. rewrite N.land_ones, N.shiftl_mul_pow2, N.shiftr_div_pow2.
  change 255 with (N.ones 8). rewrite N.land_ones.
  assert (P : 2 ^ n * 2 ^ p = 32) by (rewrite <- N.pow_add_r, Hn; reflexivity).
  assert (Q : 2 ^ (8 - p) * 2 ^ p = 256) by (rewrite <- N.pow_add_r; replace (8 - p + p) with 8 by lia; reflexivity).
  assert (Hx : x mod 2 ^ n < 2 ^ n) by (apply N.mod_lt, N.pow_nonzero; discriminate).
  rewrite N.mod_small.
  2:{ apply N.lt_trans with (2 ^ n * 2 ^ p); [|rewrite P; reflexivity].
      apply N.mul_lt_mono_pos_r; [apply N.neq_0_lt_0, N.pow_nonzero; discriminate|exact Hx]. }
  apply lor_mul_pow2_add. apply N.div_lt_upper_bound; [apply N.pow_nonzero; discriminate|lia].
Qed.

Section Chunk.
Variables b0 b1 b2 b3 b4 : N.

Definition digits : list N :=
  [C18.Gen.b32_e0 b0 b1 b2 b3 b4; C18.Gen.b32_e1 b0 b1 b2 b3 b4; C18.Gen.b32_e2 b0 b1 b2 b3 b4; C18.Gen.b32_e3 b0 b1 b2 b3 b4;
   C18.Gen.b32_e4 b0 b1 b2 b3 b4; C18.Gen.b32_e5 b0 b1 b2 b3 b4; C18.Gen.b32_e6 b0 b1 b2 b3 b4; C18.Gen.b32_e7 b0 b1 b2 b3 b4].

Lemma digits_arith : b1 < 256 -> b2 < 256 -> b3 < 256 -> b4 < 256 -> digits =
  [b0 / 8; (b0 mod 8) * 4 + b1 / 64; (b1 mod 64) / 2; (b1 mod 2) * 16 + b2 / 16;
   (b2 mod 16) * 2 + b3 / 128; (b3 mod 128) / 4; (b3 mod 4) * 8 + b4 / 32; b4 mod 32].
Proof.
  intros H1 H2 H3 H4. unfold digits.
  rewrite (straddle 3 2 b0 b1 eq_refl H1 : C18.Gen.b32_e1 b0 b1 b2 b3 b4 = _).
  rewrite (straddle 1 4 b1 b2 eq_refl H2 : C18.Gen.b32_e3 b0 b1 b2 b3 b4 = _).
  rewrite (straddle 4 1 b2 b3 eq_refl H3 : C18.Gen.b32_e4 b0 b1 b2 b3 b4 = _).
  rewrite (straddle 2 3 b3 b4 eq_refl H4 : C18.Gen.b32_e6 b0 b1 b2 b3 b4 = _).
  cbv beta delta [C18.Gen.b32_e0 C18.Gen.b32_e2 C18.Gen.b32_e5 C18.Gen.b32_e7].
  rewrite !N.shiftr_div_pow2.
  change 63 with (N.ones 6). change 127 with (N.ones 7). change 31 with (N.ones 5).
  rewrite !N.land_ones. reflexivity.
Qed.
End Chunk.

Fixpoint val (B : N) (l : list N) : N :=
  match l with [] => 0 | d :: r => d * B ^ N.of_nat (length r) + val B r end.

Lemma val_bound B l : 0 < B -> Forall (fun d => d < B) l -> val B l < B ^ N.of_nat (length l).
Proof.
  intros HB. induction 1 as [|d r Hd Hr IH]; cbn [val length]; [cbn; lia|].
  rewrite Nat2N.inj_succ, N.pow_succ_r'. nia.
Qed.

Lemma lex_val B : 0 < B -> forall l1 l2, length l1 = length l2 ->
  Forall (fun d => d < B) l1 -> Forall (fun d => d < B) l2 -> lex_cmp l1 l2 = (val B l1 ?= val B l2).
Proof.
  intros HB. induction l1 as [|d r IH]; intros [|d' r'] L F1 F2; try discriminate; [reflexivity|].
  cbn [lex_cmp val length] in *. injection L as L. inversion F1; inversion F2; subst.
  pose proof (val_bound B r HB ltac:(assumption)) as V1. pose proof (val_bound B r' HB ltac:(assumption)) as V2.
  rewrite <- L in *. set (P := B ^ N.of_nat (length r)) in *.
  destruct (N.compare_spec d d') as [E|Lt|Gt].
  - subst. rewrite IH by assumption.
    destruct (N.compare_spec (val B r) (val B r')); symmetry; [apply N.compare_eq_iff|apply N.compare_lt_iff|apply N.compare_gt_iff]; lia.
  - symmetry. apply N.compare_lt_iff. nia.
  - symmetry. apply N.compare_gt_iff. nia.
Qed.

(* the digits and the octets of a group carry the same 40 bits at the same weights *)
Lemma regroup q0 r0 q1 m1 r1 q2 r2 q3 m3 r3 q4 r4 :
  val 32 [q0; r0 * 4 + q1; m1; r1 * 16 + q2; r2 * 2 + q3; m3; r3 * 8 + q4; r4] =
  val 256 [8 * q0 + r0; 64 * q1 + 2 * m1 + r1; 16 * q2 + r2; 128 * q3 + 4 * m3 + r3; 32 * q4 + r4].
Proof. cbn -[N.mul N.add]. ring. Qed.

Lemma chunk_value b0 b1 b2 b3 b4 : b0 < 256 -> b1 < 256 -> b2 < 256 -> b3 < 256 -> b4 < 256 ->
  val 32 (digits b0 b1 b2 b3 b4) = val 256 [b0; b1; b2; b3; b4] /\ Forall (fun d => d < 32) (digits b0 b1 b2 b3 b4).
Proof.
  intros H0 H1 H2 H3 H4. rewrite digits_arith by assumption. split.
  - rewrite regroup.
    rewrite <- (split3 b1 32 2 eq_refl eq_refl : b1 = 64 * (b1 / 64) + 2 * (b1 mod 64 / 2) + b1 mod 2).
    rewrite <- (split3 b3 32 4 eq_refl eq_refl : b3 = 128 * (b3 / 128) + 4 * (b3 mod 128 / 4) + b3 mod 4).
    rewrite <- !N.div_mod by discriminate. reflexivity.
  - repeat constructor; zify; Z.div_mod_to_equations; lia.
Qed.

Definition ch (i : N) : N := lower (nth (N.to_nat i) C18.Gen.b32_encode_tab 0).

Lemma ch_mono_all : forallb (fun i => forallb (fun j =>
    match ch i ?= ch j, i ?= j with Eq, Eq | Lt, Lt | Gt, Gt => true | _, _ => false end)
    (map N.of_nat (seq 0 32))) (map N.of_nat (seq 0 32)) = true.
Proof. vm_compute. reflexivity. Qed.

Lemma in_range32 i : i < 32 -> In i (map N.of_nat (seq 0 32)).
Proof. intros H. apply in_map_iff. exists (N.to_nat i). split; [lia|]. apply in_seq. lia. Qed.

Lemma ch_mono i j : i < 32 -> j < 32 -> (ch i ?= ch j) = (i ?= j).
Proof.
  intros Hi Hj. pose proof ch_mono_all as A. rewrite forallb_forall in A.
  specialize (A i (in_range32 i Hi)). rewrite forallb_forall in A. specialize (A j (in_range32 j Hj)).
  destruct (ch i ?= ch j), (i ?= j); congruence.
Qed.

Lemma lex_map_ch l1 : forall l2, Forall (fun d => d < 32) l1 -> Forall (fun d => d < 32) l2 ->
  lex_cmp (map ch l1) (map ch l2) = lex_cmp l1 l2.
Proof.
  induction l1 as [|d r IH]; intros [|d' r'] F1 F2; try reflexivity.
  inversion F1; inversion F2; subst. cbn [map lex_cmp]. rewrite ch_mono by assumption.
  destruct (d ?= d'); try reflexivity. apply IH; assumption.
Qed.

Lemma b32_ch_ok i : i < 32 -> C18.Model.b32_ch i = Ok (nth (N.to_nat i) C18.Gen.b32_encode_tab 0).
Proof.
  intros H. unfold C18.Model.b32_ch, C18.Model.tab_get.
  assert (L : (N.to_nat i < length C18.Gen.b32_encode_tab)%nat) by (cbn; lia).
  rewrite (nth_error_nth' _ 0 L). reflexivity.
Qed.

Fixpoint groups5 (n : nat) (h : list N) : Prop :=
  match n with
  | O => h = []
  | S n' => exists b0 b1 b2 b3 b4 rest, h = b0 :: b1 :: b2 :: b3 :: b4 :: rest /\
              b0 < 256 /\ b1 < 256 /\ b2 < 256 /\ b3 < 256 /\ b4 < 256 /\ groups5 n' rest
  end.

Lemma groups5_of n : forall h, length h = (5 * n)%nat -> Forall (fun b => b < 256) h -> groups5 n h.
Proof.
  induction n as [|n IH]; intros h L F; [destruct h; [reflexivity|discriminate]|].
  destruct h as [|b0 [|b1 [|b2 [|b3 [|b4 rest]]]]]; cbn [length] in L; try lia.
  repeat match goal with H : Forall _ (_ :: _) |- _ => inversion H; clear H; subst end.
  cbn [groups5]. exists b0, b1, b2, b3, b4, rest. repeat split; try assumption. apply IH; [lia|assumption].
Qed.

Fixpoint all_digits (h : list N) : list N :=
  match h with
  | b0 :: b1 :: b2 :: b3 :: b4 :: rest => digits b0 b1 b2 b3 b4 ++ all_digits rest
  | _ => []
  end.

Lemma label_digits n : forall h, groups5 n h ->
  nsec3_owner_label h = Ok (map ch (all_digits h)) /\ Forall (fun d => d < 32) (all_digits h).
Proof.
  induction n as [|n IH]; intros h G; cbn [groups5] in G.
  - subst h. split; constructor.
  - destruct G as (b0 & b1 & b2 & b3 & b4 & rest & -> & H0 & H1 & H2 & H3 & H4 & G).
    destruct (IH rest G) as (E & F). destruct (chunk_value b0 b1 b2 b3 b4 H0 H1 H2 H3 H4) as [_ FD].
    cbn [all_digits]. split.
    + unfold nsec3_owner_label in *. cbn [C18.Model.b32_display].
      unfold digits in FD. repeat match goal with H : Forall _ (_ :: _) |- _ => inversion H; clear H; subst end.
      rewrite !b32_ch_ok by assumption. cbn [bind].
      destruct (C18.Model.b32_display rest) as [r| | |]; try discriminate. cbn [bind] in *. injection E as E.
      f_equal. unfold lowers in *. cbn [map app digits]. rewrite E. reflexivity.
    + apply Forall_app. split; assumption.
Qed.

Lemma all_digits_order n : forall h1 h2, groups5 n h1 -> groups5 n h2 ->
  lex_cmp (all_digits h1) (all_digits h2) = lex_cmp h1 h2.
Proof.
  induction n as [|n IH]; intros h1 h2 G1 G2; cbn [groups5] in G1, G2.
  - subst. reflexivity.
  - destruct G1 as (a0 & a1 & a2 & a3 & a4 & r1 & -> & A0 & A1 & A2 & A3 & A4 & G1).
    destruct G2 as (c0 & c1 & c2 & c3 & c4 & r2 & -> & C0 & C1 & C2 & C3 & C4 & G2).
    cbn [all_digits].
    destruct (chunk_value a0 a1 a2 a3 a4 A0 A1 A2 A3 A4) as [VA FA].
    destruct (chunk_value c0 c1 c2 c3 c4 C0 C1 C2 C3 C4) as [VC FC].
    rewrite lex_cmp_app by reflexivity.
    rewrite (lex_val 32 ltac:(lia) (digits a0 a1 a2 a3 a4) (digits c0 c1 c2 c3 c4) eq_refl FA FC), VA, VC.
    change (a0 :: a1 :: a2 :: a3 :: a4 :: r1) with ([a0; a1; a2; a3; a4] ++ r1).
    change (c0 :: c1 :: c2 :: c3 :: c4 :: r2) with ([c0; c1; c2; c3; c4] ++ r2).
    rewrite (lex_cmp_app [a0; a1; a2; a3; a4] [c0; c1; c2; c3; c4]) by reflexivity.
    rewrite (lex_val 256 ltac:(lia) [a0; a1; a2; a3; a4] [c0; c1; c2; c3; c4] eq_refl) by (repeat constructor; assumption).
    rewrite (IH r1 r2 G1 G2). reflexivity.
Qed.

Lemma labels_cmp_app_same p a b : labels_cmp (p ++ a) (p ++ b) = labels_cmp a b.
Proof.
  induction p as [|x p IH]; [reflexivity|]. cbn [app labels_cmp].
  assert (E : label_cmp x x = Eq) by (unfold label_cmp; apply lex_cmp_refl). rewrite E. exact IH.
Qed.

Lemma name_cmp_first_label l1 l2 apex : name_cmp (l1 :: apex) (l2 :: apex) = lex_cmp (lowers l1) (lowers l2).
Proof.
  unfold name_cmp. cbn [rev]. rewrite labels_cmp_app_same. cbn [labels_cmp]. unfold label_cmp.
  destruct (lex_cmp (lowers l1) (lowers l2)); reflexivity.
Qed.

Lemma lowers_map_ch ds : lowers (map ch ds) = map ch ds.
Proof. unfold lowers. rewrite map_map. apply map_ext. intros d. unfold ch. apply lower_idem. Qed.

Theorem nsec3_owner_order n h1 h2 apex : length h1 = (5 * n)%nat -> length h2 = (5 * n)%nat ->
  Forall (fun b => b < 256) h1 -> Forall (fun b => b < 256) h2 ->
  exists o1 o2, nsec3_owner_name h1 apex = Ok o1 /\ nsec3_owner_name h2 apex = Ok o2 /\
    name_cmp o1 o2 = lex_cmp h1 h2.
Proof.
  intros L1 L2 F1 F2. pose proof (groups5_of n h1 L1 F1) as G1. pose proof (groups5_of n h2 L2 F2) as G2.
  destruct (label_digits n h1 G1) as (E1 & D1). destruct (label_digits n h2 G2) as (E2 & D2).
  unfold nsec3_owner_name. rewrite E1, E2. cbn [bind]. eexists. eexists. split; [reflexivity|]. split; [reflexivity|].
  rewrite name_cmp_first_label, !lowers_map_ch, (lex_map_ch _ _ D1 D2). apply (all_digits_order n); assumption.
Qed.

From DV Require Import C11.Sha C13.Model C13.ProofsNames.

Lemma nb_lt b x k : x < k -> nb b x < 2 * k.
Proof. unfold nb. destruct b; rewrite ?N.succ_double_spec, ?N.double_spec; lia. Qed.

Lemma nb8 b0 b1 b2 b3 b4 b5 b6 b7 : nb b0 (nb b1 (nb b2 (nb b3 (nb b4 (nb b5 (nb b6 (nb b7 0))))))) < 256.
Proof.
  apply (nb_lt _ _ 128), (nb_lt _ _ 64), (nb_lt _ _ 32), (nb_lt _ _ 16), (nb_lt _ _ 8), (nb_lt _ _ 4), (nb_lt _ _ 2), (nb_lt _ _ 1).
  reflexivity.
Qed.

Lemma octets_of_w32_range x : Forall (fun b => b < 256) (octets_of_w32 x).
Proof. destruct x. unfold octets_of_w32. repeat constructor; apply nb8. Qed.

Lemma sha1_range m : Forall (fun b => b < 256) (sha1 m).
Proof. unfold sha1. repeat (apply Forall_app; split); apply octets_of_w32_range. Qed.

Lemma c13_hash_is_sha1 n i s : exists m, c13_hash n i s = sha1 m.
Proof.
  unfold c13_hash. rewrite nsec3_hash_rfc5155. destruct (N.to_nat i); cbn [rfc5155_IH]; eexists; reflexivity.
Qed.

Theorem nsec3_hash_is_rfc5155 n iterations salt :
  c13_hash n iterations salt = rfc5155_IH sha1 salt (wire_abs (canon n)) (N.to_nat iterations) /\
  length (c13_hash n iterations salt) = 20%nat.
Proof.
  split; [apply nsec3_hash_rfc5155|]. destruct (c13_hash_is_sha1 n iterations salt) as (m & ->). apply sha1_length.
Qed.

Theorem nsec3_sha1_owner_order a b i s apex :
  exists o1 o2, nsec3_owner_name (c13_hash a i s) apex = Ok o1 /\ nsec3_owner_name (c13_hash b i s) apex = Ok o2 /\
    name_cmp o1 o2 = lex_cmp (c13_hash a i s) (c13_hash b i s).
Proof.
  destruct (c13_hash_is_sha1 a i s) as (ma & Ea). destruct (c13_hash_is_sha1 b i s) as (mb & Eb).
  rewrite Ea, Eb. apply (nsec3_owner_order 4); try apply sha1_length; apply sha1_range.
Qed.

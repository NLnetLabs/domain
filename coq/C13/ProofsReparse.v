(* Every type bitmap the generators emit -- built from
   RtypeBitmap::builder()'s empty state -- has the RFC 4034 wire layout and is
   accepted by RtypeBitmap::from_octets; the NSEC3 of an empty non-terminal
   carries the empty bitmap. *)
From Coq Require Import List.
From DV Require Import Base.Outcome C13.Model C13.ProofsBitmap C13.ProofsNsec C13.ProofsNsec2 C13.ProofsN3a C13.ProofsN3c C13.ProofsN3d.
Import ListNotations.
Local Open Scope N_scope.

Lemma builder_empty : bm_finalize [] = [] /\ bm_wire_ok None [] /\ bm_from_octets [] = Ok tt /\ bs_inv [].
Proof. repeat split; try constructor. Qed.

Theorem nsec_types_reparse apex z dk out : zone_sorted z -> types_ok z -> generate_nsecs apex dk z = Ok out ->
  forall r, In r out -> bm_wire_ok None (n_types r) /\ bm_from_octets (n_types r) = Ok tt.
Proof.
  intros Hs Ht Ho r Hr. destruct (out_record apex z dk out Ho r Hr) as (g & ttl & ttl' & _ & Hg & _ & _ & Hv).
  destruct (nsec_visit_inv _ _ _ _ _ _ _ Hv (group_types_bound apex z Hs Ht g Hg)) as (bs & -> & I & _).
  apply finalize_reparses. exact I.
Qed.

Theorem nsec3_types_reparse H apex c z out : zone_sorted z -> types_ok z -> generate_nsec3s H apex c z = Ok out ->
  forall r, In r out -> bm_wire_ok None (h_types r) /\ bm_from_octets (h_types r) = Ok tt.
Proof.
  intros Hs Ht Ho r Hr.
  destruct (generate_nsec3s_unfold H apex c z out Ho) as (l & er & Hl & Her & Hf).
  destruct (finish3_spec _ _ Hf) as (_ & _ & _ & _ & F2).
  destruct (F2 r Hr) as (p & Hp & _ & E2).
  rewrite E2. apply in_app_or in Hp as [Hp|Hp].
  - destruct (Forall2_in_r _ _ _ _ Hl Hp) as (gc & Hgc & _ & _ & bm & ttl & ttl' & Hbm & ->).
    destruct (v3_in apex c z gc Hgc) as (Hg & _).
    apply finalize_reparses. eapply nsec3_bitmap_inv; [exact Hbm|apply (group_types_bound apex z Hs Ht _ Hg)].
  - destruct (Forall2_in_r _ _ _ _ Her Hp) as (e & _ & _ & ->). apply (finalize_reparses [] bs_inv_nil).
Qed.

Theorem generated_bitmaps_reparse H apex c dk z : zone_sorted z -> types_ok z ->
  (forall out, generate_nsecs apex dk z = Ok out -> forall r, In r out ->
     bm_wire_ok None (n_types r) /\ bm_from_octets (n_types r) = Ok tt) /\
  (forall out, generate_nsec3s H apex c z = Ok out -> forall r, In r out ->
     bm_wire_ok None (h_types r) /\ bm_from_octets (h_types r) = Ok tt) /\
  bm_finalize [] = [].
Proof.
  intros Hs Ht. split; [|split; [|reflexivity]].
  - intros out Ho. exact (nsec_types_reparse apex z dk out Hs Ht Ho).
  - intros out Ho. exact (nsec3_types_reparse H apex c z out Hs Ht Ho).
Qed.

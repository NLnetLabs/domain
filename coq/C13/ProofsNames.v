(* ends_with (ends_with_rev, "ewr", on reversed names) against the canonical
   order; skip_before and the grouping of sorted records; the NSEC3 hash is the
   RFC 5155 recurrence on the lower-cased owner. *)
From Coq Require Import NArith List Bool Lia Sorted.
From DV Require Import Base.Bytes Base.Names C13.Gen C13.Model.
Import ListNotations.
Local Open Scope N_scope.

Lemma label_eqb_refl a : label_eqb a a = true.
Proof. apply label_eqb_spec. reflexivity. Qed.
Lemma label_eqb_sym a b : label_eqb a b = label_eqb b a.
Proof. apply eq_true_iff_eq. rewrite !label_eqb_spec. split; intros H; symmetry; exact H. Qed.
Lemma label_eqb_trans a b c : label_eqb a b = true -> label_eqb b c = true -> label_eqb a c = true.
Proof. rewrite !label_eqb_spec. congruence. Qed.
Lemma label_eqb_cmp a b : label_eqb a b = true <-> label_cmp a b = Eq.
Proof. symmetry. apply label_cmp_eq. Qed.

Lemma ewr_refl n : ends_with_rev n n = true.
Proof. induction n as [|x n IH]; cbn [ends_with_rev]; [reflexivity|]. rewrite label_eqb_refl. exact IH. Qed.

Lemma ewr_trans a b c : ends_with_rev a b = true -> ends_with_rev b c = true -> ends_with_rev a c = true.
Proof.
  revert a b; induction c as [|z c IH]; intros a b H1 H2; cbn [ends_with_rev]; [reflexivity|].
  destruct b as [|y b]; cbn [ends_with_rev] in H2; [discriminate|].
  destruct (label_eqb y z) eqn:Eyz; [|discriminate].
  destruct a as [|x a]; cbn [ends_with_rev] in H1; [discriminate|].
  destruct (label_eqb x y) eqn:Exy; [|discriminate].
  rewrite (label_eqb_trans _ _ _ Exy Eyz). eapply IH; eassumption.
Qed.

Lemma ewr_cmp a b : ends_with_rev a b = true -> labels_cmp b a <> Gt.
Proof.
  revert a; induction b as [|y b IH]; intros a H; destruct a as [|x a]; cbn [labels_cmp]; try discriminate.
  cbn [ends_with_rev] in H. destruct (label_eqb x y) eqn:E; [|discriminate].
  rewrite label_eqb_sym in E. apply label_eqb_cmp in E. rewrite E. apply IH. exact H.
Qed.

Lemma ewr_eq_len a b : ends_with_rev a b = true -> labels_cmp b a = Eq -> ends_with_rev b a = true.
Proof.
  revert a; induction b as [|y b IH]; intros a H C; destruct a as [|x a]; cbn [labels_cmp] in C;
    try discriminate; [reflexivity|].
  cbn [ends_with_rev] in *. destruct (label_eqb x y) eqn:E; [|discriminate].
  rewrite label_eqb_sym in E. rewrite E. apply label_eqb_cmp in E. rewrite E in C. apply IH; assumption.
Qed.

(* contiguity: b <= g <= x and b prefix of x  =>  b prefix of g *)
Lemma ewr_between b : forall g x, labels_cmp b g <> Gt -> labels_cmp g x <> Gt ->
  ends_with_rev x b = true -> ends_with_rev g b = true.
Proof.
  induction b as [|y b IH]; intros g x H1 H2 H3; cbn [ends_with_rev]; [reflexivity|].
  destruct x as [|x0 x]; cbn [ends_with_rev] in H3; [discriminate|].
  destruct (label_eqb x0 y) eqn:Exy; [|discriminate].
  destruct g as [|g0 g]; cbn [labels_cmp] in H1; [congruence|].
  cbn [labels_cmp] in H2.
  destruct (label_cmp y g0) eqn:C1; try congruence.
  - (* y ~ g0 *)
    apply label_eqb_cmp in C1. rewrite label_eqb_sym in C1. rewrite C1.
    destruct (label_cmp g0 x0) eqn:C2; try congruence.
    + eapply IH; eassumption.
    + (* g0 < x0 but g0 ~ y ~ x0 *)
      exfalso. rewrite label_eqb_sym in Exy.
      assert (E : label_eqb g0 x0 = true) by (eapply label_eqb_trans; [exact C1|exact Exy]).
      apply label_eqb_cmp in E. congruence.
  - (* y < g0: then g0 <= x0 ~ y contradiction *)
    exfalso. apply label_eqb_cmp in Exy.
    (* label_cmp g0 x0 = label_cmp g0 y by Exy *)
    rewrite (label_cmp_eq_subst_r g0 x0 y Exy) in H2.
    rewrite (label_cmp_antisym y g0), C1 in H2. cbn [CompOpp] in H2.
    apply H2. reflexivity.
Qed.

Lemma ends_with_refl n : ends_with n n = true.
Proof. apply ewr_refl. Qed.
Lemma ends_with_trans a b c : ends_with a b = true -> ends_with b c = true -> ends_with a c = true.
Proof. apply ewr_trans. Qed.
Lemma ends_with_le n b : ends_with n b = true -> name_cmp b n <> Gt.
Proof. apply ewr_cmp. Qed.
Lemma ends_with_between b g x : name_cmp b g <> Gt -> name_cmp g x <> Gt ->
  ends_with x b = true -> ends_with g b = true.
Proof. apply ewr_between. Qed.

Lemma name_eqb_cmp a b : name_eqb a b = true <-> name_cmp a b = Eq.
Proof. symmetry. apply name_cmp_eq_iff. Qed.
Lemma name_eqb_refl a : name_eqb a a = true.
Proof. exact (Names.name_eqb_refl a). Qed.
Lemma name_eqb_trans a b c : name_eqb a b = true -> name_eqb b c = true -> name_eqb a c = true.
Proof. rewrite !name_eqb_spec. congruence. Qed.

Lemma labels_cmp_eq_l a : forall b c, labels_cmp a b = Eq -> labels_cmp a c = labels_cmp b c.
Proof.
  induction a as [|x a IH]; intros [|y b] [|z c] H; cbn [labels_cmp] in *; try discriminate; try reflexivity.
  destruct (label_cmp x y) eqn:E; try discriminate. rewrite (label_cmp_eq_subst_l _ _ _ E).
  destruct (label_cmp y z); auto.
Qed.

Lemma name_cmp_eq_l a b c : name_eqb a b = true -> name_cmp a c = name_cmp b c.
Proof. intros H. apply labels_cmp_eq_l, name_eqb_cmp, H. Qed.
Lemma name_cmp_eq_r a b c : name_eqb a b = true -> name_cmp c a = name_cmp c b.
Proof.
  intros H. rewrite (name_cmp_antisym a c), (name_cmp_antisym b c).
  rewrite (name_cmp_eq_l a b c H). reflexivity.
Qed.

Lemma name_cmp_le_trans a b c : name_cmp a b <> Gt -> name_cmp b c <> Gt -> name_cmp a c <> Gt.
Proof.
  intros H1 H2 H3.
  destruct (name_cmp a b) eqn:E1; try congruence.
  - apply name_eqb_cmp in E1. rewrite (name_cmp_eq_l _ _ _ E1) in H3. congruence.
  - destruct (name_cmp b c) eqn:E2; try congruence.
    + apply name_eqb_cmp in E2. rewrite <- (name_cmp_eq_r _ _ a E2) in H3. congruence.
    + rewrite (name_cmp_trans _ _ _ _ E1 E2) in H3. discriminate.
Qed.
Lemma name_cmp_lt_le_trans a b c : name_cmp a b = Lt -> name_cmp b c <> Gt -> name_cmp a c = Lt.
Proof.
  intros H1 H2. destruct (name_cmp b c) eqn:E2; try congruence.
  - apply name_eqb_cmp in E2. rewrite <- (name_cmp_eq_r _ _ a E2). exact H1.
  - eapply name_cmp_trans; eassumption.
Qed.
Lemma name_cmp_le_lt_trans a b c : name_cmp a b <> Gt -> name_cmp b c = Lt -> name_cmp a c = Lt.
Proof.
  intros H1 H2. destruct (name_cmp a b) eqn:E1; try congruence.
  - apply name_eqb_cmp in E1. rewrite (name_cmp_eq_l _ _ _ E1). exact H2.
  - eapply name_cmp_trans; eassumption.
Qed.
Lemma name_cmp_lt_gt a b : name_cmp a b = Lt -> name_cmp b a = Gt.
Proof. intros H. rewrite name_cmp_antisym, H. reflexivity. Qed.

Lemma ends_with_both a b : ends_with a b = true -> ends_with b a = true -> name_eqb a b = true.
Proof.
  intros H1 H2. apply ends_with_le in H1. apply ends_with_le in H2.
  apply name_eqb_cmp. destruct (name_cmp a b) eqn:E; try congruence.
  rewrite name_cmp_antisym, E in H1. cbn in H1. congruence.
Qed.

Lemma ewr_eq_l a a' b : labels_cmp a a' = Eq -> ends_with_rev a b = ends_with_rev a' b.
Proof.
  revert a a'; induction b as [|y b IH]; intros a a' H; cbn [ends_with_rev]; [reflexivity|].
  destruct a as [|x a], a' as [|x' a']; cbn [labels_cmp] in H; try discriminate; [reflexivity|].
  destruct (label_cmp x x') eqn:C; try discriminate.
  apply label_eqb_cmp in C.
  destruct (label_eqb x y) eqn:E1, (label_eqb x' y) eqn:E2; auto.
  - rewrite label_eqb_sym in C. rewrite (label_eqb_trans _ _ _ C E1) in E2. discriminate.
  - rewrite (label_eqb_trans _ _ _ C E2) in E1. discriminate.
Qed.
Lemma ewr_eq_r a b b' : labels_cmp b b' = Eq -> ends_with_rev a b = ends_with_rev a b'.
Proof.
  revert a b'; induction b as [|y b IH]; intros a b' H; destruct b' as [|y' b']; cbn [labels_cmp] in H;
    try discriminate; [reflexivity|].
  destruct (label_cmp y y') eqn:C; try discriminate. apply label_eqb_cmp in C.
  cbn [ends_with_rev]. destruct a as [|x a]; [reflexivity|].
  destruct (label_eqb x y) eqn:E1, (label_eqb x y') eqn:E2; auto.
  - rewrite (label_eqb_trans _ _ _ E1 C) in E2. discriminate.
  - rewrite label_eqb_sym in C. rewrite (label_eqb_trans _ _ _ E2 C) in E1. discriminate.
Qed.
Lemma ends_with_eq_l a a' b : name_eqb a a' = true -> ends_with a b = ends_with a' b.
Proof. intros H. apply ewr_eq_l. apply name_eqb_cmp in H. exact H. Qed.
Lemma ends_with_eq_r a b b' : name_eqb b b' = true -> ends_with a b = ends_with a b'.
Proof. intros H. apply ewr_eq_r. apply name_eqb_cmp in H. exact H. Qed.
Lemma name_eqb_ends_with a b : name_eqb a b = true -> ends_with a b = true.
Proof. intros H. rewrite (ends_with_eq_l _ _ _ H). apply ends_with_refl. Qed.

Lemma strictly_below_lt n c : strictly_below n c -> name_cmp c n = Lt.
Proof.
  intros [H1 H2]. pose proof (ends_with_le _ _ H1) as L.
  destruct (name_cmp c n) eqn:E; try congruence.
  apply name_eqb_cmp in E. rewrite name_eqb_sym in E. congruence.
Qed.

Definition owners_lt (a b : group) : Prop := name_cmp (fst a) (fst b) = Lt.

Definition group_ok (l : list rec) (g : group) : Prop :=
  (exists t, In (fst g, t) l) /\ (forall t, In t (snd g) <-> has_type l (fst g) t).

Lemma has_type_cons n t l o x :
  has_type ((n, t) :: l) o x <-> (name_eqb n o = true /\ x = t) \/ has_type l o x.
Proof.
  unfold has_type. split.
  - intros (m & [E|Hin] & Hm); [injection E as -> ->; left; split; [exact Hm|reflexivity]|right; eauto].
  - intros [[He ->]|(m & Hin & Hm)]; [exists n; split; [left; reflexivity|exact He]|].
    exists m. split; [right; exact Hin|exact Hm].
Qed.

Lemma has_type_cons_ne n t l o x : name_eqb n o = false ->
  (has_type ((n, t) :: l) o x <-> has_type l o x).
Proof. intros Hne. rewrite has_type_cons, Hne. intuition discriminate. Qed.

Lemma has_type_cons_eq n t l o x : name_eqb n o = true ->
  (has_type ((n, t) :: l) o x <-> x = t \/ has_type l o x).
Proof. intros He. rewrite has_type_cons, He. intuition. Qed.

Lemma has_type_eq_name l a b t : name_eqb a b = true -> (has_type l a t <-> has_type l b t).
Proof.
  intros H. unfold has_type. split; intros (m & Hin & Hm); exists m; split; auto.
  - eapply name_eqb_trans; eassumption.
  - rewrite name_eqb_sym in H. eapply name_eqb_trans; eassumption.
Qed.

Lemma group_ok_cons_ne n t l g : name_eqb n (fst g) = false -> group_ok l g -> group_ok ((n, t) :: l) g.
Proof.
  intros Hne [[t0 H0] H1]. split; [exists t0; right; exact H0|].
  intros x. rewrite has_type_cons_ne by exact Hne. apply H1.
Qed.

Lemma lt_not_eqb a b : name_cmp a b = Lt -> name_eqb a b = false.
Proof.
  intros H. destruct (name_eqb a b) eqn:E; [|reflexivity].
  apply name_eqb_cmp in E. congruence.
Qed.
Lemma lt_not_eqb' a b : name_cmp a b = Lt -> name_eqb b a = false.
Proof. intros H. rewrite name_eqb_sym. apply lt_not_eqb. exact H. Qed.

Lemma le_neq_lt a b : name_cmp a b <> Gt -> name_eqb b a = false -> name_cmp a b = Lt.
Proof.
  intros H1 H2. destruct (name_cmp a b) eqn:E; try congruence.
  apply name_eqb_cmp in E. rewrite name_eqb_sym in E. congruence.
Qed.

Lemma groups_from_spec l : forall first,
  (forall r, In r l -> name_cmp first (fst r) <> Gt) -> zone_sorted l ->
  (forall t, In t (fst (groups_from first l)) <-> has_type l first t) /\
  Forall (fun g => name_cmp first (fst g) = Lt /\ group_ok l g) (snd (groups_from first l)) /\
  StronglySorted owners_lt (snd (groups_from first l)) /\
  (forall n t, In (n, t) l -> name_eqb n first = true \/
     exists g, In g (snd (groups_from first l)) /\ name_eqb n (fst g) = true).
Proof.
  induction l as [|[n t] l IH]; intros first Hge Hs.
  - cbn [groups_from fst snd]. split; [|split; [|split]].
    + intros t. split; [intros []|intros (m & [] & _)].
    + constructor.
    + constructor.
    + intros n t [].
  - apply StronglySorted_inv in Hs as [Hs' Hhd]. cbn [groups_from].
    destruct (name_eqb n first) eqn:En.
    + (* same owner *)
      assert (Hge' : forall r, In r l -> name_cmp first (fst r) <> Gt)
        by (intros r Hr; apply Hge; right; exact Hr).
      destruct (IH first Hge' Hs') as (A & B & C & D).
      destruct (groups_from first l) as [ts gs]. cbn [fst snd] in *.
      split; [|split; [|split]].
      * intros x. rewrite has_type_cons_eq by exact En. cbn [In]. rewrite A. intuition congruence.
      * eapply Forall_impl; [|exact B]. cbn beta. intros g [G1 G2]. split; [exact G1|].
        apply group_ok_cons_ne; [|exact G2].
        destruct (name_eqb n (fst g)) eqn:E; [|reflexivity].
        rewrite name_eqb_sym in En. pose proof (name_eqb_trans _ _ _ En E) as F.
        apply name_eqb_cmp in F. congruence.
      * exact C.
      * intros n' t' [E|Hin]; [injection E as <- <-; left; exact En|apply D with t'; exact Hin].
    + (* new owner *)
      assert (Hlt : name_cmp first n = Lt).
      { apply le_neq_lt; [apply (Hge (n, t)); left; reflexivity|exact En]. }
      assert (Hge' : forall r, In r l -> name_cmp n (fst r) <> Gt).
      { intros r Hr. rewrite Forall_forall in Hhd. apply (Hhd r Hr). }
      destruct (IH n Hge' Hs') as (A & B & C & D).
      destruct (groups_from n l) as [ts gs]. cbn [fst snd] in *.
      split; [|split; [|split]].
      * intros x. split; [intros []|].
        intros (m & Hin & Hm). exfalso.
        assert (Hfm : name_cmp first m = Lt).
        { destruct Hin as [E|Hin]; [injection E as <- <-; exact Hlt|].
          eapply name_cmp_lt_le_trans; [exact Hlt|apply (Hge' (m, x) Hin)]. }
        apply lt_not_eqb' in Hfm. congruence.
      * constructor.
        -- cbn [fst snd]. split; [exact Hlt|]. split; [exists t; left; reflexivity|].
           intros x. cbn [fst snd]. rewrite has_type_cons_eq by apply name_eqb_refl. cbn [In]. rewrite A.
           intuition congruence.
        -- eapply Forall_impl; [|exact B]. cbn beta. intros g [G1 G2]. split.
           ++ eapply name_cmp_trans; eassumption.
           ++ apply group_ok_cons_ne; [apply lt_not_eqb; exact G1|exact G2].
      * constructor; [exact C|]. eapply Forall_impl; [|exact B]. cbn beta. intros g [G1 _]. exact G1.
      * intros n' t' [E|Hin].
        -- injection E as <- <-. right. exists (n, t :: ts). split; [left; reflexivity|apply name_eqb_refl].
        -- destruct (D n' t' Hin) as [E|(g & Hg & Eg)].
           ++ right. exists (n, t :: ts). split; [left; reflexivity|exact E].
           ++ right. exists g. split; [right; exact Hg|exact Eg].
Qed.

Lemma groups_cons n t l :
  groups ((n, t) :: l) = (n, fst (groups_from n ((n, t) :: l))) :: snd (groups_from n ((n, t) :: l)).
Proof. cbn [groups groups_from]. rewrite name_eqb_refl. destruct (groups_from n l). reflexivity. Qed.

Theorem groups_spec z : zone_sorted z ->
  Forall (group_ok z) (groups z) /\ StronglySorted owners_lt (groups z) /\
  (forall n t, In (n, t) z -> exists g, In g (groups z) /\ name_eqb n (fst g) = true) /\
  (match z with [] => groups z = [] | (n, _) :: _ => exists ts gs, groups z = (n, ts) :: gs end).
Proof.
  intros Hs. destruct z as [|[n t] l].
  - split; [constructor|]. split; [constructor|]. split; [intros n t []|reflexivity].
  - assert (Hge : forall r, In r ((n, t) :: l) -> name_cmp n (fst r) <> Gt).
    { intros r [<-|Hr]; [cbn [fst]; rewrite name_cmp_refl; discriminate|].
      apply StronglySorted_inv in Hs as [_ Hhd]. rewrite Forall_forall in Hhd. apply (Hhd r Hr). }
    destruct (groups_from_spec _ n Hge Hs) as (A & B & C & D). rewrite groups_cons.
    split; [|split; [|split]].
    + constructor; [split; [exists t; left; reflexivity|exact A]|].
      eapply Forall_impl; [|exact B]. intros g [_ G]. exact G.
    + constructor; [exact C|]. eapply Forall_impl; [|exact B]. intros g [G _]. exact G.
    + intros n' t' Hin. destruct (D n' t' Hin) as [E|(g & Hg & Eg)].
      * eexists. split; [left; reflexivity|exact E].
      * exists g. split; [right; exact Hg|exact Eg].
    + eauto.
Qed.

Lemma skip_cond apex n : (name_eqb apex n || ends_with n apex) = ends_with n apex.
Proof.
  destruct (name_eqb apex n) eqn:E; [|reflexivity]. cbn [orb].
  rewrite name_eqb_sym in E. symmetry. apply name_eqb_ends_with. exact E.
Qed.

Lemma skip_before_spec apex z :
  exists pre, z = pre ++ skip_before apex z /\
    (forall r, In r pre -> ends_with (fst r) apex = false) /\
    (match skip_before apex z with [] => True | r :: _ => ends_with (fst r) apex = true end).
Proof.
  induction z as [|[n t] z IH]; cbn [skip_before].
  - exists []. repeat split. intros r [].
  - rewrite skip_cond. destruct (ends_with n apex) eqn:E.
    + exists []. repeat split; [intros r []|exact E].
    + destruct IH as (pre & H1 & H2 & H3). exists ((n, t) :: pre). split; [cbn [app]; congruence|].
      split; [|exact H3]. intros r [<-|Hr]; [exact E|apply H2; exact Hr].
Qed.

Lemma sorted_app_r {A} (R : A -> A -> Prop) (a b : list A) : StronglySorted R (a ++ b) -> StronglySorted R b.
Proof.
  induction a as [|x a IH]; cbn [app]; intros H; [exact H|].
  apply StronglySorted_inv in H as [H _]. apply IH. exact H.
Qed.

Lemma skip_before_sorted apex z : zone_sorted z -> zone_sorted (skip_before apex z).
Proof.
  intros H. destruct (skip_before_spec apex z) as (pre & E & _). unfold zone_sorted in *.
  rewrite E in H. eapply sorted_app_r. exact H.
Qed.

Lemma skip_before_has_type apex z n t : in_zone apex n ->
  (has_type (skip_before apex z) n t <-> has_type z n t).
Proof.
  intros Hz. destruct (skip_before_spec apex z) as (pre & E & Hpre & _).
  unfold has_type. split; intros (m & Hin & Hm).
  - exists m. split; [rewrite E; apply in_or_app; right; exact Hin|exact Hm].
  - exists m. split; [|exact Hm]. rewrite E in Hin. apply in_app_or in Hin as [Hin|Hin]; [|exact Hin].
    exfalso. specialize (Hpre _ Hin). cbn [fst] in Hpre.
    unfold in_zone in Hz. rewrite <- (ends_with_eq_l _ _ _ Hm) in Hz. congruence.
Qed.

Lemma hash_rounds_IH H salt x k m :
  hash_rounds H salt k (rfc5155_IH H salt x m) = rfc5155_IH H salt x (k + m).
Proof.
  revert m; induction k as [|k IHk]; intros m; cbn [hash_rounds]; [reflexivity|].
  cbv [hash_salt_after_data].
  change (H (rfc5155_IH H salt x m ++ salt)) with (rfc5155_IH H salt x (S m)).
  rewrite IHk. f_equal. lia.
Qed.

Theorem nsec3_hash_rfc5155 H n iterations salt :
  nsec3_hash H n iterations salt = rfc5155_IH H salt (wire_abs (canon n)) (N.to_nat iterations).
Proof.
  unfold nsec3_hash. cbv [hash_salt_after_data hash_iter_from hash_owner_lowercased].
  change (H (wire_abs (canon n) ++ salt)) with (rfc5155_IH H salt (wire_abs (canon n)) 0).
  rewrite hash_rounds_IH. f_equal. lia.
Qed.

Example nsec3_hash_example :
  (* RFC 5155 appendix A: H(example) with salt aabbccdd and 12 iterations =
     0p9mhaveqvm6t7vbl5lop2u3t2rp3tom *)
  c13_hash [[101;120;97;109;112;108;101]] 12 [170;187;204;221] =
  [6;83;104;171;238;215;236;110;159;235;169;107;140;139;195;232;183;145;247;22].
Proof. vm_compute. reflexivity. Qed.

(* the hash takes the canonical (lower-cased) owner: names that differ in case
   only hash alike, whatever representation they come in *)

Theorem nsec3_hash_canonical H n iterations salt :
  nsec3_hash H n iterations salt = nsec3_hash H (canon n) iterations salt.
Proof. rewrite !nsec3_hash_rfc5155, canon_idem. reflexivity. Qed.

Theorem nsec3_hash_case_insensitive H a b iterations salt : name_eqb a b = true ->
  nsec3_hash H a iterations salt = nsec3_hash H b iterations salt.
Proof. intros E. apply name_eqb_spec in E. rewrite !nsec3_hash_rfc5155, E. reflexivity. Qed.

Theorem nsec3_hash_canonical_both H a b iterations salt :
  nsec3_hash H a iterations salt = nsec3_hash H (canon a) iterations salt /\
  (name_eqb a b = true -> nsec3_hash H a iterations salt = nsec3_hash H b iterations salt).
Proof. split; [apply nsec3_hash_canonical|apply nsec3_hash_case_insensitive]. Qed.

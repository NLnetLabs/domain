(* C13 -- property theorems only.  Proofs live in C13/Proofs*.v. *)
From Coq Require Import NArith List Sorted.
From DV Require Import Base.Outcome Base.Bytes Base.Lex Base.Names C11.Sha C13.Gen C13.Model
  C13.ProofsBitmap C13.ProofsNames C13.ProofsNsec2 C13.ProofsDeny C13.ProofsN3c C13.ProofsN3d C13.ProofsN3e C13.ProofsDedup C13.ProofsTtl C13.ModelLabel C13.ProofsLabel C13.ProofsIter C13.ProofsTtl3 C13.ProofsReparse C13.ProofsW.
Import ListNotations.
Local Open Scope N_scope.

Theorem C13_bitmap_roundtrip : forall ts t, Forall (fun x => x < 65536) ts ->
  exists b, bm_contains (bm_finalize (bm_adds [] ts)) t = Ok b /\ (b = true <-> In t ts).
Proof. exact bitmap_roundtrip. Qed.
Print Assumptions C13_bitmap_roundtrip.

Theorem C13_bitmap_wire_layout : forall ts, Forall (fun x => x < 65536) ts ->
  bm_wire_ok None (bm_finalize (bm_adds [] ts)).
Proof. exact bitmap_wire_layout. Qed.
Print Assumptions C13_bitmap_wire_layout.

Theorem C13_nsec_one_per_auth_name : forall apex z dk out,
  zone_sorted z -> generate_nsecs apex dk z = Ok out ->
  (forall n, auth_name apex z n <-> exists r, In r out /\ name_eqb (n_owner r) n = true) /\
  StronglySorted (fun a b => name_eqb (n_owner a) (n_owner b) = false) out.
Proof. exact nsec_one_per_auth_name. Qed.
Print Assumptions C13_nsec_one_per_auth_name.

Theorem C13_nsec_sorted_canonical : forall apex z dk out,
  zone_sorted z -> generate_nsecs apex dk z = Ok out ->
  StronglySorted (fun a b => name_cmp (n_owner a) (n_owner b) = Lt) out.
Proof. exact (fun apex z dk out Hs Ho => nsec_sorted apex z Hs dk out Ho). Qed.
Print Assumptions C13_nsec_sorted_canonical.

Theorem C13_nsec_closed : forall apex z dk out,
  generate_nsecs apex dk z = Ok out -> out <> [] ->
  map n_next out = tl (map n_owner out) ++ [apex].
Proof. exact nsec_closed. Qed.
Print Assumptions C13_nsec_closed.

Theorem C13_nsec_bitmap_exact : forall apex z dk out,
  zone_sorted z -> types_ok z -> generate_nsecs apex dk z = Ok out ->
  forall r, In r out -> forall t,
  exists b, bm_contains (n_types r) t = Ok b /\
    (b = true <->
     t = 46 \/ t = 47 \/ (dk = true /\ name_eqb (n_owner r) apex = true /\ t = 48) \/
     (has_type z (n_owner r) t /\ (deleg apex z (n_owner r) -> t = 2 \/ t = 43))).
Proof. exact (fun apex z dk out Hs Ht Ho => nsec_bitmap_exact apex z Hs dk out Ho Ht). Qed.
Print Assumptions C13_nsec_bitmap_exact.

Theorem C13_nsec_denies : forall apex z dk out,
  zone_sorted z -> types_ok z -> generate_nsecs apex dk z = Ok out -> owner_in z apex ->
  forall n t, in_zone apex n -> ~ has_type z n t -> t <> 46 -> t <> 47 ->
    ~ (dk = true /\ name_eqb n apex = true /\ t = 48) ->
    exists r, In r out /\
      ((name_eqb (n_owner r) n = true /\ bm_contains (n_types r) t = Ok false) \/ nsec_covers r n).
Proof. exact nsec_denies. Qed.
Print Assumptions C13_nsec_denies.

Theorem C13_nsec_no_panic : forall apex dk z, no_panic (generate_nsecs apex dk z).
Proof. exact nsec_no_panic. Qed.
Print Assumptions C13_nsec_no_panic.

Theorem C13_nsec_total : forall apex dk z, zone_sorted z -> has_type z apex 6 ->
  Forall soa_ok (groups (skip_before apex z)) -> exists out, generate_nsecs apex dk z = Ok out.
Proof. exact nsec_total. Qed.
Print Assumptions C13_nsec_total.

Theorem C13_nsec3_no_panic : forall H apex c z, zone_sorted z -> no_panic (generate_nsec3s H apex c z).
Proof. exact nsec3_no_panic. Qed.
Print Assumptions C13_nsec3_no_panic.

Theorem C13_nsec3_hash_is_rfc5155 : forall n iterations salt,
  c13_hash n iterations salt = rfc5155_IH sha1 salt (wire_abs (canon n)) (N.to_nat iterations) /\
  length (c13_hash n iterations salt) = 20%nat.
Proof. exact nsec3_hash_is_rfc5155. Qed.
Print Assumptions C13_nsec3_hash_is_rfc5155.

Theorem C13_nsec3_sorted_closed_ring : forall H apex c z out,
  generate_nsec3s H apex c z = Ok out ->
  StronglySorted (fun a b => lex_cmp (h_owner a) (h_owner b) = Lt) out /\ out <> [] /\
  map h_next out = tl (map h_owner out) ++ [hd [] (map h_owner out)].
Proof. exact nsec3_sorted_closed'. Qed.
Print Assumptions C13_nsec3_sorted_closed_ring.

Theorem C13_nsec3_one_per_auth_name_and_ent : forall H apex c z out,
  zone_sorted z -> generate_nsec3s H apex c z = Ok out ->
  forall x, (exists r, In r out /\ h_owner r = x) <->
    (exists n, (included apex z (optout_excl c) n \/ ent3 apex z (optout_excl c) n) /\
               x = nsec3_hash H n (c_iters c) (c_salt c)).
Proof. exact nsec3_owners'. Qed.
Print Assumptions C13_nsec3_one_per_auth_name_and_ent.

Theorem C13_nsec3_bitmap_exact : forall H apex c z out, zone_sorted z -> types_ok z ->
  generate_nsec3s H apex c z = Ok out -> forall r, In r out ->
  exists n, h_owner r = nsec3_hash H n (c_iters c) (c_salt c) /\
   ((included apex z (optout_excl c) n /\ forall t,
       exists b, bm_contains (h_types r) t = Ok b /\
         (b = true <->
          (t = 46 /\ (deleg apex z n -> has_type z n 43)) \/
          (name_eqb n apex = true /\ (t = 51 \/ (c_dnskey c = true /\ t = 48))) \/
          (has_type z n t /\ (deleg apex z n -> t = 2 \/ t = 43))))
    \/ (ent3 apex z (optout_excl c) n /\ h_types r = [])).
Proof. exact (fun H apex c z out Hs Ht Ho => nsec3_bitmap_exact H apex c z Hs out Ho Ht). Qed.
Print Assumptions C13_nsec3_bitmap_exact.

Theorem C13_nsec3_denies : forall H apex c z out,
  zone_sorted z -> types_ok z -> generate_nsec3s H apex c z = Ok out ->
  (forall a b, hashn H c a = hashn H c b -> name_eqb a b = true) ->
  forall n t, ~ has_type z n t -> t <> 46 ->
    ~ (name_eqb n apex = true /\ (t = 51 \/ (c_dnskey c = true /\ t = 48))) ->
    exists r, In r out /\
      ((h_owner r = hashn H c n /\ bm_contains (h_types r) t = Ok false) \/ h3_covers r (hashn H c n)).
Proof. exact nsec3_denies. Qed.
Print Assumptions C13_nsec3_denies.

Theorem C13_sorted_records_keep_types : forall l o x,
  has_type (strip (sr_dedup l)) o x <-> has_type (strip l) o x.
Proof. exact sorted_records_keep_types. Qed.
Print Assumptions C13_sorted_records_keep_types.

Theorem C13_nsec_ttl_class_erasure : forall apex dk z out, generate_nsecs_t apex dk z = Ok out ->
  generate_nsecs apex dk (map trec_strip z) = Ok (map tn_rec out).
Proof. exact nsec_t_erasure. Qed.
Print Assumptions C13_nsec_ttl_class_erasure.

Theorem C13_nsec_ttl_class_from_soa : forall apex dk z out, generate_nsecs_t apex dk z = Ok out ->
  forall x, In x out ->
  exists s, In s z /\ t_type s = 6 /\ tn_ttl x = N.min (t_min s) (t_ttl s) /\ tn_class x = t_class s.
Proof. exact nsec_t_ttl_class. Qed.
Print Assumptions C13_nsec_ttl_class_from_soa.

Theorem C13_nsec_no_panic_uniform_ttl : forall apex dk z,
  rrset_ttls_uniform z -> no_panic (generate_nsecs_t apex dk z).
Proof. exact nsec_t_no_panic. Qed.
Print Assumptions C13_nsec_no_panic_uniform_ttl.

Theorem C13_nsec_mixed_ttl_rrset_panics_refuted : rrset_new_expects_ttls = true ->
  exists apex dk z, zone_sorted (map trec_strip z) /\ ~ rrset_ttls_uniform z /\ generate_nsecs_t apex dk z = Panic 7.
Proof. exact nsec_mixed_ttl_rrset_panics. Qed.
Print Assumptions C13_nsec_mixed_ttl_rrset_panics_refuted.

Theorem C13_sorted_records_sorted_and_complete : forall l,
  zone_sorted (strip (sorted_records l)) /\
  forall o x, has_type (strip (sorted_records l)) o x <-> has_type (strip l) o x.
Proof. exact sorted_records_sorted_and_complete. Qed.
Print Assumptions C13_sorted_records_sorted_and_complete.

Theorem C13_sorted_records_nsec_end_to_end : forall l apex dk out,
  generate_nsecs apex dk (strip (sorted_records l)) = Ok out ->
  (forall n, auth_name apex (strip l) n <-> exists r, In r out /\ name_eqb (n_owner r) n = true) /\
  StronglySorted (fun a b => name_cmp (n_owner a) (n_owner b) = Lt) out /\
  (out <> [] -> map n_next out = tl (map n_owner out) ++ [apex]).
Proof. exact sorted_records_nsec_owners. Qed.
Print Assumptions C13_sorted_records_nsec_end_to_end.

Theorem C13_nsec3_owner_label_roundtrip : forall h apex, Forall (fun b => b < 256) h ->
  exists l, nsec3_owner_label h = Ok l /\ c13_label h apex = Ok (l :: apex, h).
Proof. exact nsec3_label_roundtrip. Qed.
Print Assumptions C13_nsec3_owner_label_roundtrip.

Theorem C13_bitmap_iter_exact : forall ts, Forall (fun x => x < 65536) ts ->
  exists l, bm_iter (bm_finalize (bm_adds [] ts)) = Ok l /\ StronglySorted N.lt l /\
    forall t, t < 65536 -> (In t l <-> In t ts).
Proof. exact bitmap_iter_exact. Qed.
Print Assumptions C13_bitmap_iter_exact.

Theorem C13_nsec3_ttl_class_erasure : forall H apex c m z o, generate_nsec3s_t H apex c m z = Ok o ->
  generate_nsec3s H apex c (map trec_strip z) = Ok (map fst (o_recs o)).
Proof. exact nsec3_t_erasure. Qed.
Print Assumptions C13_nsec3_ttl_class_erasure.

Theorem C13_nsec3_ttl_class_from_soa : forall H apex c m z o, generate_nsec3s_t H apex c m z = Ok o ->
  (forall x, In x (o_recs o) -> exists s, In s z /\ t_type s = 6 /\ snd x = N.min (t_min s) (t_ttl s)) /\
  (exists s, In s z /\ t_type s = 6 /\
     o_param_ttl o = match m with PFixed t => t | PSoa => t_ttl s | PSoaMin => t_min s end /\
     o_class o = if nsec3_class_fixed then 1 else t_class s).
Proof. exact nsec3_t_ttl_class. Qed.
Print Assumptions C13_nsec3_ttl_class_from_soa.

Theorem C13_nsec3_ttl_model_no_panic : forall H apex c m z,
  zone_sorted (map trec_strip z) -> rrset_ttls_uniform z -> no_panic (generate_nsec3s_t H apex c m z).
Proof. exact nsec3_t_no_panic. Qed.
Print Assumptions C13_nsec3_ttl_model_no_panic.

Theorem C13_nsec3param_record : forall H apex c m z o, generate_nsec3s_t H apex c m z = Ok o ->
  exists s, In s z /\ t_type s = 6 /\
    nsec3param_record apex c o =
      (apex, (if nsec3_class_fixed then 1 else t_class s),
       match m with PFixed t => t | PSoa => t_ttl s | PSoaMin => t_min s end,
       (c_alg c, c_flags c, c_iters c, c_salt c)).
Proof. exact nsec3param_record_spec. Qed.
Print Assumptions C13_nsec3param_record.

Theorem C13_bitmap_reparses : forall ts, Forall (fun x => x < 65536) ts ->
  bm_from_octets (bm_finalize (bm_adds [] ts)) = Ok tt.
Proof. exact bitmap_reparses. Qed.
Print Assumptions C13_bitmap_reparses.

Theorem C13_sorted_records_class : forall l,
  StronglySorted (fun a b => fst a <= fst b) (cr_sort l) /\
  (forall k, Forall (fun x => fst x = k) l -> map snd (sorted_records_c l) = sorted_records (map snd l)).
Proof. exact sorted_records_class. Qed.
Print Assumptions C13_sorted_records_class.

Theorem C13_nsec3_owner_order : forall n h1 h2 apex, length h1 = (5 * n)%nat -> length h2 = (5 * n)%nat ->
  Forall (fun b => b < 256) h1 -> Forall (fun b => b < 256) h2 ->
  exists o1 o2, nsec3_owner_name h1 apex = Ok o1 /\ nsec3_owner_name h2 apex = Ok o2 /\
    name_cmp o1 o2 = lex_cmp h1 h2.
Proof. exact nsec3_owner_order. Qed.
Print Assumptions C13_nsec3_owner_order.

Theorem C13_sorted_records_entry_points : forall ops,
  zone_sorted (strip (sr_run ops)) /\
  forall o t, has_type (strip (sr_run ops)) o t <-> has_type (strip (sr_input ops)) o t.
Proof. exact sorted_records_entry_points. Qed.
Print Assumptions C13_sorted_records_entry_points.

Theorem C13_any_sort : forall l v, Permutation.Permutation v l -> cmp_sorted v ->
  zone_sorted (strip (sr_dedup v)) /\
  (unknown_eq_checks_rtype = true -> forall o x, has_type (strip (sr_dedup v)) o x <-> has_type (strip l) o x).
Proof. exact any_sort_spec. Qed.
Print Assumptions C13_any_sort.

Theorem C13_any_sort_nsec_end_to_end : forall l v apex dk out, Permutation.Permutation v l -> cmp_sorted v ->
  generate_nsecs apex dk (strip (sr_dedup v)) = Ok out ->
  (forall n, auth_name apex (strip l) n <-> exists r, In r out /\ name_eqb (n_owner r) n = true) /\
  StronglySorted (fun a b => name_cmp (n_owner a) (n_owner b) = Lt) out.
Proof. exact any_sort_nsec_end_to_end. Qed.
Print Assumptions C13_any_sort_nsec_end_to_end.

Theorem C13_nsec3_hash_canonical : forall H a b iterations salt,
  nsec3_hash H a iterations salt = nsec3_hash H (canon a) iterations salt /\
  (name_eqb a b = true -> nsec3_hash H a iterations salt = nsec3_hash H b iterations salt).
Proof. exact nsec3_hash_canonical_both. Qed.
Print Assumptions C13_nsec3_hash_canonical.

Theorem C13_generated_bitmaps_reparse : forall H apex c dk z,
  zone_sorted z -> types_ok z ->
  (forall out, generate_nsecs apex dk z = Ok out -> forall r, In r out ->
     bm_wire_ok None (n_types r) /\ bm_from_octets (n_types r) = Ok tt) /\
  (forall out, generate_nsec3s H apex c z = Ok out -> forall r, In r out ->
     bm_wire_ok None (h_types r) /\ bm_from_octets (h_types r) = Ok tt) /\
  bm_finalize [] = [].
Proof. exact generated_bitmaps_reparse. Qed.
Print Assumptions C13_generated_bitmaps_reparse.

Theorem C13_nsec3_sha1_owner_order : forall a b i s apex,
  exists o1 o2, nsec3_owner_name (c13_hash a i s) apex = Ok o1 /\ nsec3_owner_name (c13_hash b i s) apex = Ok o2 /\
    name_cmp o1 o2 = lex_cmp (c13_hash a i s) (c13_hash b i s).
Proof. exact nsec3_sha1_owner_order. Qed.
Print Assumptions C13_nsec3_sha1_owner_order.

Theorem C13_nsec_apex_first_cycle : forall apex z dk out,
  zone_sorted z -> owner_in z apex -> generate_nsecs apex dk z = Ok out ->
  (exists r rest, out = r :: rest /\ name_eqb (n_owner r) apex = true /\
                  n_next (last out r) = apex) /\
  (forall r, In r out -> exists r', In r' out /\ name_eqb (n_owner r') (n_next r) = true).
Proof. exact nsec_apex_first_cycle. Qed.
Print Assumptions C13_nsec_apex_first_cycle.

Theorem C13_nsec3_ring_permutation : forall H apex c z out, generate_nsec3s H apex c z = Ok out ->
  NoDup (map h_owner out) /\ Permutation.Permutation (map h_next out) (map h_owner out) /\
  (forall r, In r out -> exists r', In r' out /\ h_owner r' = h_next r) /\
  (forall r, In r out -> exists r', In r' out /\ h_next r' = h_owner r).
Proof. exact nsec3_ring_permutation. Qed.
Print Assumptions C13_nsec3_ring_permutation.

Theorem C13_sorted_records_nsec3_end_to_end : forall H l apex c out,
  generate_nsec3s H apex c (strip (sorted_records l)) = Ok out ->
  (forall x, (exists r, In r out /\ h_owner r = x) <->
     (exists n, (included apex (strip l) (optout_excl c) n \/ ent3 apex (strip l) (optout_excl c) n) /\
                x = nsec3_hash H n (c_iters c) (c_salt c))) /\
  StronglySorted (fun a b => lex_cmp (h_owner a) (h_owner b) = Lt) out /\
  map h_next out = tl (map h_owner out) ++ [hd [] (map h_owner out)] /\
  no_panic (generate_nsec3s H apex c (strip (sorted_records l))).
Proof. exact sorted_records_nsec3_end_to_end. Qed.
Print Assumptions C13_sorted_records_nsec3_end_to_end.

Theorem C13_nsec3_denies_local : forall H apex c z out,
  zone_sorted z -> types_ok z -> generate_nsec3s H apex c z = Ok out ->
  forall n,
  (forall a, included apex z (optout_excl c) a -> hashn H c a = hashn H c n -> name_eqb a n = true) ->
  forall t, ~ has_type z n t -> t <> 46 ->
    ~ (name_eqb n apex = true /\ (t = 51 \/ (c_dnskey c = true /\ t = 48))) ->
    exists r, In r out /\
      ((h_owner r = hashn H c n /\ bm_contains (h_types r) t = Ok false) \/ h3_covers r (hashn H c n)).
Proof. exact nsec3_denies_local. Qed.
Print Assumptions C13_nsec3_denies_local.

Theorem C13_sorted_records_denies : forall H l apex dk c,
  types_ok (strip l) ->
  (forall out, generate_nsecs apex dk (strip (sorted_records l)) = Ok out -> owner_in (strip l) apex ->
     forall n t, in_zone apex n -> ~ has_type (strip l) n t -> t <> 46 -> t <> 47 ->
       ~ (dk = true /\ name_eqb n apex = true /\ t = 48) ->
       exists r, In r out /\
         ((name_eqb (n_owner r) n = true /\ bm_contains (n_types r) t = Ok false) \/ nsec_covers r n)) /\
  (forall out, generate_nsec3s H apex c (strip (sorted_records l)) = Ok out ->
     forall n,
     (forall a, included apex (strip l) (optout_excl c) a -> hashn H c a = hashn H c n -> name_eqb a n = true) ->
     forall t, ~ has_type (strip l) n t -> t <> 46 ->
       ~ (name_eqb n apex = true /\ (t = 51 \/ (c_dnskey c = true /\ t = 48))) ->
       exists r, In r out /\
         ((h_owner r = hashn H c n /\ bm_contains (h_types r) t = Ok false) \/ h3_covers r (hashn H c n))).
Proof. exact sorted_records_denies. Qed.
Print Assumptions C13_sorted_records_denies.

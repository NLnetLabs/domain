(* The NSEC chain denies every absent (name, type); generate_nsecs never panics,
   and succeeds on a zone with one SOA at the apex; a worked zone. *)
From Coq Require Import ZArith List Bool Lia Sorted.
From DV Require Import Base.Outcome Base.Names C13.Gen C13.Model C13.ProofsNames C13.ProofsNsec2.
Import ListNotations.
Local Open Scope N_scope.

(* RFC 4035 5.4 / 3.1.3.2: the NSEC's owner is before the name and its next
   name is after it, or the NSEC is the last one of the chain *)
Definition nsec_covers (r : nsec) (n : name) : Prop :=
  name_cmp (n_owner r) n = Lt /\
  (name_cmp n (n_next r) = Lt \/ name_cmp (n_next r) (n_owner r) <> Gt).

(* walking along a chain whose first key is not above [k]: the last element whose key is not above [k] *)
Lemma chain_search {A K} (key : A -> K) (cmp : K -> K -> comparison)
  (cmp_antisym : forall a b, cmp b a = CompOpp (cmp a b)) k : forall l : list A,
  (match l with [] => False | h :: _ => cmp (key h) k <> Gt end) ->
  exists pre r post, l = pre ++ r :: post /\ cmp (key r) k <> Gt /\
    match post with [] => True | r' :: _ => cmp k (key r') = Lt end.
Proof.
  induction l as [|h t IH]; intros Hh; [destruct Hh|].
  destruct t as [|h' t'].
  - exists [], h, []. repeat split. exact Hh.
  - assert (Next : cmp (key h') k <> Gt -> exists pre r post, h :: h' :: t' = pre ++ r :: post /\
               cmp (key r) k <> Gt /\ match post with [] => True | r' :: _ => cmp k (key r') = Lt end).
    { intros Hh'. destruct (IH Hh') as (pre & r & post & E1 & E2 & E3).
      exists (h :: pre), r, post. rewrite E1. repeat split; assumption. }
    destruct (cmp (key h') k) eqn:E; [apply Next; discriminate|apply Next; discriminate|].
    exists [], h, (h' :: t'). repeat split; [exact Hh|]. rewrite cmp_antisym, E. reflexivity.
Qed.

Lemma next_of_split {A B} (key next : A -> B) x : forall pre (l : list A) r post,
  map next l = tl (map key l) ++ [x] -> l = pre ++ r :: post ->
  next r = match post with [] => x | r' :: _ => key r' end.
Proof.
  induction pre as [|p pre IH]; intros l r post H E; subst l.
  - cbn [app map tl] in H. destruct post as [|r' post]; cbn [map app] in H; congruence.
  - cbn [app] in H. destruct (pre ++ r :: post) as [|y rest] eqn:F; [destruct pre; discriminate|].
    apply (IH (y :: rest) r post); [|symmetry; exact F].
    cbn [map tl app] in *. injection H as _ H. exact H.
Qed.

Lemma apex_auth apex z : owner_in z apex -> auth_name apex z apex.
Proof.
  intros Ho. split; [exact Ho|]. split; [apply ends_with_refl|].
  intros (c & (Hcz & Hcne & _) & [Hb _]).
  rewrite (ends_with_both c apex Hcz Hb) in Hcne. discriminate.
Qed.

Lemma nsec_head_apex apex z dk r rest : zone_sorted z -> owner_in z apex ->
  generate_nsecs apex dk z = Ok (r :: rest) -> name_eqb (n_owner r) apex = true.
Proof.
  intros Hs Hapex Hout. pose proof (nsec_owners apex z Hs dk _ Hout) as Howners.
  destruct (proj1 (Howners apex) (apex_auth apex z Hapex)) as (r0 & [<-|Hin] & E0); [exact E0|exfalso].
  (* an NSEC after the first one is not the apex's: the first owner is in the zone *)
  pose proof (nsec_sorted apex z Hs dk _ Hout) as Hsorted.
  apply StronglySorted_inv in Hsorted as [_ Hh]. rewrite Forall_forall in Hh.
  specialize (Hh r0 Hin). unfold name_lt in Hh. rewrite (name_cmp_eq_r _ _ (n_owner r) E0) in Hh.
  assert (A : auth_name apex z (n_owner r)) by (apply Howners; exists r; split; [left; reflexivity|apply name_eqb_refl]).
  destruct A as (_ & Hz & _). apply ends_with_le in Hz. rewrite name_cmp_antisym, Hh in Hz. apply Hz. reflexivity.
Qed.

Theorem nsec_denies apex z dk out :
  zone_sorted z -> types_ok z -> generate_nsecs apex dk z = Ok out -> owner_in z apex ->
  forall n t, in_zone apex n -> ~ has_type z n t -> t <> 46 -> t <> 47 ->
    ~ (dk = true /\ name_eqb n apex = true /\ t = 48) ->
    exists r, In r out /\
      ((name_eqb (n_owner r) n = true /\ bm_contains (n_types r) t = Ok false) \/ nsec_covers r n).
Proof.
  intros Hs Ht Hout Hapex n t Hz Hno H46 H47 H48.
  pose proof (nsec_owners apex z Hs dk out Hout) as Howners.
  assert (Hge : forall r, In r out -> name_cmp apex (n_owner r) <> Gt).
  { intros r Hr. apply ends_with_le.
    assert (A : auth_name apex z (n_owner r)) by (apply Howners; exists r; split; [exact Hr|apply name_eqb_refl]).
    apply A. }
  assert (Hn : name_cmp apex n <> Gt) by (apply ends_with_le; exact Hz).
  assert (Hhead : match out with [] => False | h :: _ => name_cmp (n_owner h) n <> Gt end).
  { destruct out as [|h tl].
    - destruct (proj1 (Howners apex) (apex_auth apex z Hapex)) as (r0 & [] & _).
    - rewrite (name_cmp_eq_l _ _ n (nsec_head_apex apex z dk h tl Hs Hapex Hout)). exact Hn. }
  destruct (chain_search n_owner name_cmp name_cmp_antisym n out Hhead) as (pre & r & post & E & Hle & Hpost).
  assert (Hr : In r out) by (rewrite E; apply in_or_app; right; left; reflexivity).
  exists r. split; [exact Hr|].
  destruct (name_cmp (n_owner r) n) eqn:C; [| |congruence].
  - left. apply name_eqb_cmp in C. split; [exact C|].
    destruct (nsec_bitmap_exact apex z Hs dk out Hout Ht r Hr t) as (b & Hb & Hiff).
    rewrite Hb. f_equal. destruct b; [|reflexivity]. exfalso.
    destruct Hiff as [Hiff _]. destruct (Hiff eq_refl) as [H|[H|[(H1 & H2 & H3)|[H _]]]]; try contradiction.
    + apply H48. split; [exact H1|]. split; [|exact H3].
      rewrite name_eqb_sym in C. eapply name_eqb_trans; eassumption.
    + apply Hno. apply (has_type_eq_name z _ _ t C). exact H.
  - right. split; [exact C|].
    assert (Hne : out <> []) by (intros ->; destruct Hr).
    rewrite (next_of_split n_owner n_next apex pre out r post (nsec_closed apex z dk out Hout Hne) E).
    destruct post as [|r' post]; [right; apply Hge; exact Hr|left; exact Hpost].
Qed.

Lemma rrset_loop_cases at_cut cts : forall rs bm ttl,
  (exists bm' ttl', rrset_loop at_cut cts rs bm ttl = Ok (bm', ttl') /\ (ttl = true -> ttl' = true)) \/
  rrset_loop at_cut cts rs bm ttl = Err 1.
Proof.
  induction rs as [|[t c] rs IH]; intros bm ttl; cbn [rrset_loop].
  - left. eauto.
  - destruct (t =? rt_SOA).
    + destruct (soa_max_len <? c)%nat; [right; reflexivity|].
      destruct (IH (if negb at_cut || memN t cts then bm_add bm t else bm) true) as [(bm' & ttl' & E & Hm)|E];
        [left|right; exact E]. exists bm', ttl'. split; [exact E|]. intros _. apply Hm. reflexivity.
    + apply IH.
Qed.

Lemma nsec_visit_cases apex dk at_cut g ttl :
  (exists bm, nsec_visit apex dk at_cut g ttl = Ok (bm, true)) \/
  nsec_visit apex dk at_cut g ttl = Err 1.
Proof.
  unfold nsec_visit.
  match goal with |- context [rrset_loop ?a ?b ?c ?d ?e] =>
    destruct (rrset_loop_cases a b c d e) as [(bm' & ttl' & E & _)|E]; rewrite E end; cbn [bind].
  - destruct ttl'; [left; eauto|right; reflexivity].
  - right. reflexivity.
Qed.

Lemma nsec_loop_no_panic apex dk : forall gs cut prev ttl acc,
  (prev <> None -> ttl = true) -> no_panic (nsec_loop apex dk gs cut prev ttl acc).
Proof.
  assert (F : forall prev ttl acc, (prev <> None -> ttl = true) -> no_panic (nsec_finish apex prev ttl acc)).
  { intros prev ttl acc H. unfold nsec_finish. destruct prev as [[pn bm]|]; [|exact I].
    rewrite H by discriminate. exact I. }
  induction gs as [|g gs IH]; intros cut prev ttl acc H; cbn [nsec_loop]; [apply F; exact H|].
  destruct (negb (is_in_zone apex g)); [apply F; exact H|].
  destruct (below_cut cut (fst g)); [apply IH; exact H|].
  destruct prev as [[pn bm]|].
  - rewrite H by discriminate. cbn [bind].
    destruct (nsec_visit_cases apex dk (is_zone_cut apex g) g true) as [(bm' & E)|E]; rewrite E; cbn [bind];
      [apply IH; reflexivity|exact I].
  - cbn [bind].
    destruct (nsec_visit_cases apex dk (is_zone_cut apex g) g ttl) as [(bm' & E)|E]; rewrite E; cbn [bind];
      [apply IH; reflexivity|exact I].
Qed.

Theorem nsec_no_panic apex dk z : no_panic (generate_nsecs apex dk z).
Proof. unfold generate_nsecs. apply nsec_loop_no_panic. intros H. congruence. Qed.

(* non-vacuity: a zone with a secure and an insecure delegation, glue
   after the last authoritative name, an occluded name, a name differing in
   case, and a record outside the zone *)
Definition ex_apex : name := [[101; 120]].                       (* ex. *)
Definition ex_zone : list rec :=
  [ ([[101; 120]], 2); ([[101; 120]], 6);                        (* ex. NS SOA *)
    ([[65]; [101; 120]], 1); ([[97]; [69; 88]], 16);             (* A.ex. A, a.EX. TXT *)
    ([[115]; [101; 120]], 2); ([[115]; [101; 120]], 43);         (* s.ex. NS DS *)
    ([[122]; [101; 120]], 1); ([[122]; [101; 120]], 2);          (* z.ex. A NS *)
    ([[103]; [122]; [101; 120]], 1);                             (* g.z.ex. A (glue) *)
    ([[122; 122]], 1) ].                                         (* zz. A (outside) *)

Example ex_zone_nsec :
  generate_nsecs ex_apex true ex_zone = Ok
    [ mk_nsec [[101; 120]] [[65]; [101; 120]] [0; 7; 34; 0; 0; 0; 0; 3; 128];
      mk_nsec [[65]; [101; 120]] [[115]; [101; 120]] [0; 6; 64; 0; 128; 0; 0; 3];
      mk_nsec [[115]; [101; 120]] [[122]; [101; 120]] [0; 6; 32; 0; 0; 0; 0; 19];
      mk_nsec [[122]; [101; 120]] [[101; 120]] [0; 6; 32; 0; 0; 0; 0; 3] ].
Proof. vm_compute. reflexivity. Qed.

Example ex_zone_sorted : zone_sorted ex_zone.
Proof. unfold zone_sorted, ex_zone. repeat (constructor; [|repeat (constructor; [vm_compute; discriminate|]); constructor]). constructor. Qed.

Example ex_zone_no_soa : generate_nsecs ex_apex true (tl (tl ex_zone)) = Err 1.
Proof. vm_compute. reflexivity. Qed.

Lemma sorted_weaken {A} (R S : A -> A -> Prop) (l : list A) :
  (forall a b, R a b -> S a b) -> StronglySorted R l -> StronglySorted S l.
Proof.
  intros H. induction 1 as [|a l _ IH F]; constructor; [exact IH|].
  eapply Forall_impl; [|exact F]. intros b. apply H.
Qed.

Theorem nsec_one_per_auth_name apex z dk out :
  zone_sorted z -> generate_nsecs apex dk z = Ok out ->
  (forall n, auth_name apex z n <-> exists r, In r out /\ name_eqb (n_owner r) n = true) /\
  StronglySorted (fun a b => name_eqb (n_owner a) (n_owner b) = false) out.
Proof.
  intros Hs Ho. split; [exact (nsec_owners apex z Hs dk out Ho)|].
  eapply sorted_weaken; [|exact (nsec_sorted apex z Hs dk out Ho)].
  intros a b Hab. apply lt_not_eqb. exact Hab.
Qed.

(* the example zone: its four NSECs are the four authoritative names, and
   the glue name g.z.ex. / type AAAA is covered by the last NSEC *)
Example ex_zone_denies :
  exists r, In r [ mk_nsec [[122]; [101; 120]] [[101; 120]] [0; 6; 32; 0; 0; 0; 0; 3] ] /\
            nsec_covers r [[103]; [122]; [101; 120]].
Proof. eexists. split; [left; reflexivity|]. split; [vm_compute; reflexivity|right; vm_compute; discriminate]. Qed.

(* totality on well-formed zones: a SOA at the apex, no owner with two SOA records *)
Definition soa_ok (g : group) : Prop := (count_occ N.eq_dec (snd g) rt_SOA <= 1)%nat.

Lemma rrsets_count ts : forall t c, In (t, c) (rrsets ts) -> (c <= count_occ N.eq_dec ts t)%nat.
Proof.
  induction ts as [|x r IH]; intros t c Hin; cbn [rrsets] in Hin; [destruct Hin|].
  destruct (rrsets r) as [|[t' c'] rs] eqn:E.
  - destruct Hin as [Hin|[]]. injection Hin as <- <-. cbn [count_occ]. destruct (N.eq_dec x x); [lia|congruence].
  - destruct (N.eqb_spec t' x) as [->|Hne].
    + destruct Hin as [Hin|Hin].
      * injection Hin as <- <-. cbn [count_occ]. destruct (N.eq_dec x x); [|congruence].
        specialize (IH x c' (or_introl eq_refl)). lia.
      * specialize (IH t c (or_intror Hin)). cbn [count_occ]. destruct (N.eq_dec x t); lia.
    + destruct Hin as [Hin|Hin].
      * injection Hin as <- <-. cbn [count_occ]. destruct (N.eq_dec x x); [lia|congruence].
      * specialize (IH t c Hin). cbn [count_occ]. destruct (N.eq_dec x t); lia.
Qed.

Lemma rrset_loop_total at_cut cts : forall rs bm ttl,
  (forall c, In (rt_SOA, c) rs -> (c <= 1)%nat) ->
  exists bm' ttl', rrset_loop at_cut cts rs bm ttl = Ok (bm', ttl') /\
    (ttl = true \/ memN rt_SOA (map fst rs) = true -> ttl' = true).
Proof.
  induction rs as [|[t c] rs IH]; intros bm ttl Hc; cbn [rrset_loop].
  - exists bm, ttl. split; [reflexivity|]. intros [E|E]; [exact E|discriminate].
  - assert (Hc' : forall c0, In (rt_SOA, c0) rs -> (c0 <= 1)%nat) by (intros c0 H0; apply Hc; right; exact H0).
    destruct (N.eqb_spec t rt_SOA) as [->|Hne].
    + cbv [soa_max_len]. destruct (Nat.ltb_spec 1 c) as [Hgt|_].
      * specialize (Hc c (or_introl eq_refl)). lia.
      * destruct (IH (if negb at_cut || memN rt_SOA cts then bm_add bm rt_SOA else bm) true Hc') as (bm' & ttl' & E & Hm).
        exists bm', ttl'. split; [exact E|]. intros _. apply Hm. left. reflexivity.
    + destruct (IH (if negb at_cut || memN t cts then bm_add bm t else bm) ttl Hc') as (bm' & ttl' & E & Hm).
      exists bm', ttl'. split; [exact E|]. intros [X|X]; apply Hm; [left; exact X|right].
      cbn [map fst] in X. unfold memN in *. cbn [existsb] in X.
      destruct (N.eqb_spec t rt_SOA); [congruence|exact X].
Qed.

Lemma nsec_visit_total apex dk at_cut g ttl : soa_ok g -> (ttl = true \/ In rt_SOA (snd g)) ->
  exists bm, nsec_visit apex dk at_cut g ttl = Ok (bm, true).
Proof.
  intros Hs Ht. unfold nsec_visit.
  match goal with |- context [rrset_loop ?a ?b ?c ?d ?e] =>
    destruct (rrset_loop_total a b c d e) as (bm' & ttl' & E & Hm) end.
  - intros c Hc. apply rrsets_count in Hc. unfold soa_ok in Hs. lia.
  - rewrite E. cbn [bind]. rewrite Hm; [eauto|].
    destruct Ht as [X|X]; [left; exact X|right]. rewrite rrsets_fst. apply memN_In. exact X.
Qed.

Lemma nsec_loop_total apex dk : forall gs cut prev acc, Forall soa_ok gs ->
  exists out, nsec_loop apex dk gs cut prev true acc = Ok out.
Proof.
  induction gs as [|g gs IH]; intros cut prev acc Hs; cbn [nsec_loop].
  - unfold nsec_finish. destruct prev as [[pn bm]|]; eauto.
  - inversion Hs as [|? ? Hg Hs']; subst.
    destruct (negb (is_in_zone apex g)); [unfold nsec_finish; destruct prev as [[pn bm]|]; eauto|].
    destruct (below_cut cut (fst g)); [apply IH; exact Hs'|].
    destruct (nsec_visit_total apex dk (is_zone_cut apex g) g true Hg (or_introl eq_refl)) as (bm & E).
    destruct prev as [[pn pbm]|]; cbn [bind]; rewrite E; cbn [bind]; apply IH; exact Hs'.
Qed.

Theorem nsec_total apex dk z : zone_sorted z -> has_type z apex rt_SOA ->
  Forall soa_ok (groups (skip_before apex z)) ->
  exists out, generate_nsecs apex dk z = Ok out.
Proof.
  intros Hs Hsoa Hok. unfold generate_nsecs.
  assert (Hz : in_zone apex apex) by apply ends_with_refl.
  destruct (group_of_name apex z Hs apex rt_SOA Hsoa Hz) as (g0 & Hg0 & Eg0).
  pose proof (gs_sorted apex z Hs) as Hsorted. pose proof (gs_ge_apex apex z Hs) as Hge.
  destruct (groups (skip_before apex z)) as [|h gs] eqn:Egs; [destruct Hg0|].
  (* the head is the apex group *)
  assert (Eh : name_eqb (fst h) apex = true).
  { destruct Hg0 as [<-|Hin]; [exact Eg0|].
    apply StronglySorted_inv in Hsorted as [_ Hh]. rewrite Forall_forall in Hh. specialize (Hh g0 Hin).
    unfold owners_lt in Hh. rewrite (name_cmp_eq_r _ _ (fst h) Eg0) in Hh.
    exfalso. apply (Hge h (or_introl eq_refl)). rewrite name_cmp_antisym, Hh. reflexivity. }
  assert (Hzh : is_in_zone apex h = true) by (unfold is_in_zone; apply name_eqb_ends_with; exact Eh).
  assert (Hsoah : In rt_SOA (snd h)).
  { assert (Hh : In h (groups (skip_before apex z))) by (rewrite Egs; left; reflexivity).
    apply (group_types apex z Hs h Hh Hzh). apply (has_type_eq_name z apex (fst h) rt_SOA); [rewrite name_eqb_sym; exact Eh|exact Hsoa]. }
  inversion Hok as [|? ? Hh Hok']; subst.
  cbn [nsec_loop]. rewrite Hzh. cbn [negb below_cut bind].
  destruct (nsec_visit_total apex dk (is_zone_cut apex h) h false Hh (or_intror Hsoah)) as (bm & E).
  rewrite E. cbn [bind]. apply nsec_loop_total. exact Hok'.
Qed.

Example ex_zone_total : Forall soa_ok (groups (skip_before ex_apex ex_zone)) /\ has_type ex_zone ex_apex rt_SOA.
Proof.
  split.
  - vm_compute. repeat constructor.
  - exists [[101; 120]]. split; [right; left; reflexivity|reflexivity].
Qed.

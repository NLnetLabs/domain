(* generate_nsecs as "select the visited groups, then link them": which groups are
   selected, against occlusion at the level of groups. *)
From Coq Require Import List Sorted.
From DV Require Import Base.Outcome Base.Bytes Base.Names C13.Model C13.ProofsNames.
Import ListNotations.
Local Open Scope N_scope.

Fixpoint select (apex : name) (gs : list group) (cut : option name) : list (group * bool) :=
  match gs with
  | [] => []
  | g :: gs' =>
      if negb (is_in_zone apex g) then []
      else if below_cut cut (fst g) then select apex gs' cut
      else let c := is_zone_cut apex g in
           (g, c) :: select apex gs' (if c then Some (fst g) else None)
  end.

Fixpoint link (apex : name) (l : list (name * bytes)) : list nsec :=
  match l with
  | [] => []
  | (n, b) :: r => mk_nsec n (match r with [] => apex | (n', _) :: _ => n' end) b :: link apex r
  end.

Definition visited (apex : name) (dk : bool) (gc : group * bool) (nb : name * bytes) : Prop :=
  fst nb = fst (fst gc) /\
  exists ttl ttl', nsec_visit apex dk (snd gc) (fst gc) ttl = Ok (snd nb, ttl').

Lemma nsec_finish_link apex prev ttl acc out : nsec_finish apex prev ttl acc = Ok out ->
  out = rev acc ++ link apex (match prev with Some p => [p] | None => [] end).
Proof.
  unfold nsec_finish. destruct prev as [[pn bm]|].
  - destruct ttl; [|discriminate]. intros E. injection E as <-. cbn [rev link]. reflexivity.
  - intros E. injection E as <-. cbn [link]. rewrite app_nil_r. reflexivity.
Qed.

Lemma nsec_loop_link apex dk : forall gs cut prev ttl acc out,
  nsec_loop apex dk gs cut prev ttl acc = Ok out ->
  exists l, Forall2 (visited apex dk) (select apex gs cut) l /\
    out = rev acc ++ link apex (match prev with Some p => [p] | None => [] end ++ l).
Proof.
  induction gs as [|g gs IH]; intros cut prev ttl acc out H; cbn [nsec_loop select] in *.
  - exists []. split; [constructor|]. rewrite app_nil_r. apply nsec_finish_link with ttl. exact H.
  - destruct (negb (is_in_zone apex g)).
    + exists []. split; [constructor|]. rewrite app_nil_r. apply nsec_finish_link with ttl. exact H.
    + destruct (below_cut cut (fst g)); [apply IH with ttl; exact H|].
      apply bind_ok in H as (acc' & Hacc & H).
      apply bind_ok in H as ([bm ttl'] & Hv & H).
      apply IH in H as (l & Hl & Hout).
      exists ((fst g, bm) :: l). split.
      * constructor; [|exact Hl]. split; [reflexivity|]. exists ttl, ttl'. exact Hv.
      * rewrite Hout. destruct prev as [[pn pbm]|].
        -- destruct ttl; [|discriminate]. injection Hacc as <-. cbn [rev app link].
           rewrite <- app_assoc. reflexivity.
        -- injection Hacc as <-. reflexivity.
Qed.

Lemma link_owner apex l : map n_owner (link apex l) = map fst l.
Proof. induction l as [|[n b] l IH]; cbn [link map]; [reflexivity|]. cbn [n_owner fst]. f_equal. exact IH. Qed.

Lemma link_next apex l : l <> [] -> map n_next (link apex l) = tl (map fst l) ++ [apex].
Proof.
  induction l as [|[n b] l IH]; intros H; [congruence|]. cbn [link map tl n_next fst].
  destruct l as [|[n' b'] l]; [reflexivity|].
  rewrite IH by discriminate. reflexivity.
Qed.

Lemma link_in apex l r : In r (link apex l) -> In (n_owner r, n_types r) l.
Proof.
  induction l as [|[n b] l IH]; cbn [link]; [intros []|].
  intros [<-|H]; [left; reflexivity|right; apply IH; exact H].
Qed.

Lemma link_in_conv apex l n b : In (n, b) l -> exists r, In r (link apex l) /\ n_owner r = n /\ n_types r = b.
Proof.
  induction l as [|[n0 b0] l IH]; [intros []|]. cbn [link].
  intros [E|Hin].
  - injection E as <- <-. eexists. split; [left; reflexivity|split; reflexivity].
  - destruct (IH Hin) as (r & Hr & E1 & E2). exists r. split; [right; exact Hr|split; assumption].
Qed.

Lemma Forall2_visited_owner apex dk s l : Forall2 (visited apex dk) s l ->
  map fst l = map (fun gc => fst (fst gc)) s.
Proof. induction 1 as [|gc nb s l [H _] _ IH]; cbn [map]; [reflexivity|]. rewrite H, IH. reflexivity. Qed.

Lemma Forall2_in_r {A B} (R : A -> B -> Prop) s l b : Forall2 R s l -> In b l -> exists a, In a s /\ R a b.
Proof.
  induction 1 as [|a0 b0 s l H0 _ IH]; [intros []|].
  intros [<-|Hin]; [exists a0; split; [left; reflexivity|exact H0]|].
  destruct (IH Hin) as (a & Ha & Hr). exists a. split; [right; exact Ha|exact Hr].
Qed.

Lemma Forall2_in_l {A B} (R : A -> B -> Prop) s l a : Forall2 R s l -> In a s -> exists b, In b l /\ R a b.
Proof.
  induction 1 as [|a0 b0 s l H0 _ IH]; [intros []|].
  intros [<-|Hin]; [exists b0; split; [left; reflexivity|exact H0]|].
  destruct (IH Hin) as (b & Hb & Hr). exists b. split; [right; exact Hb|exact Hr].
Qed.

Lemma select_in apex gs : forall cut g c, In (g, c) (select apex gs cut) ->
  In g gs /\ c = is_zone_cut apex g /\ is_in_zone apex g = true.
Proof.
  induction gs as [|g0 gs IH]; intros cut g c H; cbn [select] in H; [destruct H|].
  destruct (is_in_zone apex g0) eqn:Ez; cbn [negb] in H; [|destruct H].
  destruct (below_cut cut (fst g0)).
  - destruct (IH _ _ _ H) as (A & B & C). split; [right; exact A|split; assumption].
  - destruct H as [E|H].
    + injection E as <- <-. split; [left; reflexivity|split; [reflexivity|exact Ez]].
    + destruct (IH _ _ _ H) as (A & B & C). split; [right; exact A|split; assumption].
Qed.

Lemma select_sorted apex gs : forall cut, StronglySorted owners_lt gs ->
  StronglySorted owners_lt (map fst (select apex gs cut)).
Proof.
  induction gs as [|g0 gs IH]; intros cut Hs; cbn [select]; [constructor|].
  apply StronglySorted_inv in Hs as [Hs' Hhd].
  destruct (negb (is_in_zone apex g0)); [constructor|].
  destruct (below_cut cut (fst g0)); [apply IH; exact Hs'|].
  cbn [map fst]. constructor; [apply IH; exact Hs'|].
  apply Forall_forall. intros x Hx. apply in_map_iff in Hx as ([g c] & <- & Hin).
  apply select_in in Hin as (Hin & _). rewrite Forall_forall in Hhd. apply Hhd. exact Hin.
Qed.

(* occlusion, at the level of groups *)
Definition gcut (apex : name) (g : group) : Prop :=
  is_in_zone apex g = true /\ is_zone_cut apex g = true.
Definition goccl (apex : name) (all : list group) (n : name) : Prop :=
  exists g, In g all /\ gcut apex g /\ strictly_below n (fst g).

Lemma lt_irrefl a : name_cmp a a <> Lt.
Proof. rewrite name_cmp_refl. discriminate. Qed.
Lemma lt_asym a b : name_cmp a b = Lt -> name_cmp b a = Lt -> False.
Proof. intros H1 H2. rewrite name_cmp_antisym, H1 in H2. discriminate. Qed.

Lemma sorted_app_inv (pre : list group) g0 gs : StronglySorted owners_lt (pre ++ g0 :: gs) ->
  (forall p, In p pre -> owners_lt p g0) /\ (forall y, In y gs -> owners_lt g0 y) /\
  (forall p y, In p pre -> In y gs -> owners_lt p y).
Proof.
  induction pre as [|p0 pre IH]; cbn [app]; intros H.
  - apply StronglySorted_inv in H as [_ H]. rewrite Forall_forall in H.
    split; [intros p []|]. split; [exact H|intros p y []].
  - apply StronglySorted_inv in H as [H Hp0]. rewrite Forall_forall in Hp0.
    destruct (IH H) as (A & B & C). split; [|split].
    + intros p [<-|Hp]; [apply Hp0; apply in_or_app; right; left; reflexivity|apply A; exact Hp].
    + exact B.
    + intros p y [<-|Hp] Hy; [apply Hp0; apply in_or_app; right; right; exact Hy|apply C; assumption].
Qed.

(* what the loop knows when it comes to the groups after [pre] with the cut [cut]: the cut is a
   delegation among [pre], and it catches every later name below a delegation among [pre] *)
Definition cut_inv (apex : name) (pre : list group) (cut : option name) : Prop :=
  (forall c, cut = Some c -> exists g, In g pre /\ fst g = c /\ gcut apex g) /\
  (forall g x, In g pre -> gcut apex g -> (forall p, In p pre -> name_cmp (fst p) x = Lt) ->
     strictly_below x (fst g) -> below_cut cut x = true).

Lemma cut_inv_skip apex pre cut g0 : cut_inv apex pre cut -> below_cut cut (fst g0) = true ->
  cut_inv apex (pre ++ [g0]) cut.
Proof.
  intros [I1 I2] Eb. split.
  - intros c E. destruct (I1 c E) as (g & Hg & Ec & Hc).
    exists g. split; [apply in_or_app; left; exact Hg|split; assumption].
  - intros g x Hg Hc Hx Hsb. apply in_app_or in Hg as [Hg|[<-|[]]].
    + apply (I2 g x Hg Hc); [|exact Hsb]. intros p Hp. apply Hx. apply in_or_app. left. exact Hp.
    + destruct cut as [c|]; [|discriminate]. cbn [below_cut] in *.
      destruct Hsb as [Hsb _]. eapply ends_with_trans; eassumption.
Qed.

Lemma cut_inv_visit apex pre cut g0 : cut_inv apex pre cut -> below_cut cut (fst g0) = false ->
  is_in_zone apex g0 = true -> (forall p, In p pre -> owners_lt p g0) ->
  cut_inv apex (pre ++ [g0]) (if is_zone_cut apex g0 then Some (fst g0) else None).
Proof.
  intros [I1 I2] Eb Ez Spre. split.
  - intros c E. destruct (is_zone_cut apex g0) eqn:Ec0; [|discriminate]. injection E as <-.
    exists g0. split; [apply in_or_app; right; left; reflexivity|]. split; [reflexivity|]. split; assumption.
  - intros g x Hg Hc Hx Hsb. apply in_app_or in Hg as [Hg|[<-|[]]].
    + (* a delegation before g0 above x would have cut g0 off as well *)
      exfalso.
      assert (Hb : below_cut cut x = true).
      { apply (I2 g x Hg Hc); [|exact Hsb]. intros p Hp. apply Hx. apply in_or_app. left. exact Hp. }
      destruct cut as [c|]; [|discriminate]. cbn [below_cut] in Hb, Eb.
      destruct (I1 c eq_refl) as (gc & Hgc & <- & _).
      assert (E : ends_with (fst g0) (fst gc) = true).
      { apply ends_with_between with (x := x); [rewrite (Spre gc Hgc); discriminate| |exact Hb].
        rewrite (Hx g0); [discriminate|apply in_or_app; right; left; reflexivity]. }
      congruence.
    + destruct Hc as [_ Hc]. rewrite Hc. cbn [below_cut]. apply Hsb.
Qed.

Lemma select_spec apex : forall gs pre cut,
  StronglySorted owners_lt (pre ++ gs) ->
  (forall g, In g gs -> name_cmp apex (fst g) <> Gt) ->
  cut_inv apex pre cut ->
  forall g, In g gs ->
    (In (g, is_zone_cut apex g) (select apex gs cut) <->
     is_in_zone apex g = true /\ ~ goccl apex (pre ++ gs) (fst g)).
Proof.
  induction gs as [|g0 gs IH]; intros pre cut Hs Hap Hinv g Hg; [destruct Hg|].
  destruct (sorted_app_inv _ _ _ Hs) as (Spre & Sgs & Spg).
  assert (Hs2 : StronglySorted owners_lt ((pre ++ [g0]) ++ gs)) by (rewrite <- app_assoc; exact Hs).
  assert (Hap' : forall g, In g gs -> name_cmp apex (fst g) <> Gt) by (intros y Hy; apply Hap; right; exact Hy).
  assert (Hnotin : ~ In g0 gs) by (intros Hin; apply (lt_irrefl (fst g0)); apply (Sgs g0 Hin)).
  cbn [select].
  destruct (is_in_zone apex g0) eqn:Ez; cbn [negb].
  2:{ (* break *)
    split; [intros []|]. intros [Hz _]. exfalso. destruct Hg as [<-|Hg]; [congruence|].
    unfold is_in_zone in *.
    assert (E : ends_with (fst g0) apex = true).
    { apply ends_with_between with (x := fst g); [apply Hap; left; reflexivity| |exact Hz].
      rewrite (Sgs g Hg). discriminate. }
    congruence. }
  destruct (below_cut cut (fst g0)) eqn:Eb.
  - (* skipped *)
    pose proof (cut_inv_skip apex pre cut g0 Hinv Eb) as Hinv'.
    destruct Hg as [<-|Hg].
    + split; [intros Hin; apply select_in in Hin as (Hin & _); contradiction|].
      intros [_ Hno]. exfalso. apply Hno.
      destruct cut as [c|]; [|discriminate]. cbn [below_cut] in Eb.
      destruct (proj1 Hinv c eq_refl) as (gc & Hgc & <- & Hcut).
      exists gc. split; [apply in_or_app; left; exact Hgc|]. split; [exact Hcut|].
      split; [exact Eb|]. apply lt_not_eqb'. apply Spre. exact Hgc.
    + rewrite (IH (pre ++ [g0]) cut Hs2 Hap' Hinv' g Hg). rewrite <- app_assoc. reflexivity.
  - (* visited *)
    pose proof (cut_inv_visit apex pre cut g0 Hinv Eb Ez Spre) as Hinv'.
    destruct Hg as [<-|Hg].
    + split; [|intros _; left; reflexivity]. intros _. split; [exact Ez|].
      intros (g' & Hg' & Hc' & Hsb). apply in_app_or in Hg' as [Hg'|[<-|Hg']].
      * assert (Hb : below_cut cut (fst g0) = true).
        { apply (proj2 Hinv g' (fst g0) Hg' Hc'); [|exact Hsb]. intros p Hp. apply Spre. exact Hp. }
        congruence.
      * destruct Hsb as [_ Hsb]. rewrite name_eqb_refl in Hsb. discriminate.
      * apply strictly_below_lt in Hsb. apply (lt_asym _ _ Hsb). apply Sgs. exact Hg'.
    + pose proof (IH (pre ++ [g0]) _ Hs2 Hap' Hinv' g Hg) as R.
      rewrite <- app_assoc in R. cbn [app] in R. rewrite <- R. cbn [In]. split.
      * intros [E|H]; [|exact H]. injection E as E _. subst g. contradiction.
      * intros H. right. exact H.
Qed.

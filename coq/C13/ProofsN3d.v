(* generate_nsec3s over a sorted zone: which names get a record (included names and
   empty non-terminals), order and ring closure, exact type bitmaps. *)
From Coq Require Import ZArith List Bool Lia Sorted.
From DV Require Import Base.Outcome Base.Bytes Base.Lex Base.Names C13.Gen C13.Model
  C13.ProofsNames C13.ProofsBitmap C13.ProofsNsec C13.ProofsNsec2
  C13.ProofsN3a C13.ProofsN3c.
Import ListNotations.
Local Open Scope N_scope.

Lemma in_zone_eq apex a b : name_eqb a b = true -> in_zone apex a -> in_zone apex b.
Proof. unfold in_zone. intros E Hz. rewrite <- (ends_with_eq_l _ _ _ E). exact Hz. Qed.

Lemma deleg_eq apex z a b : name_eqb a b = true -> deleg apex z a -> deleg apex z b.
Proof.
  intros E (H1 & H2 & H3). split; [eapply in_zone_eq; eassumption|]. split.
  - destruct (name_eqb b apex) eqn:F; [|reflexivity]. rewrite (name_eqb_trans _ _ _ E F) in H2. discriminate.
  - apply (has_type_eq_name z a b _ E). exact H3.
Qed.

Lemma occluded_eq apex z a b : name_eqb a b = true -> occluded apex z a -> occluded apex z b.
Proof. intros E (cn & Hd & Hs). exists cn. split; [exact Hd|eapply strictly_below_eq_l; eassumption]. Qed.

Lemma auth_eq apex z a b : name_eqb a b = true -> auth_name apex z a -> auth_name apex z b.
Proof.
  intros E ((t & Ht) & Hz & Hno). split; [exists t; apply (has_type_eq_name z a b t E); exact Ht|].
  split; [eapply in_zone_eq; eassumption|]. intros Ho. apply Hno.
  apply (occluded_eq apex z b a); [rewrite name_eqb_sym; exact E|exact Ho].
Qed.

Lemma strictly_below_trans a b cn : strictly_below a b -> strictly_below b cn -> strictly_below a cn.
Proof.
  intros H1 H2. pose proof (strictly_below_length _ _ H1). pose proof (strictly_below_length _ _ H2).
  destruct H1 as [H1 _], H2 as [H2 _]. apply shorter_strictly_below; [eapply ends_with_trans; eassumption|lia].
Qed.

(* which names get an NSEC3 *)
Definition included (apex : name) (z : list rec) (excl : bool) (n : name) : Prop :=
  auth_name apex z n /\ ~ (excl = true /\ deleg apex z n /\ ~ has_type z n rt_DS).
(* empty non-terminals: no records, strictly below the apex, above an included name *)
Definition ent3 (apex : name) (z : list rec) (excl : bool) (e : name) : Prop :=
  ~ owner_in z e /\ strictly_below e apex /\ exists o, included apex z excl o /\ strictly_below o e.

Section Zone3.
Variable H : bytes -> bytes.
Variable apex : name.
Variable c : n3cfg.
Variable z : list rec.
Hypothesis Hsorted : zone_sorted z.
Let excl := opt_out_flag c && c_excl c.
Let gs := groups (skip_before apex z).
Let v3 := visited3 apex excl gs None.
Let names3 := map gname v3.

Lemma v3_in gc : In gc v3 ->
  In (fst gc) gs /\ snd gc = is_zone_cut apex (fst gc) /\ is_in_zone apex (fst gc) = true /\
  In (fst gc, is_zone_cut apex (fst gc)) (select apex gs None) /\ incl3 excl gc = true.
Proof.
  unfold v3, visited3. intros Hin. apply filter_In in Hin as [Hin Hi]. destruct gc as [g b]. cbn [fst snd].
  destruct (select_in _ _ _ _ _ Hin) as (A & -> & C). repeat split; assumption.
Qed.

Lemma names3_sorted : StronglySorted name_lt names3.
Proof.
  assert (E : names3 = map fst (map fst v3)) by (unfold names3; rewrite map_map; reflexivity).
  rewrite E. unfold v3, visited3. apply (sorted_map_iff name_lt fst).
  apply sorted_map_filter. apply (select_sorted apex gs None). apply gs_sorted. exact Hsorted.
Qed.

Lemma names3_in_zone n : In n names3 -> ends_with n apex = true.
Proof.
  unfold names3. intros Hn. apply in_map_iff in Hn as (gc & <- & Hgc).
  destruct (v3_in gc Hgc) as (_ & _ & Hz & _). exact Hz.
Qed.

Lemma ds_iff g : In g gs -> is_in_zone apex g = true ->
  (memN rt_DS (snd g) = true <-> has_type z (fst g) rt_DS).
Proof. intros Hg Hz. rewrite memN_In. apply (group_types apex z Hsorted g Hg Hz). Qed.

Lemma cut_iff g : In g gs -> is_in_zone apex g = true ->
  (is_zone_cut apex g = true <-> deleg apex z (fst g)).
Proof.
  intros Hg Hz. rewrite <- (gcut_deleg apex z Hsorted g Hg). unfold gcut. intuition.
Qed.

Lemma incl_iff n : included apex z excl n <-> exists x, In x names3 /\ name_eqb x n = true.
Proof.
  split.
  - intros [Hauth Hopt]. pose proof Hauth as ((t & Ht) & Hz & Hno).
    destruct (group_of_name apex z Hsorted n t Ht Hz) as (g & Hg & Eg).
    assert (Eg' : name_eqb n (fst g) = true) by (rewrite name_eqb_sym; exact Eg).
    assert (Hzg : is_in_zone apex g = true) by (apply (in_zone_eq apex n (fst g) Eg' Hz)).
    assert (Hsel : In (g, is_zone_cut apex g) (select apex gs None)).
    { apply (select_auth apex z Hsorted g Hg). split; [exact Hzg|].
      intros Ho. apply Hno. apply (occluded_eq apex z (fst g) n Eg Ho). }
    exists (fst g). split; [|exact Eg].
    unfold names3. apply in_map_iff. exists (g, is_zone_cut apex g). split; [reflexivity|].
    unfold v3, visited3. apply filter_In. split; [exact Hsel|].
    unfold incl3. cbn [fst snd]. apply negb_true_iff.
    destruct excl eqn:Ex; [|reflexivity]. destruct (is_zone_cut apex g) eqn:Ec; [|reflexivity].
    destruct (memN rt_DS (snd g)) eqn:Ed; [reflexivity|]. exfalso. apply Hopt.
    split; [reflexivity|]. split.
    + apply (deleg_eq apex z (fst g) n Eg). apply (cut_iff g Hg Hzg). exact Ec.
    + intros Hds. apply (has_type_eq_name z n (fst g) rt_DS Eg') in Hds.
      apply (ds_iff g Hg Hzg) in Hds. congruence.
  - intros (x & Hx & Ex). unfold names3 in Hx. apply in_map_iff in Hx as (gc & <- & Hgc).
    destruct (v3_in gc Hgc) as (Hg & Hc & Hz & Hsel & Hi). unfold gname in *.
    apply (select_auth apex z Hsorted (fst gc) Hg) in Hsel as [Hz' Hno].
    pose proof (gs_ok apex z Hsorted) as A. rewrite Forall_forall in A. destruct (A (fst gc) Hg) as [[t0 Ht0] _].
    split.
    + apply (auth_eq apex z (fst (fst gc)) n Ex). split; [|split; assumption].
      exists t0, (fst (fst gc)). split; [|apply name_eqb_refl].
      destruct (skip_before_spec apex z) as (pre & E & _). rewrite E. apply in_or_app. right. exact Ht0.
    + intros (Hex & Hd & Hnds). unfold incl3 in Hi. apply negb_true_iff in Hi.
      rewrite Hex, Hc in Hi. cbn [andb] in Hi.
      assert (Ex' : name_eqb n (fst (fst gc)) = true) by (rewrite name_eqb_sym; exact Ex).
      assert (Ec : is_zone_cut apex (fst gc) = true).
      { apply (cut_iff (fst gc) Hg Hz). apply (deleg_eq apex z n _ Ex' Hd). }
      rewrite Ec in Hi. cbn [andb] in Hi. apply negb_false_iff in Hi.
      apply (ds_iff (fst gc) Hg Hz) in Hi. apply Hnds.
      apply (has_type_eq_name z (fst (fst gc)) n rt_DS Ex). exact Hi.
Qed.

Lemma ent_iff e : ent_spec apex names3 e <-> ent3 apex z excl e.
Proof.
  split.
  - intros ((o & Ho & Hso) & Hea & Hno).
    assert (Hio : included apex z excl o) by (apply incl_iff; exists o; split; [exact Ho|apply name_eqb_refl]).
    split; [|split; [exact Hea|exists o; split; assumption]].
    intros Howner. apply Hno. apply incl_iff. destruct Hio as [((to & Hto) & Hzo & Hnoo) _].
    split.
    + split; [exact Howner|]. split; [apply Hea|].
      intros (cn & Hd & Hs). apply Hnoo. exists cn. split; [exact Hd|eapply strictly_below_trans; eassumption].
    + intros (_ & Hd & _). apply Hnoo. exists e. split; assumption.
  - intros (Hnown & Hea & o & Hio & Hso). apply incl_iff in Hio as (x & Hx & Ex).
    split; [exists x; split; [exact Hx|]|split; [exact Hea|]].
    + apply (strictly_below_eq_l o x e); [rewrite name_eqb_sym; exact Ex|exact Hso].
    + intros (y & Hy & Ey). apply Hnown.
      assert (Hiy : included apex z excl e) by (apply incl_iff; exists y; split; assumption).
      destruct Hiy as [(Ho & _) _]. exact Ho.
Qed.

Variable out : list nsec3.
Hypothesis Hout : generate_nsec3s H apex c z = Ok out.

Theorem nsec3_sorted_closed :
  StronglySorted (fun a b => lex_cmp (h_owner a) (h_owner b) = Lt) out /\ out <> [] /\
  map h_next out = tl (map h_owner out) ++ [hd [] (map h_owner out)].
Proof.
  destruct (generate_nsec3s_unfold H apex c z out Hout) as (l & er & _ & _ & Hf).
  destruct (finish3_spec _ _ Hf) as (A & B & C & _). repeat split; assumption.
Qed.

Theorem nsec3_owners x :
  (exists r, In r out /\ h_owner r = x) <->
  (exists n, (included apex z excl n \/ ent3 apex z excl n) /\ x = hashn H c n).
Proof.
  destruct (generate_nsec3s_unfold H apex c z out Hout) as (l & er & Hl & Her & Hf).
  fold excl gs v3 names3 in Hl, Her.
  destruct (finish3_spec _ _ Hf) as (_ & _ & _ & F1 & F2).
  pose proof (ent_fold_spec apex names3 names3_sorted names3_in_zone) as Hent.
  split.
  - intros (r & Hr & <-). destruct (F2 r Hr) as (p & Hp & E1 & _).
    apply in_app_or in Hp as [Hp|Hp].
    + destruct (Forall2_in_r _ _ _ _ Hl Hp) as (gc & Hgc & Hn & Hh & _).
      exists (gname gc). split; [left|congruence].
      apply incl_iff. exists (gname gc). split; [apply in_map; exact Hgc|apply name_eqb_refl].
    + destruct (Forall2_in_r _ _ _ _ Her Hp) as (e & He & Hh & _).
      exists e. split; [right|congruence]. apply ent_iff. apply Hent.
      exists e. split; [exact He|apply name_eqb_refl].
  - intros (n & [Hi|He] & ->).
    + apply incl_iff in Hi as (x & Hx & Ex). unfold names3 in Hx. apply in_map_iff in Hx as (gc & <- & Hgc).
      destruct (Forall2_in_l _ _ _ _ Hl Hgc) as (p & Hp & _ & Hh & _).
      destruct (F1 p (in_or_app _ _ _ (or_introl Hp))) as (r & Hr & E1 & _).
      exists r. split; [exact Hr|]. rewrite E1, Hh. apply hashn_eq. exact Ex.
    + apply ent_iff in He. apply Hent in He as (e & He & Ee).
      destruct (Forall2_in_l _ _ _ _ Her He) as (p & Hp & Hh & _).
      destruct (F1 p (in_or_app _ _ _ (or_intror Hp))) as (r & Hr & E1 & _).
      exists r. split; [exact Hr|]. rewrite E1, Hh. apply hashn_eq. exact Ee.
Qed.

Hypothesis Htypes : types_ok z.

(* every record is the NSEC3 of an included name with exactly its types, or of
   an empty non-terminal with an empty bitmap *)
Theorem nsec3_bitmap_exact r : In r out ->
  exists n, h_owner r = hashn H c n /\
   ((included apex z excl n /\ forall t,
       exists b, bm_contains (h_types r) t = Ok b /\
         (b = true <->
          (t = 46 /\ (deleg apex z n -> has_type z n rt_DS)) \/
          (name_eqb n apex = true /\ (t = 51 \/ (c_dnskey c = true /\ t = 48))) \/
          (has_type z n t /\ (deleg apex z n -> t = 2 \/ t = 43))))
    \/ (ent3 apex z excl n /\ h_types r = [])).
Proof.
  intros Hr.
  destruct (generate_nsec3s_unfold H apex c z out Hout) as (l & er & Hl & Her & Hf).
  fold excl gs v3 names3 in Hl, Her.
  destruct (finish3_spec _ _ Hf) as (_ & _ & _ & _ & F2).
  pose proof (ent_fold_spec apex names3 names3_sorted names3_in_zone) as Hent.
  destruct (F2 r Hr) as (p & Hp & E1 & E2). apply in_app_or in Hp as [Hp|Hp].
  - destruct (Forall2_in_r _ _ _ _ Hl Hp) as (gc & Hgc & Hn & Hh & bm & ttl & ttl' & Hbm & Ht).
    destruct (v3_in gc Hgc) as (Hg & Hc & Hz & _ & _).
    exists (gname gc). split; [congruence|]. left. split.
    + apply incl_iff. exists (gname gc). split; [apply in_map; exact Hgc|apply name_eqb_refl].
    + destruct (nsec3_bitmap_inv c _ _ _ _ _ _ _ Hbm (group_types_bound apex z Hsorted Htypes _ Hg)) as [I S0].
      intros t. rewrite E2, Ht, bm_contains_finalize by exact I. eexists. split.
      * reflexivity.
      * rewrite S0. unfold n3_type_set, gname in *. rewrite Hc.
        assert (D : is_zone_cut apex (fst gc) = true <-> deleg apex z (fst (fst gc))) by (apply cut_iff; assumption).
        assert (S : memN rt_DS (snd (fst gc)) = true <-> has_type z (fst (fst gc)) rt_DS) by (apply ds_iff; assumption).
        assert (T : memN t (snd (fst gc)) = true <-> has_type z (fst (fst gc)) t).
        { rewrite memN_In. apply (group_types apex z Hsorted _ Hg Hz). }
        assert (M : memN t [2; 43] = true <-> t = 2 \/ t = 43) by (rewrite memN_In; cbn [In]; intuition).
        assert (A : (length (fst (fst gc)) - length apex =? 0)%nat = true <-> name_eqb (fst (fst gc)) apex = true).
        { rewrite Nat.eqb_eq. split.
          - intros L. apply ends_with_same_length; [exact Hz|]. pose proof (ends_with_length _ _ Hz). lia.
          - intros E. apply name_eqb_length in E. lia. }
        repeat first [rewrite negb_orb_imp | rewrite orb_true_iff | rewrite andb_true_iff].
        rewrite !N.eqb_eq, T, M, A, S, D. clear. tauto.
  - destruct (Forall2_in_r _ _ _ _ Her Hp) as (e & He & Hh & Ht).
    exists e. split; [congruence|]. right. split; [|congruence].
    apply ent_iff. apply Hent. exists e. split; [exact He|apply name_eqb_refl].
Qed.

End Zone3.

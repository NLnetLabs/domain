(* generate_nsecs over a sorted zone: one NSEC per authoritative name, canonical
   order, closure of the chain, exact type bitmaps. *)
From Coq Require Import ZArith List Bool Sorted.
From DV Require Import Base.Outcome Base.Names C13.Gen C13.Model C13.ProofsNames C13.ProofsBitmap C13.ProofsNsec.
Import ListNotations.
Local Open Scope N_scope.

Definition types_ok (z : list rec) : Prop := Forall (fun r => snd r < 65536) z.
Definition name_lt (a b : name) : Prop := name_cmp a b = Lt.

Lemma memN_In t l : memN t l = true <-> In t l.
Proof. apply existsb_eqb_In. Qed.

Lemma rrsets_fst ts t : memN t (map fst (rrsets ts)) = memN t ts.
Proof.
  induction ts as [|x r IH]; [reflexivity|]. cbn [rrsets].
  destruct (rrsets r) as [|[t' c] rs] eqn:E.
  - cbn [map fst]. unfold memN in *. cbn [existsb map] in *. rewrite <- IH. reflexivity.
  - unfold memN in *. cbn [map fst existsb] in IH.
    destruct (N.eqb_spec t' x) as [->|Hne]; cbn [map fst existsb].
    + rewrite <- IH. destruct (x =? t); reflexivity.
    + rewrite <- IH. reflexivity.
Qed.

Lemma rrsets_bound ts : Forall (fun t => t < 65536) ts -> Forall (fun t => t < 65536) (map fst (rrsets ts)).
Proof.
  intros H. apply Forall_forall. intros a Ha. apply memN_In in Ha. rewrite rrsets_fst in Ha.
  apply memN_In in Ha. rewrite Forall_forall in H. apply H. exact Ha.
Qed.

Lemma rrset_loop_spec at_cut cts : forall rs bm ttl bm' ttl',
  rrset_loop at_cut cts rs bm ttl = Ok (bm', ttl') -> bs_inv bm ->
  Forall (fun t => t < 65536) (map fst rs) ->
  bs_inv bm' /\
  forall t, bs_has_type bm' t = bs_has_type bm t || (memN t (map fst rs) && (negb at_cut || memN t cts)).
Proof.
  induction rs as [|[x c] rs IH]; intros bm ttl bm' ttl' H Hinv Hb; cbn [rrset_loop] in H.
  - injection H as <- <-. split; [exact Hinv|]. intros t. unfold memN. cbn [map existsb andb]. rewrite orb_false_r. reflexivity.
  - cbn [map fst] in Hb. inversion Hb as [|? ? Hx Hb']; subst.
    set (bm1 := if negb at_cut || memN x cts then bm_add bm x else bm) in *.
    assert (Hinv1 : bs_inv bm1) by (unfold bm1; destruct (negb at_cut || memN x cts); auto using bm_add_inv).
    assert (Hhas1 : forall t, bs_has_type bm1 t = bs_has_type bm t || ((x =? t) && (negb at_cut || memN x cts))).
    { intros t. unfold bm1. destruct (negb at_cut || memN x cts).
      - rewrite bs_has_type_add by exact Hinv. rewrite andb_true_r. reflexivity.
      - rewrite andb_false_r, orb_false_r. reflexivity. }
    assert (R : exists ttl1, rrset_loop at_cut cts rs bm1 ttl1 = Ok (bm', ttl')).
    { destruct (x =? rt_SOA); [|eauto]. destruct (soa_max_len <? c)%nat; [discriminate|eauto]. }
    destruct R as (ttl1 & R). destruct (IH _ _ _ _ R Hinv1 Hb') as (A & B). split; [exact A|].
    intros t. rewrite B, Hhas1. cbn [map fst].
    replace (memN t (x :: map fst rs)) with ((x =? t) || memN t (map fst rs)) by reflexivity.
    destruct (N.eqb_spec x t) as [->|Hne].
    + destruct (bs_has_type bm t), (negb at_cut || memN t cts), (memN t (map fst rs)); reflexivity.
    + destruct (bs_has_type bm t), (negb at_cut || memN x cts), (negb at_cut || memN t cts),
        (memN t (map fst rs)); reflexivity.
Qed.

Lemma negb_orb_imp a b : negb a || b = true <-> (a = true -> b = true).
Proof. destruct a, b; cbn; intuition congruence. Qed.

Definition nsec_type_set (apex : name) (dk at_cut : bool) (g : group) (t : N) : bool :=
  (t =? 46) || (t =? 47) || (dk && name_eqb (fst g) apex && (t =? 48))
  || (memN t (snd g) && (negb at_cut || memN t [2; 43])).

Lemma nsec_visit_inv apex dk at_cut g ttl bm ttl' :
  nsec_visit apex dk at_cut g ttl = Ok (bm, ttl') -> Forall (fun t => t < 65536) (snd g) ->
  exists bs, bm = bm_finalize bs /\ bs_inv bs /\ forall t, bs_has_type bs t = nsec_type_set apex dk at_cut g t.
Proof.
  unfold nsec_visit. intros H Hb.
  apply bind_ok in H as ([bm1 ttl1] & Hr & H). destruct ttl1; [|discriminate]. injection H as <- <-.
  cbv [nsec_fixed_a nsec_apex_cfg nsec_fixed_b nsec_cut_types] in Hr.
  set (b0 := bm_add [] 46) in *.
  assert (I0 : bs_inv b0) by (apply bm_add_inv; [apply bs_inv_nil|reflexivity]).
  set (b1 := if dk && name_eqb (fst g) apex then bm_add b0 48 else b0) in *.
  assert (I1 : bs_inv b1) by (unfold b1; destruct (dk && name_eqb (fst g) apex); [apply bm_add_inv; [exact I0|reflexivity]|exact I0]).
  assert (I2 : bs_inv (bm_add b1 47)) by (apply bm_add_inv; [exact I1|reflexivity]).
  destruct (rrset_loop_spec _ _ _ _ _ _ _ Hr I2 (rrsets_bound _ Hb)) as (A & B).
  exists bm1. split; [reflexivity|]. split; [exact A|]. intros t. rewrite B, rrsets_fst.
  rewrite bs_has_type_add by exact I1.
  assert (E1 : bs_has_type b1 t = (t =? 46) || (dk && name_eqb (fst g) apex && (t =? 48))).
  { unfold b1. destruct (dk && name_eqb (fst g) apex); cbn [andb].
    - rewrite bs_has_type_add by exact I0. unfold b0. rewrite bs_has_type_add by apply bs_inv_nil.
      rewrite bs_has_type_nil. cbn [orb]. rewrite (N.eqb_sym 46 t), (N.eqb_sym 48 t). reflexivity.
    - unfold b0. rewrite bs_has_type_add by apply bs_inv_nil. rewrite bs_has_type_nil. cbn [orb].
      rewrite orb_false_r. apply N.eqb_sym. }
  rewrite E1. unfold nsec_type_set. rewrite (N.eqb_sym 47 t).
  destruct (t =? 46), (t =? 47), (dk && name_eqb (fst g) apex && (t =? 48)); reflexivity.
Qed.

Lemma nsec_structure apex dk z out : generate_nsecs apex dk z = Ok out ->
  exists l, Forall2 (visited apex dk) (select apex (groups (skip_before apex z)) None) l /\
            out = link apex l.
Proof.
  unfold generate_nsecs. intros H. apply nsec_loop_link in H as (l & Hl & Ho).
  exists l. split; [exact Hl|]. rewrite Ho. reflexivity.
Qed.

Lemma sorted_map_iff {A B} (R : B -> B -> Prop) (f : A -> B) l :
  StronglySorted (fun a b => R (f a) (f b)) l <-> StronglySorted R (map f l).
Proof.
  induction l as [|x l IH]; cbn [map]; split; intros H; try constructor;
    apply StronglySorted_inv in H as [H1 H2].
  - apply IH. exact H1.
  - rewrite Forall_forall in *. intros y Hy. apply in_map_iff in Hy as (a & <- & Ha). apply H2. exact Ha.
  - apply IH. exact H1.
  - rewrite Forall_forall in *. intros a Ha. apply H2. apply in_map. exact Ha.
Qed.

Lemma strictly_below_eq_l a a' c : name_eqb a a' = true -> strictly_below a c -> strictly_below a' c.
Proof.
  intros E [H1 H2]. split; [rewrite <- (ends_with_eq_l _ _ _ E); exact H1|].
  destruct (name_eqb a' c) eqn:F; [|reflexivity].
  rewrite (name_eqb_trans _ _ _ E F) in H2. discriminate.
Qed.
Lemma strictly_below_eq_r a c c' : name_eqb c c' = true -> strictly_below a c -> strictly_below a c'.
Proof.
  intros E [H1 H2]. split; [rewrite <- (ends_with_eq_r _ _ _ E); exact H1|].
  destruct (name_eqb a c') eqn:F; [|reflexivity].
  rewrite name_eqb_sym in E. rewrite (name_eqb_trans _ _ _ F E) in H2. discriminate.
Qed.

Section Zone.
Variable apex : name.
Variable z : list rec.
Hypothesis Hsorted : zone_sorted z.
Let z' := skip_before apex z.
Let gs := groups z'.

Lemma z'_sorted : zone_sorted z'.
Proof. apply skip_before_sorted. exact Hsorted. Qed.

Lemma gs_ok : Forall (group_ok z') gs.
Proof. apply groups_spec. exact z'_sorted. Qed.
Lemma gs_sorted : StronglySorted owners_lt gs.
Proof. apply groups_spec. exact z'_sorted. Qed.

Lemma gs_ge_apex : forall g, In g gs -> name_cmp apex (fst g) <> Gt.
Proof.
  pose proof (groups_spec z' z'_sorted) as (_ & S & _ & Hd).
  destruct (skip_before_spec apex z) as (pre & _ & _ & Hhd).
  unfold gs, z' in *. clear z' gs.
  destruct (skip_before apex z) as [|[n t] l].
  - cbn. intros g [].
  - destruct Hd as (ts & gs0 & Eg). cbn [fst] in Hhd. rewrite Eg in *.
    apply StronglySorted_inv in S as [_ S]. rewrite Forall_forall in S.
    intros g [<-|Hg]; cbn [fst].
    + apply ends_with_le. exact Hhd.
    + eapply name_cmp_le_trans; [apply ends_with_le; exact Hhd|]. pose proof (S g Hg) as L.
      unfold owners_lt in L. cbn [fst] in L. rewrite L. discriminate.
Qed.

Lemma group_types g : In g gs -> is_in_zone apex g = true ->
  forall t, In t (snd g) <-> has_type z (fst g) t.
Proof.
  intros Hg Hz t. pose proof gs_ok as A. rewrite Forall_forall in A. destruct (A g Hg) as [_ B].
  rewrite B. apply skip_before_has_type. exact Hz.
Qed.

Lemma group_of_name n t : has_type z n t -> in_zone apex n ->
  exists g, In g gs /\ name_eqb (fst g) n = true.
Proof.
  intros Ht Hz. apply (skip_before_has_type apex z n t Hz) in Ht. destruct Ht as (m & Hin & Hm).
  pose proof (groups_spec z' z'_sorted) as (_ & _ & C & _). destruct (C m t Hin) as (g & Hg & Eg).
  exists g. split; [exact Hg|]. rewrite name_eqb_sym in Eg. eapply name_eqb_trans; eassumption.
Qed.

Lemma gcut_deleg g : In g gs -> (gcut apex g <-> deleg apex z (fst g)).
Proof.
  intros Hg. unfold gcut, deleg, is_zone_cut, is_in_zone, in_zone. split.
  - intros [Hz Hc]. apply andb_true_iff in Hc as [Hne Hns]. apply negb_true_iff in Hne.
    split; [exact Hz|]. split; [exact Hne|].
    apply (group_types g Hg Hz). fold (memN rt_NS (snd g)) in Hns. apply memN_In. exact Hns.
  - intros (Hz & Hne & Hns). split; [exact Hz|]. apply andb_true_iff. split; [rewrite Hne; reflexivity|].
    fold (memN rt_NS (snd g)). apply memN_In. apply (group_types g Hg Hz). exact Hns.
Qed.

Lemma goccl_occluded n : goccl apex gs n <-> occluded apex z n.
Proof.
  unfold goccl, occluded. split.
  - intros (g & Hg & Hc & Hsb). exists (fst g). split; [apply gcut_deleg; assumption|exact Hsb].
  - intros (c & Hd & Hsb). destruct Hd as (Hz & Hne & Hns).
    destruct (group_of_name c rt_NS Hns Hz) as (g & Hg & Eg).
    exists g. split; [exact Hg|]. split.
    + apply gcut_deleg; [exact Hg|]. rewrite name_eqb_sym in Eg. split; [|split].
      * unfold in_zone in *. rewrite <- (ends_with_eq_l _ _ _ Eg). exact Hz.
      * destruct (name_eqb (fst g) apex) eqn:F; [|reflexivity].
        rewrite (name_eqb_trans _ _ _ Eg F) in Hne. discriminate.
      * apply (has_type_eq_name z c (fst g) rt_NS Eg). exact Hns.
    + apply strictly_below_eq_r with c; [rewrite name_eqb_sym; exact Eg|exact Hsb].
Qed.

Lemma select_auth g : In g gs ->
  (In (g, is_zone_cut apex g) (select apex gs None) <-> in_zone apex (fst g) /\ ~ occluded apex z (fst g)).
Proof.
  intros Hg.
  rewrite (select_spec apex gs [] None); cbn [app].
  - rewrite goccl_occluded. reflexivity.
  - exact gs_sorted.
  - exact gs_ge_apex.
  - split; [intros c E; discriminate|intros g0 x []].
  - exact Hg.
Qed.

Variable dk : bool.
Variable out : list nsec.
Hypothesis Hout : generate_nsecs apex dk z = Ok out.

Lemma out_record r : In r out ->
  exists g ttl ttl', In (g, is_zone_cut apex g) (select apex gs None) /\ In g gs /\
    is_in_zone apex g = true /\ n_owner r = fst g /\
    nsec_visit apex dk (is_zone_cut apex g) g ttl = Ok (n_types r, ttl').
Proof.
  intros Hr. destruct (nsec_structure _ _ _ _ Hout) as (l & Hl & ->). fold z' gs in Hl.
  apply link_in in Hr. destruct (Forall2_in_r _ _ _ _ Hl Hr) as ([g c] & Hin & Hv & ttl & ttl' & Hvis).
  cbn [fst snd] in *. destruct (select_in _ _ _ _ _ Hin) as (A & -> & C).
  exists g, ttl, ttl'. repeat split; assumption.
Qed.

Lemma out_of_group g : In (g, is_zone_cut apex g) (select apex gs None) ->
  exists r, In r out /\ n_owner r = fst g.
Proof.
  intros Hin. destruct (nsec_structure _ _ _ _ Hout) as (l & Hl & ->). fold z' gs in Hl.
  destruct (Forall2_in_l _ _ _ _ Hl Hin) as ([n b] & Hb & Hn & _). cbn [fst snd] in Hn. subst n.
  destruct (link_in_conv apex l _ _ Hb) as (r & Hr & E & _). exists r. split; assumption.
Qed.

Theorem nsec_sorted : StronglySorted (fun a b => name_lt (n_owner a) (n_owner b)) out.
Proof.
  destruct (nsec_structure _ _ _ _ Hout) as (l & Hl & ->). fold z' gs in Hl.
  apply sorted_map_iff. rewrite link_owner, (Forall2_visited_owner _ _ _ _ Hl).
  rewrite <- (map_map fst fst). apply (sorted_map_iff name_lt fst).
  apply (select_sorted apex gs None). exact gs_sorted.
Qed.

Theorem nsec_closed : out <> [] -> map n_next out = tl (map n_owner out) ++ [apex].
Proof.
  destruct (nsec_structure _ _ _ _ Hout) as (l & Hl & ->). intros Hne.
  rewrite link_owner. apply link_next. intros ->. apply Hne. reflexivity.
Qed.

Theorem nsec_owners n :
  auth_name apex z n <-> exists r, In r out /\ name_eqb (n_owner r) n = true.
Proof.
  split.
  - intros ((t & Ht) & Hz & Hno).
    destruct (group_of_name n t Ht Hz) as (g & Hg & Eg).
    assert (Hsel : In (g, is_zone_cut apex g) (select apex gs None)).
    { apply select_auth; [exact Hg|]. rewrite name_eqb_sym in Eg. split.
      - unfold in_zone in *. rewrite <- (ends_with_eq_l _ _ _ Eg). exact Hz.
      - intros (c & Hd & Hsb). apply Hno. exists c. split; [exact Hd|].
        apply strictly_below_eq_l with (fst g); [rewrite name_eqb_sym; exact Eg|exact Hsb]. }
    destruct (out_of_group g Hsel) as (r & Hr & E). exists r. split; [exact Hr|]. rewrite E. exact Eg.
  - intros (r & Hr & En).
    destruct (out_record r Hr) as (g & ttl & ttl' & Hsel & Hg & Hz & Eo & _). rewrite Eo in En.
    apply (select_auth g Hg) in Hsel as [Hz' Hno].
    pose proof gs_ok as A. rewrite Forall_forall in A. destruct (A g Hg) as [[t0 Ht0] _].
    split; [|split].
    + exists t0. exists (fst g). split; [|exact En].
      destruct (skip_before_spec apex z) as (pre & E & _). rewrite E. apply in_or_app. right. exact Ht0.
    + unfold in_zone in *. rewrite <- (ends_with_eq_l _ _ _ En). exact Hz'.
    + intros (c & Hd & Hsb). apply Hno. exists c. split; [exact Hd|].
      apply strictly_below_eq_l with n; [rewrite name_eqb_sym; exact En|exact Hsb].
Qed.

Hypothesis Htypes : types_ok z.

Lemma group_types_bound g : In g gs -> Forall (fun t => t < 65536) (snd g).
Proof.
  intros Hg. apply Forall_forall. intros t Ht.
  pose proof gs_ok as A. rewrite Forall_forall in A. destruct (A g Hg) as [_ B].
  apply B in Ht as (m & Hin & _).
  destruct (skip_before_spec apex z) as (pre & E & _).
  unfold types_ok in Htypes. rewrite Forall_forall in Htypes.
  apply (Htypes (m, t)). rewrite E. apply in_or_app. right. exact Hin.
Qed.

Theorem nsec_bitmap_exact r : In r out -> forall t,
  exists b, bm_contains (n_types r) t = Ok b /\
    (b = true <->
     t = 46 \/ t = 47 \/ (dk = true /\ name_eqb (n_owner r) apex = true /\ t = 48) \/
     (has_type z (n_owner r) t /\ (deleg apex z (n_owner r) -> t = 2 \/ t = 43))).
Proof.
  intros Hr t. destruct (out_record r Hr) as (g & ttl & ttl' & Hsel & Hg & Hz & Eo & Hv).
  destruct (nsec_visit_inv _ _ _ _ _ _ _ Hv (group_types_bound g Hg)) as (bs & -> & I & S).
  rewrite Eo, bm_contains_finalize by exact I. eexists. split; [reflexivity|].
  rewrite S. unfold nsec_type_set.
  assert (D : is_zone_cut apex g = true <-> deleg apex z (fst g)).
  { rewrite <- (gcut_deleg g Hg). unfold gcut. intuition. }
  assert (M : memN t [2; 43] = true <-> t = 2 \/ t = 43).
  { rewrite memN_In. cbn [In]. intuition. }
  assert (T : memN t (snd g) = true <-> has_type z (fst g) t).
  { rewrite memN_In. apply (group_types g Hg Hz t). }
  rewrite !orb_true_iff, !andb_true_iff, negb_orb_imp, !N.eqb_eq, T, M, D. clear. tauto.
Qed.

End Zone.

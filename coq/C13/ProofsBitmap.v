(* The type bitmap: the builder's invariant (bs_inv), what finalize writes has
   the RFC 4034 layout, contains / from_octets on it; type number <-> bit position. *)
From Coq Require Import NArith Arith List Bool Lia Sorted.
From DV Require Import Base.Outcome C13.Gen C13.Model.
Import ListNotations.
Local Open Scope N_scope.

Lemma lor_lt_pow2 a b n : a < 2 ^ n -> b < 2 ^ n -> N.lor a b < 2 ^ n.
Proof.
  intros Ha Hb. rewrite <- (N.mod_small a (2 ^ n)), <- (N.mod_small b (2 ^ n)) by assumption.
  rewrite <- !N.land_ones, <- N.land_lor_distr_l, N.land_ones.
  apply N.mod_lt, N.pow_nonzero. discriminate.
Qed.

Lemma split3 b c d : 0 < c -> 0 < d ->
  b = c * d * (b / (c * d)) + d * (b mod (c * d) / d) + b mod d.
Proof.
  intros Hc%N.neq_0_lt_0 Hd%N.neq_0_lt_0. assert (E : (b mod (c * d)) mod d = b mod d).
  { rewrite (N.mul_comm c d), N.mod_mul_r, (N.mul_comm d), N.mod_add, N.mod_mod by assumption. reflexivity. }
  rewrite <- E, <- N.add_assoc, <- !N.div_mod; trivial. intros H. apply N.eq_mul_0 in H. tauto.
Qed.

(* position of a type: window, octet, bit (bit 7 is the leftmost) *)
Definition twin (t : N) : N := t / 256.
Definition toct (t : N) : nat := N.to_nat ((t mod 256) / 8).
Definition tbit (t : N) : N := 7 - t mod 8.

Lemma shr128 k : k < 8 -> 128 / 2 ^ k = 2 ^ (7 - k).
Proof. intros H. symmetry. apply (N.pow_sub_r 2 7 k); [discriminate|lia]. Qed.

Lemma split_rtype_eq t : split_rtype t = (twin t, toct t, 2 ^ tbit t).
Proof.
  unfold split_rtype, twin, toct, tbit.
  cbv [bm_window_shift bm_low_mask bm_octet_shift bm_top_bit bm_bit_mask].
  rewrite !N.shiftr_div_pow2.
  change 255 with (N.ones 8). change (N.land t 7) with (N.land t (N.ones 3)).
  rewrite !N.land_ones.
  change (2 ^ 8) with 256. change (2 ^ 3) with 8.
  rewrite shr128 by (apply N.mod_lt; discriminate). reflexivity.
Qed.

Lemma toct_lt t : (toct t < 32)%nat.
Proof.
  assert (t mod 256 / 8 < 32) by (apply N.div_lt_upper_bound; [discriminate|apply N.mod_lt; discriminate]).
  unfold toct. lia.
Qed.
Lemma tbit_lt t : tbit t < 8.
Proof. unfold tbit. lia. Qed.
Lemma twin_lt t : t < 65536 -> twin t < 256.
Proof. intros H. apply N.div_lt_upper_bound; [discriminate|exact H]. Qed.

Lemma pos_compose t : t = 256 * twin t + 8 * N.of_nat (toct t) + (7 - tbit t).
Proof.
  unfold twin, toct, tbit. rewrite N2Nat.id.
  replace (7 - (7 - t mod 8)) with (t mod 8) by (pose proof (N.mod_lt t 8); lia).
  exact (split3 t 32 8 eq_refl eq_refl).
Qed.

Lemma pos_inj t t' : twin t = twin t' -> toct t = toct t' -> tbit t = tbit t' -> t = t'.
Proof. intros H1 H2 H3. rewrite (pos_compose t), (pos_compose t'), H1, H2, H3. reflexivity. Qed.

Definition same_pos (t t' : N) : bool :=
  (twin t =? twin t') && (toct t =? toct t')%nat && (tbit t =? tbit t').
Lemma same_pos_eq t t' : same_pos t t' = (t =? t').
Proof.
  unfold same_pos. destruct (N.eqb_spec t t') as [->|Hne].
  - rewrite !N.eqb_refl, Nat.eqb_refl. reflexivity.
  - destruct (N.eqb_spec (twin t) (twin t')); [|reflexivity].
    destruct (Nat.eqb_spec (toct t) (toct t')); [|reflexivity].
    destruct (N.eqb_spec (tbit t) (tbit t')); [|reflexivity].
    exfalso. apply Hne. apply pos_inj; assumption.
Qed.

Lemma land_pow2_testbit x j : (N.land x (2 ^ j) =? 0) = negb (N.testbit x j).
Proof.
  destruct (N.testbit x j) eqn:E; cbn [negb].
  - apply N.eqb_neq. intros H0.
    assert (H : N.testbit (N.land x (2 ^ j)) j = false) by (rewrite H0; apply N.bits_0).
    rewrite N.land_spec, E, N.pow2_bits_true in H. discriminate.
  - apply N.eqb_eq. apply N.bits_inj. intros i.
    rewrite N.land_spec, N.bits_0, N.pow2_bits_eqb.
    destruct (N.eqb_spec j i); subst; [rewrite E|]; rewrite ?andb_false_r; reflexivity.
Qed.

Lemma lor_byte x j : x < 256 -> j < 8 -> N.lor x (2 ^ j) < 256.
Proof. intros Hx Hj. apply (lor_lt_pow2 x (2 ^ j) 8); [exact Hx|apply N.pow_lt_mono_r; [reflexivity|exact Hj]]. Qed.

Lemma lor_pow2_nonzero x j : N.lor x (2 ^ j) <> 0.
Proof.
  intros H. assert (T : N.testbit (N.lor x (2 ^ j)) j = false) by (rewrite H; apply N.bits_0).
  rewrite N.lor_spec, N.pow2_bits_true, orb_true_r in T. discriminate.
Qed.

Lemma sorted_map_filter {A B} (R : B -> B -> Prop) (f : A -> B) (p : A -> bool) l :
  StronglySorted R (map f l) -> StronglySorted R (map f (filter p l)).
Proof.
  induction l as [|x l IH]; cbn [map filter]; intros Hs; [constructor|].
  apply StronglySorted_inv in Hs as [Hs Hx]. destruct (p x); [|apply IH; exact Hs].
  cbn [map]. constructor; [apply IH; exact Hs|].
  rewrite Forall_forall in *. intros y Hy. apply Hx.
  apply in_map_iff in Hy as (a & <- & Ha). apply filter_In in Ha as [Ha _]. apply in_map. exact Ha.
Qed.

Lemma set_at_length l i f : length (set_at l i f) = length l.
Proof. revert i; induction l as [|x l IH]; intros [|i]; simpl; auto. Qed.

Lemma nth_set_at_same l i f d : (i < length l)%nat -> nth i (set_at l i f) d = f (nth i l d).
Proof. revert i; induction l as [|x l IH]; intros [|i] H; simpl in *; try lia; auto. apply IH. lia. Qed.

Lemma nth_set_at_other l i i' f d : i <> i' -> nth i' (set_at l i f) d = nth i' l d.
Proof.
  revert i i'; induction l as [|x l IH]; intros [|i] [|i'] H; simpl; auto; try congruence.
Qed.

Lemma set_at_Forall (P : N -> Prop) l i f :
  Forall P l -> (forall x, P x -> P (f x)) -> Forall P (set_at l i f).
Proof.
  intros Hl Hf. revert i; induction Hl as [|x l Hx Hl IH]; intros [|i]; simpl; constructor; auto.
Qed.

Lemma nth_repeat0 i n : nth i (repeat 0 n) 0 = 0.
Proof. revert i; induction n; intros [|i]; simpl; auto. Qed.

Definition blk_wf (b : block) : Prop :=
  let '(w, (len, data)) := b in
  w < 256 /\ length data = 32%nat /\ len <= 32 /\ Forall (fun x => x < 256) data /\
  (forall i, (N.to_nat len <= i)%nat -> nth i data 0 = 0) /\
  (len = 0 \/ nth (N.to_nat len - 1) data 0 <> 0).
Definition blk_ne (b : block) : Prop := 1 <= fst (snd b).

Lemma zero_data_length : length bm_zero_data = 32%nat.
Proof. reflexivity. Qed.

Lemma fresh_wf w : w < 256 -> blk_wf (w, (0, bm_zero_data)).
Proof.
  intros Hw. unfold blk_wf. repeat split; auto; try lia.
  - unfold bm_zero_data. apply Forall_forall. intros x Hx. apply repeat_spec in Hx. lia.
  - intros i _. apply nth_repeat0.
Qed.

Lemma block_add_wf b o j : blk_wf b -> (o < 32)%nat -> j < 8 ->
  blk_wf (block_add b o (2 ^ j)) /\ blk_ne (block_add b o (2 ^ j)).
Proof.
  destruct b as [w [len data]]. intros (Hw & Hl & Hlen & Hb & Hz & Hlast) Ho Hj.
  unfold block_add, blk_ne. cbv [bm_len_plus]. cbn [fst snd].
  split; [|destruct (N.ltb_spec len (N.of_nat o + 1)); lia].
  unfold blk_wf. split; [exact Hw|]. split; [rewrite set_at_length; exact Hl|].
  split; [destruct (N.ltb_spec len (N.of_nat o + 1)); lia|].
  split; [apply set_at_Forall; [exact Hb|]; intros x Hx; apply lor_byte; assumption|].
  split.
  - intros i Hi. rewrite nth_set_at_other.
    + apply Hz. destruct (N.ltb_spec len (N.of_nat o + 1)); lia.
    + destruct (N.ltb_spec len (N.of_nat o + 1)); lia.
  - right. destruct (N.ltb_spec len (N.of_nat o + 1)) as [Hlt|Hge].
    + replace (N.to_nat (N.of_nat o + 1) - 1)%nat with o by lia.
      rewrite nth_set_at_same by lia. apply lor_pow2_nonzero.
    + destruct (Nat.eq_dec (N.to_nat len - 1) o) as [E|E].
      * rewrite E, nth_set_at_same by lia. apply lor_pow2_nonzero.
      * rewrite nth_set_at_other by lia. destruct Hlast as [H0|Hn]; [lia|exact Hn].
Qed.

Definition bs_inv (bs : list block) : Prop :=
  Forall (fun b => blk_wf b /\ blk_ne b) bs /\ StronglySorted (fun a b => fst a < fst b) bs.

Lemma bs_inv_nil : bs_inv [].
Proof. split; constructor. Qed.

Lemma block_add_fst b o m : fst (block_add b o m) = fst b.
Proof. destruct b as [w [len data]]. reflexivity. Qed.

Lemma bm_add_at_lower lo bs w o m :
  Forall (fun x => lo < fst x) bs -> lo < w -> Forall (fun x => lo < fst x) (bm_add_at bs w o m).
Proof.
  intros Hbs Hw. induction Hbs as [|b r Hb Hr IH]; cbn [bm_add_at].
  - constructor; [rewrite block_add_fst; exact Hw|constructor].
  - destruct (fst b ?= w).
    + constructor; [rewrite block_add_fst; exact Hb|exact Hr].
    + constructor; [exact Hb|exact IH].
    + constructor; [rewrite block_add_fst; exact Hw|]. constructor; assumption.
Qed.

Lemma bm_add_at_inv bs w o j : bs_inv bs -> w < 256 -> (o < 32)%nat -> j < 8 ->
  bs_inv (bm_add_at bs w o (2 ^ j)).
Proof.
  intros [Hall Hs] Hw Ho Hj. induction bs as [|b r IH]; cbn [bm_add_at].
  - destruct (block_add_wf _ o j (fresh_wf w Hw) Ho Hj) as (A & B).
    split; [constructor; [split; assumption|constructor]|constructor; constructor].
  - inversion Hall as [|? ? [Hbw Hbn] Hall']; subst.
    apply StronglySorted_inv in Hs as [Hs' Hlt].
    destruct (N.compare_spec (fst b) w) as [E|L|G].
    + destruct (block_add_wf _ o j Hbw Ho Hj) as (A & B).
      split; [constructor; [split; assumption|exact Hall']|].
      constructor; [exact Hs'|]. rewrite block_add_fst. exact Hlt.
    + destruct (IH Hall' Hs') as [IA IS].
      split; [constructor; [split; assumption|exact IA]|].
      constructor; [exact IS|]. apply bm_add_at_lower; [exact Hlt|exact L].
    + destruct (block_add_wf _ o j (fresh_wf w Hw) Ho Hj) as (A & B).
      split; [constructor; [split; assumption|exact Hall]|].
      constructor; [constructor; assumption|]. rewrite block_add_fst. cbn [fst].
      constructor; [exact G|]. eapply Forall_impl; [|exact Hlt]. cbn. intros a Ha. lia.
Qed.

Lemma bm_add_inv bs t : bs_inv bs -> t < 65536 -> bs_inv (bm_add bs t).
Proof.
  intros H Ht. unfold bm_add. rewrite split_rtype_eq.
  apply bm_add_at_inv; [exact H|apply twin_lt; exact Ht|apply toct_lt|apply tbit_lt].
Qed.

Fixpoint bs_has (bs : list block) (w : N) (o : nat) (j : N) : bool :=
  match bs with
  | [] => false
  | b :: r => if fst b =? w then N.testbit (nth o (snd (snd b)) 0) j else bs_has r w o j
  end.

Lemma bs_has_above bs w o j : Forall (fun x => w < fst x) bs -> bs_has bs w o j = false.
Proof.
  induction 1 as [|b r Hb Hr IH]; cbn [bs_has]; [reflexivity|].
  destruct (N.eqb_spec (fst b) w); [lia|exact IH].
Qed.

Lemma block_add_bit b o j o' j' : (o < length (snd (snd b)))%nat ->
  N.testbit (nth o' (snd (snd (block_add b o (2 ^ j)))) 0) j' =
  N.testbit (nth o' (snd (snd b)) 0) j' || ((o =? o')%nat && (j =? j')).
Proof.
  destruct b as [w [len data]]. cbn [block_add snd fst]. intros Ho.
  destruct (Nat.eqb_spec o o') as [<-|Hne].
  - rewrite nth_set_at_same by exact Ho. rewrite N.lor_spec, N.pow2_bits_eqb. reflexivity.
  - rewrite nth_set_at_other by exact Hne. cbn [andb]. rewrite orb_false_r. reflexivity.
Qed.

Lemma bs_has_add_at bs w o j w' o' j' : bs_inv bs -> (o < 32)%nat ->
  bs_has (bm_add_at bs w o (2 ^ j)) w' o' j' =
  bs_has bs w' o' j' || ((w =? w') && (o =? o')%nat && (j =? j')).
Proof.
  intros [Hall Hs] Ho. induction bs as [|b r IH]; cbn [bm_add_at].
  - cbn [bs_has]. rewrite block_add_fst. cbn [fst].
    destruct (N.eqb_spec w w'); [|reflexivity].
    rewrite block_add_bit by (cbn [snd]; rewrite zero_data_length; exact Ho).
    cbn [snd]. unfold bm_zero_data. rewrite nth_repeat0, N.bits_0. reflexivity.
  - inversion Hall as [|? ? [Hbw Hbn] Hall']; subst.
    apply StronglySorted_inv in Hs as [Hs' Hlt].
    assert (Hlen : length (snd (snd b)) = 32%nat)
      by (destruct b as [? [? ?]]; cbn [snd]; apply Hbw).
    destruct (N.compare_spec (fst b) w) as [E|L|G]; cbn [bs_has].
    + rewrite block_add_fst. destruct (N.eqb_spec (fst b) w') as [E'|N'].
      * rewrite block_add_bit by lia.
        replace (w =? w') with true by (symmetry; apply N.eqb_eq; congruence). reflexivity.
      * destruct (N.eqb_spec w w'); [lia|]. cbn [andb]. rewrite orb_false_r. reflexivity.
    + destruct (N.eqb_spec (fst b) w') as [E'|N'].
      * destruct (N.eqb_spec w w'); [lia|]. cbn [andb]. rewrite orb_false_r. reflexivity.
      * apply IH; assumption.
    + rewrite block_add_fst. cbn [fst]. destruct (N.eqb_spec w w') as [<-|N'].
      * rewrite block_add_bit by (cbn [snd]; rewrite zero_data_length; exact Ho).
        cbn [snd]. unfold bm_zero_data. rewrite nth_repeat0, N.bits_0. cbn [orb andb].
        destruct (N.eqb_spec (fst b) w); [lia|].
        rewrite bs_has_above; [reflexivity|].
        eapply Forall_impl; [|exact Hlt]. cbn. intros a Ha. lia.
      * cbn [andb]. rewrite orb_false_r. reflexivity.
Qed.

Definition bs_has_type (bs : list block) (t : N) : bool := bs_has bs (twin t) (toct t) (tbit t).

Lemma bs_has_type_add bs t t' : bs_inv bs ->
  bs_has_type (bm_add bs t) t' = bs_has_type bs t' || (t =? t').
Proof.
  intros H. unfold bs_has_type, bm_add. rewrite split_rtype_eq.
  rewrite bs_has_add_at by (auto using toct_lt). f_equal. apply same_pos_eq.
Qed.

Lemma bs_has_type_nil t : bs_has_type [] t = false.
Proof. reflexivity. Qed.

Lemma bm_adds_inv ts : forall bs, bs_inv bs -> Forall (fun t => t < 65536) ts -> bs_inv (bm_adds bs ts).
Proof.
  induction ts as [|t ts IH]; intros bs H Hts; cbn [bm_adds fold_left]; [exact H|].
  inversion Hts; subst. apply IH; [apply bm_add_inv; assumption|assumption].
Qed.

Lemma bm_adds_has ts : forall bs t', bs_inv bs -> Forall (fun t => t < 65536) ts ->
  bs_has_type (bm_adds bs ts) t' = bs_has_type bs t' || existsb (fun t => t =? t') ts.
Proof.
  induction ts as [|t ts IH]; intros bs t' H Hts; cbn [bm_adds fold_left existsb].
  - rewrite orb_false_r. reflexivity.
  - inversion Hts; subst. change (fold_left bm_add ts (bm_add bs t)) with (bm_adds (bm_add bs t) ts).
    rewrite IH by (auto using bm_add_inv). rewrite bs_has_type_add by exact H.
    rewrite orb_assoc. reflexivity.
Qed.

Lemma block_wire_eq b : block_wire b =
  fst b :: fst (snd b) :: firstn (N.to_nat (fst (snd b))) (snd (snd b)).
Proof.
  destruct b as [w [len data]]. cbn [block_wire fst snd]. cbv [bm_chunk_plus bm_header].
  replace (len + 2 - 2) with len by lia. reflexivity.
Qed.

Lemma contains_aux_finalize bs w o j fuel : bs_inv bs ->
  (length (bm_finalize bs) < fuel)%nat ->
  bm_contains_aux fuel (bm_finalize bs) w o (2 ^ j) = Ok (bs_has bs w o j).
Proof.
  intros [Hall _]. revert fuel. induction bs as [|b r IH]; intros fuel Hf.
  - destruct fuel; [simpl in Hf; lia|]. reflexivity.
  - inversion Hall as [|? ? [Hbw Hbn] Hall']; subst.
    destruct fuel as [|fuel]; [lia|].
    unfold bm_finalize in *. cbn [flat_map] in *. rewrite block_wire_eq in *.
    destruct b as [bw [len data]]. cbn [fst snd] in *.
    destruct Hbw as (Hw & Hl & Hlen & Hb & Hz & Hlast).
    cbn [app bm_contains_aux].
    assert (Hfl : length (firstn (N.to_nat len) data) = N.to_nat len)
      by (rewrite firstn_length; lia).
    rewrite app_length, Hfl.
    destruct (Nat.ltb_spec (N.to_nat len + length (flat_map block_wire r)) (N.to_nat len)); [lia|].
    rewrite <- Hfl at 1 3. rewrite firstn_app, firstn_all, Nat.sub_diag. cbn [firstn]. rewrite app_nil_r.
    cbn [bs_has fst snd].
    destruct (N.eqb_spec bw w) as [E|NE].
    + f_equal. rewrite land_pow2_testbit, Hfl.
      destruct (Nat.leb_spec (N.to_nat len) o) as [Hle|Hgt].
      * cbn [orb negb]. rewrite (Hz o Hle), N.bits_0. reflexivity.
      * cbn [orb]. rewrite negb_involutive.
        rewrite <- (firstn_skipn (N.to_nat len) data) at 2. rewrite app_nth1 by lia. reflexivity.
    + rewrite <- Hfl at 1. rewrite skipn_app, skipn_all, Nat.sub_diag. cbn [skipn app].
      apply IH; [exact Hall'|]. rewrite app_length in Hf. cbn [length] in Hf. lia.
Qed.

Lemma bm_contains_finalize bs t : bs_inv bs ->
  bm_contains (bm_finalize bs) t = Ok (bs_has_type bs t).
Proof.
  intros H. unfold bm_contains. rewrite split_rtype_eq.
  apply contains_aux_finalize; [exact H|lia].
Qed.

Lemma existsb_eqb_In ts t : existsb (fun x => x =? t) ts = true <-> In t ts.
Proof.
  rewrite existsb_exists. split.
  - intros (x & Hx & E). apply N.eqb_eq in E. subst. exact Hx.
  - intros H. exists t. split; [exact H|apply N.eqb_refl].
Qed.

Theorem bitmap_roundtrip ts t : Forall (fun x => x < 65536) ts ->
  exists b, bm_contains (bm_finalize (bm_adds [] ts)) t = Ok b /\ (b = true <-> In t ts).
Proof.
  intros Hts. eexists. split.
  - apply bm_contains_finalize. apply bm_adds_inv; [apply bs_inv_nil|exact Hts].
  - rewrite bm_adds_has by (auto using bs_inv_nil). rewrite bs_has_type_nil. cbn [orb].
    apply existsb_eqb_In.
Qed.

Lemma last_firstn_nth (l : list N) n : (1 <= n <= length l)%nat ->
  last (firstn n l) 0 = nth (n - 1) l 0.
Proof.
  revert l; induction n as [|n IH]; intros l H; [lia|].
  destruct l as [|x l]; [simpl in H; lia|]. cbn [firstn].
  destruct n as [|n].
  - reflexivity.
  - cbn [length] in H. specialize (IH l ltac:(lia)).
    destruct l as [|y l]; [simpl in H; lia|].
    cbn [firstn] in *. cbn [last]. cbn [last] in IH.
    replace (S (S n) - 1)%nat with (S n) by lia. cbn [nth].
    replace (S n - 1)%nat with n in IH by lia.
    destruct (firstn n l) eqn:E; exact IH.
Qed.

Lemma finalize_wire_ok bs prev : bs_inv bs ->
  (match prev with Some p => Forall (fun b => p < fst b) bs | None => True end) ->
  bm_wire_ok prev (bm_finalize bs).
Proof.
  intros [Hall Hs]. revert prev. induction bs as [|b r IH]; intros prev Hp.
  - constructor.
  - inversion Hall as [|? ? [Hbw Hbn] Hall']; subst.
    apply StronglySorted_inv in Hs as [Hs' Hlt].
    unfold bm_finalize. cbn [flat_map]. rewrite block_wire_eq.
    destruct b as [w [len data]]. cbn [fst snd] in *.
    destruct Hbw as (Hw & Hl & Hlen & Hb & Hz & Hlast). unfold blk_ne in Hbn. cbn [fst snd] in Hbn.
    cbn [app]. apply bwo_window.
    + destruct prev as [p|]; [inversion Hp; subst; assumption|exact I].
    + exact Hw.
    + lia.
    + rewrite firstn_length. lia.
    + apply Forall_forall. intros x Hx. rewrite Forall_forall in Hb. apply Hb.
      rewrite <- (firstn_skipn (N.to_nat len) data). apply in_or_app. left. exact Hx.
    + rewrite last_firstn_nth by lia. destruct Hlast; [lia|assumption].
    + apply IH; assumption.
Qed.

Theorem bitmap_wire_layout ts : Forall (fun x => x < 65536) ts ->
  bm_wire_ok None (bm_finalize (bm_adds [] ts)).
Proof.
  intros Hts. apply finalize_wire_ok; [|exact I].
  apply bm_adds_inv; [apply bs_inv_nil|exact Hts].
Qed.

Example bitmap_example :
  bm_finalize (bm_adds [] [46; 47; 1; 257]) = [0; 6; 64; 0; 0; 0; 0; 3; 1; 1; 64] /\
  bm_contains (bm_finalize (bm_adds [] [46; 47; 1; 257])) 257 = Ok true /\
  bm_contains (bm_finalize (bm_adds [] [46; 47; 1; 257])) 2 = Ok false.
Proof. vm_compute. auto. Qed.

(* RtypeBitmap::from_octets accepts what finalize produces *)
Lemma bm_check_wire_ok : forall w prev fuel, bm_wire_ok prev w -> (length w < fuel)%nat ->
  bm_check fuel w = Ok tt.
Proof.
  intros w prev fuel H. revert fuel. induction H as [prev|prev w len data rest Hp Hw Hlen Hdl Hb Hlast Hrest IH];
    intros fuel Hf; (destruct fuel as [|fuel]; [lia|]); [reflexivity|].
  cbn [bm_check]. cbv [bm_parse_header bm_parse_empty_chunk bm_parse_max_chunk].
  destruct (N.eqb_spec (len + 2) 2); [lia|]. destruct (N.ltb_spec 34 (len + 2)); [lia|].
  cbn [length] in *. rewrite app_length in *.
  destruct (Nat.ltb_spec (S (S (length data + length rest))) (N.to_nat (len + 2))); [lia|].
  replace (N.to_nat (len + 2)) with (S (S (length data))) by lia. cbn [skipn].
  rewrite <- (app_nil_l rest) at 1. rewrite skipn_app, skipn_all, Nat.sub_diag. cbn [skipn app].
  apply IH. lia.
Qed.

Lemma finalize_reparses bs : bs_inv bs ->
  bm_wire_ok None (bm_finalize bs) /\ bm_from_octets (bm_finalize bs) = Ok tt.
Proof.
  intros H. pose proof (finalize_wire_ok bs None H I) as W. split; [exact W|].
  unfold bm_from_octets. eapply bm_check_wire_ok; [exact W|lia].
Qed.

Theorem bitmap_reparses ts : Forall (fun x => x < 65536) ts ->
  bm_from_octets (bm_finalize (bm_adds [] ts)) = Ok tt.
Proof. intros Hts. apply finalize_reparses, bm_adds_inv; [apply bs_inv_nil|exact Hts]. Qed.

Example bm_from_octets_examples :
  bm_from_octets [0; 0] = Err 11 /\ bm_from_octets [0; 33; 1] = Err 11 /\ bm_from_octets [0; 2; 1] = Err 10 /\
  bm_from_octets [7] = Err 10 /\ bm_from_octets [0; 1; 0; 0; 1; 0] = Ok tt.
Proof. vm_compute. auto. Qed.

(* pins of layout constants that no other lemma unfolds *)
Example layout_pins : bm_len_index = 1 /\ bm_block_size = 34 /\ bm_header = 2 /\ bm_data_len = 32%nat.
Proof. repeat split. Qed.

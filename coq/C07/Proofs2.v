(* C07 proofs, part 2: progress / totality of the item stream, layout lemmas on
   the item scanner, quoted versus escaped tokens. *)
From Coq Require Import NArith List Bool Arith Lia.
From DV Require Import Base.Outcome Base.Bytes C07.Gen C07.Model C07.Proofs.
Import ListNotations.
Local Open Scope N_scope.

Lemma syms_loop_progress fuel s c t :
  overlong_rejected = true ->
  Inv s -> scat s = CUnq -> rest s = c :: t -> is_delim c = false ->
  (length (rest s) < fuel)%nat ->
  match syms_loop fuel s [] with
  | Ok (_, s') => Inv s' /\ is_token (scat s') = false /\ (start s < start s')%nat /\ buf s' = buf s
  | Err _ => True
  | _ => False
  end.
Proof.
  intros Hov HI Hc Hr Hd Hf. destruct fuel as [|f]; [lia|].
  cbn [syms_loop]. unfold next_symbol.
  pose proof (next_symbol_gen_no_panic (fun _ => true) s) as NP.
  destruct (next_symbol_gen (fun _ => true) s) as [[[sym|] s1]| | |] eqn:E; cbn [bind]; auto.
  - pose proof (next_symbol_gen_inv _ _ _ _ HI E) as (HI1 & Hb & Hs & Hr1 & _).
    destruct (Hr1 ltac:(discriminate)) as [Hlt Htok]. pose proof (rest_shrinks s s1 HI1 Hb Hlt).
    pose proof (syms_loop_total f s1 [sym] HI1 ltac:(lia)) as T.
    destruct (syms_loop f s1 [sym]) as [[x s2]| | |]; auto.
    destruct T as (A & B & C & D & _). repeat split; auto; try lia; congruence.
  - exfalso. destruct (next_symbol_end s s1 Hov ltac:(rewrite Hc; reflexivity) E)
      as [(_ & _ & d & t' & Hl & Hd') | (Ec & _)]; [|congruence].
    rewrite Hr in Hl. injection Hl as -> _. congruence.
Qed.

(* The item stream of every byte string is produced without panic and within
   the fuel bound: every turn of the loop consumes at least one octet. *)
Lemma items_loop_total : overlong_rejected = true ->
  forall fuel s acc, Inv s -> is_token (scat s) = false -> (length (rest s) < fuel)%nat ->
  match snd (items_loop fuel s acc) with EEof | EErr _ => True | _ => False end.
Proof.
  intros Hov. induction fuel as [|f IH]; intros s acc HI Hc Hf; [lia|].
  cbn [items_loop].
  destruct (next_item_total s HI Hc) as [(s1 & E & _) | E]; rewrite E; [|exact I].
  destruct (next_item_ok s s1 HI E) as (HI1 & Hb & Hs & Hq & Hu & _).
  assert (Next : forall s2 acc2, Inv s2 -> is_token (scat s2) = false -> buf s2 = buf s ->
            (start s < start s2)%nat ->
            match snd (items_loop f s2 acc2) with EEof | EErr _ => True | _ => False end).
  { intros s2 acc2 HI2 Hc2 Hb2 Hlt. apply IH; auto. pose proof (rest_shrinks s s2 HI2 Hb2 Hlt). lia. }
  destruct (scat s1) eqn:Ec.
  - exact I.
  - (* unquoted token: its first symbol is consumed *)
    destruct (Hu eq_refl) as (c & t & Hr & Hd).
    pose proof (syms_loop_progress (fuel_of s1) s1 c t Hov HI1 Ec Hr Hd) as P.
    specialize (P ltac:(rewrite (rest_length s1); unfold fuel_of; lia)).
    destruct (syms_loop (fuel_of s1) s1 []) as [[syms s2]| | |]; auto; cbn [snd]; auto.
    destruct P as (HI2 & Ht2 & Hlt & Hb2). apply Next; [exact HI2|exact Ht2|congruence|lia].
  - (* quoted token: the opening quote is consumed *)
    pose proof (syms_loop_total (fuel_of s1) s1 [] HI1) as T.
    specialize (T ltac:(rewrite (rest_length s1); unfold fuel_of; lia)).
    destruct (syms_loop (fuel_of s1) s1 []) as [[syms s2]| | |]; auto; cbn [snd]; auto.
    destruct T as (HI2 & Ht2 & Hle & Hb2 & _). specialize (Hq (or_intror eq_refl)). apply Next; [exact HI2|exact Ht2|congruence|lia].
  - (* line feed *)
    apply Next; [exact HI1|rewrite Ec; reflexivity|exact Hb|exact (Hq (or_introl eq_refl))].
Qed.

Lemma init_inv file : Inv (init_sbuf file) /\ is_token (scat (init_sbuf file)) = false
  /\ length (rest (init_sbuf file)) = length file.
Proof.
  unfold Inv, init_sbuf, rest, init_start. cbn [buf start scat is_token skipn length].
  repeat split; lia.
Qed.

Theorem items_total : overlong_rejected = true ->
  forall file, match snd (items_of file) with EEof | EErr _ => True | _ => False end.
Proof.
  intros Hov file. unfold items_of. destruct (init_inv file) as (A & B & C).
  apply items_loop_total; auto; lia.
Qed.

Example items_total_nonvacuous :
  items_of [97; 32; 34; 98; 32; 99; 34; 10; 59; 120] =
    ([ITok false false [SChar 97]; ITok true true [SChar 98; SChar 32; SChar 99]; ILF], EEof).
Proof. vm_compute. reflexivity. Qed.

(* without the over-long check the item loop does not make progress *)
Theorem items_total_refuted : overlong_rejected = false ->
  exists file, snd (items_of file) = EFuel.
Proof.
  intros H. exists [192; 160]. revert H. vm_compute.
  intros H; first [discriminate H | reflexivity].
Qed.

(* What next_item decides from the octets in front of it: category, paren
   depth, has_space, and the octets that remain (the count is only a position). *)
Definition ni_view (l : list N) (p : nat) (h : bool) : option (cat * nat * bool * list N) :=
  match ni_loop l false p h 0 with
  | NiErr => None
  | NiOk n c p' h' => Some (c, p', h', skipn n l)
  end.

Lemma ni_loop_shift l : forall incom p h n k,
  ni_loop l incom p h (n + k) =
  match ni_loop l incom p h n with NiErr => NiErr | NiOk n' c p' h' => NiOk (n' + k) c p' h' end.
Proof.
  induction l as [|ch t IH]; intros incom p h n k; cbn [ni_loop]; [reflexivity|].
  repeat match goal with
  | |- context [if ?b then _ else _] => destruct b
  | |- context [match ?p with O => _ | S _ => _ end] => destruct p
  end; try reflexivity; try (rewrite <- IH; reflexivity).
Qed.

Lemma ni_loop_from0 l incom p h n :
  ni_loop l incom p h n =
  match ni_loop l incom p h 0 with NiErr => NiErr | NiOk n' c p' h' => NiOk (n' + n) c p' h' end.
Proof. apply (ni_loop_shift l incom p h 0 n). Qed.

(* one skipped octet in front: same decision on the remainder *)
Lemma ni_view_skip ch t p h p1 h1 :
  ni_loop (ch :: t) false p h 0 = ni_loop t false p1 h1 1 ->
  ni_view (ch :: t) p h = ni_view t p1 h1.
Proof.
  intros H. unfold ni_view. rewrite H. rewrite (ni_loop_from0 t false p1 h1 1).
  destruct (ni_loop t false p1 h1 0) as [|n c p' h']; [reflexivity|].
  rewrite Nat.add_1_r. reflexivity.
Qed.

Definition is_space (ch : N) : bool := memN ch ni_space.

Lemma ni_view_space ch t p h : is_space ch = true -> ni_view (ch :: t) p h = ni_view t p true.
Proof.
  intros H. apply ni_view_skip. cbn [ni_loop andb]. unfold is_space in H. rewrite H. reflexivity.
Qed.

(* a nonempty run of blanks / tabs / CRs is equivalent to any other such run *)
Lemma ni_view_space_run ws t p h : Forall (fun c => is_space c = true) ws -> ws <> [] ->
  ni_view (ws ++ t) p h = ni_view t p true.
Proof.
  intros F. revert h. induction F as [|c ws Hc F IH]; intros h Hne; [congruence|].
  cbn [app]. rewrite ni_view_space by exact Hc.
  destruct ws as [|c2 ws2]; [reflexivity|]. apply IH. discriminate.
Qed.

Theorem layout_spacing ws1 ws2 t p h :
  Forall (fun c => is_space c = true) ws1 -> ws1 <> [] ->
  Forall (fun c => is_space c = true) ws2 -> ws2 <> [] ->
  ni_view (ws1 ++ t) p h = ni_view (ws2 ++ t) p h.
Proof. intros. rewrite !ni_view_space_run by assumption. reflexivity. Qed.

Example layout_spacing_ex : ni_view ([32; 9; 13] ++ [97]) 0 false = ni_view ([9] ++ [97]) 0 false
  /\ ni_view [9; 97] 0 false = Some (CUnq, 0%nat, true, [97]).
Proof. vm_compute. split; reflexivity. Qed.

(* comment text is skipped up to (not including) the line feed *)
Lemma ni_loop_comment_body c : Forall (fun x => x <> ni_comment_end) c ->
  forall t p h n, ni_loop (c ++ t) true p h n = ni_loop t true p h (n + length c).
Proof.
  induction 1 as [|x c Hx F IH]; intros t p h n; cbn [app length].
  - rewrite Nat.add_0_r. reflexivity.
  - cbn [ni_loop]. assert (E : (x =? ni_comment_end) = false) by (apply N.eqb_neq; exact Hx).
    rewrite E. cbn [andb negb]. rewrite IH. f_equal. lia.
Qed.

(* inserting a comment in front of a line feed changes nothing *)
Theorem layout_comment c t p h : Forall (fun x => x <> ni_comment_end) c ->
  ni_view (ni_comment :: c ++ ni_newline :: t) p h = ni_view (ni_newline :: t) p h.
Proof.
  intros F. unfold ni_view.
  (* the `;` opens the comment, the line feed ends it and is looked at again *)
  assert (E : ni_loop (ni_comment :: c ++ ni_newline :: t) false p h 0
            = ni_loop (ni_newline :: t) false p h (1 + length c)).
  { transitivity (ni_loop (c ++ ni_newline :: t) true p h 1); [reflexivity|].
    rewrite ni_loop_comment_body by exact F. reflexivity. }
  rewrite E. rewrite (ni_loop_from0 _ false p h (1 + length c)).
  destruct (ni_loop (ni_newline :: t) false p h 0) as [|n c0 p' h'] eqn:E0; [reflexivity|].
  f_equal. f_equal.
  replace (n + (1 + length c))%nat with (S (length c) + n)%nat by lia.
  rewrite <- skipn_add. f_equal.
  apply (drop_app_length (ni_comment :: c) (ni_newline :: t)).
Qed.

Example layout_comment_ex :
  ni_view ([59; 32; 34; 40] ++ [10; 97]) 0 true = ni_view [10; 97] 0 true
  /\ ni_view [10; 97] 0 true = Some (CLF, 0%nat, true, [97]).
Proof. vm_compute. split; reflexivity. Qed.

(* parentheses: `(` raises the depth, `)` lowers it, a line feed inside a group
   is skipped like a blank that does not set has_space (the dispatch on these
   characters is evaluated) *)
Lemma ni_view_open t p h : ni_view (ni_open :: t) p h = ni_view t (S p) h.
Proof. apply ni_view_skip. reflexivity. Qed.

Lemma ni_view_close t p h : ni_view (ni_close :: t) (S p) h = ni_view t p h.
Proof. apply ni_view_skip. reflexivity. Qed.

Lemma ni_view_newline_in_group t p h : ni_view (ni_newline :: t) (S p) h = ni_view t (S p) h.
Proof. apply ni_view_skip. reflexivity. Qed.

(* a separator of blanks may be replaced by `( <newline> blanks` -- the group
   stays open for the continuation, whose line feeds are then skipped -- and
   `blanks )` in front of the closing line feed closes it again *)
Theorem layout_parens_open ws1 ws2 ws3 t p h :
  Forall (fun c => is_space c = true) ws1 -> ws1 <> [] ->
  Forall (fun c => is_space c = true) ws2 ->
  Forall (fun c => is_space c = true) ws3 -> ws3 <> [] ->
  ni_view (ws1 ++ ni_open :: ws2 ++ ni_newline :: ws3 ++ t) p h = ni_view (ws1 ++ t) (S p) h.
Proof.
  intros F1 N1 F2 F3 N3.
  rewrite !ni_view_space_run by assumption.
  rewrite ni_view_open.
  destruct ws2 as [|c ws2].
  - cbn [app]. rewrite ni_view_newline_in_group. apply ni_view_space_run; assumption.
  - rewrite ni_view_space_run by (assumption || discriminate).
    rewrite ni_view_newline_in_group. apply ni_view_space_run; assumption.
Qed.

Theorem layout_parens_close ws t p h :
  Forall (fun c => is_space c = true) ws -> ws <> [] ->
  ni_view (ws ++ ni_close :: t) (S p) h = ni_view t p true.
Proof.
  intros F N. rewrite ni_view_space_run by assumption. apply ni_view_close.
Qed.

Example layout_parens_ex :
  ni_view ([32] ++ 40 :: [] ++ 10 :: [9] ++ [49; 32; 41; 10]) 0 false = ni_view ([32] ++ [49; 32; 41; 10]) 1 false
  /\ ni_view [32; 41; 10; 97] 1 false = Some (CLF, 0%nat, true, [97])
  /\ ni_view [10; 97] 0 true = Some (CLF, 0%nat, true, [97]).
Proof. vm_compute. repeat split; reflexivity. Qed.

(* CR LF instead of LF: the CR is a blank *)
Theorem layout_crlf t p h : ni_view (13 :: ni_newline :: t) p h = ni_view (ni_newline :: t) p true.
Proof. apply ni_view_space. vm_compute. reflexivity. Qed.

(* blank (or comment-only) lines: at depth 0 a line feed is an item of its own,
   the entry layer (scan_entry) turns it into ScannedEntry::Empty, which
   next_entry skips *)
Lemma scan_entry_blank_line zs s t :
  is_token (scat s) = false -> par s = 0%nat -> rest s = ni_newline :: t ->
  scan_entry zs s = Ok (SEmpty, zs, mkS (buf s) (S (start s)) CLF false 0).
Proof.
  intros Hc Hp Hr. unfold scan_entry, next_item. rewrite Hc, Hr, Hp.
  change (ni_loop (ni_newline :: t) false 0 false 0) with (NiOk 1 CLF 0 false).
  cbn [bind scat]. rewrite Nat.add_1_r. reflexivity.
Qed.

(* list-level symbol reader of a token (what syms_loop sees through `rest`) *)
Fixpoint syms_l (fuel : nat) (quoted : bool) (l : list N) (acc : list symbol)
  : option (list symbol * list N) :=
  match fuel with
  | O => None
  | S f =>
    match sym_at l with
    | SymOk sym n =>
      if quoted then
        if sym_eqb sym (SChar 34) then Some (rev acc, skipn n l)
        else syms_l f quoted (skipn n l) (sym :: acc)
      else if negb (is_word_char sym) then Some (rev acc, l)
      else syms_l f quoted (skipn n l) (sym :: acc)
    | _ => None
    end
  end.

Definition dec_escape (b : N) : list N := [esc_char; 48 + b / 100; 48 + (b / 10) mod 10; 48 + b mod 10].

Lemma sym_at_dec_escape b t : b < 256 -> sym_at (dec_escape b ++ t) = SymOk (SDec b) 4.
Proof.
  intros Hb. unfold dec_escape. cbn [app].
  rewrite sym_at_decimal by lia.
  cbn zeta. replace (b / 100 * 100 + b / 10 mod 10 * 10 + b mod 10) with b by lia.
  replace (b <=? 255) with true by (symmetry; apply N.leb_le; lia). reflexivity.
Qed.

(* an octet inside quotes: itself when it is printable and neither quote nor
   backslash, else a decimal escape *)
Definition plain_in_quotes (b : N) : bool :=
  (octet_lo <=? b) && (b <=? octet_hi) && negb (b =? 34) && negb (b =? esc_char).
Definition q_enc (b : N) : list N := if plain_in_quotes b then [b] else dec_escape b.
Definition q_sym (b : N) : symbol := if plain_in_quotes b then SChar b else SDec b.
(* the fully escaped unquoted form *)
Definition u_enc (b : N) : list N := dec_escape b.
Definition u_sym (b : N) : symbol := SDec b.

Lemma sym_at_plain b t : b < 256 -> plain_in_quotes b = true ->
  sym_at (b :: t) = SymOk (SChar b) 1 /\ b <> 34 /\ into_octet (SChar b) = Some b.
Proof.
  intros _ Hp. unfold plain_in_quotes in Hp.
  apply andb_true_iff in Hp as [Hp He]. apply andb_true_iff in Hp as [Hp Hq]. apply andb_true_iff in Hp as [Hlo Hhi].
  apply negb_true_iff in He, Hq.
  assert (Ha : (b <? 128) = true) by (apply N.ltb_lt; apply N.leb_le in Hhi; change octet_hi with 126 in Hhi; lia).
  split; [|split].
  - unfold sym_at. rewrite He, ascii_bound_val, Ha. reflexivity.
  - apply N.eqb_neq. exact Hq.
  - cbn [into_octet]. rewrite Ha, Hlo, Hhi. reflexivity.
Qed.

Lemma q_sym_octet b : b < 256 -> into_octet (q_sym b) = Some b.
Proof.
  intros Hb. unfold q_sym. destruct (plain_in_quotes b) eqn:E; [|reflexivity].
  apply (sym_at_plain b [] Hb E).
Qed.

(* reading "w" written inside quotes yields symbols whose octets are w *)
Lemma syms_l_quoted w : wf_bytes w -> forall t acc fuel, (length w < fuel)%nat ->
  syms_l fuel true (concat (map q_enc w) ++ 34 :: t) acc = Some (rev acc ++ map q_sym w, t).
Proof.
  induction 1 as [|b w Hb F IH]; intros t acc fuel Hf.
  - destruct fuel; [cbn in Hf; lia|]. cbn. rewrite app_nil_r. reflexivity.
  - destruct fuel as [|f]; [cbn in Hf; lia|]. cbn [map concat]. rewrite <- app_assoc.
    destruct (plain_in_quotes b) eqn:Ep.
    + assert (Eq1 : q_enc b = [b]) by (unfold q_enc; rewrite Ep; reflexivity).
      assert (Eq2 : q_sym b = SChar b) by (unfold q_sym; rewrite Ep; reflexivity).
      rewrite Eq1, Eq2. cbn [app syms_l].
      destruct (sym_at_plain b (concat (map q_enc w) ++ 34 :: t) Hb Ep) as (E & Hne & _).
      rewrite E. cbn [sym_eqb]. assert (Q : (b =? 34) = false) by (apply N.eqb_neq; exact Hne).
      rewrite Q. cbn [skipn]. rewrite IH by (cbn in Hf; lia). cbn [rev map]. rewrite <- app_assoc. reflexivity.
    + assert (Eq1 : q_enc b = dec_escape b) by (unfold q_enc; rewrite Ep; reflexivity).
      assert (Eq2 : q_sym b = SDec b) by (unfold q_sym; rewrite Ep; reflexivity).
      rewrite Eq1, Eq2. cbn [syms_l].
      rewrite sym_at_dec_escape by exact Hb. cbn [sym_eqb].
      unfold dec_escape. cbn [app skipn]. rewrite IH by (cbn in Hf; lia).
      cbn [rev map]. rewrite <- app_assoc. reflexivity.
Qed.

(* reading the fully escaped unquoted form stops at the next delimiter *)
Lemma syms_l_escaped w : wf_bytes w -> forall d t acc fuel, is_delim d = true -> d < 128 -> d <> esc_char ->
  (length w < fuel)%nat ->
  syms_l fuel false (concat (map u_enc w) ++ d :: t) acc = Some (rev acc ++ map u_sym w, d :: t).
Proof.
  induction 1 as [|b w Hb F IH]; intros d t acc fuel Hd Hd128 Hde Hf.
  - destruct fuel; [cbn in Hf; lia|]. cbn [map concat app syms_l].
    destruct (sym_at_delim d t Hd Hd128 Hde) as [E W].
    rewrite E, W. cbn. rewrite app_nil_r. reflexivity.
  - destruct fuel as [|f]; [cbn in Hf; lia|]. cbn [map concat]. rewrite <- app_assoc.
    unfold u_enc at 1. cbn [syms_l]. rewrite sym_at_dec_escape by exact Hb.
    cbn [is_word_char negb]. unfold dec_escape. cbn [app skipn].
    rewrite IH by (auto; cbn in Hf; lia). cbn [rev map]. rewrite <- app_assoc. reflexivity.
Qed.

(* what the tokenizer guarantees: both spellings deliver the same octets
   through Symbol::into_octet (scan_octets, scan_charstr, names, TXT).  The
   symbols themselves differ (Char versus DecimalEscape), so consumers that
   look at unescaped characters -- `.` as label separator, digits of integers,
   a leading `$` or a lone `@` -- legitimately distinguish the spellings. *)
Theorem quoted_equals_escaped w d t1 t2 : wf_bytes w -> is_delim d = true -> d < 128 -> d <> esc_char ->
  exists sq su,
    syms_l (S (length w)) true (concat (map q_enc w) ++ 34 :: t1) [] = Some (sq, t1) /\
    syms_l (S (length w)) false (concat (map u_enc w) ++ d :: t2) [] = Some (su, d :: t2) /\
    map into_octet sq = map Some w /\ map into_octet su = map Some w.
Proof.
  intros Hw Hd H1 H2. eexists _, _. split; [apply syms_l_quoted; auto|].
  split; [apply syms_l_escaped; auto|]. cbn [rev app]. split.
  - induction Hw as [|b w Hb F IH]; [reflexivity|]. cbn [map]. rewrite q_sym_octet by exact Hb.
    f_equal. exact IH.
  - induction w as [|b w IH]; [reflexivity|]. cbn [map u_sym into_octet]. f_equal.
    apply IH. inversion Hw; assumption.
Qed.

Example quoted_equals_escaped_ex :
  syms_l 9 true (concat (map q_enc [97; 32; 34; 0]) ++ [34; 10]) [] = Some ([SChar 97; SChar 32; SDec 34; SDec 0], [10])
  /\ concat (map q_enc [97; 32; 34; 0]) = [97; 32; 92; 48; 51; 52; 92; 48; 48; 48].
Proof. vm_compute. split; reflexivity. Qed.

(* the list-level reader is what the model's syms_loop computes *)
Lemma syms_loop_refines : forall fuel s acc,
  is_token (scat s) = true ->
  match syms_l fuel (match scat s with CQuo => true | _ => false end) (rest s) acc with
  | Some (syms, l') =>
    exists s', syms_loop fuel s acc = Ok (syms, s') /\ rest s' = l' /\ scat s' = CNone /\ buf s' = buf s
  | None => True
  end.
Proof.
  induction fuel as [|f IH]; intros s acc Ht; [exact I|].
  cbn [syms_l syms_loop]. unfold next_symbol, next_symbol_gen.
  destruct (scat s) eqn:Ec; try discriminate.
  - destruct (sym_at (rest s)) as [| |sym n] eqn:Es; try exact I.
    destruct (negb (is_word_char sym)).
    + cbn [bind]. eexists. split; [reflexivity|]. cbn [set_cat rest buf start scat]. auto.
    + cbn [bind]. specialize (IH (advance s n) (sym :: acc)).
      cbn [advance scat] in IH. rewrite Ec in IH. specialize (IH eq_refl).
      assert (R : rest (advance s n) = skipn n (rest s)).
      { unfold rest. cbn [advance buf start]. rewrite skipn_add. reflexivity. }
      rewrite R in IH. exact IH.
  - destruct (sym_at (rest s)) as [| |sym n] eqn:Es; try exact I.
    assert (R : rest (advance s n) = skipn n (rest s)).
    { unfold rest. cbn [advance buf start]. rewrite skipn_add. reflexivity. }
    destruct (sym_eqb sym (SChar 34)).
    + cbn [bind]. eexists. split; [reflexivity|]. cbn [set_cat scat buf advance].
      split; [|auto]. unfold rest in *. cbn [set_cat advance buf start] in *. exact R.
    + cbn [bind]. specialize (IH (advance s n) (sym :: acc)).
      cbn [advance scat] in IH. rewrite Ec in IH. specialize (IH eq_refl).
      rewrite R in IH. exact IH.
Qed.

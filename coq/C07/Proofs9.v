(* C07 proofs, part 9: parenthesised continuation as a whole-file statement.
   Two files are related through the paren depth: what the reader does inside
   "( ... )" at depth p+1 is what it does on "..." at depth p as long as no
   line ends in between; inside a group a line feed is no more than a blank. *)
From Coq Require Import NArith List Bool Lia.
From DV Require Import C07.Gen C07.Model C07.Proofs2 C07.Proofs5.
Import ListNotations.
Local Open Scope N_scope.

Lemma ni_loop_depth l : forall incom p h n n' c p' h',
  ni_loop l incom p h n = NiOk n' c p' h' -> c <> CLF ->
  ni_loop l incom (S p) h n = NiOk n' c (S p') h'.
Proof.
  induction l as [|ch t IH]; intros incom p h n n' c p' h'; cbn [ni_loop].
  - intros H _; injection H as <- <- <- <-. reflexivity.
  - destruct (incom && negb (ch =? ni_comment_end)); [apply IH|].
    destruct (memN ch ni_space); [apply IH|].
    destruct (ch =? ni_cr_dead); [apply IH|].
    destruct (ch =? ni_open); [apply IH|].
    destruct (ch =? ni_close). { destruct p; [discriminate|]. apply IH. }
    destruct (ch =? ni_comment); [apply IH|].
    destruct (ch =? ni_newline).
    { destruct p; cbn [Nat.eqb]; [intros H Hc; injection H as _ <- _ _; congruence|apply IH]. }
    destruct (ch =? ni_quote); intros H _; injection H as <- <- <- <-; reflexivity.
Qed.

Lemma ni_view_depth l p h c p' h' l' : ni_view l p h = Some (c, p', h', l') -> c <> CLF ->
  ni_view l (S p) h = Some (c, S p', h', l').
Proof.
  unfold ni_view. destruct (ni_loop l false p h 0) as [|n c0 p0 h0] eqn:E; [discriminate|].
  intros H Hc; injection H as -> -> -> <-. rewrite (ni_loop_depth _ _ _ _ _ _ _ _ _ E Hc). reflexivity.
Qed.

Definition NoLF (its : list item) : Prop := Forall (fun i => i <> ILF) its.

(* a stretch of tokens without a line end is read alike one level deeper *)
Lemma Reach_depth l p its l' p' : Reach l p its l' p' -> NoLF its -> Reach l (S p) its l' (S p').
Proof.
  induction 1 as [l p | l p p' h l1 its l2 p2 V HR IH | l p c p' h l1 syms l1' its l2 p2 V Hc HT HR IH];
    intros HN.
  - apply RRefl.
  - inversion HN; subst. congruence.
  - inversion HN; subst. eapply RTok; eauto.
    apply ni_view_depth; [exact V|]. intros ->. discriminate.
Qed.

Lemma Reach_open x p its l' p' : Reach x (S p) its l' p' -> its <> [] ->
  Reach (ni_open :: x) p its l' p'.
Proof.
  intros H Hne. inversion H; subst; [congruence| |].
  - eapply RLF; [rewrite ni_view_open; eassumption|assumption].
  - eapply RTok; [rewrite ni_view_open; eassumption| | |]; eassumption.
Qed.

Lemma Reach_nil l p l' p' : Reach l p [] l' p' -> l = l' /\ p = p'.
Proof. inversion 1; auto. Qed.

(* Wrapping the fields of a line in parentheses.  File A reads
     pre  m  LF post      and file B      pre ( m ) LF post
   where the reader is at an item boundary after pre, m begins with a blank and
   holds the tokens up to the end of the line: the item streams are equal. *)
Theorem layout_parens_whole_file pre m post its1 its2 p1 :
  delim_head m ->
  Reach (pre ++ m ++ ni_newline :: post) 0 its1 (m ++ ni_newline :: post) p1 ->
  Reach (m ++ ni_newline :: post) p1 its2 (ni_newline :: post) p1 -> NoLF its2 ->
  items_of (pre ++ m ++ ni_newline :: post)
  = items_of (pre ++ ni_open :: m ++ ni_close :: ni_newline :: post).
Proof.
  intros Dm HR Hm HN.
  apply (layout_whole_file_gen pre (m ++ ni_newline :: post) (ni_open :: m ++ ni_close :: ni_newline :: post) its1 p1).
  - destruct Dm as (d & t & -> & A). exists d, (t ++ ni_newline :: post). split; [reflexivity|exact A].
  - apply delim_head_char. reflexivity.
  - intros its e HL.
    (* decompose the run on file A at the end of the line *)
    destruct (Lex_total (ni_newline :: post) p1) as (its3 & e3 & Lb).
    pose proof (Reach_Lex _ _ _ _ _ Hm _ _ Lb) as A1.
    destruct (Lex_det _ _ _ _ HL _ _ A1) as [-> ->].
    (* the same tokens in front of `)` *)
    pose proof (Reach_swap (ni_newline :: post) (ni_close :: ni_newline :: post) m p1 its2 p1
                  (delim_head_char ni_newline _ eq_refl) (delim_head_char ni_close _ eq_refl) Hm) as R2.
    (* one level deeper, behind `(` *)
    pose proof (Reach_depth _ _ _ _ _ R2 HN) as R3.
    assert (Hne : its2 <> []).
    { intros ->. destruct (Reach_nil _ _ _ _ Hm) as [Heq _].
      destruct Dm as (d & t & -> & _). apply (f_equal (@length N)) in Heq. cbn in Heq. rewrite app_length in Heq. cbn in Heq. lia. }
    pose proof (Reach_open _ _ _ _ _ R3 Hne) as R4.
    eapply Reach_Lex; [exact R4|].
    (* `)` closes the group: the rest is read as in file A *)
    eapply Lex_first_step; [|exact Lb]. symmetry. apply ni_view_close.
  - exact HR.
Qed.

(* inside a group a line feed (with or without blanks around it) can replace a
   run of blanks *)
Theorem layout_newline_in_group_whole_file pre ws ws1 ws2 t its1 p :
  Forall (fun c => is_space c = true) ws -> ws <> [] ->
  Forall (fun c => is_space c = true) ws1 -> ws1 <> [] ->
  Forall (fun c => is_space c = true) ws2 ->
  Reach (pre ++ ws ++ t) 0 its1 (ws ++ t) (S p) ->
  items_of (pre ++ ws ++ t) = items_of (pre ++ ws1 ++ ni_newline :: ws2 ++ t).
Proof.
  intros F N0 F1 N1 F2 HR.
  apply (layout_whole_file_gen pre (ws ++ t) (ws1 ++ ni_newline :: ws2 ++ t) its1 (S p)); auto using space_head.
  apply Lex_first_step.
  rewrite !ni_view_space_run by assumption. rewrite ni_view_newline_in_group.
  destruct ws2 as [|c w]; [reflexivity|]. symmetry. apply ni_view_space_run; [assumption|discriminate].
Qed.

Example layout_parens_whole_file_ex :
  items_of [97; 32; 49; 32; 50; 10; 98; 10] = items_of [97; 40; 32; 49; 32; 10; 50; 41; 10; 98; 10]
  /\ fst (items_of [97; 32; 49; 32; 50; 10; 98; 10]) =
     [ITok false false [SChar 97]; ITok false true [SChar 49]; ITok false true [SChar 50]; ILF;
      ITok false false [SChar 98]; ILF].
Proof. vm_compute. split; reflexivity. Qed.

(* C07 proofs, part 10: a bound on the outer entry loop.  rem s = octets not
   yet read.  Every operation of the model leaves rem unchanged or smaller, and
   a state at a line feed is only ever produced by consuming that line feed:
   every entry that next_entry goes on from has consumed at least one octet,
   so read_loop's fuel (length of the file + 2) is never exhausted. *)
From Coq Require Import NArith List Bool Arith Lia.
From DV Require Import Base.Outcome Base.Bytes C07.Gen C07.Model C07.Proofs C07.Proofs2 C07.Proofs4
  C07.Proofs6 C07.Proofs7 C07.Proofs8.
Import ListNotations.
Local Open Scope N_scope.

Definition rem (s : sbuf) : nat := (length (buf s) - start s)%nat.

Definition MP (s s' : sbuf) : Prop :=
  (rem s' <= rem s)%nat /\ (scat s' = CLF -> scat s = CLF \/ (rem s' < rem s)%nat).

Lemma MP_refl s : MP s s.
Proof. split; [lia|auto]. Qed.

Lemma MP_trans a b c : MP a b -> MP b c -> MP a c.
Proof.
  intros (A1 & A2) (B1 & B2). split; [lia|]. intros Hc.
  destruct (B2 Hc) as [Hb | Hb]; [destruct (A2 Hb) as [Ha | Ha]; [left; exact Ha|right; lia]|right; lia].
Qed.

(* steps that keep rem and do not create a line feed state *)
Lemma MP_same s s' : rem s' = rem s -> (scat s' = CLF -> scat s = CLF) -> MP s s'.
Proof. intros A B. split; [lia|]. intros H. left. auto. Qed.

(* the read position moves on in the same buffer, no line feed state appears *)
Lemma MP_moved s s' : buf s' = buf s -> (start s <= start s')%nat -> (scat s' = CLF -> scat s = CLF) -> MP s s'.
Proof. intros Hb Hs Hc. split; [unfold rem; rewrite Hb; lia|]. intros H. left. auto. Qed.

Definition mpo {A} (s : sbuf) (pr : A -> sbuf) (o : outcome A) : Prop :=
  match o with Ok a => MP s (pr a) | _ => True end.

Lemma mpo_bind {A B} s (pa : A -> sbuf) (pb : B -> sbuf) (o : outcome A) (f : A -> outcome B) :
  mpo s pa o -> (forall a, o = Ok a -> mpo (pa a) pb (f a)) -> mpo s pb (bind o f).
Proof.
  destruct o as [a| | |]; cbn; auto. intros H K. specialize (K a eq_refl).
  destruct (f a); cbn in *; auto. eapply MP_trans; eauto.
Qed.

Lemma mpo_ret {A B} s (pa : A -> sbuf) (pb : B -> sbuf) (o : outcome A) (f : A -> B) :
  mpo s pa o -> (forall a, pb (f a) = pa a) -> mpo s pb (do a <- o; Ok (f a)).
Proof. destruct o; cbn; auto. intros H E. rewrite E. exact H. Qed.

Lemma mpo_pure {A B} s (pb : B -> sbuf) (o : outcome A) (f : A -> outcome B) :
  (forall a, o = Ok a -> mpo s pb (f a)) -> mpo s pb (bind o f).
Proof. destruct o as [a| | |]; cbn; auto. Qed.

Lemma next_item_strict s s' : next_item s = Ok s' -> (rem s' <= rem s)%nat /\ (scat s' = CLF -> (rem s' < rem s)%nat).
Proof.
  unfold next_item. destruct (is_token (scat s)); [discriminate|].
  destruct (ni_loop (rest s) false (par s) false 0) as [|n c p h] eqn:E; [discriminate|].
  intros H; injection H as <-.
  pose proof (ni_loop_bounds _ _ _ _ _ _ _ _ _ E) as B. unfold rest in B. rewrite skipn_length in B.
  unfold rem. cbn [buf start scat]. split; [lia|]. intros ->.
  pose proof (ni_loop_lf_quo _ _ _ _ _ _ _ _ _ E (or_introl eq_refl)). lia.
Qed.

Lemma mp_next_item s : mpo s (fun x => x) (next_item s).
Proof.
  destruct (next_item s) as [s'| | |] eqn:E; cbn [mpo]; auto.
  destruct (next_item_strict _ _ E) as [A B]. split; [exact A|]. intros H. right. exact (B H).
Qed.

Lemma mp_next_symbol_gen want s : mpo s snd (next_symbol_gen want s).
Proof.
  destruct (next_symbol_gen want s) as [[[sym|] s']| | |] eqn:E; cbn [mpo snd]; auto.
  - destruct (next_symbol_gen_some _ _ _ _ E) as (_ & (n & _ & ->) & _). apply MP_moved; cbn; auto; lia.
  - destruct (next_symbol_gen_none _ _ _ E) as [(-> & _) | [(_ & -> & _) | (_ & sym & n & _ & _ & ->)]];
      [apply MP_refl|apply MP_moved; cbn; auto; lia || discriminate..].
Qed.

Lemma mp_next_symbol s : mpo s snd (next_symbol s).
Proof. apply mp_next_symbol_gen. Qed.

Lemma mp_next_ascii s : MP s (snd (next_ascii_symbol s)).
Proof.
  destruct (next_ascii_symbol s) as [[ch|] s'] eqn:E; cbn [snd].
  - destruct (next_ascii_symbol_some _ _ _ E) as (_ & -> & _). apply MP_moved; cbn; auto; lia.
  - destruct (next_ascii_symbol_none _ _ E) as [-> | (_ & -> & _)]; [apply MP_refl|apply MP_moved; cbn; auto; lia || discriminate].
Qed.

Lemma mp_trim s a : mpo s (fun x => x) (trim_to s a).
Proof.
  unfold trim_to. destruct (Nat.leb a (start s)) eqn:E; [|exact I]. apply Nat.leb_le in E.
  cbn [mpo]. apply MP_same; [|auto]. unfold rem. cbn [buf start]. rewrite skipn_length. lia.
Qed.

Lemma mp_split s a : mpo s snd (split_to s a).
Proof.
  unfold split_to. destruct (Nat.leb a (start s)) eqn:E; [|exact I]. apply Nat.leb_le in E.
  cbn [mpo snd]. apply MP_same; [|auto]. unfold rem. cbn [buf start]. rewrite skipn_length. lia.
Qed.

Lemma mp_store s i v : mpo s (fun x => x) (store s i v).
Proof.
  unfold store. destruct (set_byte (buf s) i v) eqn:E; [|exact I]. cbn [mpo].
  apply MP_same; [|auto]. unfold rem. cbn [with_buf buf start]. rewrite (set_byte_length _ _ _ _ E). reflexivity.
Qed.

Lemma mp_store_list : forall l s w, mpo s (fun x => x) (store_list s w l).
Proof.
  induction l as [|b t IH]; intros s w; cbn [store_list]; [apply MP_refl|].
  eapply mpo_bind; [apply mp_store|]. intros s1 _. apply IH.
Qed.

Lemma mp_set_cat_advance s n : MP s (set_cat (advance s n) CNone).
Proof. apply MP_moved; cbn; auto; lia || discriminate. Qed.

Lemma mp_ascii_loop : forall fuel s c, mpo s fst (ascii_loop fuel s c).
Proof.
  induction fuel as [|f IH]; intros s c; cbn [ascii_loop]; [exact I|].
  pose proof (mp_next_ascii s) as M. destruct (next_ascii_symbol s) as [r s1]. cbn [snd] in M.
  destruct r; [|exact M]. specialize (IH s1 (S c)). destruct (ascii_loop f s1 (S c)); cbn [mpo] in *; auto.
  eapply MP_trans; eauto.
Qed.

Lemma mp_write_loop conv : forall fuel s w, mpo s fst (write_loop conv fuel s w).
Proof.
  induction fuel as [|f IH]; intros s w; cbn [write_loop]; [exact I|].
  eapply mpo_bind; [apply mp_next_symbol|]. intros [r s1] _. cbn [snd]. destruct r; [|apply MP_refl].
  destruct (conv s0); [|exact I]. eapply mpo_bind; [apply mp_store|]. intros s2 _. apply IH.
Qed.

Lemma mp_char_loop : forall fuel s, mpo s (fun x => x) (char_loop fuel s).
Proof.
  induction fuel as [|f IH]; intros s; cbn [char_loop]; [exact I|].
  eapply mpo_bind; [apply mp_next_symbol_gen|]. intros [r s1] _. cbn [snd]. destruct r; [apply IH|apply MP_refl].
Qed.

Lemma mp_string_loop : forall fuel s w, mpo s fst (string_loop fuel s w).
Proof.
  induction fuel as [|f IH]; intros s w; cbn [string_loop]; [exact I|].
  eapply mpo_bind; [apply mp_next_symbol|]. intros [r s1] _. cbn [snd]. destruct r; [|apply MP_refl].
  destruct (into_char s0); [|exact I].
  destruct (Nat.leb (w + length (encode_utf8 n)) (start s1)); [|exact I].
  eapply mpo_bind; [apply mp_store_list|]. intros s2 _. apply IH.
Qed.

Lemma mp_uint_loop : forall fuel maxv chk s res, mpo s snd (uint_loop fuel maxv chk s res).
Proof.
  induction fuel as [|f IH]; intros maxv chk s res; cbn [uint_loop]; [exact I|].
  eapply mpo_bind; [apply mp_next_symbol|]. intros [r s1] _. cbn [snd]. destruct r; [|apply MP_refl].
  destruct (maxv <? res * 10); [exact I|]. destruct (into_digit s0); [|exact I].
  destruct (maxv <? res * 10 + n); [destruct chk; exact I|]. apply IH.
Qed.

Definition p3 {A} (x : A * sbuf * nat) : sbuf := snd (fst x).

Lemma mp_label_ascii_loop : forall fuel s st w latest, mpo s p3 (label_ascii_loop fuel s st w latest).
Proof.
  induction fuel as [|f IH]; intros s st w latest; cbn [label_ascii_loop]; [exact I|].
  pose proof (mp_next_ascii s) as M. destruct (next_ascii_symbol s) as [r s1]. cbn [snd] in M.
  destruct r as [ch|]; [|exact M].
  destruct (ch =? 46).
  - pose proof (mp_store s1 st (len_octet w st)) as St. destruct (store s1 st (len_octet w st)); cbn [bind mpo p3 fst snd] in *; auto.
    eapply MP_trans; eauto.
  - destruct (too_long (S w) latest label_latest_ge); [exact I|].
    specialize (IH s1 st (S w) latest). destruct (label_ascii_loop f s1 st (S w) latest); cbn [mpo] in *; auto.
    eapply MP_trans; eauto.
Qed.

Lemma mp_label_sym_loop : forall fuel s st w latest, mpo s p3 (label_sym_loop fuel s st w latest).
Proof.
  induction fuel as [|f IH]; intros s st w latest; cbn [label_sym_loop]; [exact I|].
  eapply mpo_bind; [apply mp_next_symbol|]. intros [r s1] _. cbn [snd]. destruct r as [sym|].
  - destruct (sym_eqb sym (SChar 46)).
    + pose proof (mp_store s1 st (len_octet w st)) as St. destruct (store s1 st (len_octet w st)); cbn [bind mpo p3 fst snd] in *; auto.
    + destruct (into_octet sym); [|exact I]. eapply mpo_bind; [apply mp_store|]. intros s2 _.
      destruct (too_long (S w) latest label_latest_ge); [exact I|apply IH].
  - destruct (Nat.ltb (st + 1) w).
    + pose proof (mp_store s1 st (len_octet w st)) as St. destruct (store s1 st (len_octet w st)); cbn [bind mpo p3 fst snd] in *; auto.
    + cbn [mpo p3 fst snd]. apply MP_refl.
Qed.

Lemma mp_convert_label s w : mpo s p3 (convert_label s w).
Proof.
  unfold convert_label. destruct (Nat.eqb (S w) (start s)); [|apply mp_label_sym_loop].
  eapply mpo_bind; [apply mp_label_ascii_loop|]. intros [[r s1] w1] _. unfold p3. cbn [fst snd].
  destruct r; [cbn [mpo p3 fst snd]; apply MP_refl|apply mp_label_sym_loop].
Qed.

Lemma mp_chain_tail {A} s (o : outcome A) (s' : sbuf) : MP s s' -> mpo s snd (do n <- o; Ok (n, s')).
Proof. intros H. destruct o; cbn; auto. Qed.

Lemma mp_name_loop : forall fuel origin s w, mpo s snd (name_loop fuel origin s w).
Proof.
  induction fuel as [|f IH]; intros origin s w; cbn [name_loop]; [exact I|].
  eapply mpo_bind; [apply mp_convert_label|]. intros [[res s1] w1] _. unfold p3. cbn [fst snd].
  destruct res.
  - eapply mpo_bind; [apply mp_next_item|]. intros s2 _. cbn beta.
    destruct (Nat.eqb w 0).
    + destruct origin; cbn [get_origin bind mpo]; auto. apply mp_chain_tail. apply MP_refl.
    + eapply mpo_bind; [apply mp_split|]. intros [r s3] _. cbn [fst snd]. apply mp_chain_tail. apply MP_refl.
  - destruct (Nat.eqb w1 1).
    + eapply mpo_bind; [apply mp_next_symbol|]. intros [r s2] _. cbn [snd]. destruct r; [exact I|].
      eapply mpo_bind; [apply mp_next_item|]. intros s3 _. cbn [mpo snd]. apply MP_refl.
    + destruct (name_rejects_empty_label && Nat.eqb w1 (S w)); [exact I|].
      destruct (if name_max_ge then Nat.leb name_max w1 else Nat.ltb name_max w1); [exact I|apply IH].
  - eapply mpo_bind; [apply mp_next_item|]. intros s2 _. cbn beta.
    eapply mpo_bind; [apply mp_split|]. intros [r s3] _. cbn [fst snd].
    destruct origin; cbn [get_origin bind mpo]; auto. apply mp_chain_tail. apply MP_refl.
Qed.

Lemma mp_skip_done s k : mpo s snd (do s' <- next_item (set_cat (advance s k) CNone); Ok (true, s')).
Proof.
  pose proof (mp_next_item (set_cat (advance s k) CNone)) as M.
  destruct (next_item (set_cat (advance s k) CNone)); cbn [bind mpo snd] in *; auto.
  eapply MP_trans; [apply mp_set_cat_advance|exact M].
Qed.

Lemma mp_skip_at s : mpo s snd (skip_at_token s).
Proof.
  unfold skip_at_token.
  assert (Same : mpo s snd (Ok (false, s))) by (cbn; apply MP_refl).
  apply (case_char_at (mpo s snd)); [intros _|exact Same].
  destruct (sym_at (skipn 1 (rest s))) as [| |sym n]; try exact I.
  destruct (scat s); try exact I.
  - destruct (negb (is_word_char sym)); [apply mp_skip_done|exact Same].
  - destruct (sym_eqb sym (SChar 34)); [apply mp_skip_done|exact Same].
Qed.

Lemma mp_skip_marker s : mpo s snd (skip_unknown_marker s).
Proof.
  unfold skip_unknown_marker.
  assert (Same : mpo s snd (Ok (false, s))) by (cbn; apply MP_refl).
  destruct (scat s); try exact Same.
  apply (case_marker (mpo s snd)); [intros n1 _|exact Same].
  destruct (sym_at (skipn n1 (rest s))) as [| |sym n2]; try exact Same.
  destruct (is_word_char sym); [exact Same|apply mp_skip_done].
Qed.

Lemma mp_scan_name origin s : mpo s snd (scan_name origin s).
Proof.
  unfold scan_name. apply mpo_pure. intros _ _.
  destruct scan_name_handles_at.
  - eapply mpo_bind; [apply mp_skip_at|]. intros [b s1] _. cbn [fst snd]. destruct b.
    + destruct origin; cbn [get_origin bind mpo]; auto. apply mp_chain_tail. apply MP_refl.
    + destruct (start s1); [exact I|]. eapply mpo_bind; [apply mp_trim|]. intros s2 _. apply mp_name_loop.
  - cbn [bind fst snd]. destruct (start s); [exact I|]. eapply mpo_bind; [apply mp_trim|]. intros s2 _. apply mp_name_loop.
Qed.

Lemma mp_finish s w : mpo s snd (do s1 <- next_item s; split_to s1 w).
Proof. eapply mpo_bind; [apply mp_next_item|]. intros s1 _. apply mp_split. Qed.

Lemma mp_scan_octets s : mpo s snd (scan_octets s).
Proof.
  unfold scan_octets. apply mpo_pure. intros _ _.
  eapply mpo_bind; [apply mp_trim|]. intros s0 _. cbn beta.
  eapply mpo_bind; [apply mp_ascii_loop|]. intros [s1 c] _. cbn [fst snd].
  assert (W : mpo s1 snd (do sw <- write_loop into_octet (fuel_of s1) s1 (start s1);
                         do s <- next_item (fst sw); split_to s (snd sw))).
  { eapply mpo_bind; [apply mp_write_loop|]. intros [s2 w] _. cbn [fst snd]. apply mp_finish. }
  destruct (scat s1); try exact W. apply mpo_pure. intros w _. apply mp_finish.
Qed.

Lemma mp_scan_ascii_str {A} (op : list N -> outcome A) s : mpo s snd (scan_ascii_str op s).
Proof.
  unfold scan_ascii_str. apply mpo_pure. intros _ _.
  eapply mpo_bind; [apply mp_trim|]. intros s0 _. cbn beta.
  eapply mpo_bind; [apply mp_ascii_loop|]. intros [s1 c] _. cbn [fst snd].
  eapply (mpo_bind s1 fst); [destruct (scat s1); try apply mp_write_loop; cbn; apply MP_refl|].
  intros [s2 w] _. cbn [fst snd]. apply mpo_pure. intros r _.
  eapply mpo_bind; [apply mp_next_item|]. intros s3 _. cbn [mpo snd]. apply MP_refl.
Qed.

Lemma mp_scan_string s : mpo s snd (scan_string s).
Proof.
  unfold scan_string. apply mpo_pure. intros _ _.
  eapply mpo_bind; [apply mp_trim|]. intros s0 _. cbn beta.
  eapply mpo_bind; [apply mp_char_loop|]. intros s1 _. cbn beta.
  eapply mpo_bind; [apply mp_string_loop|]. intros [s2 w] _. cbn [fst snd]. apply mp_finish.
Qed.

Lemma mp_scan_uint maxv chk s : mpo s snd (scan_uint maxv chk s).
Proof.
  unfold scan_uint. apply mpo_pure. intros _ _.
  eapply mpo_bind; [apply mp_uint_loop|]. intros [v s1] _. cbn [fst snd].
  eapply mpo_bind; [apply mp_next_item|]. intros s2 _. cbn [mpo snd]. apply MP_refl.
Qed.

Lemma mp_charstr_ascii_loop : forall fuel s w latest, mpo s fst (charstr_ascii_loop fuel s w latest).
Proof.
  induction fuel as [|f IH]; intros s w latest; cbn [charstr_ascii_loop]; [exact I|].
  pose proof (mp_next_ascii s) as M. destruct (next_ascii_symbol s) as [r s1]. cbn [snd] in M.
  destruct r; [|exact M]. destruct (too_long (S w) latest charstr_latest_ge); [exact I|].
  specialize (IH s1 (S w) latest). destruct (charstr_ascii_loop f s1 (S w) latest); cbn [mpo] in *; auto.
  eapply MP_trans; eauto.
Qed.

Lemma mp_charstr_sym_loop : forall fuel s st w latest, mpo s fst (charstr_sym_loop fuel s st w latest).
Proof.
  induction fuel as [|f IH]; intros s st w latest; cbn [charstr_sym_loop]; [exact I|].
  eapply mpo_bind; [apply mp_next_symbol|]. intros [r s1] _. cbn [snd]. destruct r as [sym|].
  - destruct (into_octet sym); [|exact I]. eapply mpo_bind; [apply mp_store|]. intros s2 _.
    destruct (too_long (S w) latest charstr_latest_ge); [exact I|apply IH].
  - eapply mpo_bind; [apply mp_next_item|]. intros s2 _. cbn beta.
    eapply mpo_bind; [apply mp_store|]. intros s3 _. cbn [mpo fst]. apply MP_refl.
Qed.

Lemma mp_convert_charstr s w : mpo s fst (convert_charstr s w).
Proof.
  unfold convert_charstr. apply mpo_pure. intros _ _.
  eapply (mpo_bind s fst); [destruct (Nat.eqb (S w) (start s)); [apply mp_charstr_ascii_loop|cbn; apply MP_refl]|].
  intros [s1 w1] _. cbn [fst snd]. apply mp_charstr_sym_loop.
Qed.

Lemma mp_charstr_entry_loop : forall fuel s w, mpo s fst (charstr_entry_loop fuel s w).
Proof.
  induction fuel as [|f IH]; intros s w; cbn [charstr_entry_loop]; [exact I|].
  eapply mpo_bind; [apply mp_convert_charstr|]. intros [s1 w1] _. cbn [fst snd].
  destruct (is_line_feed s1); [cbn; apply MP_refl|apply IH].
Qed.

Lemma mp_scan_charstr_entry s : mpo s snd (scan_charstr_entry s).
Proof.
  unfold scan_charstr_entry. destruct (start s); [exact I|].
  eapply mpo_bind; [apply mp_trim|]. intros s0 _. cbn beta.
  eapply mpo_bind; [apply mp_charstr_entry_loop|]. intros [s1 w] _. cbn [fst snd]. apply mp_split.
Qed.

Definition p4 {A B} (x : A * sbuf * nat * B) : sbuf := snd (fst (fst x)).

Lemma mp_append_data s data w b : mpo s (fun x => fst (fst x)) (append_data s data w b).
Proof.
  unfold append_data. destruct b; [cbn; apply MP_refl|].
  destruct (Nat.ltb (start s) (w + length data)).
  - destruct (Nat.leb w (length (buf s))); [cbn; apply MP_refl|exact I].
  - eapply mpo_bind; [apply mp_store_list|]. intros s1 _. cbn. apply MP_refl.
Qed.

Section ConvMP.
Variable St : Type.
Variable process : St -> symbol -> outcome (St * list N).
Variable tail : St -> outcome unit.

Lemma mp_convert_token_loop : forall fuel h s w b, mpo s p4 (convert_token_loop St process fuel h s w b).
Proof.
  induction fuel as [|f IH]; intros h s w b; cbn [convert_token_loop]; [exact I|].
  eapply mpo_bind; [apply mp_next_symbol|]. intros [r s1] _. cbn [snd]. destruct r as [sym|].
  - apply mpo_pure. intros [h1 data] _. cbn [fst snd]. destruct data as [|d0 dt]; [apply IH|].
    eapply mpo_bind; [apply mp_append_data|]. intros [[s2 w2] b2] _. cbn [fst snd]. apply IH.
  - cbn. apply MP_refl.
Qed.

Lemma mp_convert_entry_loop : forall fuel h s w b, mpo s p4 (convert_entry_loop St process fuel h s w b).
Proof.
  induction fuel as [|f IH]; intros h s w b; cbn [convert_entry_loop]; [exact I|].
  destruct (is_line_feed s); [cbn; apply MP_refl|].
  apply mpo_pure. intros _ _.
  eapply mpo_bind; [apply mp_convert_token_loop|]. intros [[[h1 s1] w1] b1] _. unfold p4. cbn [fst snd].
  eapply mpo_bind; [apply mp_next_item|]. intros s2 _. apply IH.
Qed.

Lemma mp_convert_entry init s : mpo s snd (convert_entry St process tail init s).
Proof.
  unfold convert_entry. eapply mpo_bind; [apply mp_convert_entry_loop|].
  intros [[[h1 s1] w1] b1] _. unfold p4. cbn [fst snd]. apply mpo_pure. intros _ _.
  destruct b1; [cbn; apply MP_refl|apply mp_split].
Qed.

Variable tail_data : St -> outcome (list N).
Lemma mp_convert_token init s : mpo s snd (convert_token St process tail_data init s).
Proof.
  unfold convert_token. apply mpo_pure. intros _ _.
  eapply mpo_bind; [apply mp_convert_token_loop|].
  intros [[[h1 s1] w1] b1] _. unfold p4. cbn [fst snd].
  eapply mpo_bind; [apply mp_next_item|]. intros s2 _. cbn beta.
  apply mpo_pure. intros data _.
  eapply (mpo_bind s2 (fun x : sbuf * nat * option (list N) => fst (fst x))).
  - destruct data; [cbn; apply MP_refl|apply mp_append_data].
  - intros [[s3 w3] b3] _. cbn [fst snd]. destruct b3; [cbn; apply MP_refl|apply mp_split].
Qed.
End ConvMP.

Lemma mp_scan_bitmap : forall fuel s bs, mpo s snd (scan_bitmap fuel s bs).
Proof.
  induction fuel as [|f IH]; intros s bs; cbn [scan_bitmap]; [exact I|].
  destruct (is_token (scat s)); [|cbn; apply MP_refl].
  eapply mpo_bind; [apply mp_scan_ascii_str|]. intros [r s1] _. cbn [fst snd]. apply IH.
Qed.

Lemma mp_scan_field origin f s : mpo s snd (scan_field origin f s).
Proof.
  destruct f; cbn [scan_field].
  - apply mp_scan_name.
  - apply mpo_ret with (pa := snd); [apply mp_scan_uint|reflexivity].
  - apply mpo_ret with (pa := snd); [apply mp_scan_uint|reflexivity].
  - apply mpo_ret with (pa := snd); [apply mp_scan_uint|reflexivity].
  - eapply mpo_bind; [apply mp_scan_octets|]. intros [v s1] _. cbn [fst snd].
    destruct (Nat.ltb 255 (length v)); cbn; [exact I|apply MP_refl].
  - apply mp_scan_charstr_entry.
  - eapply mpo_bind; [apply mp_scan_octets|]. intros [v s1] _. cbn [fst snd].
    destruct (parse_ipv4 v); cbn; [apply MP_refl|exact I].
  - apply mpo_ret with (pa := snd); [apply mp_scan_ascii_str|reflexivity].
  - apply mp_convert_entry.
  - apply mp_convert_entry.
  - apply mpo_ret with (pa := snd); [apply mp_scan_uint|reflexivity].
  - apply mpo_ret with (pa := snd); [apply mp_convert_token|reflexivity].
  - apply mpo_ret with (pa := snd); [apply mp_convert_token|reflexivity].
  - apply mp_scan_bitmap.
Qed.

Lemma mp_scan_fields origin : forall fs s acc, mpo s snd (scan_fields origin fs s acc).
Proof.
  induction fs as [|f t IH]; intros s acc; cbn [scan_fields]; [cbn; apply MP_refl|].
  eapply mpo_bind; [apply mp_scan_field|]. intros [r s1] _. cbn [fst snd]. apply IH.
Qed.

Lemma mp_scan_rdata origin rtype s : mpo s snd (scan_rdata origin rtype s).
Proof.
  unfold scan_rdata. eapply mpo_bind; [apply mp_skip_marker|]. intros [b s1] _. cbn [fst snd]. destruct b.
  - eapply mpo_bind; [apply mp_scan_uint|]. intros [v s2] _. cbn [fst snd].
    eapply mpo_bind; [apply mp_convert_entry|]. intros [d s3] _. cbn [fst snd].
    destruct (N.of_nat (length d) =? v); cbn; [apply MP_refl|exact I].
  - destruct (schema rtype); [apply mp_scan_fields|exact I].
Qed.

Definition pc (x : option N * option N * N * sbuf) : sbuf := snd x.

Lemma mp_scan_ctr s : mpo s pc (scan_ctr s).
Proof.
  unfold scan_ctr. eapply mpo_bind; [apply mp_scan_ascii_str|]. intros [c1 s1] _. cbn [snd].
  destruct c1 as [cls|ttl|r].
  - eapply mpo_bind; [apply mp_scan_ascii_str|]. intros [c2 s2] _. cbn [snd]. destruct c2 as [r|ttl].
    + cbn. apply MP_refl.
    + eapply mpo_bind; [apply mp_scan_ascii_str|]. intros [r s3] _. cbn. apply MP_refl.
  - eapply mpo_bind; [apply mp_scan_ascii_str|]. intros [c2 s2] _. cbn [snd]. destruct c2 as [r|cls].
    + cbn. apply MP_refl.
    + eapply mpo_bind; [apply mp_scan_ascii_str|]. intros [r s3] _. cbn. apply MP_refl.
  - cbn. apply MP_refl.
Qed.

Definition pe (x : scanned * zstate * sbuf) : sbuf := snd x.

Lemma mp_scan_owner_record zs s owner new_owner : mpo s pe (scan_owner_record zs s owner new_owner).
Proof.
  unfold scan_owner_record. eapply mpo_bind; [apply mp_scan_ctr|].
  intros [[[cls ttl] rtype] s1] _. unfold pc. cbn [snd]. apply mpo_pure. intros cz _.
  eapply mpo_bind; [apply mp_scan_rdata|]. intros [d s2] _. cbn [fst snd].
  apply mpo_pure. intros _ _. cbn. apply MP_refl.
Qed.

Lemma mp_line_feed (x : scanned) zs s : mpo s pe (do _ <- require_line_feed s; Ok (x, zs, s)).
Proof. apply mpo_pure. intros _ _. cbn. apply MP_refl. Qed.

Lemma mp_scan_control zs s : mpo s pe (scan_control zs s).
Proof.
  unfold scan_control. eapply mpo_bind; [apply mp_scan_string|]. intros [ctrl s1] _. cbn [snd].
  destruct (eq_ci ctrl [36; 79; 82; 73; 71; 73; 78]).
  { eapply mpo_bind; [apply mp_scan_name|]. intros [n s2] _. apply mp_line_feed. }
  destruct (eq_ci ctrl [36; 73; 78; 67; 76; 85; 68; 69]).
  { eapply mpo_bind; [apply mp_scan_string|]. intros [path s2] _. cbn [snd].
    destruct (negb (is_line_feed s2)); [|cbn; apply MP_refl].
    eapply mpo_bind; [apply mp_scan_name|]. intros [n s3] _. apply mp_line_feed. }
  destruct (eq_ci ctrl [36; 84; 84; 76]); [|exact I].
  eapply mpo_bind; [apply mp_scan_uint|]. intros [t s2] _. apply mp_line_feed.
Qed.

Lemma mp_scan_token_entry zs s : mpo s pe (scan_token_entry zs s).
Proof.
  unfold scan_token_entry. destruct (hsp s).
  { destruct (last_owner zs); [apply mp_scan_owner_record|exact I]. }
  apply (case_char_dollar (mpo s pe)); [apply mp_scan_control|].
  eapply mpo_bind; [apply mp_skip_at|]. intros [b s2] _. cbn [fst snd]. destruct b.
  - destruct (origin zs); cbn [get_origin bind mpo]; auto. apply mp_scan_owner_record.
  - eapply mpo_bind; [apply mp_scan_name|]. intros [n s3] _. cbn [fst snd]. apply mp_scan_owner_record.
Qed.

(* an entry either is the end of the file or has consumed at least one octet *)
Lemma scan_entry_consumes zs s x zs' s' : PInv s -> is_token (scat s) = false ->
  scan_entry zs s = Ok (x, zs', s') -> x = SEof \/ (rem s' < rem s)%nat.
Proof.
  intros HP Hc E. pose proof (scan_entry_good zs s string_quote_dropped HP Hc) as G.
  rewrite E in G. cbn [good entry_good] in G. destruct G as (_ & _ & [G | G]); [left; exact G|right].
  rewrite scan_entry_eq in E. destruct (next_item s) as [s1| | |] eqn:E1; cbn [bind] in E; try discriminate E.
  destruct (next_item_strict _ _ E1) as (N1 & N2).
  assert (Tok : is_token (scat s1) = true -> scan_token_entry zs s1 = Ok (x, zs', s') -> (rem s' < rem s)%nat).
  { intros Ht Et. pose proof (mp_scan_token_entry zs s1) as M. rewrite Et in M. cbn [mpo pe snd] in M. destruct M as (M1 & M2).
    destruct (M2 G) as [Hl | Hl]; [rewrite Hl in Ht; discriminate Ht|lia]. }
  destruct (scat s1) eqn:Ec.
  - injection E as _ _ <-. rewrite Ec in G. discriminate G.
  - apply Tok; [reflexivity|exact E].
  - apply Tok; [reflexivity|exact E].
  - injection E as _ _ <-. exact (N2 eq_refl).
Qed.

(* Zonefile::next_entry until the end or the first error terminates within the
   fuel read_file gives it: never a panic, never out of fuel *)
Lemma read_loop_total : forall fuel zs s acc, PInv s -> is_token (scat s) = false -> (rem s < fuel)%nat ->
  match snd (read_loop fuel zs s acc) with EEof | EErr _ => True | _ => False end.
Proof.
  induction fuel as [|f IH]; intros zs s acc HP Hc Hf; [lia|].
  cbn [read_loop]. pose proof (scan_entry_good zs s string_quote_dropped HP Hc) as G.
  destruct (scan_entry zs s) as [[[x zs1] s1]| | |] eqn:E; cbn [good entry_good] in G; try contradiction; try exact I.
  destruct G as (HP1 & Hc1 & _).
  destruct (scan_entry_consumes _ _ _ _ _ HP Hc E) as [-> | Hlt]; [exact I|].
  destruct x; try exact I; apply IH; auto; lia.
Qed.

Theorem reader_total file : match snd (read_file file) with EEof | EErr _ => True | _ => False end.
Proof.
  unfold read_file. apply read_loop_total; [apply init_PInv|reflexivity|].
  unfold rem, init_sbuf, init_start. cbn [buf start length]. lia.
Qed.

Example reader_total_ex :
  read_file [10; 59; 120; 10; 97; 46; 32; 49; 32; 73; 78; 32; 65; 32; 49; 46; 50; 46; 51; 46; 52; 10; 10]
  = ([ERecord [1; 97; 0] 1 1 1 [1; 2; 3; 4]], EEof).
Proof. vm_compute. reflexivity. Qed.

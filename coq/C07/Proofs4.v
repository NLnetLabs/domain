(* C07 proofs, part 4: the constants T1 reads from the source have the values
   the format prescribes, and the guards the later parts rely on are present. *)
From Coq Require Import NArith List.
From DV Require Import Base.Outcome C07.Gen C07.Model C07.Proofs2 C07.Proofs3.
Import ListNotations.
Local Open Scope N_scope.

Example scan_octets_ex :
  scan_octets (mkS [0; 34; 97; 92; 48; 54; 53; 34; 10] 2 CQuo false 0)
  = Ok ([97; 65], mkS [48; 54; 53; 34; 10] 5 CLF false 0)
  /\ scan_octets (mkS [0; 97; 10] 1 CNone false 0) = Err 12.
Proof. vm_compute. split; reflexivity. Qed.

(* the limits read from the source are the RFC 1035 ones: a label holds at most
   63 octets (write - start - 1 < 64), a character string at most 255, the
   relative part of a name at most 254 and a whole name 255 octets; the reader
   starts one octet into its buffer (the prefix octet scan_name relies on) *)
Lemma limits_rfc1035 :
  (label_latest = 64%nat /\ label_latest_ge = true) /\
  (charstr_latest = 255%nat /\ charstr_latest_ge = false) /\
  (name_max = 254%nat /\ name_max_ge = false) /\ chain_max = 255%nat /\
  default_ttl = 3600 /\ init_start = 1%nat /\
  octet_lo = 32 /\ octet_hi = 126 /\ esc_char = 92.
Proof. vm_compute. repeat split; reflexivity. Qed.

(* The four guards are in the source now.  These statements hold only while
   T1 finds them; removing one of them from the Rust code makes this file fail
   to build (and flips the `_fixed` theorems back to `_refuted`). *)
Lemma reader_guards_present :
  overlong_rejected = true /\ int_add_checked = true /\ ttl_add_checked = true /\
  charstr_requires_token = true /\ scan_name_handles_at = true.
Proof. vm_compute. repeat split; reflexivity. Qed.

(* scan_name rejects an empty label inside a name (two consecutive dots) *)
Lemma empty_label_rejected : name_rejects_empty_label = true.
Proof. vm_compute. reflexivity. Qed.

(* a..b. 1 IN A 1.2.3.4 *)
Definition w_dots : list N := [97;46;46;98;46;32;49;32;73;78;32;65;32;49;46;50;46;51;46;52;10].

Theorem empty_label_fixed : name_rejects_empty_label = true -> read_file w_dots = ([], EErr 3).
Proof. intros H. revert H. vm_compute. intros H; first [discriminate H | reflexivity]. Qed.

(* without the check the owner has a root label in its middle: 01 61 00 01 62 00 *)
Theorem empty_label_refuted : name_rejects_empty_label = false ->
  read_file w_dots = ([ERecord [1; 97; 0; 1; 98; 0] 1 1 1 [1; 2; 3; 4]], EEof).
Proof. intros H. revert H. vm_compute. intros H; first [discriminate H | reflexivity]. Qed.

Theorem items_total_all file :
  match snd (items_of file) with EEof | EErr _ => True | _ => False end.
Proof. apply Proofs2.items_total. apply reader_guards_present. Qed.

Theorem scan_uint_no_overflow_panic : forall fuel maxv s res,
  uint_loop fuel maxv int_add_checked s res <> Panic 7 /\
  uint_loop fuel maxv ttl_add_checked s res <> Panic 7.
Proof.
  intros. destruct reader_guards_present as (_ & -> & -> & _).
  split; apply Proofs3.uint_loop_no_overflow_panic.
Qed.

(* the remaining constants T1 reads, pinned to the values the format prescribes:
   printable ASCII for into_ascii / into_char, the TYPE / CLASS prefixes of
   RFC 3597, and the numbers of every mnemonic the model's schemas stand for *)
Lemma limits_symbols :
  ascii_lo = 32 /\ ascii_hi = 126 /\ ascii_esc_lo = 32 /\ ascii_esc_hi = 126 /\
  char_esc_lo = 32 /\ char_esc_hi_excl = 127 /\ ascii_bound = 128 /\
  asc_lo = 33 /\ asc_hi = 127 /\ asc_q_end = 34 /\
  rtype_prefix = [84; 89; 80; 69] /\ class_prefix = [67; 76; 65; 83; 83].
Proof. vm_compute. repeat split; reflexivity. Qed.

Lemma schema_mnemonics_all :
  map (from_mnemonic rtype_table)
    [[77;68]; [77;70]; [77;66]; [77;71]; [77;82]; [77;73;78;70;79]; [82;80]; [68;78;65;77;69];
     [83;83;72;70;80]; [84;76;83;65]; [79;80;69;78;80;71;80;75;69;89]]
  = map Some [3; 4; 7; 8; 9; 14; 17; 39; 44; 52; 61]
  /\ map (from_mnemonic class_table) [[73;78]; [67;72]; [72;83]; [78;79;78;69]; [42]]
    = map Some [1; 3; 4; 254; 255].
Proof. vm_compute. split; reflexivity. Qed.

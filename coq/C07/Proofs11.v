(* C07 proofs, part 11: the accept / reject table of escape sequences in
   Symbol::from_slice_index as finite theorems, and the conversion loop of
   zonetree::parsed. *)
From Coq Require Import NArith List Bool Arith Lia.
From DV Require Import C07.Gen C07.Model C07.Proofs C07.Proofs10.
Import ListNotations.
Local Open Scope N_scope.

Definition symres_eqb (a b : symres) : bool :=
  match a, b with
  | SymEnd, SymEnd | SymErr, SymErr => true
  | SymOk s n, SymOk s' n' => sym_eqb s s' && Nat.eqb n n'
  | _, _ => false
  end.

Lemma symres_eqb_eq a b : symres_eqb a b = true -> a = b.
Proof.
  destruct a as [| |s n], b as [| |s' n']; cbn; try discriminate; auto.
  intros H. apply andb_true_iff in H as [H1 H2]. apply Nat.eqb_eq in H2. subst n'.
  destruct s, s'; cbn in H1; try discriminate; apply N.eqb_eq in H1; subst; reflexivity.
Qed.

(* `\c`: rejected for control characters (and when nothing follows a digit),
   a simple escape for every other non-digit octet -- also beyond 0x7E *)
Definition escape2_spec (c : N) : symres :=
  if (c <? 32) || (c =? 127) then SymErr
  else if (48 <=? c) && (c <=? 57) then SymErr
  else SymOk (SSimple c) 2.

Theorem escape2_table c t : c < 256 -> negb ((48 <=? c) && (c <=? 57)) = true ->
  sym_at (esc_char :: c :: t) = escape2_spec c.
Proof.
  intros _ Hd. apply negb_true_iff in Hd.
  unfold sym_at, escape2_spec, is_ascii_control, is_digit. rewrite N.eqb_refl, Hd.
  destruct ((c <? 32) || (c =? 127)); reflexivity.
Qed.

(* `\DDD`: a decimal escape exactly when the value fits an octet *)
Definition digits3 : list (N * N * N) :=
  flat_map (fun a => flat_map (fun b => map (fun c => (a, b, c)) (upto 10)) (upto 10)) (upto 10).

Definition escape4_spec (a b c : N) : symres :=
  let v := a * 100 + b * 10 + c in if v <=? 255 then SymOk (SDec v) 4 else SymErr.

Theorem escape4_table a b c t : a < 10 -> b < 10 -> c < 10 ->
  sym_at (esc_char :: 48 + a :: 48 + b :: 48 + c :: t) = escape4_spec a b c.
Proof. exact (sym_at_decimal a b c t). Qed.

(* a digit must be followed by two more digits; one or two are not enough *)
Lemma escape_short_tbl :
  forallb (fun x => let '(a, b, c) := x in
     symres_eqb (sym_at [esc_char; 48 + a]) SymErr && symres_eqb (sym_at [esc_char; 48 + a; 48 + b]) SymErr
     && symres_eqb (sym_at [esc_char; 48 + a; 48 + b; 120]) SymErr
     && symres_eqb (sym_at [esc_char; 48 + a; 120; 48 + c]) SymErr) digits3 = true.
Proof.
  assert (Up : forall x, In x (upto 10) -> x < 10).
  { intros x H. apply in_map_iff in H as (k & <- & Hk). apply in_seq in Hk. lia. }
  apply forallb_forall. intros [[a b] c] Hin. unfold digits3 in Hin.
  apply in_flat_map in Hin as (a' & Ha & Hin). apply in_flat_map in Hin as (b' & Hb & Hin).
  apply in_map_iff in Hin as (c' & E & Hc). injection E as -> -> ->.
  destruct (digit_char a (Up a Ha)) as (A1 & A2 & _), (digit_char b (Up b Hb)) as (B1 & _ & _).
  unfold sym_at. rewrite N.eqb_refl, A2, A1, B1. reflexivity.
Qed.

Lemma parsed_stops : parsed_stops_at_error = true.
Proof. vm_compute. reflexivity. Qed.

Lemma parsed_loop_is_read_loop : parsed_stops_at_error = true ->
  forall fuel zs s acc, parsed_loop fuel zs s acc = read_loop fuel zs s acc.
Proof.
  intros Hf. induction fuel as [|f IH]; intros zs s acc; cbn [parsed_loop read_loop]; [reflexivity|].
  destruct (scan_entry zs s) as [[[x zs1] s1]|e| |]; try reflexivity;
    try (rewrite Hf; reflexivity); destruct x; try reflexivity; apply IH.
Qed.

(* the conversion terminates on every byte string without a panic *)
Theorem parsed_total file : match snd (parsed_file file) with EEof | EErr _ => True | _ => False end.
Proof.
  unfold parsed_file. rewrite (parsed_loop_is_read_loop parsed_stops). apply (reader_total file).
Qed.

(* if the loop went on after an error: a stray `)` fails the same way for ever *)
Theorem parsed_reads_on_refuted : parsed_stops_at_error = false ->
  snd (parsed_file [41; 10]) = EFuel.
Proof. intros H. revert H. vm_compute. intros H; first [discriminate H | reflexivity]. Qed.

Example parsed_ex : parsed_file [41; 10] = ([], EErr 4).
Proof. vm_compute. reflexivity. Qed.

(* Zonefile::load hands the reader's octets to the buffer unchanged (io::copy
   into the BufMut writer): every way of filling the buffer reads alike, which
   the oracle compares on every input (classes constructor_dependent_...) *)
Lemma load_copies : load_copies_octets = true.
Proof. vm_compute. reflexivity. Qed.

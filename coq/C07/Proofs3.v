(* C07 proofs, part 3: owner / class / TTL inheritance of the entry layer,
   integer scanning, and the witnesses of the four defects found. *)
From Coq Require Import NArith List Arith Lia.
From DV Require Import Base.Outcome C07.Gen C07.Model C07.Proofs.
Import ListNotations.
Local Open Scope N_scope.

(* A logical line: what scan_entry has in its hands after the owner, the
   class/TTL/type prefix and the record data have been scanned. *)
Record aline := mkL {
  a_owner : option (list N);   (* None: line starts with white space *)
  a_class : option N;
  a_ttl : option N;
  a_rtype : N;
  a_rdata : list N }.

Definition astep (zs : zstate) (l : aline) : outcome (entry * zstate) :=
  do o <- (match a_owner l with
           | Some o => Ok o
           | None => match last_owner zs with Some o => Ok o | None => Err 5 end
           end);
  let zs1 := match a_owner l with Some o => set_owner zs o | None => zs end in
  do cz <- resolve_class (a_class l) zs1;
  let tz := resolve_ttl (a_ttl l) (snd cz) in
  Ok (ERecord o (fst cz) (fst tz) (a_rtype l) (a_rdata l), snd tz).

Fixpoint arecords (zs : zstate) (ls : list aline) : outcome (list entry) :=
  match ls with
  | [] => Ok []
  | l :: t => do r <- astep zs l; do rest <- arecords (snd r) t; Ok (fst r :: rest)
  end.

Fixpoint astate (zs : zstate) (ls : list aline) : outcome zstate :=
  match ls with
  | [] => Ok zs
  | l :: t => do r <- astep zs l; astate (snd r) t
  end.

Lemma resolve_class_no_panic cls zs : no_panic (resolve_class cls zs).
Proof. unfold resolve_class. destruct cls, (last_class zs); cbn; auto. destruct (n =? n0); exact I. Qed.

(* the model's scan_owner_record is astep around the three scanning phases *)
Lemma scan_owner_record_spec zs s owner new_owner cls ttl rtype s1 d s2 :
  scan_ctr s = Ok (cls, ttl, rtype, s1) ->
  scan_rdata (origin zs) rtype s1 = Ok (d, s2) -> is_line_feed s2 = true ->
  last_owner zs = Some owner \/ new_owner = true ->
  match astep zs (mkL (if new_owner then Some owner else None) cls ttl rtype d) with
  | Ok (e, zs') => scan_owner_record zs s owner new_owner = Ok (SEntry e, zs', s2)
  | Err e => scan_owner_record zs s owner new_owner = Err e
  | _ => False
  end.
Proof.
  intros Hc Hd Hl Ho. unfold scan_owner_record, astep. rewrite Hc. cbn [bind a_owner a_class a_ttl a_rtype a_rdata].
  set (zs1 := if new_owner then set_owner zs owner else zs).
  assert (Eo : match (if new_owner then Some owner else None) with
               | Some o => Ok o
               | None => match last_owner zs with Some o => Ok o | None => Err 5 end
               end = Ok owner).
  { destruct new_owner; [reflexivity|]. destruct Ho as [-> | Ho]; [reflexivity|discriminate Ho]. }
  assert (Ez : match (if new_owner then Some owner else None) with Some o => set_owner zs o | None => zs end = zs1
               /\ origin zs1 = origin zs) by (unfold zs1; destruct new_owner; split; reflexivity).
  destruct Ez as [Ez Eor]. rewrite Eo, Ez. cbn [bind].
  pose proof (resolve_class_no_panic cls zs1) as NP.
  destruct (resolve_class cls zs1) as [[c z]| | |]; cbn [bind fst snd no_panic] in *; try contradiction; [|reflexivity].
  rewrite Eor, Hd. cbn [bind fst snd]. unfold require_line_feed. rewrite Hl. reflexivity.
Qed.

(* states that cannot be told apart: last_ttl is only consulted while no $TTL
   has been seen *)
Definition zeq (a b : zstate) : Prop :=
  origin a = origin b /\ last_owner a = last_owner b /\ dollar_ttl a = dollar_ttl b /\
  last_class a = last_class b /\ (dollar_ttl a = None -> last_ttl a = last_ttl b).

Lemma zeq_refl a : zeq a a.
Proof. unfold zeq. auto. Qed.

Lemma resolve_class_zeq cl a b : zeq a b ->
  match resolve_class cl a, resolve_class cl b with
  | Ok (c1, a'), Ok (c2, b') => c1 = c2 /\ zeq a' b'
  | Err x, Err y => x = y
  | _, _ => False
  end.
Proof.
  intros Hz. pose proof Hz as (Ho & Hw & Hd & Hc & Ht). unfold resolve_class. rewrite <- Hc.
  destruct cl as [c|], (last_class a) as [lc|]; try reflexivity.
  - destruct (c =? lc); [split; [reflexivity|exact Hz]|reflexivity].
  - split; [reflexivity|]. unfold zeq. cbn. auto.
  - split; [reflexivity|exact Hz].
Qed.

Lemma resolve_ttl_zeq tt a b : zeq a b ->
  fst (resolve_ttl tt a) = fst (resolve_ttl tt b) /\ zeq (snd (resolve_ttl tt a)) (snd (resolve_ttl tt b)).
Proof.
  intros Hz. pose proof Hz as (Ho & Hw & Hd & Hc & Ht). unfold resolve_ttl.
  destruct tt as [t|]; cbn [fst snd].
  - split; [reflexivity|]. unfold zeq. cbn. auto.
  - split; [|exact Hz]. rewrite <- Hd. destruct (dollar_ttl a); [reflexivity|exact (Ht eq_refl)].
Qed.

Lemma astep_zeq a b l : zeq a b ->
  match astep a l, astep b l with
  | Ok (e1, a'), Ok (e2, b') => e1 = e2 /\ zeq a' b'
  | Err x, Err y => x = y
  | _, _ => False
  end.
Proof.
  intros Hz. pose proof Hz as (Ho & Hw & Hd & Hc & Ht). unfold astep. rewrite <- Hw.
  destruct (match a_owner l with
            | Some o => Ok o
            | None => match last_owner a with Some o => Ok o | None => Err 5 end
            end) as [o|e| |] eqn:Eo; cbn [bind]; try reflexivity;
    try (destruct (a_owner l); [|destruct (last_owner a)]; discriminate Eo).
  assert (Hz1 : zeq (match a_owner l with Some o => set_owner a o | None => a end)
                    (match a_owner l with Some o => set_owner b o | None => b end)).
  { destruct (a_owner l); [|exact Hz]. unfold zeq. cbn. auto. }
  pose proof (resolve_class_zeq (a_class l) _ _ Hz1) as Rc.
  destruct (resolve_class (a_class l) (match a_owner l with Some o => set_owner a o | None => a end)) as [[c1 a1]|x| |],
           (resolve_class (a_class l) (match a_owner l with Some o => set_owner b o | None => b end)) as [[c2 b1]|y| |];
    try contradiction; cbn [bind fst snd]; [|exact Rc].
  destruct Rc as [-> Hz2]. destruct (resolve_ttl_zeq (a_ttl l) a1 b1 Hz2) as [-> Hz3]. auto.
Qed.

Lemma arecords_zeq ls : forall a b, zeq a b -> arecords a ls = arecords b ls.
Proof.
  induction ls as [|l t IH]; intros a b Hz; [reflexivity|].
  cbn [arecords]. pose proof (astep_zeq a b l Hz) as S.
  destruct (astep a l) as [[e1 a']| | |], (astep b l) as [[e2 b']| | |]; try contradiction; cbn [bind fst snd].
  - destruct S as [-> Hz']. rewrite (IH _ _ Hz'). reflexivity.
  - congruence.
Qed.

Lemma arecords_app pre : forall zs zs' x y,
  astate zs pre = Ok zs' -> arecords zs' x = arecords zs' y ->
  arecords zs (pre ++ x) = arecords zs (pre ++ y).
Proof.
  induction pre as [|l t IH]; intros zs zs' x y Hs Hxy; cbn [astate app] in *.
  - injection Hs as <-. exact Hxy.
  - cbn [arecords]. destruct (astep zs l) as [[e z]| | |]; cbn [bind fst snd] in *; try discriminate.
    rewrite (IH _ _ _ _ Hs Hxy). reflexivity.
Qed.

(* inherited versus explicit owner, class, TTL: anywhere in a file, a field that
   states the value it would inherit may be dropped (and vice versa) *)
Definition inherited_ttl (zs : zstate) : N :=
  match dollar_ttl zs with Some d => d | None => last_ttl zs end.

Theorem explicit_equals_inherited_owner pre post zs zs' o cl tt rt rd :
  astate zs pre = Ok zs' -> last_owner zs' = Some o ->
  arecords zs (pre ++ mkL (Some o) cl tt rt rd :: post) = arecords zs (pre ++ mkL None cl tt rt rd :: post).
Proof.
  intros Hs Ho. eapply arecords_app; [exact Hs|]. cbn [arecords]. unfold astep.
  cbn [a_owner a_class a_ttl a_rtype a_rdata]. rewrite Ho. cbn [bind].
  assert (E : set_owner zs' o = zs').
  { destruct zs'. cbn in *. unfold set_owner. cbn. congruence. }
  rewrite E. reflexivity.
Qed.

Theorem explicit_equals_inherited_class pre post zs zs' ow c tt rt rd :
  astate zs pre = Ok zs' -> last_class zs' = Some c ->
  arecords zs (pre ++ mkL ow (Some c) tt rt rd :: post) = arecords zs (pre ++ mkL ow None tt rt rd :: post).
Proof.
  intros Hs Hc. eapply arecords_app; [exact Hs|]. cbn [arecords]. unfold astep.
  cbn [a_owner a_class a_ttl a_rtype a_rdata].
  destruct (match ow with Some o => Ok o | None => match last_owner zs' with Some o => Ok o | None => Err 5 end end)
    as [o| | |]; cbn [bind]; try reflexivity.
  assert (Hc1 : last_class (match ow with Some o0 => set_owner zs' o0 | None => zs' end) = Some c).
  { destruct ow; cbn; exact Hc. }
  unfold resolve_class. rewrite Hc1, N.eqb_refl. reflexivity.
Qed.

Theorem explicit_equals_inherited_ttl pre post zs zs' ow cl rt rd :
  astate zs pre = Ok zs' ->
  arecords zs (pre ++ mkL ow cl (Some (inherited_ttl zs')) rt rd :: post)
  = arecords zs (pre ++ mkL ow cl None rt rd :: post).
Proof.
  intros Hs. eapply arecords_app; [exact Hs|]. cbn [arecords]. unfold astep.
  cbn [a_owner a_class a_ttl a_rtype a_rdata].
  destruct (match ow with Some o => Ok o | None => match last_owner zs' with Some o => Ok o | None => Err 5 end end)
    as [o| | |]; cbn [bind]; try reflexivity.
  set (z1 := match ow with Some o0 => set_owner zs' o0 | None => zs' end).
  assert (Hd : dollar_ttl z1 = dollar_ttl zs' /\ last_ttl z1 = last_ttl zs').
  { unfold z1. destruct ow; cbn; auto. }
  destruct (resolve_class cl z1) as [[c z2]| | |] eqn:Er; cbn [bind fst snd]; try reflexivity.
  assert (Hd2 : dollar_ttl z2 = dollar_ttl zs' /\ last_ttl z2 = last_ttl zs').
  { unfold resolve_class in Er. destruct cl, (last_class z1); try discriminate.
    - destruct (n =? n0); [|discriminate]. injection Er as _ <-. exact Hd.
    - injection Er as _ <-. exact Hd.
    - injection Er as _ <-. cbn. exact Hd. }
  destruct Hd2 as [D1 D2].
  unfold resolve_ttl, inherited_ttl. rewrite D1, D2. cbn [fst snd].
  erewrite arecords_zeq; [reflexivity|].
  unfold zeq. cbn. repeat split; auto. intros E.
  assert (E' : dollar_ttl zs' = None) by congruence. rewrite E'. congruence.
Qed.

Example explicit_equals_inherited_ex :
  let zs := mkZ (Some [0]) None 3600 None None in
  let ls := [mkL (Some [1; 97; 0]) (Some 1) (Some 300) 1 [1; 2; 3; 4];
             mkL None None None 2 [0];
             mkL (Some [1; 97; 0]) (Some 1) (Some 300) 2 [0]] in
  arecords zs ls = Ok [ERecord [1; 97; 0] 1 300 1 [1; 2; 3; 4]; ERecord [1; 97; 0] 1 300 2 [0];
                       ERecord [1; 97; 0] 1 300 2 [0]].
Proof. vm_compute. reflexivity. Qed.

(* '@' and relative names: the owner of scan_at_record and every name that
   scan_name completes is `relative ++ origin`; an absolute spelling of the
   same labels gives `labels ++ root` *)
Lemma chain_origin rel o : (length rel + length o <= chain_max)%nat -> chain rel o = Ok (rel ++ o).
Proof. intros H. unfold chain. destruct (Nat.ltb_spec chain_max (length rel + length o)); [lia|reflexivity]. Qed.

Theorem relative_equals_absolute (rel o' : list N) :
  (length rel + length (o' ++ [0%N]) <= chain_max)%nat ->
  chain rel (o' ++ [0]) = chain (rel ++ o') [0].
Proof.
  intros H. rewrite !chain_origin; [rewrite app_assoc; reflexivity| |exact H].
  rewrite !app_length in *. cbn [length] in *. lia.
Qed.

(* with a checked digit addition the overflow panic is unreachable *)
Lemma uint_loop_no_overflow_panic : forall fuel maxv s res,
  uint_loop fuel maxv true s res <> Panic 7.
Proof.
  induction fuel as [|f IH]; intros maxv s res; cbn [uint_loop]; [discriminate|].
  unfold next_symbol. pose proof (next_symbol_gen_no_panic (fun _ => true) s) as NP.
  destruct (next_symbol_gen (fun _ => true) s) as [[r s']| | |]; cbn [bind]; try discriminate; try contradiction.
  destruct r as [sym|]; [|discriminate].
  destruct (maxv <? res * 10); [discriminate|].
  destruct (into_digit sym); [|discriminate].
  destruct (maxv <? res * 10 + n); [discriminate|]. apply IH.
Qed.

Definition str (s : list nat) : list N := map N.of_nat s.

(* D1: over-long UTF-8 encoding of a blank: an endless run of empty tokens;
   NAPTR reads three of them as char-strings, then scan_name finds start = 0.
   "a. 1 IN NAPTR 1 1 \xC0\xA0 b.\n" *)
Definition w_overlong : list N :=
  [97;46;32;49;32;73;78;32;78;65;80;84;82;32;49;32;49;32;192;160;32;98;46;10].

Theorem overlong_panics_refuted : overlong_rejected = false ->
  snd (read_file w_overlong) = EPanic 4.
Proof. intros H. revert H. vm_compute. intros H; first [discriminate H | reflexivity]. Qed.

Theorem overlong_fixed : overlong_rejected = true ->
  snd (read_file w_overlong) = EErr 1.
Proof. intros H. revert H. vm_compute. intros H; first [discriminate H | reflexivity]. Qed.

(* D2: scan_charstr_entry does not require a token: at the end of the buffer
   it keeps writing length octets.   a. 1 IN TXT "foo"   (no final newline) *)
Definition w_txt_eof : list N := [97;46;32;49;32;73;78;32;84;88;84;32;34;102;111;111;34].

Theorem charstr_entry_panics_refuted : charstr_requires_token = false ->
  snd (read_file w_txt_eof) = EPanic 5.
Proof. intros H. revert H. vm_compute. intros H; first [discriminate H | reflexivity]. Qed.

Theorem charstr_entry_fixed : charstr_requires_token = true ->
  snd (read_file w_txt_eof) = EErr 12.
Proof. intros H. revert H. vm_compute. intros H; first [discriminate H | reflexivity]. Qed.

(* D3: `res += digit` after checked_mul.   a. 1 IN MX 65539 b.\n *)
Definition w_int : list N := [97;46;32;49;32;73;78;32;77;88;32;54;53;53;51;57;32;98;46;10].

Theorem int_overflow_panics_refuted : int_add_checked = false ->
  snd (read_file w_int) = EPanic 7.
Proof. intros H. revert H. vm_compute. intros H; first [discriminate H | reflexivity]. Qed.

Theorem int_overflow_fixed : int_add_checked = true ->
  snd (read_file w_int) = EErr 14.
Proof. intros H. revert H. vm_compute. intros H; first [discriminate H | reflexivity]. Qed.

(* D4: `@` in record data is not the origin.
   $ORIGIN x.\n@ 1 IN NS @\n    versus    $ORIGIN x.\n@ 1 IN NS x.\n *)
Definition w_at : list N := [36;79;82;73;71;73;78;32;120;46;10;64;32;49;32;73;78;32;78;83;32;64;10].
Definition w_at_abs : list N := [36;79;82;73;71;73;78;32;120;46;10;64;32;49;32;73;78;32;78;83;32;120;46;10].

Theorem at_in_rdata_refuted : scan_name_handles_at = false ->
  read_file w_at <> read_file w_at_abs /\
  read_file w_at = ([ERecord [1; 120; 0] 1 1 2 [1; 64; 1; 120; 0]], EEof).
Proof.
  intros H. revert H. vm_compute. intros H; first [discriminate H | (split; [discriminate | reflexivity])].
Qed.

Theorem at_in_rdata_fixed : scan_name_handles_at = true ->
  read_file w_at = read_file w_at_abs.
Proof. intros H. revert H. vm_compute. intros H; first [discriminate H | reflexivity]. Qed.

Example next_item_ex :
  next_item (mkS [0; 32; 59; 120; 10; 97] 1 CNone false 0) = Ok (mkS [0; 32; 59; 120; 10; 97] 5 CLF true 0)
  /\ next_item (mkS [0; 97] 1 CUnq false 0) = Panic 1
  /\ next_item (mkS [0; 41] 1 CNone false 0) = Err 4.
Proof. vm_compute. repeat split; reflexivity. Qed.

Example symbol_reader_ex :
  next_symbol (mkS [0; 92; 48; 54; 53; 32] 1 CUnq false 0) = Ok (Some (SDec 65), mkS [0; 92; 48; 54; 53; 32] 5 CUnq false 0)
  /\ next_symbol (mkS [0; 92; 48; 54; 53; 32] 5 CUnq false 0) = Ok (None, mkS [0; 92; 48; 54; 53; 32] 5 CNone false 0)
  /\ next_symbol (mkS [0; 97] 2 CUnq false 0) = Err 12
  /\ next_ascii_symbol (mkS [0; 97; 34] 1 CQuo false 0) = (Some 97, mkS [0; 97; 34] 2 CQuo false 0).
Proof. vm_compute. repeat split; reflexivity. Qed.

Example split_trim_store_ex :
  split_to (mkS [1; 2; 3] 2 CNone false 0) 1 = Ok ([1], mkS [2; 3] 1 CNone false 0)
  /\ split_to (mkS [1; 2; 3] 2 CNone false 0) 3 = Panic 2
  /\ trim_to (mkS [1; 2; 3] 2 CNone false 0) 3 = Panic 3
  /\ store (mkS [1; 2; 3] 2 CNone false 0) 3 9 = Panic 5
  /\ store (mkS [1; 2; 3] 2 CNone false 0) 0 9 = Ok (mkS [9; 2; 3] 2 CNone false 0).
Proof. vm_compute. repeat split; reflexivity. Qed.

Example read_file_ex :
  read_file ([36;79;82;73;71;73;78;32;120;46;10; 97;32;51;48;48;32;73;78;32;77;88;32;49;48;32;40;10;32;109;32;41;32;59;99;10;
                           32;84;88;84;32;34;104;32;105;34;32;92;48;54;53;10])
  = ([ERecord [1; 97; 1; 120; 0] 1 300 15 [0; 10; 1; 109; 1; 120; 0];
      ERecord [1; 97; 1; 120; 0] 1 300 16 [3; 104; 32; 105; 1; 65]], EEof).
Proof. vm_compute. reflexivity. Qed.

Example uint_ex : scan_uint 65535 true (mkS [0; 54; 53; 53; 51; 53; 10] 1 CUnq false 0)
  = Ok (65535, mkS [0; 54; 53; 53; 51; 53; 10] 7 CLF false 0)
  /\ scan_uint 65535 true (mkS [0; 54; 53; 53; 51; 54; 10] 1 CUnq false 0) = Err 14.
Proof. vm_compute. split; reflexivity. Qed.

(* C07 proofs, part 6: the protocol invariant of the Scanner methods.
   PInv: the read position is inside the buffer and at least one octet into it
   (the "token prefix space" scan_name and scan_charstr_entry assert), and a
   fresh unquoted token starts with a non-delimiter.  Every modelled Scanner
   method, started in a PInv state, returns Ok with PInv again or an error:
   no assertion, no out-of-range write, no underflow, no loop without progress. *)
From Coq Require Import NArith List Bool Arith Lia.
From DV Require Import Base.Outcome Base.Bytes C07.Gen C07.Model C07.Proofs C07.Proofs4.
Import ListNotations.
Local Open Scope N_scope.

Definition fresh (s : sbuf) : Prop :=
  scat s = CUnq -> exists c t, rest s = c :: t /\ is_delim c = false.

Definition PInv (s : sbuf) : Prop := Inv s /\ (1 <= start s)%nat /\ fresh s.

(* state in which a token has been read to its end, with `w` octets of output:
   either the closing quote lies between w and the read position, or the read
   position is at a delimiter octet *)
Definition TEnd (s : sbuf) (w : nat) : Prop :=
  Inv s /\ is_token (scat s) = false /\
  ((w < start s)%nat \/ ((w <= start s)%nat /\ exists d t, rest s = d :: t /\ is_delim d = true)).

(* between two symbols of a token, or at its end, with `w` octets of output *)
Definition InTok (s : sbuf) (w : nat) : Prop :=
  Inv s /\ (w <= start s)%nat /\ (is_token (scat s) = true \/ TEnd s w).

Definition good {A} (P : A -> Prop) (o : outcome A) : Prop :=
  match o with Ok a => P a | Err _ => True | _ => False end.

Lemma good_bind {A B} (P : A -> Prop) (Q : B -> Prop) (o : outcome A) (f : A -> outcome B) :
  good P o -> (forall a, o = Ok a -> P a -> good Q (f a)) -> good Q (bind o f).
Proof. destruct o; cbn; auto; tauto. Qed.

Lemma good_impl {A} (P Q : A -> Prop) (o : outcome A) : (forall a, P a -> Q a) -> good P o -> good Q o.
Proof. destruct o; cbn; auto. Qed.

Lemma good_proj1 {A} (P Q : A -> Prop) (o : outcome A) : good (fun a => P a /\ Q a) o -> good P o.
Proof. apply good_impl. intros a H. exact (proj1 H). Qed.

Lemma good_no_panic {A} (P : A -> Prop) (o : outcome A) : good P o -> no_panic o.
Proof. destruct o; cbn; auto. Qed.

Lemma guards_ov : overlong_rejected = true.
Proof. apply reader_guards_present. Qed.

Lemma TEnd_weaken s w w' : (w' <= w)%nat -> TEnd s w -> TEnd s w'.
Proof.
  intros L (A & B & C). split; [exact A|]. split; [exact B|].
  destruct C as [C | (C & D)]; [left; lia | right; split; [lia|exact D]].
Qed.

Lemma InTok_token s w : Inv s -> (w <= start s)%nat -> is_token (scat s) = true -> InTok s w.
Proof. unfold InTok. auto. Qed.

Lemma fuel_of_rest s : (length (rest s) < fuel_of s)%nat.
Proof. unfold rest, fuel_of. rewrite skipn_length. lia. Qed.

Lemma require_token_good s : good (fun _ => is_token (scat s) = true) (require_token s).
Proof. unfold require_token. destruct (scat s); cbn; auto. Qed.

Lemma token_case {T} (c : cat) (a b : T) : is_token c = true -> match c with CNone => a | _ => b end = b.
Proof. destruct c; try discriminate; reflexivity. Qed.

(* s' is s after in-place writes behind the read position *)
Definition behind (s s' : sbuf) : Prop :=
  Inv s' /\ start s' = start s /\ scat s' = scat s /\ length (buf s') = length (buf s) /\ rest s' = rest s.

Lemma store_behind s i v : Inv s -> (i < start s)%nat -> exists s', store s i v = Ok s' /\ behind s s'.
Proof.
  intros HI Hi. pose proof (store_spec s i v HI) as St.
  assert (Hin : Nat.ltb i (length (buf s)) = true) by (apply Nat.ltb_lt; unfold Inv in *; lia).
  rewrite Hin in St. destruct St as (s' & E & A & B & C & D & F). exists s'. repeat split; auto.
Qed.

Lemma store_list_behind : forall l s w, Inv s -> (w + length l <= start s)%nat ->
  exists s', store_list s w l = Ok s' /\ behind s s'.
Proof.
  induction l as [|b t IH]; intros s w HI Hw; cbn [store_list length] in *.
  - exists s. repeat split; auto.
  - destruct (store_behind s w b HI ltac:(lia)) as (s1 & E1 & A & B & C & D & F). rewrite E1. cbn [bind].
    destruct (IH s1 (S w) A ltac:(lia)) as (s2 & E2 & A2 & B2 & C2 & D2 & F2).
    exists s2. repeat split; auto; congruence.
Qed.

Lemma behind_TEnd s s' w : behind s s' -> TEnd s w -> TEnd s' w.
Proof.
  intros (HI & Hs & Hc & _ & Hr) (_ & B & C). split; [exact HI|]. split; [congruence|]. rewrite Hs, Hr. exact C.
Qed.

Lemma behind_fresh s s' : behind s s' -> fresh s -> fresh s'.
Proof. intros (_ & _ & Hc & _ & Hr) Hf. unfold fresh. rewrite Hc, Hr. exact Hf. Qed.

(* next_item after a token: strictly past the output *)
Lemma next_item_after_token s w : TEnd s w ->
  good (fun s' => PInv s' /\ (w < start s')%nat /\ buf s' = buf s) (next_item s).
Proof.
  intros (HI & Hc & Hw). destruct (next_item_total s HI Hc) as [(s' & E & _) | E]; rewrite E; [|exact I].
  destruct (next_item_ok s s' HI E) as (HI' & Hb & Hs & _ & Hu & Hd).
  assert (Hlt : (w < start s')%nat).
  { destruct Hw as [Hw | (Hw & d & t & Hr & Hdl)]; [lia|]. specialize (Hd d t Hr Hdl). lia. }
  cbn [good]. split; [|split; [exact Hlt|exact Hb]]. split; [exact HI'|]. split; [lia|exact Hu].
Qed.

Lemma split_to_PInv s w : Inv s -> (w < start s)%nat -> fresh s ->
  good (fun rs => PInv (snd rs) /\ rest (snd rs) = rest s) (split_to s w).
Proof.
  intros HI Hw Hf. unfold split_to.
  assert (L : Nat.leb w (start s) = true) by (apply Nat.leb_le; lia). rewrite L. cbn [good snd].
  set (s' := mkS _ _ _ _ _).
  assert (Hr : rest s' = rest s).
  { unfold rest, s'. cbn [buf start]. rewrite skipn_add. f_equal. lia. }
  split; [|exact Hr]. split; [|split].
  - unfold Inv, s' in *. cbn [buf start]. rewrite skipn_length. lia.
  - unfold s'. cbn [start]. lia.
  - unfold fresh. rewrite Hr. exact Hf.
Qed.

(* the common tail of the token methods: next_item, then split_to(write) *)
Lemma finish_split s w : TEnd s w ->
  good (fun rs => PInv (snd rs) /\ (length (rest (snd rs)) < length (buf s))%nat)
       (do s1 <- next_item s; split_to s1 w).
Proof.
  intros HT. eapply good_bind; [apply next_item_after_token; exact HT|].
  intros s1 _ ((HI1 & _ & Hf1) & Hw1 & Hb1).
  eapply good_impl; [|apply (split_to_PInv s1 w HI1 Hw1 Hf1)].
  intros rs (HP & Hr). split; [exact HP|]. rewrite Hr, (rest_length s1). unfold Inv in HI1. rewrite Hb1 in *. lia.
Qed.

Definition sym_step (s : sbuf) (w : nat) (x : option symbol * sbuf) : Prop :=
  buf (snd x) = buf s /\
  match fst x with
  | Some _ => Inv (snd x) /\ is_token (scat (snd x)) = true /\ (start s < start (snd x))%nat /\
              (length (rest (snd x)) < length (rest s))%nat
  | None => TEnd (snd x) w /\ (start s <= start (snd x))%nat
  end.

Lemma next_symbol_InTok s w : InTok s w -> good (sym_step s w) (next_symbol s).
Proof.
  intros (HI & Hw & Ht).
  pose proof (next_symbol_gen_no_panic (fun _ => true) s) as NP. fold next_symbol in NP.
  destruct (next_symbol s) as [[r s1]| | |] eqn:E; cbn [good no_panic] in *; auto.
  pose proof (next_symbol_gen_inv _ _ _ _ HI E) as (HI1 & Hb & Hs & Hr & Hsame).
  split; [exact Hb|]. cbn [fst snd]. destruct r as [sym|].
  - destruct (Hr ltac:(discriminate)) as [Hlt Ht1]. pose proof (rest_shrinks s s1 HI1 Hb Hlt). auto.
  - split; [|exact Hs]. destruct Ht as [Ht | HT]; [|rewrite (Hsame (proj1 (proj2 HT))); exact HT].
    destruct (next_symbol_end s s1 guards_ov Ht E) as [(_ & -> & Hd) | (_ & n & Hn & ->)].
    + split; [exact HI1|]. split; [reflexivity|]. right. split; [exact Hw|exact Hd].
    + split; [exact HI1|]. split; [reflexivity|]. left. cbn [set_cat advance start]. lia.
Qed.

Lemma fresh_first_symbol s s' : fresh s -> is_token (scat s) = true ->
  next_symbol s = Ok (None, s') -> (start s < start s')%nat.
Proof.
  intros Hfr Ht E. destruct (next_symbol_end s s' guards_ov Ht E) as [(Ec & _ & d & t & Hl & Hd) | (_ & n & Hn & ->)].
  - destruct (Hfr Ec) as (c & t' & Hr & Hc). rewrite Hr in Hl. injection Hl as -> _. congruence.
  - cbn [set_cat advance start]. lia.
Qed.

(* the in-place write loop ends in a token-end state *)
Lemma write_loop_end conv : forall fuel s w, InTok s w -> (length (rest s) < fuel)%nat ->
  good (fun sw => TEnd (fst sw) (snd sw) /\ (start s <= start (fst sw))%nat /\
                  length (buf (fst sw)) = length (buf s))
       (write_loop conv fuel s w).
Proof.
  induction fuel as [|f IH]; intros s w HT Hf; [lia|]. cbn [write_loop].
  eapply good_bind; [apply (next_symbol_InTok s w HT)|].
  intros [[sym|] s1] _ (Hb & H); cbn [fst snd] in Hb, H.
  - destruct H as (HI1 & Ht1 & Hlt & Hsh). destruct HT as (_ & Hw & _).
    destruct (conv sym) as [b|]; [|exact I].
    destruct (store_behind s1 w b HI1 ltac:(lia)) as (s2 & E2 & HI2 & Hst & Hc & Hl & Hr). rewrite E2. cbn [bind].
    eapply good_impl; [|apply (IH s2 (S w))].
    + intros sw (A & B & C). split; [exact A|]. split; [lia|congruence].
    + apply InTok_token; [exact HI2|lia|congruence].
    + rewrite Hr. lia.
  - destruct H as (HT1 & Hs). cbn [good fst snd]. split; [exact HT1|]. split; [exact Hs|congruence].
Qed.

Lemma write_loop_total conv : forall fuel s w, Inv s -> (w <= start s)%nat ->
  (length (rest s) < fuel)%nat ->
  match write_loop conv fuel s w with
  | Ok (s', w') => Inv s' /\ (w' <= start s')%nat /\ (start s <= start s')%nat /\
                   is_token (scat s') = false /\ length (buf s') = length (buf s)
  | Err _ => True
  | _ => False
  end.
Proof.
  intros fuel s w HI Hw Hf. destruct (is_token (scat s)) eqn:Ht.
  - pose proof (write_loop_end conv fuel s w (InTok_token s w HI Hw Ht) Hf) as G.
    destruct (write_loop conv fuel s w) as [[s' w']| | |]; cbn [good fst snd] in G; auto.
    destruct G as ((A & B & C) & D & F). repeat split; auto. destruct C as [C | [C _]]; lia.
  - destruct fuel as [|f]; [lia|]. cbn [write_loop]. unfold next_symbol, next_symbol_gen.
    destruct (scat s) eqn:Ec; try discriminate Ht; cbn [bind]; rewrite Ec; repeat split; auto.
Qed.

Lemma uint_loop_good : forall fuel maxv s res, InTok s 0 -> (length (rest s) < fuel)%nat ->
  good (fun rs => TEnd (snd rs) 0) (uint_loop fuel maxv true s res).
Proof.
  induction fuel as [|f IH]; intros maxv s res HT Hf; [lia|]. cbn [uint_loop].
  eapply good_bind; [apply (next_symbol_InTok s 0 HT)|].
  intros [[sym|] s1] _ (_ & H); cbn [fst snd] in H.
  - destruct H as (HI1 & Ht1 & _ & Hsh).
    destruct (maxv <? res * 10); [exact I|]. destruct (into_digit sym); [|exact I].
    destruct (maxv <? res * 10 + n); [exact I|].
    apply IH; [apply InTok_token; [exact HI1|lia|exact Ht1]|lia].
  - exact (proj1 H).
Qed.

Lemma scan_uint_good maxv s : PInv s -> good (fun rs => PInv (snd rs)) (scan_uint maxv true s).
Proof.
  intros (HI & _). unfold scan_uint.
  eapply good_bind; [apply require_token_good|]. intros [] _ Ht.
  eapply good_bind; [apply (uint_loop_good (fuel_of s) maxv s 0)|].
  { apply InTok_token; [exact HI|lia|exact Ht]. } { apply fuel_of_rest. }
  intros [v s1] _ HT. cbn [fst snd] in *.
  eapply good_bind; [apply next_item_after_token; exact HT|].
  intros s2 _ (HP2 & _). exact HP2.
Qed.

Lemma ascii_loop_good : forall fuel s cnt, Inv s -> (length (rest s) < fuel)%nat ->
  exists s' c, ascii_loop fuel s cnt = Ok (s', c) /\ Inv s' /\ buf s' = buf s /\
    ((scat s' = scat s /\ (c + start s = cnt + start s')%nat) \/
     (scat s = CQuo /\ scat s' = CNone /\ (S (c + start s) = cnt + start s')%nat)).
Proof.
  induction fuel as [|f IH]; intros s cnt HI Hf; [lia|]. cbn [ascii_loop].
  destruct (next_ascii_symbol s) as [[ch|] s1] eqn:E.
  - destruct (next_ascii_symbol_some _ _ _ E) as (_ & -> & L).
    destruct (IH (advance s 1) (S cnt) (advance_inv s 1 HI L)) as (s' & c & E' & A & B & C).
    { rewrite rest_advance, skipn_length. lia. }
    exists s', c. split; [exact E'|]. split; [exact A|]. split; [exact B|]. cbn [advance start scat] in C.
    destruct C as [[C1 C2] | (C1 & C2 & C3)]; [left|right]; repeat split; auto; lia.
  - destruct (next_ascii_symbol_none _ _ E) as [-> | (Ec & -> & L)].
    + exists s, cnt. repeat split; auto.
    + eexists _, cnt. split; [reflexivity|]. split; [exact (advance_inv s 1 HI L)|]. split; [reflexivity|].
      right. cbn [set_cat advance start scat]. repeat split; auto. lia.
Qed.

Lemma trim_start s : exists s0, trim_to s (start s) = Ok s0 /\ Inv s0 /\ start s0 = 0%nat /\
  buf s0 = rest s /\ scat s0 = scat s.
Proof.
  unfold trim_to. rewrite Nat.leb_refl, Nat.sub_diag. eexists. split; [reflexivity|].
  unfold Inv. cbn [buf start scat]. repeat split. lia.
Qed.

(* how scan_octets, scan_svcb_octets and scan_ascii_str begin *)
Lemma fast_prefix s : Inv s -> is_token (scat s) = true ->
  exists s0 s1 c, trim_to s (start s) = Ok s0 /\ scat s0 = scat s /\
    ascii_loop (fuel_of s0) s0 0 = Ok (s1, c) /\ Inv s1 /\ length (buf s1) = length (rest s) /\
    ((is_token (scat s1) = true /\ start s1 = c) \/ (scat s0 = CQuo /\ scat s1 = CNone /\ start s1 = S c)).
Proof.
  intros HI Ht. destruct (trim_start s) as (s0 & E0 & HI0 & Hst0 & Hb0 & Hc0).
  destruct (ascii_loop_good (fuel_of s0) s0 0 HI0 (fuel_of_rest s0)) as (s1 & c & E1 & HI1 & Hb1 & Hend).
  exists s0, s1, c. split; [exact E0|]. split; [exact Hc0|]. split; [exact E1|]. split; [exact HI1|].
  split; [rewrite Hb1, Hb0; reflexivity|].
  destruct Hend as [[Hc1 Hn] | (Q0 & Q1 & Hn)]; [left; split; [congruence|lia] | right; repeat split; auto; lia].
Qed.

Lemma closed_quote_good s c : Inv s -> scat s = CNone -> start s = S c ->
  good (fun rs => PInv (snd rs) /\ (length (rest (snd rs)) < length (buf s))%nat)
       (do w <- match start s with O => Panic 6 | S k => Ok k end; do s1 <- next_item s; split_to s1 w).
Proof.
  intros HI Hc Hn. rewrite Hn. cbn [bind]. apply finish_split.
  split; [exact HI|]. split; [rewrite Hc; reflexivity|]. left. lia.
Qed.

Lemma scan_octets_good s : Inv s -> good (fun rs => PInv (snd rs)) (scan_octets s).
Proof.
  intros HI. unfold scan_octets.
  eapply good_bind; [apply require_token_good|]. intros [] _ Ht.
  destruct (fast_prefix s HI Ht) as (s0 & s1 & c & E0 & Hc0 & E1 & HI1 & HL1 & Hend).
  rewrite E0. cbn [bind]. rewrite E1. cbn [bind fst].
  destruct Hend as [[Ht1 Hn] | (Q0 & Q1 & Hn)].
  - rewrite (token_case (scat s1)) by exact Ht1.
    eapply good_bind; [apply (write_loop_end into_octet (fuel_of s1) s1 (start s1))|].
    { apply InTok_token; [exact HI1|lia|exact Ht1]. } { apply fuel_of_rest. }
    intros [s2 w] _ (HT & _). cbn [fst snd] in *.
    eapply good_proj1, finish_split. exact HT.
  - rewrite Q1, Q0. eapply good_proj1, (closed_quote_good s1 c HI1 Q1 Hn).
Qed.

(* scan_octets from any state that satisfies the position invariant: an entry
   or an error, never a panic, never out of fuel *)
Theorem scan_octets_total s : Inv s -> no_panic (scan_octets s).
Proof. intros HI. exact (good_no_panic _ _ (scan_octets_good s HI)). Qed.

(* with the length of the buffer that is left, which gives strict progress:
   the token is gone and the read position is at least one octet into the rest *)
Lemma scan_ascii_str_len {A} (op : list N -> outcome A) s :
  (forall l, no_panic (op l)) -> Inv s ->
  good (fun rs => PInv (snd rs) /\ length (buf (snd rs)) = length (rest s)) (scan_ascii_str op s).
Proof.
  intros Hop HI. unfold scan_ascii_str.
  eapply good_bind; [apply require_token_good|]. intros [] _ Ht.
  destruct (fast_prefix s HI Ht) as (s0 & s1 & c & E0 & Hc0 & E1 & HI1 & HL1 & Hend).
  rewrite E0. cbn [bind]. rewrite E1. cbn [bind fst snd].
  eapply (good_bind (fun sw => TEnd (fst sw) (snd sw) /\ length (buf (fst sw)) = length (rest s))).
  - destruct Hend as [[Ht1 Hn] | (Q0 & Q1 & Hn)].
    + rewrite (token_case (scat s1)) by exact Ht1.
      eapply good_impl; [|apply (write_loop_end into_ascii (fuel_of s1) s1 c)].
      * intros sw (HT & _ & HL). split; [exact HT|congruence].
      * apply InTok_token; [exact HI1|lia|exact Ht1].
      * apply fuel_of_rest.
    + rewrite Q1. cbn [good fst snd]. split; [|exact HL1].
      split; [exact HI1|]. split; [rewrite Q1; reflexivity|]. left. lia.
  - intros [s2 w2] _ (HT & HL). cbn [fst snd] in *.
    specialize (Hop (firstn w2 (buf s2))). destruct (op (firstn w2 (buf s2))); cbn [bind good no_panic] in *; auto.
    eapply good_bind; [apply next_item_after_token; exact HT|].
    intros s3 _ (HP3 & _ & Hb3). cbn [good snd]. split; [exact HP3|congruence].
Qed.

Lemma scan_ascii_str_good {A} (op : list N -> outcome A) s :
  (forall l, no_panic (op l)) -> PInv s -> good (fun rs => PInv (snd rs)) (scan_ascii_str op s).
Proof.
  intros Hop (HI & _). eapply good_proj1, (scan_ascii_str_len op s Hop HI).
Qed.

Lemma scan_bitmap_good : forall fuel s bs, PInv s -> (length (buf s) - start s < fuel)%nat ->
  good (fun rs => PInv (snd rs)) (scan_bitmap fuel s bs).
Proof.
  induction fuel as [|f IH]; intros s bs HP Hf; [lia|].
  cbn [scan_bitmap]. destruct (is_token (scat s)); [|exact HP].
  eapply good_bind; [apply (scan_ascii_str_len
     (fun str => match rtype_from_str str with Some t => Ok t | None => Err 35 end) s);
     [intros l; cbn beta; destruct (rtype_from_str l); exact I|exact (proj1 HP)]|].
  intros [r s1] _ (HP1 & HL). cbn [fst snd] in *. apply IH; [exact HP1|].
  destruct HP as (HI & _), HP1 as (HI1 & H11 & _). rewrite (rest_length s) in HL. unfold Inv in HI1. lia.
Qed.

Lemma while_ascii_good : forall fuel s, PInv s -> (length (buf s) - start s < fuel)%nat ->
  good PInv (while_ascii fuel s).
Proof.
  induction fuel as [|f IH]; intros s HP Hf; [lia|].
  cbn [while_ascii]. destruct (is_token (scat s)); [|exact HP].
  eapply good_bind; [apply (scan_ascii_str_len (fun _ : list N => Ok tt) s); [intros l; exact I|exact (proj1 HP)]|].
  intros [r s1] _ (HP1 & HL). cbn [snd] in *. apply IH; [exact HP1|].
  destruct HP as (HI & _), HP1 as (HI1 & H11 & _). rewrite (rest_length s) in HL. unfold Inv in HI1. lia.
Qed.

(* a `match` on a literal, by its two outcomes *)
Lemma case_char_at {T} (P : T -> Prop) (o : option symbol) (a b : T) :
  (o = Some (SChar 64) -> P a) -> P b -> P (match o with Some (SChar 64) => a | _ => b end).
Proof.
  intros Ha Hb. destruct o as [[c| |]|]; try exact Hb.
  destruct c as [|p]; [exact Hb|]. repeat (destruct p as [p|p|]; try exact Hb). exact (Ha eq_refl).
Qed.

Lemma case_char_dollar {T} (P : T -> Prop) (o : option symbol) (a b : T) :
  P a -> P b -> P (match o with Some (SChar 36) => a | _ => b end).
Proof.
  intros Ha Hb. destruct o as [[c| |]|]; try exact Hb.
  destruct c as [|p]; [exact Hb|]. repeat (destruct p as [p|p|]; try exact Hb). exact Ha.
Qed.

Lemma case_marker {T} (P : T -> Prop) (r : symres) (a : nat -> T) (b : T) :
  (forall n, r = SymOk (SSimple 35) n -> P (a n)) -> P b ->
  P (match r with SymOk (SSimple 35) n => a n | _ => b end).
Proof.
  intros Ha Hb. destruct r as [| |[c|c|c] n]; try exact Hb.
  destruct c as [|p]; [exact Hb|]. repeat (destruct p as [p|p|]; try exact Hb). exact (Ha n eq_refl).
Qed.

Lemma skipn_sym_len l k s n : sym_at (skipn k l) = SymOk s n -> (k + n <= length l)%nat.
Proof. intros H. apply sym_at_len in H. rewrite skipn_length in H. lia. Qed.

Lemma skip_done s k : Inv s -> (1 <= k <= length (rest s))%nat ->
  good (fun bs => PInv (snd bs) /\ (fst bs = false -> snd bs = s))
       (do s' <- next_item (set_cat (advance s k) CNone); Ok (true, s')).
Proof.
  intros HI Hk. eapply good_bind.
  - apply (next_item_after_token _ 0). split; [exact (advance_inv s k HI (proj2 Hk))|].
    split; [reflexivity|]. left. cbn [set_cat advance start]. lia.
  - intros s' _ (HP & _). cbn [good fst snd]. split; [exact HP|discriminate].
Qed.

Lemma skip_at_token_good s : PInv s ->
  good (fun bs => PInv (snd bs) /\ (fst bs = false -> snd bs = s)) (skip_at_token s).
Proof.
  intros HP. pose proof HP as (HI & _). unfold skip_at_token.
  assert (Same : good (fun bs : bool * sbuf => PInv (snd bs) /\ (fst bs = false -> snd bs = s)) (Ok (false, s))).
  { cbn. auto. }
  apply (case_char_at (good _)); [|exact Same]. intros Ep.
  destruct (sym_at (skipn 1 (rest s))) as [| |sym n] eqn:Es; cbn [good]; auto.
  pose proof (skipn_sym_len _ _ _ _ Es) as Ln.
  unfold peek_symbol in Ep. destruct (scat s); try discriminate Ep.
  - destruct (negb (is_word_char sym)); [apply skip_done; [exact HI|lia]|exact Same].
  - destruct (sym_eqb sym (SChar 34)); [apply skip_done; [exact HI|lia]|exact Same].
Qed.

Lemma skip_unknown_marker_good s : PInv s ->
  good (fun bs => PInv (snd bs) /\ (fst bs = false -> snd bs = s)) (skip_unknown_marker s).
Proof.
  intros HP. pose proof HP as (HI & _). unfold skip_unknown_marker.
  assert (Same : good (fun bs : bool * sbuf => PInv (snd bs) /\ (fst bs = false -> snd bs = s)) (Ok (false, s))).
  { cbn. auto. }
  destruct (scat s); try exact Same.
  apply (case_marker (good _)); [|exact Same]. intros n1 Es1.
  destruct (sym_at (skipn n1 (rest s))) as [| |sym n2] eqn:Es2; try exact Same.
  destruct (is_word_char sym); [exact Same|].
  pose proof (sym_at_len _ _ _ Es1) as L1. pose proof (skipn_sym_len _ _ _ _ Es2) as L2.
  apply skip_done; [exact HI|lia].
Qed.

(* the fast loops stop inside the token, or behind the closing quote *)
Lemma next_ascii_stop s s1 : Inv s -> is_token (scat s) = true -> next_ascii_symbol s = (None, s1) ->
  InTok s1 (start s) /\ buf s1 = buf s /\ (length (rest s1) <= length (rest s))%nat.
Proof.
  intros HI Ht E. destruct (next_ascii_symbol_none _ _ E) as [-> | (Ec & -> & L)].
  - split; [apply InTok_token; [exact HI|lia|exact Ht]|]. split; [reflexivity|lia].
  - pose proof (advance_inv s 1 HI L) as HI1. split; [|split; [reflexivity|]].
    + split; [exact HI1|]. cbn [set_cat advance start]. split; [lia|]. right.
      split; [exact HI1|]. split; [reflexivity|]. left. cbn [set_cat advance start]. lia.
    + change (rest (set_cat (advance s 1) CNone)) with (rest (advance s 1)). rewrite rest_advance, skipn_length. lia.
Qed.

Definition lbl_post (s : sbuf) (x : lblres * sbuf * nat) : Prop :=
  let '(res, s', w') := x in
  match res with
  | LDot => Inv s' /\ (w' < start s')%nat /\ is_token (scat s') = true /\
            (length (rest s') < length (rest s))%nat
  | _ => TEnd s' w'
  end.

Definition asc_post (s : sbuf) (st : nat) (x : option lblres * sbuf * nat) : Prop :=
  let '(r, s', w') := x in
  match r with
  | Some res => res = LDot /\ lbl_post s (res, s', w')
  | None => (st < w')%nat /\ InTok s' w' /\ (length (rest s') <= length (rest s))%nat
  end.

Lemma label_ascii_loop_good : forall fuel s st w latest,
  Inv s -> (st < w)%nat -> w = start s -> is_token (scat s) = true -> (length (rest s) < fuel)%nat ->
  good (asc_post s st) (label_ascii_loop fuel s st w latest).
Proof.
  induction fuel as [|f IH]; intros s st w latest HI Hst Hw Ht Hf; [lia|].
  cbn [label_ascii_loop]. destruct (next_ascii_symbol s) as [[ch|] s1] eqn:E.
  - destruct (next_ascii_symbol_some _ _ _ E) as (_ & -> & L).
    pose proof (advance_inv s 1 HI L) as HI1.
    assert (Hsh : (length (rest (advance s 1)) < length (rest s))%nat) by (rewrite rest_advance, skipn_length; lia).
    destruct (ch =? 46).
    + destruct (store_behind (advance s 1) st (len_octet w st) HI1) as (s2 & E2 & A & B & C & D & F).
      { cbn [advance start]. lia. }
      rewrite E2. cbn [bind good asc_post lbl_post]. cbn [advance start scat] in B, C.
      split; [reflexivity|]. split; [exact A|]. split; [lia|]. split; [congruence|]. rewrite F. exact Hsh.
    + destruct (too_long (S w) latest label_latest_ge); [exact I|].
      eapply good_impl; [|apply (IH (advance s 1) st (S w) latest HI1); [lia|cbn [advance start]; lia|exact Ht|lia]].
      intros [[[res|] s'] w']; cbn [asc_post lbl_post].
      * intros (-> & A & B & C & D). repeat split; auto. lia.
      * intros (A & B & C). split; [exact A|]. split; [exact B|lia].
  - destruct (next_ascii_stop s s1 HI Ht E) as (HT & _ & Hle). subst w.
    cbn [good asc_post]. split; [exact Hst|]. split; [exact HT|exact Hle].
Qed.

Lemma label_sym_loop_good : forall fuel s st w latest,
  (st < w)%nat -> InTok s w -> (length (rest s) < fuel)%nat ->
  good (lbl_post s) (label_sym_loop fuel s st w latest).
Proof.
  induction fuel as [|f IH]; intros s st w latest Hst HT Hf; [lia|].
  cbn [label_sym_loop].
  eapply good_bind; [apply (next_symbol_InTok s w HT)|].
  intros [[sym|] s1] _ (Hb & H); cbn [fst snd] in Hb, H.
  - destruct H as (HI1 & Ht1 & Hlt & Hsh). destruct HT as (_ & Hw & _).
    destruct (sym_eqb sym (SChar 46)).
    + destruct (store_behind s1 st (len_octet w st) HI1 ltac:(lia)) as (s2 & E2 & A & B & C & D & F).
      rewrite E2. cbn [bind good lbl_post]. split; [exact A|]. split; [lia|]. split; [congruence|]. rewrite F. exact Hsh.
    + destruct (into_octet sym) as [b|]; [|exact I].
      destruct (store_behind s1 w b HI1 ltac:(lia)) as (s2 & E2 & A & B & C & D & F).
      rewrite E2. cbn [bind].
      destruct (too_long (S w) latest label_latest_ge); [exact I|].
      eapply good_impl; [|apply (IH s2 st (S w) latest); [lia|apply InTok_token; [exact A|lia|congruence]|rewrite F; lia]].
      intros [[[| |] s'] w']; cbn [lbl_post]; auto.
      intros (P1 & P2 & P3 & P4). repeat split; auto. rewrite F in P4. lia.
  - destruct H as (HT1 & _). destruct (Nat.ltb (st + 1) w).
    + destruct HT1 as (HI1 & Hn1 & Hd1).
      destruct (store_behind s1 st (len_octet w st) HI1) as (s2 & E2 & Hbh).
      { destruct Hd1 as [Hd1 | [Hd1 _]]; lia. }
      rewrite E2. cbn [bind good lbl_post]. apply (behind_TEnd s1 s2 w Hbh). split; [exact HI1|]. split; [exact Hn1|exact Hd1].
    + cbn [good lbl_post]. apply (TEnd_weaken s1 w st); [lia|exact HT1].
Qed.

Lemma convert_label_good s w : Inv s -> (w < start s)%nat -> is_token (scat s) = true ->
  good (lbl_post s) (convert_label s w).
Proof.
  intros HI Hw Ht. unfold convert_label.
  destruct (Nat.eqb (S w) (start s)) eqn:Ee.
  - apply Nat.eqb_eq in Ee.
    eapply good_bind; [apply (label_ascii_loop_good (fuel_of s) s w (S w) _ HI ltac:(lia) Ee Ht (fuel_of_rest s))|].
    intros [[[res|] s1] w1] _; cbn [asc_post].
    + intros (_ & P). exact P.
    + intros (Q1 & Q2 & Q3).
      eapply good_impl; [|apply (label_sym_loop_good (fuel_of s1) s1 w w1 _ Q1 Q2 (fuel_of_rest s1))].
      intros [[[| |] s2] w2]; cbn [lbl_post]; auto.
      intros (C1 & C2 & C3 & C4). repeat split; auto. lia.
  - apply Nat.eqb_neq in Ee.
    apply (label_sym_loop_good (fuel_of s) s w (S w)); [lia|apply InTok_token; [exact HI|lia|exact Ht]|apply fuel_of_rest].
Qed.

Lemma chain_good rel o s : PInv s -> good (fun rs => PInv (snd rs)) (do n <- chain rel o; Ok (n, s)).
Proof. intros HP. unfold chain. destruct (Nat.ltb chain_max (length rel + length o)); [exact I|exact HP]. Qed.

Lemma origin_chain_good origin rel s : PInv s ->
  good (fun rs => PInv (snd rs)) (do o <- get_origin origin; do n <- chain rel o; Ok (n, s)).
Proof. intros HP. destruct origin as [o|]; [apply chain_good; exact HP|exact I]. Qed.

Lemma name_loop_good : forall fuel origin s w,
  Inv s -> (w < start s)%nat -> is_token (scat s) = true -> (length (rest s) < fuel)%nat ->
  good (fun rs => PInv (snd rs)) (name_loop fuel origin s w).
Proof.
  induction fuel as [|f IH]; intros origin s w HI Hw Ht Hf; [lia|].
  cbn [name_loop].
  eapply good_bind; [apply (convert_label_good s w HI Hw Ht)|].
  intros [[res s1] w1] _ P. cbn [lbl_post] in P.
  destruct res.
  - eapply good_bind; [apply next_item_after_token; exact P|].
    intros s2 _ (HP2 & Hw2 & _).
    destruct (Nat.eqb w 0).
    + apply origin_chain_good. exact HP2.
    + destruct HP2 as (HI2 & _ & Hf2). eapply good_bind; [apply (split_to_PInv s2 w1 HI2 Hw2 Hf2)|].
      intros rs _ (HP & _). apply chain_good. exact HP.
  - destruct P as (HI1 & Hw1 & Ht1 & Hsh).
    destruct (Nat.eqb w1 1).
    + eapply good_bind; [apply (next_symbol_InTok s1 0); apply InTok_token; [exact HI1|lia|exact Ht1]|].
      intros [[sym|] s2] _ (_ & H); [exact I|]. cbn [fst snd] in H.
      eapply good_bind; [apply next_item_after_token; exact (proj1 H)|].
      intros s3 _ (HP3 & _). exact HP3.
    + destruct (name_rejects_empty_label && Nat.eqb w1 (S w)); [exact I|].
      destruct (if name_max_ge then Nat.leb name_max w1 else Nat.ltb name_max w1); [exact I|].
      apply IH; auto. lia.
  - eapply good_bind; [apply next_item_after_token; exact P|].
    intros s2 _ ((HI2 & _ & Hf2) & Hw2 & _).
    eapply good_bind; [apply (split_to_PInv s2 w1 HI2 Hw2 Hf2)|].
    intros rs _ (HP & _). apply origin_chain_good. exact HP.
Qed.

Lemma scan_name_good origin s : PInv s -> good (fun rs => PInv (snd rs)) (scan_name origin s).
Proof.
  intros HP. unfold scan_name.
  eapply good_bind; [apply require_token_good|]. intros [] _ Ht.
  destruct reader_guards_present as (_ & _ & _ & _ & Hat). rewrite Hat.
  eapply good_bind; [apply skip_at_token_good; exact HP|].
  intros [b s1] _ (HP1 & Hsame). cbn [fst snd] in *.
  destruct b; [apply origin_chain_good; exact HP1|].
  rewrite (Hsame eq_refl). destruct HP as (HI & H1 & _). destruct (start s) as [|k] eqn:Es; [lia|].
  pose proof (trim_to_spec s k HI) as T.
  assert (L : Nat.leb k (start s) = true) by (apply Nat.leb_le; lia). rewrite L in T.
  destruct T as (s0 & E0 & HI0 & Hst0 & Hr0 & Hc0 & _). rewrite E0. cbn [bind].
  apply name_loop_good; [exact HI0|lia|congruence|apply fuel_of_rest].
Qed.

Definition cs_asc_post (s : sbuf) (w : nat) (x : sbuf * nat) : Prop :=
  let '(s', w') := x in length (buf s') = length (buf s) /\ (w <= w')%nat /\ InTok s' w'.

Lemma charstr_ascii_loop_good : forall fuel s w latest,
  Inv s -> w = start s -> is_token (scat s) = true -> (length (rest s) < fuel)%nat ->
  good (cs_asc_post s w) (charstr_ascii_loop fuel s w latest).
Proof.
  induction fuel as [|f IH]; intros s w latest HI Hw Ht Hf; [lia|].
  cbn [charstr_ascii_loop]. destruct (next_ascii_symbol s) as [[ch|] s1] eqn:E.
  - destruct (next_ascii_symbol_some _ _ _ E) as (_ & -> & L).
    destruct (too_long (S w) latest charstr_latest_ge); [exact I|].
    eapply good_impl; [|apply (IH (advance s 1) (S w) latest (advance_inv s 1 HI L));
                        [cbn [advance start]; lia|exact Ht|rewrite rest_advance, skipn_length; lia]].
    intros [s' w'] (A & B & C). split; [exact A|]. split; [lia|exact C].
  - destruct (next_ascii_stop s s1 HI Ht E) as (HT & Hb & _). subst w.
    cbn [good cs_asc_post]. split; [rewrite Hb; reflexivity|]. split; [lia|exact HT].
Qed.

Definition cs_post (s : sbuf) (w : nat) (x : sbuf * nat) : Prop :=
  let '(s', w') := x in
  Inv s' /\ (w' < start s')%nat /\ fresh s' /\ length (buf s') = length (buf s) /\ (w <= w')%nat.

Lemma charstr_sym_loop_good : forall fuel s st w latest,
  (st < w)%nat -> InTok s w -> (length (rest s) < fuel)%nat ->
  good (cs_post s w) (charstr_sym_loop fuel s st w latest).
Proof.
  induction fuel as [|f IH]; intros s st w latest Hst HT Hf; [lia|].
  cbn [charstr_sym_loop].
  eapply good_bind; [apply (next_symbol_InTok s w HT)|].
  intros [[sym|] s1] _ (Hb & H); cbn [fst snd] in Hb, H.
  - destruct H as (HI1 & Ht1 & Hlt & Hsh). destruct HT as (_ & Hw & _).
    destruct (into_octet sym) as [b|]; [|exact I].
    destruct (store_behind s1 w b HI1 ltac:(lia)) as (s2 & E2 & A & B & C & D & F).
    rewrite E2. cbn [bind].
    destruct (too_long (S w) latest charstr_latest_ge); [exact I|].
    eapply good_impl; [|apply (IH s2 st (S w) latest); [lia|apply InTok_token; [exact A|lia|congruence]|rewrite F; lia]].
    intros [s' w'] (P1 & P2 & P3 & P4 & P5). repeat split; auto; try lia; congruence.
  - destruct H as (HT1 & _).
    eapply good_bind; [apply next_item_after_token; exact HT1|].
    intros s2 _ ((HI2 & _ & Hf2) & Hw2 & Hb2).
    destruct (store_behind s2 st (len_octet w st) HI2 ltac:(lia)) as (s3 & E3 & Hbh).
    rewrite E3. cbn [bind good cs_post]. pose proof (behind_fresh s2 s3 Hbh Hf2) as Hf3.
    destruct Hbh as (A & B & _ & D & _). repeat split; auto; try lia; congruence.
Qed.

Lemma convert_charstr_good s w : Inv s -> (w < start s)%nat ->
  good (cs_post s (S w)) (convert_charstr s w).
Proof.
  intros HI Hw. unfold convert_charstr.
  destruct reader_guards_present as (_ & _ & _ & Hrt & _). rewrite Hrt.
  eapply good_bind; [apply require_token_good|]. intros [] _ Ht.
  destruct (Nat.eqb (S w) (start s)) eqn:Ee.
  - apply Nat.eqb_eq in Ee.
    eapply good_bind; [apply (charstr_ascii_loop_good (fuel_of s) s (S w) _ HI Ee Ht (fuel_of_rest s))|].
    intros [s1 w1] _ (P1 & P2 & P3). cbn [fst snd].
    eapply good_impl; [|apply (charstr_sym_loop_good (fuel_of s1) s1 w w1 _ ltac:(lia) P3 (fuel_of_rest s1))].
    intros [s2 w2] (G1 & G2 & G3 & G4 & G5). repeat split; auto; try lia; congruence.
  - apply Nat.eqb_neq in Ee. cbn [bind fst snd].
    apply (charstr_sym_loop_good (fuel_of s) s w (S w)); [lia|apply InTok_token; [exact HI|lia|exact Ht]|apply fuel_of_rest].
Qed.

(* every iteration writes one more length octet: the buffer bounds the loop *)
Lemma charstr_entry_loop_good : forall fuel s w,
  Inv s -> (w < start s)%nat -> (length (buf s) - w < fuel)%nat ->
  good (fun x : sbuf * nat => Inv (fst x) /\ (snd x < start (fst x))%nat /\ fresh (fst x))
       (charstr_entry_loop fuel s w).
Proof.
  induction fuel as [|f IH]; intros s w HI Hw Hf; [lia|].
  cbn [charstr_entry_loop].
  eapply good_bind; [apply (convert_charstr_good s w HI Hw)|].
  intros [s1 w1] _ (P1 & P2 & P3 & P4 & P5). cbn [fst snd] in *.
  destruct (is_line_feed s1).
  - cbn [good fst snd]. auto.
  - apply IH; auto. unfold Inv in P1. lia.
Qed.

Lemma scan_charstr_entry_good s : PInv s -> good (fun rs => PInv (snd rs)) (scan_charstr_entry s).
Proof.
  intros (HI & H1 & _). unfold scan_charstr_entry.
  destruct (start s) as [|k] eqn:Es; [lia|].
  pose proof (trim_to_spec s k HI) as T.
  assert (L : Nat.leb k (start s) = true) by (apply Nat.leb_le; lia). rewrite L in T.
  destruct T as (s0 & E0 & HI0 & Hst0 & _). rewrite E0. cbn [bind].
  eapply good_bind; [apply (charstr_entry_loop_good (S (fuel_of s0)) s0 0 HI0 ltac:(lia))|].
  { unfold fuel_of. lia. }
  intros [s1 w1] _ (A & B & C). cbn [fst snd] in *.
  eapply good_proj1, (split_to_PInv s1 w1 A B C).
Qed.

Definition wpos (w : nat) (b : option (list N)) : nat := match b with None => w | Some _ => 0%nat end.

Definition ad_post (s : sbuf) (w : nat) (data : list N) (b : option (list N))
  (x : sbuf * nat * option (list N)) : Prop :=
  let '(s', w', b') := x in
  behind s s' /\ (b' = None -> b = None /\ w' = (w + length data)%nat /\ (w' <= start s')%nat).

Lemma append_data_good s data w b : Inv s -> (b = None -> (w <= start s)%nat) ->
  good (ad_post s w data b) (append_data s data w b).
Proof.
  intros HI Hw. unfold append_data.
  assert (Same : behind s s) by (repeat split; auto).
  destruct b as [bl|].
  - cbn [good ad_post]. split; [exact Same|discriminate].
  - specialize (Hw eq_refl). destruct (Nat.ltb (start s) (w + length data)) eqn:El.
    + assert (Lw : Nat.leb w (length (buf s)) = true) by (apply Nat.leb_le; unfold Inv in *; lia).
      rewrite Lw. cbn [good ad_post]. split; [exact Same|discriminate].
    + apply Nat.ltb_ge in El.
      destruct (store_list_behind data s w HI El) as (s1 & E1 & Hbh). rewrite E1.
      cbn [bind good ad_post]. split; [exact Hbh|]. intros _. destruct Hbh as (_ & B & _). repeat split; auto. lia.
Qed.

Section Converters.
Variable St : Type.
Variable process : St -> symbol -> outcome (St * list N).
(* an invariant of the converter state under which it never panics *)
Variable SI : St -> Prop.
(* symbols consumed whose output has not been handed out yet: the converter
   never hands out more octets than it has consumed symbols (with credit 0
   append_data finds the room, or a builder) *)
Variable credit : St -> nat.
Hypothesis Hproc : forall h sym, SI h ->
  good (fun x => SI (fst x) /\
          (credit (fst x) = 0%nat \/ (credit (fst x) + length (snd x) <= credit h + 1)%nat)) (process h sym).

Definition ct_post (s : sbuf) (x : St * sbuf * nat * option (list N)) : Prop :=
  let '(h', s', w', b') := x in
  SI h' /\ length (buf s') = length (buf s) /\ (start s <= start s')%nat /\
  (fresh s -> (start s < start s')%nat) /\ TEnd s' (wpos (w' + credit h') b').

Lemma convert_token_loop_good : forall fuel h s w b, SI h ->
  Inv s -> (1 <= start s)%nat -> is_token (scat s) = true -> (b = None -> (w + credit h <= start s)%nat) ->
  (length (rest s) < fuel)%nat ->
  good (ct_post s) (convert_token_loop St process fuel h s w b).
Proof.
  induction fuel as [|f IH]; intros h s w b HS HI H1 Ht Hw Hf; [lia|].
  cbn [convert_token_loop].
  eapply good_bind; [apply (next_symbol_InTok s (wpos (w + credit h) b))|].
  { apply InTok_token; [exact HI| |exact Ht]. destruct b; cbn [wpos]; [lia|auto]. }
  intros [[sym|] s1] E (Hb & H); cbn [fst snd] in Hb, H.
  - destruct H as (HI1 & Ht1 & Hlt & Hsh).
    eapply good_bind; [apply (Hproc h sym HS)|]. intros [h1 data] _ (HS1 & Hcr). cbn [fst snd] in *.
    assert (Rec : forall s2 w2 b2, behind s1 s2 -> (b2 = None -> (w2 + credit h1 <= start s2)%nat) ->
              good (ct_post s) (convert_token_loop St process f h1 s2 w2 b2)).
    { intros s2 w2 b2 (A & B & C & D & F) G.
      eapply good_impl; [|apply (IH h1 s2 w2 b2 HS1 A); [lia|congruence|exact G|rewrite F; lia]].
      intros [[[h' s'] w'] b'] (Q0 & Q1 & Q2 & _ & Q4).
      split; [exact Q0|]. split; [congruence|]. split; [lia|]. split; [intros _; lia|exact Q4]. }
    destruct data as [|d0 dt].
    + apply Rec; [repeat split; auto|]. intros Eb. specialize (Hw Eb). cbn [length] in Hcr. lia.
    + eapply good_bind; [apply (append_data_good s1 (d0 :: dt) w b HI1)|].
      { intros Eb. specialize (Hw Eb). lia. }
      intros [[s2 w2] b2] _ (Hbh & G). apply Rec; [exact Hbh|].
      intros Eb. destruct (G Eb) as (Eb0 & -> & Hle). specialize (Hw Eb0). destruct Hbh as (_ & B & _). lia.
  - destruct H as (HT1 & Hs). cbn [good ct_post].
    split; [exact HS|]. split; [congruence|]. split; [exact Hs|]. split; [|exact HT1].
    intros Hfr. exact (fresh_first_symbol s s1 Hfr Ht E).
Qed.

Definition ce_post (x : St * sbuf * nat * option (list N)) : Prop :=
  let '(h', s', w', b') := x in SI h' /\ PInv s' /\ (b' = None -> (w' + credit h' < start s')%nat).

Lemma convert_entry_loop_good : forall fuel h s w b, SI h ->
  PInv s -> (b = None -> (w + credit h < start s)%nat) -> (length (rest s) < fuel)%nat ->
  good ce_post (convert_entry_loop St process fuel h s w b).
Proof.
  induction fuel as [|f IH]; intros h s w b HS HP Hw Hf; [lia|].
  cbn [convert_entry_loop]. destruct (is_line_feed s).
  { cbn [good ce_post]. auto. }
  destruct HP as (HI & H1 & Hfr).
  eapply good_bind; [apply require_token_good|]. intros [] _ Ht.
  eapply good_bind; [apply (convert_token_loop_good (fuel_of s) h s w b HS HI H1 Ht)|].
  { intros Eb. specialize (Hw Eb). lia. } { apply fuel_of_rest. }
  intros [[[h1 s1] w1] b1] _ (HS1 & Hl1 & _ & Hp1 & HT1). specialize (Hp1 Hfr).
  eapply good_bind; [apply next_item_after_token; exact HT1|].
  intros s2 E2 (HP2 & Hw2 & Hb2). pose proof (proj2 (next_item_buf _ _ E2)) as Hm2.
  apply IH; auto.
  - intros Eb. subst b1. exact Hw2.
  - destruct HP2 as (HI2 & _). rewrite (rest_length s) in Hf. rewrite (rest_length s2).
    unfold Inv in HI2. rewrite Hb2, Hl1 in *. lia.
Qed.

Lemma convert_entry_credit tail init s : (forall h, no_panic (tail h)) -> SI init -> credit init = 0%nat -> PInv s ->
  good (fun rs => PInv (snd rs)) (convert_entry St process tail init s).
Proof.
  intros Htail HS0 Hc0 HP. unfold convert_entry.
  eapply good_bind; [apply (convert_entry_loop_good (fuel_of s) init s 0 None HS0 HP)|].
  { intros _. destruct HP as (_ & H1 & _). lia. } { apply fuel_of_rest. }
  intros [[[h1 s1] w1] b1] _ (_ & HP1 & Hw1).
  specialize (Htail h1). destruct (tail h1); cbn [bind good no_panic] in *; auto.
  destruct b1 as [bl|]; [exact HP1|]. destruct HP1 as (A & _ & C).
  eapply good_proj1, (split_to_PInv s1 w1 A ltac:(specialize (Hw1 eq_refl); lia) C).
Qed.

(* convert_token: what process_tail hands back is appended after next_item,
   so it has to fit: at most `credit` octets *)
Lemma convert_token_credit tail_data init s :
  (forall h, SI h -> good (fun d => (length d <= credit h)%nat) (tail_data h)) ->
  SI init -> credit init = 0%nat -> PInv s ->
  good (fun rs => PInv (snd rs)) (convert_token St process tail_data init s).
Proof.
  intros Htail HS0 Hc0 (HI & H1 & _). unfold convert_token.
  eapply good_bind; [apply require_token_good|]. intros [] _ Ht.
  eapply good_bind; [apply (convert_token_loop_good (fuel_of s) init s 0 None HS0 HI H1 Ht)|].
  { intros _. lia. } { apply fuel_of_rest. }
  intros [[[h1 s1] w1] b1] _ (HS1 & _ & _ & _ & HT1).
  eapply good_bind; [apply next_item_after_token; exact HT1|].
  intros s2 _ (HP2 & Hw2 & _). pose proof HP2 as (HI2 & _).
  eapply good_bind; [apply Htail; exact HS1|]. intros data _ Hd. cbn beta in Hd.
  assert (Fin : forall s3 w3 b3, behind s2 s3 -> (b3 = None -> b1 = None /\ (w3 <= w1 + length data)%nat) ->
            good (fun rs : list N * sbuf => PInv (snd rs))
                 (match b3 with Some bl => Ok (bl, s3) | None => split_to s3 w3 end)).
  { intros s3 w3 b3 Hbh G. destruct HP2 as (_ & H12 & Hf2). pose proof (behind_fresh s2 s3 Hbh Hf2) as Hf3.
    destruct Hbh as (A & B & _). destruct b3 as [bl|].
    - cbn [good snd]. split; [exact A|]. split; [lia|exact Hf3].
    - destruct (G eq_refl) as [Eb Hle]. rewrite Eb in Hw2. cbn [wpos] in Hw2.
      eapply good_proj1, (split_to_PInv s3 w3 A ltac:(lia) Hf3). }
  destruct data as [|d0 dt].
  - cbn [bind]. apply Fin; [repeat split; auto|]. intros Eb. split; [exact Eb|lia].
  - eapply good_bind; [apply (append_data_good s2 (d0 :: dt) w1 b1 HI2)|].
    { intros Eb. rewrite Eb in Hw2. cbn [wpos] in Hw2. lia. }
    intros [[s3 w3] b3] _ (Hbh & G). apply Fin; [exact Hbh|].
    intros Eb. destruct (G Eb) as (Eb0 & -> & _). split; [exact Eb0|lia].
Qed.
End Converters.

Lemma convert_token_good (St : Type) process tail_data (SI : St -> Prop) (credit : St -> nat) :
  (forall h sym, SI h ->
     good (fun x => SI (fst x) /\ (credit (fst x) + length (snd x) <= credit h + 1)%nat) (process h sym)) ->
  (forall h, SI h -> good (fun d => (length d <= credit h)%nat) (tail_data h)) ->
  forall init s, SI init -> credit init = 0%nat -> PInv s ->
  good (fun rs => PInv (snd rs)) (convert_token St process tail_data init s).
Proof.
  intros Hp Ht init s. apply (convert_token_credit St process SI credit); [|exact Ht].
  intros h sym Hh. eapply good_impl; [|apply (Hp h sym Hh)]. intros x [A B]. auto.
Qed.

Lemma convert_entry_good (St : Type) process tail (SI : St -> Prop) :
  (forall h sym, SI h -> good (fun x => SI (fst x)) (process h sym)) -> (forall h, no_panic (tail h)) ->
  forall init s, SI init -> PInv s -> good (fun rs => PInv (snd rs)) (convert_entry St process tail init s).
Proof.
  intros Hp Ht init s HS HP. apply (convert_entry_credit St process SI (fun _ => 0%nat)); auto.
  intros h sym Hh. eapply good_impl; [|apply (Hp h sym Hh)]. intros x Hx. split; [exact Hx|left; reflexivity].
Qed.

Definition hex_credit (h : hexst) : nat := if h_pending h then 1%nat else 0%nat.

Lemma hex_process_good h sym :
  good (fun x : hexst * list N => True /\ (hex_credit (fst x) + length (snd x) <= hex_credit h + 1)%nat)
       (hex_process h sym).
Proof.
  unfold hex_process, hex_credit. destruct (into_char sym); [|exact I].
  destruct (hex_digit n); [|exact I]. destruct (h_pending h); cbn; auto.
Qed.

Lemma convert_entry_hex_good s : PInv s -> good (fun rs => PInv (snd rs)) (convert_entry_hex s).
Proof.
  apply (convert_entry_credit hexst hex_process (fun _ => True) hex_credit); auto.
  - intros h sym _. eapply good_impl; [|apply hex_process_good]. intros x [A B]. auto.
  - intros h. unfold hex_tail. destruct (h_pending h); exact I.
Qed.

Lemma tab_get_total t ch : (N.to_nat ch < length t)%nat -> exists v, C18.Model.tab_get t ch = Ok v.
Proof.
  intros H. unfold C18.Model.tab_get. destruct (nth_error t (N.to_nat ch)) eqn:E; [eauto|].
  apply nth_error_None in E. lia.
Qed.

(* the Base 64 converter (C18 model): `next` stays below 4 or is the end marker,
   so the index into the four-octet group buffer is always in range *)
Definition b64_si (c : C18.Model.conv64) : Prop :=
  C18.Model.c64_next c < 4 \/ C18.Model.c64_next c = C18.Gen.b64_eof_marker.

Lemma b64_process_total c sym : b64_si c -> good (fun x => b64_si (fst x)) (b64_process c sym).
Proof.
  intros HS. unfold b64_process. destruct (into_char sym) as [ch|]; [|exact I].
  cbv beta delta [C18.Model.c64_process_char].
  destruct (C18.Model.c64_next c =? C18.Gen.b64_eof_marker) eqn:Ee; [cbn; exact I|].
  apply N.eqb_neq in Ee. destruct HS as [HS | HS]; [|congruence].
  (* the continuation `cont` of process_char, for either value it is called with *)
  lazymatch goal with |- context [let cont := ?f in @?body cont] =>
    assert (Cont : forall v, good (fun x : C18.Model.conv64 * list N => b64_si (fst x)) (b64_err (f v)))
  end.
  { intros v. cbv beta. unfold C18.Model.buf4_set. destruct (C18.Model.c64_input c) as [[[b0 b1] b2] b3].
    change C18.Gen.b64_conv_group with 4.
    set (n := C18.Model.c64_next c) in *.
    assert (Hn : n = 0 \/ n = 1 \/ n = 2 \/ n = 3) by lia.
    destruct Hn as [-> | [-> | [-> | ->]]]; cbn [N.eqb Pos.eqb bind N.add Pos.add Pos.succ].
    1-3: left; cbn; lia.
    repeat match goal with |- context [if ?b then _ else _] => destruct b end; cbn; auto;
      unfold b64_si; cbn; first [left; lia | right; reflexivity]. }
  cbv zeta. destruct (ch =? C18.Gen.b64_pad).
  - destruct (C18.Model.c64_next c <? C18.Gen.b64_conv_pad_min); [cbn; exact I|]. apply Cont.
  - destruct (C18.Gen.b64_conv_ascii_max <? ch) eqn:Ea; [cbn; exact I|].
    apply N.ltb_ge in Ea. change C18.Gen.b64_conv_ascii_max with 127 in Ea.
    destruct (tab_get_total C18.Gen.b64_decode_tab ch) as (v & Ev).
    { change (length C18.Gen.b64_decode_tab) with 128%nat. lia. }
    rewrite Ev. cbn [bind].
    destruct (v =? C18.Gen.b64_conv_illegal_val); [cbn; exact I|]. apply Cont.
Qed.

Lemma convert_entry_b64_good s : PInv s -> good (fun rs => PInv (snd rs)) (convert_entry_b64 s).
Proof.
  apply (convert_entry_good _ b64_process b64_tail b64_si).
  - apply b64_process_total.
  - intros c. unfold b64_tail, C18.Model.c64_process_tail.
    destruct (N.land (C18.Model.c64_next c) C18.Gen.b64_conv_fin_mask =? 0); cbn; auto.
  - left. cbn. lia.
Qed.

(* the two NSEC3 converters *)
Definition salt_credit (st : saltst) : nat := match st with SaltHex h _ => hex_credit h | _ => 0%nat end.

Lemma salt_process_good st sym :
  good (fun x => True /\ (salt_credit (fst x) + length (snd x) <= salt_credit st + 1)%nat) (salt_process st sym).
Proof.
  assert (H : forall h len, good (fun x => True /\ (salt_credit (fst x) + length (snd x) <= hex_credit h + 1)%nat)
                             (salt_hex h len sym)).
  { intros h len. unfold salt_hex.
    eapply good_bind; [apply (hex_process_good h sym)|]. intros [h1 d] _ C. cbn [fst snd] in *.
    destruct (Nat.ltb 255 (len + length d)); [exact I|exact C]. }
  destruct st as [| |h len]; cbn [salt_process salt_credit]; [|exact I|apply H].
  specialize (H (mkH false 0) 0%nat).
  destruct (into_char sym) as [c|]; [|exact H].
  destruct (N.eqb_spec c 45) as [->|Hne]; [cbn; auto|].
  destruct c as [|p]; [exact H|]. repeat (destruct p as [p|p|]; try exact H). congruence.
Qed.

Lemma convert_token_salt_good s : PInv s -> good (fun rs => PInv (snd rs)) (convert_token_salt s).
Proof.
  apply (convert_token_good saltst salt_process salt_tail (fun _ => True) salt_credit); auto.
  - intros h sym _. apply salt_process_good.
  - intros [| |h len] _; cbn [salt_tail good length salt_credit]; try lia.
    unfold hex_tail, hex_credit. destruct (h_pending h); cbn; lia.
Qed.

Definition hash_si (st : C18.Model.conv32 * nat) : Prop := C18.Model.c32_next (fst st) < 8.
Definition hash_credit (st : C18.Model.conv32 * nat) : nat := N.to_nat (C18.Model.c32_next (fst st)).

Lemma buf8_set_total b i v : i < 8 -> exists b', C18.Model.buf8_set b i v = Ok b'.
Proof.
  intros H. unfold C18.Model.buf8_set. destruct b as [[[[[[[b0 b1] b2] b3] b4] b5] b6] b7].
  repeat match goal with |- context [if ?i =? ?k then _ else _] => destruct (N.eqb_spec i k); [eauto|] end. lia.
Qed.

Lemma hash_process_good st sym : hash_si st ->
  good (fun x => hash_si (fst x) /\ (hash_credit (fst x) + length (snd x) <= hash_credit st + 1)%nat)
       (hash_process st sym).
Proof.
  destruct st as [c len]. unfold hash_si, hash_credit, hash_process. cbn [fst snd]. intros HS.
  destruct (into_char sym) as [ch|]; [|exact I].
  unfold C18.Model.c32_process_char.
  destruct (C18.Gen.b32_conv_ascii_max <? ch) eqn:Ea; [cbn; exact I|].
  apply N.ltb_ge in Ea. change C18.Gen.b32_conv_ascii_max with 127 in Ea.
  destruct (tab_get_total C18.Gen.b32_decode_tab ch) as (v & Ev).
  { change (length C18.Gen.b32_decode_tab) with 128%nat. lia. }
  rewrite Ev. cbn [bind].
  destruct (v =? C18.Gen.b32_conv_illegal_val); [cbn; exact I|].
  destruct (buf8_set_total (C18.Model.c32_input c) (C18.Model.c32_next c) v HS) as (inp & Ei).
  rewrite Ei. cbn [bind]. change C18.Gen.b32_conv_group with 8.
  destruct (N.eqb_spec (C18.Model.c32_next c + 1) 8) as [E8|E8]; cbn [b32_err bind fst snd];
    unfold hash_check; cbn [fst snd length];
    match goal with |- context [Nat.ltb 255 ?x] => destruct (Nat.ltb 255 x) end; cbn [good fst snd length C18.Model.c32_next]; auto;
    split; lia.
Qed.

Lemma hash_tail_good st : hash_si st -> good (fun d : list N => (length d <= hash_credit st)%nat) (hash_tail st).
Proof.
  destruct st as [c len]. unfold hash_si, hash_credit, hash_tail, C18.Model.c32_process_tail. cbn [fst snd]. intros HS.
  set (n := C18.Model.c32_next c) in *.
  assert (Hn : n = 0 \/ n = 1 \/ n = 2 \/ n = 3 \/ n = 4 \/ n = 5 \/ n = 6 \/ n = 7) by lia.
  destruct Hn as [-> | [-> | [-> | [-> | [-> | [-> | [-> | ->]]]]]]]; cbn; unfold hash_check; cbn [length];
    try match goal with |- context [Nat.ltb 255 ?x] => destruct (Nat.ltb 255 x) end; cbn; auto; lia.
Qed.

Lemma convert_token_hash_good s : PInv s -> good (fun rs => PInv (snd rs)) (convert_token_hash s).
Proof.
  apply (convert_token_good _ hash_process hash_tail hash_si hash_credit).
  - apply hash_process_good.
  - apply hash_tail_good.
  - unfold hash_si. cbn. lia.
  - reflexivity.
Qed.

Lemma scan_svcb_octets_good s : PInv s ->
  good (fun rs => PInv (snd rs) /\ (length (rest (snd rs)) < length (rest s))%nat) (scan_svcb_octets s).
Proof.
  intros (HI & _). unfold scan_svcb_octets.
  eapply good_bind; [apply require_token_good|]. intros [] _ Ht.
  destruct (fast_prefix s HI Ht) as (s0 & s1 & c & E0 & Hc0 & E1 & HI1 & HL1 & Hend).
  rewrite E0. cbn [bind]. rewrite E1. cbn [bind fst].
  destruct Hend as [[Ht1 Hn] | (Q0 & Q1 & Hn)].
  - rewrite (token_case (scat s1)) by exact Ht1.
    eapply good_bind; [apply (write_loop_end into_octet (fuel_of s1) s1 (start s1))|].
    { apply InTok_token; [exact HI1|lia|exact Ht1]. } { apply fuel_of_rest. }
    intros [s2 w] _ (HT & _ & HL2). cbn [fst snd] in *.
    eapply good_bind; [apply next_item_after_token; exact HT|].
    intros s3 _ (HP3 & Hw3 & Hb3). pose proof HP3 as (HI3 & _ & Hf3).
    assert (HL3 : length (buf s3) = length (rest s)) by congruence.
    destruct (negb (hsp s3) && match scat s3 with CQuo => true | _ => false end) eqn:Eq.
    + assert (Ht3 : is_token (scat s3) = true).
      { apply andb_true_iff in Eq as [_ Eq]. destruct (scat s3); try discriminate Eq; reflexivity. }
      eapply good_bind; [apply (write_loop_end into_octet (fuel_of s3) s3 w)|].
      { apply InTok_token; [exact HI3|lia|exact Ht3]. } { apply fuel_of_rest. }
      intros [s4 w4] _ (HT4 & _ & HL4). cbn [fst snd] in *.
      eapply good_impl; [|apply finish_split; exact HT4].
      intros rs (A & B). split; [exact A|]. rewrite HL4, HL3 in B. exact B.
    + eapply good_impl; [|apply (split_to_PInv s3 w HI3 Hw3 Hf3)].
      intros rs (A & B). split; [exact A|]. rewrite B, (rest_length s3), HL3. unfold Inv in HI3. lia.
  - rewrite Q1, Q0. eapply good_impl; [|apply (closed_quote_good s1 c HI1 Q1 Hn)].
    intros rs (A & B). split; [exact A|]. rewrite HL1 in B. exact B.
Qed.

Lemma while_svcb_good : forall fuel s, PInv s -> (length (rest s) < fuel)%nat -> good PInv (while_svcb fuel s).
Proof.
  induction fuel as [|f IH]; intros s HP Hf; [lia|].
  cbn [while_svcb]. destruct (is_token (scat s)); [|exact HP].
  eapply good_bind; [apply scan_svcb_octets_good; exact HP|].
  intros [r s1] _ (HP1 & HL). cbn [snd] in *. apply IH; [exact HP1|lia].
Qed.

Definition meth_ok (m : meth) : Prop := match m with MUint _ c => c = true | _ => True end.

Lemma good_drop {A} (o : outcome (A * sbuf)) :
  good (fun rs => PInv (snd rs)) o -> good PInv (do r <- o; Ok (snd r)).
Proof. destruct o as [[a s]| | |]; cbn; auto. Qed.

Theorem run_meth_good origin m s : meth_ok m -> PInv s -> good PInv (run_meth origin m s).
Proof.
  intros Hm HP. destruct m; cbn [run_meth meth_ok] in *.
  - apply good_drop. apply scan_name_good; exact HP.
  - apply good_drop. apply scan_octets_good; exact (proj1 HP).
  - eapply good_bind; [apply scan_octets_good; exact (proj1 HP)|].
    intros [r s1] _ HP1. destruct (Nat.ltb 255 (length (fst (r, s1)))); [exact I|exact HP1].
  - apply good_drop. apply scan_ascii_str_good; [intros l; exact I|exact HP].
  - subst checked. apply good_drop. apply scan_uint_good; exact HP.
  - apply good_drop. apply scan_charstr_entry_good; exact HP.
  - apply good_drop. apply convert_entry_hex_good; exact HP.
  - apply good_drop. apply convert_entry_b64_good; exact HP.
  - apply while_ascii_good; [exact HP|lia].
  - apply good_drop. apply convert_token_salt_good; exact HP.
  - apply good_drop. apply convert_token_hash_good; exact HP.
  - apply while_svcb_good; [exact HP|]. rewrite (rest_length s). lia.
Qed.

Theorem run_meths_good origin ms : Forall meth_ok ms -> forall s, PInv s -> good PInv (run_meths origin ms s).
Proof.
  induction 1 as [|m ms Hm F IH]; intros s HP; cbn [run_meths]; [exact HP|].
  eapply good_bind; [apply run_meth_good; eauto|]. intros s1 _ HP1. apply IH. exact HP1.
Qed.

(* ZoneRecordData::scan of any type whose scan is a sequence of the modelled
   methods: from a protocol state, an error or a protocol state again *)
Theorem run_type_scan_good origin ms s : Forall meth_ok ms -> PInv s ->
  good PInv (run_type_scan origin ms s).
Proof.
  intros F HP. unfold run_type_scan.
  eapply good_bind; [apply skip_unknown_marker_good; exact HP|].
  intros [b s1] _ (HP1 & _). cbn [fst snd]. destruct b.
  - apply run_meths_good; [|exact HP1].
    repeat constructor.
  - apply run_meths_good; assumption.
Qed.

(* what T1 read from the record types' scan functions *)
Lemma type_scans_decodable :
  forallb (fun x => match decode_meths (snd x) with Some _ => true | None => false end) type_scans = true.
Proof. vm_compute. reflexivity. Qed.

(* the hand-written field schemas of the model are the sequences in the source *)
Lemma schema_matches_source :
  forallb (fun x => match schema (fst x) with
                    | Some fs => if list_eq_dec N.eq_dec (map field_code fs) (snd x) then true else false
                    | None => true end) type_scans = true
  /\ forallb (fun rt => match schema rt with Some _ => existsb (fun x => fst x =? rt) type_scans | None => false end)
       [1; 2; 3; 4; 5; 6; 7; 8; 9; 12; 13; 14; 15; 16; 17; 33; 35; 39; 44; 47; 50; 51; 52; 61] = true.
Proof. vm_compute. split; reflexivity. Qed.

Lemma decode_meth_ok c m : decode_meth c = Some m -> meth_ok m.
Proof.
  destruct reader_guards_present as (_ & Ei & Et & _).
  unfold decode_meth. intros H.
  repeat match type of H with
  | (if ?c =? ?k then _ else _) = _ => destruct (N.eqb_spec c k); [injection H as <-; cbn; auto|]
  end; try discriminate H.
Qed.

Lemma decode_meths_ok : forall codes ms, decode_meths codes = Some ms -> Forall meth_ok ms.
Proof.
  induction codes as [|c t IH]; intros ms H; cbn [decode_meths] in H.
  - injection H as <-. constructor.
  - destruct (decode_meth c) as [m|] eqn:Em; [|discriminate H].
    destruct (decode_meths t) as [mt|] eqn:Et; [|discriminate H]. injection H as <-.
    constructor; [eapply decode_meth_ok; eauto | apply IH; reflexivity].
Qed.

(* every record type whose scan T1 resolves: its record data scan, started in
   a protocol state, ends in a protocol state or an error -- no assertion, no
   index panic, no underflow, no loop that runs out of fuel *)
Theorem type_scan_total rt codes ms origin s :
  In (rt, codes) type_scans -> decode_meths codes = Some ms ->
  PInv s -> good PInv (run_type_scan origin ms s).
Proof.
  intros _ Hd HP. apply run_type_scan_good; [|exact HP]. eapply decode_meths_ok; eauto.
Qed.

(* the state in which scan_entry hands over to the record data scan *)
Lemma init_PInv file : PInv (init_sbuf file).
Proof.
  unfold PInv, Inv, fresh, init_sbuf, init_start. cbn [buf start scat length]. repeat split; try lia. discriminate.
Qed.

Example run_meths_ex :
  run_meths (Some [0]) [MUint 65535 true; MName] (mkS [0; 49; 48; 32; 109; 46; 10] 1 CUnq false 0)
  = Ok (mkS [46; 10] 2 CLF false 0).
Proof. vm_compute. reflexivity. Qed.

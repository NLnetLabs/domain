(* C07 -- property theorems only.  Proofs live in C07/Proofs*.v. *)
From Coq Require Import NArith List Bool Arith.
From DV Require Import Base.Outcome Base.Bytes C07.Gen C07.Model C07.Proofs C07.Proofs2 C07.Proofs3 C07.Proofs4 C07.Proofs5 C07.Proofs6 C07.Proofs7 C07.Proofs8 C07.Proofs9 C07.Proofs10 C07.Proofs11 C07.Proofs12 C07.Proofs13 C07.Proofs14.
Import ListNotations.
Local Open Scope N_scope.

Theorem C07_next_item_total : forall s, Inv s -> is_token (scat s) = false ->
  (exists s', next_item s = Ok s' /\ Inv s' /\ (start s <= start s')%nat /\ buf s' = buf s)
  \/ next_item s = Err 4.
Proof. exact next_item_total. Qed.
Print Assumptions C07_next_item_total.

Theorem C07_next_item_panics_iff : forall s,
  (exists p, next_item s = Panic p) <-> is_token (scat s) = true.
Proof. exact next_item_panics_iff. Qed.
Print Assumptions C07_next_item_panics_iff.

Theorem C07_symbol_reader_no_panic : forall want s, no_panic (next_symbol_gen want s).
Proof. exact next_symbol_gen_no_panic. Qed.
Print Assumptions C07_symbol_reader_no_panic.

Theorem C07_symbol_reader_inv : forall want s r s',
  Inv s -> next_symbol_gen want s = Ok (r, s') ->
  Inv s' /\ buf s' = buf s /\ (start s <= start s')%nat /\
  (r <> None -> (start s < start s')%nat /\ is_token (scat s') = true) /\
  (is_token (scat s) = false -> s' = s).
Proof. exact next_symbol_gen_inv. Qed.
Print Assumptions C07_symbol_reader_inv.

Theorem C07_ascii_reader_inv : forall s r s',
  Inv s -> next_ascii_symbol s = (r, s') ->
  Inv s' /\ buf s' = buf s /\ (start s <= start s')%nat /\
  (r <> None -> start s' = S (start s) /\ scat s' = scat s).
Proof. exact next_ascii_symbol_inv. Qed.
Print Assumptions C07_ascii_reader_inv.

Theorem C07_split_to_spec : forall s a, Inv s ->
  if Nat.leb a (start s)
  then exists r s', split_to s a = Ok (r, s') /\ Inv s' /\ length r = a /\ start s' = (start s - a)%nat
  else split_to s a = Panic 2.
Proof. exact split_to_spec. Qed.
Print Assumptions C07_split_to_spec.

Theorem C07_trim_to_spec : forall s a, Inv s ->
  if Nat.leb a (start s)
  then exists s', trim_to s a = Ok s' /\ Inv s' /\ start s' = (start s - a)%nat /\
                  rest s' = rest s /\ scat s' = scat s /\ par s' = par s /\ hsp s' = hsp s
  else trim_to s a = Panic 3.
Proof. exact trim_to_spec. Qed.
Print Assumptions C07_trim_to_spec.

Theorem C07_store_spec : forall s i v, Inv s ->
  if Nat.ltb i (length (buf s))
  then exists s', store s i v = Ok s' /\ Inv s' /\ start s' = start s /\ scat s' = scat s /\
                  length (buf s') = length (buf s) /\ ((i < start s)%nat -> rest s' = rest s)
  else store s i v = Panic 5.
Proof. exact store_spec. Qed.
Print Assumptions C07_store_spec.

Theorem C07_scan_octets_total : forall s, Inv s -> no_panic (scan_octets s).
Proof. exact scan_octets_total. Qed.
Print Assumptions C07_scan_octets_total.

Theorem C07_write_loop_total : forall conv fuel s w, Inv s -> (w <= start s)%nat ->
  (length (rest s) < fuel)%nat ->
  match write_loop conv fuel s w with
  | Ok (s', w') => Inv s' /\ (w' <= start s')%nat /\ (start s <= start s')%nat /\
                   is_token (scat s') = false /\ length (buf s') = length (buf s)
  | Err _ => True
  | _ => False
  end.
Proof. exact write_loop_total. Qed.
Print Assumptions C07_write_loop_total.

Theorem C07_limits_rfc1035 :
  (label_latest = 64%nat /\ label_latest_ge = true) /\
  (charstr_latest = 255%nat /\ charstr_latest_ge = false) /\
  (name_max = 254%nat /\ name_max_ge = false) /\ chain_max = 255%nat /\
  default_ttl = 3600 /\ init_start = 1%nat /\
  octet_lo = 32 /\ octet_hi = 126 /\ esc_char = 92.
Proof. exact limits_rfc1035. Qed.
Print Assumptions C07_limits_rfc1035.

Theorem C07_delims_agree : forall b, b < 128 -> is_word_char (SChar b) = negb (is_delim b).
Proof. exact delims_agree. Qed.
Print Assumptions C07_delims_agree.

Theorem C07_ascii_fast_path_word_chars : forall b, asc_unq_ok b = true ->
  b < 128 /\ is_word_char (SChar b) = true /\ b <> esc_char.
Proof. exact asc_unq_ok_spec. Qed.
Print Assumptions C07_ascii_fast_path_word_chars.

Theorem C07_nonword_is_raw_delim : forall l s n,
  overlong_rejected = true ->
  sym_at l = SymOk s n -> is_word_char s = false ->
  exists c t, l = c :: t /\ n = 1%nat /\ s = SChar c /\ is_delim c = true.
Proof. exact nonword_is_raw_delim. Qed.
Print Assumptions C07_nonword_is_raw_delim.

Theorem C07_nonword_is_raw_delim_refuted : overlong_rejected = false ->
  exists l s n, sym_at l = SymOk s n /\ is_word_char s = false /\ n <> 1%nat.
Proof. exact nonword_is_raw_delim_refuted. Qed.
Print Assumptions C07_nonword_is_raw_delim_refuted.

Theorem C07_items_total : overlong_rejected = true ->
  forall file, match snd (items_of file) with EEof | EErr _ => True | _ => False end.
Proof. exact items_total. Qed.
Print Assumptions C07_items_total.

Theorem C07_items_total_refuted : overlong_rejected = false ->
  exists file, snd (items_of file) = EFuel.
Proof. exact items_total_refuted. Qed.
Print Assumptions C07_items_total_refuted.

Theorem C07_token_symbols_refine : forall fuel s acc,
  is_token (scat s) = true ->
  match syms_l fuel (match scat s with CQuo => true | _ => false end) (rest s) acc with
  | Some (syms, l') =>
    exists s', syms_loop fuel s acc = Ok (syms, s') /\ rest s' = l' /\ scat s' = CNone /\ buf s' = buf s
  | None => True
  end.
Proof. exact syms_loop_refines. Qed.
Print Assumptions C07_token_symbols_refine.

Theorem C07_layout_spacing : forall ws1 ws2 t p h,
  Forall (fun c => is_space c = true) ws1 -> ws1 <> [] ->
  Forall (fun c => is_space c = true) ws2 -> ws2 <> [] ->
  ni_view (ws1 ++ t) p h = ni_view (ws2 ++ t) p h.
Proof. exact layout_spacing. Qed.
Print Assumptions C07_layout_spacing.

Theorem C07_layout_comment : forall c t p h, Forall (fun x => x <> ni_comment_end) c ->
  ni_view (ni_comment :: c ++ ni_newline :: t) p h = ni_view (ni_newline :: t) p h.
Proof. exact layout_comment. Qed.
Print Assumptions C07_layout_comment.

Theorem C07_layout_parens_open : forall ws1 ws2 ws3 t p h,
  Forall (fun c => is_space c = true) ws1 -> ws1 <> [] ->
  Forall (fun c => is_space c = true) ws2 ->
  Forall (fun c => is_space c = true) ws3 -> ws3 <> [] ->
  ni_view (ws1 ++ ni_open :: ws2 ++ ni_newline :: ws3 ++ t) p h = ni_view (ws1 ++ t) (S p) h.
Proof. exact layout_parens_open. Qed.
Print Assumptions C07_layout_parens_open.

Theorem C07_layout_newline_in_group : forall t p h,
  ni_view (ni_newline :: t) (S p) h = ni_view t (S p) h.
Proof. exact ni_view_newline_in_group. Qed.
Print Assumptions C07_layout_newline_in_group.

Theorem C07_layout_parens_close : forall ws t p h,
  Forall (fun c => is_space c = true) ws -> ws <> [] ->
  ni_view (ws ++ ni_close :: t) (S p) h = ni_view t p true.
Proof. exact layout_parens_close. Qed.
Print Assumptions C07_layout_parens_close.

Theorem C07_layout_crlf : forall t p h,
  ni_view (13 :: ni_newline :: t) p h = ni_view (ni_newline :: t) p true.
Proof. exact layout_crlf. Qed.
Print Assumptions C07_layout_crlf.

Theorem C07_layout_blank_line : forall zs s t,
  is_token (scat s) = false -> par s = 0%nat -> rest s = ni_newline :: t ->
  scan_entry zs s = Ok (SEmpty, zs, mkS (buf s) (S (start s)) CLF false 0).
Proof. exact scan_entry_blank_line. Qed.
Print Assumptions C07_layout_blank_line.

Theorem C07_quoted_equals_escaped : forall w d t1 t2,
  wf_bytes w -> is_delim d = true -> d < 128 -> d <> esc_char ->
  exists sq su,
    syms_l (S (length w)) true (concat (map q_enc w) ++ 34 :: t1) [] = Some (sq, t1) /\
    syms_l (S (length w)) false (concat (map u_enc w) ++ d :: t2) [] = Some (su, d :: t2) /\
    map into_octet sq = map Some w /\ map into_octet su = map Some w.
Proof. exact quoted_equals_escaped. Qed.
Print Assumptions C07_quoted_equals_escaped.

Theorem C07_scan_owner_record_is_astep : forall zs s owner new_owner cls ttl rtype s1 d s2,
  scan_ctr s = Ok (cls, ttl, rtype, s1) ->
  scan_rdata (origin zs) rtype s1 = Ok (d, s2) -> is_line_feed s2 = true ->
  last_owner zs = Some owner \/ new_owner = true ->
  match astep zs (mkL (if new_owner then Some owner else None) cls ttl rtype d) with
  | Ok (e, zs') => scan_owner_record zs s owner new_owner = Ok (SEntry e, zs', s2)
  | Err e => scan_owner_record zs s owner new_owner = Err e
  | _ => False
  end.
Proof. exact scan_owner_record_spec. Qed.
Print Assumptions C07_scan_owner_record_is_astep.

Theorem C07_explicit_equals_inherited_owner : forall pre post zs zs' o cl tt rt rd,
  astate zs pre = Ok zs' -> last_owner zs' = Some o ->
  arecords zs (pre ++ mkL (Some o) cl tt rt rd :: post) = arecords zs (pre ++ mkL None cl tt rt rd :: post).
Proof. exact explicit_equals_inherited_owner. Qed.
Print Assumptions C07_explicit_equals_inherited_owner.

Theorem C07_explicit_equals_inherited_class : forall pre post zs zs' ow c tt rt rd,
  astate zs pre = Ok zs' -> last_class zs' = Some c ->
  arecords zs (pre ++ mkL ow (Some c) tt rt rd :: post) = arecords zs (pre ++ mkL ow None tt rt rd :: post).
Proof. exact explicit_equals_inherited_class. Qed.
Print Assumptions C07_explicit_equals_inherited_class.

Theorem C07_explicit_equals_inherited_ttl : forall pre post zs zs' ow cl rt rd,
  astate zs pre = Ok zs' ->
  arecords zs (pre ++ mkL ow cl (Some (inherited_ttl zs')) rt rd :: post)
  = arecords zs (pre ++ mkL ow cl None rt rd :: post).
Proof. exact explicit_equals_inherited_ttl. Qed.
Print Assumptions C07_explicit_equals_inherited_ttl.

Theorem C07_relative_equals_absolute : forall (rel o' : list N),
  (length rel + length (o' ++ [0%N]) <= chain_max)%nat ->
  chain rel (o' ++ [0]) = chain (rel ++ o') [0].
Proof. exact relative_equals_absolute. Qed.
Print Assumptions C07_relative_equals_absolute.

Theorem C07_checked_digit_addition_never_overflows : forall fuel maxv s res,
  uint_loop fuel maxv true s res <> Panic 7.
Proof. exact uint_loop_no_overflow_panic. Qed.
Print Assumptions C07_checked_digit_addition_never_overflows.

Theorem C07_overlong_panics_refuted : overlong_rejected = false ->
  snd (read_file w_overlong) = EPanic 4.
Proof. exact overlong_panics_refuted. Qed.
Print Assumptions C07_overlong_panics_refuted.

Theorem C07_overlong_fixed : overlong_rejected = true -> snd (read_file w_overlong) = EErr 1.
Proof. exact overlong_fixed. Qed.
Print Assumptions C07_overlong_fixed.

Theorem C07_charstr_entry_panics_refuted : charstr_requires_token = false ->
  snd (read_file w_txt_eof) = EPanic 5.
Proof. exact charstr_entry_panics_refuted. Qed.
Print Assumptions C07_charstr_entry_panics_refuted.

Theorem C07_charstr_entry_fixed : charstr_requires_token = true -> snd (read_file w_txt_eof) = EErr 12.
Proof. exact charstr_entry_fixed. Qed.
Print Assumptions C07_charstr_entry_fixed.

Theorem C07_int_overflow_panics_refuted : int_add_checked = false ->
  snd (read_file w_int) = EPanic 7.
Proof. exact int_overflow_panics_refuted. Qed.
Print Assumptions C07_int_overflow_panics_refuted.

Theorem C07_int_overflow_fixed : int_add_checked = true -> snd (read_file w_int) = EErr 14.
Proof. exact int_overflow_fixed. Qed.
Print Assumptions C07_int_overflow_fixed.

Theorem C07_at_in_rdata_refuted : scan_name_handles_at = false ->
  read_file w_at <> read_file w_at_abs /\
  read_file w_at = ([ERecord [1; 120; 0] 1 1 2 [1; 64; 1; 120; 0]], EEof).
Proof. exact at_in_rdata_refuted. Qed.
Print Assumptions C07_at_in_rdata_refuted.

Theorem C07_at_in_rdata_fixed : scan_name_handles_at = true -> read_file w_at = read_file w_at_abs.
Proof. exact at_in_rdata_fixed. Qed.
Print Assumptions C07_at_in_rdata_fixed.

Theorem C07_reader_guards_present :
  overlong_rejected = true /\ int_add_checked = true /\ ttl_add_checked = true /\
  charstr_requires_token = true /\ scan_name_handles_at = true.
Proof. exact reader_guards_present. Qed.
Print Assumptions C07_reader_guards_present.

Theorem C07_items_total_all : forall file,
  match snd (items_of file) with EEof | EErr _ => True | _ => False end.
Proof. exact items_total_all. Qed.
Print Assumptions C07_items_total_all.

Theorem C07_scan_uint_no_overflow_panic : forall fuel maxv s res,
  uint_loop fuel maxv int_add_checked s res <> Panic 7 /\
  uint_loop fuel maxv ttl_add_checked s res <> Panic 7.
Proof. exact scan_uint_no_overflow_panic. Qed.
Print Assumptions C07_scan_uint_no_overflow_panic.

Theorem C07_items_of_Lex : forall file, Lex file 0 (fst (items_of file)) (snd (items_of file)).
Proof. exact items_of_Lex. Qed.
Print Assumptions C07_items_of_Lex.

Theorem C07_Lex_deterministic : forall l p i1 e1, Lex l p i1 e1 ->
  forall i2 e2, Lex l p i2 e2 -> i1 = i2 /\ e1 = e2.
Proof. exact Lex_det. Qed.
Print Assumptions C07_Lex_deterministic.

Theorem C07_reader_is_local : forall r1 r2, delim_head r1 -> delim_head r2 ->
  forall l p its l' p', Reach l p its l' p' -> forall u, l = u ++ r1 -> (length r1 <= length l')%nat ->
  exists u', l' = u' ++ r1 /\ Reach (u ++ r2) p its (u' ++ r2) p'.
Proof. exact Reach_local. Qed.
Print Assumptions C07_reader_is_local.

Theorem C07_layout_whole_file : forall pre r1 r2 its1 p1,
  delim_head r1 -> delim_head r2 -> same_view r1 r2 ->
  Reach (pre ++ r1) 0 its1 r1 p1 ->
  items_of (pre ++ r1) = items_of (pre ++ r2).
Proof. exact layout_whole_file. Qed.
Print Assumptions C07_layout_whole_file.

Theorem C07_layout_spacing_whole_file : forall pre ws1 ws2 t its1 p1,
  Forall (fun c => is_space c = true) ws1 -> ws1 <> [] ->
  Forall (fun c => is_space c = true) ws2 -> ws2 <> [] ->
  Reach (pre ++ ws1 ++ t) 0 its1 (ws1 ++ t) p1 ->
  items_of (pre ++ ws1 ++ t) = items_of (pre ++ ws2 ++ t).
Proof. exact layout_spacing_whole_file. Qed.
Print Assumptions C07_layout_spacing_whole_file.

Theorem C07_layout_comment_whole_file : forall pre c t its1 p1,
  Forall (fun x => x <> ni_comment_end) c ->
  Reach (pre ++ ni_newline :: t) 0 its1 (ni_newline :: t) p1 ->
  items_of (pre ++ ni_newline :: t) = items_of (pre ++ ni_comment :: c ++ ni_newline :: t).
Proof. exact layout_comment_whole_file. Qed.
Print Assumptions C07_layout_comment_whole_file.

Theorem C07_layout_crlf_whole_file : forall pre t its1 p1,
  Reach (pre ++ 32 :: ni_newline :: t) 0 its1 (32 :: ni_newline :: t) p1 ->
  items_of (pre ++ 32 :: ni_newline :: t) = items_of (pre ++ 32 :: 13 :: ni_newline :: t).
Proof. exact layout_crlf_whole_file. Qed.
Print Assumptions C07_layout_crlf_whole_file.

Theorem C07_scan_octets_protocol : forall s, PInv s -> good (fun rs => PInv (snd rs)) (scan_octets s).
Proof. exact (fun s H => scan_octets_good s (proj1 H)). Qed.
Print Assumptions C07_scan_octets_protocol.

Theorem C07_scan_ascii_str_protocol : forall A (op : list N -> outcome A) s,
  (forall l, no_panic (op l)) -> PInv s -> good (fun rs => PInv (snd rs)) (scan_ascii_str op s).
Proof. exact @scan_ascii_str_good. Qed.
Print Assumptions C07_scan_ascii_str_protocol.

Theorem C07_scan_uint_protocol : forall maxv s, PInv s -> good (fun rs => PInv (snd rs)) (scan_uint maxv true s).
Proof. exact scan_uint_good. Qed.
Print Assumptions C07_scan_uint_protocol.

Theorem C07_scan_name_protocol : forall origin s, PInv s -> good (fun rs => PInv (snd rs)) (scan_name origin s).
Proof. exact scan_name_good. Qed.
Print Assumptions C07_scan_name_protocol.

Theorem C07_scan_charstr_entry_protocol : forall s, PInv s -> good (fun rs => PInv (snd rs)) (scan_charstr_entry s).
Proof. exact scan_charstr_entry_good. Qed.
Print Assumptions C07_scan_charstr_entry_protocol.

Theorem C07_convert_entry_protocol : forall (St : Type) process tail (SI : St -> Prop),
  (forall h sym, SI h -> good (fun x => SI (fst x)) (process h sym)) -> (forall h, no_panic (tail h)) ->
  forall init s, SI init -> PInv s -> good (fun rs => PInv (snd rs)) (convert_entry St process tail init s).
Proof. exact convert_entry_good. Qed.
Print Assumptions C07_convert_entry_protocol.

Theorem C07_base64_converter_total : forall c sym, b64_si c -> good (fun x => b64_si (fst x)) (b64_process c sym).
Proof. exact b64_process_total. Qed.
Print Assumptions C07_base64_converter_total.

Theorem C07_skip_markers_protocol : forall s, PInv s ->
  good (fun bs => PInv (snd bs) /\ (fst bs = false -> snd bs = s)) (skip_at_token s) /\
  good (fun bs => PInv (snd bs) /\ (fst bs = false -> snd bs = s)) (skip_unknown_marker s).
Proof. intros s H. split; [exact (skip_at_token_good s H) | exact (skip_unknown_marker_good s H)]. Qed.
Print Assumptions C07_skip_markers_protocol.

Theorem C07_method_sequences_protocol :
  forall origin ms s, Forall meth_ok ms -> PInv s -> good PInv (run_type_scan origin ms s).
Proof. exact run_type_scan_good. Qed.
Print Assumptions C07_method_sequences_protocol.

Theorem C07_type_scans_decodable :
  forallb (fun x => match decode_meths (snd x) with Some _ => true | None => false end) type_scans = true.
Proof. exact type_scans_decodable. Qed.
Print Assumptions C07_type_scans_decodable.

Theorem C07_schema_matches_source :
  forallb (fun x => match schema (fst x) with
                    | Some fs => if list_eq_dec N.eq_dec (map field_code fs) (snd x) then true else false
                    | None => true end) type_scans = true
  /\ forallb (fun rt => match schema rt with Some _ => existsb (fun x => fst x =? rt) type_scans | None => false end)
       [1; 2; 3; 4; 5; 6; 7; 8; 9; 12; 13; 14; 15; 16; 17; 33; 35; 39; 44; 47; 50; 51; 52; 61] = true.
Proof. exact schema_matches_source. Qed.
Print Assumptions C07_schema_matches_source.

Theorem C07_type_scan_total : forall rt codes ms origin s,
  In (rt, codes) type_scans -> decode_meths codes = Some ms ->
  PInv s -> good PInv (run_type_scan origin ms s).
Proof. exact type_scan_total. Qed.
Print Assumptions C07_type_scan_total.

Theorem C07_utf8_reencode_fits : forall l sym n c,
  sym_at l = SymOk sym n -> into_char sym = Some c -> (enc_len c <= n)%nat.
Proof. exact into_char_len. Qed.
Print Assumptions C07_utf8_reencode_fits.

Theorem C07_scan_string_protocol : forall s, string_drops_quote = true ->
  PInv s -> good (fun rs => PInv (snd rs)) (scan_string s).
Proof. exact scan_string_good. Qed.
Print Assumptions C07_scan_string_protocol.

Theorem C07_scan_string_quote_refuted : string_drops_quote = false ->
  snd (read_file w_include) = EPanic 4
  /\ fst (read_file [36;73;78;67;76;85;68;69;32;34;102;34;10]) = [EInclude [102; 34] None].
Proof. exact scan_string_quote_refuted. Qed.
Print Assumptions C07_scan_string_quote_refuted.

Theorem C07_scan_string_quote_fixed : string_drops_quote = true ->
  read_file w_include = ([EInclude [102] (Some [1; 120; 0])], EEof).
Proof. exact scan_string_quote_fixed. Qed.
Print Assumptions C07_scan_string_quote_fixed.

Theorem C07_empty_label_rejected : name_rejects_empty_label = true.
Proof. exact empty_label_rejected. Qed.
Print Assumptions C07_empty_label_rejected.

Theorem C07_empty_label_fixed : name_rejects_empty_label = true -> read_file w_dots = ([], EErr 3).
Proof. exact empty_label_fixed. Qed.
Print Assumptions C07_empty_label_fixed.

Theorem C07_empty_label_refuted : name_rejects_empty_label = false ->
  read_file w_dots = ([ERecord [1; 97; 0; 1; 98; 0] 1 1 1 [1; 2; 3; 4]], EEof).
Proof. exact empty_label_refuted. Qed.
Print Assumptions C07_empty_label_refuted.

Theorem C07_scan_entry_protocol : forall zs s, string_drops_quote = true ->
  PInv s -> is_token (scat s) = false -> good entry_good (scan_entry zs s).
Proof. exact scan_entry_good. Qed.
Print Assumptions C07_scan_entry_protocol.

Theorem C07_reader_no_panic : string_drops_quote = true ->
  forall file, match snd (read_file file) with EPanic _ => False | _ => True end.
Proof. exact reader_no_panic. Qed.
Print Assumptions C07_reader_no_panic.

Theorem C07_inner_fuel_suffices : string_drops_quote = true ->
  forall zs s, PInv s -> is_token (scat s) = false -> scan_entry zs s <> OutOfFuel.
Proof. exact inner_fuel_suffices. Qed.
Print Assumptions C07_inner_fuel_suffices.

Theorem C07_reader_no_panic_now :
  if string_drops_quote
  then forall file, match snd (read_file file) with EPanic _ => False | _ => True end
  else True.
Proof. exact reader_no_panic_now. Qed.
Print Assumptions C07_reader_no_panic_now.

Theorem C07_limits_symbols :
  ascii_lo = 32 /\ ascii_hi = 126 /\ ascii_esc_lo = 32 /\ ascii_esc_hi = 126 /\
  char_esc_lo = 32 /\ char_esc_hi_excl = 127 /\ ascii_bound = 128 /\
  asc_lo = 33 /\ asc_hi = 127 /\ asc_q_end = 34 /\
  rtype_prefix = [84; 89; 80; 69] /\ class_prefix = [67; 76; 65; 83; 83].
Proof. exact limits_symbols. Qed.
Print Assumptions C07_limits_symbols.

Theorem C07_schema_mnemonics_all :
  map (from_mnemonic rtype_table)
    [[77;68]; [77;70]; [77;66]; [77;71]; [77;82]; [77;73;78;70;79]; [82;80]; [68;78;65;77;69];
     [83;83;72;70;80]; [84;76;83;65]; [79;80;69;78;80;71;80;75;69;89]]
  = map Some [3; 4; 7; 8; 9; 14; 17; 39; 44; 52; 61]
  /\ map (from_mnemonic class_table) [[73;78]; [67;72]; [72;83]; [78;79;78;69]; [42]]
    = map Some [1; 3; 4; 254; 255].
Proof. exact schema_mnemonics_all. Qed.
Print Assumptions C07_schema_mnemonics_all.

Theorem C07_string_quote_dropped : string_drops_quote = true.
Proof. exact string_quote_dropped. Qed.
Print Assumptions C07_string_quote_dropped.

Theorem C07_reader_no_panic_all : forall file,
  match snd (read_file file) with EPanic _ => False | _ => True end.
Proof. exact reader_no_panic_all. Qed.
Print Assumptions C07_reader_no_panic_all.

Theorem C07_layout_whole_file_gen : forall pre r1 r2 its1 p1,
  delim_head r1 -> delim_head r2 ->
  (forall its e, Lex r1 p1 its e -> Lex r2 p1 its e) ->
  Reach (pre ++ r1) 0 its1 r1 p1 ->
  items_of (pre ++ r1) = items_of (pre ++ r2).
Proof. exact layout_whole_file_gen. Qed.
Print Assumptions C07_layout_whole_file_gen.

Theorem C07_layout_parens_whole_file : forall pre m post its1 its2 p1,
  delim_head m ->
  Reach (pre ++ m ++ ni_newline :: post) 0 its1 (m ++ ni_newline :: post) p1 ->
  Reach (m ++ ni_newline :: post) p1 its2 (ni_newline :: post) p1 -> NoLF its2 ->
  items_of (pre ++ m ++ ni_newline :: post)
  = items_of (pre ++ ni_open :: m ++ ni_close :: ni_newline :: post).
Proof. exact layout_parens_whole_file. Qed.
Print Assumptions C07_layout_parens_whole_file.

Theorem C07_layout_newline_in_group_whole_file : forall pre ws ws1 ws2 t its1 p,
  Forall (fun c => is_space c = true) ws -> ws <> [] ->
  Forall (fun c => is_space c = true) ws1 -> ws1 <> [] ->
  Forall (fun c => is_space c = true) ws2 ->
  Reach (pre ++ ws ++ t) 0 its1 (ws ++ t) (S p) ->
  items_of (pre ++ ws ++ t) = items_of (pre ++ ws1 ++ ni_newline :: ws2 ++ t).
Proof. exact layout_newline_in_group_whole_file. Qed.
Print Assumptions C07_layout_newline_in_group_whole_file.

Theorem C07_scan_entry_consumes : forall zs s x zs' s', PInv s -> is_token (scat s) = false ->
  scan_entry zs s = Ok (x, zs', s') -> x = SEof \/ (rem s' < rem s)%nat.
Proof. exact scan_entry_consumes. Qed.
Print Assumptions C07_scan_entry_consumes.

Theorem C07_reader_total : forall file,
  match snd (read_file file) with EEof | EErr _ => True | _ => False end.
Proof. exact reader_total. Qed.
Print Assumptions C07_reader_total.

Theorem C07_escape2_table : forall c t, c < 256 -> negb ((48 <=? c) && (c <=? 57)) = true ->
  sym_at (esc_char :: c :: t) = escape2_spec c.
Proof. exact escape2_table. Qed.
Print Assumptions C07_escape2_table.

Theorem C07_escape4_table : forall a b c t, a < 10 -> b < 10 -> c < 10 ->
  sym_at (esc_char :: 48 + a :: 48 + b :: 48 + c :: t) = escape4_spec a b c.
Proof. exact escape4_table. Qed.
Print Assumptions C07_escape4_table.

Theorem C07_parsed_stops_at_error : parsed_stops_at_error = true.
Proof. exact parsed_stops. Qed.
Print Assumptions C07_parsed_stops_at_error.

Theorem C07_parsed_total : forall file,
  match snd (parsed_file file) with EEof | EErr _ => True | _ => False end.
Proof. exact parsed_total. Qed.
Print Assumptions C07_parsed_total.

Theorem C07_parsed_reads_on_refuted : parsed_stops_at_error = false -> snd (parsed_file [41; 10]) = EFuel.
Proof. exact parsed_reads_on_refuted. Qed.
Print Assumptions C07_parsed_reads_on_refuted.

Theorem C07_convert_token_protocol : forall (St : Type) process tail_data (SI : St -> Prop) (credit : St -> nat),
  (forall h sym, SI h ->
     good (fun x => SI (fst x) /\ (credit (fst x) + length (snd x) <= credit h + 1)%nat) (process h sym)) ->
  (forall h, SI h -> good (fun d => (length d <= credit h)%nat) (tail_data h)) ->
  forall init s, SI init -> credit init = 0%nat -> PInv s ->
  good (fun rs => PInv (snd rs)) (convert_token St process tail_data init s).
Proof. exact convert_token_good. Qed.
Print Assumptions C07_convert_token_protocol.

Theorem C07_nsec3_converters_protocol : forall s, PInv s ->
  good (fun rs => PInv (snd rs)) (convert_token_salt s) /\ good (fun rs => PInv (snd rs)) (convert_token_hash s).
Proof. intros s H. split; [exact (convert_token_salt_good s H) | exact (convert_token_hash_good s H)]. Qed.
Print Assumptions C07_nsec3_converters_protocol.

Theorem C07_rtype_bitmap_loop_protocol : forall fuel s, PInv s -> (length (buf s) - start s < fuel)%nat ->
  good PInv (while_ascii fuel s).
Proof. exact while_ascii_good. Qed.
Print Assumptions C07_rtype_bitmap_loop_protocol.

Theorem C07_scan_svcb_octets_protocol : forall s, PInv s ->
  good (fun rs => PInv (snd rs) /\ (length (rest (snd rs)) < length (rest s))%nat) (scan_svcb_octets s).
Proof. exact scan_svcb_octets_good. Qed.
Print Assumptions C07_scan_svcb_octets_protocol.

Theorem C07_all_zone_types_resolved : type_scans_unresolved = [250].
Proof. vm_compute. reflexivity. Qed.
Print Assumptions C07_all_zone_types_resolved.

Theorem C07_scan_bitmap_protocol : forall fuel s bs, PInv s -> (length (buf s) - start s < fuel)%nat ->
  good (fun rs => PInv (snd rs)) (scan_bitmap fuel s bs).
Proof. exact scan_bitmap_good. Qed.
Print Assumptions C07_scan_bitmap_protocol.

Theorem C07_load_copies_octets : load_copies_octets = true.
Proof. exact load_copies. Qed.
Print Assumptions C07_load_copies_octets.

Theorem C07_scan_octets_plain_value : forall s tok d t r s2,
  scat s = CUnq -> rest s = tok ++ d :: t -> plain tok ->
  is_delim d = true -> d < 128 -> d <> esc_char ->
  scan_octets s = Ok (r, s2) -> r = tok.
Proof. exact scan_octets_plain_value. Qed.
Print Assumptions C07_scan_octets_plain_value.

Theorem C07_write_loop_value : forall syms l l', Toks false l syms l' ->
  forall octs fuel s w s' w', octets_of syms octs -> scat s = CUnq -> rest s = l -> (w <= start s)%nat ->
  write_loop into_octet fuel s w = Ok (s', w') ->
  w' = (w + length octs)%nat /\ firstn w' (buf s') = firstn w (buf s) ++ octs /\ rest s' = l' /\
  scat s' = CNone /\ (w' <= start s')%nat.
Proof. exact write_loop_value. Qed.
Print Assumptions C07_write_loop_value.

Theorem C07_scan_octets_value : forall s p q syms octs d t r s2,
  scat s = CUnq -> rest s = p ++ q -> plain p ->
  (exists c q', q = c :: q' /\ asc_unq_ok c = false) ->
  Toks false q syms (d :: t) -> octets_of syms octs ->
  scan_octets s = Ok (r, s2) -> r = p ++ octs.
Proof. exact scan_octets_value. Qed.
Print Assumptions C07_scan_octets_value.

Theorem C07_convert_token_id_value : forall s syms octs d t r s2,
  scat s = CUnq -> Toks false (rest s) syms (d :: t) -> octets_of syms octs ->
  convert_token unit id_process id_tail tt s = Ok (r, s2) -> r = octs.
Proof. exact convert_token_id_value. Qed.
Print Assumptions C07_convert_token_id_value.

Theorem C07_scan_octets_quoted_plain_value : forall s tok t r s2,
  scat s = CQuo -> rest s = tok ++ asc_q_end :: t -> plain_q tok ->
  scan_octets s = Ok (r, s2) -> r = tok.
Proof. exact scan_octets_quoted_plain_value. Qed.
Print Assumptions C07_scan_octets_quoted_plain_value.

Theorem C07_scan_octets_quoted_value : forall s p q syms octs l' r s2,
  scat s = CQuo -> rest s = p ++ q -> plain_q p ->
  (exists c q', q = c :: q' /\ asc_q_ok c = false /\ c <> asc_q_end) ->
  Toks true q syms l' -> octets_of syms octs ->
  scan_octets s = Ok (r, s2) -> r = p ++ octs.
Proof. exact scan_octets_quoted_value. Qed.
Print Assumptions C07_scan_octets_quoted_value.

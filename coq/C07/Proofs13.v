(* C07 proofs, part 13: value correctness of convert_token over an identity-like
   converter (every symbol hands out its octet): the result is the octets of
   the token's symbols. *)
From Coq Require Import NArith List Arith Lia.
From DV Require Import Base.Outcome C07.Gen C07.Model C07.Proofs C07.Proofs5 C07.Proofs12.
Import ListNotations.
Local Open Scope N_scope.

Definition id_process (h : unit) (sym : symbol) : outcome (unit * list N) :=
  match into_octet sym with Some b => Ok (tt, [b]) | None => Err 1 end.
Definition id_tail (h : unit) : outcome (list N) := Ok [].

Lemma ctl_value : forall syms l l', Toks false l syms l' ->
  forall octs fuel h s w h' s' w' b', octets_of syms octs -> scat s = CUnq -> rest s = l -> (w <= start s)%nat ->
  convert_token_loop unit id_process fuel h s w None = Ok (h', s', w', b') ->
  b' = None /\ w' = (w + length octs)%nat /\ firstn w' (buf s') = firstn w (buf s) ++ octs.
Proof.
  induction 1 as [l sym n Hq Hs Hw | l sym n Hq Hs He | l sym n syms l' Hs Hg HT IH];
    intros octs fuel h s w h' s' w' b' Ho Hc Hr Hle Hwl; try discriminate;
    (destruct fuel as [|f]; [discriminate Hwl|]); cbn [convert_token_loop] in Hwl; rewrite <- Hr in *.
  - destruct octs; [|discriminate Ho].
    rewrite (next_symbol_off_unq s sym n Hc Hs Hw) in Hwl. injection Hwl as <- <- <- <-.
    cbn [length set_cat buf]. rewrite Nat.add_0_r, app_nil_r. auto.
  - destruct octs as [|b octs]; [discriminate Ho|]. injection Ho as Hb Ho.
    rewrite (next_symbol_on s sym n ltac:(rewrite Hc; reflexivity) Hs ltac:(rewrite Hc; exact Hg)) in Hwl.
    cbn [bind] in Hwl. unfold id_process in Hwl at 1. rewrite Hb in Hwl. cbn [bind fst snd] in Hwl.
    pose proof (sym_at_len _ _ _ Hs) as Ln.
    unfold append_data in Hwl. cbn [length advance start] in Hwl.
    rewrite (proj2 (Nat.ltb_ge _ _)) in Hwl by lia. cbn [store_list bind] in Hwl.
    destruct (store (advance s n) w b) as [s2| | |] eqn:E2; try discriminate Hwl. cbn [bind] in Hwl.
    destruct (store_value s n w b s2 ltac:(lia) E2) as (V1 & V2 & V3 & V4).
    replace (w + 1)%nat with (S w) in Hwl by lia.
    destruct (IH octs f tt s2 (S w) h' s' w' b' Ho ltac:(congruence) V2 ltac:(lia) Hwl) as (A0 & A & B).
    split; [exact A0|]. split; [cbn [length]; lia|]. rewrite B, V1, <- app_assoc. reflexivity.
Qed.

Theorem convert_token_id_value s syms octs d t r s2 :
  scat s = CUnq -> Toks false (rest s) syms (d :: t) -> octets_of syms octs ->
  convert_token unit id_process id_tail tt s = Ok (r, s2) -> r = octs.
Proof.
  intros Hc HT Ho. unfold convert_token, require_token. rewrite Hc. cbn [bind].
  destruct (convert_token_loop unit id_process (fuel_of s) tt s 0 None) as [[[[h1 s1] w1] b1]| | |] eqn:El;
    cbn [bind]; try discriminate.
  destruct (ctl_value _ _ _ HT octs _ _ _ _ _ _ _ _ Ho Hc eq_refl (Nat.le_0_l _) El) as (-> & A & B).
  destruct (next_item s1) as [s3| | |] eqn:En; cbn [bind id_tail]; try discriminate.
  intros H. pose proof (finish_value s1 w1 r s2) as F. rewrite En in F. cbn [bind] in F.
  rewrite (F H), B. reflexivity.
Qed.

Example convert_token_id_value_ex :
  convert_token unit id_process id_tail tt (mkS [0; 97; 92; 48; 54; 53; 32; 10] 1 CUnq false 0)
  = Ok ([97; 65], mkS [92; 48; 54; 53; 32; 10] 6 CLF true 0).
Proof. vm_compute. reflexivity. Qed.

(* C07 proofs, part 8: the entry layer keeps the protocol invariant; reading a
   file with the model never panics and no inner loop runs out of fuel. *)
From Coq Require Import NArith List Arith Lia.
From DV Require Import Base.Outcome Base.Bytes C07.Gen C07.Model C07.Proofs3 C07.Proofs4 C07.Proofs6 C07.Proofs7.
Import ListNotations.
Local Open Scope N_scope.

Lemma guards_int : int_add_checked = true /\ ttl_add_checked = true.
Proof. destruct reader_guards_present as (_ & A & B & _). auto. Qed.

Lemma good_map {A B} (o : outcome (A * sbuf)) (f : A * sbuf -> B) :
  good (fun rs => PInv (snd rs)) o -> good (fun rs => PInv (snd rs)) (do r <- o; Ok (f r, snd r)).
Proof. destruct o as [[a s]| | |]; cbn; auto. Qed.

Lemma scan_field_good origin f s : PInv s -> good (fun rs => PInv (snd rs)) (scan_field origin f s).
Proof.
  intros HP. destruct guards_int as [Ei Et]. destruct f; cbn [scan_field]; try rewrite Ei; try rewrite Et.
  - apply scan_name_good; exact HP.
  - apply good_map, scan_uint_good; exact HP.
  - apply good_map, scan_uint_good; exact HP.
  - apply good_map, scan_uint_good; exact HP.
  - eapply good_bind; [apply scan_octets_good; exact (proj1 HP)|]. intros [r s1] _ HP1. cbn [fst snd] in *.
    destruct (Nat.ltb 255 (length r)); [exact I|exact HP1].
  - apply scan_charstr_entry_good; exact HP.
  - eapply good_bind; [apply scan_octets_good; exact (proj1 HP)|]. intros [r s1] _ HP1. cbn [fst snd] in *.
    destruct (parse_ipv4 r); [exact HP1|exact I].
  - apply (good_map _ (fun r => [fst r])), scan_ascii_str_good; [|exact HP].
    intros l. cbn beta. destruct (parse_uint 255 l); exact I.
  - apply convert_entry_hex_good; exact HP.
  - apply convert_entry_b64_good; exact HP.
  - apply (good_map _ (fun r => [fst r])), scan_uint_good; exact HP.
  - apply (good_map _ (fun r => N.of_nat (length (fst r)) :: fst r)), convert_token_salt_good; exact HP.
  - apply (good_map _ (fun r => N.of_nat (length (fst r)) :: fst r)), convert_token_hash_good; exact HP.
  - apply scan_bitmap_good; [exact HP|lia].
Qed.

Lemma scan_fields_good origin : forall fs s acc, PInv s ->
  good (fun rs => PInv (snd rs)) (scan_fields origin fs s acc).
Proof.
  induction fs as [|f t IH]; intros s acc HP; cbn [scan_fields]; [exact HP|].
  eapply good_bind; [apply scan_field_good; exact HP|]. intros [r s1] _ HP1. apply IH. exact HP1.
Qed.

Lemma scan_rdata_good origin rtype s : PInv s -> good (fun rs => PInv (snd rs)) (scan_rdata origin rtype s).
Proof.
  intros HP. unfold scan_rdata. destruct guards_int as [Ei _]. rewrite Ei.
  eapply good_bind; [apply skip_unknown_marker_good; exact HP|].
  intros [b s1] _ (HP1 & _). cbn [fst snd]. destruct b.
  - eapply good_bind; [apply scan_uint_good; exact HP1|]. intros [v s2] _ HP2. cbn [fst snd] in *.
    eapply good_bind; [apply convert_entry_hex_good; exact HP2|]. intros [d s3] _ HP3. cbn [fst snd] in *.
    destruct (N.of_nat (length d) =? v); [exact HP3|exact I].
  - destruct (schema rtype); [apply scan_fields_good; exact HP1|exact I].
Qed.

Definition ctr_good (x : option N * option N * N * sbuf) : Prop :=
  let '(_, _, _, s') := x in PInv s'.

Lemma scan_ctr_good s : PInv s -> good ctr_good (scan_ctr s).
Proof.
  intros HP. unfold scan_ctr.
  eapply good_bind; [apply scan_ascii_str_good; [|exact HP]|].
  { intros l. destruct (parse_uint 4294967295 l); [exact I|].
    destruct (rtype_from_str l); [exact I|]. destruct (class_from_str l); exact I. }
  intros [c1 s1] _ HP1. cbn [snd] in HP1.
  assert (Last : forall s2 (f : N -> option N * option N * N), PInv s2 ->
     good ctr_good (do rs <- scan_ascii_str (fun str => expected_rtype (rtype_from_str str)) s2;
                    Ok (f (fst rs), snd rs))).
  { intros s2 f HP2. eapply good_bind; [apply scan_ascii_str_good; [|exact HP2]|].
    - intros l. unfold expected_rtype. destruct (rtype_from_str l); exact I.
    - intros [r s3] _ HP3. cbn [fst snd] in *. destruct (f r) as [[a b] c]. exact HP3. }
  destruct c1 as [cls|ttl|r].
  - eapply good_bind; [apply scan_ascii_str_good; [|exact HP1]|].
    { intros l. destruct (parse_uint 4294967295 l); [exact I|]. destruct (rtype_from_str l); exact I. }
    intros [[r|ttl] s2] _ HP2; cbn [snd] in HP2; [exact HP2|].
    apply (Last s2 (fun r => (Some cls, Some ttl, r)) HP2).
  - eapply good_bind; [apply scan_ascii_str_good; [|exact HP1]|].
    { intros l. destruct (rtype_from_str l); [exact I|]. destruct (class_from_str l); exact I. }
    intros [[r|cls] s2] _ HP2; cbn [snd] in HP2; [exact HP2|].
    apply (Last s2 (fun r => (Some cls, Some ttl, r)) HP2).
  - exact HP1.
Qed.

(* result of an entry: the state is a protocol state at a line feed (or the
   end of the buffer for Eof) *)
Definition entry_good (x : scanned * zstate * sbuf) : Prop :=
  let '(sc, _, s') := x in PInv s' /\ is_token (scat s') = false /\ (sc = SEof \/ scat s' = CLF).

Lemma line_feed_good (x : scanned) zs s : PInv s ->
  good entry_good (do _ <- require_line_feed s; Ok (x, zs, s)).
Proof.
  intros HP. unfold require_line_feed, is_line_feed. destruct (scat s) eqn:Ec; try exact I.
  cbn [bind good entry_good]. rewrite Ec. auto.
Qed.

Lemma scan_owner_record_good zs s owner new_owner : PInv s ->
  good entry_good (scan_owner_record zs s owner new_owner).
Proof.
  intros HP. unfold scan_owner_record.
  eapply good_bind; [apply scan_ctr_good; exact HP|].
  intros [[[cls ttl] rtype] s1] _ HP1. cbn [ctr_good] in HP1.
  set (zs1 := if new_owner then set_owner zs owner else zs).
  pose proof (resolve_class_no_panic cls zs1) as Rc.
  destruct (resolve_class cls zs1) as [cz| | |]; cbn [bind good no_panic] in *; auto; try contradiction.
  eapply good_bind; [apply scan_rdata_good; exact HP1|].
  intros [d s2] _ HP2. cbn [fst snd] in *. apply line_feed_good. exact HP2.
Qed.

Lemma scan_control_good zs s : string_drops_quote = true -> PInv s -> good entry_good (scan_control zs s).
Proof.
  intros Hflag HP. unfold scan_control. destruct guards_int as [Ei _].
  eapply good_bind; [apply scan_string_good; assumption|].
  intros [ctrl s1] _ HP1. cbn [snd] in HP1.
  destruct (eq_ci ctrl [36; 79; 82; 73; 71; 73; 78]).
  { eapply good_bind; [apply scan_name_good; exact HP1|]. intros [n s2] _ HP2. apply line_feed_good; exact HP2. }
  destruct (eq_ci ctrl [36; 73; 78; 67; 76; 85; 68; 69]).
  { eapply good_bind; [apply scan_string_good; assumption|]. intros [path s2] _ HP2. cbn [snd] in HP2.
    destruct (is_line_feed s2) eqn:El; cbn [negb].
    - unfold is_line_feed in El. cbn [good entry_good]. destruct (scat s2); try discriminate El. auto.
    - eapply good_bind; [apply scan_name_good; exact HP2|]. intros [n s3] _ HP3. apply line_feed_good; exact HP3. }
  destruct (eq_ci ctrl [36; 84; 84; 76]); [|exact I].
  unfold scan_uint_entry. rewrite Ei.
  eapply good_bind; [apply scan_uint_good; exact HP1|]. intros [t s2] _ HP2. apply line_feed_good; exact HP2.
Qed.

Definition scan_token_entry (zs : zstate) (s : sbuf) : outcome (scanned * zstate * sbuf) :=
  if hsp s then
    match last_owner zs with
    | Some o => scan_owner_record zs s o false
    | None => Err 5
    end
  else match peek_symbol s with
       | Some (SChar 36) => scan_control zs s
       | _ =>
         do bs <- skip_at_token s;
         if fst bs then
           do o <- get_origin (origin zs);
           scan_owner_record zs (snd bs) o true
         else
           do os <- scan_name (origin zs) (snd bs);
           scan_owner_record zs (snd os) (fst os) true
       end.

Lemma scan_entry_eq zs s : scan_entry zs s =
  do s1 <- next_item s;
  match scat s1 with
  | CNone => Ok (SEof, zs, s1)
  | CLF => Ok (SEmpty, zs, s1)
  | _ => scan_token_entry zs s1
  end.
Proof. reflexivity. Qed.

Lemma scan_token_entry_good zs s : string_drops_quote = true -> PInv s ->
  good entry_good (scan_token_entry zs s).
Proof.
  intros Hflag HP. unfold scan_token_entry. destruct (hsp s).
  { destruct (last_owner zs); [apply scan_owner_record_good; exact HP|exact I]. }
  apply (case_char_dollar (good entry_good)); [apply scan_control_good; assumption|].
  eapply good_bind; [apply skip_at_token_good; exact HP|].
  intros [b s2] _ (HP2 & _). cbn [fst snd] in *. destruct b.
  - destruct (origin zs); cbn [get_origin bind good]; auto. apply scan_owner_record_good; exact HP2.
  - eapply good_bind; [apply scan_name_good; exact HP2|]. intros [n s3] _ HP3. cbn [fst snd] in *.
    apply scan_owner_record_good; exact HP3.
Qed.

Lemma scan_entry_good zs s : string_drops_quote = true ->
  PInv s -> is_token (scat s) = false -> good entry_good (scan_entry zs s).
Proof.
  intros Hflag (HI & H1 & _) Hc. rewrite scan_entry_eq.
  eapply good_bind; [apply (next_item_after_token s 0)|].
  { split; [exact HI|]. split; [exact Hc|]. left. lia. }
  intros s1 _ (HP1 & _).
  destruct (scat s1) eqn:Ec; try (apply scan_token_entry_good; assumption);
    cbn [good entry_good]; rewrite Ec; auto.
Qed.

(* Zonefile::next_entry until the end or the first error: no panic, and no
   inner loop out of fuel (EFuel can only come from read_loop's own counter) *)
Lemma read_loop_no_panic : string_drops_quote = true ->
  forall fuel zs s acc, PInv s -> is_token (scat s) = false ->
  match snd (read_loop fuel zs s acc) with EPanic _ => False | _ => True end.
Proof.
  intros Hflag. induction fuel as [|f IH]; intros zs s acc HP Hc; [exact I|].
  cbn [read_loop]. pose proof (scan_entry_good zs s Hflag HP Hc) as G.
  destruct (scan_entry zs s) as [[[x zs1] s1]| | |]; cbn [good entry_good] in G; try contradiction; try exact I.
  destruct G as (HP1 & Hc1 & _). destruct x; try exact I; apply IH; assumption.
Qed.

Lemma inner_fuel_suffices : string_drops_quote = true ->
  forall zs s, PInv s -> is_token (scat s) = false -> scan_entry zs s <> OutOfFuel.
Proof.
  intros Hflag zs s HP Hc E. pose proof (scan_entry_good zs s Hflag HP Hc) as G. rewrite E in G. exact G.
Qed.

Theorem reader_no_panic : string_drops_quote = true ->
  forall file, match snd (read_file file) with EPanic _ => False | _ => True end.
Proof.
  intros Hflag file. unfold read_file. apply read_loop_no_panic; [exact Hflag|apply init_PInv|reflexivity].
Qed.

(* the same without a premise: as soon as T1 finds the scan_string correction
   in the source this is the full statement *)
Theorem reader_no_panic_now :
  if string_drops_quote
  then forall file, match snd (read_file file) with EPanic _ => False | _ => True end
  else True.
Proof.
  destruct string_drops_quote eqn:E; [|exact I]. intros file.
  pose proof reader_no_panic as R. rewrite E in R. exact (R eq_refl file).
Qed.

Example reader_no_panic_ex :
  read_file [97;46;32;49;32;73;78;32;84;88;84;32;34;102;111;111;34] = ([], EErr 12).
Proof. vm_compute. reflexivity. Qed.

(* the scan_string correction is in the source (84ed293): these hold only while
   T1 finds it *)
Lemma string_quote_dropped : string_drops_quote = true.
Proof. vm_compute. reflexivity. Qed.

Theorem reader_no_panic_all file : match snd (read_file file) with EPanic _ => False | _ => True end.
Proof. apply reader_no_panic. apply string_quote_dropped. Qed.

(* C07 proofs, part 5: whole-file layout independence of the item stream.
   A fuel-free big-step description [Lex] of the item reader, soundness of the
   model's items_loop with respect to it, determinism, and locality: what the
   reader does before an item boundary does not depend on what follows the
   boundary, as long as that begins with a delimiter octet.  Together: a layout
   rewrite applied at an item boundary anywhere in a file leaves items_of
   unchanged. *)
From Coq Require Import NArith List Bool Arith Lia.
From DV Require Import Base.Outcome Base.Bytes C07.Gen C07.Model C07.Proofs C07.Proofs2 C07.Proofs4.
Import ListNotations.
Local Open Scope N_scope.

Definition isq (c : cat) : bool := match c with CQuo => true | _ => false end.

Definition goes_on (q : bool) (sym : symbol) : Prop :=
  if q then sym_eqb sym (SChar 34) = false else is_word_char sym = true.

(* reading the symbols of one token *)
Inductive Toks (q : bool) : list N -> list symbol -> list N -> Prop :=
| TkEndU l sym n : q = false -> sym_at l = SymOk sym n -> is_word_char sym = false -> Toks q l [] l
| TkEndQ l sym n : q = true -> sym_at l = SymOk sym n -> sym_eqb sym (SChar 34) = true ->
    Toks q l [] (skipn n l)
| TkStep l sym n syms l' : sym_at l = SymOk sym n -> goes_on q sym ->
    Toks q (skipn n l) syms l' -> Toks q l (sym :: syms) l'.

Inductive TokErr (q : bool) : list N -> N -> Prop :=
| TeEnd l : sym_at l = SymEnd -> TokErr q l 12
| TeBad l : sym_at l = SymErr -> TokErr q l 1
| TeStep l sym n e : sym_at l = SymOk sym n -> goes_on q sym ->
    TokErr q (skipn n l) e -> TokErr q l e.

(* the item reader from an item boundary: octets, paren depth |- items, ending *)
Inductive Lex : list N -> nat -> list item -> ending -> Prop :=
| LxParen l p : ni_view l p false = None -> Lex l p [] (EErr 4)
| LxEof l p p' h l' : ni_view l p false = Some (CNone, p', h, l') -> Lex l p [] EEof
| LxLF l p p' h l' its e : ni_view l p false = Some (CLF, p', h, l') ->
    Lex l' p' its e -> Lex l p (ILF :: its) e
| LxTok l p c p' h l' syms l'' its e : ni_view l p false = Some (c, p', h, l') ->
    is_token c = true -> Toks (isq c) l' syms l'' -> Lex l'' p' its e ->
    Lex l p (ITok (isq c) h syms :: its) e
| LxTokErr l p c p' h l' e : ni_view l p false = Some (c, p', h, l') ->
    is_token c = true -> TokErr (isq c) l' e -> Lex l p [] (EErr e).

(* lexing from (l, p) emits items and arrives at the item boundary (l', p') *)
Inductive Reach : list N -> nat -> list item -> list N -> nat -> Prop :=
| RRefl l p : Reach l p [] l p
| RLF l p p' h l1 its l2 p2 : ni_view l p false = Some (CLF, p', h, l1) ->
    Reach l1 p' its l2 p2 -> Reach l p (ILF :: its) l2 p2
| RTok l p c p' h l1 syms l1' its l2 p2 : ni_view l p false = Some (c, p', h, l1) ->
    is_token c = true -> Toks (isq c) l1 syms l1' -> Reach l1' p' its l2 p2 ->
    Reach l p (ITok (isq c) h syms :: its) l2 p2.

Lemma Reach_Lex l p its1 l' p' : Reach l p its1 l' p' ->
  forall its2 e, Lex l' p' its2 e -> Lex l p (its1 ++ its2) e.
Proof.
  induction 1; intros its2 e0 HL; cbn [app]; [exact HL | |].
  - eapply LxLF; eauto.
  - eapply LxTok; eauto.
Qed.

Lemma syms_loop_Toks : forall fuel s acc, is_token (scat s) = true ->
  match syms_loop fuel s acc with
  | Ok (syms, s') => exists tl, syms = rev acc ++ tl /\ Toks (isq (scat s)) (rest s) tl (rest s') /\
                                scat s' = CNone /\ par s' = par s
  | Err e => TokErr (isq (scat s)) (rest s) e
  | _ => True
  end.
Proof.
  induction fuel as [|f IH]; intros s acc Ht; [exact I|].
  cbn [syms_loop]. destruct (next_symbol s) as [[[sym|] s1]|e| |] eqn:E; cbn [bind]; auto.
  - destruct (next_symbol_gen_some _ _ _ _ E) as (_ & (n & Es & ->) & Hu & Hq).
    assert (Hg : goes_on (isq (scat s)) sym).
    { unfold goes_on. destruct (scat s); try discriminate Ht; cbn [isq]; auto. }
    specialize (IH (advance s n) (sym :: acc) Ht). rewrite rest_advance in IH. cbn [advance scat par] in IH.
    destruct (syms_loop f (advance s n) (sym :: acc)) as [[syms s']| | |]; auto.
    + destruct IH as (tl & E1 & E2 & E3 & E4). exists (sym :: tl). cbn [rev] in E1.
      rewrite <- app_assoc in E1. split; [exact E1|]. split; [|auto]. eapply TkStep; eauto.
    + eapply TeStep; eauto.
  - exists []. rewrite app_nil_r. split; [reflexivity|].
    destruct (next_symbol_gen_none _ _ _ E) as [(_ & Hu) | [(Ec & -> & sym & n & Es & Ew) | (Ec & sym & n & Es & Eq & ->)]].
    + destruct (Hu Ht) as (sym & n & _ & X). discriminate X.
    + rewrite Ec. split; [|auto]. eapply TkEndU; eauto.
    + rewrite Ec. split; [|auto]. change (rest (set_cat (advance s n) CNone)) with (rest (advance s n)).
      rewrite rest_advance. eapply TkEndQ; eauto.
  - destruct (next_symbol_gen_err _ _ _ E) as (_ & [[Es ->] | [Es ->]]); [apply TeEnd|apply TeBad]; exact Es.
Qed.

Lemma next_item_view s : is_token (scat s) = false ->
  match ni_view (rest s) (par s) false with
  | None => next_item s = Err 4
  | Some (c, p, h, l) => exists s1, next_item s = Ok s1 /\ scat s1 = c /\ par s1 = p /\ hsp s1 = h /\ rest s1 = l
  end.
Proof.
  intros Hc. unfold next_item, ni_view. rewrite Hc.
  destruct (ni_loop (rest s) false (par s) false 0) as [|n c p h]; [reflexivity|].
  eexists. split; [reflexivity|]. repeat split. unfold rest. cbn [buf start]. rewrite skipn_add. reflexivity.
Qed.

Lemma items_loop_tok f s acc s1 : next_item s = Ok s1 -> is_token (scat s1) = true ->
  items_loop (S f) s acc =
  match syms_loop (fuel_of s1) s1 [] with
  | Ok (syms, s') => items_loop f s' (ITok (isq (scat s1)) (hsp s1) syms :: acc)
  | Err e => (rev acc, EErr e)
  | Panic p => (rev acc, EPanic p)
  | OutOfFuel => (rev acc, EFuel)
  end.
Proof. intros E Ht. cbn [items_loop]. rewrite E. destruct (scat s1); try discriminate Ht; reflexivity. Qed.

Definition ended (e : ending) : Prop := match e with EEof | EErr _ => True | _ => False end.

Lemma items_loop_Lex : forall fuel s acc its e, is_token (scat s) = false ->
  items_loop fuel s acc = (its, e) -> ended e ->
  exists tl, its = rev acc ++ tl /\ Lex (rest s) (par s) tl e.
Proof.
  induction fuel as [|f IH]; intros s acc its e Hc E He; [injection E as <- <-; contradiction|].
  pose proof (next_item_view s Hc) as V.
  destruct (ni_view (rest s) (par s) false) as [[[[c p] h] l]|] eqn:Ev.
  2:{ cbn [items_loop] in E. rewrite V in E. injection E as <- <-.
      exists []. rewrite app_nil_r. split; [reflexivity|]. apply LxParen. exact Ev. }
  destruct V as (s1 & E1 & <- & <- & <- & <-).
  destruct (is_token (scat s1)) eqn:Ht1.
  - rewrite (items_loop_tok f s acc s1 E1 Ht1) in E.
    pose proof (syms_loop_Toks (fuel_of s1) s1 [] Ht1) as T.
    destruct (syms_loop (fuel_of s1) s1 []) as [[syms s2]|e2| |].
    + destruct T as (tl & -> & T2 & T3 & T4). cbn [rev app] in *.
      destruct (IH s2 _ its e ltac:(rewrite T3; reflexivity) E He) as (its2 & F1 & F2).
      exists (ITok (isq (scat s1)) (hsp s1) tl :: its2). cbn [rev] in F1. rewrite <- app_assoc in F1.
      split; [exact F1|]. rewrite T4 in F2. eapply LxTok; eauto.
    + injection E as <- <-. exists []. rewrite app_nil_r. split; [reflexivity|]. eapply LxTokErr; eauto.
    + injection E as <- <-. contradiction.
    + injection E as <- <-. contradiction.
  - cbn [items_loop] in E. rewrite E1 in E. destruct (scat s1) eqn:Ec; try discriminate Ht1.
    + injection E as <- <-. exists []. rewrite app_nil_r. split; [reflexivity|]. eapply LxEof; eauto.
    + destruct (IH s1 _ its e ltac:(rewrite Ec; reflexivity) E He) as (its2 & F1 & F2).
      exists (ILF :: its2). cbn [rev] in F1. rewrite <- app_assoc in F1. split; [exact F1|]. eapply LxLF; eauto.
Qed.

(* items_of is described by Lex (the guards make it total) *)
Theorem items_of_Lex file : Lex file 0 (fst (items_of file)) (snd (items_of file)).
Proof.
  pose proof (items_total_all file) as T. unfold items_of in *.
  destruct (items_loop (S (S (length file))) (init_sbuf file) []) as [its e] eqn:E.
  destruct (items_loop_Lex _ (init_sbuf file) _ _ _ eq_refl E T) as (tl & -> & L). exact L.
Qed.

(* from any boundary the reader has a result (the model run, by items_loop_total) *)
Lemma Lex_total r p : exists its e, Lex r p its e.
Proof.
  set (s := mkS (0 :: r) 1 CNone false p).
  pose proof (items_loop_total (proj1 reader_guards_present) (S (S (length r))) s []) as T.
  destruct (items_loop (S (S (length r))) s []) as [its e] eqn:E.
  specialize (T ltac:(unfold Inv; cbn; lia) eq_refl ltac:(unfold rest; cbn; lia)).
  destruct (items_loop_Lex _ s _ _ _ eq_refl E T) as (tl & _ & L). exists tl, e. exact L.
Qed.

Lemma sym_eqb_refl s : sym_eqb s s = true.
Proof. destruct s; cbn; apply N.eqb_refl. Qed.

Lemma goes_on_not_end q sym : goes_on q sym ->
  (q = false -> is_word_char sym = false -> False) /\ (q = true -> sym_eqb sym (SChar 34) = true -> False).
Proof. unfold goes_on. destruct q; split; intros; congruence. Qed.

Ltac same_sym :=
  repeat match goal with
  | A : sym_at ?l = SymOk _ _, B : sym_at ?l = SymOk _ _ |- _ =>
      rewrite A in B; injection B as ? ?; subst
  | A : sym_at ?l = SymOk _ _, B : sym_at ?l = SymEnd |- _ => rewrite A in B; discriminate B
  | A : sym_at ?l = SymOk _ _, B : sym_at ?l = SymErr |- _ => rewrite A in B; discriminate B
  | A : sym_at ?l = SymEnd, B : sym_at ?l = SymErr |- _ => rewrite A in B; discriminate B
  end.
Ltac clash :=
  solve [ match goal with
          | G : goes_on _ _ |- _ => destruct (goes_on_not_end _ _ G) as [? ?]; exfalso; eauto
          end ].

Lemma Toks_det q l s1 l1 : Toks q l s1 l1 -> forall s2 l2, Toks q l s2 l2 -> s1 = s2 /\ l1 = l2.
Proof.
  induction 1 as [l sym n Hq Hs Hw | l sym n Hq Hs He | l sym n syms l' Hs Hg HT IH]; intros s2 l2 H2;
    inversion H2; subst; same_sym; auto; try congruence; try clash.
  match goal with T : Toks _ (skipn _ _) _ _ |- _ => destruct (IH _ _ T) as [-> ->]; auto end.
Qed.

Lemma Toks_TokErr q l s l' : Toks q l s l' -> forall e, TokErr q l e -> False.
Proof.
  induction 1 as [l sym n Hq Hs Hw | l sym n Hq Hs He | l sym n syms l' Hs Hg HT IH]; intros e H2;
    inversion H2; subst; same_sym; try congruence; try clash; eauto.
Qed.

Lemma TokErr_det q l e1 : TokErr q l e1 -> forall e2, TokErr q l e2 -> e1 = e2.
Proof.
  induction 1 as [l Hs | l Hs | l sym n e Hs Hg HT IH]; intros e2 H2; inversion H2; subst; same_sym;
    try congruence; auto.
Qed.

Lemma Lex_det l p i1 e1 : Lex l p i1 e1 -> forall i2 e2, Lex l p i2 e2 -> i1 = i2 /\ e1 = e2.
Proof.
  induction 1 as [l p V | l p p' h l' V | l p p' h l' its e V HL IH
                  | l p c p' h l' syms l'' its e V Hc HT HL IH | l p c p' h l' e V Hc HT];
    intros i2 e2 H2; inversion H2; subst;
    try match goal with
    | A : ni_view ?l ?p false = _, B : ni_view ?l ?p false = _ |- _ => rewrite A in B; inversion B; subst
    end; try discriminate; auto.
  - match goal with L : Lex _ _ _ _ |- _ => destruct (IH _ _ L) as [-> ->]; auto end.
  - match goal with T : Toks _ _ _ _ |- _ => destruct (Toks_det _ _ _ _ HT _ _ T) as [-> ->] end.
    match goal with L : Lex _ _ _ _ |- _ => destruct (IH _ _ L) as [-> ->]; auto end.
  - exfalso. eapply Toks_TokErr; eauto.
  - exfalso. eapply Toks_TokErr; eauto.
  - match goal with T : TokErr _ _ _ |- _ => rewrite (TokErr_det _ _ _ HT _ T); auto end.
Qed.

Lemma firstn_app_le {A} (u r : list A) n : (n <= length u)%nat -> firstn n (u ++ r) = firstn n u.
Proof.
  intros H. rewrite firstn_app. replace (n - length u)%nat with 0%nat by lia.
  cbn [firstn]. apply app_nil_r.
Qed.

Lemma skipn_app_le {A} (u r : list A) n : (n <= length u)%nat -> skipn n (u ++ r) = skipn n u ++ r.
Proof.
  intros H. rewrite skipn_app. replace (n - length u)%nat with 0%nat by lia. reflexivity.
Qed.

(* a symbol that lies inside u is read the same whatever follows u *)
Lemma sym_at_local u r1 r2 s n : sym_at (u ++ r1) = SymOk s n -> (n <= length u)%nat ->
  sym_at (u ++ r2) = SymOk s n.
Proof.
  intros H Hn. pose proof (proj2 (sym_at_prefix _ _ _ H) (skipn n u ++ r2)) as F.
  rewrite firstn_app_le in F by exact Hn. rewrite app_assoc, firstn_skipn in F. exact F.
Qed.

Lemma Toks_suffix q l syms l' : Toks q l syms l' -> (length l' <= length l)%nat.
Proof.
  induction 1 as [l sym n Hq Hs Hw | l sym n Hq Hs He | l sym n syms l' Hs Hg HT IH].
  - lia.
  - rewrite skipn_length. lia.
  - rewrite skipn_length in IH. lia.
Qed.

Definition delim_head (r : list N) : Prop :=
  exists d t, r = d :: t /\ is_delim d = true /\ d < 128 /\ d <> esc_char.

Lemma app_same_length {A} (a b c d : list A) : a ++ b = c ++ d -> length b = length d -> a = c /\ b = d.
Proof.
  intros H L. assert (La : length a = length c).
  { apply (f_equal (@length A)) in H. rewrite !app_length in H. lia. }
  revert c H La. induction a as [|x a IH]; intros [|y c] H La; cbn in *; try lia; auto.
  injection H as -> H. destruct (IH c H ltac:(lia)) as [-> ->]. auto.
Qed.

Lemma Toks_local q r1 r2 : delim_head r1 -> delim_head r2 ->
  forall l syms l', Toks q l syms l' -> forall u, l = u ++ r1 -> (length r1 <= length l')%nat ->
  exists u', l' = u' ++ r1 /\ Toks q (u ++ r2) syms (u' ++ r2).
Proof.
  intros (d1 & t1 & -> & Hd1 & H11 & H12) (d2 & t2 & -> & Hd2 & H21 & H22).
  induction 1 as [l sym n Hq Hs Hw | l sym n Hq Hs He | l sym n syms l' Hs Hg HT IH]; intros u -> Hl.
  - exists u. split; [reflexivity|]. destruct u as [|c u].
    + cbn [app]. destruct (sym_at_delim d2 t2 Hd2 H21 H22) as [A B]. eapply TkEndU; eauto.
    + destruct (nonword_is_raw_delim _ _ _ (proj1 reader_guards_present) Hs Hw) as (c' & t' & El & -> & -> & Hd).
      eapply TkEndU; eauto. eapply sym_at_local; [exact Hs|]. cbn [length]. lia.
  - pose proof (sym_at_len _ _ _ Hs) as Ln. rewrite skipn_length, app_length in Hl. rewrite app_length in Ln.
    assert (Hn : (n <= length u)%nat) by lia.
    exists (skipn n u). rewrite skipn_app_le by exact Hn. split; [reflexivity|].
    rewrite <- skipn_app_le by exact Hn. eapply TkEndQ; eauto. eapply sym_at_local; eauto.
  - pose proof (sym_at_len _ _ _ Hs) as Ln. pose proof (Toks_suffix _ _ _ _ HT) as Lt.
    rewrite skipn_length, app_length in Lt. rewrite app_length in Ln.
    assert (Hn : (n <= length u)%nat) by lia.
    destruct (IH (skipn n u) (skipn_app_le _ _ _ Hn) Hl) as (u' & -> & T').
    exists u'. split; [reflexivity|]. eapply TkStep; [eapply sym_at_local; eauto | exact Hg |].
    rewrite skipn_app_le by exact Hn. exact T'.
Qed.

(* next_item: a decision taken inside `a` is independent of what follows `a` *)
Lemma ni_loop_local r1 r2 : forall a incom p h n0 n c p' h',
  ni_loop (a ++ r1) incom p h n0 = NiOk n c p' h' -> (n - n0 <= length a)%nat ->
  c <> CNone -> (c = CUnq -> (n - n0 < length a)%nat) ->
  ni_loop (a ++ r2) incom p h n0 = NiOk n c p' h'.
Proof.
  induction a as [|ch a IH]; intros incom p h n0 n c p' h' H Hn Hc Hu.
  - cbn [app length] in *. exfalso. pose proof (ni_loop_bounds _ _ _ _ _ _ _ _ _ H) as B.
    destruct c; try congruence.
    + specialize (Hu eq_refl). lia.
    + pose proof (ni_loop_lf_quo _ _ _ _ _ _ _ _ _ H (or_intror eq_refl)). lia.
    + pose proof (ni_loop_lf_quo _ _ _ _ _ _ _ _ _ H (or_introl eq_refl)). lia.
  - cbn [app length ni_loop] in *.
    assert (Step : forall i p0 h0, ni_loop (a ++ r1) i p0 h0 (S n0) = NiOk n c p' h' ->
                   ni_loop (a ++ r2) i p0 h0 (S n0) = NiOk n c p' h').
    { intros i p0 h0 H0. pose proof (ni_loop_bounds _ _ _ _ _ _ _ _ _ H0) as B.
      apply IH; auto; try lia; intros Ec; specialize (Hu Ec); lia. }
    destruct (incom && negb (ch =? ni_comment_end)); [apply Step; exact H|].
    destruct (memN ch ni_space); [apply Step; exact H|].
    destruct (ch =? ni_cr_dead); [apply Step; exact H|].
    destruct (ch =? ni_open); [apply Step; exact H|].
    destruct (ch =? ni_close). { destruct p; [discriminate|]. apply Step; exact H. }
    destruct (ch =? ni_comment); [apply Step; exact H|].
    destruct (ch =? ni_newline). { destruct (Nat.eqb p 0); [exact H|]. apply Step; exact H. }
    destruct (ch =? ni_quote); exact H.
Qed.

Lemma ni_view_local r1 r2 u p c p' h' l1 :
  ni_view (u ++ r1) p false = Some (c, p', h', l1) -> (length r1 <= length l1)%nat ->
  c <> CNone -> delim_head r1 ->
  exists u1, l1 = u1 ++ r1 /\ ni_view (u ++ r2) p false = Some (c, p', h', u1 ++ r2).
Proof.
  unfold ni_view. intros H Hl Hc Hd.
  destruct (ni_loop (u ++ r1) false p false 0) as [|n c0 p0 h0] eqn:En; [discriminate|].
  injection H as -> -> -> <-.
  pose proof (ni_loop_bounds _ _ _ _ _ _ _ _ _ En) as B.
  rewrite skipn_length, app_length in Hl.
  assert (Hn : (n <= length u)%nat) by (rewrite app_length in B; lia).
  assert (Hu : c = CUnq -> (n - 0 < length u)%nat).
  { intros ->. destruct (ni_loop_unq _ _ _ _ _ _ _ _ En) as (x & t & Hs & Hx).
    rewrite Nat.sub_0_r in *. destruct (Nat.eq_dec n (length u)) as [E|E]; [|lia].
    exfalso. subst n. rewrite skipn_app_le in Hs by lia. rewrite skipn_all in Hs. cbn [app] in Hs.
    destruct Hd as (d & t' & -> & Hdd & _). injection Hs as -> _. congruence. }
  exists (skipn n u). split; [apply skipn_app_le; exact Hn|].
  rewrite (ni_loop_local r1 r2 u false p false 0 n c p' h' En); auto; try lia.
  rewrite skipn_app_le by exact Hn. reflexivity.
Qed.

Lemma Reach_suffix l p its l' p' : Reach l p its l' p' -> (length l' <= length l)%nat.
Proof.
  induction 1 as [l p | l p p' h l1 its l2 p2 V HR IH | l p c p' h l1 syms l1' its l2 p2 V Hc HT HR IH].
  - lia.
  - unfold ni_view in V. destruct (ni_loop l false p false 0) eqn:E; [discriminate|].
    injection V as _ _ _ <-. rewrite skipn_length in IH. lia.
  - unfold ni_view in V. destruct (ni_loop l false p false 0) eqn:E; [discriminate|].
    injection V as _ _ _ <-. pose proof (Toks_suffix _ _ _ _ HT) as T. rewrite skipn_length in T. lia.
Qed.

(* What the reader does up to an item boundary does not depend on what follows
   the boundary (both continuations beginning with a delimiter octet). *)
Lemma Reach_local r1 r2 : delim_head r1 -> delim_head r2 ->
  forall l p its l' p', Reach l p its l' p' -> forall u, l = u ++ r1 -> (length r1 <= length l')%nat ->
  exists u', l' = u' ++ r1 /\ Reach (u ++ r2) p its (u' ++ r2) p'.
Proof.
  intros D1 D2.
  induction 1 as [l p | l p p' h l1 its l2 p2 V HR IH | l p c p' h l1 syms l1' its l2 p2 V Hc HT HR IH];
    intros u -> Hl.
  - exists u. split; [reflexivity|apply RRefl].
  - pose proof (Reach_suffix _ _ _ _ _ HR) as S1.
    destruct (ni_view_local r1 r2 u p CLF p' h l1 V ltac:(lia) ltac:(discriminate) D1) as (u1 & -> & V2).
    destruct (IH u1 eq_refl Hl) as (u' & -> & R2). exists u'. split; [reflexivity|].
    eapply RLF; eauto.
  - pose proof (Reach_suffix _ _ _ _ _ HR) as S1. pose proof (Toks_suffix _ _ _ _ HT) as S2.
    assert (Hcn : c <> CNone) by (intros ->; discriminate).
    destruct (ni_view_local r1 r2 u p c p' h l1 V ltac:(lia) Hcn D1) as (u1 & -> & V2).
    destruct (Toks_local (isq c) r1 r2 D1 D2 _ _ _ HT u1 eq_refl ltac:(lia)) as (u1' & -> & T2).
    destruct (IH u1' eq_refl Hl) as (u' & -> & R2). exists u'. split; [reflexivity|].
    eapply RTok; eauto.
Qed.

(* up to the boundary r1 itself: the same run in front of r2 *)
Lemma Reach_swap r1 r2 pre p its p' : delim_head r1 -> delim_head r2 ->
  Reach (pre ++ r1) p its r1 p' -> Reach (pre ++ r2) p its r2 p'.
Proof.
  intros D1 D2 HR.
  destruct (Reach_local r1 r2 D1 D2 _ _ _ _ _ HR pre eq_refl (le_n _)) as (u' & E & R2).
  assert (u' = []).
  { apply (f_equal (@length N)) in E. rewrite app_length in E. destruct u'; [reflexivity|cbn in E; lia]. }
  subst u'. exact R2.
Qed.

(* Lex looks at its input only through ni_view *)
Lemma Lex_first_step l1 p1 l2 p2 : ni_view l1 p1 false = ni_view l2 p2 false ->
  forall its e, Lex l1 p1 its e -> Lex l2 p2 its e.
Proof.
  intros V its e H. inversion H; subst.
  - apply LxParen. rewrite <- V. assumption.
  - eapply LxEof. rewrite <- V. eassumption.
  - eapply LxLF; [rewrite <- V; eassumption|assumption].
  - eapply LxTok; [rewrite <- V; eassumption| | |]; eassumption.
  - eapply LxTokErr; [rewrite <- V; eassumption| |]; eassumption.
Qed.

(* If the reader, working through pre ++ r1, is at an item boundary right after
   pre, then replacing r1 by a continuation r2 that is read alike from the
   boundary, at the depth reached there, does not change the item stream. *)
Theorem layout_whole_file_gen pre r1 r2 its1 p1 :
  delim_head r1 -> delim_head r2 ->
  (forall its e, Lex r1 p1 its e -> Lex r2 p1 its e) ->
  Reach (pre ++ r1) 0 its1 r1 p1 ->
  items_of (pre ++ r1) = items_of (pre ++ r2).
Proof.
  intros D1 D2 HL HR.
  pose proof (Reach_swap r1 r2 pre 0 its1 p1 D1 D2 HR) as R2.
  pose proof (items_of_Lex (pre ++ r1)) as L1. pose proof (items_of_Lex (pre ++ r2)) as L2.
  destruct (Lex_total r1 p1) as (its2 & e & Lb).
  pose proof (Reach_Lex _ _ _ _ _ HR _ _ Lb) as A1.
  pose proof (Reach_Lex _ _ _ _ _ R2 _ _ (HL _ _ Lb)) as A2.
  destruct (Lex_det _ _ _ _ L1 _ _ A1) as [F1 E1]. destruct (Lex_det _ _ _ _ L2 _ _ A2) as [F2 E2].
  destruct (items_of (pre ++ r1)) as [a b], (items_of (pre ++ r2)) as [c d]. cbn [fst snd] in *. congruence.
Qed.

(* r1 and r2 are equivalent continuations at an item boundary *)
Definition same_view (r1 r2 : list N) : Prop := forall p h, ni_view r1 p h = ni_view r2 p h.

Theorem layout_whole_file pre r1 r2 its1 p1 :
  delim_head r1 -> delim_head r2 -> same_view r1 r2 ->
  Reach (pre ++ r1) 0 its1 r1 p1 ->
  items_of (pre ++ r1) = items_of (pre ++ r2).
Proof.
  intros D1 D2 SV. apply layout_whole_file_gen; [exact D1|exact D2|]. apply Lex_first_step, SV.
Qed.

(* instances: the rewrites of Proofs2 anywhere in a file *)
Lemma delim_head_char d t : is_delim d && (d <? 128) && negb (d =? esc_char) = true -> delim_head (d :: t).
Proof.
  intros H. apply andb_true_iff in H as [H H3]. apply andb_true_iff in H as [H1 H2].
  apply negb_true_iff in H3. exists d, t. repeat split; auto; lia.
Qed.

Lemma space_head ws t : Forall (fun c => is_space c = true) ws -> ws <> [] -> delim_head (ws ++ t).
Proof.
  intros F Hne. destruct ws as [|c w]; [congruence|]. inversion F as [|? ? Hc _]; subst.
  apply delim_head_char. unfold is_space, memN in Hc.
  apply existsb_exists in Hc as (x & Hin & Hx). apply N.eqb_eq in Hx. subst x.
  assert (T : forallb (fun x => is_delim x && (x <? 128) && negb (x =? esc_char)) ni_space = true)
    by (vm_compute; reflexivity).
  rewrite forallb_forall in T. exact (T c Hin).
Qed.

Theorem layout_spacing_whole_file pre ws1 ws2 t its1 p1 :
  Forall (fun c => is_space c = true) ws1 -> ws1 <> [] ->
  Forall (fun c => is_space c = true) ws2 -> ws2 <> [] ->
  Reach (pre ++ ws1 ++ t) 0 its1 (ws1 ++ t) p1 ->
  items_of (pre ++ ws1 ++ t) = items_of (pre ++ ws2 ++ t).
Proof.
  intros F1 N1 F2 N2 HR. eapply layout_whole_file; eauto using space_head.
  intros p h. apply layout_spacing; assumption.
Qed.

Theorem layout_comment_whole_file pre c t its1 p1 :
  Forall (fun x => x <> ni_comment_end) c ->
  Reach (pre ++ ni_newline :: t) 0 its1 (ni_newline :: t) p1 ->
  items_of (pre ++ ni_newline :: t) = items_of (pre ++ ni_comment :: c ++ ni_newline :: t).
Proof.
  intros F HR. eapply layout_whole_file; eauto; try (apply delim_head_char; reflexivity).
  intros p h. symmetry. apply layout_comment. exact F.
Qed.

Theorem layout_crlf_whole_file pre t its1 p1 :
  Reach (pre ++ 32 :: ni_newline :: t) 0 its1 (32 :: ni_newline :: t) p1 ->
  items_of (pre ++ 32 :: ni_newline :: t) = items_of (pre ++ 32 :: 13 :: ni_newline :: t).
Proof.
  intros HR. eapply layout_whole_file; eauto; try (apply delim_head_char; reflexivity).
  intros p h. rewrite (ni_view_space 32 (ni_newline :: t)), (ni_view_space 32 (13 :: ni_newline :: t))
    by (vm_compute; reflexivity). symmetry. apply layout_crlf.
Qed.

Example layout_whole_file_ex :
  Reach ([97; 46] ++ [32; 49; 10]) 0 [ITok false false [SChar 97; SChar 46]] [32; 49; 10] 0
  /\ items_of ([97; 46] ++ [32; 49; 10]) = items_of ([97; 46] ++ [9; 32; 13] ++ [49; 10]).
Proof.
  split; [|vm_compute; reflexivity].
  eapply (RTok _ _ CUnq 0 false [97; 46; 32; 49; 10]); [vm_compute; reflexivity|reflexivity| |apply RRefl].
  eapply TkStep; [vm_compute; reflexivity|vm_compute; reflexivity|].
  eapply TkStep; [vm_compute; reflexivity|vm_compute; reflexivity|].
  eapply TkEndU; [reflexivity|vm_compute; reflexivity|vm_compute; reflexivity].
Qed.

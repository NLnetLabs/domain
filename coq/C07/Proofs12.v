(* C07 proofs, part 12: value correctness of scan_octets, first steps.
   (1) An unquoted token of plain characters comes back as exactly its octets.
   (2) With escapes: the plain prefix followed by the octets of the remaining
       symbols (Symbol::into_octet), whatever the buffer held before.
   (3) The fast path accepts DEL (0x7F) which the slow path rejects. *)
From Coq Require Import NArith List Bool Arith Lia.
From DV Require Import Base.Outcome Base.Bytes C07.Gen C07.Model C07.Proofs C07.Proofs5.
Import ListNotations.
Local Open Scope N_scope.

Definition plain (tok : list N) : Prop := Forall (fun c => asc_unq_ok c = true) tok.

Lemma rest_cons s c t : rest s = c :: t -> rest (advance s 1) = t.
Proof. intros H. rewrite rest_advance, H. reflexivity. Qed.

(* the fast loop walks over a plain prefix and stops at the first other octet *)
Lemma ascii_loop_plain : forall tok fuel s cnt d t,
  plain tok -> scat s = CUnq -> rest s = tok ++ d :: t -> asc_unq_ok d = false ->
  (length tok < fuel)%nat ->
  exists s', ascii_loop fuel s cnt = Ok (s', (cnt + length tok)%nat) /\ buf s' = buf s /\
    start s' = (start s + length tok)%nat /\ scat s' = CUnq /\ hsp s' = hsp s /\ par s' = par s.
Proof.
  induction tok as [|c tok IH]; intros fuel s cnt d t Hp Hc Hr Hd Hf.
  - destruct fuel as [|f]; [cbn in Hf; lia|]. cbn [ascii_loop]. unfold next_ascii_symbol. rewrite Hc.
    cbn [app] in Hr. rewrite Hr. unfold asc_unq_ok in Hd. apply negb_false_iff in Hd. rewrite Hd.
    exists s. cbn [length]. rewrite !Nat.add_0_r. repeat split; auto.
  - destruct fuel as [|f]; [cbn in Hf; lia|]. cbn [ascii_loop]. unfold next_ascii_symbol. rewrite Hc.
    cbn [app] in Hr. rewrite Hr. inversion Hp as [|? ? Hc1 Hp1]; subst.
    unfold asc_unq_ok in Hc1. apply negb_true_iff in Hc1. rewrite Hc1.
    destruct (IH f (advance s 1) (S cnt) d t Hp1 Hc (rest_cons _ _ _ Hr) Hd ltac:(cbn in Hf; lia))
      as (s' & E & A & B & C & D & F).
    exists s'. cbn [length]. replace (cnt + S (length tok))%nat with (S cnt + length tok)%nat by lia.
    split; [exact E|]. cbn [advance buf start hsp par] in *. repeat split; auto. lia.
Qed.

Lemma delim_not_plain d : is_delim d = true -> d < 128 -> asc_unq_ok d = false.
Proof.
  intros Hd H. destruct (asc_unq_ok d) eqn:E; [|reflexivity].
  destruct (asc_unq_ok_spec d E) as (_ & W & _). rewrite delims_agree in W by exact H.
  rewrite Hd in W. discriminate W.
Qed.

(* (3) DEL passes the fast path unchanged but is rejected by the slow path:
   `A<DEL>` is the octets 41 7F, `\065<DEL>` is "bad symbol" *)
Theorem del_fast_slow_differ :
  scan_octets (mkS [0; 65; 127; 10] 1 CUnq false 0) = Ok ([65; 127], mkS [10] 1 CLF false 0)
  /\ scan_octets (mkS [0; 92; 48; 54; 53; 127; 10] 1 CUnq false 0) = Err 1.
Proof. vm_compute. split; reflexivity. Qed.

(* (2) with escapes: what the slow loop writes is the octets of the symbols *)

Lemma next_symbol_on s sym n : is_token (scat s) = true -> sym_at (rest s) = SymOk sym n ->
  goes_on (isq (scat s)) sym -> next_symbol s = Ok (Some sym, advance s n).
Proof.
  unfold next_symbol, next_symbol_gen, goes_on. intros Ht Es Hg.
  destruct (scat s); try discriminate Ht; cbn [isq] in Hg; rewrite Es, Hg; reflexivity.
Qed.

Lemma next_symbol_off_unq s sym n : scat s = CUnq -> sym_at (rest s) = SymOk sym n ->
  is_word_char sym = false -> next_symbol s = Ok (None, set_cat s CNone).
Proof. unfold next_symbol, next_symbol_gen. intros -> -> ->. reflexivity. Qed.

Lemma next_symbol_off_quo s sym n : scat s = CQuo -> sym_at (rest s) = SymOk sym n ->
  sym_eqb sym (SChar 34) = true -> next_symbol s = Ok (None, set_cat (advance s n) CNone).
Proof. unfold next_symbol, next_symbol_gen. intros -> -> ->. reflexivity. Qed.

Lemma set_byte_firstn : forall l w b l', set_byte l w b = Some l' -> firstn (S w) l' = firstn w l ++ [b].
Proof.
  induction l as [|x t IH]; intros [|j] b l'; cbn [set_byte]; try discriminate.
  - intros H; injection H as <-. reflexivity.
  - destruct (set_byte t j b) eqn:E; [|discriminate]. intros H; injection H as <-.
    cbn [firstn app]. f_equal. apply IH. exact E.
Qed.

Lemma store_value s n w b s2 : (w < start s + n)%nat -> store (advance s n) w b = Ok s2 ->
  firstn (S w) (buf s2) = firstn w (buf s) ++ [b] /\ rest s2 = skipn n (rest s) /\
  scat s2 = scat s /\ start s2 = (start s + n)%nat.
Proof.
  unfold store. destruct (set_byte (buf (advance s n)) w b) as [bf|] eqn:Eb; [|discriminate].
  intros Hw H; injection H as <-. cbn [with_buf advance buf start scat] in *.
  split; [exact (set_byte_firstn _ _ _ _ Eb)|]. repeat split.
  unfold rest. cbn [with_buf advance buf start]. rewrite (set_byte_skipn _ _ _ _ _ Eb) by lia.
  rewrite skipn_add. reflexivity.
Qed.

Definition octets_of (syms : list symbol) (octs : list N) : Prop := map into_octet syms = map Some octs.

Lemma write_loop_value_gen q : forall syms l l', Toks q l syms l' ->
  forall octs fuel s w s' w', octets_of syms octs -> is_token (scat s) = true -> isq (scat s) = q ->
  rest s = l -> (w <= start s)%nat -> write_loop into_octet fuel s w = Ok (s', w') ->
  w' = (w + length octs)%nat /\ firstn w' (buf s') = firstn w (buf s) ++ octs /\ rest s' = l' /\
  scat s' = CNone /\ (w' <= start s')%nat /\ (q = true -> (w' < start s')%nat).
Proof.
  induction 1 as [l sym n Hq Hs Hw | l sym n Hq Hs He | l sym n syms l' Hs Hg HT IH];
    intros octs fuel s w s' w' Ho Ht Hi Hr Hle Hwl;
    (destruct fuel as [|f]; [discriminate Hwl|]); cbn [write_loop] in Hwl; rewrite <- Hr in *.
  - destruct octs; [|discriminate Ho].
    assert (Ec : scat s = CUnq) by (destruct (scat s); try discriminate Ht; [reflexivity|cbn in Hi; congruence]).
    rewrite (next_symbol_off_unq s sym n Ec Hs Hw) in Hwl. injection Hwl as <- <-.
    cbn [length]. rewrite Nat.add_0_r, app_nil_r. repeat split; auto. congruence.
  - destruct octs; [|discriminate Ho].
    assert (Ec : scat s = CQuo) by (destruct (scat s); try discriminate Ht; [cbn in Hi; congruence|reflexivity]).
    rewrite (next_symbol_off_quo s sym n Ec Hs He) in Hwl. injection Hwl as <- <-.
    pose proof (sym_at_len _ _ _ Hs) as Ln. cbn [length set_cat advance buf start scat].
    rewrite Nat.add_0_r, app_nil_r. repeat split; auto; try lia. apply rest_advance.
  - destruct octs as [|b octs]; [discriminate Ho|]. injection Ho as Hb Ho.
    rewrite (next_symbol_on s sym n Ht Hs ltac:(rewrite Hi; exact Hg)) in Hwl. cbn [bind] in Hwl. rewrite Hb in Hwl.
    pose proof (sym_at_len _ _ _ Hs) as Ln.
    destruct (store (advance s n) w b) as [s2| | |] eqn:E2; try discriminate Hwl. cbn [bind] in Hwl.
    destruct (store_value s n w b s2 ltac:(lia) E2) as (V1 & V2 & V3 & V4).
    destruct (IH octs f s2 (S w) s' w' Ho ltac:(congruence) ltac:(congruence) V2 ltac:(lia) Hwl)
      as (A & B & C & D & F & G).
    split; [cbn [length]; lia|]. split; [|auto]. rewrite B, V1, <- app_assoc. reflexivity.
Qed.

Lemma write_loop_value : forall syms l l', Toks false l syms l' ->
  forall octs fuel s w s' w', octets_of syms octs -> scat s = CUnq -> rest s = l -> (w <= start s)%nat ->
  write_loop into_octet fuel s w = Ok (s', w') ->
  w' = (w + length octs)%nat /\ firstn w' (buf s') = firstn w (buf s) ++ octs /\ rest s' = l' /\
  scat s' = CNone /\ (w' <= start s')%nat.
Proof.
  intros syms l l' HT octs fuel s w s' w' Ho Hc Hr Hle Hwl.
  destruct (write_loop_value_gen false _ _ _ HT octs fuel s w s' w' Ho) as (A & B & C & D & F & _);
    auto; rewrite Hc; reflexivity.
Qed.

Lemma finish_value s w r s2 : (do s1 <- next_item s; split_to s1 w) = Ok (r, s2) -> r = firstn w (buf s).
Proof.
  destruct (next_item s) as [s1| | |] eqn:En; cbn [bind]; try discriminate.
  destruct (next_item_buf _ _ En) as [B _]. unfold split_to.
  destruct (Nat.leb w (start s1)); [|discriminate]. intros H; injection H as <- _. rewrite B. reflexivity.
Qed.

(* a token = plain prefix p, then symbols (the first of them not plain: an
   escape or a non-ASCII character) up to the delimiter: scan_octets returns
   p followed by the octets of those symbols *)
Theorem scan_octets_value s p q syms octs d t r s2 :
  scat s = CUnq -> rest s = p ++ q -> plain p ->
  (exists c q', q = c :: q' /\ asc_unq_ok c = false) ->
  Toks false q syms (d :: t) -> octets_of syms octs ->
  scan_octets s = Ok (r, s2) -> r = p ++ octs.
Proof.
  intros Hc Hr Hp (c & q' & -> & Hcn) HT Ho.
  unfold scan_octets, require_token. rewrite Hc. cbn [bind].
  unfold trim_to. rewrite Nat.leb_refl. cbn [bind]. rewrite Nat.sub_diag, Hc. fold (rest s).
  set (s0 := mkS (rest s) 0 CUnq (hsp s) (par s)).
  assert (Hf0 : (length p < fuel_of s0)%nat).
  { unfold fuel_of, s0. cbn [buf]. rewrite Hr, app_length. cbn [length]. lia. }
  destruct (ascii_loop_plain p (fuel_of s0) s0 0 c q' Hp eq_refl Hr Hcn Hf0) as (s1 & E1 & B1 & S1 & C1 & _ & _).
  rewrite E1. cbn [bind fst snd]. rewrite C1.
  assert (Rs : rest s1 = c :: q').
  { unfold rest. rewrite B1, S1. cbn [s0 buf start Nat.add]. rewrite Hr.
    rewrite skipn_app, skipn_all, Nat.sub_diag. reflexivity. }
  destruct (write_loop into_octet (fuel_of s1) s1 (start s1)) as [[s3 w3]| | |] eqn:Ew; cbn [bind]; try discriminate.
  destruct (write_loop_value _ _ _ HT octs _ _ _ _ _ Ho C1 Rs (le_n _) Ew) as (A & B & _).
  cbn [fst snd]. intros H. rewrite (finish_value _ _ _ _ H), B, B1, S1. cbn [s0 buf start Nat.add]. rewrite Hr.
  f_equal. apply (take_app_length p (c :: q')).
Qed.

(* (1) a token of plain characters, followed by a delimiter, is returned as is:
   the symbols that are left are none *)
Theorem scan_octets_plain_value s tok d t r s2 :
  scat s = CUnq -> rest s = tok ++ d :: t -> plain tok ->
  is_delim d = true -> d < 128 -> d <> esc_char ->
  scan_octets s = Ok (r, s2) -> r = tok.
Proof.
  intros Hc Hr Hp Hd Hd128 Hde H. destruct (sym_at_delim d t Hd Hd128 Hde) as [Sd Wd].
  rewrite <- (app_nil_r tok).
  apply (scan_octets_value s tok (d :: t) [] [] d t r s2 Hc Hr Hp); [|eapply TkEndU; eauto|reflexivity|exact H].
  exists d, t. split; [reflexivity|exact (delim_not_plain d Hd Hd128)].
Qed.

Example scan_octets_plain_value_ex :
  scan_octets (mkS [0; 9; 9; 97; 98; 99; 32; 100; 10] 3 CUnq true 0) = Ok ([97; 98; 99], mkS [32; 100; 10] 1 CUnq true 0)
  /\ plain [97; 98; 99].
Proof. split; [vm_compute; reflexivity|]. repeat constructor. Qed.

Example scan_octets_value_ex :
  scan_octets (mkS [0; 97; 92; 48; 54; 53; 92; 32; 98; 10] 1 CUnq false 0)
    = Ok ([97; 65; 32; 98], mkS [53; 92; 32; 98; 10] 5 CLF false 0)
  /\ Toks false [92; 48; 54; 53; 92; 32; 98; 10] [SDec 65; SSimple 32; SChar 98] [10]
  /\ octets_of [SDec 65; SSimple 32; SChar 98] [65; 32; 98].
Proof.
  split; [vm_compute; reflexivity|]. split; [|vm_compute; reflexivity].
  eapply TkStep; [vm_compute; reflexivity|vm_compute; reflexivity|].
  eapply TkStep; [vm_compute; reflexivity|vm_compute; reflexivity|].
  eapply TkStep; [vm_compute; reflexivity|vm_compute; reflexivity|].
  eapply TkEndU; [reflexivity|vm_compute; reflexivity|vm_compute; reflexivity].
Qed.

(* C07 proofs, part 1: tokenizer layer (SourceBuf).  Position invariant,
   totality of next_item and of the symbol readers, reachability of the
   assertions, progress of the item loop. *)
From Coq Require Import NArith List Bool Arith Lia.
From DV Require Import Base.Outcome Base.Bytes C07.Gen C07.Model.
Import ListNotations.
Local Open Scope N_scope.

(* the octets next_item treats specially *)
Definition is_delim (b : N) : bool :=
  memN b ni_space || (b =? ni_cr_dead) || (b =? ni_open) || (b =? ni_close) ||
  (b =? ni_comment) || (b =? ni_newline) || (b =? ni_quote).

Definition upto (n : nat) : list N := map N.of_nat (seq 0 n).

Lemma upto_in b n : (N.to_nat b < n)%nat -> In b (upto n).
Proof.
  intros H. unfold upto. apply in_map_iff. exists (N.to_nat b). split; [lia|].
  apply in_seq. lia.
Qed.

(* next_item and Symbol::is_word_char agree on which ASCII octets end a word *)
Lemma delims_agree_tbl :
  forallb (fun b => Bool.eqb (is_word_char (SChar b)) (negb (is_delim b))) (upto 128) = true.
Proof. vm_compute. reflexivity. Qed.

Lemma delims_agree b : b < 128 -> is_word_char (SChar b) = negb (is_delim b).
Proof.
  intros H. pose proof delims_agree_tbl as T. rewrite forallb_forall in T.
  specialize (T b (upto_in b 128 ltac:(lia))). apply Bool.eqb_prop in T. exact T.
Qed.

Lemma word_excluded_ascii : forallb (fun x => x <? 128) word_excluded = true.
Proof. vm_compute. reflexivity. Qed.

Lemma nonword_ascii c : is_word_char (SChar c) = false -> c < 128.
Proof.
  cbn [is_word_char]. intros H. apply negb_false_iff in H.
  unfold memN in H. apply existsb_exists in H as (x & Hin & Hx). apply N.eqb_eq in Hx. subst x.
  pose proof word_excluded_ascii as T. rewrite forallb_forall in T. apply T in Hin. lia.
Qed.

(* the fast path next_ascii_symbol only ever accepts plain word characters *)
Definition asc_unq_ok (ch : N) : bool :=
  negb ((ch <? asc_lo) || (asc_hi <? ch) || memN ch asc_unq_excluded).
Definition asc_q_ok (ch : N) : bool :=
  negb (ch =? asc_q_end) && negb ((ch <? asc_lo) || (asc_hi <? ch) || memN ch asc_q_excluded).

Lemma asc_unq_tbl :
  forallb (fun b => implb (asc_unq_ok b) (is_word_char (SChar b) && negb (b =? esc_char))) (upto 128) = true.
Proof. vm_compute. reflexivity. Qed.

Lemma asc_q_tbl :
  forallb (fun b => implb (asc_q_ok b)
     ((b <? 128) && negb (b =? 34) && negb (b =? esc_char))) (upto 256) = true.
Proof. vm_compute. reflexivity. Qed.

Lemma asc_unq_ok_spec b : asc_unq_ok b = true ->
  b < 128 /\ is_word_char (SChar b) = true /\ b <> esc_char.
Proof.
  intros H. assert (Hb : b < 128).
  { unfold asc_unq_ok in H. change asc_hi with 127 in H. destruct (127 <? b) eqn:E; [|lia].
    rewrite orb_true_r in H. discriminate. }
  pose proof asc_unq_tbl as T. rewrite forallb_forall in T.
  specialize (T b (upto_in b 128 ltac:(lia))). rewrite H in T. cbn [implb] in T.
  apply andb_true_iff in T as [T2 T3]. apply negb_true_iff in T3. repeat split; [exact Hb | exact T2 | lia].
Qed.

(* mnemonic numbers the schema of the model relies on *)
Lemma schema_mnemonics :
  map (from_mnemonic rtype_table)
    [[65]; [78;83]; [67;78;65;77;69]; [83;79;65]; [80;84;82]; [72;73;78;70;79]; [77;88];
     [84;88;84]; [83;82;86]; [78;65;80;84;82]]
  = map Some [1; 2; 5; 6; 12; 13; 15; 16; 33; 35]
  /\ from_mnemonic class_table [73;78] = Some 1.
Proof. vm_compute. split; reflexivity. Qed.

Lemma mkchar_ok v m n s k : mkchar v m n = SymOk s k -> k = n /\ s = SChar v /\ m <= v.
Proof.
  unfold mkchar. destruct (v <? m) eqn:E; [discriminate|].
  destruct (char_ok v); [|discriminate]. intros H. injection H as <- <-.
  repeat split. lia.
Qed.

(* a symbol occupies the first n octets, and these alone decide it *)
Lemma sym_at_prefix l s n : sym_at l = SymOk s n ->
  (1 <= n <= length l)%nat /\ forall r, sym_at (firstn n l ++ r) = SymOk s n.
Proof.
  unfold sym_at. destruct l as [|c1 t]; [discriminate|].
  destruct (c1 =? esc_char) eqn:E1.
  - destruct t as [|c2 t2]; [discriminate|].
    destruct (is_ascii_control c2) eqn:E2; [discriminate|].
    destruct (negb (is_digit c2)) eqn:E3.
    { intros H; injection H as <- <-. cbn [length firstn app]. rewrite E1, E2, E3. split; [lia|reflexivity]. }
    destruct t2 as [|c3 t3]; [discriminate|].
    destruct (is_digit c3) eqn:E4; [|discriminate].
    destruct t3 as [|c4 t4]; [discriminate|].
    destruct (is_digit c4) eqn:E5; [|discriminate].
    match goal with |- context [if ?b then _ else _] => destruct b eqn:E6 end; [|discriminate].
    intros H; injection H as <- <-. cbn [length firstn app]. rewrite E1, E2, E3, E4, E5, E6. split; [lia|reflexivity].
  - destruct (c1 <? ascii_bound) eqn:E2.
    { intros H; injection H as <- <-. cbn [length firstn app]. rewrite E1, E2. split; [lia|reflexivity]. }
    destruct (N.land c1 64 =? 0) eqn:E3; [discriminate|].
    destruct t as [|c2 t2]; [discriminate|].
    destruct (negb (cont c2)) eqn:E4; [discriminate|].
    destruct (N.land c1 32 =? 0) eqn:E5.
    { intros H. pose proof (mkchar_ok _ _ _ _ _ H) as (-> & _ & _).
      cbn [length firstn app]. rewrite E1, E2, E3, E4, E5. split; [lia|intros r; exact H]. }
    destruct t2 as [|c3 t3]; [discriminate|].
    destruct (negb (cont c3)) eqn:E6; [discriminate|].
    destruct (N.land c1 16 =? 0) eqn:E7.
    { intros H. pose proof (mkchar_ok _ _ _ _ _ H) as (-> & _ & _).
      cbn [length firstn app]. rewrite E1, E2, E3, E4, E5, E6, E7. split; [lia|intros r; exact H]. }
    destruct t3 as [|c4 t4]; [discriminate|].
    destruct (negb (cont c4)) eqn:E8; [discriminate|].
    intros H. pose proof (mkchar_ok _ _ _ _ _ H) as (-> & _ & _).
    cbn [length firstn app]. rewrite E1, E2, E3, E4, E5, E6, E7, E8. split; [lia|intros r; exact H].
Qed.

Lemma sym_at_len l s n : sym_at l = SymOk s n -> (1 <= n <= length l)%nat.
Proof. intros H. exact (proj1 (sym_at_prefix l s n H)). Qed.

Lemma ascii_bound_val : ascii_bound = 128. Proof. reflexivity. Qed.

(* `\DDD`: a decimal escape exactly when the value fits an octet *)
Lemma digit_char x : x < 10 -> is_digit (48 + x) = true /\ is_ascii_control (48 + x) = false /\ 48 + x - 48 = x.
Proof. intros H. unfold is_digit, is_ascii_control. repeat split; lia. Qed.

Lemma sym_at_decimal a b c t : a < 10 -> b < 10 -> c < 10 ->
  sym_at (esc_char :: 48 + a :: 48 + b :: 48 + c :: t) =
  (let v := a * 100 + b * 10 + c in if v <=? 255 then SymOk (SDec v) 4 else SymErr).
Proof.
  intros Ha Hb Hc. destruct (digit_char a Ha) as (A1 & A2 & A3), (digit_char b Hb) as (B1 & _ & B3),
    (digit_char c Hc) as (C1 & _ & C3).
  unfold sym_at. rewrite N.eqb_refl, A2, A1, B1, C1, A3, B3, C3. reflexivity.
Qed.

Lemma land_ones_lt c k : N.land c (N.ones k) < 2 ^ k.
Proof. rewrite N.land_ones. apply N.mod_lt, N.pow_nonzero. discriminate. Qed.

Lemma lor_lt_pow2 a b n : 0 < n -> a < 2 ^ n -> b < 2 ^ n -> N.lor a b < 2 ^ n.
Proof.
  intros Hn Ha Hb. destruct (N.eq_dec (N.lor a b) 0) as [E|E]; [rewrite E; lia|].
  apply N.log2_lt_pow2; [lia|]. rewrite N.log2_lor. apply N.max_lub_lt.
  - destruct (N.eq_dec a 0) as [->|Ea]; [cbn; exact Hn|apply N.log2_lt_pow2; [lia|exact Ha]].
  - destruct (N.eq_dec b 0) as [->|Eb]; [cbn; exact Hn|apply N.log2_lt_pow2; [lia|exact Hb]].
Qed.

(* a character is one ASCII octet, or decoded from 2, 3 or 4 octets: then it
   is not below the minimum of that length, and fits the bits the length holds *)
Lemma sym_at_char l c n : sym_at l = SymOk (SChar c) n ->
  (n = 1%nat /\ c < ascii_bound /\ exists t, l = c :: t) \/ (n = 2%nat /\ utf8_min2 <= c < 2048) \/
  (n = 3%nat /\ utf8_min3 <= c < 65536) \/ (n = 4%nat /\ utf8_min4 <= c).
Proof.
  pose proof (land_ones_lt) as L. unfold sym_at. destruct l as [|c1 t]; [discriminate|].
  destruct (c1 =? esc_char).
  - destruct t as [|c2 t2]; [discriminate|].
    destruct (is_ascii_control c2); [discriminate|].
    destruct (negb (is_digit c2)); [discriminate|].
    destruct t2 as [|c3 t3]; [discriminate|]. destruct (is_digit c3); [|discriminate].
    destruct t3 as [|c4 t4]; [discriminate|]. destruct (is_digit c4); [|discriminate].
    match goal with |- context [if ?b then _ else _] => destruct b end; discriminate.
  - destruct (c1 <? ascii_bound) eqn:Ea.
    { intros H; injection H as <- <-. left. apply N.ltb_lt in Ea. eauto. }
    destruct (N.land c1 64 =? 0); [discriminate|].
    destruct t as [|c2 t2]; [discriminate|].
    destruct (negb (cont c2)); [discriminate|].
    destruct (N.land c1 32 =? 0).
    { intros H. apply mkchar_ok in H as (-> & Hc & Hm). injection Hc as ->. right; left.
      split; [reflexivity|]. split; [exact Hm|]. change 2048 with (2 ^ 11). apply lor_lt_pow2; [lia| |].
      - pose proof (L c2 6). change (N.ones 6) with 63 in *. change (2 ^ 6) with 64 in *. change (2 ^ 11) with 2048. lia.
      - rewrite N.shiftl_mul_pow2. pose proof (L c1 5). change (N.ones 5) with 31 in *.
        change (2 ^ 5) with 32 in *. change (2 ^ 6) with 64. change (2 ^ 11) with 2048. lia. }
    destruct t2 as [|c3 t3]; [discriminate|].
    destruct (negb (cont c3)); [discriminate|].
    destruct (N.land c1 16 =? 0) eqn:E16.
    { intros H. apply mkchar_ok in H as (-> & Hc & Hm). injection Hc as ->. right; right; left.
      split; [reflexivity|]. split; [exact Hm|].
      (* bit 4 of the first octet is clear: four bits of it are used *)
      assert (B16 : N.land c1 31 < 16).
      { apply N.eqb_eq in E16. change 31 with (N.lor 15 16). rewrite N.land_lor_distr_r, E16, N.lor_0_r. apply (L c1 4). }
      change 65536 with (2 ^ 16). apply lor_lt_pow2; [lia| |].
      - pose proof (L c3 6). change (N.ones 6) with 63 in *. change (2 ^ 6) with 64 in *. change (2 ^ 16) with 65536. lia.
      - apply lor_lt_pow2; [lia| |]; rewrite N.shiftl_mul_pow2.
        + pose proof (L c2 6). change (N.ones 6) with 63 in *. change (2 ^ 6) with 64 in *. change (2 ^ 16) with 65536. lia.
        + change (2 ^ 12) with 4096. change (2 ^ 16) with 65536. lia. }
    destruct t3 as [|c4 t4]; [discriminate|].
    destruct (negb (cont c4)); [discriminate|].
    intros H. apply mkchar_ok in H as (-> & Hc & Hm). injection Hc as ->. right; right; right. auto.
Qed.

(* With over-long encodings rejected, a symbol that ends a word is a single raw
   ASCII octet: exactly the octets next_item skips or dispatches on. *)
Lemma nonword_is_raw_delim l s n :
  overlong_rejected = true ->
  sym_at l = SymOk s n -> is_word_char s = false ->
  exists c t, l = c :: t /\ n = 1%nat /\ s = SChar c /\ is_delim c = true.
Proof.
  intros Hov Hs Hw. unfold overlong_rejected in Hov.
  apply andb_true_iff in Hov as [Hov H4]. apply andb_true_iff in Hov as [H2 H3].
  apply N.leb_le in H2, H3, H4.
  destruct s as [c|b|b]; try discriminate Hw.
  destruct (sym_at_char _ _ _ Hs) as [(-> & Ha & t & ->) | [(_ & Hv & _) | [(_ & Hv & _) | (_ & Hv)]]];
    try (apply nonword_ascii in Hw; lia).
  exists c, t. repeat split. rewrite ascii_bound_val in Ha. rewrite delims_agree in Hw by lia.
  apply negb_false_iff in Hw. exact Hw.
Qed.

(* a delimiter octet in front: the symbol there is that octet, not a word char *)
Lemma sym_at_delim d t : is_delim d = true -> d < 128 -> d <> esc_char ->
  sym_at (d :: t) = SymOk (SChar d) 1 /\ is_word_char (SChar d) = false.
Proof.
  intros Hd H1 H2. split.
  - unfold sym_at. assert (Q : (d =? esc_char) = false) by (apply N.eqb_neq; exact H2). rewrite Q.
    assert (Q2 : (d <? ascii_bound) = true) by (rewrite ascii_bound_val; apply N.ltb_lt; exact H1).
    rewrite Q2. reflexivity.
  - rewrite delims_agree by exact H1. rewrite Hd. reflexivity.
Qed.

(* ... and without the check the statement is false: C0 A0 decodes to a space *)
Lemma nonword_is_raw_delim_refuted :
  overlong_rejected = false ->
  exists l s n, sym_at l = SymOk s n /\ is_word_char s = false /\ n <> 1%nat.
Proof.
  intros H. exists [192; 160], (SChar 32), 2%nat.
  revert H. vm_compute. intros H. first [discriminate H | (repeat split; congruence)].
Qed.

Definition Inv (s : sbuf) : Prop := (start s <= length (buf s))%nat.

Lemma ni_loop_bounds l : forall incom p h n n' c p' h',
  ni_loop l incom p h n = NiOk n' c p' h' -> (n <= n' <= n + length l)%nat.
Proof.
  induction l as [|ch t IH]; intros incom p h n n' c p' h'; cbn [ni_loop length].
  - intros H; injection H as <- _ _ _. lia.
  - repeat match goal with
    | |- (if ?b then _ else _) = _ -> _ => destruct b
    | |- match ?p with O => _ | S _ => _ end = _ -> _ => destruct p
    end; try discriminate;
    try (intros H; apply IH in H; lia);
    try (intros H; injection H as <- _ _ _; lia).
Qed.

Lemma rest_length s : length (rest s) = (length (buf s) - start s)%nat.
Proof. apply skipn_length. Qed.

Lemma rest_advance s n : rest (advance s n) = skipn n (rest s).
Proof. unfold rest. cbn [advance buf start]. rewrite skipn_add. reflexivity. Qed.

Lemma rest_shrinks s s' : Inv s' -> buf s' = buf s -> (start s < start s')%nat ->
  (length (rest s') < length (rest s))%nat.
Proof. unfold Inv, rest. intros HI Hb Hlt. rewrite !skipn_length, <- Hb. lia. Qed.

(* next_item: returns a state or `unbalanced parens`; the assertion fires
   exactly when the current token was not read to its end *)
Lemma next_item_total s : Inv s -> is_token (scat s) = false ->
  (exists s', next_item s = Ok s' /\ Inv s' /\ (start s <= start s')%nat /\ buf s' = buf s)
  \/ next_item s = Err 4.
Proof.
  intros HI Hc. unfold next_item. rewrite Hc.
  destruct (ni_loop (rest s) false (par s) false 0) as [|n c p h] eqn:E; [right; reflexivity|].
  left. eexists. split; [reflexivity|]. apply ni_loop_bounds in E.
  rewrite rest_length in E. unfold Inv in *. cbn [start buf]. repeat split; lia.
Qed.

Lemma next_item_panics_iff s : (exists p, next_item s = Panic p) <-> is_token (scat s) = true.
Proof.
  unfold next_item. destruct (is_token (scat s)).
  - split; [reflexivity | intros _; eexists; reflexivity].
  - split; [|discriminate]. intros [p H].
    destruct (ni_loop (rest s) false (par s) false 0); discriminate.
Qed.

Lemma next_item_cat s s' : next_item s = Ok s' -> True.
Proof. trivial. Qed.

(* a delimiter octet at the read position is consumed *)
Lemma ni_loop_delim_progress c t p h n n' c' p' h' :
  is_delim c = true -> ni_loop (c :: t) false p h n = NiOk n' c' p' h' -> (S n <= n')%nat.
Proof.
  unfold is_delim. cbn [ni_loop andb].
  destruct (memN c ni_space). { intros _ H. apply ni_loop_bounds in H. lia. }
  destruct (c =? ni_cr_dead). { intros _ H. apply ni_loop_bounds in H. lia. }
  destruct (c =? ni_open). { intros _ H. apply ni_loop_bounds in H. lia. }
  destruct (c =? ni_close). { intros _. destruct p; [discriminate|]. intros H. apply ni_loop_bounds in H. lia. }
  destruct (c =? ni_comment). { intros _ H. apply ni_loop_bounds in H. lia. }
  destruct (c =? ni_newline).
  { intros _. destruct (Nat.eqb p 0).
    - intros H; injection H as <- _ _ _. lia.
    - intros H. apply ni_loop_bounds in H. lia. }
  destruct (c =? ni_quote). { intros _ H; injection H as <- _ _ _. lia. }
  cbn. discriminate.
Qed.

(* when next_item announces an unquoted token, the octet at the read position
   is not one of its delimiters *)
Lemma ni_loop_unq l : forall incom p h n n' p' h',
  ni_loop l incom p h n = NiOk n' CUnq p' h' ->
  exists c t, skipn (n' - n) l = c :: t /\ is_delim c = false.
Proof.
  induction l as [|ch t IH]; intros incom p h n n' p' h'; cbn [ni_loop].
  - discriminate.
  - assert (Step : forall i p0 h0, ni_loop t i p0 h0 (S n) = NiOk n' CUnq p' h' ->
        exists c t0, skipn (n' - n) (ch :: t) = c :: t0 /\ is_delim c = false).
    { intros i p0 h0 H. pose proof (ni_loop_bounds _ _ _ _ _ _ _ _ _ H) as B.
      apply IH in H as (c & t0 & Hs & Hd). exists c, t0. split; [|exact Hd].
      replace (n' - n)%nat with (S (n' - S n)) by lia. exact Hs. }
    destruct (incom && negb (ch =? ni_comment_end)). { apply Step. }
    unfold is_delim.
    destruct (memN ch ni_space) eqn:E1. { apply Step. }
    destruct (ch =? ni_cr_dead) eqn:E2. { apply Step. }
    destruct (ch =? ni_open) eqn:E3. { apply Step. }
    destruct (ch =? ni_close) eqn:E4. { destruct p; [discriminate|]. apply Step. }
    destruct (ch =? ni_comment) eqn:E5. { apply Step. }
    destruct (ch =? ni_newline) eqn:E6. { destruct (Nat.eqb p 0); [discriminate|]. apply Step. }
    destruct (ch =? ni_quote) eqn:E7. { discriminate. }
    intros H; injection H as <- _ _. exists ch, t. rewrite Nat.sub_diag. cbn [skipn].
    split; [reflexivity|]. rewrite E1, E2, E3, E4, E5, E6, E7. reflexivity.
Qed.

Lemma next_item_buf s s' : next_item s = Ok s' -> buf s' = buf s /\ (start s <= start s')%nat.
Proof.
  unfold next_item. destruct (is_token (scat s)); [discriminate|].
  destruct (ni_loop (rest s) false (par s) false 0); [discriminate|].
  intros H; injection H as <-. cbn [buf start]. split; [reflexivity|lia].
Qed.

Lemma ni_loop_lf_quo l : forall incom p h n n' c p' h',
  ni_loop l incom p h n = NiOk n' c p' h' -> c = CLF \/ c = CQuo -> (S n <= n')%nat.
Proof.
  induction l as [|ch t IH]; intros incom p h n n' c p' h'; cbn [ni_loop].
  - intros H [-> | ->]; discriminate.
  - repeat match goal with
    | |- (if ?b then _ else _) = _ -> _ => destruct b
    | |- match ?p with O => _ | S _ => _ end = _ -> _ => destruct p
    end; try discriminate;
    try (intros H Hc; pose proof (ni_loop_bounds _ _ _ _ _ _ _ _ _ H); lia);
    try (intros H Hc; injection H as <- <- _ _; lia).
    intros H [Hc | Hc]; injection H as _ <- _ _; discriminate.
Qed.

Lemma next_item_ok s s' : Inv s -> next_item s = Ok s' ->
  Inv s' /\ buf s' = buf s /\ (start s <= start s')%nat /\
  (scat s' = CLF \/ scat s' = CQuo -> (start s < start s')%nat) /\
  (scat s' = CUnq -> exists c t, rest s' = c :: t /\ is_delim c = false) /\
  (forall d t, rest s = d :: t -> is_delim d = true -> (start s < start s')%nat).
Proof.
  intros HI. unfold next_item. destruct (is_token (scat s)); [discriminate|].
  destruct (ni_loop (rest s) false (par s) false 0) as [|n c p h] eqn:En; [discriminate|].
  intros H; injection H as <-. pose proof (ni_loop_bounds _ _ _ _ _ _ _ _ _ En) as B.
  rewrite (rest_length s) in B. unfold Inv in *. cbn [buf start scat].
  split; [lia|]. split; [reflexivity|]. split; [lia|]. split; [|split].
  - intros Hc. pose proof (ni_loop_lf_quo _ _ _ _ _ _ _ _ _ En Hc). lia.
  - intros ->. destruct (ni_loop_unq _ _ _ _ _ _ _ _ En) as (c & t & Hs & Hd).
    exists c, t. split; [|exact Hd]. unfold rest in *. cbn [buf start].
    rewrite Nat.sub_0_r in Hs. rewrite <- skipn_add. exact Hs.
  - intros d t Hr Hd. rewrite Hr in En. pose proof (ni_loop_delim_progress _ _ _ _ _ _ _ _ _ Hd En). lia.
Qed.

Lemma advance_inv s n : Inv s -> (n <= length (rest s))%nat -> Inv (advance s n).
Proof. unfold Inv. intros HI Hn. rewrite rest_length in Hn. cbn [advance start buf]. lia. Qed.

(* the outcomes of _next_symbol, each with its result state *)
Lemma next_symbol_gen_some want s sym s' : next_symbol_gen want s = Ok (Some sym, s') ->
  is_token (scat s) = true /\ (exists n, sym_at (rest s) = SymOk sym n /\ s' = advance s n) /\
  (scat s = CUnq -> is_word_char sym = true) /\ (scat s = CQuo -> sym_eqb sym (SChar 34) = false).
Proof.
  unfold next_symbol_gen. destruct (scat s); try discriminate;
  destruct (sym_at (rest s)) as [| |sy n]; try discriminate.
  - destruct (is_word_char sy) eqn:Ew; [|discriminate]. cbn [negb]. destruct (want sy); [|discriminate].
    intros H; injection H as <- <-. split; [reflexivity|]. split; [eauto|]. split; [intros _; exact Ew|discriminate].
  - destruct (want sy); [|discriminate]. destruct (sym_eqb sy (SChar 34)) eqn:Eq; [discriminate|].
    intros H; injection H as <- <-. split; [reflexivity|]. split; [eauto|]. split; [discriminate|intros _; exact Eq].
Qed.

Lemma next_symbol_gen_none want s s' : next_symbol_gen want s = Ok (None, s') ->
  (s' = s /\ (is_token (scat s) = true -> exists sym n, sym_at (rest s) = SymOk sym n /\ want sym = false)) \/
  (scat s = CUnq /\ s' = set_cat s CNone /\
   exists sym n, sym_at (rest s) = SymOk sym n /\ is_word_char sym = false) \/
  (scat s = CQuo /\ exists sym n, sym_at (rest s) = SymOk sym n /\ sym_eqb sym (SChar 34) = true /\
   s' = set_cat (advance s n) CNone).
Proof.
  unfold next_symbol_gen. destruct (scat s).
  - intros H; injection H as <-. left. split; [reflexivity|discriminate].
  - destruct (sym_at (rest s)) as [| |sym n]; try discriminate.
    destruct (is_word_char sym) eqn:Ew; cbn [negb].
    + destruct (want sym) eqn:Ea; [discriminate|]. intros H; injection H as <-. left. eauto.
    + intros H; injection H as <-. right; left. eauto 6.
  - destruct (sym_at (rest s)) as [| |sym n]; try discriminate.
    destruct (want sym) eqn:Ea.
    + destruct (sym_eqb sym (SChar 34)) eqn:Eq; [|discriminate]. intros H; injection H as <-. right; right. eauto 7.
    + intros H; injection H as <-. left. eauto.
  - intros H; injection H as <-. left. split; [reflexivity|discriminate].
Qed.

Lemma next_symbol_gen_err want s e : next_symbol_gen want s = Err e ->
  is_token (scat s) = true /\
  ((sym_at (rest s) = SymEnd /\ e = 12) \/ (sym_at (rest s) = SymErr /\ e = 1)).
Proof.
  unfold next_symbol_gen. destruct (scat s); try discriminate;
  (destruct (sym_at (rest s)) as [| |sym n];
   [intros H; injection H as <-; auto | intros H; injection H as <-; auto |]).
  - destruct (negb (is_word_char sym)); [discriminate|]. destruct (want sym); discriminate.
  - destruct (want sym); [|discriminate]. destruct (sym_eqb sym (SChar 34)); discriminate.
Qed.

Lemma next_symbol_gen_inv want s r s' :
  Inv s -> next_symbol_gen want s = Ok (r, s') ->
  Inv s' /\ buf s' = buf s /\ (start s <= start s')%nat /\
  (r <> None -> (start s < start s')%nat /\ is_token (scat s') = true) /\
  (is_token (scat s) = false -> s' = s).
Proof.
  intros HI E.
  assert (Adv : forall sym n, sym_at (rest s) = SymOk sym n -> (1 <= n)%nat /\ Inv (advance s n)).
  { intros sym n Es. pose proof (sym_at_len _ _ _ Es). split; [|apply advance_inv]; [lia|exact HI|lia]. }
  destruct r as [sym|].
  - destruct (next_symbol_gen_some _ _ _ _ E) as (Ht & (n & Es & ->) & _). destruct (Adv _ _ Es) as [L A].
    cbn [advance buf start scat]. repeat split; auto; first [lia | congruence].
  - destruct (next_symbol_gen_none _ _ _ E) as [(-> & _) | [(Ec & -> & _) | (Ec & sym & n & Es & _ & ->)]].
    + repeat split; auto; congruence.
    + rewrite Ec. cbn [is_token]. repeat split; auto; try congruence; discriminate.
    + destruct (Adv _ _ Es) as [L A]. rewrite Ec. cbn [set_cat advance buf start].
      cbn [is_token]. repeat split; auto; try lia; try congruence; discriminate.
Qed.

(* an unquoted token ends in front of a delimiter octet, a quoted one behind
   its closing quote *)
Lemma next_symbol_end s s' : overlong_rejected = true -> is_token (scat s) = true ->
  next_symbol s = Ok (None, s') ->
  (scat s = CUnq /\ s' = set_cat s CNone /\ exists d t, rest s = d :: t /\ is_delim d = true) \/
  (scat s = CQuo /\ exists n, (1 <= n <= length (rest s))%nat /\ s' = set_cat (advance s n) CNone).
Proof.
  intros Hov Ht E.
  destruct (next_symbol_gen_none _ _ _ E) as [(_ & Hu) | [(Ec & -> & sym & n & Es & Ew) | (Ec & sym & n & Es & _ & ->)]].
  - destruct (Hu Ht) as (sym & n & _ & X). discriminate X.
  - destruct (nonword_is_raw_delim _ _ _ Hov Es Ew) as (d & t & Hl & _ & _ & Hd). left. eauto 6.
  - right. split; [exact Ec|]. exists n. split; [exact (sym_at_len _ _ _ Es)|reflexivity].
Qed.

(* the symbol readers never panic and never run a loop *)
Lemma next_symbol_gen_no_panic want s : no_panic (next_symbol_gen want s).
Proof.
  unfold next_symbol_gen. destruct (scat s); cbn; auto;
  destruct (sym_at (rest s)); cbn; auto;
  repeat match goal with |- context [if ?b then _ else _] => destruct b end; cbn; auto.
Qed.

Lemma next_ascii_symbol_some s ch s' : next_ascii_symbol s = (Some ch, s') ->
  is_token (scat s) = true /\ s' = advance s 1 /\ (1 <= length (rest s))%nat.
Proof.
  unfold next_ascii_symbol. destruct (scat s); try discriminate;
  destruct (rest s) as [|c t]; try discriminate.
  - destruct ((c <? asc_lo) || (asc_hi <? c) || memN c asc_unq_excluded); [discriminate|].
    intros H; injection H as _ <-. cbn [length]. repeat split; lia.
  - destruct (c =? asc_q_end); [discriminate|].
    destruct ((c <? asc_lo) || (asc_hi <? c) || memN c asc_q_excluded); [discriminate|].
    intros H; injection H as _ <-. cbn [length]. repeat split; lia.
Qed.

Lemma next_ascii_symbol_none s s' : next_ascii_symbol s = (None, s') ->
  s' = s \/ (scat s = CQuo /\ s' = set_cat (advance s 1) CNone /\ (1 <= length (rest s))%nat).
Proof.
  unfold next_ascii_symbol. destruct (scat s); try (intros H; injection H as <-; left; reflexivity);
  destruct (rest s) as [|c t]; try (intros H; injection H as <-; left; reflexivity).
  - destruct ((c <? asc_lo) || (asc_hi <? c) || memN c asc_unq_excluded); [|discriminate].
    intros H; injection H as <-; left; reflexivity.
  - destruct (c =? asc_q_end).
    { intros H; injection H as <-. right. cbn [length]. repeat split; lia. }
    destruct ((c <? asc_lo) || (asc_hi <? c) || memN c asc_q_excluded); [|discriminate].
    intros H; injection H as <-; left; reflexivity.
Qed.

Lemma next_ascii_symbol_inv s r s' :
  Inv s -> next_ascii_symbol s = (r, s') ->
  Inv s' /\ buf s' = buf s /\ (start s <= start s')%nat /\
  (r <> None -> start s' = S (start s) /\ scat s' = scat s).
Proof.
  intros HI E. destruct r as [ch|].
  - destruct (next_ascii_symbol_some _ _ _ E) as (_ & -> & L).
    split; [exact (advance_inv s 1 HI L)|]. cbn [advance buf start scat]. repeat split; auto; lia.
  - destruct (next_ascii_symbol_none _ _ E) as [-> | (_ & -> & L)].
    + repeat split; auto; congruence.
    + split; [exact (advance_inv s 1 HI L)|]. cbn [set_cat advance buf start]. repeat split; auto; try lia; congruence.
Qed.

Lemma split_to_spec s a :
  Inv s ->
  if Nat.leb a (start s)
  then exists r s', split_to s a = Ok (r, s') /\ Inv s' /\ length r = a /\ start s' = (start s - a)%nat
  else split_to s a = Panic 2.
Proof.
  intros HI. unfold split_to. destruct (Nat.leb a (start s)) eqn:E; [|reflexivity].
  apply Nat.leb_le in E. eexists _, _. split; [reflexivity|]. unfold Inv in *.
  cbn [buf start]. rewrite skipn_length, firstn_length. repeat split; lia.
Qed.

Lemma trim_to_spec s a :
  Inv s ->
  if Nat.leb a (start s)
  then exists s', trim_to s a = Ok s' /\ Inv s' /\ start s' = (start s - a)%nat /\
                  rest s' = rest s /\ scat s' = scat s /\ par s' = par s /\ hsp s' = hsp s
  else trim_to s a = Panic 3.
Proof.
  intros HI. unfold trim_to. destruct (Nat.leb a (start s)) eqn:E; [|reflexivity].
  apply Nat.leb_le in E. eexists. split; [reflexivity|]. unfold Inv in *.
  cbn [buf start scat par hsp]. rewrite skipn_length. repeat split; try lia.
  unfold rest. cbn [buf start]. rewrite skipn_add. f_equal. lia.
Qed.

Lemma set_byte_length l : forall i v l', set_byte l i v = Some l' -> length l' = length l.
Proof.
  induction l as [|x t IH]; intros [|j] v l'; cbn [set_byte]; try discriminate.
  - intros H; injection H as <-. reflexivity.
  - destruct (set_byte t j v) eqn:E; [|discriminate]. intros H; injection H as <-.
    cbn [length]. f_equal. eapply IH; eauto.
Qed.

Lemma set_byte_some l : forall i v, (i < length l)%nat -> exists l', set_byte l i v = Some l'.
Proof.
  induction l as [|x t IH]; intros [|j] v; cbn [set_byte length]; try lia; eauto.
  intros H. destruct (IH j v ltac:(lia)) as [l' ->]. eauto.
Qed.

Lemma set_byte_skipn l : forall i v l' k, set_byte l i v = Some l' -> (i < k)%nat -> skipn k l' = skipn k l.
Proof.
  induction l as [|x t IH]; intros [|j] v l' k; cbn [set_byte]; try discriminate.
  - intros H Hk; injection H as <-. destruct k; [lia|]. reflexivity.
  - destruct (set_byte t j v) eqn:E; [|discriminate]. intros H Hk; injection H as <-.
    destruct k; [lia|]. cbn [skipn]. eapply IH; eauto. lia.
Qed.

(* an in-place write behind the read position never changes what is still to
   be read, and panics exactly when it is out of range *)
Lemma store_spec s i v :
  Inv s ->
  if Nat.ltb i (length (buf s))
  then exists s', store s i v = Ok s' /\ Inv s' /\ start s' = start s /\ scat s' = scat s /\
                  length (buf s') = length (buf s) /\ ((i < start s)%nat -> rest s' = rest s)
  else store s i v = Panic 5.
Proof.
  intros HI. unfold store. destruct (Nat.ltb i (length (buf s))) eqn:E.
  - apply Nat.ltb_lt in E. destruct (set_byte_some _ i v E) as [l' Hl]. rewrite Hl.
    eexists. split; [reflexivity|]. pose proof (set_byte_length _ _ _ _ Hl) as L.
    unfold Inv in *. cbn [with_buf buf start scat]. repeat split; try lia.
    intros Hi. unfold rest. cbn [with_buf buf start]. eapply set_byte_skipn; eauto.
  - apply Nat.ltb_ge in E. destruct (set_byte (buf s) i v) eqn:Hs; [|reflexivity].
    exfalso. clear -Hs E. revert i l Hs E. generalize (buf s). intros l0.
    induction l0 as [|x t IH]; intros [|j] l'; cbn [set_byte length]; try discriminate; try lia.
    destruct (set_byte t j v) eqn:E2; [|discriminate]. intros _ H. eapply IH; eauto. lia.
Qed.

(* syms_loop: reading all symbols of a token needs at most one unit of fuel per
   remaining octet *)
Lemma syms_loop_total : forall fuel s acc,
  Inv s -> (length (rest s) < fuel)%nat ->
  match syms_loop fuel s acc with
  | Ok (_, s') => Inv s' /\ is_token (scat s') = false /\ (start s <= start s')%nat /\ buf s' = buf s
                  /\ (is_token (scat s) = true -> scat s' = CNone)
  | Err _ => True
  | _ => False
  end.
Proof.
  induction fuel as [|f IH]; intros s acc HI Hf; [lia|].
  cbn [syms_loop]. unfold next_symbol.
  pose proof (next_symbol_gen_no_panic (fun _ => true) s) as NP.
  destruct (next_symbol_gen (fun _ => true) s) as [[r s']| | |] eqn:E; cbn [bind]; auto.
  pose proof (next_symbol_gen_inv _ _ _ _ HI E) as (HI' & Hb & Hs & Hr & Hn).
  destruct r as [sym|].
  - destruct (Hr ltac:(discriminate)) as [Hlt Htok].
    pose proof (rest_shrinks s s' HI' Hb Hlt) as Hf'.
    specialize (IH s' (sym :: acc) HI' ltac:(lia)).
    destruct (syms_loop f s' (sym :: acc)) as [[x s'']| | |]; auto.
    destruct IH as (A & B & C & D & F). repeat split; auto; try lia; congruence.
  - assert (End : is_token (scat s) = true -> scat s' = CNone).
    { intros Ht. destruct (next_symbol_gen_none _ _ _ E) as [(_ & Hu) | [(_ & -> & _) | (_ & sym & n & _ & _ & ->)]];
        [|reflexivity|reflexivity]. destruct (Hu Ht) as (sym & n & _ & X). discriminate X. }
    repeat split; auto. destruct (is_token (scat s)) eqn:Ht; [rewrite End; reflexivity|].
    rewrite (Hn eq_refl). exact Ht.
Qed.

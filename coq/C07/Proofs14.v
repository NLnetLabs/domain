(* C07 proofs, part 14: value correctness of scan_octets for quoted tokens. *)
From Coq Require Import NArith List Bool Arith Lia.
From DV Require Import Base.Outcome Base.Bytes C07.Gen C07.Model C07.Proofs C07.Proofs5 C07.Proofs12.
Import ListNotations.
Local Open Scope N_scope.

Definition plain_q (tok : list N) : Prop := Forall (fun c => asc_q_ok c = true) tok.

(* inside quotes the fast loop walks over plain characters; it stops at the
   closing quote (consumed, category None) or at any other octet (not consumed) *)
Lemma ascii_loop_plain_q : forall tok fuel s cnt d t,
  plain_q tok -> scat s = CQuo -> rest s = tok ++ d :: t -> asc_q_ok d = false ->
  (length tok < fuel)%nat ->
  exists s', ascii_loop fuel s cnt = Ok (s', (cnt + length tok)%nat) /\ buf s' = buf s /\
    (if d =? asc_q_end
     then start s' = (start s + length tok + 1)%nat /\ scat s' = CNone
     else start s' = (start s + length tok)%nat /\ scat s' = CQuo).
Proof.
  induction tok as [|c tok IH]; intros fuel s cnt d t Hp Hc Hr Hd Hf.
  - destruct fuel as [|f]; [cbn in Hf; lia|]. cbn [ascii_loop]. unfold next_ascii_symbol. rewrite Hc.
    cbn [app] in Hr. rewrite Hr. unfold asc_q_ok in Hd.
    destruct (d =? asc_q_end) eqn:Eq.
    + eexists. split; [cbn [length]; rewrite Nat.add_0_r; reflexivity|].
      cbn [set_cat advance buf start scat length]. repeat split; auto; lia.
    + cbn [negb andb] in Hd. apply negb_false_iff in Hd. rewrite Hd.
      exists s. cbn [length]. rewrite !Nat.add_0_r. repeat split; auto.
  - destruct fuel as [|f]; [cbn in Hf; lia|]. cbn [ascii_loop]. unfold next_ascii_symbol. rewrite Hc.
    cbn [app] in Hr. rewrite Hr. inversion Hp as [|? ? Hc1 Hp1]; subst.
    unfold asc_q_ok in Hc1. apply andb_true_iff in Hc1 as [Hq1 Hc1].
    apply negb_true_iff in Hq1, Hc1. rewrite Hq1, Hc1.
    destruct (IH f (advance s 1) (S cnt) d t Hp1 Hc (rest_cons _ _ _ Hr) Hd ltac:(cbn in Hf; lia))
      as (s' & E & A & B).
    exists s'. cbn [length]. replace (cnt + S (length tok))%nat with (S cnt + length tok)%nat by lia.
    split; [exact E|]. cbn [advance buf start] in *. split; [exact A|].
    destruct (d =? asc_q_end); destruct B as [B1 B2]; split; auto; lia.
Qed.

(* a quoted string of plain characters comes back as exactly those characters *)
Theorem scan_octets_quoted_plain_value s tok t r s2 :
  scat s = CQuo -> rest s = tok ++ asc_q_end :: t -> plain_q tok ->
  scan_octets s = Ok (r, s2) -> r = tok.
Proof.
  intros Hc Hr Hp.
  assert (Hdn : asc_q_ok asc_q_end = false) by (vm_compute; reflexivity).
  unfold scan_octets, require_token. rewrite Hc. cbn [bind].
  unfold trim_to. rewrite Nat.leb_refl. cbn [bind]. rewrite Nat.sub_diag, Hc. fold (rest s).
  set (s0 := mkS (rest s) 0 CQuo (hsp s) (par s)).
  assert (Hf0 : (length tok < fuel_of s0)%nat).
  { unfold fuel_of, s0. cbn [buf]. rewrite Hr, app_length. cbn [length]. lia. }
  destruct (ascii_loop_plain_q tok (fuel_of s0) s0 0 asc_q_end t Hp eq_refl Hr Hdn Hf0) as (s1 & E1 & B1 & Q).
  rewrite N.eqb_refl in Q. destruct Q as [S1 C1].
  rewrite E1. cbn [bind fst snd]. rewrite C1, S1. cbn [s0 start Nat.add scat].
  replace (length tok + 1)%nat with (S (length tok)) by lia. cbn [bind].
  intros H. rewrite (finish_value _ _ _ _ H), B1. cbn [s0 buf]. rewrite Hr.
  apply (take_app_length tok (asc_q_end :: t)).
Qed.

Example scan_octets_quoted_plain_value_ex :
  scan_octets (mkS [0; 34; 97; 59; 98; 34; 10] 2 CQuo false 0) = Ok ([97; 59; 98], mkS [34; 10] 2 CLF false 0)
  /\ plain_q [97; 59; 98].
Proof. split; [vm_compute; reflexivity|]. repeat constructor. Qed.

(* a quoted string = plain prefix p, then symbols (the first octet of them is
   neither plain nor the closing quote) up to the closing quote *)
Theorem scan_octets_quoted_value s p q syms octs l' r s2 :
  scat s = CQuo -> rest s = p ++ q -> plain_q p ->
  (exists c q', q = c :: q' /\ asc_q_ok c = false /\ c <> asc_q_end) ->
  Toks true q syms l' -> octets_of syms octs ->
  scan_octets s = Ok (r, s2) -> r = p ++ octs.
Proof.
  intros Hc Hr Hp (c & q' & -> & Hcn & Hcq) HT Ho.
  unfold scan_octets, require_token. rewrite Hc. cbn [bind].
  unfold trim_to. rewrite Nat.leb_refl. cbn [bind]. rewrite Nat.sub_diag, Hc. fold (rest s).
  set (s0 := mkS (rest s) 0 CQuo (hsp s) (par s)).
  assert (Hf0 : (length p < fuel_of s0)%nat).
  { unfold fuel_of, s0. cbn [buf]. rewrite Hr, app_length. cbn [length]. lia. }
  destruct (ascii_loop_plain_q p (fuel_of s0) s0 0 c q' Hp eq_refl Hr Hcn Hf0) as (s1 & E1 & B1 & Q).
  assert (Eq : (c =? asc_q_end) = false) by (apply N.eqb_neq; exact Hcq). rewrite Eq in Q.
  destruct Q as [S1 C1]. rewrite E1. cbn [bind fst snd]. rewrite C1.
  assert (Rs : rest s1 = c :: q').
  { unfold rest. rewrite B1, S1. cbn [s0 buf start Nat.add]. rewrite Hr.
    rewrite skipn_app, skipn_all, Nat.sub_diag. reflexivity. }
  destruct (write_loop into_octet (fuel_of s1) s1 (start s1)) as [[s3 w3]| | |] eqn:Ew; cbn [bind]; try discriminate.
  destruct (write_loop_value_gen true _ _ _ HT octs _ _ _ _ _ Ho ltac:(rewrite C1; reflexivity)
              ltac:(rewrite C1; reflexivity) Rs (le_n _) Ew) as (A & B & _).
  cbn [fst snd]. intros H. rewrite (finish_value _ _ _ _ H), B, B1, S1. cbn [s0 buf start Nat.add]. rewrite Hr.
  f_equal. apply (take_app_length p (c :: q')).
Qed.

Example scan_octets_quoted_value_ex :
  scan_octets (mkS [0; 34; 97; 32; 92; 34; 98; 34; 10] 2 CQuo false 0)
    = Ok ([97; 32; 34; 98], mkS [98; 34; 10] 3 CLF false 0)
  /\ Toks true [32; 92; 34; 98; 34; 10] [SChar 32; SSimple 34; SChar 98] [10]
  /\ octets_of [SChar 32; SSimple 34; SChar 98] [32; 34; 98].
Proof.
  split; [vm_compute; reflexivity|]. split; [|vm_compute; reflexivity].
  eapply TkStep; [vm_compute; reflexivity|vm_compute; reflexivity|].
  eapply TkStep; [vm_compute; reflexivity|vm_compute; reflexivity|].
  eapply TkStep; [vm_compute; reflexivity|vm_compute; reflexivity|].
  eapply (TkEndQ true [34; 10] (SChar 34) 1); [reflexivity|vm_compute; reflexivity|vm_compute; reflexivity].
Qed.

(* C07 proofs, part 7: scan_string (the UTF-8 re-encoding never needs more room
   than the symbol occupied) and the entry layer: scan_entry keeps the protocol
   invariant, so reading a file never panics. *)
From Coq Require Import NArith List Bool Arith Lia.
From DV Require Import Base.Outcome C07.Gen C07.Model C07.Proofs C07.Proofs6.
Import ListNotations.
Local Open Scope N_scope.

Lemma land15 c : N.land c 15 < 16.
Proof. exact (land_ones_lt c 4). Qed.

Definition enc_len (c : N) : nat := length (encode_utf8 c).

Lemma enc_len_bound c : (c < 128 -> enc_len c = 1%nat) /\ (c < 2048 -> (enc_len c <= 2)%nat) /\
  (c < 65536 -> (enc_len c <= 3)%nat) /\ (enc_len c <= 4)%nat.
Proof.
  unfold enc_len, encode_utf8.
  destruct (c <? 128) eqn:E1; [cbn; repeat split; intros; lia|].
  destruct (c <? 2048) eqn:E2; [cbn; repeat split; intros; lia|].
  destruct (c <? 65536) eqn:E3; cbn; repeat split; intros; lia.
Qed.

(* re-encoding a decoded character needs at most the octets it was read from *)
Lemma sym_char_len l c n : sym_at l = SymOk (SChar c) n -> (enc_len c <= n)%nat.
Proof.
  intros H. destruct (enc_len_bound c) as (A & B & C & D).
  destruct (sym_at_char _ _ _ H) as [(-> & Ha & _) | [(-> & _ & Hv) | [(-> & _ & Hv) | (-> & _)]]]; auto.
  rewrite ascii_bound_val in Ha. rewrite (A Ha). lia.
Qed.

Lemma into_char_len l sym n c : sym_at l = SymOk sym n -> into_char sym = Some c -> (enc_len c <= n)%nat.
Proof.
  intros Hs Hc. destruct sym as [x|b|b]; cbn [into_char] in Hc.
  - injection Hc as <-. eapply sym_char_len; eauto.
  - destruct ((char_esc_lo <=? b) && (b <? char_esc_hi_excl)) eqn:E; [|discriminate]. injection Hc as <-.
    assert (Hb : b < 128).
    { apply andb_true_iff in E as [_ E]. apply N.ltb_lt in E.
      assert (char_esc_hi_excl <= 128) by (vm_compute; discriminate). lia. }
    destruct (enc_len_bound b) as (A & _). rewrite A by exact Hb. apply (sym_at_len _ _ _ Hs).
  - discriminate.
Qed.

(* the first pass of scan_string reads characters as long as they are
   unescaped: it stops inside the token or at its end, where a quoted token
   has lost its closing quote *)
Lemma char_loop_good : forall fuel s, Inv s -> is_token (scat s) = true -> (length (rest s) < fuel)%nat ->
  good (fun s' => InTok s' (start s') \/ (scat s = CQuo /\ scat s' = CNone /\ Inv s' /\ (1 <= start s')%nat))
       (char_loop fuel s).
Proof.
  induction fuel as [|f IH]; intros s HI Ht Hf; [lia|].
  cbn [char_loop]. unfold next_char_symbol.
  pose proof (next_symbol_gen_no_panic (fun sym => match sym with SChar _ => true | _ => false end) s) as NP.
  destruct (next_symbol_gen (fun sym => match sym with SChar _ => true | _ => false end) s) as [[[sym|] s1]| | |] eqn:E;
    cbn [bind good]; auto.
  - destruct (next_symbol_gen_inv _ _ _ _ HI E) as (HI1 & Hb & _ & Hr & _).
    destruct (Hr ltac:(discriminate)) as [Hlt Ht1]. pose proof (rest_shrinks s s1 HI1 Hb Hlt).
    destruct (next_symbol_gen_some _ _ _ _ E) as (_ & (n & _ & ->) & _).
    apply (IH (advance s n) HI1 Ht1). lia.
  - destruct (next_symbol_gen_none _ _ _ E) as [(-> & _) | [(_ & -> & sym & n & Es & Ew) | (Ec & sym & n & Es & _ & ->)]].
    + left. apply InTok_token; [exact HI|lia|exact Ht].
    + destruct (nonword_is_raw_delim _ _ _ guards_ov Es Ew) as (c & t & Hl & _ & _ & Hd).
      left. split; [exact HI|]. split; [cbn; lia|]. right. split; [exact HI|]. split; [reflexivity|].
      right. split; [cbn; lia|]. exists c, t. split; [exact Hl|exact Hd].
    + pose proof (sym_at_len _ _ _ Es) as L. right. split; [exact Ec|]. split; [reflexivity|].
      split; [exact (advance_inv s n HI ltac:(lia))|]. cbn [set_cat advance start]. lia.
Qed.

Lemma string_loop_good : forall fuel s w, InTok s w -> (length (rest s) < fuel)%nat ->
  good (fun sw => TEnd (fst sw) (snd sw)) (string_loop fuel s w).
Proof.
  induction fuel as [|f IH]; intros s w HT Hf; [lia|].
  cbn [string_loop].
  eapply good_bind; [apply (next_symbol_InTok s w HT)|].
  intros [[sym|] s1] E (Hb & H); cbn [fst snd] in Hb, H.
  - destruct H as (HI1 & Ht1 & Hlt & Hsh). destruct HT as (_ & Hw & _).
    destruct (next_symbol_gen_some _ _ _ _ E) as (_ & (n & Es & ->) & _).
    destruct (into_char sym) as [c|] eqn:Ec; [|exact I].
    (* the re-encoded character fits between the write and the read position *)
    pose proof (into_char_len _ _ _ _ Es Ec) as Le. unfold enc_len in Le.
    assert (L : (w + length (encode_utf8 c) <= start (advance s n))%nat) by (cbn [advance start]; lia).
    rewrite (proj2 (Nat.leb_le _ _) L).
    destruct (store_list_behind (encode_utf8 c) (advance s n) w HI1 L) as (s2 & E2 & A & B & C & D & F).
    rewrite E2. cbn [bind].
    apply IH; [apply InTok_token; [exact A|lia|congruence]|rewrite F; lia].
  - exact (proj1 H).
Qed.

Lemma scan_string_good s : string_drops_quote = true ->
  PInv s -> good (fun rs => PInv (snd rs)) (scan_string s).
Proof.
  intros Hflag (HI & _). unfold scan_string. rewrite Hflag.
  eapply good_bind; [apply require_token_good|]. intros [] _ Ht.
  destruct (trim_start s) as (s0 & E0 & HI0 & _ & _ & Hc0). rewrite E0. cbn [bind].
  eapply good_bind; [apply (char_loop_good (fuel_of s0) s0 HI0 ltac:(congruence) (fuel_of_rest s0))|].
  intros s1 _ Hd1.
  set (w0 := if true && match scat s0 with CQuo => true | _ => false end &&
                match scat s1 with CNone => true | _ => false end then Nat.pred (start s1) else start s1).
  assert (HT : InTok s1 w0).
  { unfold w0. destruct Hd1 as [HT | (Q0 & Q1 & HI1 & H11)].
    - destruct HT as (HI1 & _ & [Ht1 | HT1]).
      + apply InTok_token; [exact HI1| |exact Ht1].
        destruct (scat s1); try discriminate Ht1; rewrite andb_false_r; lia.
      + destruct (_ && _); [|split; [exact HI1|]; split; [lia|right; exact HT1]].
        split; [exact HI1|]. split; [lia|]. right. apply (TEnd_weaken s1 (start s1)); [lia|exact HT1].
    - rewrite Q0, Q1. cbn [andb]. split; [exact HI1|]. split; [lia|]. right.
      split; [exact HI1|]. split; [rewrite Q1; reflexivity|]. left. lia. }
  eapply good_bind; [apply (string_loop_good (fuel_of s1) s1 w0 HT (fuel_of_rest s1))|].
  intros [s2 w2] _ HT2. cbn [fst snd] in *.
  eapply good_impl; [|apply finish_split; exact HT2]. intros rs H. exact (proj1 H).
Qed.

(* without the correction the closing quote stays in the string and, when the
   next token follows without a blank, no octet is left in front of it:
   $INCLUDE "f"x.   *)
Definition w_include : list N := [36;73;78;67;76;85;68;69;32;34;102;34;120;46;10].

Theorem scan_string_quote_refuted : string_drops_quote = false ->
  snd (read_file w_include) = EPanic 4
  /\ fst (read_file [36;73;78;67;76;85;68;69;32;34;102;34;10]) = [EInclude [102; 34] None].
Proof. intros H. revert H. vm_compute. intros H; first [discriminate H | (split; reflexivity)]. Qed.

Theorem scan_string_quote_fixed : string_drops_quote = true ->
  read_file w_include = ([EInclude [102] (Some [1; 120; 0])], EEof).
Proof. intros H. revert H. vm_compute. intros H; first [discriminate H | reflexivity]. Qed.

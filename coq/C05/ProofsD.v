(* C05 ProofsD.v -- the message name reader of Base/PName.v (parse_ref followed by the label
   iterator, i.e. ParsedName::parse + iteration) reads back every valid uncompressed name:
   dec_complete pname_dec, so the round-trip theorems hold for the reader the correspondence
   runs use, not only for the flat decoder. *)
From Coq Require Import Arith NArith List Bool Lia.
From DV Require Import Base.Outcome Base.Bytes Base.Names Base.PName
  C05.Schema C05.ProofsA C05.ProofsB.
Import ListNotations.
Local Open Scope N_scope.

Definition W (n : name) : N := N.of_nat (wire_len n).

Lemma W_app a b : W (a ++ b) = W a + W b.
Proof. unfold W. rewrite wire_len_app. lia. Qed.

Lemma W_cons l n : W (l :: n) = 1 + len l + W n.
Proof. unfold W, len. cbn [wire_len]. lia. Qed.

Lemma W_nil : W [] = 0.
Proof. reflexivity. Qed.

Lemma len_wire_rel n : len (wire_rel n) = W n.
Proof. unfold len, W. rewrite wire_rel_length. reflexivity. Qed.

Lemma wire_abs_app a b : wire_abs (a ++ b) = wire_rel a ++ wire_abs b.
Proof. unfold wire_abs. rewrite wire_rel_app, app_assoc. reflexivity. Qed.

Lemma split_label pre n1 l n2 post :
  pre ++ wire_abs (n1 ++ l :: n2) ++ post =
  (pre ++ wire_rel n1) ++ len l :: (l ++ wire_abs n2 ++ post).
Proof.
  rewrite wire_abs_app. rewrite <- (app_assoc (wire_rel n1)). rewrite wire_abs_cons.
  rewrite app_assoc. unfold len. reflexivity.
Qed.

Lemma split_root pre n post :
  pre ++ wire_abs n ++ post = (pre ++ wire_rel n) ++ 0 :: post.
Proof. unfold wire_abs. rewrite <- !app_assoc. reflexivity. Qed.

Lemma ltp_at m cur lim pre' b post' :
  m = pre' ++ b :: post' -> cur = len pre' -> cur < lim -> b <= 63 ->
  label_type_parse m cur lim = Ok (LNormal b, cur + 1).
Proof.
  intros -> -> Hl Hb. unfold label_type_parse.
  destruct (N.leb_spec lim (len pre')) as [L|L]; [lia|].
  rewrite get_mid. destruct (N.leb_spec b 63) as [L2|L2]; [reflexivity|lia].
Qed.

Lemma get_label_at fuel m cur pre' l post' :
  m = pre' ++ len l :: l ++ post' -> cur = len pre' -> len l <= 63 ->
  get_label (S fuel) m cur = Ok (l, cur + 1 + len l).
Proof.
  intros -> -> Hl. cbn [get_label]. rewrite get_mid.
  destruct (N.leb_spec (len l) 63) as [_|L]; [|lia].
  destruct (N.ltb_spec (mlen (pre' ++ len l :: l ++ post')) (len pre' + 1 + len l)) as [L|_].
  { unfold mlen in L. fold (len (pre' ++ len l :: l ++ post')) in L.
    rewrite len_app, len_cons, len_app in L. lia. }
  f_equal. f_equal.
  replace (len pre' + 1) with (len (pre' ++ [len l])) by (rewrite len_app; reflexivity).
  replace (pre' ++ len l :: l ++ post') with ((pre' ++ [len l]) ++ l ++ post')
    by (rewrite <- app_assoc; reflexivity).
  apply slice_mid.
Qed.

Section Flat.
Variables (pre post : bytes) (n : name) (lim : N).
Hypothesis Hvalid : valid_abs n.
Hypothesis Hlo : len pre + len (wire_abs n) <= lim.
Hypothesis Hhi : lim <= len (pre ++ wire_abs n ++ post).

Let m := pre ++ wire_abs n ++ post.
Let P := len pre.

Lemma wire_le_254 : W n <= 254.
Proof. destruct Hvalid as [_ H]. unfold W. lia. Qed.

Lemma name_end_le_lim : P + W n + 1 <= lim.
Proof. subst P. rewrite len_wire_abs in Hlo. unfold W. lia. Qed.

Lemma offset_after n1 : P + W n1 = len (pre ++ wire_rel n1).
Proof. subst P. rewrite len_app, len_wire_rel. reflexivity. Qed.

Lemma label_len_1_63 n1 l n2 : n = n1 ++ l :: n2 -> 1 <= len l <= 63.
Proof.
  intros E. destruct Hvalid as [Hf _]. rewrite E in Hf.
  apply Forall_app in Hf as [_ Hf]. inversion Hf as [|? ? [Hl _] _]; subst.
  unfold len. lia.
Qed.

Lemma parse_labels_flat n2 : forall n1 fuel,
  n = n1 ++ n2 -> (length n2 < fuel)%nat ->
  parse_labels fuel m lim (P + W n1) (W n1) P false None
  = Ok (mkPName P (W n + 1) false (P + W n + 1)).
Proof.
  induction n2 as [|l n2 IH]; intros n1 fuel E Hf; (destruct fuel as [|fuel]; [simpl in Hf; lia|]);
    cbn [parse_labels].
  - rewrite app_nil_r in E. subst n1.
    rewrite (ltp_at m (P + W n) lim (pre ++ wire_rel n) 0 post);
      [| apply split_root | apply offset_after | pose proof name_end_le_lim; lia | lia].
    cbn [N.eqb]. reflexivity.
  - pose proof (label_len_1_63 n1 l n2 E) as Hl. pose proof wire_le_254 as Ht. pose proof name_end_le_lim as Hll.
    assert (HW : W n = W n1 + (1 + len l + W n2)) by (rewrite E, W_app, W_cons; reflexivity).
    rewrite (ltp_at m (P + W n1) lim (pre ++ wire_rel n1) (len l) (l ++ wire_abs n2 ++ post));
      [| subst m; rewrite E; apply split_label | apply offset_after | lia | lia].
    destruct (N.eqb_spec (len l) 0) as [Z|_]; [lia|].
    destruct (N.ltb_spec (lim - (P + W n1 + 1)) (len l)) as [L|_]; [lia|].
    destruct (N.leb_spec 255 (W n1 + len l + 1)) as [L|_]; [lia|].
    replace (P + W n1 + 1 + len l) with (P + W (n1 ++ [l])) by (rewrite W_app, W_cons, W_nil; lia).
    replace (W n1 + len l + 1) with (W (n1 ++ [l])) by (rewrite W_app, W_cons, W_nil; lia).
    apply IH.
    + rewrite <- app_assoc. exact E.
    + simpl in Hf. lia.
Qed.

Lemma iter_labels_flat n2 : forall n1 fuel acc,
  n = n1 ++ n2 -> (length n2 < fuel)%nat ->
  iter_labels fuel m (P + W n1) (W n2 + 1) acc = Ok (rev acc ++ n2, true).
Proof.
  induction n2 as [|l n2 IH]; intros n1 fuel acc E Hf; (destruct fuel as [|fuel]; [simpl in Hf; lia|]);
    cbn [iter_labels].
  - rewrite app_nil_r in E. subst n1. rewrite W_nil.
    destruct (N.eqb_spec (0 + 1) 0) as [Z|_]; [lia|].
    rewrite (get_label_at _ m (P + W n) (pre ++ wire_rel n) [] post);
      [| apply split_root | apply offset_after | cbn; lia].
    cbn [bind length Nat.eqb].
    destruct (N.ltb_spec (0 + 1) (N.of_nat 0 + 1)) as [L|_]; [lia|].
    destruct (N.eqb_spec (0 + 1 - (N.of_nat 0 + 1)) 0) as [_|Z]; [|lia].
    rewrite app_nil_r. reflexivity.
  - pose proof (label_len_1_63 n1 l n2 E) as Hl.
    destruct (N.eqb_spec (W (l :: n2) + 1) 0) as [Z|_]; [lia|].
    rewrite (get_label_at _ m (P + W n1) (pre ++ wire_rel n1) l (wire_abs n2 ++ post));
      [| subst m; rewrite E; apply split_label | apply offset_after | lia].
    cbn [bind].
    fold (len l). rewrite W_cons.
    destruct (N.ltb_spec (1 + len l + W n2 + 1) (len l + 1)) as [L|_]; [lia|].
    destruct (Nat.eqb_spec (length l) 0) as [Z|_]; [unfold len in Hl; lia|].
    replace (1 + len l + W n2 + 1 - (len l + 1)) with (W n2 + 1) by lia.
    replace (P + W n1 + 1 + len l) with (P + W (n1 ++ [l])) by (rewrite W_app, W_cons, W_nil; lia).
    rewrite IH.
    + cbn [rev]. rewrite <- app_assoc. reflexivity.
    + rewrite <- app_assoc. exact E.
    + simpl in Hf. lia.
Qed.

Lemma labels_lt_fuel : (length n < PARSE_FUEL)%nat.
Proof.
  pose proof wire_le_254 as Ht. unfold W in Ht.
  assert (length n <= wire_len n)%nat by (clear; induction n as [|l n' IH]; simpl; lia).
  unfold PARSE_FUEL. lia.
Qed.

Lemma parse_ref_flat : parse_ref m P lim = Ok (mkPName P (W n + 1) false (P + W n + 1)).
Proof.
  pose proof (parse_labels_flat n [] PARSE_FUEL eq_refl labels_lt_fuel) as H.
  rewrite W_nil, N.add_0_r in H. exact H.
Qed.

Lemma pname_labels_flat e : pname_labels m (mkPName P (W n + 1) false e) = Ok (n, true).
Proof.
  pose proof (iter_labels_flat n [] PARSE_FUEL [] eq_refl labels_lt_fuel) as H.
  rewrite W_nil, N.add_0_r in H. exact H.
Qed.

End Flat.

Theorem pname_dec_complete : dec_complete pname_dec.
Proof.
  intros pre n post lim Hv H1 H2. unfold pname_dec, decode_name.
  rewrite (parse_ref_flat pre post n lim Hv H1 H2). cbn [bind].
  rewrite (pname_labels_flat pre post n lim Hv H1 H2).
  cbn [bind fst pn_end]. rewrite len_wire_abs. f_equal. f_equal. unfold W. lia.
Qed.

Theorem pname_nc_dec_complete strict : dec_complete (pname_nc_dec strict).
Proof.
  intros pre n post lim Hv H1 H2. unfold pname_nc_dec.
  rewrite (parse_ref_flat pre post n lim Hv H1 H2).
  cbn [bind pn_compressed pn_end pn_len].
  (* the name took exactly its uncompressed length *)
  replace (len pre + W n + 1 - len pre =? W n + 1) with true by (symmetry; apply N.eqb_eq; lia).
  rewrite andb_false_r.
  rewrite (pname_labels_flat pre post n lim Hv H1 H2).
  cbn [bind fst]. rewrite len_wire_abs. f_equal. f_equal. unfold W. lia.
Qed.

Example pname_dec_example :
  pname_dec ([7;7] ++ wire_abs [[119;119;119]; [97]] ++ [1;2]) 2 9 = Ok ([[119;119;119]; [97]], 9).
Proof. vm_compute. reflexivity. Qed.

(* C05 ProofsC.v -- the uncompressed name decoder satisfies dec_complete and
   dec_sound; whatever parse returns is well-formed (so accepted RDATA
   re-composes to octets that parse to the same value). *)
From Coq Require Import Arith NArith List Bool Lia.
From DV Require Import Base.Outcome Base.Bytes Base.Names Base.PName
  C05.Schema C05.ProofsA C05.ProofsB.
Import ListNotations.
Local Open Scope N_scope.

Lemma slice_from_pre (pre x post : bytes) lim :
  len pre + len x <= lim -> lim <= len (pre ++ x ++ post) ->
  exists post', slice (pre ++ x ++ post) (len pre) lim = x ++ post' /\
                len post' = lim - len pre - len x.
Proof.
  intros H1 H2. rewrite !len_app in H2. unfold slice, len in *. rewrite Nat2N.id.
  rewrite skipn_app, skipn_all, Nat.sub_diag. cbn [skipn app].
  exists (firstn (N.to_nat (lim - N.of_nat (length pre)) - length x) post).
  rewrite firstn_app. split.
  - f_equal. apply firstn_all2. lia.
  - rewrite firstn_length. lia.
Qed.

Theorem flat_dec_complete : dec_complete flat_dec.
Proof.
  intros pre n post lim Hv H1 H2. unfold flat_dec.
  destruct (slice_from_pre pre (wire_abs n) post lim H1 H2) as [post' [E L]].
  rewrite E, decode_wire_abs by exact Hv. f_equal. f_equal. lia.
Qed.

Lemma wire_len_rev a : wire_len (rev a) = wire_len a.
Proof.
  induction a as [|l a IH]; [reflexivity|]. cbn [rev wire_len].
  rewrite wire_len_app, IH. cbn [wire_len]. lia.
Qed.

Lemma parse_flat_sound fuel : forall b acc used n rest,
  wf_bytes b -> Forall valid_label acc -> wire_len acc = used -> (used <= 254)%nat ->
  parse_flat fuel b acc used = inl (Some (n, rest)) ->
  Forall valid_label n /\ (wire_len n <= 254)%nat.
Proof.
  induction fuel as [|fuel IH]; intros b acc used n rest Hb Hacc Hu Hle H; [discriminate|].
  cbn [parse_flat] in H. destruct b as [|h t]; [discriminate|].
  destruct (N.eqb_spec h 0) as [E0|E0].
  - injection H as <- <-. split.
    + apply Forall_rev. exact Hacc.
    + rewrite wire_len_rev. lia.
  - destruct (N.ltb_spec 63 h) as [E1|E1]; [discriminate|].
    destruct (Nat.ltb_spec (length t) (N.to_nat h)) as [E2|E2]; [discriminate|].
    destruct (Nat.ltb_spec 254 (used + 1 + N.to_nat h)) as [E3|E3]; [discriminate|].
    inversion Hb as [|? ? Hh Ht]; subst.
    apply IH in H; [exact H| | | |exact E3].
    + apply wf_bytes_skipn. exact Ht.
    + constructor; [|exact Hacc]. split.
      * rewrite firstn_length. lia.
      * apply wf_bytes_firstn. exact Ht.
    + cbn [wire_len]. rewrite firstn_length. lia.
Qed.

Theorem flat_dec_sound : dec_sound flat_dec.
Proof.
  intros m pos lim n e Hm H. unfold flat_dec in H.
  destruct (decode_abs (slice m pos lim)) as [[[n' rest]|]|[]] eqn:E; try discriminate.
  injection H as <- _.
  apply (parse_flat_sound _ _ [] 0%nat n' rest (slice_wf _ _ _ Hm) (Forall_nil _) eq_refl (Nat.le_0_l _) E).
Qed.

Lemma parse_rdata_ok dec s m pos lim v :
  parse_rdata dec s m pos lim = Ok v ->
  parse_fields dec (s_fields s) m pos lim = Ok (v, lim) /\ post_ok (s_post s) v = true.
Proof.
  unfold parse_rdata. intros H. apply bind_ok in H as [[v' e] [E H]]. cbn [fst snd] in H.
  destruct (N.eqb_spec e lim) as [->|]; [|discriminate].
  destruct (post_check (s_post s) v') eqn:Ep; [discriminate|]. injection H as <-.
  split; [|unfold post_ok; rewrite Ep; reflexivity]. unfold parse_type in E. destruct (s_long s) as [k|]; [|exact E].
  destruct (lim - pos <? k); [discriminate|]. destruct (65535 <? lim - pos - k); [discriminate|exact E].
Qed.

Lemma rd_charstr_wf m pos lim h p b e :
  wf_bytes m -> lim <= mlen m ->
  rd8 m pos lim = Ok (h, p) -> rd m p lim h = Ok (b, e) -> strb b = true.
Proof.
  intros Hm Hl E8 Er. apply rd8_ok in E8 as [Hg _]. apply (get_wf _ _ _ Hm) in Hg.
  destruct (rd_wf _ _ _ _ _ _ Hm Hl Er) as [Hw Hlen].
  unfold strb. apply andb_true_iff. split; [apply Nat.leb_le; lia|apply bytesb_spec, Hw].
Qed.

Lemma parse_strs_wf fuel : forall m pos lim acc l e,
  wf_bytes m -> lim <= mlen m -> forallb strb acc = true ->
  parse_strs fuel m pos lim acc = Ok (l, e) -> forallb strb l = true.
Proof.
  induction fuel as [|fuel IH]; intros m pos lim acc l e Hm Hl Hacc H; [discriminate|].
  cbn [parse_strs] in H. destruct (lim - pos =? 0).
  - injection H as <- _. rewrite forallb_forall in *. intros x Hx. apply Hacc.
    apply in_rev. exact Hx.
  - apply bind_ok in H as [[h p1] [E8 H]]. apply bind_ok in H as [[x p2] [Er H]]. cbn [fst snd] in *.
    apply (IH _ _ _ _ _ _ Hm Hl) in H; [exact H|]. cbn [forallb].
    rewrite (rd_charstr_wf _ _ _ _ _ _ _ Hm Hl E8 Er). exact Hacc.
Qed.

Section Sound.
Variable dec : decoder.
(* dec_sound, asked only of reads that stay inside the message: the message
   name reader has it in this form *)
Hypothesis Hsound : forall m pos lim n e,
  wf_bytes m -> lim <= mlen m -> dec m pos lim = Ok (n, e) -> valid_abs n.

Lemma parse_field_wf f m pos lim x e :
  wf_bytes m -> lim <= mlen m ->
  parse_field dec f m pos lim = Ok (x, e) -> wf_fval false f x = true.
Proof.
  intros Hm Hl H.
  assert (Hb : forall b, wf_bytes b -> bytesb b = true) by (intros b; apply bytesb_spec).
  destruct f; cbn [parse_field] in H.
  - (* FNum *)
    apply bind_ok in H as [[b p] [E H]]. injection H as <- _.
    destruct (rd_wf _ _ _ _ _ _ Hm Hl E) as [Hw Hlen]. apply of_be_bound in Hw.
    rewrite Hlen, Nat2N.id in Hw. apply N.ltb_lt. exact Hw.
  - (* FFix *)
    apply bind_ok in H as [[b p] [E H]]. injection H as <- _.
    destruct (rd_wf _ _ _ _ _ _ Hm Hl E) as [Hw Hlen].
    cbn [wf_fval fst]. rewrite (Hb _ Hw), Hlen, Nat2N.id, Nat.eqb_refl. reflexivity.
  - (* FName *)
    apply bind_ok in H as [[n p] [E H]]. injection H as <- _.
    apply valid_relb_spec, (Hsound _ _ _ _ _ Hm Hl E).
  - (* FCharStr *)
    apply bind_ok in H as [[h p1] [E8 H]]. apply bind_ok in H as [[b p2] [Er H]]. cbn [fst snd] in *.
    destruct (cs_ok chk b) eqn:Ec; [|discriminate]. injection H as <- _.
    cbn [wf_fval]. rewrite Ec, (rd_charstr_wf _ _ _ _ _ _ _ Hm Hl E8 Er). reflexivity.
  - (* FCharStrs *)
    apply bind_ok in H as [[l p] [E H]]. injection H as <- _.
    cbn [wf_fval negb orb fst]. rewrite andb_true_r.
    exact (parse_strs_wf _ m pos lim [] l p Hm Hl eq_refl E).
  - (* FLen16 *)
    apply bind_ok in H as [[h p1] [E1 H]]. apply bind_ok in H as [[b p2] [E2 H]]. cbn [fst snd] in *.
    injection H as <- _.
    destruct (rd_wf _ _ _ _ _ _ Hm Hl E1) as [Hw1 Hlen1]. destruct (rd_wf _ _ _ _ _ _ Hm Hl E2) as [Hw2 Hlen2].
    apply of_be_bound in Hw1. rewrite Hlen1 in Hw1. change (of_be h < 65536) in Hw1.
    cbn [wf_fval]. rewrite (Hb _ Hw2), andb_true_r. apply N.leb_le. unfold len. lia.
  - (* FRest *)
    destruct (N.ltb_spec (lim - pos) (N.of_nat min)) as [L|L]; [discriminate|].
    apply bind_ok in H as [[b p] [E H]]. injection H as <- _.
    destruct (rd_wf _ _ _ _ _ _ Hm Hl E) as [Hw Hlen].
    cbn [wf_fval orb fst]. rewrite (Hb _ Hw), andb_true_r. apply Nat.leb_le. lia.
  - (* FChecked *)
    apply bind_ok in H as [[b p] [E H]]. cbn [fst snd] in H.
    destruct (rest_check k b) eqn:Ec; [discriminate|]. injection H as <- _.
    destruct (rd_wf _ _ _ _ _ _ Hm Hl E) as [Hw _].
    cbn [wf_fval]. rewrite Ec, (Hb _ Hw). reflexivity.
Qed.

Lemma parse_fields_wf s : forall m pos lim v e,
  wf_bytes m -> lim <= mlen m ->
  parse_fields dec s m pos lim = Ok (v, e) -> wf_fvals false s v = true.
Proof.
  induction s as [|f s IH]; intros m pos lim v e Hm Hl H; cbn [parse_fields] in H.
  - injection H as <- _. reflexivity.
  - apply bind_ok in H as [[x p] [Ef H]]. apply bind_ok in H as [[v' p'] [Es H]]. cbn [fst snd] in *.
    injection H as <- _. cbn [wf_fvals].
    rewrite (parse_field_wf _ _ _ _ _ _ Hm Hl Ef). exact (IH _ _ _ _ _ Hm Hl Es).
Qed.

Lemma parse_rdata_wf s m pos lim v :
  wf_bytes m -> lim <= mlen m -> parse_rdata dec s m pos lim = Ok v ->
  total_len s v <= 65535 -> wf_value s v = true.
Proof.
  intros Hm Hl H Ht. apply parse_rdata_ok in H as [Hf Hpost]. apply wf_value_iff.
  split; [exact (parse_fields_wf _ _ _ _ _ _ Hm Hl Hf)|]. split; assumption.
Qed.

End Sound.

(* accepted RDATA (read by any sound decoder dec, e.g. one that follows
   compression pointers) re-composes -- uncompressed -- to octets that parse,
   with any complete decoder dec', to the same value.  The uncompressed form
   may be longer than the input; it must still fit an RDATA. *)
Theorem recompose dec dec' s m pos lim v pre post :
  dec_sound dec -> dec_complete dec' -> wf_schema_full s = true ->
  wf_bytes m -> lim <= mlen m ->
  parse_rdata dec s m pos lim = Ok v ->
  total_len s v <= 65535 ->
  parse_rdata dec' s (pre ++ compose s v ++ post) (len pre) (len pre + len (compose s v)) = Ok v.
Proof.
  intros Hs Hc Hwf Hm Hl Hp Ht. apply (parse_compose dec' Hc _ _ _ _ Hwf).
  apply (parse_rdata_wf dec) with m pos lim; try assumption.
  intros m' pos' lim' n e Hm' _. apply Hs, Hm'.
Qed.

Lemma wf_fvals_ctor s : forall v,
  wf_fvals true s v = true -> short_rest_fields s v = false -> wf_fvals false s v = true.
Proof.
  induction s as [|f s IH]; intros [|x v] H Hr; cbn [wf_fvals] in *; try discriminate; [reflexivity|].
  apply andb_true_iff in H as [Hx Hv].
  destruct f, x; try discriminate; cbn [short_rest_fields wf_fval] in *;
    try (rewrite Hx, (IH _ Hv Hr); reflexivity).
  - apply andb_true_iff in Hx as [Hs _]. cbn [negb orb]. rewrite Hs, (IH _ Hv Hr). reflexivity.
  - apply orb_false_iff in Hr as [Hm Hr]. cbn [orb andb] in Hx |- *. rewrite (IH _ Hv Hr).
    apply Nat.ltb_ge in Hm. apply Nat.leb_le in Hm. rewrite Hm, Hx. reflexivity.
Qed.

Theorem ctor_accepts_wf s v :
  ctor_accepts s v = true -> overlong s v = false -> short_rest s v = false ->
  post_ok (s_post s) v = true ->
  wf_value s v = true.
Proof.
  unfold ctor_accepts, overlong, short_rest. intros H Ho Hr Hpost.
  apply andb_true_iff in H as [H _]. apply andb_true_iff in H as [Hv _].
  apply wf_value_iff. split; [exact (wf_fvals_ctor _ _ Hv Hr)|]. split; [|exact Hpost].
  apply N.ltb_ge, Ho.
Qed.

Theorem checked_ctor_accepts_wf s v :
  s_ctor_total s = true -> ctor_accepts s v = true -> short_rest s v = false ->
  post_ok (s_post s) v = true -> wf_value s v = true.
Proof.
  intros Hc H Hr Hpost. apply ctor_accepts_wf; auto.
  unfold ctor_accepts in H. rewrite Hc in H. cbn [negb orb] in H.
  apply andb_true_iff in H as [H _]. apply andb_true_iff in H as [_ Ht]. unfold overlong. apply N.ltb_ge. apply N.leb_le in Ht. exact Ht.
Qed.

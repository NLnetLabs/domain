(* C05 ProofsG.v -- for record types without embedded names parse is exact:
   what it accepts re-composes to the very octets that were read.  Hence the
   re-compose theorem needs no premise on the length of the uncompressed form
   for them (it is the RDLENGTH). *)
From Coq Require Import NArith List Bool Lia.
From DV Require Import Base.Outcome Base.Bytes Base.PName C05.Schema C05.ProofsA C05.ProofsB C05.ProofsC.
Import ListNotations.
Local Open Scope N_scope.

Lemma firstn_split {A} (X : list A) n k : firstn n X ++ firstn k (skipn n X) = firstn (n + k) X.
Proof.
  revert X; induction n as [|n IH]; intros X; [reflexivity|].
  destruct X as [|x X]; [cbn; rewrite firstn_nil; reflexivity|].
  cbn [firstn skipn Nat.add app]. rewrite IH. reflexivity.
Qed.

Lemma slice_app m a b c : a <= b -> b <= c -> slice m a b ++ slice m b c = slice m a c.
Proof.
  intros H1 H2. unfold slice.
  replace (N.to_nat b) with (N.to_nat a + N.to_nat (b - a))%nat by lia.
  rewrite <- skipn_add. rewrite firstn_split. f_equal. lia.
Qed.

Lemma slice_empty m a : slice m a a = [].
Proof. unfold slice. rewrite N.sub_diag. reflexivity. Qed.

Lemma slice_one m pos h : get m pos = Some h -> slice m pos (pos + 1) = [h].
Proof.
  unfold get, slice. replace (N.to_nat (pos + 1 - pos)) with 1%nat by lia.
  generalize (N.to_nat pos) as k. intros k. revert m.
  induction k as [|k IH]; intros [|x m] H; cbn in *; try discriminate.
  - injection H as ->. reflexivity.
  - apply IH. exact H.
Qed.

Definition no_name (f : field) : bool := match f with FName _ _ => false | _ => true end.

Lemma rd_charstr_exact m pos lim h p b e :
  lim <= mlen m -> rd8 m pos lim = Ok (h, p) -> rd m p lim h = Ok (b, e) ->
  charstr_wire b = slice m pos e /\ pos <= e /\ e <= lim.
Proof.
  intros Hl E8 Er. apply rd8_ok in E8 as [Hg [-> Hle1]]. apply rd_ok in Er as [-> [-> Hle2]].
  split; [|lia]. unfold charstr_wire, len. rewrite slice_length by lia.
  replace (N.of_nat (N.to_nat (pos + 1 + h - (pos + 1)))) with h by lia.
  change (h :: slice m (pos + 1) (pos + 1 + h)) with ([h] ++ slice m (pos + 1) (pos + 1 + h)).
  rewrite <- (slice_one m pos h Hg). apply slice_app; lia.
Qed.

Section Exact.
Variable dec : decoder.

Lemma parse_strs_exact fuel : forall m pos0 pos lim acc l e,
  lim <= mlen m -> pos0 <= pos -> pos <= lim ->
  concat (map charstr_wire (rev acc)) = slice m pos0 pos ->
  parse_strs fuel m pos lim acc = Ok (l, e) ->
  concat (map charstr_wire l) = slice m pos0 e /\ e = lim.
Proof.
  induction fuel as [|fuel IH]; intros m pos0 pos lim acc l e Hl H0 Hp Hinv H; [discriminate|].
  cbn [parse_strs] in H. destruct (N.eqb_spec (lim - pos) 0) as [Z|Z].
  - injection H as <- <-. split; [exact Hinv|lia].
  - apply bind_ok in H as [[h p1] [E8 H]]. apply bind_ok in H as [[b p2] [Er H]]. cbn [fst snd] in *.
    destruct (rd_charstr_exact _ _ _ _ _ _ _ Hl E8 Er) as [Eb [H1 H2]].
    apply (IH _ pos0 _ _ _ _ _ Hl) in H; [exact H|lia|lia|].
    cbn [rev]. rewrite map_app, concat_app, Hinv. cbn [map concat]. rewrite app_nil_r, Eb.
    apply slice_app; lia.
Qed.

Lemma parse_field_exact f m pos lim x e :
  no_name f = true -> wf_bytes m -> lim <= mlen m -> pos <= lim ->
  parse_field dec f m pos lim = Ok (x, e) ->
  compose_field false f x = slice m pos e /\ pos <= e /\ e <= lim.
Proof.
  intros Hn Hm Hl Hp H. destruct f; try discriminate; cbn [parse_field] in H.
  - (* FNum *)
    apply bind_ok in H as [[b p] [E H]]. injection H as <- <-.
    destruct (rd_wf _ _ _ _ _ _ Hm Hl E) as [Hw Hlen].
    apply rd_ok in E as [Eb [-> Hle]]. cbn [compose_field fst snd].
    split; [|lia]. rewrite <- Eb. replace w with (length b) by lia. apply be_of_be, Hw.
  - (* FFix *)
    apply bind_ok in H as [[b p] [E H]]. injection H as <- <-.
    apply rd_ok in E as [Eb [-> Hle]]. cbn [compose_field]. split; [exact Eb|lia].
  - (* FCharStr *)
    apply bind_ok in H as [[h p1] [E8 H]]. apply bind_ok in H as [[b p2] [Er H]]. cbn [fst snd] in *.
    destruct (cs_ok chk b); [|discriminate]. injection H as <- <-.
    exact (rd_charstr_exact _ _ _ _ _ _ _ Hl E8 Er).
  - (* FCharStrs *)
    apply bind_ok in H as [[l p] [E H]]. injection H as <- <-. cbn [fst snd compose_field].
    apply (parse_strs_exact _ m pos pos lim [] l p Hl) in E; try lia.
    + destruct E as [E ->]. split; [exact E|lia].
    + cbn. rewrite slice_empty. reflexivity.
  - (* FLen16 *)
    apply bind_ok in H as [[h p1] [E1 H]]. apply bind_ok in H as [[b p2] [E2 H]]. cbn [fst snd] in *.
    injection H as <- <-.
    destruct (rd_wf _ _ _ _ _ _ Hm Hl E1) as [Hw1 Hlen1]. destruct (rd_wf _ _ _ _ _ _ Hm Hl E2) as [_ Hlen2].
    apply rd_ok in E1 as [Eh [-> Hle1]]. apply rd_ok in E2 as [Eb [-> Hle2]].
    cbn [compose_field]. unfold len. rewrite Hlen2, N2Nat.id.
    change 2%nat with (N.to_nat 2). rewrite <- Hlen1, (be_of_be h Hw1).
    rewrite Eh at 1. rewrite Eb. rewrite slice_app by lia. split; [reflexivity|lia].
  - (* FRest *)
    destruct (N.ltb_spec (lim - pos) (N.of_nat min)) as [L|L]; [discriminate|].
    apply bind_ok in H as [[b p] [E H]]. injection H as <- <-.
    apply rd_ok in E as [Eb [-> Hle]]. cbn [compose_field]. split; [exact Eb|lia].
  - (* FChecked *)
    apply bind_ok in H as [[b p] [E H]]. cbn [fst snd] in H.
    destruct (rest_check k b); [discriminate|]. injection H as <- <-.
    apply rd_ok in E as [Eb [-> Hle]]. cbn [compose_field]. split; [exact Eb|lia].
Qed.

Lemma parse_fields_exact s : forall m pos lim v e,
  forallb no_name s = true -> wf_bytes m -> lim <= mlen m -> pos <= lim ->
  parse_fields dec s m pos lim = Ok (v, e) ->
  compose_fields false s v = slice m pos e /\ pos <= e /\ e <= lim.
Proof.
  induction s as [|f s IH]; intros m pos lim v e Hn Hm Hl Hp H; cbn [parse_fields] in H.
  - injection H as <- <-. cbn [compose_fields]. rewrite slice_empty. split; [reflexivity|lia].
  - cbn [forallb] in Hn. apply andb_true_iff in Hn as [Hf Hn].
    apply bind_ok in H as [[x p] [Ef H]]. apply bind_ok in H as [[v' p'] [Es H]]. cbn [fst snd] in *.
    injection H as <- <-.
    apply (parse_field_exact _ _ _ _ _ _ Hf Hm Hl Hp) in Ef as [Ex [H1 H2]].
    apply (IH _ _ _ _ _ Hn Hm Hl H2) in Es as [Ev [H3 H4]].
    cbn [compose_fields]. rewrite Ex, Ev, slice_app by lia. split; [reflexivity|lia].
Qed.

Theorem parse_exact s m pos lim v :
  forallb no_name (s_fields s) = true -> wf_bytes m -> lim <= mlen m -> pos <= lim ->
  parse_rdata dec s m pos lim = Ok v -> compose s v = slice m pos lim.
Proof.
  intros Hn Hm Hl Hp H. apply parse_rdata_ok in H as [Ef _].
  apply (parse_fields_exact _ _ _ _ _ _ Hn Hm Hl Hp Ef).
Qed.

End Exact.

(* accepted RDATA of a type without embedded names, of at most 65535 octets
   (every RDATA in a message), re-composes to the same octets, which parse to
   the same value again -- no premise on the composed length *)
Theorem recompose_nameless dec dec' s m pos lim v pre post :
  dec_sound dec -> dec_complete dec' -> wf_schema_full s = true ->
  forallb no_name (s_fields s) = true ->
  wf_bytes m -> lim <= mlen m -> pos <= lim -> lim - pos <= 65535 ->
  parse_rdata dec s m pos lim = Ok v ->
  compose s v = slice m pos lim /\
  parse_rdata dec' s (pre ++ compose s v ++ post) (len pre) (len pre + len (compose s v)) = Ok v.
Proof.
  intros Hs Hc Hwf Hn Hm Hl Hp H16 H.
  pose proof (parse_exact dec s m pos lim v Hn Hm Hl Hp H) as Hex. split; [exact Hex|].
  apply (recompose dec dec' s m pos lim); try assumption.
  (* the composed length is the length of what was read *)
  unfold total_len. rewrite (fields_len_compose false). fold (compose s v).
  rewrite Hex. unfold len. rewrite slice_length by lia. lia.
Qed.

Example parse_exact_example :
  parse_rdata pname_dec (mkS [U16; U8; U8; Rest] (Some 0) true PNone) [9; 0; 1; 8; 2; 7; 7; 9] 1 7
    = Ok [VNum 1; VNum 8; VNum 2; VBytes [7; 7]] /\
  compose (mkS [U16; U8; U8; Rest] (Some 0) true PNone) [VNum 1; VNum 8; VNum 2; VBytes [7; 7]]
    = slice [9; 0; 1; 8; 2; 7; 7; 9] 1 7.
Proof. vm_compute. auto. Qed.

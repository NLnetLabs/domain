(* C05 Proofs.v -- the schema table: agreement with the source-derived rows
   (T1), finite checks over the table, instantiation of the schema-generic
   theorems for every row, the opaque fallback, RFC 4034 6.2 / RFC 6840 5.1,
   and what the constructors accept although it is not well-formed. *)
From Coq Require Import NArith List Bool Lia.
From DV Require Import Base.Outcome Base.Bytes Base.PName C05.Schema C05.Gen C05.Model C05.ProofsA C05.ProofsB C05.ProofsC C05.ProofsD.
Import ListNotations.
Local Open Scope N_scope.

(* T1: the rows regenerated from the Rust source are the rows of Model.v *)
Example schema_src_agrees : Gen.schema_src = schema_table_regular.
Proof. reflexivity. Qed.

Example unknown_src_agrees : Gen.unknown_src = unknown_schema.
Proof. reflexivity. Qed.

(* rdlen(compress = true) answers None exactly for the rows with a
   compressible name *)
Example rdlen_none_agrees :
  Gen.rdlen_none_src = map fst (filter (fun r => has_compressible (snd r)) schema_table_regular).
Proof. reflexivity. Qed.

(* the constant and the number of length terms of every rdlen() body *)
Example rdlen_shape_agrees :
  Gen.rdlen_shape_src = map (fun r => (fst r, rdlen_shape (snd r))) schema_table_regular /\
  Gen.rdlen_shape_unknown_src = rdlen_shape unknown_schema.
Proof. split; reflexivity. Qed.

(* the constants of the structural checks as the source has them: type bitmap
   (2 header octets, a block of 2 is empty, a block above 34 is too long),
   cookie (client 8, server at most 32 and at least 8, i.e. 16..40 in total),
   client subnet families 1 / 2, IPSECKEY gateway sizes 0 / 4 / 16 *)
Example check_consts_agree : Gen.check_consts_src = [2; 2; 34; 8; 32; 8; 1; 2; 0; 4; 16].
Proof. reflexivity. Qed.

(* the IPSECKEY rows, one per gateway type, as read from Ipseckey::parse /
   IpseckeyGateway::{parse, compose_rdata} *)
Example ipseckey_src_agrees :
  Gen.ipseckey_src = map (fun g => (g, ipseckey_schema g)) [0; 1; 2; 3].
Proof. reflexivity. Qed.

Definition memN (t : N) (l : list N) : bool := existsb (N.eqb t) l.

(* the rows plus the irregular types are exactly the types of AllRecordData *)
Example all_types_covered :
  forallb (fun t => memN t (map fst schema_table_regular ++ irregular_types)) Gen.all_types_src = true /\
  forallb (fun t => memN t Gen.all_types_src) (map fst schema_table_regular ++ irregular_types) = true.
Proof. split; vm_compute; reflexivity. Qed.

Lemma schema_of_cases t s :
  schema_of t = Some s -> In (t, s) schema_table_regular \/ s = unknown_schema.
Proof.
  unfold schema_of. destruct (lookup t schema_table_regular) as [s'|] eqn:E.
  - intros H. injection H as <-. left. apply lookup_in. exact E.
  - destruct (existsb (N.eqb t) irregular_types); [discriminate|].
    intros H. injection H as <-. right. reflexivity.
Qed.

Lemma schema_of_forall (P : schema -> bool) t s :
  forallb (fun r => P (snd r)) schema_table_regular = true -> P unknown_schema = true ->
  schema_of t = Some s -> P s = true.
Proof.
  intros Hall Hu H. apply schema_of_cases in H as [H| ->]; [|exact Hu].
  rewrite forallb_forall in Hall. exact (Hall _ H).
Qed.

Lemma schema_of_wf t s : schema_of t = Some s -> wf_schema_full s = true.
Proof. apply schema_of_forall; vm_compute; reflexivity. Qed.

Theorem table_parse_compose t s v pre post :
  schema_of t = Some s -> wf_value s v = true ->
  parse_rdata pname_dec s (pre ++ compose s v ++ post) (len pre) (len pre + len (compose s v)) = Ok v /\
  parse_rdata flat_dec s (pre ++ compose s v ++ post) (len pre) (len pre + len (compose s v)) = Ok v.
Proof.
  intros Hs Hv. apply schema_of_wf in Hs. split.
  - apply parse_compose; auto. apply pname_dec_complete.
  - apply parse_compose; auto. apply flat_dec_complete.
Qed.

Theorem table_rdlen_exact t s v :
  schema_of t = Some s -> wf_value s v = true ->
  rdlen s false v = Ok (Some (len (compose s v))) /\
  rdlen s true v = (if has_compressible s then Ok None else Ok (Some (len (compose s v)))).
Proof. intros _ Hv. apply rdlen_exact. exact Hv. Qed.

Theorem table_recompose t s m pos lim v pre post :
  schema_of t = Some s -> wf_bytes m -> lim <= mlen m ->
  parse_rdata flat_dec s m pos lim = Ok v ->
  total_len s v <= 65535 ->
  parse_rdata pname_dec s (pre ++ compose s v ++ post) (len pre) (len pre + len (compose s v)) = Ok v.
Proof.
  intros Hs Hm Hl Hp Ht.
  exact (recompose flat_dec pname_dec s m pos lim v pre post flat_dec_sound pname_dec_complete
           (schema_of_wf t s Hs) Hm Hl Hp Ht).
Qed.

Definition nameless (s : schema) : bool := negb (existsb is_name (s_fields s)).

Theorem unknown_opaque t :
  schema_of t = Some unknown_schema ->
  (forall b, compose unknown_schema [VBytes b] = b /\ compose_canonical unknown_schema [VBytes b] = b) /\
  (forall dec m pos lim, pos <= lim ->
     parse_rdata dec unknown_schema m pos lim = Ok [VBytes (slice m pos lim)]).
Proof.
  intros _. split.
  - intros b. unfold compose, compose_canonical. cbn. rewrite app_nil_r. auto.
  - intros dec m pos lim Hle. unfold parse_rdata, parse_type, unknown_schema.
    cbn [s_long s_fields parse_fields parse_field Rest].
    destruct (N.ltb_spec (lim - pos) (N.of_nat 0)) as [L|L]; [lia|].
    unfold rd. destruct (N.ltb_spec (lim - pos) (lim - pos)) as [L2|L2]; [lia|].
    cbn [bind fst snd]. replace (pos + (lim - pos)) with lim by lia.
    rewrite N.eqb_refl. reflexivity.
Qed.

Example unknown_opaque_nonvacuous :
  schema_of 65280 = Some unknown_schema /\ schema_of 99 = Some unknown_schema /\
  schema_of 45 = None /\
  parse_rdata pname_dec unknown_schema [9;9;1;2;3;9] 2 5 = Ok [VBytes [1;2;3]].
Proof. vm_compute. auto. Qed.

(* RFC 4034 6.2 as amended by RFC 6840 5.1: the rows of the table *)
Theorem lower_flags_are_rfc :
  forallb row_follows_rfc schema_table_regular = true.
Proof. vm_compute. reflexivity. Qed.

(* all types with embedded names, the irregular ones included, read from the
   compose_canonical_rdata bodies: a type lower-cases iff the RFCs list it *)
Theorem lowercasing_types_are_rfc :
  forallb (fun t => Bool.eqb (memN t Gen.lower_types_src) (memN t rfc4034_6_2_types)) Gen.name_types_src = true /\
  forallb (fun t => memN t Gen.name_types_src) Gen.lower_types_src = true.
Proof. split; vm_compute; reflexivity. Qed.

(* the canonical form of a row differs from the wire form only in the names
   of the listed types: for unlisted types it is the wire form *)
Theorem canonical_unlisted_is_wire t s v :
  In (t, s) schema_table_regular -> memN t rfc4034_6_2_types = false ->
  compose_canonical s v = compose s v.
Proof.
  intros Hin Hm. apply canonical_is_wire_without_flags.
  pose proof lower_flags_are_rfc as H. rewrite forallb_forall in H. specialize (H _ Hin).
  unfold row_follows_rfc, memN in *. rewrite Hm in H. apply negb_true_iff in H.
  apply forallb_forall. intros f Hf. destruct (no_lower f) eqn:E; [reflexivity|].
  rewrite <- H. apply existsb_exists. exists f. split; [exact Hf|].
  destruct f as [| |c [|]| | | | |]; (discriminate || reflexivity).
Qed.

(* one witness for every type whose constructor takes an over-long value:
   the constructor accepts, rdlen() panics.  The 65 k octets stay symbolic. *)
Ltac long_witness :=
  unfold ctor_accepts, rdlen, total_len, has_compressible;
  cbn -[zeros N.ltb N.leb N.add];
  rewrite ?bytesb_zeros, ?len_zeros, ?length_zeros; cbn -[zeros]; auto.

Theorem ctor_long_TLSA_refuted :
  let s := plain [U8; U8; U8; Rest] in let v := [VNum 0; VNum 0; VNum 0; VBytes (zeros 65533)] in
  schema_of 52 = Some s /\ ctor_accepts s v = true /\ rdlen s false v = Panic P_LONG.
Proof. cbv zeta. split; [reflexivity|]. split; long_witness. Qed.

Theorem ctor_long_SSHFP_refuted :
  let s := plain [U8; U8; Rest] in let v := [VNum 0; VNum 0; VBytes (zeros 65534)] in
  schema_of 44 = Some s /\ ctor_accepts s v = true /\ rdlen s false v = Panic P_LONG.
Proof. cbv zeta. split; [reflexivity|]. split; long_witness. Qed.

Theorem ctor_long_OPENPGPKEY_refuted :
  let s := plain [Rest] in let v := [VBytes (zeros 65536)] in
  schema_of 61 = Some s /\ ctor_accepts s v = true /\ rdlen s false v = Panic P_LONG.
Proof. cbv zeta. split; [reflexivity|]. split; long_witness. Qed.

Theorem ctor_long_ZONEMD_refuted :
  let s := plain [U32; U8; U8; FRest 12] in let v := [VNum 0; VNum 0; VNum 0; VBytes (zeros 65530)] in
  schema_of 63 = Some s /\ ctor_accepts s v = true /\ rdlen s false v = Panic P_LONG.
Proof. cbv zeta. split; [reflexivity|]. split; long_witness. Qed.

Theorem ctor_long_CAA_refuted :
  let s := plain [U8; CaaTagStr; Rest] in let v := [VNum 0; VBytes [97]; VBytes (zeros 65533)] in
  schema_of 257 = Some s /\ ctor_accepts s v = true /\ rdlen s false v = Panic P_LONG.
Proof. cbv zeta. split; [reflexivity|]. split; long_witness. Qed.

Theorem ctor_long_IPSECKEY_refuted :
  let s := ipseckey_schema 0 in let v := [VNum 0; VNum 0; VNum 1; VBytes (zeros 65533)] in
  ctor_accepts s v = true /\ rdlen s false v = Panic P_LONG.
Proof. cbv zeta. split; long_witness. Qed.

Theorem ctor_rdlen_refuted :
  exists t s v, schema_of t = Some s /\ ctor_accepts s v = true /\ rdlen s false v = Panic P_LONG.
Proof. do 3 eexists. exact ctor_long_TLSA_refuted. Qed.

Theorem ctor_roundtrip_refuted :
  exists t s v, schema_of t = Some s /\ ctor_accepts s v = true /\
    parse_rdata pname_dec s (compose s v) 0 (len (compose s v)) = Err E_SHORT.
Proof.
  exists 63, (plain [U32; U8; U8; FRest 12]), [VNum 1; VNum 1; VNum 1; VBytes (repeat 7 11)].
  vm_compute. auto.
Qed.

Lemma schema_of_post t s v : schema_of t = Some s -> post_ok (s_post s) v = true.
Proof.
  intros H.
  apply (schema_of_forall (fun s => match s_post s with PNone => true | _ => false end)) in H;
    [|vm_compute; reflexivity|reflexivity].
  destruct (s_post s); try discriminate. reflexivity.
Qed.

Theorem table_ctor_sound t s v pre post :
  schema_of t = Some s -> ctor_accepts s v = true ->
  overlong s v = false -> short_rest s v = false ->
  parse_rdata pname_dec s (pre ++ compose s v ++ post) (len pre) (len pre + len (compose s v)) = Ok v /\
  rdlen s false v = Ok (Some (len (compose s v))).
Proof.
  intros Hs Hc Ho Hr. apply (roundtrip_exact pname_dec s v pre post pname_dec_complete (schema_of_wf t s Hs)).
  exact (ctor_accepts_wf s v Hc Ho Hr (schema_of_post t s v Hs)).
Qed.

Lemma bytes_eqb_refl b : bytes_eqb b b = true.
Proof. induction b as [|x b IH]; [reflexivity|]. cbn [bytes_eqb]. rewrite N.eqb_refl, IH. reflexivity. Qed.

Lemma bytes_eqb_eq a b : bytes_eqb a b = true <-> a = b.
Proof.
  revert b; induction a as [|x a IH]; intros [|y b]; cbn [bytes_eqb]; split; intros H;
    try reflexivity; try discriminate.
  - apply andb_true_iff in H as [H1 H2]. apply N.eqb_eq in H1. apply IH in H2. congruence.
  - injection H as -> ->. rewrite N.eqb_refl. apply IH. reflexivity.
Qed.

Lemma unknown_eq_iff t1 b1 t2 b2 : unknown_eq t1 b1 t2 b2 = true <-> t1 = t2 /\ b1 = b2.
Proof. unfold unknown_eq. rewrite andb_true_iff, N.eqb_eq, bytes_eqb_eq. reflexivity. Qed.

Theorem unknown_eq_spec t1 b1 t2 b2 :
  Gen.all_eq_has_unknown_arm = true ->
  (all_eq_unknown t1 b1 t2 b2 = true <-> t1 = t2 /\ b1 = b2).
Proof. intros H. unfold all_eq_unknown. rewrite H. apply unknown_eq_iff. Qed.

(* the zone enum has the arm (T1 flag zone_eq_has_unknown_arm) *)
Theorem zone_unknown_eq_spec t1 b1 t2 b2 :
  zone_eq_unknown t1 b1 t2 b2 = true <-> t1 = t2 /\ b1 = b2.
Proof. exact (unknown_eq_iff t1 b1 t2 b2). Qed.

Theorem allrecorddata_eq_unknown_refuted :
  Gen.all_eq_has_unknown_arm = false -> forall t b, all_eq_unknown t b t b = false.
Proof. intros H t b. unfold all_eq_unknown. rewrite H. reflexivity. Qed.

Example eq_unknown_example : zone_eq_unknown 99 [1;2] 99 [1;2] = true /\ zone_eq_unknown 99 [1;2] 98 [1;2] = false.
Proof. vm_compute. auto. Qed.

(* non-vacuity of the table theorems: an MX value in the middle of a message *)
Example table_example :
  exists s, schema_of 15 = Some s /\
  wf_value s [VNum 10; VName [[109;120]; [65]]] = true /\
  compose s [VNum 10; VName [[109;120]; [65]]] = [0;10;2;109;120;1;65;0] /\
  compose_canonical s [VNum 10; VName [[109;120]; [65]]] = [0;10;2;109;120;1;97;0] /\
  rdlen s true [VNum 10; VName [[109;120]; [65]]] = Ok None /\
  (* compressed input: the exchange is "mx" + pointer to offset 1 *)
  parse_rdata pname_dec s [9;1;65;0;0;10;2;109;120;192;1] 4 11 = Ok [VNum 10; VName [[109;120]; [65]]].
Proof. exists (plain [U16; NameC true]). vm_compute. repeat split; reflexivity. Qed.

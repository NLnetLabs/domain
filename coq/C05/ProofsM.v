(* C05 ProofsM.v -- ProofsP.inbuf_refines_list on all push sequences of length
   <= 5 over 5 keys (duplicates included; data lengths differ per key so that
   offsets differ), and a buffer worked out. *)
From Coq Require Import Arith NArith List Lia.
From DV Require Import Base.Outcome Base.Bytes C05.OptModel C05.SvcModel C05.SvcBuf C05.ProofsP.
Import ListNotations.
Local Open Scope N_scope.

Definition opt_of_key (k : N) : edns_option := (7 * k + 1, repeat k (N.to_nat k)).
Fixpoint seqs (n : nat) (keys : list N) : list (list N) :=
  match n with
  | O => [[]]
  | S n' => [] :: flat_map (fun s => map (fun k => k :: s) keys) (seqs n' keys)
  end.

Lemma seqs_bound n keys : forall s, In s (seqs n keys) ->
  (length s <= n)%nat /\ Forall (fun k => In k keys) s.
Proof.
  induction n as [|n IH]; intros s H; cbn [seqs] in H.
  - destruct H as [<-|[]]. split; [apply Nat.le_refl|constructor].
  - destruct H as [<-|H]; [split; [apply Nat.le_0_l|constructor]|].
    apply in_flat_map in H as [s' [Hs' H]]. apply in_map_iff in H as [k [<- Hk]].
    destruct (IH _ Hs') as [Hl Hf]. split; [simpl; lia|constructor; assumption].
Qed.

(* 12 octets of framing and at most 4 of data for every push *)
Lemma psize_keys s : Forall (fun k => k <= 4) s ->
  psize (map opt_of_key s) <= 16 * N.of_nat (length s).
Proof.
  induction 1 as [|k s Hk _ IH]; [reflexivity|].
  cbn [map psize fold_right length opt_of_key snd]. fold (psize (map opt_of_key s)).
  unfold len. rewrite repeat_length. lia.
Qed.

Theorem inbuf_refines_list_bounded s :
  In s (seqs 5 [0; 1; 2; 3; 4]) ->
  match svc_build (map opt_of_key s) with
  | Some b => inbuf_build (map opt_of_key s) = Some (Ok b)
  | None => inbuf_build (map opt_of_key s) = None
  end.
Proof.
  intros H. apply inbuf_refines_list. apply seqs_bound in H as [Hl Hf].
  assert (Hk : Forall (fun k => k <= 4) s).
  { eapply Forall_impl; [|exact Hf]. cbn [In]. intros k Hk. lia. }
  pose proof (psize_keys s Hk). unfold PMAX. lia.
Qed.

Example inbuf_example :
  inbuf_build [(3, [1;187]); (1, [2;104;50]); (0, [0;1])]
    = Some (Ok [0;0;0;2;0;1; 0;1;0;3;2;104;50; 0;3;0;2;1;187]) /\
  inbuf_build [(3, []); (1, []); (3, [1])] = None /\
  (* the buffer after pushing keys 3, 1: physical order 3, 1; chain 1 -> 3 *)
  push_all empty_buf [(3, [9]); (1, [])] =
    Some (mkBuf 13 [mkCell 4 3 [9] PMAX; mkCell 13 1 [] 4] 21).
Proof. vm_compute. auto. Qed.

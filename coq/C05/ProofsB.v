(* C05 ProofsB.v -- schema-generic theorems: parse after compose, exact
   lengths, the canonical form.  Generic in the name decoder: everything is
   proved for any decoder that reads back uncompressed names (dec_complete);
   ProofsC.v and ProofsD.v show that the decoders of Schema.v have that property. *)
From Coq Require Import Arith NArith List Bool Lia.
From DV Require Import Base.Outcome Base.Bytes Base.Names C05.Schema C05.Model C05.ProofsA.
Import ListNotations.
Local Open Scope N_scope.

Definition dec_complete (dec : decoder) : Prop :=
  forall pre n post lim, valid_abs n -> len pre + len (wire_abs n) <= lim ->
    lim <= len (pre ++ wire_abs n ++ post) ->
    dec (pre ++ wire_abs n ++ post) (len pre) lim = Ok (n, len pre + len (wire_abs n)).

Definition dec_sound (dec : decoder) : Prop :=
  forall m pos lim n e, wf_bytes m -> dec m pos lim = Ok (n, e) -> valid_abs n.

Lemma len_cons (b : N) (l : bytes) : len (b :: l) = 1 + len l.
Proof. unfold len. simpl length. lia. Qed.

Lemma len_nil : len [] = 0.
Proof. reflexivity. Qed.

Lemma len_be w n : len (be w n) = N.of_nat w.
Proof. unfold len. rewrite be_length. reflexivity. Qed.

Lemma strb_spec b : strb b = true -> (length b <= 255)%nat /\ wf_bytes b.
Proof.
  intros H. apply andb_true_iff in H as [Hl Hb].
  split; [apply Nat.leb_le, Hl|apply bytesb_spec, Hb].
Qed.

Lemma len_wire_abs n : len (wire_abs n) = N.of_nat (wire_len n) + 1.
Proof. unfold len. rewrite wire_abs_length. lia. Qed.

Lemma len_strs l :
  len (concat (map charstr_wire l)) = fold_right (fun b a => len b + 1 + a) 0 l.
Proof.
  induction l as [|b l IH]; [reflexivity|].
  cbn [map concat fold_right]. rewrite len_app, IH. unfold charstr_wire.
  rewrite len_cons. lia.
Qed.

(* of any value: on one that does not fit the schema both sides stop at the
   same field *)
Lemma field_len_compose canon f x : field_len f x = len (compose_field canon f x).
Proof.
  destruct f, x; try reflexivity; cbn [field_len compose_field].
  - rewrite len_be. reflexivity.
  - destruct (canon && lower); rewrite len_wire_abs; [rewrite canon_wire_len|]; reflexivity.
  - unfold charstr_wire. rewrite len_cons. lia.
  - rewrite len_strs. reflexivity.
  - rewrite len_app, len_be. lia.
Qed.

Lemma fields_len_compose canon s : forall v, fields_len s v = len (compose_fields canon s v).
Proof.
  induction s as [|f s IH]; intros [|x v]; try reflexivity.
  cbn [fields_len compose_fields]. rewrite len_app, <- IH, <- field_len_compose. reflexivity.
Qed.

Lemma wf_fvals_any ctor s v :
  wf_fvals ctor s v = true ->
  forall canon, fields_len s v = len (compose_fields canon s v).
Proof. intros _ canon. apply fields_len_compose. Qed.

Section Generic.
Variable dec : decoder.
Hypothesis Hdec : dec_complete dec.

Lemma rd_charstr_at m pos lim pre b post :
  m = pre ++ charstr_wire b ++ post -> pos = len pre -> pos + 1 + len b <= lim ->
  rd8 m pos lim = Ok (len b, pos + 1) /\ rd m (pos + 1) lim (len b) = Ok (b, pos + 1 + len b).
Proof.
  intros -> -> H. split.
  - apply (rd8_at _ _ _ pre (len b) (b ++ post)); [reflexivity|reflexivity|lia].
  - apply (rd_at _ _ _ _ (pre ++ [len b]) b post); [|rewrite len_app; reflexivity|reflexivity|lia].
    rewrite <- app_assoc. reflexivity.
Qed.

Lemma parse_strs_compose l : forall fuel pre post acc lim,
  (length l < fuel)%nat ->
  lim = len pre + len (concat (map charstr_wire l)) ->
  parse_strs fuel (pre ++ concat (map charstr_wire l) ++ post) (len pre) lim acc
  = Ok (rev acc ++ l, lim).
Proof.
  induction l as [|b l IH]; intros fuel pre post acc lim Hf Hl;
    (destruct fuel as [|fuel]; [simpl in Hf; lia|]); cbn [parse_strs map concat] in *.
  - rewrite len_nil in Hl.
    destruct (N.eqb_spec (lim - len pre) 0) as [E|E]; [|lia].
    rewrite app_nil_r. f_equal. f_equal. lia.
  - set (tail := concat (map charstr_wire l)) in *.
    assert (Hb : len (charstr_wire b) = 1 + len b) by apply len_cons.
    rewrite len_app in Hl.
    destruct (N.eqb_spec (lim - len pre) 0) as [E|E]; [lia|].
    destruct (rd_charstr_at (pre ++ (charstr_wire b ++ tail) ++ post) (len pre) lim pre b (tail ++ post))
      as [E8 Er]; [rewrite <- app_assoc; reflexivity|reflexivity|lia|].
    rewrite E8. cbn [bind fst snd]. rewrite Er. cbn [bind fst snd].
    replace (pre ++ (charstr_wire b ++ tail) ++ post)
      with ((pre ++ charstr_wire b) ++ tail ++ post)
      by (rewrite <- !app_assoc; reflexivity).
    replace (len pre + 1 + len b) with (len (pre ++ charstr_wire b)) by (rewrite len_app; lia).
    rewrite IH; [|simpl in Hf; lia|rewrite len_app; lia].
    cbn [rev]. rewrite <- app_assoc. reflexivity.
Qed.

Lemma strs_count l : N.of_nat (length l) <= len (concat (map charstr_wire l)).
Proof.
  induction l as [|b l IH]; [cbn; lia|].
  cbn [map concat length]. rewrite len_app. unfold charstr_wire at 1. rewrite len_cons. lia.
Qed.

Lemma parse_field_at f x m pos lim pre post :
  wf_fval false f x = true ->
  m = pre ++ compose_field false f x ++ post -> pos = len pre -> lim <= len m ->
  (delimited f = true /\ pos + len (compose_field false f x) <= lim) \/
  lim = pos + len (compose_field false f x) ->
  parse_field dec f m pos lim = Ok (x, pos + len (compose_field false f x)).
Proof.
  intros Hw Hm Hp Hmax Hlim.
  assert (Hle : pos + len (compose_field false f x) <= lim) by (destruct Hlim as [[_ H]|H]; lia).
  destruct f, x; try discriminate; cbn [wf_fval compose_field parse_field] in *.
  - (* FNum *)
    rewrite len_be in *.
    rewrite (rd_at _ _ _ _ pre (be w n) post Hm Hp); [|rewrite len_be; reflexivity|exact Hle].
    cbn [bind fst snd]. rewrite of_be_be by lia. reflexivity.
  - (* FFix *)
    apply andb_true_iff in Hw as [Hk _]. apply Nat.eqb_eq in Hk.
    rewrite (rd_at _ _ _ _ pre b post Hm Hp); [| unfold len; lia | rewrite <- Hk; exact Hle].
    cbn [bind fst snd]. f_equal. f_equal. unfold len. lia.
  - (* FName *)
    cbn [andb] in *. subst m pos.
    rewrite Hdec; [reflexivity| |exact Hle|exact Hmax].
    apply valid_relb_spec. exact Hw.
  - (* FCharStr *)
    apply andb_true_iff in Hw as [Hs Hc]. unfold charstr_wire in Hle. rewrite len_cons in Hle.
    destruct (rd_charstr_at m pos lim pre b post Hm Hp) as [E8 Er]; [lia|].
    rewrite E8. cbn [bind fst snd]. rewrite Er. cbn [bind fst snd]. rewrite Hc.
    unfold charstr_wire. rewrite len_cons. f_equal. f_equal. lia.
  - (* FCharStrs *)
    destruct Hlim as [[Hd _]|Hlim]; [discriminate|].
    apply andb_true_iff in Hw as [Hs _]. subst m pos.
    rewrite parse_strs_compose; [| |exact Hlim].
    + cbn [bind fst snd rev app]. f_equal. f_equal. lia.
    + pose proof (strs_count l). lia.
  - (* FLen16 *)
    apply andb_true_iff in Hw as [Hl _]. rewrite len_app, len_be in *.
    rewrite (rd_at _ _ _ _ pre (be 2 (len b)) (b ++ post)); [| |exact Hp|rewrite len_be; reflexivity|lia].
    2:{ rewrite Hm. rewrite <- !app_assoc. reflexivity. }
    cbn [bind fst snd]. rewrite of_be_be by (cbn [pow256]; lia).
    rewrite (rd_at _ _ _ _ (pre ++ be 2 (len b)) b post); [| |rewrite len_app, len_be; lia|reflexivity|lia].
    2:{ rewrite Hm. rewrite <- !app_assoc. reflexivity. }
    cbn [bind fst snd]. f_equal. f_equal. lia.
  - (* FRest *)
    destruct Hlim as [[Hd _]|Hlim]; [discriminate|].
    cbn [orb] in Hw. apply andb_true_iff in Hw as [Hmin _]. apply Nat.leb_le in Hmin.
    destruct (N.ltb_spec (lim - pos) (N.of_nat min)) as [L|L]; [unfold len in *; lia|].
    rewrite (rd_at _ _ _ _ pre b post Hm Hp); [| lia | lia].
    cbn [bind fst snd]. f_equal. f_equal. lia.
  - (* FChecked *)
    destruct Hlim as [[Hd _]|Hlim]; [discriminate|].
    apply andb_true_iff in Hw as [_ Hc].
    rewrite (rd_at _ _ _ _ pre b post Hm Hp); [| lia | lia].
    cbn [bind fst snd]. destruct (rest_check k b); [discriminate|].
    f_equal. f_equal. lia.
Qed.

Lemma parse_fields_compose s : forall v pre post lim,
  wf_fields s = true -> wf_fvals false s v = true ->
  lim = len pre + len (compose_fields false s v) ->
  parse_fields dec s (pre ++ compose_fields false s v ++ post) (len pre) lim = Ok (v, lim).
Proof.
  induction s as [|f s IH]; intros [|x v] pre post lim Hs Hv Hl; cbn [wf_fvals] in Hv;
    try discriminate.
  - cbn [parse_fields compose_fields] in *. rewrite len_nil in Hl. f_equal. f_equal. lia.
  - apply andb_true_iff in Hv as [Hx Hv].
    cbn [compose_fields parse_fields] in *. rewrite len_app in Hl.
    set (cf := compose_field false f x) in *. set (rest := compose_fields false s v) in *.
    assert (Hd : (delimited f = true /\ len pre + len cf <= lim) \/ lim = len pre + len cf).
    { destruct s as [|g s'].
      - right. destruct v; [|discriminate]. subst rest. cbn [compose_fields] in Hl.
        rewrite len_nil in Hl. lia.
      - left. cbn [wf_fields] in Hs. apply andb_true_iff in Hs as [Hs _]. split; [exact Hs|lia]. }
    rewrite (parse_field_at f x _ (len pre) lim pre (rest ++ post) Hx); [| |reflexivity| |exact Hd].
    2:{ subst cf. rewrite <- !app_assoc. reflexivity. }
    2:{ rewrite !len_app. lia. }
    cbn [bind fst snd]. fold cf.
    replace (pre ++ (cf ++ rest) ++ post) with ((pre ++ cf) ++ rest ++ post)
      by (rewrite <- !app_assoc; reflexivity).
    replace (len pre + len cf) with (len (pre ++ cf)) by (rewrite len_app; reflexivity).
    subst rest. rewrite (IH v (pre ++ cf) post lim).
    + reflexivity.
    + destruct s as [|g s']; [reflexivity|]. cbn [wf_fields] in Hs.
      apply andb_true_iff in Hs as [_ Hs]. exact Hs.
    + exact Hv.
    + rewrite len_app. lia.
Qed.

(* the octets of the fixed-width fields; the leading LongRecordData check (s_long) may ask for no more *)
Fixpoint fixed_len (s : list field) : N :=
  match s with
  | FNum w :: s' => N.of_nat w + fixed_len s'
  | FFix k :: s' => N.of_nat k + fixed_len s'
  | _ :: s' => fixed_len s'
  | [] => 0
  end.

Definition wf_schema_full (s : schema) : bool :=
  wf_schema s &&
  match s_long s with Some k => k <=? fixed_len (s_fields s) | None => true end.

Lemma fixed_len_le s : forall v, wf_fvals false s v = true -> fixed_len s <= fields_len s v.
Proof.
  induction s as [|f s IH]; intros [|x v] H; cbn [wf_fvals] in H; try discriminate.
  apply andb_true_iff in H as [Hx Hv]. specialize (IH _ Hv).
    destruct f, x; try discriminate; cbn [fixed_len fields_len field_len]; try lia.
    cbn [wf_fval] in Hx. apply andb_true_iff in Hx as [Hk _]. apply Nat.eqb_eq in Hk.
    unfold len. lia.
Qed.

Lemma fields_len_fixed s : forall v,
  forallb is_fixed s = true -> wf_fvals false s v = true -> fields_len s v = fixed_len s.
Proof.
  induction s as [|f s IH]; intros [|x v] Hs H; cbn [wf_fvals forallb] in *; try discriminate; [reflexivity|].
  apply andb_true_iff in H as [Hx Hv]. apply andb_true_iff in Hs as [Hf Hs]. specialize (IH _ Hs Hv).
  destruct f, x; try discriminate; cbn [fixed_len fields_len field_len]; [lia|].
  cbn [wf_fval] in Hx. apply andb_true_iff in Hx as [Hk _]. apply Nat.eqb_eq in Hk. unfold len. lia.
Qed.

Lemma wf_value_iff s v :
  wf_value s v = true <->
  wf_fvals false (s_fields s) v = true /\ total_len s v <= 65535 /\ post_ok (s_post s) v = true.
Proof.
  unfold wf_value. split.
  - intros H. apply andb_true_iff in H as [H Hp]. apply andb_true_iff in H as [Hv Ht].
    apply N.leb_le in Ht. auto.
  - intros [Hv [Ht Hp]]. apply N.leb_le in Ht. rewrite Hv, Ht, Hp. reflexivity.
Qed.

Theorem parse_compose s v pre post :
  wf_schema_full s = true -> wf_value s v = true ->
  parse_rdata dec s (pre ++ compose s v ++ post) (len pre) (len pre + len (compose s v)) = Ok v.
Proof.
  unfold wf_schema_full, wf_schema. intros Hs Hv.
  apply andb_true_iff in Hs as [Hs Hk]. apply wf_value_iff in Hv as [Hv [Ht Hpost]].
  unfold compose. set (lim := len pre + len (compose_fields false (s_fields s) v)).
  assert (Hty : parse_type dec s (pre ++ compose_fields false (s_fields s) v ++ post) (len pre) lim
                = Ok (v, lim)).
  { pose proof (parse_fields_compose (s_fields s) v pre post _ Hs Hv eq_refl) as Hpf.
    unfold parse_type. destruct (s_long s) as [k|]; [|exact Hpf].
    pose proof (fields_len_compose false (s_fields s) v). pose proof (fixed_len_le _ _ Hv).
    unfold total_len in Ht.
    destruct (N.ltb_spec (lim - len pre) k); [lia|].
    destruct (N.ltb_spec 65535 (lim - len pre - k)); [lia|]. exact Hpf. }
  unfold parse_rdata. rewrite Hty. cbn [bind fst snd]. rewrite N.eqb_refl.
  unfold post_ok in Hpost. destruct (post_check (s_post s) v); [discriminate|reflexivity].
Qed.

End Generic.

Theorem rdlen_exact s v :
  wf_value s v = true ->
  rdlen s false v = Ok (Some (len (compose s v))) /\
  rdlen s true v = (if has_compressible s then Ok None else Ok (Some (len (compose s v)))).
Proof.
  intros H. apply wf_value_iff in H as [_ [Ht _]]. unfold rdlen, compose.
  rewrite <- fields_len_compose. fold (total_len s v).
  destruct (N.ltb_spec 65535 (total_len s v)); [lia|].
  cbn [andb]. destruct (has_compressible s); auto.
Qed.

Theorem roundtrip_exact dec s v pre post :
  dec_complete dec -> wf_schema_full s = true -> wf_value s v = true ->
  parse_rdata dec s (pre ++ compose s v ++ post) (len pre) (len pre + len (compose s v)) = Ok v /\
  rdlen s false v = Ok (Some (len (compose s v))).
Proof. intros Hd Hs Hv. split; [apply parse_compose; assumption|apply (rdlen_exact s v Hv)]. Qed.

Theorem rdlen_never_lies s v c k :
  ctor_accepts s v = true -> rdlen s c v = Ok (Some k) -> k = len (compose s v).
Proof.
  intros _. unfold rdlen, total_len, compose. rewrite <- fields_len_compose.
  destruct (c && has_compressible s); [discriminate|].
  destruct (65535 <? fields_len (s_fields s) v); [discriminate|].
  intros E. injection E as <-. reflexivity.
Qed.

Lemma compose_fields_lower c c' :
  (forall f x, compose_field c f (lower_field f x) = compose_field c' f x) ->
  forall l v, compose_fields c l (lower_flagged_fields l v) = compose_fields c' l v.
Proof.
  intros Hf. induction l as [|f l IH]; intros [|x v]; cbn [compose_fields lower_flagged_fields];
    try reflexivity.
  rewrite Hf, IH. reflexivity.
Qed.

Theorem canonical_only_lowercases s v :
  compose_canonical s v = compose s (lower_flagged s v).
Proof.
  symmetry. apply compose_fields_lower. intros f x.
  destruct f as [w|k|c l|chk| | |mn|ck], x; try reflexivity; destruct l; reflexivity.
Qed.

Definition no_lower (f : field) : bool := match f with FName _ true => false | _ => true end.

Theorem canonical_is_wire_without_flags s v :
  forallb no_lower (s_fields s) = true -> compose_canonical s v = compose s v.
Proof.
  unfold compose_canonical, compose. generalize (s_fields s) as l. intros l. revert v.
  induction l as [|f l IH]; intros [|x v] H; cbn [compose_fields forallb] in *; try reflexivity.
  apply andb_true_iff in H as [Hf Hl]. rewrite (IH _ Hl). f_equal.
  destruct f, x; try reflexivity. destruct lower; [discriminate|reflexivity].
Qed.

Theorem canonical_same_length s v :
  wf_value s v = true -> len (compose_canonical s v) = len (compose s v).
Proof.
  intros _. unfold compose_canonical, compose. rewrite <- !fields_len_compose. reflexivity.
Qed.

Theorem canonical_idempotent s v :
  compose_canonical s (lower_flagged s v) = compose_canonical s v.
Proof.
  apply compose_fields_lower. intros f x.
  destruct f as [w|k|c lw|chk| | |mn|ck], x; try reflexivity; destruct lw;
    cbn [lower_field compose_field andb]; rewrite ?canon_idem; reflexivity.
Qed.

Lemma lookup_in t l s : lookup t l = Some s -> In (t, s) l.
Proof.
  induction l as [|[k s'] l IH]; cbn [lookup]; [discriminate|].
  destruct (N.eqb_spec k t) as [->|_]; intros H.
  - injection H as ->. left. reflexivity.
  - right. apply IH. exact H.
Qed.

Lemma lookup_forallb (P : schema -> bool) t s l :
  forallb (fun r => P (snd r)) l = true -> lookup t l = Some s -> P s = true.
Proof. intros H E. rewrite forallb_forall in H. exact (H _ (lookup_in _ _ _ E)). Qed.

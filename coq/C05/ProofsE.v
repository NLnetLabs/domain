(* C05 ProofsE.v -- EDNS option framing: the framed length is the sum of
   4 + data length, a framed list iterates as itself, Opt::push keeps the OPT
   data within 65535 octets exactly when it counts the option header. *)
From Coq Require Import NArith List Lia.
From DV Require Import Base.Outcome Base.Bytes Base.PName C05.Schema C05.Gen C05.OptModel C05.ProofsA C05.ProofsB.
Import ListNotations.
Local Open Scope N_scope.

Definition framed_len (l : list edns_option) : N :=
  fold_right (fun o a => 4 + len (snd o) + a) 0 l.

Lemma frame1_len o : len (frame1 o) = 4 + len (snd o).
Proof. unfold frame1. rewrite !len_app, !len_be. lia. Qed.

Theorem opt_frame_len l : len (opt_frame l) = framed_len l.
Proof.
  unfold opt_frame, framed_len. induction l as [|o l IH]; [reflexivity|].
  cbn [map concat fold_right]. rewrite len_app, frame1_len, IH. lia.
Qed.

Definition wf_option (o : edns_option) : Prop := fst o < 65536 /\ len (snd o) <= 65535.

Lemma opt_iter_frame l : forall fuel pre post acc lim,
  Forall wf_option l -> (length l < fuel)%nat ->
  lim = len pre + len (opt_frame l) ->
  opt_iter fuel (pre ++ opt_frame l ++ post) (len pre) lim acc = Ok (rev acc ++ l).
Proof.
  induction l as [|[c d] l IH]; intros fuel pre post acc lim Hw Hf Hl;
    (destruct fuel as [|fuel]; [simpl in Hf; lia|]); cbn [opt_iter].
  - unfold opt_frame in Hl. cbn [map concat] in Hl. rewrite len_nil in Hl.
    destruct (N.eqb_spec (lim - len pre) 0) as [_|E]; [|lia]. rewrite app_nil_r. reflexivity.
  - apply Forall_cons_iff in Hw as [[Hc Hd] Hw']. cbn [fst snd] in *.
    unfold opt_frame in *. cbn [map concat] in *. set (tail := concat (map frame1 l)) in *.
    rewrite len_app, frame1_len in Hl. cbn [snd] in Hl.
    destruct (N.eqb_spec (lim - len pre) 0) as [E|_]; [lia|].
    unfold frame1 at 1. cbn [fst snd].
    rewrite (rd_at _ _ _ _ pre (be 2 c) (be 2 (len d) ++ d ++ tail ++ post));
      [| rewrite <- !app_assoc; reflexivity | reflexivity | rewrite len_be; reflexivity | rewrite ?len_be; lia].
    cbn [bind fst snd].
    rewrite (rd_at _ _ _ _ (pre ++ be 2 c) (be 2 (len d)) (d ++ tail ++ post));
      [| rewrite <- !app_assoc; reflexivity | rewrite len_app, len_be; reflexivity
       | rewrite len_be; reflexivity | rewrite ?len_be; lia].
    cbn [bind fst snd]. rewrite !of_be_be by (cbn [pow256]; lia).
    rewrite (rd_at _ _ _ _ (pre ++ be 2 c ++ be 2 (len d)) d (tail ++ post));
      [| rewrite <- !app_assoc; reflexivity | rewrite !len_app, !len_be; lia | reflexivity | lia].
    cbn [bind fst snd].
    replace (pre ++ (frame1 (c, d) ++ tail) ++ post)
      with ((pre ++ frame1 (c, d)) ++ tail ++ post)
      by (rewrite <- !app_assoc; reflexivity).
    replace (len pre + 2 + 2 + len d) with (len (pre ++ frame1 (c, d)))
      by (rewrite len_app, frame1_len; cbn [snd]; lia).
    rewrite IH.
    + cbn [rev]. rewrite <- app_assoc. reflexivity.
    + exact Hw'.
    + simpl in Hf. lia.
    + rewrite len_app, frame1_len. cbn [snd]. lia.
Qed.

Lemma options_count l : N.of_nat (length l) <= len (opt_frame l).
Proof.
  rewrite opt_frame_len. induction l as [|o l IH]; cbn [length framed_len fold_right]; [lia|].
  unfold framed_len in IH. lia.
Qed.

Lemma opt_iter_whole l : Forall wf_option l ->
  opt_iter (S (length (opt_frame l))) (opt_frame l) 0 (len (opt_frame l)) [] = Ok l.
Proof.
  intros Hw.
  pose proof (opt_iter_frame l (S (length (opt_frame l))) [] [] [] (len (opt_frame l)) Hw) as H.
  cbn [app] in H. rewrite app_nil_r in H. apply H; [|reflexivity].
  pose proof (options_count l). unfold len in *. lia.
Qed.

Theorem opt_parse_frame l :
  Forall wf_option l -> framed_len l <= 65535 -> opt_parse (opt_frame l) = Ok l.
Proof.
  intros Hw Hl. unfold opt_parse.
  destruct (N.ltb_spec 65535 (len (opt_frame l))) as [L|_]; [rewrite opt_frame_len in L; lia|].
  apply opt_iter_whole, Hw.
Qed.

Theorem opt_push_all_frame l : forall cur r,
  opt_push_all cur l = Some r -> r = cur ++ opt_frame l.
Proof.
  induction l as [|o l IH]; intros cur r H; cbn [opt_push_all] in H.
  - injection H as <-. unfold opt_frame. cbn. rewrite app_nil_r. reflexivity.
  - unfold opt_push in H. destruct (65535 <? len cur + push_header + len (snd o)); [discriminate|].
    apply IH in H. rewrite H. unfold opt_frame. cbn [map concat]. rewrite <- app_assoc. reflexivity.
Qed.

Theorem opt_push_bounded cur o r :
  Gen.opt_push_counts_header = true -> opt_push cur o = Some r -> len r <= 65535.
Proof.
  intros Hh. unfold opt_push, push_header. rewrite Hh.
  destruct (N.ltb_spec 65535 (len cur + 4 + len (snd o))) as [_|L]; [discriminate|].
  intros H. injection H as <-. rewrite len_app, frame1_len. lia.
Qed.

Theorem opt_push_long_refuted :
  Gen.opt_push_counts_header = false ->
  exists o r, opt_push [] o = Some r /\ 65535 < len r.
Proof.
  intros Hh. exists (3, zeros 65532), ([] ++ frame1 (3, zeros 65532)). split.
  - unfold opt_push, push_header. rewrite Hh. cbn [snd]. rewrite len_zeros. reflexivity.
  - rewrite len_app, frame1_len, len_nil. cbn [snd]. rewrite len_zeros. lia.
Qed.

Example opt_frame_example :
  opt_frame [(15, [0;15;99]); (3, [])] = [0;15;0;3;0;15;99;0;3;0;0] /\
  opt_parse [0;15;0;3;0;15;99;0;3;0;0] = Ok [(15, [0;15;99]); (3, [])] /\
  (* a length that announces more than was written swallows the next option *)
  opt_parse [0;15;0;6;0;15;0;3;0;0] = Ok [(15, [0;15;0;3;0;0])] /\
  opt_parse [0;15;0;7;0;15;0;3;0;0] = Err E_SHORT.
Proof. vm_compute. auto. Qed.

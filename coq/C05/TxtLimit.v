(* C05 TxtLimit.v -- TxtBuilder with the RDATA size check (rdata/rfc1035/txt.rs
   builder_append_slice / append_charstr -> LongRecordData::check_append_len):
   every append is refused when it would take the octets written so far beyond
   65535.  The octets written only grow, so an operation goes through exactly
   when the size after it is within the limit.  The size counts one length
   octet per character string, closed or open. *)
From Coq Require Import Arith NArith List Bool Lia.
From DV Require Import Base.Outcome Base.Bytes Base.Names Base.PName C05.Schema C05.Gen C05.TxtModel.
Import ListNotations.
Local Open Scope N_scope.

Definition RDATA_MAX : N := 65535.

Definition strs_size (l : list bytes) : N := fold_right (fun s a => 1 + N.of_nat (length s) + a) 0 l.
Definition txt_size (st : tstate) : N :=
  strs_size (t_closed st) + match t_open st with Some o => 1 + N.of_nat (length o) | None => 0 end.

Definition step_chk (st : option tstate) (op : txt_op) : option tstate :=
  match st with
  | None => None
  | Some s => let s' := txt_step s op in if txt_size s' <=? RDATA_MAX then Some s' else None
  end.

Definition txt_build_chk (ops : list txt_op) : option (list bytes) :=
  match fold_left step_chk ops (Some t_empty) with
  | Some s => Some (txt_finish s)
  | None => None
  end.

(* observation for T2: octets of RDATA, number of strings, length of the last one *)
Definition c05_txtlim (ops : list txt_op) : option (N * N * N) :=
  match txt_build_chk ops with
  | None => None
  | Some l => Some (N.of_nat (length (txt_wire l)), N.of_nat (length l), N.of_nat (length (last l [])))
  end.

(* what is accepted is what the unchecked builder makes, and it fits *)
Lemma fold_chk_none : forall ops, fold_left step_chk ops None = None.
Proof. induction ops; simpl; auto. Qed.

Lemma fold_chk_some : forall ops s s', fold_left step_chk ops (Some s) = Some s' ->
  txt_size s <= RDATA_MAX -> s' = fold_left txt_step ops s /\ txt_size s' <= RDATA_MAX.
Proof.
  induction ops as [|op ops IH]; simpl; intros s s' H Hs.
  - inversion H; subst; auto.
  - destruct (txt_size (txt_step s op) <=? RDATA_MAX) eqn:E.
    + apply N.leb_le in E. apply IH; auto.
    + rewrite fold_chk_none in H. discriminate.
Qed.

Lemma strs_size_cons : forall x l, strs_size (x :: l) = 1 + N.of_nat (length x) + strs_size l.
Proof. reflexivity. Qed.
Lemma strs_size_nil : strs_size [] = 0.
Proof. reflexivity. Qed.

Lemma strs_size_app : forall a b, strs_size (a ++ b) = strs_size a + strs_size b.
Proof. induction a; intros; [reflexivity|]. rewrite <- app_comm_cons, !strs_size_cons, IHa. lia. Qed.

Lemma strs_size_rev : forall l, strs_size (rev l) = strs_size l.
Proof. induction l; [reflexivity|]. simpl rev. rewrite strs_size_app, IHl, !strs_size_cons, strs_size_nil. lia. Qed.

Lemma wire_size : forall l, N.of_nat (length (txt_wire l)) = strs_size l.
Proof.
  induction l; [reflexivity|]. rewrite strs_size_cons, <- IHl. unfold txt_wire, charstr_wire. cbn [map concat app].
  cbn [length]. rewrite Nat2N.inj_succ, app_length, Nat2N.inj_add. lia.
Qed.

Lemma close_size : forall st, txt_size (close st) = txt_size st.
Proof. intros [c [o|]]; unfold close, txt_size; simpl t_open; simpl t_closed; rewrite ?strs_size_cons; lia. Qed.

Lemma finish_size : forall st, N.of_nat (length (txt_wire (txt_finish st))) = N.max 1 (txt_size st).
Proof.
  intro st. rewrite <- (close_size st). unfold txt_finish.
  assert (Hc : t_open (close st) = None) by (destruct st as [c [o|]]; reflexivity).
  unfold txt_size. rewrite Hc, N.add_0_r, <- strs_size_rev.
  destruct (rev (t_closed (close st))) as [|x r] eqn:E.
  - reflexivity.
  - rewrite wire_size. set (n := strs_size (x :: r)). assert (1 <= n) by (unfold n; rewrite strs_size_cons; lia). lia.
Qed.

Theorem txt_build_chk_sound : forall ops l, txt_build_chk ops = Some l ->
  l = txt_build ops /\ N.of_nat (length (txt_wire l)) <= RDATA_MAX.
Proof.
  unfold txt_build_chk, txt_build. intros ops l H.
  destruct (fold_left step_chk ops (Some t_empty)) as [s|] eqn:E; [|discriminate].
  inversion H; subst. apply fold_chk_some in E; [|unfold txt_size, RDATA_MAX; simpl; lia].
  destruct E as [-> E]. split; [reflexivity|]. rewrite finish_size. unfold RDATA_MAX in *. lia.
Qed.

(* the builder that refuses nothing makes the same octets whenever the checked one accepts,
   and data within the limit made of whole character strings is never refused *)
Theorem txt_build_chk_charstrs : forall l, l <> [] -> strs_size l <= RDATA_MAX ->
  txt_build_chk (map TCharStr l) = Some l.
Proof.
  intros l Hne Hsz. unfold txt_build_chk.
  assert (G : forall l c, strs_size c + strs_size l <= RDATA_MAX ->
            fold_left step_chk (map TCharStr l) (Some (mkT c None)) = Some (mkT (rev l ++ c) None)).
  { induction l0 as [|x l0 IH]; intros c Hc; [reflexivity|]. cbn [map fold_left].
    rewrite strs_size_cons in Hc.
    assert (Hs : step_chk (Some (mkT c None)) (TCharStr x) = Some (mkT (x :: c) None)).
    { unfold step_chk, txt_step, close. simpl t_open. simpl t_closed. cbv zeta.
      assert (Hx : txt_size (mkT (x :: c) None) <=? RDATA_MAX = true).
      { apply N.leb_le. unfold txt_size. simpl t_closed. simpl t_open. rewrite strs_size_cons. lia. }
      rewrite Hx. reflexivity. }
    rewrite Hs, IH.
    - simpl rev. rewrite <- app_assoc. reflexivity.
    - rewrite strs_size_cons. lia. }
  unfold t_empty. rewrite G by (rewrite strs_size_nil; lia). unfold txt_finish, close. simpl.
  rewrite app_nil_r, rev_involutive. destruct l; [contradiction|reflexivity].
Qed.

(* T1: check_len's bound as read from the source is the model's, and
   append_charstr checks the length octet together with the content *)
Lemma txt_limit_src_agrees :
  Gen.txt_limit_src = RDATA_MAX /\ Gen.txt_charstr_check_counts_length_octet = true.
Proof. split; reflexivity. Qed.

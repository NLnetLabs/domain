(* C05 ProofsO.v -- the in-buffer SvcParamsBuilder (SvcBuf.v), first half: cells lie contiguously
   (laid), the chain from the first-slot is an ascending permutation l of them, and push_raw's
   scan in physical order finds the neighbours of the new key in l (scan is invariant under
   permutation when the keys are distinct). *)
From Coq Require Import NArith List Bool Lia Permutation.
From DV Require Import Base.Outcome Base.Bytes C05.OptModel C05.SvcModel C05.SvcBuf.
Import ListNotations.
Local Open Scope N_scope.

Definition kd (c : cell) : edns_option := (c_key c, c_data c).
Definition csize (c : cell) : N := 8 + len (c_data c).

Fixpoint laid (p : N) (cells : list cell) (e : N) : Prop :=
  match cells with
  | [] => p = e
  | c :: r => c_start c = p /\ laid (p + csize c) r e
  end.

Lemma laid_bounds cells : forall p e, laid p cells e ->
  p <= e /\ forall c, In c cells -> p <= c_start c /\ c_start c + csize c <= e.
Proof.
  induction cells as [|c r IH]; intros p e H; cbn [laid] in H.
  - split; [lia|intros c []].
  - destruct H as [Hs Hr]. destruct (IH _ _ Hr) as [Hle Hall]. unfold csize in *. split; [lia|].
    intros c' [<-|Hin]; [lia|]. destruct (Hall _ Hin). lia.
Qed.

Lemma laid_app cells : forall p e c, laid p cells e -> c_start c = e ->
  laid p (cells ++ [c]) (e + csize c).
Proof.
  induction cells as [|x r IH]; intros p e c H Hc; cbn [laid app] in *.
  - split; lia.
  - destruct H as [Hs Hr]. split; [exact Hs|]. apply IH; assumption.
Qed.

Lemma laid_map f cells : (forall c, c_start (f c) = c_start c /\ c_data (f c) = c_data c) ->
  forall p e, laid p cells e -> laid p (map f cells) e.
Proof.
  intros Hf. induction cells as [|x r IH]; intros p e H; cbn [laid map] in *; [exact H|].
  destruct H as [Hs Hr]. destruct (Hf x) as [H1 H2]. split; [congruence|].
  unfold csize in *. rewrite H2. apply IH. exact Hr.
Qed.

(* cells do not overlap: any offset taken inside each cell tells them apart *)
Lemma laid_nodup (f : cell -> N) cells :
  (forall c, c_start c <= f c < c_start c + csize c) ->
  forall p e, laid p cells e -> NoDup (map f cells).
Proof.
  intros Hf. induction cells as [|c r IH]; intros p e H; cbn [map]; [constructor|].
  cbn [laid] in H. destruct H as [Hs Hr]. constructor; [|eapply IH; eauto].
  intros Hin. apply in_map_iff in Hin as [c' [E Hc']].
  destruct (laid_bounds _ _ _ Hr) as [_ Hall]. destruct (Hall _ Hc').
  pose proof (Hf c). pose proof (Hf c'). lia.
Qed.

Lemma laid_nodup_start cells p e : laid p cells e -> NoDup (map c_start cells).
Proof. apply laid_nodup. intros c. unfold csize. lia. Qed.

Lemma laid_nodup_slot cells p e : laid p cells e -> NoDup (map slot cells).
Proof. apply laid_nodup. intros c. unfold slot, csize. lia. Qed.

Lemma nodup_map_inj {A B} (f : A -> B) l a b :
  NoDup (map f l) -> In a l -> In b l -> f a = f b -> a = b.
Proof.
  induction l as [|x l IH]; intros Hn Ha Hb E; [contradiction|].
  cbn [map] in Hn. inversion Hn as [|? ? Hx Hn']; subst.
  destruct Ha as [<-|Ha]; destruct Hb as [<-|Hb]; auto.
  - exfalso. apply Hx. rewrite E. apply in_map. exact Hb.
  - exfalso. apply Hx. rewrite <- E. apply in_map. exact Ha.
Qed.

Lemma find_start cells c : NoDup (map c_start cells) -> In c cells ->
  find (fun x => c_start x =? c_start c) cells = Some c.
Proof.
  induction cells as [|x r IH]; intros Hn Hin; [contradiction|]. cbn [find].
  cbn [map] in Hn. inversion Hn as [|? ? Hx Hn']; subst.
  destruct Hin as [<-|Hin]; [rewrite N.eqb_refl; reflexivity|].
  destruct (N.eqb_spec (c_start x) (c_start c)) as [E|_]; [|apply IH; assumption].
  exfalso. apply Hx. rewrite E. apply in_map. exact Hin.
Qed.

Fixpoint chain (q : N) (l : list cell) (e : N) : Prop :=
  match l with
  | [] => q = e
  | c :: r => q = c_start c /\ chain (c_next c) r e
  end.

Lemma chain_app a : forall q b e, chain q (a ++ b) e <-> exists m, chain q a m /\ chain m b e.
Proof.
  induction a as [|c r IH]; intros q b e; cbn [chain app].
  - split; [intros H; exists q; auto|intros [m [-> H]]; exact H].
  - rewrite IH. split.
    + intros [Hq [m [H1 H2]]]. exists m. auto.
    + intros [m [[Hq H1] H2]]. split; [exact Hq|]. exists m. auto.
Qed.

Lemma follow_chain cells : NoDup (map c_start cells) ->
  forall l q fuel, chain q l PMAX -> (forall c, In c l -> In c cells /\ c_start c <> PMAX) ->
  (length l < fuel)%nat -> follow fuel cells q = Ok (map kd l).
Proof.
  intros Hn. induction l as [|c r IH]; intros q fuel Hc Hin Hf;
    (destruct fuel as [|fuel]; [simpl in Hf; lia|]); cbn [follow chain map] in *.
  - subst q. rewrite N.eqb_refl. reflexivity.
  - destruct Hc as [-> Hc]. destruct (Hin c (or_introl eq_refl)) as [Hic Hne].
    destruct (N.eqb_spec (c_start c) PMAX) as [E|_]; [contradiction|].
    rewrite (find_start cells c Hn Hic).
    rewrite (IH (c_next c) fuel Hc); [reflexivity| |simpl in Hf; lia].
    intros c' Hc'. apply Hin. right. exact Hc'.
Qed.

Fixpoint asc (lo : N) (l : list cell) : Prop :=
  match l with [] => True | c :: r => lo <= c_key c /\ asc (c_key c + 1) r end.

Lemma asc_kd l : forall lo, asc lo l -> ascending lo (map kd l) = true.
Proof.
  induction l as [|c r IH]; intros lo H; cbn [asc map ascending] in *; [reflexivity|].
  destruct H as [H1 H2]. apply andb_true_iff. split; [apply N.leb_le; exact H1|]. apply IH. exact H2.
Qed.

Lemma asc_ge l : forall lo, asc lo l -> forall c, In c l -> lo <= c_key c.
Proof.
  induction l as [|x r IH]; intros lo H c Hin; [contradiction|]. cbn [asc] in H. destruct H as [H1 H2].
  destruct Hin as [<-|Hin]; [exact H1|]. specialize (IH _ H2 _ Hin). lia.
Qed.

Lemma asc_weaken l : forall lo lo', lo' <= lo -> asc lo l -> asc lo' l.
Proof. destruct l as [|c r]; intros lo lo' Hle H; cbn [asc] in *; [exact I|]. destruct H; split; [lia|assumption]. Qed.

Lemma asc_nodup l : forall lo, asc lo l -> NoDup (map c_key l).
Proof.
  induction l as [|c r IH]; intros lo H; cbn [map]; [constructor|]. cbn [asc] in H. destruct H as [H1 H2].
  constructor; [|eapply IH; eauto]. intros Hin. apply in_map_iff in Hin as [c' [E Hc']].
  pose proof (asc_ge _ _ H2 _ Hc'). lia.
Qed.

Lemma asc_split key l : forall lo, asc lo l ->
  exists l1 l2, l = l1 ++ l2 /\ (forall c, In c l1 -> c_key c < key) /\
    asc lo l1 /\ asc (match rev l1 with c :: _ => c_key c + 1 | [] => lo end) l2 /\
    match l2 with c :: _ => key <= c_key c | [] => True end.
Proof.
  induction l as [|c r IH]; intros lo H.
  - exists [], []. repeat split; auto. intros c [].
  - cbn [asc] in H. destruct H as [H1 H2]. destruct (N.ltb_spec (c_key c) key) as [L|L].
    + destruct (IH _ H2) as [l1 [l2 [E [Hlt [Ha1 [Ha2 Hh]]]]]]. exists (c :: l1), l2.
      split; [cbn [app]; rewrite E; reflexivity|]. split; [intros c' [<-|Hin]; auto|].
      split; [cbn [asc]; auto|]. split; [|exact Hh].
      cbn [rev]. destruct (rev l1) as [|x t] eqn:Er; cbn [app]; exact Ha2.
    + exists [], (c :: r). repeat split; auto. intros c' [].
Qed.

Lemma scan_swap key a b r p n : c_key a <> c_key b ->
  scan key (a :: b :: r) p n = scan key (b :: a :: r) p n.
Proof.
  intros Hab. cbn [scan].
  destruct (N.eqb_spec (c_key a) key), (N.eqb_spec (c_key b) key),
           (N.ltb_spec (c_key a) key), (N.ltb_spec (c_key b) key); try reflexivity; try lia.
  - (* both below the key: the greater of the two ends as predecessor either way *)
    f_equal. destruct p as [[kp qp]|]; cbv beta iota;
      repeat match goal with |- context [?x <? ?y] => destruct (N.ltb_spec x y) end;
      try reflexivity; lia.
  - (* both above: the lesser of the two ends as successor either way *)
    f_equal. destruct n as [[kn qn]|]; cbv beta iota;
      repeat match goal with |- context [?x <? ?y] => destruct (N.ltb_spec x y) end;
      try reflexivity; lia.
Qed.

Lemma scan_perm key c1 c2 : Permutation c1 c2 -> NoDup (map c_key c1) ->
  forall p n, scan key c1 p n = scan key c2 p n.
Proof.
  induction 1 as [|x l l' HP IH|x y l|l l' l'' HP1 IH1 HP2 IH2]; intros Hn p n.
  - reflexivity.
  - cbn [map] in Hn. inversion Hn; subst. cbn [scan].
    destruct (c_key x =? key); [reflexivity|]. destruct (c_key x <? key); apply IH; assumption.
  - apply scan_swap. cbn [map] in Hn. inversion Hn as [|? ? Hx _]; subst. intros E. apply Hx. left. symmetry. exact E.
  - rewrite IH1 by exact Hn. apply IH2. eapply Permutation_NoDup; [|exact Hn]. apply Permutation_map. exact HP1.
Qed.

(* over an ascending run below the key the predecessor ends as its last cell *)
Lemma scan_below key l1 : forall r p n,
  (forall c, In c l1 -> c_key c < key) ->
  asc (match p with Some (k, _) => k + 1 | None => 0 end) l1 ->
  scan key (l1 ++ r) p n =
  scan key r (match rev l1 with c :: _ => Some (c_key c, slot c) | [] => p end) n.
Proof.
  induction l1 as [|c t IH]; intros r p n Hlt Ha; [reflexivity|]. cbn [app scan].
  assert (Hc : c_key c < key) by (apply Hlt; left; reflexivity).
  destruct (N.eqb_spec (c_key c) key) as [E|_]; [lia|]. destruct (N.ltb_spec (c_key c) key) as [_|L]; [|lia].
  cbn [asc] in Ha. destruct Ha as [Ha1 Ha2].
  rewrite IH.
  - cbn [rev]. destruct (rev t) as [|x t'] eqn:Er; cbn [app]; [|reflexivity].
    destruct p as [[k q]|]; [|reflexivity]. destruct (N.ltb_spec k (c_key c)); [reflexivity|lia].
  - intros c' Hc'. apply Hlt. right. exact Hc'.
  - destruct p as [[k q]|]; [destruct (N.ltb_spec k (c_key c)); [exact Ha2|lia]|exact Ha2].
Qed.

(* over an ascending run above the key the successor is its first cell *)
Lemma scan_above key l2 : forall p n lo, key < lo -> asc lo l2 ->
  match n with Some (k, _) => forall c, In c l2 -> k < c_key c | None => True end ->
  scan key l2 p n = Some (p, match n with Some _ => n | None =>
                                match l2 with c :: _ => Some (c_key c, c_start c) | [] => None end end).
Proof.
  induction l2 as [|c t IH]; intros p n lo Hlo Ha Hn; cbn [scan]; [destruct n; reflexivity|].
  cbn [asc] in Ha. destruct Ha as [Ha1 Ha2].
  destruct (N.eqb_spec (c_key c) key) as [E|_]; [lia|]. destruct (N.ltb_spec (c_key c) key) as [L|_]; [lia|].
  destruct n as [[k q]|].
  - assert (k < c_key c) by (apply Hn; left; reflexivity).
    destruct (N.ltb_spec (c_key c) k); [lia|].
    rewrite (IH p (Some (k, q)) (c_key c + 1)); [reflexivity|lia|exact Ha2|].
    intros c' Hc'. apply Hn. right. exact Hc'.
  - rewrite (IH p (Some (c_key c, c_start c)) (c_key c + 1)); [reflexivity|lia|exact Ha2|].
    intros c' Hc'. pose proof (asc_ge _ _ Ha2 _ Hc'). lia.
Qed.

Lemma asc_app_l a : forall lo b, asc lo (a ++ b) -> asc lo a.
Proof.
  induction a as [|c r IH]; intros lo b H; cbn [asc app] in *; [exact I|].
  destruct H as [H1 H2]. split; [exact H1|]. eapply IH; eauto.
Qed.
Lemma asc_app_r a : forall lo c t, asc lo (a ++ c :: t) -> asc (c_key c + 1) t.
Proof.
  induction a as [|x r IH]; intros lo c t H; cbn [asc app] in *.
  - destruct H as [_ H2]. exact H2.
  - destruct H as [_ H2]. eapply IH; eauto.
Qed.

(* what push_raw's scan finds, whatever the physical order of the cells *)
Theorem scan_neighbours key cells l1 l2 :
  Permutation (l1 ++ l2) cells -> asc 0 (l1 ++ l2) ->
  (forall c, In c l1 -> c_key c < key) ->
  match l2 with c :: _ => key < c_key c | [] => True end ->
  scan key cells None None =
    Some (match rev l1 with c :: _ => Some (c_key c, slot c) | [] => None end,
          match l2 with c :: _ => Some (c_key c, c_start c) | [] => None end).
Proof.
  intros Hp Ha Hlt Hh.
  assert (Hnk : NoDup (map c_key cells)).
  { eapply Permutation_NoDup; [apply Permutation_map; exact Hp|]. eapply asc_nodup; eauto. }
  rewrite (scan_perm key _ _ (Permutation_sym Hp) Hnk).
  rewrite (scan_below key l1 l2 None None Hlt (asc_app_l _ _ _ Ha)).
  destruct l2 as [|c t].
  - reflexivity.
  - rewrite (scan_above key (c :: t) _ None (key + 1)); [reflexivity|lia| |exact I].
    cbn [asc]. split; [lia|]. eapply asc_app_r; eauto.
Qed.

Theorem scan_duplicate key cells l : Permutation l cells -> asc 0 l ->
  (exists c, In c l /\ c_key c = key) -> scan key cells None None = None.
Proof.
  intros Hp Ha [c [Hin Hk]].
  assert (Hnk : NoDup (map c_key cells)).
  { eapply Permutation_NoDup; [apply Permutation_map; exact Hp|]. eapply asc_nodup; eauto. }
  rewrite (scan_perm key _ _ (Permutation_sym Hp) Hnk).
  destruct (asc_split key l 0 Ha) as [l1 [l2 [El [Hlt [Ha1 [Ha2 Hh]]]]]]. rewrite El.
  rewrite (scan_below key l1 l2 None None Hlt Ha1).
  destruct l2 as [|c2 t2].
  - rewrite El, app_nil_r in Hin. specialize (Hlt _ Hin). lia.
  - destruct (N.eq_dec (c_key c2) key) as [E|E]; [cbn [scan]; rewrite E, N.eqb_refl; reflexivity|].
    exfalso. rewrite El in Hin. apply in_app_or in Hin as [Hin|Hin]; [specialize (Hlt _ Hin); lia|].
    assert (c_key c2 <= c_key c).
    { destruct Hin as [<-|Hin]; [lia|]. cbn [asc] in Ha2. destruct Ha2 as [_ Ha2]. pose proof (asc_ge _ _ Ha2 _ Hin). lia. }
    lia.
Qed.

Example scan_neighbours_example :
  let a := mkCell 4 9 [1] PMAX in let b := mkCell 13 2 [] 30 in let c := mkCell 21 5 [7; 7] 4 in
  (* physical order 9, 2, 5; pushing key 6: predecessor is 5 (its slot at 27), successor 9 (start 4) *)
  scan 6 [a; b; c] None None = Some (Some (5, 27), Some (9, 4)) /\
  scan 6 [c; a; b] None None = Some (Some (5, 27), Some (9, 4)) /\
  scan 5 [a; b; c] None None = None /\ scan 1 [a; b; c] None None = Some (None, Some (2, 13)).
Proof. vm_compute. auto. Qed.

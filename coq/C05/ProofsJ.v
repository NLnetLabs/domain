(* C05 ProofsJ.v -- the message name reader is sound (imported from C01), so
   the re-compose theorem for RDATA accepted from a message -- embedded names
   possibly compressed -- needs no hypothesis about the reader. *)
From Coq Require Import NArith List Bool Lia.
From DV Require Import Base.Outcome Base.Bytes Base.Names Base.PName C05.Schema C05.Model C05.ProofsB C05.ProofsC C05.ProofsD C05.Proofs.
From DV Require C01.Proofs.
Import ListNotations.
Local Open Scope N_scope.
(* the kernel must not unfold the 300 rounds of fuel of the name reader when it
   compares decode_name with its body *)
#[local] Strategy opaque [parse_ref pname_labels parse_labels iter_labels].

(* dec_sound with the bound on lim that C01's theorem needs *)
Definition dec_sound_in (dec : decoder) : Prop :=
  forall m pos lim n e, wf_bytes m -> lim <= mlen m -> dec m pos lim = Ok (n, e) -> valid_abs n.

Lemma dec_sound_in_of dec : dec_sound dec -> dec_sound_in dec.
Proof. intros H m pos lim n e Hm _ Hd. eapply H; eauto. Qed.

Lemma ref_labels_valid m pos lim p r :
  wf_bytes m -> lim <= mlen m -> parse_ref m pos lim = Ok p -> pname_labels m p = Ok r ->
  valid_abs (fst r).
Proof.
  intros Hm Hl Ep Er.
  destruct (C01.Proofs.parse_ref_sound m pos lim p Ep Hl Hm) as [ls [Hls [Hv [Hlen H255]]]].
  rewrite Hls in Er. injection Er as <-. cbn [fst]. split; [exact Hv|lia].
Qed.

Theorem pname_dec_sound : dec_sound_in pname_dec.
Proof.
  intros m pos lim n e Hm Hl H. unfold pname_dec, decode_name in H.
  apply bind_ok in H as [p [Ep H]]. apply bind_ok in H as [r [Er H]]. injection H as <- _.
  exact (ref_labels_valid m pos lim p r Hm Hl Ep Er).
Qed.

Theorem pname_nc_dec_sound strict : dec_sound_in (pname_nc_dec strict).
Proof.
  intros m pos lim n e Hm Hl H. unfold pname_nc_dec in H.
  apply bind_ok in H as [p [Ep H]].
  destruct (pn_compressed p); [discriminate|].
  destruct (strict && negb (pn_end p - pos =? pn_len p)); [discriminate|].
  apply bind_ok in H as [r [Er H]]. injection H as <- _.
  exact (ref_labels_valid m pos lim p r Hm Hl Ep Er).
Qed.

Theorem table_recompose_compressed t s m pos lim v pre post :
  schema_of t = Some s -> wf_bytes m -> lim <= mlen m ->
  parse_rdata pname_dec s m pos lim = Ok v ->
  total_len s v <= 65535 ->
  parse_rdata pname_dec s (pre ++ compose s v ++ post) (len pre) (len pre + len (compose s v)) = Ok v.
Proof.
  intros Hs Hm Hl Hp Ht. apply parse_compose.
  - apply pname_dec_complete.
  - exact (schema_of_wf t s Hs).
  - exact (parse_rdata_wf pname_dec pname_dec_sound s m pos lim v Hm Hl Hp Ht).
Qed.

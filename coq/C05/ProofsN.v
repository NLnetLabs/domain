(* C05 ProofsN.v -- TxtBuilder: whatever is appended, in whatever pieces, no
   character string exceeds 255 octets (so the value composes and parses back),
   and the text (the concatenation of the strings) is the concatenation of
   what was appended. *)
From Coq Require Import Arith NArith List Bool Lia.
From DV Require Import Base.Bytes C05.Schema C05.TxtModel.
Import ListNotations.
Local Open Scope N_scope.

Definition op_text (op : txt_op) : bytes := match op with TSlice b | TOctets b | TCharStr b => b end.
Definition op_ok (op : txt_op) : Prop := match op with TCharStr b => (length b <= 255)%nat | _ => True end.

(* invariant: closed strings <= k, the open one < k; text so far.  The limit is
   a variable: the unary numeral 255 would be copied through every proof step *)
Section Limit.
Variable k : nat.
Hypothesis Hk : k = 255%nat.

Definition st_ok (st : tstate) : Prop :=
  Forall (fun s => (length s <= k)%nat) (t_closed st) /\
  match t_open st with Some o => (length o < k)%nat | None => True end.
Definition st_text (st : tstate) : bytes :=
  concat (rev (t_closed st)) ++ match t_open st with Some o => o | None => [] end.

Lemma chunks_ok fuel : forall s st, (length s < fuel)%nat -> st_ok st -> t_open st = None ->
  st_ok (chunks fuel s st) /\ st_text (chunks fuel s st) = st_text st ++ s.
Proof.
  induction fuel as [|fuel IH]; intros s st Hf [Hc Ho] Hn; [lia|].
  cbn [chunks]. rewrite <- Hk. destruct s as [|x s'].
  - split; [split; assumption|]. rewrite app_nil_r. reflexivity.
  - set (s := x :: s') in *. destruct (Nat.eqb_spec (length (firstn k s)) k) as [E|E].
    + assert (Hlen : (k <= length s)%nat) by (rewrite firstn_length in E; lia).
      destruct (IH (skipn k s) (mkT (firstn k s :: t_closed st) None)) as [H1 H2].
      * rewrite skipn_length. lia.
      * split; [constructor; [lia|exact Hc]|exact I].
      * reflexivity.
      * split; [exact H1|]. rewrite H2. unfold st_text. cbn [t_closed t_open rev].
        rewrite Hn, concat_app. cbn [concat]. rewrite !app_nil_r, <- app_assoc, firstn_skipn. reflexivity.
    + assert (Hlen : (length s < k)%nat) by (rewrite firstn_length in E; lia).
      rewrite firstn_all2 by lia. split.
      * split; [exact Hc|exact Hlen].
      * unfold st_text. cbn [t_closed t_open]. rewrite Hn, app_nil_r. reflexivity.
Qed.

Lemma append_slice_ok s st : st_ok st ->
  st_ok (append_slice s st) /\ st_text (append_slice s st) = st_text st ++ s.
Proof.
  intros [Hc Ho]. unfold append_slice. rewrite <- Hk. destruct (t_open st) as [o|] eqn:Eo.
  - destruct (Nat.ltb_spec (length s) (k - length o)) as [L|L].
    + split.
      * split; [exact Hc|]. cbn [t_open]. rewrite app_length. lia.
      * unfold st_text. cbn [t_closed t_open]. rewrite Eo, app_assoc. reflexivity.
    + destruct (chunks_ok (S (length s)) (skipn (k - length o) s)
                 (mkT ((o ++ firstn (k - length o) s) :: t_closed st) None)) as [H1 H2].
      * rewrite skipn_length. lia.
      * split; [|exact I]. constructor; [|exact Hc]. rewrite app_length, firstn_length. lia.
      * reflexivity.
      * split; [exact H1|]. rewrite H2. unfold st_text. cbn [t_closed t_open rev].
        rewrite Eo, concat_app. cbn [concat]. rewrite !app_nil_r, <- !app_assoc, firstn_skipn. reflexivity.
  - destruct (chunks_ok (S (length s)) s st) as [H1 H2]; [lia|split; [exact Hc|rewrite Eo; exact I]|exact Eo|].
    split; assumption.
Qed.

Lemma octets_ok b : forall st, st_ok st ->
  st_ok (fold_left (fun st' x => append_slice [x] st') b st) /\
  st_text (fold_left (fun st' x => append_slice [x] st') b st) = st_text st ++ b.
Proof.
  induction b as [|x b IH]; intros st H; cbn [fold_left].
  - split; [exact H|rewrite app_nil_r; reflexivity].
  - destruct (append_slice_ok [x] st H) as [H1 H2]. destruct (IH _ H1) as [H3 H4].
    split; [exact H3|]. rewrite H4, H2, <- app_assoc. reflexivity.
Qed.

Lemma close_ok st : st_ok st -> st_ok (close st) /\ st_text (close st) = st_text st /\ t_open (close st) = None.
Proof.
  intros [Hc Ho]. unfold close. destruct (t_open st) as [o|] eqn:Eo.
  - split; [split; [constructor; [lia|exact Hc]|exact I]|]. split; [|reflexivity].
    unfold st_text. cbn [t_closed t_open rev]. rewrite Eo, concat_app. cbn [concat]. rewrite !app_nil_r. reflexivity.
  - split; [split; [exact Hc|rewrite Eo; exact I]|]. split; [reflexivity|exact Eo].
Qed.

Lemma step_ok st op : st_ok st -> op_ok op ->
  st_ok (txt_step st op) /\ st_text (txt_step st op) = st_text st ++ op_text op.
Proof.
  intros H Hop. destruct op as [b|b|b]; cbn [txt_step op_text].
  - apply append_slice_ok. exact H.
  - apply octets_ok. exact H.
  - destruct (close_ok st H) as [[Hc _] [Ht Hn]]. split.
    + split; [constructor; [rewrite Hk; exact Hop|exact Hc]|exact I].
    + unfold st_text in *. cbn [t_closed t_open rev]. rewrite Hn in Ht. rewrite app_nil_r in *.
      rewrite concat_app. cbn [concat]. rewrite app_nil_r, Ht. reflexivity.
Qed.

Lemma steps_ok ops : Forall op_ok ops -> forall st, st_ok st ->
  st_ok (fold_left txt_step ops st) /\
  st_text (fold_left txt_step ops st) = st_text st ++ concat (map op_text ops).
Proof.
  induction 1 as [|op ops Hop _ IH]; intros st H; cbn [fold_left map concat].
  - split; [exact H|rewrite app_nil_r; reflexivity].
  - destruct (step_ok st op H Hop) as [H1 H2]. destruct (IH _ H1) as [H3 H4].
    split; [exact H3|]. rewrite H4, H2, <- app_assoc. reflexivity.
Qed.

End Limit.

Theorem txt_build_ok ops : Forall op_ok ops ->
  Forall (fun s => (length s <= 255)%nat) (txt_build ops) /\
  concat (txt_build ops) = concat (map op_text ops) /\ txt_build ops <> [].
Proof.
  intros Hops. unfold txt_build.
  destruct (steps_ok _ eq_refl ops Hops t_empty) as [Hok Htext]; [split; [constructor|exact I]|].
  destruct (close_ok _ eq_refl _ Hok) as [[Hc _] [Ht Hn]].
  unfold txt_finish. set (fin := close (fold_left txt_step ops t_empty)) in *.
  assert (Htx : concat (rev (t_closed fin)) = concat (map op_text ops)).
  { assert (E : st_text fin = concat (rev (t_closed fin))) by (unfold st_text; rewrite Hn, app_nil_r; reflexivity).
    rewrite <- E, Ht, Htext. reflexivity. }
  destruct (rev (t_closed fin)) as [|s l] eqn:Er.
  - repeat split; [constructor; [apply Nat.le_0_l|constructor]| |discriminate]. cbn [concat] in *. rewrite <- Htx. reflexivity.
  - repeat split; [|exact Htx|discriminate]. rewrite <- Er. apply Forall_rev. exact Hc.
Qed.

(* hence the built value composes and parses back (TXT row: [CharStrs]) *)
Theorem txt_build_wf ops : Forall op_ok ops -> Forall (fun b => wf_bytes (op_text b)) ops ->
  wf_fval true FCharStrs (VStrs (txt_build ops)) = true.
Proof.
  intros Hops Hb. destruct (txt_build_ok ops Hops) as [Hl [Ht Hne]]. cbn [wf_fval].
  apply andb_true_iff. split.
  - apply forallb_forall. intros s Hs. unfold strb. apply andb_true_iff. split.
    + apply Nat.leb_le. rewrite Forall_forall in Hl. apply Hl. exact Hs.
    + apply bytesb_spec. unfold wf_bytes. apply Forall_forall. intros x Hx.
      assert (Hin : In x (concat (txt_build ops))) by (apply in_concat; eauto).
      rewrite Ht in Hin. apply in_concat in Hin as [t [Ht' Hxt]]. apply in_map_iff in Ht' as [op [<- Hop]].
      rewrite Forall_forall in Hb. specialize (Hb op Hop). unfold wf_bytes in Hb. rewrite Forall_forall in Hb. auto.
  - cbn [negb orb]. destruct (txt_build ops); [congruence|reflexivity].
Qed.

Example txt_build_example :
  c05_txtbuild [] = [0] /\
  c05_txtbuild [TOctets [97; 98]; TSlice [99]] = [3; 97; 98; 99] /\
  c05_txtbuild [TSlice [97]; TCharStr [120]; TOctets [98]] = [1; 97; 1; 120; 1; 98] /\
  map (@length N) (txt_build [TOctets (repeat 97 256)]) = [255; 1]%nat /\
  map (@length N) (txt_build [TSlice (repeat 97 254); TOctets [1; 2]]) = [255; 1]%nat /\
  map (@length N) (txt_build [TSlice (repeat 97 255); TOctets [1]]) = [255; 1]%nat.
Proof. vm_compute. repeat split; reflexivity. Qed.

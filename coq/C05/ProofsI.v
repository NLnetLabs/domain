(* C05 ProofsI.v -- the canonical form label by label, and the two constructor
   classes outside the table: IPSECKEY (accepted by new(), refused by parse)
   and tls-supported-groups (from_keys on no keys). *)
From Coq Require Import Arith NArith List Bool Lia.
From DV Require Import Base.Outcome Base.Bytes Base.Names Base.PName C05.Schema C05.Gen C05.Model C05.ProofsA C05.ProofsB.
Import ListNotations.
Local Open Scope N_scope.

Lemma lower_not_upper b : negb ((65 <=? lower b) && (lower b <=? 90)) = true.
Proof. unfold lower. destruct ((65 <=? b) && (b <=? 90)) eqn:E; lia. Qed.

Theorem canon_all_labels n :
  Forall (fun l => Forall (fun b => negb ((65 <=? b) && (b <=? 90)) = true) l) (canon n) /\
  map (@length N) (canon n) = map (@length N) n.
Proof.
  unfold canon. split.
  - apply Forall_forall. intros l Hl. apply in_map_iff in Hl as [l0 [<- _]].
    unfold lowers. apply Forall_forall. intros b Hb. apply in_map_iff in Hb as [b0 [<- _]].
    apply lower_not_upper.
  - rewrite map_map. apply map_ext. intros l. apply lowers_length.
Qed.

Theorem canonical_lowers_every_flagged_name s v :
  compose_canonical s v = compose s (lower_flagged s v) /\
  (forall f x, In (f, x) (combine (s_fields s) (lower_flagged s v)) -> is_lower f = true ->
     forall n, x = VName n ->
     Forall (fun l => Forall (fun b => negb ((65 <=? b) && (b <=? 90)) = true) l) n).
Proof.
  split; [apply canonical_only_lowercases|].
  unfold lower_flagged. generalize (s_fields s) as l. intros l. revert v.
  induction l as [|g l IH]; intros [|y v] f x Hin Hf n Hx; cbn [lower_flagged_fields combine In] in Hin;
    try contradiction.
  destruct Hin as [E|Hin]; [|eapply IH; eauto].
  injection E as <- <-. destruct g as [| |c lw| | | | |]; try discriminate. destruct lw; [|discriminate].
  destruct y; cbn [lower_field] in Hx; try discriminate. injection Hx as <-.
  apply canon_all_labels.
Qed.

(* the model's canon is what the helpers behind compose_canonical do (T1 flag:
   ToName::compose_canonical sends every label through Label::compose_canonical,
   which lower-cases every octet) *)
Theorem canon_is_helper n :
  Gen.canonical_helpers_lower_all_labels = true ->
  wire_abs (canon n) = concat (map (fun l => N.of_nat (length l) :: map lower l) n) ++ [0].
Proof.
  intros _. unfold wire_abs, wire_rel, canon. f_equal. rewrite map_map. f_equal.
  apply map_ext. intros l. unfold wire_label, lowers. rewrite map_length. reflexivity.
Qed.

(* ctor_reparse_IPSECKEY: accepted by new(), refused by parse; everything else new() accepts
   round-trips (exclusion: the key-less value with a key algorithm, over-long values) *)
Theorem ctor_reparse_ipseckey_refuted :
  ctor_accepts (ipseckey_schema 0) [VNum 10; VNum 0; VNum 2; VBytes []] = true /\
  ipseckey_parse (compose (ipseckey_schema 0) [VNum 10; VNum 0; VNum 2; VBytes []]) 0 3 = Err E_SHORT.
Proof. vm_compute. auto. Qed.

(* svc_ctor_reparse_TLSGROUPS: TlsSupportedGroups::from_keys writes the keys one
   after the other and checks only the total length *)
Definition groups_from_keys (ks : list N) : bytes := concat (map (be 2) ks).

Theorem tlsgroups_from_keys_refuted :
  rest_check KGroups (groups_from_keys []) = Some E_FORM.
Proof. reflexivity. Qed.

Theorem tlsgroups_from_keys_sound ks :
  ks <> [] -> rest_check KGroups (groups_from_keys ks) = None.
Proof.
  intros Hne. unfold rest_check, groups_from_keys.
  assert (Hl : length (concat (map (be 2) ks)) = (2 * length ks)%nat).
  { clear Hne. induction ks as [|k ks IH]; [reflexivity|]. cbn [map concat length].
    rewrite app_length, be_length, IH. lia. }
  rewrite Hl. destruct ks as [|k ks]; [congruence|].
  replace (2 * length (k :: ks))%nat with (S (S (2 * length ks))) by (simpl; lia).
  cbn [Nat.eqb negb andb]. rewrite Nat.even_succ_succ, Nat.even_mul. reflexivity.
Qed.

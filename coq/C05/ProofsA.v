(* C05 ProofsA.v -- arithmetic and list lemmas: big-endian numbers, slices,
   the reading primitives on a message of the shape pre ++ x ++ post. *)
From Coq Require Import Arith NArith List Lia.
From DV Require Import Base.Outcome Base.Bytes Base.PName C05.Schema.
Import ListNotations.
Local Open Scope N_scope.

Lemma pow256_pos w : 0 < pow256 w.
Proof. induction w as [|w IH]; cbn [pow256]; lia. Qed.

Lemma be_length w n : length (be w n) = w.
Proof.
  revert n; induction w as [|w IH]; intros n; cbn [be]; [reflexivity|].
  rewrite app_length, IH. simpl. lia.
Qed.

Lemma of_be_snoc l b : of_be (l ++ [b]) = of_be l * 256 + b.
Proof. unfold of_be. rewrite fold_left_app. reflexivity. Qed.

Lemma of_be_be w n : n < pow256 w -> of_be (be w n) = n.
Proof.
  revert n; induction w as [|w IH]; intros n Hn; cbn [be pow256] in *.
  - unfold of_be. simpl. lia.
  - rewrite of_be_snoc, IH by lia. lia.
Qed.

Lemma be_wf w n : wf_bytes (be w n).
Proof.
  revert n; induction w as [|w IH]; intros n; cbn [be].
  - constructor.
  - apply wf_bytes_app. split; [apply IH|]. repeat constructor. lia.
Qed.

Lemma of_be_bound l : wf_bytes l -> of_be l < pow256 (length l).
Proof.
  induction l as [|b l IH] using rev_ind; intros Hw.
  - unfold of_be. simpl. lia.
  - apply wf_bytes_app in Hw as [Hl Hb]. inversion Hb as [|? ? Hb' _]; subst.
    rewrite of_be_snoc, app_length. simpl length. rewrite Nat.add_1_r. cbn [pow256].
    specialize (IH Hl). lia.
Qed.

Lemma be_of_be l : wf_bytes l -> be (length l) (of_be l) = l.
Proof.
  induction l as [|b l IH] using rev_ind; intros Hw; [reflexivity|].
  apply wf_bytes_app in Hw as [Hl Hb]. inversion Hb as [|? ? Hb' _]; subst.
  rewrite app_length. simpl length. rewrite Nat.add_1_r. cbn [be]. rewrite of_be_snoc.
  replace ((of_be l * 256 + b) / 256) with (of_be l) by lia.
  replace ((of_be l * 256 + b) mod 256) with b by lia.
  rewrite (IH Hl). reflexivity.
Qed.

Lemma be1 x : x < 256 -> be 1 x = [x].
Proof. intros H. cbn [be app]. f_equal. lia. Qed.

Lemma be2 n : n < 65536 -> be 2 n = [n / 256; n mod 256].
Proof. intros H. cbn [be app]. f_equal. lia. Qed.

Lemma div_mod_256 n : n / 256 * 256 + n mod 256 = n.
Proof. lia. Qed.

Example be_example : be 2 4660 = [18; 52] /\ of_be [18; 52] = 4660 /\ be 6 1 = [0;0;0;0;0;1].
Proof. vm_compute. auto. Qed.

(* k zero octets; opaque, so that a long witness is never built *)
Definition zeros (k : N) : bytes := repeat 0 (N.to_nat k).

Lemma bytesb_zeros k : bytesb (zeros k) = true.
Proof. unfold zeros. induction (N.to_nat k) as [|n IH]; [reflexivity|exact IH]. Qed.
Lemma length_zeros k : length (zeros k) = N.to_nat k.
Proof. apply repeat_length. Qed.
Lemma len_zeros k : len (zeros k) = k.
Proof. unfold len. rewrite length_zeros. apply N2Nat.id. Qed.
Global Opaque zeros.

Lemma slice_mid (pre x post : bytes) :
  slice (pre ++ x ++ post) (len pre) (len pre + len x) = x.
Proof.
  unfold slice, len.
  replace (N.to_nat (N.of_nat (length pre) + N.of_nat (length x) - N.of_nat (length pre)))
    with (length x) by lia.
  rewrite Nat2N.id. rewrite skipn_app, skipn_all, Nat.sub_diag. cbn [skipn app].
  rewrite firstn_app, firstn_all, Nat.sub_diag. cbn [firstn]. apply app_nil_r.
Qed.

Lemma get_mid (pre post : bytes) b : get (pre ++ b :: post) (len pre) = Some b.
Proof.
  unfold get, len. rewrite Nat2N.id. rewrite nth_error_app2 by lia.
  rewrite Nat.sub_diag. reflexivity.
Qed.

Lemma rd_at m pos lim k pre x post :
  m = pre ++ x ++ post -> pos = len pre -> k = len x -> pos + k <= lim ->
  rd m pos lim k = Ok (x, pos + k).
Proof.
  intros -> -> -> H. unfold rd.
  destruct (N.ltb_spec (lim - len pre) (len x)) as [L|L]; [lia|].
  rewrite slice_mid. reflexivity.
Qed.

Lemma rd8_at m pos lim pre b post :
  m = pre ++ b :: post -> pos = len pre -> pos + 1 <= lim ->
  rd8 m pos lim = Ok (b, pos + 1).
Proof.
  intros -> -> H. unfold rd8.
  destruct (N.ltb_spec (lim - len pre) 1) as [L|L]; [lia|].
  rewrite get_mid. reflexivity.
Qed.

Lemma wf_bytes_firstn k (b : bytes) : wf_bytes b -> wf_bytes (firstn k b).
Proof.
  intros H. rewrite <- (firstn_skipn k b) in H. apply wf_bytes_app in H. apply H.
Qed.

Lemma wf_bytes_skipn k (b : bytes) : wf_bytes b -> wf_bytes (skipn k b).
Proof.
  intros H. rewrite <- (firstn_skipn k b) in H. apply wf_bytes_app in H. apply H.
Qed.

Lemma slice_wf m a b : wf_bytes m -> wf_bytes (slice m a b).
Proof. intros H. apply wf_bytes_firstn, wf_bytes_skipn, H. Qed.

Lemma slice_length m a b : b <= mlen m -> a <= b -> length (slice m a b) = N.to_nat (b - a).
Proof.
  unfold slice, mlen. intros H1 H2. rewrite firstn_length, skipn_length. lia.
Qed.

Lemma rd_ok m pos lim k x e :
  rd m pos lim k = Ok (x, e) ->
  x = slice m pos (pos + k) /\ e = pos + k /\ k <= lim - pos.
Proof.
  unfold rd. destruct (N.ltb_spec (lim - pos) k) as [L|L]; intros H; [discriminate|].
  injection H as <- <-. auto.
Qed.

Lemma rd_wf m pos lim k x e :
  wf_bytes m -> lim <= mlen m -> rd m pos lim k = Ok (x, e) ->
  wf_bytes x /\ length x = N.to_nat k.
Proof.
  intros Hm Hl H. apply rd_ok in H as [-> [_ Hk]]. split; [apply slice_wf, Hm|].
  unfold slice, mlen in *. rewrite firstn_length, skipn_length. lia.
Qed.

Lemma rd8_ok m pos lim b e :
  rd8 m pos lim = Ok (b, e) -> get m pos = Some b /\ e = pos + 1 /\ 1 <= lim - pos.
Proof.
  unfold rd8. destruct (N.ltb_spec (lim - pos) 1) as [L|L]; intros H; [discriminate|].
  destruct (get m pos) as [c|]; [|discriminate]. injection H as <- <-. auto.
Qed.

Lemma get_wf m pos b : wf_bytes m -> get m pos = Some b -> b < 256.
Proof.
  unfold get, wf_bytes. intros H E. apply nth_error_In in E.
  rewrite Forall_forall in H. auto.
Qed.

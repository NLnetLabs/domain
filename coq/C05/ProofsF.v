(* C05 ProofsF.v -- the checked remainders and the EDNS option contents:
   every type bitmap in RFC 4034 4.1.2 layout (in particular every bitmap the
   builder of C13 produces) passes RtypeBitmap's check; the option table is
   well-formed, so the schema-generic theorems hold for every option;
   IPSECKEY, one schema per gateway type; the standard server cookie. *)
From Coq Require Import Arith NArith List Bool Lia.
From DV Require Import Base.Outcome Base.Bytes Base.PName C05.Schema C05.Gen C05.Model C05.ProofsA C05.ProofsB C05.ProofsC C05.ProofsD.
From DV Require C13.Model C13.ProofsBitmap.
Import ListNotations.
Local Open Scope N_scope.

Lemma bitmap_check_layout prev b : C13.Model.bm_wire_ok prev b ->
  forall fuel, (length b < fuel)%nat -> bitmap_check fuel b = None.
Proof.
  induction 1 as [prev|prev w l data rest Hp Hw Hl Hlen Hb Hlast Hrest IH]; intros fuel Hf.
  - destruct fuel; [simpl in Hf; lia|]. reflexivity.
  - destruct fuel as [|fuel]; [simpl in Hf; lia|]. cbn [bitmap_check].
    destruct (N.eqb_spec l 0) as [Z|_]; [lia|].
    destruct (N.ltb_spec 32 l) as [L|_]; [lia|].
    destruct (Nat.ltb_spec (length (data ++ rest)) (N.to_nat l)) as [L|_];
      [rewrite app_length in L; lia|].
    rewrite <- Hlen, skipn_app, skipn_all, Nat.sub_diag. cbn [skipn app].
    apply IH. simpl in Hf. rewrite app_length in Hf. lia.
Qed.

(* what RtypeBitmapBuilder produces is accepted as the types field of NSEC / NSEC3 *)
Theorem built_bitmap_accepted ts : Forall (fun x => x < 65536) ts ->
  rest_check KBitmap (C13.Model.bm_finalize (C13.Model.bm_adds [] ts)) = None.
Proof.
  intros H. unfold rest_check. eapply bitmap_check_layout.
  - apply C13.ProofsBitmap.bitmap_wire_layout. exact H.
  - lia.
Qed.

Example bitmap_check_examples :
  rest_check KBitmap [0; 6; 64; 0; 0; 0; 0; 3; 1; 1; 64] = None /\
  rest_check KBitmap [0; 0] = Some E_FORM /\            (* empty window *)
  rest_check KBitmap [0; 33] = Some E_FORM /\           (* more than 32 octets *)
  rest_check KBitmap [0; 2; 1] = Some E_SHORT /\
  rest_check KBitmap [7] = Some E_SHORT /\
  (* the check does not demand ascending windows or a non-zero last octet *)
  rest_check KBitmap [1; 1; 0; 0; 1; 0] = None.
Proof. vm_compute. repeat split; reflexivity. Qed.

Example svcparams_check_examples :
  rest_check KSvcParams [] = None /\
  rest_check KSvcParams [0;1;0;2;9;9; 0;3;0;0] = None /\
  rest_check KSvcParams [0;3;0;0; 0;1;0;0] = Some E_FORM /\     (* unordered *)
  rest_check KSvcParams [0;3;0;0; 0;3;0;0] = Some E_FORM /\     (* duplicate *)
  rest_check KSvcParams [0;0;0;0] = None /\                     (* key 0 first is fine *)
  rest_check KSvcParams [0;1;0;2;9] = Some E_SHORT /\
  rest_check KSvcParams [0;1;0] = Some E_SHORT.
Proof. vm_compute. repeat split; reflexivity. Qed.

Lemma option_schema_wf code : wf_schema_full (option_schema code) = true.
Proof.
  unfold option_schema. destruct (lookup code option_table) as [s|] eqn:E; [|reflexivity].
  apply (lookup_forallb wf_schema_full code s option_table); [vm_compute; reflexivity|exact E].
Qed.

Theorem option_parse_compose code v pre post :
  wf_value (option_schema code) v = true ->
  parse_rdata flat_dec (option_schema code)
    (pre ++ compose (option_schema code) v ++ post) (len pre)
    (len pre + len (compose (option_schema code) v)) = Ok v /\
  rdlen (option_schema code) false v = Ok (Some (len (compose (option_schema code) v))).
Proof.
  intros Hv. exact (roundtrip_exact flat_dec _ v pre post flat_dec_complete (option_schema_wf code) Hv).
Qed.

Example subnet_examples :
  (* 192.0.2.0/24 *)
  c05_optdata 8 [0;1;24;0;192;0;2] = Ok [VNum 1; VNum 24; VNum 0; VBytes [192;0;2]] /\
  (* bits beyond the prefix *)
  c05_optdata 8 [0;1;23;0;192;0;3] = Err E_FORM /\
  c05_optdata 8 [0;1;23;0;192;0;2] = Ok [VNum 1; VNum 23; VNum 0; VBytes [192;0;2]] /\
  (* too many / too few address octets, bad family, prefix beyond the family *)
  c05_optdata 8 [0;1;24;0;192;0;2;0] = Err E_FORM /\
  c05_optdata 8 [0;1;24;0;192;0] = Err E_FORM /\
  c05_optdata 8 [0;3;0;0] = Err E_FORM /\
  c05_optdata 8 [0;1;33;0;1;2;3;4;5] = Err E_FORM /\
  c05_optdata 8 [0;2;0;0] = Ok [VNum 2; VNum 0; VNum 0; VBytes []] /\
  c05_optdata 8 [0;1;24] = Err E_SHORT.
Proof. vm_compute. repeat split; reflexivity. Qed.

Example option_examples :
  c05_optdata 9 [] = Ok [VBytes []] /\ c05_optdata 9 [1;2;3] = Err E_SHORT /\
  c05_optdata 9 [1;2;3;4;5] = Err E_FORM /\
  c05_optdata 10 [1;2;3;4;5;6;7] = Err E_SHORT /\
  c05_optdata 10 [1;2;3;4;5;6;7;8;9] = Err E_FORM /\
  c05_optdata 11 [0] = Err E_SHORT /\ c05_optdata 11 [0;1;2] = Err E_FORM /\
  c05_optdata 14 [0;1;2] = Err E_FORM /\
  c05_optdata 15 [0;15;99;97;102;233] = Ok [VNum 15; VBytes [99;97;102;233]] /\
  c05_optdata 15 [0] = Err E_SHORT /\
  c05_optdata 13 [1;97;0] = Ok [VName [[97]]] /\ c05_optdata 13 [1;97;0;0] = Err E_FORM /\
  c05_optdata 13 [192;0] = Err E_BADLABEL.
Proof. vm_compute. repeat split; reflexivity. Qed.

Lemma ipseckey_schema_wf g : wf_schema_full (ipseckey_schema g) = true.
Proof.
  unfold ipseckey_schema, gateway_fields.
  destruct (g =? 1); [reflexivity|]. destruct (g =? 2); [reflexivity|].
  destruct (g =? 3); reflexivity.
Qed.

Theorem ipseckey_parse_compose g v pre post :
  g <= 3 -> wf_value (ipseckey_schema g) v = true ->
  ipseckey_parse (pre ++ compose (ipseckey_schema g) v ++ post) (len pre)
    (len pre + len (compose (ipseckey_schema g) v)) = Ok v /\
  rdlen (ipseckey_schema g) false v = Ok (Some (len (compose (ipseckey_schema g) v))).
Proof.
  intros Hg Hv. split; [|apply (rdlen_exact _ _ Hv)].
  pose proof (parse_compose (pname_nc_dec Gen.ipseckey_checks_consumed) (pname_nc_dec_complete _) (ipseckey_schema g) v pre post
                (ipseckey_schema_wf g) Hv) as Hpc.
  apply wf_value_iff in Hv as [Hf [_ Hpost]].
  unfold ipseckey_schema in Hf. cbn [s_fields app wf_fvals] in Hf.
  destruct v as [|[p| | |] [|[g'| | |] [|[a| | |] rest]]]; try discriminate.
  apply andb_true_iff in Hf as [Hp Hf]. apply andb_true_iff in Hf as [Hg' Hf].
  apply andb_true_iff in Hf as [Ha _].
  cbn [wf_fval pow256] in Hp, Hg', Ha.
  apply N.ltb_lt in Hp, Hg', Ha. change (pow256 1) with 256 in Hp, Hg', Ha.
  unfold post_ok, ipseckey_schema in Hpost. cbn [s_post post_check] in Hpost.
  destruct (N.eqb_spec g' g) as [->|]; [|discriminate]. clear Hpost.
  unfold ipseckey_parse.
  set (c := compose (ipseckey_schema g) (VNum p :: VNum g :: VNum a :: rest)) in *.
  assert (Hc : exists tl, c = p :: g :: a :: tl).
  { subst c. unfold compose, ipseckey_schema. cbn [s_fields app compose_fields compose_field U8].
    rewrite (be1 p), (be1 g), (be1 a) by lia. cbn [app]. eexists. reflexivity. }
  destruct Hc as [tl Hc]. rewrite Hc in *.
  destruct (N.ltb_spec (len pre + len (p :: g :: a :: tl) - len pre) 3) as [L|_].
  { rewrite !len_cons in L. lia. }
  replace (pre ++ (p :: g :: a :: tl) ++ post) with ((pre ++ [p]) ++ g :: (a :: tl ++ post))
    by (rewrite <- !app_assoc; reflexivity).
  replace (len pre + 1) with (len (pre ++ [p])) by (rewrite len_app, len_cons, len_nil; lia).
  rewrite get_mid.
  destruct (N.ltb_spec 3 g) as [L|_]; [lia|].
  replace ((pre ++ [p]) ++ g :: (a :: tl ++ post)) with (pre ++ (p :: g :: a :: tl) ++ post)
    by (rewrite <- !app_assoc; reflexivity).
  exact Hpc.
Qed.

Example ipseckey_examples :
  (* no gateway, algorithm 2 without a key: accepted by new(), refused by parse *)
  ipseckey_parse [10; 0; 2] 0 3 = Err E_SHORT /\
  ipseckey_parse [10; 0; 0] 0 3 = Ok [VNum 10; VNum 0; VNum 0; VBytes []] /\
  ipseckey_parse [10; 1; 2; 192; 0; 2; 1; 7; 7] 0 9 = Ok [VNum 10; VNum 1; VNum 2; VBytes [192;0;2;1]; VBytes [7;7]] /\
  ipseckey_parse [10; 3; 2; 1; 97; 0; 7] 0 7 = Ok [VNum 10; VNum 3; VNum 2; VName [[97]]; VBytes [7]] /\
  (* label + pointer: refused; pointer only: taken as an uncompressed name at the target *)
  ipseckey_parse [1; 120; 0; 10; 3; 2; 1; 97; 192; 0; 7] 3 11 = Err E_FORM /\
  ipseckey_parse [1; 120; 0; 10; 3; 2; 192; 0; 7] 3 9 =
    (if Gen.ipseckey_checks_consumed then Err E_FORM
     else Ok [VNum 10; VNum 3; VNum 2; VName [[120]]; VBytes [7]]) /\
  ipseckey_parse [10; 4; 2; 7] 0 4 = Err E_FORM /\
  ipseckey_parse [10; 1] 0 2 = Err E_SHORT /\
  (* Ipseckey::new takes the key-less value that parse refuses *)
  ctor_accepts (ipseckey_schema 0) [VNum 10; VNum 0; VNum 2; VBytes []] = true /\
  wf_value (ipseckey_schema 0) [VNum 10; VNum 0; VNum 2; VBytes []] = false.
Proof. vm_compute. repeat split; reflexivity. Qed.

(* RFC 4025 2.5: the gateway name MUST NOT be compressed.  With the consumed
   length compared (T1 flag) every accepted gateway name was read from exactly
   its uncompressed octets; without it a gateway that is only a compression
   pointer is accepted. *)
Theorem ipseckey_pointer_gateway_refuted :
  Gen.ipseckey_checks_consumed = false ->
  exists m pos lim v, ipseckey_parse m pos lim = Ok v /\ get m (pos + 3) = Some 192.
Proof.
  intros H. exists [1; 120; 0; 10; 3; 2; 192; 0; 7], 3, 9, [VNum 10; VNum 3; VNum 2; VName [[120]]; VBytes [7]].
  unfold ipseckey_parse. rewrite H. vm_compute. auto.
Qed.

Theorem nc_dec_strict_exact m pos lim n e :
  pname_nc_dec true m pos lim = Ok (n, e) ->
  exists p, parse_ref m pos lim = Ok p /\ pn_compressed p = false /\ e - pos = pn_len p.
Proof.
  unfold pname_nc_dec. destruct (parse_ref m pos lim) as [p| | |]; try discriminate.
  cbn [bind]. destruct (pn_compressed p) eqn:Ec; [discriminate|]. cbn [andb].
  destruct (N.eqb_spec (pn_end p - pos) (pn_len p)) as [E|]; [|discriminate]. cbn [negb].
  destruct (pname_labels m p) as [r| | |]; try discriminate. cbn [bind].
  intros H. injection H as _ <-. exists p. auto.
Qed.

Lemma short_rest_none l :
  forallb (fun f => match f with FRest (S _) => false | _ => true end) l = true ->
  forall v, short_rest_fields l v = false.
Proof.
  induction l as [|f l IH]; intros H v; [destruct v; reflexivity|].
  cbn [forallb] in H. apply andb_true_iff in H as [Hf Hl].
  destruct v as [|x v]; [destruct f; reflexivity|].
  destruct f as [| | | | | |[|mn]|]; try discriminate Hf; destruct x; cbn [short_rest_fields];
    try (apply IH; exact Hl).
Qed.

(* Ipseckey::new: everything it accepts round-trips with an exact length,
   except over-long values and the key-less value with a key algorithm *)
Theorem ipseckey_ctor_sound g v pre post :
  g <= 3 -> ctor_accepts (ipseckey_schema g) v = true ->
  overlong (ipseckey_schema g) v = false -> post_ok (PIpseckey g) v = true ->
  ipseckey_parse (pre ++ compose (ipseckey_schema g) v ++ post) (len pre)
    (len pre + len (compose (ipseckey_schema g) v)) = Ok v /\
  rdlen (ipseckey_schema g) false v = Ok (Some (len (compose (ipseckey_schema g) v))).
Proof.
  intros Hg Hc Ho Hp. apply ipseckey_parse_compose; [exact Hg|].
  apply ctor_accepts_wf; auto.
  unfold short_rest. apply short_rest_none.
  unfold ipseckey_schema, gateway_fields. cbn [s_fields].
  destruct (g =? 1); [reflexivity|]. destruct (g =? 2); [reflexivity|]. destruct (g =? 3); reflexivity.
Qed.

Theorem std_cookie_roundtrip v pre post :
  wf_value std_cookie_schema v = true ->
  parse_rdata flat_dec std_cookie_schema (pre ++ compose std_cookie_schema v ++ post) (len pre)
    (len pre + len (compose std_cookie_schema v)) = Ok v /\
  len (compose std_cookie_schema v) = 16.
Proof.
  intros Hv. split.
  - apply parse_compose; auto. apply flat_dec_complete.
  - apply wf_value_iff in Hv as [Hf _]. unfold compose.
    rewrite <- fields_len_compose. apply (fields_len_fixed (s_fields std_cookie_schema) v eq_refl Hf).
Qed.

Example std_cookie_example :
  c05_stdcookie [1; 0;0;0; 0;0;1;0; 1;2;3;4;5;6;7;8] = Some [VNum 1; VBytes [0;0;0]; VNum 256; VBytes [1;2;3;4;5;6;7;8]] /\
  c05_stdcookie [1;2;3;4;5;6;7;8] = None /\ c05_stdcookie (repeat 0 17) = None.
Proof. vm_compute. auto. Qed.

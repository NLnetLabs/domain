(* C05 -- property theorems only.  Proofs live in C05/Proofs*.v. *)
From Coq Require Import NArith List Bool Permutation.
From DV Require Import Base.Outcome Base.Bytes Base.Names Base.PName
  C05.Schema C05.Gen C05.Model C05.OptModel C05.SvcModel C05.SvcBuf C05.TxtModel C05.TxtLimit C05.ProofsA C05.ProofsB C05.ProofsC C05.ProofsD C05.ProofsE C05.ProofsF C05.ProofsG C05.ProofsH C05.Proofs C05.ProofsI C05.ProofsJ C05.ProofsK C05.ProofsM C05.ProofsN C05.ProofsO C05.ProofsP.
Import ListNotations.
Local Open Scope N_scope.

(* schema-generic: composing and parsing back, anywhere inside a message, with
   any name reader that reads back uncompressed names *)
Theorem C05_parse_compose : forall dec, dec_complete dec -> forall s v pre post,
  wf_schema_full s = true -> wf_value s v = true ->
  parse_rdata dec s (pre ++ compose s v ++ post) (len pre) (len pre + len (compose s v)) = Ok v.
Proof. exact parse_compose. Qed.
Print Assumptions C05_parse_compose.

(* the message name reader (compression pointers followed) and the flat reader
   both qualify *)
Theorem C05_readers_complete : dec_complete pname_dec /\ dec_complete flat_dec /\ dec_sound flat_dec.
Proof. exact (conj pname_dec_complete (conj flat_dec_complete flat_dec_sound)). Qed.
Print Assumptions C05_readers_complete.

(* every record type of the table and every unknown type *)
Theorem C05_table_parse_compose : forall t s v pre post,
  schema_of t = Some s -> wf_value s v = true ->
  parse_rdata pname_dec s (pre ++ compose s v ++ post) (len pre) (len pre + len (compose s v)) = Ok v /\
  parse_rdata flat_dec s (pre ++ compose s v ++ post) (len pre) (len pre + len (compose s v)) = Ok v.
Proof. exact table_parse_compose. Qed.
Print Assumptions C05_table_parse_compose.

Theorem C05_rdlen_exact : forall s v, wf_value s v = true ->
  rdlen s false v = Ok (Some (len (compose s v))) /\
  rdlen s true v = (if has_compressible s then Ok None else Ok (Some (len (compose s v)))).
Proof. exact rdlen_exact. Qed.
Print Assumptions C05_rdlen_exact.

Theorem C05_rdlen_never_lies : forall s v c k,
  ctor_accepts s v = true -> rdlen s c v = Ok (Some k) -> k = len (compose s v).
Proof. exact rdlen_never_lies. Qed.
Print Assumptions C05_rdlen_never_lies.

Theorem C05_recompose : forall dec dec' s m pos lim v pre post,
  dec_sound dec -> dec_complete dec' -> wf_schema_full s = true ->
  wf_bytes m -> lim <= mlen m ->
  parse_rdata dec s m pos lim = Ok v ->
  total_len s v <= 65535 ->
  parse_rdata dec' s (pre ++ compose s v ++ post) (len pre) (len pre + len (compose s v)) = Ok v.
Proof. exact recompose. Qed.
Print Assumptions C05_recompose.

Theorem C05_canonical_only_lowercases : forall s v,
  compose_canonical s v = compose s (lower_flagged s v).
Proof. exact canonical_only_lowercases. Qed.
Print Assumptions C05_canonical_only_lowercases.

Theorem C05_canonical_unlisted_is_wire : forall t s v,
  In (t, s) schema_table_regular -> memN t rfc4034_6_2_types = false ->
  compose_canonical s v = compose s v.
Proof. exact canonical_unlisted_is_wire. Qed.
Print Assumptions C05_canonical_unlisted_is_wire.

Theorem C05_lower_flags_are_rfc :
  forallb row_follows_rfc schema_table_regular = true /\
  forallb (fun t => Bool.eqb (memN t Gen.lower_types_src) (memN t rfc4034_6_2_types)) Gen.name_types_src = true /\
  forallb (fun t => memN t Gen.name_types_src) Gen.lower_types_src = true.
Proof. exact (conj lower_flags_are_rfc lowercasing_types_are_rfc). Qed.
Print Assumptions C05_lower_flags_are_rfc.

Theorem C05_unknown_opaque : forall t,
  schema_of t = Some unknown_schema ->
  (forall b, compose unknown_schema [VBytes b] = b /\ compose_canonical unknown_schema [VBytes b] = b) /\
  (forall dec m pos lim, pos <= lim ->
     parse_rdata dec unknown_schema m pos lim = Ok [VBytes (slice m pos lim)]).
Proof. exact unknown_opaque. Qed.
Print Assumptions C05_unknown_opaque.

(* the rows regenerated from the Rust source are the rows the theorems are about *)
Theorem C05_schema_src_agrees :
  Gen.schema_src = schema_table_regular /\ Gen.unknown_src = unknown_schema /\
  Gen.rdlen_none_src = map fst (filter (fun r => has_compressible (snd r)) schema_table_regular) /\
  Gen.rdlen_shape_src = map (fun r => (fst r, rdlen_shape (snd r))) schema_table_regular /\
  Gen.rdlen_shape_unknown_src = rdlen_shape unknown_schema.
Proof. exact (conj schema_src_agrees (conj unknown_src_agrees (conj rdlen_none_agrees rdlen_shape_agrees))). Qed.
Print Assumptions C05_schema_src_agrees.

(* constructors: everything they accept round-trips with an exact length,
   except over-long values (no length check in the constructor) and remainders
   below the minimum that parse demands -- both are reachable *)
Theorem C05_ctor_sound : forall t s v pre post,
  schema_of t = Some s -> ctor_accepts s v = true ->
  overlong s v = false -> short_rest s v = false ->
  parse_rdata pname_dec s (pre ++ compose s v ++ post) (len pre) (len pre + len (compose s v)) = Ok v /\
  rdlen s false v = Ok (Some (len (compose s v))).
Proof. exact table_ctor_sound. Qed.
Print Assumptions C05_ctor_sound.

Theorem C05_ctor_rdlen_refuted :
  exists t s v, schema_of t = Some s /\ ctor_accepts s v = true /\ rdlen s false v = Panic P_LONG.
Proof. exact ctor_rdlen_refuted. Qed.
Print Assumptions C05_ctor_rdlen_refuted.

Theorem C05_ctor_roundtrip_refuted :
  exists t s v, schema_of t = Some s /\ ctor_accepts s v = true /\
    parse_rdata pname_dec s (compose s v) 0 (len (compose s v)) = Err E_SHORT.
Proof. exact ctor_roundtrip_refuted. Qed.
Print Assumptions C05_ctor_roundtrip_refuted.

(* == on opaque record data inside AllRecordData: equality of type and octets
   when the Unknown arm exists in the generated PartialEq impl (T1 flag), ... *)
Theorem C05_unknown_eq_spec : forall t1 b1 t2 b2,
  Gen.all_eq_has_unknown_arm = true ->
  (all_eq_unknown t1 b1 t2 b2 = true <-> t1 = t2 /\ b1 = b2).
Proof. exact unknown_eq_spec. Qed.
Print Assumptions C05_unknown_eq_spec.

(* ... and never true, not even for a value and itself, when it is missing *)
Theorem C05_allrecorddata_eq_unknown_refuted :
  Gen.all_eq_has_unknown_arm = false -> forall t b, all_eq_unknown t b t b = false.
Proof. exact allrecorddata_eq_unknown_refuted. Qed.
Print Assumptions C05_allrecorddata_eq_unknown_refuted.

Theorem C05_zone_unknown_eq_spec : forall t1 b1 t2 b2,
  zone_eq_unknown t1 b1 t2 b2 = true <-> t1 = t2 /\ b1 = b2.
Proof. exact zone_unknown_eq_spec. Qed.
Print Assumptions C05_zone_unknown_eq_spec.

(* EDNS option framing: the framed length is the sum of 4 + data length ... *)
Theorem C05_opt_frame_len : forall l, len (opt_frame l) = framed_len l.
Proof. exact opt_frame_len. Qed.
Print Assumptions C05_opt_frame_len.

(* ... and a framed option list iterates as itself *)
Theorem C05_opt_parse_frame : forall l,
  Forall wf_option l -> framed_len l <= 65535 -> opt_parse (opt_frame l) = Ok l.
Proof. exact opt_parse_frame. Qed.
Print Assumptions C05_opt_parse_frame.

Theorem C05_opt_push_all_frame : forall l cur r,
  opt_push_all cur l = Some r -> r = cur ++ opt_frame l.
Proof. exact opt_push_all_frame. Qed.
Print Assumptions C05_opt_push_all_frame.

(* Opt::push keeps OPT data within 65535 octets iff its check counts the
   option header (T1 flag opt_push_counts_header) *)
Theorem C05_opt_push_bounded : forall cur o r,
  Gen.opt_push_counts_header = true -> opt_push cur o = Some r -> len r <= 65535.
Proof. exact opt_push_bounded. Qed.
Print Assumptions C05_opt_push_bounded.

Theorem C05_opt_push_long_refuted :
  Gen.opt_push_counts_header = false ->
  exists o r, opt_push [] o = Some r /\ 65535 < len r.
Proof. exact opt_push_long_refuted. Qed.
Print Assumptions C05_opt_push_long_refuted.

(* every type bitmap the builder produces (C13 model of RtypeBitmapBuilder) is
   accepted as the types field of the NSEC / NSEC3 rows *)
Theorem C05_built_bitmap_accepted : forall ts, Forall (fun x => x < 65536) ts ->
  rest_check KBitmap (C13.Model.bm_finalize (C13.Model.bm_adds [] ts)) = None.
Proof. exact built_bitmap_accepted. Qed.
Print Assumptions C05_built_bitmap_accepted.

(* EDNS option contents, every option code: compose then parse gives the value
   back, the announced option length is the number of octets written *)
Theorem C05_option_parse_compose : forall code v pre post,
  wf_value (option_schema code) v = true ->
  parse_rdata flat_dec (option_schema code)
    (pre ++ compose (option_schema code) v ++ post) (len pre)
    (len pre + len (compose (option_schema code) v)) = Ok v /\
  rdlen (option_schema code) false v = Ok (Some (len (compose (option_schema code) v))).
Proof. exact option_parse_compose. Qed.
Print Assumptions C05_option_parse_compose.

(* IPSECKEY, every gateway type: compose then parse (the row is picked by the
   gateway type octet), exact length *)
Theorem C05_ipseckey_parse_compose : forall g v pre post,
  g <= 3 -> wf_value (ipseckey_schema g) v = true ->
  ipseckey_parse (pre ++ compose (ipseckey_schema g) v ++ post) (len pre)
    (len pre + len (compose (ipseckey_schema g) v)) = Ok v /\
  rdlen (ipseckey_schema g) false v = Ok (Some (len (compose (ipseckey_schema g) v))).
Proof. exact ipseckey_parse_compose. Qed.
Print Assumptions C05_ipseckey_parse_compose.

(* types without embedded names: parse is exact -- what it accepts re-composes
   to the very octets read -- so the re-compose theorem needs no premise on the
   composed length beyond the RDLENGTH being a u16 *)
Theorem C05_parse_exact : forall dec s m pos lim v,
  forallb no_name (s_fields s) = true -> wf_bytes m -> lim <= mlen m -> pos <= lim ->
  parse_rdata dec s m pos lim = Ok v -> compose s v = slice m pos lim.
Proof. exact parse_exact. Qed.
Print Assumptions C05_parse_exact.

Theorem C05_recompose_nameless : forall dec dec' s m pos lim v pre post,
  dec_sound dec -> dec_complete dec' -> wf_schema_full s = true ->
  forallb no_name (s_fields s) = true ->
  wf_bytes m -> lim <= mlen m -> pos <= lim -> lim - pos <= 65535 ->
  parse_rdata dec s m pos lim = Ok v ->
  compose s v = slice m pos lim /\
  parse_rdata dec' s (pre ++ compose s v ++ post) (len pre) (len pre + len (compose s v)) = Ok v.
Proof. exact recompose_nameless. Qed.
Print Assumptions C05_recompose_nameless.

(* SVCB / HTTPS parameter values, every key: compose then parse gives the value
   back, the announced value length is the number of octets written *)
Theorem C05_svcvalue_parse_compose : forall key v pre post,
  wf_value (svcvalue_schema key) v = true ->
  parse_rdata flat_dec (svcvalue_schema key)
    (pre ++ compose (svcvalue_schema key) v ++ post) (len pre)
    (len pre + len (compose (svcvalue_schema key) v)) = Ok v /\
  rdlen (svcvalue_schema key) false v = Ok (Some (len (compose (svcvalue_schema key) v))).
Proof. exact svcvalue_parse_compose. Qed.
Print Assumptions C05_svcvalue_parse_compose.

(* the typed builder: whatever the push order, the frozen parameters pass
   SvcParams::check_slice, are in ascending key order, hold exactly the pushed
   values and iterate as that list; a key pushed twice is refused *)
Theorem C05_svc_build_accepted : forall pushes b,
  Forall wf_option pushes -> svc_build pushes = Some b ->
  rest_check KSvcParams b = None /\
  exists l, b = opt_frame l /\ ascending 0 l = true /\ (forall x, In x l <-> In x pushes) /\
            opt_iter (S (length b)) b 0 (len b) [] = Ok l.
Proof. exact svc_build_accepted. Qed.
Print Assumptions C05_svc_build_accepted.

Theorem C05_svc_build_duplicate : forall o o', fst o = fst o' -> svc_build [o; o'] = None.
Proof. exact svc_build_duplicate. Qed.
Print Assumptions C05_svc_build_duplicate.

(* IPSECKEY gateway names (RFC 4025 2.5: MUST NOT be compressed): with the
   consumed-length check (T1 flag) an accepted gateway name was read from
   exactly its uncompressed octets; without it a pointer-only gateway passes *)
Theorem C05_nc_dec_strict_exact : forall m pos lim n e,
  pname_nc_dec true m pos lim = Ok (n, e) ->
  exists p, parse_ref m pos lim = Ok p /\ pn_compressed p = false /\ e - pos = pn_len p.
Proof. exact nc_dec_strict_exact. Qed.
Print Assumptions C05_nc_dec_strict_exact.

Theorem C05_ipseckey_pointer_gateway_refuted :
  Gen.ipseckey_checks_consumed = false ->
  exists m pos lim v, ipseckey_parse m pos lim = Ok v /\ get m (pos + 3) = Some 192.
Proof. exact ipseckey_pointer_gateway_refuted. Qed.
Print Assumptions C05_ipseckey_pointer_gateway_refuted.

Theorem C05_std_cookie_roundtrip : forall v pre post,
  wf_value std_cookie_schema v = true ->
  parse_rdata flat_dec std_cookie_schema (pre ++ compose std_cookie_schema v ++ post) (len pre)
    (len pre + len (compose std_cookie_schema v)) = Ok v /\
  len (compose std_cookie_schema v) = 16.
Proof. exact std_cookie_roundtrip. Qed.
Print Assumptions C05_std_cookie_roundtrip.

(* the IPSECKEY rows are the ones read from the source *)
Theorem C05_ipseckey_src_agrees :
  Gen.ipseckey_src = map (fun g => (g, ipseckey_schema g)) [0; 1; 2; 3].
Proof. exact ipseckey_src_agrees. Qed.
Print Assumptions C05_ipseckey_src_agrees.

(* canonical form, label by label: it is the wire form of the value whose
   flagged names are lower-cased, and no upper-case ASCII octet is left in any
   label of such a name (label lengths unchanged) *)
Theorem C05_canonical_lowers_every_flagged_name : forall s v,
  compose_canonical s v = compose s (lower_flagged s v) /\
  (forall f x, In (f, x) (combine (s_fields s) (lower_flagged s v)) -> is_lower f = true ->
     forall n, x = VName n ->
     Forall (fun l => Forall (fun b => negb ((65 <=? b) && (b <=? 90)) = true) l) n).
Proof. exact canonical_lowers_every_flagged_name. Qed.
Print Assumptions C05_canonical_lowers_every_flagged_name.

(* known constructor classes: ctor_reparse_IPSECKEY and svc_ctor_reparse_TLSGROUPS
   (the ctor_long_* / ctor_reparse_ZONEMD witnesses are C05_ctor_rdlen_refuted /
   C05_ctor_roundtrip_refuted, their exclusion theorem is C05_ctor_sound) *)
Theorem C05_ctor_reparse_ipseckey_refuted :
  ctor_accepts (ipseckey_schema 0) [VNum 10; VNum 0; VNum 2; VBytes []] = true /\
  ipseckey_parse (compose (ipseckey_schema 0) [VNum 10; VNum 0; VNum 2; VBytes []]) 0 3 = Err E_SHORT.
Proof. exact ctor_reparse_ipseckey_refuted. Qed.
Print Assumptions C05_ctor_reparse_ipseckey_refuted.

Theorem C05_tlsgroups_from_keys : 
  rest_check KGroups (groups_from_keys []) = Some E_FORM /\
  (forall ks, ks <> [] -> rest_check KGroups (groups_from_keys ks) = None).
Proof. exact (conj tlsgroups_from_keys_refuted tlsgroups_from_keys_sound). Qed.
Print Assumptions C05_tlsgroups_from_keys.

(* the message name reader returns valid names (imported from C01_parse_ref_sound) ... *)
Theorem C05_pname_dec_sound : dec_sound_in pname_dec /\ forall strict, dec_sound_in (pname_nc_dec strict).
Proof. exact (conj pname_dec_sound pname_nc_dec_sound). Qed.
Print Assumptions C05_pname_dec_sound.

(* ... so RDATA accepted from a message, embedded names possibly compressed,
   re-composes (uncompressed) to octets that the same reader parses to the same
   value: no hypothesis about the reader is left *)
Theorem C05_table_recompose_compressed : forall t s m pos lim v pre post,
  schema_of t = Some s -> wf_bytes m -> lim <= mlen m ->
  parse_rdata pname_dec s m pos lim = Ok v ->
  total_len s v <= 65535 ->
  parse_rdata pname_dec s (pre ++ compose s v ++ post) (len pre) (len pre + len (compose s v)) = Ok v.
Proof. exact table_recompose_compressed. Qed.
Print Assumptions C05_table_recompose_compressed.

(* compressing targets: whenever rdlen(compress) answers a number, exactly that
   many octets are written, whatever the compressor does with compressible names *)
Theorem C05_rdlen_some_is_written : forall s v compress n,
  wf_value s v = true -> rdlen s compress v = Ok (Some n) ->
  forall cmp, (compress = false -> cmp = None) -> len (compose_on cmp s v) = n.
Proof. exact rdlen_some_is_written. Qed.
Print Assumptions C05_rdlen_some_is_written.

Theorem C05_table_rdlen_compress : forall t s v n cmp,
  schema_of t = Some s -> wf_value s v = true -> rdlen s true v = Ok (Some n) ->
  compose_on cmp s v = compose s v /\ len (compose s v) = n /\ has_compressible s = false.
Proof. exact table_rdlen_compress. Qed.
Print Assumptions C05_table_rdlen_compress.

(* the model's canonical names are what the helpers behind compose_canonical
   write (T1: every label through Label::compose_canonical, every octet lower-cased) *)
Theorem C05_canon_is_helper : forall n,
  Gen.canonical_helpers_lower_all_labels = true ->
  wire_abs (canon n) = concat (map (fun l => N.of_nat (length l) :: map lower l) n) ++ [0].
Proof. exact canon_is_helper. Qed.
Print Assumptions C05_canon_is_helper.

(* one witness per known class ctor_long_<TYPE>: the constructor accepts, rdlen() panics *)
Theorem C05_ctor_long_refuted :
  (exists v, ctor_accepts (plain [U8; U8; U8; Rest]) v = true /\ rdlen (plain [U8; U8; U8; Rest]) false v = Panic P_LONG) /\      (* TLSA *)
  (exists v, ctor_accepts (plain [U8; U8; Rest]) v = true /\ rdlen (plain [U8; U8; Rest]) false v = Panic P_LONG) /\              (* SSHFP *)
  (exists v, ctor_accepts (plain [Rest]) v = true /\ rdlen (plain [Rest]) false v = Panic P_LONG) /\                              (* OPENPGPKEY *)
  (exists v, ctor_accepts (plain [U32; U8; U8; FRest 12]) v = true /\ rdlen (plain [U32; U8; U8; FRest 12]) false v = Panic P_LONG) /\  (* ZONEMD *)
  (exists v, ctor_accepts (plain [U8; CaaTagStr; Rest]) v = true /\ rdlen (plain [U8; CaaTagStr; Rest]) false v = Panic P_LONG) /\ (* CAA *)
  (exists v, ctor_accepts (ipseckey_schema 0) v = true /\ rdlen (ipseckey_schema 0) false v = Panic P_LONG).                      (* IPSECKEY *)
Proof.
  repeat split; eexists.
  - exact (proj2 ctor_long_TLSA_refuted).
  - exact (proj2 ctor_long_SSHFP_refuted).
  - exact (proj2 ctor_long_OPENPGPKEY_refuted).
  - exact (proj2 ctor_long_ZONEMD_refuted).
  - exact (proj2 ctor_long_CAA_refuted).
  - exact ctor_long_IPSECKEY_refuted.
Qed.
Print Assumptions C05_ctor_long_refuted.

(* IPSECKEY exclusion theorem: what Ipseckey::new accepts round-trips with an
   exact length unless it is over-long or key-less with a key algorithm *)
Theorem C05_ipseckey_ctor_sound : forall g v pre post,
  g <= 3 -> ctor_accepts (ipseckey_schema g) v = true ->
  overlong (ipseckey_schema g) v = false -> post_ok (PIpseckey g) v = true ->
  ipseckey_parse (pre ++ compose (ipseckey_schema g) v ++ post) (len pre)
    (len pre + len (compose (ipseckey_schema g) v)) = Ok v /\
  rdlen (ipseckey_schema g) false v = Ok (Some (len (compose (ipseckey_schema g) v))).
Proof. exact ipseckey_ctor_sound. Qed.
Print Assumptions C05_ipseckey_ctor_sound.


(* TxtBuilder, the alternative constructor of TXT data: whatever is appended (slices,
   single octets, whole character strings), in whatever pieces, no character string
   of the result exceeds 255 octets, the text of the result is the concatenation of
   what was appended, and the result is never empty -- so it is a value the TXT row
   accepts, composes and parses back *)
Theorem C05_txt_build_ok : forall ops, Forall op_ok ops ->
  Forall (fun s => (length s <= 255)%nat) (txt_build ops) /\
  concat (txt_build ops) = concat (map op_text ops) /\ txt_build ops <> [].
Proof. exact txt_build_ok. Qed.
Print Assumptions C05_txt_build_ok.

Theorem C05_txt_build_wf : forall ops, Forall op_ok ops -> Forall (fun b => wf_bytes (op_text b)) ops ->
  wf_fval true FCharStrs (VStrs (txt_build ops)) = true.
Proof. exact txt_build_wf. Qed.
Print Assumptions C05_txt_build_wf.

(* TxtBuilder with its RDATA size check (every append is refused once the octets
   written would exceed 65535): what the builder hands out is what the unchecked
   builder makes and its RDATA is at most 65535 octets, so it has an RDLENGTH;
   and whole character strings that fit -- up to exactly 65535 octets -- are
   never refused *)
Theorem C05_txt_build_chk_sound : forall ops l, txt_build_chk ops = Some l ->
  l = txt_build ops /\ N.of_nat (length (txt_wire l)) <= RDATA_MAX.
Proof. exact txt_build_chk_sound. Qed.
Print Assumptions C05_txt_build_chk_sound.

Theorem C05_txt_limit_src_agrees :
  Gen.txt_limit_src = RDATA_MAX /\ Gen.txt_charstr_check_counts_length_octet = true.
Proof. exact txt_limit_src_agrees. Qed.
Print Assumptions C05_txt_limit_src_agrees.

Theorem C05_txt_build_chk_charstrs : forall l, l <> [] -> strs_size l <= RDATA_MAX ->
  txt_build_chk (map TCharStr l) = Some l.
Proof. exact txt_build_chk_charstrs. Qed.
Print Assumptions C05_txt_build_chk_charstrs.

(* SvcParamsBuilder::push_raw's scan over the values in PHYSICAL (push) order:
   it is independent of that order (keys distinct), ... *)
Theorem C05_scan_order_independent : forall key c1 c2,
  Permutation c1 c2 -> NoDup (map c_key c1) ->
  forall p n, scan key c1 p n = scan key c2 p n.
Proof. exact scan_perm. Qed.
Print Assumptions C05_scan_order_independent.

(* ... it finds exactly the neighbours of the new key in key order -- the last
   cell below it (with the offset of ITS slot) and the first cell above it (with
   ITS start offset) -- whatever the physical order, ... *)
Theorem C05_scan_neighbours : forall key cells l1 l2,
  Permutation (l1 ++ l2) cells -> asc 0 (l1 ++ l2) ->
  (forall c, In c l1 -> c_key c < key) ->
  match l2 with c :: _ => key < c_key c | [] => True end ->
  scan key cells None None =
    Some (match rev l1 with c :: _ => Some (c_key c, slot c) | [] => None end,
          match l2 with c :: _ => Some (c_key c, c_start c) | [] => None end).
Proof. exact scan_neighbours. Qed.
Print Assumptions C05_scan_neighbours.

(* ... and a key that is already present is reported as a duplicate wherever it sits *)
Theorem C05_scan_duplicate : forall key cells l, Permutation l cells -> asc 0 l ->
  (exists c, In c l /\ c_key c = key) -> scan key cells None None = None.
Proof. exact scan_duplicate. Qed.
Print Assumptions C05_scan_duplicate.

(* freeze follows the chain: a chain through cells found by their start offsets
   is copied out in chain order *)
Theorem C05_follow_chain : forall cells, NoDup (map c_start cells) ->
  forall l q fuel, chain q l PMAX -> (forall c, In c l -> In c cells /\ c_start c <> PMAX) ->
  (length l < fuel)%nat -> follow fuel cells q = Ok (map kd l).
Proof. exact follow_chain. Qed.
Print Assumptions C05_follow_chain.

(* The in-buffer representation of SvcParamsBuilder (values in physical push
   order, predecessor / successor scan over all of them, slot fix-up, freeze
   along the chain) refines the sorted association list: for EVERY push
   sequence whose buffer offsets fit a u32, freezing yields exactly the octets
   of the list model, and a duplicate key is refused by both.
   (ProofsM.inbuf_refines_list_bounded: the instance for up to 5 pushes over 5 keys.) *)
Theorem C05_inbuf_refines_list : forall pushes,
  psize pushes < PMAX ->
  match svc_build pushes with
  | Some b => inbuf_build pushes = Some (Ok b)
  | None => inbuf_build pushes = None
  end.
Proof. exact inbuf_refines_list. Qed.
Print Assumptions C05_inbuf_refines_list.

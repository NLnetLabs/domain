(* C05 ProofsH.v -- service parameters: every value row round-trips; the
   builder yields ascending keys whatever the push order, and an ascending
   framed list passes SvcParams::check_slice and iterates as itself. *)
From Coq Require Import Arith NArith List Bool Lia.
From DV Require Import Base.Outcome Base.Bytes Base.PName C05.Schema C05.OptModel C05.SvcModel C05.ProofsA C05.ProofsB C05.ProofsC C05.ProofsE.
Import ListNotations.
Local Open Scope N_scope.

Lemma svcvalue_schema_wf key : wf_schema_full (svcvalue_schema key) = true.
Proof.
  unfold svcvalue_schema. destruct (slookup key svcvalue_table) as [s|] eqn:E; [|reflexivity].
  (* slookup is Model.lookup written a second time *)
  apply (lookup_forallb wf_schema_full key s svcvalue_table); [vm_compute; reflexivity|exact E].
Qed.

Theorem svcvalue_parse_compose key v pre post :
  wf_value (svcvalue_schema key) v = true ->
  parse_rdata flat_dec (svcvalue_schema key)
    (pre ++ compose (svcvalue_schema key) v ++ post) (len pre)
    (len pre + len (compose (svcvalue_schema key) v)) = Ok v /\
  rdlen (svcvalue_schema key) false v = Ok (Some (len (compose (svcvalue_schema key) v))).
Proof.
  intros Hv. exact (roundtrip_exact flat_dec _ v pre post flat_dec_complete (svcvalue_schema_wf key) Hv).
Qed.

Example svcvalue_examples :
  c05_svcvalue 1 [2;104;50;2;104;51] = Ok [VStrs [[104;50]; [104;51]]] /\
  c05_svcvalue 1 [2;104] = Err E_SHORT /\
  c05_svcvalue 2 [] = Ok [] /\ c05_svcvalue 2 [0] = Err E_FORM /\
  c05_svcvalue 3 [1;187] = Ok [VNum 443] /\ c05_svcvalue 3 [1] = Err E_SHORT /\
  c05_svcvalue 3 [1;187;0] = Err E_FORM /\
  c05_svcvalue 4 [192;0;2;1] = Ok [VBytes [192;0;2;1]] /\ c05_svcvalue 4 [192;0;2] = Err E_FORM /\
  c05_svcvalue 6 [1;2;3;4] = Err E_FORM /\
  c05_svcvalue 0 [0;1;0] = Err E_FORM /\
  (* mandatory lists are not checked for order or for naming themselves *)
  c05_svcvalue 0 [0;4;0;1;0;0] = Ok [VBytes [0;4;0;1;0;0]] /\
  c05_svcvalue 9 [] = Err E_FORM /\ c05_svcvalue 9 [0;29] = Ok [VBytes [0;29]] /\
  c05_svcvalue 4711 [1;2;3] = Ok [VBytes [1;2;3]].
Proof. vm_compute. repeat split; reflexivity. Qed.

Lemma svc_insert_asc o : forall l lo r,
  ascending lo l = true -> lo <= fst o -> svc_insert o l = Some r -> ascending lo r = true.
Proof.
  induction l as [|x l IH]; intros lo r Ha Hlo H; cbn [svc_insert] in H.
  - injection H as <-. cbn [ascending]. apply andb_true_iff. split; [apply N.leb_le; lia|reflexivity].
  - cbn [ascending] in Ha. apply andb_true_iff in Ha as [Hx Ha]. apply N.leb_le in Hx.
    destruct (N.ltb_spec (fst o) (fst x)) as [L|L].
    + injection H as <-. cbn [ascending]. rewrite Ha.
      repeat (apply andb_true_iff; split); try reflexivity; apply N.leb_le; lia.
    + destruct (N.eqb_spec (fst o) (fst x)) as [E|E]; [discriminate|].
      destruct (svc_insert o l) as [r'|] eqn:Er; [|discriminate]. injection H as <-.
      cbn [ascending]. apply andb_true_iff. split; [apply N.leb_le; lia|].
      eapply IH; eauto. lia.
Qed.

Lemma svc_push_all_asc pushes : forall acc r,
  ascending 0 acc = true -> svc_push_all acc pushes = Some r -> ascending 0 r = true.
Proof.
  induction pushes as [|o p IH]; intros acc r Ha H; cbn [svc_push_all] in H.
  - injection H as <-. exact Ha.
  - destruct (svc_insert o acc) as [a|] eqn:E; [|discriminate].
    eapply IH; [|exact H]. eapply svc_insert_asc; eauto. lia.
Qed.

Lemma svc_insert_perm o : forall l r, svc_insert o l = Some r ->
  forall x, In x r <-> x = o \/ In x l.
Proof.
  induction l as [|y l IH]; intros r H x; cbn [svc_insert] in H.
  - injection H as <-. cbn [In]. intuition congruence.
  - destruct (fst o <? fst y).
    + injection H as <-. cbn [In]. intuition congruence.
    + destruct (fst o =? fst y); [discriminate|].
      destruct (svc_insert o l) as [r'|] eqn:Er; [|discriminate]. injection H as <-.
      cbn [In]. rewrite (IH _ eq_refl x). intuition congruence.
Qed.

Lemma svc_push_all_perm pushes : forall acc r, svc_push_all acc pushes = Some r ->
  forall x, In x r <-> In x acc \/ In x pushes.
Proof.
  induction pushes as [|o p IH]; intros acc r Hr x; cbn [svc_push_all] in Hr.
  - injection Hr as <-. cbn [In]. tauto.
  - destruct (svc_insert o acc) as [a|] eqn:Ea; [|discriminate].
    rewrite (IH a r Hr x), (svc_insert_perm _ _ _ Ea x). cbn [In]. intuition congruence.
Qed.

Lemma svcparams_check_frame l : forall fuel last,
  Forall wf_option l -> ascending last l = true -> (length (opt_frame l) < fuel)%nat ->
  svcparams_check fuel (opt_frame l) last = None.
Proof.
  induction l as [|[c d] l IH]; intros fuel last Hw Ha Hf.
  - destruct fuel; [simpl in Hf; lia|]. reflexivity.
  - apply Forall_cons_iff in Hw as [[Hc Hd] Hw']. cbn [fst snd] in *.
    cbn [ascending fst] in Ha. apply andb_true_iff in Ha as [Hlast Ha]. apply N.leb_le in Hlast.
    unfold opt_frame in *. cbn [map concat] in *. set (tail := concat (map frame1 l)) in *.
    unfold frame1 in *. cbn [fst snd] in *. rewrite !be2 in * by lia. cbn [app] in *.
    destruct fuel as [|fuel]; [simpl in Hf; lia|]. cbn [svcparams_check].
    rewrite (div_mod_256 c).
    destruct (N.leb_spec (c + 1) last) as [L|_]; [lia|].
    rewrite (div_mod_256 (len d)).
    unfold len at 1 2. rewrite Nat2N.id.
    destruct (Nat.ltb_spec (length (d ++ tail)) (length d)) as [L|_]; [rewrite app_length in L; lia|].
    rewrite skipn_app, skipn_all, Nat.sub_diag. cbn [skipn app].
    apply IH; auto. simpl in Hf. rewrite app_length in Hf. lia.
Qed.

(* what the builder freezes is accepted by SvcParams::from_octets and holds
   exactly the pushed values, in ascending key order, whatever the push order *)
Theorem svc_build_accepted pushes b :
  Forall wf_option pushes -> svc_build pushes = Some b ->
  rest_check KSvcParams b = None /\
  exists l, b = opt_frame l /\ ascending 0 l = true /\ (forall x, In x l <-> In x pushes) /\
            opt_iter (S (length b)) b 0 (len b) [] = Ok l.
Proof.
  intros Hw H. unfold svc_build in H.
  destruct (svc_push_all [] pushes) as [l|] eqn:E; [|discriminate]. injection H as <-.
  assert (Ha : ascending 0 l = true) by exact (svc_push_all_asc pushes [] l eq_refl E).
  assert (Hperm : forall x, In x l <-> In x pushes).
  { intros x. rewrite (svc_push_all_perm _ _ _ E x). cbn [In]. tauto. }
  assert (Hwl : Forall wf_option l).
  { apply Forall_forall. intros x Hx. rewrite Forall_forall in Hw. apply Hw. apply Hperm. exact Hx. }
  split.
  - unfold rest_check. apply svcparams_check_frame; auto.
  - exists l. repeat split; auto; try apply Hperm. apply opt_iter_whole, Hwl.
Qed.

Theorem svc_build_duplicate o o' :
  fst o = fst o' -> svc_build [o; o'] = None.
Proof.
  intros E. unfold svc_build. cbn [svc_push_all svc_insert].
  destruct (N.ltb_spec (fst o') (fst o)) as [L|_]; [lia|].
  destruct (N.eqb_spec (fst o') (fst o)) as [_|N]; [reflexivity|congruence].
Qed.

Example svc_build_example :
  svc_build [(3, [1;187]); (1, [2;104;50]); (0, [0;1])]
    = Some [0;0;0;2;0;1; 0;1;0;3;2;104;50; 0;3;0;2;1;187] /\
  svc_build [(3, []); (1, []); (3, [1])] = None.
Proof. vm_compute. auto. Qed.

(* C05 ProofsP.v -- second half of the refinement of the in-buffer
   SvcParamsBuilder: the slot fix-up re-establishes the invariant, hence for
   EVERY push sequence (that fits a u32 offset) the frozen octets are those of
   the sorted association list. *)
From Coq Require Import NArith List Lia Permutation.
From DV Require Import Base.Outcome Base.Bytes C05.OptModel C05.SvcModel C05.SvcBuf C05.ProofsO.
Import ListNotations.
Local Open Scope N_scope.

Lemma svc_insert_split key data l1 : forall l2,
  (forall c, In c l1 -> c_key c < key) ->
  match l2 with c :: _ => key < c_key c | [] => True end ->
  svc_insert (key, data) (map kd (l1 ++ l2)) = Some (map kd l1 ++ (key, data) :: map kd l2).
Proof.
  induction l1 as [|c t IH]; intros l2 Hlt Hh; cbn [app map svc_insert].
  - destruct l2 as [|c t]; [reflexivity|]. cbn [map svc_insert kd fst].
    destruct (N.ltb_spec key (c_key c)); [reflexivity|lia].
  - cbn [kd fst]. assert (c_key c < key) by (apply Hlt; left; reflexivity).
    destruct (N.ltb_spec key (c_key c)); [lia|]. destruct (N.eqb_spec key (c_key c)); [lia|].
    rewrite IH; [reflexivity| |exact Hh]. intros c' Hc'. apply Hlt. right. exact Hc'.
Qed.

Lemma svc_insert_dup key data l1 : forall c t,
  (forall x, In x l1 -> c_key x < key) -> c_key c = key ->
  svc_insert (key, data) (map kd (l1 ++ c :: t)) = None.
Proof.
  induction l1 as [|x r IH]; intros c t Hlt Hk; cbn [app map svc_insert kd fst].
  - destruct (N.ltb_spec key (c_key c)); [lia|]. destruct (N.eqb_spec key (c_key c)); [reflexivity|lia].
  - assert (c_key x < key) by (apply Hlt; left; reflexivity).
    destruct (N.ltb_spec key (c_key x)); [lia|]. destruct (N.eqb_spec key (c_key x)); [lia|].
    rewrite IH; [reflexivity| |exact Hk]. intros y Hy. apply Hlt. right. exact Hy.
Qed.

Lemma asc_map f l : (forall c, c_key (f c) = c_key c) -> forall lo, asc lo l -> asc lo (map f l).
Proof.
  intros Hf. induction l as [|c r IH]; intros lo H; cbn [asc map] in *; [exact I|].
  destruct H as [H1 H2]. rewrite Hf. split; [exact H1|]. apply IH. exact H2.
Qed.

Lemma asc_ins nc l2 l1 : forall lo, lo <= c_key nc -> asc lo (l1 ++ l2) ->
  (forall c, In c l1 -> c_key c < c_key nc) ->
  match l2 with c :: _ => c_key nc < c_key c | [] => True end ->
  asc lo (l1 ++ nc :: l2).
Proof.
  induction l1 as [|c r IH]; intros lo Hlo Ha Hlt Hh; cbn [app asc] in *.
  - split; [exact Hlo|]. destruct l2 as [|c t]; [exact I|]. cbn [asc] in *. destruct Ha. split; [lia|assumption].
  - destruct Ha as [H1 H2]. split; [exact H1|]. assert (c_key c < c_key nc) by (apply Hlt; left; reflexivity).
    apply IH; [lia|exact H2|intros x Hx; apply Hlt; right; exact Hx|exact Hh].
Qed.

Definition Inv (b : sbuf) (l : list cell) : Prop :=
  laid 4 (b_cells b) (b_len b) /\ Permutation l (b_cells b) /\ asc 0 l /\
  chain (b_first b) l PMAX /\ b_len b < PMAX /\ l <> [].

Definition R (b : sbuf) (L : list edns_option) : Prop :=
  (b_cells b = [] /\ b_len b = 0 /\ L = []) \/ (exists l, Inv b l /\ L = map kd l).

Definition upd (pos v : N) (c : cell) : cell :=
  if slot c =? pos then mkCell (c_start c) (c_key c) (c_data c) v else c.

Lemma upd_start pos v c : c_start (upd pos v c) = c_start c /\ c_data (upd pos v c) = c_data c.
Proof. unfold upd. destruct (slot c =? pos); auto. Qed.
Lemma upd_key pos v c : c_key (upd pos v c) = c_key c.
Proof. unfold upd. destruct (slot c =? pos); auto. Qed.
Lemma upd_kd pos v c : kd (upd pos v c) = kd c.
Proof. unfold upd, kd. destruct (slot c =? pos); auto. Qed.
Lemma map_upd_id pos v l : (forall c, In c l -> slot c <> pos) -> map (upd pos v) l = l.
Proof.
  induction l as [|c r IH]; intros H; [reflexivity|]. cbn [map]. rewrite IH by (intros x Hx; apply H; right; exact Hx).
  unfold upd. destruct (N.eqb_spec (slot c) pos) as [E|_]; [|reflexivity]. exfalso. apply (H c); [left; reflexivity|exact E].
Qed.

Lemma write_slot_nz pos v b : pos <> 0 ->
  write_slot pos v b = mkBuf (b_first b) (map (upd pos v) (b_cells b)) (b_len b).
Proof. intros H. unfold write_slot. destruct (N.eqb_spec pos 0); [contradiction|reflexivity]. Qed.

Lemma push_raw_nonempty key data b : b_cells b <> [] ->
  push_raw (key, data) b =
  match scan key (b_cells b) None None with
  | None => None
  | Some (pre, next) =>
      let start := b_len b in
      let c := mkCell start key data (match next with Some (_, p) => p | None => PMAX end) in
      let pos := match pre with Some (_, p) => p | None => 0 end in
      Some (write_slot pos start (mkBuf (b_first b) (b_cells b ++ [c]) (start + 4 + len data + 4)))
  end.
Proof. intros H. unfold push_raw. destruct (b_cells b); [contradiction|reflexivity]. Qed.

Lemma freeze_inv b l : Inv b l -> freeze b = Ok (opt_frame (map kd l)).
Proof.
  intros [Hl [Hp [Ha [Hc [Hlen Hne]]]]]. unfold freeze.
  destruct (b_cells b) as [|c0 r] eqn:Ec.
  - apply Permutation_sym, Permutation_nil in Hp. contradiction.
  - rewrite <- Ec in *.
    rewrite (follow_chain (b_cells b) (laid_nodup_start _ _ _ Hl) l (b_first b)); [reflexivity|exact Hc| |].
    + intros c Hin. assert (Hic : In c (b_cells b)) by (eapply Permutation_in; eauto). split; [exact Hic|].
      destruct (laid_bounds _ _ _ Hl) as [_ Hall]. destruct (Hall _ Hic). unfold csize in *. lia.
    + rewrite (Permutation_length Hp). lia.
Qed.

(* chain of the successor part, whatever pointed to it before *)
Lemma chain_tail q l2 : chain q l2 PMAX ->
  chain (match l2 with c :: _ => c_start c | [] => PMAX end) l2 PMAX.
Proof. destruct l2 as [|c t]; cbn [chain]; [reflexivity|]. intros [_ H]. split; [reflexivity|exact H]. Qed.

Lemma push_step key data b L :
  R b L -> b_len b + 12 + len data < PMAX ->
  match svc_insert (key, data) L with
  | Some L' => exists b', push_raw (key, data) b = Some b' /\ R b' L' /\ b_len b' <= b_len b + 12 + len data
  | None => push_raw (key, data) b = None
  end.
Proof.
  intros [[Hc [Hz ->]]|[l [[Hl [Hp [Ha [Hch [Hlen Hne]]]]] ->]]] Hsz.
  - (* empty buffer *)
    cbn [svc_insert]. unfold push_raw. rewrite Hc.
    eexists. split; [reflexivity|]. split; [|cbn [b_len]; lia].
    right. exists [mkCell 4 key data PMAX]. split; [|reflexivity].
    unfold Inv. cbn [b_cells b_len b_first laid chain asc c_start c_next c_key c_data].
    unfold csize. cbn [c_data]. repeat split; try lia; try reflexivity; try discriminate.
  - destruct (asc_split key l 0 Ha) as [l1 [l2 [El [Hlt [Ha1 [Ha2 Hh]]]]]].
    assert (Hcells : b_cells b <> []).
    { intros E. rewrite E in Hp. apply Permutation_sym, Permutation_nil in Hp. contradiction. }
    rewrite (push_raw_nonempty key data b Hcells).
    assert (Hcase : (exists c2 t2, l2 = c2 :: t2 /\ c_key c2 = key) \/
                    match l2 with c :: _ => key < c_key c | [] => True end).
    { destruct l2 as [|c2 t2]; [right; exact I|]. destruct (N.eq_dec (c_key c2) key) as [E|E].
      - left. exists c2, t2. auto.
      - right. lia. }
    destruct Hcase as [[c2 [t2 [El2 Ek]]]|Hgt].
    + (* duplicate *)
      subst l2. rewrite El, (svc_insert_dup key data l1 c2 t2 Hlt Ek).
      rewrite (scan_duplicate key (b_cells b) l Hp Ha); [reflexivity|].
      exists c2. split; [rewrite El; apply in_or_app; right; left; reflexivity|exact Ek].
    + clear Hh. subst l.
      rewrite (svc_insert_split key data l1 l2 Hlt Hgt).
      rewrite (scan_neighbours key (b_cells b) l1 l2 Hp Ha Hlt Hgt).
      set (nx := match l2 with c :: _ => c_start c | [] => PMAX end).
      set (nc := mkCell (b_len b) key data nx).
      assert (Enc : mkCell (b_len b) key data
                 (match (match l2 with c :: _ => Some (c_key c, c_start c) | [] => None end) with
                  | Some (_, p) => p | None => PMAX end) = nc).
      { subst nc nx. destruct l2; reflexivity. }
      cbv zeta. rewrite Enc. clear Enc.
      assert (Hlaid' : laid 4 (b_cells b ++ [nc]) (b_len b + 4 + len data + 4)).
      { replace (b_len b + 4 + len data + 4) with (b_len b + csize nc) by (unfold csize; cbn [c_data nc]; lia).
        apply laid_app; [exact Hl|reflexivity]. }
      assert (Hperm' : Permutation (l1 ++ nc :: l2) (b_cells b ++ [nc])).
      { eapply Permutation_trans; [apply Permutation_sym, Permutation_middle|].
        eapply Permutation_trans; [apply perm_skip; exact Hp|]. apply Permutation_cons_append. }
      assert (Hasc' : asc 0 (l1 ++ nc :: l2)).
      { apply asc_ins; [cbn [c_key nc]; lia|exact Ha|exact Hlt|exact Hgt]. }
      destruct (rev l1) as [|pc t1] eqn:Er.
      * (* no predecessor: the first-slot is rewritten *)
        assert (El1 : l1 = []) by (apply (f_equal (@rev _)) in Er; rewrite rev_involutive in Er; exact Er).
        subst l1. cbn [app] in *. unfold write_slot. cbn [N.eqb b_cells b_first b_len].
        eexists. split; [reflexivity|]. split; [|cbn [b_len]; lia].
        right. exists (nc :: l2). split; [|reflexivity].
        unfold Inv. cbn [b_cells b_len b_first].
        split; [exact Hlaid'|]. split; [exact Hperm'|]. split; [exact Hasc'|].
        split; [|split; [lia|discriminate]].
        cbn [chain]. split; [reflexivity|]. cbn [c_next nc]. apply (chain_tail _ _ Hch).
      * (* predecessor pc: its slot gets the start of the new cell *)
        assert (El1 : l1 = rev t1 ++ [pc]).
        { apply (f_equal (@rev _)) in Er. rewrite rev_involutive in Er. exact Er. }
        set (l1' := rev t1) in *. subst l1. rewrite <- app_assoc in *. cbn [app] in *.
        assert (Hpc_in : In pc (b_cells b)).
        { eapply Permutation_in; [exact Hp|]. apply in_or_app. right. left. reflexivity. }
        destruct (laid_bounds _ _ _ Hl) as [_ Hall]. destruct (Hall _ Hpc_in) as [Hpc1 Hpc2].
        assert (Hpos : slot pc <> 0) by (unfold slot; lia).
        rewrite (write_slot_nz _ _ _ Hpos). cbn [b_cells b_first b_len].
        set (U := upd (slot pc) (b_len b)).
        (* U changes pc only *)
        assert (Hnk : NoDup (map c_key (l1' ++ pc :: l2))) by (eapply asc_nodup; eauto).
        assert (Hslot : forall c, In c (l1' ++ l2) -> slot c <> slot pc).
        { intros c Hin E.
          assert (Hc_in : In c (b_cells b)).
          { eapply Permutation_in; [exact Hp|]. apply in_app_or in Hin as [H|H]; apply in_or_app; [left|right; right]; exact H. }
          assert (c = pc) by (eapply (nodup_map_inj slot); [eapply laid_nodup_slot; exact Hl| | |]; eauto).
          subst c. rewrite map_app in Hnk. cbn [map] in Hnk. apply NoDup_remove_2 in Hnk. apply Hnk.
          rewrite <- map_app. apply in_map. exact Hin. }
        assert (Hnc : slot nc <> slot pc) by (unfold slot, csize in *; cbn [c_start c_data nc]; lia).
        assert (EU : map U (l1' ++ pc :: nc :: l2) =
                     l1' ++ mkCell (c_start pc) (c_key pc) (c_data pc) (b_len b) :: nc :: l2).
        { rewrite map_app. cbn [map]. f_equal.
          - apply map_upd_id. intros c Hc. apply Hslot. apply in_or_app. left. exact Hc.
          - f_equal; [unfold U, upd; rewrite N.eqb_refl; reflexivity|]. f_equal.
            + unfold U, upd. destruct (N.eqb_spec (slot nc) (slot pc)); [contradiction|reflexivity].
            + apply map_upd_id. intros c Hc. apply Hslot. apply in_or_app. right. exact Hc. }
        eexists. split; [reflexivity|]. split; [|cbn [b_len]; lia].
        right. exists (map U (l1' ++ pc :: nc :: l2)). split.
        -- unfold Inv. cbn [b_cells b_len b_first]. split; [|split; [|split; [|split; [|split]]]].
           ++ apply laid_map; [intros c; apply upd_start|exact Hlaid'].
           ++ apply Permutation_map. exact Hperm'.
           ++ apply asc_map; [intros c; apply upd_key|exact Hasc'].
           ++ rewrite EU. apply chain_app in Hch as [m [Hm1 Hm2]]. apply chain_app. exists m. split; [exact Hm1|].
              cbn [chain] in *. destruct Hm2 as [Hm Hrest]. cbn [c_start c_next]. split; [exact Hm|].
              split; [reflexivity|]. cbn [c_next nc]. apply (chain_tail _ _ Hrest).
           ++ lia.
           ++ rewrite EU. destruct l1'; discriminate.
        -- assert (Ekd : map kd (map U (l1' ++ pc :: nc :: l2)) = map kd (l1' ++ pc :: nc :: l2))
             by (rewrite map_map; apply map_ext; intros c; unfold U; apply upd_kd).
           rewrite Ekd. rewrite !map_app. cbn [map app]. rewrite <- ?app_assoc. reflexivity.
Qed.

Definition psize (pushes : list edns_option) : N :=
  fold_right (fun o a => 12 + len (snd o) + a) 0 pushes.

Lemma push_all_R pushes : forall b L,
  R b L -> b_len b + psize pushes < PMAX ->
  match svc_push_all L pushes with
  | Some L' => exists b', push_all b pushes = Some b' /\ R b' L'
  | None => push_all b pushes = None
  end.
Proof.
  induction pushes as [|[key data] p IH]; intros b L HR Hsz; cbn [svc_push_all push_all].
  - exists b. auto.
  - cbn [psize fold_right snd] in Hsz. fold (psize p) in Hsz.
    pose proof (push_step key data b L HR) as Hstep.
    destruct (svc_insert (key, data) L) as [L1|].
    + destruct Hstep as [b1 [Hp1 [HR1 Hlen1]]]; [lia|]. rewrite Hp1. apply IH; [exact HR1|lia].
    + rewrite Hstep by lia. reflexivity.
Qed.

Theorem inbuf_refines_list pushes :
  psize pushes < PMAX ->
  match svc_build pushes with
  | Some b => inbuf_build pushes = Some (Ok b)
  | None => inbuf_build pushes = None
  end.
Proof.
  intros Hsz. unfold svc_build, inbuf_build.
  assert (HR0 : R empty_buf []) by (left; auto).
  pose proof (push_all_R pushes empty_buf [] HR0) as H. cbn [b_len empty_buf] in H.
  destruct (svc_push_all [] pushes) as [L|].
  - destruct H as [b' [Hp HR]]; [lia|]. rewrite Hp. f_equal.
    destruct HR as [[Hc [_ ->]]|[l [Hinv ->]]].
    + unfold freeze. rewrite Hc. reflexivity.
    + apply freeze_inv. exact Hinv.
  - rewrite H by lia. reflexivity.
Qed.

Example inbuf_refines_list_example :
  psize [(3, [1;187]); (1, [2;104;50]); (0, [0;1])] < PMAX /\
  inbuf_build [(3, [1;187]); (1, [2;104;50]); (0, [0;1])] = Some (Ok [0;0;0;2;0;1; 0;1;0;3;2;104;50; 0;3;0;2;1;187]) /\
  svc_build [(3, []); (1, []); (3, [1])] = None /\ inbuf_build [(3, []); (1, []); (3, [1])] = None.
Proof. vm_compute. auto. Qed.

(* C05 ProofsK.v -- the advertised length on compressing targets: whenever rdlen(compress)
   answers a number, exactly that many octets are written, whatever the compressor writes for
   the NameC fields (cmp : name -> bytes is arbitrary here; C02 models the three compressors). *)
From Coq Require Import NArith List Bool.
From DV Require Import Base.Outcome Base.Bytes Base.Names C05.Schema C05.Model C05.ProofsB.
Import ListNotations.
Local Open Scope N_scope.

Definition compose_field_on (cmp : option (name -> bytes)) (f : field) (x : fval) : bytes :=
  match cmp, f, x with
  | Some c, FName true _, VName n => c n
  | _, _, _ => compose_field false f x
  end.
Fixpoint compose_fields_on (cmp : option (name -> bytes)) (s : list field) (v : value) : bytes :=
  match s, v with
  | f :: s', x :: v' => compose_field_on cmp f x ++ compose_fields_on cmp s' v'
  | _, _ => []
  end.
(* compose_rdata on a target: cmp = None for a target that cannot compress *)
Definition compose_on (cmp : option (name -> bytes)) (s : schema) (v : value) : bytes :=
  compose_fields_on cmp (s_fields s) v.

Lemma compose_on_none s v : compose_on None s v = compose s v.
Proof.
  unfold compose_on, compose. generalize (s_fields s) as l. intros l. revert v.
  induction l as [|f l IH]; intros [|x v]; cbn [compose_fields_on compose_fields]; try reflexivity.
  rewrite IH. reflexivity.
Qed.

Lemma compose_on_incompressible cmp l : forall v,
  existsb is_compressible l = false -> compose_fields_on cmp l v = compose_fields false l v.
Proof.
  induction l as [|f l IH]; intros [|x v] H; cbn [compose_fields_on compose_fields existsb] in *; try reflexivity.
  apply orb_false_iff in H as [Hf Hl]. rewrite (IH _ Hl). f_equal.
  destruct cmp as [c|]; [|destruct f; reflexivity].
  destruct f as [| |cp lw| | | | |]; try reflexivity. destruct cp; [discriminate|reflexivity].
Qed.

Theorem rdlen_some_is_written s v compress n :
  wf_value s v = true -> rdlen s compress v = Ok (Some n) ->
  forall cmp, (compress = false -> cmp = None) -> len (compose_on cmp s v) = n.
Proof.
  intros Hv Hr cmp Hc. pose proof (rdlen_exact s v Hv) as [H0 H1].
  destruct compress.
  - rewrite H1 in Hr. destruct (has_compressible s) eqn:Ehc; [discriminate|]. injection Hr as <-.
    unfold compose_on, compose. unfold has_compressible in Ehc.
    rewrite (compose_on_incompressible cmp _ v Ehc). reflexivity.
  - rewrite (Hc eq_refl), compose_on_none. rewrite H0 in Hr. injection Hr as <-. reflexivity.
Qed.

(* for every record type of the table: a number from rdlen(true) means the type
   never compresses, and then every target receives the plain octets *)
Theorem table_rdlen_compress t s v n cmp :
  schema_of t = Some s -> wf_value s v = true -> rdlen s true v = Ok (Some n) ->
  compose_on cmp s v = compose s v /\ len (compose s v) = n /\ has_compressible s = false.
Proof.
  intros _ Hv Hr. pose proof (rdlen_exact s v Hv) as [_ H1]. rewrite H1 in Hr.
  destruct (has_compressible s) eqn:Ehc; [discriminate|]. injection Hr as <-.
  repeat split. unfold compose_on, compose. apply compose_on_incompressible. exact Ehc.
Qed.

Example rdlen_compress_example :
  rdlen (plain [U16; NameC true]) true [VNum 1; VName [[97]]] = Ok None /\
  rdlen (plain [U16; U16; U16; NameU true]) true [VNum 1; VNum 2; VNum 3; VName [[97]]] = Ok (Some 9) /\
  compose_on (Some (fun _ => [192; 12])) (plain [U16; NameC true]) [VNum 1; VName [[97]]] = [0; 1; 192; 12] /\
  compose_on (Some (fun _ => [192; 12])) (plain [U16; U16; U16; NameU true]) [VNum 1; VNum 2; VNum 3; VName [[97]]]
    = [0;1;0;2;0;3;1;97;0].
Proof. vm_compute. auto. Qed.
